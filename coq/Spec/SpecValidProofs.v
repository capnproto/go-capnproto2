(* What the verdict of SpecValid.strict_valid_message means. *)
From CV Require Import Core.Arith Core.Reader Core.ReadOps Spec.Spec Spec.SpecProofs Spec.SpecValid.
From Coq Require Import ZifyBool ZifyNat ZifyN Lia.
Ltac Zify.zify_post_hook ::= Z.div_mod_to_equations.
Open Scope Z_scope.

(* pointer words reachable from a pointer word: follow strict resolution into the target's slots *)
Definition child (m : list (list Z)) (x y : Z * Z) : Prop :=
  exists t, spec_resolve true m (fst x) (snd x) = Some t /\ In y (ptr_slots t).

Inductive reach (m : list (list Z)) : Z * Z -> Z * Z -> Prop :=
| reach_refl : forall x, reach m x x
| reach_step : forall x y z, child m x y -> reach m y z -> reach m x z.

Lemma rjoin_ok_l : forall a b l, rjoin a b = ROk l -> exists x, a = ROk x.
Proof. intros a b l H. destruct a, b; cbn in H; try discriminate. eauto. Qed.

Lemma fold_rjoin_ok : forall (f : Z * Z -> rres) slots acc l,
  fold_left (fun a sw => rjoin a (f sw)) slots acc = ROk l ->
  (exists x, acc = ROk x) /\ forall sw, In sw slots -> exists x, f sw = ROk x.
Proof.
  intros f slots. induction slots as [|s slots IH]; intros acc l H; cbn [fold_left] in H.
  - split; [eauto|]. intros sw [].
  - apply IH in H. destruct H as [[x Hx] Hall].
    split.
    + eapply rjoin_ok_l; eauto.
    + intros sw [->|Hin]; [|apply Hall; exact Hin].
      destruct acc, (f sw); cbn in Hx; try discriminate; eauto.
Qed.

(* a completed traversal: every pointer word reachable from (sid, wa) resolves strictly *)
Lemma regions_sound : forall fuel m sid wa l,
  regions fuel m sid wa = ROk l ->
  forall z, reach m (sid, wa) z -> exists t, spec_resolve true m (fst z) (snd z) = Some t.
Proof.
  intros fuel m sid wa l H z R. remember (sid, wa) as x eqn:Ex. revert fuel sid wa l H Ex.
  induction R as [x|x y z C R IH]; intros fuel sid wa l H ->; cbn [fst snd] in *.
  - destruct fuel; cbn [regions] in H; destruct (spec_resolve true m sid wa) eqn:SR; eauto; discriminate.
  - (* x has a child y: the traversal had fuel left and went into y *)
    destruct C as (t & SR & Hin). cbn [fst snd] in SR.
    destruct fuel as [|f]; cbn [regions] in H; rewrite SR in H;
      (destruct (ptr_slots t) as [|s0 slots] eqn:PS; [destruct Hin|]); [discriminate|].
    apply fold_rjoin_ok in H. destruct H as [_ Hall].
    destruct (Hall y Hin) as [ly Hy]. destruct y as [ys yw]. eapply IH; eauto.
Qed.

(* strict resolution implies lenient resolution of the same target (strict only adds the
   composite tag / word count agreement) *)
Lemma spec_obj_strict_lenient : forall m sid a w t,
  spec_obj true m sid a w = Some t -> spec_obj false m sid a w = Some t.
Proof.
  intros m sid a w t H. unfold spec_obj in *.
  destruct (seg_at m sid) as [s|]; [|discriminate].
  destruct (ptr_kind w =? 0); [exact H|].
  destruct (ls_esz w =? 7); [|exact H].
  destruct (in_words s a (1 + ls_count w)); [|discriminate].
  destruct (ptr_kind (word_at s a) =? 0); [|discriminate].
  cbn [negb orb] in *. rewrite Bool.andb_true_r.
  destruct (in_words s (a + 1) _) eqn:B; cbn [andb] in H; [|discriminate].
  destruct (_ =? ls_count w); [exact H|discriminate].
Qed.

Lemma spec_near_strict_lenient : forall m sid wa w t,
  spec_near true m sid wa w = Some t -> spec_near false m sid wa w = Some t.
Proof.
  intros m sid wa w t H. unfold spec_near in *.
  destruct (w =? 0); [exact H|]. destruct (ptr_kind w =? 3); [exact H|].
  destruct (ptr_kind w =? 2); [exact H|]. apply spec_obj_strict_lenient. exact H.
Qed.

Lemma spec_resolve_strict_lenient : forall m sid wa t,
  spec_resolve true m sid wa = Some t -> spec_resolve false m sid wa = Some t.
Proof.
  intros m sid wa t H. unfold spec_resolve in *.
  destruct (seg_at m sid) as [s|]; [|discriminate].
  destruct (negb (in_words s wa 1)); [discriminate|].
  destruct (ptr_kind (word_at s wa) =? 2).
  - destruct (seg_at m (far_seg (word_at s wa))) as [ps|]; [|discriminate].
    destruct (far_two (word_at s wa) =? 0).
    + destruct (in_words ps _ 1); [|discriminate]. apply spec_near_strict_lenient. exact H.
    + destruct (in_words ps _ 2); [|discriminate].
      destruct (_ && _); [|discriminate]. apply spec_obj_strict_lenient. exact H.
  - apply spec_near_strict_lenient. exact H.
Qed.

(* consistent list sizes: a strictly resolved composite list's elements account for exactly
   the words its list pointer (or double-far tag) announces *)
Lemma spec_obj_strict_composite : forall m sid a w sg a' n dw pc,
  spec_obj true m sid a w = Some (TgtList sg a' 7 n dw pc) -> ptr_kind w <> 0 ->
  n * (dw + pc) = ls_count w /\ a' = a + 1.
Proof.
  intros m sid a w sg a' n dw pc H K. unfold spec_obj in H.
  destruct (seg_at m sid) as [s|]; [|discriminate].
  destruct (ptr_kind w =? 0) eqn:K0; [lia|].
  destruct (ls_esz w =? 7) eqn:E7.
  - destruct (in_words s a (1 + ls_count w)); [|discriminate].
    destruct (ptr_kind (word_at s a) =? 0); [|discriminate].
    destruct (in_words s (a + 1) _); cbn [andb negb orb] in H; [|discriminate].
    destruct (_ =? ls_count w) eqn:Q; [|discriminate]. inversion H; subst. split; lia.
  - destruct (in_bytes s a _); [|discriminate]. inversion H; subst. lia.
Qed.

(* disjointness is what the boolean check says *)
Lemma pairwise_disjoint_spec : forall l, pairwise_disjoint l = true ->
  forall i j, (i < j < length l)%nat -> overlap (nth i l (0, 0, 0)) (nth j l (0, 0, 0)) = false.
Proof.
  induction l as [|r rest IH]; intros H i j Hij; [cbn in Hij; lia|].
  cbn [pairwise_disjoint] in H. apply andb_prop in H. destruct H as [H1 H2].
  destruct i as [|i].
  - destruct j as [|j]; [lia|]. cbn [nth].
    rewrite forallb_forall in H1. specialize (H1 (nth j rest (0, 0, 0))).
    assert (In (nth j rest (0, 0, 0)) rest) by (apply nth_In; cbn in Hij; lia).
    apply H1 in H. destruct (overlap r _); [discriminate|reflexivity].
  - destruct j as [|j]; [lia|]. cbn [nth]. apply IH; [exact H2|cbn in Hij; lia].
Qed.

(* THE soundness statement: when strict_valid_message answers VOk,
   - every segment is a whole number of words,
   - every pointer word reachable from the root resolves in strict mode (hence: landing pads
     well-formed and inside their segments, composite tags consistent with the announced word
     count), to a target that is well-formed and lies inside its segment, and the lenient
     decoder (the one related to the Go reader by C03) resolves it to the same target,
   - the traversal was complete (fuel did not run out), and
   - the root pointer word, the landing pads and the objects met are pairwise disjoint. *)
Theorem strict_valid_sound : forall fuel m,
  strict_valid_message fuel m = VOk ->
  (forall s, In s m -> blen s mod 8 = 0) /\
  (forall z, reach m (0, 0) z ->
     exists t, spec_resolve true m (fst z) (snd z) = Some t /\ spec_resolve false m (fst z) (snd z) = Some t /\
               tgt_wf t /\ tgt_inside m t) /\
  exists l, regions fuel m 0 0 = ROk l /\
            let all : list region := (0, 0, 1) :: l in
            forall i j, (i < j < length all)%nat ->
                        overlap (nth i all (0, 0, 0)) (nth j all (0, 0, 0)) = false.
Proof.
  intros fuel m H. unfold strict_valid_message in H.
  destruct (forallb (fun s => blen s mod 8 =? 0) m) eqn:A; cbn [negb] in H; [|discriminate].
  destruct (regions fuel m 0 0) as [| |l] eqn:R; try discriminate.
  destruct (pairwise_disjoint ((0, 0, 1) :: l)) eqn:D; [|discriminate].
  split; [|split].
  - intros s Hs. rewrite forallb_forall in A. specialize (A s Hs). lia.
  - intros z Hz. destruct (regions_sound fuel m 0 0 l R z Hz) as [t SR].
    exists t. split; [exact SR|]. split; [apply spec_resolve_strict_lenient; exact SR|].
    apply (spec_resolve_facts true m (fst z) (snd z) t SR).
  - exists l. split; [reflexivity|]. cbv zeta. apply pairwise_disjoint_spec. exact D.
Qed.

(* the slots followed by [reach] are the pointer words the tree decoder visits *)
Lemma slots_are_decoder_slots : forall seg a dw pc i j,
  sv_ptr_word (sv_of_struct seg a dw pc) i = a + dw + i /\
  sv_ptr_word (mkSV seg (8 * (a + i * (dw + pc))) (8 * dw) pc) j = a + i * (dw + pc) + dw + j.
Proof. intros. unfold sv_ptr_word, sv_of_struct. cbn [sv_boff sv_db]. split; lia. Qed.

(* non-vacuity: the three-segment example message of SpecExamples is strictly valid *)
From CV Require Import Spec.SpecExamples.

Example ex_msg_strictly_valid : strict_valid_message 8 ex_msg = VOk.
Proof. vm_compute. reflexivity. Qed.

(* the double-far landing pad of ex_msg made to point at the first element instead of the tag
   word (what the seeded change C05-1 produces): not valid *)
Definition ex_msg_bad_pad : list (list Z) :=
  [nth 0 ex_msg []; nth 1 ex_msg []; [18; 0; 0; 0; 0; 0; 0; 0; 1; 0; 0; 0; 39; 0; 0; 0]].
Example ex_bad_pad_rejected : strict_valid_message 8 ex_msg_bad_pad = VInvalid.
Proof. vm_compute. reflexivity. Qed.

(* two pointers to the same object: resolves, but the objects are not disjoint *)
Definition ex_msg_alias : list (list Z) :=
  [[0; 0; 0; 0; 0; 0; 2; 0;   4; 0; 0; 0; 1; 0; 0; 0;   0; 0; 0; 0; 1; 0; 0; 0;   7; 0; 0; 0; 0; 0; 0; 0]].
Example ex_alias_rejected : strict_valid_message 8 ex_msg_alias = VOverlap.
Proof. vm_compute. reflexivity. Qed.
