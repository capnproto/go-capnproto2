(* Proofs for property C03: the L0 extractors of Core/Arith.v are the specification's
   pointer fields; readPtr of Core/Reader.v refines spec_resolve of Spec/Spec.v (soundness on
   any input, completeness when limits suffice); the accessors return the specification's
   values.  (That the walker computes spec_decode is Spec/WalkProofs.v.) *)
From CV Require Import Core.Arith Core.ArithFacts Core.Reader Core.ReadOps Spec.Spec.
From CV Require Core.ReaderFacts.
From Coq Require Import ZifyBool ZifyNat ZifyN Lia.
Ltac Zify.zify_post_hook ::= Z.div_mod_to_equations.
Open Scope Z_scope.

Definition word64 (w : Z) : Prop := 0 <= w < 18446744073709551616.

(* The fields of Spec.v are the bit fields of ArithFacts, [bits w lo n], with the powers of two
   written out; where the two statements are convertible the lemma of ArithFacts is the proof. *)
Lemma pointerType_spec : forall w,
  pointerType w = if ptr_kind w =? 2 then 2 + 4 * far_two w else ptr_kind w.
Proof. intros w. unfold pointerType, ptr_kind, far_two. destruct (w mod 4 =? 2) eqn:E; lia. Qed.

Lemma ptr_offset_spec : forall w, ptr_offset w = off30 w.
Proof. exact ArithFacts.ptr_offset_spec. Qed.

Lemma structSize_spec : forall w, structSize w = mkOS (8 * st_dwords w) (st_pcount w).
Proof. exact ArithFacts.structSize_spec. Qed.

Lemma listType_spec : forall w, listType w = ls_esz w.
Proof. reflexivity. Qed.

Lemma numListElements_spec : forall w, word64 w -> numListElements w = ls_count w.
Proof. exact ArithFacts.numListElements_spec. Qed.

Lemma farAddress_spec : forall w, farAddress w = 8 * far_off w.
Proof. exact ArithFacts.farAddress_spec. Qed.

Lemma farSegment_spec : forall w, farSegment w = far_seg w.
Proof. reflexivity. Qed.

Lemma capabilityIndex_spec : forall w, capabilityIndex w = cap_index w.
Proof. reflexivity. Qed.

Lemma otherPointerType_spec : forall w, otherPointerType w = cap_zero w.
Proof. exact ArithFacts.otherPointerType_spec. Qed.

(* the near pointer synthesised from a double-far landing pad: the tag's kind and sizes,
   with the far pointer's word offset as offset (the tag's own offset field is dropped) *)
Lemma landingPadNearPointer_spec : forall far tag, far mod 8 = 2 \/ tag mod 4 < 2 ->
  landingPadNearPointer far tag =
  (tag / 4294967296) * 4294967296 + 4 * far_off far + 2 * far_two far + tag mod 4.
Proof.
  intros far tag Hd. rewrite landingPadNearPointer_sum by exact Hd.
  unfold far_off, far_two, u32. lia.
Qed.

Theorem ptr_fields_spec : forall w, word64 w ->
  pointerType w = (if ptr_kind w =? 2 then 2 + 4 * far_two w else ptr_kind w) /\
  ptr_offset w = off30 w /\
  structSize w = mkOS (8 * st_dwords w) (st_pcount w) /\
  listType w = ls_esz w /\
  numListElements w = ls_count w /\
  farAddress w = 8 * far_off w /\
  farSegment w = far_seg w /\
  capabilityIndex w = cap_index w /\
  otherPointerType w = cap_zero w /\
  (forall tag, word64 tag -> w mod 8 = 2 \/ tag mod 4 < 2 ->
     landingPadNearPointer w tag =
     (tag / 4294967296) * 4294967296 + 4 * far_off w + 2 * far_two w + tag mod 4).
Proof.
  intros w H.
  repeat split; auto using pointerType_spec, ptr_offset_spec, structSize_spec, numListElements_spec,
    farAddress_spec, otherPointerType_spec, landingPadNearPointer_spec.
Qed.

Lemma ptr_kind_range : forall w, 0 <= ptr_kind w < 4.
Proof. intros; unfold ptr_kind; lia. Qed.
Lemma off30_range : forall w, -536870912 <= off30 w < 536870912.
Proof. intros; unfold off30, signed30. destruct (_ <? _) eqn:E; lia. Qed.
Lemma st_dwords_range : forall w, 0 <= st_dwords w < 65536.
Proof. intros; unfold st_dwords; lia. Qed.
Lemma st_pcount_range : forall w, 0 <= st_pcount w < 65536.
Proof. intros; unfold st_pcount; lia. Qed.
Lemma ls_esz_range : forall w, 0 <= ls_esz w < 8.
Proof. intros; unfold ls_esz; lia. Qed.
Lemma ls_count_range : forall w, 0 <= ls_count w < 536870912.
Proof. intros; unfold ls_count; lia. Qed.
Lemma tag_count_range : forall w, 0 <= tag_count w < 1073741824.
Proof. intros; unfold tag_count; lia. Qed.
Lemma far_off_range : forall w, 0 <= far_off w < 536870912.
Proof. intros; unfold far_off; lia. Qed.
Lemma far_seg_range : forall w, 0 <= far_seg w < 4294967296.
Proof. intros; unfold far_seg; lia. Qed.
Lemma far_two_range : forall w, 0 <= far_two w < 2.
Proof. intros; unfold far_two; lia. Qed.
Lemma off30_tag_count : forall w, off30 w = signed30 (tag_count w).
Proof. reflexivity. Qed.

(* the fields of the near pointer synthesised from a double-far landing pad are the tag's,
   with the pad's offset: ArithFacts' round trip, read in the specification's field names *)
Lemma landing_fields : forall far tag, word64 far -> word64 tag ->
  ptr_kind far = 2 -> far_two far = 0 -> ptr_kind tag < 2 ->
  let v := landingPadNearPointer far tag in
  word64 v /\ ptr_kind v = ptr_kind tag /\ off30 v = far_off far /\
  st_dwords v = st_dwords tag /\ st_pcount v = st_pcount tag /\
  ls_esz v = ls_esz tag /\ ls_count v = ls_count tag.
Proof.
  intros far tag Hf Ht Hk H2 Hkt v.
  assert (Hfp : pointerType far = farPointer) by (rewrite pointerType_spec, Hk, H2; reflexivity).
  destruct (landingPadNearPointer_roundtrip far tag Hf Ht Hfp Hkt) as (Hv & Ty & Of & Sz & Lt & Ln & _).
  fold v in Hv, Ty, Of, Sz, Lt, Ln.
  rewrite !pointerType_spec in Ty. rewrite ptr_offset_spec, farAddress_spec in Of.
  rewrite !structSize_spec in Sz. rewrite !numListElements_spec in Ln by assumption.
  pose proof (f_equal DataSize Sz) as Sd. pose proof (f_equal PointerCount Sz) as Sp.
  cbn [DataSize PointerCount] in Sd, Sp. pose proof (far_two_range v).
  split; [exact Hv|]. repeat split; try assumption; try lia.
  revert Ty. destruct (ptr_kind v =? 2) eqn:E, (ptr_kind tag =? 2) eqn:E'; lia.
Qed.

Definition seg_ok (s : list Z) : Prop := Forall (fun b => 0 <= b < 256) s.
Definition bytes_ok (m : list (list Z)) : Prop := Forall seg_ok m.

(* for concrete messages *)
Definition bytes_okb (m : list (list Z)) : bool := forallb (forallb (fun b => (0 <=? b) && (b <? 256))) m.

Lemma bytes_okb_sound : forall m, bytes_okb m = true -> bytes_ok m.
Proof.
  intros m H. unfold bytes_okb in H. rewrite forallb_forall in H.
  apply Forall_forall. intros s Hs. apply Forall_forall. intros b Hb.
  specialize (H s Hs). rewrite forallb_forall in H. specialize (H b Hb). lia.
Qed.

Lemma byte_at_range : forall s i, seg_ok s -> 0 <= byte_at s i < 256.
Proof.
  intros s i H. unfold byte_at. destruct (i <? 0); [lia|].
  destruct (Nat.lt_ge_cases (Z.to_nat i) (length s)) as [L|L].
  - unfold seg_ok in H. rewrite Forall_forall in H. apply H. apply nth_In. exact L.
  - rewrite nth_overflow by exact L. lia.
Qed.

Lemma le_num_range : forall s n a, seg_ok s -> 0 <= le_num s a n < 256 ^ Z.of_nat n.
Proof.
  intros s n. induction n as [|n IH]; intros a H.
  - cbn. lia.
  - cbn [le_num]. specialize (IH (a + 1) H). pose proof (byte_at_range s a H).
    rewrite Nat2Z.inj_succ, Z.pow_succ_r by lia. lia.
Qed.

Lemma word_at_range : forall s w, seg_ok s -> word64 (word_at s w).
Proof.
  intros s w H. unfold word_at, word64. pose proof (le_num_range s 8 (8 * w) H) as R.
  change (256 ^ Z.of_nat 8) with 18446744073709551616 in R. exact R.
Qed.

Lemma skipn_nth_cons : forall (s : list Z) k, (k < length s)%nat -> skipn k s = nth k s 0 :: skipn (S k) s.
Proof.
  induction s as [|x s IH]; intros k H; [cbn in H; lia|].
  destruct k; [reflexivity|]. cbn [skipn nth]. apply IH. cbn in H. lia.
Qed.

(* le_decode of a slice is le_num *)
Lemma le_decode_firstn_skipn : forall n s a, 0 <= a ->
  le_decode (firstn n (skipn (Z.to_nat a) s)) = le_num s a n.
Proof.
  induction n as [|n IH]; intros s a Ha; [reflexivity|].
  cbn [le_num]. rewrite <- (IH s (a + 1)) by lia. unfold byte_at.
  destruct (a <? 0) eqn:E; [lia|]. replace (Z.to_nat (a + 1)) with (S (Z.to_nat a)) by lia.
  destruct (Nat.lt_ge_cases (Z.to_nat a) (length s)) as [L|L].
  - rewrite (skipn_nth_cons s _ L). reflexivity.
  - rewrite nth_overflow, !skipn_all2 by lia. destruct n; reflexivity.
Qed.

Lemma zlen_blen : forall s : list Z, zlen s = blen s.
Proof. reflexivity. Qed.

Lemma lookup_seg_at : forall m id,
  lookup_segment m id = match seg_at m id with Some s => Ok s | None => Err end.
Proof.
  intros m id. unfold lookup_segment, seg_at, zlen. unfold segs, seg in *.
  destruct (id <? 0) eqn:E1; destruct (Z.of_nat (length m) <=? id) eqn:E2;
  destruct (0 <=? id) eqn:E3; destruct (id <? Z.of_nat (length m)) eqn:E4; cbn; try reflexivity; lia.
Qed.

(* a successful n-byte read: the address range is inside the segment, no wrap-around, and
   the value is the little-endian number the specification reads there *)
Lemma readUintN_inv : forall s a n v, 0 <= n < 4294967296 ->
  readUintN s a n = Ok v -> 0 <= a /\ a + n <= blen s /\ a + n < 4294967296 /\ v = le_num s a (Z.to_nat n).
Proof.
  intros s a n v Hn H. unfold readUintN, slice, addSizeUnchecked, u32 in H.
  destruct ((0 <=? a) && (a <=? (a + n) mod 4294967296) && ((a + n) mod 4294967296 <=? zlen s)) eqn:E;
    cbn in H; [|discriminate].
  unfold zlen in E. unfold blen.
  assert (He : (a + n) mod 4294967296 = a + n) by lia.
  rewrite He in *. inversion H; subst v.
  replace (a + n - a) with n by lia.
  rewrite le_decode_firstn_skipn by lia. repeat split; lia.
Qed.

Lemma readUintN_ok : forall s a n, 0 <= a -> 0 <= n -> a + n <= blen s -> a + n < 4294967296 ->
  readUintN s a n = Ok (le_num s a (Z.to_nat n)).
Proof.
  intros s a n Ha Hn Hb Hs. unfold readUintN, slice, addSizeUnchecked, u32. unfold blen in Hb.
  assert (He : (a + n) mod 4294967296 = a + n) by lia. rewrite He.
  destruct ((0 <=? a) && (a <=? a + n) && (a + n <=? zlen s)) eqn:E; [|unfold zlen in E; lia].
  cbn. replace (a + n - a) with n by lia. rewrite le_decode_firstn_skipn by lia. reflexivity.
Qed.

Lemma readRawPointer_inv : forall s wa v,
  readRawPointer s (8 * wa) = Ok v -> 0 <= wa /\ 8 * wa + 8 <= blen s /\ 8 * wa + 8 < 4294967296 /\ v = word_at s wa.
Proof.
  intros s wa v H. unfold readRawPointer in H. apply readUintN_inv in H; [|lia].
  unfold word_at. change (Z.to_nat 8) with 8%nat in H. lia.
Qed.

Lemma readRawPointer_ok : forall s wa, 0 <= wa -> 8 * wa + 8 <= blen s -> 8 * wa + 8 < 4294967296 ->
  readRawPointer s (8 * wa) = Ok (word_at s wa).
Proof.
  intros s wa H1 H2 H3. unfold readRawPointer. rewrite readUintN_ok by lia. reflexivity.
Qed.

Lemma regionInBounds_words : forall s a k sz, 0 <= a -> sz = 8 * k ->
  regionInBounds s (8 * a) sz = in_words s a k && (8 * (a + k) <=? maxSegmentSize).
Proof.
  intros s a k sz Ha ->. unfold regionInBounds, addSize, in_words, zlen, blen. cbv zeta.
  destruct (_ >? _) eqn:E; lia.
Qed.

(* [Ok]/[Some] related by R; both reject; the code may reject what the specification accepts
   only outside [good] (segments beyond the 32-bit address space, counts beyond 2^29);
   a panic never agrees. *)
Definition agrees {A B} (good : B -> Prop) (R : A -> B -> Prop) (r : res A) (o : option B) : Prop :=
  match r, o with
  | Ok a, Some b => R a b
  | Err, None => True
  | Err, Some b => ~ good b
  | _, _ => False
  end.

Definition seg_small (s : list Z) : Prop := blen s <= maxSegmentSize.

(* A check of the code may fail where the specification's guard [S] holds only if the segment
   reaches beyond the 32-bit address space. *)
Lemma agrees_gate : forall {A} (dst : list Z) (L : target -> Prop) (R : A -> target -> Prop) (S : bool) o,
  (S = true -> blen dst > 4294967288) ->
  agrees (fun t => seg_small dst /\ L t) R Err (if S then o else None).
Proof.
  intros A dst L R S o H. destruct S; [|exact I]. specialize (H eq_refl).
  destruct o; [|exact I]. unfold agrees, seg_small, maxSegmentSize. lia.
Qed.

(* the Ptr that readStructPtr/readListPtr build for a target (depth and flags of the raw result) *)
Definition esz_size (e dw pc : Z) : ObjectSize :=
  if e =? 7 then mkOS (8 * dw) pc else if e =? 6 then mkOS 0 1 else mkOS (esz_bytes e) 0.

Definition ptr_of_target (depth capseg : Z) (t : target) : Ptr :=
  match t with
  | TgtNull => nullPtr
  | TgtCap i => mkPtr true capseg 0 i (mkOS 0 0) 0 KIface false false false
  | TgtStruct seg a dw pc => mkPtr true seg (8 * a) 0 (mkOS (8 * dw) pc) depth KStruct false false false
  | TgtList seg a e n dw pc => mkPtr true seg (8 * a) n (esz_size e dw pc) depth KList (e =? 7) (e =? 1) false
  end.

Definition list_repr (t : target) : Prop :=
  match t with TgtList _ _ _ n _ _ => n < 536870912 | _ => True end.

Lemma totalSize_words : forall dw pc, 0 <= dw < 65536 -> 0 <= pc < 65536 ->
  totalSize (mkOS (8 * dw) pc) = 8 * (dw + pc).
Proof. intros. unfold totalSize, pointerSize, u32. cbn [DataSize PointerCount]. lia. Qed.

Lemma struct_agrees : forall m dsid dst bw val,
  seg_at m dsid = Some dst -> ptr_kind val = 0 ->
  agrees (fun t => seg_small dst /\ list_repr t) (fun p t => p = ptr_of_target 0 dsid t)
         (readStructPtr dsid dst (8 * bw) val) (spec_obj false m dsid (bw + off30 val) val).
Proof.
  intros m dsid dst bw val Hs Hk.
  unfold readStructPtr, spec_obj. rewrite Hs, Hk. cbn [Z.eqb].
  rewrite ptr_offset_spec, structSize_spec.
  pose proof (st_dwords_range val) as Rdw. pose proof (st_pcount_range val) as Rpc.
  rewrite totalSize_words by assumption.
  unfold element. replace (8 * bw + off30 val * 8) with (8 * (bw + off30 val)) by lia.
  set (a := bw + off30 val). set (k := st_dwords val + st_pcount val) in *.
  unfold regionInBounds, addSize, in_words, maxSegmentSize, zlen, blen. cbv zeta.
  destruct ((8 * a >? 4294967288) || (8 * a <? 0)) eqn:G1;
    [|destruct (8 * a + 8 * k >? 4294967288) eqn:G2; [|destruct (8 * a + 8 * k <=? Z.of_nat (length dst)) eqn:G3]];
    cbn [negb]; try (apply agrees_gate; unfold blen; lia).
  replace ((0 <=? a) && (8 * (a + k) <=? Z.of_nat (length dst))) with true by lia. reflexivity.
Qed.

Lemma elementSize_spec : forall val, ls_esz val <> 7 ->
  elementSize val = Some (esz_size (ls_esz val) 0 0).
Proof.
  intros val H. unfold elementSize. change (listType val) with (ls_esz val).
  pose proof (ls_esz_range val) as Re. generalize dependent (ls_esz val). intros e H Re.
  assert (He : e = 0 \/ e = 1 \/ e = 2 \/ e = 3 \/ e = 4 \/ e = 5 \/ e = 6) by lia.
  unfold esz_size, esz_bytes.
  destruct He as [He|[He|[He|[He|[He|[He|He]]]]]]; subst e; reflexivity.
Qed.

Lemma list_bytes_range : forall e n, 0 <= n -> 0 <= list_bytes e n <= 8 * n.
Proof.
  intros e n Hn. unfold list_bytes.
  destruct (e =? 0); [lia|]. destruct (e =? 1); [lia|]. destruct (e =? 2); [lia|].
  destruct (e =? 3); [lia|]. destruct (e =? 4); lia.
Qed.

Lemma totalSize_esz : forall e dw pc, 0 <= dw < 65536 -> 0 <= pc < 65536 ->
  totalSize (esz_size e dw pc) = if e =? 7 then 8 * (dw + pc) else if e =? 6 then 8 else esz_bytes e.
Proof.
  intros e dw pc Hdw Hpc. unfold esz_size, esz_bytes. destruct (e =? 7); [apply totalSize_words; assumption|].
  destruct (e =? 6); [reflexivity|]. destruct (e =? 2); [reflexivity|]. destruct (e =? 3); [reflexivity|].
  destruct (e =? 4); [reflexivity|]. destruct (e =? 5); reflexivity.
Qed.

Lemma esz_bytes_range : forall e, 0 <= esz_bytes e <= 8.
Proof.
  intros e. unfold esz_bytes. destruct (e =? 2); [lia|]. destruct (e =? 3); [lia|].
  destruct (e =? 4); [lia|]. destruct (e =? 5); lia.
Qed.

Lemma list_bytes_mul : forall e n, 0 <= e < 8 -> e <> 1 ->
  list_bytes e n = n * (if e =? 7 then 8 else if e =? 6 then 8 else esz_bytes e).
Proof. intros e n He H1. unfold list_bytes, esz_bytes. split_ifs; lia. Qed.

Lemma totalListSize_spec : forall val, word64 val ->
  totalListSize val =
  if ls_esz val =? 7 then Some (times 8 (ls_count val + 1)) else Some (Some (list_bytes (ls_esz val) (ls_count val))).
Proof.
  intros val Hw. unfold totalListSize. change (listType val) with (ls_esz val).
  rewrite numListElements_spec by assumption.
  pose proof (ls_count_range val) as Rn. pose proof (ls_esz_range val) as Re.
  destruct (ls_esz val =? 1) eqn:E1.
  { assert (H : ls_esz val = 1) by lia. rewrite H. unfold bitListSize. rewrite ReaderFacts.u32_id by lia. reflexivity. }
  destruct (ls_esz val =? 7) eqn:E7; [rewrite ReaderFacts.s32_id by lia; reflexivity|].
  rewrite elementSize_spec by lia. rewrite totalSize_esz, E7 by lia. rewrite list_bytes_mul, E7 by lia.
  assert (HT : 0 <= (if ls_esz val =? 6 then 8 else esz_bytes (ls_esz val)) <= 8)
    by (pose proof (esz_bytes_range (ls_esz val)); destruct (ls_esz val =? 6); lia).
  unfold timesUnchecked. rewrite (ReaderFacts.u32_id (ls_count val)), ReaderFacts.u32_id by nia.
  do 2 f_equal. apply Z.mul_comm.
Qed.

Lemma elem_charge_range : forall e dw pc, 0 <= dw -> 0 <= pc ->
  1 <= elem_charge e dw pc /\ (e <> 7 -> elem_charge e dw pc <= 8).
Proof.
  intros e dw pc Hdw Hpc. pose proof (esz_bytes_range e). unfold elem_charge. split_ifs; lia.
Qed.

(* the n elements of a list occupy n times the element size, inside what the list's bounds
   condition ([tgt_inside], [list_ok]) reserves *)
Lemma list_span : forall a e n dw pc b, 0 <= e < 8 -> 0 <= n -> 0 <= dw < 65536 -> 0 <= pc < 65536 ->
  (if e =? 7 then 8 * (a + n * (dw + pc)) <= b else 8 * a + list_bytes e n <= b) ->
  (e <> 7 -> dw = 0 /\ pc = 0) ->
  0 <= totalSize (esz_size e dw pc) /\ 8 * a + n * totalSize (esz_size e dw pc) <= b.
Proof.
  intros a e n dw pc b He Hn Hdw Hpc Hin Hz. rewrite totalSize_esz by assumption.
  destruct (e =? 7) eqn:E7; [lia|]. destruct (Hz ltac:(lia)) as (-> & ->).
  pose proof (esz_bytes_range e). destruct (e =? 1) eqn:E1.
  - assert (e = 1) by lia. subst e. unfold list_bytes in Hin. cbn in *. lia.
  - rewrite list_bytes_mul, E7 in Hin by lia. destruct (e =? 6); lia.
Qed.

Lemma pointerType_struct : forall w, word64 w -> (pointerType w =? structPointer) = (ptr_kind w =? 0).
Proof.
  intros w H. rewrite pointerType_spec by assumption. unfold structPointer.
  pose proof (far_two_range w). destruct (ptr_kind w =? 2) eqn:E; lia.
Qed.

Lemma list_agrees : forall m dsid dst bw val,
  seg_at m dsid = Some dst -> seg_ok dst -> word64 val -> ptr_kind val = 1 ->
  agrees (fun t => seg_small dst /\ list_repr t)
         (fun p t => p = ptr_of_target 0 dsid t /\ list_repr t /\ tgt_cost t <= maxSegmentSize)
         (readListPtr true dsid dst (8 * bw) val) (spec_obj false m dsid (bw + off30 val) val).
Proof.
  intros m dsid dst bw val Hs Hok Hw Hk.
  unfold readListPtr, spec_obj. rewrite Hs, Hk. cbn [Z.eqb Pos.eqb].
  rewrite ptr_offset_spec, totalListSize_spec by assumption.
  change (listType val) with (ls_esz val). rewrite numListElements_spec by assumption.
  pose proof (ls_count_range val) as Rn.
  unfold element. replace (8 * bw + off30 val * 8) with (8 * (bw + off30 val)) by lia.
  set (a := bw + off30 val). set (n := ls_count val) in *.
  destruct (ls_esz val =? 7) eqn:E7.
  - (* composite: the tag word, then the elements *)
    pose proof (word_at_range dst a Hok) as Wt.
    set (tag := word_at dst a) in *.
    pose proof (st_dwords_range tag) as Rdw. pose proof (st_pcount_range tag) as Rpc.
    pose proof (tag_count_range tag) as Rc.
    cbn [negb orb]. rewrite Bool.andb_true_r.
    unfold times, regionInBounds, addSize, in_words, maxSegmentSize, zlen, blen. cbv zeta.
    destruct ((8 * a >? 4294967288) || (8 * a <? 0)) eqn:G1;
      [|destruct ((8 * (n + 1) >? 4294967288) || (8 * (n + 1) <? 0)) eqn:T1;
        [|destruct (8 * a + 8 * (n + 1) >? 4294967288) eqn:G2;
          [|destruct (8 * a + 8 * (n + 1) <=? Z.of_nat (length dst)) eqn:G3]]];
      cbn [negb]; try (apply agrees_gate; unfold blen; lia).
    replace ((0 <=? a) && (8 * (a + (1 + n)) <=? Z.of_nat (length dst))) with true by lia.
    rewrite readRawPointer_ok by (unfold blen; lia). fold tag. cbn [bind].
    destruct (8 * a + 8 >? 4294967288) eqn:G4; [lia|].
    rewrite pointerType_struct by assumption.
    destruct (ptr_kind tag =? 0) eqn:S2; cbn [negb]; cbv beta iota; [|exact I].
    rewrite structSize_spec, ptr_offset_spec, totalSize_words by assumption.
    pose proof (off30_range tag) as Rot.
    rewrite ReaderFacts.s32_id by lia. rewrite off30_tag_count. unfold signed30. cbn [andb].
    set (cnt := tag_count tag) in *. set (dw := st_dwords tag) in *. set (pc := st_pcount tag) in *.
    destruct (cnt <? 536870912) eqn:C.
    2:{ (* 2^29 or more elements: the count reads as negative *)
        destruct (cnt - 1073741824 <? 0) eqn:C2; [|lia].
        destruct ((0 <=? a + 1) && _); [|exact I]. cbn. unfold list_repr. lia. }
    destruct (cnt <? 0) eqn:C2; [lia|].
    assert (HP : 0 <= cnt * (dw + pc)) by (apply Z.mul_nonneg_nonneg; lia).
    replace (8 * (dw + pc) * cnt) with (8 * (cnt * (dw + pc))) by ring.
    set (P := cnt * (dw + pc)) in *.
    destruct ((8 * P >? 4294967288) || (8 * P <? 0)) eqn:G5;
      [|destruct (8 * a + 8 + 8 * P >? 4294967288) eqn:G6;
        [|destruct (8 * a + 8 + 8 * P <=? Z.of_nat (length dst)) eqn:G7]];
      cbn [negb]; try (apply agrees_gate; unfold blen; lia).
    replace ((0 <=? a + 1) && (8 * (a + 1 + P) <=? Z.of_nat (length dst))) with true by lia.
    split; [|split].
    + unfold ptr_of_target, esz_size. cbn [Z.eqb Pos.eqb]. f_equal. lia.
    + unfold list_repr. lia.
    + unfold tgt_cost, elem_charge, maxSegmentSize. cbn [Z.eqb Pos.eqb].
      destruct (dw + pc =? 0) eqn:Z0; [lia|].
      replace (cnt * (8 * (dw + pc))) with (8 * P) by (unfold P; ring). lia.
  - rewrite elementSize_spec by lia.
    pose proof (list_bytes_range (ls_esz val) n (proj1 Rn)) as RL.
    set (L := list_bytes (ls_esz val) n) in *.
    unfold regionInBounds, addSize, in_bytes, maxSegmentSize, zlen, blen.
    destruct ((8 * a >? 4294967288) || (8 * a <? 0)) eqn:E1;
      [|destruct (8 * a + L >? 4294967288) eqn:E2; [|destruct (8 * a + L <=? Z.of_nat (length dst)) eqn:E3]];
      cbn [negb]; try (apply agrees_gate; unfold blen; lia).
    replace (0 <=? a) with true by lia. cbn [andb].
    (* bit lists and the other codes build the same Ptr up to the flag [e =? 1] *)
    assert (G : forall q, q = ptr_of_target 0 dsid (TgtList dsid a (ls_esz val) n 0 0) ->
                agrees (fun t => seg_small dst /\ list_repr t)
                  (fun p t => p = ptr_of_target 0 dsid t /\ list_repr t /\ tgt_cost t <= maxSegmentSize)
                  (Ok q) (Some (TgtList dsid a (ls_esz val) n 0 0))).
    { intros q Hq. split; [exact Hq|]. split; [exact (proj2 Rn)|].
      unfold tgt_cost, maxSegmentSize.
      pose proof (elem_charge_range (ls_esz val) 0 0). nia. }
    destruct (ls_esz val =? 1) eqn:E1b; apply G; unfold ptr_of_target, esz_size; rewrite E7, E1b; [|reflexivity].
    assert (H1 : ls_esz val = 1) by lia. rewrite H1. reflexivity.
Qed.

(* the element count of a composite list comes from the tag word (30 bits), that of any other list from the list
   pointer (29 bits); segment.go reads the tag's count as a signed 30-bit field, so the reader represents only
   counts below 2^29: list_repr *)
Definition tgt_wf (t : target) : Prop :=
  match t with
  | TgtStruct _ a dw pc => 0 <= a /\ 0 <= dw < 65536 /\ 0 <= pc < 65536
  | TgtList _ a e n dw pc =>
    0 <= a /\ 0 <= e < 8 /\ 0 <= n < 1073741824 /\ 0 <= dw < 65536 /\ 0 <= pc < 65536 /\
    (e <> 7 -> dw = 0 /\ pc = 0 /\ n < 536870912)
  | TgtCap i => 0 <= i < 4294967296
  | TgtNull => True
  end.

(* the bytes a target designates lie inside its segment (for a composite list also the tag) *)
Definition tgt_inside (m : list (list Z)) (t : target) : Prop :=
  match t with
  | TgtStruct seg a dw pc => exists s, seg_at m seg = Some s /\ 0 <= a /\ 8 * (a + dw + pc) <= blen s
  | TgtList seg a e n dw pc =>
    exists s, seg_at m seg = Some s /\ 0 <= a /\
              (if e =? 7 then 1 <= a /\ 8 * (a + n * (dw + pc)) <= blen s
               else 8 * a + list_bytes e n <= blen s)
  | _ => True
  end.

Lemma spec_obj_facts : forall strict m sid a w t, ptr_kind w = 0 \/ ptr_kind w = 1 ->
  spec_obj strict m sid a w = Some t ->
  tgt_wf t /\ tgt_inside m t /\
  match t with TgtStruct s _ _ _ => s = sid /\ ptr_kind w = 0 | TgtList s _ _ _ _ _ => s = sid /\ ptr_kind w = 1 | _ => False end.
Proof.
  intros strict m sid a w t Hk H. unfold spec_obj in H.
  destruct (seg_at m sid) as [s|] eqn:Hs; [|discriminate].
  pose proof (st_dwords_range w). pose proof (st_pcount_range w).
  pose proof (ls_esz_range w). pose proof (ls_count_range w).
  destruct (ptr_kind w =? 0) eqn:K.
  - destruct (in_words s a (st_dwords w + st_pcount w)) eqn:B; [|discriminate].
    inversion H; subst t. unfold in_words in B. cbn [tgt_wf tgt_inside].
    repeat split; try lia. exists s. repeat split; try assumption; lia.
  - destruct (ls_esz w =? 7) eqn:E7.
    + destruct (in_words s a (1 + ls_count w)) eqn:B1; [|discriminate].
      destruct (ptr_kind (word_at s a) =? 0) eqn:K2; [|discriminate].
      destruct (in_words s (a + 1) (tag_count (word_at s a) * (st_dwords (word_at s a) + st_pcount (word_at s a))) && _) eqn:B2;
        [|discriminate].
      inversion H; subst t. unfold in_words in *.
      pose proof (st_dwords_range (word_at s a)). pose proof (st_pcount_range (word_at s a)).
      pose proof (tag_count_range (word_at s a)).
      cbn [tgt_wf tgt_inside]. repeat split; try lia.
      exists s. cbn [Z.eqb Pos.eqb]. repeat split; try assumption; lia.
    + destruct (in_bytes s a (list_bytes (ls_esz w) (ls_count w))) eqn:B; [|discriminate].
      inversion H; subst t. unfold in_bytes in B. cbn [tgt_wf tgt_inside].
      repeat split; try lia. exists s. rewrite E7. repeat split; try assumption; lia.
Qed.

Definition readPtr_tail (m : segs) (rl dsid : Z) (dst : seg) (base val depth : Z) : res Ptr * Z :=
  if val =? 0 then (Ok nullPtr, rl)
  else if depth =? 0 then (Err, rl)
  else
    let pt := pointerType val in
    if pt =? structPointer then
      match readStructPtr dsid dst base val with
      | Ok sp =>
        let '(ok, rl') := canRead rl (struct_readSize sp) in
        if ok then (Ok (mkPtr true (p_seg sp) (p_off sp) 0 (p_size sp) (uint_dec depth) KStruct false false false), rl')
        else (Err, rl')
      | Err => (Err, rl)
      | Panic => (Panic, rl)
      end
    else if pt =? listPointer then
      match readListPtr true dsid dst base val with
      | Ok lp =>
        let '(ok, rl') := canRead rl (list_readSize lp) in
        if ok then (Ok (mkPtr true (p_seg lp) (p_off lp) (p_len lp) (p_size lp) (uint_dec depth) KList
                               (p_comp lp) (p_bit lp) false), rl')
        else (Err, rl')
      | Err => (Err, rl)
      | Panic => (Panic, rl)
      end
    else if pt =? otherPointer then
      if negb (otherPointerType val =? 0) then (Err, rl)
      else (Ok (mkPtr true dsid 0 (capabilityIndex val) (mkOS 0 0) 0 KIface false false false), rl)
    else (Err, rl).

Lemma readPtr_unfold : forall m rl sid s paddr depth,
  readPtr true m rl sid s paddr depth =
  match resolveFarPointer true m sid s paddr with
  | Err => (Err, rl)
  | Panic => (Panic, rl)
  | Ok (dsid, dst, base, val) => readPtr_tail m rl dsid dst base val depth
  end.
Proof. reflexivity. Qed.

Lemma struct_readSize_target : forall d cs seg a dw pc, tgt_wf (TgtStruct seg a dw pc) ->
  struct_readSize (ptr_of_target d cs (TgtStruct seg a dw pc)) = tgt_cost (TgtStruct seg a dw pc).
Proof.
  intros d cs seg a dw pc W. cbn [tgt_wf] in W. unfold struct_readSize, ptr_of_target. cbn [p_valid p_size tgt_cost].
  apply totalSize_words; lia.
Qed.

Lemma list_readSize_target : forall d cs seg a e n dw pc,
  tgt_wf (TgtList seg a e n dw pc) -> tgt_cost (TgtList seg a e n dw pc) <= maxSegmentSize ->
  list_readSize (ptr_of_target d cs (TgtList seg a e n dw pc)) = tgt_cost (TgtList seg a e n dw pc).
Proof.
  intros d cs seg a e n dw pc (Ha & He & Hn & Hdw & Hpc & Hz) C.
  unfold list_readSize, ptr_of_target. cbn [p_valid p_size p_len tgt_cost] in *. cbv zeta.
  destruct (elem_charge_range e dw pc) as [Hc _]; [lia..|].
  assert (Ht : (if totalSize (esz_size e dw pc) =? 0 then wordSize else totalSize (esz_size e dw pc)) = elem_charge e dw pc).
  { rewrite totalSize_esz by assumption. unfold elem_charge, wordSize. split_ifs; lia. }
  rewrite Ht. unfold times, maxSegmentSize in *. cbv zeta.
  destruct ((_ >? _) || (_ <? 0)) eqn:E; [nia|apply Z.mul_comm].
Qed.

(* what readPtr_tail answers for a word the specification resolves to t: null is free and ignores depth; a
   capability needs depth only; a struct or list needs depth and budget, and a refused budget leaves 0 *)
Definition tail_expect (rl depth dsid : Z) (t : target) : res Ptr * Z :=
  match t with
  | TgtNull => (Ok nullPtr, rl)
  | TgtCap _ => if depth =? 0 then (Err, rl) else (Ok (ptr_of_target (uint_dec depth) dsid t), rl)
  | _ => if depth =? 0 then (Err, rl)
         else if rl >=? tgt_cost t then (Ok (ptr_of_target (uint_dec depth) dsid t), rl - tgt_cost t)
         else (Err, 0)
  end.

Definition segs_small (m : list (list Z)) : Prop := Forall seg_small m.

Lemma seg_at_In : forall m d x, seg_at m d = Some x -> In x m.
Proof.
  intros m d x H. unfold seg_at in H.
  destruct ((d <? 0) || (Z.of_nat (length m) <=? d)) eqn:E; [discriminate|].
  inversion H. apply nth_In. lia.
Qed.

Lemma seg_at_ok : forall m d x, bytes_ok m -> seg_at m d = Some x -> seg_ok x.
Proof. intros m d x B H. unfold bytes_ok in B. rewrite Forall_forall in B. apply B. eapply seg_at_In; eauto. Qed.

Lemma seg_at_small : forall m d x, segs_small m -> seg_at m d = Some x -> seg_small x.
Proof. intros m d x B H. unfold segs_small in B. rewrite Forall_forall in B. apply B. eapply seg_at_In; eauto. Qed.

Lemma lookup_or_self : forall (m : segs) sid (s : seg) d, seg_at m sid = Some s ->
  (if d =? sid then Ok s else lookup_segment m d) = match seg_at m d with Some x => Ok x | None => Err end.
Proof.
  intros m sid s d H. destruct (d =? sid) eqn:E.
  - assert (d = sid) by lia. subst d. rewrite H. reflexivity.
  - apply lookup_seg_at.
Qed.

Lemma spec_obj_same_fields : forall strict m d a v t,
  ptr_kind v = ptr_kind t -> st_dwords v = st_dwords t -> st_pcount v = st_pcount t ->
  ls_esz v = ls_esz t -> ls_count v = ls_count t ->
  spec_obj strict m d a v = spec_obj strict m d a t.
Proof.
  intros strict m d a v t H1 H2 H3 H4 H5. unfold spec_obj. rewrite H1, H2, H3, H4, H5. reflexivity.
Qed.

(* the deviation of the code AS FOUND (repaired in /repo, switch [strict] of
   resolveFarPointer): a double-far pointer whose landing pad says "zero-sized struct at
   word 0 of the target segment" (far offset 0, tag word 0) was read as null *)
Definition dfar_zero_pad (m : list (list Z)) (sid wa : Z) : bool :=
  match seg_at m sid with
  | None => false
  | Some s =>
    let w := word_at s wa in
    (ptr_kind w =? 2) && (far_two w =? 1) &&
    match seg_at m (far_seg w) with
    | None => false
    | Some ps => (word_at ps (far_off w + 1) =? 0) && (far_off (word_at ps (far_off w)) =? 0)
    end
  end.

Lemma spec_near_facts : forall strict m sid wa w t,
  spec_near strict m sid wa w = Some t -> tgt_wf t /\ tgt_inside m t.
Proof.
  intros strict m sid wa w t H. unfold spec_near in H.
  destruct (w =? 0); [inversion H; cbn [tgt_wf tgt_inside]; auto|].
  pose proof (ptr_kind_range w).
  destruct (ptr_kind w =? 3) eqn:K3.
  { destruct (cap_zero w =? 0); [|discriminate]. inversion H. cbn [tgt_wf tgt_inside]. unfold cap_index. split; [lia|exact I]. }
  destruct (ptr_kind w =? 2) eqn:K2; [discriminate|].
  apply spec_obj_facts in H; [tauto|lia].
Qed.

Lemma spec_resolve_facts : forall strict m sid wa t,
  spec_resolve strict m sid wa = Some t -> tgt_wf t /\ tgt_inside m t.
Proof.
  intros strict m sid wa t H. unfold spec_resolve in H.
  destruct (seg_at m sid) as [s|]; [|discriminate].
  destruct (negb (in_words s wa 1)); [discriminate|].
  destruct (ptr_kind (word_at s wa) =? 2).
  - destruct (seg_at m (far_seg (word_at s wa))) as [ps|]; [|discriminate].
    destruct (far_two (word_at s wa) =? 0).
    + destruct (in_words ps (far_off (word_at s wa)) 1); [|discriminate].
      eapply spec_near_facts; eauto.
    + destruct (in_words ps (far_off (word_at s wa)) 2); [|discriminate].
      destruct (_ && _) eqn:C in H; [|discriminate].
      apply spec_obj_facts in H; [tauto|].
      destruct (ptr_kind (word_at ps (far_off (word_at s wa) + 1)) =? 0) eqn:K0;
      destruct (ptr_kind (word_at ps (far_off (word_at s wa) + 1)) =? 1) eqn:K1;
      try (left; lia); try (right; lia).
  - eapply spec_near_facts; eauto.
Qed.

Lemma pointerType_far : forall f, word64 f ->
  (pointerType f =? farPointer) = (ptr_kind f =? 2) && (far_two f =? 0).
Proof.
  intros f H. rewrite pointerType_spec by assumption. unfold farPointer.
  pose proof (far_two_range f). pose proof (ptr_kind_range f).
  destruct (ptr_kind f =? 2) eqn:E; lia.
Qed.

Lemma tag_cond : forall t, word64 t ->
  ((negb (pointerType t =? structPointer) && negb (pointerType t =? listPointer)) || negb (ptr_offset t =? 0))
  = negb (((ptr_kind t =? 0) || (ptr_kind t =? 1)) && (off30 t =? 0)).
Proof.
  intros t H. rewrite pointerType_spec, ptr_offset_spec by assumption.
  unfold structPointer, listPointer.
  pose proof (far_two_range t). pose proof (ptr_kind_range t).
  destruct (ptr_kind t =? 2) eqn:E; lia.
Qed.

Lemma landing_zero_iff : forall f t, word64 f -> word64 t -> far_two f = 0 -> ptr_kind t < 2 -> off30 t = 0 ->
  (landingPadNearPointer f t =? 0) = (t =? 0) && (far_off f =? 0).
Proof.
  intros f t Hf Ht H2 Hk Ho. rewrite landingPadNearPointer_spec by (right; exact Hk). rewrite H2.
  pose proof (far_off_range f). unfold word64 in *.
  unfold off30, signed30 in Ho. destruct ((t / 4) mod 1073741824 <? 536870912) eqn:E; lia.
Qed.

Lemma spec_obj_zero : forall strict m d ds, seg_at m d = Some ds ->
  spec_obj strict m d 0 0 = Some (TgtStruct d 0 0 0).
Proof.
  intros strict m d ds H. unfold spec_obj. rewrite H.
  change (ptr_kind 0 =? 0) with true. cbv iota.
  change (st_dwords 0) with 0. change (st_pcount 0) with 0.
  unfold in_words, blen. destruct ((0 <=? 0) && (8 * (0 + (0 + 0)) <=? Z.of_nat (length ds))) eqn:E; [reflexivity|lia].
Qed.

Definition never_ok (r : res Ptr * Z) : Prop := forall p rl', r <> (Ok p, rl').

Lemma never_ok_err : forall rl, never_ok (Err, rl).
Proof. intros rl p rl' H. discriminate. Qed.
Lemma never_ok_panic : forall rl, never_ok (Panic, rl).
Proof. intros rl p rl' H. discriminate. Qed.

Lemma not_small_seg : forall m d x, seg_at m d = Some x -> ~ seg_small x -> ~ segs_small m.
Proof. intros m d x H N S. apply N. eapply seg_at_small; eauto. Qed.

(* How an answer [r] of readPtr relates to the specification's resolution [o] of the same
   pointer word.  Resolved: the expected answer (some segment id for a capability), or no
   value at all and the message is outside what the code can address (a segment beyond
   2^32-8 bytes, a list of 2^29 or more elements).  Rejected: never a value; an error, not a
   panic, under [inb] (the pointer word inside its segment, small segments). *)
Definition resolves (m : list (list Z)) (inb : Prop) (rl depth : Z) (o : option target) (r : res Ptr * Z) : Prop :=
  match o with
  | None => never_ok r /\ (inb -> r = (Err, rl))
  | Some t => (exists dsid, r = tail_expect rl depth dsid t /\ list_repr t) \/
              (never_ok r /\ ~ (segs_small m /\ list_repr t))
  end.

Lemma resolves_err : forall m inb rl depth, resolves m inb rl depth None (Err, rl).
Proof. intros. split; [apply never_ok_err|reflexivity]. Qed.

Lemma resolves_large : forall m (Q : Prop) rl depth o r d x,
  seg_at m d = Some x -> blen x > 4294967288 -> never_ok r ->
  resolves m (Q /\ segs_small m) rl depth o r.
Proof.
  intros m Q rl depth o r d x Hx G NO.
  assert (NS : ~ segs_small m) by (eapply not_small_seg; [exact Hx|]; unfold seg_small, maxSegmentSize; lia).
  destruct o; cbn; [right|]; tauto.
Qed.

Lemma tail_spec : forall m inb rl dsid dst wa val depth,
  seg_at m dsid = Some dst -> seg_ok dst -> word64 val ->
  resolves m inb rl depth (spec_near false m dsid wa val) (readPtr_tail m rl dsid dst (8 * (wa + 1)) val depth).
Proof.
  intros m inb rl dsid dst wa val depth Hs Hok Hw.
  assert (NG : forall t, ~ (seg_small dst /\ list_repr t) -> ~ (segs_small m /\ list_repr t)).
  { intros t N [S L]. apply N. split; [eapply seg_at_small; eauto|exact L]. }
  unfold spec_near, readPtr_tail.
  destruct (val =? 0) eqn:V0.
  { left. exists dsid. split; [reflexivity|exact I]. }
  rewrite pointerType_spec. cbv zeta.
  pose proof (ptr_kind_range val) as Rk. pose proof (far_two_range val) as R2.
  unfold structPointer, listPointer, otherPointer.
  destruct (ptr_kind val =? 3) eqn:K3.
  { assert (K : ptr_kind val = 3) by lia. rewrite K. cbn [Z.eqb Pos.eqb].
    rewrite otherPointerType_spec. change (capabilityIndex val) with (cap_index val).
    destruct (cap_zero val =? 0) eqn:CZ; cbn [negb].
    - left. exists dsid. split; [|exact I]. cbn [tail_expect ptr_of_target]. destruct (depth =? 0); reflexivity.
    - destruct (depth =? 0); apply resolves_err. }
  destruct (ptr_kind val =? 2) eqn:K2.
  { destruct (depth =? 0); [apply resolves_err|].
    destruct (2 + 4 * far_two val =? 0) eqn:A; [lia|].
    destruct (2 + 4 * far_two val =? 1) eqn:B; [lia|].
    destruct (2 + 4 * far_two val =? 3) eqn:C; [lia|]. apply resolves_err. }
  destruct (ptr_kind val =? 0) eqn:K0.
  - assert (K : ptr_kind val = 0) by lia.
    pose proof (struct_agrees m dsid dst (wa + 1) val Hs K) as A.
    destruct (spec_obj false m dsid (wa + 1 + off30 val) val) as [t|] eqn:So.
    + destruct (spec_obj_facts _ _ _ _ _ _ (or_introl K) So) as (W & _ & T).
      destruct t as [| |seg a dw pc|]; try contradiction; try (exfalso; destruct T; lia). destruct T as [-> _].
      destruct (readStructPtr dsid dst (8 * (wa + 1)) val) as [sp| |]; unfold agrees in A.
      * left. exists dsid. split; [|exact I]. subst sp. rewrite struct_readSize_target by exact W.
        unfold tail_expect. destruct (depth =? 0); [reflexivity|].
        unfold canRead. destruct (rl >=? tgt_cost (TgtStruct dsid a dw pc)); reflexivity.
      * right. split; [destruct (depth =? 0); apply never_ok_err|]. apply NG. exact A.
      * contradiction.
    + destruct (readStructPtr dsid dst (8 * (wa + 1)) val) as [sp| |]; unfold agrees in A; try contradiction.
      destruct (depth =? 0); apply resolves_err.
  - assert (K : ptr_kind val = 1) by lia. rewrite K. cbn [Z.eqb Pos.eqb].
    pose proof (list_agrees m dsid dst (wa + 1) val Hs Hok Hw K) as A.
    destruct (spec_obj false m dsid (wa + 1 + off30 val) val) as [t|] eqn:So.
    + destruct (spec_obj_facts _ _ _ _ _ _ (or_intror K) So) as (W & _ & T).
      destruct t as [| | |seg a e n dw pc]; try contradiction; try (exfalso; destruct T; lia). destruct T as [-> _].
      destruct (readListPtr true dsid dst (8 * (wa + 1)) val) as [lp| |]; unfold agrees in A.
      * left. exists dsid. destruct A as (-> & Hr & Hc). split; [|exact Hr]. rewrite list_readSize_target by assumption.
        unfold tail_expect. destruct (depth =? 0); [reflexivity|].
        unfold canRead. destruct (rl >=? tgt_cost (TgtList dsid a e n dw pc)); reflexivity.
      * right. split; [destruct (depth =? 0); apply never_ok_err|]. apply NG. exact A.
      * contradiction.
    + destruct (readListPtr true dsid dst (8 * (wa + 1)) val) as [lp| |]; unfold agrees in A; try contradiction.
      destruct (depth =? 0); apply resolves_err.
Qed.

(* a pointer word that cannot be read (outside its segment, or beyond the 32-bit address
   space) gives no value *)
Lemma readPtr_unreadable : forall m rl sid s wa depth,
  ~ (0 <= wa /\ 8 * wa + 8 <= blen s /\ 8 * wa + 8 < 4294967296) ->
  never_ok (readPtr true m rl sid s (8 * wa) depth).
Proof.
  intros m rl sid s wa depth N. unfold readPtr, resolveFarPointer.
  destruct (readRawPointer s (8 * wa)) as [v| |] eqn:RR; cbn [bind].
  - apply readRawPointer_inv in RR. tauto.
  - apply never_ok_err.
  - apply never_ok_panic.
Qed.

Lemma readPtr_spec : forall m rl sid s wa depth,
  bytes_ok m -> seg_at m sid = Some s ->
  resolves m (in_words s wa 1 = true /\ segs_small m) rl depth (spec_resolve false m sid wa)
           (readPtr true m rl sid s (8 * wa) depth).
Proof.
  intros m rl sid s wa depth Hb Hs.
  pose proof (seg_at_ok _ _ _ Hb Hs) as Hok.
  unfold spec_resolve. rewrite Hs. cbv zeta.
  destruct (in_words s wa 1) eqn:IW; cbn [negb].
  2:{ split; [apply readPtr_unreadable; unfold in_words in IW; lia|intros [Q _]; discriminate]. }
  unfold in_words in IW.
  destruct (8 * wa + 8 <? 4294967296) eqn:SM.
  2:{ eapply resolves_large; [exact Hs|lia|apply readPtr_unreadable; lia]. }
  rewrite readPtr_unfold.
  pose proof (word_at_range s wa Hok) as Hw.
  unfold resolveFarPointer. rewrite readRawPointer_ok by lia. cbn [bind]. cbv zeta.
  set (w := word_at s wa) in *.
  rewrite pointerType_spec.
  pose proof (ptr_kind_range w) as Rk. pose proof (far_two_range w) as R2.
  unfold doubleFarPointer, farPointer.
  destruct (ptr_kind w =? 2) eqn:K2.
  2:{ (* near pointer *)
      cbn [andb]. cbv iota. rewrite ?K2.
      destruct (ptr_kind w =? 6) eqn:K6; [lia|].
      unfold addSize, maxSegmentSize. cbv zeta.
      destruct (8 * wa + 8 >? 4294967288) eqn:A1.
      { eapply resolves_large; [exact Hs|lia|apply never_ok_err]. }
      replace (8 * wa + 8) with (8 * (wa + 1)) by lia.
      apply tail_spec; assumption. }
  (* far pointers *)
  cbv iota. rewrite ?K2. cbn [andb].
  change (farSegment w) with (far_seg w). rewrite (lookup_or_self m sid s (far_seg w) Hs).
  rewrite farAddress_spec.
  pose proof (far_off_range w) as Rpa. set (pa := far_off w) in *.
  destruct (seg_at m (far_seg w)) as [ps|] eqn:Hps.
  2:{ destruct (2 + 4 * far_two w =? 6) eqn:Q6; cbn [bind]; [apply resolves_err|].
      destruct (2 + 4 * far_two w =? 2) eqn:Q2; cbn [bind]; [apply resolves_err|]. lia. }
  pose proof (seg_at_ok _ _ _ Hb Hps) as Hokps.
  destruct (far_two w =? 0) eqn:F2.
  - (* single far *)
    replace (2 + 4 * far_two w) with 2 by lia. cbn [Z.eqb Pos.eqb bind].
    rewrite (regionInBounds_words ps pa 1 8) by lia.
    destruct (in_words ps pa 1) eqn:IP; cbn [andb negb]; [|apply resolves_err].
    unfold in_words in IP. unfold addSize, maxSegmentSize. cbv zeta.
    destruct (8 * (pa + 1) <=? 4294967288) eqn:A1; cbn [negb].
    2:{ eapply resolves_large; [exact Hps|lia|apply never_ok_err]. }
    destruct (8 * pa + 8 >? 4294967288) eqn:A2; [lia|].
    rewrite readRawPointer_ok by lia. cbn [bind].
    replace (8 * pa + 8) with (8 * (pa + 1)) by lia.
    apply tail_spec; [assumption..|apply word_at_range; assumption].
  - (* double far *)
    replace (2 + 4 * far_two w) with 6 by lia. cbn [Z.eqb Pos.eqb bind].
    rewrite (regionInBounds_words ps pa 2 16) by lia.
    destruct (in_words ps pa 2) eqn:IP; cbn [andb negb]; [|apply resolves_err].
    unfold in_words in IP. unfold addSize, maxSegmentSize. cbv zeta.
    destruct (8 * (pa + 2) <=? 4294967288) eqn:A1; cbn [negb].
    2:{ eapply resolves_large; [exact Hps|lia|apply never_ok_err]. }
    rewrite readRawPointer_ok by lia. cbn [bind].
    pose proof (word_at_range ps pa Hokps) as Hf. set (f := word_at ps pa) in *.
    rewrite pointerType_far by exact Hf.
    destruct (8 * pa + 8 >? 4294967288) eqn:A3; [lia|].
    replace (8 * pa + 8) with (8 * (pa + 1)) by lia.
    pose proof (word_at_range ps (pa + 1) Hokps) as Ht. set (t := word_at ps (pa + 1)) in *.
    destruct ((ptr_kind f =? 2) && (far_two f =? 0)) eqn:C1; cbn [negb andb]; [|apply resolves_err].
    rewrite readRawPointer_ok by lia. fold t. cbn [bind].
    rewrite tag_cond by exact Ht.
    destruct (((ptr_kind t =? 0) || (ptr_kind t =? 1)) && (off30 t =? 0)) eqn:C2; cbn [negb]; [|apply resolves_err].
    change (farSegment f) with (far_seg f). rewrite (lookup_or_self m sid s (far_seg f) Hs).
    destruct (seg_at m (far_seg f)) as [ds|] eqn:Hds; cbn [bind].
    2:{ unfold spec_obj. rewrite Hds. apply resolves_err. }
    pose proof (seg_at_ok _ _ _ Hb Hds) as Hokds.
    assert (F20 : far_two f = 0) by lia. assert (O0 : off30 t = 0) by lia.
    assert (KT : ptr_kind t < 2) by lia.
    destruct (landing_fields f t Hf Ht ltac:(lia) F20 KT) as (Hwl & L1 & L2 & L3 & L4 & L5 & L6).
    pose proof (landing_zero_iff f t Hf Ht F20 KT O0) as LZ.
    set (v := landingPadNearPointer f t) in *.
    cbv zeta. cbn [andb].
    destruct (v =? 0) eqn:V0.
    + (* the pad says "empty struct at word 0": the repaired code passes on the equivalent
         non-zero encoding (base 8, struct pointer with offset -1 and empty sections) *)
      assert (Et : t = 0) by lia. assert (Ef : far_off f = 0) by lia.
      rewrite Et, Ef. rewrite (spec_obj_zero false m (far_seg f) ds Hds).
      change (rawStructPointer (-1) (mkOS 0 0)) with (Some 4294967292). cbv iota.
      pose proof (tail_spec m (true = true /\ segs_small m) rl (far_seg f) ds 0 4294967292 depth Hds Hokds
                    ltac:(unfold word64; lia)) as T.
      unfold spec_near in T.
      change (4294967292 =? 0) with false in T. change (ptr_kind 4294967292 =? 3) with false in T.
      change (ptr_kind 4294967292 =? 2) with false in T. cbv iota in T.
      change (0 + 1 + off30 4294967292) with 0 in T.
      rewrite (spec_obj_same_fields false m (far_seg f) 0 4294967292 0) in T by reflexivity.
      rewrite (spec_obj_zero false m (far_seg f) ds Hds) in T. exact T.
    + pose proof (tail_spec m (true = true /\ segs_small m) rl (far_seg f) ds (-1) v depth Hds Hokds Hwl) as T.
      unfold spec_near in T. rewrite V0 in T.
      assert (K3 : (ptr_kind v =? 3) = false) by lia. assert (K2' : (ptr_kind v =? 2) = false) by lia.
      rewrite K3, K2' in T.
      replace (-1 + 1 + off30 v) with (far_off f) in T by lia.
      rewrite (spec_obj_same_fields false m (far_seg f) (far_off f) v t L1 L3 L4 L5 L6) in T. exact T.
Qed.

Lemma pair_ok_inv : forall {A} (a b : A) (x y : Z), (Ok a, x) = (Ok b, y) -> a = b /\ x = y.
Proof. intros A a b x y H. inversion H. auto. Qed.

(* Soundness, on ANY message and any limits: whenever readPtr returns a pointer, the
   specification resolves the same word to a target, the returned Ptr describes exactly that
   target (segment, byte offset, kind, sizes, length), the target's bytes lie inside the
   segments, and the budget was charged the target's size.  This is the repaired code
   ([strict] = true); as found, it answers null for the landing pad of [dfar_zero_pad]
   (see dfar_zero_struct_refuted). *)
Theorem read_ptr_sound : forall m rl sid s wa depth p rl',
  bytes_ok m -> lookup_segment m sid = Ok s -> 0 <= rl ->
  readPtr true m rl sid s (8 * wa) depth = (Ok p, rl') ->
  exists t, spec_resolve false m sid wa = Some t /\ tgt_wf t /\ tgt_inside m t /\
    p = ptr_of_target (uint_dec depth) (p_seg p) t /\ rl' = rl - tgt_cost t /\ tgt_cost t <= rl /\
    list_repr t /\ (t = TgtNull \/ depth <> 0).
Proof.
  intros m rl sid s wa depth p rl' Hb Hl Hrl H.
  assert (Hs : seg_at m sid = Some s).
  { rewrite lookup_seg_at in Hl. destruct (seg_at m sid); [inversion Hl; reflexivity|discriminate]. }
  pose proof (readPtr_spec m rl sid s wa depth Hb Hs) as M.
  destruct (spec_resolve false m sid wa) as [t|] eqn:SR.
  2:{ exfalso. exact (proj1 M p rl' H). }
  destruct (spec_resolve_facts _ _ _ _ _ SR) as [W I].
  exists t. split; [reflexivity|]. split; [exact W|]. split; [exact I|].
  destruct M as [[dsid [E LR]]|[NO _]]; [|exfalso; exact (NO p rl' H)].
  rewrite H in E. split; [|split; [|split; [|split; [exact LR|]]]]; revert E; unfold tail_expect;
    (* the four kinds of target: past the depth and budget tests the answer is the expected pair *)
    destruct t as [|i|seg a dw pc|seg a e n dw pc];
    try (destruct (depth =? 0) eqn:D; [discriminate|]);
    try (destruct (rl >=? _) eqn:C; [|discriminate]);
    intros E; apply pair_ok_inv in E; destruct E as [-> E2]; cbn [ptr_of_target tgt_cost p_seg] in *;
    try reflexivity; try lia; (left; reflexivity) || (right; lia).
Qed.

(* Completeness: whatever the specification resolves -- in a message whose segments fit the
   32-bit address space, with a representable element count, with
   depth and budget left -- readPtr returns, as exactly that Ptr, charging exactly its size. *)
Theorem read_ptr_complete : forall m rl sid s wa depth t,
  bytes_ok m -> segs_small m -> lookup_segment m sid = Ok s ->
  spec_resolve false m sid wa = Some t -> list_repr t ->
  (t = TgtNull \/ depth <> 0) -> tgt_cost t <= rl ->
  exists cs, readPtr true m rl sid s (8 * wa) depth =
             (Ok (ptr_of_target (uint_dec depth) cs t), rl - tgt_cost t).
Proof.
  intros m rl sid s wa depth t Hb Hsm Hl SR LR HD HC.
  assert (Hs : seg_at m sid = Some s).
  { rewrite lookup_seg_at in Hl. destruct (seg_at m sid); [inversion Hl; reflexivity|discriminate]. }
  pose proof (readPtr_spec m rl sid s wa depth Hb Hs) as M. rewrite SR in M.
  destruct M as [[dsid [E _]]|[_ N]]; [|exfalso; apply N; split; assumption].
  exists dsid. rewrite E. unfold tail_expect.
  destruct t as [|i|seg a dw pc|seg a e n dw pc];
    try (destruct HD as [HD|HD]; [discriminate|]; destruct (depth =? 0) eqn:D; [lia|]);
    cbn [tgt_cost ptr_of_target] in *; rewrite ?Z.sub_0_r; try reflexivity;
    (destruct (rl >=? _) eqn:C; [reflexivity|lia]).
Qed.

(* the bytes a returned Ptr designates lie inside the segment it names (follows from
   soundness: restated on the Ptr itself) *)
Definition ptr_inside (m : segs) (p : Ptr) : Prop :=
  p_valid p = true ->
  match p_kind p with
  | KIface => True
  | KStruct => 0 <= p_off p /\ p_off p + totalSize (p_size p) <= zlen (seg_of m p) /\ 0 <= p_seg p < zlen m
  | KList => 0 <= p_off p /\ 0 <= p_seg p < zlen m /\
             if p_comp p then 8 <= p_off p /\ p_off p + totalSize (p_size p) * p_len p <= zlen (seg_of m p)
             else if p_bit p then p_off p + (p_len p + 7) / 8 <= zlen (seg_of m p)
             else p_off p + totalSize (p_size p) * p_len p <= zlen (seg_of m p)
  end.

Lemma seg_at_nth : forall m d x, seg_at m d = Some x ->
  x = nth (Z.to_nat d) m [] /\ 0 <= d < Z.of_nat (length m).
Proof.
  intros m d x H. unfold seg_at in H.
  destruct ((d <? 0) || (Z.of_nat (length m) <=? d)) eqn:E; [discriminate|].
  inversion H. split; [reflexivity|lia].
Qed.

Lemma target_ptr_inside : forall m d cs t, tgt_wf t -> tgt_inside m t -> ptr_inside m (ptr_of_target d cs t).
Proof.
  intros m d cs t W I V. destruct t as [|i|sg a dw pc|sg a e n dw pc].
  - discriminate.
  - exact Logic.I.
  - cbn [tgt_wf tgt_inside] in *. destruct I as (s & Hs & Ha & Hb).
    apply seg_at_nth in Hs. destruct Hs as [-> Hr].
    unfold ptr_of_target, seg_of, zlen. unfold segs, Reader.seg in *. cbn [p_kind p_off p_size p_seg].
    rewrite totalSize_words by lia. unfold blen in Hb. lia.
  - cbn [tgt_wf tgt_inside] in *. destruct I as (s & Hs & Ha & Hb).
    destruct W as (_ & He & Hn & Hdw & Hpc & Hz).
    destruct (list_span a e n dw pc (blen s) He ltac:(lia) Hdw Hpc) as [HT Hsp].
    { destruct (e =? 7); [apply Hb|exact Hb]. }
    { intros H7. destruct (Hz H7) as (? & ? & _). auto. }
    apply seg_at_nth in Hs. destruct Hs as [-> Hr].
    unfold ptr_of_target, seg_of, zlen. unfold segs, Reader.seg in *. cbn [p_kind p_off p_size p_seg p_comp p_bit p_len].
    unfold blen in *. split; [lia|]. split; [lia|].
    destruct (e =? 7) eqn:E7; [lia|].
    destruct (e =? 1) eqn:E1; [|lia].
    unfold list_bytes in Hb. destruct (e =? 0) eqn:E0; [lia|]. rewrite E1 in Hb. lia.
Qed.

(* soundness restated on the returned Ptr: the bytes it designates lie inside the segments *)
Theorem read_ptr_inside : forall m rl sid s wa depth p rl',
  bytes_ok m -> lookup_segment m sid = Ok s -> 0 <= rl ->
  readPtr true m rl sid s (8 * wa) depth = (Ok p, rl') -> ptr_inside m p.
Proof.
  intros m rl sid s wa depth p rl' Hb Hl Hrl H.
  destruct (read_ptr_sound _ _ _ _ _ _ _ _ Hb Hl Hrl H) as (t & SR & W & I & C).
  destruct C as (-> & _). apply target_ptr_inside; assumption.
Qed.

(* a struct as the accessors hold it, and the view the specification gives of it (524280 = 8 * 65535 bytes is
   the largest data section a struct pointer can describe) *)
Definition ptr_of_sview (d : Z) (member : bool) (v : sview) : Ptr :=
  mkPtr true (sv_seg v) (sv_boff v) 0 (mkOS (sv_db v) (sv_pc v)) d KStruct false false member.

Definition sview_ok (m : list (list Z)) (v : sview) : Prop :=
  exists s, seg_at m (sv_seg v) = Some s /\ seg_small s /\ 0 <= sv_boff v /\
            0 <= sv_db v <= 524280 /\ 0 <= sv_pc v < 65536 /\
            sv_boff v + sv_db v + 8 * sv_pc v <= blen s /\
            (sv_pc v = 0 \/ (sv_boff v + sv_db v) mod 8 = 0).

Lemma seg_at_seg_of : forall (m : segs) p s, seg_at m (p_seg p) = Some s ->
  seg_of m p = s /\ seg_or_nil m (p_seg p) = s.
Proof.
  intros m p s H. unfold seg_or_nil. rewrite H. split; [|reflexivity].
  apply seg_at_nth in H. destruct H as [-> _]. reflexivity.
Qed.

Lemma sview_ok_inv : forall m d mem v, sview_ok m v ->
  exists s, seg_at m (sv_seg v) = Some s /\ seg_or_nil m (sv_seg v) = s /\ seg_of m (ptr_of_sview d mem v) = s /\
    blen s <= 4294967288 /\ 0 <= sv_boff v /\ 0 <= sv_db v <= 524280 /\ 0 <= sv_pc v < 65536 /\
    sv_boff v + sv_db v + 8 * sv_pc v <= blen s /\ (sv_pc v = 0 \/ (sv_boff v + sv_db v) mod 8 = 0).
Proof.
  intros m d mem v (s & Hs & Hsm & H). exists s. destruct (seg_at_seg_of m (ptr_of_sview d mem v) s Hs) as [E1 E2]. auto.
Qed.

(* pointer field i of a struct view is the word [sv_ptr_word v i], inside the segment *)
Lemma pointerAddress_sview : forall m d mem v s i, sview_ok m v -> seg_at m (sv_seg v) = Some s ->
  0 <= i < sv_pc v ->
  pointerAddress (ptr_of_sview d mem v) i = 8 * sv_ptr_word v i /\
  0 <= sv_ptr_word v i /\ 8 * sv_ptr_word v i + 8 <= blen s <= 4294967288.
Proof.
  intros m d mem v s i OK Hs Hi.
  destruct (sview_ok_inv m d mem v OK) as (s' & Hs' & _ & _ & Hsm & Hb & Hdb & Hpc & Hin & Hal).
  rewrite Hs in Hs'. injection Hs' as <-.
  unfold pointerAddress, ptr_of_sview, addSize, element, maxSegmentSize, sv_ptr_word.
  cbn [p_off p_size DataSize]. cbv zeta.
  destruct (_ >? _) eqn:A1; [lia|]. destruct ((_ >? _) || (_ <? 0)) eqn:A2; lia.
Qed.

(* Uint8/16/32/64 at any byte offset: the little-endian value of the field if it lies inside
   the data section, else the default 0 *)
Theorem struct_uint_spec : forall m d mem v off n,
  sview_ok m v -> 0 <= off -> (n = 1 \/ n = 2 \/ n = 4 \/ n = 8) -> off + n < 4294967296 ->
  struct_uint m (ptr_of_sview d mem v) off n = Ok (sv_uint m v off n).
Proof.
  intros m d mem v off n OK Hoff Hn Hlt.
  destruct (sview_ok_inv m d mem v OK) as (s & Hs & E2 & E1 & Hsm & Hb & Hdb & Hpc & Hin & _).
  unfold struct_uint, sv_uint. rewrite E1, E2. unfold dataAddress, ptr_of_sview.
  cbn [p_valid p_size DataSize negb orb p_off]. rewrite ReaderFacts.u32_id by lia.
  destruct (off + n >? sv_db v) eqn:G; destruct ((0 <=? off) && (off + n <=? sv_db v)) eqn:S; try lia; [reflexivity|].
  unfold addOffset. destruct (off >=? 524288) eqn:O; [lia|]. cbn [bind].
  rewrite ReaderFacts.u32_id by lia. apply readUintN_ok; lia.
Qed.

Lemma testbit_div : forall b k, 0 <= k -> Z.testbit b k = ((b / 2 ^ k) mod 2 =? 1).
Proof.
  intros b k Hk. rewrite Z.testbit_odd, Z.shiftr_div_pow2 by exact Hk.
  rewrite (Zmod_odd (b / 2 ^ k)). destruct (Z.odd (b / 2 ^ k)); reflexivity.
Qed.

(* Bit(n): bit n of the data section counting from the least significant bit of byte 0,
   false beyond the section *)
Theorem struct_bit_spec : forall m d mem v n,
  sview_ok m v -> 0 <= n < 4294967296 ->
  struct_bit m (ptr_of_sview d mem v) n = Ok (sv_bit m v n).
Proof.
  intros m d mem v n OK Hn.
  destruct (sview_ok_inv m d mem v OK) as (s & Hs & E2 & E1 & Hsm & Hb & Hdb & Hpc & Hin & _).
  unfold struct_bit, sv_bit. rewrite E1, E2. unfold ptr_of_sview.
  cbn [p_valid p_size DataSize p_off andb]. rewrite ReaderFacts.u32_id by lia.
  destruct (n <? sv_db v * 8) eqn:G; destruct ((0 <=? n) && (n <? 8 * sv_db v)) eqn:S; try lia; [|reflexivity].
  cbn [negb]. unfold addOffset, bitOffset_offset. destruct (n / 8 >=? 524288) eqn:O; [lia|].
  rewrite ReaderFacts.u32_id, readUintN_ok by lia. cbn [bind]. change (Z.to_nat 1) with 1%nat. cbn [le_num].
  rewrite testbit_div by lia. rewrite Z.mul_0_r, Z.add_0_r. reflexivity.
Qed.

(* Ptr(i): null beyond the pointer section, else the pointer stored in word sv_ptr_word v i,
   which is where the specification's sv_ptr resolves *)
Theorem struct_ptr_spec : forall c m rl d mem v i,
  sview_ok m v -> 0 <= i ->
  struct_ptr c m rl (ptr_of_sview d mem v) i =
    (if i <? sv_pc v
     then readPtr (cfg_strict c) m rl (sv_seg v) (seg_or_nil m (sv_seg v)) (8 * sv_ptr_word v i) d
     else (Ok nullPtr, rl))
  /\ sv_ptr false m v i = (if i <? sv_pc v then spec_resolve false m (sv_seg v) (sv_ptr_word v i) else Some TgtNull).
Proof.
  intros c m rl d mem v i OK Hi.
  destruct (sview_ok_inv m d mem v OK) as (s & Hs & E2 & E1 & _).
  split; [|unfold sv_ptr; destruct (0 <=? i) eqn:G; [reflexivity|lia]].
  unfold struct_ptr. rewrite E1, E2. change (p_valid (ptr_of_sview d mem v)) with true.
  change (PointerCount (p_size (ptr_of_sview d mem v))) with (sv_pc v). cbn [negb orb].
  destruct (i >=? sv_pc v) eqn:G; destruct (i <? sv_pc v) eqn:G2; try lia; [reflexivity|].
  destruct (pointerAddress_sview m d mem v s i OK Hs ltac:(lia)) as [-> _]. reflexivity.
Qed.

Theorem struct_hasptr_spec : forall m d mem v i,
  sview_ok m v -> 0 <= i ->
  struct_hasptr m (ptr_of_sview d mem v) i = Ok (sv_hasptr m v i).
Proof.
  intros m d mem v i OK Hi.
  destruct (sview_ok_inv m d mem v OK) as (s & Hs & E2 & E1 & _).
  unfold struct_hasptr, sv_hasptr. rewrite E1, E2. change (p_valid (ptr_of_sview d mem v)) with true.
  change (PointerCount (p_size (ptr_of_sview d mem v))) with (sv_pc v). cbn [negb orb].
  destruct (i >=? sv_pc v) eqn:G; destruct ((0 <=? i) && (i <? sv_pc v)) eqn:S; try lia; [reflexivity|].
  destruct (pointerAddress_sview m d mem v s i OK Hs ltac:(lia)) as (-> & H0 & H1).
  rewrite readRawPointer_ok by lia. reflexivity.
Qed.

Definition list_ok (m : list (list Z)) (l : target) : Prop :=
  match l with
  | TgtList sg a e n dw pc =>
    tgt_wf l /\ list_repr l /\
    exists s, seg_at m sg = Some s /\ seg_small s /\
              (if e =? 7 then 1 <= a /\ 8 * (a + n * (dw + pc)) <= blen s
               else 8 * a + list_bytes e n <= blen s)
  | _ => False
  end.

Lemma list_ok_inv : forall m sg a e n dw pc, list_ok m (TgtList sg a e n dw pc) ->
  exists s, seg_at m sg = Some s /\ seg_or_nil m sg = s /\
    (forall d cs, seg_of m (ptr_of_target d cs (TgtList sg a e n dw pc)) = s) /\
    blen s <= 4294967288 /\ 0 <= a /\ 0 <= e < 8 /\ 0 <= n < 536870912 /\
    0 <= dw < 65536 /\ 0 <= pc < 65536 /\ (e <> 7 -> dw = 0 /\ pc = 0) /\
    (if e =? 7 then 1 <= a /\ 8 * (a + n * (dw + pc)) <= blen s else 8 * a + list_bytes e n <= blen s).
Proof.
  intros m sg a e n dw pc ((Ha & He & Hn & Hdw & Hpc & Hz) & LR & s & Hs & Hsm & Hin). cbn [list_repr] in LR.
  exists s. pose proof (fun d cs => seg_at_seg_of m (ptr_of_target d cs (TgtList sg a e n dw pc)) s Hs) as E.
  repeat split; try assumption; try lia; try (apply Hz; assumption); apply (E 0 0) || (intros; apply E).
Qed.

Lemma elem_index_bound : forall i n k, 0 <= i < n -> 0 <= k -> i * k + k <= n * k.
Proof. intros. nia. Qed.

(* the elements of a list lie inside its segment: element i at byte 8a + i*T, T the element size *)
Lemma list_elem_inside : forall m sg a e n dw pc s i, list_ok m (TgtList sg a e n dw pc) ->
  seg_at m sg = Some s -> 0 <= i < n ->
  let T := totalSize (esz_size e dw pc) in
  0 <= T /\ 0 <= 8 * a + i * T /\ 8 * a + i * T + T <= blen s.
Proof.
  intros m sg a e n dw pc s i OK Hs Hi T.
  destruct (list_ok_inv _ _ _ _ _ _ _ OK) as (s' & Hs' & _ & _ & Hsm & Ha & He & Hn & Hdw & Hpc & Hz & Hin).
  rewrite Hs in Hs'. injection Hs' as <-.
  assert (HT : 0 <= T /\ 8 * a + n * T <= blen s).
  { apply list_span; try assumption; [lia|]. destruct (e =? 7); [apply Hin|exact Hin]. }
  pose proof (elem_index_bound i n T Hi (proj1 HT)). nia.
Qed.

Lemma list_element : forall m sg a e n dw pc s i, list_ok m (TgtList sg a e n dw pc) ->
  seg_at m sg = Some s -> 0 <= i < n ->
  element (8 * a) i (totalSize (esz_size e dw pc)) = Some (8 * a + i * totalSize (esz_size e dw pc)).
Proof.
  intros m sg a e n dw pc s i OK Hs Hi.
  destruct (list_elem_inside _ _ _ _ _ _ _ _ _ OK Hs Hi) as (HT & H0 & H1).
  destruct (list_ok_inv _ _ _ _ _ _ _ OK) as (s' & Hs' & _ & _ & Hsm & _).
  rewrite Hs in Hs'. injection Hs' as <-.
  unfold element, maxSegmentSize. cbv zeta.
  destruct ((_ >? _) || (_ <? 0)) eqn:X; [lia|reflexivity].
Qed.

Lemma in_range_b : forall i n, 0 <= i < n ->
  (i <? 0) || (i >=? n) = false /\ (0 <=? i) && (i <? n) = true.
Proof. intros. lia. Qed.

Lemma prim_size_match : forall e w, e <> 7 -> 1 <= w ->
  (e =? 1) || negb (os_eqb (esz_size e 0 0) (mkOS w 0)) = negb (esz_bytes e =? w).
Proof.
  intros e w H7 Hw. unfold esz_size, os_eqb, esz_bytes. split_ifs; cbn [DataSize PointerCount]; lia.
Qed.

(* UInt8/16/32/64 List.At(i): a list of that element size is read directly; a struct list
   is read through its elements' first data field (upgrade); anything else reads as 0 *)
Theorem list_uint_at_spec : forall m d cs l i w,
  list_ok m l -> (w = 1 \/ w = 2 \/ w = 4 \/ w = 8) ->
  match l with TgtList _ _ _ n _ _ => 0 <= i < n | _ => False end ->
  list_uint_at true m (ptr_of_target d cs l) i w = Ok (l_uint m l i w).
Proof.
  intros m d cs l i w OK Hw Hi. destruct l as [| | |sg a e n dw pc]; try contradiction.
  destruct (list_ok_inv _ _ _ _ _ _ _ OK) as (s & Hs & E2 & E1 & Hsm & Ha & He & Hn & Hdw & Hpc & Hz & Hin).
  destruct (list_elem_inside _ _ _ _ _ _ _ _ _ OK Hs Hi) as (HT & H0 & H1).
  destruct (in_range_b i n Hi) as [R R2].
  unfold list_uint_at, l_uint, primitiveElem. rewrite E1, E2, R2.
  unfold ptr_of_target.
  cbn [p_valid p_len p_bit p_comp p_size p_off negb orb]. rewrite R.
  rewrite (list_element _ _ _ _ _ _ _ _ _ OK Hs Hi).
  rewrite totalSize_esz in * by assumption.
  destruct (e =? 7) eqn:E7.
  - destruct (e =? 1) eqn:E1b; [lia|]. cbn [negb andb orb].
    unfold esz_size. rewrite E7. cbn [DataSize PointerCount].
    assert (P0 : (pc <? 0) = false) by lia. rewrite P0, Bool.orb_false_r.
    change (0 <? 0) with false. cbv iota.
    replace (8 * a + i * (8 * (dw + pc))) with (8 * (a + i * (dw + pc))) in * by ring.
    destruct (8 * dw <? w) eqn:D; destruct (w <=? 8 * dw) eqn:D2; try lia; [reflexivity|].
    apply readUintN_ok; lia.
  - destruct (Hz ltac:(lia)) as (-> & ->). cbn [negb andb].
    rewrite Bool.orb_false_r, prim_size_match by lia.
    destruct (esz_bytes e =? w) eqn:B; cbn [negb]; [|reflexivity].
    destruct (e =? 6) eqn:E6; [assert (e = 6) by lia; subst e; change (esz_bytes 6) with 0 in B; lia|].
    assert (esz_bytes e = w) by lia. subst w. apply readUintN_ok; lia.
Qed.

(* PointerList.At(i): the pointer stored in element i of a pointer list; for a struct list
   (upgrade) the FIRST POINTER of element i, i.e. the word after its data section; any other
   list is an error.  [l_ptr] of the specification resolves the same word. *)
Theorem ptrlist_at_spec : forall c m rl d cs l i,
  list_ok m l ->
  match l with TgtList _ _ _ n _ _ => 0 <= i < n | _ => False end ->
  match l with
  | TgtList sg a e n dw pc =>
    if e =? 6 then
      ptrlist_at c true m rl (ptr_of_target d cs l) i = readPtr (cfg_strict c) m rl sg (seg_or_nil m sg) (8 * (a + i)) d
      /\ l_ptr false m l i = spec_resolve false m sg (a + i)
    else if (e =? 7) && (1 <=? pc) then
      ptrlist_at c true m rl (ptr_of_target d cs l) i =
        readPtr (cfg_strict c) m rl sg (seg_or_nil m sg) (8 * (a + i * (dw + pc) + dw)) d
      /\ l_ptr false m l i = spec_resolve false m sg (a + i * (dw + pc) + dw)
    else ptrlist_at c true m rl (ptr_of_target d cs l) i = (Err, rl) /\ l_ptr false m l i = None
  | _ => False
  end.
Proof.
  intros c m rl d cs l i OK Hi. destruct l as [| | |sg a e n dw pc]; try contradiction.
  destruct (list_ok_inv _ _ _ _ _ _ _ OK) as (s & Hs & E2 & E1 & Hsm & Ha & He & Hn & Hdw & Hpc & Hz & Hin).
  destruct (list_elem_inside _ _ _ _ _ _ _ _ _ OK Hs Hi) as (HT & H0 & H1).
  destruct (in_range_b i n Hi) as [R R2].
  unfold ptrlist_at, l_ptr, primitiveElem. rewrite E1, E2, R2.
  unfold ptr_of_target.
  cbn [p_valid p_len p_bit p_comp p_size p_off p_seg p_depth negb orb]. rewrite R.
  rewrite (list_element _ _ _ _ _ _ _ _ _ OK Hs Hi).
  rewrite totalSize_esz in * by assumption. unfold esz_size, os_eqb.
  destruct (e =? 6) eqn:E6.
  - assert (e = 6) by lia. subst e. destruct (Hz ltac:(lia)) as (-> & ->).
    cbn [Z.eqb Pos.eqb negb andb orb DataSize PointerCount].
    replace (8 * a + i * 8) with (8 * (a + i)) by lia. split; reflexivity.
  - destruct (e =? 7) eqn:E7; cbn [andb negb orb DataSize PointerCount].
    + destruct (e =? 1) eqn:E1b; [lia|]. cbn [orb].
      assert (D0 : (8 * dw <? 0) = false) by lia. rewrite D0. cbn [orb].
      destruct (1 <=? pc) eqn:P1; destruct (pc <? 1) eqn:P2; try lia; [|split; reflexivity].
      change (0 <? 1) with true. unfold addSize, maxSegmentSize. cbv zeta iota.
      destruct (_ >? _) eqn:X; [lia|].
      replace (8 * a + i * (8 * (dw + pc)) + 8 * dw) with (8 * (a + i * (dw + pc) + dw)) by lia.
      split; reflexivity.
    + rewrite Bool.orb_false_r. cbn [Z.eqb]. rewrite Bool.andb_false_r. cbn [negb].
      rewrite Bool.orb_true_r. split; reflexivity.
Qed.

Theorem bitlist_at_spec : forall m d cs l i,
  list_ok m l ->
  match l with TgtList _ _ _ n _ _ => 0 <= i < n | _ => False end ->
  bitlist_at true m (ptr_of_target d cs l) i = Ok (l_bit m l i).
Proof.
  intros m d cs l i OK Hi. destruct l as [| | |sg a e n dw pc]; try contradiction.
  destruct (list_ok_inv _ _ _ _ _ _ _ OK) as (s & Hs & E2 & E1 & Hsm & Ha & He & Hn & Hdw & Hpc & Hz & Hin).
  destruct (in_range_b i n Hi) as [R R2].
  unfold bitlist_at, l_bit. rewrite E1, E2, R2.
  unfold ptr_of_target. cbn [p_valid p_len p_bit p_off negb orb andb]. rewrite R.
  destruct (e =? 1) eqn:E1b; cbn [negb]; [|reflexivity].
  assert (e = 1) by lia. subst e. unfold list_bytes in Hin. cbn [Z.eqb Pos.eqb] in Hin.
  unfold bitOffset_offset. rewrite ReaderFacts.u32_id by lia.
  rewrite readUintN_ok by lia. cbn [bind]. change (Z.to_nat 1) with 1%nat. cbn [le_num].
  rewrite testbit_div by lia. rewrite Z.mul_0_r, Z.add_0_r. reflexivity.
Qed.

(* List.Struct(i): a struct list directly; a list of primitives or pointers is read as a list
   of structs with that single field (upgrade the other way); not a bit list *)
Theorem list_struct_spec : forall m d cs l i,
  list_ok m l ->
  match l with TgtList _ _ _ n _ _ => 0 <= i < n | _ => False end ->
  list_struct true (ptr_of_target d cs l) i =
  Ok (match l_struct l i with
      | Some v => ptr_of_sview (if d =? 0 then 0 else uint_dec d) true v
      | None => nullPtr
      end).
Proof.
  intros m d cs l i OK Hi. destruct l as [| | |sg a e n dw pc]; try contradiction.
  destruct (list_ok_inv _ _ _ _ _ _ _ OK) as (s & Hs & E2 & E1 & Hsm & Ha & He & Hn & Hdw & Hpc & Hz & Hin).
  destruct (in_range_b i n Hi) as [R R2].
  unfold list_struct, l_struct. rewrite R2.
  unfold ptr_of_target. cbn [p_valid p_len p_bit p_off p_size p_seg p_depth negb orb andb]. rewrite R.
  rewrite (list_element _ _ _ _ _ _ _ _ _ OK Hs Hi).
  rewrite totalSize_esz by assumption. unfold esz_size, ptr_of_sview.
  destruct (e =? 7) eqn:E7.
  - destruct (e =? 1) eqn:E1b; [lia|]. cbn [sv_seg sv_boff sv_db sv_pc]. do 2 f_equal. lia.
  - destruct (Hz ltac:(lia)) as (-> & ->). destruct (e =? 1) eqn:E1b; [reflexivity|].
    destruct (e =? 6) eqn:E6; cbn [sv_seg sv_boff sv_db sv_pc]; do 2 f_equal; lia.
Qed.

Lemma firstn_skipn_bytes : forall (s : list Z) k a, 0 <= a -> a + Z.of_nat k <= blen s ->
  firstn k (skipn (Z.to_nat a) s) = map (byte_at s) (zseq a k).
Proof.
  intros s k. induction k as [|k IH]; intros a Ha Hb; [reflexivity|].
  unfold blen in Hb. rewrite skipn_nth_cons by lia. cbn [firstn zseq map]. f_equal.
  - unfold byte_at. destruct (a <? 0) eqn:E; [lia|reflexivity].
  - replace (S (Z.to_nat a)) with (Z.to_nat (a + 1)) by lia. apply IH; unfold blen; lia.
Qed.

Lemma map_zseq_shift : forall (f : Z -> Z) a k j, map (fun i => f (a + i)) (zseq j k) = map f (zseq (a + j) k).
Proof.
  intros f a k. induction k as [|k IH]; intros j; [reflexivity|].
  cbn [zseq map]. f_equal. rewrite IH. f_equal. f_equal. lia.
Qed.

Lemma zseq_snoc : forall k a, zseq a (S k) = zseq a k ++ [a + Z.of_nat k].
Proof.
  induction k as [|k IH]; intros a.
  - cbn. f_equal. lia.
  - change (zseq a (S (S k))) with (a :: zseq (a + 1) (S k)). rewrite IH. cbn [zseq app]. f_equal. f_equal. f_equal. lia.
Qed.

Lemma slice_bytes : forall s a n, 0 <= a -> 0 <= n -> a + n <= blen s -> a + n < 4294967296 ->
  slice s a n = Ok (map (byte_at s) (zseq a (Z.to_nat n))).
Proof.
  intros s a n Ha Hn Hb Hs. unfold slice, addSizeUnchecked, u32. unfold blen in Hb.
  assert (He : (a + n) mod 4294967296 = a + n) by lia. rewrite He.
  destruct ((0 <=? a) && (a <=? a + n) && (a + n <=? zlen s)) eqn:E; [|unfold zlen in E; lia].
  replace (a + n - a) with n by lia. rewrite firstn_skipn_bytes; [reflexivity|lia|unfold blen; lia].
Qed.

(* Data and Text look at byte lists only (size code 2), and at all their bytes at once *)
Lemma byte_list_slice : forall m d cs sg a e n dw pc, list_ok m (TgtList sg a e n dw pc) ->
  let p := ptr_of_target d cs (TgtList sg a e n dw pc) in
  isOneByteList p = (e =? 2) /\
  (e = 2 -> slice (seg_of m p) (p_off p) (u32 (p_len p)) =
            Ok (map (fun i => byte_at (seg_or_nil m sg) (8 * a + i)) (zseq 0 (Z.to_nat n)))).
Proof.
  intros m d cs sg a e n dw pc OK p.
  destruct (list_ok_inv _ _ _ _ _ _ _ OK) as (s & Hs & E2 & E1 & Hsm & Ha & He & Hn & Hdw & Hpc & Hz & Hin).
  split.
  - unfold isOneByteList, is_list, p, ptr_of_target, esz_size, os_isOneByte, esz_bytes.
    cbn [p_valid p_kind p_size p_comp andb]. 
    destruct (e =? 7) eqn:E7; [rewrite Bool.andb_false_r; lia|].
    destruct (Hz ltac:(lia)) as (-> & ->). split_ifs; cbn [DataSize PointerCount]; lia.
  - intros ->. subst p. rewrite E1, E2. unfold ptr_of_target. cbn [p_off p_len].
    unfold list_bytes in Hin. cbn [Z.eqb Pos.eqb] in Hin.
    rewrite ReaderFacts.u32_id, slice_bytes by lia. rewrite map_zseq_shift, Z.add_0_r. reflexivity.
Qed.

(* Data: the bytes of a byte list (nil for anything else) *)
Theorem ptr_data_spec : forall m d cs l, list_ok m l ->
  ptr_data m (ptr_of_target d cs l) = Ok (l_data m l).
Proof.
  intros m d cs l OK. destruct l as [| | |sg a e n dw pc]; try contradiction.
  destruct (byte_list_slice m d cs _ _ _ _ _ _ OK) as [B S].
  unfold ptr_data, l_data. rewrite B. destruct (e =? 2) eqn:E; [|reflexivity].
  cbn [negb]. rewrite S by lia. reflexivity.
Qed.

(* Text: the bytes before the terminating NUL; rejected when the list is empty or does not end
   with NUL *)
Theorem ptr_text_spec : forall m d cs l, list_ok m l ->
  ptr_text m (ptr_of_target d cs l) = Ok (l_text m l).
Proof.
  intros m d cs l OK. destruct l as [| | |sg a e n dw pc]; try contradiction.
  destruct (byte_list_slice m d cs _ _ _ _ _ _ OK) as [B S].
  unfold ptr_text, l_text. rewrite B. destruct (e =? 2) eqn:E; [|reflexivity].
  cbn [negb andb]. rewrite S by lia. cbn [bind].
  destruct (Z.to_nat n) as [|k] eqn:Ek.
  - cbn [zseq map rev]. destruct (1 <=? n) eqn:N1; [lia|reflexivity].
  - rewrite zseq_snoc, map_app, rev_app_distr. cbn [map rev app].
    destruct (1 <=? n) eqn:N1; [|lia]. cbn [andb].
    replace (8 * a + n - 1) with (8 * a + (0 + Z.of_nat k)) by lia.
    destruct (byte_at _ _ =? 0) eqn:Z0; [|reflexivity].
    rewrite rev_involutive. replace (Z.to_nat (n - 1)) with k by lia. reflexivity.
Qed.
