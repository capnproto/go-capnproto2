(* Glue between the list and struct accessor theorems of SpecProofs.v: an element of a
   well-formed list, read as a struct
   (composite lists directly, primitive / pointer lists by upgrade), is a well-formed struct
   view, so the struct accessor theorems (struct_uint_spec, struct_bit_spec, struct_ptr_spec)
   apply to the result of list_struct_spec. *)
From CV Require Import Core.Arith Core.Reader Core.ReadOps Spec.Spec Spec.SpecProofs.
From Coq Require Import ZifyBool Lia.
Open Scope Z_scope.

(* [injection] would otherwise evaluate the products 8 * _ in the view's fields *)
Local Opaque Z.mul.
Lemma list_elem_sview_ok : forall m l i v, list_ok m l -> l_struct l i = Some v -> sview_ok m v.
Proof.
  intros m l i v OK E. destruct l as [| | |sg a e n dw pc]; try contradiction.
  destruct (list_ok_inv _ _ _ _ _ _ _ OK) as (s & Hs & _ & _ & Hsm & Ha & He & Hn & Hdw & Hpc & Hz & _).
  unfold l_struct in E. destruct ((0 <=? i) && (i <? n)) eqn:B; [|discriminate].
  destruct (list_elem_inside _ _ _ _ _ _ _ _ i OK Hs ltac:(lia)) as (HT & H0 & H1).
  rewrite totalSize_esz in * by assumption. pose proof (esz_bytes_range e). revert H0 H1.
  destruct (e =? 7) eqn:E7;
    [|destruct (Hz ltac:(lia)) as (-> & ->); destruct (e =? 1); [discriminate|]; destruct (e =? 6) eqn:E6];
    intros H0 H1; injection E as <-; exists s; cbn [sv_seg sv_boff sv_db sv_pc];
    (split; [exact Hs|]); (split; [unfold seg_small, maxSegmentSize; lia|]); repeat split; lia.
Qed.
