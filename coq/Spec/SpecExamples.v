(* Non-vacuity examples and as-found (refuted) variants for property C03. *)
From CV Require Import Core.Arith Core.Reader Core.ReadOps Spec.Spec Spec.SpecProofs.
From Coq Require Import Lia.
Open Scope Z_scope.

(* A three-segment message:
     seg 0: word 0 root = FAR pointer to the pad at seg 1 word 0;
            words 1..5: composite list content: tag (2 elements, 1 data word, 1 pointer),
            element 0 = (7, null), element 1 = (9, capability 5)
     seg 1: word 0 landing pad = struct pointer (offset 0, 1 data word, 2 pointers);
            word 1 data 0x1122334455667788; word 2 = DOUBLE-FAR pointer to the pad at seg 2
            word 0; word 3 = byte list pointer (3 bytes); word 4 = "hi\0"
     seg 2: words 0,1 double-far pad: far pointer to seg 0 word 1, tag = composite list, 4 words *)
Definition ex_msg : list (list Z) :=
  [[2; 0; 0; 0; 1; 0; 0; 0; 8; 0; 0; 0; 1; 0; 1; 0; 7; 0; 0; 0; 0; 0; 0; 0; 0; 0; 0; 0; 0; 0; 0; 0; 9; 0; 0; 0; 0; 0; 0; 0; 3; 0; 0; 0; 5; 0; 0; 0];
   [0; 0; 0; 0; 1; 0; 2; 0; 136; 119; 102; 85; 68; 51; 34; 17; 6; 0; 0; 0; 2; 0; 0; 0; 1; 0; 0; 0; 26; 0; 0; 0; 104; 105; 0; 0; 0; 0; 0; 0];
   [10; 0; 0; 0; 0; 0; 0; 0; 1; 0; 0; 0; 39; 0; 0; 0]].

Definition ex_cfg := mkCfg 1000000 64 true true.
Definition ex_fx := mkFix true true true.
Definition ex_tree : tree :=
  TStruct [136; 119; 102; 85; 68; 51; 34; 17]
    [TComp 2 (mkOS 8 1) [TStruct [7; 0; 0; 0; 0; 0; 0; 0] [TNull]; TStruct [9; 0; 0; 0; 0; 0; 0; 0] [TCap 5]];
     TPrim 1 3 [104; 105; 0]].

Example ex_bytes_ok : bytes_ok ex_msg.
Proof. apply bytes_okb_sound. reflexivity. Qed.

Example ex_segs_small : segs_small ex_msg.
Proof. unfold segs_small, seg_small, ex_msg, blen, maxSegmentSize. repeat constructor; cbn; lia. Qed.

(* the root is a far pointer to a struct, its first field a double-far pointer to a composite list *)
Example ex_root_far : spec_resolve false ex_msg 0 0 = Some (TgtStruct 1 1 1 2).
Proof. vm_compute. reflexivity. Qed.
Example ex_double_far : spec_resolve false ex_msg 1 2 = Some (TgtList 0 2 7 2 1 1)
                        /\ spec_resolve true ex_msg 1 2 = Some (TgtList 0 2 7 2 1 1).
Proof. vm_compute. split; reflexivity. Qed.

(* the specification's tree, and the walker's through the model of the Go accessors *)
Example ex_spec_tree : spec_decode_root false 6 64 8 ex_msg = ex_tree /\ spec_cost false 6 64 8 ex_msg 0 0 = 59.
Proof. vm_compute. split; reflexivity. Qed.
Example ex_walk_tree :
  (let '(r, rl) := root ex_cfg ex_msg 1000000 in walk ex_cfg ex_fx ex_msg 64 8 6 rl r) = (ex_tree, 1000000 - 59).
Proof. vm_compute. reflexivity. Qed.

(* the hypotheses of the accessor theorems are satisfiable *)
Example ex_sview_ok : sview_ok ex_msg (sv_of_struct 1 1 1 2).
Proof.
  exists (nth 1 ex_msg []). unfold seg_small, maxSegmentSize, blen. cbn.
  repeat split; lia.
Qed.
Example ex_list_ok : list_ok ex_msg (TgtList 0 2 7 2 1 1).
Proof.
  cbn [list_ok tgt_wf list_repr]. repeat split; try lia.
  exists (nth 0 ex_msg []). unfold seg_small, maxSegmentSize, blen. cbn. repeat split; lia.
Qed.
(* reading the struct list as UInt16s / as pointers (upgrade): first data field / first pointer *)
Example ex_upgrade_reads :
  l_uint ex_msg (TgtList 0 2 7 2 1 1) 1 2 = 9 /\
  l_ptr false ex_msg (TgtList 0 2 7 2 1 1) 1 = Some (TgtCap 5) /\
  list_uint_at true ex_msg (ptr_of_target 63 0 (TgtList 0 2 7 2 1 1)) 1 2 = Ok 9 /\
  l_text ex_msg (TgtList 1 4 2 3 0 0) = Some [104; 105] /\
  sv_uint ex_msg (sv_of_struct 1 1 1 2) 6 2 = 4386 /\ sv_uint ex_msg (sv_of_struct 1 1 1 2) 7 2 = 0.
Proof. vm_compute. repeat split; reflexivity. Qed.

(* As found, F05.  root = composite list, 2 elements of (1 data word, 1 pointer); element 0
   has a data word
   that looks like a struct pointer and a NULL pointer.  Reading the list as a pointer list:
   the specification (and the repaired code) give null; the code as found ([fx_upgrade] =
   false) decodes the DATA word and returns a struct. *)
Definition ex_upgrade : list (list Z) :=
  [[1; 0; 0; 0; 39; 0; 0; 0;   8; 0; 0; 0; 1; 0; 1; 0;   4; 0; 0; 0; 1; 0; 0; 0;   0; 0; 0; 0; 0; 0; 0; 0;
    34; 34; 0; 0; 0; 0; 0; 0;   0; 0; 0; 0; 0; 0; 0; 0]].

Example upgrade_prefix_refuted :
  spec_resolve false ex_upgrade 0 0 = Some (TgtList 0 2 7 2 1 1) /\
  l_ptr false ex_upgrade (TgtList 0 2 7 2 1 1) 0 = Some TgtNull /\
  fst (ptrlist_at ex_cfg true ex_upgrade 1000 (ptr_of_target 63 0 (TgtList 0 2 7 2 1 1)) 0) = Ok nullPtr /\
  fst (ptrlist_at ex_cfg false ex_upgrade 1000 (ptr_of_target 63 0 (TgtList 0 2 7 2 1 1)) 0)
    = Ok (ptr_of_target 62 0 (TgtStruct 0 4 1 0)).
Proof. vm_compute. repeat split; reflexivity. Qed.

(* As found, a double-far pointer to an empty struct.  seg 0: double-far pointer to the pad
   at seg 1 word 0; seg 1: far pointer to seg 0 word 0,
   tag word 0 (= a struct with no data and no pointers).  The specification: an empty struct
   at word 0 of segment 0.  The code as found ([strict] = false): the null pointer; the
   repaired code: the empty struct. *)
Definition ex_dfar0 : list (list Z) :=
  [[6; 0; 0; 0; 1; 0; 0; 0];
   [2; 0; 0; 0; 0; 0; 0; 0; 0; 0; 0; 0; 0; 0; 0; 0]].

Example dfar_zero_struct_refuted :
  spec_resolve false ex_dfar0 0 0 = Some (TgtStruct 0 0 0 0) /\
  dfar_zero_pad ex_dfar0 0 0 = true /\
  root (mkCfg 1000000 64 false true) ex_dfar0 1000 = (Ok nullPtr, 1000) /\
  root ex_cfg ex_dfar0 1000 = (Ok (ptr_of_target 63 0 (TgtStruct 0 0 0 0)), 1000).
Proof. vm_compute. repeat split; reflexivity. Qed.
