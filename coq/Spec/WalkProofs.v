(* walk_eq_spec: the generic walker over the Go-faithful accessors computes exactly the
   specification's tree (and consumes exactly the specification's traversal cost), for every
   message, caps and fuel, when limits suffice. *)
From CV Require Import Core.Arith Core.Reader Core.ReadOps Spec.Spec Spec.SpecProofs Spec.SpecGlue.
From Coq Require Import ZifyBool ZifyNat ZifyN Lia.
Ltac Zify.zify_post_hook ::= Z.div_mod_to_equations.
Open Scope Z_scope.

Lemma collect_ok : forall {A} (f : Z -> res A) (g : Z -> A) (d : A) k,
  (forall i, 0 <= i < Z.of_nat k -> f i = Ok (g i)) ->
  collect k f d = Ok (map g (zseq 0 k)).
Proof.
  intros A f g d k H. unfold collect.
  assert (G : forall n i0, (forall i, i0 <= i < i0 + Z.of_nat n -> f i = Ok (g i)) ->
              (fix go (k : nat) (i : Z) {struct k} : res (list A) :=
                 match k with
                 | O => Ok []
                 | S k' => do a <- f i; do r <- go k' (i + 1); Ok (a :: r)
                 end) n i0 = Ok (map g (zseq i0 n))).
  { induction n as [|n IH]; intros i0 Hi; [reflexivity|].
    rewrite Hi by lia. cbn [bind]. rewrite IH by (intros; apply Hi; lia). reflexivity. }
  apply G. intros i Hi. apply H. lia.
Qed.

Lemma sum_costs_nonneg : forall {A} (G : Z -> A * Z) n i0,
  (forall i, 0 <= snd (G i)) -> 0 <= snd (sum_costs G i0 n).
Proof.
  intros A G n. induction n as [|n IH]; intros i0 H; cbn [sum_costs]; [cbn; lia|].
  specialize (IH (i0 + 1) H). specialize (H i0).
  destruct (G i0) as [a c]. destruct (sum_costs G (i0 + 1) n) as [r c']. cbn [snd] in *. lia.
Qed.

(* threading the budget through n steps = summing the specification's costs *)
Lemma iter_sum : forall {A} (F : Z -> Z -> A * Z) (G : Z -> A * Z) n i0 rl,
  (forall i, 0 <= snd (G i)) ->
  (forall i rl0, i0 <= i < i0 + Z.of_nat n -> 0 <= rl0 -> snd (G i) <= rl0 ->
                 F i rl0 = (fst (G i), rl0 - snd (G i))) ->
  0 <= rl -> snd (sum_costs G i0 n) <= rl ->
  iter_rl n i0 rl F = (fst (sum_costs G i0 n), rl - snd (sum_costs G i0 n)).
Proof.
  intros A F G n. induction n as [|n IH]; intros i0 rl Hnn HF Hrl Hc.
  - cbn. f_equal. lia.
  - cbn [iter_rl sum_costs] in *.
    pose proof (Hnn i0) as N0. pose proof (sum_costs_nonneg G n (i0 + 1) Hnn) as N1.
    destruct (G i0) as [a c] eqn:EG. destruct (sum_costs G (i0 + 1) n) as [r c'] eqn:ES.
    cbn [fst snd] in *.
    rewrite (HF i0 rl) by (rewrite ?EG; cbn [snd]; lia). rewrite EG. cbn [fst snd].
    rewrite (IH (i0 + 1) (rl - c)); [|exact Hnn| |lia|rewrite ES; cbn [snd]; lia].
    + rewrite ES. cbn [fst snd]. f_equal. lia.
    + intros i rl0 Hi H0 H1. apply HF; lia.
Qed.

Lemma tgt_cost_nonneg : forall t, tgt_wf t -> 0 <= tgt_cost t.
Proof.
  intros t W. destruct t as [|i|sg a dw pc|sg a e n dw pc]; cbn [tgt_cost tgt_wf] in *; try lia.
  destruct W as (_ & _ & Hn & Hdw & Hpc & _). pose proof (elem_charge_range e dw pc ltac:(lia) ltac:(lia)). nia.
Qed.

Lemma dec_struct_eq : forall rec m dcap pcap v,
  dec_struct rec m dcap pcap v =
  (TStruct (map (fun o => sv_uint m v o 1) (zseq 0 (count_cap (sv_db v) dcap)))
           (fst (sum_costs (fun i => rec (sv_seg v) (sv_ptr_word v i)) 0 (count_cap (sv_pc v) pcap))),
   snd (sum_costs (fun i => rec (sv_seg v) (sv_ptr_word v i)) 0 (count_cap (sv_pc v) pcap))).
Proof.
  intros. unfold dec_struct. destruct (sum_costs _ 0 _) as [ps c]. reflexivity.
Qed.

Lemma dec_struct_nonneg : forall (rec : Z -> Z -> tree * Z) m dcap pcap v,
  (forall sid wa, 0 <= snd (rec sid wa)) -> 0 <= snd (dec_struct rec m dcap pcap v).
Proof.
  intros rec m dcap pcap v H. rewrite dec_struct_eq. cbn [snd]. apply sum_costs_nonneg. intros i. apply H.
Qed.

(* a list costs its own size plus what its elements cost *)
Lemma dec_list_cost : forall recp rece m pcap sg a e n dw pc,
  (forall sid wa, 0 <= snd (recp sid wa)) -> (forall v, 0 <= snd (rece v)) ->
  tgt_cost (TgtList sg a e n dw pc) <= snd (dec_list recp rece m pcap (TgtList sg a e n dw pc)).
Proof.
  intros recp rece m pcap sg a e n dw pc Hp He. cbn [dec_list].
  destruct (e =? 1); [cbn [snd]; lia|].
  destruct (e =? 7).
  { pose proof (sum_costs_nonneg (fun i => rece (mkSV sg (8 * (a + i * (dw + pc))) (8 * dw) pc)) (count_cap n pcap) 0
                  (fun i => He _)) as S.
    destruct (sum_costs _ 0 _) as [es c]. cbn [snd] in *. lia. }
  destruct (e =? 6).
  { pose proof (sum_costs_nonneg (fun i => recp sg (a + i)) (count_cap n pcap) 0 (fun i => Hp _ _)) as S.
    destruct (sum_costs _ 0 _) as [es c]. cbn [snd] in *. lia. }
  destruct (e =? 0); cbn [snd]; lia.
Qed.

(* [dec_ptr] at fuel S f calls itself at f and, for the elements of a composite list, at the
   predecessor of f: induction on all smaller fuels *)
Lemma dec_ptr_nonneg : forall strict fuel dcap pcap m sid wa,
  0 <= snd (dec_ptr strict fuel dcap pcap m sid wa).
Proof.
  intros strict fuel. induction fuel as [fuel IH] using lt_wf_ind. intros dcap pcap m sid wa.
  destruct fuel as [|f]; cbn [dec_ptr];
    (destruct (spec_resolve strict m sid wa) as [t|] eqn:SR; [|cbn; lia]);
    destruct (spec_resolve_facts _ _ _ _ _ SR) as [W _]; pose proof (tgt_cost_nonneg t W) as C.
  { destruct t; cbn [snd]; lia. }
  destruct t as [|i|sg a dw pc|sg a e n0 dw pc]; try (cbn [snd]; lia).
  - pose proof (dec_struct_nonneg (dec_ptr strict f dcap pcap m) m dcap pcap (sv_of_struct sg a dw pc)
                  (fun s w => IH f ltac:(lia) dcap pcap m s w)) as S.
    destruct (dec_struct _ m dcap pcap _) as [tr c]. cbn [snd] in *. lia.
  - eapply Z.le_trans; [exact C|]. apply dec_list_cost; [intros; apply IH; lia|].
    intros v. destruct f as [|f']; [cbn; lia|].
    apply dec_struct_nonneg. intros s w. apply IH. lia.
Qed.

(* The side condition of walk_eq_spec: "every list MET BY THE DECODER has fewer than 2^29
   elements" (the reader rejects larger composite tag counts: known finding).  The condition follows the decoder: it concerns only
   the words the decoder reads as pointers, under the same caps -- the pointer at (sid, wa),
   the pointer slots of the struct / the elements of the list it resolves to, and so on for
   [fuel] levels.  Data words, padding and unreachable garbage are not constrained. *)
Definition vrepr_view (rec : Z -> Z -> Prop) (pcap : Z) (v : sview) : Prop :=
  forall i, 0 <= i < Z.of_nat (count_cap (sv_pc v) pcap) -> rec (sv_seg v) (sv_ptr_word v i).

Fixpoint vrepr (fuel : nat) (pcap : Z) (m : list (list Z)) (sid wa : Z) {struct fuel} : Prop :=
  match spec_resolve false m sid wa with
  | None => True
  | Some t =>
    list_repr t /\
    match fuel with
    | O => True
    | S f =>
      match t with
      | TgtStruct seg a dw pc => vrepr_view (vrepr f pcap m) pcap (sv_of_struct seg a dw pc)
      | TgtList seg a e n dw pc =>
        if e =? 6 then forall i, 0 <= i < Z.of_nat (count_cap n pcap) -> vrepr f pcap m seg (a + i)
        else if e =? 7 then
          match f with
          | O => True
          | S f' => forall i, 0 <= i < Z.of_nat (count_cap n pcap) ->
                    vrepr_view (vrepr f' pcap m) pcap (mkSV seg (8 * (a + i * (dw + pc))) (8 * dw) pc)
          end
        else True
      | _ => True
      end
    end
  end.

(* executable form, for concrete messages *)
Definition list_repr_b (t : target) : bool :=
  match t with TgtList _ _ _ n _ _ => n <? 536870912 | _ => true end.

Definition vcheck_view (rec : Z -> Z -> bool) (pcap : Z) (v : sview) : bool :=
  forallb (fun i => rec (sv_seg v) (sv_ptr_word v i)) (zseq 0 (count_cap (sv_pc v) pcap)).

Fixpoint vrepr_check (fuel : nat) (pcap : Z) (m : list (list Z)) (sid wa : Z) {struct fuel} : bool :=
  match spec_resolve false m sid wa with
  | None => true
  | Some t =>
    list_repr_b t &&
    match fuel with
    | O => true
    | S f =>
      match t with
      | TgtStruct seg a dw pc => vcheck_view (vrepr_check f pcap m) pcap (sv_of_struct seg a dw pc)
      | TgtList seg a e n dw pc =>
        if e =? 6 then forallb (fun i => vrepr_check f pcap m seg (a + i)) (zseq 0 (count_cap n pcap))
        else if e =? 7 then
          match f with
          | O => true
          | S f' => forallb (fun i => vcheck_view (vrepr_check f' pcap m) pcap
                                        (mkSV seg (8 * (a + i * (dw + pc))) (8 * dw) pc))
                            (zseq 0 (count_cap n pcap))
          end
        else true
      | _ => true
      end
    end
  end.

Lemma zseq_In : forall k a i, a <= i < a + Z.of_nat k -> In i (zseq a k).
Proof.
  induction k as [|k IH]; intros a i H; [lia|]. cbn [zseq].
  destruct (Z.eq_dec i a) as [->|N]; [left; reflexivity|right; apply IH; lia].
Qed.

Lemma list_repr_b_sound : forall t, list_repr_b t = true -> list_repr t.
Proof. intros t H. destruct t; cbn in *; try exact Logic.I. lia. Qed.

Lemma vcheck_view_sound : forall (rb : Z -> Z -> bool) (rp : Z -> Z -> Prop) pcap v,
  (forall s w, rb s w = true -> rp s w) -> vcheck_view rb pcap v = true -> vrepr_view rp pcap v.
Proof.
  intros rb rp pcap v H C i Hi. unfold vcheck_view in C. rewrite forallb_forall in C.
  apply H. apply C. apply zseq_In. lia.
Qed.

Lemma vrepr_check_sound : forall fuel pcap m sid wa,
  vrepr_check fuel pcap m sid wa = true -> vrepr fuel pcap m sid wa.
Proof.
  induction fuel as [fuel IH] using lt_wf_ind. intros pcap m sid wa H.
  destruct fuel as [|f]; cbn [vrepr_check vrepr] in *;
    (destruct (spec_resolve false m sid wa) as [t|]; [|exact Logic.I]);
    apply andb_prop in H; destruct H as [H1 H2]; (split; [apply list_repr_b_sound; exact H1|]).
  { exact Logic.I. }
  destruct t as [|i|sg a dw pc|sg a e k dw pc]; try exact Logic.I.
  - eapply vcheck_view_sound; [|exact H2]. intros s w. apply IH. lia.
  - destruct (e =? 6).
    + intros i Hi. rewrite forallb_forall in H2. apply IH; [lia|]. apply H2. apply zseq_In. lia.
    + destruct (e =? 7); [|exact Logic.I]. destruct f as [|f']; [exact Logic.I|].
      intros i Hi. rewrite forallb_forall in H2.
      eapply vcheck_view_sound; [|apply H2; apply zseq_In; lia]. intros s w. apply IH. lia.
Qed.

Section Walk.
Variable c : config.
Variable m : list (list Z).
Variables dcap pcap : Z.
Hypothesis Hstrict : cfg_strict c = true.
Hypothesis Hb : bytes_ok m.
Hypothesis Hsm : segs_small m.
Let fx := mkFix true true true.

Definition P (fuel : nat) : Prop := forall rl sid s wa depth,
  seg_at m sid = Some s -> in_words s wa 1 = true ->
  Z.of_nat fuel < depth < 18446744073709551616 -> 0 <= rl ->
  snd (dec_ptr false fuel dcap pcap m sid wa) <= rl ->
  vrepr fuel pcap m sid wa ->
  (let '(r, rl1) := readPtr true m rl sid s (8 * wa) depth in walk c fx m dcap pcap fuel rl1 r)
  = (fst (dec_ptr false fuel dcap pcap m sid wa), rl - snd (dec_ptr false fuel dcap pcap m sid wa)).

Lemma readPtr_of_spec : forall rl sid s wa depth,
  seg_at m sid = Some s -> in_words s wa 1 = true -> 0 < depth ->
  match spec_resolve false m sid wa with
  | None => readPtr true m rl sid s (8 * wa) depth = (Err, rl)
  | Some t => list_repr t -> tgt_cost t <= rl ->
              exists cs, readPtr true m rl sid s (8 * wa) depth =
                         (Ok (ptr_of_target (uint_dec depth) cs t), rl - tgt_cost t)
  end.
Proof.
  intros rl sid s wa depth Hs Hin Hd.
  assert (Hl : lookup_segment m sid = Ok s) by (rewrite lookup_seg_at, Hs; reflexivity).
  destruct (spec_resolve false m sid wa) as [t|] eqn:SR.
  - intros LR HC. eapply read_ptr_complete; eauto. right. lia.
  - pose proof (readPtr_spec m rl sid s wa depth Hb Hs) as M. rewrite SR in M.
    apply (proj2 M). split; assumption.
Qed.

Lemma walk_struct : forall f, P f -> forall v d mem rl,
  sview_ok m v -> Z.of_nat f < d < 18446744073709551616 -> 0 <= rl ->
  snd (dec_struct (dec_ptr false f dcap pcap m) m dcap pcap v) <= rl ->
  vrepr_view (vrepr f pcap m) pcap v ->
  walk c fx m dcap pcap (S f) rl (Ok (ptr_of_sview d mem v)) =
  (fst (dec_struct (dec_ptr false f dcap pcap m) m dcap pcap v),
   rl - snd (dec_struct (dec_ptr false f dcap pcap m) m dcap pcap v)).
Proof.
  intros f PF v d mem rl OK Hd Hrl HC HV.
  rewrite dec_struct_eq in *. cbn [fst snd] in *.
  cbn [walk].
  change (p_valid (ptr_of_sview d mem v)) with true.
  change (p_kind (ptr_of_sview d mem v)) with KStruct.
  change (DataSize (p_size (ptr_of_sview d mem v))) with (sv_db v).
  change (PointerCount (p_size (ptr_of_sview d mem v))) with (sv_pc v).
  cbn [negb]. cbv iota.
  pose proof OK as OK'. destruct OK' as (s & Hs & Hss & Hbo & Hdb & Hpc & Hin & Hal).
  rewrite (collect_ok _ (fun o => sv_uint m v o 1)).
  2:{ intros i Hi. apply struct_uint_spec; [exact OK|lia|left; reflexivity|].
      unfold cap_count in Hi. lia. }
  change (cap_count (sv_db v) dcap) with (count_cap (sv_db v) dcap).
  change (cap_count (sv_pc v) pcap) with (count_cap (sv_pc v) pcap).
  rewrite (iter_sum _ (fun i => dec_ptr false f dcap pcap m (sv_seg v) (sv_ptr_word v i))).
  - reflexivity.
  - intros i. apply dec_ptr_nonneg.
  - intros i rl0 Hi H0 H1.
    assert (Hip : i < sv_pc v) by (unfold count_cap in Hi; lia).
    destruct (struct_ptr_spec c m rl0 d mem v i OK ltac:(lia)) as [E _]. rewrite E.
    destruct (i <? sv_pc v) eqn:G; [|lia].
    rewrite Hstrict. unfold seg_or_nil. rewrite Hs.
    apply PF; try assumption; [|apply HV; lia].
    unfold in_words, sv_ptr_word, seg_small, maxSegmentSize in *.
    destruct Hal as [Hal|Hal]; [lia|]. lia.
  - exact Hrl.
  - exact HC.
Qed.

Lemma sview_ok_of_struct : forall sg a dw pc,
  tgt_wf (TgtStruct sg a dw pc) -> tgt_inside m (TgtStruct sg a dw pc) -> sview_ok m (sv_of_struct sg a dw pc).
Proof.
  intros sg a dw pc W I. cbn [tgt_wf tgt_inside] in *. destruct I as (s & Hs & Ha & Hin).
  exists s. unfold sv_of_struct. cbn [sv_seg sv_boff sv_db sv_pc].
  split; [exact Hs|]. split; [eapply seg_at_small; eauto|]. repeat split; lia.
Qed.

Lemma list_ok_of_target : forall sg a e n dw pc,
  tgt_wf (TgtList sg a e n dw pc) -> tgt_inside m (TgtList sg a e n dw pc) -> list_repr (TgtList sg a e n dw pc) ->
  list_ok m (TgtList sg a e n dw pc).
Proof.
  intros sg a e n dw pc W I L. cbn [list_ok]. split; [exact W|]. split; [exact L|].
  cbn [tgt_inside] in I. destruct I as (s & Hs & Ha & Hin). exists s.
  split; [exact Hs|]. split; [eapply seg_at_small; eauto|exact Hin].
Qed.

Lemma walk_list : forall f, P f -> (forall f', f = S f' -> P f') ->
  forall sg a e n dw pc d cs rl,
  list_ok m (TgtList sg a e n dw pc) -> Z.of_nat f < d < 18446744073709551616 -> 0 <= rl ->
  let D := dec_list (dec_ptr false f dcap pcap m)
                    (fun v => match f with
                              | O => (TFuel, 0)
                              | S f' => dec_struct (dec_ptr false f' dcap pcap m) m dcap pcap v
                              end) m pcap (TgtList sg a e n dw pc) in
  snd D - tgt_cost (TgtList sg a e n dw pc) <= rl ->
  (if e =? 6 then forall i, 0 <= i < Z.of_nat (count_cap n pcap) -> vrepr f pcap m sg (a + i)
   else if e =? 7 then
     match f with
     | O => True
     | S f' => forall i, 0 <= i < Z.of_nat (count_cap n pcap) ->
               vrepr_view (vrepr f' pcap m) pcap (mkSV sg (8 * (a + i * (dw + pc))) (8 * dw) pc)
     end
   else True) ->
  walk c fx m dcap pcap (S f) rl (Ok (ptr_of_target d cs (TgtList sg a e n dw pc))) =
  (fst D, rl - (snd D - tgt_cost (TgtList sg a e n dw pc))).
Proof.
  intros f PF PF' sg a e n dw pc d cs rl OK Hd Hrl D HC HV. subst D.
  pose proof OK as OK'. cbn [list_ok] in OK'. destruct OK' as (W & LR & s & Hs & Hss & Hin).
  cbn [tgt_wf list_repr] in W, LR. destruct W as (Ha & He & Hn & Hdw & Hpc & Hz).
  cbn [walk].
  change (p_valid (ptr_of_target d cs (TgtList sg a e n dw pc))) with true.
  change (p_kind (ptr_of_target d cs (TgtList sg a e n dw pc))) with KList.
  change (p_bit (ptr_of_target d cs (TgtList sg a e n dw pc))) with (e =? 1).
  change (p_comp (ptr_of_target d cs (TgtList sg a e n dw pc))) with (e =? 7).
  change (p_len (ptr_of_target d cs (TgtList sg a e n dw pc))) with n.
  change (p_size (ptr_of_target d cs (TgtList sg a e n dw pc))) with (esz_size e dw pc).
  cbn [negb fx_bit fx_depth fx_upgrade fx]. cbv iota.
  change (cap_count n pcap) with (count_cap n pcap).
  assert (Hk : Z.of_nat (count_cap n pcap) <= n) by (unfold count_cap; lia).
  unfold dec_list in *.
  destruct (e =? 1) eqn:E1.
  { rewrite (collect_ok _ (l_bit m (TgtList sg a e n dw pc))).
    - cbn [fst snd]. f_equal.  lia.
    - intros i Hi. apply bitlist_at_spec; [exact OK|]. lia. }
  destruct (e =? 7) eqn:E7.
  { rewrite (iter_sum _ (fun i => match f with
                                  | O => (TFuel, 0)
                                  | S f' => dec_struct (dec_ptr false f' dcap pcap m) m dcap pcap
                                              (mkSV sg (8 * (a + i * (dw + pc))) (8 * dw) pc)
                                  end)).
    - destruct (sum_costs _ 0 _) as [es cc]. cbn [fst snd] in *.
      unfold esz_size. rewrite E7. f_equal.  lia.
    - intros i. destruct f; [cbn; lia|]. apply dec_struct_nonneg. intros; apply dec_ptr_nonneg.
    - intros i rl0 Hi H0 H1.
      rewrite (list_struct_spec m d cs (TgtList sg a e n dw pc) i OK) by lia.
      unfold l_struct. destruct ((0 <=? i) && (i <? n)) eqn:R; [|lia]. rewrite E7.
      destruct f as [|f'].
      + cbn [walk ptr_of_sview p_valid negb fst snd]. f_equal.  lia.
      + assert (Dd : (if d =? 0 then 0 else uint_dec d) = d - 1).
        { destruct (d =? 0) eqn:D0; [lia|]. unfold uint_dec, u64. lia. }
        rewrite Dd. apply walk_struct; [apply PF'; reflexivity| |lia|exact H0|exact H1|].
        2:{ assert (E6f : (e =? 6) = false) by lia. rewrite E6f in HV. apply HV. lia. }
        apply (list_elem_sview_ok m (TgtList sg a e n dw pc) i _ OK). unfold l_struct. rewrite R, E7. reflexivity.
    - exact Hrl.
    - destruct (sum_costs _ 0 _) as [es cc]. cbn [fst snd] in *.  lia. }
  destruct (Hz ltac:(lia)) as (Edw & Epc & Hn').
  destruct (e =? 6) eqn:E6.
  { assert (He6 : e = 6) by lia. unfold esz_size. rewrite E7, E6. cbn [PointerCount]. change (0 <? 1) with true. cbv iota.
    rewrite (iter_sum _ (fun i => dec_ptr false f dcap pcap m sg (a + i))).
    - destruct (sum_costs _ 0 _) as [es cc]. cbn [fst snd] in *. f_equal. lia.
    - intros i. apply dec_ptr_nonneg.
    - intros i rl0 Hi H0 H1.
      pose proof (ptrlist_at_spec c m rl0 d cs (TgtList sg a e n dw pc) i OK ltac:(cbv iota; lia)) as PS.
      cbv beta iota in PS. rewrite E6 in PS. destruct PS as [PS _]. rewrite PS.
      rewrite Hstrict. unfold seg_or_nil. rewrite Hs.
      apply PF; try assumption; [|apply HV; lia].
      rewrite He6 in Hin. unfold in_words, list_bytes in *. cbn [Z.eqb Pos.eqb] in Hin. lia.
    - exact Hrl.
    - destruct (sum_costs _ 0 _) as [es cc]. cbn [fst snd] in *. lia. }
  assert (He' : e = 0 \/ e = 2 \/ e = 3 \/ e = 4 \/ e = 5) by lia.
  destruct (e =? 0) eqn:E0.
  { unfold esz_size, esz_bytes. rewrite E7, E6. assert (He0 : e = 0) by lia. rewrite He0. cbn [Z.eqb Pos.eqb PointerCount DataSize].
    change (0 <? 0) with false. cbv iota. cbn [fst snd]. f_equal. lia. }
  assert (Hsz : esz_size e dw pc = mkOS (esz_bytes e) 0).
  { unfold esz_size. rewrite E7, E6. reflexivity. }
  rewrite Hsz. cbn [PointerCount DataSize]. change (0 <? 0) with false. cbv iota.
  assert (Hw : esz_bytes e = 1 \/ esz_bytes e = 2 \/ esz_bytes e = 4 \/ esz_bytes e = 8).
  { unfold esz_bytes. destruct He' as [?|[?|[?|[?|?]]]]; subst e; cbn; lia. }
  destruct (esz_bytes e =? 0) eqn:W0; [lia|].
  rewrite (collect_ok _ (fun i => l_uint m (TgtList sg a e n dw pc) i (esz_bytes e))).
  - cbn [fst snd]. f_equal.  lia.
  - intros i Hi. apply list_uint_at_spec; [exact OK|exact Hw|]. lia.
Qed.

Lemma P_all : forall fuel, P fuel.
Proof.
  induction fuel as [fuel IH] using lt_wf_ind.
  intros rl sid s wa depth Hs Hin Hd Hrl HC HV.
  pose proof (readPtr_of_spec rl sid s wa depth Hs Hin ltac:(lia)) as R.
  assert (Hud : uint_dec depth = depth - 1) by (unfold uint_dec, u64; lia).
  destruct fuel as [|f]; cbn [dec_ptr vrepr] in *;
    (destruct (spec_resolve false m sid wa) as [t|] eqn:SR; [|rewrite R; cbn [walk fst snd]; f_equal; lia]);
    destruct (spec_resolve_facts _ _ _ _ _ SR) as [W I]; pose proof (tgt_cost_nonneg t W) as C;
    destruct HV as [LR HV]; specialize (R LR).
  { destruct t as [|i|sg a dw pc|sg a e n0 dw pc]; cbn [fst snd tgt_cost] in *;
      (destruct (R ltac:(lia)) as [cs E]; rewrite E; cbn [walk ptr_of_target p_valid nullPtr negb]; f_equal; lia). }
  destruct t as [|i|sg a dw pc|sg a e n0 dw pc].
  1, 2: cbn [fst snd tgt_cost] in *; destruct (R ltac:(lia)) as [cs E]; rewrite E;
    cbn [walk ptr_of_target p_valid p_kind p_len nullPtr negb]; f_equal; lia.
  - pose proof (dec_struct_nonneg (dec_ptr false f dcap pcap m) m dcap pcap (sv_of_struct sg a dw pc)
                  (fun s0 w0 => dec_ptr_nonneg false f dcap pcap m s0 w0)) as SN.
    destruct (dec_struct (dec_ptr false f dcap pcap m) m dcap pcap (sv_of_struct sg a dw pc)) as [tr cc] eqn:ED.
    cbn [fst snd] in *.
    destruct (R ltac:(lia)) as [cs E]. rewrite E. rewrite Hud.
    change (ptr_of_target (depth - 1) cs (TgtStruct sg a dw pc))
      with (ptr_of_sview (depth - 1) false (sv_of_struct sg a dw pc)).
    rewrite (walk_struct f (IH f ltac:(lia)));
      [rewrite ED; cbn [fst snd]; f_equal; lia| |lia|lia|rewrite ED; cbn [snd]; lia|exact HV].
    apply sview_ok_of_struct; assumption.
  - set (D := dec_list (dec_ptr false f dcap pcap m)
                (fun v => match f with
                          | O => (TFuel, 0)
                          | S f' => dec_struct (dec_ptr false f' dcap pcap m) m dcap pcap v
                          end) m pcap (TgtList sg a e n0 dw pc)) in *.
    assert (DN : tgt_cost (TgtList sg a e n0 dw pc) <= snd D).
    { apply dec_list_cost; [intros; apply dec_ptr_nonneg|].
      intros v. destruct f; [cbn; lia|]. apply dec_struct_nonneg. intros; apply dec_ptr_nonneg. }
    destruct (R ltac:(lia)) as [cs E]. rewrite E. rewrite Hud.
    rewrite (walk_list f (IH f ltac:(lia)) (fun f' E' => IH f' ltac:(lia)));
      [fold D; f_equal; lia| |lia|lia|fold D; lia|exact HV].
    apply list_ok_of_target; assumption.
Qed.

(* walk_eq_spec: for every message, every caps and every fuel: when the segments fit the
   address space, every list MET BY THE DECODER under these caps has a representable element
   count ([vrepr]: only words the decoder reads as pointers are constrained, not data words),
   the depth limit exceeds the fuel and the budget covers the specification's traversal cost,
   walking from any in-bounds pointer word gives exactly the (lenient) specification tree and
   consumes exactly the specification's cost. *)
Theorem walk_eq_spec : forall fuel rl sid s wa depth,
  seg_at m sid = Some s -> in_words s wa 1 = true ->
  Z.of_nat fuel < depth < 18446744073709551616 -> 0 <= rl ->
  spec_cost false fuel dcap pcap m sid wa <= rl ->
  vrepr fuel pcap m sid wa ->
  (let '(r, rl1) := readPtr true m rl sid s (8 * wa) depth in
   walk c fx m dcap pcap fuel rl1 r)
  = (spec_decode false fuel dcap pcap m sid wa, rl - spec_cost false fuel dcap pcap m sid wa).
Proof. exact P_all. Qed.


End Walk.

From CV Require Import Spec.SpecExamples.

(* A three-segment message like SpecExamples.ex_msg (root = FAR pointer to a struct; its first
   pointer a DOUBLE-FAR pointer to a composite list; a capability; a text) whose DATA words look
   like hostile pointers: the struct's data words are 0x0000000700000001 (a composite list
   pointer, offset 0) followed by 0x80000000 (read as a tag: 2^29 elements of size 0), and the
   second list element's data word is 0x80000000 again.  Reading word 1 of segment 1 as a
   pointer gives a list of 2^29 elements, so a condition over ALL words fails on this
   message; the decoder never reads these words as pointers, [vrepr] holds, and walk_eq_spec
   applies. *)
Definition ex_msg2 : list (list Z) :=
  [[2; 0; 0; 0; 1; 0; 0; 0; 8; 0; 0; 0; 1; 0; 1; 0; 7; 0; 0; 0; 0; 0; 0; 0; 0; 0; 0; 0; 0; 0; 0; 0; 0; 0; 0; 128; 0; 0; 0; 0; 3; 0; 0; 0; 5; 0; 0; 0];
   [0; 0; 0; 0; 2; 0; 2; 0; 1; 0; 0; 0; 7; 0; 0; 0; 0; 0; 0; 128; 0; 0; 0; 0; 6; 0; 0; 0; 2; 0; 0; 0; 1; 0; 0; 0; 26; 0; 0; 0; 104; 105; 0; 0; 0; 0; 0; 0];
   [10; 0; 0; 0; 0; 0; 0; 0; 1; 0; 0; 0; 39; 0; 0; 0]].

Definition ex_tree2 : tree :=
  TStruct [1; 0; 0; 0; 7; 0; 0; 0; 0; 0; 0; 128; 0; 0; 0; 0]
    [TComp 2 (mkOS 8 1) [TStruct [7; 0; 0; 0; 0; 0; 0; 0] [TNull]; TStruct [0; 0; 0; 128; 0; 0; 0; 0] [TCap 5]];
     TPrim 1 3 [104; 105; 0]].

Example ex2_bytes_ok : bytes_ok ex_msg2.
Proof. apply bytes_okb_sound. reflexivity. Qed.

Example ex2_segs_small : segs_small ex_msg2.
Proof. unfold segs_small, seg_small, ex_msg2, blen, maxSegmentSize. repeat constructor; cbn; lia. Qed.

Example ex2_vrepr : vrepr 6 8 ex_msg2 0 0.
Proof. apply vrepr_check_sound. vm_compute. reflexivity. Qed.

(* the condition quantified over every word, not only those the decoder visits, is false here *)
Example ex2_all_words_condition_fails :
  ~ (forall sid wa t, spec_resolve false ex_msg2 sid wa = Some t -> list_repr t).
Proof.
  intro H. specialize (H 1 1 (TgtList 1 3 7 536870912 0 0)).
  assert (E : spec_resolve false ex_msg2 1 1 = Some (TgtList 1 3 7 536870912 0 0)) by (vm_compute; reflexivity).
  specialize (H E). cbn in H. lia.
Qed.

(* all hypotheses of walk_eq_spec hold for this message; its conclusion, instantiated *)
Example ex2_walk_eq_spec_applies :
  (let '(r, rl1) := readPtr true ex_msg2 1000000 0 (nth 0 ex_msg2 []) (8 * 0) 64 in
   walk ex_cfg (mkFix true true true) ex_msg2 64 8 6 rl1 r)
  = (spec_decode false 6 64 8 ex_msg2 0 0, 1000000 - spec_cost false 6 64 8 ex_msg2 0 0)
  /\ spec_decode false 6 64 8 ex_msg2 0 0 = ex_tree2.
Proof.
  split; [|vm_compute; reflexivity].
  apply (walk_eq_spec ex_cfg ex_msg2 64 8 eq_refl ex2_bytes_ok ex2_segs_small 6 1000000 0 (nth 0 ex_msg2 []) 0 64).
  - reflexivity.
  - reflexivity.
  - cbn; lia.
  - lia.
  - vm_compute. discriminate.
  - exact ex2_vrepr.
Qed.
