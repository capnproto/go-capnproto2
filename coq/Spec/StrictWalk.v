(* Bridge between the strict decoder (C05) and the walker theorem (C03, lenient decoder):
   where strict and lenient resolution coincide on the pointer words the decoder visits, the
   two decoders give the same tree; a strictly valid message (strict_valid_message = VOk) has
   that property; hence on a strictly valid message the walker computes the STRICT tree. *)
From CV Require Import Core.Arith Core.Reader Core.ReadOps Spec.Spec Spec.SpecProofs Spec.WalkProofs
  Spec.SpecValid Spec.SpecValidProofs.
From Coq Require Import ZifyBool ZifyNat ZifyN Lia.
Ltac Zify.zify_post_hook ::= Z.div_mod_to_equations.
Open Scope Z_scope.

(* strict and lenient resolution coincide on every pointer word the decoder visits *)
Fixpoint vagree (fuel : nat) (pcap : Z) (m : list (list Z)) (sid wa : Z) {struct fuel} : Prop :=
  spec_resolve true m sid wa = spec_resolve false m sid wa /\
  match spec_resolve false m sid wa with
  | None => True
  | Some t =>
    match fuel with
    | O => True
    | S f =>
      match t with
      | TgtStruct seg a dw pc => vrepr_view (vagree f pcap m) pcap (sv_of_struct seg a dw pc)
      | TgtList seg a e n dw pc =>
        if e =? 6 then forall i, 0 <= i < Z.of_nat (count_cap n pcap) -> vagree f pcap m seg (a + i)
        else if e =? 7 then
          match f with
          | O => True
          | S f' => forall i, 0 <= i < Z.of_nat (count_cap n pcap) ->
                    vrepr_view (vagree f' pcap m) pcap (mkSV seg (8 * (a + i * (dw + pc))) (8 * dw) pc)
          end
        else True
      | _ => True
      end
    end
  end.

Lemma sum_costs_ext : forall {A} (F G : Z -> A * Z) n i0,
  (forall i, i0 <= i < i0 + Z.of_nat n -> F i = G i) -> sum_costs F i0 n = sum_costs G i0 n.
Proof.
  intros A F G n. induction n as [|n IH]; intros i0 H; [reflexivity|].
  cbn [sum_costs]. rewrite (H i0) by lia. rewrite (IH (i0 + 1)) by (intros; apply H; lia). reflexivity.
Qed.

Lemma dec_struct_ext : forall (r1 r2 : Z -> Z -> tree * Z) m dcap pcap v,
  (forall i, 0 <= i < Z.of_nat (count_cap (sv_pc v) pcap) -> r1 (sv_seg v) (sv_ptr_word v i) = r2 (sv_seg v) (sv_ptr_word v i)) ->
  dec_struct r1 m dcap pcap v = dec_struct r2 m dcap pcap v.
Proof.
  intros r1 r2 m dcap pcap v H. rewrite !dec_struct_eq.
  rewrite (sum_costs_ext (fun i => r1 (sv_seg v) (sv_ptr_word v i)) (fun i => r2 (sv_seg v) (sv_ptr_word v i)))
    by (intros; apply H; lia). reflexivity.
Qed.

Lemma dec_agree : forall fuel dcap pcap m sid wa,
  vagree fuel pcap m sid wa -> dec_ptr true fuel dcap pcap m sid wa = dec_ptr false fuel dcap pcap m sid wa.
Proof.
  induction fuel as [fuel IH] using lt_wf_ind. intros dcap pcap m sid wa H.
  destruct fuel as [|f]; cbn [vagree dec_ptr] in *; destruct H as [E H]; rewrite E; [reflexivity|].
  destruct (spec_resolve false m sid wa) as [t|]; [|reflexivity].
  destruct t as [|i|sg a dw pc|sg a e k dw pc]; try reflexivity.
  - rewrite (dec_struct_ext (dec_ptr true f dcap pcap m) (dec_ptr false f dcap pcap m)); [reflexivity|].
    intros i Hi. apply IH; [lia|]. apply H. exact Hi.
  - unfold dec_list. destruct (e =? 1); [reflexivity|].
    destruct (e =? 7) eqn:E7.
    { destruct (e =? 6) eqn:E6; [lia|]. rewrite ?E6, ?E7 in H. cbv iota in H.
      rewrite (sum_costs_ext
        (fun i => match f with O => (TFuel, 0) | S f' => dec_struct (dec_ptr true f' dcap pcap m) m dcap pcap
                    (mkSV sg (8 * (a + i * (dw + pc))) (8 * dw) pc) end)
        (fun i => match f with O => (TFuel, 0) | S f' => dec_struct (dec_ptr false f' dcap pcap m) m dcap pcap
                    (mkSV sg (8 * (a + i * (dw + pc))) (8 * dw) pc) end)); [reflexivity|].
      intros i Hi. destruct f as [|f']; [reflexivity|].
      apply dec_struct_ext. intros j Hj. apply IH; [lia|]. apply (H i ltac:(lia)). exact Hj. }
    destruct (e =? 6) eqn:E6.
    { rewrite ?E6 in H. cbv iota in H. rewrite (sum_costs_ext (fun i => dec_ptr true f dcap pcap m sg (a + i))
                             (fun i => dec_ptr false f dcap pcap m sg (a + i))); [reflexivity|].
      intros i Hi. apply IH; [lia|]. apply H. lia. }
    reflexivity.
Qed.

Lemma In_map_zseq : forall {A} (g : Z -> A) k i, 0 <= i < Z.of_nat k -> In (g i) (map g (zseq 0 k)).
Proof. intros A g k i H. apply in_map. apply zseq_In. lia. Qed.

Lemma count_cap_le : forall n cap, Z.of_nat (count_cap n cap) <= Z.of_nat (Z.to_nat n).
Proof. intros. unfold count_cap. lia. Qed.

Definition all_strict (m : list (list Z)) (x : Z * Z) : Prop :=
  forall z, reach m x z -> exists t, spec_resolve true m (fst z) (snd z) = Some t.

Lemma all_strict_child : forall m x y, all_strict m x -> child m x y -> all_strict m y.
Proof. intros m x y H C z R. apply H. eapply reach_step; eauto. Qed.

Lemma vagree_of_all_strict : forall fuel pcap m sid wa,
  all_strict m (sid, wa) -> vagree fuel pcap m sid wa.
Proof.
  induction fuel as [fuel IH] using lt_wf_ind. intros pcap m sid wa H.
  destruct (H (sid, wa) (reach_refl m _)) as [t SR]. cbn [fst snd] in SR.
  pose proof (spec_resolve_strict_lenient _ _ _ _ SR) as SL.
  destruct fuel as [|f]; cbn [vagree]; rewrite SL, SR; (split; [reflexivity|]); [exact Logic.I|].
  assert (CH : forall y, In y (ptr_slots t) -> all_strict m y).
  { intros y Hy. eapply all_strict_child; [exact H|]. exists t. cbn [fst snd]. split; assumption. }
  destruct t as [|i|sg a dw pc|sg a e k dw pc]; try exact Logic.I.
  - intros i Hi. apply IH; [lia|]. apply CH. cbn [ptr_slots sv_seg sv_of_struct].
    rewrite (proj1 (slots_are_decoder_slots sg a dw pc i 0)).
    apply (In_map_zseq (fun i => (sg, a + dw + i))). unfold sv_of_struct in Hi. cbn [sv_pc] in Hi.
    pose proof (count_cap_le pc pcap). lia.
  - destruct (e =? 6) eqn:E6.
    + intros i Hi. apply IH; [lia|]. apply CH. cbn [ptr_slots]. rewrite E6.
      apply (In_map_zseq (fun i => (sg, a + i))). pose proof (count_cap_le k pcap). lia.
    + destruct (e =? 7) eqn:E7; [|exact Logic.I]. destruct f as [|f']; [exact Logic.I|].
      intros i Hi j Hj. apply IH; [lia|]. apply CH. cbn [ptr_slots sv_seg]. rewrite E6, E7.
      assert (Hpc : (0 <? pc) = true) by (cbn [sv_pc] in Hj; unfold count_cap in Hj; lia).
      rewrite Hpc. cbn [andb]. apply in_flat_map. exists i. split.
      { apply zseq_In. pose proof (count_cap_le k pcap). lia. }
      rewrite (proj2 (slots_are_decoder_slots sg a dw pc i j)).
      apply (In_map_zseq (fun j => (sg, a + i * (dw + pc) + dw + j))).
      cbn [sv_pc] in Hj. pose proof (count_cap_le pc pcap). lia.
Qed.

(* on a strictly valid message the strict and the lenient decoder give the same tree and cost,
   for every fuel and caps *)
Theorem strict_valid_decoders_agree : forall fuel0 m, strict_valid_message fuel0 m = VOk ->
  forall fuel dcap pcap, dec_ptr true fuel dcap pcap m 0 0 = dec_ptr false fuel dcap pcap m 0 0.
Proof.
  intros fuel0 m V fuel dcap pcap. apply dec_agree.
  apply vagree_of_all_strict.
  intros z R. destruct (strict_valid_sound fuel0 m V) as (_ & A & _).
  destruct (A z R) as (t & St & _). exists t. exact St.
Qed.

(* hence: on a strictly valid message, read from the root with sufficient limits, the generic
   walker over the Go-faithful accessors returns exactly the STRICT specification tree (same
   premises as walk_eq_spec; [vrepr] is still needed: a strictly valid composite list of
   zero-sized elements may announce 2^29 or more elements, which the reader refuses) *)
Theorem strict_valid_walk : forall (c : config) fuel0 (m : list (list Z)) (dcap pcap : Z),
  cfg_strict c = true -> bytes_ok m -> segs_small m -> strict_valid_message fuel0 m = VOk ->
  forall fuel rl s depth,
  seg_at m 0 = Some s -> in_words s 0 1 = true ->
  Z.of_nat fuel < depth < 18446744073709551616 -> 0 <= rl ->
  spec_cost true fuel dcap pcap m 0 0 <= rl ->
  vrepr fuel pcap m 0 0 ->
  (let '(r, rl1) := readPtr true m rl 0 s (8 * 0) depth in
   walk c (mkFix true true true) m dcap pcap fuel rl1 r)
  = (spec_decode true fuel dcap pcap m 0 0, rl - spec_cost true fuel dcap pcap m 0 0).
Proof.
  intros c fuel0 m dcap pcap Hc Hb Hs V fuel rl s depth Hseg Hin Hd Hrl HC HV.
  unfold spec_decode, spec_cost in *. rewrite (strict_valid_decoders_agree fuel0 m V fuel dcap pcap) in *.
  apply (walk_eq_spec c m dcap pcap Hc Hb Hs fuel rl 0 s 0 depth); assumption.
Qed.

(* non-vacuity: the three-segment message of SpecExamples meets every premise *)
From CV Require Import Spec.SpecExamples.
Example strict_valid_walk_applies :
  (let '(r, rl1) := readPtr true ex_msg 1000000 0 (nth 0 ex_msg []) (8 * 0) 64 in
   walk ex_cfg (mkFix true true true) ex_msg 64 8 6 rl1 r)
  = (spec_decode true 6 64 8 ex_msg 0 0, 1000000 - spec_cost true 6 64 8 ex_msg 0 0)
  /\ spec_decode true 6 64 8 ex_msg 0 0 = ex_tree.
Proof.
  split; [|vm_compute; reflexivity].
  apply (strict_valid_walk ex_cfg 8%nat ex_msg 64 8 eq_refl ex_bytes_ok ex_segs_small ex_msg_strictly_valid
                           6%nat 1000000 (nth 0 ex_msg []) 64).
  - reflexivity.
  - reflexivity.
  - cbn; lia.
  - lia.
  - vm_compute. discriminate.
  - apply vrepr_check_sound. vm_compute. reflexivity.
Qed.
