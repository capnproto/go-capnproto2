(* The streaming decoder (Reader.ReadWord): what a reader state still has to produce when the
   rest of the input is accepted by the one-shot decoder. *)
From CV Require Import Packed.Packed Packed.PackSpec Packed.PackedProofs.
Open Scope Z_scope.

(* what remains to be produced from reader state [st] and remaining input [inp] *)
Definition expected (st : rstate) (inp : list Z) : option (list Z) :=
  let k := (8 * Z.to_nat (r_literal st))%nat in
  if (length inp <? k)%nat then None
  else option_map (fun r => zeros (8 * Z.to_nat (r_zeroes st)) ++ firstn k inp ++ r)
                  (unpack_s true (skipn k inp)).

Definition agrees (res : option (list Z * rerr)) (exp : option (list Z)) : Prop :=
  match exp with
  | Some out => res = Some (out, EOF)
  | None => exists o, res = Some (o, UnexpectedEOF)
  end.

(* F08 as found: a literal run cut at a word boundary ends the stream with a clean EOF *)
Example reader_prefix_refuted :
  exists p, unpack p = None /\ stream_unpack false (fun _ => false) p = Some (repeat 1 8, EOF).
Proof. exists [255;1;1;1;1;1;1;1;1;1]. split; vm_compute; reflexivity. Qed.
