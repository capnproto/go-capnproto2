(* Round trip through the streaming Reader as ONE statement: packing a word-aligned byte string
   and reading the packed form back through Reader.Read, with any request sizes and any
   fast-path / short-read choices, returns the string and a clean EOF.  Composition of
   PackedProofs.pack_bytes_props (pack is total on word-aligned bytes, its output is
   bytes, unpack inverts it) with ReadCallProofs.read_calls_agree. *)
From CV Require Import Packed.Packed Packed.PackSpec Packed.PackedProofs Packed.ReaderProofs
  Packed.ReadCallProofs.
Open Scope Z_scope.

Lemma stream_roundtrip : forall bs orc sizes fuel, bytes_ok bs -> (length bs mod 8 = 0)%nat ->
  exists p, pack_bytes bs = Some p /\
   ((2304 * length p + 1 <= fuel)%nat -> read_calls true fuel orc 0 b_init p sizes 0 = Some (bs, EOF)).
Proof.
  intros bs orc sizes fuel Hb Hm.
  destruct (pack_bytes_props bs Hb Hm) as [p [Hp [Hu Hok]]].
  exists p. split; [exact Hp|]. intros Hf.
  pose proof (read_calls_agree orc sizes p Hok fuel Hf) as H. rewrite Hu in H. exact H.
Qed.

Lemma growth_tight : unpack [0; 255] = Some (repeat 0 2048).
Proof. vm_compute. reflexivity. Qed.
