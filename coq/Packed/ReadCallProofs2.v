(* Reader.Read on streams the one-shot decoder REJECTS: [unpack_partial] is the
   output determined by the complete items of a packed string plus the whole words
   determined by its cut last item; [read_calls_partial] says that, for every oracle and
   all request sizes, the Read calls return exactly [fst (unpack_partial inp)] and then
   EOF / UnexpectedEOF according to [snd] (the ladder of ReadCallProofs.v at the total
   denotation [EP'] / [DP]);
   [unpack_partial_unpack]   : it is [unpack]'s output when [unpack] accepts,
   [unpack_partial_app]      : it extends the output of every accepted prefix,
   [unpack_partial_sound]    : it is a prefix of [unpack]'s output on an accepted
                               extension of the input (no invented bytes),
   and [read_calls_prefix] combines them at the Read interface. *)
From CV Require Import Packed.Packed.
From CV Require Import Packed.PackSpec.
From CV Require Import Packed.PackedProofs.
From CV Require Import Packed.ReaderProofs.
From CV Require Import Packed.ReadCallProofs.
From Coq Require Import ZifyBool ZifyNat.
Open Scope Z_scope.

Definition pmap (w : list Z) (x : list Z * bool) : list Z * bool := (w ++ fst x, snd x).

Lemma pmap_nil x : pmap [] x = x.
Proof. destruct x; reflexivity. Qed.

Lemma pmap_pmap a b x : pmap a (pmap b x) = pmap (a ++ b) x.
Proof. unfold pmap. cbn [fst snd]. now rewrite app_assoc. Qed.

(* Specification function (no Go counterpart): the output determined by a packed string that
   may be cut anywhere.  Complete items contribute what [unpack] gives for them; the cut last
   item contributes the whole words it determines (its tag word if all bytes of that word are
   present; the literal words that are completely present); the flag says whether the string
   is a complete sequence of items (= [unpack] accepts). *)
Fixpoint unpack_partial_f (fuel : nat) (src : list Z) : list Z * bool :=
  match src with
  | [] => ([], true)
  | tag :: s =>
    match fuel with
    | O => ([], false)
    | S f =>
      match take_bits 8 tag s with
      | None => ([], false)
      | Some (w, s1) =>
        if tag =? 0 then
          match s1 with
          | [] => (w, false)
          | n :: s2 => pmap (w ++ zeros (8 * Z.to_nat n)) (unpack_partial_f f s2)
          end
        else if tag =? 255 then
          match s1 with
          | [] => (w, false)
          | n :: s2 =>
            let k := (8 * Z.to_nat n)%nat in
            if (length s2 <? k)%nat then (w ++ firstn (8 * (length s2 / 8)) s2, false)
            else pmap (w ++ firstn k s2) (unpack_partial_f f (skipn k s2))
          end
        else pmap w (unpack_partial_f f s1)
      end
    end
  end.

Definition unpack_partial (src : list Z) : list Z * bool := unpack_partial_f (length src) src.

Definition verdict (ok : bool) : rerr := if ok then EOF else UnexpectedEOF.

Lemma unpack_partial_f_fuel : forall f1 f2 src,
  (length src <= f1)%nat -> (length src <= f2)%nat ->
  unpack_partial_f f1 src = unpack_partial_f f2 src.
Proof.
  induction f1 as [|f1 IH]; intros f2 src H1 H2.
  - destruct src; [destruct f2; reflexivity|simpl in H1; lia].
  - destruct src as [|tag s]; [destruct f2; reflexivity|].
    destruct f2 as [|f2]; [simpl in H2; lia|].
    simpl in H1, H2. cbn [unpack_partial_f].
    destruct (take_bits 8 tag s) as [[w s1]|] eqn:E; [|reflexivity].
    apply take_bits_length in E. destruct E as (_ & E & _).
    destruct (tag =? 0).
    { destruct s1 as [|n s2]; [reflexivity|]. simpl in E. rewrite (IH f2 s2) by lia. reflexivity. }
    destruct (tag =? 255).
    { destruct s1 as [|n s2]; [reflexivity|]. simpl in E. cbv zeta.
      destruct (length s2 <? 8 * Z.to_nat n)%nat; [reflexivity|].
      rewrite (IH f2 (skipn (8 * Z.to_nat n) s2)); [reflexivity| |]; rewrite skipn_length; lia. }
    rewrite (IH f2 s1) by lia. reflexivity.
Qed.

Lemma unpack_partial_nil : unpack_partial [] = ([], true).
Proof. reflexivity. Qed.

(* the unfolding equation at canonical fuel *)
Lemma unpack_partial_cons tag s :
  unpack_partial (tag :: s) =
  match take_bits 8 tag s with
  | None => ([], false)
  | Some (w, s1) =>
    if tag =? 0 then
      match s1 with
      | [] => (w, false)
      | n :: s2 => pmap (w ++ zeros (8 * Z.to_nat n)) (unpack_partial s2)
      end
    else if tag =? 255 then
      match s1 with
      | [] => (w, false)
      | n :: s2 =>
        let k := (8 * Z.to_nat n)%nat in
        if (length s2 <? k)%nat then (w ++ firstn (8 * (length s2 / 8)) s2, false)
        else pmap (w ++ firstn k s2) (unpack_partial (skipn k s2))
      end
    else pmap w (unpack_partial s1)
  end.
Proof.
  unfold unpack_partial. cbn [length unpack_partial_f].
  destruct (take_bits 8 tag s) as [[w s1]|] eqn:E; [|reflexivity].
  apply take_bits_length in E. destruct E as (_ & E & _).
  destruct (tag =? 0).
  { destruct s1 as [|n s2]; [reflexivity|]. simpl in E.
    rewrite (unpack_partial_f_fuel (length s) (length s2) s2) by lia. reflexivity. }
  destruct (tag =? 255).
  { destruct s1 as [|n s2]; [reflexivity|]. simpl in E. cbv zeta.
    destruct (length s2 <? 8 * Z.to_nat n)%nat; [reflexivity|].
    rewrite (unpack_partial_f_fuel (length s) (length (skipn (8 * Z.to_nat n) s2))); [reflexivity| |];
      rewrite ?skipn_length; lia. }
  rewrite (unpack_partial_f_fuel (length s) (length s1) s1) by lia. reflexivity.
Qed.

(* along the items: a complete item contributes its output; a cut item ends the string, and
   not cleanly *)
Lemma unpack_partial_item src : src <> [] ->
  match item true src with
  | Some (o, r) => unpack_partial src = pmap o (unpack_partial r)
  | None => snd (unpack_partial src) = false
  end.
Proof.
  destruct src as [|tag s]; [congruence|]. intros _. rewrite unpack_partial_cons. unfold item.
  destruct (take_bits 8 tag s) as [[w s1]|]; [|reflexivity].
  destruct (tag =? 0); [destruct s1; reflexivity|].
  destruct (tag =? 255); [|reflexivity].
  destruct s1 as [|n s2]; [reflexivity|]. cbv zeta. rewrite andb_true_l.
  destruct (length s2 <? 8 * Z.to_nat n)%nat eqn:E; [reflexivity|].
  replace (8 * Z.to_nat n - length s2)%nat with O by lia. cbn [zeros repeat]. now rewrite app_nil_r.
Qed.

(* on accepted strings it is the one-shot output; the flag is [unpack]'s verdict *)
Theorem unpack_partial_unpack src :
  match unpack src with
  | Some out => unpack_partial src = (out, true)
  | None => snd (unpack_partial src) = false
  end.
Proof.
  change (unpack src) with (unpack_s true src).
  induction src as [|src Hne IH] using (item_ind true); [reflexivity|].
  rewrite unpack_s_item by assumption. pose proof (unpack_partial_item src Hne) as HP.
  destruct (item true src) as [[o r]|]; [|exact HP]. specialize (IH o r eq_refl). rewrite HP.
  destruct (unpack_s true r) as [out|]; cbn [option_map]; [now rewrite IH|exact IH].
Qed.

(* total denotation of a reader state: what will be handed out, and whether the end is clean
   (the P of [EP], [DP], [endsP], [pmap] is that of [unpack_partial]) *)
Definition EP (st : rstate) (inp : list Z) : list Z * bool :=
  let k := (8 * Z.to_nat (r_literal st))%nat in
  pmap (zeros (8 * Z.to_nat (r_zeroes st)))
       (if (length inp <? k)%nat then (firstn (8 * (length inp / 8)) inp, false)
        else pmap (firstn k inp) (unpack_partial (skipn k inp))).

Definition EP' (st : rstate) (inp : list Z) : list Z * bool :=
  match r_err st with Some _ => ([], false) | None => EP st inp end.

Lemma EP_idle s : EP (mkR 0 0 None) s = unpack_partial s.
Proof.
  unfold EP. cbn [r_zeroes r_literal]. change (8 * Z.to_nat 0)%nat with O.
  cbn [Nat.ltb Nat.leb skipn firstn zeros repeat]. now rewrite !pmap_nil.
Qed.

Lemma EP_zero z l inp : 0 < z ->
  EP (mkR z l None) inp = pmap (zeros 8) (EP (mkR (z - 1) l None) inp).
Proof.
  intros Hz. unfold EP. cbn [r_zeroes r_literal]. rewrite pmap_pmap, zeros_app.
  f_equal. f_equal. lia.
Qed.

Lemma EP_lit l inp : 0 < l -> (8 <= length inp)%nat ->
  EP (mkR 0 l None) inp = pmap (firstn 8 inp) (EP (mkR 0 (l - 1) None) (skipn 8 inp)).
Proof.
  intros Hl H8. unfold EP. cbn [r_zeroes r_literal]. change (zeros (8 * Z.to_nat 0)) with (@nil Z).
  rewrite !pmap_nil. rewrite skipn_length.
  replace (8 * Z.to_nat l)%nat with (8 + 8 * Z.to_nat (l - 1))%nat by lia.
  destruct (length inp <? 8 + 8 * Z.to_nat (l - 1))%nat eqn:E1.
  - replace (length inp - 8 <? 8 * Z.to_nat (l - 1))%nat with true by lia.
    unfold pmap. cbn [fst snd]. f_equal.
    replace (8 * (length inp / 8))%nat with (8 + 8 * ((length inp - 8) / 8))%nat by lia.
    apply firstn_add.
  - replace (length inp - 8 <? 8 * Z.to_nat (l - 1))%nat with false by lia.
    rewrite skipn_skipn'. rewrite (Nat.add_comm (8 * Z.to_nat (l - 1)) 8).
    rewrite pmap_pmap, firstn_add. reflexivity.
Qed.

Lemma EP_lit_short l inp : 0 < l -> (length inp < 8)%nat -> EP (mkR 0 l None) inp = ([], false).
Proof.
  intros Hl H8. unfold EP. cbn [r_zeroes r_literal]. change (zeros (8 * Z.to_nat 0)) with (@nil Z).
  rewrite pmap_nil. replace (length inp <? 8 * Z.to_nat l)%nat with true by lia.
  replace (length inp / 8)%nat with O by lia. reflexivity.
Qed.

(* [x] is: the bytes [g], then the error [e] *)
Definition endsP (g : list Z) (e : rerr) (x : list Z * bool) : Prop :=
  fst x = g /\ e = verdict (snd x).

Lemma endsP_pmap w g e x : endsP g e x -> endsP (w ++ g) e (pmap w x).
Proof. unfold endsP, pmap. cbn [fst snd]. intros [<- ->]. split; reflexivity. Qed.

(* one ReadWord call against the total denotation *)
Lemma read_word_specP fast st inp st' inp' out :
  rvalid st -> read_word true fast st inp = (st', inp', out) ->
  match out with
  | RWord w => EP' st inp = pmap w (EP' st' inp')
  | RErr e => endsP [] e (EP' st inp)
  end.
Proof.
  destruct st as [z l e]. unfold rvalid, EP'. cbn [r_zeroes r_literal r_err].
  intros (Hz & Hl & He). unfold read_word. cbn [r_err r_zeroes r_literal].
  destruct e as [e|]; [inj3; split; [reflexivity|now apply He]|].
  destruct (0 <? z) eqn:Ez; [inj3; apply EP_zero; lia|].
  assert (z = 0) by lia. subst z.
  destruct (0 <? l) eqn:El.
  { destruct (8 <=? length inp)%nat eqn:E8; [inj3; apply EP_lit; lia|].
    destruct inp; inj3; rewrite EP_lit_short by lia; split; reflexivity. }
  assert (l = 0) by lia. subst l. rewrite EP_idle.
  destruct inp as [|tag s]; [inj3; split; reflexivity|].
  rewrite word_choice, unpack_partial_cons.
  destruct (take_bits 8 tag s) as [[w s1]|] eqn:E; [|inj3; split; reflexivity].
  destruct (tag =? 0).
  { destruct s1 as [|n s2]; inj3; cbn [r_err].
    - unfold pmap. cbn [fst snd]. now rewrite app_nil_r.
    - rewrite <- pmap_pmap. f_equal. }
  destruct (tag =? 255).
  { destruct s1 as [|n s2]; inj3; cbn [r_err].
    - unfold pmap. cbn [fst snd]. now rewrite app_nil_r.
    - cbv zeta. unfold EP. cbn [r_zeroes r_literal].
      change (zeros (8 * Z.to_nat 0)) with (@nil Z). rewrite pmap_nil.
      destruct (length s2 <? 8 * Z.to_nat n)%nat; [reflexivity|].
      now rewrite pmap_pmap. }
  inj3. cbn [r_err]. now rewrite EP_idle.
Qed.

(* total denotation of the byte-level state *)
Definition DP (b : bstate) (inp : list Z) : list Z * bool :=
  pmap (skipn (b_idx b) (b_word b)) (EP' (b_r b) inp).

(* One Read(p) call against the total denotation: the bytes returned are the next bytes of the
   denotation; an error is EOF exactly when the denotation ends cleanly with these bytes. *)
Lemma read_call_specP orc k st inp n k' st' inp' got oe :
  bvalid st -> bytes_ok inp ->
  read_call true orc k st inp n = (k', st', inp', got, oe) ->
  match oe with
  | None => DP st inp = pmap got (DP st' inp')
  | Some e => endsP got e (DP st inp)
  end.
Proof. exact (read_call_den _ pmap endsP EP' pmap_nil pmap_pmap endsP_pmap read_word_specP orc k st inp n k' st' inp' got oe). Qed.

Theorem read_calls_specP : forall fuel orc k st inp sizes j,
  bvalid st -> bytes_ok inp -> (bmeasure st inp < fuel)%nat ->
  read_calls true fuel orc k st inp sizes j
  = Some (fst (DP st inp), verdict (snd (DP st inp))).
Proof.
  intros fuel orc k st inp sizes j Hv Hb Hf.
  destruct (read_calls_den _ pmap endsP EP' pmap_nil pmap_pmap endsP_pmap read_word_specP
              fuel orc k st inp sizes j Hv Hb Hf) as (o & e & -> & <- & ->).
  reflexivity.
Qed.

Lemma DP_init inp : DP b_init inp = unpack_partial inp.
Proof.
  unfold DP, b_init, EP'. cbn [b_r b_word b_idx r_init r_err].
  fold r_init. change r_init with (mkR 0 0 None). rewrite EP_idle.
  change (skipn 8 (zeros 8)) with (@nil Z). apply pmap_nil.
Qed.

(* For every input (accepted by the one-shot decoder or not), every sequence of request sizes
   (each >= 1), every fast-path oracle and every short-read oracle: the Read calls hand out
   exactly the determined output of the input, then report EOF if the input is a complete
   sequence of items and UnexpectedEOF otherwise. *)
Theorem read_calls_partial : forall orc sizes inp, bytes_ok inp ->
  forall fuel, (2304 * length inp + 1 <= fuel)%nat ->
  read_calls true fuel orc 0 b_init inp sizes 0
  = Some (fst (unpack_partial inp), verdict (snd (unpack_partial inp))).
Proof.
  intros orc sizes inp Hb fuel Hf. rewrite <- DP_init.
  apply read_calls_specP; [exact b_init_valid|assumption|]. pose proof (bmeasure_init inp). lia.
Qed.

(* a tag word that is cut can be completed *)
Lemma take_bits_complete : forall n tag s, take_bits n tag s = None ->
  exists e w, bytes_ok e /\ take_bits n tag (s ++ e) = Some (w, []).
Proof.
  induction n as [|n IH]; intros tag s H; cbn [take_bits] in H; [discriminate|].
  assert (B0 : byte_ok 0) by (unfold byte_ok; lia).
  destruct (Z.odd tag) eqn:Eo.
  - destruct s as [|x s0].
    + destruct (take_bits n (tag / 2) []) as [[w0 s0']|] eqn:E.
      * pose proof (take_bits_length _ _ _ _ _ E) as (_ & Hl & _). cbn [length] in Hl.
        destruct s0'; [|cbn [length] in Hl; lia].
        exists [0], (0 :: w0). split; [constructor; [exact B0|constructor]|].
        cbn [app take_bits]. now rewrite Eo, E.
      * destruct (IH _ _ E) as (e & w & He & Ht). cbn [app] in Ht.
        exists (0 :: e), (0 :: w). split; [constructor; assumption|].
        cbn [app take_bits]. now rewrite Eo, Ht.
    + destruct (take_bits n (tag / 2) s0) as [[w0 s0']|] eqn:E; [discriminate|].
      destruct (IH _ _ E) as (e & w & He & Ht).
      exists e, (x :: w). split; [assumption|]. cbn [app take_bits]. now rewrite Eo, Ht.
  - destruct (take_bits n (tag / 2) s) as [[w0 s0']|] eqn:E; [discriminate|].
    destruct (IH _ _ E) as (e & w & He & Ht).
    exists e, (0 :: w). split; [assumption|]. cbn [take_bits]. now rewrite Eo, Ht.
Qed.

(* completeness: whatever follows an accepted prefix, the determined output starts with the
   one-shot output of that prefix (and continues with the determined output of the rest) *)
Theorem unpack_partial_app good rest out : unpack good = Some out ->
  unpack_partial (good ++ rest) = pmap out (unpack_partial rest).
Proof.
  unfold unpack. fold (unpack_s true good). revert out.
  induction good as [|src Hne IH] using (item_ind true); intros out H.
  - rewrite unpack_s_nil in H. apply Some_inj in H. subst out. cbn [app]. now rewrite pmap_nil.
  - rewrite unpack_s_item in H by assumption.
    destruct (item true src) as [[o r]|] eqn:Ei; [|discriminate].
    destruct (unpack_s true r) as [or|] eqn:Er; [|discriminate]. apply Some_inj in H. subst out.
    pose proof (unpack_partial_item (src ++ rest)) as HP. rewrite (item_app _ _ _ rest Ei) in HP.
    rewrite HP by (destruct src; [congruence|discriminate]).
    rewrite (IH o r eq_refl or Er). apply pmap_pmap.
Qed.

(* the whole words determined by a cut item are the beginning of what the item gives once the
   string is continued *)
Lemma item_cut src rest o' r' : src <> [] -> item true src = None ->
  item true (src ++ rest) = Some (o', r') -> exists more, o' = fst (unpack_partial src) ++ more.
Proof.
  destruct src as [|tag s]; [congruence|]. intros _. cbn [app]. rewrite unpack_partial_cons.
  unfold item. destruct (take_bits 8 tag s) as [[w s1]|] eqn:E; [|now exists o'].
  rewrite (take_bits_app _ _ _ _ _ rest E).
  destruct (tag =? 0).
  { destruct s1 as [|c s2]; [|discriminate]. intros _. cbn [app fst].
    destruct rest as [|c r2]; [discriminate|].
    intros H. apply Some_pair_inj in H. destruct H as [<- _]. now eexists. }
  destruct (tag =? 255); [|discriminate].
  destruct s1 as [|c s2]; cbn [app fst]; cbv zeta; rewrite ?andb_true_l.
  { intros _. destruct rest as [|c r2]; [discriminate|].
    destruct (length r2 <? 8 * Z.to_nat c)%nat; [discriminate|].
    intros H. apply Some_pair_inj in H. destruct H as [<- _]. now eexists. }
  destruct (length s2 <? 8 * Z.to_nat c)%nat eqn:El; [|discriminate]. intros _.
  destruct (length (s2 ++ rest) <? 8 * Z.to_nat c)%nat; [discriminate|].
  intros H. apply Some_pair_inj in H. destruct H as [<- _]. cbn [fst].
  rewrite firstn_app, (firstn_all2 s2) by lia.
  exists (skipn (8 * (length s2 / 8)) s2 ++ firstn (8 * Z.to_nat c - length s2) rest ++
          zeros (8 * Z.to_nat c - length (s2 ++ rest))).
  rewrite <- !app_assoc. f_equal. now rewrite (app_assoc (firstn _ s2)), firstn_skipn.
Qed.

(* what the reader hands out for a prefix of a packed string is a prefix of what the one-shot
   decoder returns for the whole string (for THE continuation at hand, not just for some) *)
Lemma unpack_partial_of_prefix src rest U : unpack (src ++ rest) = Some U ->
  exists more, U = fst (unpack_partial src) ++ more.
Proof.
  unfold unpack. fold (unpack_s true (src ++ rest)). revert U.
  induction src as [|src Hne IH] using (item_ind true); intros U H; [now exists U|].
  rewrite unpack_s_item in H by (destruct src; [congruence|discriminate]).
  destruct (item true (src ++ rest)) as [[o' r']|] eqn:Ei'; [|discriminate].
  destruct (unpack_s true r') as [U'|] eqn:EU; [|discriminate]. apply Some_inj in H. subst U.
  pose proof (unpack_partial_item src Hne) as HP.
  destruct (item true src) as [[o r]|] eqn:Ei.
  - rewrite (item_app _ _ _ rest Ei) in Ei'. apply Some_pair_inj in Ei'. destruct Ei' as [<- <-].
    destruct (IH o r eq_refl U' EU) as [more ->]. rewrite HP. exists more.
    unfold pmap. cbn [fst]. now rewrite app_assoc.
  - destruct (item_cut src rest o' r' Hne Ei Ei') as [more ->]. exists (more ++ U').
    now rewrite app_assoc.
Qed.

(* a cut item can be completed *)
Lemma item_complete src : src <> [] -> item true src = None ->
  exists ext o, bytes_ok ext /\ item true (src ++ ext) = Some (o, []).
Proof.
  assert (B0 : bytes_ok [0]) by (repeat constructor; unfold byte_ok; lia).
  destruct src as [|tag s]; [congruence|]. intros _. cbn [app]. unfold item.
  destruct (take_bits 8 tag s) as [[w s1]|] eqn:E.
  2:{ (* the tag word itself is cut *)
    intros _. destruct (take_bits_complete _ _ _ E) as (e & w & He & Ht).
    destruct (tag =? 0); [|destruct (tag =? 255)].
    - exists (e ++ [0]). eexists. split; [apply bytes_ok_app; auto|].
      rewrite app_assoc, (take_bits_app _ _ _ _ _ [0] Ht). reflexivity.
    - exists (e ++ [0]). eexists. split; [apply bytes_ok_app; auto|].
      rewrite app_assoc, (take_bits_app _ _ _ _ _ [0] Ht). reflexivity.
    - exists e. eexists. split; [assumption|]. rewrite Ht. reflexivity. }
  destruct (tag =? 0).
  { destruct s1 as [|c s2]; [|discriminate]. intros _. exists [0]. eexists. split; [assumption|].
    rewrite (take_bits_app _ _ _ _ _ [0] E). reflexivity. }
  destruct (tag =? 255); [|discriminate].
  destruct s1 as [|c s2].
  { intros _. exists [0]. eexists. split; [assumption|].
    rewrite (take_bits_app _ _ _ _ _ [0] E). reflexivity. }
  cbv zeta. rewrite andb_true_l.
  destruct (length s2 <? 8 * Z.to_nat c)%nat eqn:El; [|discriminate]. intros _.
  (* the literal run is cut: fill it up *)
  exists (zeros (8 * Z.to_nat c - length s2)). eexists. split; [apply bytes_ok_zeros|].
  rewrite (take_bits_app _ _ _ _ _ _ E). cbn [app]. cbv zeta.
  replace (length (s2 ++ zeros (8 * Z.to_nat c - length s2)) <? 8 * Z.to_nat c)%nat with false
    by (rewrite app_length, length_zeros; lia).
  rewrite skipn_all2 by (rewrite app_length, length_zeros; lia). reflexivity.
Qed.

(* every string is the beginning of one the one-shot decoder accepts *)
Lemma unpack_completable src : exists ext U, bytes_ok ext /\ unpack_s true (src ++ ext) = Some U.
Proof.
  induction src as [|src Hne IH] using (item_ind true).
  { exists [], []. split; [constructor|reflexivity]. }
  assert (Hne' : forall ext, src ++ ext <> []) by (intros ext; destruct src; [congruence|discriminate]).
  destruct (item true src) as [[o r]|] eqn:Ei.
  - destruct (IH o r eq_refl) as (ext & U & He & HU). exists ext, (o ++ U). split; [assumption|].
    now rewrite unpack_s_item, (item_app _ _ _ ext Ei), HU by apply Hne'.
  - destruct (item_complete src Hne Ei) as (ext & o & He & Hi). exists ext, (o ++ []).
    split; [assumption|]. now rewrite unpack_s_item, Hi by apply Hne'.
Qed.

(* soundness: the determined output is a prefix of what the one-shot decoder returns on an
   accepted extension of the string -- no byte of it is invented *)
Theorem unpack_partial_sound src : bytes_ok src ->
  exists ext more, bytes_ok ext /\ unpack (src ++ ext) = Some (fst (unpack_partial src) ++ more).
Proof.
  intros _. destruct (unpack_completable src) as (ext & U & He & HU).
  destruct (unpack_partial_of_prefix src ext U HU) as [more ->]. now exists ext, more.
Qed.

(* Prefix property of the byte interface on ANY input, in particular on inputs the one-shot
   decoder rejects.  For every oracle and all request sizes the Read calls return bytes [o]
   and then an error [e] such that
   - [o] is the determined output of the input (a function of the input alone);
   - [e] is EOF when [unpack] accepts the input (then o is its output), UnexpectedEOF otherwise;
   - completeness: for every split inp = good ++ rest with [unpack good = Some out], [o]
     starts with [out] (every complete item is delivered before the error);
   - soundness: some extension of the input is accepted by [unpack] with an output that starts
     with [o] (every byte handed out is a byte the one-shot decoder produces for an accepted
     extension of the input: nothing is invented before the error either). *)
Theorem read_calls_prefix : forall orc sizes inp, bytes_ok inp ->
  forall fuel, (2304 * length inp + 1 <= fuel)%nat ->
  exists o e,
    read_calls true fuel orc 0 b_init inp sizes 0 = Some (o, e) /\
    o = fst (unpack_partial inp) /\
    e = match unpack inp with Some _ => EOF | None => UnexpectedEOF end /\
    (forall good rest out, inp = good ++ rest -> unpack good = Some out ->
       exists extra, o = out ++ extra) /\
    (exists ext more, bytes_ok ext /\ unpack (inp ++ ext) = Some (o ++ more)).
Proof.
  intros orc sizes inp Hb fuel Hf.
  exists (fst (unpack_partial inp)), (verdict (snd (unpack_partial inp))).
  split; [now apply read_calls_partial|]. split; [reflexivity|]. split.
  { pose proof (unpack_partial_unpack inp) as H. destruct (unpack inp); rewrite H; reflexivity. }
  split.
  { intros good rest out -> H. rewrite (unpack_partial_app _ _ _ H). now eexists. }
  now apply unpack_partial_sound.
Qed.

(* link with the option-valued denotation of ReadCallProofs *)
Lemma EP_expected st inp :
  match expected st inp with
  | Some s => EP st inp = (s, true)
  | None => snd (EP st inp) = false
  end.
Proof.
  unfold expected, EP.
  destruct (length inp <? 8 * Z.to_nat (r_literal st))%nat; [reflexivity|].
  pose proof (unpack_partial_unpack (skipn (8 * Z.to_nat (r_literal st)) inp)) as H.
  change (unpack ?x) with (unpack_s true x) in H.
  destruct (unpack_s true (skipn (8 * Z.to_nat (r_literal st)) inp)); cbn [option_map].
  - rewrite H. reflexivity.
  - unfold pmap. cbn [snd]. exact H.
Qed.

Lemma DP_D b inp :
  match D b inp with
  | Some s => DP b inp = (s, true)
  | None => snd (DP b inp) = false
  end.
Proof.
  unfold D, DP, expected', EP'. destruct (r_err (b_r b)); [reflexivity|].
  pose proof (EP_expected (b_r b) inp) as H.
  destruct (expected (b_r b) inp); cbn [option_map].
  - rewrite H. reflexivity.
  - unfold pmap. cbn [snd]. exact H.
Qed.

(* ex_inp cut inside its literal run (count 2): one literal word is complete, the second has
   4 of 8 bytes.  The reader hands out the three complete items' output (5 words), the tag word
   of the literal item and its first literal word, then UnexpectedEOF; the 4 dangling bytes are
   not handed out.  The complete items are the first 4 bytes; completing the literal word makes
   the one-shot decoder accept with an output that extends what was handed out. *)
Example read_calls_prefix_example :
  let inp := firstn 26 ex_inp in
  let o := [0; 0; 0; 0; 5; 0; 0; 0] ++ zeros 24 ++ [1; 2; 3; 4; 5; 6; 7; 8] ++ [9; 9; 9; 9; 0; 0; 9; 9] in
  bytes_ok inp /\ unpack inp = None /\
  unpack_partial inp = (o, false) /\
  read_calls true (read_fuel inp) ex_orc 0 b_init inp ex_sizes 0 = Some (o, UnexpectedEOF) /\
  unpack (firstn 4 inp) = Some ([0; 0; 0; 0; 5; 0; 0; 0] ++ zeros 24) /\
  unpack (inp ++ [7; 7; 7; 7]) = Some (o ++ [7; 7; 7; 7; 7; 7; 7; 7]).
Proof.
  cbv zeta. split; [unfold bytes_ok, byte_ok; repeat constructor; lia|].
  repeat split; vm_compute; reflexivity.
Qed.

(* the hypotheses of the invariant theorems hold at the start of a stream that does not unpack,
   and the conclusion is not trivial there: a Read of 3 bytes returns 3 bytes and leaves the
   other 5 bytes of the decoded word in the word buffer *)
Example read_call_bytes_ok_example :
  let inp := firstn 26 ex_inp in
  bvalid b_init /\ bytes_ok (b_word b_init) /\ bytes_ok inp /\ unpack inp = None /\
  exists k' st' inp',
    read_call true ex_orc 0 b_init inp 3 = (k', st', inp', [0; 0; 0], None) /\
    b_idx st' = 3%nat /\ b_word st' = [0; 0; 0; 0; 5; 0; 0; 0].
Proof.
  cbv zeta. split; [exact b_init_valid|]. split; [apply (bytes_ok_zeros 8)|].
  split; [unfold bytes_ok, byte_ok; repeat constructor; lia|]. split; [vm_compute; reflexivity|].
  eexists. eexists. eexists. repeat split; vm_compute; reflexivity.
Qed.
