(* (1) [ReadCallProofs.read_call_err_not_full]: a Read call that returns an error returned
       strictly fewer bytes than requested -- for EVERY state, input, oracle, repaired or
       as-found code.  So io.ReadFull never sees an error together with a full buffer, i.e.
       never drops one.
   (2) [readfull_agrees]: a consumer that reads with io.ReadFull (any request sizes >= 1, any
       oracle) gets the one-shot decoder's output and verdict.
   (3) [readfull_eager_refuted]: with the Read variant that returns a parked error together
       with the data ([read_call_eager]) the same consumer accepts a truncated input. *)
From CV Require Import Packed.Packed.
From CV Require Import Packed.PackSpec.
From CV Require Import Packed.PackedProofs.
From CV Require Import Packed.ReaderProofs.
From CV Require Import Packed.ReadCallProofs.
From CV Require Import Packed.ReadCallProofs2.
From CV Require Import Packed.ReadFull.
From Coq Require Import ZifyBool ZifyNat.
Open Scope Z_scope.

(* One io.ReadFull of [need] >= 1 bytes from a valid state (repaired code) whose denotation is
   "the bytes [s], then a clean end iff [ok]": when [s] has that many bytes, exactly the next
   [need] of them come back and the new state is valid and stands for the rest; otherwise all
   of [s] comes back with ReadAtLeast's mapping of the reader's error. *)
Lemma readfull_loop_spec : forall fuel orc k st inp need any s ok,
  bvalid st -> bytes_ok inp -> DP st inp = (s, ok) -> (0 < need <= fuel)%nat ->
  exists k' st' inp',
    if (need <=? length s)%nat
    then readfull_loop (read_rd true orc) fuel k st inp need any
         = Some (k', st', inp', firstn need s, None) /\
         bvalid st' /\ bytes_ok inp' /\ DP st' inp' = (skipn need s, ok) /\
         (bmeasure st' inp' + need <= bmeasure st inp)%nat
    else readfull_loop (read_rd true orc) fuel k st inp need any
         = Some (k', st', inp', s,
                 Some (match verdict ok with
                       | EOF => if any || negb (length s =? 0)%nat then UnexpectedEOF else EOF
                       | UnexpectedEOF => UnexpectedEOF
                       end)).
Proof.
  induction fuel as [|fuel IH]; intros orc k st inp need any s ok Hv Hb HD Hn; [lia|].
  cbn [readfull_loop]. change (read_rd true orc k st inp need) with (read_call true orc k st inp need).
  destruct (read_call true orc k st inp need) as [[[[k1 st1] inp1] g] oe] eqn:Ec.
  pose proof (read_call_len_le _ _ _ _ _ _ _ _ _ _ _ Ec) as Hle.
  pose proof (read_call_specP _ _ _ _ _ _ _ _ _ _ Hv Hb Ec) as Hs. rewrite HD in Hs.
  destruct oe as [e|].
  - (* Read failed: fewer bytes than asked for, so nothing is dropped *)
    apply read_call_err_not_full in Ec. destruct Hs as [Hg He]. cbn [fst snd] in Hg, He. subst g e.
    exists k1, st1, inp1. now replace (need <=? length s)%nat with false by lia.
  - pose proof (read_call_progress true orc k st inp need k1 st1 inp1 g ltac:(lia) Ec) as Hg.
    apply read_call_inv in Ec; try assumption. destruct Ec as (Hv1 & Hb1 & Hm & _).
    assert (Hgl : (0 < length g)%nat) by (destruct g; [congruence|cbn [length]; lia]).
    destruct (DP st1 inp1) as [s1 ok1] eqn:E1. injection Hs as -> ->. rewrite app_length.
    destruct (need <=? length g)%nat eqn:Ef.
    + exists k1, st1, inp1. replace (need <=? length g + length s1)%nat with true by lia.
      replace need with (length g) by lia. rewrite firstn_app_exact, skipn_app_exact. auto.
    + destruct (IH orc k1 st1 inp1 (need - length g)%nat (any || negb (length g =? 0)%nat) s1 ok1
                   Hv1 Hb1 E1 ltac:(lia)) as (k2 & st2 & inp2 & Hr).
      exists k2, st2, inp2.
      destruct (need <=? length g + length s1)%nat eqn:E2.
      * replace (need - length g <=? length s1)%nat with true in Hr by lia.
        destruct Hr as (-> & Hv2 & Hb2 & HD2 & Hm2).
        rewrite firstn_app, skipn_app, (firstn_all2 g), (skipn_all2 g) by lia.
        split; [reflexivity|]. split; [assumption|]. split; [assumption|]. split; [assumption|lia].
      * replace (need - length g <=? length s1)%nat with false in Hr by lia. rewrite Hr.
        replace (any || negb (length g =? 0)%nat) with true by lia.
        replace (length g + length s1 =? 0)%nat with false by lia. now rewrite !orb_true_r.
Qed.

(* the error a ReadFull consumer ends with on a stream whose unpacked form has [len] bytes left
   before request j: a clean EOF exactly when the data ends on a request boundary (this is
   io.ReadFull's contract, not a property of the packed layer) *)
Fixpoint rf_verdict (fuel : nat) (sizes : nat -> nat) (j : nat) (len : nat) : rerr :=
  match fuel with
  | O => EOF
  | S f =>
    if (len =? 0)%nat then EOF
    else if (len <? S (sizes j))%nat then UnexpectedEOF
    else rf_verdict f sizes (S j) (len - S (sizes j))
  end.

(* the consumer receives the whole denotation, whether or not the stream unpacks *)
Theorem readfull_all_spec : forall fuel orc k st inp sizes j s ok,
  bvalid st -> bytes_ok inp -> DP st inp = (s, ok) -> (bmeasure st inp < fuel)%nat ->
  forall F, (length s <= F)%nat ->
  readfull_all (read_rd true orc) fuel k st inp sizes j
  = Some (s, if ok then rf_verdict F sizes j (length s) else UnexpectedEOF).
Proof.
  induction fuel as [|fuel IH]; intros orc k st inp sizes j s ok Hv Hb HD Hf F HF; [lia|].
  cbn [readfull_all]. unfold readfull_call.
  replace (S (sizes j) =? 0)%nat with false by lia.
  destruct (readfull_loop_spec (S (S (sizes j))) orc k st inp (S (sizes j)) false s ok Hv Hb HD ltac:(lia))
    as (k' & st' & inp' & Hr).
  destruct (S (sizes j) <=? length s)%nat eqn:En.
  - destruct Hr as (-> & Hv' & Hb' & HD' & Hm). destruct F as [|F]; [lia|].
    rewrite (IH orc k' st' inp' sizes (S j) _ ok Hv' Hb' HD' ltac:(lia) F)
      by (rewrite skipn_length; lia).
    rewrite firstn_skipn, skipn_length. cbn [rf_verdict].
    replace (length s =? 0)%nat with false by lia.
    now replace (length s <? S (sizes j))%nat with false by lia.
  - rewrite Hr. f_equal. f_equal. destruct ok; cbn [verdict orb]; [|reflexivity].
    destruct F as [|F]; cbn [rf_verdict].
    + now replace (length s =? 0)%nat with true by lia.
    + destruct (length s =? 0)%nat; [reflexivity|]. cbn [negb].
      now replace (length s <? S (sizes j))%nat with true by lia.
Qed.

(* For every input, every sequence of request sizes (ReadFull j asks for S (sizes j) >= 1
   bytes), every fast-path oracle and every short-read oracle, any fuel above the bound: the
   concatenation of what the io.ReadFull calls return is the one-shot decoder's output, and the
   final error is io.ReadFull's verdict on that output (EOF iff it ends on a request boundary);
   an input the one-shot decoder rejects ends with UnexpectedEOF -- never with a clean EOF. *)
Theorem readfull_agrees : forall orc sizes inp, bytes_ok inp ->
  forall fuel, (2304 * length inp + 1 <= fuel)%nat ->
  match unpack inp with
  | Some out => readfull_all (read_rd true orc) fuel 0 b_init inp sizes 0
                = Some (out, rf_verdict (length out) sizes 0 (length out))
  | None => exists o, readfull_all (read_rd true orc) fuel 0 b_init inp sizes 0
                      = Some (o, UnexpectedEOF)
  end.
Proof.
  intros orc sizes inp Hb fuel Hf.
  pose proof (unpack_partial_unpack inp) as HU. pose proof (DP_init inp) as HD.
  destruct (unpack_partial inp) as [s ok].
  pose proof (readfull_all_spec fuel orc 0%nat b_init inp sizes 0%nat s ok b_init_valid Hb HD
                ltac:(pose proof (bmeasure_init inp); lia) (length s) (le_n _)) as H.
  destruct (unpack inp) as [out|].
  - injection HU as -> ->. exact H.
  - cbn [snd] in HU. subst ok. now exists s.
Qed.

(* the verdict is a clean EOF when the consumer asks for one byte at a time ... *)
Lemma rf_verdict_bytes : forall F j len, rf_verdict F (fun _ => 0%nat) j len = EOF.
Proof.
  induction F as [|F IH]; intros j len; cbn [rf_verdict]; [reflexivity|].
  destruct (len =? 0)%nat eqn:E0; [reflexivity|].
  replace (len <? 1)%nat with false by lia. apply IH.
Qed.

(* ... so for that consumer the statement has exactly the shape of [read_calls_agree] *)
Corollary readfull_agrees_bytes orc inp : bytes_ok inp ->
  match unpack inp with
  | Some out => readfull_all (read_rd true orc) (read_fuel inp) 0 b_init inp (fun _ => 0%nat) 0
                = Some (out, EOF)
  | None => exists o, readfull_all (read_rd true orc) (read_fuel inp) 0 b_init inp
                                   (fun _ => 0%nat) 0 = Some (o, UnexpectedEOF)
  end.
Proof.
  intros Hb. pose proof (readfull_agrees orc (fun _ => 0%nat) inp Hb (read_fuel inp) (le_n _)) as H.
  destruct (unpack inp); [now rewrite rf_verdict_bytes in H|exact H].
Qed.

(* ex_inp unpacks to 64 bytes.  ReadFull with 16-byte buffers: 4 full reads, then a clean EOF;
   request sizes 1,3,8,9 cycling (both oracles varying): 64 = 3*21 + 1 ends on a boundary, EOF;
   with 10-byte buffers the data ends inside the 7th request -> UnexpectedEOF, which is
   ReadFull's contract; all 64 bytes are delivered in every case. *)
Example readfull_example :
  exists out, unpack ex_inp = Some out /\ length out = 64%nat /\
    readfull_all (read_rd true ex_orc) (read_fuel ex_inp) 0 b_init ex_inp (fun _ => 15%nat) 0
    = Some (out, EOF) /\
    readfull_all (read_rd true ex_orc) (read_fuel ex_inp) 0 b_init ex_inp ex_sizes 0
    = Some (out, EOF) /\
    readfull_all (read_rd true ex_orc) (read_fuel ex_inp) 0 b_init ex_inp (fun _ => 9%nat) 0
    = Some (out, UnexpectedEOF) /\
    rf_verdict 64 (fun _ => 9%nat) 0 64 = UnexpectedEOF.
Proof. eexists. split; [vm_compute; reflexivity|]. repeat split; vm_compute; reflexivity. Qed.

(* A stream cut between a zero-tag word and its run-count byte: [1;7] is the word 7,0,..,0;
   [0] is the tag of an all-zero word whose count byte is missing.  The one-shot decoder
   rejects it.  With Reader.Read as it is, a ReadFull of 16 bytes returns the 16 bytes and the
   NEXT ReadFull reports UnexpectedEOF (the parked error).  With the variant that returns the
   parked error together with the 16 bytes and clears it, ReadFull drops the error (buffer
   full) and the next ReadFull reports a clean EOF: the truncated stream is accepted. *)
Example readfull_eager_refuted :
  let p := [1; 7; 0] in
  let orc := fun _ : nat => (false, false) in
  let sizes := fun _ : nat => 15%nat in
  unpack p = None /\
  readfull_all (read_rd true orc) (read_fuel p) 0 b_init p sizes 0
  = Some ([7; 0; 0; 0; 0; 0; 0; 0] ++ zeros 8, UnexpectedEOF) /\
  readfull_all (read_call_eager true orc) (read_fuel p) 0 b_init p sizes 0
  = Some ([7; 0; 0; 0; 0; 0; 0; 0] ++ zeros 8, EOF) /\
  (* the variant violates (1): an error together with a full buffer *)
  (exists k' st' inp' got e,
     read_call_eager true orc 0%nat b_init p 16%nat = (k', st', inp', got, Some e) /\ length got = 16%nat) /\
  (* a plain Read loop over the variant still sees the error *)
  (exists k' st' inp',
     read_call_eager true orc 0%nat b_init p 16%nat
     = (k', st', inp', [7; 0; 0; 0; 0; 0; 0; 0] ++ zeros 8, Some UnexpectedEOF)).
Proof.
  cbv zeta. split; [vm_compute; reflexivity|]. split; [vm_compute; reflexivity|].
  split; [vm_compute; reflexivity|]. split.
  - eexists _, _, _, _, _. split; vm_compute; reflexivity.
  - eexists _, _, _. vm_compute. reflexivity.
Qed.
