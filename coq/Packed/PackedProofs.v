From CV Require Import Packed.Packed Packed.PackSpec.
From Coq Require Import ZifyBool ZifyNat.
Open Scope Z_scope.

Lemma skipn_nth_cons {A} (d : A) : forall (l : list A) i, (i < length l)%nat ->
  skipn i l = nth i l d :: skipn (S i) l.
Proof.
  induction l as [|x l IH]; intros i Hi; simpl in Hi; [lia|].
  destruct i as [|i]; [reflexivity|]. apply (IH i). lia.
Qed.

Lemma skipn_skipn' {A} : forall (l : list A) a b, skipn a (skipn b l) = skipn (a + b) l.
Proof.
  induction l as [|x l IH]; intros a b.
  - now rewrite !skipn_nil.
  - destruct b as [|b].
    + now rewrite Nat.add_0_r.
    + rewrite Nat.add_succ_r. simpl. apply IH.
Qed.

Lemma firstn_add {A} (l : list A) a b : firstn (a + b) l = firstn a l ++ firstn b (skipn a l).
Proof.
  revert l; induction a as [|a IH]; intros l; [reflexivity|].
  destruct l as [|x l]; [now rewrite skipn_nil, !firstn_nil|].
  simpl. now rewrite IH.
Qed.

Lemma Some_inj {A} (a b : A) : Some a = Some b -> a = b.
Proof. congruence. Qed.

(* [intros [= <- <-]] would normalise [8 * n] etc. *)
Lemma Some_pair_inj {A B} (a a' : A) (b b' : B) : Some (a, b) = Some (a', b') -> a = a' /\ b = b'.
Proof. now intros [= -> ->]. Qed.

Lemma length_zeros n : length (zeros n) = n.
Proof. apply repeat_length. Qed.

Lemma Forall_firstn {A} (P : A -> Prop) n l : Forall P l -> Forall P (firstn n l).
Proof. intros H. rewrite <- (firstn_skipn n l) in H. now apply Forall_app in H. Qed.

Lemma Forall_skipn {A} (P : A -> Prop) n l : Forall P l -> Forall P (skipn n l).
Proof. intros H. rewrite <- (firstn_skipn n l) in H. now apply Forall_app in H. Qed.

Lemma bytes_ok_app a b : bytes_ok (a ++ b) <-> bytes_ok a /\ bytes_ok b.
Proof. apply Forall_app. Qed.

Lemma bytes_ok_firstn n s : bytes_ok s -> bytes_ok (firstn n s).
Proof. apply Forall_firstn. Qed.

Lemma bytes_ok_skipn n s : bytes_ok s -> bytes_ok (skipn n s).
Proof. apply Forall_skipn. Qed.

Lemma bytes_ok_zeros n : bytes_ok (zeros n).
Proof. apply Forall_forall. intros x Hx. apply repeat_spec in Hx. subst x. unfold byte_ok. lia. Qed.

Lemma take_bits_length : forall n tag src w s',
  take_bits n tag src = Some (w, s') ->
  length w = n /\ (length s' <= length src)%nat /\ exists pre, src = pre ++ s' /\ (length pre <= n)%nat.
Proof.
  induction n as [|n IH]; intros tag src w s' H; simpl in H.
  - inversion H; subst. split; [reflexivity|]. split; [lia|]. exists []. split; [reflexivity|simpl; lia].
  - destruct (Z.odd tag).
    + destruct src as [|b s]; [discriminate|].
      destruct (take_bits n (tag / 2) s) as [[w0 s0]|] eqn:E; [|discriminate].
      inversion H; subst. apply IH in E. destruct E as (E1 & E2 & pre & E3 & E4).
      split; [simpl; lia|]. split; [simpl; lia|].
      exists (b :: pre). subst s. split; [reflexivity|simpl; lia].
    + destruct (take_bits n (tag / 2) src) as [[w0 s0]|] eqn:E; [|discriminate].
      inversion H; subst. apply IH in E. destruct E as (E1 & E2 & pre & E3 & E4).
      split; [simpl; lia|]. split; [lia|]. exists pre. split; [assumption|lia].
Qed.

Lemma take_bits_app : forall n tag s w s1 b,
  take_bits n tag s = Some (w, s1) -> take_bits n tag (s ++ b) = Some (w, s1 ++ b).
Proof.
  induction n as [|n IH]; intros tag s w s1 b H; cbn [take_bits] in *.
  - injection H as <- <-. reflexivity.
  - destruct (Z.odd tag).
    + destruct s as [|x s]; [discriminate|]. cbn [app].
      destruct (take_bits n (tag / 2) s) as [[w0 s0]|] eqn:E; [|discriminate].
      injection H as <- <-. now rewrite (IH _ _ _ _ b E).
    + destruct (take_bits n (tag / 2) s) as [[w0 s0]|] eqn:E; [|discriminate].
      injection H as <- <-. now rewrite (IH _ _ _ _ b E).
Qed.

Lemma take_bits_bytes_ok : forall n tag src w s',
  bytes_ok src -> take_bits n tag src = Some (w, s') -> bytes_ok w.
Proof.
  induction n as [|n IH]; intros tag src w s' Hb H; cbn [take_bits] in H.
  - injection H as <- <-. constructor.
  - destruct (Z.odd tag).
    + destruct src as [|b s]; [discriminate|].
      destruct (take_bits n (tag / 2) s) as [[w0 s0]|] eqn:E; [|discriminate].
      injection H as <- <-. inversion Hb; subst. constructor; [assumption|]. eapply IH; eassumption.
    + destruct (take_bits n (tag / 2) src) as [[w0 s0]|] eqn:E; [|discriminate].
      injection H as <- <-. constructor; [unfold byte_ok; lia|]. eapply IH; eassumption.
Qed.

Lemma fast_bits_take_bits : forall n tag src i, (i + n <= length src)%nat ->
  take_bits n tag (skipn i src) =
  (let '(w, i') := fast_bits n tag src i in Some (w, skipn i' src)).
Proof.
  induction n as [|n IH]; intros tag src i Hi; simpl.
  - reflexivity.
  - destruct (Z.odd tag).
    + rewrite (skipn_nth_cons 0 src i) by lia.
      rewrite (IH (tag / 2) src (S i)) by lia.
      destruct (fast_bits n (tag / 2) src (S i)) as [w i']. reflexivity.
    + rewrite (IH (tag / 2) src i) by lia.
      destruct (fast_bits n (tag / 2) src i) as [w i']. reflexivity.
Qed.

(* the fast path of ReadWord / Unpack computes what the slow path does *)
Lemma word_choice fast tag s :
  (if fast && (8 <=? length s)%nat
   then (let '(w, i) := fast_bits 8 tag s 0 in Some (w, skipn i s))
   else take_bits 8 tag s) = take_bits 8 tag s.
Proof.
  destruct (fast && (8 <=? length s)%nat) eqn:E; [|reflexivity].
  apply andb_prop in E. destruct E as [_ E].
  change s with (skipn 0 s) at 3.
  rewrite (fast_bits_take_bits 8 tag s 0) by lia.
  destruct (fast_bits 8 tag s 0). reflexivity.
Qed.

Lemma unpack_word_eq tag src : unpack_word tag src = take_bits 8 tag src.
Proof. exact (word_choice true tag src). Qed.

Lemma spec_word_eq : forall n tag src, spec_word n tag src = take_bits n tag src.
Proof.
  induction n as [|n IH]; intros tag src; cbn [spec_word take_bits]; [reflexivity|].
  rewrite Z.bit0_odd, Z.shiftr_div_pow2 by lia. change (2 ^ 1) with 2.
  destruct (Z.odd tag).
  - destruct src as [|b s]; [reflexivity|]. now rewrite IH.
  - now rewrite IH.
Qed.

Lemma unpack_f_fuel strict : forall f1 f2 src,
  (length src <= f1)%nat -> (length src <= f2)%nat ->
  unpack_f strict f1 src = unpack_f strict f2 src.
Proof.
  induction f1 as [|f1 IH]; intros f2 src H1 H2.
  - destruct src; [destruct f2; reflexivity|simpl in H1; lia].
  - destruct src as [|tag s]; [destruct f2; reflexivity|].
    destruct f2 as [|f2]; [simpl in H2; lia|].
    simpl in H1, H2. cbn [unpack_f]. rewrite unpack_word_eq.
    destruct (take_bits 8 tag s) as [[w s1]|] eqn:E; [|reflexivity].
    apply take_bits_length in E. destruct E as (_ & E & _).
    destruct (tag =? 0).
    { destruct s1 as [|n s2]; [reflexivity|]. simpl in E. rewrite (IH f2 s2) by lia. reflexivity. }
    destruct (tag =? 255).
    { destruct s1 as [|n s2]; [reflexivity|]. simpl in E.
      destruct (strict && (length s2 <? 8 * Z.to_nat n)%nat); [reflexivity|].
      rewrite (IH f2 (skipn (8 * Z.to_nat n) s2)); [reflexivity| |]; rewrite skipn_length; lia. }
    rewrite (IH f2 s1) by lia. reflexivity.
Qed.

(* [unpack_f] at canonical fuel: [unpack] is [unpack_s true] and [unpack_prefix] is [unpack_s false],
   by conversion.  [unpack_s_cons] is its unfolding equation, in which fuel no longer appears. *)
Definition unpack_s (strict : bool) (src : list Z) := unpack_f strict (length src) src.

Lemma unpack_s_nil strict : unpack_s strict [] = Some [].
Proof. reflexivity. Qed.

Lemma unpack_s_cons strict tag s :
  unpack_s strict (tag :: s) =
  match take_bits 8 tag s with
  | None => None
  | Some (w, s1) =>
    if tag =? 0 then
      match s1 with
      | [] => None
      | n :: s2 => option_map (fun r => w ++ zeros (8 * Z.to_nat n) ++ r) (unpack_s strict s2)
      end
    else if tag =? 255 then
      match s1 with
      | [] => None
      | n :: s2 =>
        let k := (8 * Z.to_nat n)%nat in
        if strict && (length s2 <? k)%nat then None
        else option_map (fun r => w ++ firstn k s2 ++ zeros (k - length s2) ++ r)
                        (unpack_s strict (skipn k s2))
      end
    else option_map (fun r => w ++ r) (unpack_s strict s1)
  end.
Proof.
  unfold unpack_s. cbn [length unpack_f]. rewrite unpack_word_eq.
  destruct (take_bits 8 tag s) as [[w s1]|] eqn:E; [|reflexivity].
  apply take_bits_length in E. destruct E as (_ & E & _).
  destruct (tag =? 0).
  { destruct s1 as [|n s2]; [reflexivity|]. simpl in E.
    rewrite (unpack_f_fuel strict (length s) (length s2) s2) by lia. reflexivity. }
  destruct (tag =? 255).
  { destruct s1 as [|n s2]; [reflexivity|]. simpl in E. cbv zeta.
    destruct (strict && (length s2 <? 8 * Z.to_nat n)%nat); [reflexivity|].
    rewrite (unpack_f_fuel strict (length s) (length (skipn (8 * Z.to_nat n) s2)));
      [reflexivity| |]; rewrite ?skipn_length; lia. }
  rewrite (unpack_f_fuel strict (length s) (length s1) s1) by lia. reflexivity.
Qed.

(* the first item of a packed string: its output and what follows it; None when the string
   ends inside it ([strict] as for unpack_f).  [unpack_s] is the iteration of [item]. *)
Definition item (strict : bool) (src : list Z) : option (list Z * list Z) :=
  match src with
  | [] => None
  | tag :: s =>
    match take_bits 8 tag s with
    | None => None
    | Some (w, s1) =>
      if tag =? 0 then
        match s1 with
        | [] => None
        | n :: s2 => Some (w ++ zeros (8 * Z.to_nat n), s2)
        end
      else if tag =? 255 then
        match s1 with
        | [] => None
        | n :: s2 =>
          let k := (8 * Z.to_nat n)%nat in
          if strict && (length s2 <? k)%nat then None
          else Some (w ++ firstn k s2 ++ zeros (k - length s2), skipn k s2)
        end
      else Some (w, s1)
    end
  end.

Lemma unpack_s_item strict src : src <> [] ->
  unpack_s strict src =
  match item strict src with
  | Some (o, r) => option_map (app o) (unpack_s strict r)
  | None => None
  end.
Proof.
  destruct src as [|tag s]; [congruence|]. intros _. rewrite unpack_s_cons. unfold item.
  destruct (take_bits 8 tag s) as [[w s1]|]; [|reflexivity].
  destruct (tag =? 0).
  { destruct s1 as [|n s2]; [reflexivity|].
    destruct (unpack_s strict s2); cbn [option_map]; [now rewrite app_assoc|reflexivity]. }
  destruct (tag =? 255); [|reflexivity].
  destruct s1 as [|n s2]; [reflexivity|]. cbv zeta.
  destruct (strict && (length s2 <? 8 * Z.to_nat n)%nat); [reflexivity|].
  destruct (unpack_s strict (skipn (8 * Z.to_nat n) s2)); cbn [option_map]; [|reflexivity].
  now rewrite <- !app_assoc.
Qed.

(* what follows an item is shorter; on bytes it consists of bytes, and the item's output is at
   most 1024 times the input it took (worst case: tag 0x00 and count 255, 2 bytes in and
   8 + 8*255 = 2048 bytes out) *)
Lemma item_rest strict src o r : item strict src = Some (o, r) ->
  (length r < length src)%nat /\
  (bytes_ok src -> bytes_ok r /\ (length o + 1024 * length r <= 1024 * length src)%nat).
Proof.
  destruct src as [|tag s]; [discriminate|]. unfold item. intros H.
  destruct (take_bits 8 tag s) as [[w s1]|] eqn:E; [|discriminate].
  apply take_bits_length in E. destruct E as (Hw & Hle & pre & Hpre & _).
  assert (Hs1 : bytes_ok (tag :: s) -> bytes_ok s1)
    by (intros Hb; inversion Hb as [|? ? _ Hs]; subst s; now apply bytes_ok_app in Hs).
  destruct (tag =? 0).
  { destruct s1 as [|c s2]; [discriminate|]. apply Some_pair_inj in H; destruct H as [<- <-].
    cbn [length] in *. split; [lia|]. intros Hb. specialize (Hs1 Hb).
    inversion Hs1 as [|? ? Hc Hs2]; subst. unfold byte_ok in Hc.
    rewrite app_length, length_zeros. split; [assumption|lia]. }
  destruct (tag =? 255).
  2:{ apply Some_pair_inj in H; destruct H as [<- <-]. cbn [length]. split; [lia|].
      intros Hb. split; [auto|lia]. }
  destruct s1 as [|c s2]; [discriminate|]. cbv zeta in H.
  destruct (strict && (length s2 <? 8 * Z.to_nat c)%nat); [discriminate|].
  apply Some_pair_inj in H; destruct H as [<- <-]. rewrite skipn_length. cbn [length] in *.
  split; [lia|]. intros Hb. specialize (Hs1 Hb).
  inversion Hs1 as [|? ? Hc Hs2]; subst. unfold byte_ok in Hc.
  rewrite !app_length, length_zeros, firstn_length. cbn [length].
  split; [now apply bytes_ok_skipn|lia].
Qed.

(* induction along the items of a packed string *)
Lemma item_ind strict (P : list Z -> Prop) :
  P [] -> (forall src, src <> [] -> (forall o r, item strict src = Some (o, r) -> P r) -> P src) ->
  forall src, P src.
Proof.
  intros H0 Hs src. remember (length src) as n eqn:Hn. revert src Hn.
  induction n as [n IH] using lt_wf_ind. intros src ->.
  destruct src as [|tag s]; [exact H0|]. apply Hs; [discriminate|].
  intros o r Hi. apply (IH (length r)); [now apply item_rest in Hi|reflexivity].
Qed.

(* an item is read the same way whatever follows it *)
Lemma item_app src o r b : item true src = Some (o, r) -> item true (src ++ b) = Some (o, r ++ b).
Proof.
  destruct src as [|tag s]; [discriminate|]. cbn [app]. unfold item.
  destruct (take_bits 8 tag s) as [[w s1]|] eqn:E; [|discriminate].
  rewrite (take_bits_app _ _ _ _ _ b E).
  destruct (tag =? 0).
  { destruct s1 as [|c s2]; [discriminate|]. now intros H; apply Some_pair_inj in H; destruct H as [<- <-]. }
  destruct (tag =? 255); [|now intros H; apply Some_pair_inj in H; destruct H as [<- <-]].
  destruct s1 as [|c s2]; [discriminate|]. cbn [app]. cbv zeta. rewrite !andb_true_l.
  destruct (length s2 <? 8 * Z.to_nat c)%nat eqn:El; [discriminate|].
  intros H; apply Some_pair_inj in H; destruct H as [<- <-].
  replace (length (s2 ++ b) <? 8 * Z.to_nat c)%nat with false by (rewrite app_length; lia).
  rewrite firstn_app, skipn_app.
  replace (8 * Z.to_nat c - length s2)%nat with O by lia.
  replace (8 * Z.to_nat c - length (s2 ++ b))%nat with O by (rewrite app_length; lia).
  cbn [firstn skipn]. now rewrite app_nil_r.
Qed.

Lemma option_map_app_nil (x : option (list Z)) : option_map (app []) x = x.
Proof. destruct x; reflexivity. Qed.

Lemma option_map_app_app (a b : list Z) x :
  option_map (app a) (option_map (app b) x) = option_map (app (a ++ b)) x.
Proof. destruct x; cbn [option_map]; [rewrite app_assoc|]; reflexivity. Qed.

(* a packed string that decodes completely is decoded the same way whatever follows it *)
Theorem unpack_app a oa b : unpack a = Some oa -> unpack (a ++ b) = option_map (app oa) (unpack b).
Proof.
  unfold unpack. fold (unpack_s true a) (unpack_s true (a ++ b)) (unpack_s true b).
  revert oa. induction a as [|a Hne IH] using (item_ind true); intros oa H.
  - rewrite unpack_s_nil in H. apply Some_inj in H. subst oa. symmetry. apply option_map_app_nil.
  - rewrite unpack_s_item in H by assumption.
    destruct (item true a) as [[o r]|] eqn:Ei; [|discriminate].
    destruct (unpack_s true r) as [or|] eqn:Er; [|discriminate]. apply Some_inj in H. subst oa.
    rewrite unpack_s_item, (item_app _ _ _ b Ei) by (destruct a; [congruence|discriminate]).
    rewrite (IH o r eq_refl or Er). apply option_map_app_app.
Qed.

Lemma unpack_f_spec : forall f src, unpack_f true f src = spec_unpack_f f src.
Proof.
  induction f as [|f IH]; intros src.
  - destruct src; reflexivity.
  - destruct src as [|tag s]; [reflexivity|].
    cbn [unpack_f spec_unpack_f]. rewrite unpack_word_eq, spec_word_eq.
    destruct (take_bits 8 tag s) as [[w s1]|]; [|reflexivity].
    destruct (tag =? 0).
    { destruct s1 as [|n s2]; [reflexivity|]. rewrite IH. destruct (spec_unpack_f f s2); reflexivity. }
    destruct (tag =? 255).
    { destruct s1 as [|n s2]; [reflexivity|]. cbv zeta. rewrite andb_true_l.
      destruct (length s2 <? 8 * Z.to_nat n)%nat eqn:E; [reflexivity|].
      rewrite IH. destruct (spec_unpack_f f (skipn (8 * Z.to_nat n) s2)); [|reflexivity].
      cbn [option_map]. replace (8 * Z.to_nat n - length s2)%nat with O by lia. reflexivity. }
    rewrite IH. destruct (spec_unpack_f f s1); reflexivity.
Qed.

Lemma unpack_eq_spec src : unpack src = spec_unpack src.
Proof. apply unpack_f_spec. Qed.

Lemma spec_unpack_f_fuel : forall f1 f2 src,
  (length src <= f1)%nat -> (length src <= f2)%nat ->
  spec_unpack_f f1 src = spec_unpack_f f2 src.
Proof. intros f1 f2 src. rewrite <- !unpack_f_spec. apply unpack_f_fuel. Qed.

Lemma tag_of_take_bits : forall w rest, bytes_ok w ->
  take_bits (length w) (tag_of w) (nonzero w ++ rest) = Some (w, rest).
Proof.
  induction w as [|b w IH]; intros rest Hw; [reflexivity|].
  inversion Hw as [|? ? Hb Hw']; subst. specialize (IH rest Hw').
  cbn [length take_bits tag_of nonzero filter].
  destruct (b =? 0) eqn:E.
  - replace (Z.odd (0 + 2 * tag_of w)) with false by (rewrite Z.add_0_l, Z.odd_mul; reflexivity).
    replace ((0 + 2 * tag_of w) / 2) with (tag_of w) by lia.
    cbn [negb]. fold (nonzero w). rewrite IH. f_equal. f_equal. f_equal. lia.
  - replace (Z.odd (1 + 2 * tag_of w)) with true
      by (rewrite Z.odd_add, Z.odd_mul; reflexivity).
    replace ((1 + 2 * tag_of w) / 2) with (tag_of w)
      by lia.
    cbn [negb app]. fold (nonzero w). rewrite IH. reflexivity.
Qed.

Lemma tag_of_range : forall w, 0 <= tag_of w < 2 ^ Z.of_nat (length w).
Proof.
  induction w as [|b w IH]; [simpl; lia|].
  cbn [tag_of length]. rewrite Nat2Z.inj_succ, Z.pow_succ_r by lia.
  destruct (b =? 0); lia.
Qed.

Lemma tag_of_zero : forall w, bytes_ok w -> tag_of w = 0 -> w = zeros (length w).
Proof.
  induction w as [|b w IH]; intros Hw H; [reflexivity|].
  inversion Hw as [|? ? Hb Hw']; subst. cbn [tag_of] in H.
  pose proof (tag_of_range w) as R.
  destruct (b =? 0) eqn:E; [|lia].
  change (zeros (length (b :: w))) with (0 :: zeros (length w)).
  rewrite <- IH by (assumption || lia). f_equal. lia.
Qed.

Lemma tag_of_full : forall w, tag_of w = 2 ^ Z.of_nat (length w) - 1 -> nonzero w = w.
Proof.
  induction w as [|b w IH]; intros H; [reflexivity|].
  cbn [tag_of length] in H. rewrite Nat2Z.inj_succ, Z.pow_succ_r in H by lia.
  pose proof (tag_of_range w) as R.
  cbn [nonzero filter]. destruct (b =? 0) eqn:E; [lia|].
  cbn [negb]. fold (nonzero w). rewrite IH by lia. reflexivity.
Qed.

Lemma is_zero_word_zeros w : is_zero_word w = true -> w = zeros (length w).
Proof.
  induction w as [|b w IH]; intros H; [reflexivity|]. simpl in H.
  apply andb_prop in H. destruct H as [H1 H2].
  change (zeros (length (b :: w))) with (0 :: zeros (length w)).
  rewrite <- IH by assumption. f_equal. lia.
Qed.

Lemma zeros_app a b : zeros a ++ zeros b = zeros (a + b).
Proof. unfold zeros. now rewrite repeat_app. Qed.

Lemma num_zero_words_concat : forall ws z, words_ok ws -> (z <= num_zero_words ws)%nat ->
  concat (firstn z ws) = zeros (8 * z).
Proof.
  induction ws as [|w ws IH]; intros z Hws Hz.
  - simpl in Hz. replace z with O by lia. reflexivity.
  - destruct z as [|z]; [reflexivity|]. inversion Hws as [|? ? Hw Hws']; subst.
    cbn [num_zero_words] in Hz. destruct (is_zero_word w) eqn:E; [|lia].
    cbn [firstn concat]. rewrite (IH z) by (assumption || lia).
    rewrite (is_zero_word_zeros w E). destruct Hw as [Hl _]. rewrite Hl.
    rewrite zeros_app. f_equal. lia.
Qed.

Lemma num_zero_words_le ws : (num_zero_words ws <= length ws)%nat.
Proof. induction ws as [|w ws IH]; simpl; [lia|]. destruct (is_zero_word w); simpl; lia. Qed.

Lemma lit_run_le : forall n ws, (lit_run n ws <= n)%nat /\ (lit_run n ws <= length ws)%nat.
Proof.
  induction n as [|n IH]; intros ws; [simpl; lia|].
  destruct ws as [|w ws]; [simpl; lia|]. cbn [lit_run].
  destruct (count_zeros w <=? 1)%nat; simpl; [|lia]. specialize (IH ws). lia.
Qed.

Lemma concat_words_length : forall ws, words_ok ws -> length (concat ws) = (8 * length ws)%nat.
Proof.
  induction ws as [|w ws IH]; intros H; [reflexivity|]. inversion H as [|? ? Hw H']; subst.
  simpl. rewrite app_length, IH by assumption. destruct Hw as [Hl _]. lia.
Qed.

Lemma concat_firstn_skipn {A} n (ws : list (list A)) :
  concat ws = concat (firstn n ws) ++ concat (skipn n ws).
Proof. rewrite <- concat_app, firstn_skipn. reflexivity. Qed.

Lemma firstn_app_exact {A} (a b : list A) : firstn (length a) (a ++ b) = a.
Proof. rewrite firstn_app, Nat.sub_diag, firstn_all. simpl. apply app_nil_r. Qed.
Lemma skipn_app_exact {A} (a b : list A) : skipn (length a) (a ++ b) = b.
Proof. rewrite skipn_app, Nat.sub_diag, skipn_all. reflexivity. Qed.

Lemma pack_f_fuel : forall f1 f2 ws, (length ws <= f1)%nat -> (length ws <= f2)%nat ->
  pack_f f1 ws = pack_f f2 ws.
Proof.
  induction f1 as [|f1 IH]; intros f2 ws H1 H2.
  - destruct ws; [destruct f2; reflexivity|simpl in H1; lia].
  - destruct ws as [|w r]; [destruct f2; reflexivity|].
    destruct f2 as [|f2]; [simpl in H2; lia|]. simpl in H1, H2.
    cbn [pack_f]. cbv zeta.
    destruct (tag_of w =? 0).
    { rewrite (IH f2) by (rewrite skipn_length; lia). reflexivity. }
    destruct (tag_of w =? 255).
    { rewrite (IH f2) by (rewrite skipn_length; lia). reflexivity. }
    rewrite (IH f2) by lia. reflexivity.
Qed.

Theorem unpack_s_pack_f strict : forall f ws, words_ok ws -> (length ws <= f)%nat ->
  unpack_s strict (pack_f f ws) = Some (concat ws).
Proof.
  induction f as [|f IH]; intros ws Hws Hf.
  - destruct ws; [reflexivity|simpl in Hf; lia].
  - destruct ws as [|w r]; [reflexivity|].
    inversion Hws as [|? ? Hw Hr]; subst. destruct Hw as [Hl Hb]. simpl in Hf.
    cbn [pack_f]. cbv zeta. pose proof (tag_of_range w) as TR. rewrite Hl in TR.
    change (2 ^ Z.of_nat 8) with 256 in TR.
    destruct (tag_of w =? 0) eqn:E0.
    { assert (Hz : tag_of w = 0) by lia.
      pose proof (tag_of_zero w Hb Hz) as Hwz. rewrite Hl in Hwz.
      cbn [app]. rewrite unpack_s_cons.
      replace (nonzero w) with (@nil Z) by (rewrite Hwz; reflexivity).
      cbn [app]. rewrite Hz. change (take_bits 8 0 ?s) with (Some (zeros 8, s)).
      cbn [Z.eqb]. rewrite Nat2Z.id.
      set (z := Nat.min (num_zero_words r) 255).
      rewrite IH; [| apply Forall_skipn; assumption | rewrite skipn_length; lia].
      cbn [option_map concat]. f_equal. rewrite Hwz. f_equal.
      rewrite (concat_firstn_skipn z r). f_equal.
      symmetry. apply num_zero_words_concat; [assumption|]. unfold z. lia. }
    destruct (tag_of w =? 255) eqn:E1.
    { assert (Hz : tag_of w = 255) by lia.
      assert (Hnz : nonzero w = w) by (apply tag_of_full; rewrite Hl; exact Hz).
      rewrite Hnz. cbn [app]. rewrite unpack_s_cons.
      set (i := lit_run 255 r).
      pose proof (tag_of_take_bits w (Z.of_nat i :: concat (firstn i r) ++ pack_f f (skipn i r)) Hb) as T.
      rewrite Hl, Hnz in T. rewrite T. rewrite E0, E1. cbv zeta. rewrite Nat2Z.id.
      assert (Hlen : length (concat (firstn i r)) = (8 * i)%nat).
      { rewrite concat_words_length by (apply Forall_firstn; assumption).
        rewrite firstn_length. pose proof (lit_run_le 255 r). fold i in H. lia. }
      replace ((length (concat (firstn i r) ++ pack_f f (skipn i r)) <? 8 * i)%nat) with false
        by (rewrite app_length; lia).
      rewrite andb_false_r. rewrite <- Hlen. rewrite firstn_app_exact, skipn_app_exact.
      rewrite IH; [| apply Forall_skipn; assumption | rewrite skipn_length; lia].
      cbn [option_map concat]. f_equal. f_equal.
      replace (length (concat (firstn i r)) - length (concat (firstn i r) ++ pack_f f (skipn i r)))%nat
        with O by (rewrite app_length; lia).
      cbn [zeros repeat app]. rewrite (concat_firstn_skipn i r). reflexivity. }
    rewrite <- app_comm_cons. rewrite unpack_s_cons.
    pose proof (tag_of_take_bits w (pack_f f r) Hb) as T. rewrite Hl in T. rewrite T.
    rewrite E0, E1. rewrite IH by (assumption || lia). reflexivity.
Qed.

Theorem unpack_pack ws : words_ok ws -> unpack (pack ws) = Some (concat ws).
Proof. intros H. apply (unpack_s_pack_f true); [assumption|lia]. Qed.

Theorem spec_unpack_pack ws : words_ok ws -> spec_unpack (pack ws) = Some (concat ws).
Proof. intros H. rewrite <- unpack_eq_spec. now apply unpack_pack. Qed.

(* the defective decoder (F07) also round-trips: the defect is invisible to
   round-trip tests, it only shows on truncated input *)
Theorem unpack_prefix_pack ws : words_ok ws -> unpack_prefix (pack ws) = Some (concat ws).
Proof. intros H. apply (unpack_s_pack_f false); [assumption|lia]. Qed.

Lemma chunk8_concat : forall ws f, words_ok ws -> (length (concat ws) <= f)%nat ->
  chunk8 f (concat ws) = Some ws.
Proof.
  induction ws as [|w ws IH]; intros f H Hf; [destruct f; reflexivity|].
  inversion H as [|? ? Hw H']; subst. destruct Hw as [Hl Hb].
  cbn [concat] in *. rewrite app_length in Hf.
  destruct w as [|b w]; [discriminate|].
  destruct f as [|f]; [simpl in Hf; lia|].
  cbn [chunk8 app].
  replace (length (b :: w ++ concat ws) <? 8)%nat with false by (simpl; rewrite app_length; simpl in Hl; lia).
  rewrite app_comm_cons.
  replace (firstn 8 ((b :: w) ++ concat ws)) with (b :: w)
    by (rewrite <- Hl; symmetry; apply firstn_app_exact).
  replace (skipn 8 ((b :: w) ++ concat ws)) with (concat ws)
    by (rewrite <- Hl; symmetry; apply skipn_app_exact).
  rewrite IH; [reflexivity|assumption|simpl in Hf; simpl in Hl; lia].
Qed.

Lemma chunk8_sound : forall f l ws, chunk8 f l = Some ws -> bytes_ok l -> words_ok ws /\ concat ws = l.
Proof.
  induction f as [|f IH]; intros l ws H Hb.
  - destruct l; simpl in H; [|discriminate]. inversion H; subst. split; [constructor|reflexivity].
  - destruct l as [|b l]; [simpl in H; inversion H; subst; split; [constructor|reflexivity]|].
    cbn [chunk8] in H. destruct (length (b :: l) <? 8)%nat eqn:E; [discriminate|].
    assert (Hfl : length (firstn 8 (b :: l)) = 8%nat) by (rewrite firstn_length; lia).
    assert (Hfb : bytes_ok (firstn 8 (b :: l))) by (now apply bytes_ok_firstn).
    assert (Hsb : bytes_ok (skipn 8 (b :: l))) by (now apply bytes_ok_skipn).
    pose proof (firstn_skipn 8 (b :: l)) as Hfs.
    remember (firstn 8 (b :: l)) as h8. remember (skipn 8 (b :: l)) as t8.
    destruct (chunk8 f t8) as [r|] eqn:E2; [|discriminate].
    inversion H; subst ws. apply IH in E2; [|assumption].
    destruct E2 as [E2 E3]. split.
    + constructor; [|assumption]. split; assumption.
    + cbn [concat]. rewrite E3. exact Hfs.
Qed.

Lemma chunk8_total : forall n bs, (length bs mod 8 = 0)%nat -> (length bs <= n)%nat ->
  exists ws, chunk8 n bs = Some ws.
Proof.
  induction n as [|n IH]; intros bs Hm Hle.
  - destruct bs; [eexists; reflexivity|simpl in Hle; lia].
  - destruct bs as [|b l]; [eexists; reflexivity|]. cbn [chunk8].
    destruct (length (b :: l) <? 8)%nat eqn:E.
    + exfalso. cbn [length] in *. lia.
    + destruct (IH (skipn 8 (b :: l))) as [r Hr].
      * rewrite skipn_length. lia.
      * rewrite skipn_length. cbn [length] in *. lia.
      * rewrite Hr. eexists; reflexivity.
Qed.

Lemma bytes_ok_filter f l : bytes_ok l -> bytes_ok (filter f l).
Proof.
  unfold bytes_ok. induction 1 as [|x l Hx _ IH]; cbn [filter]; [constructor|].
  destruct (f x); [constructor; assumption|assumption].
Qed.

Lemma bytes_ok_concat ws : Forall bytes_ok ws -> bytes_ok (concat ws).
Proof. induction 1 as [|w ws Hw _ IH]; cbn [concat]; [constructor|]. apply bytes_ok_app. now split. Qed.

Lemma words_bytes ws : words_ok ws -> Forall bytes_ok ws.
Proof. apply Forall_impl. intros w [_ H]. exact H. Qed.

Lemma pack_f_bytes_ok : forall f ws, words_ok ws -> bytes_ok (pack_f f ws).
Proof.
  induction f as [|f IH]; intros ws Hws; cbn [pack_f]; [constructor|].
  destruct ws as [|w r]; [constructor|]. cbv zeta.
  inversion Hws as [|? ? [Hl Hw] Hr]; subst.
  pose proof (tag_of_range w) as TR. rewrite Hl in TR. change (2 ^ Z.of_nat 8) with 256 in TR.
  assert (Hhd : bytes_ok (tag_of w :: nonzero w)).
  { constructor; [exact TR|]. now apply bytes_ok_filter. }
  destruct (tag_of w =? 0).
  { apply bytes_ok_app. split; [assumption|]. constructor; [unfold byte_ok; lia|].
    apply IH. now apply Forall_skipn. }
  destruct (tag_of w =? 255).
  { apply bytes_ok_app. split; [assumption|].
    pose proof (lit_run_le 255 r) as [L1 _].
    constructor; [unfold byte_ok; lia|]. apply bytes_ok_app. split.
    - apply bytes_ok_concat, words_bytes. now apply Forall_firstn.
    - apply IH. now apply Forall_skipn. }
  apply bytes_ok_app. split; [assumption|]. now apply IH.
Qed.

(* Pack is total on word-aligned byte strings, its output is bytes, Unpack inverts it *)
Lemma pack_bytes_props bs : bytes_ok bs -> (length bs mod 8 = 0)%nat ->
  exists p, pack_bytes bs = Some p /\ unpack p = Some bs /\ bytes_ok p.
Proof.
  intros Hb Hm. unfold pack_bytes.
  destruct (chunk8_total (length bs) bs Hm (le_n _)) as [ws E]. rewrite E.
  destruct (chunk8_sound _ _ _ E Hb) as [Hws Hc]. subst bs.
  exists (pack ws). split; [reflexivity|]. split; [now apply unpack_pack|].
  now apply pack_f_bytes_ok.
Qed.

Theorem unpack_pack_bytes bs : bytes_ok bs -> (length bs mod 8 = 0)%nat ->
  exists p, pack_bytes bs = Some p /\ unpack p = Some bs /\ spec_unpack p = Some bs.
Proof.
  intros Hb Hm. destruct (pack_bytes_props bs Hb Hm) as (p & Hp & Hu & _).
  exists p. now rewrite <- unpack_eq_spec.
Qed.

Theorem unpack_growth strict : forall src out, bytes_ok src ->
  unpack_s strict src = Some out -> (length out <= 1024 * length src)%nat.
Proof.
  intros src. induction src as [|src Hne IH] using (item_ind strict); intros out Hb H.
  - injection H as <-. cbn [length]. lia.
  - rewrite unpack_s_item in H by assumption.
    destruct (item strict src) as [[o r]|] eqn:Ei; [|discriminate].
    destruct (item_rest _ _ _ _ Ei) as (_ & Hi). destruct (Hi Hb) as (Hr & Hl).
    destruct (unpack_s strict r) as [out'|] eqn:Er; [|discriminate]. injection H as <-.
    specialize (IH o r eq_refl out' Hr Er). rewrite app_length. lia.
Qed.

(* F07: the decoder as found ([unpack_prefix]) accepts an input cut inside a literal run,
   which the grammar rejects *)
Example unpack_prefix_refuted :
  exists p, spec_unpack p = None /\ unpack_prefix p = Some (repeat 1 8 ++ repeat 0 8).
Proof. exists [255;1;1;1;1;1;1;1;1;1]. split; vm_compute; reflexivity. Qed.
