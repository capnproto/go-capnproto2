(* Reader.Read (the byte-granular interface over ReadWord) agrees with the one-shot decoder:
   for every sequence of request sizes (each >= 1), every fast-path oracle and every
   short-read oracle, the concatenation of what the Read calls return and the final error
   equal the output / verdict of [unpack].

   Route: facts about one ReadWord step that hold whatever the stream means (lengths;
   validity of the state and a strictly decreasing measure), then ONE ladder
   ReadWord -> Read loop -> Read call -> all Read calls, proved for any denotation of the
   reader state that ReadWord respects ([Section Ladder]).  Its instance for the denotation
   [expected'] / [D] ("what remains to be produced, if the rest of the stream is accepted") is
   the agreement with [unpack] stated here; ReadCallProofs2.v instantiates it with a total
   denotation to say what Read hands out on streams that [unpack] rejects. *)
From CV Require Import Packed.Packed Packed.PackSpec Packed.PackedProofs Packed.ReaderProofs.
From Coq Require Import ZifyBool ZifyNat.
Open Scope Z_scope.

(* [intros [= <- ...]] would normalise [firstn 8 inp] etc.; split tuples by hand *)
Ltac inj3 :=
  let H := fresh "H" in
  intros H; apply pair_equal_spec in H; destruct H as [H <-];
  apply pair_equal_spec in H; destruct H as [<- <-].
Ltac inj5 :=
  let H := fresh "H" in
  intros H; apply pair_equal_spec in H; destruct H as [H <-];
  apply pair_equal_spec in H; destruct H as [H <-];
  apply pair_equal_spec in H; destruct H as [H <-];
  apply pair_equal_spec in H; destruct H as [<- <-].

Lemma skipn_firstn_length {A} n (l : list A) : skipn (length (firstn n l)) l = skipn n l.
Proof.
  rewrite firstn_length. destruct (Nat.le_ge_cases n (length l)) as [H|H].
  - now rewrite Nat.min_l.
  - rewrite Nat.min_r by assumption. now rewrite !skipn_all2 by lia.
Qed.

(* a word returned by ReadWord has 8 bytes: any state, any input *)
Lemma read_word_len strict fast st inp st' inp' out :
  read_word strict fast st inp = (st', inp', out) ->
  match out with RWord w => length w = 8%nat | RErr _ => True end.
Proof.
  unfold read_word. destruct (r_err st); [inj3; exact I|].
  destruct (0 <? r_zeroes st); [inj3; apply length_zeros|].
  destruct (0 <? r_literal st).
  { destruct (8 <=? length inp)%nat eqn:E8; [inj3; rewrite firstn_length; lia|].
    destruct inp; inj3; exact I. }
  destruct inp as [|tag s]; [inj3; exact I|]. rewrite word_choice.
  destruct (take_bits 8 tag s) as [[w s1]|] eqn:E; [|inj3; exact I].
  apply take_bits_length in E. destruct E as (Hw & _).
  destruct (tag =? 0); [destruct s1; inj3; exact Hw|].
  destruct (tag =? 255); [destruct s1; inj3; exact Hw|]. inj3. exact Hw.
Qed.

(* the Read loop returns at most the bytes asked for, fewer when it reports an error, and at
   least one when it does not (with fuel for the request and something asked for) *)
Lemma read_loop_len strict : forall fuel orc k st inp want got k' st' inp' got' oe,
  read_loop strict fuel orc k st inp want got = (k', st', inp', got', oe) ->
  (length got' <= length got + want)%nat /\
  match oe with
  | Some _ => (length got' < length got + want)%nat
  | None => (want < fuel)%nat -> (0 < want)%nat \/ got <> [] -> got' <> []
  end.
Proof.
  induction fuel as [|fuel IH]; intros orc k st inp want got k' st' inp' got' oe; cbn [read_loop].
  { inj5. split; intros; lia. }
  destruct (want =? 0)%nat eqn:Ew.
  { inj5. split; [lia|]. intros _ [H|H]; [lia|exact H]. }
  destruct (snd (orc k) && negb (length got =? 0)%nat) eqn:Es.
  { inj5. split; [lia|]. intros _ _ ->. rewrite andb_false_r in Es. discriminate. }
  destruct (read_word strict (fst (orc k)) (b_r st) inp) as [[r' i'] [w|e]] eqn:Er.
  2:{ inj5. split; lia. }
  apply read_word_len in Er.
  destruct (8 <=? want)%nat eqn:E8.
  - intros H. apply IH in H. rewrite app_length in H. destruct H as [H1 H2].
    split; [lia|]. destruct oe; [lia|]. intros Hf _. apply H2; [lia|].
    right. destruct w; [discriminate|]. destruct got; discriminate.
  - inj5. rewrite app_length, firstn_length. split; [lia|]. intros _ _ Hnil.
    apply (f_equal (@length Z)) in Hnil. rewrite app_length, firstn_length in Hnil.
    cbn [length] in Hnil. lia.
Qed.

(* Read(p) never returns more than len(p) bytes ... *)
Theorem read_call_len_le strict orc k st inp n k' st' inp' got oe :
  read_call strict orc k st inp n = (k', st', inp', got, oe) -> (length got <= n)%nat.
Proof.
  unfold read_call. intros H. apply read_loop_len in H. rewrite firstn_length in H. lia.
Qed.

(* ... and strictly fewer when it returns an error (EOF or UnexpectedEOF): any state, any
   input, any oracle, repaired or as-found code, any request size *)
Theorem read_call_err_not_full strict orc k st inp n k' st' inp' got e :
  read_call strict orc k st inp n = (k', st', inp', got, Some e) -> (length got < n)%nat.
Proof.
  unfold read_call. intros H. apply read_loop_len in H. rewrite firstn_length in H. lia.
Qed.

(* a Read of at least one byte that reports no error returns at least one byte *)
Lemma read_call_progress strict orc k st inp n k' st' inp' got : (0 < n)%nat ->
  read_call strict orc k st inp n = (k', st', inp', got, None) -> got <> [].
Proof.
  unfold read_call. intros Hn H. apply read_loop_len in H. destruct H as [_ H].
  apply H; [lia|]. destruct (firstn n (skipn (b_idx st) (b_word st))); [left; cbn; lia|now right].
Qed.

(* reader states that can arise: counters are bytes; only UnexpectedEOF is ever parked *)
Definition rvalid (st : rstate) : Prop :=
  0 <= r_zeroes st < 256 /\ 0 <= r_literal st < 256 /\
  (forall e, r_err st = Some e -> e = UnexpectedEOF).

(* what remains to be produced; a parked error means "the stream is invalid" *)
Definition expected' (st : rstate) (inp : list Z) : option (list Z) :=
  match r_err st with Some _ => None | None => expected st inp end.

(* 256 per input byte: a count byte loads a counter with at most 255 while at least one input
   byte goes *)
Definition rmeasure (st : rstate) (inp : list Z) : nat :=
  (256 * length inp + Z.to_nat (r_zeroes st) + Z.to_nat (r_literal st)
   + match r_err st with Some _ => 1 | None => 0 end)%nat.

Definition bvalid (b : bstate) : Prop :=
  rvalid (b_r b) /\ length (b_word b) = 8%nat /\ (b_idx b <= 8)%nat.

(* denotation of the byte-level state: the unread tail of the word buffer, then whatever the
   word reader still has to produce *)
Definition D (b : bstate) (inp : list Z) : option (list Z) :=
  option_map (app (skipn (b_idx b) (b_word b))) (expected' (b_r b) inp).

(* 9 per unit of [rmeasure]: a word is 8 bytes handed out and costs at least one unit *)
Definition bmeasure (b : bstate) (inp : list Z) : nat :=
  (9 * rmeasure (b_r b) inp + (8 - b_idx b))%nat.

Lemma b_init_valid : bvalid b_init.
Proof.
  unfold bvalid, rvalid, b_init, r_init. cbn [b_r b_word b_idx r_zeroes r_literal r_err].
  split; [repeat split; try lia; discriminate|]. split; [reflexivity|lia].
Qed.

(* the leaves of [read_word_inv]: arithmetic on the counters, or a piece of the input is bytes *)
Ltac leaf :=
  first [ lia | assumption | discriminate | apply bytes_ok_zeros
        | now apply bytes_ok_skipn | now apply bytes_ok_firstn | (rewrite skipn_length; lia)
        | now intros ? [= <-] | constructor ].

(* one ReadWord call, repaired or as found, error or not, whether or not the stream unpacks:
   the state stays valid, the rest of the input and a returned word consist of bytes, and
   the measure goes down with every word *)
Lemma read_word_inv strict fast st inp st' inp' out :
  rvalid st -> bytes_ok inp ->
  read_word strict fast st inp = (st', inp', out) ->
  rvalid st' /\ bytes_ok inp' /\
  match out with
  | RWord w => bytes_ok w /\ (rmeasure st' inp' < rmeasure st inp)%nat
  | RErr _ => (rmeasure st' inp' <= rmeasure st inp)%nat
  end.
Proof.
  destruct st as [z l e]. unfold rvalid, rmeasure. cbn [r_zeroes r_literal r_err].
  intros (Hz & Hl & He) Hb. unfold read_word. cbn [r_err r_zeroes r_literal].
  assert (Hnil : bytes_ok []) by constructor.
  destruct e as [e|]; [inj3; cbn [r_zeroes r_literal r_err]; repeat split; leaf|].
  destruct (0 <? z) eqn:Ez; [inj3; cbn [r_zeroes r_literal r_err]; repeat split; leaf|].
  destruct (0 <? l) eqn:El.
  { destruct (8 <=? length inp)%nat eqn:E8.
    - inj3. cbn [r_zeroes r_literal r_err]. repeat split; leaf.
    - destruct inp; inj3; cbn [r_zeroes r_literal r_err length]; repeat split; leaf. }
  destruct inp as [|tag s]; [inj3; cbn [r_zeroes r_literal r_err]; repeat split; leaf|].
  rewrite word_choice. inversion Hb as [|? ? Htag Hs]; subst.
  destruct (take_bits 8 tag s) as [[w s1]|] eqn:E;
    [|inj3; cbn [r_zeroes r_literal r_err length]; repeat split; leaf].
  pose proof (take_bits_bytes_ok _ _ _ _ _ Hs E) as Hwb.
  apply take_bits_length in E. destruct E as (_ & Hle & pre & Hpre & _).
  assert (Hs1 : bytes_ok s1) by (subst s; now apply bytes_ok_app in Hs).
  destruct (tag =? 0).
  { destruct s1 as [|n s2]; inj3; cbn [r_zeroes r_literal r_err length] in *.
    - repeat split; leaf.
    - inversion Hs1 as [|? ? Hn Hs2]; subst. unfold byte_ok in Hn. repeat split; leaf. }
  destruct (tag =? 255).
  { destruct s1 as [|n s2]; inj3; cbn [r_zeroes r_literal r_err length] in *.
    - repeat split; leaf.
    - inversion Hs1 as [|? ? Hn Hs2]; subst. unfold byte_ok in Hn. repeat split; leaf. }
  inj3. cbn [r_zeroes r_literal r_err length]. repeat split; leaf.
Qed.

(* the Read loop: valid state, bytes; every byte handed out costs at least one unit of the
   measure *)
Lemma read_loop_inv strict : forall fuel orc k st inp want got k' st' inp' got' oe,
  bvalid st -> bytes_ok inp ->
  read_loop strict fuel orc k st inp want got = (k', st', inp', got', oe) ->
  bvalid st' /\ bytes_ok inp' /\
  (bmeasure st' inp' + length got' <= bmeasure st inp + length got)%nat /\
  (bytes_ok (b_word st) -> bytes_ok got -> bytes_ok (b_word st') /\ bytes_ok got').
Proof.
  induction fuel as [|fuel IH]; intros orc k st inp want got k' st' inp' got' oe Hv Hb;
    cbn [read_loop].
  { inj5. auto. }
  destruct (want =? 0)%nat eqn:Ew; [inj5; auto|].
  destruct (snd (orc k) && negb (length got =? 0)%nat); [inj5; auto|].
  pose proof Hv as (Hvr & Hvw & _).
  destruct (read_word strict (fst (orc k)) (b_r st) inp) as [[r' i'] [w|e]] eqn:Er;
    pose proof (read_word_len _ _ _ _ _ _ _ Er) as Hw;
    apply read_word_inv in Er; try assumption; destruct Er as (Hv' & Hb' & Hm).
  2:{ inj5. split; [unfold bvalid; cbn [b_r b_word b_idx]; auto|]. split; [assumption|].
      split; [unfold bmeasure; cbn [b_r b_idx]; lia|auto]. }
  destruct Hm as (Hwb & Hm).
  assert (Hmk : forall wd i, length wd = 8%nat -> (i <= 8)%nat -> bvalid (mkB r' wd i)).
  { intros wd i H1 H2. unfold bvalid. cbn [b_r b_word b_idx]. auto. }
  destruct (8 <=? want)%nat eqn:E8.
  - intros H. apply IH in H; [|apply Hmk; [assumption|lia]|assumption].
    destruct H as (H1 & H2 & H3 & H4). rewrite app_length in H3.
    split; [assumption|]. split; [assumption|].
    split; [unfold bmeasure in *; cbn [b_r b_idx] in *; lia|].
    intros Hwd Hg. apply H4; [assumption|]. apply bytes_ok_app; auto.
  - inj5. unfold bmeasure. cbn [b_r b_word b_idx]. rewrite !app_length, firstn_length.
    split; [apply Hmk; [assumption|lia]|]. split; [assumption|]. split; [lia|].
    intros _ Hg. split; [assumption|]. apply bytes_ok_app. split; [assumption|now apply bytes_ok_firstn].
Qed.

Lemma read_call_inv strict orc k st inp n k' st' inp' got oe :
  bvalid st -> bytes_ok inp ->
  read_call strict orc k st inp n = (k', st', inp', got, oe) ->
  bvalid st' /\ bytes_ok inp' /\ (bmeasure st' inp' + length got <= bmeasure st inp)%nat /\
  (bytes_ok (b_word st) -> bytes_ok (b_word st') /\ bytes_ok got).
Proof.
  intros Hv Hb. pose proof Hv as (Hvr & Hvw & Hvi). unfold read_call. intros H.
  apply read_loop_inv in H; try assumption.
  - destruct H as (H1 & H2 & H3 & H4). rewrite firstn_length, skipn_length in H3.
    split; [assumption|]. split; [assumption|].
    split; [unfold bmeasure in *; cbn [b_r b_idx] in *; lia|].
    intros Hwd. apply H4; [assumption|]. now apply bytes_ok_firstn, bytes_ok_skipn.
  - unfold bvalid. cbn [b_r b_word b_idx]. split; [assumption|]. split; [assumption|].
    rewrite firstn_length, skipn_length. lia.
Qed.

(* One Read(p) call (len(p) = n), repaired or as found, with or without an error, on a stream
   that may or may not unpack: the byte-level state stays valid, the word buffer, the rest of
   the input and the bytes returned are bytes. *)
Theorem read_call_bytes_ok strict orc k st inp n k' st' inp' got oe :
  bvalid st -> bytes_ok (b_word st) -> bytes_ok inp ->
  read_call strict orc k st inp n = (k', st', inp', got, oe) ->
  bvalid st' /\ bytes_ok (b_word st') /\ bytes_ok inp' /\ bytes_ok got.
Proof.
  intros Hv Hwd Hb H. apply read_call_inv in H; try assumption.
  destruct H as (H1 & H2 & _ & H4). destruct (H4 Hwd). auto.
Qed.

Theorem read_calls_bytes_ok strict : forall fuel orc k st inp sizes j out e,
  bvalid st -> bytes_ok (b_word st) -> bytes_ok inp ->
  read_calls strict fuel orc k st inp sizes j = Some (out, e) -> bytes_ok out.
Proof.
  induction fuel as [|fuel IH]; intros orc k st inp sizes j out e Hv Hwd Hb; cbn [read_calls];
    [discriminate|].
  destruct (read_call strict orc k st inp (S (sizes j))) as [[[[k' st'] inp'] got] [e'|]] eqn:Ec;
    apply read_call_bytes_ok in Ec; try assumption; destruct Ec as (Hv' & Hwd' & Hb' & Hg).
  - intros [= <- <-]. assumption.
  - destruct (read_calls strict fuel orc k' st' inp' sizes (S j)) as [[o2 e2]|] eqn:Er;
      [|discriminate].
    intros [= <- <-]. apply bytes_ok_app. split; [assumption|].
    apply (IH orc k' st' inp' sizes (S j) o2 e2); assumption.
Qed.

Corollary read_calls_init_bytes_ok strict fuel orc inp sizes out e : bytes_ok inp ->
  read_calls strict fuel orc 0 b_init inp sizes 0 = Some (out, e) -> bytes_ok out.
Proof.
  intros Hb. apply read_calls_bytes_ok; [exact b_init_valid|apply (bytes_ok_zeros 8)|assumption].
Qed.

(* [E st inp] : X says what the word reader in state [st] will do with the input [inp];
   [act w x] is "the bytes [w], then x"; [fin g e x] is "x is: the bytes [g], then the error
   [e]".  If every ReadWord step of the repaired code respects [E], so do the ReadWord loop
   and the Read calls, for every oracle and all request sizes. *)
Section Ladder.
  Variables (X : Type) (act : list Z -> X -> X) (fin : list Z -> rerr -> X -> Prop)
            (E : rstate -> list Z -> X).
  Hypothesis act_nil : forall x, act [] x = x.
  Hypothesis act_app : forall a b x, act a (act b x) = act (a ++ b) x.
  Hypothesis fin_act : forall w g e x, fin g e x -> fin (w ++ g) e (act w x).
  Hypothesis word_step : forall fast st inp st' inp' out, rvalid st ->
    read_word true fast st inp = (st', inp', out) ->
    match out with
    | RWord w => E st inp = act w (E st' inp')
    | RErr e => fin [] e (E st inp)
    end.

  Theorem read_words_den : forall fuel orc k st inp,
    rvalid st -> bytes_ok inp -> (rmeasure st inp < fuel)%nat ->
    exists o e, read_words true fuel orc k st inp = Some (o, e) /\ fin o e (E st inp).
  Proof using All.
    induction fuel as [|fuel IH]; intros orc k st inp Hv Hb Hf; [lia|]. cbn [read_words].
    destruct (read_word true (orc k) st inp) as [[st' inp'] [w|e]] eqn:Er;
      pose proof (read_word_inv _ _ _ _ _ _ _ Hv Hb Er) as (Hv' & Hb' & Hm);
      apply word_step in Er; try assumption.
    - destruct (IH orc (S k) st' inp' Hv' Hb' ltac:(lia)) as (o & e & -> & Hfin).
      exists (w ++ o), e. split; [reflexivity|]. rewrite Er. now apply fin_act.
    - exists [], e. split; [reflexivity|exact Er].
  Qed.

  (* the byte-level state: the unread tail of the word buffer comes first *)
  Definition Den (b : bstate) (inp : list Z) : X :=
    act (skipn (b_idx b) (b_word b)) (E (b_r b) inp).

  Lemma Den_idx8 b inp : bvalid b -> b_idx b = 8%nat -> Den b inp = E (b_r b) inp.
  Proof using All. intros (_ & Hw & _) Hi. unfold Den. rewrite Hi, skipn_all2 by lia. apply act_nil. Qed.

  Lemma read_loop_den : forall fuel orc k st inp want got k' st' inp' got' oe,
    bvalid st -> ((0 < want)%nat -> b_idx st = 8%nat) -> bytes_ok inp ->
    read_loop true fuel orc k st inp want got = (k', st', inp', got', oe) ->
    exists g, got' = got ++ g /\
    match oe with
    | None => Den st inp = act g (Den st' inp')
    | Some e => fin g e (Den st inp)
    end.
  Proof using All.
    induction fuel as [|fuel IH]; intros orc k st inp want got k' st' inp' got' oe Hv Hi Hb;
      cbn [read_loop].
    { inj5. exists []. now rewrite app_nil_r, act_nil. }
    destruct (want =? 0)%nat eqn:Ew.
    { inj5. exists []. now rewrite app_nil_r, act_nil. }
    destruct (snd (orc k) && negb (length got =? 0)%nat).
    { inj5. exists []. now rewrite app_nil_r, act_nil. }
    assert (Hi8 : b_idx st = 8%nat) by (apply Hi; lia).
    pose proof Hv as (Hvr & Hvw & _).
    rewrite (Den_idx8 st inp Hv Hi8).
    destruct (read_word true (fst (orc k)) (b_r st) inp) as [[r' i'] [w|e]] eqn:Er;
      pose proof (read_word_inv _ _ _ _ _ _ _ Hvr Hb Er) as (Hv' & Hb' & _);
      apply word_step in Er; try assumption.
    2:{ inj5. exists []. rewrite app_nil_r. split; [reflexivity|exact Er]. }
    assert (Hvn : bvalid (mkB r' (b_word st) 8)).
    { unfold bvalid. cbn [b_r b_word b_idx]. split; [assumption|]. split; [assumption|lia]. }
    destruct (8 <=? want)%nat eqn:E8.
    - (* whole word copied to the caller, continue *)
      intros H. apply IH in H; try assumption; [|reflexivity].
      destruct H as (g & Hg & H). exists (w ++ g). split; [now rewrite Hg, app_assoc|].
      rewrite (Den_idx8 _ i' Hvn eq_refl) in H. cbn [b_r] in H. rewrite Er.
      destruct oe as [e|]; [now apply fin_act|]. rewrite H. apply act_app.
    - (* partial word: the rest stays in the word buffer *)
      inj5. exists (firstn want w). split; [reflexivity|].
      rewrite Er. unfold Den. cbn [b_r b_word b_idx]. now rewrite act_app, firstn_skipn.
  Qed.

  (* One Read(p) call from a valid state: the bytes returned are the next bytes of the
     denotation; an error comes with the bytes that complete it. *)
  Lemma read_call_den orc k st inp n k' st' inp' got oe :
    bvalid st -> bytes_ok inp ->
    read_call true orc k st inp n = (k', st', inp', got, oe) ->
    match oe with
    | None => Den st inp = act got (Den st' inp')
    | Some e => fin got e (Den st inp)
    end.
  Proof using All.
    intros Hv Hb. pose proof Hv as (Hvr & Hvw & Hvi). unfold read_call.
    set (tail := skipn (b_idx st) (b_word st)).
    set (pre := firstn n tail).
    set (st1 := mkB (b_r st) (b_word st) (b_idx st + length pre)).
    assert (Htl : length tail = (8 - b_idx st)%nat) by (unfold tail; rewrite skipn_length; lia).
    assert (Hpl : length pre = Nat.min n (8 - b_idx st)) by (unfold pre; rewrite firstn_length; lia).
    assert (Hv1 : bvalid st1).
    { unfold bvalid, st1. cbn [b_r b_word b_idx]. split; [assumption|]. split; [assumption|lia]. }
    assert (HD1 : Den st inp = act pre (Den st1 inp)).
    { unfold Den, st1. cbn [b_r b_word b_idx]. rewrite act_app. f_equal.
      fold tail. rewrite Nat.add_comm, <- skipn_skipn'. fold tail. unfold pre.
      rewrite skipn_firstn_length, firstn_skipn. reflexivity. }
    intros H. apply read_loop_den in H; try assumption.
    2:{ intros Hw. unfold st1. cbn [b_idx]. lia. }
    destruct H as (g & -> & H). rewrite HD1.
    destruct oe as [e|]; [now apply fin_act|]. rewrite H. apply act_app.
  Qed.

  Theorem read_calls_den : forall fuel orc k st inp sizes j,
    bvalid st -> bytes_ok inp -> (bmeasure st inp < fuel)%nat ->
    exists o e, read_calls true fuel orc k st inp sizes j = Some (o, e) /\ fin o e (Den st inp).
  Proof using All.
    induction fuel as [|fuel IH]; intros orc k st inp sizes j Hv Hb Hf; [lia|].
    cbn [read_calls].
    destruct (read_call true orc k st inp (S (sizes j))) as [[[[k' st'] inp'] got] [e|]] eqn:Ec;
      pose proof (read_call_den _ _ _ _ _ _ _ _ _ _ Hv Hb Ec) as HD.
    - exists got, e. split; [reflexivity|exact HD].
    - pose proof (read_call_progress _ _ _ _ _ _ _ _ _ _ (Nat.lt_0_succ _) Ec) as Hg.
      apply read_call_inv in Ec; try assumption. destruct Ec as (Hv' & Hb' & Hm & _).
      assert (0 < length got)%nat by (destruct got; [congruence|cbn [length]; lia]).
      destruct (IH orc k' st' inp' sizes (S j) Hv' Hb' ltac:(lia)) as (o & e & -> & Hfin).
      exists (got ++ o), e. split; [reflexivity|]. rewrite HD. now apply fin_act.
  Qed.
End Ladder.

(* [x] says: the rest of the stream is accepted and unpacks to [g] (then [e] is EOF), or it is
   rejected (then [e] is UnexpectedEOF) *)
Definition ends (g : list Z) (e : rerr) (x : option (list Z)) : Prop :=
  match x with Some o => o = g /\ e = EOF | None => e = UnexpectedEOF end.

Lemma ends_app w g e x : ends g e x -> ends (w ++ g) e (option_map (app w) x).
Proof. destruct x; cbn [ends option_map]; [intros [-> ->]; split; reflexivity|auto]. Qed.

Lemma ends_agrees o e x : ends o e x -> agrees (Some (o, e)) x.
Proof. destruct x; cbn [ends agrees]; [intros [-> ->]; reflexivity|intros ->; eexists; reflexivity]. Qed.

Lemma expected_idle s : expected (mkR 0 0 None) s = unpack_s true s.
Proof.
  unfold expected. cbn [r_zeroes r_literal]. change (8 * Z.to_nat 0)%nat with O.
  cbn [Nat.ltb Nat.leb skipn firstn zeros repeat app]. destruct (unpack_s true s); reflexivity.
Qed.

Lemma expected_zero z l inp : 0 < z ->
  expected (mkR z l None) inp = option_map (app (zeros 8)) (expected (mkR (z - 1) l None) inp).
Proof.
  intros Hz. unfold expected. cbn [r_zeroes r_literal].
  destruct (length inp <? 8 * Z.to_nat l)%nat; [reflexivity|].
  destruct (unpack_s true (skipn (8 * Z.to_nat l) inp)); [|reflexivity].
  cbn [option_map]. f_equal. symmetry. rewrite app_assoc, zeros_app. f_equal. f_equal. lia.
Qed.

Lemma expected_lit l inp : 0 < l -> (8 <= length inp)%nat ->
  expected (mkR 0 l None) inp =
  option_map (app (firstn 8 inp)) (expected (mkR 0 (l - 1) None) (skipn 8 inp)).
Proof.
  intros Hl H8. unfold expected. cbn [r_zeroes r_literal]. rewrite skipn_length.
  replace (8 * Z.to_nat l)%nat with (8 + 8 * Z.to_nat (l - 1))%nat by lia.
  destruct (length inp <? 8 + 8 * Z.to_nat (l - 1))%nat eqn:E1.
  - replace (length inp - 8 <? 8 * Z.to_nat (l - 1))%nat with true by lia. reflexivity.
  - replace (length inp - 8 <? 8 * Z.to_nat (l - 1))%nat with false by lia.
    rewrite skipn_skipn'. rewrite (Nat.add_comm (8 * Z.to_nat (l - 1)) 8).
    destruct (unpack_s true (skipn (8 + 8 * Z.to_nat (l - 1)) inp)); [|reflexivity].
    cbn [option_map]. f_equal. change (zeros (8 * Z.to_nat 0)) with (@nil Z). cbn [app].
    rewrite firstn_add, app_assoc. reflexivity.
Qed.

Lemma expected_lit_short z l inp : 0 < l -> (length inp < 8)%nat ->
  expected (mkR z l None) inp = None.
Proof.
  intros Hl H8. unfold expected. cbn [r_literal].
  replace (length inp <? 8 * Z.to_nat l)%nat with true by lia. reflexivity.
Qed.

(* One ReadWord call (repaired code) from a valid state:
   - a word: it is the next 8 bytes of the denotation (the new state may carry a parked error);
   - an error: EOF exactly when the denotation is the empty output, UnexpectedEOF exactly
     when the remaining stream is invalid. *)
Lemma read_word_spec fast st inp st' inp' out :
  rvalid st -> read_word true fast st inp = (st', inp', out) ->
  match out with
  | RWord w => expected' st inp = option_map (app w) (expected' st' inp')
  | RErr e => ends [] e (expected' st inp)
  end.
Proof.
  destruct st as [z l e]. unfold rvalid, expected'. cbn [r_zeroes r_literal r_err].
  intros (Hz & Hl & He). unfold read_word. cbn [r_err r_zeroes r_literal].
  destruct e as [e|]; [inj3; now apply He|].
  destruct (0 <? z) eqn:Ez; [inj3; apply expected_zero; lia|].
  assert (z = 0) by lia. subst z.
  destruct (0 <? l) eqn:El.
  { destruct (8 <=? length inp)%nat eqn:E8; [inj3; apply expected_lit; lia|].
    destruct inp; inj3; rewrite expected_lit_short by lia; reflexivity. }
  assert (l = 0) by lia. subst l. rewrite expected_idle.
  destruct inp as [|tag s]; [inj3; split; reflexivity|].
  rewrite word_choice, unpack_s_cons.
  destruct (take_bits 8 tag s) as [[w s1]|] eqn:E; [|inj3; reflexivity].
  destruct (tag =? 0).
  { destruct s1 as [|n s2]; inj3; cbn [r_err]; [reflexivity|].
    unfold expected. cbn [r_zeroes r_literal]. change (8 * Z.to_nat 0)%nat with O.
    cbn [Nat.ltb Nat.leb skipn firstn app]. destruct (unpack_s true s2); reflexivity. }
  destruct (tag =? 255).
  { destruct s1 as [|n s2]; inj3; cbn [r_err]; [reflexivity|].
    cbv zeta. rewrite andb_true_l. unfold expected. cbn [r_zeroes r_literal].
    destruct (length s2 <? 8 * Z.to_nat n)%nat eqn:E2; [reflexivity|].
    destruct (unpack_s true (skipn (8 * Z.to_nat n) s2)); [|reflexivity].
    cbn [option_map]. replace (8 * Z.to_nat n - length s2)%nat with O by lia. reflexivity. }
  inj3. cbn [r_err]. now rewrite expected_idle.
Qed.

Lemma D_init inp : D b_init inp = unpack inp.
Proof.
  unfold D, b_init, expected'. cbn [b_r b_word b_idx r_init r_err].
  fold r_init. change r_init with (mkR 0 0 None). rewrite expected_idle.
  change (skipn 8 (zeros 8)) with (@nil Z). apply option_map_app_nil.
Qed.

(* for every path oracle the streaming decoder returns exactly the one-shot output with a
   clean end of stream when the one-shot decoder accepts, and an unexpected-EOF error
   when it rejects *)
Theorem stream_agrees orc inp : bytes_ok inp ->
  match unpack inp with
  | Some out => stream_unpack true orc inp = Some (out, EOF)
  | None => exists o, stream_unpack true orc inp = Some (o, UnexpectedEOF)
  end.
Proof.
  intros Hb.
  destruct (read_words_den _ _ ends expected' option_map_app_nil option_map_app_app ends_app
              read_word_spec (reader_fuel inp) orc 0%nat r_init inp) as (o & e & Hr & He).
  - unfold rvalid, r_init. cbn [r_zeroes r_literal r_err]. repeat split; try lia; discriminate.
  - assumption.
  - unfold rmeasure, reader_fuel, r_init. cbn [r_zeroes r_literal r_err]. lia.
  - unfold stream_unpack. rewrite Hr. apply ends_agrees in He.
    unfold expected', r_init in He. cbn [r_err] in He. rewrite expected_idle in He. exact He.
Qed.

Theorem read_calls_spec : forall fuel orc k st inp sizes j,
  bvalid st -> bytes_ok inp -> (bmeasure st inp < fuel)%nat ->
  agrees (read_calls true fuel orc k st inp sizes j) (D st inp).
Proof.
  intros fuel orc k st inp sizes j Hv Hb Hf.
  destruct (read_calls_den _ _ ends expected' option_map_app_nil option_map_app_app ends_app
              read_word_spec fuel orc k st inp sizes j Hv Hb Hf) as (o & e & -> & He).
  now apply ends_agrees.
Qed.

(* enough fuel for any run of Read calls: 9 * 256 per input byte *)
Definition read_fuel (inp : list Z) : nat := (2304 * length inp + 1)%nat.

Lemma bmeasure_init inp : (bmeasure b_init inp < 2304 * length inp + 1)%nat.
Proof. unfold bmeasure, rmeasure, b_init, r_init. cbn [b_r b_idx r_zeroes r_literal r_err]. lia. Qed.

(* For every sequence of request sizes (each request is S (sizes j) >= 1 bytes), every
   fast-path oracle and every short-read oracle: the concatenation of the bytes returned by
   the Read calls and the final error are the one-shot decoder's output and verdict. *)
Theorem read_calls_agree : forall orc sizes inp, bytes_ok inp ->
  forall fuel, (2304 * length inp + 1 <= fuel)%nat ->
  match unpack inp with
  | Some out => read_calls true fuel orc 0 b_init inp sizes 0 = Some (out, EOF)
  | None => exists o, read_calls true fuel orc 0 b_init inp sizes 0 = Some (o, UnexpectedEOF)
  end.
Proof.
  intros orc sizes inp Hb fuel Hf. rewrite <- D_init.
  apply (read_calls_spec fuel orc 0%nat b_init inp sizes 0%nat b_init_valid Hb).
  pose proof (bmeasure_init inp). lia.
Qed.

Corollary read_calls_agree_fuel orc sizes inp : bytes_ok inp ->
  match unpack inp with
  | Some out => read_calls true (read_fuel inp) orc 0 b_init inp sizes 0 = Some (out, EOF)
  | None => exists o, read_calls true (read_fuel inp) orc 0 b_init inp sizes 0
                      = Some (o, UnexpectedEOF)
  end.
Proof. intros Hb. apply read_calls_agree; [assumption|]. unfold read_fuel. lia. Qed.

(* request sizes 1,3,8,9 cycling (read_calls asks for S (sizes j) bytes); both oracles vary *)
Definition ex_sizes (j : nat) : nat := nth (j mod 4) [0; 2; 7; 8]%nat 0%nat.
Definition ex_orc (k : nat) : bool * bool := (Nat.even k, Nat.even (k / 2)).

(* a one-byte word, a zero run of 3 words, a literal run of 2 words, a 3-byte word *)
Definition ex_inp : list Z :=
  [16; 5;  0; 2;  255; 1; 2; 3; 4; 5; 6; 7; 8; 2;
   9; 9; 9; 9; 0; 0; 9; 9;  7; 7; 7; 7; 7; 7; 7; 7;  7; 1; 2; 3].

Example read_calls_example :
  bytes_ok ex_inp /\
  unpack ex_inp = Some ([0; 0; 0; 0; 5; 0; 0; 0] ++ zeros 24 ++ [1; 2; 3; 4; 5; 6; 7; 8] ++
                        [9; 9; 9; 9; 0; 0; 9; 9] ++ repeat 7 8 ++ [1; 2; 3; 0; 0; 0; 0; 0]) /\
  read_calls true (read_fuel ex_inp) ex_orc 0 b_init ex_inp ex_sizes 0
  = Some ([0; 0; 0; 0; 5; 0; 0; 0] ++ zeros 24 ++ [1; 2; 3; 4; 5; 6; 7; 8] ++
          [9; 9; 9; 9; 0; 0; 9; 9] ++ repeat 7 8 ++ [1; 2; 3; 0; 0; 0; 0; 0], EOF).
Proof.
  split; [unfold bytes_ok, byte_ok, ex_inp; repeat constructor; lia|].
  split; vm_compute; reflexivity.
Qed.

(* the same input cut inside the literal run: both decoders reject *)
Example read_calls_example_truncated :
  unpack (firstn 20 ex_inp) = None /\
  exists o, read_calls true (read_fuel (firstn 20 ex_inp)) ex_orc 0 b_init (firstn 20 ex_inp)
                       ex_sizes 0 = Some (o, UnexpectedEOF).
Proof. split; [vm_compute; reflexivity|]. eexists. vm_compute. reflexivity. Qed.

(* F08 as found (strict = false) at the byte interface: a literal run cut at a word boundary
   makes Read report a clean EOF although the packed stream is invalid *)
Example read_prefix_refuted :
  exists p, unpack p = None /\
    read_calls false (read_fuel p) ex_orc 0 b_init p ex_sizes 0 = Some (repeat 1 8, EOF).
Proof. exists [255; 1; 1; 1; 1; 1; 1; 1; 1; 1]. split; vm_compute; reflexivity. Qed.
