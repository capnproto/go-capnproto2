(* Soundness of the lock-program checker, once for all programs. *)
From Coq Require Import List Arith Bool String Lia.
From CV Require Import Lock.LockCheck.
Import ListNotations.

(* rs accounts for r.  A panic ([RAbort]) is accounted for by anything: an aborted thread is never
   a lock violation here (unlocks deferred to the panic are not modelled) *)
Definition covered (r : result) (rs : list cres) : Prop :=
  match r with
  | RNorm σ => In (CNorm σ) rs
  | RBrk σ => In (CBrk σ) rs
  | RCont σ => In (CCont σ) rs
  | RRet o σ => In (CRet o σ) rs
  | RAbort => True
  | RFail _ => False
  end.

Lemma covered_incl {r a b} : covered r a -> incl a b -> covered r b.
Proof. destruct r; cbn; auto. Qed.

Arguments dedup : simpl never.

Lemma dedup_some {l rs} : dedup (Some l) = Some rs -> forall x, In x rs <-> In x l.
Proof. intros H x. inversion H. apply nodup_In. Qed.

(* what [dedup (bind_all f l)] returns contains what [f] returns on each element of [l] *)
Lemma dedup_bind_all {A} {f : A -> option (list cres)} {l rs} :
  dedup (bind_all f l) = Some rs -> forall a, In a l -> exists ra, f a = Some ra /\ incl ra rs.
Proof.
  intros H. destruct (bind_all f l) as [rl|] eqn:Hl; [|discriminate].
  assert (Hi : incl rl rs) by (intros x; apply (dedup_some H)). clear H.
  revert rl Hl Hi. induction l as [|x l IH]; intros rl Hl Hi a Ha; cbn in *; [contradiction|].
  destruct (f x) as [rx|] eqn:Hx; [|discriminate].
  destruct (bind_all f l) as [rl'|]; [|discriminate].
  inversion Hl; subst rl. apply incl_app_inv in Hi. destruct Ha as [->|Ha].
  - exists rx. tauto.
  - apply (IH rl'); tauto.
Qed.

(* ... and nothing else *)
Lemma dedup_bind_all_all {A} (f : A -> option (list cres)) (Q : cres -> Prop) : forall l,
  (forall a, In a l -> exists ra, f a = Some ra /\ forall r, In r ra -> Q r) ->
  exists rs, dedup (bind_all f l) = Some rs /\ forall r, In r rs -> Q r.
Proof.
  intros l H. assert (exists rl, bind_all f l = Some rl /\ forall r, In r rl -> Q r) as (rl & -> & Hq).
  { induction l as [|x l IH]; cbn; [exists []; split; [reflexivity|contradiction]|].
    destruct (H x (or_introl eq_refl)) as (rx & -> & Hx).
    destruct IH as (rl & -> & Hl); [intros a Ha; apply H; now right|].
    exists (rx ++ rl). split; [reflexivity|]. intros r Hr. apply in_app_or in Hr. destruct Hr; auto. }
  exists (nodup cres_eq_dec rl). split; [reflexivity|]. intros r Hr. apply Hq. now apply nodup_In in Hr.
Qed.

Lemma sumbool_true {A B : Prop} (d : {A} + {B}) : (if d then true else false) = true -> A.
Proof. destruct d; [auto|discriminate]. Qed.

Lemma find_case_spec {fd σ c} : find_case fd σ = Some c ->
  In c (f_cases fd) /\ init c = entry_of σ.
Proof.
  intros H. apply find_some in H. destruct H as [Hin Hm]. split; auto.
  unfold case_matches in Hm. rewrite !andb_true_iff in Hm. destruct Hm as (((Hh & Hs) & Hn) & Hc).
  apply sumbool_true in Hh. apply Bool.eqb_prop in Hs, Hc. apply Nat.eqb_eq in Hn.
  unfold init, entry_of. now rewrite Hh, Hs, Hn, Hc.
Qed.

Lemma exit_matches_spec {o σ e} : exit_matches o σ e = true ->
  e_out e = o /\ e_held e = held σ /\ e_sender e = sender σ /\ e_tasks e = tasks σ.
Proof.
  unfold exit_matches. rewrite !andb_true_iff. intros (((Ho & Hh) & Hs) & Ht).
  apply Nat.eqb_eq in Ho, Ht. apply sumbool_true in Hh. apply Bool.eqb_prop in Hs. auto.
Qed.

(* what an accepting [chk] says, per statement form *)
Lemma chk_seq {P s1 s2 σ rs} : chk P (SSeq s1 s2) σ = Some rs ->
  exists r1, chk P s1 σ = Some r1 /\
    (forall σ1, In (CNorm σ1) r1 -> exists ra, chk P s2 σ1 = Some ra /\ incl ra rs) /\
    (forall r, is_norm r = false -> covered r r1 -> covered r rs).
Proof.
  cbn. destruct (chk P s1 σ) as [r1|]; [|discriminate]. intros H. exists r1.
  pose proof (dedup_bind_all H) as K. split; [reflexivity|]. split.
  - intros σ1 Hin. exact (K _ Hin).
  - intros r Hn Hs. destruct r; cbn in *; try discriminate; auto;
      destruct (K _ Hs) as (ra & E & Hi); inversion E; subst ra; apply Hi; left; reflexivity.
Qed.

Lemma chk_choice {P s1 s2 σ rs} : chk P (SChoice s1 s2) σ = Some rs ->
  exists a b, chk P s1 σ = Some a /\ chk P s2 σ = Some b /\ incl a rs /\ incl b rs.
Proof.
  cbn. destruct (chk P s1 σ) as [a|]; [|discriminate]. destruct (chk P s2 σ) as [b|]; [|discriminate].
  intros H. exists a, b. repeat split; intros x Hx; apply (dedup_some H), in_or_app; auto.
Qed.

(* a loop body comes back to the loop head in the state it started from; what leaves the loop
   is a result of the loop *)
Lemma chk_loop {P b σ rs} : chk P (SLoop b) σ = Some rs ->
  exists rb, chk P b σ = Some rb /\ (forall r, In r rb -> loop_back_ok σ r = true) /\
    In (CNorm σ) rs /\ (forall r, In r rb -> incl (loop_out r) rs).
Proof.
  cbn. destruct (chk P b σ) as [rb|]; [|discriminate].
  destruct (forallb (loop_back_ok σ) rb) eqn:Hf; [|discriminate].
  intros H. exists rb. rewrite forallb_forall in Hf. repeat split; [exact Hf| |].
  - apply (dedup_some H). left. reflexivity.
  - intros r Hr r' Hr'. apply (dedup_some H). right. apply in_flat_map. eauto.
Qed.

Lemma chk_call {P f fd s0 s1 σ rs} : nth_error P f = Some fd -> chk P (SCall f s0 s1) σ = Some rs ->
  exists c, find_case fd σ = Some c /\
    forall e, In e (c_exits c) ->
      exists ra, chk P (branch (e_out e) s0 s1) (after σ e) = Some ra /\ incl ra rs.
Proof.
  intros Hf. cbn. rewrite Hf. destruct (find_case fd σ) as [c|]; [|discriminate].
  intros H. exists c. split; [reflexivity|]. exact (dedup_bind_all H).
Qed.

Section Sound.
Variable P : prog.
Hypothesis Hprog : check_prog P = true.

Lemma prog_fn {f fd} : nth_error P f = Some fd -> check_fn P fd = true.
Proof.
  intros H. unfold check_prog in Hprog. rewrite forallb_forall in Hprog.
  apply Hprog. eapply nth_error_In; eauto.
Qed.

Lemma prog_case {f fd b c} : nth_error P f = Some fd -> f_body fd = Some b -> In c (f_cases fd) ->
  exists rs, chk P b (init c) = Some rs /\ forall r, In r rs -> exit_ok c r = true.
Proof.
  intros Hf Hb Hc. pose proof (prog_fn Hf) as H. unfold check_fn in H.
  apply andb_prop in H. destruct H as [_ H]. rewrite Hb in H.
  rewrite forallb_forall in H. specialize (H _ Hc). unfold check_case in H.
  destruct (chk P b (init c)) as [rs|]; [|discriminate].
  exists rs. split; auto. now rewrite forallb_forall in H.
Qed.

(* a call that the checker accepts, of a function with a body: the body was checked from the
   callee's entry state against the contract case the call was checked with *)
Lemma callee_checked {f fd b s0 s1 σ rs} :
  nth_error P f = Some fd -> f_body fd = Some b -> chk P (SCall f s0 s1) σ = Some rs ->
  exists c rsb, chk P b (entry_of σ) = Some rsb /\ (forall r, In r rsb -> exit_ok c r = true) /\
    forall e, In e (c_exits c) ->
      exists ra, chk P (branch (e_out e) s0 s1) (after σ e) = Some ra /\ incl ra rs.
Proof.
  intros Hf Hb Hc. destruct (chk_call Hf Hc) as (c & Hfc & Hk).
  destruct (find_case_spec Hfc) as [Hin Hinit].
  destruct (prog_case Hf Hb Hin) as (rsb & Hchk & Hex).
  rewrite Hinit in Hchk. eauto.
Qed.

(* the outcome of a checked body is one of the exits of the contract case *)
Lemma exit_of_ret {c rs rb o σc} :
  (forall r, In r rs -> exit_ok c r = true) -> covered rb rs -> ret_of rb = Some (o, σc) ->
  exists e, In e (c_exits c) /\ e_out e = o /\ e_held e = held σc /\
            e_sender e = sender σc /\ e_tasks e = tasks σc.
Proof.
  intros Hok Hs Hr. destruct rb; cbn in Hr; try discriminate; inversion Hr; subst; cbn in Hs;
    specialize (Hok _ Hs); cbn in Hok; apply existsb_exists in Hok;
    destruct Hok as (e & Hin & Hm); apply exit_matches_spec in Hm; exists e; tauto.
Qed.

Lemma after_merge {σ σc e} :
  e_held e = held σc -> e_sender e = sender σc -> e_tasks e = tasks σc -> after σ e = merge σ σc.
Proof. intros H1 H2 H3. unfold after, merge. now rewrite H1, H2, H3. Qed.

Lemma chk_sound : forall s σ r, exec P s σ r -> forall rs, chk P s σ = Some rs -> covered r rs.
Proof.
  induction 1; intros rs Hc.
  - (* Skip *) inversion Hc. left. reflexivity.
  - (* Act *) cbn in Hc. rewrite H in Hc. inversion Hc. left. reflexivity.
  - (* ActFail *) cbn in Hc. rewrite H in Hc. discriminate.
  - (* Seq *)
    destruct (chk_seq Hc) as (r1 & H1 & Hk & _).
    destruct (Hk _ (IHexec1 _ H1)) as (ra & Hra & Hi). exact (covered_incl (IHexec2 _ Hra) Hi).
  - (* SeqStop *)
    destruct (chk_seq Hc) as (r1 & H1 & _ & Hk). exact (Hk _ H0 (IHexec _ H1)).
  - (* ChoiceL *)
    destruct (chk_choice Hc) as (a & b & Ha & _ & Hi & _). exact (covered_incl (IHexec _ Ha) Hi).
  - (* ChoiceR *)
    destruct (chk_choice Hc) as (a & b & _ & Hb & _ & Hi). exact (covered_incl (IHexec _ Hb) Hi).
  - (* LoopExit *) destruct (chk_loop Hc) as (rb & _ & _ & Hn & _). exact Hn.
  - (* LoopIter: the next iteration starts in σ again, where the same [chk] result applies *)
    destruct (chk_loop Hc) as (rb & Hb & Hback & _).
    rewrite (sumbool_true _ (Hback _ (IHexec1 _ Hb))) in IHexec2. exact (IHexec2 _ Hc).
  - (* LoopCont *)
    destruct (chk_loop Hc) as (rb & Hb & Hback & _).
    rewrite (sumbool_true _ (Hback _ (IHexec1 _ Hb))) in IHexec2. exact (IHexec2 _ Hc).
  - (* LoopBrk *)
    destruct (chk_loop Hc) as (rb & Hb & _ & _ & Hout). exact (Hout _ (IHexec _ Hb) _ (or_introl eq_refl)).
  - (* LoopRet *)
    destruct (chk_loop Hc) as (rb & Hb & _ & _ & Hout). exact (Hout _ (IHexec _ Hb) _ (or_introl eq_refl)).
  - (* LoopAbort *) exact I.
  - (* LoopFail *) destruct (chk_loop Hc) as (rb & Hb & _). exact (IHexec _ Hb).
  - (* Break *) inversion Hc. left. reflexivity.
  - (* Continue *) inversion Hc. left. reflexivity.
  - (* Return *) inversion Hc. left. reflexivity.
  - (* Panic *) exact I.
  - (* Call with body: the body ends in an exit of the contract case, for which the
       continuation was checked *)
    destruct (callee_checked H H0 Hc) as (c & rsb & Hb & Hex & Hk).
    destruct (exit_of_ret Hex (IHexec1 _ Hb) H2) as (e & Hein & Ho & Hh & Hs & Ht).
    destruct (Hk _ Hein) as (ra & Hra & Hi).
    rewrite Ho, (after_merge Hh Hs Ht) in Hra. exact (covered_incl (IHexec2 _ Hra) Hi).
  - (* CallAbort *) exact I.
  - (* CallFail *)
    destruct (callee_checked H H0 Hc) as (c & rsb & Hb & _). exact (IHexec _ Hb).
  - (* CallIll: break/continue is no exit of a contract *)
    destruct (callee_checked H H0 Hc) as (c & rsb & Hb & Hex & _).
    specialize (IHexec _ Hb). destruct H2 as (σ1 & [-> | ->]); specialize (Hex _ IHexec); discriminate.
  - (* CallEnv *)
    destruct (chk_call H Hc) as (c' & Hfc & Hk). rewrite H1 in Hfc. inversion Hfc; subst c'.
    destruct (Hk _ H2) as (ra & Hra & Hi). exact (covered_incl (IHexec _ Hra) Hi).
  - (* CallEnvPre *) destruct (chk_call H Hc) as (c & Hfc & _). congruence.
  - (* CallUndef *) cbn in Hc. rewrite H in Hc. discriminate.
  - (* Spawn *)
    cbn in Hc. rewrite H, H0 in Hc. apply Nat.leb_le in H1. rewrite H1 in Hc. inversion Hc. left. reflexivity.
  - (* SpawnUnder *)
    cbn in Hc. rewrite H, H0 in Hc. destruct (Nat.leb n (tasks σ)) eqn:E; [|discriminate].
    apply Nat.leb_le in E. lia.
  - (* SpawnIll *)
    cbn in Hc. destruct H as [H | (fd & H & H')]; rewrite H in Hc; [discriminate|].
    rewrite H' in Hc. discriminate.
Qed.

(* THE soundness theorem.  For a program accepted by the checker, every execution of every
   function body from every entry state allowed by its contract
     - never fails: none of the constructors of [violation] (LockCheck.v) occurs;
     - when it returns, the locks held and the obligations owned are an exit of the
       contract case (for the outcome returned);
     - does not leave a break/continue behind. *)
Theorem check_sound : forall f fd b c r,
  nth_error P f = Some fd -> f_body fd = Some b -> In c (f_cases fd) ->
  exec P b (init c) r ->
  (forall v, r <> RFail v) /\
  (forall o σ, ret_of r = Some (o, σ) ->
     exists e, In e (c_exits c) /\ e_out e = o /\ e_held e = held σ /\
               e_sender e = sender σ /\ e_tasks e = tasks σ) /\
  (forall σ, r <> RBrk σ /\ r <> RCont σ).
Proof.
  intros f fd b c r Hf Hb Hc Hex.
  destruct (prog_case Hf Hb Hc) as (rs & Hchk & Hok).
  pose proof (chk_sound _ _ _ Hex _ Hchk) as Hs.
  repeat split.
  - intros v ->. exact Hs.
  - intros o σ Hr. eapply exit_of_ret; eauto.
  - intros ->. cbn in Hs. specialize (Hok _ Hs). discriminate.
  - intros ->. cbn in Hs. specialize (Hok _ Hs). discriminate.
Qed.

(* contract cases of api functions: nothing held at entry, nothing held or owed at any exit *)
Lemma api_case_exits {f fd c e} :
  nth_error P f = Some fd -> f_api fd = true -> In c (f_cases fd) -> In e (c_exits c) ->
  c_held c = [] /\ c_sender c = false /\ e_held e = [] /\ e_sender e = false /\ e_tasks e = 0.
Proof.
  intros Hf Hapi Hc He. pose proof (prog_fn Hf) as H. unfold check_fn in H. rewrite Hapi in H.
  apply andb_prop in H. destruct H as [H _]. rewrite forallb_forall in H. specialize (H _ Hc).
  unfold api_case_ok in H. destruct (c_held c); [|discriminate].
  apply andb_prop in H. destruct H as [Hcs H]. rewrite forallb_forall in H. specialize (H _ He).
  unfold exit_empty in H. destruct (e_held e); [|discriminate].
  apply andb_prop in H. destruct H as [Hes Het].
  apply Nat.eqb_eq in Het. apply negb_true_iff in Hes, Hcs. auto.
Qed.

(* exported methods, handlers, goroutine bodies, callbacks: entered with nothing, and every
   return leaves no mutex, no sender lock and no task obligation behind *)
Theorem api_exits_empty : forall f fd b c r o σ,
  nth_error P f = Some fd -> f_api fd = true -> f_body fd = Some b -> In c (f_cases fd) ->
  exec P b (init c) r -> ret_of r = Some (o, σ) ->
  c_held c = [] /\ c_sender c = false /\ held σ = [] /\ sender σ = false /\ tasks σ = 0.
Proof.
  intros f fd b c r o σ Hf Hapi Hb Hc Hex Hr.
  destruct (check_sound _ _ _ _ _ Hf Hb Hc Hex) as (_ & Hexit & _).
  destruct (Hexit _ _ Hr) as (e & Hein & _ & Hh & Hs & Ht).
  destruct (api_case_exits Hf Hapi Hc Hein) as (? & ? & ? & ? & ?).
  repeat split; congruence.
Qed.
End Sound.

(* every task obligation created (tasks.Add) is discharged (Done), handed to a spawned body or
   to the Returner on every path: nothing is left at the exits of api functions and Done is
   never called without an obligation *)
Theorem tasks_balanced_sound : forall P, check_prog P = true ->
  forall f fd b c r,
  nth_error P f = Some fd -> f_body fd = Some b -> In c (f_cases fd) ->
  exec P b (init c) r ->
  r <> RFail VTasksUnderflow /\
  (f_api fd = true -> forall o σ, ret_of r = Some (o, σ) -> tasks σ = 0).
Proof.
  intros P HP f fd b c r Hf Hb Hc Hex. split.
  - destruct (check_sound P HP _ _ _ _ _ Hf Hb Hc Hex) as (Hnf & _). apply Hnf.
  - intros Hapi o σ Hr.
    destruct (api_exits_empty P HP _ _ _ _ _ _ _ Hf Hapi Hb Hc Hex Hr) as (_ & _ & _ & _ & Ht).
    exact Ht.
Qed.

(* a small program in the style of rpc.go that the checker accepts, one it rejects, and real
   executions of both *)
Definition demo_trylock : fdef :=   (* 0: tryLockSender: mu -> ok: mu+sender | err: mu *)
  mkF "tryLockSender" false [mkC [0] false 0 [mkE 0 [0] true 0; mkE 1 [0] false 0]]
    (Some (SSeq (SLoop (SSeq (SChoice (SReturn 1) SSkip)
                        (SSeq (SChoice SBreak SSkip)
                        (SSeq (SAct (AUnlock 0)) (SSeq (SAct AWait) (SAct (ALock 0)))))))
                (SSeq (SAct AAcqSender) (SReturn 0)))).
Definition demo_unlock : fdef :=    (* 1: unlockSender *)
  mkF "unlockSender" false [mkC [0] true 0 [mkE 0 [0] false 0]] (Some (SAct ARelSender)).
Definition demo_send (leak : bool) : fdef :=   (* 2: an exported method *)
  mkF "Send" true [mkC [] false 0 [mkE 0 [] false 0]]
    (Some (SSeq (SAct (ALock 0))
          (SCall 0
             (* ok *) (SSeq (SAct (AUnlock 0)) (SSeq (SAct ATransport)
                      (SSeq (SAct (ALock 0))
                      (SSeq (if leak then SChoice (SSeq (SAct (AUnlock 0)) (SReturn 0)) SSkip else SSkip)
                      (SSeq (SCall 1 SSkip SSkip) (SSeq (SAct (AUnlock 0)) (SReturn 0)))))))
             (* err *) (SSeq (SAct (AUnlock 0)) (SReturn 0))))).
Definition demo_prog (leak : bool) : prog := [demo_trylock; demo_unlock; demo_send leak].

Example demo_accepted : check_prog (demo_prog false) = true.
Proof. vm_compute. reflexivity. Qed.

Example demo_leak_rejected : check_prog (demo_prog true) = false.
Proof. vm_compute. reflexivity. Qed.

(* the hypotheses of check_sound are satisfiable: an accepted body has executions *)
Example demo_execution : exists σ,
  exec (demo_prog false) (SSeq (SAct (ALock 0)) (SCall 0 (SAct (AUnlock 0)) (SAct (AUnlock 0))))
       (mkS [] false 0) (RNorm σ) /\ held σ = [] /\ sender σ = false.
Proof.
  eexists. split.
  - eapply E_Seq. { apply E_Act. reflexivity. }
    eapply E_Call with (o := 1) (rb := RRet 1 (mkS [0] false 0)); [reflexivity | reflexivity | | reflexivity | ].
    + (* tryLockSender gives up in the first iteration *)
      cbn. eapply E_SeqStop; [|reflexivity].
      apply E_LoopRet. eapply E_SeqStop; [|reflexivity]. apply E_ChoiceL. apply E_Return.
    + cbn. apply E_Act. reflexivity.
  - split; reflexivity.
Qed.

Definition empty_state : state := mkS [] false 0.

Fixpoint calls (l : list nat) : stmt :=
  match l with
  | [] => SSkip
  | f :: r => SSeq (SCall f SSkip SSkip) (calls r)
  end.

(* f is an api function with a body that can be called by a thread holding nothing *)
Definition api_callable (P : prog) (f : nat) : bool :=
  match nth_error P f with
  | Some fd => f_api fd && (match f_body fd with Some _ => true | None => false end) &&
               (match find_case fd empty_state with Some _ => true | None => false end)
  | None => false
  end.

Section ApiCalls.
Variable P : prog.
Hypothesis HP : check_prog P = true.

(* the checker accepts the client program: every call comes back to [empty_state] *)
Lemma chk_calls : forall l, forallb (api_callable P) l = true ->
  exists rs, chk P (calls l) empty_state = Some rs /\ forall r, In r rs -> r = CNorm empty_state.
Proof.
  induction l as [|f l IH]; cbn [calls forallb]; intros Hl.
  - exists [CNorm empty_state]. split; [reflexivity|]. intros r [<-|[]]. reflexivity.
  - apply andb_prop in Hl. destruct Hl as [Hf Hl]. specialize (IH Hl).
    unfold api_callable in Hf. destruct (nth_error P f) as [fd|] eqn:Hfd; [|discriminate].
    destruct (find_case fd empty_state) as [c|] eqn:Hc; [|now rewrite andb_false_r in Hf].
    apply andb_prop in Hf. destruct Hf as [Hf _]. apply andb_prop in Hf. destruct Hf as [Hapi _].
    cbn [chk]. rewrite Hfd, Hc.
    destruct (dedup_bind_all_all (fun e => chk P (branch (e_out e) SSkip SSkip) (after empty_state e))
                (fun r => r = CNorm empty_state) (c_exits c)) as (r1 & -> & H1).
    { (* exits of an api case hold nothing: the state after the call is [empty_state] again *)
      intros e Hin.
      destruct (api_case_exits P HP Hfd Hapi (proj1 (find_case_spec Hc)) Hin)
        as (_ & _ & Eh & Es & Et).
      assert (Ea : after empty_state e = empty_state) by (unfold after; rewrite Eh, Es, Et; reflexivity).
      exists [CNorm empty_state]. rewrite Ea. split; [destruct (e_out e); reflexivity|].
      intros r [<-|[]]. reflexivity. }
    apply dedup_bind_all_all. intros r Hr. rewrite (H1 _ Hr). exact IH.
Qed.

(* any sequence of callable api functions, executed by a thread that holds nothing: no
   violation, and when the sequence completes nothing is held (RAbort: a panic inside) *)
Theorem api_sequence_sound : forall l r,
  forallb (api_callable P) l = true ->
  exec P (calls l) empty_state r -> r = RNorm empty_state \/ r = RAbort.
Proof.
  intros l r Hl Hex. destruct (chk_calls l Hl) as (rs & Hc & Hall).
  pose proof (chk_sound P HP _ _ _ Hex _ Hc) as Hs.
  destruct r; cbn in Hs; try (apply Hall in Hs; inversion Hs); auto. contradiction.
Qed.
End ApiCalls.

(* the lock-order obligation is really checked: "9 must be acquired before 4" (AOrder 4; ALock 9)
   is accepted when 4 is free and rejected when 4 is already held *)
Example order_respected_accepted :
  check_prog [mkF "fulfill" true [mkC [] false 0 [mkE 0 [] false 0]]
    (Some (SSeq (SAct (AOrder 4)) (SSeq (SAct (ALock 9)) (SSeq (SAct (ALock 4))
          (SSeq (SAct (AUnlock 4)) (SAct (AUnlock 9)))))))] = true.
Proof. vm_compute. reflexivity. Qed.

Example order_inverted_rejected :
  check_prog [mkF "fulfill" true [mkC [] false 0 [mkE 0 [] false 0]]
    (Some (SSeq (SAct (ALock 4)) (SSeq (SAct (AOrder 4)) (SSeq (SAct (ALock 9))
          (SSeq (SAct (AUnlock 9)) (SAct (AUnlock 4)))))))] = false.
Proof. vm_compute. reflexivity. Qed.

(* tasks.Wait() must not be reached by a thread that still owns a task obligation (it would wait
   for itself): shutdown = 0 (reaches AWaitTasks, only a "clean" contract case), Return = 1 owns one
   obligation at entry.  Done before shutdown: accepted; Done deferred until after: rejected. *)
Definition demo_shutdown : fdef :=
  mkF "shutdown" false [mkC [0] false 0 [mkE 0 [] false 0]]
    (Some (SSeq (SAct (AUnlock 0)) (SAct AWaitTasks))).
Definition demo_return (deferred : bool) : fdef :=
  mkF "Return" true [mkC [] false 1 [mkE 0 [] false 0]]
    (Some (SSeq (SAct (ALock 0))
          (if deferred
           then SSeq (SCall 0 SSkip SSkip) (SAct ATasksDone)
           else SSeq (SAct ATasksDone) (SCall 0 SSkip SSkip)))).

Example wait_after_done_accepted : check_prog [demo_shutdown; demo_return false] = true.
Proof. vm_compute. reflexivity. Qed.

Example wait_own_task_rejected : check_prog [demo_shutdown; demo_return true] = false.
Proof. vm_compute. reflexivity. Qed.

(* and semantically: run directly (not through a contract) the deferred variant fails *)
Example wait_own_task_execution :
  exec [demo_shutdown; demo_return true]
       (SSeq (SAct (ALock 0)) (SSeq (SCall 0 SSkip SSkip) (SAct ATasksDone)))
       (mkS [] false 1) (RFail VWaitOwnTask).
Proof.
  eapply E_Seq. { apply E_Act. reflexivity. }
  eapply E_SeqStop; [|reflexivity].
  eapply E_CallFail; [reflexivity | reflexivity | ].
  cbn. eapply E_Seq. { apply E_Act. reflexivity. }
  apply E_ActFail. reflexivity.
Qed.
