(* C09 / a COUNTER MODEL of the shutdown path with liveness ASSUMED (C09_close_returns_model in Props).

   A small hand-written transition system of Conn.shutdown and the threads it waits for, with
   the environment assumptions made explicit as the enabledness of steps.  It is NOT generated
   from the source; each rule cites what justifies it:

     cancel       shutdown: c.bgcancel() (first action, c.mu held by the closer)
     task_start   startTask: c.tasks.Add(1) only while bgctx is not Done (rpc.go startTask);
                  handleCall's Add happens on the receive goroutine, itself a task
     task_finish  a task ends: tasks.Done().  That every Add is followed by a Done on every path
                  of the code is C09_tasks_balanced; that the path is actually travelled once
                  bgctx is cancelled is the ENVIRONMENT ASSUMPTION
                    (A1) application call-outs return after their context is cancelled and call
                         Returner.Return exactly once; ErrorReporter / ClientHook.Shutdown return;
                    (A2) Transport.RecvMessage returns once its context is cancelled (the receive
                         goroutine is a task), NewMessage/send/release return;
                    (A3) every blocking wait on the way is on a channel that shutdown's cancel or
                         a finishing task closes (bgctx, sender lock: C09_lock_discipline; the
                         other channels: docs/C09.md section 7, item 4 -- observed, not proved);
                  here: whenever a task other than a counted closer is outstanding, a finish step
                  is enabled (S_finish / S_finish_other)
     wait_done    c.tasks.Wait() returns when the count is 0.  The closer is NOT one of the counted
                  tasks: C09_lock_sound (VWaitOwnTask).  With [closer_counted = true], where it is
                  (the seeded defect C08-1), only S_finish_other applies and the system is stuck
                  for ever: [self_wait_stuck_refuted] below.
     close_tr     tables cleared, Abort attempted under abortTimeout, Transport.Close returns
                  (A4: the transport's Close returns and unblocks a pending Read)

   Theorems: after cancel every step decreases a measure (so every execution is finite, at most
   tasks + 2 steps), and every state in which Close has not returned has an enabled step; hence
   under A1-A4 and a scheduler that runs enabled threads, Close returns. *)
From Coq Require Import Arith Lia Wellfounded Relations.

Inductive phase := PHolding | PWaiting | PClosing | PReturned.

Record cstate := mkCS { cancelled : bool; ntasks : nat; ph : phase; closer_counted : bool }.

Inductive cstep : cstate -> cstate -> Prop :=
| S_cancel : forall n k, cstep (mkCS false n PHolding k) (mkCS true n PWaiting k)
| S_task_start : forall n p k, cstep (mkCS false n p k) (mkCS false (S n) p k)
| S_finish : forall c n p, cstep (mkCS c (S n) p false) (mkCS c n p false)
| S_finish_other : forall c n p, cstep (mkCS c (S (S n)) p true) (mkCS c (S n) p true)
| S_wait_done : forall k, cstep (mkCS true 0 PWaiting k) (mkCS true 0 PClosing k)
| S_close_tr : forall n k, cstep (mkCS true n PClosing k) (mkCS true n PReturned k).

Definition rank (p : phase) : nat :=
  match p with PHolding => 3 | PWaiting => 2 | PClosing => 1 | PReturned => 0 end.

Definition measure (s : cstate) : nat := ntasks s + rank (ph s).

Lemma step_decreases : forall s s', cancelled s = true -> cstep s s' ->
  cancelled s' = true /\ measure s' < measure s.
Proof.
  intros s s' Hc H. destruct H; cbn in Hc.
  (* S_cancel and S_task_start start from a state that is not cancelled *)
  1,2: discriminate.
  (* every other rule takes one from ntasks or from the rank of the phase *)
  all: unfold measure; cbn; split; [assumption || reflexivity | lia].
Qed.

Lemma cancelled_steps_terminate : forall s, Acc (fun a b => cstep b a /\ cancelled b = true) s.
Proof.
  intros s. induction s using (well_founded_induction (wf_inverse_image _ _ _ measure lt_wf)).
  constructor. intros y [Hstep Hc]. apply H. apply (step_decreases _ _ Hc Hstep).
Qed.

(* progress: with a closer that is not a counted task, every cancelled state in which Close has
   not returned has an enabled step *)
Theorem close_progress : forall s, cancelled s = true -> closer_counted s = false ->
  ph s <> PReturned -> ph s <> PHolding -> exists s', cstep s s'.
Proof.
  intros [c n p k] Hc Hk Hp Hh. cbn in *. subst.
  destruct p; try congruence.
  - destruct n.
    + eexists. apply S_wait_done.
    + eexists. apply S_finish.
  - eexists. apply S_close_tr.
Qed.

(* every maximal execution from the state right after cancel is finite (for any s: the premises
   serve the second conjunct only) and ends with Close returned *)
Theorem close_returns : forall s, cancelled s = true -> closer_counted s = false -> ph s <> PHolding ->
  Acc (fun a b => cstep b a /\ cancelled b = true) s /\
  (forall s', clos_refl_trans _ cstep s s' -> (forall s'', ~ cstep s' s'') -> ph s' = PReturned).
Proof.
  intros s Hc Hk Hh. split; [apply cancelled_steps_terminate|].
  intros s' Hreach Hstuck.
  assert (Hinv : cancelled s' = true /\ closer_counted s' = false /\ ph s' <> PHolding).
  { clear Hstuck. induction Hreach as [x y Hs | x | x y z _ IH1 _ IH2]; auto.
    - inversion Hs; subst; cbn in *; try discriminate; try congruence; repeat split; auto; congruence.
    - apply IH2; apply IH1; auto. }
  destruct Hinv as (Hc' & Hk' & Hh').
  destruct (ph s') eqn:E; auto; try congruence; exfalso;
    (destruct (close_progress s' Hc' Hk') as [s'' Hs]; [congruence | congruence | eapply Hstuck; eauto]).
Qed.

(* the seeded defect C08-1: the closer is itself a counted task (defer tasks.Done() runs after
   shutdown): once every other task has finished the system is stuck in PWaiting for ever *)
Example self_wait_stuck_refuted :
  let s := mkCS true 1 PWaiting true in
  ph s <> PReturned /\ forall s', ~ cstep s s'.
Proof.
  cbn. split; [discriminate|]. intros s' H. inversion H.
Qed.

(* non-vacuity: a run with two outstanding tasks *)
Example close_run :
  clos_refl_trans _ cstep (mkCS false 2 PHolding false) (mkCS true 0 PReturned false).
Proof.
  eapply rt_trans; [apply rt_step, S_cancel|].
  eapply rt_trans; [apply rt_step, S_finish|].
  eapply rt_trans; [apply rt_step, S_finish|].
  eapply rt_trans; [apply rt_step, S_wait_done|].
  apply rt_step, S_close_tr.
Qed.
