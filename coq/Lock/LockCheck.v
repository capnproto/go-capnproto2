(* C09 / Lock — lock programs, their semantics and an executable modular checker.

   A lock program is the control-flow skeleton of one Go function over lock actions; the
   translator locktrans regenerates one per function/closure of rpc/*.go (coq/Gen/LockProgs.v).
   Semantics [exec]: all executions -- any branch of every Choice, any number of iterations of
   every Loop, any outcome of every call; calls to functions that have a body run that body
   (inlining semantics, recursion allowed), calls to functions without a body (function-typed
   parameters, the environment) behave as their contract says.  A violation is reported as
   soon as it happens ([RFail] propagates), so violations in executions that never terminate
   (the receive loop) are covered too.

   The abstract state of a thread: the mutexes it holds, whether it holds the sender lock, and
   the number of task obligations (Conn.tasks.Add without the matching Done) the current
   function owns.  Obligations are accounted per call frame: a callee starts with 0 and what
   it leaves is added to the caller; [ATasksGive] hands one obligation to the environment
   (the capnp.Returner contract: answer.Return is called exactly once and calls Done);
   [SSpawn] hands the spawned body the obligations its contract asks for.

   The checker [chk] is structural (a call is checked against the callee's contract, not its
   body), [check_prog] checks every body against every case of its contract.  Soundness for
   all programs is proved in LockCheckProofs.v. *)
From Coq Require Import List Arith Bool String.
Import ListNotations.

Definition lockid := nat.        (* 0 = Conn.mu *)

Inductive act :=
| ALock (l : lockid)
| AUnlock (l : lockid)
| AAcqSender           (* c.sendCond = make(chan struct{})  : the sender lock is taken *)
| ARelSender           (* close(c.sendCond)                 : the sender lock is released *)
| ATransport           (* outbound transport operation: NewMessage, send, release of an outbound message *)
| ATransportX          (* transport operation that does not need the sender lock: RecvMessage, release
                          of a received message, and the operations of the exclusive phase of shutdown *)
| ACallout             (* application code: ClientHook / Returner / PipelineCaller methods, Client.Release, ... *)
| AWait                (* blocking channel operation / WaitGroup.Wait *)
| AWaitTasks           (* Conn.tasks.Wait(): waits for every task of the connection -- the waiting
                          thread must not own a task obligation itself, in any of its frames *)
| ATasksAdd
| ATasksDone
| ATasksGive           (* obligation handed to the environment (Returner) *)
| ARebind (l : lockid) (* the program variable through which mutex l is named is re-assigned
                          (p = p.next): only allowed while l is not held, so that a lock name
                          always denotes the same object for as long as it is held *)
| AOrder (l : lockid)  (* lock-order obligation: the acquisition that follows must come BEFORE any
                          acquisition of l -- a violation if l is already held.  Used for the one place
                          where two instances of a mutex class are held together in a fixed order
                          (ClientPromise.Fulfill: the promise hook, then its resolution target) *)
| AMark (line : nat).  (* source position, no effect *)

Inductive stmt :=
| SSkip
| SAct (a : act)
| SSeq (s1 s2 : stmt)
| SChoice (s1 s2 : stmt)
| SLoop (body : stmt)
| SBreak
| SContinue
| SCall (f : nat) (s_ok s_err : stmt)   (* call, then continue by outcome: 0 -> s_ok, other -> s_err *)
| SReturn (o : nat)                     (* return with outcome o (0 = ok / only outcome) *)
| SSpawn (f : nat)                      (* go f() *)
| SPanic.                               (* explicit panic: the thread aborts *)

(* clean: no ENCLOSING call frame of this thread owns a task obligation (the thread as a whole owns
   none iff clean && tasks = 0) *)
Record state := mkS4 { held : list lockid; sender : bool; tasks : nat; clean : bool }.
Definition mkS (h : list lockid) (s : bool) (t : nat) : state := mkS4 h s t true.

Record exit := mkE { e_out : nat; e_held : list lockid; e_sender : bool; e_tasks : nat }.

(* one case of a contract: entry lock state, obligations received at entry, possible exits *)
(* c_clean: the case is entered by a thread none of whose frames owns a task obligation at the
   call (a thread root, or a call made with tasks = 0 from a clean frame) *)
Record ccase := mkC5 { c_held : list lockid; c_sender : bool; c_need : nat; c_exits : list exit;
                       c_clean : bool }.
Definition mkC h s n e : ccase := mkC5 h s n e true.
Definition mkCn h s n e : ccase := mkC5 h s n e false.

Record fdef := mkF {
  f_name : string;
  f_api : bool;                 (* exported method / handler / goroutine body / callback given to the application *)
  f_cases : list ccase;
  f_body : option stmt }.

Definition prog := list fdef.

Inductive violation :=
| VUnlockNotHeld (l : lockid)
| VDoubleLock (l : lockid)
| VBlockingUnderMutex (a : act)      (* transport operation, call-out or wait with a mutex held *)
| VSenderNotHeld
| VSenderDouble
| VSenderNoMutex                     (* sendCond touched without Conn.mu *)
| VTransportNoSender                 (* outbound transport operation without the sender lock *)
| VRebindHeld (l : lockid)           (* variable naming a held mutex re-assigned *)
| VLockOrder (l : lockid)            (* a mutex that must be acquired before l is acquired while l is held *)
| VWaitOwnTask                       (* tasks.Wait() by a thread that still owns a task: waits for itself *)
| VTasksUnderflow                    (* Done / hand-over of an obligation the function does not own *)
| VPrecondition (f : nat)            (* contract-only function called in a state its contract does not allow *)
| VIllFormed.

(* lock sets are sorted lists without duplicates *)
Fixpoint mem (l : lockid) (h : list lockid) : bool :=
  match h with [] => false | x :: r => Nat.eqb l x || mem l r end.

Fixpoint insert (l : lockid) (h : list lockid) : list lockid :=
  match h with
  | [] => [l]
  | x :: r => if Nat.leb l x then l :: h else x :: insert l r
  end.

Fixpoint remove (l : lockid) (h : list lockid) : list lockid :=
  match h with
  | [] => []
  | x :: r => if Nat.eqb l x then r else x :: remove l r
  end.

Definition no_mutex (σ : state) : bool := match held σ with [] => true | _ => false end.

Definition step (a : act) (σ : state) : state + violation :=
  match a with
  | ALock l => if mem l (held σ) then inr (VDoubleLock l)
               else inl (mkS4 (insert l (held σ)) (sender σ) (tasks σ) (clean σ))
  | AUnlock l => if mem l (held σ) then inl (mkS4 (remove l (held σ)) (sender σ) (tasks σ) (clean σ))
                 else inr (VUnlockNotHeld l)
  | AAcqSender => if negb (mem 0 (held σ)) then inr VSenderNoMutex
                  else if sender σ then inr VSenderDouble
                  else inl (mkS4 (held σ) true (tasks σ) (clean σ))
  | ARelSender => if negb (mem 0 (held σ)) then inr VSenderNoMutex
                  else if sender σ then inl (mkS4 (held σ) false (tasks σ) (clean σ))
                  else inr VSenderNotHeld
  | ATransport => if negb (no_mutex σ) then inr (VBlockingUnderMutex a)
                  else if sender σ then inl σ else inr VTransportNoSender
  | ATransportX | ACallout | AWait =>
      if no_mutex σ then inl σ else inr (VBlockingUnderMutex a)
  | AWaitTasks =>
      if negb (no_mutex σ) then inr (VBlockingUnderMutex a)
      else if clean σ && Nat.eqb (tasks σ) 0 then inl σ else inr VWaitOwnTask
  | ATasksAdd => inl (mkS4 (held σ) (sender σ) (S (tasks σ)) (clean σ))
  | ATasksDone | ATasksGive =>
      match tasks σ with
      | 0 => inr VTasksUnderflow
      | S n => inl (mkS4 (held σ) (sender σ) n (clean σ))
      end
  | ARebind l => if mem l (held σ) then inr (VRebindHeld l) else inl σ
  | AOrder l => if mem l (held σ) then inr (VLockOrder l) else inl σ
  | AMark _ => inl σ
  end.

Inductive result :=
| RNorm (σ : state) | RBrk (σ : state) | RCont (σ : state) | RRet (o : nat) (σ : state)
| RAbort | RFail (v : violation).

Definition is_norm (r : result) : bool := match r with RNorm _ => true | _ => false end.

Definition ret_of (r : result) : option (nat * state) :=
  match r with RRet o σ => Some (o, σ) | RNorm σ => Some (0, σ) | _ => None end.

(* a callee sees the caller's locks and owns no obligation *)
Definition entry_of (σ : state) : state :=
  mkS4 (held σ) (sender σ) 0 (clean σ && Nat.eqb (tasks σ) 0).
(* after the call: the callee's locks, the caller's obligations plus what the callee left *)
Definition merge (σ σc : state) : state := mkS4 (held σc) (sender σc) (tasks σ + tasks σc) (clean σ).
Definition after (σ : state) (e : exit) : state :=
  mkS4 (e_held e) (e_sender e) (tasks σ + e_tasks e) (clean σ).

Definition branch (o : nat) (s0 s1 : stmt) : stmt := match o with 0 => s0 | _ => s1 end.

Definition list_eqb (a b : list nat) : bool := if list_eq_dec Nat.eq_dec a b then true else false.

(* a call hands over no obligation ([entry_of] gives the callee 0), so only cases with c_need = 0
   match; cases with c_need > 0 are entered by [SSpawn] or by the environment (a thread root) *)
Definition case_matches (σ : state) (c : ccase) : bool :=
  list_eqb (c_held c) (held σ) && Bool.eqb (c_sender c) (sender σ) && Nat.eqb (c_need c) 0
  && Bool.eqb (c_clean c) (clean σ && Nat.eqb (tasks σ) 0).

Definition find_case (fd : fdef) (σ : state) : option ccase := find (case_matches σ) (f_cases fd).

(* obligations a spawned body receives: its contract must have exactly one clean case, entered
   without any lock *)
Definition spawn_need (fd : fdef) : option nat :=
  match filter c_clean (f_cases fd) with   (* a new goroutine is a thread root *)
  | [c] => match c_held c, c_sender c with [], false => Some (c_need c) | _, _ => None end
  | _ => None
  end.

Section Exec.
Variable P : prog.

Inductive exec : stmt -> state -> result -> Prop :=
| E_Skip : forall σ, exec SSkip σ (RNorm σ)
| E_Act : forall a σ σ', step a σ = inl σ' -> exec (SAct a) σ (RNorm σ')
| E_ActFail : forall a σ v, step a σ = inr v -> exec (SAct a) σ (RFail v)
| E_Seq : forall s1 s2 σ σ1 r, exec s1 σ (RNorm σ1) -> exec s2 σ1 r -> exec (SSeq s1 s2) σ r
| E_SeqStop : forall s1 s2 σ r, exec s1 σ r -> is_norm r = false -> exec (SSeq s1 s2) σ r
| E_ChoiceL : forall s1 s2 σ r, exec s1 σ r -> exec (SChoice s1 s2) σ r
| E_ChoiceR : forall s1 s2 σ r, exec s2 σ r -> exec (SChoice s1 s2) σ r
| E_LoopExit : forall b σ, exec (SLoop b) σ (RNorm σ)
| E_LoopIter : forall b σ σ1 r, exec b σ (RNorm σ1) -> exec (SLoop b) σ1 r -> exec (SLoop b) σ r
| E_LoopCont : forall b σ σ1 r, exec b σ (RCont σ1) -> exec (SLoop b) σ1 r -> exec (SLoop b) σ r
| E_LoopBrk : forall b σ σ1, exec b σ (RBrk σ1) -> exec (SLoop b) σ (RNorm σ1)
| E_LoopRet : forall b σ o σ1, exec b σ (RRet o σ1) -> exec (SLoop b) σ (RRet o σ1)
| E_LoopAbort : forall b σ, exec b σ RAbort -> exec (SLoop b) σ RAbort
| E_LoopFail : forall b σ v, exec b σ (RFail v) -> exec (SLoop b) σ (RFail v)
| E_Break : forall σ, exec SBreak σ (RBrk σ)
| E_Continue : forall σ, exec SContinue σ (RCont σ)
| E_Return : forall o σ, exec (SReturn o) σ (RRet o σ)
| E_Panic : forall σ, exec SPanic σ RAbort
| E_Call : forall f fd b s0 s1 σ rb o σc r,
    nth_error P f = Some fd -> f_body fd = Some b ->
    exec b (entry_of σ) rb -> ret_of rb = Some (o, σc) ->
    exec (branch o s0 s1) (merge σ σc) r ->
    exec (SCall f s0 s1) σ r
| E_CallAbort : forall f fd b s0 s1 σ,
    nth_error P f = Some fd -> f_body fd = Some b ->
    exec b (entry_of σ) RAbort -> exec (SCall f s0 s1) σ RAbort
| E_CallFail : forall f fd b s0 s1 σ v,
    nth_error P f = Some fd -> f_body fd = Some b ->
    exec b (entry_of σ) (RFail v) -> exec (SCall f s0 s1) σ (RFail v)
| E_CallIll : forall f fd b s0 s1 σ rb,
    nth_error P f = Some fd -> f_body fd = Some b ->
    exec b (entry_of σ) rb -> (exists σ1, rb = RBrk σ1 \/ rb = RCont σ1) ->
    exec (SCall f s0 s1) σ (RFail VIllFormed)
| E_CallEnv : forall f fd s0 s1 σ c e r,
    nth_error P f = Some fd -> f_body fd = None ->
    find_case fd σ = Some c -> In e (c_exits c) ->
    exec (branch (e_out e) s0 s1) (after σ e) r ->
    exec (SCall f s0 s1) σ r
| E_CallEnvPre : forall f fd s0 s1 σ,
    nth_error P f = Some fd -> f_body fd = None ->
    find_case fd σ = None -> exec (SCall f s0 s1) σ (RFail (VPrecondition f))
| E_CallUndef : forall f s0 s1 σ,
    nth_error P f = None -> exec (SCall f s0 s1) σ (RFail VIllFormed)
| E_Spawn : forall f fd n σ,
    nth_error P f = Some fd -> spawn_need fd = Some n -> n <= tasks σ ->
    exec (SSpawn f) σ (RNorm (mkS4 (held σ) (sender σ) (tasks σ - n) (clean σ)))
| E_SpawnUnder : forall f fd n σ,
    nth_error P f = Some fd -> spawn_need fd = Some n -> tasks σ < n ->
    exec (SSpawn f) σ (RFail VTasksUnderflow)
| E_SpawnIll : forall f σ,
    (nth_error P f = None \/ exists fd, nth_error P f = Some fd /\ spawn_need fd = None) ->
    exec (SSpawn f) σ (RFail VIllFormed).
End Exec.

Inductive cres := CNorm (σ : state) | CBrk (σ : state) | CCont (σ : state) | CRet (o : nat) (σ : state).

Definition state_eq_dec : forall a b : state, {a = b} + {a <> b}.
Proof. repeat decide equality. Defined.

Definition cres_eq_dec : forall a b : cres, {a = b} + {a <> b}.
Proof. repeat decide equality. Defined.

Definition state_eqb (a b : state) : bool := if state_eq_dec a b then true else false.

(* union of the results of f over l; None if any fails *)
Fixpoint bind_all {A} (f : A -> option (list cres)) (l : list A) : option (list cres) :=
  match l with
  | [] => Some []
  | a :: r =>
      match f a, bind_all f r with
      | Some x, Some y => Some (x ++ y)
      | _, _ => None
      end
  end.

Definition dedup (o : option (list cres)) : option (list cres) :=
  match o with Some l => Some (nodup cres_eq_dec l) | None => None end.

Definition loop_back_ok (σ : state) (r : cres) : bool :=
  match r with CNorm σ1 | CCont σ1 => state_eqb σ1 σ | _ => true end.

Definition loop_out (r : cres) : list cres :=
  match r with CBrk σ1 => [CNorm σ1] | CRet o σ1 => [CRet o σ1] | _ => [] end.

Section Chk.
Variable P : prog.

Fixpoint chk (s : stmt) (σ : state) : option (list cres) :=
  match s with
  | SSkip => Some [CNorm σ]
  | SAct a => match step a σ with inl σ' => Some [CNorm σ'] | inr _ => None end
  | SSeq s1 s2 =>
      match chk s1 σ with
      | None => None
      | Some r1 =>
          dedup (bind_all (fun r => match r with CNorm σ1 => chk s2 σ1 | _ => Some [r] end) r1)
      end
  | SChoice s1 s2 =>
      match chk s1 σ, chk s2 σ with
      | Some a, Some b => dedup (Some (a ++ b))
      | _, _ => None
      end
  | SLoop b =>
      (* the lock state at the back edge must be the lock state at the loop head *)
      match chk b σ with
      | None => None
      | Some rb =>
          if forallb (loop_back_ok σ) rb
          then dedup (Some (CNorm σ :: flat_map loop_out rb))
          else None
      end
  | SBreak => Some [CBrk σ]
  | SContinue => Some [CCont σ]
  | SReturn o => Some [CRet o σ]
  | SPanic => Some []
  | SCall f s0 s1 =>
      match nth_error P f with
      | None => None
      | Some fd =>
          match find_case fd σ with
          | None => None
          | Some c =>
              dedup (bind_all (fun e => chk (branch (e_out e) s0 s1) (after σ e)) (c_exits c))
          end
      end
  | SSpawn f =>
      match nth_error P f with
      | None => None
      | Some fd =>
          match spawn_need fd with
          | None => None
          | Some n => if Nat.leb n (tasks σ)
                      then Some [CNorm (mkS4 (held σ) (sender σ) (tasks σ - n) (clean σ))] else None
          end
      end
  end.

Definition init (c : ccase) : state := mkS4 (c_held c) (c_sender c) (c_need c) (c_clean c).

Definition exit_matches (o : nat) (σ : state) (e : exit) : bool :=
  Nat.eqb (e_out e) o && list_eqb (e_held e) (held σ) && Bool.eqb (e_sender e) (sender σ)
  && Nat.eqb (e_tasks e) (tasks σ).

Definition exit_ok (c : ccase) (r : cres) : bool :=
  match r with
  | CNorm σ => existsb (exit_matches 0 σ) (c_exits c)
  | CRet o σ => existsb (exit_matches o σ) (c_exits c)
  | _ => false
  end.

Definition check_case (b : stmt) (c : ccase) : bool :=
  match chk b (init c) with
  | None => false
  | Some rs => forallb (exit_ok c) rs
  end.

(* exported methods, handlers, goroutine bodies and callbacks: entered and left with nothing *)
Definition exit_empty (e : exit) : bool :=
  match e_held e with [] => negb (e_sender e) && Nat.eqb (e_tasks e) 0 | _ => false end.

Definition api_case_ok (c : ccase) : bool :=
  match c_held c with [] => negb (c_sender c) && forallb exit_empty (c_exits c) | _ => false end.

Definition check_fn (fd : fdef) : bool :=
  (if f_api fd then forallb api_case_ok (f_cases fd) else true) &&
  match f_body fd with
  | None => true
  | Some b => forallb (check_case b) (f_cases fd)
  end.
End Chk.

Definition check_prog (P : prog) : bool := forallb (check_fn P) P.
