(* The C14 theorems over histories of Decode calls: all message lists, all chunkings, all cut
   points, all buffer states. *)
From CV Require Import Frame.Frame.
From CV Require Import Frame.FrameProofs.
From CV Require Import Frame.FrameSafe.
From CV Require Import Frame.FrameStream.
From Coq Require Import ZifyBool ZifyNat.
Open Scope Z_scope.

Lemma decode_n_S st n :
  decode_n st (S n) =
  let '(st1, out, log) := decode1 st in
  let '(st2, outs) := decode_n st1 n in (st2, (out, log) :: outs).
Proof.
  unfold decode_n, decode1. cbn [repeat run_history]. unfold dstep, dstep_gen.
  destruct (decode1_gen true st) as [[st1 out] log]. destruct (run_history st1 (repeat OpDecode n)). reflexivity.
Qed.

Lemma decode_n_0 st : decode_n st 0 = (st, []).
Proof. reflexivity. Qed.

(* a stream that starts with the frames of [msgs]: the first |msgs| Decode calls return
   exactly these messages, in order, and consume exactly their frames *)
Lemma decode_frames fin ru mx : max_ok mx -> forall msgs cs hc bc rest,
  Forall (frame_ok mx) msgs -> concat cs = concat (map frame msgs) ++ rest ->
  exists cs' hc' bc' outs,
    decode_n (mkD (mkReader cs fin) hc bc ru mx) (length msgs) = (mkD (mkReader cs' fin) hc' bc' ru mx, outs)
    /\ map fst outs = map DMsg msgs /\ concat cs' = rest.
Proof.
  intros Hmx. induction msgs as [|m msgs IH]; intros cs hc bc rest Hok Hcs.
  - exists cs, hc, bc, []. cbn [length map concat app] in *. rewrite decode_n_0. auto.
  - inversion Hok as [|? ? Hm Hms]; subst. cbn [map concat length] in *. rewrite <- app_assoc in Hcs.
    destruct (decode1_frame m cs fin hc bc ru mx _ Hmx Hm Hcs) as [cs1 [hc1 [bc1 [log [E1 Hc1]]]]].
    destruct (IH cs1 hc1 bc1 rest Hms Hc1) as [cs' [hc' [bc' [outs [E2 [Ho Hc']]]]]].
    exists cs', hc', bc', ((DMsg m, log) :: outs). rewrite decode_n_S, E1, E2.
    split; [reflexivity|]. split; [cbn [map fst]; now rewrite Ho|assumption].
Qed.

Lemma decode_n_add st a b :
  decode_n st (a + b) =
  let '(st1, o1) := decode_n st a in let '(st2, o2) := decode_n st1 b in (st2, o1 ++ o2).
Proof.
  revert st. induction a as [|a IH]; intros st.
  - cbn [Nat.add]. rewrite decode_n_0. destruct (decode_n st b). reflexivity.
  - cbn [Nat.add]. rewrite !decode_n_S. destruct (decode1 st) as [[st1 out] log]. rewrite IH.
    destruct (decode_n st1 a) as [st2 o1]. destruct (decode_n st2 b) as [st3 o2]. reflexivity.
Qed.

Lemma decode_n_1 st : decode_n st 1 = let '(st1, out, log) := decode1 st in (st1, [(out, log)]).
Proof. rewrite decode_n_S. destruct (decode1 st) as [[st1 out] log]. now rewrite decode_n_0. Qed.

Lemma decode_n_snoc st n st1 o1 st2 out log :
  decode_n st n = (st1, o1) -> decode1 st1 = (st2, out, log) ->
  decode_n st (S n) = (st2, o1 ++ [(out, log)]).
Proof.
  intros E1 E2. replace (S n) with (n + 1)%nat by lia. now rewrite decode_n_add, E1, decode_n_1, E2.
Qed.

(* what Encode accepts and the decoder is configured for is a frame_ok message *)
Lemma encoded_frame_ok mx m f : encode true m = Ok f -> len m <= max_stream_segments ->
  len f <= eff_max mx -> f = frame m /\ frame_ok mx m.
Proof.
  intros He Hn Hl. destruct (encode_ok_segs_ok m f He) as [Hs H1].
  assert (H32 : 1 <= len m < two32) by (unfold max_stream_segments, two32 in *; lia).
  rewrite (encode_frame true m H32 Hs) in He. assert (f = frame m) by congruence. subst f.
  split; [reflexivity|]. repeat split; assumption.
Qed.

Lemma encoded_frames mx : forall msgs frames,
  Forall2 (fun m f => encode true m = Ok f) msgs frames ->
  Forall (fun m => len m <= max_stream_segments) msgs ->
  Forall (fun f => len f <= eff_max mx) frames ->
  frames = map frame msgs /\ Forall (frame_ok mx) msgs.
Proof.
  induction 1 as [|m f msgs frames He _ IH]; intros Hn Hl; [split; [reflexivity|constructor]|].
  inversion Hn; inversion Hl; subst.
  destruct (encoded_frame_ok mx m f He) as [-> Hok]; try assumption.
  destruct IH as [-> Hoks]; try assumption. split; [reflexivity|now constructor].
Qed.

(* C14, first half: any list of messages written by the (repaired) encoder, concatenated,
   delivered in ANY chunking, with or without ReuseBuffer, whatever capacities the decoder's
   buffers have: |msgs| Decode calls return the messages in order and the next one reports
   io.EOF *)
Theorem decode_encode_stream : forall msgs frames cs hc bc ru mx,
  max_ok mx ->
  Forall2 (fun m f => encode true m = Ok f) msgs frames ->
  Forall (fun m => len m <= max_stream_segments) msgs ->
  Forall (fun f => len f <= eff_max mx) frames ->
  concat cs = concat frames ->
  exists st' outs,
    decode_n (mkD (mkReader cs EOF) hc bc ru mx) (S (length msgs)) = (st', outs)
    /\ map fst outs = map DMsg msgs ++ [DEof].
Proof.
  intros msgs frames cs hc bc ru mx Hmx He Hn Hl Hcs.
  destruct (encoded_frames mx msgs frames He Hn Hl) as [-> Hok].
  destruct (decode_frames EOF ru mx Hmx msgs cs hc bc [] Hok ltac:(now rewrite app_nil_r))
    as [cs1 [hc1 [bc1 [outs [E1 [Ho Hc1]]]]]].
  destruct (decode1_eof cs1 hc1 bc1 ru mx Hmx Hc1) as [cs2 [E2 _]].
  rewrite (decode_n_snoc _ _ _ _ _ _ _ E1 E2).
  do 2 eexists. split; [reflexivity|]. rewrite map_app, Ho. reflexivity.
Qed.

(* C14, second half: the stream ends inside a frame (after any number of whole frames): the
   whole frames are returned, then an error ("read header"/"read segments": unexpected EOF),
   never io.EOF and never a message; with and without reuse, any chunking *)
Theorem cut_is_error : forall msgs m q tail cs fin hc bc ru mx,
  max_ok mx -> Forall (frame_ok mx) msgs -> frame_ok mx m ->
  frame m = q ++ tail -> q <> [] -> tail <> [] ->
  concat cs = concat (map frame msgs) ++ q ->
  exists st' outs e,
    decode_n (mkD (mkReader cs fin) hc bc ru mx) (S (length msgs)) = (st', outs)
    /\ map fst outs = map DMsg msgs ++ [DErr e] /\ (e = EReadHeader \/ e = EReadSegs).
Proof.
  intros msgs m q tail cs fin hc bc ru mx Hmx Hok Hm Hf Hq Ht Hcs.
  destruct (decode_frames fin ru mx Hmx msgs cs hc bc q Hok Hcs) as [cs1 [hc1 [bc1 [outs [E1 [Ho Hc1]]]]]].
  destruct (decode1_cut m q tail cs1 fin hc1 bc1 ru mx Hmx Hm Hf Hq Ht Hc1) as [st' [e [log [E2 [He _]]]]].
  rewrite (decode_n_snoc _ _ _ _ _ _ _ E1 E2).
  do 3 eexists. split; [reflexivity|]. split; [|exact He]. rewrite map_app, Ho. reflexivity.
Qed.

(* every prefix of a concatenation of non-empty frames is either at a frame boundary or
   ends strictly inside one frame: so [decode_encode_stream] and [cut_is_error] cover every
   cut point *)
Lemma cut_decompose : forall (fs : list (list Z)) p tl,
  Forall (fun f => f <> []) fs -> concat fs = p ++ tl ->
  exists j q, p = concat (firstn j fs) ++ q /\
    (q = [] \/ exists t, nth_error fs j = Some (q ++ t) /\ q <> [] /\ t <> []).
Proof.
  induction fs as [|f fs IH]; intros p tl Hne Hc.
  - cbn [concat] in Hc. symmetry in Hc. apply app_eq_nil in Hc. destruct Hc as [-> _].
    exists 0%nat, []. split; [reflexivity|now left].
  - inversion Hne as [|? ? Hf Hfs]; subst. cbn [concat] in Hc.
    apply app_eq_app in Hc as [l [[-> ->]|[-> Hc]]].
    + (* p ends inside f, or exactly at its end *)
      destruct l as [|y l].
      * exists 1%nat, []. split; [|now left]. cbn [firstn concat]. now rewrite !app_nil_r.
      * exists 0%nat, p. split; [reflexivity|]. destruct p as [|x p]; [now left|right].
        exists (y :: l). repeat split; discriminate.
    + (* p contains all of f *)
      destruct (IH l tl Hfs Hc) as [j [q [-> Hcase]]].
      exists (S j), q. cbn [firstn concat nth_error]. now rewrite app_assoc.
Qed.

Lemma encode_is_marshal : forall segs, count_ok segs -> segs_ok segs ->
  marshal segs = Ok (frame segs) /\ encode true segs = Ok (frame segs).
Proof.
  intros segs Hc Hs. split; [now apply marshal_frame|].
  apply encode_frame; [unfold count_ok, two32 in *; lia|assumption].
Qed.

(* non-vacuity of the stream theorems *)
Ltac zle := vm_compute; intros; discriminate.
Ltac segok := split; [vm_compute; reflexivity | zle].

Example stream_example :
  let m1 := [[1; 2; 3; 4; 5; 6; 7; 8]; []] in
  let m2 := [repeat 9 16] in
  max_ok 0 /\ frame_ok 0 m1 /\ frame_ok 0 m2 /\
  encode true m1 = Ok (frame m1) /\
  map fst (snd (decode_n (d_init (mkReader [frame m1; frame m2] EOF) 0) 3)) = [DMsg m1; DMsg m2; DEof] /\
  map fst (snd (decode_n (d_init (mkReader [frame m1; firstn 9 (frame m2)] EOF) 0) 3))
    = [DMsg m1; DErr EReadSegs; DEof].
Proof.
  cbv zeta. split; [now left|]. split; [|split].
  - split; [split; zle|]. split; [|zle]. constructor; [segok|]. constructor; [segok|]. constructor.
  - split; [split; zle|]. split; [|zle]. constructor; [segok|]. constructor.
  - split; [vm_compute; reflexivity|]. split; vm_compute; reflexivity.
Qed.
