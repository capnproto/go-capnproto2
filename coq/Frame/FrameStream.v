(* io.ReadFull over arbitrary chunkings; one Decoder.Decode call on a stream that starts with an
   encoded frame, is cut inside one, or has ended. *)
From CV Require Import Packed.PackedProofs.
From CV Require Import Frame.Frame.
From CV Require Import Frame.FrameProofs.
From CV Require Import Frame.FrameSafe.
From Coq Require Import ZifyBool ZifyNat.
Open Scope Z_scope.

(* what ReadFull does, as a function of the concatenated stream only *)
Definition read_full_flat (s : list Z) (fin : rerr) (need : Z) (got : bool)
  : rf_out * list Z * rerr :=
  if need <=? 0 then (RFok [], s, fin)
  else if need <=? len s then (RFok (firstn (Z.to_nat need) s), skipn (Z.to_nat need) s, fin)
  else ((if got || (0 <? len s) then RFerr else match fin with EOF => RFeof | UnexpectedEOF => RFerr end),
        [], EOF).

Definition flat (x : rf_out * reader) : rf_out * list Z * rerr :=
  (fst x, concat (r_chunks (snd x)), r_final (snd x)).

Lemma skipn_add_app {A} : forall (c s : list A) k, skipn (length c + k) (c ++ s) = skipn k s.
Proof. induction c as [|x c IH]; intros s k; [reflexivity|]. cbn [length Nat.add app skipn]. apply IH. Qed.

Lemma read_full_loop_nonpos cs fin need got : need <= 0 ->
  read_full_loop cs fin need got = (RFok [], mkReader cs fin).
Proof. intros H. destruct cs; cbn [read_full_loop]; destruct (need <=? 0) eqn:E; try lia; reflexivity. Qed.

(* chunk independence: the outcome of ReadFull, the bytes left in the reader and its final
   error depend only on the concatenation of the chunks *)
Lemma read_full_loop_flat : forall cs fin need got,
  flat (read_full_loop cs fin need got) = read_full_flat (concat cs) fin need got.
Proof.
  induction cs as [|c cs IH]; intros fin need got.
  - unfold read_full_flat, flat. cbn [read_full_loop concat].
    destruct (need <=? 0) eqn:E0; [reflexivity|]. change (len (@nil Z)) with 0.
    destruct (need <=? 0) eqn:E1; [lia|]. cbn [fst snd r_chunks r_final concat].
    rewrite orb_false_r. destruct got, fin; reflexivity.
  - cbn [read_full_loop concat]. unfold read_full_flat.
    destruct (need <=? 0) eqn:E0; [reflexivity|].
    rewrite len_app. pose proof (len_nonneg c). pose proof (len_nonneg (concat cs)).
    destruct (len c <=? need) eqn:Ec.
    + specialize (IH fin (need - len c) (got || negb (len c =? 0))).
      destruct (read_full_loop cs fin (need - len c) (got || negb (len c =? 0))) as [o r] eqn:Er.
      unfold flat, read_full_flat in IH. cbn [fst snd] in IH. unfold flat. cbn [fst snd].
      destruct (need - len c <=? 0) eqn:E1.
      * (* exactly the chunk *)
        injection IH as -> Hc Hf. rewrite Hc, Hf.
        destruct (need <=? len c + len (concat cs)) eqn:E2; [|lia].
        assert (need = len c) by lia. subst need. rewrite app_nil_r.
        now rewrite firstn_app_len, skipn_app_len.
      * destruct (need - len c <=? len (concat cs)) eqn:E2.
        -- injection IH as -> Hc Hf. rewrite Hc, Hf.
           destruct (need <=? len c + len (concat cs)) eqn:E3; [|lia].
           replace (Z.to_nat need) with (length c + Z.to_nat (need - len c))%nat by (unfold len in *; lia).
           now rewrite firstn_app_2, skipn_add_app.
        -- injection IH as -> Hc Hf. rewrite Hc, Hf.
           destruct (need <=? len c + len (concat cs)) eqn:E3; [lia|].
           f_equal. f_equal.
           destruct got; cbn [orb]; [reflexivity|].
           destruct (len c =? 0) eqn:E4; cbn [negb orb].
           ++ replace (0 <? len c + len (concat cs)) with (0 <? len (concat cs)) by lia.
              destruct (0 <? len (concat cs)), fin; reflexivity.
           ++ replace (0 <? len c + len (concat cs)) with true by lia. reflexivity.
    + unfold flat. cbn [fst snd r_chunks r_final concat].
      destruct (need <=? len c + len (concat cs)) eqn:E3; [|lia].
      rewrite firstn_app. replace (Z.to_nat need - length c)%nat with 0%nat by (unfold len in *; lia).
      cbn [firstn]. rewrite app_nil_r.
      rewrite skipn_app. replace (Z.to_nat need - length c)%nat with 0%nat by (unfold len in *; lia).
      reflexivity.
Qed.

Lemma read_full_flat_eq r need :
  flat (read_full r need) = read_full_flat (concat (r_chunks r)) (r_final r) need false.
Proof. unfold read_full. apply read_full_loop_flat. Qed.

(* inversion of one ReadFull in terms of the concatenated stream: either the next [need] bytes,
   or the stream is used up and the outcome says whether anything was left *)
Lemma read_full_inv r need o r' : read_full r need = (o, r') ->
  let s := concat (r_chunks r) in
  need <= len s /\ o = RFok (firstn (Z.to_nat need) s) /\
    concat (r_chunks r') = skipn (Z.to_nat need) s /\ r_final r' = r_final r
  \/ len s < need /\ concat (r_chunks r') = [] /\ r_final r' = EOF /\
    o = if 0 <? len s then RFerr else match r_final r with EOF => RFeof | UnexpectedEOF => RFerr end.
Proof.
  intros E s. pose proof (read_full_flat_eq r need) as F. rewrite E in F.
  unfold flat, read_full_flat in F. cbn [fst snd orb] in F. fold s in F. pose proof (len_nonneg s).
  destruct (need <=? 0) eqn:E0.
  - injection F as -> -> ->. left. replace (Z.to_nat need) with 0%nat by lia. split; [lia|auto].
  - destruct (need <=? len s) eqn:E1; injection F as -> -> ->; [left|right]; (split; [lia|auto]).
Qed.

(* enough bytes: success, exactly the next [need] bytes, the rest stays *)
Lemma read_full_enough r need : 0 <= need <= len (concat (r_chunks r)) ->
  exists cs', read_full r need = (RFok (firstn (Z.to_nat need) (concat (r_chunks r))), mkReader cs' (r_final r)) /\
              concat cs' = skipn (Z.to_nat need) (concat (r_chunks r)).
Proof.
  intros H. destruct (read_full r need) as [o [cs' f']] eqn:E.
  apply read_full_inv in E as [(_ & -> & Hc & Hf)|(Hl & _)]; [|lia]. cbn [r_final] in Hf. subst f'. now exists cs'.
Qed.

(* not enough bytes: failure; clean EOF only if nothing at all was left *)
Lemma read_full_short r need : len (concat (r_chunks r)) < need ->
  exists o cs', read_full r need = (o, mkReader cs' EOF) /\ concat cs' = [] /\
    (forall b, o <> RFok b) /\
    (0 < len (concat (r_chunks r)) -> o = RFerr) /\
    (len (concat (r_chunks r)) = 0 -> r_final r = EOF -> o = RFeof).
Proof.
  intros H. destruct (read_full r need) as [o [cs' f']] eqn:E.
  apply read_full_inv in E as [(Hl & _)|(_ & Hc & Hf & ->)]; [lia|]. cbn [r_chunks r_final] in Hc, Hf. subst f'.
  do 2 eexists. split; [reflexivity|]. split; [exact Hc|].
  destruct (0 <? _) eqn:E0; [|destruct (r_final r)]; repeat split; intros; lia || discriminate || reflexivity.
Qed.

(* inversion: a successful ReadFull returned the next [need] bytes *)
Lemma read_full_ok_inv r need b r' : 0 <= need -> read_full r need = (RFok b, r') ->
  need <= len (concat (r_chunks r)) /\ b = firstn (Z.to_nat need) (concat (r_chunks r)) /\ len b = need /\
  concat (r_chunks r') = skipn (Z.to_nat need) (concat (r_chunks r)) /\ r_final r' = r_final r.
Proof.
  intros Hn E. apply read_full_inv in E as [(Hl & [= ->] & Hc & Hf)|(_ & _ & _ & Ho)].
  - repeat split; try assumption. apply len_firstn. lia.
  - destruct (0 <? _), (r_final r); discriminate.
Qed.

Definition max_ok (mx : Z) : Prop := mx = 0 \/ 8 <= mx < two64.

(* a message the decoder is configured to accept: 1..512 segments (513 in the code as found, which compared
   maxSeg > 512), whole-word segments, framed size within MaxMessageSize *)
Definition frame_ok (mx : Z) (m : list (list Z)) : Prop :=
  1 <= len m <= max_stream_segments /\ segs_ok m /\ len (frame m) <= eff_max mx.

(* the same with the segment-count test of either version of the code; [frame_ok] is the case
   [fixed = true] *)
Definition frame_ok_gen (fixed : bool) (mx : Z) (m : list (list Z)) : Prop :=
  1 <= len m <= seg_count_limit fixed /\ segs_ok m /\ len (frame m) <= eff_max mx.

Lemma eff_max_range mx : max_ok mx -> 8 <= eff_max mx < two64.
Proof. unfold max_ok, eff_max, default_decode_limit, two64. intros [->|H]; [cbn; lia|]. destruct (mx =? 0) eqn:E; lia. Qed.

Lemma max_ok_config mx : max_ok mx -> negb (mx =? 0) && (mx <? word_size) = false.
Proof. unfold max_ok, word_size. lia. Qed.

Lemma frame_ok_facts fixed mx m : max_ok mx -> frame_ok_gen fixed mx m ->
  count_ok m /\ 1 <= len m < two32 /\ 8 <= len (frame_header m) /\
  len (frame_header m) = stream_header_size (len m - 1) /\
  len (frame_header m) + sum_len m <= eff_max mx /\ 0 <= sum_len m /\
  sum_len m <= 513 * max_segment_size.
Proof.
  intros Hmx [Hc [Hs Hl]].
  assert (len m <= 513) by (destruct fixed; unfold seg_count_limit, max_stream_segments in Hc; lia).
  assert (H32 : 1 <= len m < two32) by (unfold two32; lia).
  pose proof (frame_nonempty m H32). pose proof (frame_header_len m H32).
  pose proof (sum_len_nonneg m). pose proof (sum_len_bound m 513 Hs ltac:(assumption)) as HsB.
  unfold frame in Hl. rewrite len_app, sum_len_concat in Hl.
  assert (Hcnt : count_ok m) by (unfold count_ok; lia).
  repeat (split; [assumption || lia|]). assumption.
Qed.

(* what the users need is header size <= max_int; 4 * (512 + 2) + 4 = 2060 by
   [stream_header_size_bounds] *)
Lemma frame_header_small fixed mx m : max_ok mx -> frame_ok_gen fixed mx m -> len (frame_header m) <= 2064.
Proof.
  intros Hmx Hok. destruct (frame_ok_facts fixed mx m Hmx Hok) as [_ [H32 [_ [HH _]]]].
  assert (len m <= 513)
    by (destruct Hok as [Hc _], fixed; unfold seg_count_limit, max_stream_segments in Hc; lia).
  pose proof (stream_header_size_bounds (len m - 1) ltac:(lia)). lia.
Qed.

Lemma app_eq_len {A} : forall (a b c d : list A), a ++ b = c ++ d -> length a = length c -> a = c.
Proof.
  induction a as [|x a IH]; intros b c d H Hl; destruct c as [|y c]; cbn [length] in Hl; try lia; [reflexivity|].
  cbn [app] in H. injection H as -> H. f_equal. eapply IH; [eassumption|lia].
Qed.

Lemma singleton_concat (m : list (list Z)) : len m = 1 -> [concat m] = m.
Proof.
  destruct m as [|s [|t r]]; unfold len; cbn [length]; try lia. intros _. cbn [concat]. now rewrite app_nil_r.
Qed.

(* The second half of Decode with its two ReuseBuffer branches written as one: the flag decides
   only whether the data buffer is allocated afresh, which capacity is kept, and whether a
   single segment is handed out without calling demuxArena. *)
Lemma gdecode_body_eq {R} (rf : R -> Z -> rf_out * R) st maxSize maxSeg hb log :
  gdecode_body rf st maxSize maxSeg hb log =
  match total_size hb with
  | Err e => (st, DErr e, log)
  | Panic => (st, DPanic, log)
  | Ok total =>
    if (total >? wrap64 (maxSize - len hb)) || (total >? max_int) then (st, DErr ETooLarge, log)
    else
      let fresh := negb (d_reuse st) || (d_bufcap st <? total) in
      let log1 := if fresh then log ++ [ABuf total] else log in
      let '(o, r') := rf (d_rd st) total in
      let st' := mkD r' (d_hdrcap st) (if d_reuse st && fresh then total else d_bufcap st)
                     (d_reuse st) (d_max st) in
      match o with
      | RFok buf =>
        if d_reuse st && (maxSeg =? 0) then (st', DMsg [buf], log1)
        else match demux_arena hb buf with
             | Ok segs => (st', DMsg segs, log1 ++ [ATable (maxSeg + 1)])
             | Err e => (st', DErr e, log1)
             | Panic => (st', DPanic, log1)
             end
      | _ => (st', DErr EReadSegs, log1)
      end
  end.
Proof.
  destruct st as [r hc bc ru mx]. unfold gdecode_body, resize. cbn [d_rd d_hdrcap d_bufcap d_reuse d_max].
  destruct (total_size hb) as [total| |]; try reflexivity. destruct (_ || _); [reflexivity|].
  destruct ru; [destruct (bc <? total)|]; cbn [negb orb andb d_rd]; destruct (rf r total) as [[] r']; reflexivity.
Qed.

Lemma decode_body_ok fixed m cs fin hc bc ru mx rest log :
  max_ok mx -> frame_ok_gen fixed mx m -> concat cs = concat m ++ rest ->
  exists cs' bc' log',
    decode_body (mkD (mkReader cs fin) hc bc ru mx) (eff_max mx) (len m - 1) (frame_header m) log
    = (mkD (mkReader cs' fin) hc bc' ru mx, DMsg m, log') /\ concat cs' = rest.
Proof.
  intros Hmx Hok Hcs. destruct (frame_ok_facts fixed mx m Hmx Hok) as [Hc [H32 [H8 [HH [HL [Hs0 HsB]]]]]].
  pose proof (eff_max_range mx Hmx) as Hr. destruct Hok as [_ [Hsegs _]].
  unfold decode_body. rewrite gdecode_body_eq, total_size_frame_header by assumption.
  rewrite wrap64_small by lia.
  destruct ((sum_len m >? eff_max mx - len (frame_header m)) || (sum_len m >? max_int)) eqn:E;
    [unfold max_int, max_segment_size, two32 in *; lia|].
  cbn [d_reuse d_rd d_hdrcap d_bufcap d_max].
  destruct (read_full_enough (mkReader cs fin) (sum_len m)) as [cs' [Er Hc']].
  { cbn [r_chunks]. rewrite Hcs, len_app, sum_len_concat. pose proof (len_nonneg rest). lia. }
  cbn [r_chunks r_final] in Er, Hc'. rewrite Hcs, <- sum_len_concat in Er, Hc'.
  rewrite firstn_app_len, sum_len_concat in Er. rewrite skipn_app_len in Hc'. rewrite Er.
  destruct (ru && (len m - 1 =? 0)) eqn:E1.
  - rewrite singleton_concat by lia. now do 3 eexists.
  - rewrite <- (app_nil_r (concat m)), demux_arena_frame_header by assumption. now do 3 eexists.
Qed.

(* the data section is cut short: "decode: read segments: ..." *)
Lemma decode_body_short m cs fin hc bc ru mx log :
  max_ok mx -> frame_ok mx m -> len (concat cs) < sum_len m ->
  exists st' log',
    decode_body (mkD (mkReader cs fin) hc bc ru mx) (eff_max mx) (len m - 1) (frame_header m) log
    = (st', DErr EReadSegs, log') /\ concat (r_chunks (d_rd st')) = [] /\ r_final (d_rd st') = EOF.
Proof.
  intros Hmx Hok Hcs. destruct (frame_ok_facts true mx m Hmx Hok) as [Hc [H32 [H8 [HH [HL [Hs0 HsB]]]]]].
  pose proof (eff_max_range mx Hmx) as Hr. destruct Hok as [_ [Hsegs _]].
  unfold decode_body. rewrite gdecode_body_eq, total_size_frame_header by assumption.
  rewrite wrap64_small by lia.
  destruct ((sum_len m >? eff_max mx - len (frame_header m)) || (sum_len m >? max_int)) eqn:E;
    [unfold max_int, max_segment_size, two32 in *; lia|].
  cbn [d_reuse d_rd d_hdrcap d_bufcap d_max].
  destruct (read_full_short (mkReader cs fin) (sum_len m) Hcs) as [o [cs' [Er [Hc' [Hno _]]]]].
  rewrite Er. destruct o; [now destruct (Hno b)| |]; do 2 eexists; (split; [reflexivity|]); cbn; auto.
Qed.

Lemma stream_header_size_0 : stream_header_size 0 = 8.
Proof. reflexivity. Qed.

(* the first word of a stream that starts with (a prefix, at least 8 bytes long, of) frame m *)
Lemma first_word_count m s tail : 1 <= len m < two32 -> 8 <= len s -> frame m = s ++ tail ->
  le32_get (firstn (Z.to_nat word_size) s) = len m - 1.
Proof.
  intros H32 H8 Hf. unfold word_size.
  rewrite le32_get_firstn by (unfold len in *; lia).
  rewrite <- (le32_get_app4 s tail) by (unfold len in *; lia).
  rewrite <- Hf. unfold frame. now apply max_segment_frame_header.
Qed.

(* Decode with the one-segment case folded into the general one: a first word announcing a single
   segment is the whole header, so nothing is tested, allocated or read before the second half *)
Lemma gdecode1_gen_eq {R} (rf : R -> Z -> rf_out * R) fixed st :
  gdecode1_gen rf fixed st =
  if negb (d_max st =? 0) && (d_max st <? word_size) then (st, DErr EConfig, [])
  else
    let '(o, r1) := rf (d_rd st) word_size in
    match o with
    | RFeof => (with_rd st r1, DEof, [])
    | RFerr => (with_rd st r1, DErr EReadHeader, [])
    | RFok w =>
      let maxSeg := le32_get w in
      let hdrSize := stream_header_size maxSeg in
      let more := negb (maxSeg =? 0) in
      if maxSeg + 1 >? seg_count_limit fixed then (with_rd st r1, DErr ETooManySegs, [])
      else if more && ((hdrSize >? eff_max (d_max st)) || (hdrSize >? max_int))
      then (with_rd st r1, DErr ETooLarge, [])
      else
        let fresh := more && (d_hdrcap st <? hdrSize) in
        let log := if fresh then [AHdr hdrSize] else [] in
        let '(o2, r2) := if more then rf r1 (hdrSize - word_size) else (RFok [], r1) in
        let st2 := mkD r2 (if fresh then hdrSize else d_hdrcap st) (d_bufcap st) (d_reuse st) (d_max st) in
        match o2 with
        | RFok rest => gdecode_body rf st2 (eff_max (d_max st)) maxSeg (w ++ rest) log
        | _ => (st2, DErr EReadHeader, log)
        end
    end.
Proof.
  destruct st as [r hc bc ru mx]. unfold gdecode1_gen, resize, with_rd, eff_max.
  cbn [d_rd d_hdrcap d_bufcap d_reuse d_max].
  destruct (_ && _); [reflexivity|]. destruct (rf r word_size) as [[w| |] r1]; try reflexivity.
  destruct (_ >? seg_count_limit fixed); [reflexivity|].
  destruct (le32_get w =? 0); cbn [negb andb]; [now rewrite app_nil_r|].
  destruct (_ || _); [reflexivity|]. destruct (hc <? _); cbn [d_rd]; destruct (rf r1 _) as [[] r2]; reflexivity.
Qed.

(* header complete: Decode reaches its second half with the reader positioned after the header *)
Lemma decode1_to_body fixed m cs fin hc bc ru mx tail :
  max_ok mx -> frame_ok_gen fixed mx m ->
  len (frame_header m) <= len (concat cs) -> frame m = firstn (Z.to_nat (len (frame_header m))) (concat cs) ++ tail ->
  exists cs1 hc' log0,
    decode1_gen fixed (mkD (mkReader cs fin) hc bc ru mx) =
    decode_body (mkD (mkReader cs1 fin) hc' bc ru mx) (eff_max mx) (len m - 1) (frame_header m) log0
    /\ concat cs1 = skipn (Z.to_nat (len (frame_header m))) (concat cs).
Proof.
  intros Hmx Hok Hlen Hpre. destruct (frame_ok_facts fixed mx m Hmx Hok) as [Hc [H32 [H8 [HH [HL [Hs0 HsB]]]]]].
  pose proof (eff_max_range mx Hmx) as Hr. pose proof (frame_header_small fixed mx m Hmx Hok) as Hsm.
  set (s := concat cs) in *. set (H := len (frame_header m)) in *.
  assert (Hhdr : firstn (Z.to_nat H) s = frame_header m).
  { unfold frame in Hpre.
    assert (Hl : length (firstn (Z.to_nat H) s) = length (frame_header m)).
    { rewrite firstn_length. unfold H, len in *. lia. }
    symmetry. exact (app_eq_len _ _ _ _ Hpre (eq_sym Hl)). }
  unfold decode1_gen. rewrite gdecode1_gen_eq. cbn [d_max d_rd d_hdrcap d_bufcap d_reuse].
  rewrite max_ok_config by assumption.
  destruct (read_full_enough (mkReader cs fin) word_size ltac:(cbn [r_chunks]; unfold word_size; fold s; lia))
    as [cs1 [Er Hc1]]. cbn [r_chunks r_final] in *. fold s in Er, Hc1. rewrite Er.
  assert (Hw : le32_get (firstn (Z.to_nat word_size) s) = len m - 1).
  { rewrite <- (first_word_count m (firstn (Z.to_nat H) s) tail H32 ltac:(rewrite len_firstn; lia) Hpre), firstn_firstn.
    do 2 f_equal. unfold word_size. lia. }
  rewrite Hw, <- HH. fold H.
  destruct (len m - 1 + 1 >? seg_count_limit fixed) eqn:E1; [destruct Hok; lia|].
  replace ((H >? eff_max mx) || (H >? max_int)) with false by (unfold max_int, two64 in *; lia).
  rewrite andb_false_r.
  destruct (len m - 1 =? 0) eqn:E2; cbn [negb andb].
  - (* one segment: the first word is the whole header *)
    assert (H8eq : Z.to_nat H = Z.to_nat word_size).
    { rewrite HH. replace (len m - 1) with 0 by lia. reflexivity. }
    rewrite app_nil_r. rewrite H8eq in Hhdr. rewrite H8eq, Hhdr. now exists cs1, hc, [].
  - destruct (read_full_enough (mkReader cs1 fin) (H - word_size)) as [cs2 [Er2 Hc2]].
    { cbn [r_chunks]. rewrite Hc1, len_skipn by (unfold word_size; lia). unfold word_size. lia. }
    cbn [r_chunks r_final] in Er2, Hc2. rewrite Er2, Hc1, <- firstn_add.
    replace (Z.to_nat word_size + Z.to_nat (H - word_size))%nat with (Z.to_nat H) by (unfold word_size; lia).
    rewrite Hhdr. do 3 eexists. split; [reflexivity|].
    rewrite Hc2, Hc1, skipn_skipn'. f_equal. unfold word_size. lia.
Qed.

(* one whole frame at the head of the stream: Decode returns exactly that message and leaves
   the rest of the stream; holds for every chunking, with and without reuse, for every
   buffer capacity left over from earlier calls *)
Lemma decode1_gen_frame fixed m cs fin hc bc ru mx rest :
  max_ok mx -> frame_ok_gen fixed mx m -> concat cs = frame m ++ rest ->
  exists cs' hc' bc' log,
    decode1_gen fixed (mkD (mkReader cs fin) hc bc ru mx) = (mkD (mkReader cs' fin) hc' bc' ru mx, DMsg m, log)
    /\ concat cs' = rest.
Proof.
  intros Hmx Hok Hcs.
  assert (Hs : concat cs = frame_header m ++ concat m ++ rest) by (rewrite Hcs; unfold frame; now rewrite <- app_assoc).
  destruct (decode1_to_body fixed m cs fin hc bc ru mx (concat m) Hmx Hok) as [cs1 [hc' [log0 [E Hc1]]]].
  - rewrite Hs, len_app. pose proof (len_nonneg (concat m ++ rest)). lia.
  - rewrite Hs, firstn_app_len. reflexivity.
  - rewrite E. rewrite Hs, skipn_app_len in Hc1.
    destruct (decode_body_ok fixed m cs1 fin hc' bc ru mx rest log0 Hmx Hok Hc1) as [cs' [bc' [log' [E' Hc']]]].
    rewrite E'. now exists cs', hc', bc', log'.
Qed.

Lemma decode1_frame m cs fin hc bc ru mx rest :
  max_ok mx -> frame_ok mx m -> concat cs = frame m ++ rest ->
  exists cs' hc' bc' log,
    decode1 (mkD (mkReader cs fin) hc bc ru mx) = (mkD (mkReader cs' fin) hc' bc' ru mx, DMsg m, log)
    /\ concat cs' = rest.
Proof. exact (decode1_gen_frame true m cs fin hc bc ru mx rest). Qed.

(* the stream ends inside a frame: an error, never a message and never a clean EOF *)
Lemma decode1_cut m q tail cs fin hc bc ru mx :
  max_ok mx -> frame_ok mx m -> frame m = q ++ tail -> q <> [] -> tail <> [] -> concat cs = q ->
  exists st' e log,
    decode1 (mkD (mkReader cs fin) hc bc ru mx) = (st', DErr e, log) /\ (e = EReadHeader \/ e = EReadSegs)
    /\ concat (r_chunks (d_rd st')) = [] /\ r_final (d_rd st') = EOF.
Proof.
  intros Hmx Hok Hf Hq Ht Hcs. destruct (frame_ok_facts true mx m Hmx Hok) as [Hc [H32 [H8 [HH [HL [Hs0 HsB]]]]]].
  pose proof (eff_max_range mx Hmx) as Hr. pose proof (frame_header_small true mx m Hmx Hok) as Hsm.
  assert (Hql : 0 < len q) by (destruct q; [congruence|rewrite len_cons; pose proof (len_nonneg q); lia]).
  assert (Htl : 0 < len tail) by (destruct tail; [congruence|rewrite len_cons; pose proof (len_nonneg tail); lia]).
  assert (Hfl : len q + len tail = len (frame_header m) + sum_len m).
  { rewrite <- len_app, <- Hf. unfold frame. now rewrite len_app, sum_len_concat. }
  set (H := len (frame_header m)) in *.
  destruct (Z_lt_ge_dec (len q) H) as [Hsh|Hlong].
  - (* cut inside the header *)
    unfold decode1, decode1_gen. rewrite gdecode1_gen_eq. cbn [d_max d_rd d_hdrcap d_bufcap d_reuse].
    rewrite max_ok_config by assumption.
    destruct (Z_lt_ge_dec (len q) 8) as [H7|H8'].
    + destruct (read_full_short (mkReader cs fin) word_size ltac:(cbn [r_chunks]; rewrite Hcs; unfold word_size; lia))
        as [o [cs' [Er [Hc' [_ [Herr _]]]]]].
      cbn [r_chunks] in Herr. rewrite Hcs in Herr. rewrite (Herr Hql) in Er. rewrite Er.
      do 3 eexists. split; [reflexivity|]. split; [now left|]. cbn. auto.
    + destruct (read_full_enough (mkReader cs fin) word_size ltac:(cbn [r_chunks]; rewrite Hcs; unfold word_size; lia))
        as [cs1 [Er Hc1]]. cbn [r_chunks r_final] in *. rewrite Er, Hcs.
      rewrite (first_word_count m q tail H32 ltac:(lia) Hf), <- HH. fold H.
      destruct (len m - 1 + 1 >? seg_count_limit true) eqn:E1;
        [destruct Hok; unfold seg_count_limit, max_stream_segments in *; lia|].
      replace ((H >? eff_max mx) || (H >? max_int)) with false by (unfold max_int, two64 in *; lia).
      rewrite andb_false_r.
      destruct (len m - 1 =? 0) eqn:E2; cbn [negb andb].
      { exfalso. assert (H = 8) by (rewrite HH; replace (len m - 1) with 0 by lia; reflexivity). lia. }
      destruct (read_full_short (mkReader cs1 fin) (H - word_size)) as [o [cs' [Er2 [Hc' [Hno _]]]]].
      { cbn [r_chunks]. rewrite Hc1, Hcs, len_skipn by (unfold word_size; lia). unfold word_size. lia. }
      rewrite Er2. destruct o; [now destruct (Hno b)| |]; do 3 eexists; (split; [reflexivity|]);
        (split; [now left|]); cbn; auto.
  - (* header complete, cut inside the data *)
    assert (Hpre : firstn (Z.to_nat H) (concat cs) ++ (skipn (Z.to_nat H) q ++ tail) = frame m).
    { rewrite Hcs, app_assoc, firstn_skipn. now symmetry. }
    destruct (decode1_to_body true m cs fin hc bc ru mx (skipn (Z.to_nat H) q ++ tail) Hmx Hok) as [cs1 [hc' [log0 [E Hc1]]]].
    + fold H. rewrite Hcs. lia.
    + fold H. now symmetry.
    + unfold decode1. rewrite E. fold H in Hc1. rewrite Hcs in Hc1.
      destruct (decode_body_short m cs1 fin hc' bc ru mx log0 Hmx Hok) as [st' [log' [E' [Hc' Hf']]]].
      { rewrite Hc1, len_skipn by lia. lia. }
      rewrite E'. do 3 eexists. split; [reflexivity|]. split; [now right|]. auto.
Qed.

(* nothing left: io.EOF, or "decode: read header" when the reader ends with an error of its own *)
Lemma decode1_stream_end cs fin hc bc ru mx : max_ok mx -> concat cs = [] ->
  exists cs', decode1 (mkD (mkReader cs fin) hc bc ru mx) =
    (mkD (mkReader cs' EOF) hc bc ru mx,
     match fin with EOF => DEof | UnexpectedEOF => DErr EReadHeader end, [])
    /\ concat cs' = [].
Proof.
  intros Hmx Hcs. unfold decode1, decode1_gen, gdecode1_gen. cbn [d_max d_rd].
  rewrite max_ok_config by assumption.
  destruct (read_full (mkReader cs fin) word_size) as [o [cs' f']] eqn:Er.
  apply read_full_inv in Er as [(Hl & _)|(_ & Hc & Hf & ->)]; cbn [r_chunks r_final] in *; rewrite Hcs in *.
  - now vm_compute in Hl.
  - subst f'. exists cs'. destruct fin; auto.
Qed.

Lemma decode1_eof cs hc bc ru mx : max_ok mx -> concat cs = [] ->
  exists cs', decode1 (mkD (mkReader cs EOF) hc bc ru mx) = (mkD (mkReader cs' EOF) hc bc ru mx, DEof, [])
              /\ concat cs' = [].
Proof. exact (decode1_stream_end cs EOF hc bc ru mx). Qed.
