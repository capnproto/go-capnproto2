(* ARBITRARY header bytes.  totalSize and demuxArena agree on every header, never panic when
   the header has the length streamHeaderSize says, the sums do not wrap, the segments returned
   are consecutive slices of the data; Unmarshal never panics and allocates at most 6 bytes per
   input byte. *)
From CV Require Import Packed.PackedProofs.
From CV Require Import Frame.Frame.
From CV Require Import Frame.FrameProofs.
From Coq Require Import ZifyBool ZifyNat.
Open Scope Z_scope.

Lemma total_size_loop_no_panic : forall n hb i sum, 0 <= i -> i + Z.of_nat n <= two32 ->
  4 + 4 * (i + Z.of_nat n) <= len hb -> total_size_loop n hb i sum <> Panic.
Proof.
  induction n as [|n IH]; intros hb i sum Hi Hn Hl; cbn [total_size_loop]; [discriminate|].
  rewrite wrap32_small by (unfold two32 in *; lia).
  pose proof (segment_size_inv hb i) as Hx. pose proof (seg_index_le i Hi).
  destruct (segment_size hb i); cbn [bind]; [apply IH; lia|discriminate|lia].
Qed.

(* totalSize and demuxArena walk the same table: when the total fits into the data, the
   demultiplexer cannot slice out of range, returns n segments, and their concatenation is
   the first [total] bytes of the data; the sum never wraps *)
Lemma loops_agree : forall n hb i sum t data,
  0 <= i -> 0 <= sum -> i + Z.of_nat n <= two32 ->
  sum + Z.of_nat n * two32 <= two64 ->
  total_size_loop n hb i sum = Ok t ->
  sum <= t /\ t <= sum + Z.of_nat n * max_segment_size /\
  (t - sum <= len data ->
   exists segs, demux_loop n hb i data = Ok segs /\ length segs = n /\
                concat segs = firstn (Z.to_nat (t - sum)) data /\ segs_ok segs).
Proof.
  induction n as [|n IH]; intros hb i sum t data Hi Hs Hn Hb H; cbn [total_size_loop demux_loop] in *.
  - assert (t = sum) by congruence. subst. split; [lia|]. split; [lia|]. intros _.
    exists []. rewrite Z.sub_diag. repeat split. constructor.
  - rewrite wrap32_small in * by (unfold two32 in *; lia).
    destruct (segment_size hb i) as [x| |] eqn:Ex; cbn [bind] in *; try discriminate.
    pose proof (segment_size_inv hb i) as Hx. rewrite Ex in Hx. destruct Hx as [Hx Ha].
    rewrite wrap64_small in H by (unfold max_segment_size, two32, two64 in *; lia).
    destruct (IH hb (i + 1) (sum + x) t (skipn (Z.to_nat x) data)) as [H1 [H2 H3]];
      try assumption; try (unfold max_segment_size, two32, two64 in *; lia).
    split; [lia|]. split; [unfold max_segment_size, two32 in *; lia|]. intros Hd.
    destruct (len data <? x) eqn:E; [lia|].
    destruct H3 as [segs [Hd1 [Hd2 [Hd3 Hd4]]]].
    { rewrite len_skipn by lia. lia. }
    rewrite Hd1. cbn [bind]. eexists; split; [reflexivity|].
    split; [cbn [length]; lia|]. split.
    + cbn [concat]. rewrite Hd3.
      replace (Z.to_nat (t - sum)) with (Z.to_nat x + Z.to_nat (t - (sum + x)))%nat by lia.
      now rewrite firstn_add.
    + constructor; [|assumption]. split; rewrite len_firstn by lia; lia.
Qed.

Lemma le32_get_firstn n l : (4 <= n)%nat -> (4 <= length l)%nat -> le32_get (firstn n l) = le32_get l.
Proof.
  intros Hn Hl. rewrite <- (firstn_skipn n l) at 2. symmetry. apply le32_get_app4.
  rewrite firstn_length. lia.
Qed.

Lemma bytes_ok_firstn n l : bytes_ok l -> bytes_ok (firstn n l).
Proof. intros H. rewrite <- (firstn_skipn n l) in H. now apply bytes_ok_app in H. Qed.

(* the only error of the loop is the overflow of a size word *)
Lemma total_size_loop_err : forall n hb i s e, total_size_loop n hb i s = Err e -> e = ESegOverflow.
Proof.
  induction n as [|n IH]; intros hb i s e; cbn [total_size_loop]; [discriminate|].
  pose proof (segment_size_inv hb (wrap32 i)) as Hx.
  destruct (segment_size hb (wrap32 i)); cbn [bind]; [apply IH|congruence|discriminate].
Qed.

Lemma total_size_err hb e : total_size hb = Err e -> e = ESegOverflow.
Proof.
  unfold total_size, max_segment, uint32_at. destruct (_ <=? _); cbn [bind]; [|discriminate].
  apply total_size_loop_err.
Qed.

Lemma demux_loop_err : forall n hb i data e, demux_loop n hb i data = Err e -> e = ESegOverflow.
Proof.
  induction n as [|n IH]; intros hb i data e; cbn [demux_loop]; [discriminate|].
  pose proof (segment_size_inv hb (wrap32 i)) as Hx.
  destruct (segment_size hb (wrap32 i)) as [sz|e0|]; cbn [bind]; [|congruence|discriminate].
  destruct (len data <? sz); [discriminate|].
  destruct (demux_loop n hb (i + 1) (skipn (Z.to_nat sz) data)) eqn:Ed; cbn [bind]; try discriminate.
  intros [= <-]. eapply IH; eassumption.
Qed.

Lemma demux_arena_err hb data e : demux_arena hb data = Err e -> e = ESegOverflow.
Proof.
  unfold demux_arena, max_segment, uint32_at. destruct (_ <=? _); cbn [bind]; [|discriminate].
  apply demux_loop_err.
Qed.

Lemma wrap64_nonneg z : 0 <= wrap64 z.
Proof. exact (proj1 (Z.mod_pos_bound z two64 eq_refl)). Qed.

Lemma total_size_loop_nonneg : forall n hb i s t, 0 <= s -> total_size_loop n hb i s = Ok t -> 0 <= t.
Proof.
  induction n as [|n IH]; intros hb i s t Hs H; cbn [total_size_loop] in H.
  - congruence.
  - destruct (segment_size hb (wrap32 i)); cbn [bind] in H; try discriminate.
    eapply IH; [|exact H]. apply wrap64_nonneg.
Qed.

Lemma total_size_nonneg hb t : total_size hb = Ok t -> 0 <= t.
Proof.
  unfold total_size. destruct (max_segment hb); cbn [bind]; try discriminate.
  apply total_size_loop_nonneg. lia.
Qed.

(* a header of exactly the size the count word calls for *)
Definition header_sized (hb : list Z) : Prop :=
  bytes_ok hb /\ 8 <= len hb /\ len hb = stream_header_size (le32_get hb).

Lemma header_total_demux hb : header_sized hb ->
  let m := le32_get hb in
  (exists t, total_size hb = Ok t /\ 0 <= t <= (m + 1) * max_segment_size /\
     forall data, t <= len data ->
       exists segs, demux_arena hb data = Ok segs /\ len segs = m + 1 /\
                    concat segs = firstn (Z.to_nat t) data /\ segs_ok segs)
  \/ total_size hb = Err ESegOverflow.
Proof.
  intros [Hb [H8 Hl]] m. pose proof (le32_get_range hb Hb) as Hm. fold m in Hm, Hl.
  pose proof (stream_header_size_bounds m Hm) as HB.
  unfold total_size, demux_arena, max_segment, uint32_at.
  destruct (0 + 4 <=? len hb) eqn:E; [|lia]. cbn [Z.to_nat skipn bind]. fold m.
  destruct (total_size_loop (Z.to_nat (m + 1)) hb 0 0) as [t| |] eqn:Et.
  - left. exists t.
    assert (HL := fun data => loops_agree (Z.to_nat (m + 1)) hb 0 0 t data ltac:(lia) ltac:(lia)
                    ltac:(unfold two32 in *; lia) ltac:(unfold two32, two64 in *; lia) Et).
    destruct (HL []) as [H1 [H2 _]].
    split; [reflexivity|]. split; [lia|]. intros data Hd.
    destruct (HL data) as [_ [_ H3]].
    destruct H3 as [segs [Hd1 [Hd2 [Hd3 Hd4]]]]; [lia|].
    exists segs. rewrite Z.sub_0_r in Hd3. repeat split; try assumption. unfold len. lia.
  - right. f_equal. now apply total_size_loop_err in Et.
  - exfalso. revert Et. apply total_size_loop_no_panic; lia.
Qed.

Lemma unmarshal_cases data : bytes_ok data ->
  (exists e, unmarshal data = Err e) \/
  (exists segs k, unmarshal data = Ok segs /\ len segs = le32_get data + 1 /\
     4 * (len segs + 1) <= len data /\ segs_ok segs /\
     concat segs = firstn k (skipn (Z.to_nat (stream_header_size (le32_get data))) data)).
Proof.
  intros Hb. unfold unmarshal. unfold word_size.
  destruct (len data =? 0) eqn:E0; [left; eauto|].
  destruct (len data <? 8) eqn:E1; [left; eauto|].
  pose proof (le32_get_range data Hb) as Hm. set (m := le32_get data) in *.
  pose proof (stream_header_size_bounds m Hm) as HB.
  destruct (len data <? stream_header_size m) eqn:E2; [left; eauto|].
  set (hb := firstn (Z.to_nat (stream_header_size m)) data).
  assert (Hg : le32_get hb = m) by (apply le32_get_firstn; unfold len in *; lia).
  assert (Hhb : header_sized hb).
  { split; [now apply bytes_ok_firstn|]. rewrite Hg. unfold hb. rewrite len_firstn by lia. split; lia. }
  destruct (header_total_demux hb Hhb) as [[t [Ht [Hr Hd]]]|He]; rewrite ?Ht, ?He; cbn [bind]; [|left; eauto].
  destruct (t >? len _) eqn:E3; [left; eauto|].
  destruct (Hd (skipn (Z.to_nat (stream_header_size m)) data) ltac:(lia)) as [segs [H1 [H2 [H3 H4]]]].
  right. exists segs, (Z.to_nat t). rewrite Hg in H2. repeat split; try assumption. lia.
Qed.

Theorem unmarshal_safe data : bytes_ok data -> unmarshal data <> Panic.
Proof.
  intros Hb. destruct (unmarshal_cases data Hb) as [[e H]|[segs [k [H _]]]]; rewrite H; discriminate.
Qed.

(* memory allocated by Unmarshal: 24 bytes per segment, and a header declaring n segments is
   at least 4(n+1) bytes long *)
Theorem unmarshal_alloc_linear data : bytes_ok data ->
  0 <= unmarshal_alloc data <= 6 * len data.
Proof.
  intros Hb. unfold unmarshal_alloc, slice_header_bytes. pose proof (len_nonneg data).
  destruct (unmarshal_cases data Hb) as [[e H1]|[segs [k [H1 [H2 [H3 _]]]]]]; rewrite H1; [lia|].
  pose proof (len_nonneg segs). lia.
Qed.

(* half the bound is reached: 2 segments in 16 bytes allocate 48 of 96 *)
Example unmarshal_alloc_example :
  unmarshal_alloc ([1; 0; 0; 0; 0; 0; 0; 0; 0; 0; 0; 0; 0; 0; 0; 0]) = 48.
Proof. vm_compute. reflexivity. Qed.
