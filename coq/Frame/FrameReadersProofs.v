(* The Decoder gives the same results for every reader behaviour the io.Reader contract permits
   for a stream that ends with io.EOF: any chunking, (0, nil) reads, and the final io.EOF arriving
   together with the last bytes or by a separate read. *)
From CV Require Import Frame.Frame.
From CV Require Import Frame.FramePacked.
From CV Require Import Frame.FrameReaders.
From CV Require Import Frame.FrameProofs.
From CV Require Import Frame.FrameSafe.
From CV Require Import Frame.FrameStream.
From CV Require Import Frame.FrameThms.
From CV Require Import Frame.FrameSim.
From CV Require Import Frame.FramePackedThms.
From Coq Require Import ZifyBool ZifyNat.
Open Scope Z_scope.

(* io.ReadFull over an [xreader] returns what io.ReadFull over the plain reader with the same chunks
   returns and leaves the same chunks.  The readers' final errors agree too, except when a final
   error other than io.EOF came with the last bytes and was dropped because they filled the buffer:
   the xreader then goes on with io.EOF, the plain reader still holds the error. *)
Lemma xread_full_loop_plain : forall cs fin tog need got,
  let x := xread_full_loop cs fin tog need got in
  let y := read_full_loop cs fin need got in
  fst x = fst y /\ x_chunks (snd x) = r_chunks (snd y) /\ x_tog (snd x) = tog /\
  (tog = false \/ fin = EOF -> x_final (snd x) = r_final (snd y)).
Proof.
  induction cs as [|c cs IH]; intros fin tog need got; cbn [xread_full_loop read_full_loop].
  - destruct (need <=? 0); now repeat split.
  - destruct (need <=? 0); [now repeat split|]. destruct (len c <=? need) eqn:Ec; [|now repeat split].
    destruct (tog && is_nil cs) eqn:Et.
    + (* the last chunk, with the final error: the plain reader reports it by one more Read *)
      destruct cs as [|c2 cs]; [|now rewrite andb_false_r in Et]. rewrite andb_true_r in Et. subst tog.
      cbn [read_full_loop]. destruct (need <=? len c) eqn:E2.
      * replace (need - len c <=? 0) with true by lia. cbn [fst snd x_chunks x_final x_tog r_chunks r_final].
        rewrite app_nil_r. repeat split. now intros [H| ->].
      * replace (need - len c <=? 0) with false by lia.
        destruct (got || negb (len c =? 0)), fin; now repeat split.
    + specialize (IH fin tog (need - len c) (got || negb (len c =? 0))). cbv zeta in IH.
      destruct (xread_full_loop cs fin tog (need - len c) (got || negb (len c =? 0))) as [o r].
      destruct (read_full_loop cs fin (need - len c) (got || negb (len c =? 0))) as [o2 r2].
      cbn [fst snd] in *. destruct IH as [-> IH]. split; [reflexivity|exact IH].
Qed.

(* for a stream that ends with io.EOF: outcome and remaining bytes are those of [read_full_flat] on
   the concatenated stream, whatever the chunking, the empty reads and the way the io.EOF is
   delivered *)
Lemma xread_full_loop_flat : forall cs tog need got,
  (fst (xread_full_loop cs EOF tog need got),
   concat (x_chunks (snd (xread_full_loop cs EOF tog need got))),
   x_final (snd (xread_full_loop cs EOF tog need got)))
  = read_full_flat (concat cs) EOF need got
  /\ x_tog (snd (xread_full_loop cs EOF tog need got)) = tog.
Proof.
  intros cs tog need got. destruct (xread_full_loop_plain cs EOF tog need got) as (H1 & H2 & H3 & H4).
  split; [|exact H3]. rewrite H1, H2, (H4 (or_intror eq_refl)). apply read_full_loop_flat.
Qed.

(* an xreader and a plain reader holding the same bytes, both ending with io.EOF *)
Definition xsim (x : xreader) (r : reader) : Prop :=
  concat (x_chunks x) = concat (r_chunks r) /\ x_final x = EOF /\ r_final r = EOF.

Lemma xsim_rf : forall x r n, xsim x r ->
  fst (xread_full x n) = fst (read_full r n) /\
  (forall b, fst (xread_full x n) = RFok b -> xsim (snd (xread_full x n)) (snd (read_full r n))).
Proof.
  intros [cs fin tog] r n [Hc [Hf Hr]]. cbn [x_chunks x_final] in *. subst fin.
  pose proof (read_full_flat_eq r n) as F. unfold flat in F. rewrite Hr, <- Hc in F.
  unfold xread_full. cbn [x_chunks x_final x_tog].
  destruct (xread_full_loop_flat cs tog n false) as [X _]. rewrite <- F in X.
  destruct (xread_full_loop cs EOF tog n false) as [o x']. destruct (read_full r n) as [o2 r2].
  cbn [fst snd] in *. injection X as -> X2 X3. split; [reflexivity|]. intros b _.
  (* the final error of the plain reader stays io.EOF *)
  assert (Hr2 : r_final r2 = EOF).
  { unfold read_full_flat in F. destruct (n <=? 0); [congruence|]. destruct (n <=? len (concat cs)); congruence. }
  split; [assumption|]. split; [|assumption]. congruence.
Qed.

Lemma x_st_sim cs tog r hc bc ru mx : concat cs = concat (r_chunks r) -> r_final r = EOF ->
  st_sim xreader reader xsim (mkD (mkX cs EOF tog) hc bc ru mx) (mkD r hc bc ru mx).
Proof. intros Hc Hr. split; [split; [assumption|split; [reflexivity|assumption]]|]. repeat split. Qed.

(* transfer of a history of the plain decoder (messages, then one more outcome) to any xreader *)
Lemma x_transfer cs tog hc bc ru mx ms last st2 outs2 :
  decode_n (mkD (mkReader cs EOF) hc bc ru mx) (S (length ms)) = (st2, outs2) ->
  map fst outs2 = map DMsg ms ++ [last] ->
  exists st1, gdecode_n xread_full (mkD (mkX cs EOF tog) hc bc ru mx) (S (length ms)) = (st1, outs2).
Proof.
  intros Hd Hm. rewrite decode_n_gdecode_n in Hd.
  exact (gdecode_n_transfer xread_full read_full xsim xsim_rf _ _ ms last st2 outs2
           (x_st_sim cs tog (mkReader cs EOF) hc bc ru mx eq_refl eq_refl) Hd Hm).
Qed.

(* C14 first half for every reader behaviour permitted by the io.Reader contract: any chunking,
   (0, nil) reads (empty chunks), the final io.EOF together with the last bytes ([tog] = true) or
   by a separate read: the messages in order, then io.EOF *)
Theorem decode_encode_stream_any_reader : forall msgs frames cs tog hc bc ru mx,
  max_ok mx ->
  Forall2 (fun m f => encode true m = Ok f) msgs frames ->
  Forall (fun m => len m <= max_stream_segments) msgs ->
  Forall (fun f => len f <= eff_max mx) frames ->
  concat cs = concat frames ->
  exists st' outs,
    gdecode_n xread_full (mkD (mkX cs EOF tog) hc bc ru mx) (S (length msgs)) = (st', outs)
    /\ map fst outs = map DMsg msgs ++ [DEof].
Proof.
  intros msgs frames cs tog hc bc ru mx Hmx He Hn Hl Hcs.
  destruct (decode_encode_stream msgs frames cs hc bc ru mx Hmx He Hn Hl Hcs) as [st2 [outs2 [Hd Hm]]].
  destruct (x_transfer cs tog hc bc ru mx msgs DEof st2 outs2 Hd Hm) as [st1 E].
  now exists st1, outs2.
Qed.

Theorem cut_is_error_any_reader : forall msgs m q tail cs tog hc bc ru mx,
  max_ok mx -> Forall (frame_ok mx) msgs -> frame_ok mx m ->
  frame m = q ++ tail -> q <> [] -> tail <> [] ->
  concat cs = concat (map frame msgs) ++ q ->
  exists st' outs e,
    gdecode_n xread_full (mkD (mkX cs EOF tog) hc bc ru mx) (S (length msgs)) = (st', outs)
    /\ map fst outs = map DMsg msgs ++ [DErr e] /\ (e = EReadHeader \/ e = EReadSegs).
Proof.
  intros msgs m q tail cs tog hc bc ru mx Hmx Hok Hm Hf Hq Ht Hcs.
  destruct (cut_is_error msgs m q tail cs EOF hc bc ru mx Hmx Hok Hm Hf Hq Ht Hcs) as [st2 [outs2 [e [Hd [Hmap He]]]]].
  destruct (x_transfer cs tog hc bc ru mx msgs (DErr e) st2 outs2 Hd Hmap) as [st1 E].
  now exists st1, outs2, e.
Qed.

(* [xread_full_drop] (a ReadFull that tests the error before counting the bytes that came with
   it) on the model: a complete one-frame stream delivered in one Read together with
   io.EOF loses its message; io.ReadFull returns it.  Also non-vacuity of the theorems above. *)
Example readfull_drop_refuted :
  let fr := [0; 0; 0; 0; 1; 0; 0; 0; 1; 2; 3; 4; 5; 6; 7; 8] in
  let st := d_init (mkX [fr] EOF true) 0 in
  snd (fst (gdecode1_gen xread_full_drop true st)) = DErr EReadSegs /\
  snd (fst (gdecode1_gen xread_full_drop true (d_init (mkX [[0; 0; 0; 0; 0; 0; 0; 0]] EOF true) 0))) = DEof /\
  snd (fst (xdecode1 (d_init (mkX [[0; 0; 0; 0; 0; 0; 0; 0]] EOF true) 0))) = DMsg [[]] /\
  map fst (snd (gdecode_n xread_full st 2)) = [DMsg [[1; 2; 3; 4; 5; 6; 7; 8]]; DEof] /\
  map fst (snd (gdecode_n xread_full (d_init (mkX [[0]; []; [0; 0; 0; 1; 0; 0]; [0; 1; 2; 3; 4; 5; 6; 7; 8]] EOF true) 0) 2))
    = [DMsg [[1; 2; 3; 4; 5; 6; 7; 8]]; DEof].
Proof. vm_compute. repeat split; reflexivity. Qed.
