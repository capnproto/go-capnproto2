(* Decode with ReuseBuffer, at the level of buffer contents and of the reused Message object
   (FrameReuse.v), returns exactly what Frame.v's capacities-only decoder returns -- whatever the
   reused buffers contained before and whatever the Message had cached -- and therefore what
   Decode WITHOUT ReuseBuffer returns. *)
From CV Require Import Packed.PackedProofs.
From CV Require Import Frame.Frame.
From CV Require Import Frame.FrameReuse.
From CV Require Import Frame.FrameProofs.
From CV Require Import Frame.FrameSafe.
From CV Require Import Frame.FrameStream.
From CV Require Import Frame.FrameAlloc.
From CV Require Import Frame.FrameThms.
From Coq Require Import ZifyBool ZifyNat.
Open Scope Z_scope.

Lemma len_overwrite b off d : 0 <= off -> off + len d <= len b -> len (overwrite b off d) = len b.
Proof.
  intros H0 H1. pose proof (len_nonneg d). unfold overwrite. rewrite !len_app.
  rewrite len_firstn, len_skipn by lia. lia.
Qed.

Lemma overwrite_0 b d : overwrite b 0 d = d ++ skipn (Z.to_nat (len d)) b.
Proof. unfold overwrite. cbn [Z.to_nat firstn app]. now rewrite Z.add_0_l. Qed.

Lemma nth_set_nth {A} (d : A) : forall n l x, (n < length l)%nat -> nth n (set_nth n l x) d = x.
Proof.
  induction n as [|n IH]; intros l x H; destruct l as [|y l]; cbn [length] in H; try lia; cbn [set_nth nth].
  - reflexivity.
  - apply IH. lia.
Qed.

Lemma set_nth_length {A} : forall n (l : list A) x, length (set_nth n l x) = length l.
Proof.
  induction n as [|n IH]; intros l x; destruct l as [|y l]; cbn [set_nth length]; try reflexivity.
  now rewrite IH.
Qed.

Lemma len_read_rest r need : 0 <= need -> len (read_rest r need) <= need.
Proof. intros H. unfold read_rest, len. rewrite firstn_length. lia. Qed.

Definition slice (A : list Z) (v : view) : list Z :=
  firstn (Z.to_nat (v_len v)) (skipn (Z.to_nat (v_off v)) A).

(* demuxArena as slices of the array [A], whose bytes from [off] on begin with the data [D], agrees
   with demuxArena on [D]: the two loops make the same test, since avail = len D *)
Lemma demux_views_prefix : forall n hb i arr off avail D R A,
  0 <= off -> skipn (Z.to_nat off) A = D ++ R -> len D = avail ->
  match demux_loop n hb i D with
  | Ok segs => exists vs, demux_views n hb i arr off avail = Ok vs /\ map (slice A) vs = segs /\
                          Forall (fun v => v_arr v = arr) vs /\ length vs = n
  | Err e => demux_views n hb i arr off avail = Err e
  | Panic => demux_views n hb i arr off avail = Panic
  end.
Proof.
  induction n as [|n IH]; intros hb i arr off avail D R A Ho HA <-; cbn [demux_loop demux_views].
  - exists []. repeat split. constructor.
  - destruct (segment_size hb (wrap32 i)) as [sz| |] eqn:Es; cbn [bind]; [|reflexivity..].
    pose proof (segment_size_bound _ _ _ Es) as [Hs0 _].
    destruct (len D <? sz) eqn:E1; [reflexivity|].
    assert (Hsz : (Z.to_nat sz - length D = 0)%nat) by (unfold len in E1; lia).
    assert (HA' : skipn (Z.to_nat (off + sz)) A = skipn (Z.to_nat sz) D ++ R).
    { replace (Z.to_nat (off + sz)) with (Z.to_nat sz + Z.to_nat off)%nat by lia.
      now rewrite <- skipn_skipn', HA, skipn_app, Hsz. }
    specialize (IH hb (i + 1) arr (off + sz) (len D - sz) (skipn (Z.to_nat sz) D) R A ltac:(lia) HA'
                   ltac:(apply len_skipn; lia)).
    destruct (demux_loop n hb (i + 1) (skipn (Z.to_nat sz) D)) as [r| |]; cbn [bind]; [|now rewrite IH..].
    destruct IH as (vs & -> & <- & Hf & <-). cbn [bind].
    eexists. split; [reflexivity|]. split; [|split; [now constructor|reflexivity]].
    cbn [map]. f_equal. unfold slice. cbn [v_off v_len]. now rewrite HA, firstn_app, Hsz, app_nil_r.
Qed.

Lemma demux_views_spec : forall n hb i arr off avail A,
  0 <= off -> 0 <= avail ->
  match demux_loop n hb i (firstn (Z.to_nat avail) (skipn (Z.to_nat off) A)) with
  | Ok segs => len (skipn (Z.to_nat off) A) >= avail ->
               exists vs, demux_views n hb i arr off avail = Ok vs /\ map (slice A) vs = segs /\
                          Forall (fun v => v_arr v = arr) vs /\ length vs = n
  | Err e => len (skipn (Z.to_nat off) A) >= avail -> demux_views n hb i arr off avail = Err e
  | Panic => len (skipn (Z.to_nat off) A) >= avail -> demux_views n hb i arr off avail = Panic
  end.
Proof.
  intros n hb i arr off avail A Ho Ha. set (S0 := skipn (Z.to_nat off) A).
  generalize (fun Hl : len S0 >= avail =>
    demux_views_prefix n hb i arr off avail (firstn (Z.to_nat avail) S0) (skipn (Z.to_nat avail) S0) A Ho
      (eq_sym (firstn_skipn _ S0)) (len_firstn S0 avail ltac:(lia))).
  destruct (demux_loop n hb i (firstn (Z.to_nat avail) S0)); trivial.
Qed.

(* every cached segment is the arena's segment with that id *)
Definition cache_ok (m : msgobj) : Prop :=
  (forall v, mo_first m = Some v -> arena_data (mo_arena m) 0 = Some v) /\
  (forall l, mo_segs m = Some l -> forall id v, assoc id l = Some v -> arena_data (mo_arena m) id = Some v).

Lemma cache_ok_fresh a : cache_ok (mkMsg a None None).
Proof. split; cbn [mo_first mo_segs]; intros; discriminate. Qed.

(* setSegment: one more entry, taken from the arena *)
Lemma assoc_cons_ok a id v l : arena_data a id = Some v ->
  (forall id0 v0, assoc id0 l = Some v0 -> arena_data a id0 = Some v0) ->
  forall id0 v0, assoc id0 ((id, v) :: l) = Some v0 -> arena_data a id0 = Some v0.
Proof.
  intros Hd Hl id0 v0. cbn [assoc]. destruct (id =? id0) eqn:E; [|apply Hl].
  intros [= <-]. now replace id0 with id by lia.
Qed.

Lemma msg_segment_ok m id : cache_ok m ->
  snd (msg_segment m id) = (if id >=? arena_nsegs (mo_arena m) then None else arena_data (mo_arena m) id) /\
  mo_arena (fst (msg_segment m id)) = mo_arena m /\ cache_ok (fst (msg_segment m id)).
Proof.
  intros [Hf Hs]. unfold msg_segment.
  destruct (id >=? arena_nsegs (mo_arena m)) eqn:En; [now repeat split|].
  destruct m as [a first segs]. cbn [mo_arena mo_first mo_segs] in *.
  destruct segs as [l|].
  - (* a map exists *)
    destruct (assoc id l) as [v|] eqn:Ea.
    + split; [symmetry; exact (Hs l eq_refl id v Ea)|now repeat split].
    + destruct (arena_data a id) as [v|] eqn:Ed; [|now repeat split].
      split; [reflexivity|]. split; [reflexivity|]. split; [assumption|].
      intros l0 [= <-]. apply assoc_cons_ok; [assumption|exact (Hs l eq_refl)].
  - destruct (id =? 0) eqn:E0.
    + replace id with 0 in * by lia. destruct first as [v|].
      * split; [symmetry; now apply Hf|now repeat split].
      * cbn [assoc]. destruct (arena_data a 0) as [v|] eqn:Ed; [|now repeat split].
        split; [reflexivity|]. split; [reflexivity|]. split; [intros v0 [= <-]; exact Ed|discriminate].
    + (* the map is created, with firstSeg moved into it *)
      destruct (arena_data a id) as [v|] eqn:Ed; [|now repeat split].
      split; [reflexivity|]. split; [reflexivity|]. split; [assumption|].
      intros l0 [= <-]. apply assoc_cons_ok; [assumption|].
      destruct first as [f|]; [|discriminate]. apply assoc_cons_ok; [now apply Hf|discriminate].
Qed.

Fixpoint expect (heap : list (list Z)) (a : arena_v) (n : nat) (id : Z) : list (option (list Z)) :=
  match n with
  | O => []
  | S n' => option_map (deref heap) (arena_data a id) :: expect heap a n' (id + 1)
  end.

Lemma read_segs_ok heap : forall n id m, cache_ok m -> 0 <= id -> id + Z.of_nat n <= arena_nsegs (mo_arena m) ->
  snd (read_segs heap n id m) = expect heap (mo_arena m) n id.
Proof.
  induction n as [|n IH]; intros id m Hc Hi Hn; [reflexivity|]. cbn [read_segs expect].
  destruct (msg_segment_ok m id Hc) as [H1 [H2 H3]].
  destruct (msg_segment m id) as [m1 ov]. cbn [fst snd] in *.
  specialize (IH (id + 1) m1 H3 ltac:(lia) ltac:(rewrite H2; lia)).
  destruct (read_segs heap n (id + 1) m1) as [m2 r]. cbn [snd] in *.
  destruct (id >=? arena_nsegs (mo_arena m)) eqn:E; [lia|]. now rewrite H1, IH, H2.
Qed.

Lemma expect_multi heap : forall post pre,
  expect heap (AMulti (pre ++ post)) (length post) (len pre) = map (fun v => Some (deref heap v)) post.
Proof.
  induction post as [|v post IH]; intros pre; [reflexivity|]. cbn [length expect map].
  pose proof (len_nonneg pre). cbn [arena_data]. destruct (len pre <? 0) eqn:E; [lia|].
  unfold len at 1. rewrite Nat2Z.id, nth_error_app2, Nat.sub_diag by lia. cbn [nth_error option_map]. f_equal.
  replace (pre ++ v :: post) with ((pre ++ [v]) ++ post) by (now rewrite <- app_assoc).
  replace (len pre + 1) with (len (pre ++ [v])) by (rewrite len_app; reflexivity). apply IH.
Qed.

(* reading every segment of a freshly Reset message gives the arena's segments, whatever the
   Message had cached before the Reset *)
Lemma read_all_fresh_multi heap vs :
  snd (read_all heap (mkMsg (AMulti vs) None None)) = map (fun v => Some (deref heap v)) vs.
Proof.
  unfold read_all. cbn [mo_arena arena_nsegs]. unfold len. rewrite Nat2Z.id.
  rewrite read_segs_ok; [|apply cache_ok_fresh|lia|cbn [mo_arena arena_nsegs]; unfold len; lia].
  cbn [mo_arena]. exact (expect_multi heap vs []).
Qed.

Lemma read_all_fresh_single heap v :
  snd (read_all heap (mkMsg (ASingle v) None None)) = [Some (deref heap v)].
Proof. reflexivity. Qed.

Definition out_match (out : dout) (o : uout) (segs_read : list (option (list Z))) : Prop :=
  match out with
  | DMsg segs => o = UMsg /\ segs_read = map Some segs
  | DEof => o = UEof
  | DErr e => o = UErr e
  | DPanic => o = UPanic
  end.

Definition ref_ok (x : ustate * uout) (y : dstate * dout * list alloc) : Prop :=
  u_abs (fst x) = fst (fst y) /\ (u_cur (fst x) < length (u_heap (fst x)))%nat /\
  out_match (snd (fst y)) (snd x) (snd (read_all (u_heap (fst x)) (u_msg (fst x)))).

Lemma deref_slice heap v : deref heap v = slice (nth (v_arr v) heap []) v.
Proof. reflexivity. Qed.

(* a Decode that leaves d.buf alone *)
Lemma ref_ok_keep st r hb o out log :
  (u_cur st < length (u_heap st))%nat -> out_match out o (snd (read_all (u_heap st) (u_msg st))) ->
  ref_ok (with_u st r hb (u_heap st) (u_cur st) (u_msg st), o)
         (mkD r (len hb) (len (u_buf st)) true (u_max st), out, log).
Proof. intros Hc Ho. split; [reflexivity|split; assumption]. Qed.

(* a Decode that has copied [d] to the front of d.buf's array: the capacity stays *)
Lemma ref_ok_store st r hb heap cur d m o out log :
  (cur < length heap)%nat -> len d <= len (nth cur heap []) ->
  out_match out o (snd (read_all (set_nth cur heap (overwrite (nth cur heap []) 0 d)) m)) ->
  ref_ok (with_u st r hb (set_nth cur heap (overwrite (nth cur heap []) 0 d)) cur m, o)
         (mkD r (len hb) (len (nth cur heap [])) true (u_max st), out, log).
Proof.
  intros Hc Hd Ho. pose proof (len_nonneg d).
  unfold ref_ok, u_abs, u_buf, with_u. cbn [fst snd u_rd u_hdrbuf u_heap u_cur u_max u_msg].
  rewrite set_nth_length, nth_set_nth, len_overwrite by (assumption || lia). auto.
Qed.

(* resizeSlice on d.buf: the array d.buf points to afterwards has the capacity [resize] computes *)
Lemma resize_heap heap cur n : (cur < length heap)%nat -> 0 <= n ->
  let hc := if len (nth cur heap []) <? n then (heap ++ [zeros (Z.to_nat n)], length heap) else (heap, cur) in
  (snd hc < length (fst hc))%nat /\
  len (nth (snd hc) (fst hc) []) = fst (resize (len (nth cur heap [])) n) /\
  n <= len (nth (snd hc) (fst hc) []).
Proof.
  intros Hc Hn. unfold resize. destruct (len (nth cur heap []) <? n) eqn:E; cbn [fst snd].
  - rewrite app_length, nth_middle, len_zeros. cbn [length]. lia.
  - lia.
Qed.

Lemma rdecode_body_refines st rd hdrbuf maxSize maxSeg hb log0 :
  (u_cur st < length (u_heap st))%nat ->
  ref_ok (rdecode_body ResetFull st rd hdrbuf maxSize maxSeg hb)
         (decode_body (mkD rd (len hdrbuf) (len (u_buf st)) true (u_max st)) maxSize maxSeg hb log0).
Proof.
  intros Hcur. unfold rdecode_body, decode_body, gdecode_body.
  destruct (total_size hb) as [total| |] eqn:Et; [|now apply ref_ok_keep..].
  pose proof (total_size_nonneg hb total Et) as Ht0.
  destruct ((total >? wrap64 (maxSize - len hb)) || (total >? max_int)); [now apply ref_ok_keep|].
  cbn [d_reuse negb d_bufcap d_rd d_hdrcap d_max].
  (* the array d.buf points to after resizeSlice *)
  generalize (resize_heap (u_heap st) (u_cur st) total Hcur Ht0). cbv zeta. unfold u_buf.
  destruct (if _ <? total then _ else _) as [heap cur], (resize _ total) as [cap' fresh].
  cbn [fst snd d_rd]. intros (Hc & <- & Hfit).
  destruct (read_full rd total) as [[b| |] r'] eqn:Er;
    [|pose proof (len_read_rest rd total Ht0); apply ref_ok_store; (assumption || lia || reflexivity)..].
  destruct (read_full_ok_inv rd total b r' Ht0 Er) as (_ & _ & Hlb & _).
  set (A := overwrite (nth cur heap []) 0 b).
  assert (HA : firstn (Z.to_nat total) A = b)
    by (unfold A; rewrite overwrite_0, <- Hlb; apply firstn_app_len).
  assert (Hnth : nth cur (set_nth cur heap A) [] = A) by now apply nth_set_nth.
  destruct (maxSeg =? 0).
  - (* single segment: the buffer itself *)
    apply ref_ok_store; [assumption|lia|]. split; [reflexivity|].
    cbn [msg_reset]. rewrite read_all_fresh_single, deref_slice. cbn [v_arr]. fold A. rewrite Hnth.
    unfold slice. cbn [v_off v_len Z.to_nat skipn]. now rewrite HA.
  - (* several segments: slices of the buffer *)
    unfold demux_arena. destruct (max_segment hb) as [m| |]; cbn [bind];
      [|apply ref_ok_store; (assumption || lia || reflexivity)..].
    pose proof (demux_views_spec (Z.to_nat (m + 1)) hb 0 cur 0 total A ltac:(lia) Ht0) as Hdv.
    cbn [Z.to_nat skipn] in Hdv. rewrite HA in Hdv.
    assert (HAl : len A >= total) by (unfold A; rewrite len_overwrite; lia).
    destruct (demux_loop (Z.to_nat (m + 1)) hb 0 b) as [segs| |]; specialize (Hdv HAl);
      [destruct Hdv as (vs & -> & <- & Hf & _)|rewrite Hdv..];
      (apply ref_ok_store; [assumption|lia|]); [|reflexivity..].
    split; [reflexivity|]. cbn [msg_reset]. rewrite read_all_fresh_multi, map_map. apply map_ext_in.
    intros v Hv. rewrite Forall_forall in Hf. fold A. now rewrite deref_slice, (Hf v Hv), Hnth.
Qed.

(* copy(d.hdrbuf, d.wordbuf[:]) and the bytes a ReadFull for the rest of the header has written *)
Lemma header_stored_len hb0 w d hdrSize :
  len w = 8 -> len d <= hdrSize - 8 -> hdrSize <= len hb0 ->
  len (overwrite (overwrite hb0 0 w) word_size d) = len hb0.
Proof.
  intros Hw Hd Hl. pose proof (len_nonneg d). unfold word_size.
  rewrite !len_overwrite; rewrite ?len_overwrite; lia.
Qed.

Lemma header_rebuilt hb0 w rest hdrSize :
  len w = 8 -> len rest = hdrSize - 8 -> 16 <= hdrSize -> hdrSize <= len hb0 ->
  let hb2 := overwrite (overwrite hb0 0 w) word_size rest in
  firstn (Z.to_nat hdrSize) hb2 = w ++ rest /\ len hb2 = len hb0.
Proof.
  intros Hw Hr H16 Hl. cbv zeta. split; [|apply (header_stored_len hb0 w rest hdrSize); lia].
  unfold word_size. rewrite overwrite_0. unfold overwrite at 1.
  replace (Z.to_nat 8) with (Z.to_nat (len w)) by (f_equal; lia).
  rewrite firstn_app_len, app_assoc.
  replace (Z.to_nat hdrSize) with (Z.to_nat (len (w ++ rest))) by (rewrite len_app; f_equal; lia).
  apply firstn_app_len.
Qed.

Lemma stream_header_size_16 m : 0 < m < two32 -> 16 <= stream_header_size m.
Proof.
  intros H. destruct (stream_header_size_bounds m ltac:(lia)) as [HB Hmod]. Z.div_mod_to_equations. lia.
Qed.

(* resizeSlice on d.hdrbuf: the array kept, or the zeroed new one, has the capacity [resize] computes *)
Lemma resize_len b n : 0 <= n ->
  len (if len b <? n then zeros (Z.to_nat n) else b) = fst (resize (len b) n) /\ n <= fst (resize (len b) n).
Proof. intros Hn. unfold resize. destruct (len b <? n) eqn:E; cbn [fst]; rewrite ?len_zeros; lia. Qed.

(* One Decode with ReuseBuffer on buffer contents = one Decode of the capacities-only model, for
   ANY previous contents of d.hdrbuf and d.buf and ANY state of the Message's segment cache. *)
Theorem rdecode1_refines st :
  bytes_ok (concat (r_chunks (u_rd st))) -> (u_cur st < length (u_heap st))%nat ->
  ref_ok (rdecode1 st) (decode1 (u_abs st)).
Proof.
  intros Hb Hcur.
  unfold rdecode1, rdecode1_gen, decode1, decode1_gen, gdecode1_gen, u_abs.
  cbn [d_max d_rd d_hdrcap d_bufcap d_reuse].
  destruct (negb (u_max st =? 0) && (u_max st <? word_size)); [now split|].
  destruct (read_full (u_rd st) word_size) as [[w| |] r'] eqn:Er; [|now apply ref_ok_keep..].
  destruct (read_full_bytes_ok (u_rd st) word_size _ r' Hb Er) as [_ Hbw].
  pose proof (le32_get_range w (Hbw w eq_refl)) as Hm.
  destruct (read_full_ok_inv (u_rd st) word_size w r' ltac:(unfold word_size; lia) Er) as (_ & _ & Hlw & _).
  unfold word_size in Hlw. cbn [with_rd d_rd d_hdrcap d_bufcap d_reuse d_max].
  destruct (le32_get w + 1 >? seg_count_limit true); [now apply ref_ok_keep|].
  destruct (le32_get w =? 0) eqn:E0; [now apply rdecode_body_refines|].
  pose proof (stream_header_size_16 (le32_get w) ltac:(lia)) as H16.
  set (hdrSize := stream_header_size (le32_get w)) in *.
  destruct ((hdrSize >? (if u_max st =? 0 then default_decode_limit else u_max st)) || (hdrSize >? max_int));
    [now apply ref_ok_keep|].
  (* d.hdrbuf after resizeSlice *)
  generalize (resize_len (u_hdrbuf st) hdrSize ltac:(lia)).
  generalize (if len (u_hdrbuf st) <? hdrSize then zeros (Z.to_nat hdrSize) else u_hdrbuf st). intros hb0.
  destruct (resize (len (u_hdrbuf st)) hdrSize) as [cap' fresh]. cbn [fst d_rd]. intros [<- Hfit].
  destruct (read_full r' (hdrSize - word_size)) as [[rest| |] r''] eqn:Er2;
    [|pose proof (len_read_rest r' (hdrSize - word_size) ltac:(unfold word_size; lia));
      rewrite <- (header_stored_len hb0 w (read_rest r' (hdrSize - word_size)) hdrSize) by assumption;
      now apply ref_ok_keep..].
  destruct (read_full_ok_inv r' (hdrSize - word_size) rest r'' ltac:(unfold word_size; lia) Er2) as (_ & _ & Hlr & _).
  destruct (header_rebuilt hb0 w rest hdrSize Hlw Hlr H16 Hfit) as [-> <-].
  now apply rdecode_body_refines.
Qed.

Definition ust_ok (st : ustate) : Prop :=
  bytes_ok (concat (r_chunks (u_rd st))) /\ (u_cur st < length (u_heap st))%nat /\ 0 <= u_max st < two64.

(* Every history Decode; read all segments; Decode; ... with ReuseBuffer, from ANY contents of the
   reused buffers (u_hdrbuf, u_heap: stale bytes of earlier frames or anything else) and ANY state
   of the reused Message's segment cache (u_msg), on ANY byte stream: each Decode reports what the
   capacities-only decoder of Frame.v reports, and the segments the caller then reads through
   Message.Segment are exactly the segments of that message. *)
Theorem reuse_history_refines : forall n st, ust_ok st ->
  Forall2 (fun ro d => out_match (fst d) (fst ro) (snd ro))
          (rdecode_read_n ResetFull st n) (snd (decode_n (u_abs st) n)).
Proof.
  induction n as [|n IH]; intros st [Hb [Hcur Hmx]]; [constructor|].
  rewrite decode_n_S. cbn [rdecode_read_n].
  pose proof (rdecode1_refines st Hb Hcur) as [Ha [Hc Ho]]. fold (rdecode1 st).
  destruct (rdecode1 st) as [st1 o] eqn:Er. destruct (decode1 (u_abs st)) as [[a1 out] log] eqn:Ed.
  cbn [fst snd] in *.
  assert (Hok1 : bytes_ok (concat (r_chunks (u_rd st1))) /\ 0 <= u_max st1 < two64).
  { unfold u_abs in Ed.
    destruct (u_rd st) as [cs fin] eqn:Erd.
    destruct (alloc_bound cs fin _ _ true (u_max st) a1 out log Hb Hmx Ed)
      as [_ [_ [_ [_ [B5 B6]]]]].
    rewrite <- Ha in B5, B6. cbn [u_abs d_rd d_max] in B5, B6. rewrite B6. auto. }
  destruct Hok1 as [Hb1 Hmx1].
  destruct out as [segs| |e|]; cbn [out_match] in Ho.
  2-4: subst o; specialize (IH st1 (conj Hb1 (conj Hc Hmx1))); rewrite Ha in IH;
    destruct (decode_n a1 n) as [a2 outs]; constructor; [reflexivity|exact IH].
  destruct Ho as [-> Hread]. destruct (read_all (u_heap st1) (u_msg st1)) as [m' rs] eqn:Era. cbn [snd] in Hread.
  specialize (IH (mkU (u_rd st1) (u_hdrbuf st1) (u_heap st1) (u_cur st1) m' (u_max st1)) (conj Hb1 (conj Hc Hmx1))).
  change (u_abs (mkU (u_rd st1) (u_hdrbuf st1) (u_heap st1) (u_cur st1) m' (u_max st1))) with (u_abs st1) in IH.
  rewrite Ha in IH. destruct (decode_n a1 n) as [a2 outs]. constructor; [split; [reflexivity|exact Hread]|exact IH].
Qed.

Lemma bytes_ok_check l : forallb (fun b => (0 <=? b) && (b <? 256)) l = true -> bytes_ok l.
Proof.
  induction l as [|x l IH]; cbn [forallb]; intros H; [constructor|].
  apply andb_prop in H. destruct H as [H1 H2]. constructor; [unfold byte_ok; lia|now apply IH].
Qed.

(* The two broken Message.Reset variants ([ResetIfArenaDiffers], [ResetKeepsFirst]) on the model: a
   16-byte frame then an 8-byte frame through one decoder with ReuseBuffer, the caller reading the
   segments after each Decode.  With Reset as written the second message is its 8 bytes; with
   either variant the caller still gets the FIRST message's slice (16 bytes: the new 8 bytes
   followed by stale bytes of the first frame).  Also non-vacuity of the theorem above. *)
Example reset_variants_refuted :
  let f1 := frame [[1; 2; 3; 4; 5; 6; 7; 8; 9; 9; 9; 9; 9; 9; 9; 9]] in
  let f2 := frame [[7; 7; 7; 7; 7; 7; 7; 7]] in
  let st := mkU (mkReader [f1 ++ f2] EOF) [5; 5; 5] [[6; 6; 6]] 0 msg0 0 in
  ust_ok st /\
  map snd (rdecode_read_n ResetFull st 3)
    = [[Some [1; 2; 3; 4; 5; 6; 7; 8; 9; 9; 9; 9; 9; 9; 9; 9]]; [Some [7; 7; 7; 7; 7; 7; 7; 7]]; []] /\
  nth 1 (map snd (rdecode_read_n ResetIfArenaDiffers st 3)) [] = [Some [7; 7; 7; 7; 7; 7; 7; 7; 9; 9; 9; 9; 9; 9; 9; 9]] /\
  nth 1 (map snd (rdecode_read_n ResetKeepsFirst st 3)) [] = [Some [7; 7; 7; 7; 7; 7; 7; 7; 9; 9; 9; 9; 9; 9; 9; 9]].
Proof.
  cbv zeta. split.
  - split; [|split; [cbn [u_cur u_heap length]; lia|cbn [u_max]; unfold two64; lia]].
    apply bytes_ok_check. vm_compute. reflexivity.
  - vm_compute. repeat split; reflexivity.
Qed.
