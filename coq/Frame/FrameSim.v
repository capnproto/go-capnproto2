(* Composition of C13 with C14: io.ReadFull over packed.Reader.Read behaves, on ANY packed
   string, exactly like io.ReadFull over the stream of bytes the reader hands out
   (fst (unpack_partial P), ending with io.EOF if P unpacks and with io.ErrUnexpectedEOF
   otherwise); a generic simulation lemma for the Decoder then transfers every result about the
   plain Decoder to NewPackedDecoder. *)
From CV Require Import Packed.PackedProofs.
From CV Require Import Packed.ReaderProofs.
From CV Require Import Packed.ReadCallProofs.
From CV Require Import Packed.ReadCallProofs2.
From CV Require Import Packed.ReadFull.
From CV Require Import Packed.ReadFullProofs.
From CV Require Import Frame.Frame.
From CV Require Import Frame.FramePacked.
From CV Require Import Frame.FrameProofs.
From CV Require Import Frame.FrameSafe.
From CV Require Import Frame.FrameStream.
From Coq Require Import ZifyBool ZifyNat.
Open Scope Z_scope.

(* [pread_full_loop] is the ReadFull loop of Packed/ReadFull.v over Reader.Read, with the
   result packaged for the Decoder *)
Lemma pread_full_loop_eq : forall fuel orc k b inp need got k' b' inp' g oe, (0 < need)%nat ->
  readfull_loop (read_rd true orc) fuel k b inp need got = Some (k', b', inp', g, oe) ->
  pread_full_loop fuel orc k b inp need got =
  (match oe with None => RFok g | Some EOF => RFeof | Some UnexpectedEOF => RFerr end,
   mkP orc k' b' inp' false).
Proof.
  induction fuel as [|fuel IH]; intros orc k b inp need got k' b' inp' g oe Hn; [discriminate|].
  destruct need as [|need']; [lia|]. cbn [readfull_loop pread_full_loop].
  change (read_rd true orc k b inp (S need')) with (read_call true orc k b inp (S need')).
  destruct (read_call true orc k b inp (S need')) as [[[[k1 b1] inp1] g1] oe1].
  destruct (S need' <=? length g1)%nat eqn:Ef; [now intros [= <- <- <- <- <-]|].
  destruct oe1 as [e|].
  - intros [= <- <- <- <- <-]. destruct (got || negb (length g1 =? 0)%nat), e; reflexivity.
  - destruct (readfull_loop (read_rd true orc) fuel k1 b1 inp1 (S need' - length g1)
                            (got || negb (length g1 =? 0)%nat)) as [[[[[k2 b2] inp2] r] oe2]|] eqn:Er;
      [|discriminate].
    intros [= <- <- <- <- <-]. rewrite (IH orc k1 b1 inp1 (S need' - length g1)%nat _ _ _ _ _ _ ltac:(lia) Er).
    destruct oe2 as [[|]|]; reflexivity.
Qed.

(* the reader will still hand out [s] and then end cleanly ([ok]) or with ErrUnexpectedEOF *)
Definition pvalidP (p : preader) (s : list Z) (ok : bool) : Prop :=
  p_stuck p = false /\ bvalid (p_b p) /\ bytes_ok (p_inp p) /\ DP (p_b p) (p_inp p) = (s, ok).

Lemma pread_full_loop_specP fuel orc k b inp need got s ok :
  bvalid b -> bytes_ok inp -> DP b inp = (s, ok) -> (need < fuel)%nat ->
  if (need <=? length s)%nat
  then fst (pread_full_loop fuel orc k b inp need got) = RFok (firstn need s) /\
       pvalidP (snd (pread_full_loop fuel orc k b inp need got)) (skipn need s) ok
  else fst (pread_full_loop fuel orc k b inp need got)
       = (if got || (0 <? length s)%nat then RFerr else if ok then RFeof else RFerr).
Proof.
  intros Hv Hb HD Hf. destruct need as [|need'].
  { destruct fuel; [lia|]. cbn [pread_full_loop fst snd Nat.leb firstn skipn].
    split; [reflexivity|]. unfold pvalidP; cbn [p_stuck p_b p_inp]. auto. }
  destruct (readfull_loop_spec fuel orc k b inp (S need') got s ok Hv Hb HD ltac:(lia))
    as (k' & b' & inp' & Hr).
  destruct (S need' <=? length s)%nat.
  - destruct Hr as (Hr & Hv' & Hb' & HD' & _).
    rewrite (pread_full_loop_eq _ _ _ _ _ (S need') _ _ _ _ _ _ (Nat.lt_0_succ _) Hr). cbn [fst snd].
    split; [reflexivity|]. unfold pvalidP; cbn [p_stuck p_b p_inp]. auto.
  - rewrite (pread_full_loop_eq _ _ _ _ _ (S need') _ _ _ _ _ _ (Nat.lt_0_succ _) Hr). cbn [fst].
    destruct ok, got, s; reflexivity.
Qed.

(* packed.Reader next to a plain reader that holds what it will hand out and ends the same way *)
Definition psimP (ok : bool) (p : preader) (r : reader) : Prop :=
  pvalidP p (concat (r_chunks r)) ok /\ r_final r = verdict ok.

Lemma psimP_rf ok : forall p r n, psimP ok p r ->
  fst (pread_full p n) = fst (read_full r n) /\
  (forall b, fst (pread_full p n) = RFok b -> psimP ok (snd (pread_full p n)) (snd (read_full r n))).
Proof.
  intros p r n [[Hst [Hv [Hb HD]]] Hf]. unfold pread_full. rewrite Hst.
  pose proof (pread_full_loop_specP (S (Z.to_nat n)) (p_orc p) (p_k p) (p_b p) (p_inp p) (Z.to_nat n) false
                _ ok Hv Hb HD ltac:(lia)) as S3.
  destruct (pread_full_loop (S (Z.to_nat n)) (p_orc p) (p_k p) (p_b p) (p_inp p) (Z.to_nat n) false) as [o p'].
  destruct (read_full r n) as [o2 r2] eqn:Er. cbn [fst snd] in *.
  apply read_full_inv in Er as [(Hl & -> & Hc & Hf2)|(Hl & Hc & Hf2 & ->)].
  - replace (Z.to_nat n <=? length (concat (r_chunks r)))%nat with true in S3 by (unfold len in *; lia).
    destruct S3 as [-> Hp]. split; [reflexivity|]. intros _ _. unfold psimP. now rewrite Hc, Hf2.
  - replace (Z.to_nat n <=? length (concat (r_chunks r)))%nat with false in S3 by (unfold len in *; lia).
    rewrite S3, Hf. cbn [orb].
    replace (0 <? length (concat (r_chunks r)))%nat with (0 <? len (concat (r_chunks r))) by (unfold len; lia).
    split; [|intros b]; destruct (0 <? len (concat (r_chunks r))), ok; (reflexivity || discriminate).
Qed.

(* the case of a packed string that unpacks: the plain reader ends with io.EOF *)
Definition psim : preader -> reader -> Prop := psimP true.

Section Sim.
  Variables R1 R2 : Type.
  Variable rf1 : R1 -> Z -> rf_out * R1.
  Variable rf2 : R2 -> Z -> rf_out * R2.
  Variable sim : R1 -> R2 -> Prop.
  (* the two ReadFull implementations agree on related readers; the readers stay related as
     long as the reads succeed *)
  Hypothesis Hrf : forall r1 r2 n, sim r1 r2 ->
    fst (rf1 r1 n) = fst (rf2 r2 n) /\
    (forall b, fst (rf1 r1 n) = RFok b -> sim (snd (rf1 r1 n)) (snd (rf2 r2 n))).

  Definition caps_eq (s1 : gstate R1) (s2 : gstate R2) : Prop :=
    d_hdrcap s1 = d_hdrcap s2 /\ d_bufcap s1 = d_bufcap s2 /\ d_reuse s1 = d_reuse s2 /\ d_max s1 = d_max s2.
  Definition st_sim (s1 : gstate R1) (s2 : gstate R2) : Prop :=
    sim (d_rd s1) (d_rd s2) /\ caps_eq s1 s2.

  (* same outcome, same allocation log, same buffer state; after a message the readers are
     still related *)
  Definition res_sim (x1 : gstate R1 * dout * list alloc) (x2 : gstate R2 * dout * list alloc) : Prop :=
    snd (fst x1) = snd (fst x2) /\ snd x1 = snd x2 /\ caps_eq (fst (fst x1)) (fst (fst x2)) /\
    (forall m, snd (fst x1) = DMsg m -> sim (d_rd (fst (fst x1))) (d_rd (fst (fst x2)))).

  (* one read by both implementations: the common outcome [o], the new readers, and [Hn]: they
     are still related if [o] is RFok *)
  Tactic Notation "rd" constr(r1) constr(r2) constr(n) constr(Hs) ident(o) ident(r1') ident(r2') ident(Hn) :=
    let Ho := fresh "Ho" in let o2 := fresh "o2" in
    destruct (Hrf r1 r2 n Hs) as [Ho Hn];
    destruct (rf1 r1 n) as [o r1']; destruct (rf2 r2 n) as [o2 r2'];
    cbn [fst snd] in Ho, Hn; subst o2.

  (* both decoders stop here with the same error and unchanged capacities *)
  Ltac fin_err := unfold res_sim, caps_eq, with_rd; cbn [fst snd d_rd d_hdrcap d_bufcap d_reuse d_max];
                  repeat split; intros ? [=].

  Lemma gdecode_body_sim s1 s2 maxSize maxSeg hb log : st_sim s1 s2 ->
    res_sim (gdecode_body rf1 s1 maxSize maxSeg hb log) (gdecode_body rf2 s2 maxSize maxSeg hb log).
  Proof.
    destruct s1 as [r1 hc1 bc1 ru1 mx1], s2 as [r2 hc2 bc2 ru2 mx2].
    intros [Hs [E1 [E2 [E3 E4]]]]. cbn [d_rd d_hdrcap d_bufcap d_reuse d_max] in *. subst.
    rewrite !gdecode_body_eq. cbn [d_rd d_hdrcap d_bufcap d_reuse d_max].
    destruct (total_size hb) as [total| |]; [|fin_err|fin_err].
    destruct ((total >? wrap64 (maxSize - len hb)) || (total >? max_int)); [fin_err|]. cbv zeta.
    rd r1 r2 total Hs o r1' r2' Hn. destruct o as [buf| |]; [|fin_err|fin_err].
    specialize (Hn buf eq_refl).
    destruct (ru2 && (maxSeg =? 0)); [|destruct (demux_arena hb buf); [|fin_err|fin_err]];
      unfold res_sim, caps_eq; cbn [fst snd d_rd d_hdrcap d_bufcap d_reuse d_max];
      repeat split; intros; assumption.
  Qed.

  Lemma gdecode1_sim fixed s1 s2 : st_sim s1 s2 ->
    res_sim (gdecode1_gen rf1 fixed s1) (gdecode1_gen rf2 fixed s2).
  Proof.
    destruct s1 as [r1 hc1 bc1 ru1 mx1], s2 as [r2 hc2 bc2 ru2 mx2].
    intros [Hs [E1 [E2 [E3 E4]]]]. cbn [d_rd d_hdrcap d_bufcap d_reuse d_max] in *. subst.
    rewrite !gdecode1_gen_eq. cbn [d_rd d_hdrcap d_bufcap d_reuse d_max].
    destruct (negb (mx2 =? 0) && (mx2 <? word_size)); [fin_err|].
    rd r1 r2 word_size Hs o r1' r2' Hn. destruct o as [w| |]; [|fin_err|fin_err].
    specialize (Hn w eq_refl). cbv zeta.
    destruct (le32_get w + 1 >? seg_count_limit fixed); [fin_err|].
    destruct (negb (le32_get w =? 0) && _); [fin_err|].
    assert (Hbody : forall r1'' r2'' hc rest l, sim r1'' r2'' ->
              res_sim (gdecode_body rf1 (mkD r1'' hc bc2 ru2 mx2) (eff_max mx2) (le32_get w) (w ++ rest) l)
                      (gdecode_body rf2 (mkD r2'' hc bc2 ru2 mx2) (eff_max mx2) (le32_get w) (w ++ rest) l))
      by (intros; apply gdecode_body_sim; split; [assumption|repeat split]).
    destruct (negb (le32_get w =? 0)); cbn [andb]; [|now apply Hbody].
    rd r1' r2' (stream_header_size (le32_get w) - word_size) Hn o r1'' r2'' Hn2.
    destruct o as [rest| |]; [|fin_err|fin_err]. apply Hbody. exact (Hn2 rest eq_refl).
  Qed.

  (* n Decode calls: as long as messages come out, the two decoders return the same messages
     with the same allocation logs; the first outcome that is not a message is the same too *)
  Fixpoint all_msgs (outs : list (dout * list alloc)) : bool :=
    match outs with
    | [] => true
    | (DMsg _, _) :: r => all_msgs r
    | _ => false
    end.

  Lemma gdecode_n_sim : forall n s1 s2, st_sim s1 s2 ->
    let x1 := gdecode_n rf1 s1 n in
    let x2 := gdecode_n rf2 s2 n in
    (all_msgs (snd x2) = true -> snd x1 = snd x2 /\ st_sim (fst x1) (fst x2)) /\
    (forall k, (k < n)%nat -> all_msgs (firstn k (snd x2)) = true ->
               firstn (S k) (snd x1) = firstn (S k) (snd x2)).
  Proof.
    induction n as [|n IH]; intros s1 s2 Hs; cbn zeta.
    - cbn [gdecode_n fst snd]. split; [auto|]. intros k Hk. lia.
    - cbn [gdecode_n].
      pose proof (gdecode1_sim true s1 s2 Hs) as [Ho [Hl [Hc Hm]]].
      destruct (gdecode1_gen rf1 true s1) as [[t1 o1] l1].
      destruct (gdecode1_gen rf2 true s2) as [[t2 o2] l2]. cbn [fst snd] in *. subst o2 l2.
      destruct o1 as [m| | |].
      2-4: (* not a message: the outcomes were equal up to here, and nothing is claimed beyond *)
        destruct (gdecode_n rf1 t1 n) as [u1 outs1]; destruct (gdecode_n rf2 t2 n) as [u2 outs2];
        cbn [fst snd all_msgs]; (split; [discriminate|]);
        intros [|k] Hk Ha; [reflexivity|discriminate Ha].
      specialize (IH t1 t2 (conj (Hm m eq_refl) Hc)). cbn zeta in IH.
      destruct (gdecode_n rf1 t1 n) as [u1 outs1]. destruct (gdecode_n rf2 t2 n) as [u2 outs2].
      cbn [fst snd all_msgs] in *. destruct IH as [IH1 IH2]. split.
      * intros Ha. destruct (IH1 Ha) as [-> Hst]. split; [reflexivity|assumption].
      * intros k Hk Ha. destruct k as [|k]; [reflexivity|]. cbn [firstn all_msgs] in *.
        f_equal. apply IH2; [lia|assumption].
  Qed.
End Sim.
