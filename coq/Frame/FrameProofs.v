(* Header arithmetic; the segment table written by Marshal/Encode is read back by
   segmentSize/totalSize/demuxArena; Unmarshal (Marshal x) = x. *)
From CV Require Import Packed.PackedProofs.
From CV Require Import Frame.Frame.
From Coq Require Import ZifyBool ZifyNat.
Open Scope Z_scope.

Lemma len_nonneg {A} (l : list A) : 0 <= len l.
Proof. unfold len. lia. Qed.

Lemma len_app {A} (a b : list A) : len (a ++ b) = len a + len b.
Proof. unfold len. rewrite app_length. lia. Qed.

Lemma len_nil {A} : len (@nil A) = 0.
Proof. reflexivity. Qed.

Lemma len_cons {A} (x : A) l : len (x :: l) = 1 + len l.
Proof. unfold len. simpl length. lia. Qed.

Lemma len_firstn {A} (l : list A) n : 0 <= n <= len l -> len (firstn (Z.to_nat n) l) = n.
Proof. unfold len. intros. rewrite firstn_length. lia. Qed.

Lemma len_skipn {A} (l : list A) n : 0 <= n <= len l -> len (skipn (Z.to_nat n) l) = len l - n.
Proof. unfold len. intros. rewrite skipn_length. lia. Qed.

Lemma len_zeros n : len (zeros n) = Z.of_nat n.
Proof. unfold len, zeros. now rewrite repeat_length. Qed.

Lemma firstn_app_len {A} (a b : list A) : firstn (Z.to_nat (len a)) (a ++ b) = a.
Proof.
  unfold len. rewrite Nat2Z.id. rewrite firstn_app, Nat.sub_diag, firstn_all. simpl. apply app_nil_r.
Qed.

Lemma skipn_app_len {A} (a b : list A) : skipn (Z.to_nat (len a)) (a ++ b) = b.
Proof.
  unfold len. rewrite Nat2Z.id. rewrite skipn_app, Nat.sub_diag, skipn_all. reflexivity.
Qed.

Lemma stream_header_size_eq m : 0 <= m < two32 ->
  stream_header_size m = 8 * ((4 * m + 15) / 8).
Proof.
  intros H. unfold stream_header_size, wrap64, two32, two64 in *.
  rewrite (Z.mod_small ((m + 2) * 4)) by lia.
  rewrite (Z.mod_small ((m + 2) * 4 + 7)) by lia.
  lia.
Qed.

Lemma stream_header_size_bounds m : 0 <= m < two32 ->
  4 * (m + 2) <= stream_header_size m <= 4 * (m + 2) + 4 /\ stream_header_size m mod 8 = 0.
Proof. intros H. rewrite stream_header_size_eq by assumption. unfold two32 in *. lia. Qed.

Lemma wrap32_small z : 0 <= z < two32 -> wrap32 z = z.
Proof. intros. unfold wrap32. now apply Z.mod_small. Qed.

Lemma wrap64_small z : 0 <= z < two64 -> wrap64 z = z.
Proof. intros. unfold wrap64. now apply Z.mod_small. Qed.

Lemma wrap32_le z : 0 <= z -> 0 <= wrap32 z <= z.
Proof. intros. unfold wrap32, two32. lia. Qed.

Lemma seg_index_small i : 0 <= i -> 4 + 4 * i < two32 -> seg_index i = 4 + 4 * i.
Proof.
  intros. unfold seg_index, two32 in *. rewrite (wrap32_small (i * 4)) by (unfold two32; lia).
  rewrite wrap32_small by (unfold two32; lia). lia.
Qed.

Lemma seg_index_le i : 0 <= i -> 0 <= seg_index i <= 4 + 4 * i.
Proof.
  intros. unfold seg_index.
  pose proof (wrap32_le (i * 4) ltac:(lia)).
  pose proof (wrap32_le (4 + wrap32 (i * 4)) ltac:(lia)). lia.
Qed.

(* the index computed in uint32 wraps: segment 2^30-1 is read from offset 0 (the count word) *)
Example seg_index_wraps : seg_index (1073741823) = 0.
Proof. vm_compute. reflexivity. Qed.

Lemma word_times_bound n x : word_times n = Some x -> 0 <= x <= max_segment_size /\ x = 8 * n.
Proof.
  unfold word_times, word_size, max_segment_size, two32. intros H.
  destruct ((8 * n >? 4294967296 - 8) || (8 * n <? 0)) eqn:E; [discriminate|].
  assert (Hx : x = 8 * n) by congruence. lia.
Qed.

(* all that segmentSize can do: a whole number of words within maxSegmentSize, the overflow
   error, or a panic when the table is shorter than the entry asked for *)
Lemma segment_size_inv hb i :
  match segment_size hb i with
  | Ok x => 0 <= x <= max_segment_size /\ x mod 8 = 0
  | Err e => e = ESegOverflow
  | Panic => len hb < seg_index i + 4
  end.
Proof.
  unfold segment_size, uint32_at. destruct (seg_index i + 4 <=? len hb) eqn:E; cbn [bind]; [|lia].
  destruct (word_times _) eqn:Ew; [|reflexivity]. apply word_times_bound in Ew. lia.
Qed.

Lemma segment_size_bound hb i x : segment_size hb i = Ok x -> 0 <= x <= max_segment_size.
Proof. intros E. pose proof (segment_size_inv hb i) as H. rewrite E in H. apply H. Qed.

Lemma le32_length v : length (le32 v) = 4%nat.
Proof. reflexivity. Qed.

Lemma le32_bytes_ok v : bytes_ok (le32 v).
Proof. unfold le32, bytes_ok, byte_ok. repeat constructor; lia. Qed.

Lemma le32_get_le32 v r : 0 <= v < two32 -> le32_get (le32 v ++ r) = v.
Proof. unfold le32_get, le32, two32. cbn [nth app]. lia. Qed.

Lemma le32_get_range b : bytes_ok b -> 0 <= le32_get b < two32.
Proof.
  intros Hb. unfold le32_get, two32.
  assert (H : forall k, 0 <= nth k b 0 < 256).
  { intros k. destruct (Nat.lt_ge_cases k (length b)) as [Hk|Hk].
    - unfold bytes_ok in Hb. rewrite Forall_forall in Hb. apply Hb. now apply nth_In.
    - rewrite nth_overflow by assumption. lia. }
  pose proof (H 0%nat). pose proof (H 1%nat). pose proof (H 2%nat). pose proof (H 3%nat). lia.
Qed.

Lemma le32_get_app4 a b : (4 <= length a)%nat -> le32_get (a ++ b) = le32_get a.
Proof.
  intros H. unfold le32_get. now rewrite !app_nth1 by lia.
Qed.

Lemma le32_zero : le32 0 = zeros 4.
Proof. reflexivity. Qed.

Definition size_word (s : list Z) : Z := wrap32 (len s / word_size).
Definition table (segs : list (list Z)) : list Z := flat_map (fun s => le32 (size_word s)) segs.

Lemma header_words_eq segs : header_words segs = le32 (wrap32 (len segs - 1)) ++ table segs.
Proof. reflexivity. Qed.

Lemma table_length segs : length (table segs) = (4 * length segs)%nat.
Proof. unfold table. induction segs as [|s r IH]; [reflexivity|]. cbn [flat_map length]. rewrite app_length, IH, le32_length. lia. Qed.

Lemma header_words_len segs : len (header_words segs) = 4 + 4 * len segs.
Proof. unfold len. rewrite header_words_eq, app_length, table_length, le32_length. lia. Qed.

Lemma table_app a b : table (a ++ b) = table a ++ table b.
Proof. unfold table. now rewrite flat_map_app. Qed.

(* reading entry i of a table: the bytes at offset 4+4i of [count ++ table segs ++ rest] *)
Lemma uint32_at_table c pre s post rest :
  length c = 4%nat ->
  uint32_at (c ++ table (pre ++ s :: post) ++ rest) (4 + 4 * len pre) = Ok (size_word s).
Proof.
  intros Hc. unfold uint32_at.
  assert (Hlen : 4 + 4 * len pre + 4 <= len (c ++ table (pre ++ s :: post) ++ rest)).
  { rewrite !len_app. unfold len at 2 3. rewrite table_length, app_length, Hc. simpl length.
    pose proof (len_nonneg rest). unfold len. lia. }
  destruct (4 + 4 * len pre + 4 <=? _) eqn:E; [|lia]. f_equal.
  replace (Z.to_nat (4 + 4 * len pre)) with (length (c ++ table pre)).
  2:{ rewrite app_length, table_length, Hc. unfold len. lia. }
  rewrite table_app, <- app_assoc. rewrite (app_assoc c).
  rewrite skipn_app, Nat.sub_diag, skipn_all. cbn [app skipn table flat_map].
  rewrite <- !app_assoc. apply le32_get_le32.
  unfold size_word. unfold wrap32, two32. lia.
Qed.

(* a segment the encoders accept: whole words, at most maxSegmentSize *)
Definition seg_ok (s : list Z) : Prop := len s mod 8 = 0 /\ len s <= max_segment_size.
Definition segs_ok (segs : list (list Z)) : Prop := Forall seg_ok segs.

Lemma size_word_ok s : seg_ok s -> word_times (to_int32 (size_word s)) = Some (len s).
Proof.
  intros [Ha Hb]. pose proof (len_nonneg s).
  unfold size_word, word_size, max_segment_size, two32 in *.
  rewrite wrap32_small by (unfold two32; lia).
  unfold to_int32, two31. destruct (len s / 8 <? 2147483648) eqn:E; [|lia].
  unfold word_times, word_size, max_segment_size, two32.
  destruct ((8 * (len s / 8) >? 4294967296 - 8) || (8 * (len s / 8) <? 0)) eqn:E2; [lia|].
  f_equal. lia.
Qed.

Lemma segment_size_table c pre s post rest :
  length c = 4%nat -> seg_ok s -> 4 + 4 * len pre < two32 ->
  segment_size (c ++ table (pre ++ s :: post) ++ rest) (len pre) = Ok (len s).
Proof.
  intros Hc Hs Hi. unfold segment_size.
  rewrite seg_index_small by (pose proof (len_nonneg pre); lia).
  rewrite uint32_at_table by assumption. cbn [bind]. now rewrite size_word_ok.
Qed.

Fixpoint sum_len (segs : list (list Z)) : Z :=
  match segs with [] => 0 | s :: r => len s + sum_len r end.

Lemma sum_len_nonneg segs : 0 <= sum_len segs.
Proof. induction segs as [|s r IH]; cbn [sum_len]; [lia|]. pose proof (len_nonneg s). lia. Qed.

Lemma sum_len_concat segs : len (concat segs) = sum_len segs.
Proof. induction segs as [|s r IH]; [reflexivity|]. cbn [concat sum_len]. rewrite len_app. lia. Qed.

Lemma sum_len_app a b : sum_len (a ++ b) = sum_len a + sum_len b.
Proof. induction a as [|s r IH]; cbn [app sum_len]; lia. Qed.

Lemma sum_len_bound segs n : segs_ok segs -> len segs <= n -> sum_len segs <= n * max_segment_size.
Proof.
  intros Hs Hn. apply Z.le_trans with (len segs * max_segment_size).
  - clear Hn. induction Hs as [|s r [_ Hs] _ IH]; [reflexivity|]. cbn [sum_len]. rewrite len_cons, Z.mul_add_distr_r. lia.
  - apply Z.mul_le_mono_nonneg_r; [now vm_compute|exact Hn].
Qed.

(* totalSize and demuxArena walk the table written for [post] entry by entry: the sizes read are
   the lengths of the segments, so the sum is their total and the data is cut back into them *)
Lemma loops_table c rest : length c = 4%nat ->
  forall post pre, segs_ok post -> 4 * (len pre + len post) < two32 ->
  let hb := c ++ table (pre ++ post) ++ rest in
  (forall sum, 0 <= sum -> sum + sum_len post < two64 ->
     total_size_loop (length post) hb (len pre) sum = Ok (sum + sum_len post)) /\
  (forall junk, demux_loop (length post) hb (len pre) (concat post ++ junk) = Ok post).
Proof.
  intros Hc. induction post as [|s post IH]; intros pre Hok Hn hb.
  - split; [intros sum _ _|reflexivity]. cbn [total_size_loop sum_len length]. f_equal. lia.
  - inversion Hok as [|? ? Hs1 Hok1]; subst. rewrite len_cons in Hn.
    pose proof (len_nonneg pre). pose proof (len_nonneg post). pose proof (len_nonneg s).
    assert (Hsz : segment_size hb (wrap32 (len pre)) = Ok (len s)).
    { rewrite wrap32_small by (unfold two32 in *; lia).
      apply segment_size_table; try assumption. unfold two32 in *. lia. }
    destruct (IH (pre ++ [s]) Hok1) as [IHt IHd].
    { rewrite len_app. change (len [s]) with 1. lia. }
    rewrite <- app_assoc, len_app in IHt, IHd. change (len [s]) with 1 in IHt, IHd. cbn [app] in IHt, IHd. fold hb in IHt, IHd.
    split; [intros sum Hs Hb|intros junk]; cbn [length total_size_loop demux_loop sum_len concat] in *;
      rewrite Hsz; cbn [bind].
    + pose proof (sum_len_nonneg post). rewrite wrap64_small, IHt by lia. f_equal. lia.
    + rewrite <- app_assoc, firstn_app_len, skipn_app_len, IHd.
      destruct (len (s ++ concat post ++ junk) <? len s) eqn:E; [|reflexivity].
      rewrite len_app in E. pose proof (len_nonneg (concat post ++ junk)). lia.
Qed.

(* the bytes of one framed message *)
Definition frame_header (segs : list (list Z)) : list Z :=
  pad_to (stream_header_size (len segs - 1)) (header_words segs).
Definition frame (segs : list (list Z)) : list Z := frame_header segs ++ concat segs.

Definition count_ok (segs : list (list Z)) : Prop := 1 <= len segs <= 1073741823.
(* 2^30 - 1: then 4 + 4 * i < 2^32 for every table index i, so [seg_index] does not wrap
   (it does at 2^30 - 1: [seg_index_wraps]) *)

Lemma frame_header_len segs : 1 <= len segs < two32 ->
  len (frame_header segs) = stream_header_size (len segs - 1).
Proof.
  intros H. unfold frame_header, pad_to. rewrite len_app, len_zeros, header_words_len.
  pose proof (stream_header_size_bounds (len segs - 1) ltac:(lia)). lia.
Qed.

Lemma frame_nonempty segs : 1 <= len segs < two32 -> 8 <= len (frame_header segs).
Proof.
  intros H. rewrite frame_header_len by assumption.
  pose proof (stream_header_size_bounds (len segs - 1) ltac:(lia)). lia.
Qed.

Lemma frame_header_eq segs : 1 <= len segs < two32 ->
  frame_header segs = le32 (len segs - 1) ++ table segs ++
                      zeros (Z.to_nat (stream_header_size (len segs - 1) - (4 + 4 * len segs))).
Proof.
  intros H. unfold frame_header, pad_to. rewrite header_words_len, header_words_eq.
  rewrite wrap32_small by lia. now rewrite <- app_assoc.
Qed.

Lemma frame_len segs : 1 <= len segs < two32 ->
  len (frame segs) = stream_header_size (len segs - 1) + sum_len segs.
Proof. intros. unfold frame. rewrite len_app, frame_header_len, sum_len_concat; lia. Qed.

Lemma max_segment_frame_header segs rest : 1 <= len segs < two32 ->
  le32_get (frame_header segs ++ rest) = len segs - 1.
Proof.
  intros H. rewrite frame_header_eq by assumption. rewrite <- !app_assoc.
  apply le32_get_le32. lia.
Qed.

(* a frame header seen by the two loops: the count word, then the table of exactly its segments *)
Lemma frame_header_loops segs : count_ok segs -> segs_ok segs ->
  max_segment (frame_header segs) = Ok (len segs - 1) /\ Z.to_nat (len segs - 1 + 1) = length segs /\
  total_size_loop (length segs) (frame_header segs) 0 0 = Ok (sum_len segs) /\
  forall junk, demux_loop (length segs) (frame_header segs) 0 (concat segs ++ junk) = Ok segs.
Proof.
  intros Hc Hok. unfold count_ok in Hc.
  assert (H32 : 1 <= len segs < two32) by (unfold two32; lia).
  pose proof (frame_nonempty segs H32) as H8.
  split; [|split; [unfold len; lia|]].
  - unfold max_segment, uint32_at. destruct (0 + 4 <=? len (frame_header segs)) eqn:E; [|lia].
    cbn [Z.to_nat skipn]. rewrite <- (app_nil_r (frame_header segs)). now rewrite max_segment_frame_header.
  - rewrite frame_header_eq by assumption.
    destruct (loops_table (le32 (len segs - 1)) (zeros (Z.to_nat (stream_header_size (len segs - 1) - (4 + 4 * len segs))))
                eq_refl segs [] Hok ltac:(change (len (@nil (list Z))) with 0; unfold two32; lia)) as [Ht Hd].
    split; [|exact Hd]. pose proof (sum_len_bound segs _ Hok (proj2 Hc)).
    apply (Ht 0); unfold max_segment_size, two32, two64 in *; lia.
Qed.

Lemma total_size_frame_header segs : count_ok segs -> segs_ok segs ->
  total_size (frame_header segs) = Ok (sum_len segs).
Proof.
  intros Hc Hok. destruct (frame_header_loops segs Hc Hok) as (Hm & Hn & Ht & _).
  unfold total_size. rewrite Hm. cbn [bind]. now rewrite Hn.
Qed.

Lemma demux_arena_frame_header segs junk : count_ok segs -> segs_ok segs ->
  demux_arena (frame_header segs) (concat segs ++ junk) = Ok segs.
Proof.
  intros Hc Hok. destruct (frame_header_loops segs Hc Hok) as (Hm & Hn & _ & Hd).
  unfold demux_arena. rewrite Hm. cbn [bind]. rewrite Hn. apply Hd.
Qed.

Lemma marshal_sizes_ok : forall segs d, segs_ok segs -> 0 <= d -> d + sum_len segs <= max_int ->
  marshal_sizes segs d = Ok (d + sum_len segs).
Proof.
  induction segs as [|s r IH]; intros d Hok Hd Hb; cbn [marshal_sizes sum_len] in *.
  - f_equal. lia.
  - inversion Hok as [|? ? [Ha Hs] Hr]; subst.
    pose proof (len_nonneg s). pose proof (sum_len_nonneg r).
    unfold word_size. destruct (negb (len s mod 8 =? 0)) eqn:E1; [lia|].
    destruct (len s >? max_segment_size) eqn:E2; [lia|].
    rewrite wrap64_small by (unfold max_int, two64 in *; lia).
    destruct (d + len s >? max_int) eqn:E3; [lia|].
    rewrite IH by (try assumption; lia). f_equal. lia.
Qed.

Lemma marshal_frame segs : count_ok segs -> segs_ok segs -> marshal segs = Ok (frame segs).
Proof.
  intros Hc Hok. unfold count_ok in Hc. unfold marshal.
  destruct (len segs =? 0) eqn:E0; [lia|].
  rewrite wrap32_small by (unfold two32; lia).
  pose proof (stream_header_size_bounds (len segs - 1) ltac:(unfold two32; lia)) as HB.
  destruct (stream_header_size (len segs - 1) >? max_int) eqn:E1; [unfold max_int in *; lia|].
  pose proof (sum_len_bound segs _ Hok (proj2 Hc)). pose proof (sum_len_nonneg segs).
  rewrite marshal_sizes_ok by (try assumption; unfold max_int, max_segment_size, two32 in *; lia).
  cbn [bind]. rewrite wrap64_small by (unfold two64, max_segment_size, two32 in *; lia).
  destruct (stream_header_size (len segs - 1) + (0 + sum_len segs) >? max_int) eqn:E2;
    [unfold max_int, max_segment_size, two32 in *; lia|].
  reflexivity.
Qed.

Lemma encode_sizes_ok al : forall segs, segs_ok segs -> encode_sizes al segs = Ok tt.
Proof.
  induction 1 as [|s r [Ha Hs] _ IH]; cbn [encode_sizes]; [reflexivity|].
  unfold word_size. replace (len s mod 8 =? 0) with true by lia.
  rewrite andb_false_r. destruct (len s >? max_segment_size) eqn:E; [lia|]. exact IH.
Qed.

Lemma encode_frame al segs : 1 <= len segs < two32 -> segs_ok segs -> encode al segs = Ok (frame segs).
Proof.
  intros Hc Hok. unfold encode.
  destruct (len segs =? 0) eqn:E0; [lia|].
  rewrite wrap32_small by lia.
  pose proof (stream_header_size_bounds (len segs - 1) ltac:(lia)) as HB.
  destruct (stream_header_size (len segs - 1) >? max_int) eqn:E1; [unfold max_int, two32 in *; lia|].
  rewrite encode_sizes_ok by assumption. cbn [bind]. f_equal.
  unfold frame, frame_header, pad_to. f_equal.
  rewrite header_words_len. unfold word_size.
  rewrite stream_header_size_eq by lia.
  destruct ((4 + 4 * len segs) mod 8 =? 0) eqn:E.
  - replace (8 * ((4 * (len segs - 1) + 15) / 8) - (4 + 4 * len segs)) with 0 by lia.
    cbn. now rewrite app_nil_r.
  - replace (8 * ((4 * (len segs - 1) + 15) / 8) - (4 + 4 * len segs)) with 4 by lia.
    reflexivity.
Qed.

(* the unrepaired Encode accepts an unaligned segment and writes a frame whose table does
   not describe the bytes that follow; the repaired one refuses *)
Example encode_unaligned_refuted :
  encode false [[1; 2; 3; 4; 5; 6; 7; 8; 9]] = Ok ([0; 0; 0; 0; 1; 0; 0; 0] ++ [1; 2; 3; 4; 5; 6; 7; 8; 9])
  /\ unmarshal ([0; 0; 0; 0; 1; 0; 0; 0] ++ [1; 2; 3; 4; 5; 6; 7; 8; 9]) = Ok [[1; 2; 3; 4; 5; 6; 7; 8]]
  /\ encode true [[1; 2; 3; 4; 5; 6; 7; 8; 9]] = Err EUnaligned
  /\ encode_packed false [[1; 2; 3; 4; 5; 6; 7; 8; 9]] = Panic.
Proof. vm_compute. repeat split; reflexivity. Qed.

Lemma encode_ok_segs_ok : forall segs b, encode true segs = Ok b -> segs_ok segs /\ 1 <= len segs.
Proof.
  intros segs b. unfold encode.
  destruct (len segs =? 0) eqn:E0; [discriminate|].
  destruct (_ >? max_int); [discriminate|].
  destruct (encode_sizes true segs) eqn:E; try discriminate. intros _.
  pose proof (len_nonneg segs). split; [|lia]. clear E0 H. revert E.
  induction segs as [|s r IH]; intros E; [constructor|].
  cbn [encode_sizes] in E.
  unfold word_size in E. destruct (len s mod 8 =? 0) eqn:E2; cbn [andb negb] in E; [|discriminate].
  destruct (len s >? max_segment_size) eqn:E1; [discriminate|].
  constructor; [split; lia|]. now apply IH.
Qed.

Theorem unmarshal_frame segs junk : count_ok segs -> segs_ok segs ->
  unmarshal (frame segs ++ junk) = Ok segs.
Proof.
  intros Hc Hok. pose proof Hc as Hc'. unfold count_ok in Hc'.
  assert (H32 : 1 <= len segs < two32) by (unfold two32; lia).
  unfold unmarshal, frame. rewrite <- app_assoc.
  pose proof (frame_nonempty segs H32) as H8.
  pose proof (len_nonneg (concat segs ++ junk)).
  rewrite len_app. unfold word_size.
  destruct (_ =? 0) eqn:E0; [lia|]. destruct (_ <? 8) eqn:E1; [lia|].
  rewrite max_segment_frame_header by assumption.
  rewrite <- frame_header_len by assumption.
  destruct (_ <? len (frame_header segs)) eqn:E2; [lia|].
  rewrite firstn_app_len, skipn_app_len.
  rewrite total_size_frame_header by assumption. cbn [bind].
  destruct (sum_len segs >? len (concat segs ++ junk)) eqn:E3.
  { rewrite len_app, sum_len_concat in E3. pose proof (len_nonneg junk). lia. }
  now apply demux_arena_frame_header.
Qed.

Lemma unmarshal_frame0 segs : count_ok segs -> segs_ok segs -> unmarshal (frame segs) = Ok segs.
Proof. rewrite <- (app_nil_r (frame segs)). apply unmarshal_frame. Qed.

Theorem unmarshal_roundtrip segs : count_ok segs -> segs_ok segs ->
  exists b, marshal segs = Ok b /\ unmarshal b = Ok segs /\ forall junk, unmarshal (b ++ junk) = Ok segs.
Proof.
  intros Hc Hok. exists (frame segs). split; [now apply marshal_frame|]. split.
  - now apply unmarshal_frame0.
  - intros junk. now apply unmarshal_frame.
Qed.

Example unmarshal_roundtrip_nonvacuous :
  count_ok [[1;2;3;4;5;6;7;8]; []; repeat 7 16] /\ segs_ok [[1;2;3;4;5;6;7;8]; []; repeat 7 16].
Proof. split; [unfold count_ok; cbn; lia|]. repeat constructor; cbn; lia. Qed.
