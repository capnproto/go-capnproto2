(* Composition of C13 (packed codec) with C14 (framing): Encoder.writePacked / MarshalPacked
   produce packed strings that unpack to the frame, whatever follows them. *)
From CV Require Import Packed.PackedProofs.
From CV Require Import Frame.Frame.
From CV Require Import Frame.FramePacked.
From CV Require Import Frame.FrameProofs.
From CV Require Import Frame.FrameSafe.
From CV Require Import Frame.FrameStream.
From Coq Require Import ZifyBool ZifyNat.
Open Scope Z_scope.

Lemma option_map_app2 (f : list Z) (o : list Z) (x : option (list Z)) :
  option_map (fun r => f ++ r) (option_map (app o) x) = option_map (app (f ++ o)) x.
Proof. apply option_map_app_app. Qed.

Corollary unpack_app_some a oa b ob : unpack a = Some oa -> unpack b = Some ob ->
  unpack (a ++ b) = Some (oa ++ ob).
Proof. intros Ha Hb. rewrite (unpack_app a oa b Ha), Hb. reflexivity. Qed.

Lemma table_bytes_ok segs : bytes_ok (table segs).
Proof.
  unfold table. induction segs as [|s r IH]; cbn [flat_map]; [constructor|].
  apply bytes_ok_app. split; [apply le32_bytes_ok|assumption].
Qed.

Lemma frame_header_bytes_ok segs : 1 <= len segs < two32 -> bytes_ok (frame_header segs).
Proof.
  intros H. rewrite frame_header_eq by assumption.
  apply bytes_ok_app. split; [apply le32_bytes_ok|]. apply bytes_ok_app. split; [apply table_bytes_ok|apply bytes_ok_zeros].
Qed.

Lemma len_mod8_nat (l : list Z) : len l mod 8 = 0 -> (length l mod 8 = 0)%nat.
Proof. unfold len. intros H. lia. Qed.

Lemma sum_len_mod8 segs : segs_ok segs -> sum_len segs mod 8 = 0.
Proof. induction 1 as [|s r [Hs _] _ IH]; cbn [sum_len]; lia. Qed.

Definition msg_bytes (m : list (list Z)) : Prop := Forall bytes_ok m.

Lemma frame_bytes_ok m : 1 <= len m < two32 -> msg_bytes m -> bytes_ok (frame m).
Proof.
  intros H Hb. unfold frame. apply bytes_ok_app. split; [now apply frame_header_bytes_ok|now apply bytes_ok_concat].
Qed.

Lemma frame_mod8 m : 1 <= len m < two32 -> segs_ok m -> len (frame m) mod 8 = 0.
Proof.
  intros H Hs. rewrite frame_len by assumption.
  pose proof (stream_header_size_bounds (len m - 1) ltac:(lia)) as [_ Hm].
  pose proof (sum_len_mod8 m Hs). lia.
Qed.

(* [p] is a string of bytes that the one-shot decoder reads as [out], whatever follows it *)
Definition packs_to (p out : list Z) : Prop :=
  bytes_ok p /\ forall rest, unpack (p ++ rest) = option_map (app out) (unpack rest).

Lemma packs_to_nil : packs_to [] [].
Proof. split; [constructor|]. intros rest. symmetry. apply option_map_app_nil. Qed.

Lemma packs_to_app p q a b : packs_to p a -> packs_to q b -> packs_to (p ++ q) (a ++ b).
Proof.
  intros [Hp Ha] [Hq Hb]. split; [apply bytes_ok_app; now split|]. intros rest.
  rewrite <- app_assoc, Ha, Hb. apply option_map_app_app.
Qed.

Lemma packs_to_unpack p out : packs_to p out -> unpack p = Some out.
Proof. intros [_ H]. specialize (H []). rewrite app_nil_r in H. rewrite H. cbn. now rewrite app_nil_r. Qed.

Lemma pack_bytes_packs_to b : bytes_ok b -> len b mod 8 = 0 ->
  exists p, pack_bytes b = Some p /\ packs_to p b.
Proof.
  intros Hb Hm. destruct (pack_bytes_props b Hb (len_mod8_nat b Hm)) as (p & Ep & Eu & Hp).
  exists p. split; [assumption|]. split; [assumption|]. intros rest. now apply unpack_app.
Qed.

(* packing each buffer on its own *)
Fixpoint pack_each (bs : list (list Z)) : res (list Z) :=
  match bs with
  | [] => Ok []
  | b :: r =>
    match pack_bytes b with
    | None => Panic
    | Some p => do q <- pack_each r; Ok (p ++ q)
    end
  end.

Lemma pack_each_ok : forall bs, Forall bytes_ok bs -> Forall (fun b => len b mod 8 = 0) bs ->
  exists p, pack_each bs = Ok p /\ packs_to p (concat bs).
Proof.
  induction bs as [|b r IH]; intros Hb Hm; [exists []; split; [reflexivity|exact packs_to_nil]|].
  inversion Hb; inversion Hm; subst.
  destruct (pack_bytes_packs_to b) as (p & Ep & Hp); try assumption.
  destruct IH as (q & Eq & Hq); try assumption.
  exists (p ++ q). cbn [pack_each]. rewrite Ep, Eq. split; [reflexivity|]. now apply packs_to_app.
Qed.

Lemma encode_packed_eq segs : 1 <= len segs < two32 -> segs_ok segs ->
  encode_packed true segs = pack_each (frame_header segs :: segs).
Proof.
  intros H Hs. unfold encode_packed. rewrite (encode_frame true segs H Hs). cbn [bind].
  rewrite wrap32_small by lia. rewrite <- frame_header_len by assumption.
  unfold frame. rewrite firstn_app_len. reflexivity.
Qed.

(* a message the encoders accept and whose segments are bytes: NewPackedEncoder writes a
   packed string that unpacks to exactly the frame, whatever follows *)
Lemma encode_packed_ok m : 1 <= len m < two32 -> segs_ok m -> msg_bytes m ->
  exists p, encode_packed true m = Ok p /\ packs_to p (frame m).
Proof.
  intros H Hs Hb. rewrite encode_packed_eq by assumption.
  apply (pack_each_ok (frame_header m :: m)).
  - constructor; [now apply frame_header_bytes_ok|assumption].
  - constructor.
    + rewrite frame_header_len by assumption.
      now destruct (stream_header_size_bounds (len m - 1) ltac:(lia)).
    + revert Hs. apply Forall_impl. intros s [Ha _]. exact Ha.
Qed.

Lemma encode_packed_stream_ok : forall msgs,
  Forall (fun m => 1 <= len m < two32 /\ segs_ok m /\ msg_bytes m) msgs ->
  exists p, encode_packed_stream msgs = Ok p /\ packs_to p (concat (map frame msgs)).
Proof.
  induction 1 as [|m msgs [H [Hs Hb]] _ [q [Eq Hq]]]; [exists []; split; [reflexivity|exact packs_to_nil]|].
  destruct (encode_packed_ok m H Hs Hb) as [p [Ep Hp]].
  exists (p ++ q). cbn [encode_packed_stream]. rewrite Ep, Eq. split; [reflexivity|].
  now apply packs_to_app.
Qed.

Lemma marshal_packed_ok segs : count_ok segs -> segs_ok segs -> msg_bytes segs ->
  exists p, marshal_packed segs = Ok p /\ unpack p = Some (frame segs) /\ bytes_ok p.
Proof.
  intros Hc Hs Hb. assert (H32 : 1 <= len segs < two32) by (unfold count_ok, two32 in *; lia).
  unfold marshal_packed. rewrite (marshal_frame segs Hc Hs). cbn [bind].
  destruct (pack_bytes_props (frame segs)) as [p [Ep [Eu Hp]]].
  - now apply frame_bytes_ok.
  - apply len_mod8_nat. now apply frame_mod8.
  - exists p. rewrite Ep. auto.
Qed.

(* UnmarshalPacked of a packed string that unpacks to a frame (such a string is not empty: the
   empty string unpacks to the empty string, and a frame has at least 8 bytes) *)
Lemma unmarshal_packed_frame p segs : count_ok segs -> segs_ok segs ->
  unpack p = Some (frame segs) -> unmarshal_packed p = Ok segs.
Proof.
  intros Hc Hs Eu. unfold unmarshal_packed.
  destruct p as [|x p].
  - exfalso. apply Some_inj in Eu.
    pose proof (frame_nonempty segs ltac:(unfold count_ok, two32 in *; lia)) as H8.
    unfold frame in Eu. destruct (frame_header segs); [cbn in H8; lia|discriminate].
  - rewrite len_cons. pose proof (len_nonneg p). destruct (1 + len p =? 0) eqn:E0; [lia|].
    rewrite Eu. now apply unmarshal_frame0.
Qed.

Theorem unmarshal_packed_marshal_packed segs : count_ok segs -> segs_ok segs -> msg_bytes segs ->
  exists p, marshal_packed segs = Ok p /\ unmarshal_packed p = Ok segs.
Proof.
  intros Hc Hs Hb. destruct (marshal_packed_ok segs Hc Hs Hb) as (p & Ep & Eu & _).
  exists p. split; [assumption|now apply unmarshal_packed_frame].
Qed.
