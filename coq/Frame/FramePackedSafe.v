(* [EndToEnd.pdecode_n_then_read_safe] for packed input that does NOT unpack: the theorem is
   [EndToEnd.pdecode_n_partial_then_read_safe], stated here with this file's names for the modules.
   It rests on Frame/FramePackedFull.v:
     - [pdecode_n_any_packed]: for ANY bytes_ok packed input P and every oracle, NewPackedDecoder's
       outcomes equal, up to and including the first one that is not a message, those of the plain
       Decoder over the reader  mkReader [fst (unpack_partial P)] (verdict (snd (unpack_partial P)));
     - [unpack_partial_bytes_ok]: everything packed.Reader.Read hands out is bytes (first conjunct
       of pdecode_n_any_packed),
   and on EndToEnd's [decode_then_read_safe] (which holds for any final reader error), which gives
   msg_ok and read_safe of every message decoded before the point of corruption. *)
From CV Require Import Core.SafetyProofs.
From CV Require Import Core.LimitProofs.
From CV Require Import Core.EndToEnd.
From CV Require Frame.Frame.
From CV Require Frame.FramePacked.
From CV Require Frame.FrameSim.
From CV Require Frame.FramePackedThms.
From CV Require Frame.FramePackedFull.
From CV Require Packed.Packed.
From CV Require Packed.ReadCallProofs2.
From CV Require Core.BuilderFacts.
From Coq Require Import Lia.
Module RP2 := CV.Packed.ReadCallProofs2.
Module FS := CV.Frame.FrameSim.

Theorem pdecode_n_then_read_safe_any P orc hc bc ru mx c fx n k :
  bytes_ok P -> (0 <= mx < FR.two64)%Z -> repaired c fx -> (k < n)%nat ->
  let U := fst (RP2.unpack_partial P) in
  let fin := RP2.verdict (snd (RP2.unpack_partial P)) in
  let outs_plain := snd (FR.decode_n (FR.mkD (FR.mkReader [U] fin) hc bc ru mx) n) in
  let outs_packed := snd (FP.pdecode_n (FR.mkD (FP.p_init orc P) hc bc ru mx) n) in
  FS.all_msgs (firstn k outs_plain) = true ->
  let o := nth k outs_packed (FR.DEof, []) in
  nth k outs_packed (FR.DEof, []) = nth k outs_plain (FR.DEof, []) /\
  fst o <> FR.DPanic /\ forall segs, fst o = FR.DMsg segs -> msg_ok segs /\ read_safe c fx segs.
Proof. exact (pdecode_n_partial_then_read_safe P orc hc bc ru mx c fx n k). Qed.
