(* For ARBITRARY input bytes and any decoder state, one Decode requests at most MaxMessageSize
   bytes of buffers, accepts at most 512 segments, and never panics. *)
From CV Require Import Packed.PackedProofs.
From CV Require Import Frame.Frame.
From CV Require Import Frame.FrameProofs.
From CV Require Import Frame.FrameSafe.
From CV Require Import Frame.FrameStream.
From Coq Require Import ZifyBool ZifyNat.
Open Scope Z_scope.

Lemma alloc_bytes_app a b : alloc_bytes (a ++ b) = alloc_bytes a + alloc_bytes b.
Proof. induction a as [|x a IH]; [reflexivity|]. destruct x; cbn [app alloc_bytes]; lia. Qed.

Lemma alloc_table_app a b : alloc_table (a ++ b) = alloc_table a + alloc_table b.
Proof. induction a as [|x a IH]; [reflexivity|]. destruct x; cbn [app alloc_table]; lia. Qed.

Lemma bytes_ok_skipn n l : bytes_ok l -> bytes_ok (skipn n l).
Proof. intros H. rewrite <- (firstn_skipn n l) in H. now apply bytes_ok_app in H. Qed.

(* whatever ReadFull does, the bytes it returns and leaves are bytes of the stream *)
Lemma read_full_bytes_ok r need o r' : bytes_ok (concat (r_chunks r)) -> read_full r need = (o, r') ->
  bytes_ok (concat (r_chunks r')) /\ (forall b, o = RFok b -> bytes_ok b).
Proof.
  intros Hb E. apply read_full_inv in E as [(_ & -> & -> & _)|(_ & -> & _ & ->)].
  - split; [now apply bytes_ok_skipn|]. intros b [= <-]. now apply bytes_ok_firstn.
  - split; [constructor|]. intros b. destruct (0 <? _), (r_final r); discriminate.
Qed.

Lemma alloc_buf_log (fresh : bool) log t : 0 <= t ->
  let log1 := if fresh then log ++ [ABuf t] else log in
  alloc_bytes log <= alloc_bytes log1 <= alloc_bytes log + t /\ alloc_table log1 = alloc_table log.
Proof.
  intros Ht. destruct fresh; cbn zeta; rewrite ?alloc_bytes_app, ?alloc_table_app; cbn [alloc_bytes alloc_table]; lia.
Qed.

Lemma sum_len_of_concat segs b : concat segs = b -> sum_len segs = len b.
Proof. intros <-. symmetry. apply sum_len_concat. Qed.

Lemma decode_body_bound cs fin hc bc ru mx maxSize hb log st' out log' :
  header_sized hb -> bytes_ok (concat cs) -> len hb <= maxSize < two64 ->
  decode_body (mkD (mkReader cs fin) hc bc ru mx) maxSize (le32_get hb) hb log = (st', out, log') ->
  alloc_bytes log <= alloc_bytes log' <= alloc_bytes log + (maxSize - len hb) /\
  alloc_table log <= alloc_table log' <= alloc_table log + (le32_get hb + 1) /\
  out <> DPanic /\
  (forall segs, out = DMsg segs ->
     len segs = le32_get hb + 1 /\ segs_ok segs /\ sum_len segs <= maxSize - len hb) /\
  bytes_ok (concat (r_chunks (d_rd st'))) /\ d_max st' = mx.
Proof.
  intros Hh Hb Hsz. pose proof Hh as (Hhb & H8 & _). pose proof (le32_get_range hb Hhb) as Hg.
  unfold decode_body. rewrite gdecode_body_eq. cbn [d_rd d_hdrcap d_bufcap d_reuse d_max].
  destruct (header_total_demux hb Hh) as [[t [Ht [Hr Hd]]]|He]; rewrite ?Ht, ?He.
  2:{ intros [= <- <- <-]. cbn [d_rd r_chunks d_max]. repeat split; try lia; try discriminate; assumption. }
  rewrite wrap64_small by lia.
  destruct ((t >? maxSize - len hb) || (t >? max_int)) eqn:Ec.
  { intros [= <- <- <-]. cbn [d_rd r_chunks d_max]. repeat split; try lia; try discriminate; assumption. }
  cbn zeta. destruct (alloc_buf_log (negb ru || (bc <? t)) log t (proj1 Hr)) as [La Lt]. cbn zeta in La, Lt.
  set (log1 := if negb ru || (bc <? t) then _ else log) in *. clearbody log1.
  destruct (read_full (mkReader cs fin) t) as [o r'] eqn:Er.
  pose proof (proj1 (read_full_bytes_ok (mkReader cs fin) _ _ _ Hb Er)) as Hb'.
  destruct o as [b| |].
  2,3: intros [= <- <- <-]; cbn [d_rd r_chunks d_max]; repeat split; try lia; try discriminate; assumption.
  (* the data was read: it is what totalSize announced, so demuxArena slices all of it *)
  destruct (read_full_ok_inv _ _ _ _ (proj1 Hr) Er) as (_ & _ & Hlb & _).
  destruct (Hd b ltac:(lia)) as (segs & Hd1 & Hd2 & Hd3 & Hd4).
  rewrite <- Hlb in Hd3. unfold len in Hd3. rewrite Nat2Z.id, firstn_all in Hd3.
  pose proof (sum_len_of_concat _ _ Hd3) as Hsum. rewrite Hd1.
  destruct (ru && (le32_get hb =? 0)) eqn:E0; intros [= <- <- <-].
  1: rewrite <- Hd3, singleton_concat by lia.   (* one segment handed out as the whole buffer *)
  2: rewrite alloc_bytes_app, alloc_table_app; cbn [alloc_bytes alloc_table].
  all: cbn [d_rd d_max]; split; [lia|]; split; [lia|]; split; [discriminate|]; split; [|now split].
  all: intros ? [= <-]; split; [assumption|]; split; [assumption|lia].
Qed.

Lemma eff_max_nonneg mx : 0 <= mx -> 0 <= eff_max mx.
Proof. unfold eff_max, default_decode_limit. destruct (mx =? 0); lia. Qed.

(* C14, allocation half.  For ALL input bytes, all chunkings, any decoder state (buffer
   capacities, reuse flag) and any MaxMessageSize: the byte buffers requested by one Decode
   (header + data) sum to at most the effective limit; the segment table has at most 512
   entries (= maxStreamSegments; the repaired code rejects maxSeg >= 512, the code as found accepted
   513, see accepts_513_refuted); Decode does not panic; a returned message has 1..512 whole-word
   segments and its framed size is within the limit. *)
Theorem alloc_bound cs fin hc bc ru mx st' out log :
  bytes_ok (concat cs) -> 0 <= mx < two64 ->
  decode1 (mkD (mkReader cs fin) hc bc ru mx) = (st', out, log) ->
  0 <= alloc_bytes log <= eff_max mx /\
  0 <= alloc_table log <= max_stream_segments /\
  out <> DPanic /\
  (forall segs, out = DMsg segs ->
     1 <= len segs <= max_stream_segments /\ segs_ok segs /\
     stream_header_size (len segs - 1) + sum_len segs <= eff_max mx) /\
  bytes_ok (concat (r_chunks (d_rd st'))) /\ d_max st' = mx.
Proof.
  intros Hb Hmx. pose proof (eff_max_nonneg mx ltac:(lia)) as He0.
  unfold decode1, decode1_gen. rewrite gdecode1_gen_eq. cbn [d_max d_rd d_hdrcap d_bufcap d_reuse].
  destruct (negb (mx =? 0) && (mx <? word_size)) eqn:Ecfg.
  { intros [= <- <- <-]. cbn [alloc_bytes alloc_table d_rd r_chunks d_max]. unfold max_stream_segments.
    repeat split; try lia; try discriminate; assumption. }
  assert (Heff : 8 <= eff_max mx < two64).
  { unfold eff_max, default_decode_limit, word_size, two64 in *. destruct (mx =? 0) eqn:E0; cbn in Ecfg; lia. }
  destruct (read_full (mkReader cs fin) word_size) as [o [cs1 f1]] eqn:Er1.
  destruct (read_full_bytes_ok (mkReader cs fin) word_size o _ Hb Er1) as [Hb1 Hbw]. cbn [r_chunks] in Hb1.
  unfold with_rd. cbn [d_rd d_hdrcap d_bufcap d_reuse d_max].
  destruct o as [w| |].
  2,3: intros [= <- <- <-]; cbn [alloc_bytes alloc_table d_rd r_chunks d_max]; unfold max_stream_segments;
       repeat split; try lia; try discriminate; assumption.
  destruct (read_full_ok_inv (mkReader cs fin) word_size w _ ltac:(unfold word_size; lia) Er1) as (_ & _ & Hlw & _).
  specialize (Hbw w eq_refl). pose proof (le32_get_range w Hbw) as Hm.
  cbn zeta. set (m := le32_get w) in *. remember (stream_header_size m) as h eqn:Hhd.
  destruct (m + 1 >? seg_count_limit true) eqn:Emax; unfold seg_count_limit, max_stream_segments in Emax.
  { intros [= <- <- <-]. cbn [alloc_bytes alloc_table d_rd r_chunks d_max]. unfold max_stream_segments.
    repeat split; try lia; try discriminate; assumption. }
  destruct (negb (m =? 0) && ((h >? eff_max mx) || (h >? max_int))) eqn:Ehs.
  { intros [= <- <- <-]. cbn [alloc_bytes alloc_table d_rd r_chunks d_max]. unfold max_stream_segments.
    repeat split; try lia; try discriminate; assumption. }
  (* the rest of the header: at most [h] bytes allocated, [h - 8] bytes read *)
  assert (Hh : 8 <= h <= eff_max mx /\ (m =? 0 = true -> h = 8)).
  { destruct (m =? 0) eqn:Ez; cbn [negb andb] in Ehs.
    - replace m with 0 in Hhd by lia. rewrite stream_header_size_0 in Hhd. lia.
    - pose proof (stream_header_size_bounds m Hm). lia. }
  destruct Hh as [Hh Hh0].
  set (log0 := if negb (m =? 0) && (hc <? h) then [AHdr h] else []).
  assert (Hlog0 : 0 <= alloc_bytes log0 <= h /\ alloc_table log0 = 0)
    by (unfold log0; destruct (negb (m =? 0) && (hc <? h)); cbn [alloc_bytes alloc_table]; lia).
  clearbody log0.
  destruct (if negb (m =? 0) then read_full (mkReader cs1 f1) (h - word_size) else (RFok [], mkReader cs1 f1))
    as [o2 [cs2 f2]] eqn:Er2.
  assert (Hb2 : bytes_ok (concat cs2) /\ forall rest, o2 = RFok rest -> bytes_ok rest /\ len rest = h - 8).
  { destruct (m =? 0); cbn [negb] in Er2.
    - injection Er2 as <- <- <-. split; [assumption|]. intros rest [= <-]. rewrite Hh0 by reflexivity. split; [constructor|reflexivity].
    - destruct (read_full_bytes_ok (mkReader cs1 f1) _ _ _ Hb1 Er2) as [H1 H2]. split; [exact H1|].
      intros rest ->. split; [now apply H2|].
      now destruct (read_full_ok_inv (mkReader cs1 f1) (h - word_size) rest _ ltac:(unfold word_size; lia) Er2)
        as (_ & _ & ? & _). }
  destruct Hb2 as [Hb2 Hrest]. destruct o2 as [rest| |].
  2,3: intros [= <- <- <-]; cbn [d_rd r_chunks d_max]; unfold max_stream_segments;
       repeat split; try lia; try discriminate; assumption.
  destruct (Hrest rest eq_refl) as [Hbr Hlr]. unfold word_size in Hlw.
  assert (Hget : le32_get (w ++ rest) = m) by (apply le32_get_app4; unfold len in *; lia).
  assert (Hl : len (w ++ rest) = h) by (rewrite len_app; lia).
  assert (Hhs : header_sized (w ++ rest)).
  { split; [now apply bytes_ok_app|]. rewrite Hget, Hl. split; [lia|assumption]. }
  intros E. rewrite <- Hget in E.
  destruct (decode_body_bound cs2 f2 _ bc ru mx (eff_max mx) (w ++ rest) log0 st' out log Hhs Hb2 ltac:(lia) E) as (B1 & B2 & B3 & B4 & B5 & B6).
  rewrite Hget, Hl in *. unfold max_stream_segments.
  split; [lia|]. split; [lia|]. split; [assumption|]. split; [|now split].
  intros segs Hs. destruct (B4 segs Hs) as (S1 & S2 & S3).
  rewrite S1. replace (m + 1 - 1) with m by lia. rewrite <- Hhd. repeat split; [lia|lia|assumption|lia].
Qed.

(* the limit is reached: an 8-byte header makes the decoder request a buffer of
   MaxMessageSize - 8 bytes before any data has been seen *)
Example alloc_bound_tight :
  let '(_, out, log) := decode1 (d_init (mkReader [[0; 0; 0; 0; 127; 0; 0; 0]] EOF) 1024) in
  out = DErr EReadSegs /\ alloc_bytes log = 1016.
Proof. vm_compute. split; reflexivity. Qed.

(* F22: the segment-count check as found (maxSeg > 512) admitted 513 segments, one more
   than maxStreamSegments = 512; the repaired check (maxSeg >= 512) accepts 512 and refuses 513 *)
Example accepts_513_refuted :
  let hdr512 := le32 511 ++ zeros (4 * 512 + 4) in
  let hdr513 := le32 512 ++ zeros (4 * 513) in
  (exists segs, snd (fst (decode1_gen false (d_init (mkReader [hdr513] EOF) 0))) = DMsg segs /\ len segs = 513) /\
  snd (fst (decode1 (d_init (mkReader [hdr513] EOF) 0))) = DErr ETooManySegs /\
  (exists segs, snd (fst (decode1 (d_init (mkReader [hdr512] EOF) 0))) = DMsg segs /\ len segs = 512).
Proof.
  (* both headers frame a message of empty segments, so [decode1_gen_frame] applies; only the
     framing itself and the size tests are evaluated *)
  assert (D : forall fixed n, 1 <= Z.of_nat n <= seg_count_limit fixed -> Z.of_nat n <= 513 ->
            forall h, h = frame (repeat [] n) ->
            snd (fst (decode1_gen fixed (d_init (mkReader [h] EOF) 0))) = DMsg (repeat [] n)).
  { intros fixed n Hn H513 h ->.
    destruct (decode1_gen_frame fixed (repeat [] n) [frame (repeat [] n)] EOF 0 0 false 0 [])
      as (cs' & hc' & bc' & log & E & _).
    - now left.
    - assert (Hl : len (repeat (@nil Z) n) = Z.of_nat n) by (unfold len; now rewrite repeat_length).
      assert (Hs : sum_len (repeat [] n) = 0) by (clear; induction n; [reflexivity|exact IHn]).
      split; [now rewrite Hl|]. split.
      + apply Forall_forall. intros s Hin. apply repeat_spec in Hin. subst s. now split.
      + rewrite frame_len, Hl, Hs by (unfold two32; lia).
        pose proof (stream_header_size_bounds (Z.of_nat n - 1) ltac:(unfold two32; lia)).
        change (eff_max 0) with default_decode_limit. unfold default_decode_limit. lia.
    - cbn [concat]. now rewrite !app_nil_r.
    - unfold d_init. now rewrite E. }
  cbv zeta. split; [|split].
  - exists (repeat [] 513). split; [|reflexivity]. apply D; [now vm_compute|discriminate|].
    vm_compute. reflexivity.
  - vm_compute. reflexivity.
  - exists (repeat [] 512). split; [|reflexivity]. apply (D true); [now vm_compute|discriminate|].
    vm_compute. reflexivity.
Qed.

(* the same over whole histories of Decode / ReuseBuffer calls (any order, any number), from
   any initial state: every single Decode stays within the bound, none panics *)
Definition st_ok (st : dstate) : Prop :=
  bytes_ok (concat (r_chunks (d_rd st))) /\ 0 <= d_max st < two64.

(* MaxMessageSize as it stands at each Decode of a history *)
Fixpoint limits (mx : Z) (ops : list dop) : list Z :=
  match ops with
  | [] => []
  | OpDecode :: r => mx :: limits mx r
  | OpReuse :: r => limits mx r
  | OpSetMax m :: r => limits (wrap64 m) r
  end.

(* with assignments to MaxMessageSize allowed: each Decode stays within the limit then in force *)
Theorem alloc_bound_history_limits : forall ops st st' outs,
  st_ok st -> run_history st ops = (st', outs) ->
  Forall2 (fun mx ol => 0 <= alloc_bytes (snd ol) <= eff_max mx /\
                        alloc_table (snd ol) <= max_stream_segments /\ fst ol <> DPanic /\
                        forall segs, fst ol = DMsg segs -> len segs <= max_stream_segments)
          (limits (d_max st) ops) outs.
Proof.
  induction ops as [|o ops IH]; intros st st' outs [Hb Hmx] E; cbn [run_history] in E.
  - injection E as <- <-. constructor.
  - destruct (dstep st o) as [st1 r] eqn:Es. destruct (run_history st1 ops) as [st2 outs2] eqn:Er.
    injection E as <- <-. unfold dstep, dstep_gen in Es. destruct o; cbn [limits].
    + change (decode1_gen true st) with (decode1 st) in Es. destruct (decode1 st) as [[st1' out] log] eqn:Ed. injection Es as <- <-.
      destruct st as [[cs fin] hc bc ru mx]. cbn [d_rd r_chunks d_max] in *.
      destruct (alloc_bound cs fin hc bc ru mx st1' out log Hb Hmx Ed) as [A1 [A2 [A3 [A4 [A5 A6]]]]].
      constructor.
      * cbn [fst snd]. split; [lia|]. split; [lia|]. split; [assumption|].
        intros segs Hs. destruct (A4 segs Hs). lia.
      * rewrite <- A6. apply (IH st1' st2 outs2); [|assumption]. split; [assumption|]. now rewrite A6.
    + injection Es as <- <-.
      exact (IH (mkD (d_rd st) (d_hdrcap st) (d_bufcap st) true (d_max st)) st2 outs2 (conj Hb Hmx) Er).
    + injection Es as <- <-.
      apply (IH (mkD (d_rd st) (d_hdrcap st) (d_bufcap st) (d_reuse st) (wrap64 m)) st2 outs2); [|exact Er].
      split; [exact Hb|]. apply Z.mod_pos_bound. reflexivity.
Qed.

Theorem alloc_bound_history : forall ops st st' outs,
  (forall m, ~ In (OpSetMax m) ops) -> st_ok st -> run_history st ops = (st', outs) ->
  Forall (fun ol => 0 <= alloc_bytes (snd ol) <= eff_max (d_max st) /\
                    alloc_table (snd ol) <= max_stream_segments /\ fst ol <> DPanic /\
                    forall segs, fst ol = DMsg segs -> len segs <= max_stream_segments) outs.
Proof.
  intros ops st st' outs Hno Hok E. pose proof (alloc_bound_history_limits ops st st' outs Hok E) as H.
  revert Hno H. generalize (d_max st) as mx. clear. revert outs.
  induction ops as [|[| |m] ops IH]; intros outs mx Hno H; cbn [limits] in H.
  - inversion H. constructor.
  - inversion H; subst. constructor; [assumption|]. apply IH; [|assumption]. intros m Hin. apply (Hno m). now right.
  - apply IH; [|assumption]. intros m Hin. apply (Hno m). now right.
  - destruct (Hno m). now left.
Qed.
