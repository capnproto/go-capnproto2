(* Composition of C13 with C14: ANY packed input.  With the total denotation DP of the
   C13 reader (coq/Packed/ReadCallProofs2.v: what the reader hands out, and whether it then ends
   cleanly) NewPackedDecoder over a packed string P behaves, up to and including the first outcome
   that is not a message, exactly like the plain Decoder over the stream fst (unpack_partial P)
   that ends with io.EOF if P unpacks and with io.ErrUnexpectedEOF otherwise. *)
From CV Require Import Packed.PackedProofs.
From CV Require Import Packed.ReaderProofs.
From CV Require Import Packed.ReadCallProofs.
From CV Require Import Packed.ReadCallProofs2.
From CV Require Import Frame.Frame.
From CV Require Import Frame.FramePacked.
From CV Require Import Frame.FrameProofs.
From CV Require Import Frame.FrameSafe.
From CV Require Import Frame.FrameStream.
From CV Require Import Frame.FrameThms.
From CV Require Import Frame.FrameSim.
From CV Require Import Frame.FramePackedProofs.
From CV Require Import Frame.FramePackedThms.
From Coq Require Import ZifyBool ZifyNat.
Open Scope Z_scope.

(* by the reader: it hands out [fst (unpack_partial P)] ([read_calls_partial]) and hands out only
   bytes ([read_calls_init_bytes_ok]) *)
Lemma unpack_partial_bytes_ok P : bytes_ok P -> bytes_ok (fst (unpack_partial P)).
Proof.
  intros Hb.
  pose proof (read_calls_partial (fun _ => (false, false)) (fun _ => 0%nat) P Hb _ (le_n _)) as H.
  exact (read_calls_init_bytes_ok true _ _ P _ _ _ Hb H).
Qed.

(* NewPackedDecoder on any packed bytes = the plain Decoder on what the reader hands out, up to
   and including the first outcome that is not a message *)
Theorem pdecode_n_any_packed : forall P orc hc bc ru mx n k, bytes_ok P -> (k < n)%nat ->
  let U := fst (unpack_partial P) in
  let fin := verdict (snd (unpack_partial P)) in
  let outs_plain := snd (decode_n (mkD (mkReader [U] fin) hc bc ru mx) n) in
  let outs_packed := snd (pdecode_n (mkD (p_init orc P) hc bc ru mx) n) in
  bytes_ok U /\
  (all_msgs (firstn k outs_plain) = true -> firstn (S k) outs_packed = firstn (S k) outs_plain).
Proof.
  intros P orc hc bc ru mx n k Hb Hk. cbv zeta. split; [now apply unpack_partial_bytes_ok|].
  pose proof (gdecode_n_sim preader reader pread_full read_full _ (psimP_rf _) n _ _
                (st_simP_init orc P hc bc ru mx Hb)) as [_ H2].
  cbv zeta in H2. rewrite <- decode_n_gdecode_n in H2. exact (H2 k Hk).
Qed.

(* transfer of a plain history (messages, then one more outcome) to the packed decoder *)
Lemma packed_transfer_any orc P hc bc ru mx ms last st2 outs2 : bytes_ok P ->
  decode_n (mkD (mkReader [fst (unpack_partial P)] (verdict (snd (unpack_partial P)))) hc bc ru mx)
           (S (length ms)) = (st2, outs2) ->
  map fst outs2 = map DMsg ms ++ [last] ->
  exists st1, pdecode_n (mkD (p_init orc P) hc bc ru mx) (S (length ms)) = (st1, outs2).
Proof.
  intros Hb Hd Hm. rewrite decode_n_gdecode_n in Hd.
  exact (gdecode_n_transfer pread_full read_full _ (psimP_rf _) _ _ ms last st2 outs2
           (st_simP_init orc P hc bc ru mx Hb) Hd Hm).
Qed.

(* C14 + C13, any packed input.  What packed.Reader hands out for P (for every oracle) is
   fst (unpack_partial P); if that is the frames of [msgs] followed by [q], where
     - q is a non-empty strict prefix of a further frame (the stream ends inside a frame), or
     - q is empty but P does not unpack (the stream was cut inside a packed item right at a frame
       boundary of what had been handed out),
   then NewPackedDecoder returns exactly [msgs], in order, and then an error; never io.EOF. *)
Theorem packed_cut_inside_item : forall msgs P q orc hc bc ru mx,
  max_ok mx -> Forall (frame_ok mx) msgs -> bytes_ok P ->
  fst (unpack_partial P) = concat (map frame msgs) ++ q ->
  ((exists m tail, frame_ok mx m /\ frame m = q ++ tail /\ q <> [] /\ tail <> []) \/
   (q = [] /\ snd (unpack_partial P) = false)) ->
  exists st' outs e,
    pdecode_n (mkD (p_init orc P) hc bc ru mx) (S (length msgs)) = (st', outs)
    /\ map fst outs = map DMsg msgs ++ [DErr e] /\ (e = EReadHeader \/ e = EReadSegs).
Proof.
  intros msgs P q orc hc bc ru mx Hmx Hok Hb HU Hcase.
  set (fin := verdict (snd (unpack_partial P))).
  assert (Hplain : exists st2 outs2 e,
             decode_n (mkD (mkReader [fst (unpack_partial P)] fin) hc bc ru mx) (S (length msgs)) = (st2, outs2)
             /\ map fst outs2 = map DMsg msgs ++ [DErr e] /\ (e = EReadHeader \/ e = EReadSegs)).
  { destruct Hcase as [[m [tail [Hm [Hf [Hq Ht]]]]]|[Hq Hno]].
    - apply (cut_is_error msgs m q tail _ fin hc bc ru mx Hmx Hok Hm Hf Hq Ht).
      cbn [concat]. now rewrite app_nil_r.
    - subst q. rewrite app_nil_r in HU.
      destruct (decode_frames fin ru mx Hmx msgs [fst (unpack_partial P)] hc bc [] Hok
                  ltac:(cbn [concat]; rewrite !app_nil_r; exact HU)) as [cs1 [hc1 [bc1 [outs [E1 [Ho Hc1]]]]]].
      unfold fin in *. rewrite Hno in *. cbn [verdict] in *.
      (* nothing is left and the reader ends with an error: "decode: read header" *)
      destruct (decode1_stream_end cs1 UnexpectedEOF hc1 bc1 ru mx Hmx Hc1) as [cs2 [E2 _]].
      rewrite (decode_n_snoc _ _ _ _ _ _ _ E1 E2). do 3 eexists. split; [reflexivity|].
      split; [rewrite map_app, Ho; reflexivity|now left]. }
  destruct Hplain as [st2 [outs2 [e [Hd [Hm He]]]]].
  destruct (packed_transfer_any orc P hc bc ru mx msgs (DErr e) st2 outs2 Hb Hd Hm) as [st1 E].
  exists st1, outs2, e. repeat split; assumption.
Qed.

(* non-vacuity: the packed form of a two-message stream cut inside the literal run of the second
   message: the first message comes back, then an error *)
Example packed_cut_inside_item_example :
  let m1 := [[1; 0; 0; 0; 0; 0; 0; 2]] in
  let m2 := [[1; 2; 3; 4; 5; 6; 7; 8; 9; 10; 11; 12; 13; 14; 15; 16]] in
  match encode_packed_stream [m1; m2] with
  | Ok p =>
    let cutp := firstn (length p - 3) p in
    snd (unpack_partial cutp) = false /\
    map fst (snd (pdecode_n (d_init (p_init (fun k => (Nat.even k, Nat.odd k)) cutp) 0) 3))
    = [DMsg m1; DErr EReadSegs; DEof]
  | _ => False
  end.
Proof. vm_compute. split; reflexivity. Qed.

Lemma frame_ne m : 1 <= len m < two32 -> frame m <> [].
Proof.
  intros H E. pose proof (frame_nonempty m H) as H8. unfold frame in E.
  destruct (frame_header m); [cbn in H8; lia|discriminate].
Qed.

(* the packed stream of a message list, cut ANYWHERE: what the reader hands out is the frames of
   the first j messages followed by q, where q is empty or a strict prefix of frame j+1 *)
Theorem packed_stream_cut_shape : forall mx all Pfull P rest,
  max_ok mx -> Forall (pmsg_ok mx) all -> encode_packed_stream all = Ok Pfull -> Pfull = P ++ rest ->
  bytes_ok P /\
  exists j q, fst (unpack_partial P) = concat (map frame (firstn j all)) ++ q /\
    (q = [] \/ exists m t, nth_error all j = Some m /\ frame m = q ++ t /\ q <> [] /\ t <> []).
Proof.
  intros mx all Pfull P rest Hmx Hok He HP.
  destruct (pmsg_ok_enc mx all Hmx Hok) as [Henc Hfr].
  destruct (encode_packed_stream_ok all Henc) as [P' [He' HP']].
  assert (P' = Pfull) by congruence. subst P'. subst Pfull. pose proof HP' as [Hb _].
  apply bytes_ok_app in Hb. destruct Hb as [HbP _]. split; [assumption|].
  pose proof (packs_to_unpack _ _ HP') as Hu.
  destruct (unpack_partial_of_prefix P rest _ Hu) as [more Hmore].
  assert (Hne : Forall (fun f => f <> []) (map frame all)).
  { apply Forall_map. revert Henc. apply Forall_impl. intros m [H32 _]. now apply frame_ne. }
  destruct (cut_decompose (map frame all) (fst (unpack_partial P)) more Hne Hmore) as [j [q [Hq Hcase]]].
  exists j, q. rewrite firstn_map in Hq. split; [exact Hq|].
  destruct Hcase as [->|[t [Hn [Hq1 Ht]]]]; [now left|right].
  rewrite nth_error_map in Hn. destruct (nth_error all j) as [m|] eqn:Em; [|discriminate].
  cbn [option_map] in Hn. apply Some_inj in Hn. exists m, t. auto.
Qed.

(* ... and if the cut is inside a packed item (the one-shot decoder rejects the prefix), or the
   handed-out bytes end inside a frame: NewPackedDecoder returns the first j messages, then an
   error, never io.EOF; for every oracle *)
Theorem packed_stream_cut_is_error : forall mx all Pfull P rest orc hc bc ru,
  max_ok mx -> Forall (pmsg_ok mx) all -> encode_packed_stream all = Ok Pfull -> Pfull = P ++ rest ->
  forall j q, fst (unpack_partial P) = concat (map frame (firstn j all)) ++ q ->
  (q = [] \/ exists m t, nth_error all j = Some m /\ frame m = q ++ t /\ q <> [] /\ t <> []) ->
  (q <> [] \/ snd (unpack_partial P) = false) ->
  exists st' outs e,
    pdecode_n (mkD (p_init orc P) hc bc ru mx) (S (length (firstn j all))) = (st', outs)
    /\ map fst outs = map DMsg (firstn j all) ++ [DErr e] /\ (e = EReadHeader \/ e = EReadSegs).
Proof.
  intros mx all Pfull P rest orc hc bc ru Hmx Hok He HP j q HU Hshape Hbad.
  destruct (packed_stream_cut_shape mx all Pfull P rest Hmx Hok He HP) as [HbP _].
  destruct (pmsg_ok_enc mx all Hmx Hok) as [_ Hfr].
  apply (packed_cut_inside_item (firstn j all) P q orc hc bc ru mx Hmx); try assumption.
  - now apply Forall_firstn.
  - destruct Hshape as [->|[m [t [Hn [Hf [Hq Ht]]]]]].
    + right. split; [reflexivity|]. destruct Hbad as [Hc|Hc]; [congruence|assumption].
    + left. exists m, t. split; [|auto].
      rewrite Forall_forall in Hfr. apply Hfr. eapply nth_error_In. eassumption.
Qed.
