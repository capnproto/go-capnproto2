(* Tie of the header arithmetic of Frame.v to the translated Go source: Size.times is the only
   function used by the framing code that gotrans translates (coq/Gen/GoArith.v, regenerated
   from /repo on every run); [word_times] of Frame.v equals it on the whole int32 range.
   streamHeaderSize / segmentSize / totalSize are not in the translator's output; they are tied by
   the hdrsize / segsize / totalsize correspondence cases through the verif hook. *)
From Coq Require Import ZArith Lia Bool ZifyBool.
From CV Require Import Base.GoSem.
From CV Require Import Gen.GoArith.
From CV Require Import Frame.Frame.
Open Scope Z_scope.

Theorem word_times_is_go_times : forall n, -2147483648 <= n < 2147483648 ->
  go_times word_size n = match word_times n with Some x => (x, true) | None => (4294967295, false) end.
Proof.
  intros n Hn. unfold go_times, word_times, word_size, max_segment_size, two32.
  assert (Hx : wrap_s64 (8 * n) = 8 * n).
  { unfold wrap_s64. cbv zeta. destruct (_ <? _) eqn:E; Z.div_mod_to_equations; lia. }
  rewrite Hx. cbv zeta. change (4294967296 - 8) with 4294967288.
  destruct ((8 * n >? 4294967288) || (8 * n <? 0)) eqn:E; [reflexivity|].
  f_equal. unfold wrap_u32. Z.div_mod_to_equations. lia.
Qed.

(* the int32(uint32) conversion used by segmentSize lands in the range above *)
Lemma to_int32_range u : 0 <= u < two32 -> -2147483648 <= to_int32 u < 2147483648.
Proof. unfold to_int32, two31, two32. intros H. destruct (u <? 2147483648) eqn:E; lia. Qed.
