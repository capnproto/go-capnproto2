(* ReuseBuffer is transparent on EVERY byte stream: the outcomes of a Decode history (message
   contents included) depend only on the reader and MaxMessageSize, not on the reuse flag, not on
   when ReuseBuffer() is called, not on the capacities of the decoder's buffers.  Generic in the
   reader; instantiated for the plain chunked reader, for every io.Reader behaviour of
   FrameReaders.v (any final error, error delivered with the last bytes, empty reads) and for
   packed.Reader (any packed bytes, any bufio oracle). *)
From CV Require Import Frame.Frame.
From CV Require Import Frame.FramePacked.
From CV Require Import Frame.FrameReaders.
From CV Require Import Frame.FrameHist.
From CV Require Import Frame.FrameProofs.
From CV Require Import Frame.FrameSafe.
From CV Require Import Frame.FrameStream.
From CV Require Import Frame.FrameThms.
From CV Require Import Frame.FrameSim.
From CV Require Import Frame.FramePackedThms.
From CV Require Import Frame.FrameReadersProofs.
From CV Require Import Frame.FrameReuse.
From CV Require Import Frame.FrameReuseProofs.
From Coq Require Import ZifyBool ZifyNat.
Open Scope Z_scope.

(* maxSeg = 0: totalSize is the one size word, and demuxArena hands the whole data out as the
   single segment -- which is what the reuse path does without calling demuxArena *)
Lemma single_demux w total buf : 4 <= len w -> le32_get w = 0 -> total_size w = Ok total ->
  len buf = total -> demux_arena w buf = Ok [buf].
Proof.
  intros Hl H0. unfold total_size, demux_arena, max_segment, uint32_at.
  destruct (0 + 4 <=? len w) eqn:E; [|lia]. cbn [Z.to_nat skipn bind]. rewrite H0.
  change (Z.to_nat (0 + 1)) with 1%nat. intros Ht Hb.
  destruct (loops_agree 1 w 0 0 total buf ltac:(lia) ltac:(lia) ltac:(unfold two32; lia)
              ltac:(unfold two32, two64; lia) Ht) as [H1 [_ H3]].
  destruct H3 as [segs [Hd [Hn [Hc _]]]]; [lia|]. rewrite Hd. f_equal.
  destruct segs as [|s [|s2 r]]; try discriminate. cbn [concat] in Hc. rewrite app_nil_r in Hc.
  rewrite Hc, Z.sub_0_r, <- Hb. unfold len. rewrite Nat2Z.id. now rewrite firstn_all.
Qed.

Section Generic.
  Context {R : Type}.
  Variable rf : R -> Z -> rf_out * R.
  Hypothesis Hex : rf_exact rf.

  Definition res_same (x1 x2 : gstate R * dout * list alloc) : Prop :=
    snd (fst x1) = snd (fst x2) /\ same_view (fst (fst x1)) (fst (fst x2)).

  (* the same outcome, from the same reader and MaxMessageSize *)
  Ltac triv := unfold res_same, same_view, with_rd; cbn [fst snd d_rd d_max]; repeat split; reflexivity.

  (* with ReuseBuffer the single segment is d.buf itself, without it demuxArena's one slice of the
     data: the same bytes; everything else that differs is capacities and the allocation log *)
  Lemma gdecode_body_reuse_indep s1 s2 maxSize maxSeg hb log1 log2 :
    same_view s1 s2 -> (maxSeg = 0 -> 4 <= len hb /\ le32_get hb = 0) ->
    res_same (gdecode_body rf s1 maxSize maxSeg hb log1) (gdecode_body rf s2 maxSize maxSeg hb log2).
  Proof.
    destruct s1 as [r hc1 bc1 ru1 mx], s2 as [r2 hc2 bc2 ru2 mx2].
    intros [E1 E2] H0. cbn [d_rd d_max] in E1, E2. subst r2 mx2.
    unfold gdecode_body. cbn [d_rd d_hdrcap d_bufcap d_reuse d_max].
    destruct (total_size hb) as [total| |] eqn:Et; [|triv|triv].
    destruct ((total >? wrap64 (maxSize - len hb)) || (total >? max_int)); [triv|].
    destruct (resize bc1 total) as [c1 f1], (resize bc2 total) as [c2 f2].
    destruct (rf r total) as [[buf| |] r'] eqn:Er; [|destruct ru1, ru2; triv..].
    destruct (maxSeg =? 0) eqn:Em.
    - destruct (H0 ltac:(lia)) as [Hl Hz].
      rewrite (single_demux hb total buf Hl Hz Et (Hex r total buf r' (total_size_nonneg hb total Et) Er)).
      destruct ru1, ru2; triv.
    - destruct (demux_arena hb buf); destruct ru1, ru2; triv.
  Qed.

  Lemma gdecode1_reuse_indep fixed s1 s2 : same_view s1 s2 ->
    res_same (gdecode1_gen rf fixed s1) (gdecode1_gen rf fixed s2).
  Proof.
    destruct s1 as [r hc1 bc1 ru1 mx], s2 as [r2 hc2 bc2 ru2 mx2].
    intros [E1 E2]. cbn [d_rd d_max] in E1, E2. subst r2 mx2.
    unfold gdecode1_gen. cbn [d_rd d_hdrcap d_bufcap d_reuse d_max].
    destruct (negb (mx =? 0) && (mx <? word_size)); [triv|].
    destruct (rf r word_size) as [[w| |] r'] eqn:Er; [|triv|triv].
    cbn [with_rd d_rd d_hdrcap d_bufcap d_reuse d_max].
    destruct (le32_get w + 1 >? seg_count_limit fixed); [triv|].
    destruct (le32_get w =? 0) eqn:Ez.
    { apply gdecode_body_reuse_indep; [split; reflexivity|]. intros _.
      pose proof (Hex r word_size w r' ltac:(unfold word_size; lia) Er). unfold word_size in *. lia. }
    destruct ((stream_header_size (le32_get w) >? (if mx =? 0 then default_decode_limit else mx))
              || (stream_header_size (le32_get w) >? max_int)); [triv|].
    destruct (resize hc1 (stream_header_size (le32_get w))) as [c1 f1].
    destruct (resize hc2 (stream_header_size (le32_get w))) as [c2 f2]. cbn [d_rd].
    destruct (rf r' (stream_header_size (le32_get w) - word_size)) as [[rest| |] r'']; [|triv|triv].
    apply gdecode_body_reuse_indep; [split; reflexivity|lia].
  Qed.

  Lemma outcomes_grun_cons o ops st :
    outcomes (snd (grun_history rf st (o :: ops)))
    = match snd (gdstep rf true st o) with Some x => [fst x] | None => [] end
      ++ outcomes (snd (grun_history rf (fst (gdstep rf true st o)) ops)).
  Proof.
    cbn [grun_history]. destruct (gdstep rf true st o) as [st1 [x|]]; cbn [fst snd];
      destruct (grun_history rf st1 ops); reflexivity.
  Qed.

  (* ANY history of Decode / ReuseBuffer() / MaxMessageSize assignments, from two states that hold
     the same reader and limit (any reuse flags, any buffer capacities): the outcomes are those of
     the history with every ReuseBuffer() call removed *)
  Theorem reuse_transparent_history : forall ops s1 s2, same_view s1 s2 ->
    outcomes (snd (grun_history rf s1 ops)) = outcomes (snd (grun_history rf s2 (erase_reuse ops))).
  Proof.
    induction ops as [|o ops IH]; intros s1 s2 Hv; [reflexivity|]. rewrite outcomes_grun_cons.
    destruct o as [| |m]; cbn [erase_reuse filter is_reuse negb]; fold (erase_reuse ops);
      rewrite ?outcomes_grun_cons; cbn [gdstep].
    - pose proof (gdecode1_reuse_indep true s1 s2 Hv) as [Ho Hv'].
      destruct (gdecode1_gen rf true s1) as [[t1 o1] l1], (gdecode1_gen rf true s2) as [[t2 o2] l2].
      cbn [fst snd] in *. now rewrite Ho, (IH t1 t2 Hv').
    - apply IH, Hv.
    - cbn [fst snd]. f_equal. apply IH. split; [apply Hv|reflexivity].
  Qed.

  Lemma erase_reuse_decodes n : erase_reuse (repeat OpDecode n) = repeat OpDecode n.
  Proof.
    induction n as [|n IH]; [reflexivity|]. cbn [repeat]. unfold erase_reuse in *.
    cbn [filter is_reuse negb]. now rewrite IH.
  Qed.

  Lemma gdecode_n_grun : forall n st, gdecode_n rf st n = grun_history rf st (repeat OpDecode n).
  Proof.
    induction n as [|n IH]; intros st; [reflexivity|]. cbn [gdecode_n repeat grun_history gdstep].
    destruct (gdecode1_gen rf true st) as [[st1 out] log]. now rewrite IH.
  Qed.

  (* n Decode calls: with reuse = without reuse, for every n *)
  Theorem reuse_transparent_n n s1 s2 : same_view s1 s2 ->
    outcomes (snd (gdecode_n rf s1 n)) = outcomes (snd (gdecode_n rf s2 n)).
  Proof.
    intros Hv. rewrite !gdecode_n_grun, (reuse_transparent_history (repeat OpDecode n) s1 s2 Hv).
    now rewrite erase_reuse_decodes.
  Qed.
End Generic.

Lemma read_full_exact : rf_exact read_full.
Proof. intros r need b r' Hn H. now destruct (read_full_ok_inv r need b r' Hn H) as [_ [_ [Hl _]]]. Qed.

Lemma xread_full_exact : rf_exact xread_full.
Proof.
  intros [cs fin tog] need b r' Hn H.
  destruct (xread_full_loop_plain cs fin tog need false) as [H1 _].
  unfold xread_full in H. cbn [x_chunks x_final x_tog] in H. rewrite H in H1.
  apply (read_full_exact (mkReader cs fin) need b (snd (read_full_loop cs fin need false)) Hn).
  unfold read_full. cbn [r_chunks r_final fst] in *. rewrite H1. apply surjective_pairing.
Qed.

Lemma pread_full_loop_exact : forall fuel orc k b inp need got g p,
  pread_full_loop fuel orc k b inp need got = (RFok g, p) -> length g = need.
Proof.
  induction fuel as [|fuel IH]; intros orc k b inp need got g p; cbn [pread_full_loop];
    destruct need as [|need']; try (intros H; assert (g = []) by congruence; subst; reflexivity);
    [discriminate|].
  destruct (read_call true orc k b inp (S need')) as [[[[k' b'] inp'] g0] oe] eqn:Erc.
  pose proof (ReadCallProofs.read_call_len_le _ _ _ _ _ _ _ _ _ _ _ Erc) as Hl.
  destruct (S need' <=? length g0)%nat eqn:E.
  - intros H. assert (g = g0) by congruence. subst. apply Nat.leb_le in E. lia.
  - apply Nat.leb_gt in E. destruct oe as [e|].
    + destruct (got || negb (length g0 =? 0)%nat), e; discriminate.
    + destruct (pread_full_loop fuel orc k' b' inp' (S need' - length g0) (got || negb (length g0 =? 0)%nat))
        as [o p0] eqn:Ep.
      destruct o as [r0| |]; try discriminate. intros H. assert (g = g0 ++ r0) by congruence. subst.
      rewrite app_length. pose proof (IH _ _ _ _ _ _ _ _ Ep). lia.
Qed.

Lemma pread_full_exact : rf_exact pread_full.
Proof.
  intros r need b r' Hn. unfold pread_full. destruct (p_stuck r); [discriminate|].
  intros H. apply pread_full_loop_exact in H. unfold len. lia.
Qed.

Lemma run_history_grun : forall ops st, run_history st ops = grun_history read_full st ops.
Proof.
  induction ops as [|o ops IH]; intros st; [reflexivity|]. cbn [run_history grun_history].
  change (dstep st o) with (gdstep read_full true st o).
  destruct (gdstep read_full true st o) as [st1 out]. now rewrite IH.
Qed.

Lemma decode_n_reuse_indep n s1 s2 : same_view s1 s2 ->
  outcomes (snd (decode_n s1 n)) = outcomes (snd (decode_n s2 n)).
Proof.
  intros Hv. unfold decode_n.
  rewrite !run_history_grun, (reuse_transparent_history read_full read_full_exact _ s1 s2 Hv).
  now rewrite erase_reuse_decodes.
Qed.

(* Every byte stream (arbitrary bytes: no bytes_ok, no framing assumption), every reader behaviour
   (any chunking, empty reads, any final error, error with the last bytes or on a later call), any
   MaxMessageSize (also assigned during the history), any capacities of the two buffers, any
   history length: Decode calls with ReuseBuffer() called at any points return exactly the
   outcomes (io.EOF / error class / message with its segments' contents) of the same calls without
   any ReuseBuffer(). *)
Theorem reuse_transparent_all_streams :
  (forall ops cs fin tog hc bc ru hc' bc' mx,
     outcomes (snd (grun_history xread_full (mkD (mkX cs fin tog) hc bc ru mx) ops))
     = outcomes (snd (grun_history xread_full (mkD (mkX cs fin tog) hc' bc' false mx) (erase_reuse ops))))
  /\ (forall ops cs fin hc bc ru hc' bc' mx,
     outcomes (snd (run_history (mkD (mkReader cs fin) hc bc ru mx) ops))
     = outcomes (snd (run_history (mkD (mkReader cs fin) hc' bc' false mx) (erase_reuse ops))))
  /\ (forall ops (p : preader) hc bc ru hc' bc' mx,
     outcomes (snd (grun_history pread_full (mkD p hc bc ru mx) ops))
     = outcomes (snd (grun_history pread_full (mkD p hc' bc' false mx) (erase_reuse ops))))
  /\ (forall n cs fin hc bc hc' bc' mx,
     outcomes (snd (decode_n (mkD (mkReader cs fin) hc bc true mx) n))
     = outcomes (snd (decode_n (mkD (mkReader cs fin) hc' bc' false mx) n)))
  /\ (forall n orc P hc bc hc' bc' mx,
     outcomes (snd (pdecode_n (mkD (p_init orc P) hc bc true mx) n))
     = outcomes (snd (pdecode_n (mkD (p_init orc P) hc' bc' false mx) n))).
Proof.
  split; [|split; [|split; [|split]]].
  - intros. apply (reuse_transparent_history xread_full xread_full_exact). split; reflexivity.
  - intros. rewrite !run_history_grun. apply (reuse_transparent_history read_full read_full_exact). split; reflexivity.
  - intros. apply (reuse_transparent_history pread_full pread_full_exact). split; reflexivity.
  - intros. apply decode_n_reuse_indep. split; reflexivity.
  - intros. apply (reuse_transparent_n pread_full pread_full_exact). split; reflexivity.
Qed.

(* the erased history really contains no ReuseBuffer() call *)
Lemma erase_reuse_no_reuse ops : ~ In OpReuse (erase_reuse ops).
Proof. unfold erase_reuse. intros H. apply filter_In in H. destruct H as [_ H]. discriminate. Qed.

Lemma Forall2_fst_r {A B C} (Q : A -> B -> Prop) : forall l1 (l2 : list (B * C)),
  Forall2 (fun a d => Q a (fst d)) l1 l2 <-> Forall2 Q l1 (map fst l2).
Proof.
  induction l1 as [|a l1 IH]; intros [|d l2]; cbn [map]; split; intros H; inversion H; subst;
    constructor; try assumption; now apply IH.
Qed.

(* The content-level model of the reuse path (FrameReuse.v: stale bytes in d.hdrbuf / d.buf,
   segments as slices, the reused Message and its cache): every Decode / read-all-segments history,
   from ANY buffer contents and cache state, on ANY byte stream, reports what Decode WITHOUT
   ReuseBuffer reports (fresh buffers), and the segments read through Message.Segment are the
   segments of that message. *)
Theorem reuse_content_transparent : forall n st hc bc, ust_ok st ->
  Forall2 (fun ro d => out_match (fst d) (fst ro) (snd ro))
          (rdecode_read_n ResetFull st n)
          (snd (decode_n (mkD (u_rd st) hc bc false (u_max st)) n)).
Proof.
  intros n st hc bc Hok.
  apply (Forall2_fst_r (fun ro o => out_match o (fst ro) (snd ro))).
  rewrite <- (decode_n_reuse_indep n (u_abs st)) by (split; reflexivity).
  apply Forall2_fst_r. exact (reuse_history_refines n st Hok).
Qed.

(* non-vacuity / the histories differ in what they allocate, not in what they return *)
Example reuse_transparent_example :
  let s := frame [[1; 2; 3; 4; 5; 6; 7; 8]] ++ frame [[9; 9; 9; 9; 9; 9; 9; 9]; []] ++ [0; 0; 0] in
  let ops := [OpReuse; OpDecode; OpDecode; OpReuse; OpDecode; OpDecode] in
  outcomes (snd (run_history (d_init (mkReader [s] EOF) 0) ops))
    = [DMsg [[1; 2; 3; 4; 5; 6; 7; 8]]; DMsg [[9; 9; 9; 9; 9; 9; 9; 9]; []]; DErr EReadHeader; DEof]
  /\ erase_reuse ops = [OpDecode; OpDecode; OpDecode; OpDecode]
  /\ map snd (snd (run_history (d_init (mkReader [s] EOF) 0) ops))
     <> map snd (snd (run_history (d_init (mkReader [s] EOF) 0) (erase_reuse ops))).
Proof. vm_compute. repeat split. discriminate. Qed.
