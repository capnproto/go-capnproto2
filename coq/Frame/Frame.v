(* L1 model of the stream framing of /repo/message.go:
     streamHeaderSize, streamHeader.{maxSegment,segmentSize,totalSize}, demuxArena,
     Message.Marshal, Unmarshal, Encoder.Encode, Decoder.Decode (+ ReuseBuffer, MaxMessageSize),
     io.ReadFull over a reader that delivers its bytes in arbitrary chunks.
   Bytes are Z in [0,256).  A segment is a list of bytes, a message a list of segments
   (kept general on purpose: the builder properties reuse marshal/unmarshal).
   Go's uint32/uint64/int32 arithmetic is written with explicit wrap where the code computes
   in that type, with ONE exception stated at [demux_arena] (int(maxSeg+1) for maxSeg = 2^32-1,
   which needs >= 16 GiB of input).  `int` is 64 bit.  No proofs in this file. *)
From Coq Require Export List ZArith Bool Lia.
From CV Require Export Packed.Packed.   (* byte_ok, bytes_ok, zeros, rerr (EOF | UnexpectedEOF) *)
Export ListNotations.
Open Scope Z_scope.

(* ------------------------------------------------------------------ results *)

(* which check of the code fired *)
Inductive ferr :=
| EEof            (* io.EOF: nothing at all was read *)
| EShortHeader    (* unmarshal: short header section *)
| EShortData      (* unmarshal: short data section *)
| ESegOverflow    (* segment %d: overflow size   (Size.times failed) *)
| ETooManySegs    (* decode: too many segments to decode *)
| ETooLarge       (* decode: message too large *)
| EConfig         (* decode: max message size is smaller than header size *)
| EReadHeader     (* decode: read header: <error of io.ReadFull> *)
| EReadSegs       (* decode: read segments: <error of io.ReadFull> *)
| ENoSegs         (* marshal/encode: message has no segments *)
| EHdrOverflow    (* header size overflows int *)
| ESegTooLarge    (* segment %d too large *)
| EUnaligned      (* segment %d not word-aligned *)
| ESizeOverflow   (* marshal: message size overflows int *)
| EUnpack.        (* unmarshal: <error of packed.Unpack> *)

Inductive res (A : Type) :=
| Ok (a : A)
| Err (e : ferr)
| Panic.          (* Go run-time panic: slice bounds out of range / index out of range *)
Arguments Ok {A} a.
Arguments Err {A} e.
Arguments Panic {A}.

Definition bind {A B} (r : res A) (f : A -> res B) : res B :=
  match r with Ok a => f a | Err e => Err e | Panic => Panic end.
Notation "'do' x <- r ; k" := (bind r (fun x => k)) (at level 200, x name, r at level 100, k at level 200).

(* ------------------------------------------------------------------ fixed-width numbers *)

Definition two31 : Z := 2147483648.
Definition two32 : Z := 4294967296.
Definition two64 : Z := 18446744073709551616.
Definition max_int : Z := 9223372036854775807.          (* int is int64 *)
Definition wrap32 (z : Z) : Z := z mod two32.
Definition wrap64 (z : Z) : Z := z mod two64.
Definition to_int32 (u : Z) : Z := if u <? two31 then u else u - two32.   (* int32(uint32) *)

Definition word_size : Z := 8.
Definition max_segment_size : Z := two32 - 8.           (* address.go: 1<<32 - 8 *)
Definition max_stream_segments : Z := 512.              (* message.go *)
Definition default_decode_limit : Z := 67108864.        (* 64 << 20 *)
Definition slice_header_bytes : Z := 24.                (* one []byte value in a [][]byte *)

Definition len {A} (l : list A) : Z := Z.of_nat (length l).

(* binary.LittleEndian.PutUint32 / appendUint32 *)
Definition le32 (v : Z) : list Z :=
  [v mod 256; (v / 256) mod 256; (v / 65536) mod 256; (v / 16777216) mod 256].

(* binary.LittleEndian.Uint32(b): the caller has checked len(b) >= 4 *)
Definition le32_get (b : list Z) : Z :=
  nth 0 b 0 + 256 * nth 1 b 0 + 65536 * nth 2 b 0 + 16777216 * nth 3 b 0.

(* binary.LittleEndian.Uint32(b[off:]) : b[off:] panics when off > len(b), Uint32 panics
   when fewer than 4 bytes remain *)
Definition uint32_at (b : list Z) (off : Z) : res Z :=
  if off + 4 <=? len b then Ok (le32_get (skipn (Z.to_nat off) b)) else Panic.

(* ------------------------------------------------------------------ header arithmetic *)

(* func streamHeaderSize(maxSeg SegmentID) uint64 { return ((uint64(maxSeg)+2)*4 + 7) &^ 7 } *)
Definition stream_header_size (maxSeg : Z) : Z :=
  let x := wrap64 (wrap64 ((maxSeg + 2) * 4) + 7) in x - x mod 8.

(* func (sz Size) times(n int32) with sz = wordSize:
     x := int64(sz) * int64(n); if x > int64(maxSegmentSize) || x < 0 { fail } *)
Definition word_times (n : Z) : option Z :=
  let x := word_size * n in
  if (x >? max_segment_size) || (x <? 0) then None else Some x.

(* func (h streamHeader) segmentSize(i SegmentID):
     s := binary.LittleEndian.Uint32(h.b[4+i*4:])     -- 4+i*4 is computed in uint32 (SegmentID)
     sz, ok := wordSize.times(int32(s)) *)
Definition seg_index (i : Z) : Z := wrap32 (4 + wrap32 (i * 4)).

Definition segment_size (hb : list Z) (i : Z) : res Z :=
  do s <- uint32_at hb (seg_index i);
  match word_times (to_int32 s) with
  | Some sz => Ok sz
  | None => Err ESegOverflow
  end.

(* the same with the index computed without uint32 wrap (what the comment of the code
   promises); no theorem mentions it: FrameProofs.seg_index_wraps shows the wrap on [seg_index] *)
Definition segment_size_nowrap (hb : list Z) (i : Z) : res Z :=
  do s <- uint32_at hb (4 + i * 4);
  match word_times (to_int32 s) with
  | Some sz => Ok sz
  | None => Err ESegOverflow
  end.

(* func (h streamHeader) maxSegment() *)
Definition max_segment (hb : list Z) : res Z := uint32_at hb 0.

(* func (h streamHeader) totalSize(): for i := uint64(0); i <= uint64(maxSegment); i++ { sum += x } *)
Fixpoint total_size_loop (n : nat) (hb : list Z) (i sum : Z) : res Z :=
  match n with
  | O => Ok sum
  | S n' =>
    do x <- segment_size hb (wrap32 i);        (* SegmentID(i) *)
    total_size_loop n' hb (i + 1) (wrap64 (sum + x))
  end.

Definition total_size (hb : list Z) : res Z :=
  do m <- max_segment hb;
  total_size_loop (Z.to_nat (m + 1)) hb 0 0.

(* func demuxArena(hdr, data): segs[i], data = data[:sz:sz], data[sz:]
   (the first test int64(maxSeg) > maxInt-1 cannot fire with a 64-bit int) *)
Fixpoint demux_loop (n : nat) (hb : list Z) (i : Z) (data : list Z) : res (list (list Z)) :=
  match n with
  | O => Ok []
  | S n' =>
    do sz <- segment_size hb (wrap32 i);
    if len data <? sz then Panic
    else
      do r <- demux_loop n' hb (i + 1) (skipn (Z.to_nat sz) data);
      Ok (firstn (Z.to_nat sz) data :: r)
  end.

(* NOT modelled: message.go computes the table length as int(maxSeg+1) with maxSeg a uint32, so for
   maxSeg = 2^32-1 it wraps to 0 and Go's demuxArena returns 0 segments; this definition iterates
   m+1 = 2^32 times.  Only Unmarshal can get there, with a header of >= 16 GiB (Decode stops at 512
   segments); for such inputs the Unmarshal theorems are about this definition, not about the code
   (listed under ASSUMPTIONS in props/C14.py, observation O3 in docs/C14.md). *)
Definition demux_arena (hb data : list Z) : res (list (list Z)) :=
  do m <- max_segment hb;
  demux_loop (Z.to_nat (m + 1)) hb 0 data.

(* ------------------------------------------------------------------ Unmarshal *)

Definition unmarshal (data : list Z) : res (list (list Z)) :=
  if len data =? 0 then Err EEof
  else if len data <? word_size then Err EShortHeader
  else
    let maxSeg := le32_get data in
    let hdrSize := stream_header_size maxSeg in
    if len data <? hdrSize then Err EShortHeader
    else
      let hb := firstn (Z.to_nat hdrSize) data in
      let rest := skipn (Z.to_nat hdrSize) data in
      do total <- total_size hb;
      if total >? len rest then Err EShortData
      else demux_arena hb rest.

(* A DECLARED COST FUNCTION, not an allocation log (unlike Decode, whose model logs every make):
   the only allocation of Unmarshal besides the constant-size Message is demuxArena's [][]byte,
   24 bytes per returned segment; nothing is copied.  It is computed from the RESULT: 0 when
   Unmarshal fails (demuxArena is reached only when every earlier check passed, and cannot fail
   after totalSize succeeded: FrameSafe.header_total_demux).  So
   C14_unmarshal_alloc_linear says "24 * number of returned segments <= 6 * len data". *)
Definition unmarshal_alloc (data : list Z) : Z :=
  match unmarshal data with
  | Ok segs => slice_header_bytes * len segs
  | _ =>
    (* demuxArena is reached only when every earlier check passed; it cannot fail after
       totalSize succeeded, so an error means it was not reached *)
    0
  end.

(* ------------------------------------------------------------------ Marshal / Encode *)

(* the segment table: count-1, one size per segment, padded to a word *)
Definition header_words (segs : list (list Z)) : list Z :=
  le32 (wrap32 (len segs - 1)) ++ flat_map (fun s => le32 (wrap32 (len s / word_size))) segs.

Definition pad_to (n : Z) (b : list Z) : list Z := b ++ zeros (Z.to_nat (n - len b)).

(* per-segment checks of Marshal, with the running dataSize *)
Fixpoint marshal_sizes (segs : list (list Z)) (dataSize : Z) : res Z :=
  match segs with
  | [] => Ok dataSize
  | s :: r =>
    let n := len s in
    if negb (n mod word_size =? 0) then Err EUnaligned
    else if n >? max_segment_size then Err ESegTooLarge
    else
      let d := wrap64 (dataSize + n) in
      if d >? max_int then Err ESizeOverflow else marshal_sizes r d
  end.

(* func (m *Message) Marshal(): buf := make([]byte, hdrSize, total); PutUint32(buf, nsegs-1);
   PutUint32(buf[(i+1)*4:], len/8); buf = append(buf, s.data...)  — the PutUint32 calls fill
   the zeroed header left to right, which is written here as a concatenation *)
Definition marshal (segs : list (list Z)) : res (list Z) :=
  let nsegs := len segs in
  if nsegs =? 0 then Err ENoSegs
  else
    let hdrSize := stream_header_size (wrap32 (nsegs - 1)) in
    if hdrSize >? max_int then Err EHdrOverflow
    else
      do dataSize <- marshal_sizes segs 0;
      if wrap64 (hdrSize + dataSize) >? max_int then Err ESizeOverflow
      else Ok (pad_to hdrSize (header_words segs) ++ concat segs).

(* func (e *Encoder) Encode(m).  [aligned] = true: the repaired code rejects a segment
   whose length is not a multiple of 8 (as Marshal does); false: the code as found, which
   writes len/8 into the table and all len bytes into the stream. *)
Fixpoint encode_sizes (aligned : bool) (segs : list (list Z)) : res unit :=
  match segs with
  | [] => Ok tt
  | s :: r =>
    let n := len s in
    (* message.go (repaired): the alignment test comes first, then n > maxSegmentSize *)
    if aligned && negb (n mod word_size =? 0) then Err EUnaligned
    else if n >? max_segment_size then Err ESegTooLarge
    else encode_sizes aligned r
  end.

Definition encode (aligned : bool) (segs : list (list Z)) : res (list Z) :=
  let nsegs := len segs in
  if nsegs =? 0 then Err ENoSegs
  else
    let hdrSize := stream_header_size (wrap32 (nsegs - 1)) in
    if hdrSize >? max_int then Err EHdrOverflow
    else
      do _ <- encode_sizes aligned segs;
      let h := header_words segs in
      (* if len(e.hdrbuf)%8 != 0 { appendUint32(0) } *)
      let h := if len h mod word_size =? 0 then h else h ++ le32 0 in
      Ok (h ++ concat segs).

(* ------------------------------------------------------------------ readers, io.ReadFull *)

(* An io.Reader: the bytes it will deliver, cut into the chunks in which successive Read
   calls return them (a chunk larger than the request is delivered piecewise; an empty
   chunk is a Read returning 0, nil), and the error it reports when exhausted: io.EOF for
   a plain stream, possibly io.ErrUnexpectedEOF for the packed reader (after which it
   reports io.EOF). *)
Record reader := mkReader { r_chunks : list (list Z); r_final : rerr }.

Inductive rf_out :=
| RFok (b : list Z)
| RFeof                 (* io.EOF: no byte read *)
| RFerr.                (* io.ErrUnexpectedEOF (some bytes read) or the reader's own error *)

(* io.ReadFull(r, buf) with len(buf) = need; [got] = some byte was already read by this call.
   Each Read delivers (a piece of) the next chunk; the loop ends when the buffer is full or
   the reader reports its error: io.EOF with nothing read stays io.EOF, otherwise the call
   fails (io.ErrUnexpectedEOF, or the reader's own error). *)
Fixpoint read_full_loop (cs : list (list Z)) (fin : rerr) (need : Z) (got : bool)
  : rf_out * reader :=
  if need <=? 0 then (RFok [], mkReader cs fin)
  else
    match cs with
    | [] =>
      (match got, fin with
       | false, EOF => RFeof
       | _, _ => RFerr
       end, mkReader [] EOF)
    | c :: cs' =>
      if len c <=? need then
        let '(o, r) := read_full_loop cs' fin (need - len c) (got || negb (len c =? 0)) in
        (match o with RFok b => RFok (c ++ b) | x => x end, r)
      else (RFok (firstn (Z.to_nat need) c), mkReader (skipn (Z.to_nat need) c :: cs') fin)
    end.

Definition read_full (r : reader) (need : Z) : rf_out * reader :=
  read_full_loop (r_chunks r) (r_final r) need false.

(* ------------------------------------------------------------------ Decoder *)

Inductive alloc :=
| AHdr (n : Z)      (* make([]byte, hdrSize) for d.hdrbuf *)
| ABuf (n : Z)      (* make([]byte, total): the segment data *)
| ATable (n : Z).   (* make([][]byte, maxSeg+1) in demuxArena, n = number of entries *)

(* the decoder state is generic in the reader it is given (a plain chunked stream, or
   packed.Reader over one) *)
Record gstate (R : Type) := mkD {
  d_rd : R;
  d_hdrcap : Z;      (* cap(d.hdrbuf) *)
  d_bufcap : Z;      (* cap(d.buf) *)
  d_reuse : bool;
  d_max : Z          (* d.MaxMessageSize, a uint64 *)
}.
Arguments mkD {R}.
Arguments d_rd {R}.
Arguments d_hdrcap {R}.
Arguments d_bufcap {R}.
Arguments d_reuse {R}.
Arguments d_max {R}.
Notation dstate := (gstate reader).

Definition d_init {R} (r : R) (maxSize : Z) : gstate R := mkD r 0 0 false maxSize.

Inductive dout :=
| DMsg (segs : list (list Z))
| DEof
| DErr (e : ferr)
| DPanic.

Definition with_rd {R} (st : gstate R) (r : R) : gstate R :=
  mkD r (d_hdrcap st) (d_bufcap st) (d_reuse st) (d_max st).

(* resizeSlice(b, size): allocates only when cap(b) < size *)
Definition resize (cap size : Z) : Z * bool := if cap <? size then (size, true) else (cap, false).

(* second half of Decode: the header [hb] is complete *)
Definition gdecode_body {R} (rf : R -> Z -> rf_out * R) (st : gstate R) (maxSize maxSeg : Z)
           (hb : list Z) (log : list alloc) : gstate R * dout * list alloc :=
  match total_size hb with
  | Err e => (st, DErr e, log)
  | Panic => (st, DPanic, log)
  | Ok total =>
    if (total >? wrap64 (maxSize - len hb)) || (total >? max_int) then (st, DErr ETooLarge, log)
    else if negb (d_reuse st) then
      let log := log ++ [ABuf total] in
      match rf (d_rd st) total with
      | (RFok buf, r') =>
        let st' := with_rd st r' in
        match demux_arena hb buf with
        | Ok segs => (st', DMsg segs, log ++ [ATable (maxSeg + 1)])
        | Err e => (st', DErr e, log)
        | Panic => (st', DPanic, log)
        end
      | (_, r') => (with_rd st r', DErr EReadSegs, log)
      end
    else
      let '(cap', fresh) := resize (d_bufcap st) total in
      let log := if fresh then log ++ [ABuf total] else log in
      let st1 := mkD (d_rd st) (d_hdrcap st) cap' true (d_max st) in
      match rf (d_rd st1) total with
      | (RFok buf, r') =>
        let st' := with_rd st1 r' in
        if maxSeg =? 0 then (st', DMsg [buf], log)
        else
          match demux_arena hb buf with
          | Ok segs => (st', DMsg segs, log ++ [ATable (maxSeg + 1)])
          | Err e => (st', DErr e, log)
          | Panic => (st', DPanic, log)
          end
      | (_, r') => (with_rd st1 r', DErr EReadSegs, log)
      end
  end.

(* the number of segments Decode accepts.  [fixed] = true: the repaired code rejects
   maxSeg >= maxStreamSegments, i.e. accepts at most 512 segments; false: the code as found
   tested maxSeg > maxStreamSegments and accepted 513. *)
Definition seg_count_limit (fixed : bool) : Z :=
  if fixed then max_stream_segments else max_stream_segments + 1.

(* func (d *Decoder) Decode() *)
Definition gdecode1_gen {R} (rf : R -> Z -> rf_out * R) (fixed : bool) (st : gstate R)
  : gstate R * dout * list alloc :=
  let maxSize := if d_max st =? 0 then default_decode_limit else d_max st in
  if negb (d_max st =? 0) && (d_max st <? word_size) then (st, DErr EConfig, [])
  else
    match rf (d_rd st) word_size with
    | (RFeof, r') => (with_rd st r', DEof, [])
    | (RFerr, r') => (with_rd st r', DErr EReadHeader, [])
    | (RFok w, r') =>
      let st := with_rd st r' in
      let maxSeg := le32_get w in
      if maxSeg + 1 >? seg_count_limit fixed then (st, DErr ETooManySegs, [])
      else if maxSeg =? 0 then gdecode_body rf st maxSize maxSeg w []
      else
        let hdrSize := stream_header_size maxSeg in
        if (hdrSize >? maxSize) || (hdrSize >? max_int) then (st, DErr ETooLarge, [])
        else
          let '(cap', fresh) := resize (d_hdrcap st) hdrSize in
          let log := if fresh then [AHdr hdrSize] else [] in
          let st := mkD (d_rd st) cap' (d_bufcap st) (d_reuse st) (d_max st) in
          match rf (d_rd st) (hdrSize - word_size) with
          | (RFok rest, r') => gdecode_body rf (with_rd st r') maxSize maxSeg (w ++ rest) log
          | (_, r') => (with_rd st r', DErr EReadHeader, log)
          end
    end.

(* the Decoder over a plain chunked stream *)
Definition decode_body : dstate -> Z -> Z -> list Z -> list alloc -> dstate * dout * list alloc :=
  gdecode_body read_full.
Definition decode1_gen : bool -> dstate -> dstate * dout * list alloc := gdecode1_gen read_full.
Definition decode1 : dstate -> dstate * dout * list alloc := decode1_gen true.

(* histories: Decode calls interleaved with ReuseBuffer() and assignments to MaxMessageSize *)
Inductive dop := OpDecode | OpReuse | OpSetMax (m : Z).

Definition dstep_gen (fixed : bool) (st : dstate) (o : dop) : dstate * option (dout * list alloc) :=
  match o with
  | OpDecode => let '(st', out, log) := decode1_gen fixed st in (st', Some (out, log))
  | OpReuse => (mkD (d_rd st) (d_hdrcap st) (d_bufcap st) true (d_max st), None)
  | OpSetMax m => (mkD (d_rd st) (d_hdrcap st) (d_bufcap st) (d_reuse st) (wrap64 m), None)
  end.

Definition dstep : dstate -> dop -> dstate * option (dout * list alloc) := dstep_gen true.

Fixpoint run_history (st : dstate) (ops : list dop) : dstate * list (dout * list alloc) :=
  match ops with
  | [] => (st, [])
  | o :: r =>
    let '(st1, out) := dstep st o in
    let '(st2, outs) := run_history st1 r in
    (st2, match out with Some x => x :: outs | None => outs end)
  end.

(* n successive Decode calls *)
Definition decode_n (st : dstate) (n : nat) : dstate * list (dout * list alloc) :=
  run_history st (repeat OpDecode n).

(* bytes of byte buffers requested by one Decode (header + data) *)
Fixpoint alloc_bytes (log : list alloc) : Z :=
  match log with
  | [] => 0
  | AHdr n :: r => n + alloc_bytes r
  | ABuf n :: r => n + alloc_bytes r
  | ATable _ :: r => alloc_bytes r
  end.

Fixpoint alloc_table (log : list alloc) : Z :=
  match log with
  | [] => 0
  | ATable n :: r => n + alloc_table r
  | _ :: r => alloc_table r
  end.

Definition eff_max (m : Z) : Z := if m =? 0 then default_decode_limit else m.

(* ------------------------------------------------------------------ packed path *)

(* NewPackedDecoder: the Decoder reads from packed.Reader.  The unpacked byte stream and the
   error that ends it are those of the C13 model (ReadWord loop; by C13_stream_agrees the
   fast/slow oracle does not matter). *)
Definition packed_reader (packed : list Z) : option reader :=
  match stream_unpack true (fun _ => false) packed with
  | Some (out, e) => Some (mkReader [out] e)
  | None => None          (* fuel: excluded by C13 *)
  end.

(* Encoder.writePacked: every buffer (header, then each segment) is packed on its own *)
Definition encode_packed (aligned : bool) (segs : list (list Z)) : res (list Z) :=
  do plain <- encode aligned segs;
  let hl := Z.to_nat (stream_header_size (wrap32 (len segs - 1))) in
  let bufs := firstn hl plain :: segs in
  (fix go (bs : list (list Z)) : res (list Z) :=
     match bs with
     | [] => Ok []
     | b :: r =>
       match pack_bytes b with
       | None => Panic                     (* packed.Pack panics on a length not multiple of 8 *)
       | Some p => do q <- go r; Ok (p ++ q)
       end
     end) bufs.
