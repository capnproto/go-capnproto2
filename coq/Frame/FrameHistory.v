(* What a whole HISTORY of Decode calls returns on a byte stream (plain path), for every history
   length: the messages of the frames at the head of the stream, then the outcome on what is left;
   io.EOF exactly when nothing is left (and the reader ends with io.EOF); after io.EOF or a read
   error (stream exhausted) every later Decode returns io.EOF.  The Decoder is NOT sticky: after an
   error of another class (too many segments, too large, size overflow) it goes on parsing at the
   byte after what it consumed ([decode_not_sticky]). *)
From CV Require Import Frame.Frame.
From CV Require Import Frame.FramePacked.
From CV Require Import Frame.FrameHist.
From CV Require Import Frame.FrameProofs.
From CV Require Import Frame.FrameSafe.
From CV Require Import Frame.FrameStream.
From CV Require Import Frame.FrameThms.
From Coq Require Import ZifyBool ZifyNat.
Open Scope Z_scope.

(* outcomes after which the stream is exhausted: io.EOF, or a failed read of header / segments *)
Definition end_out (o : dout) : bool :=
  match o with DEof | DErr EReadHeader | DErr EReadSegs => true | _ => false end.

Definition exhausted (r : reader) : Prop := concat (r_chunks r) = [] /\ r_final r = EOF.

Lemma read_full_fail r need o r' : read_full r need = (o, r') -> (forall b, o <> RFok b) ->
  exhausted r' /\ (o = RFeof -> exhausted r).
Proof.
  intros H Hno. apply read_full_inv in H as [(_ & -> & _)|(_ & Hc & Hf & ->)]; [now destruct (Hno _ eq_refl)|].
  split; [now split|]. destruct (0 <? _) eqn:E0; [discriminate|]. destruct (r_final r) eqn:Ef; [|discriminate].
  intros _. split; [|exact Ef]. destruct (concat (r_chunks r)); [reflexivity|].
  rewrite len_cons in E0. pose proof (len_nonneg l). lia.
Qed.

Lemma decode_body_end st maxSize maxSeg hb log st' out log' :
  decode_body st maxSize maxSeg hb log = (st', out, log') ->
  d_max st' = d_max st /\ out <> DEof /\ (end_out out = true -> exhausted (d_rd st')).
Proof.
  unfold decode_body. rewrite gdecode_body_eq.
  destruct (total_size hb) as [t|e|] eqn:Et.
  2: apply total_size_err in Et as ->.
  1: destruct (_ || _); [|cbn zeta; destruct (read_full (d_rd st) t) as [[buf| |] r'] eqn:Er;
       [destruct (_ && _); [|destruct (demux_arena hb buf) as [segs|e|] eqn:Ed;
                              [|apply demux_arena_err in Ed as ->|]]| |]].
  all: intros [= <- <- <-]; cbn [d_rd d_max end_out]; (split; [reflexivity|]); (split; [discriminate|]);
    try discriminate.
  (* "read segments": the read failed *)
  all: intros _; apply (read_full_fail _ _ _ _ Er); discriminate.
Qed.

(* One Decode, ANY stream, any chunking, any state: MaxMessageSize is unchanged; io.EOF is returned
   only when the stream was already exhausted (no byte left, reader ends with io.EOF); after io.EOF
   or a read error the stream is exhausted *)
Lemma decode1_end st st' out log : decode1 st = (st', out, log) ->
  d_max st' = d_max st /\ (out = DEof -> exhausted (d_rd st)) /\ (end_out out = true -> exhausted (d_rd st')).
Proof.
  unfold decode1, decode1_gen. rewrite gdecode1_gen_eq.
  destruct (_ && _); [intros [= <- <- <-]; cbn [end_out with_rd d_rd d_max]; repeat split; discriminate|].
  destruct (read_full (d_rd st) word_size) as [[w| |] r1] eqn:E1.
  2,3: destruct (read_full_fail _ _ _ _ E1 ltac:(discriminate)) as [H1 H2]; intros [= <- <- <-];
       cbn [end_out with_rd d_rd d_max]; (split; [reflexivity|split]); auto; discriminate.
  cbn zeta. destruct (_ >? seg_count_limit true); [intros [= <- <- <-]; cbn [end_out with_rd d_rd d_max]; repeat split; discriminate|].
  destruct (_ && _); [intros [= <- <- <-]; cbn [end_out with_rd d_rd d_max]; repeat split; discriminate|].
  destruct (if negb (le32_get w =? 0) then _ else _) as [[rest| |] r2] eqn:E2.
  1: intros H; apply decode_body_end in H as (H1 & H2 & H3); split; [exact H1|split; [|exact H3]];
     intros ->; now destruct H2.
  (* "read header": the second read failed *)
  all: destruct (le32_get w =? 0); [discriminate|]; intros [= <- <- <-]; cbn [end_out with_rd d_rd d_max].
  all: split; [reflexivity|split; [discriminate|]]; intros _; apply (read_full_fail _ _ _ _ E2); discriminate.
Qed.

Lemma decode_n_S_outcomes st n st1 out log : decode1 st = (st1, out, log) ->
  outcomes (snd (decode_n st (S n))) = out :: outcomes (snd (decode_n st1 n)).
Proof. intros E. rewrite decode_n_S, E. now destruct (decode_n st1 n). Qed.

(* on an exhausted stream Decode returns io.EOF, for ever *)
Lemma decode_n_exhausted : forall n st, max_ok (d_max st) -> exhausted (d_rd st) ->
  outcomes (snd (decode_n st n)) = repeat DEof n.
Proof.
  induction n as [|n IH]; intros [[cs fin] hc bc ru mx] Hmx [Hc Hf]; [reflexivity|].
  cbn [d_rd d_max r_chunks r_final] in *. subst fin.
  destruct (decode1_eof cs hc bc ru mx Hmx Hc) as [cs' [E Hc']].
  rewrite (decode_n_S_outcomes _ _ _ _ _ E). cbn [repeat]. f_equal. now apply IH.
Qed.

Lemma decode_n_max : forall n st, d_max (fst (decode_n st n)) = d_max st.
Proof.
  induction n as [|n IH]; intros st; [reflexivity|]. rewrite decode_n_S.
  destruct (decode1 st) as [[st1 out] log] eqn:E. destruct (decode1_end _ _ _ _ E) as [Hm _].
  specialize (IH st1). destruct (decode_n st1 n) as [st2 outs]. cbn [fst] in *. congruence.
Qed.

(* ANY stream, any chunking, any final reader error, any state, every k and n: if the Decode number
   k returned io.EOF or a read error, the n Decode calls after it all return io.EOF *)
Theorem decode_end_sticky : forall k n st, max_ok (d_max st) ->
  let outs := outcomes (snd (decode_n st (S k + n))) in
  end_out (nth k outs DPanic) = true -> skipn (S k) outs = repeat DEof n.
Proof.
  induction k as [|k IH]; intros n st Hmx; cbv zeta; destruct (decode1 st) as [[st1 out] log] eqn:E;
    destruct (decode1_end _ _ _ _ E) as [Hm [_ He]]; cbn [Nat.add];
    rewrite (decode_n_S_outcomes _ _ _ _ _ E); cbn [nth skipn].
  - intros Ho. apply decode_n_exhausted; [congruence|auto].
  - apply (IH n st1). congruence.
Qed.

(* ANY stream ...: the Decode number k returns io.EOF only if the k calls before it left nothing
   of the stream (and the reader ends with io.EOF) *)
Theorem decode_eof_only_exhausted : forall k st,
  nth k (outcomes (snd (decode_n st (S k)))) DPanic = DEof -> exhausted (d_rd (fst (decode_n st k))).
Proof.
  induction k as [|k IH]; intros st; destruct (decode1 st) as [[st1 out] log] eqn:E;
    rewrite (decode_n_S_outcomes _ _ _ _ _ E); cbn [nth].
  - rewrite decode_n_0. intros ->. now apply (decode1_end _ _ _ _ E).
  - rewrite (decode_n_S st k), E. specialize (IH st1). now destruct (decode_n st1 k).
Qed.

Lemma outcomes_app a b : outcomes (a ++ b) = outcomes a ++ outcomes b.
Proof. apply map_app. Qed.

(* The stream is the frames of [msgs] (each acceptable to the decoder) followed by ANY bytes [rest];
   any chunking, any final reader error, reuse on/off, any capacities; history of |msgs| + 1 + n calls:
   (1) the first |msgs| outcomes are the messages, in order;
   (2) outcome number |msgs| is io.EOF  iff  rest is empty and the reader ends with io.EOF;
   (3) if it is io.EOF or a read error, all n later outcomes are io.EOF;
   (4) it IS io.EOF or a read error when rest is empty or a non-empty strict prefix of an acceptable frame;
   (5) it is the message m when rest starts with the (canonical) frame of an acceptable m.
   PARTIAL with respect to "the whole frames of the longest prefix that parses as frames": when rest is
   none of these (a header that breaks a limit, or a frame whose header PADDING word is not zero -- the
   decoder does not look at the padding and accepts it) the theorem only says: not io.EOF, and (3). *)
Theorem decode_history_characterised_partial : forall msgs rest cs fin hc bc ru mx n,
  max_ok mx -> Forall (frame_ok mx) msgs -> concat cs = concat (map frame msgs) ++ rest ->
  let outs := outcomes (snd (decode_n (mkD (mkReader cs fin) hc bc ru mx) (length msgs + S n))) in
  let nxt := nth (length msgs) outs DPanic in
  firstn (length msgs) outs = map DMsg msgs /\
  (nxt = DEof <-> rest = [] /\ fin = EOF) /\
  (end_out nxt = true -> skipn (S (length msgs)) outs = repeat DEof n) /\
  ((rest = [] \/ exists m tail, frame_ok mx m /\ frame m = rest ++ tail /\ rest <> [] /\ tail <> []) ->
   end_out nxt = true) /\
  (forall m t, frame_ok mx m -> rest = frame m ++ t -> nxt = DMsg m).
Proof.
  intros msgs rest cs fin hc bc ru mx n Hmx Hok Hcs.
  destruct (decode_frames fin ru mx Hmx msgs cs hc bc rest Hok Hcs) as [cs' [hc' [bc' [o1 [E1 [Ho1 Hc']]]]]].
  cbv zeta. rewrite decode_n_add, E1.
  assert (L1 : length (outcomes o1) = length msgs).
  { unfold outcomes. rewrite Ho1. apply map_length. }
  pose proof (decode_end_sticky 0 n (mkD (mkReader cs' fin) hc' bc' ru mx) Hmx) as St. cbv zeta in St.
  cbn [Nat.add] in St. change (S n) with (1 + n)%nat.
  rewrite decode_n_S in *. destruct (decode1 (mkD (mkReader cs' fin) hc' bc' ru mx)) as [[st1 out] log] eqn:E.
  destruct (decode_n st1 n) as [st2 outs2]. cbn [snd] in *. rewrite outcomes_app.
  rewrite firstn_app, L1, Nat.sub_diag, <- L1, firstn_all, app_nil_r.
  rewrite app_nth2 by lia. rewrite L1, Nat.sub_diag.
  replace (S (length msgs)) with (length (outcomes o1) + 1)%nat by lia.
  rewrite skipn_app, Nat.add_comm, Nat.add_sub. rewrite skipn_all2 by lia. cbn [app].
  cbn [outcomes map fst nth skipn] in *.
  split; [exact Ho1|]. destruct (decode1_end _ _ _ _ E) as [_ [He _]]. cbn [d_rd] in He.
  split; [|split; [exact St|split]].
  - split.
    + intros ->. destruct (He eq_refl) as [X Y]. cbn [r_chunks r_final] in *. split; congruence.
    + intros [-> ->]. destruct (decode1_eof cs' hc' bc' ru mx Hmx Hc') as [cs2 [E2 _]]. congruence.
  - intros [->|[m [tail [Hm [Hf [Hq Ht]]]]]].
    + destruct (decode1_stream_end cs' fin hc' bc' ru mx Hmx Hc') as [cs2 [E2 _]]. rewrite E2 in E.
      injection E as <- <- <-. now destruct fin.
    + destruct (decode1_cut m rest tail cs' fin hc' bc' ru mx Hmx Hm Hf Hq Ht Hc') as [st' [e [log' [E2 [[->| ->] _]]]]];
        rewrite E2 in E; injection E as <- <- <-; reflexivity.
  - intros m t Hm ->. destruct (decode1_frame m cs' fin hc' bc' ru mx t Hmx Hm Hc') as [c2 [h2 [b2 [l2 [E2 _]]]]].
    congruence.
Qed.

(* The Decoder is NOT sticky.  A first word announcing 513 segments is refused (8 bytes consumed);
   the next Decode parses whatever follows -- here a well-formed frame -- and returns a message.
   After io.EOF / a read error it keeps returning io.EOF (decode_end_sticky). *)
Example decode_not_sticky :
  let s := [0; 2; 0; 0; 0; 0; 0; 0] ++ frame [[1; 2; 3; 4; 5; 6; 7; 8]] in
  outcomes (snd (decode_n (d_init (mkReader [s] EOF) 0) 4))
  = [DErr ETooManySegs; DMsg [[1; 2; 3; 4; 5; 6; 7; 8]]; DEof; DEof].
Proof. vm_compute. reflexivity. Qed.

(* non-vacuity of decode_history_characterised_partial, clause (4) with a cut and clause (2),
   and a frame with a non-zero padding word, which the decoder accepts (the reason for "partial") *)
Example decode_history_example :
  let f1 := frame [[1; 2; 3; 4; 5; 6; 7; 8]] in
  let f2 := frame [[9; 9; 9; 9; 9; 9; 9; 9]; []] in
  frame_ok 0 [[1; 2; 3; 4; 5; 6; 7; 8]] /\
  outcomes (snd (decode_n (d_init (mkReader [f1 ++ firstn 10 f2] EOF) 0) 4))
    = [DMsg [[1; 2; 3; 4; 5; 6; 7; 8]]; DErr EReadHeader; DEof; DEof] /\
  outcomes (snd (decode_n (d_init (mkReader [f1; f2] EOF) 0) 4))
    = [DMsg [[1; 2; 3; 4; 5; 6; 7; 8]]; DMsg [[9; 9; 9; 9; 9; 9; 9; 9]; []]; DEof; DEof] /\
  outcomes (snd (decode_n (d_init (mkReader [[1; 0; 0; 0; 1; 0; 0; 0; 0; 0; 0; 0; 7; 7; 7; 7] ++ [9; 9; 9; 9; 9; 9; 9; 9]] EOF) 0) 2))
    = [DMsg [[9; 9; 9; 9; 9; 9; 9; 9]; []]; DEof].
Proof.
  split; [|vm_compute; repeat split].
  repeat split; [unfold len; cbn; lia|unfold max_stream_segments, len; cbn; lia| |vm_compute; discriminate].
  repeat constructor; vm_compute; try reflexivity; discriminate.
Qed.
