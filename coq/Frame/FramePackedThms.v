(* Composition of C13 with C14: the theorems about the packed paths on packed strings that the
   one-shot decoder accepts, and all serialisation paths returning the same segments. *)
From CV Require Import Packed.PackedProofs.
From CV Require Import Packed.ReaderProofs.
From CV Require Import Packed.ReadCallProofs.
From CV Require Import Packed.ReadCallProofs2.
From CV Require Import Frame.Frame.
From CV Require Import Frame.FramePacked.
From CV Require Import Frame.FrameProofs.
From CV Require Import Frame.FrameSafe.
From CV Require Import Frame.FrameStream.
From CV Require Import Frame.FrameThms.
From CV Require Import Frame.FramePackedProofs.
From CV Require Import Frame.FrameSim.
From Coq Require Import ZifyBool ZifyNat.
Open Scope Z_scope.

Lemma psim_rf : forall r1 r2 n, psim r1 r2 ->
  fst (pread_full r1 n) = fst (read_full r2 n) /\
  (forall b, fst (pread_full r1 n) = RFok b -> psim (snd (pread_full r1 n)) (snd (read_full r2 n))).
Proof. exact (psimP_rf true). Qed.

(* a fresh packed.Reader over ANY packed bytes, next to a plain reader over what it will hand out *)
Lemma st_simP_init orc P hc bc ru mx : bytes_ok P ->
  st_sim preader reader (psimP (snd (unpack_partial P))) (mkD (p_init orc P) hc bc ru mx)
         (mkD (mkReader [fst (unpack_partial P)] (verdict (snd (unpack_partial P)))) hc bc ru mx).
Proof.
  intros Hb. split; [|repeat split]. split; [|reflexivity].
  unfold pvalidP, p_init. cbn [p_stuck p_b p_inp d_rd r_chunks concat]. rewrite app_nil_r.
  split; [reflexivity|]. split; [exact b_init_valid|]. split; [assumption|].
  rewrite DP_init. now destruct (unpack_partial P).
Qed.

(* a fresh packed.Reader over a packed string that unpacks to U, next to a plain reader over U *)
Lemma st_sim_init orc P U cs hc bc ru mx : bytes_ok P -> unpack P = Some U -> concat cs = U ->
  st_sim preader reader psim (mkD (p_init orc P) hc bc ru mx) (mkD (mkReader cs EOF) hc bc ru mx).
Proof.
  intros Hb Hu Hc. pose proof (unpack_partial_unpack P) as HU. rewrite Hu in HU.
  split; [|repeat split]. split; [|reflexivity].
  unfold pvalidP, p_init. cbn [p_stuck p_b p_inp d_rd r_chunks]. rewrite Hc, DP_init.
  split; [reflexivity|]. split; [exact b_init_valid|]. split; assumption.
Qed.

Lemma decode_n_gdecode_n : forall n st, decode_n st n = gdecode_n read_full st n.
Proof.
  induction n as [|n IH]; intros st; [reflexivity|].
  rewrite decode_n_S. cbn [gdecode_n]. change (gdecode1_gen read_full true st) with (decode1 st).
  destruct (decode1 st) as [[st1 out] log]. now rewrite IH.
Qed.

Lemma gdecode_n_length {R} (rf : R -> Z -> rf_out * R) : forall n st, length (snd (gdecode_n rf st n)) = n.
Proof.
  induction n as [|n IH]; intros st; [reflexivity|]. cbn [gdecode_n].
  destruct (gdecode1_gen rf true st) as [[st1 out] log]. specialize (IH st1).
  destruct (gdecode_n rf st1 n). cbn [snd length] in *. now rewrite IH.
Qed.

Lemma all_msgs_prefix : forall ms (outs : list (dout * list alloc)) tl,
  map fst outs = map DMsg ms ++ tl -> all_msgs (firstn (length ms) outs) = true.
Proof.
  induction ms as [|m ms IH]; intros outs tl H; [reflexivity|].
  destruct outs as [|[o l] outs]; [discriminate|]. cbn [map fst app length firstn all_msgs] in *.
  injection H as -> H. now apply (IH outs tl).
Qed.

(* transfer along a simulation of readers: if the second decoder returns the messages [ms] and
   then one more outcome, the first decoder returns the same *)
Lemma gdecode_n_transfer {R1 R2} (rf1 : R1 -> Z -> rf_out * R1) (rf2 : R2 -> Z -> rf_out * R2)
      (sim : R1 -> R2 -> Prop)
      (Hrf : forall r1 r2 n, sim r1 r2 -> fst (rf1 r1 n) = fst (rf2 r2 n) /\
               (forall b, fst (rf1 r1 n) = RFok b -> sim (snd (rf1 r1 n)) (snd (rf2 r2 n))))
      s1 s2 ms last st2 outs2 :
  st_sim R1 R2 sim s1 s2 -> gdecode_n rf2 s2 (S (length ms)) = (st2, outs2) ->
  map fst outs2 = map DMsg ms ++ [last] ->
  exists st1, gdecode_n rf1 s1 (S (length ms)) = (st1, outs2).
Proof.
  intros Hs Hd Hm.
  pose proof (gdecode_n_sim R1 R2 rf1 rf2 sim Hrf (S (length ms)) s1 s2 Hs) as [_ H2]. cbn zeta in H2.
  pose proof (gdecode_n_length rf1 (S (length ms)) s1) as L1.
  pose proof (gdecode_n_length rf2 (S (length ms)) s2) as L2.
  rewrite Hd in H2, L2. cbn [snd] in H2, L2.
  destruct (gdecode_n rf1 s1 (S (length ms))) as [st1 outs1]. cbn [snd] in *. exists st1. f_equal.
  specialize (H2 (length ms) ltac:(lia) (all_msgs_prefix ms outs2 [last] Hm)).
  now rewrite (firstn_all2 outs1), (firstn_all2 outs2) in H2 by lia.
Qed.

(* if the plain decoder over the unpacked stream returns [ms] and then one more outcome, the
   packed decoder over the packed string returns the same *)
Lemma packed_transfer orc P U hc bc ru mx ms last st2 outs2 :
  bytes_ok P -> unpack P = Some U ->
  decode_n (mkD (mkReader [U] EOF) hc bc ru mx) (S (length ms)) = (st2, outs2) ->
  map fst outs2 = map DMsg ms ++ [last] ->
  exists st1, pdecode_n (mkD (p_init orc P) hc bc ru mx) (S (length ms)) = (st1, outs2).
Proof.
  intros Hb Hu Hd Hm. rewrite decode_n_gdecode_n in Hd.
  exact (gdecode_n_transfer pread_full read_full psim psim_rf _ _ ms last st2 outs2
           (st_sim_init orc P U [U] hc bc ru mx Hb Hu (app_nil_r U)) Hd Hm).
Qed.

Definition pmsg_ok (mx : Z) (m : list (list Z)) : Prop := frame_ok mx m /\ msg_bytes m.

Lemma pmsg_ok_enc mx msgs : max_ok mx -> Forall (pmsg_ok mx) msgs ->
  Forall (fun m => 1 <= len m < two32 /\ segs_ok m /\ msg_bytes m) msgs /\ Forall (frame_ok mx) msgs.
Proof.
  intros Hmx H. split.
  - revert H. apply Forall_impl. intros m [Hf Hb]. destruct (frame_ok_facts true mx m Hmx Hf) as [_ [H32 _]].
    destruct Hf as [_ [Hs _]]. auto.
  - revert H. apply Forall_impl. intros m [Hf _]. exact Hf.
Qed.

(* C14 + C13: any list of messages (each within the decoder's limits) written by
   NewPackedEncoder; NewPackedDecoder reading the concatenated packed stream, for every oracle
   (= every chunking of the underlying reader as seen through bufio), with or without
   ReuseBuffer, any buffer capacities: the messages come back in order, then io.EOF *)
Theorem decode_packed_encode_packed : forall msgs P orc hc bc ru mx,
  max_ok mx -> Forall (pmsg_ok mx) msgs -> encode_packed_stream msgs = Ok P ->
  exists st' outs,
    pdecode_n (mkD (p_init orc P) hc bc ru mx) (S (length msgs)) = (st', outs)
    /\ map fst outs = map DMsg msgs ++ [DEof].
Proof.
  intros msgs P orc hc bc ru mx Hmx Hok He.
  destruct (pmsg_ok_enc mx msgs Hmx Hok) as [Henc Hfr].
  destruct (encode_packed_stream_ok msgs Henc) as [P' [He' HP]].
  assert (P' = P) by congruence. subst P'. pose proof HP as [Hb _]. apply packs_to_unpack in HP.
  (* the plain decoder on the unpacked stream *)
  destruct (decode_frames EOF ru mx Hmx msgs [concat (map frame msgs)] hc bc [] Hfr
              ltac:(cbn [concat]; reflexivity)) as [cs1 [hc1 [bc1 [outs [E1 [Ho Hc1]]]]]].
  destruct (decode1_eof cs1 hc1 bc1 ru mx Hmx Hc1) as [cs2 [E2 _]].
  pose proof (decode_n_snoc _ _ _ _ _ _ _ E1 E2) as Hd.
  assert (Hm : map fst (outs ++ [(DEof, [])]) = map DMsg msgs ++ [DEof]) by (now rewrite map_app, Ho).
  destruct (packed_transfer orc P _ hc bc ru mx msgs DEof _ _ Hb HP Hd Hm) as [st1 E].
  now exists st1, (outs ++ [(DEof, [])]).
Qed.

(* a packed string that the one-shot decoder accepts and whose unpacked form ends strictly
   inside a frame (in particular: a packed stream cut at a packed-item boundary that is not a
   frame boundary): the whole frames are returned, then an error, never io.EOF *)
Theorem packed_cut_is_error : forall msgs m q tail qp orc hc bc ru mx,
  max_ok mx -> Forall (frame_ok mx) msgs -> frame_ok mx m ->
  frame m = q ++ tail -> q <> [] -> tail <> [] ->
  bytes_ok qp -> unpack qp = Some (concat (map frame msgs) ++ q) ->
  exists st' outs e,
    pdecode_n (mkD (p_init orc qp) hc bc ru mx) (S (length msgs)) = (st', outs)
    /\ map fst outs = map DMsg msgs ++ [DErr e] /\ (e = EReadHeader \/ e = EReadSegs).
Proof.
  intros msgs m q tail qp orc hc bc ru mx Hmx Hok Hm Hf Hq Ht Hb Hu.
  destruct (cut_is_error msgs m q tail [concat (map frame msgs) ++ q] EOF hc bc ru mx Hmx Hok Hm Hf Hq Ht
              ltac:(cbn [concat]; apply app_nil_r)) as [st2 [outs2 [e [Hd [Hmap He]]]]].
  destruct (packed_transfer orc qp _ hc bc ru mx msgs (DErr e) st2 outs2 Hb Hu Hd Hmap) as [st1 E].
  exists st1, outs2, e. repeat split; assumption.
Qed.

(* a prefix of a packed stream that is itself accepted by the one-shot decoder unpacks to a
   prefix of the unpacked stream (so [packed_cut_is_error] / [decode_packed_encode_packed]
   together with C14_cut_decompose cover every cut at a packed-item boundary) *)
Theorem packed_prefix_unpacks_to_prefix : forall qp rest U o,
  unpack (qp ++ rest) = Some U -> unpack qp = Some o -> exists o', U = o ++ o' /\ unpack rest = Some o'.
Proof.
  intros qp rest U o HU Ho. rewrite (unpack_app qp o rest Ho) in HU.
  destruct (unpack rest) as [o'|]; [|discriminate]. cbn [option_map] in HU.
  exists o'. split; [congruence|reflexivity].
Qed.

Lemma pdecode1_of_unpack P m rest orc hc bc ru mx :
  max_ok mx -> frame_ok mx m -> bytes_ok P -> unpack P = Some (frame m ++ rest) ->
  exists st' log, pdecode1 (mkD (p_init orc P) hc bc ru mx) = (st', DMsg m, log).
Proof.
  intros Hmx Hok Hb Hu.
  destruct (decode1_frame m [frame m ++ rest] EOF hc bc ru mx rest Hmx Hok
              ltac:(cbn [concat]; apply app_nil_r)) as [cs' [hc' [bc' [log [E _]]]]].
  pose proof (gdecode1_sim preader reader pread_full read_full psim psim_rf true
                (mkD (p_init orc P) hc bc ru mx) (mkD (mkReader [frame m ++ rest] EOF) hc bc ru mx)
                (st_sim_init orc P (frame m ++ rest) [frame m ++ rest] hc bc ru mx Hb Hu ltac:(cbn [concat]; apply app_nil_r))) as [Ho [Hl _]].
  change (gdecode1_gen read_full true) with decode1 in Ho, Hl. rewrite E in Ho, Hl. cbn [fst snd] in Ho, Hl.
  unfold pdecode1, pdecode1_gen.
  destruct (gdecode1_gen pread_full true (mkD (p_init orc P) hc bc ru mx)) as [[st' o] l].
  cbn [fst snd] in *. subst. now exists st', log.
Qed.

(* C04's last sentence at the segment level.  For a message within the decoder's limits whose
   segments are byte strings, every serialisation path returns the same segment list:
   Marshal/Unmarshal, MarshalPacked/UnmarshalPacked, Encoder/Decoder for any chunking, packed
   Encoder/Decoder for any oracle; Marshal and Encode write the same bytes, and the packed
   readers accept either packed form. *)
Theorem all_paths_same_segments : forall segs mx, max_ok mx -> frame_ok mx segs -> msg_bytes segs ->
  exists b p pe,
    marshal segs = Ok b /\ encode true segs = Ok b /\
    marshal_packed segs = Ok p /\ encode_packed true segs = Ok pe /\
    (* 1 *) unmarshal b = Ok segs /\
    (* 2 *) unmarshal_packed p = Ok segs /\
    (* 3 *) (forall cs hc bc ru, concat cs = b ->
               exists st' log, decode1 (mkD (mkReader cs EOF) hc bc ru mx) = (st', DMsg segs, log)) /\
    (* 4 *) (forall orc hc bc ru,
               exists st' log, pdecode1 (mkD (p_init orc pe) hc bc ru mx) = (st', DMsg segs, log)) /\
    (* 5 *) unmarshal_packed pe = Ok segs /\
            (forall orc hc bc ru,
               exists st' log, pdecode1 (mkD (p_init orc p) hc bc ru mx) = (st', DMsg segs, log)).
Proof.
  intros segs mx Hmx Hok Hb.
  destruct (frame_ok_facts true mx segs Hmx Hok) as [Hc [H32 [H8 _]]]. pose proof Hok as [_ [Hs _]].
  destruct (encode_packed_ok segs H32 Hs Hb) as [pe [Epe Hpe]].
  pose proof Hpe as [Hbpe _]. apply packs_to_unpack in Hpe.
  destruct (marshal_packed_ok segs Hc Hs Hb) as [p [Emp [Hup Hbp]]].
  exists (frame segs), p, pe.
  split; [now apply marshal_frame|]. split; [now apply encode_frame|].
  split; [assumption|]. split; [assumption|].
  split; [now apply unmarshal_frame0|].
  split; [now apply unmarshal_packed_frame|].
  split.
  { intros cs hc bc ru Hcs.
    destruct (decode1_frame segs cs EOF hc bc ru mx [] Hmx Hok ltac:(now rewrite app_nil_r))
      as [cs' [hc' [bc' [log [E _]]]]]. eauto. }
  split; [intros orc hc bc ru; apply (pdecode1_of_unpack pe segs []); now rewrite ?app_nil_r|].
  split; [now apply unmarshal_packed_frame|].
  intros orc hc bc ru. apply (pdecode1_of_unpack p segs []); now rewrite ?app_nil_r.
Qed.

(* non-vacuity: a two-segment message through the packed encoder and decoder, both oracle
   components alternating *)
Example packed_example :
  let m := [[1; 0; 0; 0; 0; 0; 0; 2]; repeat 0 16] in
  match encode_packed true m with
  | Ok p => map fst (snd (pdecode_n (d_init (p_init (fun k => (Nat.even k, Nat.odd k)) p) 0) 2)) = [DMsg m; DEof]
            /\ unmarshal_packed p = Ok m
  | _ => False
  end.
Proof. vm_compute. split; reflexivity. Qed.
