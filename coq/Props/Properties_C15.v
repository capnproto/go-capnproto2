(* C15 -- generated accessors implement exactly the layout the schema declares.
   Statements only. [gen_accessor] is the Gallina mirror of what capnpc-go computes for a field
   (Layout.v (e)); Layout/GenCheck.v ties it to the code emitted by the current generator. *)
From CV Require Import Layout.Layout.
From CV Require Import Layout.BytesProofs.
From CV Require Import Layout.LayoutProofs.
From CV Require Import Layout.LayoutMain.
From CV Require Import Layout.GenCheck.
From CV Require Import Gen.GenAccessors.
Open Scope Z_scope.

(* getter (setter v s) = v, for every field descriptor, every struct, every value of the kind *)
Theorem C15_roundtrip : forall f g st v s s', field_wf f -> strukt_ok s -> value_ok (fd_kind f) v ->
  a_get (gen_accessor f) = Some g -> a_set (gen_accessor f) = Some st ->
  run_setter st v s = Ok s' -> run_getter g (fd_default f) s' = Ok (readback f v).
Proof. exact gen_roundtrip. Qed.
Print Assumptions C15_roundtrip.

(* the setter changes exactly field_range and, for union members, the discriminant's 16 bits *)
Theorem C15_setter_frame : forall f st v s s', field_wf f -> strukt_ok s -> value_ok (fd_kind f) v ->
  a_set (gen_accessor f) = Some st -> run_setter st v s = Ok s' ->
  strukt_ok s' /\ length (sdata s') = length (sdata s) /\ length (sptrs s') = length (sptrs s) /\
  (forall i, 0 <= i -> ~ in_range (field_range f) i -> ~ in_disc f i ->
     data_bit (sdata s') i = data_bit (sdata s) i) /\
  (forall j, field_range f <> RPtr (Z.of_nat j) -> nth j (sptrs s') 0 = nth j (sptrs s) 0).
Proof. exact gen_setter_frame. Qed.
Print Assumptions C15_setter_frame.

(* ... and writes encode(v) xor default into field_range, the member's value into the discriminant *)
Theorem C15_setter_exact : forall f st v s s', field_wf f -> strukt_ok s -> value_ok (fd_kind f) v ->
  a_set (gen_accessor f) = Some st -> run_setter st v s = Ok s' ->
  match field_range f with
  | RBits lo len => bits_in (sdata s') lo len = true /\
      bits_val (sdata s') lo (Z.to_nat len) = Z.lxor (encode (fd_kind f) v) (default_raw f)
  | RPtr slot => s_ptr s' slot = ptr_token (fd_kind f) (fd_default f) v
  | RNone => True
  end /\ spec_active f s' = true.
Proof. exact gen_setter_exact. Qed.
Print Assumptions C15_setter_exact.

(* the setter succeeds iff field and discriminant lie inside the runtime struct, panics otherwise,
   never touches memory outside the struct *)
Theorem C15_setter_total : forall f st v s, field_wf f -> strukt_ok s -> value_ok (fd_kind f) v ->
  a_set (gen_accessor f) = Some st ->
  run_setter st v s <> Escape /\
  ((exists s', run_setter st v s = Ok s') <->
   ((has_disc f = true -> bits_in (sdata s) (disc_lo f) 16 = true) /\
    match field_range f with
    | RBits lo len => bits_in (sdata s) lo len = true
    | RPtr slot => 0 <= slot < pcount s
    | RNone => True
    end)).
Proof. exact gen_setter_total. Qed.
Print Assumptions C15_setter_total.

(* the getter is the value of the schema's bit range / slot, XOR the default, behind the union test *)
Theorem C15_getter_value : forall f g s, field_wf f -> strukt_ok s ->
  a_get (gen_accessor f) = Some g -> run_getter g (fd_default f) s = spec_get f s.
Proof. exact gen_getter_value. Qed.
Print Assumptions C15_getter_value.

(* the getter on zero bits (or on a struct too short to contain the field) returns the default *)
Theorem C15_getter_default : forall f g s, field_wf f -> strukt_ok s ->
  a_get (gen_accessor f) = Some g -> field_zero f s -> spec_active f s = true ->
  run_getter g (fd_default f) s = Ok (fd_default f).
Proof. exact gen_getter_default. Qed.
Print Assumptions C15_getter_default.

Theorem C15_getter_zero_struct : forall f g n m, field_wf f -> Z.of_nat n * 8 < 2 ^ 32 ->
  a_get (gen_accessor f) = Some g -> (has_disc f = false \/ fd_disc f = 0) ->
  run_getter g (fd_default f) (mkS (repeat 0 n) (repeat 0 m)) = Ok (fd_default f).
Proof. exact gen_getter_zero_struct. Qed.
Print Assumptions C15_getter_zero_struct.

(* union members: getter / XBytes panic and Has answers false unless Which() is the member;
   the setter makes it so; Has = active and slot non-null *)
Theorem C15_union_inactive : forall f s, field_wf f -> strukt_ok s -> spec_active f s = false ->
  (forall g, a_get (gen_accessor f) = Some g -> fd_kind f <> KGroup -> run_getter g (fd_default f) s = Panic) /\
  (forall g, a_getbytes (gen_accessor f) = Some g -> run_getbytes g (fd_default f) s = Panic) /\
  (forall h, a_has (gen_accessor f) = Some h -> run_has h s = Ok false).
Proof. exact gen_union. Qed.
Print Assumptions C15_union_inactive.

Theorem C15_setter_activates : forall f st v s s', field_wf f -> strukt_ok s -> value_ok (fd_kind f) v ->
  a_set (gen_accessor f) = Some st -> run_setter st v s = Ok s' -> has_disc f = true ->
  spec_which f s' = fd_disc f.
Proof. exact gen_setter_activates. Qed.
Print Assumptions C15_setter_activates.

Theorem C15_has : forall f h s, field_wf f -> strukt_ok s -> a_has (gen_accessor f) = Some h ->
  run_has h s = Ok (spec_has f s).
Proof. exact gen_has_spec. Qed.
Print Assumptions C15_has.

Theorem C15_new : forall f n t s, field_wf f -> strukt_ok s -> t <> 0 ->
  a_new (gen_accessor f) = Some n -> run_new n t s = spec_set f t s.
Proof. exact gen_new_spec. Qed.
Print Assumptions C15_new.

(* generated object size = 8 * dataWordCount / pointerCount for ALL dataWordCount < 65536 (the product
   is not taken in uint16), type id = node id; a field the schema
   places inside the node can be set on a struct allocated with that size *)
Theorem C15_sizes : forall n, nd_isgroup n = false ->
  0 <= nd_dwc n < 65536 -> 0 <= nd_pc n < 65536 ->
  ni_new (gen_node n) = Some (8 * nd_dwc n, nd_pc n) /\
  ni_newroot (gen_node n) = Some (8 * nd_dwc n, nd_pc n) /\
  ni_list (gen_node n) = Some (8 * nd_dwc n, nd_pc n) /\
  ni_typeid (gen_node n) = Some (nd_id n) /\
  (* exact over the whole uint16 range of dataWordCount: no reduction modulo 2^16 *)
  0 <= 8 * nd_dwc n <= 524280 /\ (8192 <= nd_dwc n -> 65536 <= fst (gen_objsize n)).
Proof. exact gen_node_size. Qed.
Print Assumptions C15_sizes.

Theorem C15_new_struct_fits : forall f st n v, field_wf f -> value_ok (fd_kind f) v ->
  0 <= nd_dwc n < 65536 -> 0 <= nd_pc n -> fits f n -> a_set (gen_accessor f) = Some st ->
  exists s', run_setter st v (new_struct n) = Ok s'.
Proof. exact gen_new_struct_fits. Qed.
Print Assumptions C15_new_struct_fits.

(* the tie: what genir read in the code emitted by the current generator IS gen_accessor / gen_node
   (kernel-checked for every corpus field), so the statements above hold of the emitted accessors *)
Theorem C15_emitted_is_model : forall f ir, In (f, ir) fields -> ir = gen_accessor f /\ field_wf f.
Proof. exact emitted_is_model. Qed.
Print Assumptions C15_emitted_is_model.

Theorem C15_emitted_roundtrip : forall f ir g st v s s', In (f, ir) fields ->
  strukt_ok s -> value_ok (fd_kind f) v -> a_get ir = Some g -> a_set ir = Some st ->
  run_setter st v s = Ok s' -> run_getter g (fd_default f) s' = Ok (readback f v).
Proof. exact emitted_roundtrip. Qed.
Print Assumptions C15_emitted_roundtrip.

Theorem C15_emitted_sizes : forall n ir, In (n, ir) nodes -> nd_isgroup n = false ->
  ni_new ir = Some (8 * nd_dwc n, nd_pc n) /\ ni_newroot ir = Some (8 * nd_dwc n, nd_pc n) /\
  ni_list ir = Some (8 * nd_dwc n, nd_pc n) /\ ni_typeid ir = Some (nd_id n).
Proof. exact emitted_sizes. Qed.
Print Assumptions C15_emitted_sizes.

(* generated type names: whatever qualified Go type / constructor an emitted getter, setter, NewX or
   client method signature names resolves (through the emitted import block) to the package and
   type whose X_TypeID is the schema's type id -- in particular the right Foo_List wrapper *)
Theorem C15_emitted_typerefs : forall t ids x, In (t, ids) typerefs -> In x ids -> x = t.
Proof. exact emitted_typerefs. Qed.
Print Assumptions C15_emitted_typerefs.

(* pointer defaults: the getter's StructDefault/ListDefault/Default argument and the pipelined accessor
   X_Future.F() = p.Future.Field(slot, default) name the field's own pointer slot and exactly the bytes
   of the field's own default (nil when it has none) *)
Theorem C15_emitted_defaults : forall k want got, In (k, (want, got)) defrefs -> got = want.
Proof. exact emitted_defrefs. Qed.
Print Assumptions C15_emitted_defaults.
