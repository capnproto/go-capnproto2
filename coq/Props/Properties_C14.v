(* C14 — stream framing is exact and decoding is bounded by the configured limits.
   Statements only; each is closed by [exact] of a lemma proved in coq/Frame/. *)
From CV Require Import Frame.Frame.
From CV Require Import Frame.FrameProofs.
From CV Require Import Frame.FrameSafe.
From CV Require Import Frame.FrameStream.
From CV Require Import Frame.FrameThms.
From CV Require Import Frame.FrameAlloc.
From CV Require Import Frame.FramePacked.
From CV Require Import Frame.FramePackedProofs.
From CV Require Import Frame.FrameSim.
From CV Require Import Frame.FramePackedThms.
From CV Require Import Packed.ReadCallProofs2.
From CV Require Import Frame.FramePackedFull.
From CV Require Import Frame.FrameReaders.
From CV Require Import Frame.FrameReadersProofs.
From CV Require Import Frame.FrameReuse.
From CV Require Import Frame.FrameReuseProofs.
From CV Require Import Base.GoSem.
From CV Require Import Gen.GoArith.
From CV Require Import Frame.FrameGoAgree.
Open Scope Z_scope.

(* Any list of messages written by Encoder.Encode (repaired: unaligned segments are refused),
   each within the decoder's limits, concatenated and delivered in ANY chunking, with or
   without ReuseBuffer, with any buffer capacities left from earlier calls: the Decode calls
   return the same messages in order and then io.EOF. *)
Theorem C14_decode_encode_stream : forall msgs frames cs hc bc ru mx,
  max_ok mx ->
  Forall2 (fun m f => encode true m = Ok f) msgs frames ->
  Forall (fun m => len m <= max_stream_segments) msgs ->
  Forall (fun f => len f <= eff_max mx) frames ->
  concat cs = concat frames ->
  exists st' outs,
    decode_n (mkD (mkReader cs EOF) hc bc ru mx) (S (length msgs)) = (st', outs)
    /\ map fst outs = map DMsg msgs ++ [DEof].
Proof. exact decode_encode_stream. Qed.
Print Assumptions C14_decode_encode_stream.

(* A stream that ends strictly inside a frame (after any number of whole frames): the whole
   frames are returned, then an error; never io.EOF, never a message. Any chunking, with and
   without reuse, any final error of the reader. *)
Theorem C14_cut_is_error : forall msgs m q tail cs fin hc bc ru mx,
  max_ok mx -> Forall (frame_ok mx) msgs -> frame_ok mx m ->
  frame m = q ++ tail -> q <> [] -> tail <> [] ->
  concat cs = concat (map frame msgs) ++ q ->
  exists st' outs e,
    decode_n (mkD (mkReader cs fin) hc bc ru mx) (S (length msgs)) = (st', outs)
    /\ map fst outs = map DMsg msgs ++ [DErr e] /\ (e = EReadHeader \/ e = EReadSegs).
Proof. exact cut_is_error. Qed.
Print Assumptions C14_cut_is_error.

(* every cut point is either a frame boundary or strictly inside one frame *)
Theorem C14_cut_decompose : forall (fs : list (list Z)) p tl,
  Forall (fun f => f <> []) fs -> concat fs = p ++ tl ->
  exists j q, p = concat (firstn j fs) ++ q /\
    (q = [] \/ exists t, nth_error fs j = Some (q ++ t) /\ q <> [] /\ t <> []).
Proof. exact cut_decompose. Qed.
Print Assumptions C14_cut_decompose.

(* For ALL input bytes and any decoder state: buffers requested by one Decode <= the
   effective MaxMessageSize; at most 512 segments accepted (= maxStreamSegments; the repaired code tests maxSeg >= 512,
   the code as found accepted 513: C14_accepts_513_refuted); no panic; a returned message is well formed and its
   framed size is within the limit. *)
Theorem C14_alloc_bound : forall cs fin hc bc ru mx st' out log,
  bytes_ok (concat cs) -> 0 <= mx < two64 ->
  decode1 (mkD (mkReader cs fin) hc bc ru mx) = (st', out, log) ->
  0 <= alloc_bytes log <= eff_max mx /\
  0 <= alloc_table log <= max_stream_segments /\
  out <> DPanic /\
  (forall segs, out = DMsg segs ->
     1 <= len segs <= max_stream_segments /\ segs_ok segs /\
     stream_header_size (len segs - 1) + sum_len segs <= eff_max mx) /\
  bytes_ok (concat (r_chunks (d_rd st'))) /\ d_max st' = mx.
Proof. exact alloc_bound. Qed.
Print Assumptions C14_alloc_bound.

(* the same for every history of Decode and ReuseBuffer calls *)
Theorem C14_alloc_bound_history : forall ops st st' outs,
  (forall m, ~ In (OpSetMax m) ops) -> st_ok st -> run_history st ops = (st', outs) ->
  Forall (fun ol => 0 <= alloc_bytes (snd ol) <= eff_max (d_max st) /\
                    alloc_table (snd ol) <= max_stream_segments /\ fst ol <> DPanic /\
                    forall segs, fst ol = DMsg segs -> len segs <= max_stream_segments) outs.
Proof. exact alloc_bound_history. Qed.
Print Assumptions C14_alloc_bound_history.

(* Unmarshal (Marshal segs) = segs, also with trailing bytes; for 1 .. 2^30-1 segments (beyond
   that the uint32 index 4+i*4 of segmentSize wraps, see C14_seg_index_wraps) *)
Theorem C14_unmarshal_roundtrip : forall segs, count_ok segs -> segs_ok segs ->
  exists b, marshal segs = Ok b /\ unmarshal b = Ok segs /\ forall junk, unmarshal (b ++ junk) = Ok segs.
Proof. exact unmarshal_roundtrip. Qed.
Print Assumptions C14_unmarshal_roundtrip.

(* Marshal and the repaired Encode write the same bytes *)
Theorem C14_encode_is_marshal : forall segs, count_ok segs -> segs_ok segs ->
  marshal segs = Ok (frame segs) /\ encode true segs = Ok (frame segs).
Proof. exact encode_is_marshal. Qed.
Print Assumptions C14_encode_is_marshal.

(* Unmarshal of arbitrary bytes: no panic, at most 6 bytes allocated per input byte *)
Theorem C14_unmarshal_safe : forall data, bytes_ok data -> unmarshal data <> Panic.
Proof. exact unmarshal_safe. Qed.
Print Assumptions C14_unmarshal_safe.

Theorem C14_unmarshal_alloc_linear : forall data, bytes_ok data ->
  0 <= unmarshal_alloc data <= 6 * len data.
Proof. exact unmarshal_alloc_linear. Qed.
Print Assumptions C14_unmarshal_alloc_linear.

(* chunk independence of io.ReadFull: outcome, remaining bytes and final error are a
   function of the concatenated stream *)
Theorem C14_read_full_chunking : forall cs fin need got,
  flat (read_full_loop cs fin need got) = read_full_flat (concat cs) fin need got.
Proof. exact read_full_loop_flat. Qed.
Print Assumptions C14_read_full_chunking.

(* ---------------------------------------------------------------- ReuseBuffer at the level of buffer contents *)

(* In the theorems above "reuse on/off, any hc bc" means: the reuse FLAG and the buffer
   CAPACITIES; Frame.v's decoder has value semantics and does not represent what the reused
   buffers contain nor the reused Message object.  FrameReuse.v does: d.hdrbuf / d.buf keep their
   old bytes when large enough, segments are slices of d.buf's array, the returned Message is the
   one object d.msg with its cache of loaded segments, which Message.Reset must drop.
   One Decode of that model, from ANY previous buffer contents and ANY state of the segment cache,
   on any byte stream: same outcome and same capacities as the capacities-only decoder with the
   reuse flag on, and the segments the caller reads through Message.Segment are the message's. *)
Theorem C14_rdecode1_refines : forall st,
  bytes_ok (concat (r_chunks (u_rd st))) -> (u_cur st < length (u_heap st))%nat ->
  ref_ok (rdecode1 st) (decode1 (u_abs st)).
Proof. exact rdecode1_refines. Qed.
Print Assumptions C14_rdecode1_refines.

(* ... and for every history  Decode; read all segments; Decode; ...  (reading fills the cache
   that the next Reset has to drop).  With C14_decode_encode_stream / C14_cut_is_error /
   C14_alloc_bound at ru = true (they hold for both values of ru and every hc bc) this gives:
   decoding with ReuseBuffer, whatever the buffers held before, returns what decoding without
   ReuseBuffer returns.  (The general "ru = true and ru = false give the same outcome on every
   byte stream" is not stated as one lemma; it follows for streams of frames and for cut streams
   from the theorems named, and is exercised by the differential run on arbitrary streams.) *)
Theorem C14_reuse_history_refines : forall n st, ust_ok st ->
  Forall2 (fun ro d => out_match (fst d) (fst ro) (snd ro))
          (rdecode_read_n ResetFull st n) (snd (decode_n (u_abs st) n)).
Proof. exact reuse_history_refines. Qed.
Print Assumptions C14_reuse_history_refines.

(* the two broken Message.Reset variants seen as seeded changes (reset only "if arena != m.Arena";
   firstSeg not cleared): the caller gets the previous message's slice over the new bytes *)
Theorem C14_reset_variants_refuted :
  let f1 := frame [[1; 2; 3; 4; 5; 6; 7; 8; 9; 9; 9; 9; 9; 9; 9; 9]] in
  let f2 := frame [[7; 7; 7; 7; 7; 7; 7; 7]] in
  let st := mkU (mkReader [f1 ++ f2] EOF) [5; 5; 5] [[6; 6; 6]] 0 msg0 0 in
  ust_ok st /\
  map snd (rdecode_read_n ResetFull st 3)
    = [[Some [1; 2; 3; 4; 5; 6; 7; 8; 9; 9; 9; 9; 9; 9; 9; 9]]; [Some [7; 7; 7; 7; 7; 7; 7; 7]]; []] /\
  nth 1 (map snd (rdecode_read_n ResetIfArenaDiffers st 3)) [] = [Some [7; 7; 7; 7; 7; 7; 7; 7; 9; 9; 9; 9; 9; 9; 9; 9]] /\
  nth 1 (map snd (rdecode_read_n ResetKeepsFirst st 3)) [] = [Some [7; 7; 7; 7; 7; 7; 7; 7; 9; 9; 9; 9; 9; 9; 9; 9]].
Proof. exact reset_variants_refuted. Qed.
Print Assumptions C14_reset_variants_refuted.

(* ---------------------------------------------------------------- every reader behaviour the io.Reader contract permits *)

(* io.ReadFull over a reader that may also deliver its final io.EOF together with the last bytes
   ([tog]) and make (0, nil) reads (empty chunks): outcome and remaining bytes are a function of
   the concatenated stream only *)
Theorem C14_read_full_any_reader : forall cs tog need got,
  (fst (xread_full_loop cs EOF tog need got),
   concat (x_chunks (snd (xread_full_loop cs EOF tog need got))),
   x_final (snd (xread_full_loop cs EOF tog need got)))
  = read_full_flat (concat cs) EOF need got
  /\ x_tog (snd (xread_full_loop cs EOF tog need got)) = tog.
Proof. exact xread_full_loop_flat. Qed.
Print Assumptions C14_read_full_any_reader.

(* C14_decode_encode_stream / C14_cut_is_error for all of these behaviours: any chunking, empty
   reads, io.EOF with the last bytes or by a separate read *)
Theorem C14_decode_encode_stream_any_reader : forall msgs frames cs tog hc bc ru mx,
  max_ok mx ->
  Forall2 (fun m f => encode true m = Ok f) msgs frames ->
  Forall (fun m => len m <= max_stream_segments) msgs ->
  Forall (fun f => len f <= eff_max mx) frames ->
  concat cs = concat frames ->
  exists st' outs,
    gdecode_n xread_full (mkD (mkX cs EOF tog) hc bc ru mx) (S (length msgs)) = (st', outs)
    /\ map fst outs = map DMsg msgs ++ [DEof].
Proof. exact decode_encode_stream_any_reader. Qed.
Print Assumptions C14_decode_encode_stream_any_reader.

Theorem C14_cut_is_error_any_reader : forall msgs m q tail cs tog hc bc ru mx,
  max_ok mx -> Forall (frame_ok mx) msgs -> frame_ok mx m ->
  frame m = q ++ tail -> q <> [] -> tail <> [] ->
  concat cs = concat (map frame msgs) ++ q ->
  exists st' outs e,
    gdecode_n xread_full (mkD (mkX cs EOF tog) hc bc ru mx) (S (length msgs)) = (st', outs)
    /\ map fst outs = map DMsg msgs ++ [DErr e] /\ (e = EReadHeader \/ e = EReadSegs).
Proof. exact cut_is_error_any_reader. Qed.
Print Assumptions C14_cut_is_error_any_reader.

(* ---------------------------------------------------------------- packed paths (C13 composed with C14) *)

(* bufio.Reader is not modelled: packed.Reader's two questions to it (Buffered() >= 9 for the
   fast path, Buffered() < 9 for a short read) are free oracles [orc]; "any chunking of the
   packed stream" is "any oracle". *)

(* MarshalPacked then UnmarshalPacked returns the segments *)
Theorem C14_unmarshal_packed_marshal_packed : forall segs, count_ok segs -> segs_ok segs -> msg_bytes segs ->
  exists p, marshal_packed segs = Ok p /\ unmarshal_packed p = Ok segs.
Proof. exact unmarshal_packed_marshal_packed. Qed.
Print Assumptions C14_unmarshal_packed_marshal_packed.

(* any message list written by NewPackedEncoder and read by NewPackedDecoder from the
   concatenated packed stream, every oracle, reuse on/off, any buffer state: the messages in
   order, then io.EOF *)
Theorem C14_decode_packed_encode_packed : forall msgs P orc hc bc ru mx,
  max_ok mx -> Forall (pmsg_ok mx) msgs -> encode_packed_stream msgs = Ok P ->
  exists st' outs,
    pdecode_n (mkD (p_init orc P) hc bc ru mx) (S (length msgs)) = (st', outs)
    /\ map fst outs = map DMsg msgs ++ [DEof].
Proof. exact decode_packed_encode_packed. Qed.
Print Assumptions C14_decode_packed_encode_packed.

(* a packed string accepted by the one-shot decoder whose unpacked form ends strictly inside a
   frame (a packed stream cut at a packed-item boundary that is not a frame boundary): whole
   frames, then an error, never io.EOF *)
Theorem C14_packed_cut_is_error : forall msgs m q tail qp orc hc bc ru mx,
  max_ok mx -> Forall (frame_ok mx) msgs -> frame_ok mx m ->
  frame m = q ++ tail -> q <> [] -> tail <> [] ->
  bytes_ok qp -> unpack qp = Some (concat (map frame msgs) ++ q) ->
  exists st' outs e,
    pdecode_n (mkD (p_init orc qp) hc bc ru mx) (S (length msgs)) = (st', outs)
    /\ map fst outs = map DMsg msgs ++ [DErr e] /\ (e = EReadHeader \/ e = EReadSegs).
Proof. exact packed_cut_is_error. Qed.
Print Assumptions C14_packed_cut_is_error.

(* ANY packed input, every oracle.  packed.Reader hands out fst (unpack_partial P) (C13_read_calls_partial);
   if that is the frames of [msgs] followed by [q] with q a non-empty strict prefix of a further
   frame, or q empty while P does not unpack (cut inside a packed item at a frame boundary of what
   was handed out): NewPackedDecoder returns exactly [msgs], in order, then an error, never io.EOF.
   (Replaces the weaker C14_packed_cut_inside_item_no_eof of round 2.) *)
Theorem C14_packed_cut_inside_item : forall msgs P q orc hc bc ru mx,
  max_ok mx -> Forall (frame_ok mx) msgs -> bytes_ok P ->
  fst (unpack_partial P) = concat (map frame msgs) ++ q ->
  ((exists m tail, frame_ok mx m /\ frame m = q ++ tail /\ q <> [] /\ tail <> []) \/
   (q = [] /\ snd (unpack_partial P) = false)) ->
  exists st' outs e,
    pdecode_n (mkD (p_init orc P) hc bc ru mx) (S (length msgs)) = (st', outs)
    /\ map fst outs = map DMsg msgs ++ [DErr e] /\ (e = EReadHeader \/ e = EReadSegs).
Proof. exact packed_cut_inside_item. Qed.
Print Assumptions C14_packed_cut_inside_item.

(* the packed stream written by NewPackedEncoder for [all], cut ANYWHERE (P ++ rest): what the
   reader hands out for P is the frames of the first j messages followed by q, q empty or a
   strict prefix of the next frame ... *)
Theorem C14_packed_stream_cut_shape : forall mx all Pfull P rest,
  max_ok mx -> Forall (pmsg_ok mx) all -> encode_packed_stream all = Ok Pfull -> Pfull = P ++ rest ->
  bytes_ok P /\
  exists j q, fst (unpack_partial P) = concat (map frame (firstn j all)) ++ q /\
    (q = [] \/ exists m t, nth_error all j = Some m /\ frame m = q ++ t /\ q <> [] /\ t <> []).
Proof. exact packed_stream_cut_shape. Qed.
Print Assumptions C14_packed_stream_cut_shape.

(* ... and unless the cut is clean (q empty and P unpacks: a packed frame boundary) the decoder
   returns the first j messages and then an error *)
Theorem C14_packed_stream_cut_is_error : forall mx all Pfull P rest orc hc bc ru,
  max_ok mx -> Forall (pmsg_ok mx) all -> encode_packed_stream all = Ok Pfull -> Pfull = P ++ rest ->
  forall j q, fst (unpack_partial P) = concat (map frame (firstn j all)) ++ q ->
  (q = [] \/ exists m t, nth_error all j = Some m /\ frame m = q ++ t /\ q <> [] /\ t <> []) ->
  (q <> [] \/ snd (unpack_partial P) = false) ->
  exists st' outs e,
    pdecode_n (mkD (p_init orc P) hc bc ru mx) (S (length (firstn j all))) = (st', outs)
    /\ map fst outs = map DMsg (firstn j all) ++ [DErr e] /\ (e = EReadHeader \/ e = EReadSegs).
Proof. exact packed_stream_cut_is_error. Qed.
Print Assumptions C14_packed_stream_cut_is_error.

(* the simulation behind these: on any bytes_ok packed input the packed decoder's outcomes are,
   up to and including the first one that is not a message, those of the plain Decoder over what
   the reader hands out, ended by io.EOF or io.ErrUnexpectedEOF according to unpack's verdict *)
Theorem C14_pdecode_n_any_packed : forall P orc hc bc ru mx n k, bytes_ok P -> (k < n)%nat ->
  let U := fst (unpack_partial P) in
  let fin := verdict (snd (unpack_partial P)) in
  let outs_plain := snd (decode_n (mkD (mkReader [U] fin) hc bc ru mx) n) in
  let outs_packed := snd (pdecode_n (mkD (p_init orc P) hc bc ru mx) n) in
  bytes_ok U /\
  (all_msgs (firstn k outs_plain) = true -> firstn (S k) outs_packed = firstn (S k) outs_plain).
Proof. exact pdecode_n_any_packed. Qed.
Print Assumptions C14_pdecode_n_any_packed.

(* prefixes of a packed stream accepted by the one-shot decoder unpack to prefixes of the
   unpacked stream; and the one-shot decoder is compositional *)
Theorem C14_packed_prefix : forall qp rest U o,
  unpack (qp ++ rest) = Some U -> unpack qp = Some o -> exists o', U = o ++ o' /\ unpack rest = Some o'.
Proof. exact packed_prefix_unpacks_to_prefix. Qed.
Print Assumptions C14_packed_prefix.

Theorem C14_unpack_app : forall a oa b, unpack a = Some oa -> unpack (a ++ b) = option_map (app oa) (unpack b).
Proof. exact PackedProofs.unpack_app. Qed.
Print Assumptions C14_unpack_app.

(* C04's last sentence at the segment level: every serialisation path returns the same
   segment list (cited by Properties_C04.v) *)
Theorem all_paths_same_segments : forall segs mx, max_ok mx -> frame_ok mx segs -> msg_bytes segs ->
  exists b p pe,
    marshal segs = Ok b /\ encode true segs = Ok b /\
    marshal_packed segs = Ok p /\ encode_packed true segs = Ok pe /\
    unmarshal b = Ok segs /\
    unmarshal_packed p = Ok segs /\
    (forall cs hc bc ru, concat cs = b ->
       exists st' log, decode1 (mkD (mkReader cs EOF) hc bc ru mx) = (st', DMsg segs, log)) /\
    (forall orc hc bc ru,
       exists st' log, pdecode1 (mkD (p_init orc pe) hc bc ru mx) = (st', DMsg segs, log)) /\
    unmarshal_packed pe = Ok segs /\
    (forall orc hc bc ru,
       exists st' log, pdecode1 (mkD (p_init orc p) hc bc ru mx) = (st', DMsg segs, log)).
Proof. exact FramePackedThms.all_paths_same_segments. Qed.
Print Assumptions all_paths_same_segments.

(* tie to the translated Go source (coq/Gen/GoArith.v is regenerated from /repo by gotrans on
   every run): the overflow-checked multiplication used by segmentSize is Size.times *)
Theorem C14_word_times_is_go_times : forall n, -2147483648 <= n < 2147483648 ->
  go_times word_size n = match word_times n with Some x => (x, true) | None => (4294967295, false) end.
Proof. exact word_times_is_go_times. Qed.
Print Assumptions C14_word_times_is_go_times.

(* findings / observations kept as refuted variants *)
(* F21: Encode as found accepts an unaligned segment: corrupt frame, panic in the packed encoder *)
Theorem C14_encode_unaligned_refuted :
  encode false [[1; 2; 3; 4; 5; 6; 7; 8; 9]] = Ok ([0; 0; 0; 0; 1; 0; 0; 0] ++ [1; 2; 3; 4; 5; 6; 7; 8; 9])
  /\ unmarshal ([0; 0; 0; 0; 1; 0; 0; 0] ++ [1; 2; 3; 4; 5; 6; 7; 8; 9]) = Ok [[1; 2; 3; 4; 5; 6; 7; 8]]
  /\ encode true [[1; 2; 3; 4; 5; 6; 7; 8; 9]] = Err EUnaligned
  /\ encode_packed false [[1; 2; 3; 4; 5; 6; 7; 8; 9]] = Panic.
Proof. exact encode_unaligned_refuted. Qed.
Print Assumptions C14_encode_unaligned_refuted.

(* F22 (was O1): the segment-count check as found accepted 513 segments; repaired: 512 *)
Theorem C14_accepts_513_refuted :
  let hdr512 := le32 511 ++ zeros (4 * 512 + 4) in
  let hdr513 := le32 512 ++ zeros (4 * 513) in
  (exists segs, snd (fst (decode1_gen false (d_init (mkReader [hdr513] EOF) 0))) = DMsg segs /\ len segs = 513) /\
  snd (fst (decode1 (d_init (mkReader [hdr513] EOF) 0))) = DErr ETooManySegs /\
  (exists segs, snd (fst (decode1 (d_init (mkReader [hdr512] EOF) 0))) = DMsg segs /\ len segs = 512).
Proof. exact accepts_513_refuted. Qed.
Print Assumptions C14_accepts_513_refuted.

(* O3: segmentSize computes 4+i*4 in uint32: entry 2^30-1 is read from offset 0 *)
Theorem C14_seg_index_wraps : seg_index 1073741823 = 0.
Proof. exact seg_index_wraps. Qed.
Print Assumptions C14_seg_index_wraps.
