(* C01 -- reading arbitrary bytes never panics and never escapes the supplied segments.
   Statements only; each is closed by [exact] of a lemma proved in Core/SafetyProofs.v (reader),
   Value/EqualSafe.v, Value/CanonSafe.v, Core/CopySafe.v (consumers), Core/EndToEnd.v and
   Frame/FramePackedSafe.v (from raw bytes).  NOT covered by any theorem here: text.Marshal and
   pogs.Extract on hostile bytes (their models are not composed with the reader model; C19 / C20
   runs only, see LEVEL_NOTE in props/C01.py).

   Standing assumptions: [msg_ok m]: every segment has at most maxSegmentSize (2^32-8) bytes and
   every byte is 0..255 - a hypothesis of the theorems of the first sections, PROVED in the last
   section for every message the framing layer hands out (C01_unmarshal_msg_ok ...), so trusted only
   for a Message over an application-supplied Arena; uint/int are 64 bits; the repaired configuration
   (cfg_strict, cfg_root, fx_bit true); the model Core/Reader.v, Core/ReadOps.v corresponds to
   the Go code as far as the C01 correspondence run shows. *)
From CV Require Import Core.SafetyProofs.
Open Scope Z_scope.

(* Message.Root on ANY message (any number of segments, any lengths, any bytes), any limits:
   a value or an error, and a value designates a region inside its segment *)
Theorem C01_root_safe : forall c m rl, msg_ok m -> cfg_root c = true ->
  res_sat (fst (root c m rl)) (fun p => cfg_strict c = true -> wf_ptr m p).
Proof. exact root_safe. Qed.
Print Assumptions C01_root_safe.

(* Segment.readPtr at any pointer word that lies inside its segment: every 64-bit pointer
   word (struct / list of all 8 kinds / far / double-far / capability / unknown), every
   offset and size field, any depth and traversal budget *)
Theorem C01_readPtr_safe : forall strict m rl sid s paddr depth,
  msg_ok m -> is_seg m sid s -> 0 <= paddr -> paddr + 8 <= zlen s ->
  res_sat (fst (readPtr strict m rl sid s paddr depth)) (fun p => strict = true -> wf_ptr m p).
Proof. exact readPtr_safe. Qed.
Print Assumptions C01_readPtr_safe.

(* every accessor on a well-formed receiver with arguments in the documented domain *)
Theorem C01_accessor_safe : forall c m p, msg_ok m -> cfg_strict c = true -> wf_ptr m p ->
  let s := as_struct p in let l := as_list p in
  (forall rl i, 0 <= i < 65536 -> res_sat (fst (struct_ptr c m rl s i)) (wf_ptr m)) /\
  (forall i, 0 <= i < 65536 -> struct_hasptr m s i <> Panic) /\
  (forall off n, 0 <= off < 524288 -> in_width n = true ->
     struct_uint m s off n <> Panic /\
     (p_valid s = true -> struct_uint m s off n =
        Ok (if off + n <=? DataSize (p_size s) then le_decode (sub (seg_of m s) (p_off s + off) n) else 0))) /\
  (forall n, 0 <= n < 4194304 -> struct_bit m s n <> Panic) /\
  (forall fd i, 0 <= i < list_len l -> res_sat (list_struct fd l i) (wf_ptr m)) /\
  (forall fu rl i, 0 <= i < list_len l -> res_sat (fst (ptrlist_at c fu m rl l i)) (wf_ptr m)) /\
  (forall fu i n, 0 <= i < list_len l -> in_width n = true ->
     res_sat (list_uint_at fu m l i n)
       (fun v => v = 0 \/ exists a, 0 <= a /\ a + n <= zlen (seg_of m l) /\ v = le_decode (sub (seg_of m l) a n))) /\
  (forall i, 0 <= i < list_len l -> bitlist_at true m l i <> Panic) /\
  res_sat (ptr_text m p) (fun o => match o with
                                   | None => True
                                   | Some b => b = sub (seg_of m p) (p_off p) (p_len p - 1) /\ 0 <= p_off p /\
                                               0 < p_len p /\ p_off p + p_len p <= zlen (seg_of m p)
                                   end) /\
  res_sat (ptr_data m p) (fun o => match o with
                                   | None => True
                                   | Some b => b = sub (seg_of m p) (p_off p) (p_len p) /\ 0 <= p_off p /\
                                               0 <= p_len p /\ p_off p + p_len p <= zlen (seg_of m p)
                                   end).
Proof. exact accessor_safe. Qed.
Print Assumptions C01_accessor_safe.

(* all read-side API call sequences: for every message, configuration and op list whose
   arguments are in the documented domain ([run_dom], executable), no observation is a
   panic and every handle ever created is well-formed *)
Theorem C01_run_safe : forall c fx m ops,
  msg_ok m -> cfg_strict c = true -> cfg_root c = true -> fx_bit fx = true ->
  run_dom c fx m (init_state c) ops = true ->
  Forall oval_ok (run_ops c fx m ops) /\ state_wf m (fst (run c fx m (init_state c) ops)).
Proof. exact run_safe. Qed.
Print Assumptions C01_run_safe.

(* the excluded programmer-error panics fire exactly for an index outside [0, Len()) *)
Theorem C01_index_panics : forall fd fu p i exp,
  (list_struct fd p i = Panic <-> (p_valid p = false \/ i < 0 \/ i >= p_len p)) /\
  (primitiveElem fu p i exp = Panic <-> (p_valid p = false \/ i < 0 \/ i >= p_len p)).
Proof. exact index_panics. Qed.
Print Assumptions C01_index_panics.
Theorem C01_bitlist_index_panics : forall m p i, msg_ok m -> wf_list m p ->
  (bitlist_at true m p i = Panic <-> (p_valid p = false \/ i < 0 \/ i >= p_len p)).
Proof. exact bitlist_at_panic_iff. Qed.
Print Assumptions C01_bitlist_index_panics.

(* the generic recursive consumer: any limits, caps, fuel, well-formed start pointer *)
Theorem C01_walk_safe : forall c fx m dcap pcap, msg_ok m -> cfg_strict c = true -> fx_bit fx = true ->
  forall fuel rl r, res_sat r (wf_ptr m) -> tree_ok (fst (walk c fx m dcap pcap fuel rl r)) = true.
Proof. exact walk_safe. Qed.
Print Assumptions C01_walk_safe.

(* Root panics only in the as-found variant, and exactly on a too-short first segment *)
Theorem C01_root_panic_iff : forall c m rl, msg_ok m ->
  (fst (root c m rl) = Panic <-> (cfg_root c = false /\ 0 < zlen m /\ zlen (nth 0%nat m []) < 8)).
Proof. exact root_panic_iff. Qed.
Print Assumptions C01_root_panic_iff.

(* as-found variants are refuted (sensitivity of the theorems above) *)
Theorem C01_bitlist_prefix_refuted : forall m p i, p_valid p = true -> p_bit p = true ->
  4194304 <= i < p_len p -> bitlist_at false m p i = Panic.
Proof. exact bitlist_prefix_refuted. Qed.
Print Assumptions C01_bitlist_prefix_refuted.

(* ------------------------------------------------------------------ non-vacuity *)
(* rd_ex_msg (Core/SafetyProofs.v): a struct with one data word, a text field "hi" and a
   composite list of two structs; rd_ex_ops reads them and walks the whole tree *)
Example C01_hypotheses_satisfiable :
  msg_ok rd_ex_msg /\ run_dom rd_ex_cfg rd_ex_fix rd_ex_msg (init_state rd_ex_cfg) rd_ex_ops = true.
Proof. exact rd_ex_hypotheses. Qed.
Print Assumptions C01_hypotheses_satisfiable.

Example C01_nontrivial_run :
  exists p0 p1 p2 p3,
  run_ops rd_ex_cfg rd_ex_fix rd_ex_msg rd_ex_ops =
  [VPtr (Ok p0); VPtr (Ok p1); VBytes (Ok (Some [104; 105])); VPtr (Ok p2); VPtr (Ok p3); VNum (Ok 2);
   VTree (TStruct [42;0;0;0;0;0;0;0]
            [TPrim 1 3 [104; 105; 0];
             TComp 2 (mkOS 8 0) [TStruct [1;0;0;0;0;0;0;0] []; TStruct [2;0;0;0;0;0;0;0] []]]) 938;
   VNum (Ok 938)].
Proof. exact rd_ex_run. Qed.
Print Assumptions C01_nontrivial_run.

(* ================================================================== recursive consumers *)
(* C01 also covers the recursive consumers on ARBITRARY bytes: equality, canonicalisation, deep
   copy into another message (models Value/EqualM.v, Value/CanonM.v, Core/Builder.v).  Lemmas in
   Value/EqualSafe.v, Value/CanonSafe.v, Core/CopySafe.v, Core/CopyAlloc.v.  Additional standing
   assumptions: the destination of a copy satisfies the builder invariant and has segments of at most
   maxSegmentSize bytes ([dok]); copied LIST pointers have a reader-made shape ([shape_ok]: every
   pointer handed out by readPtr has it, C01_reader_ptr_shape; structs need none in the
   repaired code; as found, a struct taken from an element of a 1/2/4-byte list makes writePtr
   panic: C01_copy_unaligned_refuted). *)
From CV Require Import Value.EqualM Value.EqualSafe Value.CanonM Value.CanonSafe Core.Builder Core.CopySafe.
From CV Require Core.CopyAlloc.

(* capnp.Equal on one or two hostile messages: any fuel, any limits, any two well-formed
   pointers: never a panic (and the budgets only go down, see C02) *)
Theorem C01_equal_m_safe : forall c fx x, ectx_ok x -> cfg_strict c = true ->
  forall fuel w p q, wf_ptr (segs_of x SA) p -> wf_ptr (segs_of x SB) q -> lims_nonneg w ->
  egood w (equal_m fuel c fx x w p q).
Proof. exact equal_m_good. Qed.
Print Assumptions C01_equal_m_safe.

(* capnp.Canonicalize on a hostile source struct (repaired configuration) *)
Theorem C01_canon_m_safe : forall c fx fuel src rl s,
  cfg_strict c = true -> cx_complist fx = true -> msg_ok src -> wf_struct src s -> 0 <= rl ->
  fst (canonicalize c fx fuel src rl s) <> KPanic /\ 0 <= snd (canonicalize c fx fuel src rl s) <= rl.
Proof. exact canonicalize_safe. Qed.
Print Assumptions C01_canon_m_safe.

(* the three mutually recursive functions of canonical.go, from any state: no panic, the
   destination stays well-formed and only grows, the source is untouched *)
Theorem C01_canon_all : forall c fx, cfg_strict c = true -> cx_complist fx = true ->
  forall f, P_fill c fx f /\ P_ptr c fx f /\ P_list c fx f.
Proof. exact canon_all. Qed.
Print Assumptions C01_canon_all.

(* deep copy out of a hostile message: Segment.writePtr (SetPtr / PointerList.Set / SetRoot
   across messages) and copyStruct (List.SetStruct / CopyFrom) *)
Theorem C01_write_ptr_safe : forall f w dsid off src fc,
  dok (w_dst w) -> msg_ok (w_src w) -> 0 <= w_src_rl w -> region_ok (w_dst w) dsid off 8 ->
  wf_ptr (w_src w) src -> shape_ok src ->
  rpost w (write_ptr f true w dsid off InSrc src fc).
Proof. exact CopyAlloc.write_ptr_safe. Qed.
Print Assumptions C01_write_ptr_safe.

Theorem C01_copy_struct_safe : forall f w dst src,
  dok (w_dst w) -> msg_ok (w_src w) -> 0 <= w_src_rl w -> dst_ok (w_dst w) dst ->
  wf_struct (w_src w) src ->
  rpost w (copy_struct f true w dst InSrc src).
Proof. exact CopyAlloc.copy_struct_safe. Qed.
Print Assumptions C01_copy_struct_safe.

Theorem C01_reader_ptr_shape : forall strict m rl sid s paddr depth q,
  fst (readPtr strict m rl sid s paddr depth) = Ok q -> shape_ok q.
Proof. exact readPtr_shape. Qed.
Print Assumptions C01_reader_ptr_shape.

(* sensitivity / findings: as found (repo 38ec570, write_ptr_asfound) copying a byte-list
   element panics, the repaired writePtr copies it; the as-found canonicalList panics (F04) *)
Example C01_copy_unaligned_refuted :
  let c := mkCfg 0 0 true true in
  msg_ok unaligned_msg /\
  exists r l e m0,
    fst (root c unaligned_msg 1000) = Ok r /\
    fst (struct_ptr c unaligned_msg 1000 r 0) = Ok l /\
    list_struct true l 0 = Ok e /\ wf_ptr unaligned_msg e /\ p_size e = mkOS 1 0 /\
    new_message ASingle [] 0 = Ok m0 /\ dok m0 /\
    write_ptr_asfound 8 true (mkW m0 unaligned_msg 1000) 0 0 InSrc e false = Panic /\
    exists w', write_ptr 8 true (mkW m0 unaligned_msg 1000) 0 0 InSrc e false = Ok w'.
Proof. exact copy_unaligned_refuted. Qed.
Print Assumptions C01_copy_unaligned_refuted.

Example C01_canon_complist_refuted :
  let c := mkCfg 0 0 true true in
  msg_ok complist_msg /\
  run_canon 10 c (mkCFix false true true (mkFix true true true)) complist_msg SelRoot = KPanic /\
  exists bs, run_canon 10 c (mkCFix true true true (mkFix true true true)) complist_msg SelRoot = KOk bs.
Proof. exact canon_complist_refuted. Qed.
Print Assumptions C01_canon_complist_refuted.

(* ================================================================== from raw bytes *)
(* "For any byte strings supplied as the segments of a message (any segment count, any arena,
   packed or unpacked framing)": the framing models (Frame/Frame.v Unmarshal and Decoder.Decode
   over any chunking, Frame/FramePacked.v UnmarshalPacked and NewPackedDecoder over
   Packed/Packed.v) composed with the reader and consumer theorems above (Core/EndToEnd.v).
   [msg_ok] - until here a trusted hypothesis - is DISCHARGED: the only hypothesis left on the
   input is that it is a string of bytes ([bytes_ok b]: every element is 0..255). *)
From CV Require Import Core.EndToEnd.

(* (1) every message the framing layer returns is msg_ok *)
Theorem C01_unmarshal_msg_ok : forall b segs, bytes_ok b -> FR.unmarshal b = FR.Ok segs -> msg_ok segs.
Proof. exact unmarshal_msg_ok. Qed.
Print Assumptions C01_unmarshal_msg_ok.

Theorem C01_unmarshal_packed_msg_ok : forall p segs, bytes_ok p -> FP.unmarshal_packed p = FR.Ok segs -> msg_ok segs.
Proof. exact unmarshal_packed_msg_ok. Qed.
Print Assumptions C01_unmarshal_packed_msg_ok.

Theorem C01_decode1_msg_ok : forall cs fin hc bc ru mx st' out log,
  bytes_ok (concat cs) -> 0 <= mx < FR.two64 ->
  FR.decode1 (FR.mkD (FR.mkReader cs fin) hc bc ru mx) = (st', out, log) ->
  out <> FR.DPanic /\ (forall segs, out = FR.DMsg segs -> msg_ok segs) /\
  CV.Frame.FrameAlloc.st_ok st'.
Proof. exact decode1_msg_ok. Qed.
Print Assumptions C01_decode1_msg_ok.

(* (2) Unmarshal / UnmarshalPacked never panic and everything read afterwards is safe *)
Theorem C01_unmarshal_then_read_safe : forall b c fx, bytes_ok b -> repaired c fx ->
  match FR.unmarshal b with
  | FR.Ok segs => msg_ok segs /\ read_safe c fx segs
  | FR.Err _ => True
  | FR.Panic => False
  end.
Proof. exact unmarshal_then_read_safe. Qed.
Print Assumptions C01_unmarshal_then_read_safe.

Theorem C01_unmarshal_packed_then_read_safe : forall p c fx, bytes_ok p -> repaired c fx ->
  match FP.unmarshal_packed p with
  | FR.Ok segs => msg_ok segs /\ read_safe c fx segs
  | FR.Err _ => True
  | FR.Panic => False
  end.
Proof. exact unmarshal_packed_then_read_safe. Qed.
Print Assumptions C01_unmarshal_packed_then_read_safe.

(* the streaming Decoder: any byte stream, any chunking, any history of Decode / ReuseBuffer /
   MaxMessageSize assignments *)
Theorem C01_decode_then_read_safe : forall cs fin hc bc ru mx ops c fx st' outs,
  bytes_ok (concat cs) -> 0 <= mx < FR.two64 -> repaired c fx ->
  FR.run_history (FR.mkD (FR.mkReader cs fin) hc bc ru mx) ops = (st', outs) ->
  Forall (fun ol => fst ol <> FR.DPanic /\
                    forall segs, fst ol = FR.DMsg segs -> msg_ok segs /\ read_safe c fx segs) outs.
Proof. exact decode_then_read_safe. Qed.
Print Assumptions C01_decode_then_read_safe.

(* NewPackedDecoder over a packed stream that unpacks (arbitrary content): outcome k equals the
   plain Decoder's on the unpacked stream while messages come out, hence is safe *)
Theorem C01_pdecode_n_then_read_safe : forall P U orc hc bc ru mx c fx n k,
  bytes_ok P -> PK.unpack P = Some U -> 0 <= mx < FR.two64 -> repaired c fx -> (k < n)%nat ->
  let outs_plain := snd (FR.decode_n (FR.mkD (FR.mkReader [U] PK.EOF) hc bc ru mx) n) in
  let outs_packed := snd (FP.pdecode_n (FR.mkD (FP.p_init orc P) hc bc ru mx) n) in
  CV.Frame.FrameSim.all_msgs (firstn k outs_plain) = true ->
  let o := nth k outs_packed (FR.DEof, []) in
  nth k outs_packed (FR.DEof, []) = nth k outs_plain (FR.DEof, []) /\
  fst o <> FR.DPanic /\ forall segs, fst o = FR.DMsg segs -> msg_ok segs /\ read_safe c fx segs.
Proof. exact pdecode_n_then_read_safe. Qed.
Print Assumptions C01_pdecode_n_then_read_safe.

(* ... and for ANY packed byte stream P, malformed ones included (Frame/FramePackedSafe.v, with the
   packed.Reader invariant of Packed/ReadCallProofs2.v): the packed Decoder behaves like the plain
   Decoder over the longest prefix U that unpacks, ended by the verdict of the rest (io.EOF or
   io.ErrUnexpectedEOF); while messages come out, outcome k is the same: no panic, msg_ok, safe
   to read.  This subsumes the statement above (no premise on P besides being bytes). *)
From CV Require Frame.FramePackedSafe.
Theorem C01_pdecode_n_then_read_safe_any : forall P orc hc bc ru mx c fx n k,
  bytes_ok P -> (0 <= mx < FR.two64)%Z -> repaired c fx -> (k < n)%nat ->
  let U := fst (CV.Packed.ReadCallProofs2.unpack_partial P) in
  let fin := CV.Packed.ReadCallProofs2.verdict (snd (CV.Packed.ReadCallProofs2.unpack_partial P)) in
  let outs_plain := snd (FR.decode_n (FR.mkD (FR.mkReader [U] fin) hc bc ru mx) n) in
  let outs_packed := snd (FP.pdecode_n (FR.mkD (FP.p_init orc P) hc bc ru mx) n) in
  CV.Frame.FrameSim.all_msgs (firstn k outs_plain) = true ->
  let o := nth k outs_packed (FR.DEof, []) in
  nth k outs_packed (FR.DEof, []) = nth k outs_plain (FR.DEof, []) /\
  fst o <> FR.DPanic /\ forall segs, fst o = FR.DMsg segs -> msg_ok segs /\ read_safe c fx segs.
Proof. exact CV.Frame.FramePackedSafe.pdecode_n_then_read_safe_any. Qed.
Print Assumptions C01_pdecode_n_then_read_safe_any.

(* (3) the recursive consumers, from raw bytes *)
Theorem C01_equal_from_bytes_safe : forall b1 b2 sa sb fuel ca cb fx capsa capsb same sela selb,
  bytes_ok b1 -> bytes_ok b2 -> FR.unmarshal b1 = FR.Ok sa -> FR.unmarshal b2 = FR.Ok sb ->
  cfg_strict ca = true -> cfg_root ca = true -> cfg_strict cb = true -> cfg_root cb = true ->
  0 <= cfg_T ca -> 0 <= cfg_T cb ->
  (match sela with SelField i => 0 <= i | SelRoot => True end) ->
  (match selb with SelField i => 0 <= i | SelRoot => True end) ->
  fst (fst (run_equal fuel ca cb fx sa capsa sb capsb same sela selb)) <> EPanic.
Proof. exact equal_from_bytes_safe. Qed.
Print Assumptions C01_equal_from_bytes_safe.

Theorem C01_canon_from_bytes_safe : forall b segs fuel c fx sel,
  bytes_ok b -> FR.unmarshal b = FR.Ok segs ->
  cfg_strict c = true -> cfg_root c = true -> cx_complist fx = true -> 0 <= cfg_T c ->
  (match sel with SelField i => 0 <= i | SelRoot => True end) ->
  run_canon fuel c fx segs sel <> KPanic.
Proof. exact canon_from_bytes_safe. Qed.
Print Assumptions C01_canon_from_bytes_safe.

Theorem C01_copy_from_bytes_safe : forall b segs fuel c,
  bytes_ok b -> FR.unmarshal b = FR.Ok segs ->
  cfg_strict c = true -> cfg_root c = true -> 0 <= cfg_T c ->
  copy_root fuel c segs <> Panic.
Proof. exact copy_from_bytes_safe. Qed.
Print Assumptions C01_copy_from_bytes_safe.
