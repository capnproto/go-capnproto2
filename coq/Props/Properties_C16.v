(* C16 - deep copy yields an equal, independent tree with capabilities re-homed.
   Statements only.  Proved (all T1): copyStruct's version-skew rule for data and pointer sections,
   capability re-homing, freshness of every copy at byte level (frame of writePtr / copyStruct for
   all trees, all arenas: no older byte but the pointer word / the destination struct changes).
   [T2] copy_value: the value half is the block appended below (cross-message, single-segment
   destination, capability-free values, word-aligned sources only); the independence half is
   Properties_C16_indep.v.  Not proved: the value of a copy inside one message or into a
   multi-segment destination; for copies inside one message C16_forced_copy_fresh
   (Properties_C16_indep.v) shows that every copying writePtr call points its slot at a new object,
   and C16_copy_closure (Properties_C16_closure.v) that the whole copied tree consists of new objects. *)
From CV Require Import Core.Builder Core.ReaderFacts Core.ArithFacts Core.BuilderFacts Core.AllocProofs
  Core.WritePtrProofs Core.HeapProofs Core.CopyProofs.
Open Scope Z_scope.

(* [T1] copy_struct_data: truncate / zero-extend the data section *)
Theorem C16_copy_struct_data : forall w dst l src w1,
  0 <= p_seg dst -> zlen (mem (w_dst w) (p_seg dst)) < 4294967296 ->
  0 <= DataSize (p_size dst) < 4294967296 -> 0 <= DataSize (p_size src) < 4294967296 ->
  zlen (nth (Z.to_nat (p_seg src)) (w_segs w l) []) < 4294967296 ->
  copy_data_phase w dst l src = Ok w1 ->
  let srcData := sub (nth (Z.to_nat (p_seg src)) (w_segs w l) []) (p_off src) (DataSize (p_size src)) in
  let new := resize_data srcData (Z.to_nat (DataSize (p_size dst))) in
  wrote (w_dst w) (w_dst w1) (p_seg dst) (p_off dst) new /\
  slice (mem (w_dst w1) (p_seg dst)) (p_off dst) (DataSize (p_size dst)) = Ok new /\
  w_src w1 = w_src w /\ w_src_rl w1 = w_src_rl w.
Proof. exact copy_struct_data. Qed.
Print Assumptions C16_copy_struct_data.

Theorem C16_resize_data_spec : forall src n k, (k < n)%nat ->
  nth k (resize_data src n) 0 = if (k <? length src)%nat then nth k src 0 else 0.
Proof. exact resize_data_nth. Qed.
Print Assumptions C16_resize_data_spec.

Theorem C16_copy_struct_begins_with_data_phase : forall fuel strict w dst l src w',
  p_valid dst = true -> p_valid src = true ->
  copy_struct (S fuel) strict w dst l src = Ok w' ->
  exists w1, copy_data_phase w dst l src = Ok w1.
Proof. exact copy_struct_starts_with_data. Qed.
Print Assumptions C16_copy_struct_begins_with_data_phase.

(* [T1] copy_struct_data for the whole struct (List.SetStruct / Struct.CopyFrom / every struct
   copied by writePtr), all sources, arenas, capacities, both version-skew directions:
   exact frame (only the destination's data section and its own pointer slots change among the
   existing bytes: source pointers beyond the destination's count are dropped), destination
   slots beyond the source's count are null, the data section is truncated / zero-extended *)
Theorem C16_copy_struct_ptrs : forall fuel strict w dst l src w',
  inv (w_dst w) -> 0 <= p_seg dst < nsegs (w_dst w) -> wf_size (p_size dst) -> sz_ok src ->
  p_valid dst = true -> p_valid src = true ->
  0 <= p_off dst ->
  p_off dst + DataSize (p_size dst) + 8 * PointerCount (p_size dst) <= zlen (mem (w_dst w) (p_seg dst)) ->
  zlen (mem (w_dst w) (p_seg dst)) <= maxSegmentSize ->
  zlen (nth (Z.to_nat (p_seg src)) (w_segs w l) []) < 4294967296 ->
  copy_struct (S fuel) strict w dst l src = Ok w' ->
  let seg := p_seg dst in
  let srcData := sub (nth (Z.to_nat (p_seg src)) (w_segs w l) []) (p_off src) (DataSize (p_size src)) in
  keeps (w_dst w) (w_dst w') (Rexact dst) /\ inv (w_dst w') /\ w_src w' = w_src w /\
  (forall j, PointerCount (p_size src) <= j < PointerCount (p_size dst) ->
     readRawPointer (mem (w_dst w') seg) (pointerAddress dst j) = Ok 0) /\
  slice (mem (w_dst w') seg) (p_off dst) (DataSize (p_size dst)) =
    Ok (resize_data srcData (Z.to_nat (DataSize (p_size dst)))).
Proof. exact copy_struct_ptrs. Qed.
Print Assumptions C16_copy_struct_ptrs.

(* [T1] capability copy across messages appends exactly one entry referring to the source's
   client; the stored pointer indexes it *)
Theorem C16_cap_copy : forall fuel strict w dsid off src w',
  0 <= dsid -> p_valid src = true -> p_kind src = KIface ->
  zlen (bm_caps (w_dst w)) < 4294967296 -> zlen (mem (w_dst w) dsid) < 4294967296 ->
  write_ptr (S fuel) strict w dsid off InSrc src false = Ok w' ->
  let c := zlen (bm_caps (w_dst w)) in
  bm_caps (w_dst w') = bm_caps (w_dst w) ++ [p_len src] /\
  readRawPointer (mem (w_dst w') dsid) off = Ok (rawInterfacePointer c) /\
  pointerType (rawInterfacePointer c) = otherPointer /\ capabilityIndex (rawInterfacePointer c) = c /\
  w_src w' = w_src w /\
  (forall i, 0 <= i -> i <> dsid -> get_seg (w_dst w') i = get_seg (w_dst w) i) /\
  zlen (mem (w_dst w') dsid) = zlen (mem (w_dst w) dsid).
Proof. exact cap_copy. Qed.
Print Assumptions C16_cap_copy.

Theorem C16_cap_same_message : forall fuel strict w dsid off src w',
  p_valid src = true -> p_kind src = KIface ->
  write_ptr (S fuel) strict w dsid off InDst src false = Ok w' ->
  bm_caps (w_dst w') = bm_caps (w_dst w).
Proof. exact cap_same_message. Qed.
Print Assumptions C16_cap_same_message.

(* [T1] copy_fresh: for every tree, arena, capacity: the source message is unchanged, and of
   the destination's pre-existing bytes only the pointer word can change, so the copy lives
   in storage allocated during the call *)
Theorem C16_copy_fresh : forall fuel strict w dsid off l src fc w' i base n,
  inv (w_dst w) -> 0 <= dsid < nsegs (w_dst w) -> sz_ok src ->
  ((fc || is_src l) = false -> p_valid src = true -> 0 <= p_seg src < nsegs (w_dst w)) ->
  write_ptr fuel strict w dsid off l src fc = Ok w' ->
  w_src w' = w_src w /\
  (0 <= i -> 0 <= base -> 0 <= n -> base + n <= zlen (mem (w_dst w) i) -> zlen (mem (w_dst w') i) < 4294967296 ->
   (i <> dsid \/ base + n <= off \/ off + 8 <= base) ->
   slice (mem (w_dst w') i) base n = slice (mem (w_dst w) i) base n).
Proof. exact copy_fresh. Qed.
Print Assumptions C16_copy_fresh.

Theorem C16_copy_struct_frame : forall fuel strict w dst l src w',
  inv (w_dst w) -> 0 <= p_seg dst < nsegs (w_dst w) -> wf_size (p_size dst) -> 0 <= p_off dst <= 4294967295 ->
  sz_ok src ->
  copy_struct fuel strict w dst l src = Ok w' ->
  keeps (w_dst w) (w_dst w') (Rfrom dst) /\ inv (w_dst w') /\
  nsegs (w_dst w) <= nsegs (w_dst w') /\ w_src w' = w_src w.
Proof. exact copy_struct_frame. Qed.
Print Assumptions C16_copy_struct_frame.

(* later writes do not show through: a write into one byte range leaves every disjoint range
   (in particular: a write into the copy leaves the source's ranges, and vice versa) unchanged *)
Theorem C16_later_writes_independent : forall m m' sid addr bs sid' base n,
  wrote m m' sid addr bs -> 0 <= sid' -> 0 <= n < 4294967296 ->
  sid' <> sid \/ base + n <= addr \/ addr + zlen bs <= base ->
  slice (mem m' sid') base n = slice (mem m sid') base n.
Proof. exact wrote_slice_other. Qed.
Print Assumptions C16_later_writes_independent.

(* ====================================================================================================
   BEGIN block appended by the C17/C18 engineer (value-level machinery [den], coq/Value/CopyValue*.v):
   [T2] copy_value -- the value a deep copy denotes.
   Scope (stated in the theorems): cross-message copy (source in the read-only message of [world])
   into a SINGLE-SEGMENT destination ([dstw D cap src rl]: every allocation appends to segment 0, every
   pointer is placed near); source values in [cvdom]: every capability-free value -- structs of any section
   sizes, nulls, void / 1,2,4,8-byte / bit lists, pointer lists and struct lists, nested to any depth.
   Source pointers are as the reader hands them out: well formed (wf_ptr), word-aligned struct data
   (aligned, caligned), composite lists behind a consistent tag word (ctag_ok) -- all three are theorems
   about Segment.readPtr (readPtr_aligned, readPtr_caligned, readPtr_ctag).
   NOT covered: multi-segment destinations (far / double-far placement), capabilities (the single-segment
   view [dstw] has no capability table), list-member structs of 1/2/4-byte lists (never produced by a
   whole-pointer copy).
   ==================================================================================================== *)
From CV Require Import Value.ValueEq Value.EqualM Value.Den Value.CanonMHeap Value.CanonMLoop Value.CanonMInd
                       Value.CopyValue Value.CopyValueHeap Value.CopyValueDefs Value.CopyValueInd Value.CopyValueEq Value.CanonSpec Value.EqualCorrect.
From CV Require Import Core.SafetyProofs.

(* SetPtr / SetRoot / PointerList.Set of a pointer of another message: afterwards the slot reads
   (Segment.readPtr, strict) as a pointer denoting exactly the source's value *)
Theorem C16_copy_value_ptr : forall m f D cap rl a src v fc w',
  msg_ok m -> CanonMLoop.hinv D -> 0 <= a -> a mod 8 = 0 -> a + 8 <= zlen D ->
  wf_ptr m src -> aligned src -> caligned src -> ctag_ok m src -> den true m 0 [] src v -> cvdom v = true ->
  write_ptr f true (dstw D cap m rl) 0 a InSrc src fc = Ok w' ->
  exists D' cap' rl', w' = dstw D' cap' m rl' /\ CanonMLoop.hinv D' /\ (bytes_ok D -> bytes_ok D') /\ reads_as D' a v.
Proof. exact copy_value_ptr. Qed.
Print Assumptions C16_copy_value_ptr.

(* copyStruct into an existing struct (List.SetStruct, Struct.CopyFrom; version skew in either
   direction): the destination denotes the source's value resized to the destination's section sizes
   (data words truncated / zero-extended, extra pointers dropped, missing pointers null) *)
Theorem C16_copy_value_struct : forall m f D cap rl dst s ws vs A dn pn w',
  msg_ok m -> CanonMLoop.hinv D -> dst_at dst A dn pn -> p_kind dst = KStruct -> 0 <= A -> A mod 8 = 0 ->
  0 <= dn <= 65535 -> 0 <= pn < 65536 -> A + 8 * dn + 8 * pn <= zlen D ->
  p_valid s = true -> p_kind s = KStruct -> wf_ptr m s -> aligned s ->
  den true m 0 [] s (VStruct ws vs) -> forallb cvdom vs = true ->
  copy_struct f true (dstw D cap m rl) dst InSrc s = Ok w' ->
  exists D' cap' rl', w' = dstw D' cap' m rl' /\ CanonMLoop.hinv D' /\ (bytes_ok D -> bytes_ok D') /\
    forall mid caps, den true [D'] mid caps dst (resize (VStruct ws vs) (Z.to_nat dn) (Z.to_nat pn)).
Proof. exact copy_value_struct. Qed.
Print Assumptions C16_copy_value_struct.

(* the invariant behind both, for every fuel *)
Theorem C16_copy_value_invariant : forall m, msg_ok m -> forall f, CopyValueDefs.P_wp m f /\ CopyValueDefs.P_cs m f.
Proof. exact P_all. Qed.
Print Assumptions C16_copy_value_invariant.

(* version skew loses nothing that is not default: resizing to section sizes not smaller than the
   truncated sizes gives an Equal value *)
Theorem C16_resize_value_eq : forall ws ps dn pn,
  (length (strip0 ws) <= dn)%nat -> (length (stripN ps) <= pn)%nat ->
  value_eq (resize (VStruct ws ps) dn pn) (VStruct ws ps) = true.
Proof. exact resize_value_eq. Qed.
Print Assumptions C16_resize_value_eq.

(* capnp.Equal(source, copy) = true (model equal_m, by C17_equal_m_correct); the copy keeps the
   destination a segment of bytes (bytes_ok), so no hypothesis about the result is needed *)
Theorem C16_copy_then_equal : forall m f D cap rl a src v fc w' c fx,
  msg_ok m -> CanonMLoop.hinv D -> bytes_ok D -> 0 <= a -> a mod 8 = 0 -> a + 8 <= zlen D ->
  wf_ptr m src -> aligned src -> caligned src -> ctag_ok m src -> den true m 0 [] src v -> cvdom v = true ->
  write_ptr f true (dstw D cap m rl) 0 a InSrc src fc = Ok w' ->
  cfg_strict c = true -> all_fixed fx ->
  exists D' cap' rl' q, w' = dstw D' cap' m rl' /\
    (exists dep rlx rlx', readPtr true [D'] rlx 0 D' a dep = (Ok q, rlx')) /\
    (forall fuel st b st',
       equal_m fuel c fx (mkEC m [] [D'] [] false) st src q = (EOk b, st') -> b = true).
Proof. exact copy_then_equal. Qed.
Print Assumptions C16_copy_then_equal.

(* non-vacuity: a concrete source (struct with a byte list, a pointer list, a bit list and a struct list) and a
   fresh destination satisfy every hypothesis and the copy succeeds *)
Theorem C16_copy_value_nonvacuous :
  CanonMLoop.hinv (repeat 0 8%nat) /\ wf_ptr msg_cv root_cv /\ aligned root_cv /\ caligned root_cv /\ ctag_ok msg_cv root_cv /\ p_valid root_cv = true /\
  exists v w', den true msg_cv 0 [] root_cv v /\ cvdom v = true /\
               write_ptr 20 true (dstw (repeat 0 8%nat) 1024 msg_cv 1000000) 0 0 InSrc root_cv false = Ok w'.
Proof. exact copy_value_nonvacuous. Qed.
Print Assumptions C16_copy_value_nonvacuous.

(* the reader hands out pointers satisfying the side conditions above *)
Theorem C16_readPtr_ctag : forall strict m rl sid s a dep q rl', msg_ok m -> is_seg m sid s -> 0 <= a -> a + 8 <= zlen s ->
  readPtr strict m rl sid s a dep = (Ok q, rl') -> ctag_ok m q.
Proof. exact readPtr_ctag. Qed.
Print Assumptions C16_readPtr_ctag.
(* ==================================================================================================== END block *)
