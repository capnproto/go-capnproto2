(* C11 — promise pipelining delivers each call exactly once and never deadlocks.
   Statements only; each is closed by [exact] of a lemma proved elsewhere.
   [reach v ops c]: c is reachable from the initial configuration of the operation list ops under
   SOME schedule (any interleaving of the threads' atomic sections); all theorems quantify over
   all ops and all reachable c.  [fixed] = model of answer.go as it is now (F11 fixed; resolve:
   result known -> proxies fulfilled -> signals closed), [as_found] / [f11_fixed] / [late_fixed] =
   earlier versions of the code (kept for the refuted statements).  The first part is about the
   single-promise model Promise.v; the theorems named C11_join_* are about the model with Join and
   joined chains, PromiseJoin.v ([jreach v np ops c]: np promises, variant switches v; premises listed
   before C11_join_fulfil_never_waits_for_hook). *)
From CV Require Import Promise.Promise Promise.PromiseProofs Promise.PromiseStepProofs Promise.MuProofs
  Promise.PromiseTheorems Promise.PromiseLive Promise.PromiseProxies Promise.PromiseJoin Promise.PromiseJoinProofs Promise.PromiseJoinThms Promise.PromiseJoinInv Promise.PromiseJoinRefs Promise.PromiseJoinForest Promise.PromiseJoinDest Promise.PromiseJoinChain Promise.PromiseJoinLive Promise.PromiseJoinStuck Promise.PromiseJoinZero Promise.PromiseJoinHook Promise.PromiseJoinPath
  Promise.PromiseJoinHookStuck Promise.PromiseJoinLands Promise.PromiseJoinRel Promise.PromiseJoinIdem Promise.PromiseJoinWaits Promise.PromiseJoinRecv.
Open Scope Z_scope.

(* the promise resolves at most once; Fulfill/Reject after the first one panics (OPanic), the
   one that returns normally is the one whose resolution was committed *)
Theorem C11_resolve_once : forall ops c, reach fixed ops c ->
  (cnt is_resolved (events c) <= 1)%nat /\ (cnt is_begin (events c) <= 1)%nat /\
  (cnt is_resolved (events c) = 1%nat <-> sig_open c = false) /\
  forall t th, nth_error (threads c) t = Some th -> is_res_op (t_op th) = true -> t_pc th = PDone ->
    (t_out th = OPanic /\ caller c = false) \/
    (t_out th = ORet /\ In (EBegin t) (events c) /\ In (EResolved t) (events c) /\
     result c = Some (op_res (t_op th))).
Proof. exact resolve_once. Qed.
Print Assumptions C11_resolve_once.

(* every pipelined call is delivered at most once at any time, exactly once when it has returned;
   to the PipelineCaller only while no Fulfill/Reject has passed its check (wf_log), otherwise
   after the resolution and then to what the result holds at the call's path (capability, or the
   rejection error / failure) *)
Theorem C11_pipelined_exactly_once : forall ops c, reach fixed ops c ->
  wf_log (events c) /\
  (sig_open c = true -> forall t d, In (EDeliver t d) (events c) -> d = DCaller) /\
  forall t th, nth_error (threads c) t = Some th ->
    match t_op th with
    | OSend p _ =>
      (cnt (is_deliver t) (events c) <= 1)%nat /\
      (t_pc th = PDone -> cnt (is_deliver t) (events c) = 1%nat /\ t_out th = ORet) /\
      (forall d, In (EDeliver t d) (events c) -> d = DCaller \/ d = res_dest (cur_res c) p)
    | OCall _ _ =>
      (cnt (is_deliver t) (events c) <= 1)%nat /\
      (t_pc th = PDone -> (t_out th = ONoSlot /\ cnt (is_deliver t) (events c) = 0%nat) \/
                          (t_out th = ORet /\ cnt (is_deliver t) (events c) = 1%nat))
    | _ => True
    end.
Proof. exact pipelined_exactly_once. Qed.
Print Assumptions C11_pipelined_exactly_once.

(* asking for the same path again returns the same proxy, and mu is free at every section
   boundary (in particular after Future.Client returned) *)
Theorem C11_client_idempotent : forall ops c, reach fixed ops c ->
  mu c = None /\
  forall t1 t2 th1 th2 p s1 s2 x1 x2,
    nth_error (threads c) t1 = Some th1 -> nth_error (threads c) t2 = Some th2 ->
    t_op th1 = OClient p s1 -> t_op th2 = OClient p s2 ->
    t_pc th1 = PDone -> t_pc th2 = PDone ->
    t_out th1 = OHandle (HProxy x1) -> t_out th2 = OHandle (HProxy x2) -> x1 = x2.
Proof. exact client_idempotent. Qed.
Print Assumptions C11_client_idempotent.

(* mu is free in every reachable configuration also with the old order of resolve *)
Theorem C11_mu_always_free : forall v ops c, v_unlock_on_hit v = true -> reach v ops c -> mu c = None.
Proof. exact mu_always_free. Qed.
Print Assumptions C11_mu_always_free.

(* F11: on the model of answer.go as found the second Client() on a path leaves mu held by a
   finished thread and the next operation can never run *)
Theorem C11_client_idempotent_refuted :
  let c := run as_found (init f11_history) [0%nat; 1%nat; 2%nat] in
  finished c 1 = true /\ mu c = Some 1%nat /\ finished c 2 = false /\ enabled as_found c 2 = false.
Proof. exact client_idempotent_refuted. Qed.
Print Assumptions C11_client_idempotent_refuted.

(* deadlock freedom: if no thread can take a step then either the application holds a call inside
   the PipelineCaller (gated, not released), or every unfinished thread is a Done/Struct waiter, a
   ReleaseClients call or the result's owner, at its start, on a promise whose caller is still set
   (nobody has asked to resolve it; an unfinished Fulfill/Reject would be enabled) *)
Theorem C11_no_stuck : forall ops c, reach fixed ops c -> all_disabled c ->
  (exists t th, nth_error (threads c) t = Some th /\ t_pc th = PInCaller /\
                op_gated (t_op th) = true /\ mem_nat t (gates c) = false) \/
  (forall t th, nth_error (threads c) t = Some th -> t_pc th <> PDone ->
     caller c = true /\ t_pc th = PStart /\ (t_op th = OWait \/ t_op th = ORelease \/ t_op th = OConsume)).
Proof. exact no_stuck. Qed.
Print Assumptions C11_no_stuck.

(* waiters: once Done is closed every unfinished waiter has an enabled step; and when the system has
   come to rest with no call held by the application and a Fulfill/Reject among the operations,
   every operation (waiters, ReleaseClients, pipelined calls) has finished *)
Theorem C11_waiters_enabled : forall ops c, reach fixed ops c -> done_open c = false ->
  forall t th, nth_error (threads c) t = Some th -> t_op th = OWait -> t_pc th <> PDone ->
               enabled fixed c t = true.
Proof. exact waiters_enabled. Qed.
Print Assumptions C11_waiters_enabled.

Theorem C11_waiters_released : forall ops c, reach fixed ops c -> all_disabled c ->
  (forall t th, nth_error (threads c) t = Some th -> t_pc th = PInCaller ->
                op_gated (t_op th) = true -> mem_nat t (gates c) = true) ->
  (exists t th, nth_error (threads c) t = Some th /\ is_res_op (t_op th) = true) ->
  forall t th, nth_error (threads c) t = Some th -> t_pc th = PDone.
Proof. exact waiters_released. Qed.
Print Assumptions C11_waiters_released.

(* lifetime of the result: resolve reads it only before the resolution is signalled, i.e. before its
   owner may release it; refuted on the withdrawn repair 5d7e7b2 (late_fixed) *)
Theorem C11_result_read_alive : forall ops c t th x rest, reach fixed ops c ->
  nth_error (threads c) t = Some th -> t_pc th = PFul (x :: rest) ->
  done_open c = true /\ res_alive c = true.
Proof. exact result_read_alive. Qed.
Print Assumptions C11_result_read_alive.

Theorem C11_result_lifetime_refuted :
  let c := run late_fixed (init lifetime_history) [0%nat; 1%nat; 2%nat; 1%nat] in
  match nth_error (threads c) 1 with
  | Some th => t_pc th = PDone /\ t_out th = OPanic /\ res_alive c = false
  | None => False
  end.
Proof. exact result_lifetime_refuted. Qed.
Print Assumptions C11_result_lifetime_refuted.

(* pipelined clients handed out earlier end up referring to the resolved capability (what the result holds
   at their path) once Fulfill/Reject has returned, and are released once the ReleaseClients call that took
   the table has returned (outcome ORet; calls that found it already taken return ONoop) *)
Theorem C11_proxy_clients_resolved_and_released : forall ops c, reach fixed ops c ->
  (forall t th, nth_error (threads c) t = Some th -> is_res_op (t_op th) = true -> t_pc th = PDone ->
     t_out th = ORet ->
     forall x px, nth_error (proxies c) x = Some px ->
       px_target px = Some (res_dest (op_res (t_op th)) (px_path px))) /\
  (forall t th, nth_error (threads c) t = Some th -> t_op th = ORelease -> t_pc th = PDone -> t_out th = ORet ->
     forall x px, nth_error (proxies c) x = Some px -> px_rel px = true).
Proof. exact proxy_clients_resolved_and_released. Qed.
Print Assumptions C11_proxy_clients_resolved_and_released.

(* no_stuck FAILS on the model of the code before the deadlock repair: a concrete deadlocked
   configuration (replayed on the real code at the time: corpus/C11-promise.txt) *)
Theorem C11_no_stuck_refuted :
  match quiesce f11_fixed 1000 (init deadlock_history) 10 with
  | Some c => forallb (fun t => negb (enabled f11_fixed c t)) (all_tids c) = true /\
              finished c 4 = false /\ finished c 6 = false /\ finished c 9 = false /\ mu c = None
  | None => False
  end.
Proof. exact no_stuck_refuted. Qed.
Print Assumptions C11_no_stuck_refuted.

(* Join (model PromiseJoin.v; the theorems over all interleavings on this model follow below): the seeded
   change C11-3 (resolve no longer closes p.joined) and the code as found (F11c, nil client table) are refuted by
   concrete histories, replayed on the real code (corpus/C11-promise.txt) *)
Theorem C11_join_resolve_refuted :
  match jquiesce jseed3 1000 (jinit 2 seed3_history) 7 with
  | Some c => forallb (fun t => negb (jenabled jseed3 c t)) (jall_tids c) = true /\
              jfinished c 4 = false /\ jfinished c 5 = false /\ jfinished c 6 = true /\ all_mu_free c = true
  | None => False
  end.
Proof. exact join_resolve_refuted. Qed.
Print Assumptions C11_join_resolve_refuted.

Theorem C11_join_nil_table_refuted :
  match jquiesce jf11c 1000 (jinit 2 f11c_history) 3 with
  | Some c => match nth_error (jthreads c) 1 with
              | Some th => j_out th = OPanic | None => False end /\
              jmutex_blocked c 2 = true /\ all_mu_free c = false
  | None => False
  end.
Proof. exact join_nil_table_refuted. Qed.
Print Assumptions C11_join_nil_table_refuted.

(* pipelined_exactly_once on a promise and its joined chain (model with Join), any number of promises, every op list
   and interleaving (premise: Join allocates the client table, the code as it is):
   (count) a call is delivered at most once, and exactly once when it has returned (a Client-call on an empty slot: zero);
   (caller) a call is handed to the PipelineCaller of a promise only while that promise has not left the unresolved
            state;
   (destination) the promise k a call was delivered at is reached along next from the call's RECEIVER (the promise of
            PipelineSend/Recv; for a call through a proxy client, the proxy's owner); a delivery that is not to k's
            PipelineCaller was made when k is the END of that chain (no next edge, for good), on k's result at the
            call's path, and that result is final.
   Calls through an already resolved / released client (JEDirect) are only counted here; what such a client refers to
   is C11_join_proxy_clients_resolved_and_released. *)
Theorem C11_join_pipelined_exactly_once : forall v np ops c, jv_alloc_table v = true -> jreach v np ops c ->
  (forall t th, nth_error (jthreads c) t = Some th ->
    match j_op th with
    | JSend _ _ _ =>
      (jcnt (jis_deliver t) (jevents c) <= 1)%nat /\
      (j_pc th = QDone -> jcnt (jis_deliver t) (jevents c) = 1%nat)
    | JCall _ _ =>
      (jcnt (jis_deliver t) (jevents c) <= 1)%nat /\
      (j_pc th = QDone -> (j_out th = ONoSlot /\ jcnt (jis_deliver t) (jevents c) = 0%nat) \/
                          (j_out th = ORet /\ jcnt (jis_deliver t) (jevents c) = 1%nat))
    | _ => True
    end) /\
  wf_jcaller (jevents c) /\
  (forall t th k d, nth_error (jthreads c) t = Some th -> In (JEDeliver t k d) (jevents c) ->
    match j_op th with
    | JSend k0 _ _ => nreach c k0 k
    | JCall _ _ => exists x, j_via th = Some x /\ nreach c (jx_owner (getx c x)) k
    | _ => True
    end /\
    (d = DCaller \/
     (p_next (getp c k) = None /\ d = res_dest (jcur_res (getp c k)) (j_path th) /\ p_caller (getp c k) = false /\
      (p_result (getp c k) <> None \/ p_signals (getp c k) = [])))).
Proof. exact join_pipelined_exactly_once_full. Qed.
Print Assumptions C11_join_pipelined_exactly_once.

(* ---- joined chains (model PromiseJoin.v): all variants / all numbers of promises / all op lists / all
   interleavings *)

(* client_idempotent on chains, mu part (ordered locking, no leaked mutex): a promise's mu is held at a section
   boundary only by a Join thread on that promise that is about to lock the promise it joins; when every
   operation has finished every mu is free.  (For the code as found, F11c, this fails: C11_join_nil_table_refuted.) *)
Theorem C11_join_mu_discipline : forall v np ops c, jv_alloc_table v = true -> jreach v np ops c ->
  (forall k t, p_mu (getp c k) = Some t ->
     exists th, nth_error (jthreads c) t = Some th /\ j_pc th = QJPar /\ j_cur th = k) /\
  ((forall t, jfinished c t = true) -> forall k, p_mu (getp c k) = None).
Proof. exact join_mu_discipline. Qed.
Print Assumptions C11_join_mu_discipline.

(* resolve_once on chains: per promise, at most one Fulfill / Reject / Join passes the isUnresolved check, the
   result is set at most once, and it is set iff JEResolved was logged for it *)
Theorem C11_join_resolve_once : forall v np ops c, jreach v np ops c -> forall k,
  (jcnt (jis_begin k) (jevents c) <= 1)%nat /\ (jcnt (jis_resolved k) (jevents c) <= 1)%nat /\
  (p_caller (getp c k) = true -> jcnt (jis_begin k) (jevents c) = 0%nat /\ p_result (getp c k) = None) /\
  (jcnt (jis_resolved k) (jevents c) = 1%nat <-> exists r, p_result (getp c k) = Some r).
Proof. exact join_resolve_once. Qed.
Print Assumptions C11_join_resolve_once.


(* seeded C11-r2-1 (Join: parent.clientsRefs++ instead of += p.clientsRefs) refuted on the Join model: after
   ReleaseClients on the two joined promises of a child-first chain the client is already released *)
Theorem C11_join_refs_refuted :
  match jquiesce jrefs1 1000 (jinit 3 refs_history) 7 with
  | Some c => In (JEDirect 6 DFail) (jevents c) /\ p_relflag (getp c 0) = false
  | None => False
  end.
Proof. exact join_refs_refuted. Qed.
Print Assumptions C11_join_refs_refuted.

(* proxy clients on chains, the reference count: over all op lists and interleavings the client-table references
   (clientsRefs summed over all promises) equal the number of promises that have not called ReleaseClients plus the
   ReleaseClients calls on their way to the end of their chain: Join conserves the references, each ReleaseClients
   consumes exactly one, so the table is given up by the last ReleaseClients of the promises sharing it and not
   before.  Violated by the seeded change C11-r2-1 (C11_join_refs_refuted, join_refs_conservation_refuted). *)
Theorem C11_join_refs_count : forall v np ops c, jv_refs_sum v = true -> jreach v np ops c ->
  pm_refs (proms c) = pm_unreleased (proms c) + jcount owes (jthreads c).
Proof. exact join_refs_count. Qed.
Print Assumptions C11_join_refs_count.

(* ---- round 6: the forest, the Join precondition, mutex deadlock freedom, destinations on chains *)

(* Precondition of Join (join_ordered): a promise only joins promises of lower index (never itself, never a promise
   that is or will be joined to it).  Under it every next edge goes to a lower index: joined promises form a forest
   whose chains end in a promise that is not joined. *)
Theorem C11_join_forest : forall v np ops c, join_ordered ops -> jreach v np ops c ->
  (forall k q, p_next (getp c k) = Some q -> (q < k)%nat) /\
  (forall t th, nth_error (jthreads c) t = Some th -> jjoin_pc (j_pc th) = true -> (j_par th < j_cur th)%nat).
Proof. exact join_forest. Qed.
Print Assumptions C11_join_forest.

(* without the precondition Join can block forever *)
Theorem C11_self_join_refuted :
  let c := jrun jfixed (jinit 1 [JJoin 0 0]) [0%nat; 0%nat; 0%nat] in
  jenabled jfixed c 0 = false /\ jfinished c 0 = false /\ jmutex_blocked c 0 = true.
Proof. exact self_join_refuted. Qed.
Print Assumptions C11_self_join_refuted.

Theorem C11_cyclic_join_refuted :
  let c := jrun jfixed (jinit 2 [JJoin 0 1; JJoin 1 0]) [0%nat; 1%nat; 0%nat; 1%nat] in
  jenabled jfixed c 0 = false /\ jenabled jfixed c 1 = false /\
  jfinished c 0 = false /\ jfinished c 1 = false /\ jmutex_blocked c 0 = true /\ jmutex_blocked c 1 = true.
Proof. exact cyclic_join_refuted. Qed.
Print Assumptions C11_cyclic_join_refuted.

(* no deadlock on the mutexes (component of C11_join_no_stuck): under the precondition of Join, whenever some
   Promise.mu is held some thread can take a step, so no operation waits forever for a mutex *)
Theorem C11_join_no_mutex_deadlock : forall v np ops c, jv_alloc_table v = true -> join_ordered ops ->
  jreach v np ops c -> forall k t, p_mu (getp c k) = Some t -> exists t', jenabled v c t' = true.
Proof. exact join_no_mutex_deadlock. Qed.
Print Assumptions C11_join_no_mutex_deadlock.


(* joined promises hold nothing: references, clients and signals live at the promise they were joined onto *)
Theorem C11_join_joined_empty : forall v np ops c, jv_alloc_table v = true -> jreach v np ops c -> forall k,
  (p_caller (getp c k) = true -> p_next (getp c k) = None) /\
  (p_next (getp c k) <> None ->
   p_crefs (getp c k) = 0 /\ p_clients (getp c k) = [] /\ p_signals (getp c k) = []).
Proof. exact join_joined_empty. Qed.
Print Assumptions C11_join_joined_empty.

(* proxy clients released, per chain: when every promise other than k has been joined, k's clientsRefs equals the
   number of promises that have not called ReleaseClients plus the calls still walking to k: the table is given up by
   the last ReleaseClients of the chain, not before (seeded C11-r2-1) and not later *)
Theorem C11_join_chain_release : forall v np ops c,
  jv_alloc_table v = true -> jv_refs_sum v = true -> jreach v np ops c ->
  forall k, (forall k', k' <> k -> p_next (getp c k') <> None \/ p_crefs (getp c k') = 0) ->
    p_crefs (getp c k) = pm_unreleased (proms c) + jcount owes (jthreads c).
Proof. exact join_chain_release. Qed.
Print Assumptions C11_join_chain_release.

(* ---- deadlock freedom and released waiters on joined chains.
   Premises of the chain theorems: the code as it is (jv_close_joined: resolve closes p.joined; jv_alloc_table: Join
   allocates the client table of the promise joined onto; jv_refs_sum: Join hands over all clientsRefs) and the
   precondition of Join (join_ordered: a promise only joins promises of lower index; self-join and cyclic joins are
   refuted above).  C11_join_premises_satisfiable shows that they can be met together. *)

(* hook waits on chains, Fulfill side: at rest with no call held inside a PipelineCaller, no resolver is waiting for the
   calls of a proxy hook to drain.  Proof: per-proxy counting (hook.calls = number of call threads that came through the
   proxy; refs <= 0 and calls = 0 => hook done) and the path invariant (a proxy in r's table has an owner whose next-chain
   leads to r; a call that came through it is on that chain), so the call it would wait for is blocked on r's joined /
   pendingDone channel, which the resolver has already closed *)
Theorem C11_join_fulfil_never_waits_for_hook : forall v np ops c,
  jv_close_joined v = true -> jv_alloc_table v = true -> join_ordered ops -> jreach v np ops c ->
  (forall t, jenabled v c t = false) ->
  (forall t th, nth_error (jthreads c) t = Some th -> j_pc th <> QInCaller) ->
  forall t th, nth_error (jthreads c) t = Some th -> j_pc th <> QFulWait.
Proof. exact join_fulfil_never_waits_for_hook. Qed.
Print Assumptions C11_join_fulfil_never_waits_for_hook.


(* hook waits on chains, Release side: ReleaseClients / Client.Release never waits for a proxy hook at all - it only
   starts when the receiver's resolved channel is closed; then the next-chain from the receiver ends in a settled
   (resolved) promise whose Fulfill loop has set the target of every proxy in its table, and a proxy with a target is
   released without waiting *)
Theorem C11_join_release_never_waits_for_hook : forall v np ops c,
  jv_alloc_table v = true -> jreach v np ops c ->
  forall t th, nth_error (jthreads c) t = Some th -> j_pc th <> QRelWait.
Proof. exact join_release_never_waits_for_hook. Qed.
Print Assumptions C11_join_release_never_waits_for_hook.

(* the invariant behind it: a promise whose resolved channel is closed reaches, along next, a settled promise
   (signals handed out, no next edge) and every proxy in that promise's table has its target set *)
Theorem C11_join_resclosed_lands : forall v np ops c,
  jv_alloc_table v = true -> jreach v np ops c ->
  forall k, p_resclosed (getp c k) = true ->
    exists r, nreach c k r /\ settled c r /\ (forall x, in_rows c r x -> jx_target (getx c x) <> None).
Proof. exact join_resclosed_lands. Qed.
Print Assumptions C11_join_resclosed_lands.

(* no_stuck on chains, in the shape of C11_no_stuck.  If no thread can take a step then the application holds a call
   inside a PipelineCaller (gated, not released), or every unfinished operation t is blocked on a channel of a promise
   k = [waited th] (resolved_k for Struct / ReleaseClients at their start, Client() and a Join that found k pending
   resolution; joined_k for a traversal or a Join that found k pending join) and k depends on a promise r that nobody
   has asked to resolve ([waits_on c k r]: r is k, or k was joined onto a promise that depends on r, or a Join of k is
   in progress onto a promise that depends on r; p_caller r still set). *)
Theorem C11_join_no_stuck : forall v np ops c,
  jv_close_joined v = true -> jv_alloc_table v = true -> join_ordered ops -> jreach v np ops c ->
  (forall t, jenabled v c t = false) ->
  (exists t th, nth_error (jthreads c) t = Some th /\ j_pc th = QInCaller /\
                jop_gated (j_op th) = true /\ mem_nat t (jgates c) = false) \/
  (forall t th, nth_error (jthreads c) t = Some th -> j_pc th <> QDone ->
     exists k r, waited th = Some k /\ waits_on c k r /\ p_caller (getp c r) = true).
Proof. exact join_no_stuck_tied. Qed.
Print Assumptions C11_join_no_stuck.

(* waiters_released on chains, per chain: at rest, with no call held by the application, an operation has finished
   unless the promise it is blocked on depends on a promise that nobody asked to resolve - other, unrelated promises
   may be in any state *)
Theorem C11_join_waiters_released : forall v np ops c,
  jv_close_joined v = true -> jv_alloc_table v = true -> join_ordered ops -> jreach v np ops c ->
  (forall t, jenabled v c t = false) ->
  (forall t th, nth_error (jthreads c) t = Some th -> j_pc th = QInCaller ->
                jop_gated (j_op th) = true -> mem_nat t (jgates c) = true) ->
  forall t th, nth_error (jthreads c) t = Some th ->
    (forall k r, waited th = Some k -> waits_on c k r -> p_caller (getp c r) = false) ->
    j_pc th = QDone.
Proof. exact join_waiters_released_tied. Qed.
Print Assumptions C11_join_waiters_released.

(* waiters_enabled on chains (analogue of C11_waiters_enabled): once resolved_k is closed, an unfinished Struct /
   ReleaseClients on k can take a step, unless the mutex of the promise it is at is held - and then some thread can
   (C11_join_no_mutex_deadlock) *)
Theorem C11_join_waiters_enabled : forall v np ops c,
  jv_alloc_table v = true -> jreach v np ops c ->
  forall t th k, nth_error (jthreads c) t = Some th -> j_op th = JWait k \/ j_op th = JRelease k ->
    j_pc th <> QDone -> p_resclosed (getp c k) = true ->
    jenabled v c t = true \/ p_mu (getp c (j_cur th)) <> None.
Proof. exact join_waiters_enabled. Qed.
Print Assumptions C11_join_waiters_enabled.

(* proxy targets on chains: every proxy in the client table of a settled (resolved) promise r - its own pipelined
   clients and those moved to it by Joins - has been given r's result at the proxy's path.  With
   C11_join_chain_release (the table is given up by the last ReleaseClients of the chain) this is
   proxy_clients_resolved_and_released on chains. *)
Theorem C11_join_proxy_targets : forall v np ops c,
  jv_alloc_table v = true -> jreach v np ops c ->
  forall r x res, settled c r -> p_result (getp c r) = Some res -> in_rows c r x ->
    jx_target (getx c x) = Some (res_dest res (jx_path (getx c x))).
Proof. exact join_proxy_targets. Qed.
Print Assumptions C11_join_proxy_targets.

(* proxy_clients_resolved_and_released on chains, in the shape of the single-promise theorem:
   (resolved) once Fulfill / Reject of promise k has returned, every proxy whose owner's next-chain ends at k - the
   pipelined clients of k and of every promise joined, directly or not, onto k, whether still in k's table or already
   taken by ReleaseClients - refers to what that resolution holds at the proxy's path;
   (released) every proxy is in some promise's client table, or in the loop of the ReleaseClients call that took its
   table, or released: once the table of a chain has been taken (by the last ReleaseClients of the chain,
   C11_join_chain_release) and that call has returned, every proxy that was in it is released. *)
Theorem C11_join_proxy_clients_resolved_and_released : forall v np ops c,
  jv_alloc_table v = true -> jreach v np ops c ->
  (forall t th k, nth_error (jthreads c) t = Some th -> (exists caps, j_op th = JFulfill k caps) \/ j_op th = JReject k ->
     j_pc th = QDone -> j_out th = ORet ->
     forall x, (x < length (jproxies c))%nat -> nreach c (own c x) k ->
       jx_target (getx c x) = Some (res_dest (jop_res (j_op th)) (jx_path (getx c x)))) /\
  (forall x, (x < length (jproxies c))%nat ->
     (exists r, in_rows c r x) \/
     (exists t th, nth_error (jthreads c) t = Some th /\ j_pc th = QRel /\ In x (j_rest th)) \/
     jx_rel (getx c x) = true).
Proof. exact join_proxy_clients_resolved_and_released. Qed.
Print Assumptions C11_join_proxy_clients_resolved_and_released.

(* client_idempotent on chains ("same proxy" part; the mu part is C11_join_mu_discipline): Future.Client calls for
   the same path that ended their traversal at the same promise returned the same proxy, as long as that promise is
   still unresolved.  Across a Join the code itself hands out the proxy of the promise joined onto (the row of a path
   then holds both promises' proxies and Client() returns the first; both resolve to the same capability by
   C11_join_proxy_clients_resolved_and_released), so the single-promise statement does not carry over literally. *)
Theorem C11_join_client_idempotent : forall v np ops c,
  jv_alloc_table v = true -> jreach v np ops c ->
  forall t1 t2 th1 th2 k1 k2 q s1 s2 x1 x2,
    nth_error (jthreads c) t1 = Some th1 -> nth_error (jthreads c) t2 = Some th2 ->
    j_op th1 = JClient k1 q s1 -> j_op th2 = JClient k2 q s2 ->
    j_pc th1 = QDone -> j_pc th2 = QDone ->
    j_out th1 = OHandle (HProxy x1) -> j_out th2 = OHandle (HProxy x2) ->
    j_cur th1 = j_cur th2 -> p_caller (getp c (j_cur th1)) = true ->
    x1 = x2.
Proof. exact join_client_idempotent. Qed.
Print Assumptions C11_join_client_idempotent.

(* the premises are satisfiable together: the variant of the code as it is, and an ordered history with two Joins
   that runs to a configuration where every operation has finished *)
Example C11_join_premises_satisfiable :
  jv_close_joined jfixed = true /\ jv_alloc_table jfixed = true /\ jv_refs_sum jfixed = true /\
  join_ordered premises_history /\
  exists c, jreach jfixed 3 premises_history c /\ (forall t, jenabled jfixed c t = false) /\
            (forall t th, nth_error (jthreads c) t = Some th -> j_pc th = QDone).
Proof. exact join_premises_satisfiable. Qed.
Print Assumptions C11_join_premises_satisfiable.

(* relation between the two models, PARTIAL: with zero Join operations the Join-specific state of PromiseJoin.v is
   inert (no promise pending join or joined, no mu held at a section boundary, no thread in a Join section): each
   promise runs the single-promise protocol on its own fields, and the precondition of Join holds vacuously, so every
   chain theorem above applies to each promise on its own.  A full simulation on the projected observables is not
   proved; the two models are additionally tied through the implementation (seq vs join 1 / par 1 histories). *)
Theorem C11_join_zero_joins_inert_partial : forall v np ops c, Forall no_join_op ops -> jreach v np ops c ->
  (forall k, p_next (getp c k) = None /\ p_joined (getp c k) = CNil /\ p_mu (getp c k) = None) /\
  (forall t th, nth_error (jthreads c) t = Some th -> jjoin_pc (j_pc th) = false) /\
  join_ordered ops.
Proof. exact join_zero_joins_inert_ordered. Qed.
Print Assumptions C11_join_zero_joins_inert_partial.

