(* CapInv.v — the invariant of the interleaving model (variant [fixed = true]) and the
   statements of the C10 theorems that CapProofs.v proves from it (no_stuck: CapLive.v).  The other
   C10 statements stand next to their proofs in CapProofs.v, CapLive.v and CapTerm.v. *)
From Coq Require Import ZArith List Bool Arith Lia.
From CV Require Import Cap.Cap.
Import ListNotations.
Open Scope Z_scope.

Fixpoint sumf {A} (f : A -> Z) (l : list A) : Z :=
  match l with [] => 0 | x :: r => f x + sumf f r end.

(* ---- resolution graph *)
Definition fwd (g : config) (a b : nat) : Prop :=
  exists hk, get_hook g a = Some hk /\ forwarded a hk = true /\ h_rh hk = Some b.

Inductive reach (g : config) : nat -> nat -> Prop :=
| reach_refl0 : forall a, reach g a a
| reach_left : forall a m b, fwd g a m -> reach g m b -> reach g a b.

(* the chain from a ends in a hook resolved to nil *)
Definition to_nil (g : config) (a : nat) : Prop :=
  exists y hk, reach g a y /\ get_hook g y = Some hk /\ forwarded y hk = true /\ h_rh hk = None.

(* a non-empty path: p forwards to r, and cur is reachable from r *)
Definition path1 (g : config) (p cur : nat) : Prop := exists r, fwd g p r /\ reach g r cur.

(* ---- counting *)
Definition wtok (h : nat) (c : client) : Z := if oeqb (c_tgt c) (Some h) then 1 else 0.
(* number of live client references accounted at hook h *)
Definition tokens (g : config) (h : nat) : Z := sumf (wtok h) (clients g).

Definition wclose (h : nat) (th : thread) : Z :=
  match t_pc th with
  | WaitDone x => if Nat.eqb x h then 1 else 0
  | FWalk x _ _ _ => if Nat.eqb x h then 1 else 0
  | _ => 0
  end.
(* threads committed to shutting h down *)
Definition closers (g : config) (h : nat) : Z := sumf (wclose h) (threads g).

Definition wcall (h : nat) (th : thread) : Z :=
  match t_pc th with
  | InCall x _ => if Nat.eqb x h then 1 else 0
  | CallFin x _ => if Nat.eqb x h then 1 else 0
  | _ => 0
  end.
(* calls through h in progress *)
Definition callers (g : config) (h : nat) : Z := sumf (wcall h) (threads g).

(* ---- invariant *)
Definition tgt_ok (g : config) (T : option nat) (x : nat) : Prop :=
  match T with Some T => reach g x T | None => to_nil g x end.

Definition client_ok (g : config) (cl : client) : Prop :=
  match c_h cl with None => c_tgt cl = None | Some x => tgt_ok g (c_tgt cl) x end.

Definition borrow_ok (g : config) (c : option nat) (rh : option nat) : Prop :=
  match c with
  | None => rh = None
  | Some ci => exists cl, get_client g ci = Some cl /\ c_released cl = false /\
                 match rh with Some x => tgt_ok g (c_tgt cl) x | None => c_tgt cl = None end
  end.

Definition pc_of (g : config) (t : nat) (p : pc) : Prop :=
  exists th, nth_error (threads g) t = Some th /\ t_pc th = p.

(* the clauses about one hook *)
Record hook_ok (g : config) (h : nat) (hk : hook) : Prop := {
  (* a hook whose mutex is free accounts exactly for the clients that resolve to it *)
  hk_acct : h_mu hk = None -> h_refs hk = tokens g h;
  (* hook mutexes are held across steps only by a Fulfill in its transfer walk *)
  hk_mu_ : forall t, h_mu hk = Some t -> exists n c cur, pc_of g t (FWalk h n c cur);
  hk_calls_ : h_calls hk = callers g h;
  hk_done_ : h_done hk = ((h_refs hk =? 0) && (h_calls hk =? 0));
  hk_close : closers g h + h_shut hk = (if h_refs hk =? 0 then 1 else 0);
  hk_shut0 : 0 <= h_shut hk;
  hk_fwd : forwarded h hk = true -> h_refs hk = 0
}.

Record InvH (g : config) : Prop := {
  inv_range : forall h, (length (hooks g) <= h)%nat ->
      tokens g h = 0 /\ closers g h = 0 /\ callers g h = 0;
  inv_hook : forall h hk, get_hook g h = Some hk -> hook_ok g h hk
}.

Record InvC (g : config) : Prop := {
  inv_client : forall c cl, get_client g c = Some cl -> client_ok g cl;
  inv_cwalk : forall t k c cur, pc_of g t (CWalk k c cur) ->
      exists cl, get_client g c = Some cl /\ c_h cl = Some cur /\ c_mu cl = Some t /\
                 (k = KRelease -> c_released cl = true);
  inv_cmu : forall c cl t, get_client g c = Some cl -> c_mu cl = Some t ->
      exists k cur, pc_of g t (CWalk k c cur);
  (* a released client whose mutex is free has no hook any more (Release has completed) *)
  inv_rel : forall c cl, get_client g c = Some cl -> c_released cl = true -> c_mu cl = None ->
      c_h cl = None;
  (* only Release walks a released client *)
  inv_nrel : forall t k c cur cl, pc_of g t (CWalk k c cur) -> get_client g c = Some cl ->
      k <> KRelease -> c_released cl = false
}.

Record InvF (g : config) : Prop := {
  (* a Fulfill in its transfer walk holds the promise hook's mutex and carries its references *)
  inv_flight : forall t p n c cur, pc_of g t (FWalk p n c cur) ->
      exists hk, get_hook g p = Some hk /\ h_mu hk = Some t /\ h_refs hk = 0 /\ tokens g p = n /\
                 0 < n /\ forwarded p hk = true /\ path1 g p cur /\ borrow_ok g c (Some cur);
  inv_fmark : forall t p rh c, pc_of g t (FMark p rh c) -> borrow_ok g c rh
}.

Record Inv (g : config) : Prop := {
  inv_nomis : misuse g = false;
  invH : InvH g;
  invC : InvC g;
  invF : InvF g
}.

(* ---- statements *)

(* shutdown_once: in every reachable configuration (any schedule, any programs) every hook has
   been shut down at most once; it has been shut down or a thread is committed to shutting it
   down (and blocked only on calls still in progress) exactly when its reference count is 0;
   and when all threads are finished, shut = 1 iff refs = 0. *)
Definition shutdown_once_stmt : Prop :=
  forall progs g, reachable true (init progs) g -> misuse g = false ->
  forall h hk, get_hook g h = Some hk ->
    0 <= h_shut hk <= 1 /\
    closers g h + h_shut hk = (if h_refs hk =? 0 then 1 else 0) /\
    ((forall th, In th (threads g) -> unfinished th = false) ->
       h_shut hk = (if h_refs hk =? 0 then 1 else 0)).

(* shutdown_after_last: at the step that runs Shutdown (pc WaitDone h), the hook has no
   reference, no call in progress, and no live client resolves to it. *)
Definition shutdown_after_last_stmt : Prop :=
  forall progs g t h g', reachable true (init progs) g -> misuse g = false ->
  pc_of g t (WaitDone h) -> step true g t = Some g' ->
  exists hk, get_hook g h = Some hk /\ h_refs hk = 0 /\ h_calls hk = 0 /\ tokens g h = 0 /\
             callers g h = 0 /\ h_shut hk = 0.

(* refs_transfer: reference counts are exact.  Every hook whose mutex is free has
   refs = number of live clients resolving to it (so after Fulfill the promised hook's clients
   are counted at the target), and during the transfer the promised hook is locked, has
   refs = 0, and the walking thread carries exactly the references of its clients. *)
Definition refs_transfer_stmt : Prop :=
  forall progs g, reachable true (init progs) g -> misuse g = false ->
  (forall h hk, get_hook g h = Some hk -> h_mu hk = None -> h_refs hk = tokens g h) /\
  (forall t p n c cur, pc_of g t (FWalk p n c cur) ->
      exists hk, get_hook g p = Some hk /\ h_mu hk = Some t /\ h_refs hk = 0 /\ tokens g p = n) /\
  (forall c cl, get_client g c = Some cl -> client_ok g cl).

(* the transfer step itself *)
Definition refs_transfer_step_stmt : Prop :=
  forall g t p n c cur hk g', pc_of g t (FWalk p n c cur) ->
  get_hook g cur = Some hk -> h_mu hk = None -> forwarded cur hk = false -> cur <> p ->
  step true g t = Some g' ->
  exists hk', get_hook g' cur = Some hk' /\ h_refs hk' = h_refs hk + n /\
              tokens g' cur = tokens g cur + tokens g p /\ tokens g' p = 0.

(* no_stuck (deadlock freedom): a reachable configuration with an unfinished thread has an
   enabled step.  (The step of a thread inside a call-out is the application returning.) *)
Definition no_stuck_stmt : Prop :=
  forall progs g, reachable true (init progs) g -> misuse g = false ->
  (exists th, In th (threads g) /\ unfinished th = true) ->
  exists t g', step true g t = Some g'.

(* every id a thread is about to dereference exists (a well-formedness property of reachable
   configurations: ids come from slot tables, c_h, resolvedHook, which only ever hold ids of
   allocated objects) *)
Definition ids_ok (g : config) : Prop :=
  forall t th, nth_error (threads g) t = Some th ->
  match t_pc th with
  | CLock _ c | FLock _ c => c < length (clients g)
  | CWalk _ _ cur | WWalk _ _ cur | FWalk _ _ _ cur => cur < length (hooks g)
  | InCall h _ | CallFin h _ | WaitDone h => h < length (hooks g)
  | FMark p _ _ => p < length (hooks g)
  | Idle => True
  end%nat.

(* [no_stuck_stmt] restricted to configurations that are well-formed in the sense of [ids_ok] and in
   which no Fulfill is inside its transfer walk, the only place where a hook mutex is held across
   steps (CapProofs.no_stuck_partial).  CapLive.no_stuck needs neither hypothesis: [ids_ok] holds of
   every reachable configuration (CapWf.reachable_wf), and concurrent Fulfill walks waiting for each
   other are ordered by the acyclic resolution graph (CapLive.reachable_acyc). *)
Definition no_stuck_partial_stmt : Prop :=
  forall progs g, reachable true (init progs) g -> misuse g = false -> ids_ok g ->
  (forall t p n c cur, ~ pc_of g t (FWalk p n c cur)) ->
  (exists th, In th (threads g) /\ unfinished th = true) ->
  exists t g', step true g t = Some g'.
