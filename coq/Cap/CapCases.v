(* CapCases.v — preservation of the invariant (variant fixed = true), one lemma per case of
   [step_case]; the cases in which only the thread moves need none. *)
From Coq Require Import ZArith List Bool Arith Lia.
From CV Require Import Cap.Cap Cap.CapInv Cap.CapLemmas Cap.CapStep Cap.CapLinks.
Import ListNotations.
Open Scope Z_scope.

(* only thread t (at the pc given by Hpc) moves; what is left is what the invariant says about
   the new pc *)
Ltac thread_only Iv Hth Hpc Hm :=
  match type of Iv with Inv ?g0 => eapply (inv_thread_only g0 _ _ _ _ Hth) end;
  [ cbn; rewrite ?upd_upd; reflexivity
  | exact Iv | reflexivity | reflexivity | exact Hm
  | intros; unfold wclose, wcall; cbn; rewrite Hpc; split; reflexivity
  | rewrite Hpc; cbn; auto
  | cbn ]; try exact I.

Lemma begin_op_inv : forall g t th o rest,
  Inv g -> nth_error (threads g) t = Some th -> t_pc th = Idle ->
  let g1 := set_threads (upd t (fun x => mkThread rest Idle (t_res x)) (threads g)) g in
  misuse (begin_op t o g1) = false -> Inv (begin_op t o g1).
Proof.
  intros g t th o rest Iv Hth Hpc g1 Hm. subst g1.
  destruct o; unfold begin_op, same_second in *; cbn [hooks clients cslots wslots pslots weaks set_threads] in *;
  destr_goal; try solve [thread_only Iv Hth Hpc Hm; reflexivity].
  - thread_only (alloc_hook g true (Some (length (hooks g))) Iv (or_intror eq_refl)) Hth Hpc Hm.
  - thread_only (alloc_hook g false None Iv (or_introl eq_refl)) Hth Hpc Hm.
Qed.

Lemma free_hooked_not_released : forall g c cl h, Inv g -> get_client g c = Some cl -> c_mu cl = None ->
  c_h cl = Some h -> c_released cl = false.
Proof.
  intros g c cl h I Hc Hm Hh. destruct (c_released cl) eqn:E; auto.
  rewrite (inv_rel g (invC g I) c cl Hc E Hm) in Hh. discriminate.
Qed.

(* thread t changes client c (state cl, by Hc); what is left: the client's new state is well
   formed and agrees with the new pc *)
Ltac client_only Iv Hth Hpc Hc Hm :=
  match type of Iv with Inv ?g0 => eapply (inv_client_only g0 _ _ _ _ Hth) end;
  try exact Iv; try exact Hc; try exact Hm;
  [ cbn; rewrite ?upd_upd; reflexivity | reflexivity | cbn; apply (upd_const _ _ _ _ _ Hc)
  | intros; unfold wclose, wcall; cbn; rewrite Hpc; auto
  | rewrite Hpc; try reflexivity | reflexivity | auto | | cbn ].

Lemma clock_step_inv : forall g t th k c cl,
  Inv g -> nth_error (threads g) t = Some th -> t_pc th = CLock k c ->
  get_client g c = Some cl -> c_mu cl = None ->
  misuse (clock_step t k c cl g) = false -> Inv (clock_step t k c cl g).
Proof.
  intros g t th k c cl Iv Hth Hpc Hc Hcmu Hm. unfold clock_step, same_second in *.
  assert (Hnr : forall h, c_h cl = Some h -> c_released cl = false).
  { intros h. apply (free_hooked_not_released g c cl h Iv Hc Hcmu). }
  destruct k; destr_goal; try solve [thread_only Iv Hth Hpc Hm].
  all: try (destruct (borrowed g c) eqn:Hb; [discriminate Hm|]).
  all: client_only Iv Hth Hpc Hc Hm;
    [ exact Hcmu | apply (inv_client g (invC g Iv) _ _ Hc) | repeat split; auto; try discriminate; try congruence; eauto ].
Qed.

(* thread t changes hook x (state hk, by Hx) and client c (state cl, by Hc) *)
Ltac hook_client Iv Hth Hpc Hx Hmu Hc Hm :=
  match type of Iv with Inv ?g0 => eapply (inv_hook_client g0 _ _ _ _ Hth) end;
  try exact Iv; try exact Hx; try exact Hmu; try exact Hc; try exact Hm;
  [ cbn; rewrite ?upd_upd; reflexivity
  | cbn; first [reflexivity | apply (upd_const _ _ _ _ _ Hx)]
  | cbn; rewrite ?upd_upd; apply (upd_const _ _ _ _ _ Hc)
  | let Hne := fresh in intros ? Hne; unfold wclose, wcall; cbn; rewrite Hpc, ?(eqb_neq_false _ _ Hne); auto
  | rewrite Hpc; reflexivity | | | | cbn | ].

(* the bookkeeping of hook_move, once the weights are computed from the old pc (Hpc) and the new *)
Ltac hook_moves Hpc :=
  constructor; unfold wtok, wcall, wclose; cbn [t_pc c_tgt cl_h cl_mu cl_tgt cl_released];
  rewrite ?Hpc, ?Nat.eqb_refl, ?oeqb_refl;
  cbn [h_refs h_calls h_resolved h_rh h_done h_shut h_mu hk_refs hk_calls hk_done hk_shut hk_mu oeqb];
  repeat match goal with |- context[Z.eqb ?a ?b] => destruct (Z.eqb_spec a b) end;
  auto; try congruence; try lia.

Section CWALK.
Variables (g : config) (t : nat) (th : thread) (k : kont) (c cur : nat) (hk : hook).
Hypothesis Iv : Inv g.
Hypothesis Hth : nth_error (threads g) t = Some th.
Hypothesis Hpc : t_pc th = CWalk k c cur.
Hypothesis Hx : get_hook g cur = Some hk.
Hypothesis Hmu : h_mu hk = None.

Lemma cwalk_hop_inv : forall r, forwarded cur hk = true -> h_rh hk = Some r ->
  Inv (set_pc t (CWalk k c r) (uc c (cl_h (Some r)) g)).
Proof.
  intros r Hf Hr.
  destruct (walk_ok_inv g t _ Iv (ex_intro _ th (conj Hth Hpc))) as (cl & Hc & Hch & Hcm & Hrel & Hnrel).
  pose proof (inv_client g (invC g Iv) _ _ Hc) as O. unfold client_ok in O. rewrite Hch in O.
  client_only Iv Hth Hpc Hc (inv_nomis g Iv).
  - apply (tgt_ok_hop g c cl cur hk r (invH g Iv) Hc Hx Hmu Hf Hr O).
  - auto.
Qed.

Lemma cwalk_nil_inv : forwarded cur hk = true -> h_rh hk = None -> Inv (cwalk_nil t k c g).
Proof.
  intros Hf Hr.
  destruct (walk_ok_inv g t _ Iv (ex_intro _ th (conj Hth Hpc))) as (cl & Hc & Hch & Hcm & Hrel & Hnrel).
  pose proof (inv_client g (invC g Iv) _ _ Hc) as O. unfold client_ok in O. rewrite Hch in O.
  assert (Htg : c_tgt cl = None).
  { destruct (c_tgt cl) as [T|] eqn:ET; auto. simpl in O. exfalso.
    assert (T = cur) by (eapply reach_noout; eauto; intros b; eapply no_fwd_of_hook; eauto). subst T.
    eapply (no_tokens_tgt g cur c cl); eauto. eapply fwd_free_no_tokens; eauto. apply (invH g Iv). }
  unfold cwalk_nil, same_second.
  destruct k; destr_goal; client_only Iv Hth Hpc Hc (inv_nomis g Iv); auto; exact Htg.
Qed.

(* at the end of a Client method's walk the hook is alive *)
Lemma cwalk_end_facts : forwarded cur hk = false ->
  exists cl, get_client g c = Some cl /\ c_h cl = Some cur /\ c_mu cl = Some t /\
             (k = KRelease -> c_released cl = true) /\ (k <> KRelease -> c_released cl = false) /\
             c_tgt cl = Some cur /\ 1 <= h_refs hk /\ h_done hk = false /\ 0 <= h_calls hk /\ closers g cur = 0 /\
             h_shut hk = 0.
Proof.
  intros Hf.
  destruct (walk_ok_inv g t _ Iv (ex_intro _ th (conj Hth Hpc))) as (cl & Hc & Hch & Hcm & Hrel & Hnrel).
  pose proof (inv_client g (invC g Iv) _ _ Hc) as O. unfold client_ok in O. rewrite Hch in O.
  pose proof (tgt_ok_terminal g _ cur hk Hx Hf O) as Ht.
  destruct (inv_hook g (invH g Iv) cur hk Hx) as [O1 O2 O3 O4 O5 O6 O7].
  pose proof (tokens_ge_1 g cur c cl Hc Ht) as T1. rewrite <- (O1 Hmu) in T1.
  assert (0 <= callers g cur) by (apply sumf_nonneg; apply wcall_nonneg).
  assert (0 <= closers g cur) by (apply sumf_nonneg; apply wclose_nonneg).
  assert (E : (h_refs hk =? 0) = false) by (apply Z.eqb_neq; lia). rewrite E in *.
  exists cl. repeat split; auto; lia.
Qed.

Lemma cwalk_end_inv : forwarded cur hk = false ->
  misuse (cwalk_end t k c cur hk g) = false -> Inv (cwalk_end t k c cur hk g).
Proof.
  intros Hf Hm.
  destruct (cwalk_end_facts Hf) as (cl & Hc & Hch & Hcm & Hrel & Hnrel & Htg & R1 & Hd & Rc0 & Rclo & _).
  pose proof (inv_client g (invC g Iv) _ _ Hc) as Hok.
  (* unlocking the client, in all methods but Release *)
  assert (Hunl : k <> KRelease -> client_at t c (cl_mu None cl) Idle).
  { intros Hk. split; auto. intros E. simpl in E. rewrite (Hnrel Hk) in E. discriminate. }
  unfold cwalk_end, same_second in *. destruct k as [dst| |recv abn| |wdst|c2|h1|].
  - (* AddRef: unlock the client, then allocate *)
    assert (IU : Inv (finish t ROk (uc c (cl_mu None) g))).
    { client_only Iv Hth Hpc Hc Hm; auto. apply Hunl. discriminate. }
    eapply (alloc_client _ _ cur hk IU Hx Hmu R1); try reflexivity; auto. cbn. apply (upd_const _ _ _ _ _ Hx).
  - (* Release: the client's reference goes; the last one closes done, unless calls are in progress *)
    unfold close_done in *. cbn [h_done hk_refs] in *. rewrite Hd in *.
    destruct (Z.ltb_spec 0 (h_refs hk - 1)); [|destruct (Z.eqb_spec (h_calls hk) 0)];
    hook_client Iv Hth Hpc Hx Hmu Hc Hm; auto; try reflexivity; unfold wtok; rewrite Htg; hook_moves Hpc.
  - destruct recv; hook_client Iv Hth Hpc Hx Hmu Hc Hm; auto; try (apply Hunl; discriminate); hook_moves Hpc.
  - client_only Iv Hth Hpc Hc Hm; auto. apply Hunl. discriminate.
  - client_only Iv Hth Hpc Hc Hm; auto. apply Hunl. discriminate.
  - destruct c2; client_only Iv Hth Hpc Hc Hm; auto; apply Hunl; discriminate.
  - client_only Iv Hth Hpc Hc Hm; auto. apply Hunl. discriminate.
  - hook_client Iv Hth Hpc Hx Hmu Hc Hm; auto; try (apply Hunl; discriminate); hook_moves Hpc.
Qed.
End CWALK.

Lemma wwalk_ok_inv : forall g t th dst w cur hk,
  Inv g -> nth_error (threads g) t = Some th -> t_pc th = WWalk dst w cur ->
  get_hook g cur = Some hk -> h_mu hk = None -> (h_refs hk =? 0) = false ->
  Inv (finish t ROk (set_cslots ((dst, length (clients g)) :: cslots g)
         (set_clients (clients g ++ [new_client cur])
         (uh cur (hk_refs (h_refs hk + 1)) (set_weaks (upd w (fun _ => Some cur) (weaks g)) g))))).
Proof.
  intros g t th dst w cur hk Iv Hth Hpc Hx Hmu Hr.
  assert (R1 : 1 <= h_refs hk).
  { apply Z.eqb_neq in Hr. rewrite (hk_acct g cur hk (inv_hook g (invH g Iv) cur hk Hx) Hmu) in *.
    assert (0 <= tokens g cur) by (apply sumf_nonneg; apply wtok_nonneg). lia. }
  assert (IT : Inv (finish t ROk g)) by (thread_only Iv Hth Hpc (inv_nomis g Iv)).
  eapply (alloc_client _ _ cur hk IT Hx Hmu R1); try reflexivity. cbn. apply (upd_const _ _ _ _ _ Hx).
  apply (inv_nomis g Iv).
Qed.

(* thread t changes hook x (state hk, by Hx); what is left is the bookkeeping *)
Ltac hook_only Iv Hth Hpc Hx Hmu :=
  match type of Iv with Inv ?g0 => eapply (inv_hook_only g0 _ _ _ _ Hth) end;
  try exact Iv; try exact Hx; try exact Hmu; try exact (inv_nomis _ Iv);
  [ cbn; reflexivity
  | cbn; first [reflexivity | apply (upd_const _ _ _ _ _ Hx)]
  | reflexivity
  | let Hne := fresh in intros ? Hne; unfold wclose, wcall; cbn; rewrite Hpc, ?(eqb_neq_false _ _ Hne); auto
  | rewrite Hpc; exact I | exact I | exact I | hook_moves Hpc ].

Lemma callfin_facts : forall g t th h rr hk, Inv g -> nth_error (threads g) t = Some th ->
  t_pc th = CallFin h rr -> get_hook g h = Some hk -> 1 <= h_calls hk /\ h_done hk = false.
Proof.
  intros g t th h rr hk Iv Hth Hpc Hx.
  destruct (inv_hook g (invH g Iv) h hk Hx) as [O1 O2 O3 O4 O5 O6 O7].
  pose proof (sumf_one _ (wcall h) (threads g) t th (wcall_nonneg h) Hth) as S.
  unfold wcall in S at 1. rewrite Hpc, Nat.eqb_refl in S. fold (callers g h) in S.
  split. lia. rewrite O4. destruct (Z.eqb_spec (h_calls hk) 0). lia. apply andb_false_r.
Qed.

Lemma callfin_inv : forall g t th h rr hk hk',
  Inv g -> nth_error (threads g) t = Some th -> t_pc th = CallFin h rr ->
  get_hook g h = Some hk -> h_mu hk = None ->
  let hk1 := hk_calls (h_calls hk - 1) hk in
  (if (h_refs hk1 =? 0) && (h_calls hk1 =? 0) then close_done hk1 else Some hk1) = Some hk' ->
  Inv (finish t rr (uh h (fun _ => hk') g)).
Proof.
  intros g t th h rr hk hk' Iv Hth Hpc Hx Hmu hk1 E.
  destruct (callfin_facts g t th h rr hk Iv Hth Hpc Hx) as (C1 & Hd).
  unfold close_done, hk1 in E. cbn [h_refs h_calls h_done hk_calls] in E. rewrite Hd in E.
  destruct ((h_refs hk =? 0) && (h_calls hk - 1 =? 0)) eqn:Ec; inversion E; subst hk'; clear E;
  hook_only Iv Hth Hpc Hx Hmu.
Qed.

Lemma waitdone_inv : forall g t th h hk,
  Inv g -> nth_error (threads g) t = Some th -> t_pc th = WaitDone h ->
  get_hook g h = Some hk -> h_done hk = true ->
  Inv (finish t ROk (emit (EvShutdown h) (uh h (hk_shut (h_shut hk + 1)) g))).
Proof.
  intros g t th h hk Iv Hth Hpc Hx Hd.
  assert (Hmu : h_mu hk = None) by (eapply (waitdone_free g t h hk Iv); eauto; exists th; auto).
  pose proof (hk_done_ g h hk (inv_hook g (invH g Iv) h hk Hx)) as O4.
  hook_only Iv Hth Hpc Hx Hmu.
Qed.


(* ---------------------------------------------------------------- Fulfill's transfer walk *)
Lemma fwalk_hop_inv : forall g t th p n c cur hk r,
  Inv g -> nth_error (threads g) t = Some th -> t_pc th = FWalk p n c cur ->
  get_hook g cur = Some hk -> h_mu hk = None -> forwarded cur hk = true -> h_rh hk = Some r ->
  Inv (set_pc t (FWalk p n c r) g).
Proof.
  intros g t th p n c cur hk r Iv Hth Hpc Hx Hmu Hf Hr.
  destruct (walk_ok_inv g t _ Iv (ex_intro _ th (conj Hth Hpc))) as (hp & A1 & A2 & A3 & A4 & A5 & A6 & A7 & A8).
  thread_only Iv Hth Hpc (inv_nomis g Iv).
  exists hp. repeat split; auto.
  - eapply path1_right; eauto. exists hk; auto.
  - destruct c as [ci|]; [|discriminate A8]. destruct A8 as (cl & B1 & B2 & B3).
    exists cl. repeat split; auto. apply (tgt_ok_hop g ci cl cur hk r (invH g Iv) B1 Hx Hmu Hf Hr B3).
Qed.

(* the end of the transfer walk: p's clients are re-accounted at q (the hook cur the walk stopped
   at, or nil), p's mutex is released and the thread goes on to shut p down *)
Lemma fwalk_finish : forall g g' t th p n c cur hk hk' q,
  Inv g -> nth_error (threads g) t = Some th -> t_pc th = FWalk p n c cur ->
  get_hook g cur = Some hk -> h_mu hk = None ->
  threads g' = upd t (fun th0 => mkThread (t_prog th0) (WaitDone p) (t_res th0)) (threads g) ->
  hooks g' = upd p (hk_mu None) (upd cur (fun _ => hk') (hooks g)) ->
  clients g' = map (rt1 p q) (clients g) -> misuse g' = false ->
  (q = None \/ q = Some cur) ->
  hook_move cur hk hk' (if oeqb q (Some cur) then n else 0) 0 0 ->
  (forall y, reach g y p -> tgt_ok g q y) ->
  Inv g'.
Proof.
  intros g g' t th p n c cur hk hk' q Iv Hth Hpc Hx Hmu Ht Hh Hcl Hm Hq M Hreach.
  destruct (walk_ok_inv g t _ Iv (ex_intro _ th (conj Hth Hpc))) as (hp & Hp & Hpmu & Hpr & Hpt & Hn & Hpf & _).
  set (F := fun th0 : thread => mkThread (t_prog th0) (WaitDone p) (t_res th0)) in *.
  assert (Hne : cur <> p) by (intros ->; congruence).
  assert (Hqp : q <> Some p) by (destruct Hq; congruence).
  assert (Hghp : get_hook g' p = Some (hk_mu None hp)).
  { unfold get_hook in *. rewrite Hh, nth_error_upd_eq, nth_error_upd_neq, Hp; auto. }
  assert (Hghc : get_hook g' cur = Some hk').
  { unfold get_hook in *. rewrite Hh, nth_error_upd_neq, nth_error_upd_eq, Hx; auto. }
  assert (Hgh : forall h, h <> p -> h <> cur -> get_hook g' h = get_hook g h).
  { intros. unfold get_hook. rewrite Hh, !nth_error_upd_neq; auto. }
  assert (LS : links_same g g').
  { intros a. left. destruct (Nat.eq_dec a p) as [->|N1]; [|destruct (Nat.eq_dec a cur) as [->|N2]].
    - rewrite Hghp, Hp. reflexivity.
    - rewrite Hghc, Hx. unfold link. simpl. rewrite (hm_res _ _ _ _ _ _ M), (hm_rh _ _ _ _ _ _ M). reflexivity.
    - rewrite Hgh; auto. }
  pose proof (links_same_le g g' LS) as L.
  assert (Hreach' : forall y, reach g' y p -> tgt_ok g' q y).
  { intros y R. eapply tgt_ok_mono; [exact L|]. apply Hreach. apply (links_same_reach g g' y p LS). exact R. }
  assert (Htok : forall h, tokens g' h = if Nat.eqb h p then 0
                 else tokens g h + (if oeqb q (Some h) then n else 0)).
  { intros. rewrite (tokens_retarget g g' p q h Hcl Hqp), Hpt. auto. }
  assert (Htok' : forall h, h <> p -> h <> cur -> tokens g' h = tokens g h).
  { intros h N1 N2. rewrite Htok, (eqb_neq_false h p) by auto.
    destruct Hq as [->| ->]; simpl; rewrite ?(eqb_neq_false cur h) by auto; lia. }
  assert (Hw : forall h, h <> p -> wclose h (F th) = wclose h th /\ wcall h (F th) = wcall h th).
  { intros h N1. unfold wclose, wcall, F. cbn [t_pc]. rewrite Hpc, (eqb_neq_false p h); auto. }
  destruct Iv as [I0 IH IC IF].
  constructor; auto.
  - apply (LH g g' t th F Hth Ht [p; cur]); auto.
    + rewrite Hh, !length_upd. auto.
    + intros h Hn0. assert (h <> p) by (intros ->; apply Hn0; left; auto).
      assert (h <> cur) by (intros ->; apply Hn0; right; left; auto).
      destruct (Hw h) as (W1 & W2); auto.
    + intros h n0 c0 cur0 Hn0 E. rewrite Hpc in E. inversion E; subst. exfalso. apply Hn0. left; auto.
    + intros h hk2 Hin Hg2. destruct Hin as [<-|[<-|[]]].
      * rewrite Hghp in Hg2. inversion Hg2; subst hk2; clear Hg2.
        destruct (inv_hook g IH p hp Hp) as [O1 O2 O3 O4 O5 O6 O7].
        constructor; cbn [h_refs h_calls h_done h_shut h_mu hk_mu]; auto; try discriminate.
        -- intros _. rewrite Htok, Nat.eqb_refl. auto.
        -- rewrite O3, (callers_upd g g' t th F Hth Ht). unfold wcall, F. cbn [t_pc]. rewrite Hpc. lia.
        -- rewrite (closers_upd g g' t th F Hth Ht). unfold wclose, F. cbn [t_pc]. rewrite Hpc, Nat.eqb_refl. lia.
      * rewrite Hghc in Hg2. inversion Hg2; subst hk2; clear Hg2. destruct (Hw cur Hne) as (W1 & W2).
        eapply (hook_ok_move g g' cur hk hk' _ _ _ (inv_hook g IH cur hk Hx) Hmu M).
        -- rewrite Htok, (eqb_neq_false cur p); auto.
        -- rewrite (callers_upd g g' t th F Hth Ht). lia.
        -- rewrite (closers_upd g g' t th F Hth Ht). lia.
    + intros h [<-|[<-|[]]]; rewrite Hh, !length_upd; eapply nth_error_some_lt; eauto.
  - apply (LC_map g g' t th F p q Hth Ht); auto. intros k0 c0 cur0 E. rewrite Hpc in E. discriminate. exact I.
  - apply (LF g g' t th F Hth Ht [p; cur]); auto.
    + intros h Hn0. assert (h <> p) by (intros ->; apply Hn0; left; auto).
      assert (h <> cur) by (intros ->; apply Hn0; right; left; auto). auto.
    + intros h hk2 [<-|[<-|[]]] A; [right|left]; congruence.
    + intros ci rh Hb B. eapply borrow_ok_retarget; eauto.
    + exact I.
Qed.

Section FWALK.
Variables (g : config) (t : nat) (th : thread) (p : nat) (n : Z) (c : option nat) (cur : nat) (hk : hook).
Hypothesis Iv : Inv g.
Hypothesis Hth : nth_error (threads g) t = Some th.
Hypothesis Hpc : t_pc th = FWalk p n c cur.
Hypothesis Hx : get_hook g cur = Some hk.
Hypothesis Hmu : h_mu hk = None.

Lemma fwalk_nil_inv : forwarded cur hk = true -> h_rh hk = None ->
  Inv (set_pc t (WaitDone p) (uh p (hk_mu None) (retarget p None g))).
Proof.
  intros Hf Hr.
  destruct (walk_ok_inv g t _ Iv (ex_intro _ th (conj Hth Hpc))) as (hp & _ & _ & _ & _ & _ & _ & A7 & _).
  apply path1_reach in A7.
  eapply (fwalk_finish g _ t th p n c cur hk hk None Iv Hth Hpc Hx Hmu); try reflexivity; auto.
  - cbn. unfold get_hook in Hx. rewrite (upd_id _ _ _ _ Hx). reflexivity.
  - apply (inv_nomis g Iv).
  - apply (hook_move_id g cur hk); auto. apply (inv_hook g (invH g Iv) cur hk Hx).
  - intros y R. simpl. exists cur, hk. repeat split; auto. eapply reach_trans; eauto.
Qed.

Lemma fwalk_end_inv : forwarded cur hk = false ->
  Inv (set_pc t (WaitDone p) (uh p (hk_mu None) (retarget p (Some cur) (uh cur (hk_refs (h_refs hk + n)) g)))).
Proof.
  intros Hf.
  destruct (walk_ok_inv g t _ Iv (ex_intro _ th (conj Hth Hpc))) as (hp & _ & _ & _ & _ & Hn & _ & A7 & A8).
  apply path1_reach in A7.
  (* the borrowed client keeps the target alive *)
  assert (R1 : 1 <= h_refs hk).
  { destruct c as [ci|]; [|discriminate A8]. destruct A8 as (cl & B1 & B2 & B3).
    rewrite (hk_acct g cur hk (inv_hook g (invH g Iv) cur hk Hx) Hmu).
    eapply tokens_ge_1; eauto. eapply tgt_ok_terminal; eauto. }
  pose proof (hk_done_ g cur hk (inv_hook g (invH g Iv) cur hk Hx)) as O4.
  eapply (fwalk_finish g _ t th p n c cur hk (hk_refs (h_refs hk + n) hk) (Some cur) Iv Hth Hpc Hx Hmu);
    try reflexivity; auto.
  - cbn. unfold get_hook in Hx. rewrite (upd_const _ _ _ (hk_refs (h_refs hk + n)) _ Hx). reflexivity.
  - apply (inv_nomis g Iv).
  - simpl. rewrite Nat.eqb_refl. constructor; cbn; auto; try lia; try congruence.
    + rewrite O4. destruct (Z.eqb_spec (h_refs hk) 0); destruct (Z.eqb_spec (h_refs hk + n) 0); auto; lia.
    + destruct (Z.eqb_spec (h_refs hk) 0); destruct (Z.eqb_spec (h_refs hk + n) 0); lia.
  - intros y R. simpl. eapply reach_trans; eauto.
Qed.
End FWALK.

(* ---------------------------------------------------------------- Fulfill marks the promise *)
Section FMARK.
Variables (g g' : config) (t : nat) (th : thread) (p : nat) (rh c : option nat) (hk hk' : hook).
Variable F : thread -> thread.
Hypothesis Iv : Inv g.
Hypothesis Hth : nth_error (threads g) t = Some th.
Hypothesis Hpc : t_pc th = FMark p rh c.
Hypothesis Hp : get_hook g p = Some hk.
Hypothesis Hmu : h_mu hk = None.
Hypothesis Hres : h_resolved hk = false.
Hypothesis Ht : threads g' = upd t F (threads g).
Hypothesis Hh : hooks g' = upd p (fun _ => hk') (hooks g).
Hypothesis Hm : misuse g' = false.
(* the promise hook is resolved and gives up its references *)
Hypothesis Hrefs' : h_refs hk' = 0.
Hypothesis Hcalls' : h_calls hk' = h_calls hk.
Hypothesis Hshut' : h_shut hk' = h_shut hk.
Hypothesis Hdone' : h_done hk' = (h_calls hk =? 0).
Hypothesis Htok : forall h, h <> p -> tokens g' h = tokens g h.
(* the new pc is counted at p only, as a closer exactly if there were references *)
Hypothesis Hw : forall h, wcall h (F th) = 0 /\
  wclose h (F th) = if Nat.eqb p h then (if h_refs hk =? 0 then 0 else 1) else 0.

Lemma fm_links : links_le g g'.
Proof using Hp Hres Hh.
  intros a ha A B. rewrite (get_hook_upd g g' p _ a Hh). destruct (Nat.eqb p a) eqn:E; [|eauto].
  apply Nat.eqb_eq in E; subst a. assert (ha = hk) by congruence. subst. unfold forwarded in B. rewrite Hres in B. discriminate.
Qed.

Lemma fm_ghp : get_hook g' p = Some hk'.
Proof using Hp Hh. rewrite (get_hook_upd g g' p _ p Hh), Nat.eqb_refl, Hp. auto. Qed.

Lemma fm_inv :
  (h_mu hk' = None -> tokens g' p = 0) ->
  (forall t', h_mu hk' = Some t' -> exists n c cur, pc_of g' t' (FWalk p n c cur)) ->
  InvC g' ->
  (forall ci rh0, borrowed g ci = true -> borrow_ok g (Some ci) rh0 -> borrow_ok g' (Some ci) rh0) ->
  walk_ok g' t (t_pc (F th)) -> Inv g'.
Proof.
  intros Hacct Hmu' IC' Hbor Hnew.
  assert (W0 : forall h, wclose h th = 0 /\ wcall h th = 0) by (intros; unfold wclose, wcall; rewrite Hpc; auto).
  assert (Hgh : forall h, h <> p -> get_hook g' h = get_hook g h).
  { intros h Hne. rewrite (get_hook_upd g g' p _ h Hh), (eqb_neq_false p h); auto. }
  constructor; auto.
  - apply (LH g g' t th F Hth Ht [p]).
    + apply (invH g Iv).
    + rewrite Hh, length_upd. auto.
    + intros h Hn0. assert (h <> p) by (intros ->; apply Hn0; left; auto).
      destruct (W0 h) as (W1 & W2). destruct (Hw h) as (W3 & W4). rewrite W1, W2, W3, W4, (eqb_neq_false p h); auto.
    + intros h n0 c0 cur0 _ E. rewrite Hpc in E. discriminate.
    + intros h hk2 [<-|[]] Hg2. rewrite fm_ghp in Hg2. inversion Hg2; subst hk2; clear Hg2.
      destruct (inv_hook g (invH g Iv) p hk Hp) as [O1 O2 O3 O4 O5 O6 O7].
      destruct (W0 p) as (W1 & W2). destruct (Hw p) as (W3 & W4). rewrite Nat.eqb_refl in W4.
      constructor; auto.
      * intros A. rewrite Hrefs', (Hacct A). auto.
      * rewrite Hcalls', O3, (callers_upd g g' t th F Hth Ht), W2, W3. lia.
      * rewrite Hdone', Hrefs', Hcalls'. reflexivity.
      * rewrite (closers_upd g g' t th F Hth Ht), W1, W4, Hshut', Hrefs'. simpl. destruct (h_refs hk =? 0); lia.
      * rewrite Hshut'. auto.
    + intros h [<-|[]]. rewrite Hh, length_upd. eapply nth_error_some_lt; eauto.
  - apply (LF_one g g' t th F Hth Ht p hk); auto. apply (invF g Iv). apply fm_links.
Qed.
End FMARK.

Lemma fmark_inv : forall g t th p rh c hk,
  Inv g -> nth_error (threads g) t = Some th -> t_pc th = FMark p rh c ->
  get_hook g p = Some hk -> h_mu hk = None -> h_resolved hk = false ->
  let g0 := if resolves_to_cycle g rh p then set_misuse true g else g in
  misuse (fmark_body true t p rh c hk g0) = false -> Inv (fmark_body true t p rh c hk g0).
Proof.
  intros g t th p rh c hk Iv Hth Hpc Hp Hmu Hres g0 Hm. subst g0.
  destruct (resolves_to_cycle g rh p).
  { rewrite fmark_body_misuse in Hm by reflexivity. discriminate. }
  destruct (inv_hook g (invH g Iv) p hk Hp) as [O1 O2 O3 O4 O5 O6 O7]. specialize (O1 Hmu).
  pose proof (walk_ok_inv g t _ Iv (ex_intro _ th (conj Hth Hpc))) as Hbor. simpl in Hbor.
  assert (NC : forall k c0 cur, t_pc th <> CWalk k c0 cur) by (intros; rewrite Hpc; discriminate).
  unfold fmark_body in *. cbv zeta in *. set (hk1 := hk_refs 0 (hk_resolve rh hk)) in *.
  destruct (h_refs hk =? 0) eqn:En.
  - (* no references left: nothing to transfer, nothing to shut down *)
    set (F := fun th0 : thread => mkThread (t_prog th0) Idle (ROk :: t_res th0)).
    set (g' := finish t ROk (uh p (fun _ => hk1) g)) in *.
    pose proof (fm_links g g' p hk hk1 Hp Hres eq_refl) as L.
    eapply (fm_inv g g' t th p rh c hk hk1 F Iv Hth Hpc Hp Hmu Hres eq_refl eq_refl Hm); try reflexivity; auto.
    + intros h. rewrite En. destruct (Nat.eqb p h); auto.
    + intros _. apply Z.eqb_eq in En. change (tokens g p = 0). lia.
    + unfold hk1; cbn. rewrite Hmu. discriminate.
    + apply (LC_same g g' t th F Hth eq_refl); auto. apply (invC g Iv). exact I.
    + intros ci rh0 _. apply borrow_ok_same; auto.
  - assert (Hd : h_done hk = false) by (rewrite O4; reflexivity).
    set (hk2 := if h_calls hk =? 0 then hk_done true hk1 else hk1).
    assert (Hcl2 : (if h_calls hk1 =? 0 then close_done hk1 else Some hk1) = Some hk2).
    { unfold hk2, close_done. cbn [h_calls h_done hk1 hk_refs hk_resolve]. rewrite Hd.
      destruct (h_calls hk =? 0); reflexivity. }
    rewrite Hcl2 in *.
    assert (D2 : h_done hk2 = (h_calls hk =? 0) /\ h_refs hk2 = 0 /\ h_shut hk2 = h_shut hk /\
                 h_calls hk2 = h_calls hk /\ h_mu hk2 = None /\ h_resolved hk2 = true /\ h_rh hk2 = rh).
    { unfold hk2. destruct (h_calls hk =? 0) eqn:Ec; cbn; rewrite ?Ec; auto 10. }
    destruct D2 as (D2 & R2 & S2 & C2 & M2 & V2 & H2). clearbody hk2.
    destruct rh as [r|].
    + destruct (Nat.eqb r p) eqn:Erp; [discriminate Hm|]. apply Nat.eqb_neq in Erp.
      set (hk3 := hk_mu (Some t) hk2) in *.
      set (F := fun th0 : thread => mkThread (t_prog th0) (FWalk p (h_refs hk) c r) (t_res th0)).
      set (g' := set_pc t (FWalk p (h_refs hk) c r) (uh p (fun _ => hk3) g)) in *.
      pose proof (fm_links g g' p hk hk3 Hp Hres eq_refl) as L.
      pose proof (fm_ghp g g' p hk hk3 Hp eq_refl) as Hp'.
      assert (Hfw3 : forwarded p hk3 = true).
      { unfold forwarded, hk3. cbn. rewrite V2, H2. simpl. rewrite (eqb_neq_false r p); auto. }
      assert (Hn : 0 < h_refs hk).
      { apply Z.eqb_neq in En. pose proof (sumf_nonneg _ (wtok p) (clients g) (wtok_nonneg p)). unfold tokens in O1. lia. }
      assert (Hwk : walk_ok g' t (t_pc (F th))).
      { exists hk3. repeat split; auto.
        - exists r. split; [|constructor]. exists hk3. auto.
        - apply (borrow_ok_same g g'); auto. }
      eapply (fm_inv g g' t th p (Some r) c hk hk3 F Iv Hth Hpc Hp Hmu Hres eq_refl eq_refl Hm); auto.
      * intros h. unfold wclose, wcall, F. cbn [t_pc]. rewrite En. auto.
      * discriminate.
      * unfold hk3. cbn. intros t' E. inversion E; subst t'. do 3 eexists. apply (pcs_me' g g' t th F Hth eq_refl).
      * apply (LC_same g g' t th F Hth eq_refl); auto. apply (invC g Iv).
      * intros ci rh0 _. apply borrow_ok_same; auto.
    + (* resolved to nil: the references are dropped *)
      set (F := fun th0 : thread => mkThread (t_prog th0) (WaitDone p) (t_res th0)).
      set (g' := set_pc t (WaitDone p) (retarget p None (uh p (fun _ => hk2) g))) in *.
      assert (Hcl : clients g' = map (rt1 p None) (clients g)) by reflexivity.
      pose proof (fm_links g g' p hk hk2 Hp Hres eq_refl) as L.
      assert (Htok : forall h, tokens g' h = if Nat.eqb h p then 0 else tokens g h).
      { intros. rewrite (tokens_retarget g g' p None h Hcl) by discriminate. destruct (Nat.eqb h p); auto. simpl. lia. }
      assert (Hnil : forall y, reach g' y p -> tgt_ok g' None y).
      { intros y R. simpl. exists p, hk2. split; auto. split. apply (fm_ghp g g' p hk hk2 Hp eq_refl).
        unfold forwarded. rewrite V2, H2. auto. }
      eapply (fm_inv g g' t th p None c hk hk2 F Iv Hth Hpc Hp Hmu Hres eq_refl eq_refl Hm); auto.
      * intros h Hne. rewrite Htok, (eqb_neq_false h p); auto.
      * intros h. unfold wclose, wcall, F. cbn [t_pc]. rewrite En. auto.
      * intros _. rewrite Htok, Nat.eqb_refl. auto.
      * rewrite M2. discriminate.
      * apply (LC_map g g' t th F p None Hth eq_refl); auto. apply (invC g Iv). exact I.
      * intros ci rh0 Hb B. eapply borrow_ok_retarget; eauto.
      * exact I.
Qed.
