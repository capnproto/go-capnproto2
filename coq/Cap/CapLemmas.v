(* CapLemmas.v — list/sum/graph lemmas used by the invariant proof. *)
From Coq Require Import ZArith List Bool Arith Lia.
From CV Require Import Cap.Cap Cap.CapInv.
Import ListNotations.
Open Scope Z_scope.

Lemma nth_error_upd_eq : forall A (l : list A) n f,
  nth_error (upd n f l) n = option_map f (nth_error l n).
Proof. induction l as [|a l IH]; intros [|n] f; simpl; auto. Qed.

Lemma nth_error_upd_neq : forall A (l : list A) n m f, n <> m ->
  nth_error (upd n f l) m = nth_error l m.
Proof.
  induction l as [|a l IH]; intros [|n] [|m] f H; simpl; auto; try congruence.
Qed.

Lemma nth_error_upd : forall A (l : list A) n m f,
  nth_error (upd n f l) m = if Nat.eqb n m then option_map f (nth_error l m) else nth_error l m.
Proof.
  intros. destruct (Nat.eqb n m) eqn:E.
  - apply Nat.eqb_eq in E; subst. apply nth_error_upd_eq.
  - apply Nat.eqb_neq in E. apply nth_error_upd_neq; auto.
Qed.

Lemma length_upd : forall A (l : list A) n f, length (upd n f l) = length l.
Proof. induction l as [|a l IH]; intros [|n] f; simpl; auto. Qed.

Lemma nth_error_app_new : forall A (l : list A) x m,
  nth_error (l ++ [x]) m =
  if Nat.eqb m (length l) then Some x else nth_error l m.
Proof.
  induction l as [|a l IH]; intros x [|m]; simpl; auto.
  - destruct m; reflexivity.
Qed.

Lemma nth_error_ge_none : forall A (l : list A) n, (length l <= n)%nat -> nth_error l n = None.
Proof. intros. apply nth_error_None. auto. Qed.

Lemma nth_error_some_lt : forall A (l : list A) n x, nth_error l n = Some x -> (n < length l)%nat.
Proof. intros. apply nth_error_Some. congruence. Qed.

Lemma upd_upd : forall A (l : list A) n f k, upd n f (upd n k l) = upd n (fun x => f (k x)) l.
Proof. induction l as [|a l IH]; intros [|n] f k; simpl; auto. rewrite IH. auto. Qed.

Lemma upd_const : forall A (l : list A) n f x, nth_error l n = Some x -> upd n f l = upd n (fun _ => f x) l.
Proof. induction l as [|a l IH]; intros [|n] f x H; simpl in *; try discriminate; auto.
  inversion H; subst; auto. rewrite (IH _ _ _ H). auto. Qed.

Lemma upd_id : forall A (l : list A) n x, nth_error l n = Some x -> upd n (fun _ => x) l = l.
Proof. induction l as [|a l IH]; intros [|n] x H; simpl in *; try discriminate; auto.
  inversion H; subst; auto. rewrite (IH _ _ H). auto. Qed.

Lemma eqb_neq_false : forall x h : nat, h <> x -> Nat.eqb x h = false.
Proof. intros. apply Nat.eqb_neq. auto. Qed.

Lemma sumf_app : forall A (f : A -> Z) l1 l2, sumf f (l1 ++ l2) = sumf f l1 + sumf f l2.
Proof. induction l1; intros; simpl; auto. rewrite IHl1. lia. Qed.

Lemma sumf_upd : forall A (f : A -> Z) (l : list A) n k x,
  nth_error l n = Some x -> sumf f (upd n k l) = sumf f l - f x + f (k x).
Proof.
  induction l as [|a l IH]; intros [|n] k x H; simpl in *; try discriminate.
  - inversion H; subst. lia.
  - rewrite (IH _ _ _ H). lia.
Qed.

Lemma sumf_upd_none : forall A (f : A -> Z) (l : list A) n k,
  nth_error l n = None -> sumf f (upd n k l) = sumf f l.
Proof.
  induction l as [|a l IH]; intros [|n] k H; simpl in *; try discriminate; auto.
  rewrite IH; auto.
Qed.

Lemma sumf_ext : forall A (f g : A -> Z) l, (forall x, In x l -> f x = g x) -> sumf f l = sumf g l.
Proof.
  induction l; intros; simpl; auto. rewrite H by (left; auto). rewrite IHl; auto.
  intros. apply H. right; auto.
Qed.

Lemma sumf_map : forall A B (f : B -> Z) (m : A -> B) l, sumf f (map m l) = sumf (fun x => f (m x)) l.
Proof. induction l; simpl; auto. rewrite IHl. auto. Qed.

Lemma sumf_nonneg : forall A (f : A -> Z) l, (forall x, 0 <= f x) -> 0 <= sumf f l.
Proof. induction l; intros; simpl. lia. specialize (H a) as Ha. specialize (IHl H). lia. Qed.


Lemma sumf_all_zero : forall A (f : A -> Z) l, (forall x, In x l -> f x = 0) -> sumf f l = 0.
Proof.
  induction l; intros; simpl; auto. rewrite H by (left; auto). rewrite IHl; auto.
  intros; apply H; right; auto.
Qed.

Lemma sumf_one : forall A (f : A -> Z) l i a, (forall x, 0 <= f x) -> nth_error l i = Some a -> f a <= sumf f l.
Proof.
  induction l as [|y l IH]; intros [|i] a Hn H; simpl in *; try discriminate.
  - inversion H; subst. pose proof (sumf_nonneg _ f l Hn). lia.
  - pose proof (IH _ _ Hn H). pose proof (Hn y). lia.
Qed.

Lemma sumf_two : forall A (f : A -> Z) l i j a b, (forall x, 0 <= f x) -> i <> j ->
  nth_error l i = Some a -> nth_error l j = Some b -> f a + f b <= sumf f l.
Proof.
  induction l as [|y l IH]; intros [|i] [|j] a b Hn Hne Ha Hb; simpl in *; try discriminate; try congruence.
  - inversion Ha; subst. pose proof (sumf_one _ f l j b Hn Hb). lia.
  - inversion Hb; subst. pose proof (sumf_one _ f l i a Hn Ha). lia.
  - assert (i <> j) by congruence. pose proof (IH _ _ _ _ Hn H Ha Hb). pose proof (Hn y). lia.
Qed.

Lemma sumf_plus : forall A (f k : A -> Z) l, sumf (fun x => f x + k x) l = sumf f l + sumf k l.
Proof. induction l; simpl; auto. rewrite IHl. lia. Qed.

Lemma wtok_nonneg : forall h c, 0 <= wtok h c.
Proof. intros. unfold wtok. destruct (oeqb _ _); lia. Qed.
Lemma wclose_nonneg : forall h c, 0 <= wclose h c.
Proof. intros. unfold wclose. destruct (t_pc c); try lia; destruct (Nat.eqb _ _); lia. Qed.
Lemma wcall_nonneg : forall h c, 0 <= wcall h c.
Proof. intros. unfold wcall. destruct (t_pc c); try lia; destruct (Nat.eqb _ _); lia. Qed.

Lemma oeqb_true : forall a b, oeqb a b = true <-> a = b.
Proof.
  intros [a|] [b|]; simpl; split; intros H; try discriminate; auto.
  - apply Nat.eqb_eq in H. congruence.
  - inversion H. apply Nat.eqb_refl.
Qed.

Lemma oeqb_false : forall a b, oeqb a b = false <-> a <> b.
Proof.
  intros. split; intros H.
  - intros E. apply oeqb_true in E. congruence.
  - destruct (oeqb a b) eqn:E; auto. apply oeqb_true in E. contradiction.
Qed.

Lemma oeqb_refl : forall a, oeqb a a = true.
Proof. intros. apply oeqb_true. auto. Qed.

Lemma fwd_fun : forall g a b b', fwd g a b -> fwd g a b' -> b = b'.
Proof. intros g a b b' (hk & H1 & _ & H2) (hk' & H1' & _ & H2'). congruence. Qed.

Lemma reach_trans : forall g a b c, reach g a b -> reach g b c -> reach g a c.
Proof. induction 1; intros; auto. eapply reach_left; eauto. Qed.

Lemma reach_right : forall g a b c, reach g a b -> fwd g b c -> reach g a c.
Proof. intros. eapply reach_trans; eauto. eapply reach_left; eauto. constructor. Qed.

Lemma reach_step_inv : forall g a T b, reach g a T -> a <> T -> fwd g a b -> reach g b T.
Proof.
  intros g a T b H Hne Hf. inversion H; subst. congruence.
  rewrite (fwd_fun _ _ _ _ Hf H0). auto.
Qed.

Lemma reach_noout : forall g a T, reach g a T -> (forall b, ~ fwd g a b) -> T = a.
Proof. intros g a T H Hn. inversion H; subst; auto. exfalso. eapply Hn; eauto. Qed.

Lemma to_nil_step : forall g a b, to_nil g a -> fwd g a b -> to_nil g b.
Proof.
  intros g a b (y & hk & Hr & Hg & Hf & Hn) Hfw.
  destruct (Nat.eq_dec a y) as [->|Hne].
  - destruct Hfw as (hk' & Hg' & _ & Hrh). congruence.
  - exists y, hk. repeat split; auto. eapply reach_step_inv; eauto.
Qed.

Lemma to_nil_noout : forall g a hk, to_nil g a -> get_hook g a = Some hk -> forwarded a hk = false -> False.
Proof.
  intros g a hk (y & hk' & Hr & Hg & Hf & Hn) Hga Hnf.
  assert (y = a).
  { eapply reach_noout; eauto. intros b (hk2 & Hg2 & Hf2 & _). congruence. }
  subst. congruence.
Qed.

Lemma to_nil_reach : forall g a b, reach g a b -> to_nil g b -> to_nil g a.
Proof.
  intros g a b Hr (y & hk & Hr' & Hrest). exists y, hk. split; auto. eapply reach_trans; eauto.
Qed.

(* monotonicity: forwarding edges are never removed *)
Definition links_le (g g' : config) : Prop :=
  forall a hk, get_hook g a = Some hk -> forwarded a hk = true ->
    exists hk', get_hook g' a = Some hk' /\ forwarded a hk' = true /\ h_rh hk' = h_rh hk.

Lemma fwd_mono : forall g g' a b, links_le g g' -> fwd g a b -> fwd g' a b.
Proof.
  intros g g' a b L (hk & Hg & Hf & Hr). destruct (L _ _ Hg Hf) as (hk' & Hg' & Hf' & Hr').
  exists hk'. repeat split; auto. congruence.
Qed.

Lemma reach_mono : forall g g' a b, links_le g g' -> reach g a b -> reach g' a b.
Proof. induction 2. constructor. eapply reach_left; eauto. eapply fwd_mono; eauto. Qed.

Lemma to_nil_mono : forall g g' a, links_le g g' -> to_nil g a -> to_nil g' a.
Proof.
  intros g g' a L (y & hk & Hr & Hg & Hf & Hn). destruct (L _ _ Hg Hf) as (hk' & Hg' & Hf' & Hr').
  exists y, hk'. repeat split; auto. eapply reach_mono; eauto. congruence.
Qed.

Lemma tgt_ok_mono : forall g g' T x, links_le g g' -> tgt_ok g T x -> tgt_ok g' T x.
Proof. intros. destruct T; simpl in *. eapply reach_mono; eauto. eapply to_nil_mono; eauto. Qed.

Lemma path1_reach : forall g p cur, path1 g p cur -> reach g p cur.
Proof. intros g p cur (r & A & B). eapply reach_left; eauto. Qed.

Lemma path1_mono : forall g g' p cur, links_le g g' -> path1 g p cur -> path1 g' p cur.
Proof. intros g g' p cur L (r & A & B). exists r. split. eapply fwd_mono; eauto. eapply reach_mono; eauto. Qed.

Lemma path1_right : forall g p cur c, path1 g p cur -> fwd g cur c -> path1 g p c.
Proof. intros g p cur c (r & A & B) F. exists r. split; auto. eapply reach_right; eauto. Qed.
