(* CapWf.v — well-formedness of ids: every id stored in a slot table, a client, a hook or a weak
   ref, and in a pc at least the object the thread is about to lock or is waiting on (pc_wf; the
   client a walk holds, the ids WeakClient.AddRef carries along and IsSame's first result are not
   constrained), denotes an allocated object.  This is an invariant of every execution; no other
   invariant is needed for it.  Proved by case analysis over all leaves of [step]. *)
From Coq Require Import ZArith List Bool Arith Lia.
From CV Require Import Cap.Cap Cap.CapInv Cap.CapLemmas Cap.CapStep.
Import ListNotations.
Open Scope nat_scope.

Definition olt (o : option nat) (n : nat) : Prop := match o with Some x => x < n | None => True end.

Definition kont_wf (nc : nat) (k : kont) : Prop :=
  match k with KSame1 c2 => olt c2 nc | _ => True end.

Definition pc_wf (nh nc : nat) (p : pc) : Prop :=
  match p with
  | Idle => True
  | CLock k c => c < nc /\ kont_wf nc k
  | CWalk k c cur => cur < nh /\ kont_wf nc k
  | WWalk _ _ cur => cur < nh
  | InCall h _ | CallFin h _ | WaitDone h => h < nh
  | FLock p c => c < nc /\ p < nh
  | FMark p rh c => p < nh /\ olt rh nh
  | FWalk p _ _ cur => cur < nh /\ p < nh
  end.

Record WF (g : config) : Prop := {
  wf_threads : Forall (fun th => pc_wf (length (hooks g)) (length (clients g)) (t_pc th)) (threads g);
  wf_cslots : Forall (fun sc : nat * nat => snd sc < length (clients g)) (cslots g);
  wf_pslots : Forall (fun sp : nat * nat => snd sp < length (hooks g)) (pslots g);
  wf_weaks : Forall (fun w => olt w (length (hooks g))) (weaks g);
  wf_clients : Forall (fun cl => olt (c_h cl) (length (hooks g))) (clients g);
  wf_hooks : Forall (fun hk => olt (h_rh hk) (length (hooks g))) (hooks g)
}.

Lemma olt_mono : forall o n n', n <= n' -> olt o n -> olt o n'.
Proof. intros [x|] n n' H; simpl; auto. lia. Qed.

Lemma pc_wf_mono : forall nh nc nh' nc' p, nh <= nh' -> nc <= nc' -> pc_wf nh nc p -> pc_wf nh' nc' p.
Proof.
  intros nh nc nh' nc' p H1 H2. destruct p; simpl; intros; repeat split; try tauto; try lia;
  try (destruct H as (A & B); first [lia | destruct k; simpl in *; auto; eapply olt_mono; eauto | eapply olt_mono; eauto]).
Qed.

Lemma Forall_upd' : forall A (P : A -> Prop) l n f,
  Forall P l -> (forall x, nth_error l n = Some x -> P (f x)) -> Forall P (upd n f l).
Proof.
  induction l as [|a l IH]; intros [|n] f H Hf; simpl; auto; inversion H; subst; constructor; auto.
Qed.

Lemma Forall_nth : forall A (P : A -> Prop) l n x, Forall P l -> nth_error l n = Some x -> P x.
Proof. intros. rewrite Forall_forall in H. apply H. eapply nth_error_In; eauto. Qed.

Lemma lookup_Forall : forall (P : nat * nat -> Prop) l k v, Forall P l -> lookup k l = Some v -> exists k', P (k', v).
Proof.
  induction l as [|[a b] l IH]; intros k v H E; simpl in E. discriminate.
  inversion H; subst. destruct (Nat.eqb a k). inversion E; subst. eauto. eauto.
Qed.

Lemma init_wf : forall progs, WF (init progs).
Proof.
  intros. constructor; cbn; auto.
  apply Forall_forall. intros th Hin. apply in_map_iff in Hin. destruct Hin as (p & <- & _). simpl. auto.
Qed.

Lemma Forall_upd_pres : forall A (P : A -> Prop) l n f,
  Forall P l -> (forall x, P x -> P (f x)) -> Forall P (upd n f l).
Proof.
  induction l as [|a l IH]; intros [|n] f H Hf; simpl; auto; inversion H; subst; constructor; auto.
Qed.

Ltac have H T := lazymatch goal with | _ : T |- _ => fail | _ => assert T as H end.

Ltac olt_tac :=
  cbn in *; intros; subst;
  repeat match goal with
  | H : _ /\ _ |- _ => destruct H
  | H : olt (Some _) _ |- _ => simpl in H
  end;
  repeat split; auto; try lia;
  try match goal with
  | H : olt ?o ?n |- olt ?o ?n' => apply (olt_mono o n n'); [lia | exact H]
  | |- olt None _ => exact I
  | |- olt (Some _) _ => simpl; lia
  end.

Section WFSTEP.
Variable g : config.
Hypothesis W : WF g.

Lemma sat_thread : forall t th, nth_error (threads g) t = Some th ->
  pc_wf (length (hooks g)) (length (clients g)) (t_pc th).
Proof. intros. eapply (Forall_nth _ _ _ _ _ (wf_threads g W) H). Qed.
Lemma sat_hook : forall x hk, get_hook g x = Some hk -> olt (h_rh hk) (length (hooks g)) /\ x < length (hooks g).
Proof. intros. split. eapply (Forall_nth _ _ _ _ _ (wf_hooks g W) H). eapply nth_error_some_lt; eauto. Qed.
Lemma sat_client : forall x cl, get_client g x = Some cl -> olt (c_h cl) (length (hooks g)) /\ x < length (clients g).
Proof. intros. split. eapply (Forall_nth _ _ _ _ _ (wf_clients g W) H). eapply nth_error_some_lt; eauto. Qed.
Lemma sat_cslot : forall s c, lookup s (cslots g) = Some c -> c < length (clients g).
Proof. intros. destruct (lookup_Forall _ _ _ _ (wf_cslots g W) H) as (k & A). exact A. Qed.
Lemma sat_pslot : forall s c, lookup s (pslots g) = Some c -> c < length (hooks g).
Proof. intros. destruct (lookup_Forall _ _ _ _ (wf_pslots g W) H) as (k & A). exact A. Qed.
Lemma sat_weak : forall i w, nth_error (weaks g) i = Some w -> olt w (length (hooks g)).
Proof. intros. eapply (Forall_nth _ _ _ _ _ (wf_weaks g W) H). Qed.
End WFSTEP.

(* what WF g says of every object the context names: a thread's pc, a hook, a client, a slot, a weak ref *)
Ltac saturate W :=
  repeat match goal with
  | H : nth_error (threads ?g) ?t = Some ?th |- _ =>
      let T := constr:(pc_wf (length (hooks g)) (length (clients g)) (t_pc th)) in
      let N := fresh "S" in have N T; [exact (sat_thread g W t th H)|]
  | H : get_hook ?g ?x = Some ?hk |- _ =>
      let T := constr:(olt (h_rh hk) (length (hooks g)) /\ x < length (hooks g)) in
      let N := fresh "S" in have N T; [exact (sat_hook g W x hk H)|]
  | H : get_client ?g ?x = Some ?cl |- _ =>
      let T := constr:(olt (c_h cl) (length (hooks g)) /\ x < length (clients g)) in
      let N := fresh "S" in have N T; [exact (sat_client g W x cl H)|]
  | H : lookup ?s (cslots ?g) = Some ?c |- _ =>
      let T := constr:(c < length (clients g)) in
      let N := fresh "S" in have N T; [exact (sat_cslot g W s c H)|]
  | H : lookup ?s (pslots ?g) = Some ?c |- _ =>
      let T := constr:(c < length (hooks g)) in
      let N := fresh "S" in have N T; [exact (sat_pslot g W s c H)|]
  | H : nth_error (weaks ?g) ?i = Some ?w |- _ =>
      let T := constr:(olt w (length (hooks g))) in
      let N := fresh "S" in have N T; [exact (sat_weak g W i w H)|]
  end;
  repeat match goal with
  | E : t_pc ?th = _, S : context[t_pc ?th] |- _ => rewrite E in S
  | E : c_h ?cl = _, S : context[c_h ?cl] |- _ => rewrite E in S
  | E : h_rh ?hk = _, S : context[h_rh ?hk] |- _ => rewrite E in S
  end.

(* a Forall clause of WF g' from the same clause of WF g: the lists of g' are those of g under upd, append and
   map, the bounds only grow (olt_mono, pc_wf_mono), and a written or appended element is bounded by what
   [saturate] has put into the context (olt_tac) *)
Ltac fa W :=
  lazymatch goal with
  | |- Forall _ (upd ?n _ (upd ?n _ _)) => rewrite upd_upd; fa W
  | |- Forall _ (upd _ _ _) => apply Forall_upd_pres; [fa W | try solve [olt_tac]]
  | |- Forall _ (_ ++ _) => apply Forall_app; split; fa W
  | |- Forall _ (_ :: _) => constructor; [try solve [olt_tac] | fa W]
  | |- Forall _ [] => constructor
  | |- Forall _ (map _ _) =>
      rewrite Forall_map; eapply Forall_impl; [|exact (wf_clients _ W)];
      let a := fresh "a" in let Ha := fresh "Ha" in
      intros a Ha; cbv beta; destruct (oeqb (c_tgt a) _); cbn [c_h cl_tgt];
      (eapply olt_mono; [|exact Ha]; lia)
  | |- Forall _ _ =>
      first [ eapply Forall_impl; [|exact (wf_threads _ W)]; cbn beta; intros ? ?Hx;
              eapply pc_wf_mono; [| |exact Hx]; lia
            | eapply Forall_impl; [|exact (wf_cslots _ W)]; cbn beta; intros; lia
            | eapply Forall_impl; [|exact (wf_pslots _ W)]; cbn beta; intros; lia
            | eapply Forall_impl; [|exact (wf_weaks _ W)]; cbn beta; intros ? ?Hx; eapply olt_mono; [|exact Hx]; lia
            | eapply Forall_impl; [|exact (wf_clients _ W)]; cbn beta; intros ? ?Hx;
              unfold rt1; try match goal with |- context[if ?b then _ else _] => destruct b end; cbn;
              eapply olt_mono; [|exact Hx]; lia
            | eapply Forall_impl; [|exact (wf_hooks _ W)]; cbn beta; intros ? ?Hx; eapply olt_mono; [|exact Hx]; lia ]
  end.

Lemma wf_step : forall fixed g t g', WF g -> step fixed g t = Some g' -> WF g'.
Proof.
  intros fixed g t g' W Hs. leaves Hs.
  all: try match goal with |- context[KSame1 (lookup ?b ?l)] => destruct (lookup b l) eqn:? end.
  all: saturate W.
  all: constructor; cbn [threads cslots pslots wslots weaks clients hooks events misuse
         set_threads set_cslots set_pslots set_wslots set_weaks set_clients set_hooks set_events set_misuse
         set_pc finish uh uc emit retarget];
       rewrite ?app_length, ?length_upd, ?map_length; cbn [length].
  all: solve [fa W].
Qed.

Theorem reachable_wf : forall fixed progs g, reachable fixed (init progs) g -> WF g.
Proof. induction 1. apply init_wf. eapply wf_step; eauto. Qed.
