(* CapProofs.v — the C10 theorems about the interleaving model (variant fixed = true). *)
From Coq Require Import ZArith List Bool Arith Lia.
From CV Require Import Cap.Cap Cap.CapInv Cap.CapLemmas Cap.CapStep Cap.CapLinks Cap.CapCases.
Import ListNotations.
Open Scope Z_scope.

Theorem step_preserves_inv : forall g t g',
  Inv g -> step true g t = Some g' -> misuse g' = false -> Inv g'.
Proof.
  intros g t g' Iv Hs Hm. destruct (step_thread _ _ _ _ Hs) as (th & Hth).
  destruct (step_cases _ _ _ _ _ Hth Hs) as
    [| | | | | | | | | |h rr hk Hpc Hx Hmu hk1 Ec Ed|h rr hk hk2 Hpc Hx Hmu hk1 Ec Ed|h rr hk Hpc Hx Hmu hk1 Ec
    | | |p c cl Hpc Hc Hcm Hr| | | | | ];
    try solve [match goal with Hpc : t_pc th = _ |- _ => thread_only Iv Hth Hpc Hm end];
    eauto using begin_op_inv, clock_step_inv, cwalk_nil_inv, cwalk_hop_inv, cwalk_end_inv, wwalk_ok_inv,
      waitdone_inv, fmark_inv, fwalk_nil_inv, fwalk_hop_inv, fwalk_end_inv.
  - (* close(done) cannot panic: done is open while a call is in progress *)
    exfalso. destruct (callfin_facts g t th h rr hk Iv Hth Hpc Hx) as (_ & D).
    unfold close_done, hk1 in Ed. cbn in Ed. rewrite D in Ed. discriminate.
  - eapply callfin_inv; eauto. fold hk1. rewrite Ec. exact Ed.
  - eapply callfin_inv; eauto. fold hk1. rewrite Ec. reflexivity.
  - thread_only Iv Hth Hpc Hm. exists cl. repeat split; auto.
    pose proof (inv_client g (invC g Iv) _ _ Hc) as O. unfold client_ok in O. destruct (c_h cl); auto.
Qed.

Lemma init_threads_idle : forall progs t th, nth_error (threads (init progs)) t = Some th -> t_pc th = Idle.
Proof.
  intros progs t th H. unfold init in H. cbn in H. rewrite nth_error_map in H.
  destruct (nth_error progs t); simpl in H; inversion H; subst. reflexivity.
Qed.

Lemma sumf_idle : forall (w : thread -> Z) progs, (forall th, t_pc th = Idle -> w th = 0) ->
  sumf w (map (fun p => mkThread p Idle []) progs) = 0.
Proof. intros. apply sumf_all_zero. intros x Hin. apply in_map_iff in Hin. destruct Hin as (p & <- & _). apply H. auto. Qed.

Lemma init_inv : forall progs, Inv (init progs).
Proof.
  intros progs.
  assert (P : forall t p, pc_of (init progs) t p -> p = Idle).
  { intros t p (th & A & B). rewrite <- B. eapply init_threads_idle; eauto. }
  constructor.
  - reflexivity.
  - constructor.
    + intros h _. unfold tokens, closers, callers, init. cbn. repeat split; auto.
      * apply sumf_idle. intros th E. unfold wclose. rewrite E. auto.
      * apply sumf_idle. intros th E. unfold wcall. rewrite E. auto.
    + intros h hk A. unfold get_hook, init in A. cbn in A. destruct h; discriminate.
  - constructor.
    + intros c cl A. unfold get_client, init in A. cbn in A. destruct c; discriminate.
    + intros t k c cur A. apply P in A. discriminate.
    + intros c cl t A. unfold get_client, init in A. cbn in A. destruct c; discriminate.
    + intros c cl A. unfold get_client, init in A. cbn in A. destruct c; discriminate.
    + intros t k c cur cl A. apply P in A. discriminate.
  - constructor.
    + intros t p n c cur A. apply P in A. discriminate.
    + intros t p rh c A. apply P in A. discriminate.
Qed.

Lemma misuse_mono : forall fixed g t g', step fixed g t = Some g' -> misuse g = true -> misuse g' = true.
Proof. intros fixed g t g' Hs Hm. leaves Hs; auto. Qed.

Lemma misuse_reach : forall fixed g0 g, reachable fixed g0 g -> misuse g = false -> misuse g0 = false.
Proof.
  induction 1; intros; auto. apply IHreachable.
  destruct (misuse g) eqn:E; auto. rewrite (misuse_mono _ _ _ _ H0 E) in H1. discriminate.
Qed.

(* every configuration reachable under any schedule, from any programs, in which the callers
   kept the API contract, satisfies the invariant *)
Theorem reachable_inv : forall progs g, reachable true (init progs) g -> misuse g = false -> Inv g.
Proof.
  intros progs g R. induction R; intros Hm.
  - apply init_inv.
  - eapply step_preserves_inv; eauto. apply IHR.
    destruct (misuse g) eqn:E; auto. rewrite (misuse_mono _ _ _ _ H E) in Hm. discriminate.
Qed.

Lemma closers_nonneg : forall g h, 0 <= closers g h.
Proof. intros. apply sumf_nonneg. apply wclose_nonneg. Qed.

Theorem shutdown_once : shutdown_once_stmt.
Proof.
  intros progs g R Hm h hk Hx. pose proof (reachable_inv progs g R Hm) as I.
  destruct (inv_hook g (invH g I) h hk Hx) as [O1 O2 O3 O4 O5 O6 O7].
  pose proof (closers_nonneg g h) as C0.
  split; [|split].
  - destruct (h_refs hk =? 0); lia.
  - exact O5.
  - intros Hfin. assert (closers g h = 0).
    { apply sumf_all_zero. intros th Hin. specialize (Hfin th Hin). unfold unfinished in Hfin.
      unfold wclose. destruct (t_pc th); try discriminate; auto. }
    lia.
Qed.

Theorem shutdown_after_last : shutdown_after_last_stmt.
Proof.
  intros progs g t h g' R Hm P Hs. pose proof (reachable_inv progs g R Hm) as I.
  destruct P as (th & Hth & Hpc). unfold step in Hs. rewrite Hth, Hpc in Hs.
  destruct (get_hook g h) as [hk|] eqn:Hx; [|discriminate].
  destruct (h_done hk) eqn:Hd; [|discriminate].
  assert (Hmu : h_mu hk = None) by (eapply (waitdone_free g t h hk I); eauto; exists th; auto).
  destruct (inv_hook g (invH g I) h hk Hx) as [O1 O2 O3 O4 O5 O6 O7].
  rewrite O4 in Hd. apply andb_true_iff in Hd. destruct Hd as (D1 & D2).
  apply Z.eqb_eq in D1. apply Z.eqb_eq in D2.
  exists hk. repeat split; auto; try lia.
  - rewrite <- (O1 Hmu). auto.
  - pose proof (sumf_one _ (wclose h) (threads g) t th (wclose_nonneg h) Hth) as S.
    unfold wclose in S at 1. rewrite Hpc, Nat.eqb_refl in S. unfold closers in O5.
    rewrite D1 in O5. change (0 =? 0) with true in O5. cbv iota in O5. lia.
Qed.

Theorem refs_transfer : refs_transfer_stmt.
Proof.
  intros progs g R Hm. pose proof (reachable_inv progs g R Hm) as I. split; [|split].
  - intros h hk Hx Hmu. destruct (inv_hook g (invH g I) h hk Hx) as [O1 _ _ _ _ _ _]. auto.
  - intros t p n c cur P. destruct (inv_flight g (invF g I) _ _ _ _ _ P) as (hk & A1 & A2 & A3 & A4 & _).
    exists hk. auto.
  - apply (inv_client g (invC g I)).
Qed.

Theorem refs_transfer_step : refs_transfer_step_stmt.
Proof.
  intros g t p n c cur hk g' (th & Hth & Hpc) Hx Hmu Hf Hne Hs.
  unfold step in Hs. rewrite Hth, Hpc, Hx, Hmu, Hf in Hs. inversion Hs; subst g'; clear Hs.
  set (g1 := uh cur (hk_refs (h_refs hk + n)) g).
  assert (Hq : Some cur <> Some p) by congruence.
  assert (T : forall h, tokens (set_pc t (WaitDone p) (uh p (hk_mu None) (retarget p (Some cur) g1))) h =
              if Nat.eqb h p then 0 else tokens g h + (if oeqb (Some cur) (Some h) then tokens g p else 0)).
  { intros h. apply (tokens_retarget g _ p (Some cur) h); auto. }
  exists (hk_refs (h_refs hk + n) hk). split; [|split; [reflexivity|split]].
  - unfold get_hook. cbn. rewrite nth_error_upd_neq; auto. rewrite nth_error_upd_eq.
    unfold get_hook in Hx. rewrite Hx. reflexivity.
  - rewrite T. rewrite (proj2 (Nat.eqb_neq cur p) Hne). rewrite oeqb_refl. reflexivity.
  - rewrite T, Nat.eqb_refl. reflexivity.
Qed.

(* A call (SendCall/RecvCall) made by thread t through client c, at the moment it has
   acquired c.mu: if c has no hook (nil, released, or resolved to null) the op completes at
   once with the error result, no event is emitted and no hook changes.  (Calls through a nil
   *Client complete in [begin_op] with RErr in the same way; a client whose chain ends in a
   hook resolved to nil reaches [cwalk_nil], also RErr.) *)
Definition null_released_error_stmt : Prop :=
  forall fixed g t th recv abn c cl g',
    nth_error (threads g) t = Some th -> t_pc th = CLock (KCall recv abn) c ->
    get_client g c = Some cl -> c_h cl = None ->
    step fixed g t = Some g' ->
    events g' = events g /\ hooks g' = hooks g /\
    exists th', nth_error (threads g') t = Some th' /\ t_pc th' = Idle /\ t_res th' = RErr :: t_res th.

Theorem null_released_error : null_released_error_stmt.
Proof.
  unfold null_released_error_stmt, step. intros fixed g t th recv abn c cl g' Hth Hpc Hc Hh Hs.
  rewrite Hth, Hpc, Hc in Hs.
  destruct (c_mu cl) eqn:Hmu; [discriminate|].
  inversion Hs; subst g'; clear Hs.
  unfold clock_step. rewrite Hh. unfold finish; simpl.
  repeat split.
  eexists. split. { rewrite nth_error_upd_eq, Hth. reflexivity. } simpl. auto.
Qed.

(* a client without hook (a nil client, one whose Release has returned, one resolved to null) is
   accounted at no hook: it holds no reference.  (That a released client whose mutex is free has
   no hook is CapLive.released_no_hook.) *)
Definition released_has_no_hook_stmt : Prop :=
  forall progs g c cl, reachable true (init progs) g -> misuse g = false ->
  get_client g c = Some cl -> c_h cl = None -> c_tgt cl = None.

Theorem released_has_no_hook : released_has_no_hook_stmt.
Proof.
  intros progs g c cl R Hm Hc Hh. pose proof (reachable_inv progs g R Hm) as I.
  pose proof (inv_client g (invC g I) _ _ Hc) as O. unfold client_ok in O. rewrite Hh in O. auto.
Qed.

Lemma sumf_pos_ex : forall A (f : A -> Z) l, (forall x, 0 <= f x) -> 0 < sumf f l ->
  exists i x, nth_error l i = Some x /\ 0 < f x.
Proof.
  induction l as [|a l IH]; intros Hn Hs; simpl in Hs. lia.
  destruct (Z_lt_le_dec 0 (f a)).
  - exists O, a. auto.
  - pose proof (Hn a). destruct IH as (i & x & P1 & P2); auto. lia. exists (S i), x. auto.
Qed.

Lemma hook_of_lt : forall g h, (h < length (hooks g))%nat -> exists hk, get_hook g h = Some hk.
Proof. intros. unfold get_hook. destruct (nth_error (hooks g) h) eqn:E; eauto. apply nth_error_None in E. lia. Qed.

Lemma client_of_lt : forall g c, (c < length (clients g))%nat -> exists cl, get_client g c = Some cl.
Proof. intros. unfold get_client. destruct (nth_error (clients g) c) eqn:E; eauto. apply nth_error_None in E. lia. Qed.

(* the hook whose mutex the thread's next step acquires *)
Definition wanted (p : pc) : option nat :=
  match p with
  | CWalk _ _ cur | WWalk _ _ cur | FWalk _ _ _ cur => Some cur
  | CallFin h _ => Some h
  | FMark p _ _ => Some p
  | _ => None
  end.

Section NOSTUCK.
Variable g : config.
Hypothesis I : Inv g.
Hypothesis W : ids_ok g.

(* a thread whose next step locks a free hook mutex is enabled *)
Lemma en_free : forall t th x hk, nth_error (threads g) t = Some th -> wanted (t_pc th) = Some x ->
  get_hook g x = Some hk -> h_mu hk = None -> exists g', step true g t = Some g'.
Proof.
  intros t th x hk Hth Hw Hx Hmu. unfold step. rewrite Hth.
  destruct (t_pc th) eqn:Hpc; simpl in Hw; inversion Hw; subst; rewrite Hx, Hmu.
  - destruct (forwarded x hk); [destruct (h_rh hk)|]; eauto.
  - destruct (forwarded x hk); [destruct (h_rh hk)|]; eauto.
    cbn [hooks set_weaks]. destruct (h_refs hk =? 0); eauto.
  - destruct (callfin_facts g t th x r hk I Hth Hpc Hx) as (_ & Hd).
    cbn [h_refs h_calls hk_calls]. destruct ((h_refs hk =? 0) && (h_calls hk - 1 =? 0)); eauto.
    unfold close_done. cbn [h_done hk_calls]. rewrite Hd. eauto.
  - destruct (h_resolved hk); eauto.
  - destruct (forwarded x hk); [destruct (h_rh hk)|]; eauto.
Qed.

(* the only threads that hold a hook mutex across steps are Fulfills in their transfer walk;
   that such a walk cannot be stuck is shown in CapLive.v from the acyclicity of the graph *)
Hypothesis FE : forall t th p n c cur, nth_error (threads g) t = Some th -> t_pc th = FWalk p n c cur ->
  exists t' g', step true g t' = Some g'.

Lemma en_wanted : forall t th x, nth_error (threads g) t = Some th -> wanted (t_pc th) = Some x ->
  exists t' g', step true g t' = Some g'.
Proof.
  intros t th x Hth Hw. pose proof (W t th Hth) as Wt.
  assert (Hlt : (x < length (hooks g))%nat) by (destruct (t_pc th); simpl in Hw; inversion Hw; subst; auto).
  destruct (hook_of_lt g x Hlt) as (hk & Hx).
  destruct (h_mu hk) as [u|] eqn:Hmu.
  - destruct (hk_mu_ g x hk (inv_hook g (invH g I) x hk Hx) u Hmu) as (n & c & cur & (thu & Hthu & Hpcu)). eauto.
  - exists t. eapply en_free; eauto.
Qed.

(* a thread about to lock a client mutex is enabled, or the holder is *)
Lemma en_client : forall t th c, nth_error (threads g) t = Some th ->
  ((exists k, t_pc th = CLock k c) \/ (exists p, t_pc th = FLock p c)) ->
  exists t' g', step true g t' = Some g'.
Proof.
  intros t th c Hth Hk. pose proof (W t th Hth) as Wt.
  assert (Hc : (c < length (clients g))%nat) by (destruct Hk as [(k & E)|(p & E)]; rewrite E in Wt; auto).
  destruct (client_of_lt g c Hc) as (cl & Hcl).
  destruct (c_mu cl) as [t'|] eqn:Hmu.
  - destruct (inv_cmu g (invC g I) c cl t' Hcl Hmu) as (k & cur & (th' & Hth' & Hpc')).
    eapply (en_wanted t' th' cur); eauto. rewrite Hpc'. reflexivity.
  - exists t. unfold step. rewrite Hth. destruct Hk as [(k & E)|(p & E)]; rewrite E, Hcl, Hmu; eauto.
    destruct (c_released cl); eauto.
Qed.

Lemma en_waitdone : forall t th h, nth_error (threads g) t = Some th -> t_pc th = WaitDone h ->
  exists t' g', step true g t' = Some g'.
Proof.
  intros t th h Hth Hpc. pose proof (W t th Hth) as Wt. rewrite Hpc in Wt.
  destruct (hook_of_lt g h Wt) as (hk & Hx).
  destruct (h_done hk) eqn:Hd.
  - exists t. unfold step. rewrite Hth, Hpc, Hx, Hd. eauto.
  - destruct (inv_hook g (invH g I) h hk Hx) as [O1 O2 O3 O4 O5 O6 O7].
    (* refs = 0 because a closer exists; so a call is still in progress *)
    pose proof (sumf_one _ (wclose h) (threads g) t th (wclose_nonneg h) Hth) as S.
    unfold wclose in S at 1. rewrite Hpc, Nat.eqb_refl in S. fold (closers g h) in S.
    assert (R0 : h_refs hk = 0) by (destruct (Z.eqb_spec (h_refs hk) 0); [auto|lia]).
    rewrite R0, Hd in O4. simpl in O4.
    assert (0 < callers g h).
    { assert (0 <= callers g h) by (apply sumf_nonneg; apply wcall_nonneg).
      destruct (Z.eq_dec (callers g h) 0); [|lia]. rewrite O3, e in O4. discriminate. }
    destruct (sumf_pos_ex _ (wcall h) (threads g) (wcall_nonneg h) H) as (t' & th' & Hth' & Hw).
    unfold wcall in Hw. destruct (t_pc th') eqn:Hpc'; try lia.
    + exists t'. unfold step. rewrite Hth', Hpc'. eauto.
    + destruct (Nat.eqb h0 h) eqn:E; [|lia]. eapply (en_wanted t' th' h0); eauto. rewrite Hpc'. reflexivity.
Qed.

Lemma no_stuck_here : (exists th, In th (threads g) /\ unfinished th = true) ->
  exists t g', step true g t = Some g'.
Proof.
  intros (th & Hin & Hu). apply In_nth_error in Hin. destruct Hin as (t & Hth).
  destruct (t_pc th) eqn:Hpc; try solve [eapply en_client; eauto | eapply en_waitdone; eauto
                                          | eapply (en_wanted t th); eauto; rewrite Hpc; reflexivity].
  - unfold unfinished in Hu. rewrite Hpc in Hu. destruct (t_prog th) as [|o rest] eqn:Hprog; [discriminate|].
    exists t. unfold step. rewrite Hth, Hpc, Hprog. eauto.
  - exists t. unfold step. rewrite Hth, Hpc. eauto.
Qed.
End NOSTUCK.

Theorem no_stuck_partial : no_stuck_partial_stmt.
Proof.
  intros progs g R Hm W NF Hu. eapply no_stuck_here; eauto. eapply reachable_inv; eauto.
  intros t th p n c cur Hth Hpc. exfalso. eapply NF. exists th. eauto.
Qed.
