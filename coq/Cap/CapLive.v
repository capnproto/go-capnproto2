(* CapLive.v — acyclicity of the resolution graph, deadlock freedom (no_stuck), calls through
   dead clients and no call after Shutdown, for the interleaving model (variant fixed = true). *)
From Coq Require Import ZArith List Bool Arith Lia.
From CV Require Import Cap.Cap Cap.CapInv Cap.CapLemmas Cap.CapStep Cap.CapLinks Cap.CapCases Cap.CapWf Cap.CapProofs.
Import ListNotations.
Open Scope nat_scope.

(* ---------------------------------------------------------------- the cycle check is sound *)
Lemma chain_hits_sound : forall g fuel r p, reach g r p -> chain_hits (hooks g) fuel r p = true.
Proof.
  intros g fuel. induction fuel as [|f IH]; intros r p R; simpl.
  - destruct (Nat.eqb r p); reflexivity.
  - destruct (Nat.eqb r p) eqn:E; auto. apply Nat.eqb_neq in E.
    inversion R; subst; [congruence|]. destruct H as (hk & A & B & C).
    unfold get_hook in A. rewrite A, B, C. apply IH. auto.
Qed.

(* ---------------------------------------------------------------- acyclicity as a rank *)
Definition ranked (g : config) (rank : nat -> nat) : Prop := forall a b, fwd g a b -> rank b < rank a.
Definition Acyc (g : config) : Prop := exists rank, ranked g rank.

Lemma ranked_reach : forall g rank a b, ranked g rank -> reach g a b -> rank b <= rank a.
Proof. intros g rank a b R. induction 1. lia. pose proof (R _ _ H). lia. Qed.

Lemma ranked_path1 : forall g rank a b, ranked g rank -> path1 g a b -> rank b < rank a.
Proof. intros g rank a b R (r & A & B). pose proof (R _ _ A). pose proof (ranked_reach g rank r b R B). lia. Qed.

(* with more fuel than the rank the cycle check is exact, so reachability is decidable *)
Lemma chain_hits_exact : forall g rank, ranked g rank -> forall fuel x p, rank x < fuel ->
  chain_hits (hooks g) fuel x p = true -> reach g x p.
Proof.
  intros g rank R. induction fuel as [|f IH]; intros x p Hf H. lia. simpl in H.
  destruct (Nat.eqb x p) eqn:E. apply Nat.eqb_eq in E; subst. constructor.
  destruct (nth_error (hooks g) x) as [hk|] eqn:A; [|discriminate].
  destruct (forwarded x hk) eqn:B; [|discriminate]. destruct (h_rh hk) as [y|] eqn:C; [|discriminate].
  assert (Fw : fwd g x y) by (exists hk; auto). pose proof (R _ _ Fw).
  eapply reach_left; eauto. apply IH; auto. lia.
Qed.

Lemma reach_dec : forall g rank, ranked g rank -> forall x p, {reach g x p} + {~ reach g x p}.
Proof.
  intros g rank R x p. destruct (chain_hits (hooks g) (S (rank x)) x p) eqn:E.
  - left. eapply chain_hits_exact; eauto.
  - right. intros H. rewrite (chain_hits_sound g _ x p H) in E. discriminate.
Qed.

Lemma acyc_init : forall progs, Acyc (init progs).
Proof. intros. exists (fun _ => 0). intros a b (hk & A & _). unfold get_hook, init in A. cbn in A. destruct a; discriminate. Qed.

Lemma acyc_step : forall g t g', Acyc g -> step true g t = Some g' -> misuse g' = false -> Acyc g'.
Proof.
  intros g t g' (rank & R) Hs Hm. destruct (step_thread _ _ _ _ Hs) as (th & Hth).
  destruct (fmark_dec g th) as [Hnf|(p & rh & c & hk & Hpc & Hp & Hr)].
  { exists rank. intros a b F. apply R.
    apply (links_same_fwd g g' a b (step_links_plain true g t g' th Hs Hth Hnf)). auto. }
  destruct (step_links_fmark true g t g' th p rh c hk Hs Hth Hpc Hp Hr) as (Hoth & (hk' & Hp' & Hr' & Hrh') & Hcyc & _).
  specialize (Hcyc Hm).
  (* edges of g': the old ones, plus p -> r when rh = Some r *)
  assert (Hnew : forall a b, fwd g' a b -> fwd g a b \/ (a = p /\ rh = Some b)).
  { intros a b (ha & A & B & C). destruct (Nat.eq_dec a p) as [->|Hne].
    - right. split; auto. rewrite Hp' in A. inversion A; subst. congruence.
    - left. exists ha. rewrite <- Hoth; auto. }
  assert (Hnoout : forall b, ~ fwd g p b).
  { intros b (ha & A & B & C). assert (ha = hk) by congruence. subst. unfold forwarded in B. rewrite Hr in B. discriminate. }
  destruct rh as [r|].
  - assert (Hnr : ~ reach g r p).
    { intros H. unfold resolves_to_cycle in Hcyc. rewrite (chain_hits_sound g _ r p H) in Hcyc. discriminate. }
    exists (fun x => if reach_dec g rank R x p then rank x + rank r + 1 else rank x).
    intros a b F. destruct (Hnew a b F) as [Fo|(-> & E)].
    + pose proof (R _ _ Fo) as Hlt.
      destruct (reach_dec g rank R b p) as [Rb|Rb]; destruct (reach_dec g rank R a p) as [Ra|Ra]; try lia.
      exfalso. apply Ra. eapply reach_left; eauto.
    + inversion E; subst b.
      destruct (reach_dec g rank R r p) as [Rb|Rb]; [contradiction|].
      destruct (reach_dec g rank R p p) as [Ra|Ra]; [lia|]. exfalso. apply Ra. constructor.
  - exists rank. intros a b F. destruct (Hnew a b F) as [Fo|(_ & E)]; [auto|discriminate].
Qed.

Theorem reachable_acyc : forall progs g, reachable true (init progs) g -> misuse g = false -> Acyc g.
Proof.
  intros progs g R. induction R; intros Hm. apply acyc_init.
  eapply acyc_step; eauto. apply IHR.
  destruct (misuse g) eqn:E; auto. rewrite (misuse_mono _ _ _ _ H E) in Hm. discriminate.
Qed.

(* ---------------------------------------------------------------- deadlock freedom *)
Lemma wf_ids_ok : forall g, WF g -> ids_ok g.
Proof.
  intros g W t th Hth. pose proof (sat_thread g W t th Hth) as P. destruct (t_pc th); simpl in P; tauto.
Qed.

(* a Fulfill in its transfer walk: either its next hook is free, or the holder is another
   such walk strictly further down the (acyclic) resolution graph *)
Lemma flight_enabled : forall g rank, Inv g -> ids_ok g -> ranked g rank ->
  forall n t th p k c cur, rank cur < n ->
  nth_error (threads g) t = Some th -> t_pc th = FWalk p k c cur ->
  exists t' g', step true g t' = Some g'.
Proof.
  intros g rank I W R. induction n as [|n IH]; intros t th p k c cur Hn Hth Hpc. lia.
  pose proof (W t th Hth) as Wc. rewrite Hpc in Wc.
  destruct (hook_of_lt g cur Wc) as (hk & Hx).
  destruct (h_mu hk) as [u|] eqn:Hmu.
  - destruct (hk_mu_ g cur hk (inv_hook g (invH g I) cur hk Hx) u Hmu) as (n' & c' & cur' & (thu & Hthu & Hpcu)).
    destruct (inv_flight g (invF g I) u cur n' c' cur' (ex_intro _ thu (conj Hthu Hpcu)))
      as (hp & _ & _ & _ & _ & _ & _ & P1 & _).
    pose proof (ranked_path1 g rank cur cur' R P1).
    eapply (IH u thu cur n' c' cur'); eauto. lia.
  - exists t. eapply en_free; eauto. rewrite Hpc. reflexivity.
Qed.

(* no_stuck: every reachable configuration of a contract-respecting execution in which some
   thread has not finished has an enabled step (that of a thread inside a call-out being the
   application's return) *)
Theorem no_stuck : no_stuck_stmt.
Proof.
  intros progs g R Hm Hu.
  destruct (reachable_acyc progs g R Hm) as (rank & Rk).
  pose proof (reachable_inv progs g R Hm) as I. pose proof (wf_ids_ok g (reachable_wf true progs g R)) as W.
  apply (no_stuck_here g I W); auto.
  intros t th p n c cur. apply (flight_enabled g rank I W Rk (S (rank cur))). lia.
Qed.

(* ---------------------------------------------------------------- calls through dead clients *)
Open Scope Z_scope.

(* in every reachable contract-respecting configuration a released client whose mutex is free
   (its Release is not in the middle of its walk) has no hook *)
Definition released_no_hook_stmt : Prop :=
  forall progs g c cl, reachable true (init progs) g -> misuse g = false ->
  get_client g c = Some cl -> c_released cl = true -> c_mu cl = None -> c_h cl = None.

Theorem released_no_hook : released_no_hook_stmt.
Proof. intros progs g c cl R Hm Hc Hr Hmu. apply (inv_rel g (invC g (reachable_inv progs g R Hm)) c cl Hc Hr Hmu). Qed.

(* what "the call ends with an error and never reaches a capability" means for one step *)
Definition ends_with_error (g g' : config) (t : nat) (th : thread) : Prop :=
  events g' = events g /\ hooks g' = hooks g /\
  exists th', nth_error (threads g') t = Some th' /\ t_pc th' = Idle /\ t_res th' = RErr :: t_res th.

(* the three ways a call can go through a dead client, over all histories:
   (nil)      SendCall/RecvCall on a nil *Client (empty variable): ends at once with the error;
   (released) on a released client, in any reachable contract-respecting configuration, as soon
              as the call gets the client's mutex: ends at once with the error;
   (null)     on a client whose resolution chain ends in a promise resolved to nil: the walk
              step that finds the nil ends the call with the error.
   In all three no event is emitted and no hook is touched by that step. *)
Definition dead_client_calls_stmt : Prop :=
  (forall fixed g t th src recv abn rest g',
     nth_error (threads g) t = Some th -> t_pc th = Idle -> t_prog th = OCall src recv abn :: rest ->
     lookup src (cslots g) = None -> step fixed g t = Some g' -> ends_with_error g g' t th) /\
  (forall progs g t th recv abn c cl g',
     reachable true (init progs) g -> misuse g = false ->
     nth_error (threads g) t = Some th -> t_pc th = CLock (KCall recv abn) c ->
     get_client g c = Some cl -> c_released cl = true ->
     step true g t = Some g' -> ends_with_error g g' t th) /\
  (forall fixed g t th recv abn c cur hk g',
     nth_error (threads g) t = Some th -> t_pc th = CWalk (KCall recv abn) c cur ->
     get_hook g cur = Some hk -> forwarded cur hk = true -> h_rh hk = None ->
     step fixed g t = Some g' -> ends_with_error g g' t th).

Theorem dead_client_calls : dead_client_calls_stmt.
Proof.
  split; [|split].
  - intros fixed g t th src recv abn rest g' Hth Hpc Hprog Hl Hs. unfold step in Hs.
    rewrite Hth, Hpc, Hprog in Hs. inversion Hs; subst g'; clear Hs.
    unfold begin_op. cbn [cslots set_threads]. rewrite Hl. unfold ends_with_error, finish. cbn.
    repeat split. eexists. split. { rewrite upd_upd, nth_error_upd_eq, Hth. reflexivity. } cbn. auto.
  - intros progs g t th recv abn c cl g' R Hm Hth Hpc Hc Hr Hs.
    assert (Hmu : c_mu cl = None).
    { unfold step in Hs. rewrite Hth, Hpc, Hc in Hs. destruct (c_mu cl); [discriminate|reflexivity]. }
    pose proof (released_no_hook progs g c cl R Hm Hc Hr Hmu) as Hh.
    apply (null_released_error true g t th recv abn c cl g' Hth Hpc Hc Hh Hs).
  - intros fixed g t th recv abn c cur hk g' Hth Hpc Hx Hf Hr Hs. unfold step in Hs.
    rewrite Hth, Hpc, Hx in Hs. destruct (h_mu hk); [discriminate|]. rewrite Hf, Hr in Hs.
    inversion Hs; subst g'; clear Hs. unfold ends_with_error, cwalk_nil, finish. cbn.
    repeat split. eexists. split. { rewrite nth_error_upd_eq, Hth. reflexivity. } cbn. auto.
Qed.

(* ---------------------------------------------------------------- no call after Shutdown *)
Lemma cons_neq : forall A (x : A) l, l = x :: l -> False.
Proof. intros A x l H. apply (f_equal (@length A)) in H. simpl in H. lia. Qed.

(* a call is delivered (event Send/Recv on hook h) only to a live hook: at that step the hook
   holds at least one reference, has never been shut down, and its done channel is open *)
Definition call_delivered_live_stmt : Prop :=
  forall progs g t g' e h, reachable true (init progs) g -> misuse g = false ->
  step true g t = Some g' -> events g' = e :: events g -> (e = EvSend h \/ e = EvRecv h) ->
  exists hk, get_hook g h = Some hk /\ 1 <= h_refs hk /\ h_shut hk = 0 /\ h_done hk = false.

Theorem call_delivered_live : call_delivered_live_stmt.
Proof.
  intros progs g t g' e h R Hm Hs Hev He. pose proof (reachable_inv progs g R Hm) as I.
  revert Hev. leaves Hs; intros Hev.
  all: try solve [exfalso; eapply cons_neq; eauto].
  all: inversion Hev; subst e; destruct He as [E|E]; inversion E; subst.
  all: edestruct (cwalk_end_facts g t) as (cl & _ & _ & _ & _ & _ & _ & R1 & Hd & _ & _ & Hs0); eauto.
Qed.

(* h_shut is the number of Shutdown events of the hook in the event log (both variants) *)
Definition wshut (h : nat) (e : event) : Z :=
  match e with EvShutdown x => if Nat.eqb x h then 1 else 0 | _ => 0 end.
Definition shutcount (h : nat) (evs : list event) : Z := sumf (wshut h) evs.
Definition shut_of (g : config) (h : nat) : Z :=
  match get_hook g h with Some hk => h_shut hk | None => 0 end.
Definition TraceInv (g : config) : Prop := forall h, shutcount h (events g) = shut_of g h.

(* TraceInv at a leaf of [step] that logs no EvShutdown and leaves every h_shut as it is *)
Ltac tr_tac T :=
  let h0 := fresh "h0" in intros h0; specialize (T h0); unfold shut_of, shutcount, get_hook in *; norm_cfg;
  cbn [sumf wshut] in *;
  repeat rewrite nth_error_upd; repeat rewrite nth_error_app_new;
  repeat match goal with
  | |- context[Nat.eqb ?x ?y] => let E := fresh "E" in destruct (Nat.eqb x y) eqn:E;
        [apply Nat.eqb_eq in E; subst|]
  end;
  repeat match goal with
  | H : nth_error (hooks _) ?x = Some _ |- _ => rewrite !H in *
  end;
  try match goal with
  | H : context[nth_error (hooks ?g) (length (hooks ?g))] |- _ =>
      rewrite (nth_error_ge_none _ (hooks g) (length (hooks g)) (le_n _)) in H
  end;
  repeat match goal with
  | |- context[nth_error (hooks ?g) ?x] => destruct (nth_error (hooks g) x)
  end;
  cbn in *; try lia.

Lemma trace_step : forall fixed g t g', TraceInv g -> step fixed g t = Some g' -> TraceInv g'.
Proof.
  intros fixed g t g' T Hs. unfold TraceInv. leaves Hs.
  all: try solve [tr_tac T].
  (* left: the leaf of WaitDone that logs EvShutdown h and increments h_shut of hook h *)
  intros h1. specialize (T h1). unfold shut_of, shutcount, get_hook in *. norm_cfg. cbn [sumf wshut].
  rewrite nth_error_upd. destruct (Nat.eqb h h1) eqn:E.
  - apply Nat.eqb_eq in E; subst h1.
    match goal with H : nth_error (hooks g) h = Some _ |- _ => rewrite H in T |- * end.
    cbn [option_map h_shut hk_shut]. lia.
  - destruct (nth_error (hooks g) h1); lia.
Qed.

Theorem reachable_trace : forall fixed progs g, reachable fixed (init progs) g -> TraceInv g.
Proof.
  induction 1.
  - intros h. unfold shutcount, shut_of, get_hook, init. cbn. destruct h; reflexivity.
  - eapply trace_step; eauto.
Qed.

(* no call is delivered to a hook after its Shutdown: at the step that delivers a call to h the
   event log contains no Shutdown of h *)
Definition no_call_after_shutdown_stmt : Prop :=
  forall progs g t g' e h, reachable true (init progs) g -> misuse g = false ->
  step true g t = Some g' -> events g' = e :: events g -> (e = EvSend h \/ e = EvRecv h) ->
  ~ In (EvShutdown h) (events g).

Lemma shutcount_in : forall h evs, In (EvShutdown h) evs -> 1 <= shutcount h evs.
Proof.
  induction evs as [|e evs IH]; intros H; simpl in H. contradiction.
  unfold shutcount in *. simpl. assert (0 <= sumf (wshut h) evs).
  { apply sumf_nonneg. intros x. unfold wshut. destruct x; try lia. destruct (Nat.eqb h0 h); lia. }
  destruct H as [->|H].
  - simpl. rewrite Nat.eqb_refl. lia.
  - specialize (IH H). assert (0 <= wshut h e). { unfold wshut. destruct e; try lia. destruct (Nat.eqb h0 h); lia. } lia.
Qed.

Theorem no_call_after_shutdown : no_call_after_shutdown_stmt.
Proof.
  intros progs g t g' e h R Hm Hs Hev He Hin.
  destruct (call_delivered_live progs g t g' e h R Hm Hs Hev He) as (hk & A & _ & B & _).
  pose proof (reachable_trace true progs g R h) as T. unfold shut_of in T. rewrite A, B in T.
  pose proof (shutcount_in h (events g) Hin). lia.
Qed.

(* a contract-respecting run that cannot continue has finished all its operations *)
Definition quiescent_all_finished_stmt : Prop :=
  forall progs g, reachable true (init progs) g -> misuse g = false ->
  (forall t, step true g t = None) -> forall th, In th (threads g) -> unfinished th = false.

Theorem quiescent_all_finished : quiescent_all_finished_stmt.
Proof.
  intros progs g R Hm Hq th Hin. destruct (unfinished th) eqn:E; auto. exfalso.
  destruct (no_stuck progs g R Hm (ex_intro _ th (conj Hin E))) as (t & g' & Hs).
  rewrite Hq in Hs. discriminate.
Qed.

