(* CapStep.v — the cases of a step, and the frame lemmas by which each case is shown to preserve
   the invariant: a step moves one thread and touches at most two hooks and the clients. *)
From Coq Require Import ZArith List Bool Arith Lia.
From CV Require Import Cap.Cap Cap.CapInv Cap.CapLemmas.
Import ListNotations.
Open Scope Z_scope.

(* ---------------------------------------------------------------- the cases of [step] *)
Section CASES.
Variables (fixed : bool) (g : config) (t : nat) (th : thread).

(* one constructor for each [Some _] in the text of [step], with the tests passed on the way *)
Inductive step_case : config -> Prop :=
| sc_begin : forall o rest, t_pc th = Idle -> t_prog th = o :: rest ->
    step_case (begin_op t o (set_threads (upd t (fun x => mkThread rest Idle (t_res x)) (threads g)) g))
| sc_clock : forall k c cl, t_pc th = CLock k c -> get_client g c = Some cl -> c_mu cl = None ->
    step_case (clock_step t k c cl g)
| sc_cwalk_nil : forall k c cur hk, t_pc th = CWalk k c cur -> get_hook g cur = Some hk -> h_mu hk = None ->
    forwarded cur hk = true -> h_rh hk = None -> step_case (cwalk_nil t k c g)
| sc_cwalk_hop : forall k c cur hk r, t_pc th = CWalk k c cur -> get_hook g cur = Some hk -> h_mu hk = None ->
    forwarded cur hk = true -> h_rh hk = Some r -> step_case (set_pc t (CWalk k c r) (uc c (cl_h (Some r)) g))
| sc_cwalk_end : forall k c cur hk, t_pc th = CWalk k c cur -> get_hook g cur = Some hk -> h_mu hk = None ->
    forwarded cur hk = false -> step_case (cwalk_end t k c cur hk g)
| sc_wwalk_nil : forall dst w cur hk, t_pc th = WWalk dst w cur -> get_hook g cur = Some hk -> h_mu hk = None ->
    forwarded cur hk = true -> h_rh hk = None ->
    step_case (finish t RNil (set_weaks (upd w (fun _ => None) (weaks g)) g))
| sc_wwalk_hop : forall dst w cur hk r, t_pc th = WWalk dst w cur -> get_hook g cur = Some hk -> h_mu hk = None ->
    forwarded cur hk = true -> h_rh hk = Some r -> step_case (set_pc t (WWalk dst w r) g)
| sc_wwalk_dead : forall dst w cur hk, t_pc th = WWalk dst w cur -> get_hook g cur = Some hk -> h_mu hk = None ->
    forwarded cur hk = false -> (h_refs hk =? 0) = true ->
    step_case (finish t RDead (set_weaks (upd w (fun _ => Some cur) (weaks g)) g))
| sc_wwalk_ok : forall dst w cur hk, t_pc th = WWalk dst w cur -> get_hook g cur = Some hk -> h_mu hk = None ->
    forwarded cur hk = false -> (h_refs hk =? 0) = false ->
    step_case (finish t ROk (set_cslots ((dst, length (clients g)) :: cslots g)
                 (set_clients (clients g ++ [new_client cur])
                 (uh cur (hk_refs (h_refs hk + 1)) (set_weaks (upd w (fun _ => Some cur) (weaks g)) g)))))
| sc_incall : forall h abn, t_pc th = InCall h abn ->
    step_case (set_pc t (CallFin h (if abn then RPanic else RSent)) g)
| sc_callfin_panic : forall h rr hk, t_pc th = CallFin h rr -> get_hook g h = Some hk -> h_mu hk = None ->
    let hk1 := hk_calls (h_calls hk - 1) hk in
    (h_refs hk1 =? 0) && (h_calls hk1 =? 0) = true -> close_done hk1 = None ->
    step_case (finish t RPanic (uh h (fun _ => hk_mu (Some t) hk1) g))
| sc_callfin_last : forall h rr hk hk2, t_pc th = CallFin h rr -> get_hook g h = Some hk -> h_mu hk = None ->
    let hk1 := hk_calls (h_calls hk - 1) hk in
    (h_refs hk1 =? 0) && (h_calls hk1 =? 0) = true -> close_done hk1 = Some hk2 ->
    step_case (finish t rr (uh h (fun _ => hk2) g))
| sc_callfin : forall h rr hk, t_pc th = CallFin h rr -> get_hook g h = Some hk -> h_mu hk = None ->
    let hk1 := hk_calls (h_calls hk - 1) hk in
    (h_refs hk1 =? 0) && (h_calls hk1 =? 0) = false ->
    step_case (finish t rr (uh h (fun _ => hk1) g))
| sc_waitdone : forall h hk, t_pc th = WaitDone h -> get_hook g h = Some hk -> h_done hk = true ->
    step_case (finish t ROk (emit (EvShutdown h) (uh h (hk_shut (h_shut hk + 1)) g)))
| sc_flock_released : forall p c cl, t_pc th = FLock p c -> get_client g c = Some cl -> c_mu cl = None ->
    c_released cl = true -> step_case (finish t RPanic g)
| sc_flock : forall p c cl, t_pc th = FLock p c -> get_client g c = Some cl -> c_mu cl = None ->
    c_released cl = false -> step_case (set_pc t (FMark p (c_h cl) (Some c)) g)
| sc_fmark_resolved : forall p rh c hk, t_pc th = FMark p rh c -> get_hook g p = Some hk -> h_mu hk = None ->
    h_resolved hk = true -> step_case (finish t RPanic g)
| sc_fmark : forall p rh c hk, t_pc th = FMark p rh c -> get_hook g p = Some hk -> h_mu hk = None ->
    h_resolved hk = false ->
    step_case (fmark_body fixed t p rh c hk (if resolves_to_cycle g rh p then set_misuse true g else g))
| sc_fwalk_nil : forall p n c cur hk, t_pc th = FWalk p n c cur -> get_hook g cur = Some hk -> h_mu hk = None ->
    forwarded cur hk = true -> h_rh hk = None ->
    let g1 := retarget p None g in
    step_case (set_pc t (WaitDone p) (if fixed then uh p (hk_mu None) g1 else g1))
| sc_fwalk_hop : forall p n c cur hk r, t_pc th = FWalk p n c cur -> get_hook g cur = Some hk -> h_mu hk = None ->
    forwarded cur hk = true -> h_rh hk = Some r -> step_case (set_pc t (FWalk p n c r) g)
| sc_fwalk_end : forall p n c cur hk, t_pc th = FWalk p n c cur -> get_hook g cur = Some hk -> h_mu hk = None ->
    forwarded cur hk = false ->
    let g1 := retarget p (Some cur) (uh cur (hk_refs (h_refs hk + n)) g) in
    step_case (set_pc t (WaitDone p) (if fixed then uh p (hk_mu None) g1 else g1)).

Lemma step_cases : forall g', nth_error (threads g) t = Some th -> step fixed g t = Some g' -> step_case g'.
Proof.
  intros g' Hth Hs. unfold step in Hs. rewrite Hth in Hs. cbv zeta in Hs.
  repeat match type of Hs with (match ?x with _ => _ end) = _ => destruct x eqn:?; try discriminate end;
  inversion Hs; subst; clear Hs; eauto using step_case.
Qed.
End CASES.

(* every leaf of [step]: the cases, with the bodies of the operations opened up *)
Ltac destr_goal := repeat match goal with |- context[match ?x with _ => _ end] => destruct x eqn:? end.
Ltac norm_cfg :=
  cbn [threads cslots pslots wslots weaks clients hooks events misuse
       set_threads set_cslots set_pslots set_wslots set_weaks set_clients set_hooks set_events set_misuse
       set_pc finish uh uc emit retarget get_hook get_client] in *.
Ltac inv_some :=
  repeat match goal with
  | H : ?L = Some _ |- _ => match L with context[match ?x with _ => _ end] => destruct x eqn:?; try discriminate end
  | H : Some _ = Some _ |- _ => inversion H; subst; clear H
  end.
Lemma step_thread : forall fixed g t g', step fixed g t = Some g' -> exists th, nth_error (threads g) t = Some th.
Proof. unfold step. intros fixed g t g' Hs. destruct (nth_error (threads g) t); [eauto|discriminate]. Qed.

Ltac step_inv Hth Hs := destruct (step_cases _ _ _ _ _ Hth Hs); clear Hs.
Ltac open_ops :=
  unfold begin_op, clock_step, cwalk_nil, cwalk_end, same_second, fmark_body, close_done in *; destr_goal;
  inv_some; repeat match goal with x := _ |- _ => subst x end; norm_cfg; fold get_hook get_client in *.
Ltac leaves Hs :=
  let Hth := fresh "Hth" in destruct (step_thread _ _ _ _ Hs) as (? & Hth); step_inv Hth Hs; open_ops.

(* ---------------------------------------------------------------- one thread moves *)
Lemma upd_same : forall A (l : list A) n, upd n (fun x => x) l = l.
Proof. induction l as [|a l IH]; intros [|n]; simpl; auto. rewrite IH; auto. Qed.

Lemma pc_of_fun : forall g t p q, pc_of g t p -> pc_of g t q -> p = q.
Proof. intros g t p q (th & H1 & H2) (th' & H1' & H2'). congruence. Qed.

Lemma links_le_same_hooks : forall g g', hooks g' = hooks g -> links_le g g'.
Proof. intros g g' H a hk Hg Hf. exists hk. unfold get_hook in *. rewrite H. auto. Qed.

(* reach / to_nil / tgt_ok / borrow depend only on the hooks (and clients) *)
Lemma reach_same_hooks : forall g g' a b, hooks g' = hooks g -> reach g a b -> reach g' a b.
Proof. intros. eapply reach_mono; eauto. apply links_le_same_hooks; auto. Qed.

Lemma borrowed_of_pc : forall g t p ci, pc_of g t p -> borrows ci p = true -> borrowed g ci = true.
Proof.
  intros g t p ci (th & Hn & Hp) B. unfold borrowed. apply existsb_exists.
  exists th. split. eapply nth_error_In; eauto. rewrite Hp. auto.
Qed.

(* what the invariant says about a thread at pc [p]: the clauses of InvC and InvF about walks *)
Definition walk_ok (g : config) (t : nat) (p : pc) : Prop :=
  match p with
  | CWalk k c cur => exists cl, get_client g c = Some cl /\ c_h cl = Some cur /\ c_mu cl = Some t /\
                       (k = KRelease -> c_released cl = true) /\ (k <> KRelease -> c_released cl = false)
  | FWalk p n c cur => exists hk, get_hook g p = Some hk /\ h_mu hk = Some t /\ h_refs hk = 0 /\ tokens g p = n /\
                       0 < n /\ forwarded p hk = true /\ path1 g p cur /\ borrow_ok g c (Some cur)
  | FMark p rh c => borrow_ok g c rh
  | _ => True
  end.

Lemma walk_ok_inv : forall g t p, Inv g -> pc_of g t p -> walk_ok g t p.
Proof.
  intros g t p I P. destruct p; simpl; auto.
  - destruct (inv_cwalk g (invC g I) _ _ _ _ P) as (cl & A & B & C & D). exists cl. repeat split; auto.
    apply (inv_nrel g (invC g I) _ _ _ _ _ P A).
  - apply (inv_fmark g (invF g I) _ _ _ _ P).
  - apply (inv_flight g (invF g I) _ _ _ _ _ P).
Qed.

(* the thread holds no mutex across steps *)
Definition no_mutex (p : pc) : Prop := match p with CWalk _ _ _ | FWalk _ _ _ _ => False | _ => True end.

(* moving from p to p' the thread keeps the mutex it holds, if any, and it is a hook's *)
Definition same_mutex (p p' : pc) : Prop :=
  match p, p' with
  | FWalk h _ _ _, FWalk h' _ _ _ => h = h'
  | _, _ => no_mutex p /\ no_mutex p'
  end.

Lemma get_hook_upd : forall g g' x K h, hooks g' = upd x K (hooks g) ->
  get_hook g' h = if Nat.eqb x h then option_map K (get_hook g h) else get_hook g h.
Proof. intros. unfold get_hook. rewrite H. apply nth_error_upd. Qed.

Lemma get_client_upd : forall g g' x K h, clients g' = upd x K (clients g) ->
  get_client g' h = if Nat.eqb x h then option_map K (get_client g h) else get_client g h.
Proof. intros. unfold get_client. rewrite H. apply nth_error_upd. Qed.

Lemma tokens_upd : forall g g' c K cl h,
  get_client g c = Some cl -> clients g' = upd c K (clients g) ->
  tokens g' h = tokens g h - wtok h cl + wtok h (K cl).
Proof. intros. unfold tokens. rewrite H0. apply sumf_upd; auto. Qed.

Lemma tokens_same_tgt : forall g g' c K cl h,
  get_client g c = Some cl -> clients g' = upd c K (clients g) -> c_tgt (K cl) = c_tgt cl ->
  tokens g' h = tokens g h.
Proof.
  intros. rewrite (tokens_upd g g' c K cl h H H0). unfold wtok. rewrite H1. lia.
Qed.

Lemma borrow_ok_frame : forall g g' c rh,
  links_le g g' ->
  (forall ci cl, c = Some ci -> get_client g ci = Some cl ->
      exists cl', get_client g' ci = Some cl' /\ c_released cl' = c_released cl /\ c_tgt cl' = c_tgt cl) ->
  borrow_ok g c rh -> borrow_ok g' c rh.
Proof.
  intros g g' c rh L H B. destruct c as [ci|]; simpl in *; auto.
  destruct B as (cl & B1 & B2 & B3). destruct (H ci cl eq_refl B1) as (cl' & C1 & C2 & C3).
  exists cl'. repeat split; auto. congruence. rewrite C3. destruct rh; auto. eapply tgt_ok_mono; eauto.
Qed.

Lemma borrow_ok_same : forall g g' c rh, links_le g g' -> clients g' = clients g ->
  borrow_ok g c rh -> borrow_ok g' c rh.
Proof.
  intros g g' c rh L Hc. apply borrow_ok_frame; auto. intros ci cl _ A. exists cl. unfold get_client. rewrite Hc. auto.
Qed.

Lemma client_ok_mono : forall g g' cl, links_le g g' -> client_ok g cl -> client_ok g' cl.
Proof. unfold client_ok. intros. destruct (c_h cl); auto. eapply tgt_ok_mono; eauto. Qed.

(* links are unchanged when only non-link fields of hook x change *)
Lemma links_le_upd : forall g g' x hk hk',
  get_hook g x = Some hk -> hooks g' = upd x (fun _ => hk') (hooks g) ->
  (forwarded x hk = true -> forwarded x hk' = true /\ h_rh hk' = h_rh hk) ->
  links_le g g'.
Proof.
  intros g g' x hk hk' Hx Hh Hl a ha Ha Hf. rewrite (get_hook_upd g g' x _ a Hh).
  destruct (Nat.eqb x a) eqn:E.
  - apply Nat.eqb_eq in E; subst a. rewrite Ha. simpl. exists hk'.
    assert (ha = hk) by congruence. subst ha. destruct (Hl Hf). auto.
  - exists ha. auto.
Qed.

(* hook x goes from hk to hk' while the clients counted at x, the calls through x and the
   threads closing x change by dtok, dcall, dclose *)
Record hook_move (x : nat) (hk hk' : hook) (dtok dcall dclose : Z) : Prop := {
  hm_mu : h_mu hk' = None;
  hm_res : h_resolved hk' = h_resolved hk;
  hm_rh : h_rh hk' = h_rh hk;
  hm_refs : h_refs hk' = h_refs hk + dtok;
  hm_calls : h_calls hk' = h_calls hk + dcall;
  hm_done : h_done hk' = ((h_refs hk' =? 0) && (h_calls hk' =? 0));
  hm_close : dclose + (h_shut hk' - h_shut hk) =
             (if h_refs hk' =? 0 then 1 else 0) - (if h_refs hk =? 0 then 1 else 0);
  hm_shut : h_shut hk <= h_shut hk';
  hm_fwd : forwarded x hk = true -> dtok = 0
}.

Lemma hook_move_id : forall g x hk, hook_ok g x hk -> h_mu hk = None -> hook_move x hk hk 0 0 0.
Proof. intros g x hk [O1 O2 O3 O4 O5 O6 O7] Hfree. constructor; auto; lia. Qed.

Lemma hook_ok_move : forall g g' x hk hk' dtok dcall dclose,
  hook_ok g x hk -> h_mu hk = None -> hook_move x hk hk' dtok dcall dclose ->
  tokens g' x = tokens g x + dtok -> callers g' x = callers g x + dcall -> closers g' x = closers g x + dclose ->
  hook_ok g' x hk'.
Proof.
  intros g g' x hk hk' dtok dcall dclose [O1 O2 O3 O4 O5 O6 O7] Hfree [M1 M2 M3 M4 M5 M6 M7 M8 M9] Et Ec Eo.
  constructor; auto; try lia.
  - intros _. rewrite M4, (O1 Hfree). lia.
  - intros t'. rewrite M1. discriminate.
  - unfold forwarded in *. rewrite M2, M3. intros Hf. rewrite M4, (M9 Hf), (O7 Hf). lia.
Qed.


(* client c (state cl) may be changed by the thread at pc p: p holds no other client's mutex and
   c's is free or held by that thread *)
Definition client_free_for (c : nat) (cl : client) (p : pc) : Prop :=
  match p with CWalk _ c0 _ => c0 = c | FWalk _ _ _ _ => False | _ => c_mu cl = None end.

(* the state cl' in which thread t leaves client c agrees with the pc it moves to *)
Definition client_at (t c : nat) (cl' : client) (p : pc) : Prop :=
  match p with
  | CWalk k c0 cur => c0 = c /\ c_h cl' = Some cur /\ c_mu cl' = Some t /\
                      (k = KRelease -> c_released cl' = true) /\ (k <> KRelease -> c_released cl' = false)
  | FWalk _ _ _ _ | FMark _ _ _ => False
  | _ => c_mu cl' = None /\ (c_released cl' = true -> c_h cl' = None)
  end.

Lemma borrow_ok_one : forall g g' c cl cl', links_le g g' ->
  get_client g c = Some cl -> clients g' = upd c (fun _ => cl') (clients g) ->
  (c_tgt cl' = c_tgt cl \/ c_released cl = true) -> (c_released cl' = c_released cl \/ borrowed g c = false) ->
  forall ci rh, borrowed g ci = true -> borrow_ok g (Some ci) rh -> borrow_ok g' (Some ci) rh.
Proof.
  intros g g' c cl cl' L Hc Hcl Htgt Hrel ci rh Hb B. eapply borrow_ok_frame; eauto.
  intros ? cb [= <-] A. rewrite (get_client_upd g g' c _ ci Hcl). destruct (Nat.eqb c ci) eqn:E; [|eauto].
  apply Nat.eqb_eq in E; subst ci. rewrite A. simpl. exists cl'. assert (cb = cl) by congruence. subst cb.
  destruct B as (cb & B1 & B2 & _). assert (cb = cl) by congruence. subst cb.
  repeat split; auto. destruct Hrel; congruence. destruct Htgt; congruence.
Qed.

(* the fields of a client that the mutex protocol (InvC) reads *)
Definition cfields (cl : client) := (c_h cl, c_mu cl, c_released cl).

Lemma same_fields : forall a b, option_map cfields a = option_map cfields b ->
  forall x, a = Some x -> exists y, b = Some y /\ cfields x = cfields y.
Proof. intros a b E x ->. destruct b as [y|]; cbn [option_map] in E; [|discriminate]. exists y. split; congruence. Qed.

Section GENERIC.
Variables (g g' : config) (t : nat) (th : thread) (F : thread -> thread).
Hypothesis Hth : nth_error (threads g) t = Some th.
Hypothesis Ht : threads g' = upd t F (threads g).

Lemma pcs_new : forall t' p, pc_of g' t' p ->
  (t' = t /\ t_pc (F th) = p) \/ (t' <> t /\ pc_of g t' p).
Proof.
  intros t' p (th' & Hn & Hp). rewrite Ht, nth_error_upd in Hn. destruct (Nat.eqb t t') eqn:E.
  - apply Nat.eqb_eq in E; subst t'. left. rewrite Hth in Hn. inversion Hn; subst. auto.
  - apply Nat.eqb_neq in E. right. split; auto. exists th'; auto.
Qed.

Lemma pcs_keep : forall t' p, pc_of g t' p -> t' <> t -> pc_of g' t' p.
Proof. intros t' p (th' & Hn & Hp) Hne. exists th'. rewrite Ht, nth_error_upd_neq; auto. Qed.

Lemma pcs_me : pc_of g t (t_pc th).
Proof. exists th; auto. Qed.

Lemma pcs_me' : pc_of g' t (t_pc (F th)).
Proof. exists (F th). rewrite Ht, nth_error_upd_eq, Hth. auto. Qed.

Lemma closers_upd : forall h, closers g' h = closers g h - wclose h th + wclose h (F th).
Proof. intros. unfold closers. rewrite Ht. apply sumf_upd; auto. Qed.

Lemma callers_upd : forall h, callers g' h = callers g h - wcall h th + wcall h (F th).
Proof. intros. unfold callers. rewrite Ht. apply sumf_upd; auto. Qed.

(* ---------------- hook group: the hooks in TH are re-established, the others are untouched *)
Lemma LH : forall (TH : list nat),
  InvH g ->
  (length (hooks g) <= length (hooks g'))%nat ->
  (forall h, ~ In h TH -> get_hook g' h = get_hook g h /\ tokens g' h = tokens g h /\
                          wclose h (F th) = wclose h th /\ wcall h (F th) = wcall h th) ->
  (forall h n c cur, ~ In h TH -> t_pc th = FWalk h n c cur ->
       exists n' c' cur', t_pc (F th) = FWalk h n' c' cur') ->
  (forall h hk', In h TH -> get_hook g' h = Some hk' -> hook_ok g' h hk') ->
  (forall h, In h TH -> (h < length (hooks g'))%nat) ->
  InvH g'.
Proof.
  intros TH I Hlen Hfr Hmu Hto Hin.
  constructor.
  - intros h Hl. destruct (in_dec Nat.eq_dec h TH) as [Hi|Hi].
    + apply Hin in Hi. lia.
    + destruct (Hfr h Hi) as (A & B & C & D). rewrite B, closers_upd, callers_upd, C, D.
      assert (Hl' : (length (hooks g) <= h)%nat) by lia.
      destruct (inv_range g I h Hl') as (X & Y & Z). lia.
  - intros h hk Hg. destruct (in_dec Nat.eq_dec h TH) as [Hi|Hi]; auto.
    destruct (Hfr h Hi) as (A & B & C & D). rewrite A in Hg.
    destruct (inv_hook g I h hk Hg) as [O1 O2 O3 O4 O5 O6 O7].
    constructor; auto.
    + rewrite B; auto.
    + intros t' Hm. destruct (O2 t' Hm) as (n & c & cur & P).
      destruct (Nat.eq_dec t' t) as [->|Hne].
      * pose proof (pc_of_fun _ _ _ _ P pcs_me) as E. symmetry in E.
        destruct (Hmu _ _ _ _ Hi E) as (n' & c' & cur' & E'). exists n', c', cur'.
        rewrite <- E'. apply pcs_me'.
      * exists n, c, cur. apply pcs_keep; auto.
    + rewrite callers_upd, D. lia.
    + rewrite closers_upd, C. lia.
Qed.

(* ---------------- client group: the clients in TC are re-established, the others keep the
   fields the mutex protocol reads *)
Lemma LC : forall (TC : list nat),
  InvC g ->
  (forall k c0 cur, t_pc th = CWalk k c0 cur -> In c0 TC) ->
  (forall i cl, In i TC -> get_client g i = Some cl -> c_mu cl = None \/ c_mu cl = Some t) ->
  (forall i, ~ In i TC -> option_map cfields (get_client g' i) = option_map cfields (get_client g i)) ->
  (forall i cl', get_client g' i = Some cl' -> client_ok g' cl') ->
  walk_ok g' t (t_pc (F th)) ->
  (forall i cl' t', In i TC -> get_client g' i = Some cl' -> c_mu cl' = Some t' ->
       t' = t /\ exists k cur, t_pc (F th) = CWalk k i cur) ->
  (forall i cl', In i TC -> get_client g' i = Some cl' -> c_released cl' = true -> c_mu cl' = None ->
       c_h cl' = None) ->
  InvC g'.
Proof.
  intros TC I Hold Hmine Hsame Hok Hnew Hcm Hrel.
  (* the client another thread walks on is outside TC *)
  assert (Hoth : forall t' k c cur, t' <> t -> pc_of g t' (CWalk k c cur) ->
            exists cl cl', get_client g c = Some cl /\ get_client g' c = Some cl' /\ cfields cl' = cfields cl /\
                           c_h cl = Some cur /\ c_mu cl = Some t' /\ (k = KRelease -> c_released cl = true)).
  { intros t' k c cur Hne P. destruct (inv_cwalk g I _ _ _ _ P) as (cl & A & B & C & D).
    destruct (in_dec Nat.eq_dec c TC) as [Hi|Hi]. destruct (Hmine _ _ Hi A) as [X|X]; congruence.
    destruct (same_fields _ _ (eq_sym (Hsame c Hi)) cl A) as (cl' & A' & E). exists cl, cl'. auto 10. }
  constructor.
  - auto.
  - intros t' k c cur P. destruct (pcs_new _ _ P) as [(-> & E)|(Hne & P0)].
    + rewrite E in Hnew. destruct Hnew as (cl & A & B & C & D & _). eauto.
    + destruct (Hoth _ _ _ _ Hne P0) as (cl & cl' & A & A' & [= E1 E2 E3] & B & C & D).
      exists cl'. repeat split; try congruence. rewrite E3. auto.
  - intros i cl' t' A B. destruct (in_dec Nat.eq_dec i TC) as [Hi|Hi].
    + destruct (Hcm _ _ _ Hi A B) as (-> & k & cur & E). exists k, cur. rewrite <- E. apply pcs_me'.
    + destruct (same_fields _ _ (Hsame i Hi) cl' A) as (cl & A0 & [= E1 E2 E3]).
      destruct (inv_cmu g I i cl t' A0) as (k & cur & P). congruence.
      destruct (Nat.eq_dec t' t) as [->|Hne].
      * pose proof (pc_of_fun _ _ _ _ P pcs_me) as E. symmetry in E. apply Hold in E. contradiction.
      * exists k, cur. apply pcs_keep; auto.
  - intros i cl' A B C. destruct (in_dec Nat.eq_dec i TC) as [Hi|Hi].
    + eapply Hrel; eauto.
    + destruct (same_fields _ _ (Hsame i Hi) cl' A) as (cl & A0 & [= E1 E2 E3]).
      rewrite E1. apply (inv_rel g I i cl A0); congruence.
  - intros t' k c cur cl' P A Hk. destruct (pcs_new _ _ P) as [(-> & E)|(Hne & P0)].
    + rewrite E in Hnew. destruct Hnew as (cl & A0 & _ & _ & _ & D). assert (cl = cl') by congruence. subst. auto.
    + destruct (Hoth _ _ _ _ Hne P0) as (cl & cl2 & A0 & A' & [= E1 E2 E3] & _). assert (cl2 = cl') by congruence. subst.
      rewrite E3. apply (inv_nrel g I t' k c cur cl P0 A0 Hk).
Qed.

(* ---------------- flight group: the hooks in TH are free or held by t *)
Lemma LF : forall (TH : list nat),
  InvF g -> links_le g g' ->
  (forall h, ~ In h TH -> get_hook g' h = get_hook g h /\ tokens g' h = tokens g h) ->
  (forall h hk, In h TH -> get_hook g h = Some hk -> h_mu hk = None \/ h_mu hk = Some t) ->
  (forall ci rh, borrowed g ci = true -> borrow_ok g (Some ci) rh -> borrow_ok g' (Some ci) rh) ->
  walk_ok g' t (t_pc (F th)) ->
  InvF g'.
Proof.
  intros TH I L Hfr Hmine Hbor Hnew.
  assert (Hbo : forall t' p c rh, pc_of g t' p -> (forall ci, c = Some ci -> borrows ci p = true) ->
            borrow_ok g c rh -> borrow_ok g' c rh).
  { intros t' p [ci|] rh P B; auto. apply Hbor. eapply borrowed_of_pc; eauto. }
  constructor.
  - intros t' p n c cur P. destruct (pcs_new _ _ P) as [(-> & E)|(Hne & P0)].
    + rewrite E in Hnew. exact Hnew.
    + destruct (inv_flight g I _ _ _ _ _ P0) as (hk & A1 & A2 & A3 & A4 & A5 & A6 & A7 & A8).
      destruct (in_dec Nat.eq_dec p TH) as [Hi|Hi].
      * destruct (Hmine _ _ Hi A1) as [X|X]; congruence.
      * destruct (Hfr _ Hi) as (B1 & B2). exists hk. rewrite B1, B2. repeat split; auto.
        eapply path1_mono; eauto.
        apply (Hbo _ _ _ _ P0); auto. intros ci [= ->]. apply Nat.eqb_refl.
  - intros t' p rh c P. destruct (pcs_new _ _ P) as [(-> & E)|(Hne & P0)].
    + rewrite E in Hnew. exact Hnew.
    + apply (Hbo _ _ _ _ P0). intros ci [= ->]. apply Nat.eqb_refl. apply (inv_fmark g I _ _ _ _ P0).
Qed.

(* ---------------- the common instances: nothing of a group changes, or one object does *)
Lemma LH_same :
  InvH g -> hooks g' = hooks g -> (forall h, tokens g' h = tokens g h) ->
  (forall h, wclose h (F th) = wclose h th /\ wcall h (F th) = wcall h th) ->
  (forall h n c cur, t_pc th = FWalk h n c cur -> exists n' c' cur', t_pc (F th) = FWalk h n' c' cur') ->
  InvH g'.
Proof.
  intros I Hh Htok Hw Hfl. apply (LH []); auto.
  - rewrite Hh; auto.
  - intros h _. unfold get_hook. rewrite Hh. destruct (Hw h). auto.
  - intros h n c cur _. apply Hfl.
  - intros h hk' [].
  - intros h [].
Qed.

Lemma LH_one : forall x hk hk',
  InvH g -> get_hook g x = Some hk -> h_mu hk = None -> hooks g' = upd x (fun _ => hk') (hooks g) ->
  (forall h, h <> x -> tokens g' h = tokens g h /\ wclose h (F th) = wclose h th /\ wcall h (F th) = wcall h th) ->
  (forall p n c cur, t_pc th <> FWalk p n c cur) ->
  hook_move x hk hk' (tokens g' x - tokens g x) (wcall x (F th) - wcall x th) (wclose x (F th) - wclose x th) ->
  InvH g'.
Proof.
  intros x hk hk' I Hx Hfree Hh Hoth Hf1 M.
  apply (LH [x]); auto.
  - rewrite Hh, length_upd. auto.
  - intros h Hn. assert (Hne : h <> x) by (intros ->; apply Hn; left; auto).
    rewrite (get_hook_upd g g' x _ h Hh), (proj2 (Nat.eqb_neq x h)) by auto. destruct (Hoth h Hne) as (A & B). auto.
  - intros h n c cur _ E. exfalso. exact (Hf1 _ _ _ _ E).
  - intros h hk2 [<-|[]] Hg2. rewrite (get_hook_upd g g' x _ x Hh), Nat.eqb_refl, Hx in Hg2.
    inversion Hg2; subst hk2; clear Hg2.
    eapply (hook_ok_move g g' x hk hk' _ _ _ (inv_hook g I x hk Hx) Hfree M); try lia.
    rewrite callers_upd; lia. rewrite closers_upd; lia.
  - intros h [<-|[]]. rewrite Hh, length_upd. eapply nth_error_some_lt; eauto.
Qed.

Lemma LC_keep :
  InvC g -> (forall k c cur, t_pc th <> CWalk k c cur) ->
  (forall i, option_map cfields (get_client g' i) = option_map cfields (get_client g i)) ->
  (forall i cl', get_client g' i = Some cl' -> client_ok g' cl') ->
  walk_ok g' t (t_pc (F th)) ->
  InvC g'.
Proof.
  intros I Hold Hsame Hok Hnew. apply (LC []); auto.
  - intros i cl [].
  - intros i cl' t' [].
  - intros i cl' [].
Qed.

Lemma LC_same :
  InvC g -> links_le g g' -> clients g' = clients g -> (forall k c cur, t_pc th <> CWalk k c cur) ->
  walk_ok g' t (t_pc (F th)) -> InvC g'.
Proof.
  intros I L Hc Hold Hnew. unfold get_client in *. apply LC_keep; auto; unfold get_client; rewrite Hc; auto.
  intros i cl' A. eapply client_ok_mono; eauto. apply (inv_client g I _ _ A).
Qed.

Lemma LF_same :
  InvF g -> hooks g' = hooks g -> (forall h, tokens g' h = tokens g h) ->
  (forall ci rh, borrowed g ci = true -> borrow_ok g (Some ci) rh -> borrow_ok g' (Some ci) rh) ->
  walk_ok g' t (t_pc (F th)) -> InvF g'.
Proof.
  intros I Hh Htok Hbor Hnew. apply (LF []); auto.
  - apply links_le_same_hooks; auto.
  - intros h _. unfold get_hook. rewrite Hh. auto.
  - intros h hk [].
Qed.

Lemma LF_one : forall x hk,
  InvF g -> links_le g g' -> get_hook g x = Some hk -> h_mu hk = None ->
  (forall h, h <> x -> get_hook g' h = get_hook g h /\ tokens g' h = tokens g h) ->
  (forall ci rh, borrowed g ci = true -> borrow_ok g (Some ci) rh -> borrow_ok g' (Some ci) rh) ->
  walk_ok g' t (t_pc (F th)) -> InvF g'.
Proof.
  intros x hk I L Hx Hfree Hoth Hbor Hnew. apply (LF [x]); auto.
  - intros h Hn. apply Hoth. intros ->. apply Hn. left; auto.
  - intros h hk2 [<-|[]] A. left. congruence.
Qed.

Lemma walk_ok_same : forall p, hooks g' = hooks g -> clients g' = clients g -> walk_ok g t p -> walk_ok g' t p.
Proof.
  intros p Hh Hc W. pose proof (links_le_same_hooks g g' Hh) as L.
  assert (Hbo : forall c rh, borrow_ok g c rh -> borrow_ok g' c rh) by (intros c rh; apply borrow_ok_same; auto).
  unfold walk_ok, get_hook, get_client, tokens in *. rewrite Hh, Hc.
  destruct p; auto. destruct W as (hk & A1 & A2 & A3 & A4 & A5 & A6 & A7 & A8).
  exists hk. repeat split; auto. eapply path1_mono; eauto.
Qed.

(* ---------------- a thread-only change *)
Lemma inv_thread_only :
  Inv g -> hooks g' = hooks g -> clients g' = clients g -> misuse g' = false ->
  (forall h, wclose h (F th) = wclose h th /\ wcall h (F th) = wcall h th) ->
  same_mutex (t_pc th) (t_pc (F th)) -> walk_ok g t (t_pc (F th)) ->
  Inv g'.
Proof.
  intros I Hh Hc Hm Hw N Hwk.
  assert (Htok : forall h, tokens g' h = tokens g h) by (intros; unfold tokens; rewrite Hc; auto).
  assert (L : links_le g g') by (apply links_le_same_hooks; auto).
  pose proof (walk_ok_same _ Hh Hc Hwk) as Hwk'.
  destruct I as [I0 IH IC IF]. constructor; auto.
  - apply LH_same; auto. intros h n c cur E. rewrite E in N.
    destruct (t_pc (F th)); simpl in N; try (destruct N; contradiction). subst. eauto.
  - apply LC_same; auto. intros k c cur E. rewrite E in N. destruct N; contradiction.
  - apply LF_same; auto. intros ci rh _. apply borrow_ok_same; auto.
Qed.

Lemma LC_one : forall c cl cl',
  InvC g -> links_le g g' -> get_client g c = Some cl -> clients g' = upd c (fun _ => cl') (clients g) ->
  client_free_for c cl (t_pc th) -> client_ok g cl' -> client_at t c cl' (t_pc (F th)) ->
  InvC g' /\ walk_ok g' t (t_pc (F th)).
Proof.
  intros c cl cl' I L Hc Hcl Hold Hok Hat.
  assert (Hgc : forall i, i <> c -> get_client g' i = get_client g i).
  { intros i Hne. rewrite (get_client_upd g g' c _ i Hcl), (proj2 (Nat.eqb_neq c i)); auto. }
  assert (Hgcc : get_client g' c = Some cl').
  { rewrite (get_client_upd g g' c _ c Hcl), Nat.eqb_refl, Hc. auto. }
  assert (Hnew : walk_ok g' t (t_pc (F th))).
  { destruct (t_pc (F th)); simpl in *; auto; try contradiction. destruct Hat as (-> & Hat). eauto. }
  split; auto. apply (LC [c]); auto.
  - intros k c0 cur E. rewrite E in Hold. left. auto.
  - intros i cli [<-|[]] A. assert (cli = cl) by congruence. subst.
    destruct (t_pc th) eqn:E; simpl in Hold; auto; [|contradiction]. subst c0.
    destruct (inv_cwalk g I t k c cur) as (cl0 & A0 & _ & C & _). { rewrite <- E. apply pcs_me. }
    right. congruence.
  - intros i Hn. rewrite Hgc; auto. intros ->. apply Hn. left; auto.
  - intros i cli A. eapply client_ok_mono; eauto. destruct (Nat.eq_dec i c) as [->|Hne].
    + congruence.
    + rewrite Hgc in A; auto. apply (inv_client g I _ _ A).
  - intros i cli t' [<-|[]] A B. assert (cli = cl') by congruence. subst.
    destruct (t_pc (F th)); simpl in Hat; try (destruct Hat; congruence).
    destruct Hat as (-> & _ & C & _). split; [congruence|eauto].
  - intros i cli [<-|[]] A B C. assert (cli = cl') by congruence. subst.
    destruct (t_pc (F th)); simpl in Hat; try (destruct Hat; auto; congruence).
    destruct Hat as (_ & _ & D & _). congruence.
Qed.

(* ---------------- one client changes *)
Lemma inv_client_only : forall c cl cl',
  Inv g -> hooks g' = hooks g -> get_client g c = Some cl -> clients g' = upd c (fun _ => cl') (clients g) ->
  misuse g' = false ->
  (forall h, wclose h (F th) = wclose h th /\ wcall h (F th) = wcall h th) ->
  client_free_for c cl (t_pc th) ->
  c_tgt cl' = c_tgt cl -> (c_released cl' = c_released cl \/ borrowed g c = false) -> client_ok g cl' ->
  client_at t c cl' (t_pc (F th)) ->
  Inv g'.
Proof.
  intros c cl cl' I Hh Hc Hcl Hm Hw Hold Htgt Hrel Hok Hat.
  assert (L : links_le g g') by (apply links_le_same_hooks; auto).
  assert (Htok : forall h, tokens g' h = tokens g h) by (intros; eapply tokens_same_tgt; eauto).
  destruct I as [I0 IH IC IF].
  destruct (LC_one c cl cl' IC L Hc Hcl Hold Hok Hat) as (IC' & Hnew).
  constructor; auto.
  - apply LH_same; auto. intros h n c0 cur E. rewrite E in Hold. contradiction.
  - apply LF_same; auto. eapply borrow_ok_one; eauto.
Qed.

(* ---------------- one hook changes *)
Lemma inv_hook_only : forall x hk hk',
  Inv g -> get_hook g x = Some hk -> h_mu hk = None -> hooks g' = upd x (fun _ => hk') (hooks g) ->
  clients g' = clients g -> misuse g' = false ->
  (forall h, h <> x -> wclose h (F th) = wclose h th /\ wcall h (F th) = wcall h th) ->
  no_mutex (t_pc th) -> no_mutex (t_pc (F th)) -> walk_ok g t (t_pc (F th)) ->
  hook_move x hk hk' 0 (wcall x (F th) - wcall x th) (wclose x (F th) - wclose x th) ->
  Inv g'.
Proof.
  intros x hk hk' I Hx Hfree Hh Hc Hm Hw N1 N2 Hwk M.
  assert (Htok : forall h, tokens g' h = tokens g h) by (intros; unfold tokens; rewrite Hc; auto).
  assert (L : links_le g g').
  { eapply (links_le_upd g g' x hk hk' Hx Hh). unfold forwarded. rewrite (hm_res _ _ _ _ _ _ M), (hm_rh _ _ _ _ _ _ M). auto. }
  assert (Hbo : forall c rh, borrow_ok g c rh -> borrow_ok g' c rh) by (intros c rh; apply borrow_ok_same; auto).
  assert (Hwk' : walk_ok g' t (t_pc (F th))) by (destruct (t_pc (F th)); simpl in *; auto; contradiction).
  assert (Hgh : forall h, h <> x -> get_hook g' h = get_hook g h).
  { intros h Hne. rewrite (get_hook_upd g g' x _ h Hh), (proj2 (Nat.eqb_neq x h)); auto. }
  destruct I as [I0 IH IC IF]. constructor; auto.
  - apply (LH_one x hk hk' IH Hx Hfree Hh).
    + intros h Hne. split; auto.
    + intros p n c cur E. rewrite E in N1. exact N1.
    + rewrite Htok, Z.sub_diag. exact M.
  - apply LC_same; auto. intros k c cur E. rewrite E in N1. exact N1.
  - apply (LF_one x hk); auto.
Qed.

(* ---------------- one hook and one client change *)
Lemma inv_hook_client : forall x hk hk' c cl cl',
  Inv g -> get_hook g x = Some hk -> h_mu hk = None -> hooks g' = upd x (fun _ => hk') (hooks g) ->
  get_client g c = Some cl -> clients g' = upd c (fun _ => cl') (clients g) -> misuse g' = false ->
  (forall h, h <> x -> wclose h (F th) = wclose h th /\ wcall h (F th) = wcall h th) ->
  client_free_for c cl (t_pc th) ->
  (c_tgt cl' = c_tgt cl \/ (c_tgt cl = Some x /\ c_tgt cl' = None /\ c_released cl = true)) ->
  (c_released cl' = c_released cl \/ borrowed g c = false) -> client_ok g cl' ->
  client_at t c cl' (t_pc (F th)) ->
  hook_move x hk hk' (wtok x cl' - wtok x cl) (wcall x (F th) - wcall x th) (wclose x (F th) - wclose x th) ->
  Inv g'.
Proof.
  intros x hk hk' c cl cl' I Hx Hfree Hh Hc Hcl Hm Hw Hold Htgt Hrel Hok Hat M.
  assert (L : links_le g g').
  { eapply (links_le_upd g g' x hk hk' Hx Hh). unfold forwarded. rewrite (hm_res _ _ _ _ _ _ M), (hm_rh _ _ _ _ _ _ M). auto. }
  assert (Htok : forall h, tokens g' h = tokens g h - wtok h cl + wtok h cl').
  { intros. apply (tokens_upd g g' c (fun _ => cl') cl h Hc Hcl). }
  assert (Htok' : forall h, h <> x -> tokens g' h = tokens g h).
  { intros h Hne. rewrite Htok. unfold wtok. destruct Htgt as [E|(E1 & E2 & _)]. rewrite E; lia.
    rewrite E1, E2. simpl. rewrite (proj2 (Nat.eqb_neq x h)); auto. lia. }
  assert (Hgh : forall h, h <> x -> get_hook g' h = get_hook g h).
  { intros h Hne. rewrite (get_hook_upd g g' x _ h Hh), (proj2 (Nat.eqb_neq x h)); auto. }
  destruct I as [I0 IH IC IF].
  destruct (LC_one c cl cl' IC L Hc Hcl Hold Hok Hat) as (IC' & Hnew).
  constructor; auto.
  - apply (LH_one x hk hk' IH Hx Hfree Hh).
    + intros h Hne. destruct (Hw h Hne). auto.
    + intros p n c0 cur E. rewrite E in Hold. exact Hold.
    + rewrite Htok. replace (tokens g x - wtok x cl + wtok x cl' - tokens g x) with (wtok x cl' - wtok x cl) by lia. exact M.
  - apply (LF_one x hk); auto. eapply borrow_ok_one; eauto. destruct Htgt as [E|(_ & _ & E)]; auto.
Qed.
End GENERIC.

(* ---------------------------------------------------------------- facts about walks *)
Lemma tokens_ge_1 : forall g x c cl, get_client g c = Some cl -> c_tgt cl = Some x -> 1 <= tokens g x.
Proof.
  intros g x c cl Hc E. pose proof (sumf_one _ (wtok x) (clients g) c cl (wtok_nonneg x) Hc) as S.
  unfold wtok in S at 1. rewrite E, oeqb_refl in S. exact S.
Qed.

Lemma no_tokens_tgt : forall g x c cl, tokens g x = 0 -> get_client g c = Some cl -> c_tgt cl <> Some x.
Proof. intros g x c cl H Hc E. pose proof (tokens_ge_1 g x c cl Hc E). lia. Qed.

Lemma fwd_free_no_tokens : forall g x hk, InvH g -> get_hook g x = Some hk -> h_mu hk = None ->
  forwarded x hk = true -> tokens g x = 0.
Proof.
  intros g x hk I Hx Hf Hw. destruct (inv_hook g I x hk Hx) as [O1 O2 O3 O4 O5 O6 O7].
  rewrite <- (O1 Hf). auto.
Qed.

Lemma no_fwd_of_hook : forall g x hk b, get_hook g x = Some hk ->
  (forwarded x hk = false \/ h_rh hk = None) -> ~ fwd g x b.
Proof. intros g x hk b Hx H (hk' & A & B & C). assert (hk' = hk) by congruence. subst. destruct H; congruence. Qed.

(* a chain that passes through a hook which is not forwarding ends there *)
Lemma tgt_ok_terminal : forall g T cur hk, get_hook g cur = Some hk -> forwarded cur hk = false ->
  tgt_ok g T cur -> T = Some cur.
Proof.
  intros g [T|] cur hk Hx Hf O; simpl in O.
  - f_equal. eapply reach_noout; eauto. intros b. eapply no_fwd_of_hook; eauto.
  - exfalso. eapply to_nil_noout; eauto.
Qed.

(* the chain of a client passes through a forwarding hook whose mutex is free: the client is not
   accounted there, so it is accounted further down *)
Lemma tgt_ok_hop : forall g c cl cur hk r, InvH g -> get_client g c = Some cl ->
  get_hook g cur = Some hk -> h_mu hk = None -> forwarded cur hk = true -> h_rh hk = Some r ->
  tgt_ok g (c_tgt cl) cur -> tgt_ok g (c_tgt cl) r.
Proof.
  intros g c cl cur hk r I Hc Hx Hmu Hf Hr O. assert (Hfw : fwd g cur r) by (exists hk; auto).
  destruct (c_tgt cl) as [T|] eqn:ET; simpl in *.
  - eapply reach_step_inv; eauto. intros ->.
    eapply (no_tokens_tgt g T c cl); eauto. eapply fwd_free_no_tokens; eauto.
  - eapply to_nil_step; eauto.
Qed.

(* a thread waiting to shut h down excludes a transfer walk out of h: h's mutex is free *)
Lemma waitdone_free : forall g t h hk, Inv g -> pc_of g t (WaitDone h) -> get_hook g h = Some hk ->
  h_mu hk = None.
Proof.
  intros g t h hk I (th & Hth & Hpc) Hx. destruct (h_mu hk) as [t'|] eqn:Hmu; auto. exfalso.
  destruct (inv_hook g (invH g I) h hk Hx) as [O1 O2 O3 O4 O5 O6 O7].
  destruct (O2 t' Hmu) as (n & c & cur & (th' & Hth' & Hpc')).
  assert (t <> t') by (intros ->; congruence).
  pose proof (sumf_two _ (wclose h) (threads g) t t' th th' (wclose_nonneg h) H Hth Hth') as S.
  unfold closers in O5. unfold wclose in S at 1 2. rewrite Hpc, Hpc', Nat.eqb_refl in S.
  destruct (h_refs hk =? 0); lia.
Qed.

(* ---------------------------------------------------------------- allocation (no thread moves) *)
Lemma tokens_app : forall g g' cl h, clients g' = clients g ++ [cl] -> tokens g' h = tokens g h + wtok h cl.
Proof. intros. unfold tokens. rewrite H, sumf_app. simpl. lia. Qed.

Lemma get_client_app : forall g g' cl i, clients g' = clients g ++ [cl] ->
  get_client g' i = if Nat.eqb i (length (clients g)) then Some cl else get_client g i.
Proof. intros. unfold get_client. rewrite H. apply nth_error_app_new. Qed.

(* A new client of hook x, which is new itself or has its mutex free; x's new state hk' accounts for it. *)
Lemma alloc_inv : forall g gA x hk',
  Inv g -> threads gA = threads g -> misuse gA = false ->
  clients gA = clients g ++ [new_client x] -> links_le g gA -> (length (hooks g) <= length (hooks gA))%nat ->
  (forall h, h <> x -> get_hook gA h = get_hook g h) -> get_hook gA x = Some hk' ->
  (forall hk, get_hook g x = Some hk -> h_mu hk = None) -> hook_ok gA x hk' ->
  Inv gA.
Proof.
  intros g gA x hk' I Ht Hm Hcl L Hlen Hgh Hghx Hfree Hok.
  assert (Hpc : forall t p, pc_of gA t p <-> pc_of g t p) by (intros; unfold pc_of; rewrite Ht; tauto).
  assert (Hclo : forall h, closers gA h = closers g h) by (intros; unfold closers; rewrite Ht; auto).
  assert (Hcal : forall h, callers gA h = callers g h) by (intros; unfold callers; rewrite Ht; auto).
  assert (Htok : forall h, h <> x -> tokens gA h = tokens g h).
  { intros h Hne. rewrite (tokens_app g gA _ h Hcl). unfold wtok, new_client. simpl.
    rewrite (proj2 (Nat.eqb_neq x h)); auto. lia. }
  assert (Hgc : forall i cl, get_client g i = Some cl -> get_client gA i = Some cl).
  { intros i cl A. rewrite (get_client_app g gA _ i Hcl), (proj2 (Nat.eqb_neq _ _)); auto.
    apply nth_error_some_lt in A. fold (clients g) in A. lia. }
  assert (Hgc' : forall i cl, get_client gA i = Some cl -> get_client g i = Some cl \/ cl = new_client x).
  { intros i cl A. rewrite (get_client_app g gA _ i Hcl) in A. destruct (Nat.eqb i (length (clients g))); auto.
    right. congruence. }
  assert (Hbo : forall c rh, borrow_ok g c rh -> borrow_ok gA c rh).
  { intros. eapply borrow_ok_frame; eauto. }
  destruct I as [I0 IH IC IF]. constructor; auto.
  - constructor.
    + intros h Hl. assert (x <> h) by (apply nth_error_some_lt in Hghx; fold (hooks gA) in Hghx; lia).
      rewrite Htok, Hclo, Hcal by auto. apply (inv_range g IH). lia.
    + intros h hk2 Hg2. destruct (Nat.eq_dec h x) as [->|Hne]; [congruence|].
      rewrite Hgh in Hg2; auto. destruct (inv_hook g IH h hk2 Hg2) as [O1 O2 O3 O4 O5 O6 O7].
      constructor; auto.
      * rewrite Htok; auto.
      * intros t' A. destruct (O2 t' A) as (n & c & cur & P). exists n, c, cur. apply Hpc; auto.
      * rewrite Hcal; auto.
      * rewrite Hclo; auto.
  - constructor.
    + intros i cl A. destruct (Hgc' i cl A) as [A0| ->].
      * eapply client_ok_mono; eauto. apply (inv_client g IC _ _ A0).
      * unfold client_ok, new_client. simpl. constructor.
    + intros t k c cur P. apply Hpc in P. destruct (inv_cwalk g IC _ _ _ _ P) as (cl & A & B). eauto.
    + intros i cl t A B. destruct (Hgc' i cl A) as [A0| ->]; [|discriminate].
      destruct (inv_cmu g IC _ _ _ A0 B) as (k & cur & P). exists k, cur. apply Hpc; auto.
    + intros i cl A B C. destruct (Hgc' i cl A) as [A0| ->]; [|discriminate]. apply (inv_rel g IC i cl A0 B C).
    + intros t k c cur cl P A Hk. apply Hpc in P. destruct (inv_cwalk g IC _ _ _ _ P) as (cl0 & A0 & _).
      assert (cl = cl0) by (apply Hgc in A0; congruence). subst. apply (inv_nrel g IC t k c cur cl0 P A0 Hk).
  - constructor.
    + intros t p n c cur P. apply Hpc in P.
      destruct (inv_flight g IF _ _ _ _ _ P) as (hp & A1 & A2 & A3 & A4 & A5 & A6 & A7 & A8).
      assert (p <> x) by (intros ->; rewrite (Hfree hp A1) in A2; discriminate).
      exists hp. rewrite Hgh, Htok; auto. repeat split; auto. eapply path1_mono; eauto.
    + intros t p rh c P. apply Hpc in P. apply Hbo. apply (inv_fmark g IF _ _ _ _ P).
Qed.

(* A new client referring to the live hook x, with x.refs incremented (AddRef, weak AddRef). *)
Lemma alloc_client : forall g gA x hk,
  Inv g -> get_hook g x = Some hk -> h_mu hk = None -> 1 <= h_refs hk ->
  hooks gA = upd x (fun _ => hk_refs (h_refs hk + 1) hk) (hooks g) ->
  clients gA = clients g ++ [new_client x] -> threads gA = threads g -> misuse gA = false ->
  Inv gA.
Proof.
  intros g gA x hk I Hx Hmu Hr Hh Hcl Ht Hm.
  destruct (inv_hook g (invH g I) x hk Hx) as [O1 O2 O3 O4 O5 O6 O7].
  assert (Hnf : forwarded x hk = false) by (destruct (forwarded x hk); auto; specialize (O7 eq_refl); lia).
  apply (alloc_inv g gA x (hk_refs (h_refs hk + 1) hk)); auto.
  - eapply (links_le_upd g gA x hk _ Hx Hh). congruence.
  - rewrite Hh, length_upd. auto.
  - intros h Hne. rewrite (get_hook_upd g gA x _ h Hh), (proj2 (Nat.eqb_neq x h)); auto.
  - rewrite (get_hook_upd g gA x _ x Hh), Nat.eqb_refl, Hx. auto.
  - congruence.
  - constructor; cbn [h_refs h_calls h_done h_shut h_mu hk_refs]; auto.
    + intros _. rewrite (tokens_app g gA _ x Hcl), (O1 Hmu). unfold wtok, new_client. simpl. rewrite Nat.eqb_refl. lia.
    + rewrite Hmu. discriminate.
    + unfold callers. rewrite Ht. auto.
    + rewrite O4. destruct (h_refs hk =? 0) eqn:E1; destruct (h_refs hk + 1 =? 0) eqn:E2; auto; lia.
    + unfold closers. rewrite Ht. fold (closers g x).
      destruct (h_refs hk =? 0) eqn:E1; destruct (h_refs hk + 1 =? 0) eqn:E2; lia.
    + unfold forwarded in *. cbn. rewrite Hnf. discriminate.
Qed.

(* A new hook (NewClient / NewPromisedClient) with its first client. *)
Lemma alloc_hook : forall g res rh,
  Inv g ->
  let L := length (hooks g) in
  (res = false \/ rh = Some L) ->
  Inv (set_clients (clients g ++ [new_client L]) (set_hooks (hooks g ++ [mkHook 1 0 res rh false 0 None]) g)).
Proof.
  intros g res rh I L Hnf0. subst L. set (L := length (hooks g)) in *.
  destruct (inv_range g (invH g I) L (le_n _)) as (RT & RC & RK).
  assert (HN : get_hook g L = None) by (apply nth_error_ge_none; auto).
  eapply (alloc_inv g _ L (mkHook 1 0 res rh false 0 None) I); try reflexivity.
  - apply (inv_nomis g I).
  - intros a ha A B. exists ha. unfold get_hook in *. cbn. rewrite nth_error_app1; auto. eapply nth_error_some_lt; eauto.
  - cbn. rewrite app_length. lia.
  - intros h Hne. unfold get_hook. cbn. rewrite nth_error_app_new. fold L. rewrite (eqb_neq_false h L); auto.
  - unfold get_hook. cbn. rewrite nth_error_app_new. fold L. rewrite Nat.eqb_refl. auto.
  - congruence.
  - constructor; cbn [h_refs h_calls h_done h_shut h_mu]; auto; try discriminate; try lia.
    + intros _. unfold tokens. cbn. rewrite sumf_app. fold (tokens g L). rewrite RT. unfold wtok. simpl. rewrite Nat.eqb_refl. lia.
    + unfold closers in *. cbn [threads set_clients set_hooks]. rewrite RC. reflexivity.
    + unfold forwarded. cbn. destruct Hnf0 as [->| ->]; [discriminate|]. rewrite oeqb_refl, andb_false_r. discriminate.
Qed.

(* ---------------------------------------------------------------- retarget *)
Definition rt1 (p : nat) (q : option nat) (c : client) : client :=
  if oeqb (c_tgt c) (Some p) then cl_tgt q c else c.

Lemma retarget_clients : forall p q g, clients (retarget p q g) = map (rt1 p q) (clients g).
Proof. reflexivity. Qed.

Lemma wtok_rt1 : forall p q h c, q <> Some p ->
  wtok h (rt1 p q c) =
  if Nat.eqb h p then 0 else wtok h c + (if oeqb q (Some h) then wtok p c else 0).
Proof.
  intros p q h c Hq. unfold rt1, wtok.
  destruct (oeqb (c_tgt c) (Some p)) eqn:E1.
  - apply oeqb_true in E1. cbn [c_tgt cl_tgt]. rewrite E1.
    destruct (Nat.eqb h p) eqn:E2.
    + apply Nat.eqb_eq in E2; subst h. apply oeqb_false in Hq. rewrite Hq. auto.
    + assert (oeqb (Some p) (Some h) = false).
      { simpl. rewrite Nat.eqb_sym. auto. }
      rewrite H. destruct (oeqb q (Some h)); lia.
  - destruct (Nat.eqb h p) eqn:E2.
    + apply Nat.eqb_eq in E2; subst h. rewrite E1. auto.
    + destruct (oeqb q (Some h)); lia.
Qed.

Lemma tokens_retarget : forall g g' p q h, clients g' = map (rt1 p q) (clients g) -> q <> Some p ->
  tokens g' h = if Nat.eqb h p then 0 else tokens g h + (if oeqb q (Some h) then tokens g p else 0).
Proof.
  intros g g' p q h Hcl Hq. unfold tokens. rewrite Hcl, sumf_map.
  rewrite (sumf_ext _ _ (fun c => if Nat.eqb h p then 0 else wtok h c + (if oeqb q (Some h) then wtok p c else 0))).
  2: { intros. apply wtok_rt1; auto. }
  destruct (Nat.eqb h p).
  - apply sumf_all_zero. auto.
  - rewrite sumf_plus. destruct (oeqb q (Some h)); auto.
    rewrite (sumf_all_zero _ (fun _ => 0)); auto.
Qed.

Lemma get_client_map : forall g g' f i, clients g' = map f (clients g) ->
  get_client g' i = option_map f (get_client g i).
Proof. intros. unfold get_client. rewrite H. apply nth_error_map. Qed.

Lemma rt1_fields : forall p q c, c_h (rt1 p q c) = c_h c /\ c_mu (rt1 p q c) = c_mu c /\
  c_released (rt1 p q c) = c_released c.
Proof. intros. unfold rt1. destruct (oeqb _ _); auto. Qed.

Lemma rt1_tgt : forall p q c, c_tgt (rt1 p q c) = if oeqb (c_tgt c) (Some p) then q else c_tgt c.
Proof. intros. unfold rt1. destruct (oeqb _ _); auto. Qed.

(* tgt_ok survives retargeting when everything that reached p reaches the new target *)
Lemma tgt_ok_retarget : forall g g' p q T x, links_le g g' ->
  (forall y, reach g' y p -> tgt_ok g' q y) ->
  tgt_ok g T x -> tgt_ok g' (if oeqb T (Some p) then q else T) x.
Proof.
  intros g g' p q T x L Hq H. destruct (oeqb T (Some p)) eqn:E.
  - apply oeqb_true in E; subst T. simpl in H. apply Hq. eapply reach_mono; eauto.
  - eapply tgt_ok_mono; eauto.
Qed.

Lemma client_ok_retarget : forall g g' p q cl, links_le g g' ->
  (forall y, reach g' y p -> tgt_ok g' q y) ->
  client_ok g cl -> client_ok g' (rt1 p q cl).
Proof.
  intros g g' p q cl L Hq H. unfold client_ok in *. destruct (rt1_fields p q cl) as (E1 & _).
  rewrite E1, rt1_tgt. destruct (c_h cl) as [x|].
  - apply (tgt_ok_retarget g g' p q _ x L Hq H).
  - rewrite H. simpl. auto.
Qed.

Lemma borrow_ok_retarget : forall g g' p q ci rh, links_le g g' ->
  clients g' = map (rt1 p q) (clients g) ->
  (forall y, reach g' y p -> tgt_ok g' q y) ->
  borrow_ok g (Some ci) rh -> borrow_ok g' (Some ci) rh.
Proof.
  intros g g' p q ci rh L Hcl Hq (cl & B1 & B2 & B3).
  exists (rt1 p q cl). rewrite (get_client_map g g' _ ci Hcl), B1. simpl.
  destruct (rt1_fields p q cl) as (_ & _ & E3). rewrite E3, rt1_tgt. repeat split; auto.
  destruct rh as [y|].
  - apply (tgt_ok_retarget g g' p q _ y L Hq B3).
  - rewrite B3. simpl. auto.
Qed.

Lemma LC_map : forall g g' t th F p q,
  nth_error (threads g) t = Some th -> threads g' = upd t F (threads g) ->
  InvC g -> links_le g g' -> clients g' = map (rt1 p q) (clients g) ->
  (forall y, reach g' y p -> tgt_ok g' q y) ->
  (forall k c cur, t_pc th <> CWalk k c cur) -> walk_ok g' t (t_pc (F th)) -> InvC g'.
Proof.
  intros g g' t th F p q Hth Ht I L Hcl Hq Hold Hnew.
  assert (Hgc : forall i, get_client g' i = option_map (rt1 p q) (get_client g i)).
  { intros. apply get_client_map; auto. }
  apply (LC_keep g g' t th F Hth Ht); auto.
  - intros i. rewrite Hgc. destruct (get_client g i) as [cl|]; simpl; auto.
    unfold cfields. destruct (rt1_fields p q cl) as (-> & -> & ->). reflexivity.
  - intros i cl' A. rewrite Hgc in A. destruct (get_client g i) as [cl|] eqn:E; simpl in A; [|discriminate].
    inversion A; subst cl'. eapply client_ok_retarget; eauto. apply (inv_client g I _ _ E).
Qed.

Lemma fmark_body_misuse : forall fixed t p rh c hk g,
  misuse g = true -> misuse (fmark_body fixed t p rh c hk g) = true.
Proof.
  intros. unfold fmark_body.
  repeat match goal with |- context[match ?x with _ => _ end] => destruct x end; cbn; auto.
Qed.
