(* CapLinks.v — how a step changes the resolution graph: only Fulfill's marking step adds an
   edge (from a hook that had none), every other step leaves all links as they are. *)
From Coq Require Import ZArith List Bool Arith Lia.
From CV Require Import Cap.Cap Cap.CapInv Cap.CapLemmas Cap.CapStep.
Import ListNotations.
Open Scope nat_scope.

Definition link (hk : hook) : bool * option nat := (h_resolved hk, h_rh hk).

(* hook a keeps its link fields, or is new and not forwarding *)
Definition links_same (g g' : config) : Prop :=
  forall a, option_map link (get_hook g' a) = option_map link (get_hook g a) \/
            (get_hook g a = None /\ exists hk', get_hook g' a = Some hk' /\ forwarded a hk' = false).

Lemma forwarded_link : forall a hk hk', link hk' = link hk -> forwarded a hk' = forwarded a hk /\ h_rh hk' = h_rh hk.
Proof. unfold link, forwarded. intros a hk hk' H. inversion H. rewrite H1, H2. auto. Qed.

Lemma links_same_fwd : forall g g' a b, links_same g g' -> (fwd g' a b <-> fwd g a b).
Proof.
  intros g g' a b L. destruct (L a) as [E|(N & hk' & A & B)].
  - split; intros (hk & A & B & C).
    + rewrite A in E. simpl in E. destruct (get_hook g a) as [hk0|] eqn:E0; simpl in E; [|discriminate].
      inversion E. destruct (forwarded_link a hk0 hk) as (F1 & F2).
      { unfold link. congruence. }
      exists hk0. repeat split; congruence.
    + rewrite A in E. simpl in E. destruct (get_hook g' a) as [hk0|] eqn:E0; simpl in E; [|discriminate].
      inversion E. destruct (forwarded_link a hk hk0) as (F1 & F2).
      { unfold link. congruence. }
      exists hk0. repeat split; congruence.
  - split; intros (hk & A' & B' & C').
    + congruence.
    + congruence.
Qed.

Lemma links_same_le : forall g g', links_same g g' -> links_le g g'.
Proof.
  intros g g' L a hk A B. destruct (L a) as [E|(N & _)]; [|congruence].
  rewrite A in E. simpl in E. destruct (get_hook g' a) as [hk0|] eqn:E0; simpl in E; [|discriminate].
  inversion E. destruct (forwarded_link a hk hk0) as (F1 & F2). { unfold link; congruence. }
  exists hk0. repeat split; congruence.
Qed.

Lemma links_same_reach : forall g g' a b, links_same g g' -> (reach g' a b <-> reach g a b).
Proof.
  intros g g' a b L. split; induction 1; try constructor.
  - eapply reach_left; eauto. apply (links_same_fwd g g' a m L); auto.
  - eapply reach_left; eauto. apply (links_same_fwd g g' a m L); auto.
Qed.

(* closes links_same g g' at a leaf of [step] other than Fulfill's marking: the leaf writes hooks only through
   updates that keep (h_resolved, h_rh), or appends a hook that is not forwarding *)
Ltac ls_tac :=
  let a := fresh "a" in intros a; unfold get_hook in *; norm_cfg;
  repeat rewrite nth_error_upd; repeat rewrite nth_error_app_new;
  repeat match goal with
  | |- context[Nat.eqb ?x ?y] => let E := fresh "E" in destruct (Nat.eqb x y) eqn:E;
        [apply Nat.eqb_eq in E; subst|]
  end;
  first [ left; reflexivity
        | left; match goal with H : nth_error (hooks _) ?x = Some _ |- _ => rewrite H; reflexivity end
        | left; match goal with H : nth_error (hooks _) ?x = Some _ |- _ => rewrite !H; reflexivity end
        | left; rewrite ?nth_error_upd; repeat match goal with
                | H : nth_error (hooks _) ?x = Some _ |- _ => rewrite !H
                | |- context[Nat.eqb ?x ?y] => destruct (Nat.eqb x y)
                | |- context[nth_error (hooks ?g) ?x] => destruct (nth_error (hooks g) x)
                end; reflexivity
        | right; split; [apply nth_error_ge_none; lia | eexists; split; [reflexivity|];
                         unfold forwarded; cbn [h_resolved h_rh]; rewrite ?oeqb_refl; reflexivity] ].

(* a thread is about to mark an unresolved promise, or not *)
Lemma fmark_dec : forall g th,
  (forall p rh c hk, t_pc th = FMark p rh c -> get_hook g p = Some hk -> h_resolved hk = true) \/
  (exists p rh c hk, t_pc th = FMark p rh c /\ get_hook g p = Some hk /\ h_resolved hk = false).
Proof.
  intros g th. destruct (t_pc th); try (left; intros; discriminate).
  destruct (get_hook g p) as [hk|] eqn:Hp; [destruct (h_resolved hk) eqn:Hr|]; [left|right; eauto 8|left];
  intros p0 rh0 c0 hk0 [= <- <- <-] A; congruence.
Qed.

(* every step except Fulfill's marking of an unresolved promise *)
Lemma step_links_plain : forall fixed g t g' th,
  step fixed g t = Some g' -> nth_error (threads g) t = Some th ->
  (forall p rh c hk, t_pc th = FMark p rh c -> get_hook g p = Some hk -> h_resolved hk = true) ->
  links_same g g'.
Proof.
  intros fixed g t g' th Hs Hth Hnf. step_inv Hth Hs.
  all: try match goal with Hr : h_resolved _ = false |- _ => rewrite (Hnf _ _ _ _ ltac:(eassumption) ltac:(eassumption)) in Hr; discriminate end.
  all: open_ops; ls_tac.
Qed.

(* Fulfill's marking step: hook p (unresolved, hence without an outgoing edge) becomes resolved
   to rh; no other hook changes; and unless the step is flagged as misuse, rh does not lead
   back to p *)
Lemma step_links_fmark : forall fixed g t g' th p rh c hk,
  step fixed g t = Some g' -> nth_error (threads g) t = Some th -> t_pc th = FMark p rh c ->
  get_hook g p = Some hk -> h_resolved hk = false ->
  (forall a, a <> p -> get_hook g' a = get_hook g a) /\
  (exists hk', get_hook g' p = Some hk' /\ h_resolved hk' = true /\ h_rh hk' = rh) /\
  (misuse g' = false -> resolves_to_cycle g rh p = false) /\
  length (hooks g') = length (hooks g).
Proof.
  intros fixed g t g' th p rh c hk Hs Hth Hpc Hp Hr. unfold step in Hs.
  rewrite Hth, Hpc, Hp in Hs. destruct (h_mu hk); [discriminate|]. rewrite Hr in Hs.
  inversion Hs; subst g'; clear Hs.
  split; [|split; [|split]].
  - intros a Hne. unfold fmark_body, close_done. destr_goal; unfold get_hook; norm_cfg;
    rewrite ?nth_error_upd_neq; auto.
  - unfold fmark_body, close_done. destr_goal; inv_some; unfold get_hook in *; norm_cfg;
    rewrite nth_error_upd_eq, Hp; cbn; eexists; split; try reflexivity; split; reflexivity.
  - intros Hm. destruct (resolves_to_cycle g rh p) eqn:E; auto.
    rewrite fmark_body_misuse in Hm. discriminate. reflexivity.
  - unfold fmark_body, close_done. destr_goal; norm_cfg; rewrite ?length_upd; destruct (resolves_to_cycle g rh p); reflexivity.
Qed.
