(* CapRefuted.v — the code as found (variant fixed = false): ClientPromise.Fulfill released the
   promise hook's mutex before it locked the target, so the references were "in flight" with no
   lock held.  Witness (found by the correspondence run on the unrepaired code, minimised):
     setup    : h0 = NewClient, c0;  P = NewPromisedClient, c1
     thread 1 : Fulfill(P, c0)        thread 2 : c1.Release()
   schedule: Fulfill marks P resolved and unlocks it; Release(c1) walks through P to h0,
   decrements h0.refs 1 -> 0 and shuts h0 down; then Fulfill adds P's reference to h0.
   h0 has been shut down although c0 still refers to it (refs = 1, shut = 1).
   The same programs under the repaired variant cannot take this schedule. *)
From Coq Require Import ZArith List Bool Arith Lia.
From CV Require Import Cap.Cap Cap.CapInv.
Import ListNotations.
Open Scope Z_scope.

Lemma run_reachable : forall fixed sched g0 g k g', reachable fixed g0 g ->
  run fixed g sched k = (g', None) -> reachable fixed g0 g'.
Proof.
  intros fixed sched g0. induction sched as [|t r IH]; intros g k g' R H; simpl in H.
  - inversion H; subst. exact R.
  - destruct (step fixed g t) as [g1|] eqn:E; [|discriminate]. eapply IH; [|exact H]. eapply reach_step; eauto.
Qed.

Definition refuted_progs : list (list op) :=
  [ [ONew 0; ONewPromise 1 0]; [OFulfill 0 0]; [ORelease 1] ]%nat.
Definition refuted_sched : list nat := [0;0;1;1;2;2;1;2;2;2;1;1]%nat.

Definition shut_with_refs (g : config) : bool :=
  existsb (fun hk => (0 <? h_refs hk) && (1 <=? h_shut hk)) (hooks g).

(* shutdown_after_last / shutdown_once do NOT hold for the code as found *)
Example prefix_refuted :
  exists g, reachable false (init refuted_progs) g /\ misuse g = false /\
            (forall th, In th (threads g) -> unfinished th = false) /\
            exists hk, get_hook g 0%nat = Some hk /\ h_refs hk = 1 /\ h_shut hk = 1.
Proof.
  eexists. split.
  { eapply run_reachable with (sched := refuted_sched) (k := 0%nat). constructor. vm_compute. reflexivity. }
  split. reflexivity. split.
  - intros th Hin. simpl in Hin. repeat destruct Hin as [<-|Hin]; try reflexivity. contradiction.
  - eexists. split. reflexivity. split; reflexivity.
Qed.

(* the repaired variant refuses that schedule: after Fulfill has marked P, Release(c1) cannot
   lock P until the transfer is complete *)
Example fixed_blocks_schedule :
  snd (run true (init refuted_progs) refuted_sched 0) = Some 7%nat.
Proof. vm_compute. reflexivity. Qed.

(* non-vacuity of the theorems for the repaired variant: the same programs, run to completion,
   end with h0 alive (c0's reference; c1's was transferred and then released) and P shut down
   exactly once *)
Definition fixed_sched : list nat := [0;0;1;1;1;1;1;2;2;2;2]%nat.
Example fixed_outcome :
  exists g, run true (init refuted_progs) fixed_sched 0 = (g, None) /\ misuse g = false /\
            map (fun hk => (h_refs hk, h_shut hk)) (hooks g) = [(1, 0); (0, 1)].
Proof. eexists. split. vm_compute. reflexivity. split; reflexivity. Qed.

(* ---------------------------------------------------------------- the "early unlock" variant *)
(* Seeded mutation C10-r2-1: Fulfill releases cp.h.mu right after it has locked the first hook
   of the target chain.  If that hook is an already resolved promise hook (the client passed
   to Fulfill has a stale c.h), resolveHook unlocks it before it locks the real target, so for
   a moment no mutex on the path is held while the references are in flight.  Witness (found
   by the exhaustive racing-point enumeration of the harness on the mutated code):
     setup    : h0,ct = NewClient; PB,cb = NewPromisedClient; PA,ca = NewPromisedClient;
                PB.Fulfill(ct); ct.Release()        (cb.h is stale: PB -> h0, h0.refs = 1)
     thread 1 : PA.Fulfill(cb)        thread 2 : ca.Release()
   ca.Release walks PA -> PB -> h0 inside the window and takes h0.refs to 0: h0 is shut down
   although cb still refers to it. *)
Lemma run_with_reachable : forall stp sched g0 g g', reachable_with stp g0 g ->
  run_with stp g sched = Some g' -> reachable_with stp g0 g'.
Proof.
  intros stp sched g0. induction sched as [|t r IH]; intros g g' R H; simpl in H.
  - inversion H; subst. exact R.
  - destruct (stp g t) as [g1|] eqn:E; [|discriminate]. eapply IH; [|exact H]. eapply reachw_step; eauto.
Qed.

Definition early_progs : list (list op) :=
  [ [ONew 0; ONewPromise 1 0; ONewPromise 2 1; OFulfill 0 0; ORelease 0]; [OFulfill 1 1]; [ORelease 2] ]%nat.
Definition early_sched : list nat := [0;0;0;0;0;0;0;0;0;0;0;1;1;1;2;2;1;2;2;2;2;1;1]%nat.

Example early_unlock_refuted :
  exists g, reachable_with step_early (init early_progs) g /\ misuse g = false /\
            (forall th, In th (threads g) -> unfinished th = false) /\
            exists hk, get_hook g 0%nat = Some hk /\ h_refs hk = 1 /\ h_shut hk = 1.
Proof.
  eexists. split.
  { eapply run_with_reachable with (sched := early_sched). constructor. vm_compute. reflexivity. }
  split. reflexivity. split.
  - intros th Hin. simpl in Hin. repeat destruct Hin as [<-|Hin]; try reflexivity. contradiction.
  - eexists. split. reflexivity. split; reflexivity.
Qed.

(* the repaired variant refuses that schedule (ca.Release cannot get through PA) *)
Example fixed_blocks_early_schedule :
  snd (run true (init early_progs) early_sched 0) = Some 17%nat.
Proof. vm_compute. reflexivity. Qed.
