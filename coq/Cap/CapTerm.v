(* CapTerm.v — termination: no contract-respecting execution of the model is infinite.
   Measure (lexicographic): (A) operations not yet started, (B) promises not yet resolved,
   (C) sum over the threads of stage * D + rank of the hook a walking thread is about to lock,
   where rank is a ranking of the acyclic resolution graph and D exceeds every rank. *)
From Coq Require Import ZArith List Bool Arith Lia Wf_nat.
From CV Require Import Cap.Cap Cap.CapInv Cap.CapLemmas Cap.CapStep Cap.CapLinks Cap.CapWf Cap.CapProofs Cap.CapLive.
Import ListNotations.
Open Scope nat_scope.

Fixpoint sumn {A} (f : A -> nat) (l : list A) : nat :=
  match l with [] => 0 | x :: r => f x + sumn f r end.

Lemma sumn_upd : forall A (f : A -> nat) (l : list A) n k x,
  nth_error l n = Some x -> sumn f (upd n k l) + f x = sumn f l + f (k x).
Proof.
  induction l as [|a l IH]; intros [|n] k x H; simpl in *; try discriminate.
  - inversion H; subst. lia.
  - pose proof (IH _ k _ H). lia.
Qed.

(* how far an operation still is from Idle, a hop of a walk not counted: CLock 5, its walk 4, InCall 3, CallFin 2,
   WaitDone 1.  IsSame's first lock and walk (KSame1) are followed by the lock and walk of the second client
   (KSame2, at 5 and 4), so they stand at 7 and 6; Fulfill goes FLock 7, FMark 6, transfer walk 4. *)
Definition stage (p : pc) : nat :=
  match p with
  | Idle => 0
  | WaitDone _ => 1
  | CallFin _ _ => 2
  | InCall _ _ => 3
  | CWalk (KSame1 _) _ _ => 6
  | CWalk _ _ _ => 4
  | CLock (KSame1 _) _ => 7
  | CLock _ _ => 5
  | WWalk _ _ _ => 4
  | FLock _ _ => 7
  | FMark _ _ _ => 6
  | FWalk _ _ _ _ => 4
  end.

Definition wcur (p : pc) : option nat :=
  match p with
  | CWalk _ _ cur | WWalk _ _ cur | FWalk _ _ _ cur => Some cur
  | _ => None
  end.

(* step_own_decr at one leaf of [step]: the new pc has a lower stage (left), or it is the next hop of the same
   walk, one edge down the resolution graph (right) *)
Ltac own_tac :=
  eexists; split; [reflexivity|]; split; [reflexivity|];
  split; [rewrite ?length_upd, ?map_length; reflexivity|];
  cbn [t_pc stage wcur];
  first [ left; split; [cbn [stage]; lia | olt_tac]
        | right; split; [reflexivity|]; do 2 eexists; split; [reflexivity|]; split; [reflexivity|];
          eexists; split; [eassumption|]; split; assumption ].

(* a step that neither starts an operation nor marks an unresolved promise: the thread moves to
   a lower stage, or hops one edge down the resolution graph within the same stage *)
Lemma step_own_decr : forall fixed g t g' th,
  WF g -> step fixed g t = Some g' -> nth_error (threads g) t = Some th -> t_pc th <> Idle ->
  (forall p rh c hk, t_pc th = FMark p rh c -> get_hook g p = Some hk -> h_resolved hk = true) ->
  exists F, threads g' = upd t F (threads g) /\ t_prog (F th) = t_prog th /\
    length (hooks g') = length (hooks g) /\
    ((stage (t_pc (F th)) < stage (t_pc th) /\ olt (wcur (t_pc (F th))) (length (hooks g))) \/
     (stage (t_pc (F th)) = stage (t_pc th) /\
      exists x y, wcur (t_pc th) = Some x /\ wcur (t_pc (F th)) = Some y /\ fwd g x y)).
Proof.
  intros fixed g t g' th W Hs Hth Hni Hnf. step_inv Hth Hs.
  all: try congruence.
  all: try match goal with Hr : h_resolved _ = false |- _ => rewrite (Hnf _ _ _ _ ltac:(eassumption) ltac:(eassumption)) in Hr; discriminate end.
  all: match goal with H : t_pc _ = _ |- _ => rewrite H end; open_ops; saturate W.
  all: solve [own_tac].
Qed.

(* starting an operation consumes it from the thread's program *)
Lemma step_idle_shape : forall fixed g t g' th,
  step fixed g t = Some g' -> nth_error (threads g) t = Some th -> t_pc th = Idle ->
  exists F o, threads g' = upd t F (threads g) /\ t_prog th = o :: t_prog (F th).
Proof.
  intros fixed g t g' th Hs Hth Hpc. unfold step in Hs. rewrite Hth, Hpc in Hs.
  destruct (t_prog th) as [|o rest] eqn:Hprog; [discriminate|]. inversion Hs; subst g'; clear Hs.
  unfold begin_op, same_second. destr_goal; norm_cfg; rewrite upd_upd; do 2 eexists; split; reflexivity.
Qed.

(* marking an unresolved promise: the thread keeps its program *)
Lemma step_fmark_shape : forall fixed g t g' th p rh c hk,
  step fixed g t = Some g' -> nth_error (threads g) t = Some th -> t_pc th = FMark p rh c ->
  get_hook g p = Some hk -> h_resolved hk = false ->
  exists F, threads g' = upd t F (threads g) /\ t_prog (F th) = t_prog th.
Proof.
  intros fixed g t g' th p rh c hk Hs Hth Hpc Hp Hr. unfold step in Hs.
  rewrite Hth, Hpc, Hp in Hs. destruct (h_mu hk); [discriminate|]. rewrite Hr in Hs.
  inversion Hs; subst g'; clear Hs.
  unfold fmark_body, close_done. destr_goal; norm_cfg; eexists; split; reflexivity.
Qed.

(* ---------------------------------------------------------------- the measure *)
Definition mA (g : config) : nat := sumn (fun th => length (t_prog th)) (threads g).
Definition mB (g : config) : nat := sumn (fun hk => if h_resolved hk then 0 else 1) (hooks g).
Definition term (D : nat) (rank : nat -> nat) (p : pc) : nat :=
  stage p * D + match wcur p with Some x => rank x | None => 0 end.
Definition mC (D : nat) (rank : nat -> nat) (g : config) : nat :=
  sumn (fun th => term D rank (t_pc th)) (threads g).

Fixpoint maxrank (rank : nat -> nat) (n : nat) : nat :=
  match n with O => 0 | S m => Nat.max (rank m) (maxrank rank m) end.

Lemma maxrank_bound : forall rank n x, x < n -> rank x <= maxrank rank n.
Proof.
  induction n; intros x H. lia. simpl. destruct (Nat.eq_dec x n) as [->|]. lia.
  assert (x < n) by lia. specialize (IHn x H0). lia.
Qed.

Lemma nth_error_ext : forall A (l l' : list A), (forall n, nth_error l n = nth_error l' n) -> l = l'.
Proof.
  induction l as [|a l IH]; intros [|b l'] H; auto.
  - specialize (H 0). discriminate.
  - specialize (H 0). discriminate.
  - pose proof (H 0) as H0. simpl in H0. inversion H0; subst. f_equal. apply IH. intros n. apply (H (S n)).
Qed.

Lemma mB_plain : forall g g', links_same g g' -> length (hooks g') = length (hooks g) -> mB g' = mB g.
Proof.
  intros g g' L Hl. unfold mB.
  assert (E : map link (hooks g') = map link (hooks g)).
  { apply nth_error_ext. intros n. rewrite !nth_error_map. destruct (L n) as [E|(N & hk' & A & _)]; auto.
    unfold get_hook in *. apply nth_error_some_lt in A. apply nth_error_None in N. lia. }
  assert (G : forall hs, sumn (fun hk => if h_resolved hk then 0 else 1) hs =
                         sumn (fun l : bool * option nat => if fst l then 0 else 1) (map link hs)).
  { induction hs; simpl; auto. }
  rewrite !G, E. reflexivity.
Qed.

Lemma mB_fmark : forall g g' p hk hk',
  (forall a, a <> p -> get_hook g' a = get_hook g a) -> get_hook g p = Some hk -> h_resolved hk = false ->
  get_hook g' p = Some hk' -> h_resolved hk' = true -> length (hooks g') = length (hooks g) ->
  mB g' < mB g.
Proof.
  intros g g' p hk hk' Hoth Hp Hr Hp' Hr' Hl.
  assert (E : hooks g' = upd p (fun _ => hk') (hooks g)).
  { apply nth_error_ext. intros n. rewrite nth_error_upd. destruct (Nat.eqb p n) eqn:En.
    - apply Nat.eqb_eq in En; subst n. unfold get_hook in *. rewrite Hp', Hp. reflexivity.
    - apply Nat.eqb_neq in En. apply (Hoth n). auto. }
  unfold mB. rewrite E.
  pose proof (sumn_upd _ (fun hk => if h_resolved hk then 0 else 1) (hooks g) p (fun _ => hk') hk Hp) as S.
  cbv beta in S. rewrite Hr, Hr' in S. lia.
Qed.

(* ---------------------------------------------------------------- well-foundedness *)
Definition Rstep (g' g : config) : Prop := exists t, step true g t = Some g' /\ misuse g' = false.

Lemma term_bound : forall D rank p n, 0 < D -> (forall x, x < n -> rank x < D) -> olt (wcur p) n ->
  term D rank p < (stage p + 1) * D.
Proof.
  intros D rank p n H0 HD Ho. unfold term. destruct (wcur p) as [x|]; simpl in Ho.
  - specialize (HD x Ho). lia.
  - lia.
Qed.

Lemma pc_eq_idle_dec : forall p : pc, {p = Idle} + {p <> Idle}.
Proof. destruct p; try (right; discriminate). left; reflexivity. Qed.

Lemma mA_upd : forall g g' t F th, threads g' = upd t F (threads g) -> nth_error (threads g) t = Some th ->
  mA g' + length (t_prog th) = mA g + length (t_prog (F th)).
Proof. intros. unfold mA. rewrite H. apply (sumn_upd _ (fun th => length (t_prog th)) _ _ F th H0). Qed.

Lemma mC_upd : forall D rank g g' t F th, threads g' = upd t F (threads g) -> nth_error (threads g) t = Some th ->
  mC D rank g' + term D rank (t_pc th) = mC D rank g + term D rank (t_pc (F th)).
Proof. intros. unfold mC. rewrite H. apply (sumn_upd _ (fun th => term D rank (t_pc th)) _ _ F th H0). Qed.

(* a step of thread t that neither starts an operation nor marks a promise decreases t's term
   and leaves the resolution graph, hence the ranking, as it is *)
Lemma step_own : forall g t g' th rank D, WF g -> ranked g rank -> 0 < D ->
  (forall x, x < length (hooks g) -> rank x < D) ->
  step true g t = Some g' -> nth_error (threads g) t = Some th -> t_pc th <> Idle ->
  (forall p rh c hk, t_pc th = FMark p rh c -> get_hook g p = Some hk -> h_resolved hk = true) ->
  exists F, threads g' = upd t F (threads g) /\ t_prog (F th) = t_prog th /\
    term D rank (t_pc (F th)) < term D rank (t_pc th) /\
    links_same g g' /\ ranked g' rank /\ length (hooks g') = length (hooks g).
Proof.
  intros g t g' th rank D W R HD0 HD Hs Hth Hni Hnf.
  destruct (step_own_decr true g t g' th W Hs Hth Hni Hnf) as (F & Ht & Hp & Hl & Hdec).
  pose proof (step_links_plain true g t g' th Hs Hth Hnf) as L.
  exists F. repeat split; auto.
  - destruct Hdec as [(Hst & Ho)|(Hst & x & y & Hx & Hy & Fw)].
    + pose proof (term_bound D rank (t_pc (F th)) (length (hooks g)) HD0 HD Ho) as B.
      assert ((stage (t_pc (F th)) + 1) * D <= stage (t_pc th) * D) by (apply Nat.mul_le_mono_r; lia).
      unfold term at 2. lia.
    + unfold term. rewrite Hst, Hx, Hy. pose proof (R _ _ Fw). lia.
  - intros a b Fw. apply R. apply (links_same_fwd g g' a b L). auto.
Qed.

Lemma step_measure : forall g t g' rank D,
  WF g -> ranked g rank -> 0 < D -> (forall x, x < length (hooks g) -> rank x < D) ->
  step true g t = Some g' -> misuse g' = false ->
  mA g' < mA g \/
  (mA g' = mA g /\ mB g' < mB g) \/
  (mA g' = mA g /\ mB g' = mB g /\ ranked g' rank /\ length (hooks g') = length (hooks g) /\
   mC D rank g' < mC D rank g).
Proof.
  intros g t g' rank D W R HD0 HD Hs Hm. destruct (step_thread _ _ _ _ Hs) as (th & Hth).
  destruct (pc_eq_idle_dec (t_pc th)) as [Hi|Hni].
  - left. destruct (step_idle_shape true g t g' th Hs Hth Hi) as (F & o & Ht & Hp).
    pose proof (mA_upd g g' t F th Ht Hth). rewrite Hp in H. simpl in H. lia.
  - right. destruct (fmark_dec g th) as [Hnf|(p & rh & c & hk & Hpc & Hp & Hr)].
    + right. destruct (step_own g t g' th rank D W R HD0 HD Hs Hth Hni Hnf) as (F & Ht & Hp & Hdec & L & R' & Hl).
      pose proof (mA_upd g g' t F th Ht Hth). pose proof (mC_upd D rank g g' t F th Ht Hth).
      pose proof (mB_plain g g' L Hl). rewrite Hp in *. repeat split; auto; lia.
    + left.
      destruct (step_fmark_shape true g t g' th p rh c hk Hs Hth Hpc Hp Hr) as (F & Ht & Hprog).
      destruct (step_links_fmark true g t g' th p rh c hk Hs Hth Hpc Hp Hr) as (Hoth & (hk' & Hp' & Hr' & _) & _ & Hl).
      split. { pose proof (mA_upd g g' t F th Ht Hth). rewrite Hprog in H. lia. }
      eapply mB_fmark; eauto.
Qed.

Lemma acc_lex : forall a b c g rank D,
  Inv g -> WF g -> ranked g rank -> 0 < D -> (forall x, x < length (hooks g) -> rank x < D) ->
  mA g = a -> mB g = b -> mC D rank g = c -> Acc Rstep g.
Proof.
  intros a. induction a as [a IHa] using lt_wf_ind.
  intros b. induction b as [b IHb] using lt_wf_ind.
  intros c. induction c as [c IHc] using lt_wf_ind.
  intros g rank D I W R HD0 HD Ea Eb Ec. constructor. intros g' (t & Hs & Hm).
  pose proof (step_preserves_inv g t g' I Hs Hm) as I'.
  pose proof (wf_step true g t g' W Hs) as W'.
  assert (Hrk : exists rank' D', ranked g' rank' /\ 0 < D' /\ (forall x, x < length (hooks g') -> rank' x < D')).
  { destruct (acyc_step g t g' (ex_intro _ rank R) Hs Hm) as (rank' & R').
    exists rank', (S (maxrank rank' (length (hooks g')))). split; auto. split. lia.
    intros x Hx. pose proof (maxrank_bound rank' _ x Hx). lia. }
  destruct (step_measure g t g' rank D W R HD0 HD Hs Hm) as [Ha|[(Ha & Hb)|(Ha & Hb & R' & Hl & Hc)]].
  - destruct Hrk as (rank' & D' & R' & HD0' & HD').
    eapply (IHa (mA g')); eauto. lia.
  - destruct Hrk as (rank' & D' & R' & HD0' & HD').
    eapply (IHb (mB g')); eauto. lia. lia.
  - eapply (IHc (mC D rank g')); eauto. lia. rewrite Hl. auto. lia. lia.
Qed.

(* terminates: from every reachable configuration of a contract-respecting execution, every
   continuation (any schedule, call-out returns included) that stays contract-respecting is
   finite: the step relation is well-founded there.  In particular every API call's own
   steps terminate: its hand-over-hand walks follow the finite, acyclic resolution graph. *)
Definition terminates_stmt : Prop :=
  forall progs g, reachable true (init progs) g -> misuse g = false -> Acc Rstep g.

Theorem terminates : terminates_stmt.
Proof.
  intros progs g R Hm.
  destruct (reachable_acyc progs g R Hm) as (rank & Rk).
  eapply (acc_lex _ _ _ g rank (S (maxrank rank (length (hooks g))))); eauto.
  - eapply reachable_inv; eauto.
  - eapply reachable_wf; eauto.
  - lia.
  - intros x Hx. pose proof (maxrank_bound rank _ x Hx). lia.
Qed.

(* the measure of one thread's own steps, stated on its own: a step of thread t that neither
   starts an operation nor marks a promise strictly decreases t's term and leaves the terms of
   all other threads, the ranking and D unchanged *)
Definition own_steps_decrease_stmt : Prop :=
  forall g t g' th rank D, WF g -> ranked g rank -> 0 < D ->
  (forall x, x < length (hooks g) -> rank x < D) ->
  step true g t = Some g' -> nth_error (threads g) t = Some th -> t_pc th <> Idle ->
  (forall p rh c hk, t_pc th = FMark p rh c -> get_hook g p = Some hk -> h_resolved hk = true) ->
  exists th', nth_error (threads g') t = Some th' /\
    term D rank (t_pc th') < term D rank (t_pc th) /\
    (forall u, u <> t -> nth_error (threads g') u = nth_error (threads g) u) /\
    ranked g' rank /\ length (hooks g') = length (hooks g).

Theorem own_steps_decrease : own_steps_decrease_stmt.
Proof.
  intros g t g' th rank D W R HD0 HD Hs Hth Hni Hnf.
  destruct (step_own g t g' th rank D W R HD0 HD Hs Hth Hni Hnf) as (F & Ht & _ & Hdec & _ & R' & Hl).
  exists (F th). repeat split; auto.
  - rewrite Ht, nth_error_upd_eq, Hth. reflexivity.
  - intros u Hu. rewrite Ht. apply nth_error_upd_neq. auto.
Qed.
