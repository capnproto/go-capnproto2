(* C05: from the pointer-level invariant to the strict validity predicate:
     hinv m objs pads -> valid_message (bm_data m) = VOk.
   The worklist of [valid_message] visits every position at most once; positions are words of
   the message, so total_words + 2 units of fuel suffice (pigeonhole: NoDup_incl_length); every
   position it reaches is a table slot, whose pointer the invariant resolves; the regions it
   collects are table regions, pairwise equal or disjoint. *)
From CV Require Import Core.Builder Core.ReaderFacts Core.BuilderFacts Core.AllocProofs
  Core.WritePtrProofs Core.HeapProofs Core.BuildOps Core.BuildValid Core.BuildInv Core.HeapInv Core.HeapOps Core.HeapCopy Core.HeapSteps.
From Coq Require Import ZifyBool ZifyNat FinFun.
Open Scope Z_scope.

Ltac Zify.zify_post_hook ::= Z.div_mod_to_equations.

Definition seg_positions (sid : Z) (nwords : nat) : list (Z * Z) :=
  map (fun k => (sid, 8 * Z.of_nat k)) (seq 0 nwords).

Fixpoint all_pos_from (m : segs) (sid : Z) : list (Z * Z) :=
  match m with
  | [] => []
  | s :: r => seg_positions sid (Z.to_nat (zlen s / 8)) ++ all_pos_from r (sid + 1)
  end.
Definition all_positions (m : segs) : list (Z * Z) := all_pos_from m 0.

Lemma all_pos_length (m : segs) : forall sid, Z.of_nat (length (all_pos_from m sid)) = total_words m.
Proof.
  induction m as [|s r IH]; intros sid; cbn [all_pos_from total_words fold_right length]; [reflexivity|].
  rewrite app_length. unfold seg_positions. rewrite map_length, seq_length. rewrite Nat2Z.inj_add, IH.
  unfold total_words. pose proof (zlen_nonneg s). lia.
Qed.

Lemma in_all_pos (m : segs) : forall sid s a,
  sid <= s < sid + zlen m -> 0 <= a -> a mod 8 = 0 -> a + 8 <= zlen (nth (Z.to_nat (s - sid)) m []) ->
  In (s, a) (all_pos_from m sid).
Proof.
  induction m as [|x r IH]; intros sid s a Hs Ha Hm Hl; [unfold zlen in Hs; cbn in Hs; lia|].
  cbn [all_pos_from]. apply in_or_app.
  destruct (Z.eq_dec s sid) as [->|Hne].
  - left. replace (sid - sid) with 0 in Hl by lia. cbn [Z.to_nat nth] in Hl.
    unfold seg_positions. apply in_map_iff. exists (Z.to_nat (a / 8)). split; [f_equal; lia|].
    apply in_seq. lia.
  - right. apply IH; try lia.
    + unfold zlen in *. cbn [length] in Hs. lia.
    + replace (Z.to_nat (s - sid)) with (S (Z.to_nat (s - (sid + 1)))) in Hl by lia. exact Hl.
Qed.

Lemma mem_pos_true_in p l : mem_pos p l = true -> In p l.
Proof.
  unfold mem_pos. intros E. apply existsb_exists in E. destruct E as (x & Hx & Ex). unfold pos_eqb in Ex.
  destruct p, x. cbn in Ex. assert (z = z1 /\ z0 = z2) as [-> ->] by lia. exact Hx.
Qed.

Lemma mem_pos_false p l : ~ In p l -> mem_pos p l = false.
Proof. intros H. destruct (mem_pos p l) eqn:E; [|reflexivity]. apply mem_pos_true_in in E. contradiction. Qed.

Lemma mem_pos_in p l : In p l -> mem_pos p l = true.
Proof.
  intros H. unfold mem_pos. apply existsb_exists. exists p. split; [exact H|]. unfold pos_eqb. destruct p. cbn. lia.
Qed.

Lemma NoDup_app_iff {A} (a b : list A) :
  NoDup (a ++ b) <-> NoDup a /\ NoDup b /\ (forall x, In x a -> In x b -> False).
Proof.
  induction a as [|x a IH]; cbn [app].
  - split; [intros H; split; [constructor|split; [exact H|intros x []]]|intros (_ & H & _); exact H].
  - rewrite !NoDup_cons_iff, IH, in_app_iff. cbn [In]. split.
    + intros (Hx & Na & Nb & D). repeat split; auto. intros y [<-|Hy] Hb; [apply Hx; right; exact Hb|exact (D y Hy Hb)].
    + intros ((Hx & Na) & Nb & D). repeat split; auto.
      * intros [X|X]; [exact (Hx X)|exact (D x (or_introl eq_refl) X)].
      * intros y Hy. apply D. right. exact Hy.
Qed.

Section Worklist.
  Variable m : segs.
  Variable G : Z * Z -> Prop.
  Variable Rg : region -> Prop.
  Hypothesis G_pos : forall p, G p -> In p (all_positions m).
  Hypothesis G_res : forall p, G p -> exists t rs,
      resolve_ptr m (fst p) (snd p) = (t, rs) /\ is_bad t = false /\ NoDup (children t) /\
      (forall c, In c (children t) -> G c) /\ Forall Rg rs.

  Lemma collect_ok : forall fuel work visited acc,
    NoDup (work ++ visited) -> Forall G work -> incl visited (all_positions m) -> Forall Rg acc ->
    (length (all_positions m) - length visited < fuel)%nat ->
    exists acc', collect_regions m fuel work visited acc = (VOk, acc') /\ Forall Rg acc'.
  Proof.
    induction fuel as [|f IH]; intros work visited acc ND GW IV RA Hf.
    - destruct work as [|p rest]; [exists acc; split; [reflexivity|exact RA]|]. lia.
    - destruct work as [|p rest]; [exists acc; split; [reflexivity|exact RA]|].
      cbn [collect_regions].
      inversion GW as [|? ? Gp Grest]; subst.
      cbn [app] in ND. inversion ND as [|? ? Hnin ND']; subst. apply NoDup_app_iff in ND'. destruct ND' as (Nr & Nv & Drv).
      assert (Pnv : ~ In p visited) by (intros X; apply Hnin, in_or_app; right; exact X).
      assert (Npv : NoDup (p :: visited)) by (constructor; assumption).
      assert (Ipv : incl (p :: visited) (all_positions m)) by (intros x [<-|Hx]; [apply G_pos; exact Gp|apply IV; exact Hx]).
      rewrite (mem_pos_false _ _ Pnv).
      destruct (G_res p Gp) as (t & rs & E & NB & NDc & Gc & Rrs). rewrite E.
      set (fresh := filter (fun c => negb (mem_pos c (p :: visited)) && negb (mem_pos c rest)) (children t)).
      assert (Hstep : exists acc', collect_regions m f (fresh ++ rest) (p :: visited) (rs ++ acc) = (VOk, acc') /\ Forall Rg acc').
      { apply IH; auto.
        - rewrite <- app_assoc. apply NoDup_app_iff. split; [apply NoDup_filter; exact NDc|]. split.
          + apply NoDup_app_iff. split; [exact Nr|]. split; [exact Npv|].
            intros x Hx [<-|Hv]; [apply Hnin, in_or_app; left; exact Hx|exact (Drv x Hx Hv)].
          + (* fresh positions were filtered against rest and p :: visited *)
            intros x Hx Hx2. apply filter_In in Hx. destruct Hx as [_ Hx]. apply andb_prop in Hx. destruct Hx as [H1 H2].
            apply in_app_or in Hx2. destruct Hx2 as [Hr|Hpv].
            * rewrite (mem_pos_in _ _ Hr) in H2. discriminate H2.
            * rewrite (mem_pos_in _ _ Hpv) in H1. discriminate H1.
        - apply Forall_app. split; [|exact Grest]. apply Forall_forall. intros c Hc. apply filter_In in Hc. apply Gc, Hc.
        - apply Forall_app. split; assumption.
        - (* pigeonhole: the visited positions are distinct words of the message *)
          pose proof (NoDup_incl_length Npv Ipv) as L. cbn [length] in *. lia. }
      destruct t; cbn in NB; try discriminate NB; exact Hstep.
  Qed.
End Worklist.

Lemma NoDup_zseq start step n : step <> 0 -> NoDup (zseq start step n).
Proof.
  intros Hs. unfold zseq. apply Injective_map_NoDup; [|apply seq_NoDup].
  intros x y E. apply Nat2Z.inj, (Z.mul_reg_l _ _ step); lia.
Qed.

Lemma NoDup_pair_map (s : Z) (l : list Z) : NoDup l -> NoDup (map (fun a : Z => (s, a)) l).
Proof. intros H. apply Injective_map_NoDup; [|exact H]. intros x y E. congruence. Qed.

Lemma NoDup_flat_map_disj {A B} (f : A -> list B) (l : list A) :
  NoDup l -> (forall x, In x l -> NoDup (f x)) ->
  (forall x y z, In x l -> In y l -> x <> y -> In z (f x) -> In z (f y) -> False) ->
  NoDup (flat_map f l).
Proof.
  induction l as [|a l IH]; intros Hl Hf Hd; cbn [flat_map]; [constructor|].
  inversion Hl as [|? ? Ha Hl']; subst. apply NoDup_app_iff. split; [apply Hf; left; reflexivity|]. split.
  - apply IH; auto.
    + intros x Hx. apply Hf. right. exact Hx.
    + intros x y z Hx Hy. apply Hd; right; assumption.
  - intros z Hz1 Hz2. apply in_flat_map in Hz2. destruct Hz2 as (y & Hy & Hz2).
    apply (Hd a y z); auto; [left; reflexivity|right; exact Hy|]. intros ->. contradiction.
Qed.

(* slot k of element e lies at word e * (dw + pc) + dw + k with k < pc: distinct (e, k) give distinct words *)
Lemma NoDup_comp_children sid addr cnt dw pc : 0 <= dw -> 0 <= pc -> NoDup (children (GComp sid addr cnt dw pc)).
Proof.
  intros Hd Hp. cbn [children]. apply NoDup_flat_map_disj.
  - apply NoDup_zseq. lia.
  - intros e _. apply NoDup_pair_map, NoDup_zseq. lia.
  - intros e e' z He He' Hne Hz Hz'. apply in_zseq in He, He'. destruct He as (n & _ & ->). destruct He' as (n' & _ & ->).
    apply in_map_iff in Hz. destruct Hz as (a & <- & Ha). apply in_map_iff in Hz'. destruct Hz' as (a' & E & Ha').
    apply in_zseq in Ha, Ha'. destruct Ha as (k & Hk & ->). destruct Ha' as (k' & Hk' & ->).
    apply (f_equal snd) in E. cbn [snd] in E.
    assert (E' : n' * (dw + pc) + k' = n * (dw + pc) + k) by lia.
    assert (n = n') by nia. apply Hne. lia.
Qed.

Lemma decode_obj_children (ms : segs) sid base w t rs :
  decode_obj ms sid base w = (t, rs) -> simple_target t ->
  NoDup (children t) /\ (forall r, rs = [r] -> r_size r = 0 -> children t = []).
Proof.
  intros H S. unfold decode_obj in H. cbv zeta in H.
  destruct (f_A w =? 0).
  - destruct (in_seg ms sid _ _).
    2:{ bad_target H S. }
    apply pair_equal_spec in H. destruct H as [<- <-].
    cbn [children]. split; [apply NoDup_pair_map, NoDup_zseq; lia|].
    intros r Er Hz. assert (Er' : r = mkReg sid (base + 8 * f_off w) (8 * (f_dw w + f_pc w))) by congruence.
    subst r. change (8 * (f_dw w + f_pc w) = 0) in Hz.
    assert (Hpc : f_pc w = 0) by (unfold f_dw, f_pc in *; lia). rewrite Hpc. reflexivity.
  - destruct (f_C w <? 7) eqn:E7.
    + destruct (in_seg ms sid _ _).
      2:{ bad_target H S. }
      apply pair_equal_spec in H. destruct H as [<- <-].
      cbn [children]. destruct (f_C w =? 6) eqn:E6; [|split; [constructor|reflexivity]].
      split; [apply NoDup_pair_map, NoDup_zseq; lia|].
      intros r Er Hz. assert (Er' : r = mkReg sid (base + 8 * f_off w) ((f_D w * et_bits (f_C w) + 63) / 64 * 8)) by congruence.
      subst r. change ((f_D w * et_bits (f_C w) + 63) / 64 * 8 = 0) in Hz.
      assert (HC : f_C w = 6) by lia. rewrite HC in Hz. change (et_bits 6) with 64 in Hz.
      assert (HD : f_D w = 0) by (unfold f_D in *; lia). rewrite HD. reflexivity.
    + destruct (negb (in_seg ms sid _ _)); [bad_target H S|].
      destruct (word_at ms sid (base + 8 * f_off w)) as [tag|]; [|bad_target H S].
      destruct (negb (f_A tag =? 0)); [bad_target H S|].
      destruct (negb _); [bad_target H S|].
      apply pair_equal_spec in H. destruct H as [<- <-]. split.
      * apply NoDup_comp_children; unfold f_dw, f_pc, two32; lia.
      * intros r Er Hz. exfalso.
        assert (Er' : r = mkReg sid (base + 8 * f_off w) (8 + 8 * f_D w)) by congruence.
        subst r. change (8 + 8 * f_D w = 0) in Hz. unfold f_D in Hz. lia.
Qed.

(* the regions behind a prefix of pads end with the object's own region *)
Lemma decode_obj_last (ms : segs) sid base w t rs pre :
  decode_obj ms sid base w = (t, rs) -> simple_target t ->
  NoDup (children t) /\ (forall ps r, pre ++ rs = ps ++ [r] -> r_size r = 0 -> children t = []) /\
  (pre ++ rs = [] -> children t = []).
Proof.
  intros ED S. destruct (decode_obj_children _ _ _ _ _ _ ED S) as [N Z]. destruct (decode_obj_one _ _ _ _ _ _ ED S) as [r0 ->].
  split; [exact N|]. split; [|intros X; apply app_eq_nil in X; destruct X; discriminate].
  intros ps r E Hz. apply app_inj_tail in E. destruct E as [_ <-]. apply (Z r0); auto.
Qed.

Lemma resolve_children (ms : segs) s a t rs :
  resolve_ptr ms s a = (t, rs) -> simple_target t ->
  NoDup (children t) /\ (forall ps r, rs = ps ++ [r] -> r_size r = 0 -> children t = []) /\ (rs = [] -> children t = []).
Proof.
  intros H S. unfold resolve_ptr in H.
  destruct (word_at ms s a) as [w|]; [|bad_target H S].
  destruct (w =? 0); [inversion H; subst; split; [constructor|split; reflexivity]|].
  destruct (f_A w =? 3).
  { destruct (_ =? 0); [inversion H; subst; split; [constructor|split; reflexivity]|bad_target H S]. }
  destruct (f_A w =? 2); [|exact (decode_obj_last _ _ _ _ _ _ [] H S)].
  cbv zeta in H. destruct (f_B w =? 0).
  - destruct (negb _); [bad_target H S|].
    destruct (word_at ms (f_seg w) (8 * f_padoff w)) as [pw|]; [|bad_target H S].
    destruct (_ || _); [bad_target H S|].
    destruct (decode_obj ms (f_seg w) (8 * f_padoff w + 8) pw) as [t0 rs0] eqn:ED. inversion H; subst.
    exact (decode_obj_last _ _ _ _ _ _ [_] ED S).
  - destruct (negb _); [bad_target H S|].
    destruct (word_at ms (f_seg w) (8 * f_padoff w)) as [fw|]; [|bad_target H S].
    destruct (word_at ms (f_seg w) (8 * f_padoff w + 8)) as [tag|]; [|bad_target H S].
    destruct (negb _); [bad_target H S|].
    destruct (_ || _); [bad_target H S|].
    destruct (decode_obj ms (f_seg fw) (8 * f_padoff fw) tag) as [t0 rs0] eqn:ED. inversion H; subst.
    exact (decode_obj_last _ _ _ _ _ _ [_] ED S).
Qed.

Definition Rg (objs : list Ptr) (pads : list region) (r : region) : Prop :=
  r_size r = 0 \/ In r (all_regs objs pads).

Lemma reg_eqb_refl a : reg_eqb a a = true.
Proof. unfold reg_eqb. lia. Qed.

Lemma ord_disjoint_in l a b : ord_disjoint l -> In a l -> In b l -> reg_eqb a b = true \/ reg_disjoint a b = true.
Proof.
  intros D Ha Hb. destruct (In_nth _ _ root_reg Ha) as (i & Hi & <-). destruct (In_nth _ _ root_reg Hb) as (j & Hj & <-).
  destruct (lt_eq_lt_dec i j) as [[L|E]|L].
  - right. apply D; auto.
  - subst j. left. apply reg_eqb_refl.
  - right. apply reg_disjoint_sym. apply D; auto.
Qed.

Lemma regs_eq_or_disjoint m objs pads a b :
  hinv m objs pads -> Rg objs pads a -> Rg objs pads b -> reg_eqb a b = true \/ reg_disjoint a b = true.
Proof.
  intros H [Za|Ha] [Zb|Hb]; try (right; unfold reg_disjoint; lia).
  unfold all_regs in *. apply in_app_or in Ha. apply in_app_or in Hb.
  destruct Ha as [Ha|Ha]; destruct Hb as [Hb|Hb].
  - apply (ord_disjoint_in _ _ _ (hi_disjO _ _ _ H)); auto.
  - right. apply (hi_cross _ _ _ H); auto.
  - right. apply reg_disjoint_sym. apply (hi_cross _ _ _ H); auto.
  - apply (ord_disjoint_in _ _ _ (hi_disjP _ _ _ H)); auto.
Qed.

Lemma pairwise_ok_table m objs pads l : hinv m objs pads -> Forall (Rg objs pads) l -> pairwise_ok l = true.
Proof.
  intros H. induction 1 as [|a r Ha Hr IH]; [reflexivity|]. cbn [pairwise_ok]. rewrite IH. rewrite Bool.andb_true_r.
  apply forallb_forall. intros b Hb. rewrite Forall_forall in Hr.
  destruct (regs_eq_or_disjoint _ _ _ a b H Ha (Hr b Hb)) as [E|E]; rewrite E; [reflexivity|apply Bool.orb_true_r].
Qed.

Theorem hinv_valid m objs pads : hinv m objs pads -> valid_message (bm_data m) = VOk.
Proof.
  intros H. unfold valid_message.
  assert (A8 : forallb (fun s => zlen s mod 8 =? 0) (bm_data m) = true).
  { apply forallb_forall. intros s Hs. unfold bm_data in Hs. apply in_map_iff in Hs. destruct Hs as (b & <- & Hb).
    destruct (hi_inv _ _ _ H) as [Hwf _]. unfold bmsg_wf in Hwf. rewrite Forall_forall in Hwf.
    destruct (Hwf b Hb) as [_ X]. unfold blen in X. lia. }
  rewrite A8. cbn [negb].
  assert (R0 : in_seg (bm_data m) 0 0 8 = true) by (apply (hi_in_regsO m objs pads root_reg H); left; reflexivity).
  rewrite R0. cbn [negb].
  set (G := fun q : Z * Z => In q ((0, 0) :: flat_map slots objs)).
  assert (Gpos : forall p, G p -> In p (all_positions (bm_data m))).
  { intros [s a] Hp. destruct (slot_geometry _ _ _ _ H Hp) as (Q1 & Q2 & Q3 & Q4 & _). cbn [fst snd] in *.
    unfold all_positions. apply in_all_pos; try lia.
    - rewrite zlen_bm. lia.
    - replace (s - 0) with s by lia. rewrite nth_bm_data. exact Q4. }
  assert (Gres : forall p, G p -> exists t rs,
      resolve_ptr (bm_data m) (fst p) (snd p) = (t, rs) /\ is_bad t = false /\ NoDup (children t) /\
      (forall c, In c (children t) -> G c) /\ Forall (Rg objs pads) rs).
  { intros p Hp. destruct (hinv_slot_res _ _ _ _ H Hp) as (t & rs & E & S & C).
    destruct (resolve_children _ _ _ _ _ E S) as (N & Z1 & Z2).
    exists t, rs. split; [exact E|]. split; [destruct t; cbn in *; auto; contradiction|]. split; [exact N|].
    destruct C as [[-> _]|(ps & r & -> & Ips & D)].
    - split; [intros c Hc; rewrite (Z2 eq_refl) in Hc; destruct Hc|constructor].
    - split.
      + destruct D as [[D _]|(h & Hh & -> & ->)].
        * intros c Hc. rewrite (Z1 ps r eq_refl D) in Hc. destruct Hc.
        * intros c Hc. unfold G. right. apply in_flat_map. exists h. split; [exact Hh|exact Hc].
      + apply Forall_app. split.
        * apply Forall_forall. intros x Hx. right. unfold all_regs. apply in_or_app. right. apply Ips. exact Hx.
        * constructor; [|constructor]. destruct D as [[D _]|(h & Hh & -> & _)]; [left; exact D|right].
          unfold all_regs, regsO. apply in_or_app. left. right. apply in_map. exact Hh. }
  destruct (collect_ok (bm_data m) G (Rg objs pads) Gpos Gres
              (Z.to_nat (total_words (bm_data m) + 2)) [(0, 0)] [] [mkReg 0 0 8]) as (acc & E & RA).
  - cbn. constructor; [intros []|constructor].
  - constructor; [left; reflexivity|constructor].
  - intros x [].
  - constructor; [|constructor]. right. unfold all_regs, regsO. left. reflexivity.
  - pose proof (all_pos_length (bm_data m) 0) as L. unfold all_positions. cbn [length]. lia.
  - rewrite E. rewrite (pairwise_ok_table _ _ _ _ H RA). reflexivity.
Qed.

(* [heap_inv_sublang_valid]: for every arena configuration with a root word, every program of
   the sub-language (executable predicate [sub_prog]) and every state the interpreter reaches
   while the message has fewer than 2^32 segments, the bytes of the message under construction
   pass the strict validity predicate *)
Theorem heap_inv_sublang_valid a cfgd cfgs ncaps fuel src ops m :
  arena_spec_wf a -> root_cap_ok a -> create a (init_rlimit cfgd) = Ok m -> sub_prog ops = true ->
  msg_ok src -> cfg_strict cfgs = true ->
  let st0 := mkBSt (mkW m src (init_rlimit cfgs)) [] in
  dst_run (mkEnv cfgd cfgs ncaps fuel) st0 ops ->
  Forall seg_bound (bstates (mkEnv cfgd cfgs ncaps fuel) st0 ops) ->
  Forall (fun st => valid_message (bm_data (w_dst (st_w st))) = VOk) (bstates (mkEnv cfgd cfgs ncaps fuel) st0 ops).
Proof.
  intros Ha Hr Hc Hp Hms Hcs st0 Hd Hb.
  pose proof (heap_inv_sublang a cfgd cfgs ncaps fuel src ops m Ha Hr Hc Hp Hms Hcs Hd Hb) as H.
  eapply Forall_impl; [|exact H]. intros st (objs & pads & Hs & _). eapply hinv_valid; eauto.
Qed.

(* non-vacuity: a program of the sub-language with a far pointer, and its final state is valid *)
Example sublang_example :
  sub_prog [BNewStruct 0 0 1; BNewStruct 1 8 0; BSetUint 1 0 8 258; BSetPtr 0 0 1; BSetRoot 0] = true /\
  arena_spec_wf (ArRaw [24; 16]) /\ root_cap_ok (ArRaw [24; 16]).
Proof. split; [reflexivity|]. split; [repeat constructor; lia|cbn; lia]. Qed.

Definition ex2_ops : list bop :=
  [BNewStruct 0 0 1; BNewComp 0 8 1 2; BSetPtr 0 0 1; BRead InDst (OLStruct 1 1); BSetUint 2 0 8 7;
   BNewStruct 0 8 0; BSetPtr 2 0 3; BNewPList 0 1; BPLSet 4 0 3; BListSetUint 1 0 8 9; BSetRoot 0;
   BRead InDst ORoot; BRead InDst (OSPtr 5 0); BRead InDst (OPLAt 4 0); BNewCap 0 3; BAddCap 7;
   BSetPtr 0 0 8; BReopen; BRead InDst ORoot;
   BNewPrim 0 2 3; BListSetUint 10 1 2 513; BRead InDst (OLStruct 10 1); BSetPtr 9 0 11;
   BNewStruct 0 8 2; BSetPtr 12 0 10; BNewComp 0 8 1 2; BSetStruct 13 1 12; BRead InDst (OLStruct 13 1); BSetPtr 12 1 14;
   BNewStruct 0 8 2; BCopyFrom 15 12; BSetRoot 15;
   BRead InSrc ORoot; BSetPtr 15 1 16; BRead InSrc (OSPtr 16 0); BSetPtr 15 0 17].
Definition ex2_env := mkEnv (mkCfg 0 0 true true) (mkCfg 0 0 true true) 0 64%nat.
Definition ex2_m : bmsg := mkBM AMulti [mkBS [0; 0; 0; 0; 0; 0; 0; 0] 1024] [] 67108864.
(* a source message: root -> struct (1 data word, 1 pointer) -> text "hi" *)
Definition ex2_src : segs :=
  [[0;0;0;0;1;0;1;0;  7;0;0;0;0;0;0;0;  1;0;0;0;26;0;0;0;  104;105;0;0;0;0;0;0]].
Definition ex2_st0 := mkBSt (mkW ex2_m ex2_src 100) [].
Lemma seg_bound_b l : forallb (fun st => nsegs (w_dst (st_w st)) <? 4294967296) l = true -> Forall seg_bound l.
Proof. intros H. apply Forall_forall. intros st Hst. rewrite forallb_forall in H. specialize (H st Hst). unfold seg_bound. lia. Qed.

(* non-vacuity: a program using every kind of op of the builder inside one message (composite
   list, member handles as containers and as sources, PointerList.Set, read handles, a
   capability, reopen, deep copies through SetPtr of a member with pointers, List.SetStruct and
   Struct.CopyFrom); the premises of [heap_inv_sublang_valid] hold and its conclusion agrees with
   the computed verdicts *)
Example sublang_example2 :
  create (ArMulti None) (init_rlimit (mkCfg 0 0 true true)) = Ok ex2_m /\
  sub_prog ex2_ops = true /\ msg_ok ex2_src /\ dst_run ex2_env ex2_st0 ex2_ops /\
  Forall seg_bound (bstates ex2_env ex2_st0 ex2_ops) /\
  map (fun st => valid_message (bm_data (w_dst (st_w st)))) (bstates ex2_env ex2_st0 ex2_ops) = repeat VOk 37.
Proof.
  split; [vm_compute; reflexivity|]. split; [reflexivity|].
  split; [repeat constructor; cbn; unfold maxSegmentSize; lia|].
  split; [vm_compute; repeat split; reflexivity|].
  split; [apply seg_bound_b; vm_compute; reflexivity|vm_compute; reflexivity].
Qed.

(* what a forced copy inside one message does, on one program (evaluated by the kernel; the general
   theorems [copy_all] / [copy_independent] do not state it): parent (handle 0, at 8) points to child
   (handle 1, at 24, data 7); CopyFrom of the parent into a new struct (handle 2, at 32) when the
   segment is 48 bytes long.  The copy's pointer slot then designates a NEW child at 48 (handle 3),
   the parent's still the old one at 24 (handle 4); writing 9 to the old child leaves the new one at
   7, writing 5 to the new one leaves the old one at 9. *)
Definition ex3_ops : list bop :=
  [BNewStruct 0 8 1; BNewStruct 0 8 0; BSetUint 1 0 8 7; BSetPtr 0 0 1; BSetRoot 0; BNewStruct 0 8 1;
   BCopyFrom 2 0; BRead InDst (OSPtr 2 0); BRead InDst (OSPtr 0 0);
   BSetUint 1 0 8 9; BRead InDst (OUint 3 0 8); BRead InDst (OUint 4 0 8);
   BSetUint 3 0 8 5; BRead InDst (OUint 3 0 8); BRead InDst (OUint 4 0 8)].
Definition bval_summary (v : bval) : Z :=
  match v with
  | BV (VPtr (Ok p)) => p_off p
  | BV (VNum (Ok n)) => n
  | BVUnit (Ok _) => 0
  | _ => -1
  end.
Example forced_copy_is_deep_example :
  sub_prog ex3_ops = true /\
  map bval_summary (brun ex2_env ex2_st0 ex3_ops) = [8; 24; 0; 0; 0; 32; 0; 48; 24; 0; 7; 9; 0; 5; 9].
Proof. split; vm_compute; reflexivity. Qed.
