(* C02 for the deep copy (Core/Builder.v write_ptr / copy_struct, source in a second read-only
   message): the bytes appended to the destination are bounded by the traversal budget the copy
   consumes from the source.  Ghost counter: [tot m] = total length of the destination's
   segments; potential [Phi w] = tot (destination) + 5 * (remaining source budget).
     write_ptr  of src:   Phi w' <= Phi w + wcost src + 32 * slots src
     copy_struct from src: Phi w' <= Phi w + 32 * PointerCount (p_size src)
   where wcost src = the padded size of src's own copy + 16 (landing pad) and slots src the
   number of pointer slots of src.  Every object below the top level was charged its read size
   by readPtr; its copy takes at most that size + 15 (padding, composite tag) + a 16-byte pad,
   and its own pointer slots were paid for (8 bytes each) in its read size: 5 budget bytes +
   32 bytes per slot of the parent cover it.  Same standing assumptions as Core/CopySafe.v. *)
From CV Require Import Core.Builder Core.ReaderFacts Core.BuilderFacts Core.AllocProofs
                       Core.WritePtrProofs Core.HeapProofs Core.CopyProofs Core.LimitProofs Core.CopySafe.
From Coq Require Import ZifyBool ZifyNat.
Open Scope Z_scope.
Ltac Zify.zify_post_hook ::= Z.div_mod_to_equations.

Fixpoint sumN (f : nat -> Z) (n : nat) : Z :=
  match n with O => 0 | S k => sumN f k + f k end.

Lemma sumN_ext f g n : (forall i, (i < n)%nat -> f i = g i) -> sumN f n = sumN g n.
Proof. induction n as [|n IH]; intros H; cbn [sumN]; [reflexivity|]. rewrite IH by (intros; apply H; lia). rewrite H by lia. reflexivity. Qed.

Lemma sumN_bump f g n k d : (k < n)%nat -> (forall i, (i < n)%nat -> i <> k -> g i = f i) -> g k = f k + d ->
  sumN g n = sumN f n + d.
Proof.
  induction n as [|n IH]; intros Hk H Hd; [lia|]. cbn [sumN].
  destruct (Nat.eq_dec k n) as [->|Hne].
  - rewrite (sumN_ext g f n) by (intros; apply H; lia). lia.
  - rewrite IH by (try lia; intros; apply H; lia). rewrite (H n) by lia. lia.
Qed.

Lemma sumN_tail f n n' : (n <= n')%nat -> (forall i, (n <= i < n')%nat -> f i = 0) -> sumN f n' = sumN f n.
Proof.
  induction n' as [|k IH]; intros Hle H.
  - replace n with 0%nat by lia. reflexivity.
  - destruct (Nat.eq_dec n (S k)) as [->|Hne]; [reflexivity|].
    cbn [sumN]. rewrite IH by (try lia; intros; apply H; lia). rewrite (H k) by lia. lia.
Qed.

Definition lenf (m : bmsg) : nat -> Z := fun i => zlen (mem m (Z.of_nat i)).
Definition tot (m : bmsg) : Z := sumN (lenf m) (length (bm_segs m)).

Lemma lenf_out m i : (length (bm_segs m) <= i)%nat -> lenf m i = 0.
Proof. intros H. unfold lenf, mem. rewrite get_seg_out by (unfold zlen; lia). reflexivity. Qed.

Lemma tot_upto m n : (length (bm_segs m) <= n)%nat -> tot m = sumN (lenf m) n.
Proof. intros H. unfold tot. symmetry. apply sumN_tail; [assumption|]. intros i Hi. apply lenf_out. lia. Qed.

Lemma tot_same m m' : nsegs m' = nsegs m -> (forall i, 0 <= i -> zlen (mem m' i) = zlen (mem m i)) -> tot m' = tot m.
Proof.
  intros Hn Hl. unfold tot. unfold nsegs, zlen in Hn. replace (length (bm_segs m')) with (length (bm_segs m)) by lia.
  apply sumN_ext. intros i _. unfold lenf. apply Hl. lia.
Qed.

Lemma tot_alloc m m' sid' pad :
  nsegs m <= nsegs m' -> 0 <= sid' < nsegs m' ->
  zlen (mem m' sid') = zlen (mem m sid') + pad ->
  (forall i, 0 <= i -> i <> sid' -> mem m' i = mem m i) -> tot m' = tot m + pad.
Proof.
  intros Hn Hs Hl Ho. unfold nsegs, zlen in Hn, Hs.
  rewrite (tot_upto m (length (bm_segs m'))) by lia. unfold tot.
  apply (sumN_bump _ _ _ (Z.to_nat sid')); [lia| |].
  - intros i Hi Hne. unfold lenf. rewrite Ho by lia. reflexivity.
  - unfold lenf. rewrite Z2Nat.id by lia. exact Hl.
Qed.

Lemma seg_write_tot m sid addr bs m' : dok m -> region_ok m sid addr (zlen bs) ->
  seg_write m sid addr bs = Ok m' -> tot m' = tot m.
Proof.
  intros Hd Hr E. destruct (seg_write_safe m sid addr bs Hd Hr) as (m2 & E2 & _ & N & L & _).
  rewrite E in E2. inversion E2; subst m2. apply tot_same; assumption.
Qed.

Lemma alloc_tot m sid sz m' sid' addr : dok m -> 0 <= sid < nsegs m -> 0 <= sz ->
  alloc m sid sz = Ok (m', sid', addr) -> tot m' = tot m + padToWord sz.
Proof.
  intros Hd Hs Hz E. destruct (alloc_safe m sid sz m' sid' addr Hd Hs Hz E) as (_ & [G _] & S1 & _ & A1 & A2 & _ & O & _).
  apply (tot_alloc m m' sid'); auto. lia.
Qed.

Definition Phi (w : world) : Z := tot (w_dst w) + 5 * w_src_rl w.

Definition rpostk (w0 : world) (k : Z) (r : res world) : Prop :=
  match r with Panic => False | Err => True | Ok w' => wgood w0 w' /\ Phi w' <= Phi w0 + k end.

Lemma rpostk_rpost w k r : rpostk w k r -> rpost w r.
Proof. destruct r; cbn; tauto. Qed.
Lemma rpostk_weaken w k k' r : k <= k' -> rpostk w k r -> rpostk w k' r.
Proof. intros H. destruct r; cbn; auto. intros [G P]. split; [exact G|lia]. Qed.
Lemma rpostk_trans a b k1 k2 r : wgood a b -> Phi b <= Phi a + k1 -> rpostk b k2 r -> rpostk a (k1 + k2) r.
Proof. intros G P. destruct r; cbn; auto. intros [G2 P2]. split; [eapply wgood_trans; eauto|lia]. Qed.

Lemma lift0_write_k w sid addr v : dok (w_dst w) -> 0 <= w_src_rl w -> region_ok (w_dst w) sid addr 8 ->
  rpostk w 0 (lift0 w (writeRawPointer (w_dst w) sid addr v)).
Proof.
  intros Hd Hr Hreg. destruct (writeRaw_safe (w_dst w) sid addr v Hd Hreg) as (m' & E & D & N & L & _).
  rewrite E. cbn [lift0 bind rpostk]. split.
  - apply wgood_set_dst; auto. apply same_len_grows; auto.
  - unfold Phi. cbn [w_dst w_set_dst w_src_rl]. rewrite (tot_same _ _ N L). lia.
Qed.

Lemma place_k w dsid off tsid taddr raw : dok (w_dst w) -> 0 <= w_src_rl w ->
  region_ok (w_dst w) dsid off 8 -> 0 <= tsid < nsegs (w_dst w) ->
  rpostk w 16 (place w dsid off tsid taddr raw).
Proof.
  intros Hd Hr Hreg Ht. pose proof (place_safe w dsid off tsid taddr raw Hd Hr Hreg Ht) as PS.
  unfold place in *. cbv zeta in *.
  destruct (tsid =? dsid); [eapply rpostk_weaken; [|apply lift0_write_k; assumption]; lia|].
  destruct (hasCapacity (get_seg (w_dst w) tsid) 8) eqn:HC.
  - destruct (alloc (w_dst w) tsid 8) as [[[m1 s1] padAddr]| |] eqn:EA; cbn [bind] in *; [|exact I|exact PS].
    pose proof (alloc_in_place (w_dst w) tsid 8 m1 s1 padAddr HC EA) as ->.
    pose proof (alloc_tot (w_dst w) tsid 8 m1 tsid padAddr Hd Ht ltac:(lia) EA) as T1. change (padToWord 8) with 8 in T1.
    destruct (alloc_safe (w_dst w) tsid 8 m1 tsid padAddr Hd Ht ltac:(lia) EA) as (D1 & G1 & S1 & A0 & A1 & A2 & _).
    change (padToWord 8) with 8 in A2.
    destruct (writeRaw_safe m1 tsid padAddr (withOffset raw (nearPointerOffset padAddr taddr)) D1
                ltac:(unfold region_ok; lia)) as (m2 & E2 & D2 & N2 & L2 & _).
    rewrite E2 in *. cbn [bind] in *.
    pose proof (grows_trans _ _ _ G1 (same_len_grows _ _ N2 L2)) as G2.
    destruct (writeRaw_safe m2 dsid off (rawFarPointer tsid padAddr) D2 (region_grows _ _ _ _ _ G2 Hreg))
      as (m3 & E3 & D3 & N3 & L3 & _).
    rewrite E3 in *. cbn [lift0 bind rpost rpostk] in *. split; [exact PS|].
    unfold Phi. cbn [w_dst w_set_dst w_src_rl]. rewrite (tot_same _ _ N3 L3), (tot_same _ _ N2 L2). lia.
  - destruct Hreg as (Hds & Ho1 & Ho2).
    destruct (alloc (w_dst w) dsid 16) as [[[m1 psid] padAddr]| |] eqn:EA; cbn [bind] in *; [|exact I|exact PS].
    pose proof (alloc_tot (w_dst w) dsid 16 m1 psid padAddr Hd Hds ltac:(lia) EA) as T1. change (padToWord 16) with 16 in T1.
    destruct (alloc_safe (w_dst w) dsid 16 m1 psid padAddr Hd Hds ltac:(lia) EA) as (D1 & G1 & S1 & A0 & A1 & A2 & _).
    change (padToWord 16) with 16 in A2.
    destruct D1 as [I1 Sm1]. pose proof (Sm1 psid) as Sp. unfold maxSegmentSize in Sp.
    destruct (writeRaw_safe m1 psid padAddr (rawFarPointer tsid taddr) (conj I1 Sm1)
                ltac:(unfold region_ok; lia)) as (m2 & E2 & D2 & N2 & L2 & _).
    rewrite E2 in *. cbn [bind] in *.
    unfold addSizeUnchecked in *. rewrite (u32_id (padAddr + 8)) in * by lia.
    destruct (writeRaw_safe m2 psid (padAddr + 8) raw D2
                ltac:(unfold region_ok; rewrite N2, (L2 psid) by lia; lia)) as (m3 & E3 & D3 & N3 & L3 & _).
    rewrite E3 in *. cbn [bind] in *.
    pose proof (grows_trans _ _ _ G1 (grows_trans _ _ _ (same_len_grows _ _ N2 L2) (same_len_grows _ _ N3 L3))) as G3.
    destruct (writeRaw_safe m3 dsid off (rawDoubleFarPointer psid padAddr) D3
                (region_grows _ _ _ _ _ G3 (conj Hds (conj Ho1 Ho2)))) as (m4 & E4 & D4 & N4 & L4 & _).
    rewrite E4 in *. cbn [lift0 bind rpost rpostk] in *. split; [exact PS|].
    unfold Phi. cbn [w_dst w_set_dst w_src_rl].
    rewrite (tot_same _ _ N4 L4), (tot_same _ _ N3 L3), (tot_same _ _ N2 L2). lia.
Qed.

Lemma zlen_iota n : zlen (iota n) = Z.of_nat n.
Proof. unfold iota, zlen. rewrite map_length, seq_length. reflexivity. Qed.

Lemma fold_res_postk {A} (I : A -> Prop) (Ph : A -> Z) (c : Z) (f : A -> Z -> res A) : forall l a,
  (forall x b, In x l -> I b ->
     match f b x with Panic => False | Err => True | Ok b' => I b' /\ Ph b' <= Ph b + c end) -> I a ->
  match fold_res l a f with Panic => False | Err => True | Ok a' => I a' /\ Ph a' <= Ph a + c * zlen l end.
Proof.
  induction l as [|x l IH]; intros a Hf Ha; cbn [fold_res].
  - split; [exact Ha|]. unfold zlen. cbn [length]. lia.
  - pose proof (Hf x a (or_introl eq_refl) Ha) as H. destruct (f a x) as [b| |]; cbn [bind]; auto.
    destruct H as [Hb Pb].
    specialize (IH b ltac:(intros y c0 Hy; apply Hf; right; assumption) Hb).
    destruct (fold_res l b f); auto. destruct IH as [I2 P2]. split; [exact I2|].
    unfold zlen in *. cbn [length]. lia.
Qed.

(* what writePtr appends for the object itself: its padded copy and a landing pad *)
Definition wcost (p : Ptr) : Z :=
  if p_valid p then
    match p_kind p with
    | KStruct => padToWord (totalSize (mkOS (padToWord (DataSize (p_size p))) (PointerCount (p_size p)))) + 16
    | KList => padToWord (list_allocSize p) + 16
    | KIface => 0
    end
  else 0.

Lemma wcost_nonneg p : 0 <= wcost p.
Proof. unfold wcost. destruct (p_valid p); [|lia]. destruct (p_kind p); unfold padToWord, u32; lia. Qed.

(* the bytes of a list's elements, and what List.allocSize asks for: the same, plus the tag word of a
   composite list *)
Lemma list_content m p : msg_ok m -> wf_list m p -> p_valid p = true -> shape_ok p ->
  let content := if p_bit p then (p_len p + 7) / 8 else p_len p * totalSize (p_size p) in
  0 <= content /\ p_off p + content <= zlen (seg_of m p) /\
  list_allocSize p = if p_comp p then content + 8 else content.
Proof.
  intros Hm Hw V Hsh. destruct (wf_list_inv m p Hw V) as (Hs & Ho & Hl & Hr).
  specialize (Hsh V). rewrite (proj2 Hw V) in Hsh.
  destruct (seg_of_ok m p Hm) as [Hsl _]. unfold maxSegmentSize in Hsl.
  unfold list_allocSize. rewrite V. cbn [negb]. cbv zeta.
  destruct (p_bit p) eqn:B.
  - split; [lia|]. split; [lia|].
    destruct (p_comp p); [destruct Hsh as (_ & _ & X); discriminate X|]. apply bitListSize_spec. lia.
  - destruct Hr as [Hz Hr]. pose proof (totalSize_bound _ Hz). split; [nia|]. split; [lia|].
    rewrite Z.mul_comm. rewrite times_some by (unfold maxSegmentSize; rewrite Z.mul_comm; nia). rewrite (Z.mul_comm (totalSize _)).
    destruct (p_comp p); cbn [negb]; [|reflexivity]. destruct Hsh as (H8 & _). apply u32_id. lia.
Qed.

Lemma list_alloc_facts m p : msg_ok m -> wf_list m p -> p_valid p = true -> shape_ok p ->
  0 <= list_allocSize p <= maxSegmentSize /\ list_allocSize p <= list_readSize p + 8.
Proof.
  intros Hm Hw V Hsh. destruct (list_content m p Hm Hw V Hsh) as (C0 & C1 & ->). cbv zeta in *.
  destruct (wf_list_inv m p Hw V) as (Hs & Ho & Hl & Hr). specialize (Hsh V). rewrite (proj2 Hw V) in Hsh.
  destruct (seg_of_ok m p Hm) as [Hsl _]. unfold maxSegmentSize in *.
  assert (H8 : p_comp p = true -> 8 <= p_off p /\ p_bit p = false)
    by (intros X; rewrite X in Hsh; tauto).
  unfold list_readSize. rewrite V. cbv zeta. unfold wordSize.
  destruct (p_bit p) eqn:B.
  - destruct Hr as [Hz _]. rewrite Hz. change (totalSize (mkOS 0 0)) with 0. rewrite Z.eqb_refl.
    rewrite times_some by (unfold maxSegmentSize; lia). destruct (p_comp p); [destruct (H8 eq_refl); discriminate|lia].
  - destruct Hr as [Hz Hr]. pose proof (totalSize_bound _ Hz) as Hb. set (ts := totalSize (p_size p)) in *.
    destruct (ts =? 0) eqn:E0; rewrite times_some by (unfold maxSegmentSize; nia);
      (destruct (p_comp p); [destruct (H8 eq_refl)|]; nia).
Qed.

(* the object's own copy costs at most its read size + 32 *)
Lemma wcost_le m p : msg_ok m -> wf_ptr m p -> shape_ok p -> wcost p <= readSize p + 32.
Proof.
  intros Hm Hw Hsh. unfold wcost, readSize. destruct (p_valid p) eqn:V; [|pose proof (readSize_nonneg p); unfold readSize in *; lia].
  destruct (Hw V) as [Hs Ho]. unfold wf_obj in Ho. destruct (p_kind p) eqn:K.
  - destruct Ho as (Hz & _). destruct (pad_size_wf _ Hz) as (Hzc & Hle & H8). cbv zeta in *.
    rewrite (totalSize_wf _ Hzc). cbn [DataSize PointerCount]. unfold struct_readSize. rewrite V.
    rewrite (totalSize_wf _ Hz). unfold wf_size in *. cbn [DataSize PointerCount] in *.
    unfold padToWord, u32 in *. lia.
  - destruct (list_alloc_facts m p Hm (conj Hw (fun _ => K)) V Hsh) as [H1 H2].
    pose proof (padToWord_facts _ H1). lia.
  - lia.
Qed.

Definition A_wp (f : nat) : Prop := forall w dsid off src fc,
  dok (w_dst w) -> msg_ok (w_src w) -> 0 <= w_src_rl w -> region_ok (w_dst w) dsid off 8 ->
  wf_ptr (w_src w) src -> shape_ok src ->
  rpostk w (wcost src + 32 * slots src) (write_ptr f true w dsid off InSrc src fc).
Definition A_cs (f : nat) : Prop := forall w dst src,
  dok (w_dst w) -> msg_ok (w_src w) -> 0 <= w_src_rl w -> dst_ok (w_dst w) dst ->
  wf_struct (w_src w) src ->
  rpostk w (32 * (if p_valid src then PointerCount (p_size src) else 0)) (copy_struct f true w dst InSrc src).

Lemma Phi_set_dst w m' : Phi (w_set_dst w m') = tot m' + 5 * w_src_rl w.
Proof. reflexivity. Qed.

Lemma acs_step f : A_wp f -> A_cs (S f).
Proof.
  intros IH w dst src Hd Hm Hr Hdst Hs. pose proof Hdst as (Vd & Zd & Rd). rewrite copy_struct_S. cbv zeta.
  rewrite Vd. cbn [negb]. destruct (p_valid src) eqn:Vs; cbn [negb].
  2:{ cbn [rpostk]. split; [apply wgood_refl; assumption|lia]. }
  cbn [w_segs]. change (nth (Z.to_nat (p_seg src)) (w_src w) []) with (seg_of (w_src w) src).
  destruct (src_data_slice _ src Hm Hs Vs) as [-> Ls]. cbn [bind].
  rewrite nth_bm_data. unfold wf_size in Zd.
  assert (region_ok (w_dst w) (p_seg dst) (p_off dst) (DataSize (p_size dst))) as Rdd
    by (destruct Rd as (R1 & R2 & R3); unfold region_ok; lia).
  destruct (dst_slice (w_dst w) (p_seg dst) (p_off dst) (DataSize (p_size dst)) Hd Rdd ltac:(lia)) as [-> Ld].
  cbn [bind].
  set (sd := sub (seg_of (w_src w) src) (p_off src) (DataSize (p_size src))) in *.
  set (dd := sub (mem (w_dst w) (p_seg dst)) (p_off dst) (DataSize (p_size dst))) in *.
  set (bs := firstn (Nat.min (length sd) (length dd)) sd ++ repeat 0 (length dd - Nat.min (length sd) (length dd))).
  assert (zlen bs = DataSize (p_size dst)) as Lb.
  { unfold bs, zlen in *. rewrite app_length, firstn_length, repeat_length. lia. }
  assert (region_ok (w_dst w) (p_seg dst) (p_off dst) (zlen bs)) as Rbs by (rewrite Lb; exact Rdd).
  destruct (seg_write_safe (w_dst w) (p_seg dst) (p_off dst) bs Hd Rbs) as (m1 & E1 & D1 & N1 & L1 & _).
  pose proof (seg_write_tot _ _ _ _ _ Hd Rbs E1) as T1. rewrite E1. cbn [lift0 bind].
  assert (wgood w (w_set_dst w m1)) as G1 by (apply wgood_set_dst; auto; apply same_len_grows; auto).
  destruct (wf_struct_inv _ src Hs Vs) as (Hsg & Hz & Ho & He). unfold wf_size in Hz.
  (* the common pointers: 32 each *)
  pose proof (fold_res_postk (wgood w) Phi 32
    (fun wa j =>
       let '(r, rl') := readPtr true (w_segs wa InSrc) (w_rl wa InSrc) (p_seg src)
                                (nth (Z.to_nat (p_seg src)) (w_segs wa InSrc) []) (pointerAddress src j) (p_depth src) in
       do q <- r; write_ptr f true (w_set_rl wa InSrc rl') (p_seg dst) (pointerAddress dst j) InSrc q true)
    (iota (Z.to_nat (Z.min (PointerCount (p_size src)) (PointerCount (p_size dst))))) (w_set_dst w m1)) as F1.
  match type of F1 with ?A -> ?B -> ?C => assert A as HA end.
  { intros j wa Hj (Da & Ga & Sa & Ra). apply in_iota in Hj. cbn [w_segs w_rl]. rewrite Sa.
    change (nth (Z.to_nat (p_seg src)) (w_src w) []) with (seg_of (w_src w) src).
    pose proof (pointerAddress_spec _ src j Hm Hs Vs ltac:(lia)) as PA.
    pose proof (readPtr_safe true (w_src w) (w_src_rl wa) (p_seg src) (seg_of (w_src w) src) (pointerAddress src j)
                  (p_depth src) Hm (seg_of_is_seg _ src Hsg) ltac:(lia) ltac:(lia)) as RS.
    pose proof (readPtr_charge true (w_src w) (w_src_rl wa) (p_seg src) (seg_of (w_src w) src) (pointerAddress src j)
                  (p_depth src) ltac:(lia)) as [RC RX].
    pose proof (readPtr_shape true (w_src w) (w_src_rl wa) (p_seg src) (seg_of (w_src w) src) (pointerAddress src j)
                  (p_depth src)) as RH.
    destruct (readPtr true (w_src w) (w_src_rl wa) (p_seg src) (seg_of (w_src w) src) (pointerAddress src j) (p_depth src))
      as [r rl']. cbn [fst snd] in *.
    destruct r as [q| |]; cbn [bind res_sat] in *; [|exact I|exact RS].
    assert (wgood w (w_set_rl wa InSrc rl')) as Gb.
    { split; [exact Da|]. split; [exact Ga|]. split; [exact Sa|]. cbn. lia. }
    pose proof (RS eq_refl) as Wq.
    pose proof (IH (w_set_rl wa InSrc rl') (p_seg dst) (pointerAddress dst j) q true) as C.
    cbn [w_set_rl w_dst w_src w_src_rl] in C.
    specialize (C Da ltac:(rewrite Sa; exact Hm) ltac:(lia)
                  ltac:(eapply region_grows; [exact Ga|]; apply dst_ptr_slot; auto; lia)
                  ltac:(rewrite Sa; exact Wq) (RH q eq_refl)).
    destruct (write_ptr f true _ (p_seg dst) (pointerAddress dst j) InSrc q true) as [w'| |];
      cbn [rpostk] in *; [|exact I|exact C].
    destruct C as [Gc Pc]. split; [eapply wgood_trans; eassumption|].
    pose proof (wcost_le _ q Hm Wq (RH q eq_refl)) as Wc.
    pose proof (slots_le_readSize _ q Hm Wq) as [Sl0 Sl].
    unfold Phi in *. cbn [w_set_rl w_dst w_src_rl] in Pc. lia. }
  specialize (F1 HA G1). clear HA.
  destruct (fold_res _ _ _) as [w2| |]; cbn [bind]; [|exact I|exact F1].
  destruct F1 as [G2 P2]. rewrite zlen_iota in P2.
  pose proof (fold_res_postk (wgood w) Phi 0
    (fun wa j => lift0 wa (writeRawPointer (w_dst wa) (p_seg dst) (pointerAddress dst j) 0))
    (map (fun k => PointerCount (p_size src) + k)
         (iota (Z.to_nat (PointerCount (p_size dst) - PointerCount (p_size src))))) w2) as F2.
  match type of F2 with ?A -> ?B -> ?C => assert A as HA end.
  { intros j wa Hj Gwa. pose proof Gwa as (Da & Ga & Sa & Ra). apply in_map_iff in Hj. destruct Hj as (k & <- & Hk). apply in_iota in Hk.
    pose proof (lift0_write_k wa (p_seg dst) (pointerAddress dst (PointerCount (p_size src) + k)) 0 Da ltac:(lia)
                  ltac:(eapply region_grows; [exact Ga|]; apply dst_ptr_slot; auto; lia)) as W.
    destruct (lift0 wa _) as [w'| |]; cbn [rpostk] in *; [|exact I|exact W].
    destruct W as [Gw Pw]. split; [|lia].
    eapply wgood_trans; [exact Gwa|exact Gw]. }
  specialize (F2 HA G2). clear HA.
  destruct (fold_res _ _ _) as [w3| |]; cbn [rpostk]; [|exact I|exact F2].
  destruct F2 as [G3 P3]. split; [exact G3|].
  rewrite Phi_set_dst in P2. unfold Phi at 2. rewrite <- T1. nia.
Qed.

Lemma slots_nonneg m p : msg_ok m -> wf_ptr m p -> 0 <= slots p.
Proof. intros Hm Hw. apply (slots_le_readSize m p Hm Hw). Qed.

Lemma awp_step f : A_cs f -> A_wp (S f).
Proof.
  intros IH w dsid off src fc Hd Hm Hr Hreg Hs Hsh. rewrite write_ptr_S.
  pose proof (wcost_nonneg src) as Wn. pose proof (slots_nonneg _ src Hm Hs) as Sn.
  destruct (p_valid src) eqn:V; cbn [negb].
  2:{ eapply rpostk_weaken; [|apply lift0_write_k; assumption]. lia. }
  pose proof (Hs V) as [Hseg Hobj]. specialize (Hsh V). unfold wf_obj in Hobj.
  destruct (p_kind src) eqn:K.
  - (* struct *)
    destruct Hobj as (Hz & Ho & He).
    destruct (os_isZero (p_size src)).
    { destruct (rawStructPointer (-1) (mkOS 0 0)) eqn:E; [|vm_compute in E; discriminate].
      cbn [of_opt_panic bind]. eapply rpostk_weaken; [|apply lift0_write_k; assumption]. lia. }
    cbn [is_src]. rewrite Bool.orb_true_r. cbn [orb]. cbv zeta.
    destruct (pad_size_wf _ Hz) as (Hzc & Hle & H8). cbv zeta in Hzc, Hle, H8.
    assert (wcost src = padToWord (totalSize (mkOS (padToWord (DataSize (p_size src))) (PointerCount (p_size src)))) + 16)
      as Ew by (unfold wcost; rewrite V, K; reflexivity).
    assert (slots src = PointerCount (p_size src)) as Es by (unfold slots; rewrite V, K; reflexivity).
    set (csz := mkOS (padToWord (DataSize (p_size src))) (PointerCount (p_size src))) in *.
    pose proof (alloc_nopanic (w_dst w) dsid (totalSize csz)) as NP.
    destruct (alloc (w_dst w) dsid (totalSize csz)) as [[[m1 nsid] naddr]| |] eqn:EA; cbn [bind];
      [|exact I|congruence].
    pose proof (totalSize_bound _ Hzc) as Hts.
    pose proof (alloc_tot (w_dst w) dsid (totalSize csz) m1 nsid naddr Hd (proj1 Hreg) ltac:(lia) EA) as T1.
    destruct (alloc_safe (w_dst w) dsid (totalSize csz) m1 nsid naddr Hd (proj1 Hreg) ltac:(lia) EA)
      as (D1 & G1 & S1 & A0 & A1 & A2 & A3 & _).
    assert (wgood w (w_set_dst w m1)) as Gw1 by (apply wgood_set_dst; auto).
    set (dstp := mkPtr true nsid naddr 0 csz maxDepth KStruct false false false).
    pose proof (IH (w_set_dst w m1) dstp src D1 Hm Hr) as C.
    assert (dst_ok m1 dstp) as Hdo.
    { split; [reflexivity|]. split; [exact Hzc|]. unfold dstp, region_ok. cbn [p_seg p_off p_size].
      rewrite (totalSize_wf _ Hzc) in *. lia. }
    specialize (C Hdo (conj Hs (fun _ => K))). rewrite V in C.
    destruct (copy_struct f true (w_set_dst w m1) dstp InSrc src) as [w2| |]; cbn [bind]; [|exact I|exact C].
    cbn [rpostk] in C. destruct C as [C P2]. rewrite Phi_set_dst in P2.
    pose proof (wgood_trans _ _ _ Gw1 C) as G2. pose proof G2 as (D2 & Gr2 & S2 & R2).
    destruct (rawStructPointer_some 0 (p_size dstp) H8) as [raw ->]. cbn [of_opt_panic bind].
    eapply rpostk_weaken; [|eapply (rpostk_trans w w2 (padToWord (totalSize csz) + 32 * PointerCount (p_size src)) 16);
                             [exact G2| |]].
    + lia.
    + unfold Phi at 2. lia.
    + apply place_k; auto; try lia.
      * eapply region_grows; eassumption.
      * unfold dstp. cbn [p_seg]. destruct Gr2 as [Gn _]. cbn [w_dst w_set_dst] in *.
        destruct C as (_ & [Gn2 _] & _). cbn [w_dst w_set_dst] in Gn2. lia.
  - (* list *)
    destruct Hobj as (Ho & Hl & Hr').
    cbn [is_src]. rewrite Bool.orb_true_r.
    destruct (seg_of_ok (w_src w) src Hm) as [Hsl _].
    assert (wcost src = padToWord (list_allocSize src) + 16) as Ew by (unfold wcost; rewrite V, K; reflexivity).
    assert (slots src = if p_bit src then 0 else p_len src * PointerCount (p_size src)) as Es
      by (unfold slots; rewrite V, K; reflexivity).
    destruct (list_content _ src Hm (conj Hs (fun _ => K)) V ltac:(intros _; rewrite K; exact Hsh)) as (Hc0 & Hc1 & Hsz).
    cbv zeta in Hc0, Hc1, Hsz.
    set (content := if p_bit src then (p_len src + 7) / 8 else p_len src * totalSize (p_size src)) in *.
    pose proof (alloc_nopanic (w_dst w) dsid (list_allocSize src)) as NP.
    destruct (alloc (w_dst w) dsid (list_allocSize src)) as [[[m1 nsid] naddr]| |] eqn:EA; cbn [bind];
      [|exact I|congruence].
    assert (0 <= list_allocSize src) as Hsz0 by (rewrite Hsz; destruct (p_comp src); lia).
    pose proof (alloc_tot (w_dst w) dsid (list_allocSize src) m1 nsid naddr Hd (proj1 Hreg) Hsz0 EA) as T1.
    destruct (alloc_safe (w_dst w) dsid (list_allocSize src) m1 nsid naddr Hd (proj1 Hreg) Hsz0 EA)
      as (D1 & G1 & S1 & A0 & A1 & A2 & A3 & _).
    assert (wgood w (w_set_dst w m1)) as Gw1 by (apply wgood_set_dst; auto).
    match goal with |- rpostk w ?KK (bind (bind _ ?K1) ?K0) =>
      assert (forall w2 doff, wgood w w2 -> Phi w2 <= Phi w + padToWord (list_allocSize src) ->
                0 <= doff -> naddr <= doff ->
                doff + content <= zlen (mem m1 nsid) -> grows m1 (w_dst w2) ->
                (if p_comp src then doff = naddr + 8 else doff = naddr) ->
                rpostk w KK (bind (K1 (w2, doff, content)) K0)) as Htail end.
    { intros w2 doff Gw2 Pw2 Hd0 Hd1 Hd2 Gm Hdo. cbv beta iota zeta.
      destruct Gw2 as (D2 & Gr2 & S2 & R2).
      set (dstl := mkPtr true nsid doff (p_len src) (p_size src) maxDepth KList (p_comp src) (p_bit src) false).
      assert (region_ok (w_dst w2) nsid doff content) as Rl.
      { eapply region_grows; [exact Gm|]. unfold region_ok. lia. }
      assert (rpostk w2 (32 * slots src)
                     (if p_bit src || (PointerCount (p_size src) =? 0)
                      then copy_bytes w2 InSrc (p_seg src) (p_off src) nsid doff content
                      else fold_res (iota (Z.to_nat (list_len src))) w2
                             (fun wa i => do de <- list_struct true dstl i; do se <- list_struct true src i;
                                          copy_struct f true wa de InSrc se))) as H3.
      { destruct (p_bit src || (PointerCount (p_size src) =? 0)) eqn:Ebp.
        - unfold copy_bytes. cbn [w_segs]. rewrite S2.
          change (nth (Z.to_nat (p_seg src)) (w_src w) []) with (seg_of (w_src w) src).
          unfold maxSegmentSize in Hsl. rewrite slice_ok by lia. cbn [bind].
          assert (region_ok (w_dst w2) nsid doff (zlen (sub (seg_of (w_src w) src) (p_off src) content))) as Rb
            by (rewrite sub_length by lia; exact Rl).
          destruct (seg_write_safe (w_dst w2) nsid doff (sub (seg_of (w_src w) src) (p_off src) content) D2 Rb)
            as (m3 & E3 & D3 & N3 & L3 & _).
          pose proof (seg_write_tot _ _ _ _ _ D2 Rb E3) as T3. rewrite E3.
          cbn [lift0 bind rpostk]. split; [apply wgood_set_dst; auto; try lia; apply same_len_grows; auto|].
          rewrite Phi_set_dst, T3. unfold Phi. lia.
        - assert (p_bit src = false) as B by (destruct (p_bit src); [discriminate|reflexivity]).
          unfold content in *. rewrite B in *. destruct Hr' as [Hz Hr'].
          pose proof (totalSize_bound _ Hz) as Hts. pose proof (totalSize_wf _ Hz) as Ets.
          pose proof (fold_res_postk (wgood w2) Phi (32 * PointerCount (p_size src))
            (fun wa i => do de <- list_struct true dstl i; do se <- list_struct true src i;
                         copy_struct f true wa de InSrc se)
            (iota (Z.to_nat (list_len src))) w2) as FF.
          match type of FF with ?A -> ?B -> ?C => assert A as HA end.
          { intros i wa Hi Gwa. pose proof Gwa as (Da & Ga & Sa & Ra). apply in_iota in Hi.
            assert (0 <= i < p_len src) as Hi' by (unfold list_len in Hi; rewrite V in Hi; lia).
            assert (i * totalSize (p_size src) + totalSize (p_size src) <= p_len src * totalSize (p_size src)) as Hie by nia.
            assert (0 <= i * totalSize (p_size src)) as Hi0 by nia.
            destruct D1 as [I1 Sm1]. pose proof (Sm1 nsid) as Smn.
            destruct (list_struct_at dstl i eq_refl B Hi' ltac:(cbn [p_off p_size dstl]; lia)) as [dd ->].
            cbn [bind p_seg p_off p_size dstl].
            pose proof (list_struct_safe true (w_src w) src i Hm (conj Hs (fun _ => K))
                          ltac:(unfold list_len; rewrite V; lia)) as Hse.
            assert (forall se, list_struct true src i = Ok se ->
                      (if p_valid se then PointerCount (p_size se) else 0) <= PointerCount (p_size src)) as Hpc.
            { intros se. unfold list_struct. destruct (_ || _ || _); [discriminate|]. unfold wf_size in Hz.
              destruct (p_bit src); [intros X; inversion X; cbn; lia|].
              destruct (element _ _ _); intros X; inversion X; cbn; lia. }
            destruct (list_struct true src i) as [se| |]; cbn [bind res_sat] in *; [|exact I|exact Hse].
            pose proof (IH wa (mkPtr true nsid (doff + i * totalSize (p_size src)) 0 (p_size src) dd KStruct false false true)
                          se Da ltac:(rewrite Sa, S2; exact Hm) ltac:(lia)) as C.
            specialize (C ltac:(split; [reflexivity|]; split; [exact Hz|]; cbn [p_seg p_off p_size];
                                eapply region_grows; [exact Ga|]; destruct Rl as (Q1 & Q2 & Q3); unfold region_ok;
                                rewrite <- Ets; lia)
                          ltac:(rewrite Sa, S2; exact Hse)).
            destruct (copy_struct f true wa _ InSrc se) as [w'| |]; cbn [rpostk] in *; [|exact I|exact C].
            destruct C as [Gc Pc]. split.
            - eapply wgood_trans; [exact Gwa|exact Gc].
            - specialize (Hpc se eq_refl). lia. }
          specialize (FF HA (wgood_refl w2 D2 ltac:(lia))). clear HA.
          destruct (fold_res _ _ _) as [w3| |]; cbn [rpostk]; [|exact I|exact FF].
          destruct FF as [G3 P3]. split; [exact G3|]. rewrite zlen_iota in P3.
          rewrite Es. unfold list_len in P3. rewrite V in P3. unfold wf_size in Hz. nia. }
      match goal with |- rpostk w _ (bind (bind ?X _) _) => change X with
        (if p_bit src || (PointerCount (p_size src) =? 0)
         then copy_bytes w2 InSrc (p_seg src) (p_off src) nsid doff content
         else fold_res (iota (Z.to_nat (list_len src))) w2
                (fun wa i => do de <- list_struct true dstl i; do se <- list_struct true src i;
                             copy_struct f true wa de InSrc se)) end.
      destruct (if p_bit src || (PointerCount (p_size src) =? 0) then _ else _) as [w3| |]; cbn [bind];
        [|exact I|exact H3].
      cbn [rpostk] in H3. destruct H3 as [H3 P3]. fold dstl.
      pose proof (wgood_trans _ _ _ (conj D2 (conj Gr2 (conj S2 R2))) H3) as G3.
      pose proof G3 as (D3 & Gr3 & S3 & R3).
      assert (shape_ok dstl) as Hshl.
      { intros _. cbn [p_kind p_comp p_bit p_size p_off dstl].
        destruct (p_comp src); [|exact Hsh]. destruct Hsh as (_ & X & Y). split; [lia|]. split; assumption. }
      pose proof (list_raw_shape dstl eq_refl eq_refl Hshl) as NR.
      destruct (list_raw dstl) as [raw| |]; cbn [bind]; [|exact I|congruence].
      eapply rpostk_weaken; [|eapply (rpostk_trans w w3 (padToWord (list_allocSize src) + 32 * slots src) 16);
                               [exact G3| |]].
      - lia.
      - lia.
      - apply place_k; auto; try lia.
        + eapply region_grows; eassumption.
        + cbn [p_seg dstl]. destruct H3 as (_ & [Gn3 _] & _). destruct Gm as [Gnm _]. lia. }
    destruct (p_comp src) eqn:C.
    + destruct Hsh as (H8 & _). unfold maxSegmentSize in Hsl.
      cbn [w_segs w_set_dst w_src w_dst]. rewrite (u32_id (p_off src - 8)) by lia.
      change (nth (Z.to_nat (p_seg src)) (w_src w) []) with (seg_of (w_src w) src).
      destruct (readRawPointer_ok (seg_of (w_src w) src) (p_off src - 8) (seg_of_ok _ src Hm) ltac:(lia) ltac:(lia))
        as [tag [-> _]]. cbn [bind].
      rewrite Hsz in A2, A3.
      destruct (writeRaw_safe m1 nsid naddr tag D1 ltac:(unfold region_ok; lia)) as (m2 & -> & D2 & N2 & L2 & _).
      cbn [lift0 bind].
      destruct (addSize naddr 8) as [o|] eqn:Eo; [|exact I]. apply addSize_spec in Eo. destruct Eo as [-> _].
      cbn [bind]. rewrite Hsz at 1. replace (u32 (content + 8 - 8)) with content by (rewrite u32_id; lia).
      apply Htail; try lia.
      * cbn [w_set_dst]. eapply wgood_trans; [exact Gw1|].
        apply wgood_set_dst; auto. apply same_len_grows; auto.
      * unfold Phi. cbn [w_dst w_set_dst w_src_rl]. rewrite (tot_same _ _ N2 L2). lia.
      * cbn [w_dst w_set_dst]. apply same_len_grows; auto.
    + cbn [bind]. rewrite Hsz at 1. rewrite Hsz in A2, A3. apply Htail; try lia; auto.
      * unfold Phi. cbn [w_dst w_set_dst w_src_rl]. lia.
      * apply grows_refl.
  - (* capability *)
    cbn [is_src]. cbv zeta.
    set (m1 := mkBM (bm_arena (w_dst w)) (bm_segs (w_dst w)) (bm_caps (w_dst w) ++ [p_len src]) (bm_rl (w_dst w))).
    pose proof (lift0_write_k (mkW m1 (w_src w) (w_src_rl w)) dsid off
                  (rawInterfacePointer (u32 (zlen (bm_caps (w_dst w))))) (dok_caps _ _ Hd) Hr Hreg) as H.
    cbn [w_dst] in H. unfold lift0 in *.
    destruct (writeRawPointer m1 dsid off _) as [m'| |]; cbn [bind rpostk] in *; auto.
    destruct H as [G P]. split; [exact G|]. unfold Phi in *. cbn [w_dst w_src_rl w_set_dst] in *.
    change (tot m1) with (tot (w_dst w)) in P. lia.
Qed.

Theorem copy_alloc_all : forall f, A_wp f /\ A_cs f.
Proof.
  induction f as [|f [IHw IHc]].
  - split; intros ?; intros; [rewrite write_ptr_O|rewrite copy_struct_O]; exact I.
  - split; [apply awp_step; assumption|apply acs_step; assumption].
Qed.

(* copy_safe (no panic): Segment.writePtr with a pointer from another (hostile) message:
   Struct.SetPtr, PointerList.Set, Message.SetRoot across messages.  Any fuel, any limits. *)
Theorem write_ptr_safe f w dsid off src fc :
  dok (w_dst w) -> msg_ok (w_src w) -> 0 <= w_src_rl w -> region_ok (w_dst w) dsid off 8 ->
  wf_ptr (w_src w) src -> shape_ok src ->
  rpost w (write_ptr f true w dsid off InSrc src fc).
Proof. intros. eapply rpostk_rpost. apply (copy_alloc_all f); assumption. Qed.

(* copyStruct: List.SetStruct / Struct.CopyFrom across messages *)
Theorem copy_struct_safe f w dst src :
  dok (w_dst w) -> msg_ok (w_src w) -> 0 <= w_src_rl w -> dst_ok (w_dst w) dst ->
  wf_struct (w_src w) src ->
  rpost w (copy_struct f true w dst InSrc src).
Proof. intros. eapply rpostk_rpost. apply (copy_alloc_all f); assumption. Qed.

Lemma sumN_le f g n : (forall i, (i < n)%nat -> f i <= g i) -> sumN f n <= sumN g n.
Proof. induction n as [|n IH]; intros H; cbn [sumN]; [lia|]. specialize (IH ltac:(intros; apply H; lia)). specialize (H n ltac:(lia)). lia. Qed.
Lemma grows_tot m m' : grows m m' -> tot m <= tot m'.
Proof.
  intros [Gn Gl]. unfold nsegs, zlen in Gn. rewrite (tot_upto m (length (bm_segs m'))) by lia. unfold tot.
  apply sumN_le. intros i _. unfold lenf. apply Gl. lia.
Qed.

(* copy_alloc: bytes appended to the destination by a cross-message writePtr / copyStruct.
   [tot dst' - tot dst] <= own padded copy + landing pad + 32 per pointer slot of the source
   object + 5 x (source traversal budget consumed); the destination never shrinks and the
   budget never grows.  For an object the reader handed out, own copy + pad <= readSize + 32
   and 32 x slots <= 4 x readSize, so the whole copy appends at most
   5 x (readSize src + budget consumed) + 32 bytes: no amplification beyond 5 T + 32. *)
Theorem write_ptr_alloc f w dsid off src fc w' :
  dok (w_dst w) -> msg_ok (w_src w) -> 0 <= w_src_rl w -> region_ok (w_dst w) dsid off 8 ->
  wf_ptr (w_src w) src -> shape_ok src ->
  write_ptr f true w dsid off InSrc src fc = Ok w' ->
  0 <= w_src_rl w' <= w_src_rl w /\
  0 <= tot (w_dst w') - tot (w_dst w) <= wcost src + 32 * slots src + 5 * (w_src_rl w - w_src_rl w') /\
  tot (w_dst w') - tot (w_dst w) <= 5 * (readSize src + (w_src_rl w - w_src_rl w')) + 32.
Proof.
  intros Hd Hm Hr Hreg Hs Hsh E. destruct (copy_alloc_all f) as [H _].
  specialize (H w dsid off src fc Hd Hm Hr Hreg Hs Hsh). rewrite E in H. destruct H as [(D & G & S & R) P].
  pose proof (grows_tot _ _ G). pose proof (wcost_le _ src Hm Hs Hsh). pose proof (slots_le_readSize _ src Hm Hs).
  unfold Phi in P. repeat split; lia.
Qed.

Theorem copy_struct_alloc f w dst src w' :
  dok (w_dst w) -> msg_ok (w_src w) -> 0 <= w_src_rl w -> dst_ok (w_dst w) dst ->
  wf_struct (w_src w) src -> p_valid src = true ->
  copy_struct f true w dst InSrc src = Ok w' ->
  0 <= w_src_rl w' <= w_src_rl w /\
  0 <= tot (w_dst w') - tot (w_dst w) <= 32 * PointerCount (p_size src) + 5 * (w_src_rl w - w_src_rl w').
Proof.
  intros Hd Hm Hr Hdst Hs V E. destruct (copy_alloc_all f) as [_ H].
  specialize (H w dst src Hd Hm Hr Hdst Hs). rewrite E, V in H. destruct H as [(D & G & S & R) P].
  pose proof (grows_tot _ _ G). unfold Phi in P. repeat split; lia.
Qed.
