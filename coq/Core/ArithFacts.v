(* Spec-level facts about the L0 pointer codec of Core/Arith.v:
   - [ptr_fields_spec]: every extractor equals the bit field the encoding spec names, for all
     64-bit words;
   - round-trip facts: the constructors followed by the extractors give the arguments back, for
     in-range arguments (needed by the builder proofs, C04/C05). *)
From Coq Require Import ZArith Lia Bool ZifyBool.
From CV Require Import Base.Bits Core.Arith Core.ArithMore.
Open Scope Z_scope.
Ltac Zify.zify_post_hook ::= Z.div_mod_to_equations.

(* bits lo .. lo+n-1 of w, and the two's complement reading of an n-bit field *)
Definition bits (w lo n : Z) : Z := (w / 2 ^ lo) mod 2 ^ n.
Definition signed (n x : Z) : Z := if x <? 2 ^ (n - 1) then x else x - 2 ^ n.

Definition word64 (w : Z) := 0 <= w < 18446744073709551616.

Ltac unw := unfold u8, u16, u32, u64, s32, s64 in *.
Ltac pows :=
  repeat match goal with
         | |- context [2 ^ ?k] => let v := eval vm_compute in (2 ^ k) in change (2 ^ k) with v
         | H : context [2 ^ ?k] |- _ => let v := eval vm_compute in (2 ^ k) in change (2 ^ k) with v in H
         end.
Ltac split_ifs :=
  repeat match goal with
         | |- context [if ?c then _ else _] => let E := fresh "E" in destruct c eqn:E
         end.


Lemma pointerType_spec : forall w,
  pointerType w = if bits w 0 2 =? 2 then bits w 0 3 else bits w 0 2.
Proof.
  intro w. unfold pointerType, bits. cbn [Z.sub]. pows. rewrite Z.div_1_r. reflexivity.
Qed.

Lemma ptr_offset_spec : forall w, ptr_offset w = signed 30 (bits w 2 30).
Proof.
  intro w. unfold ptr_offset, signed, bits. cbn [Z.sub Z.pos_sub Z.pred_double Pos.pred_double]. pows.
  unw. cbv zeta. split_ifs; lia.
Qed.

Lemma structSize_spec : forall w, structSize w = mkOS (8 * bits w 32 16) (bits w 48 16).
Proof.
  intro w. unfold structSize, timesUnchecked, bits. pows. f_equal. unw. lia.
Qed.

Lemma listType_spec : forall w, listType w = bits w 32 3.
Proof. intro w. unfold listType, bits. pows. reflexivity. Qed.

Lemma numListElements_spec : forall w, word64 w -> numListElements w = bits w 35 29.
Proof.
  intros w Hw. unfold word64 in Hw. unfold numListElements, bits. pows. unw. cbv zeta. split_ifs; lia.
Qed.

Lemma farAddress_spec : forall w, farAddress w = 8 * bits w 3 29.
Proof. intro w. unfold farAddress, bits. pows. unw. lia. Qed.

Lemma farSegment_spec : forall w, farSegment w = bits w 32 32.
Proof. intro w. unfold farSegment, bits. pows. reflexivity. Qed.

Lemma capabilityIndex_spec : forall w, capabilityIndex w = bits w 32 32.
Proof. intro w. unfold capabilityIndex, bits. pows. reflexivity. Qed.

Lemma otherPointerType_spec : forall w, otherPointerType w = bits w 2 30.
Proof. intro w. unfold otherPointerType, bits. pows. unw. lia. Qed.

Theorem ptr_fields_spec : forall w, word64 w ->
  pointerType w = (if bits w 0 2 =? 2 then bits w 0 3 else bits w 0 2) /\
  ptr_offset w = signed 30 (bits w 2 30) /\
  structSize w = mkOS (8 * bits w 32 16) (bits w 48 16) /\
  listType w = bits w 32 3 /\
  numListElements w = bits w 35 29 /\
  farAddress w = 8 * bits w 3 29 /\
  farSegment w = bits w 32 32 /\
  capabilityIndex w = bits w 32 32 /\
  otherPointerType w = bits w 2 30.
Proof.
  intros w Hw.
  repeat split;
    auto using pointerType_spec, ptr_offset_spec, structSize_spec, listType_spec,
      numListElements_spec, farAddress_spec, farSegment_spec, capabilityIndex_spec,
      otherPointerType_spec.
Qed.

(* ranges of the extracted fields *)
Lemma pointerType_cases : forall w,
  pointerType w = structPointer \/ pointerType w = listPointer \/ pointerType w = farPointer \/
  pointerType w = doubleFarPointer \/ pointerType w = otherPointer.
Proof.
  intro w. unfold pointerType, structPointer, listPointer, farPointer, doubleFarPointer, otherPointer.
  cbv zeta. split_ifs; lia.
Qed.
Lemma ptr_offset_range : forall w, -536870912 <= ptr_offset w < 536870912.
Proof. intro w. unfold ptr_offset. unw. cbv zeta. split_ifs; lia. Qed.
Lemma listType_range : forall w, 0 <= listType w < 8.
Proof. intro w. unfold listType. lia. Qed.
Lemma numListElements_range : forall w, word64 w -> 0 <= numListElements w < 536870912.
Proof. intros w Hw. unfold word64 in Hw. unfold numListElements. unw. cbv zeta. split_ifs; lia. Qed.
Lemma structSize_range : forall w,
  0 <= DataSize (structSize w) <= 524280 /\ DataSize (structSize w) mod 8 = 0 /\
  0 <= PointerCount (structSize w) < 65536.
Proof. intro w. unfold structSize, timesUnchecked. cbn [DataSize PointerCount]. unw. lia. Qed.
Lemma farAddress_range : forall w, 0 <= farAddress w <= 4294967288 /\ farAddress w mod 8 = 0.
Proof. intro w. unfold farAddress. unw. lia. Qed.
Lemma farSegment_range : forall w, 0 <= farSegment w < 4294967296.
Proof. intro w. unfold farSegment. unw. lia. Qed.


(* a struct/list size the encoding can represent *)
Definition os_wf (sz : ObjectSize) : Prop :=
  0 <= DataSize sz <= 524280 /\ DataSize sz mod 8 = 0 /\ 0 <= PointerCount sz < 65536.
Definition off_ok (off : Z) : Prop := -536870912 <= off < 536870912.

Lemma off_field : forall off, u32 (u32 off * 4) = (off mod 1073741824) * 2 ^ 2.
Proof. intro off. pows. unw. lia. Qed.

Lemma rawStructPointer_sum : forall off sz, os_wf sz ->
  rawStructPointer off sz =
  Some (PointerCount sz * 281474976710656 + (DataSize sz / 8) * 4294967296 + (off mod 1073741824) * 4).
Proof.
  intros off [ds pc] (Hd & Hm & Hp). cbn [DataSize PointerCount] in *.
  unfold rawStructPointer, dataWordCount. cbn [DataSize PointerCount].
  rewrite Hm. cbn [Z.eqb]. f_equal. unfold structPointer. rewrite Z.lor_0_l, off_field.
  assert (HB : u64 (u64 (s32 (ds / 8)) * 4294967296) = (ds / 8) * 2 ^ 32)
    by (pows; unw; cbv zeta; split_ifs; lia).
  assert (HC : u64 (pc * 281474976710656) = pc * 2 ^ 48) by (pows; unw; lia).
  rewrite HB, HC.
  rewrite (lor_small_shift_add (ds / 8) _ 32) by (pows; lia).
  rewrite (lor_small_shift_add pc _ 48) by (pows; lia).
  pows. lia.
Qed.

Lemma rawListPointer_sum : forall off lt len, 0 <= lt < 8 -> 0 <= len < 536870912 ->
  rawListPointer off lt len =
  len * 34359738368 + lt * 4294967296 + (off mod 1073741824) * 4 + 1.
Proof.
  intros off lt len Hl Hn. unfold rawListPointer, listPointer. rewrite off_field.
  assert (HB : u64 (lt * 4294967296) = lt * 2 ^ 32) by (pows; unw; lia).
  assert (HC : u64 (u64 len * 34359738368) = len * 2 ^ 35) by (pows; unw; lia).
  rewrite HB, HC.
  rewrite (lor_small_shift_add _ 1 2) by (pows; lia).
  rewrite (lor_small_shift_add lt _ 32) by (pows; lia).
  rewrite (lor_small_shift_add len _ 35) by (pows; lia).
  pows. lia.
Qed.

Lemma rawInterfacePointer_sum : forall cap, 0 <= cap < 4294967296 ->
  rawInterfacePointer cap = cap * 4294967296 + 3.
Proof.
  intros cap Hc. unfold rawInterfacePointer, otherPointer.
  assert (HB : u64 (cap * 4294967296) = cap * 2 ^ 32) by (pows; unw; lia).
  rewrite HB, lor_small_shift_add by (pows; lia). pows. lia.
Qed.

(* far (tag 2) and double-far (tag 6) pointer words *)
Lemma far_word_sum : forall tag seg off, 0 <= tag < 8 -> 0 <= seg < 4294967296 -> 0 <= off < 4294967296 ->
  Z.lor (Z.lor tag (off / 8 * 8)) (u64 (seg * 4294967296)) = seg * 4294967296 + off / 8 * 8 + tag.
Proof.
  intros tag seg off Ht Hs Ho.
  assert (HB : u64 (seg * 4294967296) = seg * 2 ^ 32) by (pows; unw; lia).
  rewrite HB. change (off / 8 * 8) with (off / 8 * 2 ^ 3).
  rewrite (lor_small_shift_add (off / 8) _ 3) by (pows; lia).
  rewrite (lor_small_shift_add seg _ 32) by (pows; lia).
  pows. lia.
Qed.

Lemma rawFarPointer_sum : forall seg off, 0 <= seg < 4294967296 -> 0 <= off < 4294967296 ->
  rawFarPointer seg off = seg * 4294967296 + off / 8 * 8 + 2.
Proof. intros. apply far_word_sum; try assumption. unfold farPointer. lia. Qed.

Lemma rawDoubleFarPointer_sum : forall seg off, 0 <= seg < 4294967296 -> 0 <= off < 4294967296 ->
  rawDoubleFarPointer seg off = seg * 4294967296 + off / 8 * 8 + 6.
Proof. intros. apply far_word_sum; try assumption. unfold doubleFarPointer. lia. Qed.

Lemma withOffset_sum : forall p off,
  withOffset p off = p / 4294967296 * 4294967296 + (off mod 1073741824) * 4 + p mod 4.
Proof.
  intros p off. unfold withOffset.
  assert (HA : u32 (s32 (off * 4)) = (off mod 1073741824) * 2 ^ 2)
    by (pows; unw; cbv zeta; split_ifs; lia).
  rewrite HA. change 4294967296 with (2 ^ 32). change 4 with (2 ^ 2) at 1.
  rewrite lor_hi_lo_mid by (pows; lia). pows. lia.
Qed.

(* the landing pad of a double-far pointer: far is a far pointer word (far mod 8 = 2) or the
   tag is a struct/list pointer word (tag mod 4 < 2): the fields do not overlap *)
Lemma landingPadNearPointer_sum : forall far tag, far mod 8 = 2 \/ tag mod 4 < 2 ->
  landingPadNearPointer far tag =
  tag / 4294967296 * 4294967296 + (u32 far / 4 * 4) / 2 + tag mod 4.
Proof.
  intros far tag [H|H]; unfold landingPadNearPointer.
  - assert (HA : u32 far / 4 * 4 / 2 = (u32 far / 8) * 2 ^ 2) by (pows; unw; lia).
    rewrite HA. change 4294967296 with (2 ^ 32). change 4 with (2 ^ 2) at 1.
    rewrite lor_hi_lo_mid by (pows; unw; lia). reflexivity.
  - assert (HA : u32 far / 4 * 4 / 2 = (u32 far / 4) * 2 ^ 1) by (pows; unw; lia).
    rewrite HA. change 4294967296 with (2 ^ 32).
    rewrite lor_hi_lo_mid by (pows; unw; lia). reflexivity.
Qed.


Theorem struct_pointer_roundtrip : forall off sz, off_ok off -> os_wf sz ->
  exists p, rawStructPointer off sz = Some p /\ word64 p /\
    pointerType p = structPointer /\ ptr_offset p = off /\ structSize p = sz.
Proof.
  intros off sz Ho Hs. rewrite rawStructPointer_sum by assumption.
  destruct sz as [ds pc]. destruct Hs as (Hd & Hm & Hp). cbn [DataSize PointerCount] in *.
  unfold off_ok in Ho. eexists. split; [reflexivity|].
  set (p := pc * 281474976710656 + ds / 8 * 4294967296 + off mod 1073741824 * 4).
  assert (Hp1 : p mod 4294967296 = off mod 1073741824 * 4) by (subst p; lia).
  assert (Hp2 : p / 4294967296 = pc * 65536 + ds / 8) by (subst p; lia).
  repeat split.
  - subst p; lia.
  - subst p; lia.
  - unfold pointerType, structPointer. cbv zeta. split_ifs; lia.
  - unfold ptr_offset. unw. cbv zeta. rewrite Hp1. split_ifs; lia.
  - unfold structSize, timesUnchecked. rewrite Hp2. f_equal; unw; lia.
Qed.

Theorem list_pointer_roundtrip : forall off lt len, off_ok off -> 0 <= lt < 8 -> 0 <= len < 536870912 ->
  let p := rawListPointer off lt len in
  word64 p /\ pointerType p = listPointer /\ ptr_offset p = off /\
  listType p = lt /\ numListElements p = len.
Proof.
  intros off lt len Ho Hl Hn. rewrite rawListPointer_sum by assumption.
  unfold off_ok in Ho.
  set (p := len * 34359738368 + lt * 4294967296 + off mod 1073741824 * 4 + 1).
  assert (Hp1 : p mod 4294967296 = off mod 1073741824 * 4 + 1) by (subst p; lia).
  assert (Hp2 : p / 4294967296 = len * 8 + lt) by (subst p; lia).
  cbv zeta. repeat split.
  - subst p; lia.
  - subst p; lia.
  - unfold pointerType, listPointer. cbv zeta. split_ifs; lia.
  - unfold ptr_offset. unw. cbv zeta. rewrite Hp1. split_ifs; lia.
  - unfold listType. rewrite Hp2. lia.
  - unfold numListElements. unw. cbv zeta.
    assert (Hp3 : p / 34359738368 = len) by (subst p; lia). rewrite Hp3. split_ifs; lia.
Qed.

Theorem interface_pointer_roundtrip : forall cap, 0 <= cap < 4294967296 ->
  let p := rawInterfacePointer cap in
  word64 p /\ pointerType p = otherPointer /\ otherPointerType p = 0 /\ capabilityIndex p = cap.
Proof.
  intros cap Hc. rewrite rawInterfacePointer_sum by assumption. cbv zeta.
  unfold word64, pointerType, otherPointer, otherPointerType, capabilityIndex. unw. cbv zeta.
  repeat split; split_ifs; lia.
Qed.

Lemma far_word_fields : forall tag seg off, tag = farPointer \/ tag = doubleFarPointer ->
  0 <= seg < 4294967296 -> 0 <= off < 4294967296 ->
  let p := seg * 4294967296 + off / 8 * 8 + tag in
  word64 p /\ pointerType p = tag /\ farAddress p = off / 8 * 8 /\ farSegment p = seg.
Proof.
  intros tag seg off Ht Hs Ho. cbv zeta.
  unfold word64, pointerType, farPointer, doubleFarPointer, farAddress, farSegment in *. unw. cbv zeta.
  destruct Ht as [-> | ->]; repeat split; split_ifs; lia.
Qed.

Theorem far_pointer_roundtrip : forall seg off, 0 <= seg < 4294967296 -> 0 <= off < 4294967296 ->
  let p := rawFarPointer seg off in
  word64 p /\ pointerType p = farPointer /\ farAddress p = off / 8 * 8 /\ farSegment p = seg.
Proof. intros seg off Hs Ho. rewrite rawFarPointer_sum by assumption. apply far_word_fields; auto. Qed.

Theorem double_far_pointer_roundtrip : forall seg off, 0 <= seg < 4294967296 -> 0 <= off < 4294967296 ->
  let p := rawDoubleFarPointer seg off in
  word64 p /\ pointerType p = doubleFarPointer /\ farAddress p = off / 8 * 8 /\ farSegment p = seg.
Proof. intros seg off Hs Ho. rewrite rawDoubleFarPointer_sum by assumption. apply far_word_fields; auto. Qed.

Corollary far_pointer_roundtrip_aligned : forall seg off,
  0 <= seg < 4294967296 -> 0 <= off < 4294967296 -> off mod 8 = 0 ->
  farAddress (rawFarPointer seg off) = off /\ farAddress (rawDoubleFarPointer seg off) = off.
Proof.
  intros seg off Hs Ho Ha.
  destruct (far_pointer_roundtrip seg off Hs Ho) as (_ & _ & H1 & _).
  destruct (double_far_pointer_roundtrip seg off Hs Ho) as (_ & _ & H2 & _).
  cbv zeta in *. lia.
Qed.

(* withOffset replaces the offset and keeps everything else of a struct or list pointer *)
Theorem withOffset_roundtrip : forall p off, word64 p -> off_ok off -> p mod 4 < 2 ->
  let q := withOffset p off in
  word64 q /\ pointerType q = pointerType p /\ ptr_offset q = off /\
  structSize q = structSize p /\ listType q = listType p /\
  numListElements q = numListElements p.
Proof.
  intros p off Hp Ho Ht. rewrite withOffset_sum. unfold word64, off_ok in *. cbv zeta.
  set (q := p / 4294967296 * 4294967296 + off mod 1073741824 * 4 + p mod 4).
  assert (Hq1 : q mod 4294967296 = off mod 1073741824 * 4 + p mod 4) by (subst q; lia).
  assert (Hq2 : q / 4294967296 = p / 4294967296) by (subst q; lia).
  assert (Hq3 : q / 34359738368 = p / 34359738368) by (subst q; lia).
  assert (Hq4 : q / 281474976710656 = p / 281474976710656) by (subst q; lia).
  repeat split.
  - subst q; lia.
  - subst q; lia.
  - unfold pointerType. cbv zeta. assert (q mod 4 = p mod 4) by (subst q; lia).
    assert (q mod 8 = (off mod 2) * 4 + p mod 4) by (subst q; lia). split_ifs; lia.
  - unfold ptr_offset. unw. cbv zeta. rewrite Hq1. split_ifs; lia.
  - unfold structSize. rewrite Hq2, Hq4. reflexivity.
  - unfold listType. rewrite Hq2. reflexivity.
  - unfold numListElements. rewrite Hq3. reflexivity.
Qed.

(* double-far landing pad: far is the far-pointer word of the pad (type farPointer), tag the
   struct/list pointer word after it. The result decodes to tag's type and sizes with far's
   address (in words, from the start of the segment) as offset. *)
Theorem landingPadNearPointer_roundtrip : forall far tag, word64 far -> word64 tag ->
  pointerType far = farPointer -> tag mod 4 < 2 ->
  let q := landingPadNearPointer far tag in
  word64 q /\ pointerType q = pointerType tag /\ ptr_offset q = farAddress far / 8 /\
  structSize q = structSize tag /\ listType q = listType tag /\
  numListElements q = numListElements tag /\
  resolve (ptr_offset q) 0 = Some (farAddress far).
Proof.
  intros far tag Hf Ht Hfp Htt. rewrite landingPadNearPointer_sum by (right; assumption).
  unfold word64 in *. cbv zeta.
  assert (Hf8 : far mod 8 = 2).
  { unfold pointerType, farPointer in Hfp. cbv zeta in Hfp.
    destruct (far mod 4 =? 2) eqn:E; lia. }
  set (q := tag / 4294967296 * 4294967296 + u32 far / 4 * 4 / 2 + tag mod 4).
  assert (Hq1 : q mod 4294967296 = (u32 far / 8) * 4 + tag mod 4) by (subst q; unw; lia).
  assert (Hq2 : q / 4294967296 = tag / 4294967296) by (subst q; unw; lia).
  assert (Hq3 : q / 34359738368 = tag / 34359738368) by (subst q; unw; lia).
  assert (Hq4 : q / 281474976710656 = tag / 281474976710656) by (subst q; unw; lia).
  assert (Hoff : ptr_offset q = farAddress far / 8).
  { unfold ptr_offset, farAddress. unw. cbv zeta. rewrite Hq1. split_ifs; lia. }
  repeat split.
  - subst q; unw; lia.
  - subst q; unw; lia.
  - unfold pointerType. cbv zeta. assert (q mod 4 = tag mod 4) by (subst q; unw; lia).
    split_ifs; lia.
  - exact Hoff.
  - unfold structSize. rewrite Hq2, Hq4. reflexivity.
  - unfold listType. rewrite Hq2. reflexivity.
  - unfold numListElements. rewrite Hq3. reflexivity.
  - rewrite Hoff. pose proof (farAddress_range far) as [Hr Hm].
    unfold resolve, element, maxSegmentSize. cbv zeta.
    split_ifs; [lia|]. f_equal. lia.
Qed.

(* non-vacuity: the hypotheses of the round-trip theorems are satisfiable *)
Example roundtrip_hyps_satisfiable :
  off_ok (-3) /\ os_wf (mkOS 16 2) /\ word64 (rawListPointer (-3) 7 5) /\
  pointerType (rawFarPointer 1 8) = farPointer /\ (rawListPointer 0 2 1) mod 4 < 2.
Proof. unfold off_ok, os_wf, word64. cbn [DataSize PointerCount]. vm_compute. intuition congruence. Qed.
