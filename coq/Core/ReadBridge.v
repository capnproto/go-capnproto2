(* C05: from the words a pointer slot holds ([placed], HeapInv.v) to what the reader model's
   Segment.readPtr returns: the handle of the table object the slot points to (any read limit,
   any depth limit: an Ok result has exactly the object's fields). *)
From CV Require Import Core.Builder Core.ReaderFacts Core.ArithFacts Core.BuilderFacts Core.AllocProofs
  Core.WritePtrProofs Core.HeapProofs Core.BuildOps Core.BuildValid Core.BuildInv Core.HeapInv.
From CV Require Core.ArithMore.
From Coq Require Import ZifyBool ZifyNat.
Open Scope Z_scope.

Ltac Zify.zify_post_hook ::= Z.div_mod_to_equations.

Lemma read_of_word_at (ms : segs) sid off w :
  word_at ms sid off = Some w -> off + 8 < 4294967296 ->
  readRawPointer (nth (Z.to_nat sid) ms []) off = Ok w.
Proof.
  intros H Hl. unfold word_at in H. cbv zeta in H.
  destruct ((0 <=? sid) && (sid <? zlen ms)) eqn:E1; [|discriminate].
  destruct ((0 <=? off) && (off + 8 <=? zlen (nth (Z.to_nat sid) ms []))) eqn:E2; [|discriminate].
  unfold readRawPointer, readUintN, slice. cbv zeta. unfold addSizeUnchecked, u32.
  assert (H0 : (off + 8) mod 4294967296 = off + 8) by lia. rewrite H0.
  assert (C : (0 <=? off) && (off <=? off + 8) && (off + 8 <=? zlen (nth (Z.to_nat sid) ms [])) = true) by lia.
  rewrite C. cbn [bind]. replace (off + 8 - off) with 8 by lia. f_equal. change (Z.to_nat 8) with 8%nat. congruence.
Qed.

Lemma placed_resolves_to (ms : segs) dsid off tsid taddr raw oldlen pads :
  placed ms dsid off tsid taddr raw oldlen pads -> raw_ok raw ->
  off mod 8 = 0 -> 0 <= taddr <= 4294967288 -> taddr mod 8 = 0 ->
  0 <= tsid < zlen ms -> zlen ms <= 4294967296 ->
  (forall i, 0 <= i < zlen ms -> seg_len ms i <= 4294967288) ->
  (forall p, In p pads -> r_start p mod 8 = 0) ->
  resolves_to ms dsid off tsid taddr raw.
Proof.
  intros Pl Hraw Hoa Hta Htm Hts Hns Hsm Hpa.
  assert (RW : forall sid a v, word_at ms sid a = Some v -> readRawPointer (nth (Z.to_nat sid) ms []) a = Ok v).
  { intros sid a v W. destruct (word_at_range _ _ _ _ W) as (G1 & G2 & G3). pose proof (Hsm sid G1).
    apply read_of_word_at; [exact W|lia]. }
  apply (words_resolve ms dsid off tsid taddr raw oldlen); auto.
  destruct Pl as [E W|padAddr Hne -> W1 W2|psid padAddr Hne Hps -> W1 W2 W3].
  - apply PWnear; auto.
  - apply PWfar; auto. apply (Hpa _ (or_introl eq_refl)).
  - apply (PWdfar _ _ _ _ _ _ _ psid); auto.
    + destruct (word_at_range _ _ _ _ W2). lia.
    + apply (Hpa _ (or_introl eq_refl)).
Qed.

(* the handle readPtr returns for the pointer to table object [h]: [h]'s fields, the depth limit
   one less than the reader's *)
Definition handle_of (h : Ptr) (depth : Z) : Ptr :=
  mkPtr true (p_seg h) (p_off h) (p_len h) (p_size h) (uint_dec depth) (p_kind h) (p_comp h) (p_bit h) false.

(* readPtr on a non-null struct / list word: the shapes of an Ok result *)
Lemma readPtr_inv strict (ms : segs) rl sid s off depth p rl' dsid dst base val :
  resolveFarPointer strict ms sid s off = Ok (dsid, dst, base, val) -> (val =? 0) = false ->
  readPtr strict ms rl sid s off depth = (Ok p, rl') ->
  (pointerType val = structPointer /\ exists sp, readStructPtr dsid dst base val = Ok sp /\
     p = mkPtr true (p_seg sp) (p_off sp) 0 (p_size sp) (uint_dec depth) KStruct false false false) \/
  (pointerType val = listPointer /\ exists lp, readListPtr strict dsid dst base val = Ok lp /\
     p = mkPtr true (p_seg lp) (p_off lp) (p_len lp) (p_size lp) (uint_dec depth) KList (p_comp lp) (p_bit lp) false) \/
  (pointerType val = otherPointer /\ otherPointerType val = 0 /\
   p = mkPtr true dsid 0 (capabilityIndex val) (mkOS 0 0) 0 KIface false false false).
Proof.
  intros R Hv0 HR. destruct (readPtr_Ok _ _ _ _ _ _ _ _ _ HR) as (d' & s' & b' & v' & R' & C).
  rewrite R in R'. injection R' as <- <- <- <-.
  destruct C as [(-> & _)|(_ & _ & [(T & sp & E & _ & _ & ->)|[(T & lp & E & _ & _ & ->)|(T & O & _ & ->)]])];
    [discriminate Hv0|left|right; left|right; right]; eauto.
Qed.

(* what readPtr charges for the object *)
Definition read_cost (h : Ptr) : Z :=
  match p_kind h with KStruct => totalSize (p_size h) | KList => list_readSize h | KIface => 0 end.

(* a plain (non-composite) list of the table: element type code, pointer word, allocation size *)
Lemma plain_list_raw_elem h : p_valid h = true -> p_comp h = false -> 0 <= p_len h < 536870912 ->
  (p_bit h = true /\ p_size h = mkOS 0 0 \/
   p_bit h = false /\ (p_size h = mkOS 0 1 \/ exists d, p_size h = mkOS d 0 /\ (d = 0 \/ d = 1 \/ d = 2 \/ d = 4 \/ d = 8))) ->
  exists et, 0 <= et < 7 /\ list_raw h = Ok (rawListPointer 0 et (p_len h)) /\
    (if et =? 1 then p_bit h = true /\ p_size h = mkOS 0 0
     else p_bit h = false /\ forall v, listType v = et -> elementSize v = Some (p_size h)) /\
    list_allocSize h = (if et =? 1 then bitListSize (p_len h) else timesUnchecked (totalSize (p_size h)) (p_len h)) /\
    0 <= list_allocSize h <= 4294967288.
Proof.
  intros Hv Hc Hn Hk.
  assert (PL : forall d pc, p_bit h = false -> p_size h = mkOS d pc -> 0 <= d <= 8 -> (pc = 0 \/ pc = 1 /\ d = 0) ->
            list_allocSize h = timesUnchecked (totalSize (p_size h)) (p_len h) /\ 0 <= list_allocSize h <= 4294967288).
  { intros d pc Hb Hsz Hd Hp. rewrite (list_alloc_plain h d pc) by auto. rewrite Hsz.
    unfold timesUnchecked, totalSize, pointerSize, u32. cbn [DataSize PointerCount]. split; [|nia].
    rewrite (Z.mod_small (p_len h)) by lia. rewrite (Z.mod_small (8 * pc)), (Z.mod_small (d + _)) by lia.
    symmetry. apply Z.mod_small. nia. }
  destruct Hk as [[Hb Hsz]|[Hb [Hsz|(d & Hsz & Hd)]]].
  - exists 1. split; [lia|]. unfold list_raw, list_allocSize. rewrite Hv, Hc, Hb. cbn [negb Z.eqb Pos.eqb].
    split; [reflexivity|]. split; [auto|]. split; [reflexivity|]. unfold bitListSize, u32. lia.
  - exists 6. split; [lia|]. split; [unfold list_raw; rewrite Hv, Hc, Hb, Hsz; reflexivity|].
    split; [split; [exact Hb|]|apply (PL 0 1); auto; lia].
    intros v Hl. unfold elementSize. rewrite Hl, Hsz. reflexivity.
  - exists (if d =? 0 then 0 else if d =? 1 then 2 else if d =? 2 then 3 else if d =? 4 then 4 else 5).
    split; [destruct Hd as [->|[->|[->|[->| ->]]]]; cbn; lia|].
    split; [unfold list_raw; rewrite Hv, Hc, Hb, Hsz; destruct Hd as [->|[->|[->|[->| ->]]]]; reflexivity|].
    assert (E1 : ((if d =? 0 then 0 else if d =? 1 then 2 else if d =? 2 then 3 else if d =? 4 then 4 else 5) =? 1) = false)
      by (destruct Hd as [->|[->|[->|[->| ->]]]]; reflexivity).
    rewrite E1. split; [split; [exact Hb|]|apply (PL d 0); auto; lia].
    intros v Hl. unfold elementSize. rewrite Hl, Hsz. destruct Hd as [->|[->|[->|[->| ->]]]]; reflexivity.
Qed.

(* [read_resolved]: Segment.readPtr on a pointer that resolves to table object [h], for every read
   limit and depth limit: an error without charge when the depth limit is 0 or the object ends
   beyond maxSegmentSize (regionInBounds), otherwise [h]'s handle for [read_cost h], or the refusal
   of the read limit *)
Lemma read_resolved strict (ms : segs) rl sid off h raw depth :
  resolves_to ms sid off (p_seg h) (obj_start h) raw ->
  p_valid h = true -> good ms h -> tag_ok ms h -> raw_of h = Ok raw ->
  (p_kind h = KStruct -> os_isZero (p_size h) = false) ->
  readPtr strict ms rl sid (nth (Z.to_nat sid) ms []) off depth =
  if depth =? 0 then (Err, rl)
  else if obj_start h + r_size (obj_reg h) >? maxSegmentSize then (Err, rl)
  else if rl >=? read_cost h then (Ok (handle_of h depth), rl - read_cost h) else (Err, 0).
Proof.
  intros (base & val & R & Vw & Vt & Vs & Vl & Vn & Ve) Hv (Sh & Hseg & Hin & Hoff) Htag Hraw Hnz.
  destruct (in_seg_elim _ _ _ _ Hin) as (G1 & G2 & G3 & G4 & G5). unfold seg_len in G4.
  unfold readPtr. rewrite (R strict).
  unfold handle_of, read_cost, raw_of, shape_ok, obj_reg, obj_bytes in *. cbn [r_size] in *.
  destruct (p_kind h) eqn:EK.
  - (* struct *)
    destruct Sh as (Hw & Hc & Hl & Hb). specialize (Hnz eq_refl).
    destruct (struct_pointer_roundtrip 0 (p_size h) ltac:(unfold off_ok; lia) Hw) as (raw' & Er & _ & Rt & _ & Rs).
    rewrite Er in Hraw. apply Ok_inj in Hraw. subst raw'. rewrite Rs in Vs. rewrite Rt in Vt.
    assert (Hv0 : (val =? 0) = false).
    { destruct (val =? 0) eqn:E; [|reflexivity]. replace val with 0 in Vs by lia. rewrite <- Vs in Hnz. discriminate Hnz. }
    rewrite Hv0. destruct (depth =? 0); [reflexivity|]. cbv zeta. rewrite Vt.
    change (structPointer =? structPointer) with true. cbv iota.
    unfold readStructPtr. rewrite Ve, Vs. cbv zeta. unfold obj_start in *. rewrite Hc in *.
    assert (PW : padToWord (totalSize (p_size h)) = totalSize (p_size h)).
    { rewrite (HeapInv.totalSize_wf _ Hw). destruct Hw as (Hd1 & Hd2 & Hd3). unfold padToWord, u32. lia. }
    rewrite PW in *.
    destruct (regionInBounds _ (p_off h) (totalSize (p_size h))) eqn:ER; cbn [negb].
    + apply regionInBounds_spec in ER. destruct (_ >? _) eqn:EF; [lia|].
      unfold canRead, struct_readSize. cbn [p_valid p_size p_seg p_off]. destruct (rl >=? _); [|reflexivity].
      rewrite Hl, Hb. reflexivity.
    + apply regionInBounds_false in ER. destruct (_ >? _) eqn:EF; [reflexivity|lia].
  - (* list *)
    destruct Sh as (Hn & [(Hc & Hk)|(Hc & Hb & Hw & Ht)]); unfold obj_start in *; rewrite Hc in *.
    + (* plain list *)
      destruct (plain_list_raw_elem h Hv Hc Hn Hk) as (et & Het & L1 & Lk & Lsz & La).
      rewrite L1 in Hraw. apply Ok_inj in Hraw. subst raw.
      destruct (list_pointer_roundtrip 0 et (p_len h) ltac:(unfold off_ok; lia) ltac:(lia) Hn) as (_ & Rt & _ & Rl & Rn).
      cbv zeta in *. rewrite Rt in Vt. rewrite Rl in Vl. rewrite Rn in Vn.
      assert (Hv0 : (val =? 0) = false).
      { destruct (val =? 0) eqn:E; [|reflexivity]. replace val with 0 in Vt by lia. discriminate Vt. }
      rewrite Hv0. destruct (depth =? 0); [reflexivity|]. cbv zeta. rewrite Vt.
      change (listPointer =? structPointer) with false. change (listPointer =? listPointer) with true. cbv iota.
      assert (E7 : (et =? 7) = false) by lia.
      assert (TL : totalListSize val = Some (Some (list_allocSize h))).
      { unfold totalListSize. cbv zeta. rewrite Vl, Vn, Lsz, E7. destruct (et =? 1); [reflexivity|].
        rewrite (proj2 Lk val Vl). reflexivity. }
      unfold readListPtr. rewrite Ve, TL.
      destruct (regionInBounds _ (p_off h) (list_allocSize h)) eqn:ER; cbn [negb].
      * apply regionInBounds_spec in ER. destruct (_ >? _) eqn:EF; [unfold padToWord, u32, maxSegmentSize in *; lia|].
        cbv zeta. rewrite Vl, E7. unfold canRead, list_readSize.
        destruct (et =? 1); destruct Lk as [Hb Hsz]; [|rewrite (Hsz val Vl)];
          cbn [p_valid p_size p_len p_seg p_off p_comp p_bit]; rewrite Hv, Vn, ?Hsz;
          (destruct (rl >=? _); [|reflexivity]); rewrite Hb; reflexivity.
      * apply regionInBounds_false in ER. destruct (_ >? _) eqn:EF; [reflexivity|].
        unfold padToWord, u32, maxSegmentSize in *. lia.
    + (* composite list: the tag word in front of the elements is read as well *)
      destruct (Htag EK Hc) as (tag & Etag & Wtag).
      assert (W0 : 0 <= wc_of h) by (unfold wc_of; destruct Hw as (Hd' & Hm & Hp); lia).
      assert (K0 : 0 <= p_len h * wc_of h) by nia.
      assert (TW : totalWordCount (p_size h) = Some (wc_of h)).
      { unfold totalWordCount, dataWordCount, wc_of. destruct Hw as (Hd' & Hm & Hp). rewrite Hm. cbn [Z.eqb]. f_equal. apply s32_id. lia. }
      unfold list_raw in Hraw. rewrite Hv, Hc, TW in Hraw. cbn [negb] in Hraw.
      rewrite (s32_id (p_len h * wc_of h)) in Hraw by lia. apply Ok_inj in Hraw. subst raw.
      destruct (list_pointer_roundtrip 0 7 (p_len h * wc_of h) ltac:(unfold off_ok; lia) ltac:(lia) ltac:(lia)) as (_ & Rt & _ & Rl & Rn).
      cbv zeta in *. rewrite Rt in Vt. rewrite Rl in Vl. rewrite Rn in Vn.
      destruct (struct_pointer_roundtrip (p_len h) (p_size h) ltac:(unfold off_ok; lia) Hw) as (tag' & Et' & _ & Tt & To & Ts).
      rewrite Etag in Et'. apply (f_equal (fun o => match o with Some x => x | None => 0 end)) in Et'. subst tag'.
      rewrite (list_alloc_comp h) in * by (auto; lia).
      assert (PW : padToWord (8 + 8 * (p_len h * wc_of h)) = 8 + 8 * (p_len h * wc_of h)) by (unfold padToWord, u32; lia).
      rewrite PW in *.
      assert (Hv0 : (val =? 0) = false).
      { destruct (val =? 0) eqn:E; [|reflexivity]. replace val with 0 in Vt by lia. discriminate Vt. }
      rewrite Hv0. destruct (depth =? 0); [reflexivity|]. cbv zeta. rewrite Vt.
      change (listPointer =? structPointer) with false. change (listPointer =? listPointer) with true. cbv iota.
      unfold readListPtr. rewrite Ve.
      assert (TL : totalListSize val = Some (Some (8 + 8 * (p_len h * wc_of h)))).
      { unfold totalListSize. cbv zeta. rewrite Vl, Vn. change (7 =? 1) with false. change (7 =? 7) with true. cbv iota.
        rewrite (s32_id (p_len h * wc_of h + 1)) by lia. rewrite times_some by (unfold maxSegmentSize; lia). do 2 f_equal. lia. }
      rewrite TL.
      destruct (regionInBounds _ (p_off h - 8) _) eqn:ER; cbn [negb].
      * apply regionInBounds_spec in ER. destruct (_ >? _) eqn:EF; [lia|]. unfold maxSegmentSize in ER.
        cbv zeta. rewrite Vl. change (7 =? 7) with true. cbv iota.
        rewrite (read_of_word_at _ _ _ _ Wtag) by lia. cbn [bind].
        unfold addSize. cbv zeta. destruct (p_off h - 8 + 8 >? maxSegmentSize) eqn:EM; [unfold maxSegmentSize in EM; lia|].
        rewrite Tt. change (structPointer =? structPointer) with true. cbn [negb]. cbv zeta.
        rewrite Ts, To. rewrite (s32_id (p_len h)) by lia.
        assert (Hneg : (p_len h <? 0) = false) by lia. rewrite Hneg, Bool.andb_false_r.
        rewrite (HeapInv.totalSize_wf _ Hw). fold (wc_of h).
        rewrite times_some by (unfold maxSegmentSize; nia).
        rewrite regionInBounds_true by (unfold maxSegmentSize; nia). cbn [negb].
        unfold canRead, list_readSize. cbn [p_valid p_size p_len p_seg p_off p_comp p_bit]. rewrite Hv.
        destruct (rl >=? _); [|reflexivity]. rewrite Hb. replace (p_off h - 8 + 8) with (p_off h) by lia. reflexivity.
      * apply regionInBounds_false in ER. destruct (_ >? _) eqn:EF; [reflexivity|lia].
  - destruct Sh.
Qed.

Lemma read_resolved_obj strict (ms : segs) rl sid off h raw depth p rl' :
  resolves_to ms sid off (p_seg h) (obj_start h) raw ->
  p_valid h = true -> good ms h -> tag_ok ms h -> raw_of h = Ok raw ->
  (p_kind h = KStruct -> os_isZero (p_size h) = false) ->
  readPtr strict ms rl sid (nth (Z.to_nat sid) ms []) off depth = (Ok p, rl') ->
  p = handle_of h depth.
Proof.
  intros RT Hv G T Hraw Hnz HR. rewrite (read_resolved strict ms rl sid off h raw depth RT Hv G T Hraw Hnz) in HR.
  destruct (depth =? 0); [discriminate|]. destruct (_ >? _); [discriminate|]. destruct (rl >=? _); [|discriminate].
  injection HR as <- _. reflexivity.
Qed.

(* [read_resolved_total]: with a non-zero depth limit and a read limit that covers the object,
   readPtr on a pointer to table object [h] returns the handle of [h] and charges its size *)
Lemma read_resolved_total strict (ms : segs) rl sid off h raw depth :
  resolves_to ms sid off (p_seg h) (obj_start h) raw ->
  p_valid h = true -> good ms h -> tag_ok ms h -> raw_of h = Ok raw ->
  (p_kind h = KStruct -> os_isZero (p_size h) = false) ->
  seg_len ms (p_seg h) <= 4294967288 -> depth <> 0 -> read_cost h <= rl ->
  readPtr strict ms rl sid (nth (Z.to_nat sid) ms []) off depth = (Ok (handle_of h depth), rl - read_cost h).
Proof.
  intros RT Hv G T Hraw Hnz Hsl Hd Hrl. rewrite (read_resolved strict ms rl sid off h raw depth RT Hv G T Hraw Hnz).
  destruct G as (_ & _ & Hin & _). destruct (in_seg_elim _ _ _ _ Hin) as (_ & _ & _ & G4 & _).
  destruct (depth =? 0) eqn:ED; [lia|]. destruct (_ >? _) eqn:EF; [unfold maxSegmentSize in EF; lia|].
  destruct (rl >=? _) eqn:EC; [reflexivity|lia].
Qed.

Definition empty_handle (q : Z * Z) (depth : Z) : Ptr :=
  mkPtr true (fst q) (snd q) 0 (mkOS 0 0) (uint_dec depth) KStruct false false false.

(* a null, struct or capability word is not followed to another segment *)
Lemma near_word_resolves st (ms : segs) sid off w :
  word_at ms sid off = Some w -> off + 8 <= 4294967288 -> w mod 4 = 0 \/ w mod 4 = 3 ->
  resolveFarPointer st ms sid (nth (Z.to_nat sid) ms []) off = Ok (sid, nth (Z.to_nat sid) ms [], off + 8, w).
Proof.
  intros W Ho Hw. unfold resolveFarPointer. rewrite (read_of_word_at _ _ _ _ W) by lia. cbn [bind]. cbv zeta.
  assert (PT : pointerType w = 0 \/ pointerType w = 3) by (unfold pointerType; cbv zeta; destruct Hw as [-> | ->]; auto).
  assert (PD : (pointerType w =? doubleFarPointer) = false) by (unfold doubleFarPointer; lia).
  assert (PF : (pointerType w =? farPointer) = false) by (unfold farPointer; lia).
  rewrite PD, PF. unfold addSize. cbv zeta.
  destruct (off + 8 >? maxSegmentSize) eqn:E; [unfold maxSegmentSize in E; lia|]. reflexivity.
Qed.

(* a slot holding the words placed for table object [h] resolves to [h] *)
Lemma slot_obj_resolves m objs pads q h ps raw oldlen :
  hinv m objs pads -> In q ((0, 0) :: flat_map slots objs) -> In h objs -> incl ps pads ->
  raw_of h = Ok raw -> (p_kind h = KStruct -> os_isZero (p_size h) = false) ->
  placed (bm_data m) (fst q) (snd q) (p_seg h) (obj_start h) raw oldlen ps ->
  resolves_to (bm_data m) (fst q) (snd q) (p_seg h) (obj_start h) raw.
Proof.
  intros H Hq Hh Ips Er Hnz Pl. destruct (slot_geometry _ _ _ _ H Hq) as (Q1 & Q2 & Q3 & Q4 & _).
  destruct (hi_good _ _ _ H h Hh) as [V G]. pose proof (hi_tags _ _ _ H h Hh) as T.
  destruct (obj_decode (bm_data m) h V G T Hnz) as (raw' & Er' & Rw & _). rewrite Er in Er'. apply Ok_inj in Er'. subst raw'.
  pose proof G as (_ & Gs & Gi & Go). destruct (in_seg_elim _ _ _ _ Gi) as (T1 & T2 & T3 & T4 & T5).
  rewrite seg_len_bm in T4. pose proof (hi_small _ _ _ H (p_seg h)) as Hsh. unfold maxSegmentSize in Hsh.
  apply (placed_resolves_to (bm_data m) (fst q) (snd q) (p_seg h) (obj_start h) raw oldlen ps); auto; try lia.
  - apply raw_word_ok. exact Rw.
  - rewrite zlen_bm. pose proof (hi_nsegs _ _ _ H). lia.
  - intros i Hi. rewrite seg_len_bm. pose proof (hi_small _ _ _ H i) as X. unfold maxSegmentSize in X. exact X.
  - intros x Hx. pose proof (hi_in _ _ _ H x ltac:(unfold all_regs; apply in_or_app; right; apply Ips; exact Hx)) as Ix.
    unfold in_msg in Ix. destruct (in_seg_elim _ _ _ _ Ix) as (_ & _ & _ & _ & Y5). exact Y5.
Qed.

(* [slot_read]: Segment.readPtr at a pointer slot of a table object or at the root word, for every
   read limit and depth limit, by the content of the slot: the word 0, the inline empty struct, the
   words placed for a table object, a capability *)
Lemma slot_read strict m objs pads q rl depth :
  hinv m objs pads -> In q ((0, 0) :: flat_map slots objs) ->
  let r := readPtr strict (bm_data m) rl (fst q) (nth (Z.to_nat (fst q)) (bm_data m) []) (snd q) depth in
  r = (Ok nullPtr, rl) \/
  r = (if depth =? 0 then (Err, rl) else if rl >=? 0 then (Ok (empty_handle q depth), rl) else (Err, 0)) \/
  (exists h, In h objs /\
     r = if depth =? 0 then (Err, rl)
         else if rl >=? read_cost h then (Ok (handle_of h depth), rl - read_cost h) else (Err, 0)) \/
  (exists idx, 0 <= idx < 4294967296 /\
     r = if depth =? 0 then (Err, rl)
         else (Ok (mkPtr true (fst q) 0 idx (mkOS 0 0) 0 KIface false false false), rl)).
Proof.
  intros H Hq. cbv zeta. destruct (slot_geometry _ _ _ _ H Hq) as (Q1 & Q2 & Q3 & Q4 & _).
  pose proof (hi_small _ _ _ H (fst q)) as Hsq. unfold maxSegmentSize in Hsq.
  destruct (hi_slots _ _ _ H q Hq) as [S|[S|[(h & ps & raw & oldlen & Hh & Ips & Er & Hnz & Pl)|(idx & Hi & S)]]].
  - left. unfold readPtr. rewrite (near_word_resolves strict _ _ _ _ S) by lia. reflexivity.
  - right. left. unfold readPtr. rewrite (near_word_resolves strict _ _ _ _ S) by (try left; reflexivity || lia).
    change (empty_struct_word =? 0) with false. cbv iota. destruct (depth =? 0); [reflexivity|]. cbv zeta.
    change (pointerType empty_struct_word =? structPointer) with true. cbv iota.
    unfold readStructPtr. change (ptr_offset empty_struct_word) with (-1). change (structSize empty_struct_word) with (mkOS 0 0).
    assert (EE : element (snd q + 8) (-1) 8 = Some (snd q)) by (apply element_spec; unfold maxSegmentSize; lia). rewrite EE.
    change (totalSize (mkOS 0 0)) with 0. rewrite regionInBounds_true by (unfold maxSegmentSize; rewrite ?nth_bm_data; lia). cbn [negb].
    unfold canRead, struct_readSize. cbn [p_valid p_size p_seg p_off]. change (totalSize (mkOS 0 0)) with 0.
    rewrite Z.sub_0_r. destruct (rl >=? 0); reflexivity.
  - right. right. left. exists h. split; [exact Hh|]. destruct (hi_good _ _ _ H h Hh) as [V G].
    rewrite (read_resolved strict (bm_data m) rl (fst q) (snd q) h raw depth
               (slot_obj_resolves m objs pads q h ps raw oldlen H Hq Hh Ips Er Hnz Pl) V G (hi_tags _ _ _ H h Hh) Er Hnz).
    destruct G as (_ & _ & Gi & _). destruct (in_seg_elim _ _ _ _ Gi) as (_ & _ & _ & T4 & _).
    rewrite seg_len_bm in T4. pose proof (hi_small _ _ _ H (p_seg h)) as Hsh.
    destruct (_ >? maxSegmentSize) eqn:EF; [lia|reflexivity].
  - right. right. right. exists idx. split; [exact Hi|].
    destruct (interface_pointer_roundtrip idx Hi) as (I1 & I2 & I3 & I4). cbv zeta in *.
    assert (Hm : rawInterfacePointer idx mod 4 = 3) by (rewrite rawInterfacePointer_sum by assumption; lia).
    assert (Hv0 : (rawInterfacePointer idx =? 0) = false) by (rewrite rawInterfacePointer_sum by assumption; lia).
    unfold readPtr. rewrite (near_word_resolves strict _ _ _ _ S) by (try right; lia). rewrite Hv0.
    destruct (depth =? 0); [reflexivity|]. cbv zeta. rewrite I2.
    change (otherPointer =? structPointer) with false. change (otherPointer =? listPointer) with false.
    change (otherPointer =? otherPointer) with true. cbv iota. rewrite I3, I4. reflexivity.
Qed.

(* whatever Segment.readPtr returns for a pointer slot of a table object or the
   root word is the null handle, the empty struct at the slot, or a handle of a table object *)
Theorem read_slot strict m objs pads q rl depth p rl' :
  hinv m objs pads -> In q ((0, 0) :: flat_map slots objs) ->
  readPtr strict (bm_data m) rl (fst q) (nth (Z.to_nat (fst q)) (bm_data m) []) (snd q) depth = (Ok p, rl') ->
  p = nullPtr \/ p = empty_handle q depth \/ (exists h, In h objs /\ p = handle_of h depth) \/
  (exists idx, 0 <= idx < 4294967296 /\ p = mkPtr true (fst q) 0 idx (mkOS 0 0) 0 KIface false false false).
Proof.
  intros H Hq HR.
  destruct (slot_read strict m objs pads q rl depth H Hq) as [E|[E|[(h & Hh & E)|(idx & Hi & E)]]];
    cbv zeta in E; rewrite HR in E; [left; congruence|right..].
  - left. destruct (depth =? 0); [discriminate|]. destruct (rl >=? 0); [congruence|discriminate].
  - right. left. exists h. split; [exact Hh|].
    destruct (depth =? 0); [discriminate|]. destruct (rl >=? _); [congruence|discriminate].
  - right. right. exists idx. split; [exact Hi|]. destruct (depth =? 0); [discriminate|congruence].
Qed.

(* after a pointer setter without copy (any placement, any kind of table object incl. composite
   lists), Segment.readPtr at the slot returns the handle of exactly the object set - for every
   read limit and depth limit for which it returns a handle at all *)
Theorem read_after_place m objs pads w q ht raw w' strict rl depth p rl' :
  w_dst w = m -> hinv m objs pads ->
  In q ((0, 0) :: flat_map slots objs) -> In ht objs ->
  (p_kind ht = KStruct -> os_isZero (p_size ht) = false) ->
  raw_of ht = Ok raw ->
  place w (fst q) (snd q) (p_seg ht) (obj_start ht) raw = Ok w' ->
  nsegs (w_dst w') < 4294967296 ->
  readPtr strict (bm_data (w_dst w')) rl (fst q) (nth (Z.to_nat (fst q)) (bm_data (w_dst w')) []) (snd q) depth = (Ok p, rl') ->
  p = handle_of ht depth.
Proof.
  intros Ew H Hq Hht Hnz Hraw Hpl Hns HR.
  destruct (hinv_place_full m objs pads w q ht raw w' Ew H Hq Hht Hnz Hraw Hpl Hns) as (pads' & H' & _ & _ & _ & Pl).
  destruct (hi_good _ _ _ H' ht Hht) as [V G].
  apply (read_resolved_obj strict (bm_data (w_dst w')) rl (fst q) (snd q) ht raw depth p rl'); auto.
  - eapply (slot_obj_resolves _ objs (pads ++ pads') q ht pads' raw _ H' Hq Hht); eauto. apply incl_appr, incl_refl.
  - apply (hi_tags _ _ _ H' ht Hht).
Qed.

(* [read_slot_total]: the success half of [read_slot].  With a non-zero depth limit and a read
   limit that covers every table object, Segment.readPtr at any pointer slot of any table object
   or at the root succeeds; for a slot holding the words of object [h] it returns the handle of
   [h] and charges [read_cost h] *)
Theorem read_slot_total strict m objs pads q rl depth :
  hinv m objs pads -> In q ((0, 0) :: flat_map slots objs) ->
  depth <> 0 -> 0 <= rl -> (forall h, In h objs -> read_cost h <= rl) ->
  exists p rl', readPtr strict (bm_data m) rl (fst q) (nth (Z.to_nat (fst q)) (bm_data m) []) (snd q) depth = (Ok p, rl') /\
    (p = nullPtr /\ rl' = rl \/ p = empty_handle q depth /\ rl' = rl \/
     (exists h, In h objs /\ p = handle_of h depth /\ rl' = rl - read_cost h) \/
     (exists idx, 0 <= idx < 4294967296 /\ p = mkPtr true (fst q) 0 idx (mkOS 0 0) 0 KIface false false false /\ rl' = rl)).
Proof.
  intros H Hq Hd Hrl0 Hrl. assert (ED : (depth =? 0) = false) by lia.
  destruct (slot_read strict m objs pads q rl depth H Hq) as [E|[E|[(h & Hh & E)|(idx & Hi & E)]]];
    cbv zeta in E; rewrite E, ?ED.
  - exists nullPtr, rl. auto.
  - assert (EC : (rl >=? 0) = true) by lia. rewrite EC. exists (empty_handle q depth), rl. auto.
  - assert (EC : (rl >=? read_cost h) = true) by (specialize (Hrl h Hh); lia). rewrite EC.
    exists (handle_of h depth), (rl - read_cost h). split; [reflexivity|]. right. right. left. exists h. auto.
  - eexists _, rl. split; [reflexivity|]. right. right. right. exists idx. auto.
Qed.
