(* C04 / C16: history-level consequences of the frames.
   - the frame part of [hinv]: a write inside the region of one table entry leaves the bytes of
     every other table entry (objects, root word, landing pads) unchanged;
   - over any sequence of steps with frames: a byte no step touches keeps its value, the last
     write to a field is what is read back ([last_write_wins]);
   - independence of a copy and its source. *)
From CV Require Import Core.Builder Core.ReaderFacts Core.ArithFacts Core.BuilderFacts Core.AllocProofs
  Core.WritePtrProofs Core.HeapProofs Core.CopyProofs Core.BuildOps Core.BuildValid Core.BuildInv Core.HeapInv Core.ReadBridge
  Core.HeapOps Core.HeapCopy Core.HeapCopySrc Core.HeapSteps.
From Coq Require Import ZifyBool ZifyNat.
Open Scope Z_scope.

Ltac Zify.zify_post_hook ::= Z.div_mod_to_equations.

Definition inside (r : region) (R : Z -> Z -> Prop) : Prop :=
  forall i k, R i k -> i = r_seg r /\ r_start r <= k < r_start r + r_size r.

Definition reg_bytes (m : bmsg) (r : region) : list Z := sub (mem m (r_seg r)) (r_start r) (r_size r).

Lemma keeps_region m m' R r r' :
  keeps m m' R -> inside r R -> reg_disjoint r r' = true -> in_msg (bm_data m) r' ->
  reg_bytes m' r' = reg_bytes m r'.
Proof.
  intros K Hins D Hin. unfold in_msg in Hin. destruct (in_seg_elim _ _ _ _ Hin) as (G1 & G2 & G3 & G4 & _).
  rewrite seg_len_bm in G4. unfold reg_bytes. apply (keeps_sub m m' R); auto; try lia.
  intros k Hk X. destruct (Hins _ _ X) as [E1 E2]. unfold reg_disjoint in D. lia.
Qed.

(* [hinv_other_regions]: a step whose write set lies inside table entry number j (the root word
   for j = 0, else an object) leaves every other object, the root word and every landing pad
   byte for byte unchanged *)
Theorem hinv_other_regions m objs pads m' R j :
  hinv m objs pads -> keeps m m' R -> (j < length (regsO objs))%nat -> inside (nth j (regsO objs) root_reg) R ->
  (forall j', j' <> j -> (j' < length (regsO objs))%nat ->
     reg_bytes m' (nth j' (regsO objs) root_reg) = reg_bytes m (nth j' (regsO objs) root_reg)) /\
  (forall p, In p pads -> reg_bytes m' p = reg_bytes m p).
Proof.
  intros H K Hj Hins. pose proof (hi_disjO _ _ _ H) as D. unfold ord_disjoint in D.
  assert (Hr : In (nth j (regsO objs) root_reg) (regsO objs)) by (apply nth_In; exact Hj).
  split.
  - intros j' Hne Hj'.
    assert (Hr' : In (nth j' (regsO objs) root_reg) (regsO objs)) by (apply nth_In; exact Hj').
    apply (keeps_region m m' R (nth j (regsO objs) root_reg)); auto.
    + destruct (Nat.lt_ge_cases j j') as [L|G]; [apply D; auto|apply reg_disjoint_sym; apply D; auto; lia].
    + apply (hi_in _ _ _ H). unfold all_regs. apply in_or_app. left. exact Hr'.
  - intros p Hp. apply (keeps_region m m' R (nth j (regsO objs) root_reg)); auto.
    + apply (hi_cross _ _ _ H); auto.
    + apply (hi_in _ _ _ H). unfold all_regs. apply in_or_app. right. exact Hp.
Qed.

(* a run, abstractly: messages related by frames (every op of the interpreter has one: data
   setters [setter_frame] = exactly the field, writePtr [frame_all] = the pointer word,
   copyStruct [copy_struct_ptrs] = the destination's sections, allocation [alloc_keeps] = nothing) *)
Inductive chain : bmsg -> list (Z -> Z -> Prop) -> bmsg -> Prop :=
| ch_nil m : chain m [] m
| ch_cons m m1 m2 R Rs : keeps m m1 R -> nsegs m <= nsegs m1 -> chain m1 Rs m2 -> chain m (R :: Rs) m2.

Lemma chain_keeps m Rs m' : chain m Rs m' -> keeps m m' (fun i k => Exists (fun R => R i k) Rs).
Proof.
  induction 1 as [m|m m1 m2 R Rs K N C IH].
  - eapply keeps_weaken; [|apply keeps_refl]. intros i k _ _ X. exact X.
  - eapply keeps_weaken; [|eapply keeps_trans; [exact K|exact IH]].
    intros i k _ _ [X|X]; [left; exact X|right; exact X].
Qed.

(* a byte that no step of the run touches keeps its value *)
Theorem chain_untouched m Rs m' i k :
  chain m Rs m' -> 0 <= i -> 0 <= k < zlen (mem m i) -> Forall (fun R : Z -> Z -> Prop => ~ R i k) Rs ->
  nth (Z.to_nat k) (mem m' i) 0 = nth (Z.to_nat k) (mem m i) 0.
Proof.
  intros C Hi Hk F. apply (proj2 (chain_keeps _ _ _ C)); auto.
  intros X. apply Exists_exists in X. destruct X as (R & HR & X). rewrite Forall_forall in F. exact (F R HR X).
Qed.

(* [last_write_wins]: what a setter wrote into a field is what is read back after any number of
   later steps none of which touches the field - setters on other fields or objects, pointer
   setters, copies, allocations *)
Theorem last_write_wins m0 m1 Rs m' sid addr bs :
  wrote m0 m1 sid addr bs -> 0 <= sid -> zlen (mem m0 sid) < 4294967296 -> zlen (mem m' sid) < 4294967296 ->
  chain m1 Rs m' ->
  Forall (fun R : Z -> Z -> Prop => forall k, addr <= k < addr + zlen bs -> ~ R sid k) Rs ->
  slice (mem m' sid) addr (zlen bs) = Ok bs.
Proof.
  intros W Hs Hl Hl' C F.
  pose proof (wrote_slice_same _ _ _ _ _ W Hl) as S1.
  destruct (slice_sub _ _ _ _ S1) as (n & En & B0 & Bn & B1).
  assert (Ln : zlen bs = n) by (rewrite En at 1; apply sub_length; lia).
  pose proof (chain_keeps _ _ _ C) as K.
  assert (E : sub (mem m' sid) addr n = sub (mem m1 sid) addr n).
  { apply (keeps_sub m1 m' _ sid addr n K); auto; try lia.
    intros k Hk X. apply Exists_exists in X. destruct X as (R & HR & X). rewrite Forall_forall in F. apply (F R HR k); [lia|exact X]. }
  pose proof (proj1 K sid Hs) as Lm.
  rewrite Ln. rewrite slice_ok by lia. f_equal. rewrite E. symmetry. exact En.
Qed.

Lemma chain_nsegs m Rs m' : chain m Rs m' -> nsegs m <= nsegs m'.
Proof. induction 1; lia. Qed.

Lemma placed_keeps m m' (R : Z -> Z -> Prop) d off t ta raw oldlen ps :
  placed (bm_data m) d off t ta raw oldlen ps -> keeps m m' R -> nsegs m <= nsegs m' ->
  (forall k, off <= k < off + 8 -> ~ R d k) ->
  (forall r, In r ps -> forall k, r_start r <= k < r_start r + r_size r -> ~ R (r_seg r) k) ->
  placed (bm_data m') d off t ta raw oldlen ps.
Proof.
  intros Pl K Hn Hq Hp.
  assert (W : forall i b w, word_at (bm_data m) i b = Some w -> (forall k, b <= k < b + 8 -> ~ R i k) ->
                word_at (bm_data m') i b = Some w).
  { intros i b w E HR. destruct (word_at_range _ _ _ _ E) as (G1 & G2 & G3). rewrite zlen_bm in G1. rewrite seg_len_bm in G3.
    rewrite <- E. apply (keeps_word m m' R); auto. }
  destruct Pl as [E W1|padAddr Hne Epa W1 W2|psid padAddr Hne Hps Epa W1 W2 W3].
  - apply PlNear; auto.
  - apply PlFar; auto. apply W; auto. intros k Hk. apply (Hp _ (or_introl eq_refl)). cbn [r_start r_size]. lia.
  - apply PlDfar; auto; apply W; auto; intros k Hk; apply (Hp _ (or_introl eq_refl)); cbn [r_start r_size]; lia.
Qed.

(* [last_pointer_wins]: the words a pointer setter stored for object [ht] at slot [q]; any number
   of later steps none of which touches the slot word or its landing pads (setters elsewhere,
   other pointer setters, copies, allocations); then Segment.readPtr at [q] still returns the
   handle of [ht] *)
Theorem last_pointer_wins m1 Rs m' objs' pads' q ht raw oldlen ps strict rl depth p rl' :
  placed (bm_data m1) (fst q) (snd q) (p_seg ht) (obj_start ht) raw oldlen ps ->
  chain m1 Rs m' ->
  Forall (fun R : Z -> Z -> Prop => (forall k, snd q <= k < snd q + 8 -> ~ R (fst q) k) /\
            (forall r, In r ps -> forall k, r_start r <= k < r_start r + r_size r -> ~ R (r_seg r) k)) Rs ->
  hinv m' objs' pads' -> In ht objs' -> incl ps pads' -> snd q mod 8 = 0 ->
  raw_of ht = Ok raw -> (p_kind ht = KStruct -> os_isZero (p_size ht) = false) ->
  readPtr strict (bm_data m') rl (fst q) (nth (Z.to_nat (fst q)) (bm_data m') []) (snd q) depth = (Ok p, rl') ->
  p = handle_of ht depth.
Proof.
  intros Pl C F H' Hht Ips Hqa Hraw Hnz HR.
  assert (Pl' : placed (bm_data m') (fst q) (snd q) (p_seg ht) (obj_start ht) raw oldlen ps).
  { apply (placed_keeps m1 m' (fun i k => Exists (fun R => R i k) Rs)); auto.
    - apply chain_keeps. exact C.
    - apply chain_nsegs with (Rs := Rs). exact C.
    - intros k Hk X. apply Exists_exists in X. destruct X as (R & HR' & X). rewrite Forall_forall in F. apply (proj1 (F R HR') k Hk X).
    - intros r Hr k Hk X. apply Exists_exists in X. destruct X as (R & HR' & X). rewrite Forall_forall in F. apply (proj2 (F R HR') r Hr k Hk X). }
  destruct (hi_good _ _ _ H' ht Hht) as [V G]. pose proof (hi_tags _ _ _ H' ht Hht) as T.
  destruct (obj_decode (bm_data m') ht V G T Hnz) as (raw' & Er' & Rw & _). rewrite Hraw in Er'. apply Ok_inj in Er'. subst raw'.
  pose proof G as (_ & Gs & Gi & Go). destruct (in_seg_elim _ _ _ _ Gi) as (T1 & T2 & T3 & T4 & T5).
  rewrite seg_len_bm in T4. pose proof (hi_small _ _ _ H' (p_seg ht)) as Hsh. unfold maxSegmentSize in Hsh.
  apply (read_resolved_obj strict (bm_data m') rl (fst q) (snd q) ht raw depth p rl'); auto.
  apply (placed_resolves_to (bm_data m') (fst q) (snd q) (p_seg ht) (obj_start ht) raw oldlen ps Pl'); auto; try lia.
  - apply raw_word_ok. exact Rw.
  - rewrite zlen_bm. pose proof (hi_nsegs _ _ _ H'). lia.
  - intros i Hi. rewrite seg_len_bm. pose proof (hi_small _ _ _ H' i) as X. unfold maxSegmentSize in X. exact X.
  - intros x Hx. pose proof (hi_in _ _ _ H' x ltac:(unfold all_regs; apply in_or_app; right; apply Ips; exact Hx)) as Ix.
    unfold in_msg in Ix. destruct (in_seg_elim _ _ _ _ Ix) as (_ & _ & _ & _ & Y5). exact Y5.
Qed.

(* inside one message: a copy consists of table entries that did not exist before (copy_all:
   the tables are extended), so its regions are disjoint from every older object; a later write
   inside an older object (the source or anything else) leaves every byte of the copy unchanged,
   and a later write inside an object of the copy leaves every older object unchanged *)
Theorem copy_independent m objs eo pads m' R j :
  hinv m (objs ++ eo) pads -> keeps m m' R -> (j < length (regsO (objs ++ eo)))%nat ->
  inside (nth j (regsO (objs ++ eo)) root_reg) R ->
  (* the written entry is an old one: the copy is unchanged *)
  ((j <= length objs)%nat -> forall c, (length objs < c < length (regsO (objs ++ eo)))%nat ->
     reg_bytes m' (nth c (regsO (objs ++ eo)) root_reg) = reg_bytes m (nth c (regsO (objs ++ eo)) root_reg)) /\
  (* the written entry belongs to the copy: everything older is unchanged *)
  ((length objs < j)%nat -> forall o, (o <= length objs)%nat ->
     reg_bytes m' (nth o (regsO (objs ++ eo)) root_reg) = reg_bytes m (nth o (regsO (objs ++ eo)) root_reg)).
Proof.
  intros H K Hj Hins. destruct (hinv_other_regions m (objs ++ eo) pads m' R j H K Hj Hins) as [A _].
  split; intros Hjo x Hx; apply A; lia.
Qed.

(* between two messages: no op of the builder writes the source message ... *)
Theorem bstep_src_eq e st o st' out :
  dst_only st o -> bstep e st o = (Some st', out) -> w_src (st_w st') = w_src (st_w st).
Proof. exact (bstep_src e st o st' out). Qed.

(* ... and a data setter applied to a source handle does not write the message under construction *)
Theorem src_setter_dst w (F : bmsg -> res bmsg) w' : set_in w InSrc F = Ok w' -> w_dst w' = w_dst w.
Proof. exact (set_in_src w F w'). Qed.
