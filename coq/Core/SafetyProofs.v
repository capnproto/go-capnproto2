(* C01: no read-side operation of the model panics, every pointer handed out designates a
   region inside the supplied segments, every byte list handed out is a sub-list of a segment.
   Standing assumptions (trusted base): [msg_ok m] (every segment has at most maxSegmentSize
   bytes, every byte is 0..255), 64-bit uint/int, the repaired configuration. *)
From CV Require Export Core.ReaderFacts.
From Coq Require Import ZifyBool.
Open Scope Z_scope.
Ltac Zify.zify_post_hook ::= Z.div_mod_to_equations.

Ltac pcbn := cbn [p_valid p_seg p_off p_len p_size p_depth p_kind p_comp p_bit p_member
                   fst snd andb orb negb bind].

(* [res_sat r P]: r is not a panic, and a value satisfies P *)
Definition res_sat {A} (r : res A) (P : A -> Prop) : Prop :=
  match r with Ok a => P a | Err => True | Panic => False end.

Lemma res_sat_iff {A} (r : res A) P : res_sat r P <-> (r <> Panic /\ forall a, r = Ok a -> P a).
Proof.
  destruct r as [a| |]; cbn.
  - split; [intros H; split; [discriminate|intros b [= <-]; exact H]|intros [_ H]; exact (H a eq_refl)].
  - split; [split; discriminate|trivial].
  - split; [intros []|intros [H _]; exact (H eq_refl)].
Qed.

Lemma res_sat_nopanic {A} (r : res A) P : res_sat r P -> r <> Panic.
Proof. intros H. apply res_sat_iff in H. apply H. Qed.

Lemma res_sat_bind {A B} (r : res A) (f : A -> res B) (Q : A -> Prop) (P : B -> Prop) :
  res_sat r Q -> (forall a, Q a -> res_sat (f a) P) -> res_sat (bind r f) P.
Proof. destruct r; cbn; auto. Qed.

Lemma res_sat_weaken {A} (r : res A) (P Q : A -> Prop) :
  res_sat r P -> (forall a, P a -> Q a) -> res_sat r Q.
Proof. destruct r; cbn; auto. Qed.

(* a postcondition that holds under the repair flag [H], once the flag is known *)
Lemma res_sat_mp {A} (r : res A) (H : Prop) (P : A -> Prop) :
  H -> res_sat r (fun a => H -> P a) -> res_sat r P.
Proof. intros h Hr. apply (res_sat_weaken r _ _ Hr). auto. Qed.

(* the object designated by p lies inside segment s *)
Definition wf_obj (s : seg) (p : Ptr) : Prop :=
  match p_kind p with
  | KStruct =>
      wf_size (p_size p) /\ 0 <= p_off p /\
      p_off p + DataSize (p_size p) + 8 * PointerCount (p_size p) <= zlen s
  | KList =>
      0 <= p_off p /\ 0 <= p_len p < 536870912 /\
      if p_bit p
      then p_size p = mkOS 0 0 /\ p_off p + (p_len p + 7) / 8 <= zlen s
      else wf_size (p_size p) /\ p_off p + p_len p * totalSize (p_size p) <= zlen s
  | KIface => True
  end.

Definition wf_ptr (m : segs) (p : Ptr) : Prop :=
  p_valid p = true -> 0 <= p_seg p < zlen m /\ wf_obj (seg_of m p) p.

Lemma wf_null m : wf_ptr m nullPtr.
Proof. unfold wf_ptr. cbn. discriminate. Qed.

Lemma wf_as_struct m p : wf_ptr m p -> wf_ptr m (as_struct p).
Proof. unfold as_struct. destruct (is_struct p); auto using wf_null. Qed.
Lemma wf_as_list m p : wf_ptr m p -> wf_ptr m (as_list p).
Proof. unfold as_list. destruct (is_list p); auto using wf_null. Qed.

(* the segment [s] with id [sid] of message m *)
Definition is_seg (m : segs) (sid : Z) (s : seg) : Prop :=
  0 <= sid < zlen m /\ s = nth (Z.to_nat sid) m [].

Lemma is_seg_ok m sid s : msg_ok m -> is_seg m sid s -> seg_ok s.
Proof. intros Hm [_ ->]. apply msg_ok_nth. assumption. Qed.

Lemma wf_ptr_obj m s p : is_seg m (p_seg p) s -> wf_obj s p -> wf_ptr m p.
Proof. intros [Hs ->] Ho _. exact (conj Hs Ho). Qed.

Lemma pick_seg m sid s d : is_seg m sid s ->
  res_sat (if d =? sid then Ok s else lookup_segment m d) (fun dst => is_seg m d dst).
Proof.
  intros Hs. destruct (d =? sid) eqn:E.
  - cbn. replace d with sid by lia. assumption.
  - destruct (lookup_segment m d) eqn:L; cbn; auto.
    + apply lookup_segment_spec in L. exact L.
    + exact (lookup_segment_nopanic _ _ L).
Qed.

Definition far_post (m : segs) (r : Z * seg * Z * Z) : Prop :=
  let '(dsid, dst, base, val) := r in
  is_seg m dsid dst /\ 0 <= base <= maxSegmentSize /\ 0 <= val < 18446744073709551616.

Lemma resolveFarPointer_safe strict m sid s paddr :
  msg_ok m -> is_seg m sid s -> 0 <= paddr -> paddr + 8 <= zlen s ->
  res_sat (resolveFarPointer strict m sid s paddr) (far_post m).
Proof.
  intros Hm Hs Hp He. pose proof (is_seg_ok m sid s Hm Hs) as Hok.
  unfold resolveFarPointer.
  destruct (readRawPointer_ok s paddr Hok Hp He) as [val [Ev Rv]]. rewrite Ev. cbn [bind]. cbv zeta.
  destruct (pointerType val =? doubleFarPointer) eqn:Edf.
  - (* double far *)
    eapply res_sat_bind; [apply (pick_seg m sid s _ Hs)|]. intros padSeg Hpad.
    pose proof (is_seg_ok m _ padSeg Hm Hpad) as Hpok.
    pose proof (ArithFacts.farAddress_range val) as [Rfa _].
    destruct (regionInBounds padSeg (farAddress val) 16) eqn:Er; cbn [negb]; [|exact I].
    apply regionInBounds_spec in Er.
    destruct (readRawPointer_ok padSeg (farAddress val) Hpok ltac:(lia) ltac:(lia)) as [far [Ef Rf]].
    rewrite Ef. cbn [bind].
    destruct (pointerType far =? farPointer) eqn:Eft; cbn [negb]; [|exact I].
    destruct (addSize (farAddress val) 8) as [tagAddr|] eqn:Ea; [|exact I].
    apply addSize_spec in Ea. destruct Ea as [-> _].
    destruct (readRawPointer_ok padSeg (farAddress val + 8) Hpok ltac:(lia) ltac:(lia)) as [tag [Et Rt]].
    rewrite Et. cbn [bind].
    match goal with |- res_sat (if ?b then _ else _) _ => destruct b eqn:Etag end; [exact I|].
    eapply res_sat_bind; [apply (pick_seg m sid s _ Hs)|]. intros dst Hdst.
    cbv zeta. destruct (strict && (landingPadNearPointer far tag =? 0)).
    { (* repaired code: the equivalent non-zero encoding of "empty struct at word 0" *)
      change (rawStructPointer (-1) (mkOS 0 0)) with (Some 4294967292).
      unfold res_sat, far_post. split; [assumption|]. unfold wordSize, maxSegmentSize. lia. }
    cbn. split; [assumption|]. split; [unfold maxSegmentSize; lia|].
    apply landingPad_range; [apply pointerType_far; lia|assumption].
  - destruct (pointerType val =? farPointer) eqn:Efar.
    + (* far *)
      eapply res_sat_bind; [apply (pick_seg m sid s _ Hs)|]. intros dst Hdst.
      pose proof (is_seg_ok m _ dst Hm Hdst) as Hdok.
      pose proof (ArithFacts.farAddress_range val) as [Rfa _].
      destruct (regionInBounds dst (farAddress val) 8) eqn:Er; cbn [negb]; [|exact I].
      apply regionInBounds_spec in Er.
      destruct (addSize (farAddress val) 8) as [base|] eqn:Ea; [|exact I].
      apply addSize_spec in Ea. destruct Ea as [-> Ea].
      destruct (readRawPointer_ok dst (farAddress val) Hdok ltac:(lia) ltac:(lia)) as [v [Evv Rvv]].
      rewrite Evv. cbn. split; [assumption|]. split; [lia|assumption].
    + (* near *)
      destruct (addSize paddr 8) as [base|] eqn:Ea; [|exact I].
      apply addSize_spec in Ea. destruct Ea as [-> Ea].
      cbn. split; [assumption|]. split; [lia|assumption].
Qed.

Lemma readStructPtr_safe sid s base val :
  res_sat (readStructPtr sid s base val) (fun p => p_seg p = sid /\ p_kind p = KStruct /\ wf_obj s p).
Proof.
  unfold readStructPtr.
  destruct (element base (ptr_offset val) 8) as [addr|] eqn:Ee; [|exact I].
  apply element_spec in Ee. destruct Ee as [-> Ee]. cbv zeta.
  destruct (regionInBounds s _ _) eqn:Er; cbn [negb]; [|exact I].
  apply regionInBounds_spec in Er. pose proof (structSize_wf val) as Hw.
  rewrite totalSize_wf in Er by assumption.
  unfold res_sat, wf_obj. pcbn. repeat split; try apply Hw; lia.
Qed.

(* the element count of a composite list is only known to be non-negative in the repaired code *)
Lemma readListPtr_safe strict sid s base val : seg_ok s -> 0 <= val < 18446744073709551616 ->
  res_sat (readListPtr strict sid s base val)
          (fun p => p_seg p = sid /\ p_kind p = KList /\ (strict = true -> wf_obj s p)).
Proof.
  intros Hok Rv. unfold readListPtr.
  destruct (element base (ptr_offset val) 8) as [addr|] eqn:Ee; [|exact I].
  apply element_spec in Ee. destruct Ee as [-> Ee].
  set (addr := base + ptr_offset val * 8) in *.
  pose proof (ArithFacts.numListElements_range val Rv) as Rn.
  destruct (totalListSize val) as [[lsize|]|] eqn:Et; [| exact I | exact (totalListSize_total val Et)].
  destruct (regionInBounds s addr lsize) eqn:Er; cbn [negb]; [|exact I].
  apply regionInBounds_spec in Er. cbv zeta.
  unfold totalListSize in Et. cbv zeta in Et.
  destruct (listType val =? 7) eqn:E7.
  - (* composite *)
    destruct (listType val =? 1) eqn:E1; [lia|].
    inversion Et as [Et']; clear Et. apply times_spec in Et'. destruct Et' as [-> Et'].
    rewrite s32_id in * by lia.
    destruct (readRawPointer_ok s addr Hok ltac:(lia) ltac:(lia)) as [hdr [Eh Rh]].
    rewrite Eh. cbn [bind].
    destruct (addSize addr 8) as [addr'|] eqn:Ea; [|exact I].
    apply addSize_spec in Ea. destruct Ea as [-> Ea].
    destruct (pointerType hdr =? structPointer) eqn:Ept; cbn [negb]; [|exact I].
    pose proof (ArithFacts.ptr_offset_range hdr) as Ro.
    rewrite (s32_id (ptr_offset hdr)) by lia.
    destruct (strict && (ptr_offset hdr <? 0)) eqn:Es; [exact I|].
    pose proof (structSize_wf hdr) as Hw.
    destruct (times (totalSize (structSize hdr)) (ptr_offset hdr)) as [tsize|] eqn:Etm; [|exact I].
    apply times_spec in Etm. destruct Etm as [-> Etm].
    match goal with |- context [regionInBounds ?a ?b ?c] => destruct (regionInBounds a b c) eqn:Er2 end;
      cbn [negb]; [|exact I].
    apply regionInBounds_spec in Er2.
    unfold res_sat, wf_obj. pcbn. split; [reflexivity|]. split; [reflexivity|].
    intros ->. cbn [andb] in Es. repeat split; try apply Hw; lia.
  - destruct (listType val =? 1) eqn:E1.
    + (* bit list *)
      inversion Et as [Et']; clear Et. rewrite bitListSize_spec in Et' by lia. subst lsize.
      unfold res_sat, wf_obj. pcbn. repeat split; lia.
    + destruct (elementSize val) as [es|] eqn:Ees; [|discriminate].
      inversion Et as [Et']; clear Et.
      pose proof (elementSize_wf val es Ees) as [Hw Hts].
      unfold timesUnchecked in Et'. rewrite (u32_id (numListElements val)) in Et' by lia.
      rewrite u32_id in Et' by nia. subst lsize.
      unfold res_sat, wf_obj. pcbn. repeat split; try apply Hw; lia.
Qed.

Lemma readPtr_safe strict m rl sid s paddr depth :
  msg_ok m -> is_seg m sid s -> 0 <= paddr -> paddr + 8 <= zlen s ->
  res_sat (fst (readPtr strict m rl sid s paddr depth)) (fun p => strict = true -> wf_ptr m p).
Proof.
  intros Hm Hs Hp He. unfold readPtr.
  pose proof (resolveFarPointer_safe strict m sid s paddr Hm Hs Hp He) as Hr.
  destruct (resolveFarPointer strict m sid s paddr) as [[[[dsid dst] base] val]| |]; [|exact I|exact Hr].
  destruct Hr as (Hd & _ & Rv).
  destruct (val =? 0); [intros _; apply wf_null|].
  destruct (depth =? 0); [exact I|]. cbv zeta.
  (* the handle made from a struct or list inherits the object's segment, kind, place and size *)
  destruct (pointerType val =? structPointer).
  { pose proof (readStructPtr_safe dsid dst base val) as Hsp.
    destruct (readStructPtr dsid dst base val) as [sp| |]; [|exact I|exact Hsp].
    destruct Hsp as (<- & Hk & Hw).
    destruct (canRead rl (struct_readSize sp)) as [[] rl']; [|exact I].
    intros _. apply (wf_ptr_obj m dst); [exact Hd|].
    unfold wf_obj in *. rewrite Hk in Hw. exact Hw. }
  destruct (pointerType val =? listPointer).
  { pose proof (readListPtr_safe strict dsid dst base val (is_seg_ok m dsid dst Hm Hd) Rv) as Hlp.
    destruct (readListPtr strict dsid dst base val) as [lp| |]; [|exact I|exact Hlp].
    destruct Hlp as (<- & Hk & Hw).
    destruct (canRead rl (list_readSize lp)) as [[] rl']; [|exact I].
    intros Hst. apply (wf_ptr_obj m dst); [exact Hd|].
    specialize (Hw Hst). unfold wf_obj in *. rewrite Hk in Hw. exact Hw. }
  destruct (pointerType val =? otherPointer); [|exact I].
  destruct (otherPointerType val =? 0); [|exact I].
  intros _. apply (wf_ptr_obj m dst); [exact Hd|exact I].
Qed.

(* Message.Root never panics, on any message whatsoever (any number of segments, any
   lengths up to maxSegmentSize, any bytes) and any limits *)
Lemma root_safe c m rl : msg_ok m -> cfg_root c = true ->
  res_sat (fst (root c m rl)) (fun p => cfg_strict c = true -> wf_ptr m p).
Proof.
  intros Hm Hc. unfold root.
  destruct (lookup_segment m 0) as [s0| |] eqn:L; [|exact I|exact I].
  apply lookup_segment_spec in L.
  destruct (regionInBounds s0 0 8) eqn:Er; cbn [negb].
  - apply regionInBounds_spec in Er. apply readPtr_safe; try assumption; lia.
  - rewrite Hc. exact I.
Qed.

(* as found (cfg_root = false): the only panic of Root is the empty-first-segment one *)
Lemma root_panic_iff c m rl : msg_ok m ->
  (fst (root c m rl) = Panic <-> (cfg_root c = false /\ 0 < zlen m /\ zlen (nth 0%nat m []) < 8)).
Proof.
  intros Hm. unfold root.
  destruct (lookup_segment m 0) as [s0| |] eqn:L.
  - apply lookup_segment_spec in L. destruct L as [L ->]. change (Z.to_nat 0) with 0%nat.
    destruct (regionInBounds (nth 0%nat m []) 0 8) eqn:Er; cbn [negb].
    + apply regionInBounds_spec in Er.
      pose proof (readPtr_safe (cfg_strict c) m rl 0 (nth 0%nat m []) 0 (depth_limit c) Hm (conj L eq_refl)
                    ltac:(lia) ltac:(lia)) as H.
      apply res_sat_nopanic in H. split; [contradiction|lia].
    + apply regionInBounds_false in Er. unfold maxSegmentSize in Er.
      destruct (cfg_root c); cbn [fst]; split; [discriminate|intros [? _]; discriminate|lia|reflexivity].
  - unfold lookup_segment in L. destruct (_ && _) eqn:E in L; [discriminate|].
    split; [discriminate|lia].
  - destruct (lookup_segment_nopanic _ _ L).
Qed.

Definition wf_struct (m : segs) (p : Ptr) : Prop :=
  wf_ptr m p /\ (p_valid p = true -> p_kind p = KStruct).
Definition wf_list (m : segs) (p : Ptr) : Prop :=
  wf_ptr m p /\ (p_valid p = true -> p_kind p = KList).

Lemma as_struct_kind p : p_valid (as_struct p) = true -> p_kind (as_struct p) = KStruct.
Proof. unfold as_struct, is_struct. destruct (p_valid p) eqn:V, (p_kind p) eqn:K; cbn; congruence. Qed.
Lemma as_list_kind p : p_valid (as_list p) = true -> p_kind (as_list p) = KList.
Proof. unfold as_list, is_list. destruct (p_valid p) eqn:V, (p_kind p) eqn:K; cbn; congruence. Qed.

Lemma wf_struct_as_struct m p : wf_ptr m p -> wf_struct m (as_struct p).
Proof. intros H. exact (conj (wf_as_struct m p H) (as_struct_kind p)). Qed.
Lemma wf_list_as_list m p : wf_ptr m p -> wf_list m (as_list p).
Proof. intros H. exact (conj (wf_as_list m p H) (as_list_kind p)). Qed.

Lemma wf_struct_inv m p : wf_struct m p -> p_valid p = true ->
  0 <= p_seg p < zlen m /\ wf_size (p_size p) /\ 0 <= p_off p /\
  p_off p + DataSize (p_size p) + 8 * PointerCount (p_size p) <= zlen (seg_of m p).
Proof.
  intros [Hw Hk] V. specialize (Hw V). specialize (Hk V). destruct Hw as [Hs Ho].
  unfold wf_obj in Ho. rewrite Hk in Ho. tauto.
Qed.

Lemma seg_of_ok m p : msg_ok m -> seg_ok (seg_of m p).
Proof. intros. unfold seg_of. apply msg_ok_nth. assumption. Qed.
Lemma seg_of_is_seg m p : 0 <= p_seg p < zlen m -> is_seg m (p_seg p) (seg_of m p).
Proof. intros. split; [assumption|reflexivity]. Qed.

(* what the arithmetic of the struct accessors needs, in numerals *)
Lemma struct_bounds m p : msg_ok m -> wf_struct m p -> p_valid p = true ->
  0 <= DataSize (p_size p) <= 524280 /\ 0 <= PointerCount (p_size p) < 65536 /\ 0 <= p_off p /\
  p_off p + DataSize (p_size p) + 8 * PointerCount (p_size p) <= zlen (seg_of m p) <= 4294967288.
Proof.
  intros Hm Hw V. destruct (wf_struct_inv m p Hw V) as (_ & Hz & Ho & He).
  destruct (seg_of_ok m p Hm) as [Hl _]. unfold wf_size in Hz. unfold maxSegmentSize in Hl. lia.
Qed.

Lemma pointerAddress_spec m p i : msg_ok m -> wf_struct m p -> p_valid p = true ->
  0 <= i < PointerCount (p_size p) ->
  pointerAddress p i = p_off p + DataSize (p_size p) + 8 * i.
Proof.
  intros Hm Hw V Hi. pose proof (struct_bounds m p Hm Hw V) as Hb. unfold pointerAddress.
  destruct (addSize (p_off p) (DataSize (p_size p))) as [ps|] eqn:Ea.
  - apply addSize_spec in Ea. destruct Ea as [-> _].
    destruct (element _ i 8) as [a|] eqn:Ee.
    + apply element_spec in Ee. lia.
    + apply element_none in Ee. unfold maxSegmentSize in Ee. lia.
  - apply addSize_none in Ea. unfold maxSegmentSize in Ea. lia.
Qed.

(* pointer slot i of a struct lies inside the struct's segment *)
Lemma pointer_slot m p i : msg_ok m -> wf_struct m p -> p_valid p = true ->
  0 <= i < PointerCount (p_size p) ->
  0 <= pointerAddress p i /\ pointerAddress p i + 8 <= zlen (seg_of m p).
Proof.
  intros Hm Hw V Hi. rewrite (pointerAddress_spec m p i Hm Hw V Hi).
  pose proof (struct_bounds m p Hm Hw V). lia.
Qed.

(* Struct.Ptr(i), i : uint16 *)
Lemma struct_ptr_safe c m rl p i : msg_ok m -> wf_struct m p -> 0 <= i ->
  res_sat (fst (struct_ptr c m rl p i)) (fun q => cfg_strict c = true -> wf_ptr m q).
Proof.
  intros Hm Hw Hi. unfold struct_ptr.
  destruct (p_valid p) eqn:V; cbn [negb orb]; [|intros _; apply wf_null].
  destruct (i >=? PointerCount (p_size p)) eqn:Ei; [intros _; apply wf_null|].
  destruct (pointer_slot m p i Hm Hw V ltac:(lia)).
  apply readPtr_safe; try assumption. apply seg_of_is_seg, (wf_struct_inv m p Hw V).
Qed.

Lemma struct_hasptr_safe m p i : msg_ok m -> wf_struct m p -> 0 <= i ->
  struct_hasptr m p i <> Panic.
Proof.
  intros Hm Hw Hi. unfold struct_hasptr.
  destruct (p_valid p) eqn:V; cbn [negb orb]; [|discriminate].
  destruct (i >=? PointerCount (p_size p)) eqn:Ei; [discriminate|].
  destruct (pointer_slot m p i Hm Hw V ltac:(lia)) as [Ha He].
  destruct (readRawPointer_ok _ _ (seg_of_ok m p Hm) Ha He) as [w [E _]]. rewrite E. discriminate.
Qed.

(* Struct.UintN(off): the little-endian value of n bytes of the data section, 0 outside it.
   Size(off)+n is computed in uint32: the value is as stated as long as that sum does not wrap. *)
Lemma struct_uint_value m p off n : msg_ok m -> wf_struct m p -> p_valid p = true ->
  0 <= off -> 0 <= n -> off + n < 4294967296 ->
  struct_uint m p off n =
  Ok (if off + n <=? DataSize (p_size p) then le_decode (sub (seg_of m p) (p_off p + off) n) else 0).
Proof.
  intros Hm Hw V Ho Hn Hon. pose proof (struct_bounds m p Hm Hw V) as Hb.
  unfold struct_uint, dataAddress. rewrite V. cbn [negb orb].
  rewrite (u32_id (off + n)) by lia.
  destruct (off + n >? DataSize (p_size p)) eqn:E; destruct (off + n <=? DataSize (p_size p)) eqn:E2;
    try lia; [reflexivity|].
  (* inside the data section, so off < 2^19 *)
  destruct (addOffset (p_off p) off) as [a|] eqn:Ea; [|apply addOffset_none in Ea; lia].
  apply addOffset_spec in Ea. destruct Ea as [_ ->]. rewrite u32_id by lia.
  apply readUintN_ok; try lia. apply seg_of_ok, Hm.
Qed.

(* off : DataOffset is documented to be < 2^19 *)
Lemma struct_uint_spec m p off n : msg_ok m -> wf_struct m p -> p_valid p = true ->
  0 <= off < 524288 -> 0 <= n <= 8 ->
  struct_uint m p off n =
  Ok (if off + n <=? DataSize (p_size p) then le_decode (sub (seg_of m p) (p_off p + off) n) else 0).
Proof. intros. apply struct_uint_value; auto; lia. Qed.

Lemma struct_uint_safe m p off n : msg_ok m -> wf_struct m p ->
  0 <= off < 524288 -> 0 <= n <= 8 -> struct_uint m p off n <> Panic.
Proof.
  intros Hm Hw Ho Hn. destruct (p_valid p) eqn:V.
  - rewrite (struct_uint_spec m p off n) by assumption. discriminate.
  - unfold struct_uint, dataAddress. rewrite V. discriminate.
Qed.

(* exactly when the documented programmer-error panic of a data accessor fires *)
Lemma dataAddress_panic_iff p off sz :
  dataAddress p off sz = Panic <->
  (p_valid p = true /\ u32 (off + sz) <= DataSize (p_size p) /\ off >= 524288).
Proof.
  unfold dataAddress. destruct (p_valid p); cbn [negb orb].
  - destruct (_ >? _) eqn:E.
    + split; [discriminate|lia].
    + destruct (addOffset (p_off p) off) eqn:Ea.
      * apply addOffset_spec in Ea. split; [discriminate|lia].
      * apply addOffset_none in Ea. split; [intros _; repeat split; lia|reflexivity].
  - split; [discriminate|]. intros [H _]. discriminate.
Qed.

(* Struct.Bit(n): no panic for ANY bit offset n >= 0 (a struct's data section has fewer
   than 2^22 bits, so the byte offset of an in-range bit is below 2^19) *)
Lemma struct_bit_safe m p n : msg_ok m -> wf_struct m p -> 0 <= n -> struct_bit m p n <> Panic.
Proof.
  intros Hm Hw Hn. unfold struct_bit.
  destruct (p_valid p) eqn:V; cbn [andb negb]; [|discriminate].
  pose proof (struct_bounds m p Hm Hw V) as Hb.
  rewrite (u32_id (DataSize (p_size p) * 8)) by lia.
  destruct (n <? DataSize (p_size p) * 8) eqn:E; cbn [negb]; [|discriminate].
  unfold bitOffset_offset.
  destruct (addOffset (p_off p) (n / 8)) as [a|] eqn:Ea; [|apply addOffset_none in Ea; lia].
  apply addOffset_spec in Ea. destruct Ea as [_ ->]. rewrite u32_id by lia.
  destruct (readUintN_ok (seg_of m p) (p_off p + n / 8) 1 (seg_of_ok m p Hm) ltac:(lia) ltac:(lia) ltac:(lia)) as [E1 _].
  rewrite E1. discriminate.
Qed.

Lemma wf_list_inv m p : wf_list m p -> p_valid p = true ->
  0 <= p_seg p < zlen m /\ 0 <= p_off p /\ 0 <= p_len p < 536870912 /\
  if p_bit p
  then p_size p = mkOS 0 0 /\ p_off p + (p_len p + 7) / 8 <= zlen (seg_of m p)
  else wf_size (p_size p) /\ p_off p + p_len p * totalSize (p_size p) <= zlen (seg_of m p).
Proof.
  intros [Hw Hk] V. specialize (Hw V). specialize (Hk V). destruct Hw as [Hs Ho].
  unfold wf_obj in Ho. rewrite Hk in Ho. tauto.
Qed.

(* a list whose elements are not bits *)
Lemma list_bounds m p : msg_ok m -> wf_list m p -> p_valid p = true -> p_bit p = false ->
  wf_size (p_size p) /\ 0 <= p_off p /\ 0 <= p_len p < 536870912 /\
  p_off p + p_len p * totalSize (p_size p) <= zlen (seg_of m p) <= 4294967288.
Proof.
  intros Hm Hw V Hb. destruct (wf_list_inv m p Hw V) as (_ & Ho & Hl & Hr). rewrite Hb in Hr.
  destruct (seg_of_ok m p Hm) as [Hs _]. unfold maxSegmentSize in Hs. tauto.
Qed.

Lemma list_len_valid p i : 0 <= i < list_len p -> p_valid p = true /\ 0 <= i < p_len p.
Proof. unfold list_len. destruct (p_valid p); intros; [split; [reflexivity|assumption]|lia]. Qed.

(* the index check at the head of List.Struct, primitiveElem and BitList.At *)
Lemma index_check p i :
  negb (p_valid p) || (i <? 0) || (i >=? p_len p) = true <-> (p_valid p = false \/ i < 0 \/ i >= p_len p).
Proof. destruct (p_valid p); cbn [negb orb]; lia. Qed.
Lemma index_in p i :
  negb (p_valid p) || (i <? 0) || (i >=? p_len p) = false <-> 0 <= i < list_len p.
Proof. unfold list_len. destruct (p_valid p); cbn [negb orb]; lia. Qed.

(* the address of element i of a (non-bit) list *)
Lemma list_element_spec m p i : msg_ok m -> wf_list m p -> p_valid p = true -> p_bit p = false ->
  0 <= i < p_len p ->
  element (p_off p) i (totalSize (p_size p)) = Some (p_off p + i * totalSize (p_size p)) /\
  0 <= p_off p + i * totalSize (p_size p) /\
  p_off p + i * totalSize (p_size p) + totalSize (p_size p) <= zlen (seg_of m p).
Proof.
  intros Hm Hw V Hb Hi. destruct (list_bounds m p Hm Hw V Hb) as (_ & Ho & _ & Hr & Hl).
  pose proof (totalSize_nonneg (p_size p)) as [Ht _].
  assert (0 <= i * totalSize (p_size p) /\
          i * totalSize (p_size p) + totalSize (p_size p) <= p_len p * totalSize (p_size p)) as [? ?] by nia.
  split; [|lia]. apply element_spec. unfold maxSegmentSize. lia.
Qed.

(* List.Struct(i): panics exactly for an invalid list or an index outside [0, Len()) *)
Lemma list_struct_panic_iff fd p i :
  list_struct fd p i = Panic <-> (p_valid p = false \/ i < 0 \/ i >= p_len p).
Proof.
  unfold list_struct. rewrite <- index_check. destruct (negb _ || _ || _); [split; reflexivity|].
  destruct (p_bit p); [|destruct (element _ _ _)]; split; discriminate.
Qed.

(* element i of a list of structs whose address fits a segment *)
Lemma list_struct_ok fd p i : p_valid p = true -> p_bit p = false -> 0 <= i < p_len p ->
  0 <= p_off p + i * totalSize (p_size p) <= 4294967288 ->
  list_struct fd p i = Ok (mkPtr true (p_seg p) (p_off p + i * totalSize (p_size p)) 0 (p_size p)
                             (if fd && (p_depth p =? 0) then 0 else uint_dec (p_depth p)) KStruct false false true).
Proof.
  intros V Hb Hi Ha. unfold list_struct.
  rewrite (proj2 (index_in p i)), Hb by (unfold list_len; rewrite V; exact Hi).
  rewrite (proj2 (element_spec _ _ _ _) (conj eq_refl Ha)). reflexivity.
Qed.

Lemma list_struct_safe fd m p i : msg_ok m -> wf_list m p -> 0 <= i < list_len p ->
  res_sat (list_struct fd p i) (wf_struct m).
Proof.
  intros Hm Hw Hi. destruct (p_bit p) eqn:Hb.
  - unfold list_struct. rewrite (proj2 (index_in p i) Hi), Hb. split; [apply wf_null|discriminate].
  - apply list_len_valid in Hi. destruct Hi as [V Hi].
    destruct (list_element_spec m p i Hm Hw V Hb Hi) as (Ee & Ha & He).
    apply element_spec in Ee. destruct Ee as [_ Ee].
    destruct (list_bounds m p Hm Hw V Hb) as (Hz & _).
    rewrite list_struct_ok by assumption.
    split; [|reflexivity]. apply (wf_ptr_obj m (seg_of m p)).
    + apply (seg_of_is_seg m p), (wf_list_inv m p Hw V).
    + rewrite (totalSize_wf _ Hz) in He at 2. split; [exact Hz|]. pcbn. lia.
Qed.

(* primitiveElem: same documented panic *)
Lemma primitiveElem_panic_iff fu p i exp :
  primitiveElem fu p i exp = Panic <-> (p_valid p = false \/ i < 0 \/ i >= p_len p).
Proof.
  unfold primitiveElem. rewrite <- index_check. destruct (negb _ || _ || _); [split; reflexivity|].
  dif; [|destruct (element _ _ _); [dif; [destruct (addSize _ _)|]|]]; split; discriminate.
Qed.

Lemma primitiveElem_safe fu m p i exp : msg_ok m -> wf_list m p -> 0 <= i < list_len p ->
  0 <= DataSize exp -> 0 <= PointerCount exp -> (DataSize exp = 0 \/ PointerCount exp = 0) ->
  res_sat (primitiveElem fu p i exp)
          (fun a => 0 <= a /\ a + DataSize exp + 8 * PointerCount exp <= zlen (seg_of m p)).
Proof.
  intros Hm Hw Hi Hed Hep Hex. unfold primitiveElem. rewrite (proj2 (index_in p i) Hi).
  apply list_len_valid in Hi. destruct Hi as [V Hi].
  destruct (p_bit p) eqn:Hb; [exact I|].
  destruct (list_element_spec m p i Hm Hw V Hb Hi) as (Ee & Ha & Hend).
  destruct (list_bounds m p Hm Hw V Hb) as (Hz & _). rewrite (totalSize_wf _ Hz) in Hend at 2.
  unfold wf_size in Hz. unfold os_eqb.
  (* once the size check has passed, the expected sections fit the element *)
  destruct (p_comp p); (destruct (_ || _ || _) eqn:G; [exact I|]); rewrite Ee.
  - destruct (fu && true && (0 <? PointerCount exp)) eqn:F; [|cbn [res_sat]; lia].
    destruct (addSize _ _) as [a|] eqn:Eadd; [|exact I].
    apply addSize_spec in Eadd. destruct Eadd as [-> _]. cbn [res_sat]. lia.
  - rewrite Bool.andb_false_r. cbn [andb res_sat]. lia.
Qed.

(* PointerList.At(i) *)
Lemma ptrlist_at_safe c fu m rl p i : msg_ok m -> wf_list m p -> 0 <= i < list_len p ->
  res_sat (fst (ptrlist_at c fu m rl p i)) (fun q => cfg_strict c = true -> wf_ptr m q).
Proof.
  intros Hm Hw Hi. unfold ptrlist_at.
  pose proof (primitiveElem_safe fu m p i (mkOS 0 1) Hm Hw Hi ltac:(cbn; lia) ltac:(cbn; lia)
                ltac:(left; reflexivity)) as H.
  destruct (primitiveElem fu p i (mkOS 0 1)) as [a| |]; [|exact I|exact H].
  cbn [res_sat DataSize PointerCount] in H.
  apply list_len_valid in Hi. destruct Hi as [V _].
  apply readPtr_safe; try assumption; try lia. apply seg_of_is_seg, (wf_list_inv m p Hw V).
Qed.

(* UInt8/16/32/64 List.At(i) *)
Lemma list_uint_at_safe fu m p i n : msg_ok m -> wf_list m p -> 0 <= i < list_len p -> 0 <= n ->
  res_sat (list_uint_at fu m p i n)
          (fun v => v = 0 \/ exists a, 0 <= a /\ a + n <= zlen (seg_of m p) /\ v = le_decode (sub (seg_of m p) a n)).
Proof.
  intros Hm Hw Hi Hn. unfold list_uint_at.
  pose proof (primitiveElem_safe fu m p i (mkOS n 0) Hm Hw Hi ltac:(cbn; lia) ltac:(cbn; lia)
                ltac:(right; reflexivity)) as H.
  destruct (primitiveElem fu p i (mkOS n 0)) as [a| |]; [|left; reflexivity|exact H].
  cbn [res_sat DataSize PointerCount] in H.
  destruct (readUintN_ok (seg_of m p) a n (seg_of_ok m p Hm) ltac:(lia) ltac:(lia) ltac:(lia)) as [E _].
  rewrite E. right. exists a. repeat split; lia.
Qed.

(* BitList.At(i), repaired (no struct-field offset limit) *)
Lemma bitlist_at_safe m p i : msg_ok m -> wf_list m p -> 0 <= i < list_len p ->
  bitlist_at true m p i <> Panic.
Proof.
  intros Hm Hw Hi. unfold bitlist_at. rewrite (proj2 (index_in p i) Hi).
  apply list_len_valid in Hi. destruct Hi as [V Hi].
  destruct (p_bit p) eqn:Hb; cbn [negb]; [|discriminate]. cbv zeta.
  destruct (wf_list_inv m p Hw V) as (_ & Ho & Hl & Hr). rewrite Hb in Hr. destruct Hr as [_ Hr].
  destruct (seg_of_ok m p Hm) as [Hsl Hsb]. unfold maxSegmentSize in Hsl.
  unfold bitOffset_offset. rewrite u32_id by lia.
  destruct (readUintN_ok (seg_of m p) (p_off p + i / 8) 1 (conj Hsl Hsb) ltac:(lia) ltac:(lia) ltac:(lia)) as [E _].
  rewrite E. discriminate.
Qed.

Lemma bitlist_at_panic_iff m p i : msg_ok m -> wf_list m p ->
  (bitlist_at true m p i = Panic <-> (p_valid p = false \/ i < 0 \/ i >= p_len p)).
Proof.
  intros Hm Hw. rewrite <- index_check. destruct (negb _ || _ || _) eqn:E.
  - unfold bitlist_at. rewrite E. split; reflexivity.
  - apply index_in in E. split; [intros H; destruct (bitlist_at_safe m p i Hm Hw E H)|discriminate].
Qed.

Lemma isOneByteList_inv m p : msg_ok m -> wf_ptr m p -> isOneByteList p = true ->
  0 <= p_off p /\ 0 <= p_len p < 536870912 /\ p_off p + p_len p <= zlen (seg_of m p).
Proof.
  intros Hm Hw H. unfold isOneByteList, is_list, os_isOneByte in H.
  destruct (p_valid p) eqn:V; [|discriminate]. destruct (p_kind p) eqn:K; try discriminate.
  destruct (p_bit p) eqn:Hb.
  - destruct (wf_list_inv m p (conj Hw (fun _ => K)) V) as (_ & _ & _ & Hr).
    rewrite Hb in Hr. destruct Hr as [Hsz _]. rewrite Hsz in H. discriminate.
  - destruct (list_bounds m p Hm (conj Hw (fun _ => K)) V Hb) as (Hz & Ho & Hl & Hr & _).
    rewrite (totalSize_wf _ Hz) in Hr. lia.
Qed.

(* Ptr.Data(): the bytes handed out are exactly the list's region of its segment *)
Lemma ptr_data_safe m p : msg_ok m -> wf_ptr m p ->
  res_sat (ptr_data m p) (fun o => match o with
                                   | None => True
                                   | Some b => b = sub (seg_of m p) (p_off p) (p_len p) /\
                                               0 <= p_off p /\ 0 <= p_len p /\
                                               p_off p + p_len p <= zlen (seg_of m p)
                                   end).
Proof.
  intros Hm Hw. unfold ptr_data. destruct (isOneByteList p) eqn:E; cbn [negb]; [|exact I].
  destruct (isOneByteList_inv m p Hm Hw E) as (Ho & Hl & He).
  destruct (seg_of_ok m p Hm) as [Hsl _]. unfold maxSegmentSize in Hsl.
  rewrite u32_id by lia. rewrite slice_ok by lia. cbn [bind res_sat]. repeat split; lia.
Qed.

Lemma firstn_app_exact {A} (l1 l2 : list A) : firstn (length l1) (l1 ++ l2) = l1.
Proof. induction l1 as [|x l IH]; cbn; [destruct l2; reflexivity|rewrite IH; reflexivity]. Qed.

(* Ptr.text(): the bytes handed out are the list's region without its last byte *)
Lemma ptr_text_safe m p : msg_ok m -> wf_ptr m p ->
  res_sat (ptr_text m p) (fun o => match o with
                                   | None => True
                                   | Some b => b = sub (seg_of m p) (p_off p) (p_len p - 1) /\
                                               0 <= p_off p /\ 0 < p_len p /\
                                               p_off p + p_len p <= zlen (seg_of m p)
                                   end).
Proof.
  intros Hm Hw. unfold ptr_text. destruct (isOneByteList p) eqn:E; cbn [negb]; [|exact I].
  destruct (isOneByteList_inv m p Hm Hw E) as (Ho & Hl & He).
  destruct (seg_of_ok m p Hm) as [Hsl _]. unfold maxSegmentSize in Hsl.
  rewrite u32_id by lia. rewrite slice_ok by lia. cbn [bind].
  pose proof (sub_length (seg_of m p) (p_off p) (p_len p) Ho ltac:(lia) He) as Hlen.
  destruct (rev (sub (seg_of m p) (p_off p) (p_len p))) as [|last r] eqn:Er; [exact I|].
  destruct (last =? 0); [|exact I]. cbn [res_sat].
  apply (f_equal (@rev Z)) in Er. rewrite rev_involutive in Er. cbn [rev] in Er.
  rewrite Er in Hlen. unfold zlen in Hlen. rewrite app_length in Hlen. cbn [length] in Hlen.
  split; [|lia].
  rewrite <- (firstn_app_exact (rev r) [last]), <- Er. unfold sub. rewrite firstn_firstn. f_equal. lia.
Qed.

Fixpoint tree_ok (t : tree) : bool :=
  match t with
  | TPanic => false
  | TStruct _ ps => forallb tree_ok ps
  | TPtrs _ es => forallb tree_ok es
  | TComp _ _ es => forallb tree_ok es
  | _ => true
  end.

Lemma forallb_Forall {A} (f : A -> bool) l : Forall (fun x => f x = true) l -> forallb f l = true.
Proof. induction 1; cbn; [reflexivity|]. rewrite H, IHForall. reflexivity. Qed.

Lemma iter_rl_Forall {A} (P : A -> Prop) (f : Z -> Z -> A * Z) : forall n i rl,
  (forall j rl0, i <= j < i + Z.of_nat n -> P (fst (f j rl0))) ->
  Forall P (fst (iter_rl n i rl f)).
Proof.
  induction n as [|n IH]; intros i rl H; cbn [iter_rl].
  - constructor.
  - destruct (f i rl) as [a rl1] eqn:Ef.
    specialize (IH (i + 1) rl1 ltac:(intros j rl0 Hj; apply H; lia)).
    destruct (iter_rl n (i + 1) rl1 f) as [r rl2]. cbn [fst] in *.
    constructor; [|assumption]. specialize (H i rl ltac:(lia)). rewrite Ef in H. exact H.
Qed.

(* a walker node: the tree built from the children, and the budget they leave *)
Lemma iter_node {A B} (x : list A * Z) (T : list A -> B) :
  (let '(ps, rl') := x in (T ps, rl')) = (T (fst x), snd x).
Proof. destruct x. reflexivity. Qed.

Lemma collect_nopanic {A} (f : Z -> res A) (d : A) n :
  (forall j, 0 <= j < Z.of_nat n -> f j <> Panic) -> collect n f d <> Panic.
Proof.
  unfold collect.
  assert (forall k i, (forall j, i <= j < i + Z.of_nat k -> f j <> Panic) ->
            (fix go (k : nat) (i : Z) {struct k} : res (list A) :=
               match k with
               | O => Ok []
               | S k' => do a <- f i; do r <- go k' (i + 1); Ok (a :: r)
               end) k i <> Panic) as G.
  { induction k as [|k IH]; intros i H; [discriminate|].
    specialize (IH (i + 1) ltac:(intros j Hj; apply H; lia)).
    specialize (H i ltac:(lia)).
    destruct (f i); cbn [bind]; [|discriminate|congruence].
    match goal with |- bind ?x _ <> _ => destruct x end; cbn [bind]; [discriminate|discriminate|congruence]. }
  intros H. apply G. intros j Hj. apply H. lia.
Qed.

(* a walker node whose content is collected by a reader that does not panic *)
Lemma collect_tree_ok {A} n (f : Z -> res A) d (k : list A -> tree * Z) rl :
  (forall j, 0 <= j < Z.of_nat n -> f j <> Panic) -> (forall l, tree_ok (fst (k l)) = true) ->
  tree_ok (fst match collect n f d with Ok l => k l | Err => (TErr, rl) | Panic => (TPanic, rl) end) = true.
Proof.
  intros Hf Hk. pose proof (collect_nopanic f d n Hf).
  destruct (collect n f d); [apply Hk|reflexivity|contradiction].
Qed.

Lemma cap_count_le n cap j : 0 <= j < Z.of_nat (cap_count n cap) -> 0 <= j < n.
Proof. unfold cap_count. lia. Qed.

Lemma walk_safe c fx m dcap pcap : msg_ok m -> cfg_strict c = true -> fx_bit fx = true ->
  forall fuel rl r, res_sat r (wf_ptr m) -> tree_ok (fst (walk c fx m dcap pcap fuel rl r)) = true.
Proof.
  intros Hm Hc Hfb. induction fuel as [|f IH]; intros rl r Hr.
  - destruct r as [p| |]; cbn [walk]; [|reflexivity|destruct Hr].
    destruct (p_valid p); reflexivity.
  - destruct r as [p| |]; cbn [walk]; [|reflexivity|destruct Hr]. cbn [res_sat] in Hr.
    destruct (p_valid p) eqn:V; cbn [negb]; [|reflexivity].
    destruct (p_kind p) eqn:K.
    + (* struct *)
      assert (wf_struct m p) as Hws by (split; [assumption|intros _; assumption]).
      apply collect_tree_ok.
      { intros j Hj. apply cap_count_le in Hj.
        pose proof (struct_bounds m p Hm Hws V). apply struct_uint_safe; try assumption; lia. }
      intros data. rewrite iter_node. cbn [fst tree_ok]. apply forallb_Forall, iter_rl_Forall. intros j rl0 Hj.
      pose proof (struct_ptr_safe c m rl0 p j Hm Hws ltac:(lia)) as Hq.
      destruct (struct_ptr c m rl0 p j) as [q rl1]. apply IH, (res_sat_mp _ _ _ Hc), Hq.
    + (* list *)
      assert (wf_list m p) as Hwl by (split; [assumption|intros _; assumption]).
      assert (forall j, 0 <= j < Z.of_nat (cap_count (p_len p) pcap) -> 0 <= j < list_len p) as Hidx.
      { intros j Hj. apply cap_count_le in Hj. unfold list_len. rewrite V. assumption. }
      cbv zeta. destruct (p_bit p) eqn:Hb.
      { apply collect_tree_ok; [|reflexivity]. intros j Hj. rewrite Hfb. apply bitlist_at_safe; auto. }
      destruct (p_comp p) eqn:Hcomp.
      { rewrite iter_node. cbn [fst tree_ok]. apply forallb_Forall, iter_rl_Forall. intros j rl0 Hj.
        apply IH. eapply res_sat_weaken; [apply (list_struct_safe (fx_depth fx) m p j Hm Hwl (Hidx j Hj))|].
        intros a [Ha _]. exact Ha. }
      destruct (0 <? PointerCount (p_size p)) eqn:Hpc.
      { rewrite iter_node. cbn [fst tree_ok]. apply forallb_Forall, iter_rl_Forall. intros j rl0 Hj.
        pose proof (ptrlist_at_safe c (fx_upgrade fx) m rl0 p j Hm Hwl (Hidx j Hj)) as Hq.
        destruct (ptrlist_at c (fx_upgrade fx) m rl0 p j) as [q rl1]. apply IH, (res_sat_mp _ _ _ Hc), Hq. }
      destruct (DataSize (p_size p) =? 0) eqn:Hw0; [reflexivity|].
      apply collect_tree_ok; [|reflexivity]. intros j Hj.
      eapply res_sat_nopanic, list_uint_at_safe; auto.
      destruct (list_bounds m p Hm Hwl V Hb) as [[Hz _] _]. lia.
    + reflexivity.
Qed.

(* The documented argument domain of the read-side API, as an executable predicate evaluated
   on the state the op is applied to: pointer indices are uint16; data offsets are
   DataOffset < 2^19 and widths 1/2/4/8; bit offsets < 2^22; list indices are in
   [0, Len()) of the list the handle designates AT THAT POINT (an index outside is the
   documented programmer-error panic, see list_struct_panic_iff / primitiveElem_panic_iff /
   bitlist_at_panic_iff).  Handles themselves are unrestricted (an unknown handle is the
   zero Ptr). *)
Definition in_width (n : Z) : bool := (n =? 1) || (n =? 2) || (n =? 4) || (n =? 8).
Definition in_len (st : rstate) (h i : Z) : bool :=
  (0 <=? i) && (i <? list_len (as_list (handle st h))).

Definition op_dom (st : rstate) (o : op) : bool :=
  match o with
  | OSPtr _ i | OHasPtr _ i => (0 <=? i) && (i <? 65536)
  | OUint _ off n => (0 <=? off) && (off <? 524288) && in_width n
  | OBit _ n => (0 <=? n) && (n <? 4194304)
  | OLStruct h i | OPLAt h i | OBitAt h i => in_len st h i
  | OUintAt h i n => in_len st h i && in_width n
  | ORoot | OText _ | OData _ | OInfo _ | ORLimit | OWalk _ _ _ _ | OReset _ | OResetLimit _ | OUnread _ => true
  end.

Fixpoint run_dom (c : config) (fx : fixes) (m : segs) (st : rstate) (ops : list op) : bool :=
  match ops with
  | [] => true
  | o :: r => op_dom st o && run_dom c fx m (fst (step c fx m st o)) r
  end.

Definition oval_ok (v : oval) : Prop :=
  match v with
  | VPtr r => r <> Panic
  | VNum r => r <> Panic
  | VBool r => r <> Panic
  | VBytes r => r <> Panic
  | VTree t _ => tree_ok t = true
  end.

Definition state_wf (m : segs) (st : rstate) : Prop := Forall (wf_ptr m) (rs_handles st).

Lemma handle_wf m st h : state_wf m st -> wf_ptr m (handle st h).
Proof.
  unfold state_wf, handle. intros H.
  destruct (Nat.lt_ge_cases (Z.to_nat h) (length (rs_handles st))) as [L|G].
  - rewrite Forall_forall in H. apply H. apply nth_In. assumption.
  - rewrite nth_overflow by assumption. apply wf_null.
Qed.

Lemma push_wf m st r rl : state_wf m st -> res_sat r (wf_ptr m) -> state_wf m (push st r rl).
Proof.
  unfold state_wf, push. cbn [rs_handles]. intros H Hr. apply Forall_app. split; [assumption|].
  constructor; [|constructor]. destruct r; cbn [res_sat] in Hr; auto using wf_null.
Qed.

(* an op that hands out a pointer: the new handle is well-formed and the observation no panic *)
Lemma push_step m st (x : res Ptr * Z) : state_wf m st -> res_sat (fst x) (wf_ptr m) ->
  state_wf m (fst (let '(r, rl) := x in (push st r rl, VPtr r))) /\
  oval_ok (snd (let '(r, rl) := x in (push st r rl, VPtr r))).
Proof.
  destruct x as [r rl]. intros H Hx. split; [apply push_wf; assumption|exact (res_sat_nopanic _ _ Hx)].
Qed.

Lemma step_safe c fx m st o : msg_ok m -> cfg_strict c = true -> cfg_root c = true -> fx_bit fx = true ->
  state_wf m st -> op_dom st o = true ->
  state_wf m (fst (step c fx m st o)) /\ oval_ok (snd (step c fx m st o)).
Proof.
  intros Hm Hst Hrt Hfb Hwf Hd.
  pose proof (fun h => handle_wf m st h Hwf) as Hh.
  pose proof (fun h => wf_struct_as_struct m _ (Hh h)) as Hhs.
  pose proof (fun h => wf_list_as_list m _ (Hh h)) as Hhl.
  (* of the ops that leave the handles alone only the observation remains *)
  destruct o; cbn [step op_dom] in *; unfold in_len in *;
    try (split; [exact Hwf|cbn [snd oval_ok]]); try discriminate.
  - (* root *)
    apply (push_step m st _ Hwf), (res_sat_mp _ _ _ Hst), root_safe; assumption.
  - (* Struct.Ptr *)
    apply (push_step m st _ Hwf), (res_sat_mp _ _ _ Hst), struct_ptr_safe; auto. lia.
  - apply struct_hasptr_safe; auto. lia.
  - unfold in_width in Hd. apply struct_uint_safe; auto; lia.
  - apply struct_bit_safe; auto. lia.
  - (* List.Struct *)
    apply (push_step m st (_, rs_rl st) Hwf).
    eapply res_sat_weaken; [apply (list_struct_safe (fx_depth fx) m _ i Hm (Hhl h)); lia|].
    intros a [Ha _]. exact Ha.
  - (* PointerList.At *)
    apply (push_step m st _ Hwf), (res_sat_mp _ _ _ Hst), ptrlist_at_safe; auto. lia.
  - unfold in_width in Hd. eapply res_sat_nopanic. apply list_uint_at_safe; auto; lia.
  - rewrite Hfb. apply bitlist_at_safe; auto. lia.
  - eapply res_sat_nopanic. apply ptr_text_safe; auto.
  - eapply res_sat_nopanic. apply ptr_data_safe; auto.
  - (* walk *)
    pose proof (walk_safe c fx m dcap pcap Hm Hst Hfb (Z.to_nat fuel) (rs_rl st) (Ok (handle st h)) (Hh h)) as H.
    destruct (walk c fx m dcap pcap (Z.to_nat fuel) (rs_rl st) (Ok (handle st h))) as [t rl].
    split; [exact Hwf|exact H].
  - (* reset: the handle pool is emptied *)
    split; [constructor|discriminate].
Qed.

(* All read-side API call sequences: no observation is a panic and every handle ever
   created designates a region inside the message. *)
Lemma run_safe_gen c fx m : msg_ok m -> cfg_strict c = true -> cfg_root c = true -> fx_bit fx = true ->
  forall ops st, state_wf m st -> run_dom c fx m st ops = true ->
  state_wf m (fst (run c fx m st ops)) /\ Forall oval_ok (snd (run c fx m st ops)).
Proof.
  intros Hm Hst Hrt Hfb. induction ops as [|o ops IH]; intros st Hwf Hd; cbn [run run_dom] in *.
  - split; [assumption|constructor].
  - apply andb_prop in Hd. destruct Hd as [Hd1 Hd2].
    destruct (step_safe c fx m st o Hm Hst Hrt Hfb Hwf Hd1) as [Hs Hv].
    destruct (step c fx m st o) as [st1 v]. cbn [fst snd] in *.
    destruct (IH st1 Hs Hd2) as [Hs2 Hvs].
    destruct (run c fx m st1 ops) as [st2 vs]. cbn [fst snd] in *.
    split; [assumption|constructor; assumption].
Qed.

Definition init_state (c : config) : rstate := mkRS [] (init_rlimit c).

Theorem run_safe c fx m ops : msg_ok m -> cfg_strict c = true -> cfg_root c = true -> fx_bit fx = true ->
  run_dom c fx m (init_state c) ops = true ->
  Forall oval_ok (run_ops c fx m ops) /\ state_wf m (fst (run c fx m (init_state c) ops)).
Proof.
  intros Hm Hst Hrt Hfb Hd. apply and_comm, run_safe_gen; auto. constructor.
Qed.

(* Every accessor of the read API applied to a well-formed receiver (any Ptr handed out by the
   reader, converted with Ptr.Struct() / Ptr.List()) with arguments in the documented domain:
   no panic; returned pointers are well-formed; returned bytes are a sub-list [sub seg a n]
   (= firstn n (skipn a seg)) of a supplied segment, never anything else. *)
Theorem accessor_safe c m p : msg_ok m -> cfg_strict c = true -> wf_ptr m p ->
  let s := as_struct p in let l := as_list p in
  (forall rl i, 0 <= i < 65536 -> res_sat (fst (struct_ptr c m rl s i)) (wf_ptr m)) /\
  (forall i, 0 <= i < 65536 -> struct_hasptr m s i <> Panic) /\
  (forall off n, 0 <= off < 524288 -> in_width n = true ->
     struct_uint m s off n <> Panic /\
     (p_valid s = true -> struct_uint m s off n =
        Ok (if off + n <=? DataSize (p_size s) then le_decode (sub (seg_of m s) (p_off s + off) n) else 0))) /\
  (forall n, 0 <= n < 4194304 -> struct_bit m s n <> Panic) /\
  (forall fd i, 0 <= i < list_len l -> res_sat (list_struct fd l i) (wf_ptr m)) /\
  (forall fu rl i, 0 <= i < list_len l -> res_sat (fst (ptrlist_at c fu m rl l i)) (wf_ptr m)) /\
  (forall fu i n, 0 <= i < list_len l -> in_width n = true ->
     res_sat (list_uint_at fu m l i n)
       (fun v => v = 0 \/ exists a, 0 <= a /\ a + n <= zlen (seg_of m l) /\ v = le_decode (sub (seg_of m l) a n))) /\
  (forall i, 0 <= i < list_len l -> bitlist_at true m l i <> Panic) /\
  res_sat (ptr_text m p) (fun o => match o with
                                   | None => True
                                   | Some b => b = sub (seg_of m p) (p_off p) (p_len p - 1) /\ 0 <= p_off p /\
                                               0 < p_len p /\ p_off p + p_len p <= zlen (seg_of m p)
                                   end) /\
  res_sat (ptr_data m p) (fun o => match o with
                                   | None => True
                                   | Some b => b = sub (seg_of m p) (p_off p) (p_len p) /\ 0 <= p_off p /\
                                               0 <= p_len p /\ p_off p + p_len p <= zlen (seg_of m p)
                                   end).
Proof.
  intros Hm Hc Hw s l.
  pose proof (wf_struct_as_struct m p Hw : wf_struct m s) as Hs.
  pose proof (wf_list_as_list m p Hw : wf_list m l) as Hl.
  split; [|split; [|split; [|split; [|split; [|split; [|split; [|split; [|split]]]]]]]].
  - intros rl i Hi. apply (res_sat_mp _ _ _ Hc), struct_ptr_safe; auto; lia.
  - intros i Hi. apply struct_hasptr_safe; auto; lia.
  - intros off n Ho Hn. unfold in_width in Hn. split.
    + apply struct_uint_safe; auto. lia.
    + intros V. apply struct_uint_spec; auto. lia.
  - intros n Hn. apply struct_bit_safe; auto; lia.
  - intros fd i Hi. eapply res_sat_weaken; [apply (list_struct_safe fd m l i); auto|]. intros a [Ha _]. exact Ha.
  - intros fu rl i Hi. apply (res_sat_mp _ _ _ Hc), ptrlist_at_safe; auto.
  - intros fu i n Hi Hn. unfold in_width in Hn. apply list_uint_at_safe; auto. lia.
  - intros i Hi. apply bitlist_at_safe; auto.
  - apply ptr_text_safe; auto.
  - apply ptr_data_safe; auto.
Qed.

(* F21 (cfg_root = false): Message.Root on a message whose first segment is empty panics *)
Example root_prefix_refuted : fst (root (mkCfg 0 0 true false) [[]] 64) = Panic.
Proof. vm_compute. reflexivity. Qed.

(* F02 (fx_bit = false): BitList.At panics for every index >= 2^22 of ANY valid bit list,
   however long (addOffset's struct-field limit) *)
Lemma bitlist_prefix_refuted m p i : p_valid p = true -> p_bit p = true ->
  4194304 <= i < p_len p -> bitlist_at false m p i = Panic.
Proof.
  intros V B Hi. unfold bitlist_at. rewrite V, B. cbn [negb orb].
  destruct (i <? 0) eqn:E1; [lia|]. destruct (i >=? p_len p) eqn:E2; [lia|]. cbn [orb]. cbv zeta.
  unfold bitOffset_offset. destruct (addOffset (p_off p) (i / 8)) eqn:Ea; [|reflexivity].
  apply addOffset_spec in Ea. lia.
Qed.

(* F06 (cfg_strict = false): with a traverse limit of 2^32 a composite tag with zero-sized
   elements and count -1 is accepted: Root hands out a list with Len() = -1 *)
Example strict_prefix_refuted :
  let m := [[1;0;0;0;7;0;0;0; 252;255;255;255;0;0;0;0]] in
  msg_ok m /\
  exists p, fst (root (mkCfg 4294967296 0 false true) m 4294967296) = Ok p /\ p_valid p = true /\ p_len p = -1.
Proof.
  split.
  - repeat constructor; cbn; try lia; unfold maxSegmentSize; lia.
  - eexists. vm_compute. repeat split.
Qed.
(* the repaired reader rejects the same message *)
Example strict_fixed_rejects :
  fst (root (mkCfg 4294967296 0 true true) [[1;0;0;0;7;0;0;0; 252;255;255;255;0;0;0;0]] 4294967296) = Err.
Proof. vm_compute. reflexivity. Qed.

(* the excluded programmer-error panics, together *)
Lemma index_panics fd fu p i exp :
  (list_struct fd p i = Panic <-> (p_valid p = false \/ i < 0 \/ i >= p_len p)) /\
  (primitiveElem fu p i exp = Panic <-> (p_valid p = false \/ i < 0 \/ i >= p_len p)).
Proof. split; [exact (list_struct_panic_iff fd p i)|exact (primitiveElem_panic_iff fu p i exp)]. Qed.

(* a struct with one data word, a text field "hi" and a composite list of two structs *)
Definition rd_ex_msg : segs :=
  [[0;0;0;0;1;0;2;0;  42;0;0;0;0;0;0;0;  5;0;0;0;26;0;0;0;  5;0;0;0;23;0;0;0;
    104;105;0;0;0;0;0;0;  8;0;0;0;1;0;0;0;  1;0;0;0;0;0;0;0;  2;0;0;0;0;0;0;0]].
Definition rd_ex_ops : list op :=
  [ORoot; OSPtr 0 0; OText 1; OSPtr 0 1; OLStruct 2 1; OUint 3 0 4; OWalk 0 8 8 10; ORLimit].
Definition rd_ex_cfg := mkCfg 1000 4 true true.
Definition rd_ex_fix := mkFix true true true.

Lemma rd_ex_hypotheses :
  msg_ok rd_ex_msg /\ run_dom rd_ex_cfg rd_ex_fix rd_ex_msg (init_state rd_ex_cfg) rd_ex_ops = true.
Proof.
  split; [|vm_compute; reflexivity].
  repeat constructor; cbn; try lia; unfold maxSegmentSize; lia.
Qed.

Lemma rd_ex_run :
  exists p0 p1 p2 p3,
  run_ops rd_ex_cfg rd_ex_fix rd_ex_msg rd_ex_ops =
  [VPtr (Ok p0); VPtr (Ok p1); VBytes (Ok (Some [104; 105])); VPtr (Ok p2); VPtr (Ok p3); VNum (Ok 2);
   VTree (TStruct [42;0;0;0;0;0;0;0]
            [TPrim 1 3 [104; 105; 0];
             TComp 2 (mkOS 8 0) [TStruct [1;0;0;0;0;0;0;0] []; TStruct [2;0;0;0;0;0;0;0] []]]) 938;
   VNum (Ok 938)].
Proof. do 4 eexists. vm_compute. reflexivity. Qed.
