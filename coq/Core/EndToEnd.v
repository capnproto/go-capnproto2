(* C01 from raw bytes: "for any byte strings supplied as the segments of a message (any segment
   count, any arena, packed or unpacked framing) ...".  The framing models (Frame/Frame.v:
   Unmarshal, Decoder.Decode over any chunking; Frame/FramePacked.v: UnmarshalPacked over
   Packed/Packed.v unpack) are composed with the reader theorems of Core/SafetyProofs.v and the
   consumer theorems (Value/EqualSafe.v, Value/CanonSafe.v, Core/CopySafe.v).
   Until now [msg_ok] (every segment <= maxSegmentSize bytes, every byte 0..255) was a trusted
   hypothesis of all C01/C02 theorems; here it is DISCHARGED for every message the framing
   layer hands out: the only remaining hypothesis is that the input is a string of bytes
   ([bytes_ok b]: each element is 0..255, i.e. it is a []byte).
   The two layers have their own result types (Frame.res carries an error class); the Frame
   side is referred to by qualified names. *)
From CV Require Import Core.SafetyProofs Core.LimitProofs.
From CV Require Frame.Frame Frame.FrameProofs Frame.FrameSafe Frame.FrameStream Frame.FrameAlloc Frame.FramePacked
               Packed.Packed Packed.PackedProofs.
From Coq Require Import ZifyBool ZifyNat.
Open Scope Z_scope.
Ltac Zify.zify_post_hook ::= Z.div_mod_to_equations.

Module FR := CV.Frame.Frame.
Module FP := CV.Frame.FramePacked.
Module PK := CV.Packed.Packed.

(* the framing layer's and the reader's "string of bytes" / "length" are the same notions *)
Lemma bytes_ok_same l : PK.bytes_ok l <-> bytes_ok l.
Proof. reflexivity. Qed.
Lemma len_same {A} (l : list A) : FR.len l = zlen l.
Proof. reflexivity. Qed.
Lemma max_seg_same : FR.max_segment_size = maxSegmentSize.
Proof. reflexivity. Qed.

Lemma bytes_ok_concat_inv segs : bytes_ok (concat segs) -> Forall bytes_ok segs.
Proof.
  induction segs as [|s r IH]; cbn [concat]; intros H; [constructor|].
  apply Forall_app in H. destruct H as [H1 H2]. constructor; [exact H1|apply IH; exact H2].
Qed.

Lemma frame_msg_ok segs : CV.Frame.FrameProofs.segs_ok segs -> Forall bytes_ok segs -> msg_ok segs.
Proof.
  intros H1 H2. unfold msg_ok, CV.Frame.FrameProofs.segs_ok in *. rewrite Forall_forall in *. intros s Hs.
  destruct (H1 s Hs) as [_ Hl]. split; [exact Hl|apply H2; exact Hs].
Qed.

(* (1) every message Unmarshal returns satisfies msg_ok, for ALL byte strings: segmentSize
   rejects a size word whose 8-fold exceeds 2^32-8 or is negative as int32 (Size.times), so no
   segment is longer than maxSegmentSize; the segments are slices of the input. *)
Theorem unmarshal_msg_ok b segs : bytes_ok b -> FR.unmarshal b = FR.Ok segs -> msg_ok segs.
Proof.
  intros Hb E. destruct (CV.Frame.FrameSafe.unmarshal_cases b Hb) as [[e H]|(segs' & k & H & _ & _ & Hok & Hc)].
  - rewrite E in H. discriminate.
  - rewrite E in H. inversion H; subst segs'. apply frame_msg_ok; [exact Hok|].
    apply bytes_ok_concat_inv. rewrite Hc.
    apply CV.Frame.FrameSafe.bytes_ok_firstn. apply CV.Frame.FrameAlloc.bytes_ok_skipn. exact Hb.
Qed.

Theorem unmarshal_nopanic b : bytes_ok b -> FR.unmarshal b <> FR.Panic.
Proof. exact (CV.Frame.FrameSafe.unmarshal_safe b). Qed.

Lemma take_bits_bytes : forall n tag src w s', bytes_ok src -> PK.take_bits n tag src = Some (w, s') ->
  bytes_ok w /\ bytes_ok s'.
Proof.
  induction n as [|n IH]; intros tag src w s' Hb H; cbn [PK.take_bits] in H.
  - inversion H; subst. split; [constructor|exact Hb].
  - destruct (Z.odd tag).
    + destruct src as [|x s]; [discriminate|]. inversion Hb as [|? ? Hx Hs]; subst.
      destruct (PK.take_bits n (tag / 2) s) as [[w0 s0]|] eqn:E; [|discriminate]. inversion H; subst.
      destruct (IH _ _ _ _ Hs E) as [A B]. split; [constructor; assumption|exact B].
    + destruct (PK.take_bits n (tag / 2) src) as [[w0 s0]|] eqn:E; [|discriminate]. inversion H; subst.
      destruct (IH _ _ _ _ Hb E) as [A B]. split; [constructor; [unfold PK.byte_ok; lia|assumption]|exact B].
Qed.

Lemma bytes_ok_zeros n : bytes_ok (PK.zeros n).
Proof. unfold PK.zeros. induction n; cbn; constructor; [lia|assumption]. Qed.

(* whatever Unpack returns is a string of bytes (input bytes and zeros) *)
Lemma unpack_s_bytes strict : forall n src out, (length src <= n)%nat -> bytes_ok src ->
  CV.Packed.PackedProofs.unpack_s strict src = Some out -> bytes_ok out.
Proof.
  induction n as [|n IH]; intros src out Hn Hb H.
  - destruct src; [|cbn in Hn; lia]. inversion H; subst. constructor.
  - destruct src as [|tag s]; [inversion H; subst; constructor|].
    rewrite CV.Packed.PackedProofs.unpack_s_cons in H. cbn [length] in Hn.
    inversion Hb as [|? ? Htag Hs]; subst.
    destruct (PK.take_bits 8 tag s) as [[w s1]|] eqn:E; [|discriminate].
    pose proof (CV.Packed.PackedProofs.take_bits_length _ _ _ _ _ E) as (Hw & Hle & _).
    destruct (take_bits_bytes _ _ _ _ _ Hs E) as [Bw Bs1].
    destruct (tag =? 0).
    { destruct s1 as [|c s2]; [discriminate|]. inversion Bs1 as [|? ? Hc Hs2]; subst.
      destruct (CV.Packed.PackedProofs.unpack_s strict s2) as [r|] eqn:E2; [|discriminate]. inversion H; subst.
      apply IH in E2; [|cbn [length] in Hle; lia|assumption].
      apply Forall_app. split; [exact Bw|]. apply Forall_app. split; [apply bytes_ok_zeros|exact E2]. }
    destruct (tag =? 255).
    { destruct s1 as [|c s2]; [discriminate|]. inversion Bs1 as [|? ? Hc Hs2]; subst. cbv zeta in H.
      destruct (strict && _); [discriminate|].
      destruct (CV.Packed.PackedProofs.unpack_s strict (skipn (8 * Z.to_nat c) s2)) as [r|] eqn:E2; [|discriminate].
      inversion H; subst.
      apply IH in E2; [|rewrite skipn_length; cbn [length] in Hle; lia|apply CV.Frame.FrameAlloc.bytes_ok_skipn; assumption].
      apply Forall_app. split; [exact Bw|]. apply Forall_app. split; [apply CV.Frame.FrameSafe.bytes_ok_firstn; assumption|].
      apply Forall_app. split; [apply bytes_ok_zeros|exact E2]. }
    destruct (CV.Packed.PackedProofs.unpack_s strict s1) as [r|] eqn:E2; [|discriminate]. inversion H; subst.
    apply IH in E2; [|lia|assumption]. apply Forall_app. split; assumption.
Qed.

Theorem unpack_bytes_ok p b : bytes_ok p -> PK.unpack p = Some b -> bytes_ok b.
Proof. intros Hp H. apply (unpack_s_bytes true (length p) p b (le_n _) Hp H). Qed.

Theorem unmarshal_packed_msg_ok p segs : bytes_ok p -> FP.unmarshal_packed p = FR.Ok segs -> msg_ok segs.
Proof.
  intros Hp. unfold FP.unmarshal_packed. destruct (FR.len p =? 0); [discriminate|].
  destruct (PK.unpack p) as [b|] eqn:E; [|discriminate].
  apply unmarshal_msg_ok. eapply unpack_bytes_ok; eassumption.
Qed.

Theorem unmarshal_packed_nopanic p : bytes_ok p -> FP.unmarshal_packed p <> FR.Panic.
Proof.
  intros Hp. unfold FP.unmarshal_packed. destruct (FR.len p =? 0); [discriminate|].
  destruct (PK.unpack p) as [b|] eqn:E; [|discriminate].
  apply unmarshal_nopanic. eapply unpack_bytes_ok; eassumption.
Qed.

Lemma demux_loop_bytes : forall n hb i data segs, bytes_ok data ->
  FR.demux_loop n hb i data = FR.Ok segs -> Forall bytes_ok segs.
Proof.
  induction n as [|n IH]; intros hb i data segs Hb H; cbn [FR.demux_loop] in H.
  - inversion H. constructor.
  - destruct (FR.segment_size hb (FR.wrap32 i)) as [sz| |]; cbn [FR.bind] in H; try discriminate.
    destruct (FR.len data <? sz); [discriminate|].
    destruct (FR.demux_loop n hb (i + 1) (skipn (Z.to_nat sz) data)) as [r| |] eqn:E; cbn [FR.bind] in H; try discriminate.
    inversion H; subst. constructor.
    + apply CV.Frame.FrameSafe.bytes_ok_firstn. exact Hb.
    + eapply IH; [|exact E]. apply CV.Frame.FrameAlloc.bytes_ok_skipn. exact Hb.
Qed.

Lemma demux_arena_bytes hb data segs : bytes_ok data -> FR.demux_arena hb data = FR.Ok segs -> Forall bytes_ok segs.
Proof.
  intros Hb. unfold FR.demux_arena. destruct (FR.max_segment hb); cbn [FR.bind]; try discriminate.
  apply demux_loop_bytes. exact Hb.
Qed.

Lemma decode_body_bytes st maxSize maxSeg hb log st' segs log' :
  bytes_ok (concat (FR.r_chunks (FR.d_rd st))) ->
  FR.decode_body st maxSize maxSeg hb log = (st', FR.DMsg segs, log') -> Forall bytes_ok segs.
Proof.
  intros Hb. unfold FR.decode_body, FR.gdecode_body.
  destruct (FR.total_size hb) as [total| |]; try (intros X; inversion X; fail).
  destruct (_ || _); [intros X; inversion X|].
  destruct (negb (FR.d_reuse st)).
  - destruct (FR.read_full (FR.d_rd st) total) as [o r'] eqn:Er.
    destruct (CV.Frame.FrameAlloc.read_full_bytes_ok _ _ _ _ Hb Er) as [_ Hbuf].
    destruct o as [buf| |]; try (intros X; inversion X; fail).
    destruct (FR.demux_arena hb buf) as [s| |] eqn:Ed; intros X; inversion X; subst.
    eapply demux_arena_bytes; [apply Hbuf; reflexivity|exact Ed].
  - destruct (FR.resize (FR.d_bufcap st) total) as [cap' fresh]. cbn [FR.d_rd].
    destruct (FR.read_full (FR.d_rd st) total) as [o r'] eqn:Er.
    destruct (CV.Frame.FrameAlloc.read_full_bytes_ok _ _ _ _ Hb Er) as [_ Hbuf].
    destruct o as [buf| |]; try (intros X; inversion X; fail).
    destruct (maxSeg =? 0).
    + intros X; inversion X; subst. constructor; [apply Hbuf; reflexivity|constructor].
    + destruct (FR.demux_arena hb buf) as [s| |] eqn:Ed; intros X; inversion X; subst.
      eapply demux_arena_bytes; [apply Hbuf; reflexivity|exact Ed].
Qed.

Lemma decode1_bytes st st' segs log :
  bytes_ok (concat (FR.r_chunks (FR.d_rd st))) ->
  FR.decode1 st = (st', FR.DMsg segs, log) -> Forall bytes_ok segs.
Proof.
  intros Hb. unfold FR.decode1, FR.decode1_gen, FR.gdecode1_gen.
  change (@FR.gdecode_body FR.reader FR.read_full) with FR.decode_body.
  destruct (_ && _); [intros X; inversion X|].
  destruct (FR.read_full (FR.d_rd st) FR.word_size) as [o r'] eqn:Er.
  destruct (CV.Frame.FrameAlloc.read_full_bytes_ok _ _ _ _ Hb Er) as [Hr' _].
  destruct o as [w| |]; try (intros X; inversion X; fail).
  destruct (_ >? _); [intros X; inversion X|].
  destruct (FR.le32_get w =? 0).
  - apply decode_body_bytes. cbn [FR.with_rd FR.d_rd]. exact Hr'.
  - destruct (_ || _); [intros X; inversion X|].
    destruct (FR.resize _ _) as [cap' fresh]. cbn [FR.d_rd FR.with_rd].
    destruct (FR.read_full r' _) as [o2 r2] eqn:Er2.
    destruct (CV.Frame.FrameAlloc.read_full_bytes_ok _ _ _ _ Hr' Er2) as [Hr2 _].
    destruct o2 as [rest| |]; try (intros X; inversion X; fail).
    apply decode_body_bytes. cbn [FR.with_rd FR.d_rd]. exact Hr2.
Qed.

(* one Decode on ANY byte stream, cut into ANY chunks, any decoder state: no panic, and a
   decoded message satisfies msg_ok; the rest of the stream is still a byte stream *)
Theorem decode1_msg_ok cs fin hc bc ru mx st' out log :
  bytes_ok (concat cs) -> 0 <= mx < FR.two64 ->
  FR.decode1 (FR.mkD (FR.mkReader cs fin) hc bc ru mx) = (st', out, log) ->
  out <> FR.DPanic /\ (forall segs, out = FR.DMsg segs -> msg_ok segs) /\
  CV.Frame.FrameAlloc.st_ok st'.
Proof.
  intros Hb Hmx E.
  destruct (CV.Frame.FrameAlloc.alloc_bound cs fin hc bc ru mx st' out log Hb Hmx E) as (_ & _ & NP & Hm & Hb' & Hmx').
  split; [exact NP|]. split.
  - intros segs ->. destruct (Hm segs eq_refl) as (_ & Hok & _). apply frame_msg_ok; [exact Hok|].
    eapply decode1_bytes; [|exact E]. exact Hb.
  - split; [exact Hb'|]. rewrite Hmx'. exact Hmx.
Qed.

(* any history of Decode / ReuseBuffer / MaxMessageSize assignments on any chunked byte stream *)
Theorem decode_history_msg_ok : forall ops st st' outs,
  CV.Frame.FrameAlloc.st_ok st -> FR.run_history st ops = (st', outs) ->
  Forall (fun ol => fst ol <> FR.DPanic /\ forall segs, fst ol = FR.DMsg segs -> msg_ok segs) outs.
Proof.
  induction ops as [|o ops IH]; intros st st' outs Hst E; cbn [FR.run_history] in E.
  - inversion E. constructor.
  - destruct (FR.dstep st o) as [st1 r] eqn:Es. destruct (FR.run_history st1 ops) as [st2 outs2] eqn:Er.
    inversion E; subst. clear E. unfold FR.dstep, FR.dstep_gen in Es. destruct o.
    + change (FR.decode1_gen true st) with (FR.decode1 st) in Es.
      destruct (FR.decode1 st) as [[st1' out] log] eqn:Ed. inversion Es; subst. clear Es.
      destruct st as [[cs fin] hc bc ru mx]. destruct Hst as [Hb Hmx]. cbn [FR.d_rd FR.r_chunks FR.d_max] in *.
      destruct (decode1_msg_ok cs fin hc bc ru mx st1 out log Hb Hmx Ed) as (NP & Hm & Hst1).
      constructor; [cbn [fst]; split; assumption|]. eapply IH; eassumption.
    + inversion Es; subst. eapply IH; [|exact Er]. exact Hst.
    + inversion Es; subst. eapply IH; [|exact Er]. destruct Hst as [Hb _]. split; [exact Hb|].
      cbn [FR.d_max]. unfold FR.wrap64, FR.two64. lia.
Qed.

From CV Require Import Value.EqualM Value.EqualSafe Value.CanonM Value.CanonSafe Core.Builder Core.CopySafe Core.CopyAlloc.

(* the repaired configuration of the reader *)
Definition repaired (c : config) (fx : fixes) : Prop :=
  cfg_strict c = true /\ cfg_root c = true /\ fx_bit fx = true.

(* every in-domain read-side API call sequence on [segs] is panic-free and only creates
   well-formed handles *)
Definition read_safe (c : config) (fx : fixes) (m : segs) : Prop :=
  forall ops, run_dom c fx m (init_state c) ops = true ->
    Forall oval_ok (run_ops c fx m ops) /\ state_wf m (fst (run c fx m (init_state c) ops)).

Lemma msg_ok_read_safe c fx m : repaired c fx -> msg_ok m -> read_safe c fx m.
Proof. intros (H1 & H2 & H3) Hm ops Hd. apply run_safe; assumption. Qed.

(* a decoder that does not panic and only hands out msg_ok messages, followed by the reader *)
Lemma decoded_read_safe (r : FR.res segs) c fx : r <> FR.Panic -> (forall segs, r = FR.Ok segs -> msg_ok segs) ->
  repaired c fx ->
  match r with
  | FR.Ok segs => msg_ok segs /\ read_safe c fx segs
  | FR.Err _ => True
  | FR.Panic => False
  end.
Proof.
  intros NP Hm Hr. destruct r as [segs|e|]; [|exact I|congruence].
  pose proof (Hm segs eq_refl). split; [|apply msg_ok_read_safe]; assumption.
Qed.

(* (2) Unmarshal never panics and everything read from its result is safe *)
Theorem unmarshal_then_read_safe b c fx : bytes_ok b -> repaired c fx ->
  match FR.unmarshal b with
  | FR.Ok segs => msg_ok segs /\ read_safe c fx segs
  | FR.Err _ => True
  | FR.Panic => False
  end.
Proof.
  intros Hb. apply decoded_read_safe; [apply unmarshal_nopanic|intros segs; apply unmarshal_msg_ok]; exact Hb.
Qed.

Theorem unmarshal_packed_then_read_safe p c fx : bytes_ok p -> repaired c fx ->
  match FP.unmarshal_packed p with
  | FR.Ok segs => msg_ok segs /\ read_safe c fx segs
  | FR.Err _ => True
  | FR.Panic => False
  end.
Proof.
  intros Hb. apply decoded_read_safe; [apply unmarshal_packed_nopanic|intros segs; apply unmarshal_packed_msg_ok]; exact Hb.
Qed.

(* the streaming Decoder on any byte stream in any chunking, any history of Decode / ReuseBuffer /
   MaxMessageSize: no Decode panics, every decoded message is msg_ok and safe to read *)
Theorem decode_then_read_safe cs fin hc bc ru mx ops c fx st' outs :
  bytes_ok (concat cs) -> 0 <= mx < FR.two64 -> repaired c fx ->
  FR.run_history (FR.mkD (FR.mkReader cs fin) hc bc ru mx) ops = (st', outs) ->
  Forall (fun ol => fst ol <> FR.DPanic /\
                    forall segs, fst ol = FR.DMsg segs -> msg_ok segs /\ read_safe c fx segs) outs.
Proof.
  intros Hb Hmx Hr E.
  pose proof (decode_history_msg_ok ops (FR.mkD (FR.mkReader cs fin) hc bc ru mx) st' outs (conj Hb Hmx) E) as H.
  eapply Forall_impl; [|exact H]. cbv beta. intros ol [NP Hm]. split; [exact NP|].
  intros segs Es. specialize (Hm segs Es). split; [exact Hm|apply msg_ok_read_safe; assumption].
Qed.

Lemma root_shape c m rl p : fst (root c m rl) = Ok p -> shape_ok p.
Proof.
  unfold root. destruct (lookup_segment m 0); try discriminate.
  destruct (negb _); [destruct (cfg_root c); discriminate|]. apply readPtr_shape.
Qed.

(* the harness selector (root, or field i of the root struct) hands out a well-formed pointer *)
Lemma select_safe c m rl s : msg_ok m -> cfg_strict c = true -> cfg_root c = true -> 0 <= rl ->
  (match s with SelField i => 0 <= i | SelRoot => True end) ->
  res_sat (fst (select c m rl s)) (wf_ptr m) /\ 0 <= snd (select c m rl s) <= rl.
Proof.
  intros Hm Hs Hr Hrl Hi. unfold select.
  pose proof (root_safe c m rl Hm Hr) as R. pose proof (root_charge c m rl Hrl) as [RC _].
  destruct s as [|i].
  - split; [eapply res_sat_weaken; [exact R|auto]|exact RC].
  - destruct (root c m rl) as [r rl1]. cbn [fst snd] in *.
    destruct r as [p| |]; cbn [res_sat fst snd] in *; [|split; [exact I|lia]|destruct R].
    pose proof (struct_ptr_safe c m rl1 (as_struct p) i Hm (wf_struct_as_struct m p (R Hs)) Hi) as S.
    pose proof (struct_ptr_charge c m rl1 (as_struct p) i ltac:(lia)) as [SC _].
    split; [eapply res_sat_weaken; [exact S|auto]|lia].
Qed.

(* capnp.Equal on the roots (or root fields) of two messages obtained from raw bytes *)
Theorem equal_from_bytes_safe b1 b2 sa sb fuel ca cb fx capsa capsb same sela selb :
  bytes_ok b1 -> bytes_ok b2 -> FR.unmarshal b1 = FR.Ok sa -> FR.unmarshal b2 = FR.Ok sb ->
  cfg_strict ca = true -> cfg_root ca = true -> cfg_strict cb = true -> cfg_root cb = true ->
  0 <= cfg_T ca -> 0 <= cfg_T cb ->
  (match sela with SelField i => 0 <= i | SelRoot => True end) ->
  (match selb with SelField i => 0 <= i | SelRoot => True end) ->
  fst (fst (run_equal fuel ca cb fx sa capsa sb capsb same sela selb)) <> EPanic.
Proof.
  intros Hb1 Hb2 E1 E2 Sa Ra Sb Rb Ta Tb Hia Hib.
  pose proof (unmarshal_msg_ok b1 sa Hb1 E1) as Ma. pose proof (unmarshal_msg_ok b2 sb Hb2 E2) as Mb.
  unfold run_equal.
  destruct (select_safe ca sa (init_rlimit ca) sela Ma Sa Ra (init_rlimit_nonneg ca Ta) Hia) as [P1 P2].
  destruct (select ca sa (init_rlimit ca) sela) as [rp rla]. cbn [fst snd] in *.
  assert (res_sat (fst (if same then select ca sa rla selb else select cb sb (init_rlimit cb) selb))
                  (wf_ptr (if same then sa else sb)) /\
          0 <= snd (if same then select ca sa rla selb else select cb sb (init_rlimit cb) selb)) as [Q1 Q2].
  { destruct same.
    - destruct (select_safe ca sa rla selb Ma Sa Ra ltac:(lia) Hib) as [A B]. split; [exact A|lia].
    - destruct (select_safe cb sb (init_rlimit cb) selb Mb Sb Rb (init_rlimit_nonneg cb Tb) Hib) as [A B]. split; [exact A|lia]. }
  destruct (if same then select ca sa rla selb else select cb sb (init_rlimit cb) selb) as [rq rlb]. cbn [fst snd] in *.
  destruct rp as [p| |]; cbn [res_sat] in P1; [|destruct rq; cbn; try discriminate; destruct Q1|destruct P1].
  destruct rq as [q| |]; cbn [res_sat] in Q1; [|cbn; discriminate|destruct Q1].
  set (x := mkEC sa capsa sb capsb same).
  assert (ectx_ok x) as Hx.
  { split; [rewrite segs_of_SA; exact Ma|]. unfold segs_of, on_a, x. cbn [ec_same ec_segs_a ec_segs_b].
    destruct same; cbn [orb]; assumption. }
  assert (wf_ptr (segs_of x SB) q) as Hq.
  { unfold segs_of, on_a, x. cbn [ec_same ec_segs_a ec_segs_b]. destruct same; cbn [orb]; exact Q1. }
  assert (lims_nonneg (if same then (rlb, 0) else (rla, rlb))) as Hw
    by (destruct same; unfold lims_nonneg; cbn [fst snd]; lia).
  pose proof (equal_m_good ca fx x Hx Sa fuel _ p q ltac:(rewrite segs_of_SA; exact P1) Hq Hw) as [G _].
  destruct (equal_m fuel ca fx x _ p q) as [r w']. cbn [fst] in *. exact G.
Qed.

(* capnp.Canonicalize on the root struct (or a root field) of a message obtained from raw bytes *)
Theorem canon_from_bytes_safe b segs fuel c fx sel :
  bytes_ok b -> FR.unmarshal b = FR.Ok segs ->
  cfg_strict c = true -> cfg_root c = true -> cx_complist fx = true -> 0 <= cfg_T c ->
  (match sel with SelField i => 0 <= i | SelRoot => True end) ->
  run_canon fuel c fx segs sel <> KPanic.
Proof.
  intros Hb E Hs Hr Hc HT Hi. pose proof (unmarshal_msg_ok b segs Hb E) as Hm. unfold run_canon.
  destruct (select_safe c segs (init_rlimit c) sel Hm Hs Hr (init_rlimit_nonneg c HT) Hi) as [P1 P2].
  destruct (select c segs (init_rlimit c) sel) as [rp rl]. cbn [fst snd] in *.
  destruct rp as [p| |]; cbn [res_sat] in P1; [|discriminate|destruct P1].
  apply (canonicalize_safe c fx fuel segs rl (as_struct p) Hs Hc Hm (wf_struct_as_struct segs p P1)). lia.
Qed.

(* deep copy into a fresh message (Message.SetRoot across messages) of the root of a message
   obtained from raw bytes *)
Definition copy_root (fuel : nat) (c : config) (segs : segs) : res world :=
  match root c segs (init_rlimit c) with
  | (Ok p, rl) =>
    match new_message ASingle [] 0 with
    | Ok m0 => set_root fuel (mkW m0 segs rl) InSrc p
    | _ => Err
    end
  | (Err, _) => Err
  | (Panic, _) => Panic
  end.

Lemma new_single_region : exists m0, new_message ASingle [] 0 = Ok m0 /\ dok m0 /\ region_ok m0 0 0 8.
Proof.
  eexists. split; [vm_compute; reflexivity|]. split.
  - split; [split|].
    + repeat constructor; cbn; lia.
    + intros _. reflexivity.
    + intros i. unfold BuilderFacts.mem, get_seg. cbn. destruct (Z.to_nat i) as [|[|n]]; cbn; unfold maxSegmentSize; lia.
  - unfold region_ok. cbn. lia.
Qed.

Theorem copy_from_bytes_safe b segs fuel c :
  bytes_ok b -> FR.unmarshal b = FR.Ok segs ->
  cfg_strict c = true -> cfg_root c = true -> 0 <= cfg_T c ->
  copy_root fuel c segs <> Panic.
Proof.
  intros Hb E Hs Hr HT. pose proof (unmarshal_msg_ok b segs Hb E) as Hm. unfold copy_root.
  pose proof (root_safe c segs (init_rlimit c) Hm Hr) as R.
  pose proof (root_charge c segs (init_rlimit c) (init_rlimit_nonneg c HT)) as [[RC _] _].
  pose proof (root_shape c segs (init_rlimit c)) as SH.
  destruct (root c segs (init_rlimit c)) as [r rl]. cbn [fst snd] in *.
  destruct r as [p| |]; cbn [res_sat] in R; [|discriminate|destruct R].
  destruct new_single_region as (m0 & -> & D0 & R0).
  unfold set_root, set_root_gen. cbv zeta. cbn [w_dst].
  destruct (bm_segs m0) as [|s0 rest]; [discriminate|].
  destruct (negb _); [discriminate|].
  pose proof (write_ptr_safe fuel (mkW m0 segs rl) 0 0 p false D0 Hm RC R0 (R Hs) (SH p eq_refl)) as W.
  destruct (write_ptr fuel true (mkW m0 segs rl) 0 0 InSrc p false); [discriminate|discriminate|destruct W].
Qed.

(* The streaming Decoder over packed.Reader behaves like the plain Decoder over the bytes
   packed.Reader hands out as long as messages come out (the simulation of Frame/FrameSim.v,
   for any packed stream in Frame/FramePackedFull.v), so every message decoded before the point
   of corruption is msg_ok and safe to read.  For a stream that unpacks (unpack P = Some U,
   arbitrary content U) the plain Decoder is the one over U ending in EOF.  (On a stream that
   does NOT unpack the one-shot UnmarshalPacked reports an error, see
   unmarshal_packed_then_read_safe.) *)
From CV Require Frame.FrameSim Frame.FramePackedThms Frame.FrameThms Frame.FramePackedFull Packed.ReadCallProofs2.

Theorem pdecode_n_partial_then_read_safe P orc hc bc ru mx c fx n k :
  bytes_ok P -> 0 <= mx < FR.two64 -> repaired c fx -> (k < n)%nat ->
  let U := fst (CV.Packed.ReadCallProofs2.unpack_partial P) in
  let fin := CV.Packed.ReadCallProofs2.verdict (snd (CV.Packed.ReadCallProofs2.unpack_partial P)) in
  let outs_plain := snd (FR.decode_n (FR.mkD (FR.mkReader [U] fin) hc bc ru mx) n) in
  let outs_packed := snd (FP.pdecode_n (FR.mkD (FP.p_init orc P) hc bc ru mx) n) in
  CV.Frame.FrameSim.all_msgs (firstn k outs_plain) = true ->
  let o := nth k outs_packed (FR.DEof, []) in
  nth k outs_packed (FR.DEof, []) = nth k outs_plain (FR.DEof, []) /\
  fst o <> FR.DPanic /\ forall segs, fst o = FR.DMsg segs -> msg_ok segs /\ read_safe c fx segs.
Proof.
  intros HP Hmx Hr Hk U fin outs_plain outs_packed Hall o.
  destruct (CV.Frame.FramePackedFull.pdecode_n_any_packed P orc hc bc ru mx n k HP Hk) as [HbU H2].
  fold U fin outs_plain outs_packed in HbU, H2. specialize (H2 Hall).
  assert (nth k outs_packed (FR.DEof, []) = nth k outs_plain (FR.DEof, [])) as En.
  { rewrite <- (CV.Core.BuilderFacts.nth_firstn_lt k (S k) outs_packed (FR.DEof, [])) by lia.
    rewrite <- (CV.Core.BuilderFacts.nth_firstn_lt k (S k) outs_plain (FR.DEof, [])) by lia. rewrite H2. reflexivity. }
  split; [exact En|]. subst o. rewrite En.
  destruct (FR.decode_n (FR.mkD (FR.mkReader [U] fin) hc bc ru mx) n) as [st' outs] eqn:Ed.
  unfold FR.decode_n in Ed.
  assert (bytes_ok (concat [U])) as HbC by (cbn [concat]; now rewrite app_nil_r).
  pose proof (decode_then_read_safe [U] fin hc bc ru mx (repeat FR.OpDecode n) c fx st' outs HbC Hmx Hr Ed) as F.
  assert (length outs = n) as Ln.
  { pose proof (CV.Frame.FramePackedThms.gdecode_n_length FR.read_full n (FR.mkD (FR.mkReader [U] fin) hc bc ru mx)) as L.
    rewrite <- CV.Frame.FramePackedThms.decode_n_gdecode_n in L. unfold FR.decode_n in L. rewrite Ed in L. exact L. }
  cbn [snd] in outs_plain. subst outs_plain.
  rewrite Forall_forall in F. apply F. apply nth_In. lia.
Qed.

Theorem pdecode_n_then_read_safe P U orc hc bc ru mx c fx n k :
  bytes_ok P -> PK.unpack P = Some U -> 0 <= mx < FR.two64 -> repaired c fx -> (k < n)%nat ->
  let outs_plain := snd (FR.decode_n (FR.mkD (FR.mkReader [U] PK.EOF) hc bc ru mx) n) in
  let outs_packed := snd (FP.pdecode_n (FR.mkD (FP.p_init orc P) hc bc ru mx) n) in
  CV.Frame.FrameSim.all_msgs (firstn k outs_plain) = true ->
  let o := nth k outs_packed (FR.DEof, []) in
  nth k outs_packed (FR.DEof, []) = nth k outs_plain (FR.DEof, []) /\
  fst o <> FR.DPanic /\ forall segs, fst o = FR.DMsg segs -> msg_ok segs /\ read_safe c fx segs.
Proof.
  intros HP HU Hmx Hr Hk.
  pose proof (pdecode_n_partial_then_read_safe P orc hc bc ru mx c fx n k HP Hmx Hr Hk) as G.
  pose proof (CV.Packed.ReadCallProofs2.unpack_partial_unpack P) as E. rewrite HU in E. rewrite E in G. exact G.
Qed.

(* 72 raw bytes: a one-segment stream frame (table: 1 segment of 8 words) holding a struct with a
   data word, a text field "hi" and a composite list; Unmarshal, then the read API *)
Definition raw_example : list Z :=
  [0;0;0;0; 8;0;0;0;
   0;0;0;0;1;0;2;0;  42;0;0;0;0;0;0;0;  5;0;0;0;26;0;0;0;  5;0;0;0;23;0;0;0;
   104;105;0;0;0;0;0;0;  8;0;0;0;1;0;0;0;  1;0;0;0;0;0;0;0;  2;0;0;0;0;0;0;0].

Example raw_example_reads :
  bytes_ok raw_example /\
  exists segs, FR.unmarshal raw_example = FR.Ok segs /\
  let c := mkCfg 1000 4 true true in let fx := mkFix true true true in
  let ops := [ORoot; OSPtr 0 0; OText 1; OUint 0 0 4] in
  run_dom c fx segs (init_state c) ops = true /\
  exists p0 p1, run_ops c fx segs ops = [VPtr (Ok p0); VPtr (Ok p1); VBytes (Ok (Some [104; 105])); VNum (Ok 42)].
Proof.
  split; [repeat constructor; lia|].
  eexists. split; [vm_compute; reflexivity|]. cbv zeta. split; [vm_compute; reflexivity|].
  do 2 eexists. vm_compute. reflexivity.
Qed.

(* the same bytes packed (packed.Pack of the frame) go through UnmarshalPacked *)
Example raw_example_packed :
  exists p, PK.pack_bytes raw_example = Some p /\ bytes_ok p /\
  FP.unmarshal_packed p = FR.unmarshal raw_example.
Proof.
  eexists. split; [vm_compute; reflexivity|]. split; [repeat constructor; lia|]. vm_compute. reflexivity.
Qed.
