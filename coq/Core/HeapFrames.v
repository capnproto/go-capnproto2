(* C04: the frame of every op of the interpreter ([bstep_frame]): what a step may change among the
   bytes that existed, as a function [touch] of the state before the step and the op; hence every
   run of the interpreter is a chain of frames (HeapHistory.v). *)
From CV Require Import Core.Builder Core.ReaderFacts Core.ArithFacts Core.BuilderFacts Core.AllocProofs
  Core.WritePtrProofs Core.HeapProofs Core.CopyProofs Core.BuildOps Core.BuildValid Core.BuildInv Core.HeapInv Core.ReadBridge
  Core.HeapOps Core.HeapCopy Core.HeapCopySrc Core.HeapSteps Core.HeapHistory.
From Coq Require Import ZifyBool ZifyNat.
Open Scope Z_scope.

Ltac Zify.zify_post_hook ::= Z.div_mod_to_equations.

Definition fr (m m' : bmsg) (R : Z -> Z -> Prop) : Prop := keeps m m' R /\ nsegs m <= nsegs m'.

Lemma fr_refl m R : fr m m R.
Proof. split; [apply keeps_refl|lia]. Qed.

Lemma fr_weaken m m' (R R' : Z -> Z -> Prop) : (forall i k, R i k -> R' i k) -> fr m m' R -> fr m m' R'.
Proof. intros H [K N]. split; [|exact N]. eapply keeps_weaken; [|exact K]. intros i k _ _ X. apply H. exact X. Qed.

(* messages with the same segments *)
Lemma fr_same_mem m m' R : (forall i, mem m' i = mem m i) -> nsegs m' = nsegs m -> fr m m' R.
Proof.
  intros E N. split; [|lia]. split.
  - intros i _. rewrite E. lia.
  - intros i k _ _ _. rewrite E. reflexivity.
Qed.

Lemma fr_wrote m m' sid a bs : wrote m m' sid a bs -> 0 <= sid -> fr m m' (fun i k => i = sid /\ a <= k < a + zlen bs).
Proof.
  intros W Hs. split; [apply wrote_keeps; auto|]. unfold nsegs. rewrite (wrote_nsegs _ _ _ _ _ W). lia.
Qed.

Lemma alloc_fr m sid sz m1 s1 a : inv m -> 0 <= sid < nsegs m -> 0 <= sz -> alloc m sid sz = Ok (m1, s1, a) -> fr m m1 Rnone.
Proof. intros Hi Hs Hz E. destruct (alloc_keeps _ _ _ _ _ _ Hi Hs Hz E) as (K & _ & N & _). split; auto. Qed.

(* an allocation followed by a write inside the fresh storage *)
Lemma alloc_write_fr m sid sz m1 s1 a m2 addr bs :
  inv m -> 0 <= sid < nsegs m -> 0 <= sz -> alloc m sid sz = Ok (m1, s1, a) ->
  wrote m1 m2 s1 addr bs -> a <= addr -> fr m m2 Rnone.
Proof.
  intros Hi Hs Hz E W Ha. destruct (alloc_keeps _ _ _ _ _ _ Hi Hs Hz E) as (K & I1 & N & S1 & AD & _).
  split.
  - apply (keeps_step m m1 m2 Rnone (fun i k => i = s1 /\ addr <= k < addr + zlen bs)); auto.
    + apply wrote_keeps; auto. lia.
    + intros i k Hi0 Hk [X1 X2]. subst i. lia.
  - unfold nsegs in *. rewrite (wrote_nsegs _ _ _ _ _ W). exact N.
Qed.

Lemma ctor_call_fr m o sid m' p :
  inv m -> 0 <= sid < nsegs m -> op_wf o -> ctor_call m o = Some (sid, Ok (m', p)) -> fr m m' Rnone.
Proof.
  intros Hi Hs Hwf EC. destruct (ctor_call_alloc _ _ _ _ _ EC) as (m1 & a & EA & Hz & _ & _ & _ & Wr).
  destruct Wr as [[_ ->]|(bs & EW & Hbs)]; [exact (alloc_fr _ _ _ _ _ _ Hi Hs Hz EA)|].
  assert (Lb : zlen bs < 4294967296).
  { destruct Hbs as [(tag & _ & _ & ->)|[nul ->]]; [unfold zlen; rewrite le_encode_length; lia|exact Hwf]. }
  destruct (alloc_keeps _ _ _ _ _ _ Hi Hs Hz EA) as (_ & _ & _ & S1 & _).
  apply seg_write_wrote in EW; [|lia|exact Lb].
  apply (alloc_write_fr m sid _ m1 (p_seg p) a m' a bs Hi Hs Hz EA EW). lia.
Qed.

Lemma newBytes_fr m sid v nul m' p : inv m -> 0 <= sid < nsegs m -> zlen v < 4294967296 -> newBytes m sid v nul = Ok (m', p) -> fr m m' Rnone.
Proof. intros Hi Hs Hv E. apply (ctor_call_fr m (BNewBytes sid v nul) sid m' p); auto. cbn [ctor_call]. now rewrite E. Qed.

Lemma view_sz_seg m objs pads p : hinv m objs pads -> view objs p -> p_valid p = true ->
  (p_kind p = KStruct /\ p_size p = mkOS 0 0) \/ p_kind p = KIface \/
  (wf_size (p_size p) /\ 0 <= p_seg p < nsegs m).
Proof.
  intros H V Hv. destruct V as [V|[[M V]|[(h & i & Hh & MA)|[(Ek & Esz & Em & _)|(Ek & _)]]]]; [congruence| | | |auto].
  - right. right. destruct (obj_bounds _ _ _ _ H V) as (B1 & _). cbn [core p_seg] in B1. split; [|exact B1].
    destruct (p_kind p) eqn:Ek.
    + apply (struct_wf m objs pads p H (or_intror (or_introl (conj M V))) Hv Ek).
    + destruct (list_obj_facts _ _ _ _ H V ltac:(cbn [core p_kind]; exact Ek)) as (_ & Wf & _). exact Wf.
    + exfalso. destruct (core_facts p) as (_ & _ & _ & _ & _ & _ & C7).
      destruct (hi_good _ _ _ H _ V) as [_ (Sh & _)]. apply (proj1 C7) in Sh. unfold shape_ok in Sh. rewrite Ek in Sh. exact Sh.
  - right. right. pose proof MA as (_ & _ & _ & _ & Es & _ & _ & Ek & _).
    split; [apply (struct_wf m objs pads p H (or_intror (or_intror (or_introl (ex_intro _ h (ex_intro _ i (conj Hh MA)))))) Hv Ek)|].
    destruct (obj_bounds _ _ _ _ H Hh) as (B1 & _). rewrite Es. exact B1.
  - left. auto.
Qed.

Lemma write_ptr_fr st objs pads f sd ad hs w1 :
  sinv st objs pads -> spool st -> In (sd, ad) ((0, 0) :: flat_map slots objs) ->
  write_ptr f true (st_w st) sd ad (fst (hget st hs)) (snd (hget st hs)) false = Ok w1 ->
  fr (w_dst (st_w st)) (w_dst w1) (Rword sd ad).
Proof.
  intros S SP Hq HW. pose proof S as (H & P & C).
  destruct (slot_geometry _ _ _ _ H Hq) as (Q1 & _). cbn [fst] in Q1.
  pose proof (hi_inv _ _ _ H) as Hinv.
  assert (Gen : forall l q, sz_ok q -> (l = InDst -> p_valid q = true -> 0 <= p_seg q < nsegs (w_dst (st_w st))) ->
           write_ptr f true (st_w st) sd ad l q false = Ok w1 -> fr (w_dst (st_w st)) (w_dst w1) (Rword sd ad)).
  { intros l q Sz Rg E. destruct (write_ptr_frame f true (st_w st) sd ad l q w1 Hinv Q1 Sz Rg E) as (K & _ & N & _). split; auto. }
  destruct (fst (hget st hs)) eqn:El.
  - pose proof (hget_view st objs pads hs S El) as Vw. set (q := snd (hget st hs)) in *.
    destruct (p_valid q) eqn:Hv.
    2:{ apply (Gen InDst q); auto; [intros X; congruence|intros _ X; congruence]. }
    destruct (view_sz_seg _ _ _ q H Vw Hv) as [[Ek Esz]|[Ek|[Wf Rg]]].
    + (* the empty struct: one inline word *)
      destruct f as [|f]; [discriminate HW|]. unfold write_ptr in HW. cbn [write_ptr_gen] in HW.
      rewrite Hv, Ek, Esz in HW. cbn [negb os_isZero DataSize PointerCount] in HW.
      change ((0 =? 0) && (0 =? 0)) with true in HW. cbv iota in HW.
      rewrite empty_struct_word_eq in HW. cbn [of_opt_panic bind] in HW. unfold lift0 in HW.
      destruct (writeRawPointer (w_dst (st_w st)) sd ad empty_struct_word) as [m'| |] eqn:EW; cbn [bind] in HW; try discriminate.
      apply Ok_inj in HW. subst w1. cbn [w_dst w_set_dst].
      destruct (writeRawPointer_keeps _ _ _ _ _ (proj1 Q1) Hinv EW) as (K & _ & N & _). split; [exact K|lia].
    + (* a capability: one inline word *)
      destruct f as [|f]; [discriminate HW|]. unfold write_ptr in HW. cbn [write_ptr_gen] in HW.
      rewrite Hv, Ek in HW. cbn [negb is_src] in HW. unfold lift0 in HW.
      destruct (writeRawPointer (w_dst (st_w st)) sd ad _) as [m'| |] eqn:EW; cbn [bind] in HW; try discriminate.
      apply Ok_inj in HW. subst w1. cbn [w_dst w_set_dst].
      destruct (writeRawPointer_keeps _ _ _ _ _ (proj1 Q1) Hinv EW) as (K & _ & N & _). split; [exact K|lia].
    + apply (Gen InDst q); auto. intros _. exact Wf.
  - pose proof (hget_sview st hs SP El) as Vw.
    apply (Gen InSrc (snd (hget st hs))); auto.
    + intros V. apply (proj1 (Vw V)).
    + discriminate.
Qed.

Lemma Rexact_empty p : p_size p = mkOS 0 0 -> forall i k, ~ Rexact p i k.
Proof. intros E i k [_ [X|(j & Hj & _)]]; rewrite E in *; cbn [DataSize PointerCount] in *; lia. Qed.

Lemma copy_struct_fr st objs pads f dst hs w1 :
  sinv st objs pads -> spool st -> view objs dst -> (p_valid dst = true -> p_kind dst = KStruct) ->
  copy_struct f true (st_w st) dst (fst (hget st hs)) (as_struct (snd (hget st hs))) = Ok w1 ->
  fr (w_dst (st_w st)) (w_dst w1) (Rexact dst).
Proof.
  intros Si SP Vd Kd HW. pose proof Si as (H & P & C). pose proof (hi_inv _ _ _ H) as Hinv.
  destruct f as [|f]; [discriminate HW|].
  set (src := as_struct (snd (hget st hs))) in *. set (l := fst (hget st hs)) in *.
  destruct (p_valid dst) eqn:Hvd.
  2:{ unfold copy_struct in HW. cbn [copy_struct_gen] in HW. rewrite Hvd in HW. discriminate. }
  destruct (p_valid src) eqn:Hvs.
  2:{ unfold copy_struct in HW. cbn [copy_struct_gen] in HW. rewrite Hvd, Hvs in HW. cbn [negb] in HW. apply Ok_inj in HW. subst w1. apply fr_refl. }
  specialize (Kd eq_refl).
  (* the source: a struct with a legal size in a segment of addressable length *)
  assert (Src : sz_ok src /\ zlen (nth (Z.to_nat (p_seg src)) (w_segs (st_w st) l) []) < 4294967296).
  { unfold l, src in *. destruct (fst (hget st hs)) eqn:El.
    - pose proof (hget_view st objs pads hs Si El) as Vq. destruct (view_as_struct objs _ Vq) as [Vsq Ksq].
      split; [intros V; apply (struct_wf _ _ _ _ H Vsq V (Ksq V))|].
      cbn [w_segs]. rewrite nth_bm_data. pose proof (hi_small _ _ _ H (p_seg (as_struct (snd (hget st hs))))) as X. unfold maxSegmentSize in X. lia.
    - pose proof (hget_sview st hs SP El) as Vq. destruct (sview_as_struct _ _ Vq) as [Vsq Ksq].
      split; [intros V; apply (proj1 (Vsq V))|]. cbn [w_segs].
      pose proof (msg_ok_nth _ (Z.to_nat (p_seg (as_struct (snd (hget st hs))))) (proj1 SP)) as [X _]. unfold maxSegmentSize in X. lia. }
  destruct Src as [Szs Ls].
  destruct (struct_view_geom _ _ _ dst H Vd Hvd Kd) as [[E0d Sgd]|(hd & Hind & Esegd & D0d & P0d & Olod & Ohid & _)].
  - (* the empty struct as destination: a write of no bytes *)
    apply (fr_weaken _ _ (fun i k => i = p_seg dst /\ p_off dst <= k < p_off dst + zlen (@nil Z))); [intros i k [_ X]; cbn in X; lia|].
    unfold copy_struct in HW. cbn [copy_struct_gen] in HW. rewrite Hvd, Hvs in HW. cbn [negb] in HW.
    destruct (slice _ _ _) as [sd| |]; cbn [bind] in HW; try discriminate.
    rewrite E0d in HW. cbn [DataSize PointerCount] in HW.
    destruct (slice _ (p_off dst) 0) as [dd| |] eqn:ESd; cbn [bind] in HW; try discriminate.
    apply slice_zero in ESd. subst dd. cbn [length] in HW. rewrite Nat.min_0_r in HW. cbn [firstn Nat.sub repeat app] in HW.
    unfold lift0 in HW.
    destruct (seg_write (w_dst (st_w st)) (p_seg dst) (p_off dst) []) as [m1| |] eqn:EW; cbn [bind] in HW; try discriminate.
    apply seg_write_wrote in EW; [|lia|cbn; lia].
    destruct (Szs Hvs) as (_ & Ns & _).
    replace (Z.min (PointerCount (p_size src)) 0) with 0 in HW by lia. change (Z.to_nat 0) with O in HW.
    change (iota 0) with (@nil Z) in HW. cbn [fold_res bind] in HW.
    replace (Z.to_nat (0 - PointerCount (p_size src))) with O in HW by lia. change (iota 0) with (@nil Z) in HW. cbn [map fold_res] in HW.
    apply Ok_inj in HW. subst w1. cbn [w_dst w_set_dst]. apply fr_wrote; auto.
  - destruct (obj_bounds _ _ _ _ H Hind) as (B1 & B2 & B3 & B4 & B5). rewrite Esegd in *.
    pose proof (struct_wf _ _ _ dst H Vd Hvd Kd) as Wfd.
    assert (HW' := HW).
    apply (copy_struct_ptrs f true (st_w st) dst l src w1) in HW; auto; try lia; try (unfold maxSegmentSize; lia).
    destruct HW as (K & _).
    destruct (copy_struct_frame (S f) true (st_w st) dst l src w1 Hinv B1 Wfd ltac:(lia) Szs HW') as (_ & _ & N & _).
    split; auto.
Qed.

Definition touch (st : bstate) (o : bop) : Z -> Z -> Prop :=
  match o with
  | BSetUint h off n _ => let p := as_struct (snd (hget st h)) in
      fun i k => i = p_seg p /\ exists addr, dataAddress p off n = Ok (Some addr) /\ addr <= k < addr + n
  | BSetBit h n _ => let p := as_struct (snd (hget st h)) in
      fun i k => i = p_seg p /\ addOffset (p_off p) (bitOffset_offset n) = Some k
  | BListSetUint h i n _ => let p := as_list (snd (hget st h)) in
      fun s k => s = p_seg p /\ exists addr, primitiveElem true p i (mkOS n 0) = Ok addr /\ addr <= k < addr + n
  | BBitSet h i _ => let p := as_list (snd (hget st h)) in
      fun s k => s = p_seg p /\ k = u32 (p_off p + bitOffset_offset i)
  | BSetPtr h i _ => let p := as_struct (snd (hget st h)) in Rword (p_seg p) (pointerAddress p i)
  | BPLSet h i _ => let p := as_list (snd (hget st h)) in
      fun s k => exists addr, primitiveElem true p i (mkOS 0 1) = Ok addr /\ Rword (p_seg p) addr s k
  | BSetStruct h i _ => fun s k => exists de, list_struct true (as_list (snd (hget st h))) i = Ok de /\ Rexact de s k
  | BCopyFrom h _ => Rexact (as_struct (snd (hget st h)))
  | BSetRoot _ => Rword 0 0
  | _ => Rnone
  end.

Lemma view_seg_nonneg m objs pads p : hinv m objs pads -> view objs p -> p_valid p = true ->
  (p_kind p = KStruct \/ p_kind p = KList) -> 0 <= p_seg p.
Proof.
  intros H V Hv Hk. destruct V as [V|[[M V]|[(h & i & Hh & MA)|[(_ & _ & _ & Sg)|(Ek & _)]]]]; [congruence| | |exact Sg|destruct Hk; congruence].
  - destruct (obj_bounds _ _ _ _ H V) as (B1 & _). cbn [core p_seg] in B1. lia.
  - destruct MA as (_ & _ & _ & _ & Es & _). destruct (obj_bounds _ _ _ _ H Hh) as (B1 & _). lia.
Qed.

Lemma fr_none m m' (R : Z -> Z -> Prop) : fr m m' Rnone -> fr m m' R.
Proof. apply fr_weaken. intros i k []. Qed.

Lemma seg_write_fr m sid addr bs m' :
  0 <= sid -> zlen bs < 4294967296 -> seg_write m sid addr bs = Ok m' ->
  fr m m' (fun i k => i = sid /\ addr <= k < addr + zlen bs).
Proof. intros Hs Hl E. apply fr_wrote; [apply seg_write_wrote|]; assumption. Qed.

(* a data setter of the sub-language changes the bytes of its field *)
Lemma setter_fr st objs pads o h s m1 :
  sinv st objs pads -> sub_op o = true -> setter_of st o = Some (h, s) -> fst (hget st h) = InDst ->
  run_setter (w_dst (st_w st)) s = Ok m1 -> fr (w_dst (st_w st)) m1 (touch st o).
Proof.
  intros S Hop ES El E. pose proof S as (H & _). pose proof (hget_view st objs pads h S El) as Vw.
  destruct (run_setter_write _ _ _ E) as (V & addr & bs & SA & EW & Lb & _).
  assert (Sg : 0 <= p_seg (setter_ptr s)).
  { destruct (setter_of_ptr _ _ _ _ ES) as [Ep|Ep]; rewrite Ep in *.
    - destruct (as_struct_valid _ V) as [Eas Ek]. rewrite Eas in *. exact (view_seg_nonneg _ _ _ _ H Vw V (or_introl Ek)).
    - destruct (as_list_valid _ V) as [Eas Ek]. rewrite Eas in *. exact (view_seg_nonneg _ _ _ _ H Vw V (or_intror Ek)). }
  destruct o; try discriminate ES; injection ES as -> <-; cbn [touch setter_ptr setter_addr setter_width sub_op] in *.
  - assert (Hn : n = 1 \/ n = 2 \/ n = 4 \/ n = 8) by (apply width_b_ok; apply andb_prop in Hop; apply Hop).
    apply (seg_write_fr _ _ _ _ _ Sg) in EW; [|lia]. eapply fr_weaken; [|exact EW].
    intros i0 k [X1 X2]. split; [exact X1|]. exists addr. split; [exact SA|lia].
  - apply (seg_write_fr _ _ _ _ _ Sg) in EW; [|lia]. eapply fr_weaken; [|exact EW].
    intros i0 k [X1 X2]. split; [exact X1|]. replace k with addr by lia. apply SA.
  - assert (Hn : n = 1 \/ n = 2 \/ n = 4 \/ n = 8) by (apply width_b_ok; exact Hop).
    apply (seg_write_fr _ _ _ _ _ Sg) in EW; [|lia]. eapply fr_weaken; [|exact EW].
    intros s0 k [X1 X2]. split; [exact X1|]. exists addr. split; [exact SA|lia].
  - apply (seg_write_fr _ _ _ _ _ Sg) in EW; [|lia]. eapply fr_weaken; [|exact EW].
    intros s0 k [X1 X2]. split; [exact X1|]. destruct SA as [<- _]. lia.
Qed.

Lemma ptr_slot_touch st o sid addr hs : ptr_slot st o sid addr hs -> forall s k, Rword sid addr s k -> touch st o s k.
Proof. intros [h i hs' _ _ _|h i hs' a _ EP|hs' _] s k X; cbn [touch]; [exact X|exists a; auto|exact X]. Qed.

Lemma copy_dst_touch st o dst hs : copy_dst st o dst hs -> forall s k, Rexact dst s k -> touch st o s k.
Proof. intros [h i hs' de _ ED|h hs' _] s k X; cbn [touch]; [exists de; auto|exact X]. Qed.

Theorem bstep_frame e st objs pads o st' out :
  sinv st objs pads -> spool st -> sub_op o = true -> dst_only st o -> bstep e st o = (Some st', out) ->
  fr (w_dst (st_w st)) (w_dst (st_w st')) (touch st o).
Proof.
  intros Si SP Hop Hdo E. apply bstep_inv in E. pose proof Si as (H & _). revert Hop Hdo.
  destruct E as [o|o sid m p EV EC|sid n EV Hn|sid idx EV|c|o|o h s w1 ES EW|o sid addr hs w1 SL EW|o dst hs w1 CD EW
                 |l0 ro l rs' v El EST|]; intros Hop Hdo; cbn [st_w hpush w_dst w_set_dst]; try apply fr_refl.
  - exact (fr_none _ _ _ (ctor_call_fr _ _ _ _ _ (hi_inv _ _ _ H) (valid_sid_range _ _ EV) (sub_op_wf _ Hop) EC)).
  - apply fr_same_mem; reflexivity.
  - pose proof (dst_only_setter _ _ _ _ Hdo ES) as El. rewrite El in EW. destruct (set_in_dst _ _ _ EW) as (m1 & Er & ->).
    exact (setter_fr _ _ _ _ _ _ _ Si Hop ES El Er).
  - eapply fr_weaken; [exact (ptr_slot_touch _ _ _ _ _ SL)|].
    apply (write_ptr_fr st objs pads (e_fuel e) sid addr hs w1); auto. exact (ptr_slot_table _ _ _ _ _ _ _ Si Hop SL).
  - eapply fr_weaken; [exact (copy_dst_touch _ _ _ _ CD)|]. destruct (copy_dst_view _ _ _ _ _ _ Si CD) as [Vd Kd].
    apply (copy_struct_fr st objs pads (e_fuel e) dst hs w1); auto.
  - apply fr_same_mem; destruct l; reflexivity.
  - apply fr_same_mem; [|apply reopened_nsegs]. intros i. rewrite <- !nth_bm_data. now rewrite reopened_data.
Qed.

Fixpoint touches (e : benv) (st : bstate) (ops : list bop) : list (Z -> Z -> Prop) :=
  match ops with
  | [] => []
  | o :: r => match bstep e st o with
              | (Some st1, _) => touch st o :: touches e st1 r
              | (None, _) => []
              end
  end.

(* the last state of the run (the run stops at a failing pointer setter / constructor) *)
Fixpoint final (e : benv) (st : bstate) (ops : list bop) : bstate :=
  match ops with
  | [] => st
  | o :: r => match bstep e st o with
              | (Some st1, _) => final e st1 r
              | (None, _) => st
              end
  end.

Lemma final_in e : forall ops st, In (final e st ops) (bstates e st ops).
Proof.
  induction ops as [|o r IH]; intros st; cbn [final bstates]; [left; reflexivity|].
  destruct (bstep e st o) as [[st1|] v]; [right; apply IH|left; reflexivity].
Qed.

(* [brun_chain]: for every program of the interpreter (every arena configuration with a root word
   behind [sinv], any source message), the messages under construction along the run form a
   chain whose frames are [touch state op] *)
Theorem brun_chain e : cfg_strict (e_cfgs e) = true -> forall ops st objs pads,
  sinv st objs pads -> spool st -> sub_prog ops = true -> dst_run e st ops -> Forall seg_bound (bstates e st ops) ->
  chain (w_dst (st_w st)) (touches e st ops) (w_dst (st_w (final e st ops))).
Proof.
  intros Hcs. induction ops as [|o r IH]; intros st objs pads Si SP Hp Hd Hb; cbn [touches final]; [constructor|].
  cbn [sub_prog forallb] in Hp. apply andb_prop in Hp. destruct Hp as [Ho Hr].
  cbn [bstates] in Hb. inversion Hb as [|? ? _ Hb']; subst. destruct Hd as [Hd1 Hd2].
  destruct (bstep e st o) as [[st1|] v] eqn:E; [|constructor].
  assert (B1 : seg_bound st1) by (destruct r; cbn [bstates] in Hb'; inversion Hb'; assumption).
  destruct (bstep_hinv e st objs pads o st1 v Si SP Ho Hd1 E B1) as (objs1 & pads1 & S1 & _).
  pose proof (bstep_spool e st o st1 v Hcs SP Hd1 E) as SP1.
  destruct (bstep_frame e st objs pads o st1 v Si SP Ho Hd1 E) as [K N].
  econstructor; [exact K|exact N|]. eapply IH; eauto.
Qed.

(* [run_last_write_wins]: at the level of the interpreter - what a data setter wrote into a field
   (any [wrote], e.g. T3's) is what is read back at the end of ANY program that follows, provided
   no later op touches the field: setters on other fields or objects, pointer setters with all
   their copies, constructors, capabilities, reads, reopen *)
Theorem run_last_write_wins e m0 st1 objs pads ops sid addr bs :
  cfg_strict (e_cfgs e) = true ->
  wrote m0 (w_dst (st_w st1)) sid addr bs -> 0 <= sid -> zlen (mem m0 sid) < 4294967296 ->
  sinv st1 objs pads -> spool st1 -> sub_prog ops = true -> dst_run e st1 ops -> Forall seg_bound (bstates e st1 ops) ->
  Forall (fun R : Z -> Z -> Prop => forall k, addr <= k < addr + zlen bs -> ~ R sid k) (touches e st1 ops) ->
  slice (mem (w_dst (st_w (final e st1 ops))) sid) addr (zlen bs) = Ok bs.
Proof.
  intros Hcs W Hs Hl Si SP Hp Hd Hb F.
  pose proof (brun_chain e Hcs ops st1 objs pads Si SP Hp Hd Hb) as Ch.
  pose proof (brun_hinv e Hcs ops st1 objs pads Si SP Hp Hd Hb) as All.
  rewrite Forall_forall in All. destruct (All _ (final_in e ops st1)) as (objs' & pads' & (H' & _)).
  apply (last_write_wins m0 (w_dst (st_w st1)) (touches e st1 ops)); auto.
  pose proof (hi_small _ _ _ H' sid) as X. unfold maxSegmentSize in X. lia.
Qed.

(* the tables of the last state extend the tables of the first *)
Theorem brun_final_ext e : cfg_strict (e_cfgs e) = true -> forall ops st objs pads,
  sinv st objs pads -> spool st -> sub_prog ops = true -> dst_run e st ops -> Forall seg_bound (bstates e st ops) ->
  exists objs' pads', sinv (final e st ops) objs' pads' /\ ext objs pads objs' pads'.
Proof.
  intros Hcs. induction ops as [|o r IH]; intros st objs pads Si SP Hp Hd Hb; cbn [final].
  { exists objs, pads. split; [exact Si|apply ext_refl]. }
  cbn [sub_prog forallb] in Hp. apply andb_prop in Hp. destruct Hp as [Ho Hr].
  cbn [bstates] in Hb. inversion Hb as [|? ? _ Hb']; subst. destruct Hd as [Hd1 Hd2].
  destruct (bstep e st o) as [[st1|] v] eqn:E.
  2:{ exists objs, pads. split; [exact Si|apply ext_refl]. }
  assert (B1 : seg_bound st1) by (destruct r; cbn [bstates] in Hb'; inversion Hb'; assumption).
  destruct (bstep_hinv e st objs pads o st1 v Si SP Ho Hd1 E B1) as (objs1 & pads1 & S1 & X1).
  pose proof (bstep_spool e st o st1 v Hcs SP Hd1 E) as SP1.
  destruct (IH st1 objs1 pads1 S1 SP1 Hr Hd2 Hb') as (objs2 & pads2 & S2 & X2).
  exists objs2, pads2. split; [exact S2|eapply ext_trans; eauto].
Qed.

(* [run_last_pointer_wins]: at the level of the interpreter - the words a pointer setter stored
   for table object [ht] at slot [q] (state st1); then ANY program none of whose ops touches the
   slot word or its landing pads; at the end Segment.readPtr at [q] returns the handle of [ht] *)
Theorem run_last_pointer_wins e st1 objs pads ops q ht raw oldlen ps strict rl depth p rl' :
  cfg_strict (e_cfgs e) = true ->
  sinv st1 objs pads -> spool st1 -> sub_prog ops = true -> dst_run e st1 ops -> Forall seg_bound (bstates e st1 ops) ->
  placed (bm_data (w_dst (st_w st1))) (fst q) (snd q) (p_seg ht) (obj_start ht) raw oldlen ps ->
  In ht objs -> incl ps pads -> snd q mod 8 = 0 ->
  raw_of ht = Ok raw -> (p_kind ht = KStruct -> os_isZero (p_size ht) = false) ->
  Forall (fun R : Z -> Z -> Prop => (forall k, snd q <= k < snd q + 8 -> ~ R (fst q) k) /\
            (forall r, In r ps -> forall k, r_start r <= k < r_start r + r_size r -> ~ R (r_seg r) k)) (touches e st1 ops) ->
  let m' := w_dst (st_w (final e st1 ops)) in
  readPtr strict (bm_data m') rl (fst q) (nth (Z.to_nat (fst q)) (bm_data m') []) (snd q) depth = (Ok p, rl') ->
  p = handle_of ht depth.
Proof.
  intros Hcs Si SP Hp Hd Hb Pl Hht Ips Hqa Hraw Hnz F m' HR.
  pose proof (brun_chain e Hcs ops st1 objs pads Si SP Hp Hd Hb) as Ch.
  destruct (brun_final_ext e Hcs ops st1 objs pads Si SP Hp Hd Hb) as (objs' & pads' & (H' & _) & [[eo ->] [ep ->]]).
  apply (last_pointer_wins (w_dst (st_w st1)) (touches e st1 ops) m' (objs ++ eo) (pads ++ ep) q ht raw oldlen ps strict rl depth p rl'); auto.
  - apply in_or_app. left. exact Hht.
  - intros x Hx. apply in_or_app. left. apply Ips. exact Hx.
Qed.
