(* C16, the closure theorem of a deep copy inside one message.
   [copy_all] of HeapCopy.v (tables only grow) is re-proved with the conclusion that matters for
   "deep": by mutual induction on the fuel of writePtr / copyStruct,
     - every table entry created by the call starts at or beyond the segment lengths before the call
       ([freshL]), and
     - every pointer slot lying in the area at or beyond given lengths L0 holds null, the inline
       empty struct, a capability index or a pointer placed to an entry of the set N extended by
       the new entries ([CL]), provided it was so before and every slot of the area that is
       written is written by a copying writePtr.
   With L0 = the lengths before the call and N = [] this is the closure [copy_closure]: the slot
   written designates the first new entry h, and every slot of every new entry designates a new
   entry (or nothing): no object of the copy, at any depth, is an object that existed before. *)
From CV Require Import Core.Builder Core.ReaderFacts Core.ArithFacts Core.BuilderFacts Core.AllocProofs
  Core.WritePtrProofs Core.HeapProofs Core.CopyProofs Core.BuildOps Core.BuildValid Core.BuildInv Core.HeapInv Core.ReadBridge
  Core.HeapOps Core.HeapCopy Core.HeapHistory Core.HeapFrames Core.CopyClosureBase.
From Coq Require Import ZifyBool ZifyNat.
Open Scope Z_scope.

Ltac Zify.zify_post_hook ::= Z.div_mod_to_equations.

Definition X_wp (f : nat) : Prop := forall w objs pads q src fc w' L0 N,
  tinv w objs pads -> In q ((0, 0) :: flat_map slots objs) -> view objs src ->
  CL (w_dst w) objs pads L0 N -> le_len L0 (w_dst w) ->
  (L0 (fst q) <= snd q -> fc || p_member src = true) ->
  write_ptr f true w (fst q) (snd q) InDst src fc = Ok w' -> nsegs (w_dst w') < B32 ->
  exists eo ep, tinv w' (objs ++ eo) (pads ++ ep) /\
    CL (w_dst w') (objs ++ eo) (pads ++ ep) L0 (N ++ eo) /\ freshL (lenf (w_dst w)) eo.

Definition X_cs (f : nat) : Prop := forall w objs pads dst src w' L0 N,
  tinv w objs pads -> view objs dst -> (p_valid dst = true -> p_kind dst = KStruct) ->
  view objs src -> (p_valid src = true -> p_kind src = KStruct) ->
  CL (w_dst w) objs pads L0 N -> le_len L0 (w_dst w) ->
  copy_struct f true w dst InDst src = Ok w' -> nsegs (w_dst w') < B32 ->
  exists eo ep, tinv w' (objs ++ eo) (pads ++ ep) /\
    CL (w_dst w') (objs ++ eo) (pads ++ ep) L0 (N ++ eo) /\ freshL (lenf (w_dst w)) eo.

Lemma x_none w objs pads L0 N L : tinv w objs pads -> CL (w_dst w) objs pads L0 N ->
  exists eo ep, tinv w (objs ++ eo) (pads ++ ep) /\ CL (w_dst w) (objs ++ eo) (pads ++ ep) L0 (N ++ eo) /\ freshL L eo.
Proof. intros T C. exists [], []. rewrite !app_nil_r. split; [exact T|]. split; [exact C|]. intros h []. Qed.

Lemma CL_wrote_nil m T P m' sid addr L0 N :
  0 <= sid -> wrote m m' sid addr [] -> CL m T P L0 N -> CL m' T P L0 N.
Proof.
  intros Hs W C. pose proof (wrote_keeps _ _ _ _ _ W Hs) as K. change (zlen (@nil Z)) with 0 in K.
  assert (Nn : nsegs m' = nsegs m) by (unfold nsegs; apply (wrote_nsegs _ _ _ _ _ W)).
  apply (CL_frame m T P m' (fun i k => i = sid /\ addr <= k < addr + 0)); auto; try lia;
    try (intros q _ k _ [_ X]; lia).
Qed.

Lemma freshL_hinv m T P (L L' : Z -> Z) eo :
  hinv m T P -> incl eo T -> (forall i, 0 <= i -> L i <= L' i) -> freshL L' eo -> freshL L eo.
Proof.
  intros H I Hl F. apply (freshL_mono L L'); auto. intros h Hh.
  destruct (obj_bounds _ _ _ _ H (I h Hh)) as (B1 & _). lia.
Qed.

(* a loop whose steps are copies (or plain slot writes): tables, closure and freshness of the new
   entries relative to lengths Lw below the loop's start are threaded through *)
Lemma x_loop (I : world -> Prop) l (step : world -> Z -> res world) objs pads L0 N (Lw : Z -> Z) w1 w2 :
  (forall wa j wb, In j l -> I wa -> step wa j = Ok wb ->
     (I wb /\ nsegs (w_dst wa) <= nsegs (w_dst wb)) /\
     forall k, 0 <= k -> zlen (mem (w_dst wa) k) <= zlen (mem (w_dst wb) k)) ->
  (forall wa eo ep, tinv wa (objs ++ eo) (pads ++ ep) -> I wa) ->
  (forall wa eo ep j wb, In j l -> tinv wa (objs ++ eo) (pads ++ ep) ->
     CL (w_dst wa) (objs ++ eo) (pads ++ ep) L0 (N ++ eo) -> le_len L0 (w_dst wa) ->
     step wa j = Ok wb -> nsegs (w_dst wb) < B32 ->
     exists eo' ep', tinv wb ((objs ++ eo) ++ eo') ((pads ++ ep) ++ ep') /\
       CL (w_dst wb) ((objs ++ eo) ++ eo') ((pads ++ ep) ++ ep') L0 ((N ++ eo) ++ eo') /\
       freshL (lenf (w_dst wa)) eo') ->
  tinv w1 objs pads -> CL (w_dst w1) objs pads L0 N ->
  (forall i, 0 <= i -> L0 i <= Lw i) -> le_len Lw (w_dst w1) ->
  fold_res l w1 step = Ok w2 -> nsegs (w_dst w2) < B32 ->
  exists eo ep, tinv w2 (objs ++ eo) (pads ++ ep) /\ CL (w_dst w2) (objs ++ eo) (pads ++ ep) L0 (N ++ eo) /\
    freshL Lw eo /\ le_len Lw (w_dst w2).
Proof.
  intros Fm TI Step T1 C1 L0w LE1 EL Hb.
  set (T := fun (wa : world) (eo : list Ptr) (ep : list region) =>
              tinv wa (objs ++ eo) (pads ++ ep) /\ CL (w_dst wa) (objs ++ eo) (pads ++ ep) L0 (N ++ eo) /\
              freshL Lw eo /\ le_len Lw (w_dst wa)).
  destruct (fold_threadX I T l step (fun wa j wb Hj Ia E => proj1 (Fm wa j wb Hj Ia E))
              (fun wa eo ep Ta => TI wa eo ep (proj1 Ta)))
    with (wa := w1) (eo := @nil Ptr) (ep := @nil region) (w2 := w2) as (eo1 & ep1 & T2); auto.
  - intros wa eo ep j wb Hj (Ta & CLa & Fa & La) E Hbb.
    destruct (Fm wa j wb Hj (TI _ _ _ Ta) E) as [_ Lab].
    assert (LEa : le_len L0 (w_dst wa)) by (intros i Hi; specialize (L0w i Hi); specialize (La i Hi); lia).
    destruct (Step wa eo ep j wb Hj Ta CLa LEa E Hbb) as (eo' & ep' & T' & CL' & F').
    exists eo', ep'. rewrite <- !app_assoc in T'. rewrite <- !app_assoc in CL'. split; [exact T'|]. split; [exact CL'|]. split.
    + apply freshL_app; [exact Fa|].
      apply (freshL_hinv (w_dst wb) (objs ++ eo ++ eo') (pads ++ ep ++ ep') Lw (lenf (w_dst wa))); auto.
      * exact (proj1 T').
      * intros x Hx. apply in_or_app. right. apply in_or_app. right. exact Hx.
    + intros i Hi. specialize (La i Hi). specialize (Lab i Hi). lia.
  - unfold T. rewrite !app_nil_r. split; [exact T1|]. split; [exact C1|]. split; [intros h []|exact LE1].
  - cbn [app] in T2. exists eo1, ep1. exact T2.
Qed.

Lemma x_inline f w objs pads q src fc w' L0 N :
  tinv w objs pads -> In q ((0, 0) :: flat_map slots objs) -> CL (w_dst w) objs pads L0 N ->
  (p_valid src = false \/ p_kind src = KStruct /\ os_isZero (p_size src) = true \/
   p_kind src = KIface /\ 0 <= p_len src < 4294967296) ->
  write_ptr (S f) true w (fst q) (snd q) InDst src fc = Ok w' ->
  tinv w' objs pads /\ CL (w_dst w') objs pads L0 N.
Proof.
  intros [H C] Hq C0 Hsrc HW.
  destruct (write_ptr_inline f w q src fc w' Hsrc HW) as (v & Hv & EW).
  pose proof (hinv_write_inline (w_dst w) objs pads (w_dst w') q v H Hq Hv EW) as H'.
  destruct (write_inline_word (w_dst w) objs pads (w_dst w') q v H Hq Hv EW) as (Sq & K & Nn).
  split; [split; [exact H'|exact C]|].
  pose proof (CL_step (w_dst w) objs pads (w_dst w') q L0 N [] [] H Hq K ltac:(lia) C0) as X.
  rewrite !app_nil_r in X. apply X.
  - intros _. apply Sq.
  - intros s [].
Qed.

Lemma x_placed f w objs pads q src w' L0 N :
  tinv w objs pads -> In q ((0, 0) :: flat_map slots objs) -> CL (w_dst w) objs pads L0 N ->
  ~ (L0 (fst q) <= snd q) ->
  p_valid src = true -> In (core src) objs -> p_member src = false ->
  write_ptr (S f) true w (fst q) (snd q) InDst src false = Ok w' -> nsegs (w_dst w') < B32 ->
  exists ep, tinv w' objs (pads ++ ep) /\ CL (w_dst w') objs (pads ++ ep) L0 N.
Proof.
  intros [H C] Hq C0 Hna Hv Hin Hm HW Hb.
  destruct (write_ptr_hinv_gen f w objs pads q src false w' H Hq) as [pads' H']; auto.
  exists pads'. split; [split; [exact H'|exact C]|].
  destruct (slot_geometry _ _ _ _ H Hq) as (Q1 & _).
  assert (Vs : view objs src) by (right; left; split; auto).
  destruct (obj_bounds _ _ _ _ H Hin) as (B1 & _). cbn [core p_seg] in B1.
  assert (Sz : sz_ok src).
  { intros _. destruct (view_sz_seg _ _ _ _ H Vs Hv) as [[_ Es]|[Ek|[Wf _]]]; [rewrite Es; apply wf_size_00| |exact Wf].
    exfalso. destruct (core_facts src) as (_ & _ & _ & _ & _ & _ & C7).
    destruct (hi_good _ _ _ H _ Hin) as [_ (Sh & _)]. apply (proj1 C7) in Sh. unfold shape_ok in Sh. rewrite Ek in Sh. exact Sh. }
  destruct (frame_all true (S f)) as [FW _].
  destruct (FW true w (fst q) (snd q) InDst src false w' (hi_inv _ _ _ H) Q1 Sz (fun _ _ => B1) HW) as (K & _ & Nn & _).
  pose proof (CL_step (w_dst w) objs pads (w_dst w') q L0 N [] pads' H Hq K Nn C0) as X.
  rewrite !app_nil_r in X. apply X.
  - intros Ha. contradiction.
  - intros s [].
Qed.

(* the last step of both copying branches of writePtr: the copy [cd] has joined the table, its
   own pointers are copied, and the pointer to it is placed in slot q *)
Lemma x_place_new w w3 objs pads q cd eo ep raw w' L0 N (Lm : Z -> Z) :
  tinv w3 ((objs ++ [cd]) ++ eo) (pads ++ ep) ->
  CL (w_dst w3) ((objs ++ [cd]) ++ eo) (pads ++ ep) L0 ((N ++ [cd]) ++ eo) ->
  freshL Lm eo -> (forall i, 0 <= i -> zlen (mem (w_dst w) i) <= Lm i) ->
  In q ((0, 0) :: flat_map slots objs) ->
  obj_start cd = zlen (mem (w_dst w) (p_seg cd)) ->
  raw_of cd = Ok raw -> (p_kind cd = KStruct -> os_isZero (p_size cd) = false) ->
  place w3 (fst q) (snd q) (p_seg cd) (obj_start cd) raw = Ok w' ->
  nsegs (w_dst w3) <= nsegs (w_dst w') -> nsegs (w_dst w') < 4294967296 ->
  exists h eo ep, tinv w' (objs ++ h :: eo) (pads ++ ep) /\ fresh_target w w' q h /\
    CL (w_dst w') (objs ++ h :: eo) (pads ++ ep) L0 (N ++ h :: eo) /\ freshL (lenf (w_dst w)) (h :: eo) /\
    slot_ok (bm_data (w_dst w')) (pads ++ ep) [h] q.
Proof.
  intros [H3 Cc3] CL3 F3 Lm3 Hq AD Hraw Hnz EP N3 Hb.
  assert (Hq3 : In q ((0, 0) :: flat_map slots ((objs ++ [cd]) ++ eo))) by (apply slots_app, slots_app; exact Hq).
  assert (Hcd3 : In cd ((objs ++ [cd]) ++ eo)) by (apply in_or_app; left; apply in_or_app; right; left; reflexivity).
  destruct (hinv_place_full (w_dst w3) ((objs ++ [cd]) ++ eo) (pads ++ ep) w3 q cd raw w') as (pads' & H' & Rs' & Kp & _ & Pl); auto.
  assert (Shq : slot_ok (bm_data (w_dst w')) ((pads ++ ep) ++ pads') [cd] q).
  { right. right. left. exists cd, pads', raw, (fun i => zlen (mem (w_dst w3) i)).
    split; [left; reflexivity|]. split; [apply incl_appr, incl_refl|]. split; [exact Hraw|]. split; [exact Hnz|exact Pl]. }
  pose proof (CL_step (w_dst w3) ((objs ++ [cd]) ++ eo) (pads ++ ep) (w_dst w') q L0 ((N ++ [cd]) ++ eo) [] pads' H3 Hq3 Kp N3 CL3) as X.
  rewrite !app_nil_r in X.
  exists cd, eo, (ep ++ pads'). change (cd :: eo) with ([cd] ++ eo). rewrite !app_assoc.
  split; [split; [exact H'|exact Cc3]|]. split; [split; [exact AD|exists pads'; exact Rs']|].
  split; [|split; [|exact Shq]].
  - apply X; [|intros s []]. intros _. apply (slot_ok_weaken _ ((pads ++ ep) ++ pads') [cd]); auto; [apply incl_refl|].
    intros x [<-|[]]. apply in_or_app. left. apply in_or_app. right. left. reflexivity.
  - apply freshL_app.
    + intros h [<-|[]]. unfold lenf. lia.
    + apply (freshL_hinv (w_dst w3) ((objs ++ [cd]) ++ eo) (pads ++ ep) (lenf (w_dst w)) Lm); auto.
      intros x Hx. apply in_or_app. right. exact Hx.
Qed.

Lemma xs_step f : X_wp f -> X_cs (S f).
Proof.
  intros QW w objs pads dst src w' L0 N [H C] Vd Kd Vs Ks C0 LE HW Hb.
  unfold copy_struct in HW. cbn [copy_struct_gen] in HW.
  destruct (p_valid dst) eqn:Hvd; cbn [negb] in HW; [|discriminate].
  destruct (p_valid src) eqn:Hvs; cbn [negb] in HW.
  2:{ apply Ok_inj in HW. subst w'. apply x_none; [split; auto|exact C0]. }
  specialize (Kd eq_refl). specialize (Ks eq_refl).
  cbn [w_segs] in HW. rewrite !nth_bm_data in HW.
  destruct (struct_view_slots _ _ _ src H Vs Hvs Ks) as [Ns SrcSl].
  set (ns := PointerCount (p_size src)) in *. set (nd := PointerCount (p_size dst)) in *.
  destruct (slice (mem (w_dst w) (p_seg src)) (p_off src) (DataSize (p_size src))) as [sd| |] eqn:ESl; cbn [bind] in HW; try discriminate.
  destruct (struct_view_geom _ _ _ dst H Vd Hvd Kd) as [[E0d Sgd]|(hd & Hind & Esegd & D0d & P0d & Olod & Ohid & Hsepd & Hsld)].
  - (* the empty struct as destination: nothing is written *)
    assert (End : nd = 0) by (unfold nd; rewrite E0d; reflexivity).
    rewrite E0d in HW. cbn [DataSize] in HW.
    destruct (slice (mem (w_dst w) (p_seg dst)) (p_off dst) 0) as [dd| |] eqn:ESd; cbn [bind] in HW; try discriminate.
    apply slice_zero in ESd. subst dd. cbn [length] in HW. rewrite Nat.min_0_r in HW. cbn [firstn Nat.sub repeat app] in HW.
    unfold lift0 in HW.
    destruct (seg_write (w_dst w) (p_seg dst) (p_off dst) []) as [m1| |] eqn:EW; cbn [bind] in HW; try discriminate.
    apply seg_write_wrote in EW; [|lia|cbn; lia].
    rewrite End in HW. replace (Z.min ns 0) with 0 in HW by lia. change (Z.to_nat 0) with O in HW.
    change (iota 0) with (@nil Z) in HW. cbn [fold_res bind] in HW.
    replace (Z.to_nat (0 - ns)) with O in HW by lia. change (iota 0) with (@nil Z) in HW. cbn [map fold_res] in HW.
    apply Ok_inj in HW. subst w'. apply x_none.
    + split; [|exact C]. cbn [w_dst w_set_dst].
      apply (hinv_wrote_nil (w_dst w) objs pads m1 (p_seg dst) (p_off dst)); auto.
    + cbn [w_dst w_set_dst]. apply (CL_wrote_nil (w_dst w) objs pads m1 (p_seg dst) (p_off dst)); auto.
  - (* a destination with geometry *)
    destruct (obj_bounds _ _ _ _ H Hind) as (B1 & B2 & B3 & B4 & B5). rewrite Esegd in *.
    set (DSd := DataSize (p_size dst)) in *.
    assert (DstSl : forall j, 0 <= j < nd -> forall eo, In (p_seg dst, pointerAddress dst j) ((0, 0) :: flat_map slots (objs ++ eo))).
    { intros j Hj eo. apply slots_app. right. apply in_flat_map. exists hd. split; [exact Hind|].
      rewrite pointerAddress_eq by (unfold maxSegmentSize; fold DSd; lia). apply Hsld. exact Hj. }
    rewrite (slice_ok (mem (w_dst w) (p_seg dst)) (p_off dst) DSd) in HW by lia. cbn [bind] in HW.
    set (dd := sub (mem (w_dst w) (p_seg dst)) (p_off dst) DSd) in *.
    assert (Ldd : length dd = Z.to_nat DSd).
    { pose proof (sub_length (mem (w_dst w) (p_seg dst)) (p_off dst) DSd ltac:(lia) ltac:(lia) ltac:(lia)) as X. unfold zlen in X. fold dd in X. lia. }
    set (bs := firstn (Nat.min (length sd) (length dd)) sd ++ repeat 0 (length dd - Nat.min (length sd) (length dd))) in *.
    assert (Lb : zlen bs = DSd).
    { unfold bs, zlen. rewrite app_length, firstn_length, repeat_length. lia. }
    unfold lift0 in HW.
    destruct (seg_write (w_dst w) (p_seg dst) (p_off dst) bs) as [m1| |] eqn:EW; cbn [bind] in HW; try discriminate.
    apply seg_write_wrote in EW; [|lia|lia].
    assert (Hsl0 : forall x, In x (slots hd) -> p_off dst + zlen bs <= snd x \/ snd x + 8 <= p_off dst).
    { intros x Hx. apply (Hsepd x (p_off dst) (p_off dst + zlen bs)); auto; lia. }
    assert (H1 : hinv m1 objs pads).
    { apply (hinv_data_write (w_dst w) objs pads m1 hd (p_off dst) bs); auto; try lia.
      rewrite Esegd. exact EW. }
    assert (N1 : nsegs m1 = nsegs (w_dst w)) by (unfold nsegs; apply (wrote_nsegs _ _ _ _ _ EW)).
    assert (Kw : keeps (w_dst w) m1 (fun i k => i = p_seg dst /\ p_off dst <= k < p_off dst + zlen bs))
      by (apply (wrote_keeps _ _ _ _ _ EW); lia).
    assert (C1 : CL m1 objs pads L0 N).
    { destruct (data_range_avoids (w_dst w) objs pads hd (p_off dst) (p_off dst + zlen bs) H Hind) as (A1 & A2 & _); auto; try lia.
      rewrite Esegd in A1, A2.
      apply (CL_frame (w_dst w) objs pads m1 (fun i k => i = p_seg dst /\ p_off dst <= k < p_off dst + zlen bs) L0 N Kw); auto; lia. }
    set (w1 := w_set_dst w m1) in *.
    set (step1 := fun (wa : world) (j : Z) =>
           let '(r, rl') := readPtr true (bm_data (w_dst wa)) (w_rl wa InDst) (p_seg src)
                                    (nth (Z.to_nat (p_seg src)) (bm_data (w_dst wa)) []) (pointerAddress src j) (p_depth src) in
           do q <- r; write_ptr_gen true f true (w_set_rl wa InDst rl') (p_seg dst) (pointerAddress dst j) InDst q true) in *.
    set (step2 := fun (wa : world) (j : Z) => lift0 wa (writeRawPointer (w_dst wa) (p_seg dst) (pointerAddress dst j) 0)) in *.
    set (l1 := iota (Z.to_nat (Z.min ns nd))) in *. set (l2 := map (fun k => ns + k) (iota (Z.to_nat (nd - ns)))) in *.
    destruct (fold_res l1 w1 step1) as [w2| |] eqn:EL1; cbn [bind] in HW; try discriminate.
    set (I := fun wa : world => inv (w_dst wa) /\ 0 <= p_seg dst < nsegs (w_dst wa)).
    assert (I1 : I w1).
    { split; [exact (hi_inv _ _ _ H1)|]. unfold w1. cbn [w_dst w_set_dst]. lia. }
    (* frames of the two loops *)
    assert (Fm1' : forall wa j wb, I wa -> step1 wa j = Ok wb ->
               (I wb /\ nsegs (w_dst wa) <= nsegs (w_dst wb)) /\ keeps (w_dst wa) (w_dst wb) (Rword (p_seg dst) (pointerAddress dst j))).
    { intros wa j wb [Ia Ra] E. unfold step1 in E.
      destruct (readPtr _ _ _ _ _ _ _) as [r rl'] eqn:ER. destruct r as [qq| |]; cbn [bind] in E; try discriminate.
      destruct (frame_all true f) as [FW _].
      assert (G0 := FW true (w_set_rl wa InDst rl') (p_seg dst) (pointerAddress dst j) InDst qq true wb Ia Ra
                      (readPtr_size_wf _ _ _ _ _ _ _ _ _ ER) ltac:(discriminate) E).
      destruct G0 as (K0 & Ib & Nb & _). change (nsegs (w_dst (w_set_rl wa InDst rl'))) with (nsegs (w_dst wa)) in Nb.
      split; [split; [split; [exact Ib|lia]|exact Nb]|exact K0]. }
    assert (Fm1 : forall wa j wb, In j l1 -> I wa -> step1 wa j = Ok wb -> I wb /\ nsegs (w_dst wa) <= nsegs (w_dst wb)).
    { intros wa j wb _ Ia E. exact (proj1 (Fm1' wa j wb Ia E)). }
    assert (Fm2 : forall wa j wb, In j l2 -> I wa -> step2 wa j = Ok wb -> I wb /\ nsegs (w_dst wa) <= nsegs (w_dst wb)).
    { intros wa j wb _ [Ia Ra] E. unfold step2, lift0 in E.
      destruct (writeRawPointer (w_dst wa) (p_seg dst) (pointerAddress dst j) 0) as [mb| |] eqn:EWb; cbn [bind] in E; try discriminate.
      apply Ok_inj in E. subst wb. unfold I. cbn [w_dst w_set_dst].
      destruct (writeRawPointer_keeps _ _ _ _ _ (proj1 Ra) Ia EWb) as (_ & Ib & Nb & _). split; [split; [exact Ib|lia]|lia]. }
    destruct (fold_mono I l1 step1 Fm1 w1 w2 I1 EL1) as [I2 N12].
    destruct (fold_mono I l2 step2 Fm2 w2 w' I2 HW) as [_ N2'].
    assert (TI : forall wa eo ep, tinv wa (objs ++ eo) (pads ++ ep) -> I wa).
    { intros wa eo ep [Ha _]. split; [exact (hi_inv _ _ _ Ha)|].
      destruct (obj_bounds _ _ _ _ Ha (in_or_app _ _ _ (or_introl Hind))) as (X & _). rewrite Esegd in X. exact X. }
    (* the pointer loop: every step is a copying writePtr *)
    destruct (x_loop I l1 step1 objs pads L0 N (lenf (w_dst w)) w1 w2) as (eo1 & ep1 & T2 & C2 & F2 & L2); auto; try lia.
    { intros wa j wb _ Ia E. destruct (Fm1' wa j wb Ia E) as [X K]. split; [exact X|]. intros k Hk. apply (proj1 K k Hk). }
    { intros wa eo ep j wb Hj [Ha Ca] CLa LEa E Hbb. unfold step1 in E. apply in_iota in Hj.
      destruct (readPtr _ _ _ _ _ _ _) as [r rl'] eqn:ER. destruct r as [qq| |]; cbn [bind] in E; try discriminate.
      destruct (SrcSl j ltac:(lia)) as [Sg0 Sin].
      assert (Vq : view (objs ++ eo) qq).
      { apply (view_of_read (w_dst wa) (objs ++ eo) (pads ++ ep) (p_seg src, pointerAddress src j) (p_depth src)); auto; [cbn [fst]; lia|].
        apply (read_slot true (w_dst wa) (objs ++ eo) (pads ++ ep) (p_seg src, pointerAddress src j) (w_rl wa InDst) (p_depth src) qq rl'); auto.
        apply slots_app. exact Sin. }
      apply (QW (w_set_rl wa InDst rl') (objs ++ eo) (pads ++ ep) (p_seg dst, pointerAddress dst j) qq true wb L0 (N ++ eo)); auto.
      - apply tinv_set_rl. split; auto.
      - apply DstSl. lia. }
    { split; [exact H1|exact C]. }
    { intros i Hi. unfold lenf, w1. cbn [w_dst w_set_dst]. apply (proj1 Kw i Hi). }
    (* the tail of the destination's pointer section is set to null: the tables stay *)
    exists eo1, ep1. rewrite <- and_assoc. split; [|exact F2].
    apply (fold_res_inv (fun wa => tinv wa (objs ++ eo1) (pads ++ ep1) /\
                                   CL (w_dst wa) (objs ++ eo1) (pads ++ ep1) L0 (N ++ eo1)) l2 step2 w2 w'); auto.
    intros j wa wb Hj [[Ha Ca] CLa] E. unfold step2, lift0 in E.
    destruct (writeRawPointer (w_dst wa) (p_seg dst) (pointerAddress dst j) 0) as [mb| |] eqn:EWb; cbn [bind] in E; try discriminate.
    apply Ok_inj in E. subst wb. cbn [w_dst w_set_dst].
    unfold l2 in Hj. apply in_map_iff in Hj. destruct Hj as (k & <- & Hk). apply in_iota in Hk.
    assert (Hsq : In (p_seg dst, pointerAddress dst (ns + k)) ((0, 0) :: flat_map slots (objs ++ eo1))) by (apply DstSl; lia).
    pose proof (hinv_write_inline _ _ _ mb _ 0 Ha Hsq (or_introl eq_refl) EWb) as Hb'.
    destruct (write_inline_word _ _ _ mb _ 0 Ha Hsq (or_introl eq_refl) EWb) as (Sq & Kq & Nq).
    split; [split; [exact Hb'|exact Ca]|].
    pose proof (CL_step _ _ _ mb _ L0 (N ++ eo1) [] [] Ha Hsq Kq ltac:(lia) CLa) as X.
    rewrite !app_nil_r in X. apply X; [intros _; apply Sq|intros s []].
Qed.

Lemma xstruct_copy f : X_cs f -> forall w objs pads q src fc w' L0 N,
  tinv w objs pads -> In q ((0, 0) :: flat_map slots objs) -> view objs src ->
  p_valid src = true -> p_kind src = KStruct -> os_isZero (p_size src) = false ->
  fc || p_member src = true ->
  CL (w_dst w) objs pads L0 N -> le_len L0 (w_dst w) ->
  write_ptr (S f) true w (fst q) (snd q) InDst src fc = Ok w' -> nsegs (w_dst w') < B32 ->
  exists h eo ep, tinv w' (objs ++ h :: eo) (pads ++ ep) /\ fresh_target w w' q h /\
    CL (w_dst w') (objs ++ h :: eo) (pads ++ ep) L0 (N ++ h :: eo) /\ freshL (lenf (w_dst w)) (h :: eo) /\
    slot_ok (bm_data (w_dst w')) (pads ++ ep) [h] q.
Proof.
  intros QC w objs pads q src fc w' L0 N [H C] Hq Vs Hv Ek EZ Hcp C0 LE HW Hb. unfold B32 in *.
  pose proof (struct_wf _ _ _ src H Vs Hv Ek) as [Wd Wp].
  destruct (slot_geometry _ _ _ _ H Hq) as (Q1 & Q2 & Q3 & Q4 & _).
  set (DS := DataSize (p_size src)) in *. set (pc := PointerCount (p_size src)) in *.
  unfold write_ptr in HW. cbn [write_ptr_gen] in HW. rewrite Hv, Ek, EZ in HW. cbn [negb is_src] in HW.
  assert (Ecp : fc || false || p_member src = true) by (destruct fc, (p_member src); auto).
  rewrite Ecp in HW. cbn [bind] in HW. fold DS pc in HW.
  set (csz := mkOS (padToWord DS) pc) in *.
  assert (PW : padToWord DS mod 8 = 0 /\ DS <= padToWord DS <= DS + 7) by (unfold padToWord, u32; lia).
  assert (TS : totalSize csz = padToWord DS + 8 * pc) by (unfold totalSize, pointerSize, u32, csz; cbn [DataSize PointerCount]; lia).
  rewrite TS in HW.
  destruct (alloc (w_dst w) (fst q) (padToWord DS + 8 * pc)) as [[[m1 nsid] naddr]| |] eqn:EA; cbn [bind] in HW; try discriminate.
  set (dstp := mkPtr true nsid naddr 0 csz maxDepth KStruct false false false) in *.
  destruct (copy_struct_gen true f true (w_set_dst w m1) dstp InDst src) as [w2| |] eqn:EC; cbn [bind] in HW; try discriminate.
  unfold dstp in HW. cbn [p_size p_seg p_off] in HW. fold dstp in HW.
  destruct (of_opt_panic (rawStructPointer 0 csz)) as [raw| |] eqn:ER; cbn [bind] in HW; try discriminate.
  assert (Hz : 0 <= padToWord DS + 8 * pc) by lia.
  pose proof (hi_inv _ _ _ H) as Hinv.
  destruct (alloc_keeps _ _ _ _ _ _ Hinv Q1 Hz EA) as (K1 & I1 & N1 & S1 & AD & L1 & _ & _ & _ & MX).
  unfold maxSegmentSize in MX. pose proof (zlen_nonneg (mem (w_dst w) nsid)) as Z0.
  destruct (frame_all true f) as [_ FC].
  assert (Wc : wf_size csz) by (unfold wf_size, csz; cbn [DataSize PointerCount]; lia).
  assert (Ho : 0 <= p_off dstp <= 4294967295).
  { unfold dstp. cbn [p_off]. pose proof (padToWord_nonneg (padToWord DS + 8 * pc)). lia. }
  assert (G2 := FC true (w_set_dst w m1) dstp InDst src w2 I1 S1 Wc Ho (fun _ => conj Wd Wp) EC).
  destruct G2 as (_ & I2 & N2 & _). cbn [w_dst w_set_dst] in N2.
  destruct (place_keeps w2 (fst q) (snd q) nsid naddr raw w' I2 ltac:(lia) ltac:(lia) HW) as (_ & _ & N3 & _).
  (* the copy joins the table *)
  assert (H1 : hinv m1 (objs ++ [core dstp]) pads).
  { apply (hinv_alloc_obj (w_dst w) objs pads (fst q) (padToWord DS + 8 * pc) m1 nsid naddr (core dstp)); auto; try reflexivity; try lia.
    all: unfold shape_ok, obj_bytes, core, dstp, os_wf; cbn [p_kind p_size p_comp p_len p_bit]; try exact TS; try discriminate.
    all: try (unfold csz; cbn [DataSize PointerCount]; split; [lia|]; split; [reflexivity|]; split; reflexivity). }
  assert (Z1 : forall s, In s (slots (core dstp)) -> word_at (bm_data m1) (fst s) (snd s) = Some 0).
  { apply (alloc_obj_null (w_dst w) objs pads (fst q) (padToWord DS + 8 * pc) m1 nsid naddr (core dstp)); auto; try reflexivity; try lia.
    all: unfold shape_ok, obj_bytes, core, dstp, os_wf; cbn [p_kind p_size p_comp p_len p_bit]; try exact TS; try discriminate.
    all: try (unfold csz; cbn [DataSize PointerCount]; split; [lia|]; split; [reflexivity|]; split; reflexivity). }
  assert (C1 : CL m1 (objs ++ [core dstp]) pads L0 (N ++ [core dstp])) by (apply (CL_add_obj (w_dst w)); auto).
  assert (Lm1 : forall i, 0 <= i -> zlen (mem (w_dst w) i) <= zlen (mem m1 i)) by (intros i Hi; apply (proj1 K1); exact Hi).
  assert (T2 : exists eo ep, tinv w2 ((objs ++ [core dstp]) ++ eo) (pads ++ ep) /\
                 CL (w_dst w2) ((objs ++ [core dstp]) ++ eo) (pads ++ ep) L0 ((N ++ [core dstp]) ++ eo) /\ freshL (lenf m1) eo).
  { apply (QC (w_set_dst w m1) (objs ++ [core dstp]) pads dstp src w2 L0 (N ++ [core dstp])); auto; unfold B32; try lia.
    - split; [exact H1|apply cores_snoc; exact C].
    - right. left. split; [reflexivity|]. apply in_or_app. right. left. reflexivity.
    - apply view_app. exact Vs.
    - intros i Hi. cbn [w_dst w_set_dst]. specialize (LE i Hi). specialize (Lm1 i Hi). lia. }
  destruct T2 as (eo & ep & [H2 C2] & CL2 & F2).
  (* the pointer to the copy *)
  assert (Hnz : p_kind (core dstp) = KStruct -> os_isZero (p_size (core dstp)) = false).
  { unfold core, dstp; cbn [p_size]; intros _; unfold os_isZero, csz in *; cbn [DataSize PointerCount]; fold DS pc in EZ; lia. }
  apply (x_place_new w w2 objs pads q (core dstp) eo ep raw w' L0 N (lenf m1) (conj H2 C2) CL2 F2 Lm1 Hq AD ER Hnz HW); lia.
Qed.

Lemma xlist_copy f : X_cs f -> forall w objs pads q src w' L0 N,
  tinv w objs pads -> In q ((0, 0) :: flat_map slots objs) ->
  p_valid src = true -> p_kind src = KList -> In (core src) objs ->
  CL (w_dst w) objs pads L0 N -> le_len L0 (w_dst w) ->
  write_ptr (S f) true w (fst q) (snd q) InDst src true = Ok w' -> nsegs (w_dst w') < B32 ->
  exists h eo ep, tinv w' (objs ++ h :: eo) (pads ++ ep) /\ fresh_target w w' q h /\
    CL (w_dst w') (objs ++ h :: eo) (pads ++ ep) L0 (N ++ h :: eo) /\ freshL (lenf (w_dst w)) (h :: eo) /\
    slot_ok (bm_data (w_dst w')) (pads ++ ep) [h] q.
Proof.
  intros QC w objs pads q src w' L0 N [H C] Hq Hv Ek Hin C0 LE HW Hb. unfold B32 in *.
  destruct (core_facts src) as (C1 & C2 & C3 & C4 & C5 & C6 & C7).
  destruct (list_obj_facts _ _ _ _ H Hin ltac:(cbn [core p_kind]; exact Ek)) as (Sz & Wf & Fc & Fs).
  rewrite C6 in Sz, Fc. cbn [core p_comp p_len p_off p_size p_bit] in Wf, Fc, Fs. rewrite C3 in Fs.
  change (wc_of (core src)) with (wc_of src) in Fc.
  assert (OB : obj_bytes src = list_allocSize src) by (unfold obj_bytes; now rewrite Ek).
  rewrite OB in Sz, Fc. set (sz := list_allocSize src) in *.
  destruct (hi_good _ _ _ H _ Hin) as [_ Gd]. pose proof Gd as (Sh & _ & Gi & _). apply (proj1 C7) in Sh.
  pose proof (hi_tags _ _ _ H _ Hin) as Tg.
  destruct (obj_bounds _ _ _ _ H Hin) as (B1 & B2 & B3 & B4 & B5). rewrite C5 in B2, B3, B4. rewrite C1 in B4. cbn [core p_seg p_off] in B1, B3, B4, B5.
  assert (RS : r_size (obj_reg src) = padToWord sz) by (unfold obj_reg; cbn [r_size]; now rewrite OB).
  rewrite RS in B4.
  destruct (slot_geometry _ _ _ _ H Hq) as (Q1 & Q2 & Q3 & Q4 & _).
  pose proof (hi_inv _ _ _ H) as Hinv.
  unfold write_ptr in HW. cbn [write_ptr_gen] in HW. rewrite Hv, Ek in HW. cbn [negb orb bind] in HW. fold sz in HW.
  destruct (alloc (w_dst w) (fst q) sz) as [[[m1 nsid] naddr]| |] eqn:EA; cbn [bind] in HW; try discriminate.
  destruct (alloc_keeps _ _ _ _ _ _ Hinv Q1 (proj1 Sz) EA) as (K1 & I1 & N1 & S1 & AD & L1 & _ & _ & _ & MX).
  unfold maxSegmentSize in MX. pose proof (zlen_nonneg (mem (w_dst w) nsid)) as Z0.
  pose proof (padToWord_nonneg sz) as PZ.
  set (dl0 := fun (cb : bool) (doff : Z) => mkPtr true nsid doff (p_len src) (p_size src) maxDepth KList cb (p_bit src) false).
  set (I := fun wa : world => inv (w_dst wa) /\ 0 <= nsid < nsegs (w_dst wa)).
  (* what follows the creation of the new list object *)
  assert (Tail : forall cb w2 doff sz' w3, cb = p_comp src -> let dl := dl0 cb in
     (nsegs (w_dst w2) < 4294967296 -> tinv w2 (objs ++ [core (dl doff)]) pads) ->
     (nsegs (w_dst w2) < 4294967296 -> CL (w_dst w2) (objs ++ [core (dl doff)]) pads L0 (N ++ [core (dl doff)])) ->
     I w2 -> nsegs (w_dst w) <= nsegs (w_dst w2) ->
     (forall i, 0 <= i -> zlen (mem (w_dst w) i) <= zlen (mem (w_dst w2) i)) ->
     0 <= sz' -> doff + sz' <= obj_start (dl doff) + padToWord sz -> p_off src + sz' <= zlen (mem (w_dst w) (p_seg src)) ->
     obj_start (dl doff) = naddr -> obj_start (dl doff) <= doff -> 0 <= doff <= 4294967288 ->
     (if p_bit src || (PointerCount (p_size src) =? 0)
      then copy_bytes w2 InDst (p_seg src) (p_off src) nsid doff sz'
      else fold_res (iota (Z.to_nat (list_len src))) w2
             (fun wa i => do de <- list_struct true (dl doff) i; do se <- list_struct true src i;
                          copy_struct_gen true f true wa de InDst se)) = Ok w3 ->
     (do raw <- list_raw (dl doff); place w3 (fst q) (snd q) nsid naddr raw) = Ok w' ->
     exists h eo ep, tinv w' (objs ++ h :: eo) (pads ++ ep) /\ fresh_target w w' q h /\
       CL (w_dst w') (objs ++ h :: eo) (pads ++ ep) L0 (N ++ h :: eo) /\ freshL (lenf (w_dst w)) (h :: eo) /\
       slot_ok (bm_data (w_dst w')) (pads ++ ep) [h] q).
  { intros cb w2 doff sz' w3 Ecb dl T2 CLp0 I2 N02 Lm Hs0 Hrd Hrs Eos Hod Hdo E3 EP. subst cb.
    set (cd := core (dl doff)) in *.
    set (estep := fun (wa : world) (i : Z) => do de <- list_struct true (dl doff) i; do se <- list_struct true src i;
                                               copy_struct_gen true f true wa de InDst se) in *.
    destruct (list_raw (dl doff)) as [raw| |] eqn:ER; cbn [bind] in EP; try discriminate.
    (* frame of one element step *)
    assert (Fe' : forall wa i wb, I wa -> estep wa i = Ok wb ->
              (I wb /\ nsegs (w_dst wa) <= nsegs (w_dst wb)) /\ forall k, 0 <= k -> zlen (mem (w_dst wa) k) <= zlen (mem (w_dst wb) k)).
    { intros wa i wb [Ia Ra] E. unfold estep in E.
      destruct (list_struct true (dl doff) i) as [de| |] eqn:ED; cbn [bind] in E; try discriminate.
      destruct (list_struct true src i) as [se| |] eqn:ESe; cbn [bind] in E; try discriminate.
      destruct (p_valid de) eqn:Vde.
      2:{ destruct f; cbn [copy_struct_gen] in E; [discriminate|]. rewrite Vde in E. discriminate. }
      destruct (list_struct_facts _ _ _ ED Vde) as (F1 & F2 & F3 & _). unfold dl, dl0 in F1, F2, F3. cbn [p_seg p_size p_off] in F1, F2, F3.
      destruct (frame_all true f) as [_ FC].
      assert (Wde : wf_size (p_size de)) by (rewrite F2; exact Wf).
      assert (Rde : 0 <= p_seg de < nsegs (w_dst wa)) by (rewrite F1; exact Ra).
      assert (Ode : 0 <= p_off de <= 4294967295) by lia.
      assert (Sse : sz_ok se).
      { intros Vse. destruct (list_struct_facts _ _ _ ESe Vse) as (_ & X & _). rewrite X. exact Wf. }
      destruct (FC true wa de InDst se wb Ia Rde Wde Ode Sse E) as (Kab & Ib & Nb & _).
      split; [split; [split; [exact Ib|lia]|exact Nb]|]. intros k Hk. apply (proj1 Kab k Hk). }
    assert (Fe : forall wa i wb, In i (iota (Z.to_nat (list_len src))) -> I wa -> estep wa i = Ok wb -> I wb /\ nsegs (w_dst wa) <= nsegs (w_dst wb)).
    { intros wa i wb _ Ia E. exact (proj1 (Fe' wa i wb Ia E)). }
    (* frame of the middle part, then the bounds *)
    assert (M3 : I w3 /\ nsegs (w_dst w2) <= nsegs (w_dst w3)).
    { destruct (p_bit src || (PointerCount (p_size src) =? 0)) eqn:EBP.
      - unfold copy_bytes in E3. destruct (slice _ _ _) as [b| |] eqn:ES; cbn [bind] in E3; try discriminate.
        unfold lift0 in E3. destruct (seg_write (w_dst w2) nsid doff b) as [m3| |] eqn:EW; cbn [bind] in E3; try discriminate.
        apply Ok_inj in E3. subst w3. destruct I2 as [Ia Ra].
        apply seg_write_wrote in EW; [|lia|apply (slice_len _ _ _ _ ES)].
        assert (Nm3 : nsegs m3 = nsegs (w_dst w2)) by (unfold nsegs; apply (wrote_nsegs _ _ _ _ _ EW)).
        unfold I. cbn [w_dst w_set_dst]. split; [split; [apply (wrote_inv _ _ _ _ _ EW); [lia|exact Ia]|lia]|lia].
      - apply (fold_mono I (iota (Z.to_nat (list_len src))) estep) with (wa := w2); auto. }
    destruct M3 as [[I3 R3] N23].
    destruct (place_keeps w3 (fst q) (snd q) nsid naddr raw w' I3 ltac:(lia) R3 EP) as (_ & _ & N3' & _).
    destruct (T2 ltac:(lia)) as [H2 Cc2].
    assert (CLp := CLp0 ltac:(lia)).
    assert (Hcd : In cd (objs ++ [cd])) by (apply in_or_app; right; left; reflexivity).
    assert (ROcd : r_size (obj_reg cd) = padToWord sz).
    { unfold obj_reg, obj_bytes, cd, core, dl, dl0. cbn [r_size p_kind]. unfold list_allocSize. cbn [p_valid p_bit p_size p_len p_comp negb].
      unfold sz, list_allocSize. rewrite Hv. reflexivity. }
    (* data or elements *)
    assert (T3 : exists eo ep, tinv w3 ((objs ++ [cd]) ++ eo) (pads ++ ep) /\
                   CL (w_dst w3) ((objs ++ [cd]) ++ eo) (pads ++ ep) L0 ((N ++ [cd]) ++ eo) /\ freshL (lenf (w_dst w2)) eo).
    { destruct (p_bit src || (PointerCount (p_size src) =? 0)) eqn:EBP.
      - unfold copy_bytes in E3. cbn [w_segs] in E3. rewrite nth_bm_data in E3.
        pose proof (hi_small _ _ _ H2 (p_seg src)) as SmS. unfold maxSegmentSize in SmS.
        pose proof (Lm (p_seg src) ltac:(lia)) as LmS.
        rewrite (slice_ok (mem (w_dst w2) (p_seg src)) (p_off src) sz') in E3 by lia. cbn [bind] in E3.
        set (b := sub (mem (w_dst w2) (p_seg src)) (p_off src) sz') in *.
        assert (Lb : zlen b = sz') by (apply sub_length; lia).
        unfold lift0 in E3. destruct (seg_write (w_dst w2) nsid doff b) as [m3| |] eqn:EW; cbn [bind] in E3; try discriminate.
        apply Ok_inj in E3. subst w3. apply seg_write_wrote in EW; [|lia|lia].
        assert (SN : slots cd = []).
        { destruct (list_obj_facts _ _ _ _ H2 Hcd eq_refl) as (_ & _ & _ & X). apply X.
          unfold cd, core, dl, dl0. cbn [p_bit p_size]. destruct (p_bit src); [left; reflexivity|right]. cbn [orb] in EBP. lia. }
        assert (Pcd : p_seg cd = nsid) by reflexivity.
        assert (Ocd : p_off cd = doff) by reflexivity.
        apply x_none.
        + split; [|exact Cc2]. cbn [w_dst w_set_dst].
          apply (hinv_data_write (w_dst w2) (objs ++ [cd]) pads m3 cd doff b); auto.
          * rewrite Pcd. lia.
          * rewrite Ocd. lia.
          * rewrite Lb, ROcd. exact Hrd.
          * intros x Hx. rewrite SN in Hx. destruct Hx.
        + cbn [w_dst w_set_dst].
          assert (Kw : keeps (w_dst w2) m3 (fun i k => i = p_seg cd /\ doff <= k < doff + zlen b))
            by (apply (wrote_keeps _ _ _ _ _ EW); lia).
          destruct (data_range_avoids (w_dst w2) (objs ++ [cd]) pads cd doff (doff + zlen b) H2 Hcd) as (A1 & A2 & _).
          * rewrite Ocd. lia.
          * rewrite Lb, ROcd. exact Hrd.
          * intros x Hx. rewrite SN in Hx. destruct Hx.
          * apply (CL_frame (w_dst w2) (objs ++ [cd]) pads m3 (fun i k => i = p_seg cd /\ doff <= k < doff + zlen b) L0 (N ++ [cd]) Kw); auto.
            all: try (unfold nsegs; rewrite (wrote_nsegs _ _ _ _ _ EW); lia).
      - (* the elements are copied one by one: every step is a copyStruct *)
        assert (L0w : forall k, 0 <= k -> L0 k <= lenf (w_dst w2) k)
          by (intros k Hk; specialize (LE k Hk); specialize (Lm k Hk); unfold lenf; lia).
        assert (Lw2 : le_len (lenf (w_dst w2)) (w_dst w2)) by (intros k _; unfold lenf; lia).
        destruct (x_loop I (iota (Z.to_nat (list_len src))) estep (objs ++ [cd]) pads L0 (N ++ [cd]) (lenf (w_dst w2)) w2 w3)
          as (eo1 & ep1 & T3 & CT3 & F3 & _); auto; unfold B32; try lia.
        + intros wa i wb _ Ia E. exact (Fe' wa i wb Ia E).
        + intros wa eo ep [Ha _]. split; [exact (hi_inv _ _ _ Ha)|].
          destruct (obj_bounds _ _ _ _ Ha (in_or_app _ _ _ (or_introl Hcd))) as (X & _). unfold cd, core, dl, dl0 in X. cbn [p_seg] in X. exact X.
        + intros wa eo ep i wb _ [Ha Ca] CLa LEa E Hbb. unfold estep in E.
          destruct (list_struct true (dl doff) i) as [de| |] eqn:ED; cbn [bind] in E; try discriminate.
          destruct (list_struct true src i) as [se| |] eqn:ESe; cbn [bind] in E; try discriminate.
          destruct (list_struct_view ((objs ++ [cd]) ++ eo) (dl doff) i de) as [Vde Kde]; auto.
          { apply in_or_app. left. exact Hcd. }
          destruct (list_struct_view ((objs ++ [cd]) ++ eo) src i se) as [Vse Kse]; auto.
          { apply in_or_app. left. apply in_or_app. left. exact Hin. }
          apply (QC wa ((objs ++ [cd]) ++ eo) (pads ++ ep) de se wb L0 ((N ++ [cd]) ++ eo)); auto; [split; auto| |].
          * intros X. apply Kde. exact X.
          * intros X. apply Kse. exact X.
        + split; auto.
        + exists eo1, ep1. auto. }
    destruct T3 as (eo & ep & [H3 Cc3] & CL3 & F3).
    (* the pointer to the new list *)
    assert (Eos' : obj_start cd = naddr) by exact Eos.
    assert (Hnz : p_kind cd = KStruct -> os_isZero (p_size cd) = false) by discriminate.
    apply (x_place_new w w3 objs pads q cd eo ep raw w' L0 N (lenf (w_dst w2)) (conj H3 Cc3) CL3 F3 Lm Hq); auto; try lia.
    - rewrite Eos'. exact AD.
    - rewrite Eos'. exact EP. }
  assert (PS : sz <= padToWord sz <= sz + 7) by (unfold padToWord, u32; lia).
  assert (ShD : forall doff, shape_ok (core (dl0 (p_comp src) doff))).
  { intros doff. unfold shape_ok in *. unfold core, dl0. cbn [p_kind p_len p_comp p_bit p_size]. rewrite Ek in Sh.
    unfold wc_of in *. cbn [p_size]. exact Sh. }
  assert (ObD : forall doff, obj_bytes (core (dl0 (p_comp src) doff)) = sz).
  { intros doff. unfold obj_bytes, core, dl0. cbn [p_kind]. unfold sz, list_allocSize. cbn [p_valid p_bit p_size p_len p_comp negb].
    rewrite Hv. reflexivity. }
  assert (Lm1 : forall i, 0 <= i -> zlen (mem (w_dst w) i) <= zlen (mem m1 i)) by (intros i Hi; apply (proj1 K1); exact Hi).
  cbn [w_segs w_dst w_set_dst] in HW. rewrite nth_bm_data in HW.
  destruct (p_comp src) eqn:Hc.
  - (* composite list: the tag word is copied first *)
    destruct (Fc eq_refl) as (Esz & K0 & Hoff8).
    destruct (Tg Ek Hc) as (tag & Etag & Wtag). cbn [core p_len p_size p_seg p_off] in Etag, Wtag.
    assert (OS : obj_start src = p_off src - 8) by (unfold obj_start; now rewrite Hc).
    rewrite OS in B2, B3, B4.
    assert (U8 : u32 (p_off src - 8) = p_off src - 8) by (unfold u32; lia). rewrite U8 in HW.
    assert (RT : readRawPointer (mem m1 (p_seg src)) (p_off src - 8) = Ok tag).
    { rewrite <- nth_bm_data. apply read_of_word_at; [|lia]. rewrite <- Wtag.
      apply (keeps_word (w_dst w) m1 Rnone); auto; try lia; try (intros k _ X; exact X). }
    rewrite RT in HW. cbn [bind] in HW. unfold lift0 in HW.
    destruct (writeRawPointer m1 nsid naddr tag) as [m2| |] eqn:EW; cbn [bind] in HW; try discriminate.
    destruct (addSize naddr 8) as [o|] eqn:EO; [|discriminate]. apply addSize_spec in EO. destruct EO as [-> EO].
    cbn [bind] in HW. cbv beta iota in HW.
    match type of HW with context [bind (if p_bit src || _ then ?A else ?B) _] =>
      destruct (if p_bit src || (PointerCount (p_size src) =? 0) then A else B) as [w3| |] eqn:E3 end;
      cbn [bind] in HW; try discriminate.
    cbv beta iota in HW. cbn [p_comp p_off p_seg] in HW.
    assert (S10 : 0 <= nsid) by lia.
    destruct (writeRawPointer_keeps _ _ _ _ _ S10 I1 EW) as (K2 & I2 & N2 & _).
    assert (W2 := EW). apply writeRawPointer_wrote in W2; [|lia].
    assert (U2 : u32 (sz - 8) = sz - 8) by (unfold u32; lia).
    assert (U3 : u32 (naddr + 8 - 8) = naddr) by (unfold u32; lia). rewrite U3 in HW.
    apply (Tail true (w_set_dst (w_set_dst w m1) m2) (naddr + 8) (u32 (sz - 8)) w3); auto; cbv zeta; cbn [w_dst w_set_dst]; try lia.
    + intros Hb2. split; [|apply cores_snoc; exact C].
      apply (hinv_alloc_comp (w_dst w) objs pads (fst q) sz m1 nsid naddr tag m2 (core (dl0 true (naddr + 8)))); auto; try reflexivity; try lia.
    + intros Hb2. destruct (alloc_comp_null (w_dst w) objs pads (fst q) sz m1 nsid naddr tag m2 (core (dl0 true (naddr + 8)))) as [K02 Z2]; auto; try reflexivity; try lia.
      apply (CL_add_obj (w_dst w)); auto. lia.
    + unfold I. cbn [w_dst w_set_dst]. split; [exact I2|lia].
    + intros i Hi. rewrite (wrote_len _ _ _ _ _ i W2 Hi). apply Lm1. exact Hi.
    + unfold obj_start, dl0. cbn [p_comp p_off]. lia.
    + unfold obj_start, dl0. cbn [p_comp p_off]. lia.
    + unfold obj_start, dl0. cbn [p_comp p_off]. lia.
  - (* plain list *)
    assert (OS : obj_start src = p_off src) by (unfold obj_start; now rewrite Hc).
    rewrite OS in B2, B3, B4.
    cbn [bind] in HW. cbv beta iota in HW.
    match type of HW with context [bind (if p_bit src || _ then ?A else ?B) _] =>
      destruct (if p_bit src || (PointerCount (p_size src) =? 0) then A else B) as [w3| |] eqn:E3 end;
      cbn [bind] in HW; try discriminate.
    cbv beta iota in HW. cbn [p_comp p_off p_seg] in HW.
    apply (Tail false (w_set_dst w m1) naddr sz w3); auto; cbv zeta; cbn [w_dst w_set_dst]; try lia.
    + intros Hb2. split; [|apply cores_snoc; exact C].
      apply (hinv_alloc_obj (w_dst w) objs pads (fst q) sz m1 nsid naddr (core (dl0 false naddr))); auto; try reflexivity; try lia.
    + intros Hb2. apply (CL_add_obj (w_dst w)); auto.
      apply (alloc_obj_null (w_dst w) objs pads (fst q) sz m1 nsid naddr (core (dl0 false naddr))); auto; try reflexivity; try lia.
    + unfold I. cbn [w_dst w_set_dst]. split; [exact I1|lia].
    + unfold obj_start, dl0. cbn [p_comp p_off]. lia.
    + unfold obj_start, dl0. cbn [p_comp p_off]. lia.
Qed.

Lemma xp_step f : X_cs f -> X_wp (S f).
Proof.
  intros QC w objs pads q src fc w' L0 N [H C] Hq Vs C0 LE Hfc HW Hb.
  assert (INL : (p_valid src = false \/ p_kind src = KStruct /\ os_isZero (p_size src) = true \/
                 p_kind src = KIface /\ 0 <= p_len src < 4294967296) ->
                exists eo ep, tinv w' (objs ++ eo) (pads ++ ep) /\
                  CL (w_dst w') (objs ++ eo) (pads ++ ep) L0 (N ++ eo) /\ freshL (lenf (w_dst w)) eo).
  { intros Hsrc. destruct (x_inline f w objs pads q src fc w' L0 N (conj H C) Hq C0 Hsrc HW) as [T' C'].
    apply x_none; auto. }
  assert (PLC : p_valid src = true -> In (core src) objs -> p_member src = false -> fc = false ->
                exists eo ep, tinv w' (objs ++ eo) (pads ++ ep) /\
                  CL (w_dst w') (objs ++ eo) (pads ++ ep) L0 (N ++ eo) /\ freshL (lenf (w_dst w)) eo).
  { intros Hv Hin Hm Hf. subst fc.
    destruct (x_placed f w objs pads q src w' L0 N (conj H C) Hq C0) as (ep & T' & C'); auto.
    { intros Ha. specialize (Hfc Ha). rewrite Hm in Hfc. discriminate. }
    exists [], ep. rewrite !app_nil_r. split; [exact T'|]. split; [exact C'|]. intros h []. }
  destruct (p_valid src) eqn:Hv; [|apply INL; auto].
  pose proof Vs as Vs0.
  destruct Vs as [V|[[M V]|[(hl & i & Hhl & MA)|[(Ek & Esz & _)|(Ek & Hl & _)]]]]; [congruence| | | |].
  - (* a handle of a table object *)
    destruct fc; [|apply PLC; auto].
    destruct (p_kind src) eqn:Ek.
    + destruct (os_isZero (p_size src)) eqn:EZ; [apply INL; auto|].
      destruct (xstruct_copy f QC w objs pads q src true w' L0 N) as (h & eo & ep & T & _ & CLr & Fr & _); auto; [split; auto|].
      exists (h :: eo), ep. auto.
    + destruct (xlist_copy f QC w objs pads q src w' L0 N) as (h & eo & ep & T & _ & CLr & Fr & _); auto; [split; auto|].
      exists (h :: eo), ep. auto.
    + exfalso. destruct (core_facts src) as (_ & _ & _ & _ & _ & _ & C7).
      destruct (hi_good _ _ _ H _ V) as [_ (Sh & _)]. apply (proj1 C7) in Sh. unfold shape_ok in Sh. rewrite Ek in Sh. exact Sh.
  - (* a list member *)
    destruct MA as (_ & _ & _ & _ & _ & _ & _ & Ek & Hm).
    destruct (os_isZero (p_size src)) eqn:EZ; [apply INL; auto|].
    destruct (xstruct_copy f QC w objs pads q src fc w' L0 N) as (h & eo & ep & T & _ & CLr & Fr & _); auto;
      [split; auto|rewrite Hm; apply Bool.orb_true_r|].
    exists (h :: eo), ep. auto.
  - apply INL. right. left. split; [exact Ek|]. rewrite Esz. reflexivity.
  - apply INL. right. right. auto.
Qed.

(* [closure_all]: the strengthened [copy_all] *)
Theorem closure_all : forall f, X_wp f /\ X_cs f.
Proof.
  induction f as [|f [IW IC]].
  - split.
    + intros w objs pads q src fc w' L0 N _ _ _ _ _ _ HW. discriminate HW.
    + intros w objs pads dst src w' L0 N _ _ _ _ _ _ _ HW. discriminate HW.
  - split; [apply xp_step; exact IC|apply xs_step; exact IW].
Qed.

(* nothing of the table lies at or beyond the current lengths *)
Lemma CL_initial m objs pads : hinv m objs pads -> CL m objs pads (lenf m) [].
Proof.
  intros H s Hs Ha. exfalso. destruct (slot_geometry _ _ _ _ H Hs) as (_ & _ & _ & Q4 & _). unfold lenf in Ha. lia.
Qed.

Lemma le_len_refl m : le_len (lenf m) m.
Proof. intros i _. unfold lenf. lia. Qed.

(* the slots of an entry that starts beyond L lie beyond L *)
Lemma fresh_slots m T P (L : Z -> Z) eo s :
  hinv m T P -> incl eo T -> freshL L eo -> In s (flat_map slots eo) -> L (fst s) <= snd s.
Proof.
  intros H I F Hs. apply in_flat_map in Hs. destruct Hs as (h & Hh & Hs).
  destruct (hi_good _ _ _ H h (I h Hh)) as [V G]. destruct (slot_in_obj _ _ _ V G Hs) as (S1 & S2 & _).
  specialize (F h Hh). assert (OS : obj_start h <= p_off h) by (unfold obj_start; destruct (p_comp h); lia).
  rewrite S1. lia.
Qed.

(* the set of new entries is closed under "the pointer stored in a slot": every slot of a new
   entry holds null, the inline empty struct, a capability index, or a pointer (through pads)
   to a new entry *)
Definition closed (m : bmsg) (P : list region) (eo : list Ptr) : Prop :=
  forall s, In s (flat_map slots eo) -> slot_ok (bm_data m) P eo s.

(* [copy_closure]: a copying writePtr inside one message (forceCopy - set by copyStruct for every
   pointer it copies, so SetStruct, CopyFrom and everything below them - or a list-member source;
   non-empty struct or list), for every fuel, arena configuration and table: the tables grow by
   h :: eo with
   (1) the slot written holds a pointer placed to h, and resolves to h ([fresh_target]);
   (2) every new entry starts at or beyond the end its segment had before the call (a segment that
       did not exist had length 0), hence - [hinv] for the extended table - is disjoint from every
       older entry, the source included;
   (3) h :: eo is closed: every pointer slot of every new entry designates a new entry or nothing.
   So no object reachable from the written slot, at any depth, existed before the call. *)
Theorem copy_closure f w objs pads q src fc w' :
  tinv w objs pads -> In q ((0, 0) :: flat_map slots objs) -> view objs src ->
  p_valid src = true -> p_kind src <> KIface -> (p_kind src = KStruct -> os_isZero (p_size src) = false) ->
  fc || p_member src = true ->
  write_ptr (S f) true w (fst q) (snd q) InDst src fc = Ok w' -> nsegs (w_dst w') < B32 ->
  exists h eo ep, tinv w' (objs ++ h :: eo) (pads ++ ep) /\ fresh_target w w' q h /\
    slot_ok (bm_data (w_dst w')) (pads ++ ep) [h] q /\
    freshL (lenf (w_dst w)) (h :: eo) /\
    closed (w_dst w') (pads ++ ep) (h :: eo).
Proof.
  intros [H C] Hq Vs Hv Hni Hnz Hcp HW Hb. destruct (closure_all f) as [_ QC].
  pose proof (CL_initial _ _ _ H) as C0. pose proof (le_len_refl (w_dst w)) as LE.
  assert (Fin : forall h eo ep, tinv w' (objs ++ h :: eo) (pads ++ ep) /\ fresh_target w w' q h /\
            CL (w_dst w') (objs ++ h :: eo) (pads ++ ep) (lenf (w_dst w)) ([] ++ h :: eo) /\ freshL (lenf (w_dst w)) (h :: eo) /\
            slot_ok (bm_data (w_dst w')) (pads ++ ep) [h] q ->
          tinv w' (objs ++ h :: eo) (pads ++ ep) /\ fresh_target w w' q h /\
            slot_ok (bm_data (w_dst w')) (pads ++ ep) [h] q /\ freshL (lenf (w_dst w)) (h :: eo) /\
            closed (w_dst w') (pads ++ ep) (h :: eo)).
  { intros h eo ep (T & FT & CLr & Fr & Sq). split; [exact T|]. split; [exact FT|]. split; [exact Sq|]. split; [exact Fr|].
    intros s Hs. cbn [app] in CLr. apply CLr.
    - right. rewrite flat_map_app. apply in_or_app. right. exact Hs.
    - apply (fresh_slots (w_dst w') (objs ++ h :: eo) (pads ++ ep) (lenf (w_dst w)) (h :: eo)); auto.
      + exact (proj1 T).
      + intros x Hx. apply in_or_app. right. exact Hx. }
  pose proof Vs as Vs0.
  destruct Vs as [V|[[M V]|[(hl & i & Hhl & MA)|[(Ek & Esz & _)|(Ek & Hl & _)]]]]; [congruence| | | |].
  - rewrite M in Hcp. rewrite Bool.orb_false_r in Hcp. subst fc.
    destruct (p_kind src) eqn:Ek.
    + destruct (xstruct_copy f QC w objs pads q src true w' (lenf (w_dst w)) []) as (h & eo & ep & X); auto; [split; auto|].
      exists h, eo, ep. apply Fin. exact X.
    + destruct (xlist_copy f QC w objs pads q src w' (lenf (w_dst w)) []) as (h & eo & ep & X); auto; [split; auto|].
      exists h, eo, ep. apply Fin. exact X.
    + congruence.
  - destruct MA as (_ & _ & _ & _ & _ & _ & _ & Ek & Hm).
    destruct (xstruct_copy f QC w objs pads q src fc w' (lenf (w_dst w)) []) as (h & eo & ep & X); auto; [split; auto|].
    exists h, eo, ep. apply Fin. exact X.
  - exfalso. specialize (Hnz Ek). rewrite Esz in Hnz. discriminate.
  - congruence.
Qed.
