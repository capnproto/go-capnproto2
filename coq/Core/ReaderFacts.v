(* General facts about the L0 arithmetic (Arith.v) and the memory primitives of Reader.v.
   Everything here is stated for ALL arguments in the stated ranges (no sampling). *)
From CV Require Export Core.ReadOps.
From Coq Require Import ZifyBool.
From CV Require Import Core.ArithFacts.
Open Scope Z_scope.
Ltac Zify.zify_post_hook ::= Z.div_mod_to_equations.

(* case split on the condition of the first [if] of the goal *)
Ltac dif := match goal with |- context [if ?b then _ else _] => destruct b eqn:? end.

Definition two32 := 4294967296.
Definition two64 := 18446744073709551616.

Definition bytes_ok (s : seg) : Prop := Forall (fun b => 0 <= b < 256) s.
(* a segment the Go code can hold: at most maxSegmentSize bytes, each a uint8 *)
Definition seg_ok (s : seg) : Prop := zlen s <= maxSegmentSize /\ bytes_ok s.
Definition msg_ok (m : segs) : Prop := Forall seg_ok m.

Definition wf_size (sz : ObjectSize) : Prop :=
  0 <= DataSize sz <= 524280 /\ 0 <= PointerCount sz < 65536.

Lemma u32_id z : 0 <= z < 4294967296 -> u32 z = z.
Proof. unfold u32. intros. apply Z.mod_small. lia. Qed.
Lemma u64_id z : 0 <= z < 18446744073709551616 -> u64 z = z.
Proof. unfold u64. intros. apply Z.mod_small. lia. Qed.
Lemma u32_range z : 0 <= u32 z < 4294967296.
Proof. unfold u32. lia. Qed.
Lemma u64_range z : 0 <= u64 z < 18446744073709551616.
Proof. unfold u64. lia. Qed.
Lemma s32_range z : -2147483648 <= s32 z < 2147483648.
Proof. unfold s32. cbv zeta. destruct (_ <? _) eqn:E; lia. Qed.
Lemma s32_id z : -2147483648 <= z < 2147483648 -> s32 z = z.
Proof. unfold s32. cbv zeta. intros. destruct (_ <? _) eqn:E; lia. Qed.

Lemma addSize_spec a sz x :
  addSize a sz = Some x <-> (x = a + sz /\ a + sz <= maxSegmentSize).
Proof.
  unfold addSize, maxSegmentSize. cbv zeta. destruct (_ >? _) eqn:E; split; intros H.
  - discriminate.
  - lia.
  - inversion H. lia.
  - destruct H as [-> _]. reflexivity.
Qed.
Lemma addSize_none a sz : addSize a sz = None <-> a + sz > maxSegmentSize.
Proof. unfold addSize, maxSegmentSize. cbv zeta. destruct (_ >? _) eqn:E; split; intros; try discriminate; try reflexivity; lia. Qed.

Lemma element_spec a i sz x :
  element a i sz = Some x <-> (x = a + i * sz /\ 0 <= a + i * sz <= maxSegmentSize).
Proof.
  unfold element, maxSegmentSize. cbv zeta.
  destruct (_ >? _) eqn:E1; destruct (_ <? _) eqn:E2; cbn [orb]; split; intros H;
    try discriminate; try lia; try (inversion H; lia); try (destruct H as [-> _]; reflexivity).
Qed.
Lemma element_none a i sz :
  element a i sz = None <-> (a + i * sz > maxSegmentSize \/ a + i * sz < 0).
Proof.
  unfold element, maxSegmentSize. cbv zeta.
  destruct (_ >? _) eqn:E1; destruct (_ <? _) eqn:E2; cbn [orb]; split; intros H;
    try discriminate; try reflexivity; lia.
Qed.

Lemma times_spec sz n x :
  times sz n = Some x <-> (x = sz * n /\ 0 <= sz * n <= maxSegmentSize).
Proof.
  unfold times, maxSegmentSize. cbv zeta.
  destruct (_ >? _) eqn:E1; destruct (_ <? _) eqn:E2; cbn [orb]; split; intros H;
    try discriminate; try lia; try (inversion H; lia); try (destruct H as [-> _]; reflexivity).
Qed.

Lemma times_some a b : 0 <= a * b <= maxSegmentSize -> times a b = Some (a * b).
Proof. intros H. apply times_spec. lia. Qed.

Lemma addOffset_spec a o x : addOffset a o = Some x <-> (o < 524288 /\ x = u32 (a + o)).
Proof.
  unfold addOffset. destruct (_ >=? _) eqn:E; split; intros H; try discriminate; try lia.
  - inversion H. lia.
  - destruct H as [_ ->]. reflexivity.
Qed.
Lemma addOffset_none a o : addOffset a o = None <-> o >= 524288.
Proof. unfold addOffset. destruct (_ >=? _) eqn:E; split; intros H; try discriminate; try reflexivity; lia. Qed.

Lemma totalSize_wf sz : wf_size sz -> totalSize sz = DataSize sz + 8 * PointerCount sz.
Proof.
  unfold wf_size, totalSize, pointerSize. intros [H1 H2].
  rewrite (u32_id (8 * _)) by lia. apply u32_id. lia.
Qed.
Lemma totalSize_nonneg sz : 0 <= totalSize sz < 4294967296.
Proof. apply u32_range. Qed.
Lemma totalSize_bound sz : wf_size sz -> 0 <= totalSize sz <= 1048560.
Proof. intros H. rewrite totalSize_wf by assumption. unfold wf_size in H. lia. Qed.

Lemma pointerType_cases p :
  pointerType p = 0 \/ pointerType p = 1 \/ pointerType p = 2 \/ pointerType p = 3 \/ pointerType p = 6.
Proof. unfold pointerType. cbv zeta. destruct (_ =? _) eqn:E; lia. Qed.

Lemma pointerType_mod4 p t : (t = 0 \/ t = 1 \/ t = 3) -> (pointerType p = t <-> p mod 4 = t).
Proof. unfold pointerType. cbv zeta. intros Ht. destruct (_ =? _) eqn:E; lia. Qed.

Lemma structSize_wf p : wf_size (structSize p).
Proof. destruct (ArithFacts.structSize_range p) as (Hd & _ & Hp). exact (conj Hd Hp). Qed.
Lemma structSize_data p : DataSize (structSize p) = 8 * ((p / 4294967296) mod 65536).
Proof.
  unfold structSize, timesUnchecked. cbn [DataSize].
  set (c := (p / 4294967296) mod 65536).
  assert (0 <= c < 65536) by (subst c; lia).
  rewrite (u32_id c) by lia. rewrite u32_id by lia. reflexivity.
Qed.

Lemma elementSize_total p : listType p <> 7 -> exists es, elementSize p = Some es.
Proof.
  intros H. pose proof (listType_range p) as R. unfold elementSize. cbv zeta.
  repeat (dif; [eexists; reflexivity|]). lia.
Qed.

(* the element sizes of the non-composite list kinds *)
Lemma elementSize_cases p es : elementSize p = Some es ->
  es = mkOS 0 0 \/ es = mkOS 1 0 \/ es = mkOS 2 0 \/ es = mkOS 4 0 \/ es = mkOS 8 0 \/ es = mkOS 0 1.
Proof.
  unfold elementSize. cbv zeta.
  repeat (dif; [intros H; inversion H; tauto|]). discriminate.
Qed.
Lemma elementSize_wf p es : elementSize p = Some es -> wf_size es /\ 0 <= totalSize es <= 8.
Proof.
  intros H. apply elementSize_cases in H.
  destruct H as [ -> | [ -> | [ -> | [ -> | [ -> | -> ] ] ] ] ]; unfold wf_size; cbn; lia.
Qed.

(* the panic marker of totalListSize is unreachable: elementSize is only called on
   non-composite list types *)
Lemma totalListSize_total p : totalListSize p <> None.
Proof.
  unfold totalListSize. cbv zeta.
  destruct (listType p =? 1) eqn:E1; [discriminate|].
  destruct (listType p =? 7) eqn:E7; [discriminate|].
  destruct (elementSize_total p) as [es ->]; [lia|]. discriminate.
Qed.

Lemma bitListSize_spec n : 0 <= n < 536870912 -> bitListSize n = (n + 7) / 8.
Proof. intros H. unfold bitListSize. apply u32_id. lia. Qed.

Lemma farSegment_range p : 0 <= farSegment p < 4294967296.
Proof. exact (ArithFacts.farSegment_range p). Qed.

(* landingPadNearPointer keeps the tag's pointer type and upper half, and takes the word
   offset from the far pointer's (byte) address.  The type is only kept because the first
   landing-pad word was checked to be a (single) far pointer: bit 2 of [far] is then 0. *)
Lemma pointerType_far p : pointerType p = farPointer <-> p mod 8 = 2.
Proof. unfold pointerType, farPointer. cbv zeta. destruct (_ =? _) eqn:E; lia. Qed.
(* Go ORs the two fields (Arith.landingPadNearPointer is a Z.lor); for a far pointer the
   fields are disjoint and the OR is the sum (ArithFacts.landingPadNearPointer_sum). *)
Lemma landingPad_mod4 far tag : far mod 8 = 2 -> landingPadNearPointer far tag mod 4 = tag mod 4.
Proof. intros H. rewrite landingPadNearPointer_sum by (left; exact H). unfold u32. lia. Qed.
Lemma landingPad_type far tag : far mod 8 = 2 -> (tag mod 4 = 0 \/ tag mod 4 = 1) ->
  pointerType (landingPadNearPointer far tag) = pointerType tag.
Proof.
  intros Hf H. unfold pointerType. cbv zeta. rewrite landingPad_mod4 by assumption.
  destruct (tag mod 4 =? 2) eqn:E; [lia|reflexivity].
Qed.
Lemma landingPad_hi far tag : far mod 8 = 2 -> 0 <= tag ->
  landingPadNearPointer far tag / 4294967296 = tag / 4294967296.
Proof. intros H. rewrite landingPadNearPointer_sum by (left; exact H). unfold u32. lia. Qed.
Lemma landingPad_range far tag : far mod 8 = 2 -> 0 <= tag < 18446744073709551616 ->
  0 <= landingPadNearPointer far tag < 18446744073709551616.
Proof. intros H. rewrite landingPadNearPointer_sum by (left; exact H). unfold u32. lia. Qed.
Lemma landingPad_offset far tag : far mod 8 = 2 ->
  ptr_offset (landingPadNearPointer far tag) = farAddress far / 8.
Proof.
  intros Hf. rewrite landingPadNearPointer_sum by (left; exact Hf).
  unfold ptr_offset, farAddress, s32, u32. cbv zeta.
  destruct (_ <? _) eqn:E; lia.
Qed.

Lemma zlen_nonneg {A} (l : list A) : 0 <= zlen l.
Proof. unfold zlen. lia. Qed.

Lemma regionInBounds_spec s base sz :
  regionInBounds s base sz = true <-> (base + sz <= maxSegmentSize /\ base + sz <= zlen s).
Proof.
  unfold regionInBounds. destruct (addSize base sz) as [e|] eqn:E.
  - apply addSize_spec in E. destruct E as [-> E]. split; intros H; [|destruct H]; lia.
  - apply addSize_none in E. split; intros H; [discriminate|lia].
Qed.
Lemma regionInBounds_false s base sz :
  regionInBounds s base sz = false <-> (base + sz > maxSegmentSize \/ base + sz > zlen s).
Proof.
  pose proof (regionInBounds_spec s base sz) as H.
  destruct (regionInBounds s base sz); split; intros G; try discriminate; try reflexivity.
  - exfalso. assert (true = true) as T by reflexivity. apply H in T. lia.
  - destruct (Z_le_gt_dec (base + sz) maxSegmentSize); [|lia].
    destruct (Z_le_gt_dec (base + sz) (zlen s)); [|lia].
    assert (false = true) by (apply H; lia). discriminate.
Qed.

(* the slice primitive: when the requested range lies inside the segment the Go slice
   expression does not panic, and what it yields is a sub-list of the segment *)
Definition sub (s : seg) (base sz : Z) : list Z := firstn (Z.to_nat sz) (skipn (Z.to_nat base) s).

Lemma slice_in_range s base n :
  0 <= base -> 0 <= n -> base + n <= zlen s -> base + n < 4294967296 -> slice s base n = Ok (sub s base n).
Proof.
  intros Hb Hn He Hl. unfold slice, addSizeUnchecked, sub. cbv zeta.
  rewrite (u32_id (base + n)) by lia.
  destruct (0 <=? base) eqn:E1; [|lia]. destruct (base <=? base + n) eqn:E2; [|lia].
  destruct (base + n <=? zlen s) eqn:E3; [|lia].
  cbn [andb]. replace (base + n - base) with n by lia. reflexivity.
Qed.
Lemma slice_ok s base sz :
  0 <= base -> 0 <= sz -> base + sz <= zlen s -> zlen s < 4294967296 ->
  slice s base sz = Ok (sub s base sz).
Proof. intros. apply slice_in_range; lia. Qed.

(* the converse, for a uint32 size on a segment Go can hold: no wrap-around in the slice bounds *)
Lemma slice_inv s base n b : 0 <= n < 4294967296 -> zlen s < 4294967296 -> slice s base n = Ok b ->
  b = sub s base n /\ 0 <= base /\ base + n <= zlen s.
Proof.
  intros Hn Hl H. unfold slice, addSizeUnchecked, u32 in H. cbv zeta in H.
  destruct (_ && _ && _) eqn:E in H; [|discriminate]. injection H as <-.
  assert (Hz := zlen_nonneg s).
  assert (Hw : (base + n) mod 4294967296 = base + n) by lia. rewrite Hw in *.
  replace (base + n - base) with n by lia. split; [reflexivity|lia].
Qed.

(* whatever slice returns, it is a sub-list of the supplied segment *)
Lemma slice_sub s base sz b : slice s base sz = Ok b ->
  exists n, b = sub s base n /\ 0 <= base /\ 0 <= n /\ base + n <= zlen s.
Proof.
  unfold slice, sub. cbv zeta. dif; [|discriminate]. intros H. inversion H; subst b; clear H.
  exists (addSizeUnchecked base sz - base). split; [reflexivity|]. lia.
Qed.
Lemma slice_not_err s base sz : slice s base sz <> Err.
Proof. unfold slice. cbv zeta. dif; discriminate. Qed.

Lemma sub_length s base n : 0 <= base -> 0 <= n -> base + n <= zlen s -> zlen (sub s base n) = n.
Proof.
  unfold sub, zlen. intros. rewrite firstn_length, skipn_length. lia.
Qed.

Lemma In_firstn {A} (x : A) n l : In x (firstn n l) -> In x l.
Proof. intros H. rewrite <- (firstn_skipn n l). apply in_or_app. left. assumption. Qed.
Lemma In_skipn {A} (x : A) n l : In x (skipn n l) -> In x l.
Proof. intros H. rewrite <- (firstn_skipn n l). apply in_or_app. right. assumption. Qed.

Lemma bytes_ok_sub s base n : bytes_ok s -> bytes_ok (sub s base n).
Proof.
  unfold bytes_ok, sub. intros H. rewrite Forall_forall in *. intros x Hx.
  apply H. apply In_firstn in Hx. apply In_skipn in Hx. assumption.
Qed.

Lemma le_decode_range l : bytes_ok l -> 0 <= le_decode l < 256 ^ zlen l.
Proof.
  unfold bytes_ok, zlen. induction 1 as [|b l Hb Hl IH].
  - cbn. lia.
  - cbn [le_decode length]. rewrite Nat2Z.inj_succ, Z.pow_succ_r by lia. lia.
Qed.

Lemma readUintN_ok s addr n : seg_ok s ->
  0 <= addr -> 0 <= n -> addr + n <= zlen s ->
  readUintN s addr n = Ok (le_decode (sub s addr n)) /\ 0 <= le_decode (sub s addr n) < 256 ^ n.
Proof.
  intros [Hl Hb] Ha Hn He. unfold readUintN. unfold maxSegmentSize in Hl.
  rewrite slice_ok by lia. cbn [bind]. split; [reflexivity|].
  pose proof (le_decode_range (sub s addr n) (bytes_ok_sub s addr n Hb)) as R.
  rewrite sub_length in R by lia. exact R.
Qed.

Lemma readRawPointer_ok s addr : seg_ok s -> 0 <= addr -> addr + 8 <= zlen s ->
  exists w, readRawPointer s addr = Ok w /\ 0 <= w < 18446744073709551616.
Proof.
  intros Hs Ha He. destruct (readUintN_ok s addr 8 Hs Ha ltac:(lia) He) as [E R].
  eexists. split; [exact E|]. change (256 ^ 8) with 18446744073709551616 in R. exact R.
Qed.

Lemma readStructPtr_inv sid s base val sp : readStructPtr sid s base val = Ok sp ->
  exists addr, element base (ptr_offset val) 8 = Some addr /\
    sp = mkPtr true sid addr 0 (structSize val) 0 KStruct false false false.
Proof.
  unfold readStructPtr. destruct (element base (ptr_offset val) 8) as [addr|]; [|discriminate].
  cbv zeta. destruct (negb _); [discriminate|]. intros [= <-]. eauto.
Qed.

Lemma readListPtr_inv strict sid s base val lp : readListPtr strict sid s base val = Ok lp ->
  exists addr, element base (ptr_offset val) 8 = Some addr /\
    ((listType val = 7 /\ exists hdr, readRawPointer s addr = Ok hdr /\ pointerType hdr = structPointer /\
        addr + 8 <= maxSegmentSize /\ (strict = true -> 0 <= s32 (ptr_offset hdr)) /\
        (exists ts, times (totalSize (structSize hdr)) (s32 (ptr_offset hdr)) = Some ts /\
                    regionInBounds s (addr + 8) ts = true) /\
        lp = mkPtr true sid (addr + 8) (s32 (ptr_offset hdr)) (structSize hdr) 0 KList true false false) \/
     (listType val = 1 /\ lp = mkPtr true sid addr (numListElements val) (mkOS 0 0) 0 KList false true false) \/
     (listType val <> 7 /\ listType val <> 1 /\ exists es, elementSize val = Some es /\
        lp = mkPtr true sid addr (numListElements val) es 0 KList false false false)).
Proof.
  unfold readListPtr. destruct (element base (ptr_offset val) 8) as [addr|]; [|discriminate].
  destruct (totalListSize val) as [[lsize|]|]; try discriminate.
  destruct (negb _); [discriminate|]. cbv zeta.
  destruct (listType val =? 7) eqn:E7.
  - destruct (readRawPointer s addr) as [hdr| |] eqn:ER; cbn [bind]; try discriminate.
    destruct (addSize addr 8) as [addr'|] eqn:EA; [|discriminate]. apply addSize_spec in EA. destruct EA as [-> EA].
    destruct (negb (pointerType hdr =? structPointer)) eqn:EP; [discriminate|].
    destruct (strict && (s32 (ptr_offset hdr) <? 0)) eqn:ESt; [discriminate|].
    destruct (times _ _) as [ts|] eqn:ET; [|discriminate]. destruct (negb (regionInBounds s (addr + 8) ts)) eqn:ERB; [discriminate|].
    intros [= <-]. exists addr. split; [reflexivity|]. left. split; [lia|].
    exists hdr. split; [exact ER|]. split; [lia|]. split; [exact EA|].
    split; [intros ->; cbn [andb] in ESt; lia|]. split; [|auto].
    exists ts. split; [exact ET|]. destruct (regionInBounds s (addr + 8) ts); [reflexivity|discriminate].
  - destruct (listType val =? 1) eqn:E1.
    + intros [= <-]. exists addr. split; [reflexivity|]. right. left. split; [lia|auto].
    + destruct (elementSize val) as [es|] eqn:EE; [|discriminate].
      intros [= <-]. exists addr. split; [reflexivity|]. right. right. split; [lia|]. split; [lia|]. eauto.
Qed.

(* An Ok result of Segment.readPtr: the null pointer for the word 0; otherwise the depth limit is
   not 0, the word is a struct, list or capability pointer, a struct or list was granted its read
   size, and the handle has the resolved object's fields and one less depth. *)
Lemma readPtr_Ok strict m rl sid s paddr depth p rl' :
  readPtr strict m rl sid s paddr depth = (Ok p, rl') ->
  exists dsid dst base val, resolveFarPointer strict m sid s paddr = Ok (dsid, dst, base, val) /\
    ((val = 0 /\ p = nullPtr /\ rl' = rl) \/
     (val <> 0 /\ depth <> 0 /\
      ((pointerType val = structPointer /\ exists sp, readStructPtr dsid dst base val = Ok sp /\
          struct_readSize sp <= rl /\ rl' = rl - struct_readSize sp /\
          p = mkPtr true (p_seg sp) (p_off sp) 0 (p_size sp) (uint_dec depth) KStruct false false false) \/
       (pointerType val = listPointer /\ exists lp, readListPtr strict dsid dst base val = Ok lp /\
          list_readSize lp <= rl /\ rl' = rl - list_readSize lp /\
          p = mkPtr true (p_seg lp) (p_off lp) (p_len lp) (p_size lp) (uint_dec depth) KList (p_comp lp) (p_bit lp) false) \/
       (pointerType val = otherPointer /\ otherPointerType val = 0 /\ rl' = rl /\
          p = mkPtr true dsid 0 (capabilityIndex val) (mkOS 0 0) 0 KIface false false false)))).
Proof.
  unfold readPtr. destruct (resolveFarPointer strict m sid s paddr) as [[[[dsid dst] base] val]| |]; try discriminate.
  intros H. exists dsid, dst, base, val. split; [reflexivity|].
  destruct (val =? 0) eqn:E0; [left; injection H as <- <-; split; [lia|auto]|].
  right. split; [lia|]. destruct (depth =? 0) eqn:Ed; [discriminate|]. split; [lia|]. cbv zeta in H.
  destruct (pointerType val =? structPointer) eqn:Es.
  { left. split; [lia|]. destruct (readStructPtr dsid dst base val) as [sp| |]; try discriminate.
    exists sp. split; [reflexivity|]. unfold canRead in H.
    destruct (rl >=? struct_readSize sp) eqn:Ec; [|discriminate]. injection H as <- <-. split; [lia|auto]. }
  right. destruct (pointerType val =? listPointer) eqn:El.
  { left. split; [lia|]. destruct (readListPtr strict dsid dst base val) as [lp| |]; try discriminate.
    exists lp. split; [reflexivity|]. unfold canRead in H.
    destruct (rl >=? list_readSize lp) eqn:Ec; [|discriminate]. injection H as <- <-. split; [lia|auto]. }
  right. destruct (pointerType val =? otherPointer) eqn:Eo; [|discriminate].
  destruct (otherPointerType val =? 0) eqn:Et; [|discriminate]. injection H as <- <-.
  split; [lia|]. split; [lia|auto].
Qed.

Lemma msg_ok_nth m i : msg_ok m -> seg_ok (nth i m []).
Proof.
  unfold msg_ok. intros H. destruct (Nat.lt_ge_cases i (length m)) as [L|G].
  - rewrite Forall_forall in H. apply H. apply nth_In. assumption.
  - rewrite nth_overflow by assumption. split; [cbn; unfold maxSegmentSize; lia|constructor].
Qed.

Lemma lookup_segment_spec m id s : lookup_segment m id = Ok s ->
  0 <= id < zlen m /\ s = nth (Z.to_nat id) m [].
Proof.
  unfold lookup_segment. dif; [|discriminate]. intros H. inversion H. split; [lia|reflexivity].
Qed.
Lemma lookup_segment_nopanic m id : lookup_segment m id <> Panic.
Proof. unfold lookup_segment. dif; discriminate. Qed.
