(* C05/C04 tree layer, part 2: the single-level results over programs.
     tree_slots_sublang : in every reachable state of every program accepted by sub_prog (all
       arena configurations with a root word; premises of heap_inv_sublang) there are an object
       table and a pad table such that the SPECIFICATION resolver (Spec.spec_resolve, strict
       mode) maps every pointer slot of every table object and the root word to null, a
       capability, a zero-sized target or exactly the specification target of one table object
       (pointer half of "decode_object_eq_abs");
     spec_struct_data / spec_list_elem : the specification decoder's view of the data of a
       struct / the elements of a list is the segment content at the object's address (data half;
       what the bytes ARE after a run is C04's read-back theorems, data_write_read_back).
   NOT proved here (see docs/C05.md "tree layer"): the abstract store interpreter, abs_step, and
   the whole-tree equality by induction on fuel. *)
From CV Require Import Core.Builder Core.ReaderFacts Core.BuilderFacts Core.AllocProofs
  Core.WritePtrProofs Core.HeapProofs Core.BuildOps Core.BuildValid Core.BuildInv Core.HeapInv Core.HeapOps
  Core.HeapCopy Core.HeapSteps Core.BuildTreeBridge.
From CV Require Core.BuildExamples Spec.Spec.
From Coq Require Import ZifyBool ZifyNat Lia.
Open Scope Z_scope.

Ltac Zify.zify_post_hook ::= Z.div_mod_to_equations.

(* what the specification resolver returns at a slot, in terms of the tables *)
Definition slot_spec_ok (ms : segs) (objs : list Ptr) (pads : list region) (q : Z * Z) : Prop :=
  exists t rs, resolve_ptr ms (fst q) (snd q) = (t, rs) /\
    S.spec_resolve true ms (fst q) (snd q / 8) = Some (conv t) /\ simple_target t /\
    (rs = [] /\ no_tag t \/ exists ps r, rs = ps ++ [r] /\ incl ps pads /\
        (r_size r = 0 /\ no_tag t \/ exists h, In h objs /\ r = obj_reg h /\ t = tgt_of h)).

Theorem tree_slots_sublang a cfgd cfgs ncaps fuel src ops m :
  arena_spec_wf a -> root_cap_ok a -> create a (init_rlimit cfgd) = Ok m -> sub_prog ops = true ->
  msg_ok src -> cfg_strict cfgs = true ->
  let st0 := mkBSt (mkW m src (init_rlimit cfgs)) [] in
  dst_run (mkEnv cfgd cfgs ncaps fuel) st0 ops ->
  Forall seg_bound (bstates (mkEnv cfgd cfgs ncaps fuel) st0 ops) ->
  Forall (fun st => exists objs pads, sinv st objs pads /\
            forall q, In q ((0, 0) :: flat_map slots objs) ->
              slot_spec_ok (bm_data (w_dst (st_w st))) objs pads q)
         (bstates (mkEnv cfgd cfgs ncaps fuel) st0 ops).
Proof.
  intros Ha Hr Hc Hp Hms Hcs st0 Hd Hb.
  pose proof (heap_inv_sublang a cfgd cfgs ncaps fuel src ops m Ha Hr Hc Hp Hms Hcs Hd Hb) as H.
  eapply Forall_impl; [|exact H]. intros st (objs & pads & Hs).
  exists objs, pads. split; [exact Hs|]. intros q Hq. destruct Hs as (Hh & _).
  exact (hinv_slot_spec _ _ _ _ Hh Hq).
Qed.

(* data half, structs: byte o of the data section the specification decoder reports for the
   struct at word a of segment sid is byte 8a+o of that segment *)
Lemma spec_struct_data (ms : segs) sid a dw pc o :
  0 <= sid < zlen ms -> 0 <= o < 8 * dw ->
  S.sv_uint ms (S.sv_of_struct sid a dw pc) o 1 = S.byte_at (nth (Z.to_nat sid) ms []) (8 * a + o).
Proof.
  intros Hs Ho. unfold S.sv_uint, S.sv_of_struct. cbn [S.sv_db S.sv_seg S.sv_boff].
  assert (C : (0 <=? o) && (o + 1 <=? 8 * dw) = true) by lia. rewrite C.
  unfold S.seg_or_nil. rewrite (seg_at_nth ms sid Hs). change (Z.to_nat 1) with 1%nat. cbn [S.le_num]. lia.
Qed.

(* data half, lists: element i of a list of w-byte values *)
Lemma spec_list_elem (ms : segs) sid a e n i :
  0 <= sid < zlen ms -> 0 <= i < n -> e <> 7 -> S.esz_bytes e <> 0 ->
  S.l_uint ms (S.TgtList sid a e n 0 0) i (S.esz_bytes e) =
  S.le_num (nth (Z.to_nat sid) ms []) (8 * a + i * S.esz_bytes e) (Z.to_nat (S.esz_bytes e)).
Proof.
  intros Hs Hi He Hw. unfold S.l_uint.
  assert (C : (0 <=? i) && (i <? n) = true) by lia. rewrite C.
  destruct (e =? 7) eqn:E7; [lia|]. rewrite Z.eqb_refl.
  unfold S.seg_or_nil. rewrite (seg_at_nth ms sid Hs). reflexivity.
Qed.

(* one message with a near struct pointer (root), a DOUBLE-FAR pointer (slot 0 of the root struct:
   segment 1 is full), a FAR pointer with a one-word pad to a COMPOSITE list allocated in a new
   segment (slot 1), a null slot and a far pointer inside the composite list's elements.  The
   specification resolver returns, at each of these slots, the converted result of the validator's
   resolver (the conclusion of resolve_ptr_spec), the targets are the objects the program created,
   and the specification decoder's tree of the root is the tree of the written values. *)
Definition tree_ex_prog : list bop :=
  [BNewStruct 0 0 2; BNewStruct 1 8 0; BSetUint 1 0 8 258; BSetPtr 0 0 1;
   BNewComp 2 8 1 2; BSetPtr 0 1 2; BRead InDst (OLStruct 2 1); BNewStruct 2 8 0; BSetUint 4 0 8 77; BSetPtr 3 0 4;
   BSetRoot 0; BDump InDst].
Definition tree_ex_segs : segs :=
  BuildExamples.last_dump (run_build (ArRaw [40; 8; 24]) BuildExamples.ex_cfg BuildExamples.ex_cfg 0 100 [] tree_ex_prog).
Definition tree_ex_slots : list (Z * Z) := [(0, 0); (0, 8); (0, 16); (3, 16); (3, 32)].

Example tree_example :
  sub_prog tree_ex_prog = true /\
  map (fun q => let w := match word_at tree_ex_segs (fst q) (snd q) with Some w => w | None => 0 end in (f_A w, f_B w))
      tree_ex_slots = [(0, 0); (2, 1); (2, 0); (0, 0); (2, 0)] /\
  map (fun q => S.spec_resolve true tree_ex_segs (fst q) (snd q / 8)) tree_ex_slots =
  map (fun q => Some (conv (fst (resolve_ptr tree_ex_segs (fst q) (snd q))))) tree_ex_slots /\
  map (fun q => S.spec_resolve true tree_ex_segs (fst q) (snd q / 8)) tree_ex_slots =
  [Some (S.TgtStruct 0 1 0 2); Some (S.TgtStruct 1 0 1 0); Some (S.TgtList 3 1 7 2 1 1); Some S.TgtNull;
   Some (S.TgtStruct 2 0 1 0)] /\
  S.spec_decode_root true 8 64 64 tree_ex_segs =
  S.TStruct [] [S.TStruct [2; 1; 0; 0; 0; 0; 0; 0] [];
                S.TComp 2 (S.mkSize 8 1) [S.TStruct [0; 0; 0; 0; 0; 0; 0; 0] [S.TNull];
                                          S.TStruct [0; 0; 0; 0; 0; 0; 0; 0] [S.TStruct [77; 0; 0; 0; 0; 0; 0; 0] []]]].
Proof. vm_compute. repeat split; reflexivity. Qed.
