(* traversal_bound_conc: invariants of the canRead CAS loop over ALL interleavings, and
   termination of every schedule. *)
From CV Require Export Core.CanRead.
From Coq Require Import ZifyBool.
Open Scope Z_scope.

Lemma upd_length {A} (x : A) : forall l n, length (upd n x l) = length l.
Proof. induction l as [|y l IH]; intros [|n]; cbn; auto. Qed.

Lemma sumZ_upd {A} (f : A -> Z) (x : A) : forall l n old, nth_error l n = Some old ->
  sumZ f (upd n x l) = sumZ f l - f old + f x.
Proof.
  induction l as [|y l IH]; intros [|n] old H; cbn in H; try discriminate.
  - inversion H; subst. cbn. lia.
  - cbn [upd sumZ fold_right]. specialize (IH n old H). unfold sumZ in IH. lia.
Qed.

Lemma Forall_upd {A} (P : A -> Prop) (x : A) : forall l n, Forall P l -> P x -> Forall P (upd n x l).
Proof.
  induction l as [|y l IH]; intros [|n] H Hx; cbn; auto; inversion H; subst; constructor; auto.
Qed.

Lemma nth_error_upd_same {A} (x : A) : forall l n, (n < length l)%nat -> nth_error (upd n x l) n = Some x.
Proof. induction l as [|y l IH]; intros [|n] H; cbn in *; try lia; auto. apply IH. lia. Qed.
Lemma nth_error_upd_other {A} (x : A) : forall l n k, n <> k -> nth_error (upd n x l) k = nth_error l k.
Proof. induction l as [|y l IH]; intros [|n] [|k] H; cbn; auto; try congruence. Qed.

Definition th_ok (th : thread) : Prop := Forall (fun sz => 0 <= sz) (t_pending th).

Definition cinv (T0 : Z) (cf : cconf) : Prop :=
  Forall th_ok (c_threads cf) /\
  0 <= c_rlimit cf /\ 0 <= granted cf /\
  c_rlimit cf + granted cf <= T0 /\
  (nrefused cf = 0 -> c_rlimit cf + granted cf = T0).

Lemma cinv_init T0 reqs : 0 <= T0 -> Forall (Forall (fun sz => 0 <= sz)) reqs -> cinv T0 (cinit T0 reqs).
Proof.
  intros HT Hr. unfold cinv, cinit, granted, nrefused. cbn [c_rlimit c_threads].
  assert (forall l, sumZ th_granted (map (fun l => mkTh Idle l []) l) = 0) as G
    by (induction l; cbn; auto; rewrite IHl; reflexivity).
  rewrite G. split; [|lia].
  induction Hr; cbn; constructor; auto.
Qed.

(* the result of one step, by cases *)
Lemma cstep_cases cf tid cf' : cstep cf tid = Some cf' ->
  exists th sz rest, nth_error (c_threads cf) tid = Some th /\ t_pending th = sz :: rest /\
  ((* Load *)
   (t_pc th = Idle /\
    cf' = mkCC (c_rlimit cf) (upd tid (mkTh (Loaded (c_rlimit cf)) (sz :: rest) (t_done th)) (c_threads cf))) \/
   (* successful CAS: the request returns *)
   (exists ok new, t_pc th = Loaded (c_rlimit cf) /\ canRead (c_rlimit cf) sz = (ok, new) /\
    cf' = mkCC new (upd tid (mkTh Idle rest ((sz, ok) :: t_done th)) (c_threads cf))) \/
   (* failed CAS: retry *)
   (exists curr, t_pc th = Loaded curr /\ curr <> c_rlimit cf /\
    cf' = mkCC (c_rlimit cf) (upd tid (mkTh Idle (sz :: rest) (t_done th)) (c_threads cf)))).
Proof.
  unfold cstep. destruct (nth_error (c_threads cf) tid) as [th|] eqn:En; [|discriminate].
  destruct (t_pending th) as [|sz rest] eqn:Ep; [discriminate|].
  intros H. exists th, sz, rest. split; [reflexivity|]. split; [exact Ep|].
  destruct (t_pc th) as [|curr] eqn:Epc.
  - left. inversion H. auto.
  - right. destruct (canRead curr sz) as [ok new] eqn:Ec.
    destruct (c_rlimit cf =? curr) eqn:E.
    + left. assert (curr = c_rlimit cf) as -> by lia. exists ok, new. inversion H. auto.
    + right. exists curr. inversion H. repeat split; auto. lia.
Qed.

Lemma sumZ_nonneg {A} (f : A -> Z) l : (forall x, 0 <= f x) -> 0 <= sumZ f l.
Proof. intros H. induction l as [|x l IH]; cbn; [lia|]. specialize (H x). unfold sumZ in IH. lia. Qed.

Lemma th_refused_nonneg t : 0 <= th_refused t.
Proof. apply sumZ_nonneg. intros [a []]; cbn; lia. Qed.

(* the invariant speaks of the budget, of what the threads still ask for and of what was returned
   to them: a step that changes only a thread's phase keeps it *)
Lemma cinv_phase T0 cf tid th pc' : cinv T0 cf -> nth_error (c_threads cf) tid = Some th ->
  cinv T0 (mkCC (c_rlimit cf) (upd tid (mkTh pc' (t_pending th) (t_done th)) (c_threads cf))).
Proof.
  intros (Hth & H) En. unfold cinv, granted, nrefused in *. cbn [c_rlimit c_threads].
  rewrite !(sumZ_upd _ _ _ _ _ En).
  change (th_granted (mkTh pc' (t_pending th) (t_done th))) with (th_granted th).
  change (th_refused (mkTh pc' (t_pending th) (t_done th))) with (th_refused th).
  split; [|lia]. apply Forall_upd; [assumption|].
  rewrite Forall_forall in Hth. exact (Hth th (nth_error_In _ _ En)).
Qed.

Lemma cinv_step T0 cf tid cf' : cinv T0 cf -> cstep cf tid = Some cf' -> cinv T0 cf'.
Proof.
  intros Hinv Hs. destruct (cstep_cases cf tid cf' Hs) as (th & sz & rest & En & Ep & Hc).
  destruct Hc as [[Hpc ->] | [(ok & new & Hpc & Hcr & ->) | (curr & Hpc & Hne & ->)]];
    [rewrite <- Ep; apply cinv_phase; assumption| |rewrite <- Ep; apply cinv_phase; assumption].
  (* a request returns: granted, it is paid from the budget; refused, the budget drops to 0 *)
  destruct Hinv as (Hth & Hr & Hg & Hle & Heq).
  assert (0 <= sz /\ th_ok (mkTh Idle rest ((sz, ok) :: t_done th))) as [Hsz Hrest].
  { rewrite Forall_forall in Hth. pose proof (Hth th (nth_error_In _ _ En)) as Hok.
    unfold th_ok in Hok. rewrite Ep in Hok. inversion Hok. split; assumption. }
  pose proof (sumZ_nonneg th_refused (c_threads cf) th_refused_nonneg) as Hnn. pose proof (th_refused_nonneg th) as Hnt.
  unfold cinv, granted, nrefused in *. cbn [c_rlimit c_threads].
  rewrite !(sumZ_upd _ _ _ _ _ En).
  change (th_granted (mkTh Idle rest ((sz, ok) :: t_done th))) with ((if ok then sz else 0) + th_granted th).
  change (th_refused (mkTh Idle rest ((sz, ok) :: t_done th))) with ((if ok then 0 else 1) + th_refused th).
  split; [apply Forall_upd; assumption|].
  unfold canRead in Hcr. destruct (c_rlimit cf >=? sz) eqn:E; inversion Hcr; subst ok new; lia.
Qed.

(* traversal_bound_conc: for EVERY interleaving (any number of threads, any schedule) of
   requests with sizes >= 0 from initial budget T0 >= 0:
   - the sizes of all granted requests never exceed T0;
   - as long as no request has been refused, budget + granted = T0 exactly;
   - the budget never goes negative. *)
Theorem traversal_bound_conc T0 reqs cf : 0 <= T0 -> Forall (Forall (fun sz => 0 <= sz)) reqs ->
  reach (cinit T0 reqs) cf ->
  0 <= c_rlimit cf /\ 0 <= granted cf <= T0 /\ c_rlimit cf + granted cf <= T0 /\
  (nrefused cf = 0 -> c_rlimit cf + granted cf = T0).
Proof.
  intros HT Hr Hre.
  assert (cinv T0 cf) as (_ & H)
    by (induction Hre; [apply cinv_init; assumption|eapply cinv_step; eassumption]).
  lia.
Qed.

Lemma exec_reach cf0 : forall sched cf cf', reach cf0 cf -> exec cf sched = Some cf' -> reach cf0 cf'.
Proof.
  induction sched as [|tid r IH]; intros cf cf' Hr H; cbn in H.
  - inversion H; subst. assumption.
  - destruct (cstep cf tid) as [cf1|] eqn:E; [|discriminate].
    eapply IH; [|eassumption]. eapply reach_step; eassumption.
Qed.

(* A CAS fails only when the value the thread loaded is stale, and the shared word only
   changes when some request RETURNS (a successful CAS); so every failed CAS is paid for by
   another thread's completed request.  Measure: pending requests, then per-thread phase
   (stale-loaded 3 > idle 2 > fresh-loaded 1 > finished 0). *)
Definition th_score (rl : Z) (th : thread) : Z :=
  match t_pending th with
  | [] => 0
  | _ => match t_pc th with Idle => 2 | Loaded c => if c =? rl then 1 else 3 end
  end.
Definition score (cf : cconf) : Z := sumZ (th_score (c_rlimit cf)) (c_threads cf).
Definition nthreads (cf : cconf) : Z := zlen (c_threads cf).
Definition measure (cf : cconf) : Z := npending cf * (3 * nthreads cf + 1) + score cf.

Lemma th_score_range rl th : 0 <= th_score rl th <= 3.
Proof. unfold th_score. destruct (t_pending th); [lia|]. destruct (t_pc th); [lia|]. destruct (_ =? _); lia. Qed.
Lemma score_range rl l : 0 <= sumZ (th_score rl) l <= 3 * zlen l.
Proof.
  induction l as [|t l IH]; cbn [sumZ fold_right]; [cbn; lia|].
  pose proof (th_score_range rl t). unfold sumZ in IH. unfold zlen in *. cbn [length]. lia.
Qed.
Lemma measure_nonneg cf : 0 <= measure cf.
Proof.
  unfold measure, score, nthreads, npending.
  pose proof (score_range (c_rlimit cf) (c_threads cf)).
  pose proof (sumZ_nonneg (fun th => zlen (t_pending th)) (c_threads cf) ltac:(intros; apply Nat2Z.is_nonneg)). nia.
Qed.

Lemma npending_upd cf rl tid th th' : nth_error (c_threads cf) tid = Some th ->
  npending (mkCC rl (upd tid th' (c_threads cf))) = npending cf - zlen (t_pending th) + zlen (t_pending th').
Proof. intros En. exact (sumZ_upd _ _ _ _ _ En). Qed.

(* the shared word changes only when a request returns *)
Lemma rlimit_changes_only_by_return cf tid cf' : cstep cf tid = Some cf' ->
  c_rlimit cf' <> c_rlimit cf -> npending cf' = npending cf - 1.
Proof.
  intros Hs Hne. destruct (cstep_cases cf tid cf' Hs) as (th & sz & rest & En & Ep & Hc).
  destruct Hc as [[Hpc ->] | [(ok & new & Hpc & Hcr & ->) | (curr & Hpc & Hne' & ->)]];
    cbn [c_rlimit] in Hne; try congruence.
  rewrite (npending_upd _ _ _ _ _ En), Ep. unfold zlen. cbn [t_pending length]. lia.
Qed.

(* a CAS fails only on a stale value *)
Lemma cas_fails_only_when_stale cf tid cf' th : cstep cf tid = Some cf' ->
  nth_error (c_threads cf) tid = Some th ->
  forall curr, t_pc th = Loaded curr -> npending cf' = npending cf -> curr <> c_rlimit cf.
Proof.
  intros Hs En curr Hpc Hnp. destruct (cstep_cases cf tid cf' Hs) as (th' & sz & rest & En' & Ep & Hc).
  rewrite En in En'. inversion En'; subst th'.
  destruct Hc as [[Hpc' _] | [(ok & new & Hpc' & Hcr & ->) | (curr' & Hpc' & Hne' & _)]]; try congruence.
  rewrite (npending_upd _ _ _ _ _ En), Ep in Hnp. unfold zlen in Hnp. cbn [t_pending length] in Hnp. lia.
Qed.

Lemma measure_decreases cf tid cf' : cstep cf tid = Some cf' -> measure cf' < measure cf.
Proof.
  intros Hs. destruct (cstep_cases cf tid cf' Hs) as (th & sz & rest & En & Ep & Hc).
  pose proof (score_range (c_rlimit cf) (c_threads cf)) as Hsc.
  destruct Hc as [[Hpc ->] | [(ok & new & Hpc & Hcr & ->) | (curr & Hpc & Hne & ->)]];
    unfold measure; rewrite (npending_upd _ _ _ _ _ En), Ep; unfold score, nthreads, zlen;
    cbn [c_rlimit c_threads t_pending length]; rewrite upd_length.
  - (* Load: idle 2 -> fresh 1 *)
    rewrite (sumZ_upd _ _ _ _ _ En).
    unfold th_score at 2 3. cbn [t_pending t_pc]. rewrite Ep, Hpc, Z.eqb_refl. lia.
  - (* a request returns; whatever the new budget does to the scores, they stay below 3n+1 *)
    pose proof (score_range new (upd tid (mkTh Idle rest ((sz, ok) :: t_done th)) (c_threads cf))) as Hs'.
    unfold zlen in *. rewrite upd_length in Hs'. lia.
  - (* failed CAS: stale 3 -> idle 2 *)
    rewrite (sumZ_upd _ _ _ _ _ En).
    unfold th_score at 2 3. cbn [t_pending t_pc]. rewrite Ep, Hpc.
    destruct (curr =? c_rlimit cf) eqn:E; lia.
Qed.

(* every schedule is finite: at most [measure] steps can be taken from a configuration,
   whatever the interleaving (so every thread's retry loop terminates) *)
Theorem canread_terminates : forall sched cf cf', exec cf sched = Some cf' ->
  Z.of_nat (length sched) + measure cf' <= measure cf.
Proof.
  induction sched as [|tid r IH]; intros cf cf' H; cbn [exec length] in H |- *.
  - inversion H; subst. lia.
  - destruct (cstep cf tid) as [cf1|] eqn:E; [|discriminate].
    pose proof (measure_decreases cf tid cf1 E). specialize (IH cf1 cf' H). lia.
Qed.

Corollary schedule_length_bound sched cf cf' : exec cf sched = Some cf' ->
  Z.of_nat (length sched) <= measure cf.
Proof. intros H. pose proof (canread_terminates sched cf cf' H). pose proof (measure_nonneg cf'). lia. Qed.

(* once the other threads stop, a thread completes its current request within three of its
   own steps (failed CAS on a stale value, Load, successful CAS) *)
Definition completes (cf : cconf) (tid : nat) (th : thread) (sz : Z) (rest : list Z) (n : nat) : Prop :=
  exists cf' th' ok, exec cf (repeat tid n) = Some cf' /\ nth_error (c_threads cf') tid = Some th' /\
                     t_pending th' = rest /\ t_done th' = (sz, ok) :: t_done th.

Lemma solo_fresh cf tid th sz rest : nth_error (c_threads cf) tid = Some th ->
  t_pending th = sz :: rest -> t_pc th = Loaded (c_rlimit cf) -> completes cf tid th sz rest 1.
Proof.
  intros En Ep Hpc. unfold completes. cbn [repeat exec]. unfold cstep. rewrite En, Ep, Hpc.
  destruct (canRead (c_rlimit cf) sz) as [ok new]. rewrite Z.eqb_refl.
  eexists. eexists. exists ok. split; [reflexivity|]. cbn [c_threads].
  rewrite nth_error_upd_same by (apply nth_error_Some; congruence). repeat split.
Qed.

(* a step of the thread that returns nothing puts the completion one step off *)
Lemma completes_step cf tid th sz rest cf1 th1 n : cstep cf tid = Some cf1 ->
  completes cf1 tid th1 sz rest n -> t_done th1 = t_done th -> completes cf tid th sz rest (S n).
Proof.
  intros Hs (cf' & th' & ok & H1 & H2) Hd. exists cf', th', ok. cbn [repeat exec]. rewrite Hs, <- Hd. auto.
Qed.

Lemma solo_idle cf tid th sz rest : nth_error (c_threads cf) tid = Some th ->
  t_pending th = sz :: rest -> t_pc th = Idle -> completes cf tid th sz rest 2.
Proof.
  intros En Ep Hpc. eapply completes_step.
  - unfold cstep. rewrite En, Ep, Hpc. reflexivity.
  - apply solo_fresh; [apply nth_error_upd_same, nth_error_Some; congruence|reflexivity|reflexivity].
  - reflexivity.
Qed.

Lemma solo_stale cf tid th sz rest curr : nth_error (c_threads cf) tid = Some th ->
  t_pending th = sz :: rest -> t_pc th = Loaded curr -> curr <> c_rlimit cf -> completes cf tid th sz rest 3.
Proof.
  intros En Ep Hpc Hne. eapply completes_step.
  - unfold cstep. rewrite En, Ep, Hpc. destruct (canRead curr sz).
    destruct (c_rlimit cf =? curr) eqn:E; [lia|reflexivity].
  - apply solo_idle; [apply nth_error_upd_same, nth_error_Some; congruence|reflexivity|reflexivity].
  - reflexivity.
Qed.

Theorem solo_progress cf tid th sz rest : nth_error (c_threads cf) tid = Some th ->
  t_pending th = sz :: rest -> exists n, (n <= 3)%nat /\ completes cf tid th sz rest n.
Proof.
  intros En Ep. destruct (t_pc th) as [|curr] eqn:Hpc.
  - exists 2%nat. split; [lia|]. apply solo_idle; assumption.
  - destruct (Z.eq_dec curr (c_rlimit cf)) as [->|Hne].
    + exists 1%nat. split; [lia|]. apply solo_fresh; assumption.
    + exists 3%nat. split; [lia|]. eapply solo_stale; eassumption.
Qed.

(* non-vacuity: three threads, one schedule with a failed CAS; the invariant instance *)
Example conc_example :
  let cf0 := cinit 20 [[8; 8]; [8]; [16]] in
  match exec cf0 [0; 1; 1; 0; 0; 0; 2; 2; 0; 0]%nat with
  | Some cf => c_rlimit cf = 0 /\ granted cf = 16 /\ nrefused cf = 2 /\ npending cf = 0
  | None => False
  end.
Proof. vm_compute. repeat split. Qed.
