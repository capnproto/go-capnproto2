(* C05: the copy paths of writePtr / copyStruct keep the table invariant (mutual induction
   threading the object and pad tables).  The handle copied from lives in the message under
   construction (a view of the table) or in another message (a source view: what Segment.readPtr
   hands out for ANY source bytes 0..255); the steps are proved once, for either place. *)
From CV Require Import Core.Builder Core.ReaderFacts Core.ArithFacts Core.BuilderFacts Core.AllocProofs
  Core.WritePtrProofs Core.HeapProofs Core.CopyProofs Core.BuildOps Core.BuildValid Core.BuildInv Core.HeapInv Core.ReadBridge
  Core.HeapOps.
From CV Require Core.SafetyProofs.
From Coq Require Import ZifyBool ZifyNat.
Open Scope Z_scope.

Ltac Zify.zify_post_hook ::= Z.div_mod_to_equations.

Definition B32 : Z := 4294967296.

(* the table invariant of a world: the message under construction satisfies [hinv] for the
   tables, and the table holds handle cores *)
Definition tinv (w : world) (objs : list Ptr) (pads : list region) : Prop :=
  hinv (w_dst w) objs pads /\ cores objs.

Lemma tinv_set_rl w rl objs pads : tinv w objs pads -> tinv (w_set_rl w InDst rl) objs pads.
Proof.
  intros [H C]. split; [|exact C].
  apply (hinv_same_data (w_dst w)); auto; try reflexivity; exact (hi_inv _ _ _ H).
Qed.

Lemma nsegs_set_rl w rl : nsegs (w_dst (w_set_rl w InDst rl)) = nsegs (w_dst w).
Proof. reflexivity. Qed.

(* the read limit of either message *)
Lemma tinv_set_rl_loc w l rl objs pads : tinv w objs pads -> tinv (w_set_rl w l rl) objs pads.
Proof. destruct l; [apply tinv_set_rl|exact (fun T => T)]. Qed.

Lemma set_rl_frame w l rl :
  (inv (w_dst w) -> inv (w_dst (w_set_rl w l rl))) /\ nsegs (w_dst (w_set_rl w l rl)) = nsegs (w_dst w) /\
  w_src (w_set_rl w l rl) = w_src w.
Proof. destruct l; (split; [exact (fun X => X)|split; reflexivity]). Qed.

Lemma tinv_ext w objs pads : tinv w objs pads -> exists eo ep, tinv w (objs ++ eo) (pads ++ ep).
Proof. intros T. exists [], []. now rewrite !app_nil_r. Qed.

(* a write of no bytes *)
Lemma hinv_wrote_nil m objs pads m' sid addr :
  hinv m objs pads -> 0 <= sid -> wrote m m' sid addr [] -> hinv m' objs pads.
Proof.
  intros H Hs W. pose proof (wrote_keeps _ _ _ _ _ W Hs) as K. change (zlen (@nil Z)) with 0 in K.
  assert (N : nsegs m' = nsegs m) by (unfold nsegs; apply (wrote_nsegs _ _ _ _ _ W)).
  apply (hinv_frame m objs pads m' (fun i k => i = sid /\ addr <= k < addr + 0)); auto.
  - apply (wrote_inv _ _ _ _ _ W Hs (hi_inv _ _ _ H)).
  - exact (wrote_small _ _ _ _ _ W (hi_small _ _ _ H)).
  - lia.
  - rewrite N. apply (hi_nsegs _ _ _ H).
  - intros q _ k _ [_ X]. lia.
  - intros r _ k _ [_ X]. lia.
  - intros h _ _ _ k _ [_ X]. lia.
Qed.

Lemma fold_mono (I : world -> Prop) l (f : world -> Z -> res world) :
  (forall wa j wb, In j l -> I wa -> f wa j = Ok wb -> I wb /\ nsegs (w_dst wa) <= nsegs (w_dst wb)) ->
  forall wa w2, I wa -> fold_res l wa f = Ok w2 -> I w2 /\ nsegs (w_dst wa) <= nsegs (w_dst w2).
Proof.
  induction l as [|j r IH]; intros Hf wa w2 Ha H; cbn [fold_res] in H.
  - apply Ok_inj in H. subst. split; [exact Ha|lia].
  - destruct (f wa j) as [wb| |] eqn:E; cbn [bind] in H; try discriminate.
    destruct (Hf wa j wb (or_introl eq_refl) Ha E) as [Ib Nb].
    destruct (IH (fun wa j wb Hj => Hf wa j wb (or_intror Hj)) wb w2 Ib H) as [I2 N2]. split; [exact I2|lia].
Qed.

(* the frame that the parts of a copy carry along: the message under construction stays a message
   with a segment [s], the other message stays [sm] *)
Definition cframe (sm : segs) (s : Z) (wa : world) : Prop :=
  inv (w_dst wa) /\ 0 <= s < nsegs (w_dst wa) /\ w_src wa = sm.

Lemma cframe_G sm s wa wb R :
  cframe sm s wa -> G (w_dst wa) (w_src wa) wb R -> cframe sm s wb /\ nsegs (w_dst wa) <= nsegs (w_dst wb).
Proof. intros (_ & Ra & Sa) (_ & Ib & Nb & Sb). split; [split; [exact Ib|split; [lia|congruence]]|exact Nb]. Qed.

Lemma cframe_wrote sm s wa m' sid a b :
  cframe sm s wa -> 0 <= sid -> wrote (w_dst wa) m' sid a b ->
  cframe sm s (w_set_dst wa m') /\ nsegs (w_dst wa) <= nsegs (w_dst (w_set_dst wa m')).
Proof.
  intros (Ia & Ra & Sa) Hs W. unfold cframe. cbn [w_dst w_set_dst w_src].
  assert (N : nsegs m' = nsegs (w_dst wa)) by (unfold nsegs; apply (wrote_nsegs _ _ _ _ _ W)).
  split; [split; [exact (wrote_inv _ _ _ _ _ W Hs Ia)|split; [lia|exact Sa]]|lia].
Qed.

Lemma cframe_write_ptr sm s f wa l rl o q wb :
  cframe sm s wa -> sz_ok q -> write_ptr_gen true f true (w_set_rl wa l rl) s o l q true = Ok wb ->
  cframe sm s wb /\ nsegs (w_dst wa) <= nsegs (w_dst wb).
Proof.
  intros Fa Hq E. destruct (set_rl_frame wa l rl) as (Ia' & Na' & Sa').
  assert (Fa' : cframe sm s (w_set_rl wa l rl)).
  { destruct Fa as (Ia & Ra & Sa). split; [exact (Ia' Ia)|]. rewrite Na', Sa'. auto. }
  rewrite <- Na'. apply (cframe_G _ _ _ _ (Rword s o) Fa').
  exact (proj1 (frame_all true f) true _ s o l q true wb (proj1 Fa') (proj1 (proj2 Fa')) Hq ltac:(discriminate) E).
Qed.

Lemma cframe_copy_struct sm s f wa de l se wb :
  cframe sm s wa -> p_seg de = s -> wf_size (p_size de) -> 0 <= p_off de <= 4294967295 -> sz_ok se ->
  copy_struct_gen true f true wa de l se = Ok wb -> cframe sm s wb /\ nsegs (w_dst wa) <= nsegs (w_dst wb).
Proof.
  intros Fa <- Wd Od Sse E. apply (cframe_G _ _ _ _ (Rfrom de) Fa).
  exact (proj2 (frame_all true f) true wa de l se wb (proj1 Fa) (proj1 (proj2 Fa)) Wd Od Sse E).
Qed.

(* a part of a copy, from [wa] to [wb]: the frame holds again, the number of segments has not gone
   down, and if it ends below the bound, the tables - [objs0], [pads0] and whatever the parts before
   have added - are extended.  The bound is known for the final state of the whole copy only and
   travels backwards through the monotone frame; that is why the frame cannot be left to the table
   invariant. *)
Definition threads (sm : segs) (s : Z) objs0 pads0 (wa wb : world) : Prop :=
  (cframe sm s wb /\ nsegs (w_dst wa) <= nsegs (w_dst wb)) /\
  forall eo ep, tinv wa (objs0 ++ eo) (pads0 ++ ep) -> nsegs (w_dst wb) < B32 ->
    exists eo' ep', tinv wb (objs0 ++ eo ++ eo') (pads0 ++ ep ++ ep').

Lemma threads_trans sm s objs0 pads0 wa wb wc :
  threads sm s objs0 pads0 wa wb -> threads sm s objs0 pads0 wb wc -> threads sm s objs0 pads0 wa wc.
Proof.
  intros [[_ N1] T1] [[F2 N2] T2]. split; [split; [exact F2|lia]|]. intros eo ep T Hb.
  destruct (T1 eo ep T ltac:(lia)) as (eo1 & ep1 & Tb). destruct (T2 _ _ Tb Hb) as (eo2 & ep2 & Tc).
  exists (eo1 ++ eo2), (ep1 ++ ep2). rewrite <- !app_assoc in Tc. exact Tc.
Qed.

Lemma fold_threads sm s objs0 pads0 l (f : world -> Z -> res world) :
  (forall wa j wb, In j l -> cframe sm s wa -> f wa j = Ok wb -> threads sm s objs0 pads0 wa wb) ->
  forall wa w2, cframe sm s wa -> fold_res l wa f = Ok w2 -> threads sm s objs0 pads0 wa w2.
Proof.
  induction l as [|j r IH]; intros Hf wa w2 Fa H; cbn [fold_res] in H.
  - apply Ok_inj in H. subst. split; [split; [exact Fa|lia]|]. intros eo ep T _. exists [], []. now rewrite !app_nil_r.
  - destruct (f wa j) as [wb| |] eqn:E; cbn [bind] in H; try discriminate.
    pose proof (Hf wa j wb (or_introl eq_refl) Fa E) as Tb. apply (threads_trans _ _ _ _ _ wb _ Tb).
    exact (IH (fun wa j wb Hj => Hf wa j wb (or_intror Hj)) wb w2 (proj1 (proj1 Tb)) H).
Qed.

Lemma threads_run sm s objs pads wa wb :
  threads sm s objs pads wa wb -> tinv wa objs pads -> nsegs (w_dst wb) < B32 ->
  exists eo ep, tinv wb (objs ++ eo) (pads ++ ep).
Proof. intros [_ T] Ta Hb. apply (T [] []); [now rewrite !app_nil_r|exact Hb]. Qed.

Lemma slice_len_le s base sz b : slice s base sz = Ok b -> 0 <= sz -> zlen b <= sz.
Proof.
  unfold slice. cbv zeta. unfold addSizeUnchecked, u32.
  destruct ((0 <=? base) && (base <=? (base + sz) mod 4294967296) && ((base + sz) mod 4294967296 <=? zlen s)) eqn:E; [|discriminate].
  intros H Hs. apply Ok_inj in H. subst b. unfold zlen. rewrite firstn_length. lia.
Qed.

Lemma slice_zero s base b : slice s base 0 = Ok b -> b = [].
Proof. intros H. apply slice_len_le in H; [|lia]. destruct b; [reflexivity|]. unfold zlen in H. cbn [length] in H. lia. Qed.

Lemma slots_app q objs eo : In q ((0, 0) :: flat_map slots objs) -> In q ((0, 0) :: flat_map slots (objs ++ eo)).
Proof. intros [<-|H]; [left; reflexivity|right]. rewrite flat_map_app. apply in_or_app. left. exact H. Qed.

Lemma view_app objs eo p : view objs p -> view (objs ++ eo) p.
Proof. apply view_incl. intros x Hx. apply in_or_app. left. exact Hx. Qed.

Lemma cores_app objs eo : cores objs -> cores eo -> cores (objs ++ eo).
Proof. intros A B h Hh. apply in_app_or in Hh. destruct Hh; auto. Qed.

(* the shapes of table objects have legal sizes, and so have the struct views *)
Lemma shape_wf h : shape_ok h -> wf_size (p_size h).
Proof.
  unfold shape_ok, wf_size, os_wf. destruct (p_kind h); [intros ((Hd & _ & Hp) & _); lia| |intros []].
  intros (_ & [(_ & [[_ Hs]|[_ [Hs|(d & Hs & Hd)]]])|(_ & _ & (Hd & _ & Hp) & _)]);
    try (rewrite Hs; cbn [DataSize PointerCount]); lia.
Qed.

Lemma struct_wf m objs pads p :
  hinv m objs pads -> view objs p -> p_valid p = true -> p_kind p = KStruct -> wf_size (p_size p).
Proof.
  intros H V Hv Ek.
  destruct V as [V|[[M V]|[(h & i & Hh & MA)|[(_ & V & _)|(V & _)]]]]; try congruence.
  - destruct (hi_good _ _ _ H _ V) as [_ (Sh & _)]. exact (shape_wf _ Sh).
  - destruct MA as (_ & _ & _ & _ & _ & _ & Esz & _). rewrite Esz.
    destruct (hi_good _ _ _ H _ Hh) as [_ (Sh & _)]. exact (shape_wf _ Sh).
  - rewrite V. exact wf_size_00.
Qed.

(* where the pointer slots of a struct view are *)
Lemma struct_view_slots m objs pads p :
  hinv m objs pads -> view objs p -> p_valid p = true -> p_kind p = KStruct ->
  0 <= PointerCount (p_size p) /\
  forall j, 0 <= j < PointerCount (p_size p) ->
    0 <= p_seg p < nsegs m /\ In (p_seg p, pointerAddress p j) ((0, 0) :: flat_map slots objs).
Proof.
  intros H V Hv Ek.
  destruct (struct_view_geom _ _ _ p H V Hv Ek) as [[E0 _]|(ho & Hin & Eseg & D0 & P0 & Olo & Ohi & _ & Hsl)].
  - rewrite E0. cbn [PointerCount]. split; [lia|]. intros j Hj. lia.
  - split; [exact P0|]. intros j Hj.
    destruct (obj_bounds _ _ _ _ H Hin) as (B1 & B2 & B3 & B4 & B5). rewrite Eseg in *.
    split; [exact B1|]. right. apply in_flat_map. exists ho. split; [exact Hin|].
    rewrite pointerAddress_eq by (unfold maxSegmentSize; lia). apply Hsl. exact Hj.
Qed.

Lemma flat_map_nil {A B} (l : list A) : flat_map (fun _ : A => @nil B) l = [].
Proof. induction l; auto. Qed.

(* sizes of a list of the right shape *)
Lemma list_shape_facts p : p_valid p = true -> p_kind p = KList -> shape_ok p ->
  0 <= list_allocSize p <= 4294967288 /\
  (p_comp p = true -> list_allocSize p = 8 + 8 * (p_len p * wc_of p) /\ 0 <= p_len p * wc_of p).
Proof.
  intros V Ek Sh0. pose proof Sh0 as Sh. unfold shape_ok in Sh. rewrite Ek in Sh.
  assert (OBE : obj_bytes p = list_allocSize p) by (unfold obj_bytes; now rewrite Ek).
  destruct Sh as (Hn & [(Hc & Hk)|(Hc & Hb & Hw & Ht)]).
  - assert (OB := list_alloc_eq p V Sh0 Ek Hc). rewrite OBE in OB. split; [|congruence].
    destruct Hk as [[Hb Hsz]|[Hb Hsz]]; rewrite Hb in OB.
    + rewrite OB. unfold bitListSize, u32. lia.
    + destruct Hsz as [Hsz|(d & Hsz & Hd)]; rewrite Hsz in OB; cbn [DataSize PointerCount] in OB; rewrite OB; nia.
  - destruct (comp_list_size p V Hc Hb Hw (proj1 Hn) Ht) as (_ & K0 & _).
    rewrite (list_alloc_comp p) by (auto; lia). split; [lia|]. intros _. split; [reflexivity|exact K0].
Qed.

(* sizes of a table list *)
Lemma list_obj_facts m objs pads h :
  hinv m objs pads -> In h objs -> p_kind h = KList ->
  0 <= obj_bytes h <= 4294967288 /\ wf_size (p_size h) /\
  (p_comp h = true -> obj_bytes h = 8 + 8 * (p_len h * wc_of h) /\ 0 <= p_len h * wc_of h /\ 8 <= p_off h) /\
  (p_bit h = true \/ PointerCount (p_size h) = 0 -> slots h = []).
Proof.
  intros H Hh Ek. destruct (hi_good _ _ _ H h Hh) as [V G]. pose proof G as (Sh & _ & Gi & _).
  destruct (in_seg_elim _ _ _ _ Gi) as (_ & G2 & _).
  destruct (list_shape_facts h V Ek Sh) as (Sz & Fc).
  replace (obj_bytes h) with (list_allocSize h) by (unfold obj_bytes; now rewrite Ek).
  split; [exact Sz|]. split; [exact (shape_wf _ Sh)|].
  unfold shape_ok in Sh. rewrite Ek in Sh. destruct Sh as (_ & [(Hc & Hk)|(Hc & Hb & _)]).
  - split; [congruence|]. destruct Hk as [[Hb Hsz]|[Hb [Hsz|(d & Hsz & Hd)]]].
    + intros _. unfold slots, tgt_of, et_of. rewrite Ek, Hc, Hb. reflexivity.
    + intros [X|X]; [congruence|rewrite Hsz in X; discriminate X].
    + intros _. unfold slots, tgt_of, et_of. rewrite Ek, Hc, Hb, Hsz. cbn [PointerCount DataSize children].
      change (0 =? 1) with false. cbv iota zeta.
      destruct Hd as [->|[->|[->|[->| ->]]]]; reflexivity.
  - split.
    + intros _. destruct (Fc Hc) as [E K0]. split; [exact E|]. split; [exact K0|]. unfold obj_start in G2. rewrite Hc in G2. lia.
    + intros [X|X]; [congruence|]. unfold slots, tgt_of. rewrite Ek, Hc, X. cbn [children Z.to_nat zseq seq map].
      apply flat_map_nil.
Qed.

(* List.Struct(i) of a table list is a view *)
Lemma list_struct_view objs p i e :
  In (core p) objs -> p_valid p = true -> p_kind p = KList -> list_struct true p i = Ok e ->
  view objs e /\ (p_valid e = true -> p_kind e = KStruct /\ p_seg e = p_seg p /\ p_size e = p_size p).
Proof.
  intros Hin Hv Ek ELS. unfold list_struct in ELS. rewrite Hv in ELS. cbn [negb orb] in ELS.
  destruct ((i <? 0) || (i >=? p_len p)) eqn:EI; [discriminate|].
  destruct (p_bit p) eqn:EB; [apply Ok_inj in ELS; subst e; split; [apply view_null|discriminate]|].
  destruct (element (p_off p) i (totalSize (p_size p))) as [a0|] eqn:EE; [|apply Ok_inj in ELS; subst e; split; [apply view_null|discriminate]].
  apply element_spec in EE. destruct EE as [Ead _]. apply Ok_inj in ELS. subst e. split.
  - right. right. left. exists (core p), i. split; [exact Hin|].
    unfold member_at. cbn [core p_kind p_bit p_len p_valid p_seg p_off p_size p_member]. repeat split; auto; lia.
  - intros _. cbn. auto.
Qed.

(* a tag word is the struct pointer word of its count and sizes *)
Lemma tag_word_eq hdr : word64 hdr -> pointerType hdr = structPointer -> 0 <= s32 (ptr_offset hdr) ->
  rawStructPointer (s32 (ptr_offset hdr)) (structSize hdr) = Some hdr.
Proof.
  intros Hw Ht Hn.
  assert (Wf : os_wf (structSize hdr)).
  { pose proof (structSize_wf hdr) as [W1 W2]. unfold os_wf. rewrite structSize_data in *. lia. }
  rewrite rawStructPointer_sum by exact Wf. f_equal.
  pose proof (ptr_offset_range hdr) as Ro. rewrite s32_id in * by lia.
  rewrite structSize_data. unfold structSize. cbn [PointerCount].
  unfold word64 in Hw. unfold pointerType, structPointer in Ht. cbv zeta in Ht.
  unfold ptr_offset, s32 in *. cbv zeta in *.
  destruct (hdr mod 4 =? 2) eqn:E2; destruct (hdr mod 4294967296 <? 2147483648) eqn:E3; lia.
Qed.

(* [readPtr_sview]: whatever readPtr returns for source bytes 0..255 is a source view *)
Theorem readPtr_sview (sm : segs) rl sid addr depth q rl' :
  msg_ok sm -> 0 <= sid < zlen sm ->
  readPtr true sm rl sid (nth (Z.to_nat sid) sm []) addr depth = (Ok q, rl') -> sview sm q.
Proof.
  intros Hm Hs HR Hvq.
  assert (Is : SafetyProofs.is_seg sm sid (nth (Z.to_nat sid) sm [])) by (split; [exact Hs|reflexivity]).
  destruct (resolveFarPointer true sm sid (nth (Z.to_nat sid) sm []) addr) as [[[[dsid dst] base] val]| |] eqn:ER.
  2,3: unfold readPtr in HR; rewrite ER in HR; discriminate HR.
  assert (FP : SafetyProofs.far_post sm (dsid, dst, base, val)).
  { assert (RB : exists w, readRawPointer (nth (Z.to_nat sid) sm []) addr = Ok w).
    { unfold resolveFarPointer in ER. destruct (readRawPointer (nth (Z.to_nat sid) sm []) addr) as [w| |]; cbn [bind] in ER; try discriminate. eauto. }
    destruct RB as [w0 RB]. destruct (readRawPointer_bounds _ _ _ RB) as (B0 & B1 & _).
    pose proof (SafetyProofs.resolveFarPointer_safe true sm sid _ addr Hm Is B0 B1) as X. rewrite ER in X. exact X. }
  destruct FP as ((Hd & Edst) & Hbase & Hval).
  destruct (val =? 0) eqn:Hv0.
  { unfold readPtr in HR. rewrite ER, Hv0 in HR. apply (f_equal fst) in HR. cbn [fst] in HR. apply Ok_inj in HR. subst q. discriminate Hvq. }
  destruct (readPtr_inv _ _ _ _ _ _ _ _ _ _ _ _ _ ER Hv0 HR) as [(_ & sp & ES & ->)|[(_ & lp & EL & ->)|(_ & _ & ->)]].
  - (* struct *)
    destruct (readStructPtr_inv _ _ _ _ _ ES) as (a & _ & ->). cbn [p_size p_seg p_kind].
    split; [apply structSize_wf|]. split; [exact Hd|exact I].
  - (* list *)
    destruct (readListPtr_inv _ _ _ _ _ _ EL) as (a & EA & D). apply element_spec in EA. destruct EA as [Ea Ra].
    pose proof (numListElements_range val Hval) as Rn.
    destruct D as [(_ & hdr & ERd & Pt & Ha8 & Hn0 & (ts & ET & ERB) & ->)|[(_ & ->)|(_ & _ & es & Ees & ->)]];
      cbn [p_size p_seg p_kind p_off p_len p_comp p_bit].
    + (* composite *)
      specialize (Hn0 eq_refl).
      destruct (readRawPointer_bounds _ _ _ ERd) as (B0 & B1 & _).
      assert (Hok : seg_ok dst) by (rewrite Edst; apply msg_ok_nth; exact Hm).
      destruct (readRawPointer_ok dst a Hok B0 B1) as (h' & Eh' & Wh). rewrite ERd in Eh'. apply Ok_inj in Eh'. subst h'.
      assert (Wf : os_wf (structSize hdr)).
      { pose proof (structSize_wf hdr) as [W1 W2]. unfold os_wf. rewrite structSize_data in *. lia. }
      pose proof (ptr_offset_range hdr) as Ro. set (n := s32 (ptr_offset hdr)) in *.
      assert (Rn' : 0 <= n < 536870912) by (unfold n in *; rewrite s32_id in * by lia; lia).
      apply times_spec in ET. destruct ET as [-> Rt]. rewrite (totalSize_wf _ Wf) in *.
      apply regionInBounds_spec in ERB. unfold maxSegmentSize in *.
      split; [apply structSize_wf|]. split; [exact Hd|]. split.
      * unfold shape_ok. cbn [p_kind p_len p_comp p_bit p_size]. split; [exact Rn'|]. right.
        split; [reflexivity|]. split; [reflexivity|]. split; [exact Wf|]. unfold wc_of. cbn [p_size]. lia.
      * intros _. exists hdr. split; [apply tag_word_eq; auto|].
        replace (a + 8 - 8) with a by lia. rewrite Edst in ERd. apply word_at_of_read; auto. lia.
    + (* bit list *)
      split; [unfold wf_size; cbn; lia|]. split; [exact Hd|]. split; [|discriminate].
      unfold shape_ok. cbn [p_kind p_len p_comp p_bit p_size]. split; [exact Rn|]. left. split; [reflexivity|]. left. auto.
    + (* primitive and pointer lists *)
      pose proof (elementSize_cases val es Ees) as Hes.
      split; [destruct Hes as [->|[->|[->|[->|[->| ->]]]]]; unfold wf_size; cbn; lia|]. split; [exact Hd|]. split; [|discriminate].
      unfold shape_ok. cbn [p_kind p_len p_comp p_bit p_size]. split; [exact Rn|]. left. split; [reflexivity|]. right. split; [reflexivity|].
      destruct Hes as [->|[->|[->|[->|[->| ->]]]]]; [right; exists 0|right; exists 1|right; exists 2|right; exists 4|right; exists 8|left; reflexivity];
        (split; [reflexivity|lia]).
  - (* capability *)
    cbn [p_size p_seg p_kind p_len]. split; [unfold wf_size; cbn; lia|]. split; [exact Hd|].
    unfold capabilityIndex. apply u32_range.
Qed.

(* List.Struct(i) of a source list *)
Lemma list_struct_sview sm p i e : sview sm p -> p_kind p = KList -> list_struct true p i = Ok e ->
  sview sm e /\ (p_valid e = true -> p_kind e = KStruct).
Proof.
  intros V Ek ELS. unfold list_struct in ELS.
  destruct (negb (p_valid p) || (i <? 0) || (i >=? p_len p)) eqn:EI; [discriminate|].
  assert (Hv : p_valid p = true) by (destruct (p_valid p); auto; discriminate).
  destruct (V Hv) as (Wf & Sg & _).
  destruct (p_bit p); [apply Ok_inj in ELS; subst e; split; [apply sview_null|discriminate]|].
  destruct (element (p_off p) i (totalSize (p_size p))) as [a0|]; apply Ok_inj in ELS; subst e; [|split; [apply sview_null|discriminate]].
  split; [|intros _; reflexivity]. intros _. cbn [p_size p_seg p_kind]. auto.
Qed.

(* a handle at [l]: a view of the table, or a source view of the other message [sm], which then
   has to be a message the reader accepts *)
Definition srcv (sm : segs) (objs : list Ptr) (l : loc) (p : Ptr) : Prop :=
  match l with InDst => view objs p | InSrc => sview sm p end.
Definition srcok (sm : segs) (l : loc) : Prop := match l with InDst => True | InSrc => msg_ok sm end.

Lemma srcv_app sm objs eo l p : srcv sm objs l p -> srcv sm (objs ++ eo) l p.
Proof. destruct l; [apply view_app|exact (fun V => V)]. Qed.

Lemma srcv_struct_wf l sm m objs pads p :
  hinv m objs pads -> srcv sm objs l p -> p_valid p = true -> p_kind p = KStruct -> wf_size (p_size p).
Proof.
  destruct l; cbn [srcv]; intros H V Hv Ek; [exact (struct_wf _ _ _ _ H V Hv Ek)|exact (proj1 (V Hv))].
Qed.

(* what copyStruct reads from pointer slot [j] of its source is a handle of the same place *)
Lemma srcv_read l w objs pads src j q rl' :
  tinv w objs pads -> srcok (w_src w) l -> srcv (w_src w) objs l src -> p_valid src = true -> p_kind src = KStruct ->
  0 <= j < PointerCount (p_size src) ->
  readPtr true (w_segs w l) (w_rl w l) (p_seg src) (nth (Z.to_nat (p_seg src)) (w_segs w l) []) (pointerAddress src j) (p_depth src)
    = (Ok q, rl') ->
  srcv (w_src w) objs l q.
Proof.
  destruct l; cbn [srcv srcok w_segs w_rl]; intros [H C] Hok V Hv Ek Hj ER.
  - destruct (struct_view_slots _ _ _ src H V Hv Ek) as [_ Sl]. destruct (Sl j Hj) as [Sg Sin].
    apply (view_of_read (w_dst w) objs pads (p_seg src, pointerAddress src j) (p_depth src)); auto; [cbn [fst]; lia|].
    apply (read_slot true (w_dst w) objs pads (p_seg src, pointerAddress src j) (bm_rl (w_dst w)) (p_depth src) q rl'); auto.
  - destruct (V Hv) as (_ & Sg & _). exact (readPtr_sview _ _ _ _ _ _ _ Hok Sg ER).
Qed.

Lemma view_list objs p : view objs p -> p_valid p = true -> p_kind p = KList -> p_member p = false /\ In (core p) objs.
Proof.
  intros [V|[V|[(h & i & _ & MA)|[(Ek' & _)|(Ek' & _)]]]] Hv Ek; [congruence|exact V| |congruence|congruence].
  destruct MA as (_ & _ & _ & _ & _ & _ & _ & Ek' & _). congruence.
Qed.

(* a list handle: its shape, and the tag word in front of a composite list *)
Lemma srcv_list l w objs pads p :
  tinv w objs pads -> srcv (w_src w) objs l p -> p_valid p = true -> p_kind p = KList ->
  shape_ok p /\
  (p_comp p = true -> exists tag, rawStructPointer (p_len p) (p_size p) = Some tag /\
                                  word_at (w_segs w l) (p_seg p) (p_off p - 8) = Some tag).
Proof.
  destruct l; cbn [srcv w_segs]; intros [H _] V Hv Ek.
  - destruct (view_list _ _ V Hv Ek) as [_ Hin].
    destruct (hi_good _ _ _ H _ Hin) as [_ (Sh & _)]. destruct (core_facts p) as (_ & _ & _ & _ & _ & _ & C7).
    split; [exact (proj1 C7 Sh)|exact (hi_tags _ _ _ H _ Hin Ek)].
  - destruct (V Hv) as (_ & _ & X). rewrite Ek in X. exact X.
Qed.

(* List.Struct(i) of a list handle *)
Lemma srcv_list_struct l sm objs p i e :
  srcv sm objs l p -> p_valid p = true -> p_kind p = KList -> list_struct true p i = Ok e ->
  srcv sm objs l e /\ (p_valid e = true -> p_kind e = KStruct).
Proof.
  destruct l; cbn [srcv]; intros V Hv Ek ELS.
  - destruct (list_struct_view objs p i e (proj2 (view_list _ _ V Hv Ek)) Hv Ek ELS) as [Ve Ke].
    split; [exact Ve|exact (fun X => proj1 (Ke X))].
  - exact (list_struct_sview sm p i e V Ek ELS).
Qed.

(* a word of the source is still read there when the message under construction has grown *)
Lemma src_word_read l w objs pads m1 sid a v :
  tinv w objs pads -> srcok (w_src w) l -> word_at (w_segs w l) sid a = Some v ->
  keeps (w_dst w) m1 Rnone -> nsegs (w_dst w) <= nsegs m1 ->
  u32 a = a /\ readRawPointer (nth (Z.to_nat sid) (w_segs (w_set_dst w m1) l) []) a = Ok v.
Proof.
  destruct l; cbn [srcok w_segs w_src w_dst w_set_dst]; intros [H _] Hok W K N;
    destruct (word_at_range _ _ _ _ W) as (G1 & G2 & G3).
  - rewrite zlen_bm in G1. rewrite seg_len_bm in G3.
    pose proof (hi_small _ _ _ H sid) as Sm. unfold maxSegmentSize in Sm.
    split; [apply u32_id; lia|]. apply read_of_word_at; [|lia]. rewrite <- W.
    apply (keeps_word (w_dst w) m1 Rnone); auto.
  - pose proof (msg_ok_nth (w_src w) (Z.to_nat sid) Hok) as [Sm _]. unfold seg_len in G3. unfold maxSegmentSize in Sm.
    split; [apply u32_id; lia|]. apply read_of_word_at; [exact W|lia].
Qed.

Definition Q_wp (f : nat) : Prop := forall w objs pads q src fc w',
  tinv w objs pads -> In q ((0, 0) :: flat_map slots objs) -> view objs src ->
  write_ptr f true w (fst q) (snd q) InDst src fc = Ok w' -> nsegs (w_dst w') < B32 ->
  exists eo ep, tinv w' (objs ++ eo) (pads ++ ep).

Definition Q_cs (f : nat) : Prop := forall w objs pads dst src w',
  tinv w objs pads -> view objs dst -> (p_valid dst = true -> p_kind dst = KStruct) ->
  view objs src -> (p_valid src = true -> p_kind src = KStruct) ->
  copy_struct f true w dst InDst src = Ok w' -> nsegs (w_dst w') < B32 ->
  exists eo ep, tinv w' (objs ++ eo) (pads ++ ep).

(* the same for a source at [l] *)
Definition C_wp (l : loc) (f : nat) : Prop := forall w objs pads q src fc w',
  tinv w objs pads -> srcok (w_src w) l -> In q ((0, 0) :: flat_map slots objs) -> srcv (w_src w) objs l src ->
  write_ptr f true w (fst q) (snd q) l src fc = Ok w' -> nsegs (w_dst w') < B32 ->
  exists eo ep, tinv w' (objs ++ eo) (pads ++ ep).

Definition C_cs (l : loc) (f : nat) : Prop := forall w objs pads dst src w',
  tinv w objs pads -> srcok (w_src w) l -> view objs dst -> (p_valid dst = true -> p_kind dst = KStruct) ->
  srcv (w_src w) objs l src -> (p_valid src = true -> p_kind src = KStruct) ->
  copy_struct f true w dst l src = Ok w' -> nsegs (w_dst w') < B32 ->
  exists eo ep, tinv w' (objs ++ eo) (pads ++ ep).

(* a copyStruct of the level below is a part of a copy *)
Lemma cs_threads l f sm s objs pads wa de se wb :
  C_cs l f -> cframe sm s wa -> srcok sm l -> p_seg de = s -> wf_size (p_size de) -> 0 <= p_off de <= 4294967295 -> sz_ok se ->
  view objs de -> (p_valid de = true -> p_kind de = KStruct) ->
  srcv sm objs l se -> (p_valid se = true -> p_kind se = KStruct) ->
  copy_struct_gen true f true wa de l se = Ok wb -> threads sm s objs pads wa wb.
Proof.
  intros QC Fa Hok Es Wd Od Sse Vd Kd Vs Ks E. split; [exact (cframe_copy_struct _ _ _ _ _ _ _ _ Fa Es Wd Od Sse E)|].
  intros eo ep Ta Hbb. destruct Fa as (_ & _ & Sa). rewrite <- Sa in Hok, Vs.
  destruct (QC wa (objs ++ eo) (pads ++ ep) de se wb Ta Hok (view_app _ _ _ Vd) Kd (srcv_app _ _ _ _ _ Vs) Ks E Hbb) as (eo' & ep' & T').
  exists eo', ep'. rewrite <- !app_assoc in T'. exact T'.
Qed.

Lemma cs_step l f : C_wp l f -> C_cs l (S f).
Proof.
  intros QW w objs pads dst src w' [H C] Hok Vd Kd Vs Ks HW Hb.
  unfold copy_struct in HW. cbn [copy_struct_gen] in HW.
  destruct (p_valid dst) eqn:Hvd; cbn [negb] in HW; [|discriminate].
  destruct (p_valid src) eqn:Hvs; cbn [negb] in HW.
  2:{ apply Ok_inj in HW. subst w'. apply tinv_ext. split; auto. }
  specialize (Kd eq_refl). specialize (Ks eq_refl).
  destruct (srcv_struct_wf l _ _ _ _ src H Vs Hvs Ks) as [_ [Ns _]].
  rewrite nth_bm_data in HW.
  set (sm := w_src w) in *.
  set (ns := PointerCount (p_size src)) in *. set (nd := PointerCount (p_size dst)) in *.
  destruct (slice (nth (Z.to_nat (p_seg src)) (w_segs w l) []) (p_off src) (DataSize (p_size src))) as [sd| |] eqn:ESl; cbn [bind] in HW; try discriminate.
  destruct (struct_view_geom _ _ _ dst H Vd Hvd Kd) as [[E0d Sgd]|(hd & Hind & Esegd & D0d & P0d & Olod & Ohid & Hsepd & Hsld)].
  - (* the empty struct as destination: nothing is written *)
    assert (End : nd = 0) by (unfold nd; rewrite E0d; reflexivity).
    rewrite E0d in HW. cbn [DataSize] in HW.
    destruct (slice (mem (w_dst w) (p_seg dst)) (p_off dst) 0) as [dd| |] eqn:ESd; cbn [bind] in HW; try discriminate.
    apply slice_zero in ESd. subst dd. cbn [length] in HW. rewrite Nat.min_0_r in HW. cbn [firstn Nat.sub repeat app] in HW.
    unfold lift0 in HW.
    destruct (seg_write (w_dst w) (p_seg dst) (p_off dst) []) as [m1| |] eqn:EW; cbn [bind] in HW; try discriminate.
    apply seg_write_wrote in EW; [|lia|cbn; lia].
    rewrite End in HW. replace (Z.min ns 0) with 0 in HW by lia. change (Z.to_nat 0) with O in HW.
    change (iota 0) with (@nil Z) in HW. cbn [fold_res bind] in HW.
    replace (Z.to_nat (0 - ns)) with O in HW by lia. change (iota 0) with (@nil Z) in HW. cbn [map fold_res] in HW.
    apply Ok_inj in HW. subst w'. apply tinv_ext. split; [|exact C]. cbn [w_dst w_set_dst].
    apply (hinv_wrote_nil (w_dst w) objs pads m1 (p_seg dst) (p_off dst)); auto.
  - (* a destination with geometry *)
    destruct (obj_bounds _ _ _ _ H Hind) as (B1 & B2 & B3 & B4 & B5). rewrite Esegd in *.
    set (DSd := DataSize (p_size dst)) in *.
    assert (DstSl : forall j, 0 <= j < nd -> forall eo, In (p_seg dst, pointerAddress dst j) ((0, 0) :: flat_map slots (objs ++ eo))).
    { intros j Hj eo. apply slots_app. right. apply in_flat_map. exists hd. split; [exact Hind|].
      rewrite pointerAddress_eq by (unfold maxSegmentSize; fold DSd; lia). apply Hsld. exact Hj. }
    rewrite (slice_ok (mem (w_dst w) (p_seg dst)) (p_off dst) DSd) in HW by lia. cbn [bind] in HW.
    set (dd := sub (mem (w_dst w) (p_seg dst)) (p_off dst) DSd) in *.
    assert (Ldd : length dd = Z.to_nat DSd).
    { pose proof (sub_length (mem (w_dst w) (p_seg dst)) (p_off dst) DSd ltac:(lia) ltac:(lia) ltac:(lia)) as X. unfold zlen in X. fold dd in X. lia. }
    set (bs := firstn (Nat.min (length sd) (length dd)) sd ++ repeat 0 (length dd - Nat.min (length sd) (length dd))) in *.
    assert (Lb : zlen bs = DSd).
    { unfold bs, zlen. rewrite app_length, firstn_length, repeat_length. lia. }
    unfold lift0 in HW.
    destruct (seg_write (w_dst w) (p_seg dst) (p_off dst) bs) as [m1| |] eqn:EW; cbn [bind] in HW; try discriminate.
    apply seg_write_wrote in EW; [|lia|lia].
    assert (H1 : hinv m1 objs pads).
    { apply (hinv_data_write (w_dst w) objs pads m1 hd (p_off dst) bs); auto; try lia.
      - rewrite Esegd. exact EW.
      - intros x Hx. apply (Hsepd x (p_off dst) (p_off dst + zlen bs)); auto; lia. }
    set (w1 := w_set_dst w m1) in *.
    set (step1 := fun (wa : world) (j : Z) =>
           let '(r, rl') := readPtr true (w_segs wa l) (w_rl wa l) (p_seg src)
                                    (nth (Z.to_nat (p_seg src)) (w_segs wa l) []) (pointerAddress src j) (p_depth src) in
           do q <- r; write_ptr_gen true f true (w_set_rl wa l rl') (p_seg dst) (pointerAddress dst j) l q true) in *.
    set (step2 := fun (wa : world) (j : Z) => lift0 wa (writeRawPointer (w_dst wa) (p_seg dst) (pointerAddress dst j) 0)) in *.
    set (l1 := iota (Z.to_nat (Z.min ns nd))) in *. set (l2 := map (fun k => ns + k) (iota (Z.to_nat (nd - ns)))) in *.
    destruct (fold_res l1 w1 step1) as [w2| |] eqn:EL1; cbn [bind] in HW; try discriminate.
    destruct (cframe_wrote sm (p_seg dst) w m1 _ _ _ (conj (hi_inv _ _ _ H) (conj B1 eq_refl)) (proj1 B1) EW) as [F1 _].
    (* the pointers are copied one by one *)
    assert (T1 : threads sm (p_seg dst) objs pads w1 w2).
    { apply (fold_threads _ _ _ _ l1 step1); [|exact F1|exact EL1].
      intros wa j wb Hj Fa E. unfold step1 in E. apply in_iota in Hj.
      destruct (readPtr _ _ _ _ _ _ _) as [r rl'] eqn:ER. destruct r as [qq| |]; cbn [bind] in E; try discriminate.
      split; [exact (cframe_write_ptr _ _ _ _ _ _ _ _ _ Fa (readPtr_size_wf _ _ _ _ _ _ _ _ _ ER) E)|].
      intros eo ep Ta Hbb. destruct Fa as (_ & _ & Sa). destruct (set_rl_frame wa l rl') as (_ & _ & Sa').
      fold sm in Hok, Vs. rewrite <- Sa in Hok, Vs.
      pose proof (srcv_read l wa (objs ++ eo) (pads ++ ep) src j qq rl' Ta Hok (srcv_app _ _ _ _ _ Vs) Hvs Ks ltac:(lia) ER) as Vq.
      destruct (QW (w_set_rl wa l rl') (objs ++ eo) (pads ++ ep) (p_seg dst, pointerAddress dst j) qq true wb) as (eo' & ep' & T'); auto.
      - apply tinv_set_rl_loc. exact Ta.
      - rewrite Sa'. exact Hok.
      - apply DstSl. lia.
      - rewrite Sa'. exact Vq.
      - exists eo', ep'. rewrite <- !app_assoc in T'. exact T'. }
    (* the tail of the destination's pointer section is set to null *)
    assert (T2 : threads sm (p_seg dst) objs pads w2 w').
    { apply (fold_threads _ _ _ _ l2 step2); [|exact (proj1 (proj1 T1))|exact HW].
      intros wa j wb Hj Fa E. unfold step2 in E. apply lift0_Ok in E. destruct E as (mb & EWb & ->).
      split; [exact (cframe_wrote _ _ _ _ _ _ _ Fa (proj1 B1) (writeRawPointer_wrote _ _ _ _ _ (proj1 B1) EWb))|].
      intros eo ep [Ha Ca] _. exists [], []. rewrite !app_nil_r. split; [|exact Ca]. cbn [w_dst w_set_dst].
      unfold l2 in Hj. apply in_map_iff in Hj. destruct Hj as (k & <- & Hk). apply in_iota in Hk.
      apply (hinv_write_inline (w_dst wa) (objs ++ eo) (pads ++ ep) mb (p_seg dst, pointerAddress dst (ns + k)) 0); auto.
      apply DstSl. lia. }
    exact (threads_run _ _ _ _ _ _ (threads_trans _ _ _ _ _ _ _ T1 T2) (conj H1 C) Hb).
Qed.

(* what a copying writePtr adds besides keeping the invariant: the first new table entry [h] is the
   copy - it starts at the old end of its segment (position 0 of a segment that did not exist), and
   the pointer slot written resolves to exactly [h] afterwards *)
Definition fresh_target (w w' : world) (q : Z * Z) (h : Ptr) : Prop :=
  obj_start h = zlen (mem (w_dst w) (p_seg h)) /\
  exists pads', resolve_ptr (bm_data (w_dst w')) (fst q) (snd q) = (tgt_of h, pads' ++ [obj_reg h]).

(* how every copying writePtr ends: the copy [cd] was allocated at the old end of its segment (state
   [w1]), filled in (state [w3]), and the pointer to it is placed *)
Lemma copy_placed sm w objs pads q cd w1 w3 raw w' :
  In q ((0, 0) :: flat_map slots objs) -> 0 <= fst q < nsegs (w_dst w1) ->
  (nsegs (w_dst w1) < B32 -> tinv w1 (objs ++ [cd]) pads) ->
  threads sm (p_seg cd) (objs ++ [cd]) pads w1 w3 ->
  (p_kind cd = KStruct -> os_isZero (p_size cd) = false) -> raw_of cd = Ok raw ->
  obj_start cd = zlen (mem (w_dst w) (p_seg cd)) ->
  place w3 (fst q) (snd q) (p_seg cd) (obj_start cd) raw = Ok w' -> nsegs (w_dst w') < B32 ->
  exists h eo ep, tinv w' (objs ++ h :: eo) (pads ++ ep) /\ fresh_target w w' q h.
Proof.
  intros Hq Q1 T1 T13 Hnz ER AD EP Hb. pose proof T13 as [[(I3 & R3 & _) N13] _]. unfold B32 in *.
  destruct (place_keeps w3 (fst q) (snd q) _ _ raw w' I3 ltac:(lia) R3 EP) as (_ & _ & N3 & _).
  destruct (threads_run _ _ _ _ _ _ T13 (T1 ltac:(lia)) ltac:(unfold B32; lia)) as (eo & ep & [H3 C3]).
  destruct (hinv_place_full (w_dst w3) ((objs ++ [cd]) ++ eo) (pads ++ ep) w3 q cd raw w' eq_refl H3) as (pads' & H' & Rs' & _);
    auto; try lia.
  - apply slots_app, slots_app. exact Hq.
  - apply in_or_app. left. apply in_or_app. right. left. reflexivity.
  - exists cd, eo, (ep ++ pads'). split; [|split; [exact AD|exists pads'; exact Rs']].
    change (cd :: eo) with ([cd] ++ eo). rewrite !app_assoc. split; [exact H'|exact C3].
Qed.

Lemma struct_copy l f : C_cs l f -> forall w objs pads q src fc w',
  tinv w objs pads -> srcok (w_src w) l -> In q ((0, 0) :: flat_map slots objs) -> srcv (w_src w) objs l src ->
  p_valid src = true -> p_kind src = KStruct -> os_isZero (p_size src) = false ->
  fc || is_src l || p_member src = true ->
  write_ptr (S f) true w (fst q) (snd q) l src fc = Ok w' -> nsegs (w_dst w') < B32 ->
  exists h eo ep, tinv w' (objs ++ h :: eo) (pads ++ ep) /\ fresh_target w w' q h.
Proof.
  intros QC w objs pads q src fc w' [H C] Hok Hq Vs Hv Ek EZ Hcp HW Hb.
  pose proof (srcv_struct_wf l _ _ _ _ src H Vs Hv Ek) as [Wd Wp].
  destruct (slot_geometry _ _ _ _ H Hq) as (Q1 & _).
  set (DS := DataSize (p_size src)) in *. set (pc := PointerCount (p_size src)) in *.
  unfold write_ptr in HW. cbn [write_ptr_gen] in HW. rewrite Hv, Ek, EZ, Hcp in HW. cbn [negb bind] in HW. fold DS pc in HW.
  set (csz := mkOS (padToWord DS) pc) in *.
  destruct (padToWord_facts DS) as (PW & PW8 & _); [unfold maxSegmentSize; lia|].
  assert (Wc : wf_size csz) by (unfold wf_size, csz; cbn [DataSize PointerCount]; lia).
  pose proof (ReaderFacts.totalSize_wf csz Wc) as TS. cbn [csz DataSize PointerCount] in TS.
  rewrite TS in HW.
  destruct (alloc (w_dst w) (fst q) (padToWord DS + 8 * pc)) as [[[m1 nsid] naddr]| |] eqn:EA; cbn [bind] in HW; try discriminate.
  set (dstp := mkPtr true nsid naddr 0 csz maxDepth KStruct false false false) in *.
  destruct (copy_struct_gen true f true (w_set_dst w m1) dstp l src) as [w2| |] eqn:EC; cbn [bind] in HW; try discriminate.
  unfold dstp in HW. cbn [p_size p_seg p_off] in HW. fold dstp in HW.
  destruct (of_opt_panic (rawStructPointer 0 csz)) as [raw| |] eqn:ER; cbn [bind] in HW; try discriminate.
  assert (Hz : 0 <= padToWord DS + 8 * pc) by lia.
  destruct (alloc_keeps _ _ _ _ _ _ (hi_inv _ _ _ H) Q1 Hz EA) as (_ & I1 & N1 & S1 & AD & L1 & _ & _ & _ & MX).
  unfold maxSegmentSize in MX. pose proof (zlen_nonneg (mem (w_dst w) nsid)) as Z0.
  pose proof (padToWord_nonneg (padToWord DS + 8 * pc)) as Z1.
  apply (copy_placed (w_src w) w objs pads q (core dstp) (w_set_dst w m1) w2 raw w'); auto.
  - cbn [w_dst w_set_dst]. lia.
  - (* the copy joins the table *)
    cbn [w_dst w_set_dst]. intros Hb1. split; [|apply cores_snoc; exact C].
    apply (hinv_alloc_obj (w_dst w) objs pads (fst q) (padToWord DS + 8 * pc) m1 nsid naddr (core dstp)); auto; try reflexivity.
    all: unfold shape_ok, obj_bytes, core, dstp, os_wf; cbn [p_kind p_size p_comp p_len p_bit]; try exact TS; try discriminate.
    unfold csz; cbn [DataSize PointerCount]; split; [lia|]; split; [reflexivity|]; split; reflexivity.
  - apply (cs_threads l f _ _ _ _ _ dstp src w2 QC); auto.
    + split; [exact I1|split; [exact S1|reflexivity]].
    + cbn [dstp p_off]. lia.
    + exact (fun _ => conj Wd Wp).
    + right. left. split; [reflexivity|]. apply in_or_app. right. left. reflexivity.
    + apply srcv_app. exact Vs.
  - unfold core, dstp; cbn [p_size]; intros _; unfold os_isZero, csz in *; cbn [DataSize PointerCount]; fold DS pc in EZ; lia.
Qed.

(* what follows the creation of the new list object [dl] (allocated at [naddr], its elements from
   [doff] on): the data bytes are copied, or the elements one by one, and the pointer is placed *)
Lemma list_copy_tail l f : C_cs l f -> forall w objs pads q src nsid naddr cb w2 doff sz' w3 w',
  srcok (w_src w) l -> In q ((0, 0) :: flat_map slots objs) -> 0 <= fst q < nsegs (w_dst w2) ->
  srcv (w_src w) objs l src -> p_valid src = true -> p_kind src = KList -> wf_size (p_size src) ->
  naddr = zlen (mem (w_dst w) nsid) -> cb = p_comp src ->
  let dl := mkPtr true nsid doff (p_len src) (p_size src) maxDepth KList cb (p_bit src) false in
  (nsegs (w_dst w2) < B32 -> tinv w2 (objs ++ [core dl]) pads) -> cframe (w_src w) nsid w2 ->
  0 <= sz' -> doff + sz' <= naddr + padToWord (list_allocSize src) ->
  obj_start dl = naddr -> naddr <= doff <= 4294967288 ->
  (if p_bit src || (PointerCount (p_size src) =? 0)
   then copy_bytes w2 l (p_seg src) (p_off src) nsid doff sz'
   else fold_res (iota (Z.to_nat (list_len src))) w2
          (fun wa i => do de <- list_struct true dl i; do se <- list_struct true src i;
                       copy_struct_gen true f true wa de l se)) = Ok w3 ->
  (do raw <- list_raw dl; place w3 (fst q) (snd q) nsid naddr raw) = Ok w' ->
  nsegs (w_dst w') < B32 ->
  exists h eo ep, tinv w' (objs ++ h :: eo) (pads ++ ep) /\ fresh_target w w' q h.
Proof.
  intros QC w objs pads q src nsid naddr cb w2 doff sz' w3 w' Hok Hq Q1 Vs Hv Ek Wf AD Ecb dl T2 F2 Hs0 Hrd Eos Hdo E3 EP Hb.
  subst cb. pose proof (zlen_nonneg (mem (w_dst w) nsid)) as Z0. pose proof F2 as (_ & [R2 _] & _).
  set (sm := w_src w) in *. set (sz := list_allocSize src) in *. set (cd := core dl) in *.
  destruct (list_raw dl) as [raw| |] eqn:ER; cbn [bind] in EP; try discriminate.
  assert (Hcd : In cd (objs ++ [cd])) by (apply in_or_app; right; left; reflexivity).
  assert (ROcd : r_size (obj_reg cd) = padToWord sz).
  { unfold obj_reg, obj_bytes, cd, core, dl. cbn [r_size p_kind]. unfold list_allocSize. cbn [p_valid p_bit p_size p_len p_comp negb].
    unfold sz, list_allocSize. rewrite Hv. reflexivity. }
  rewrite <- Eos in EP, AD.
  apply (copy_placed sm w objs pads q cd w2 w3 raw w'); auto; [|discriminate].
  destruct (p_bit src || (PointerCount (p_size src) =? 0)) eqn:EBP.
  - (* the data bytes are copied at once: such a list has no pointer slots *)
    unfold copy_bytes in E3. destruct (slice _ _ _) as [b| |] eqn:ES; cbn [bind] in E3; try discriminate.
    pose proof (slice_len_le _ _ _ _ ES Hs0) as Lb. pose proof (zlen_nonneg b) as Zb.
    apply lift0_Ok in E3. destruct E3 as (m3 & EW & ->). apply seg_write_wrote in EW; [|exact R2|apply (slice_len _ _ _ _ ES)].
    split; [exact (cframe_wrote _ _ _ _ _ _ _ F2 R2 EW)|].
    intros eo ep [H2 C2] _. exists [], []. rewrite !app_nil_r. split; [|exact C2]. cbn [w_dst w_set_dst].
    assert (Hcd' : In cd ((objs ++ [cd]) ++ eo)) by (apply in_or_app; left; exact Hcd).
    apply (hinv_data_write (w_dst w2) ((objs ++ [cd]) ++ eo) (pads ++ ep) m3 cd doff b); auto.
    + unfold cd, core, dl. cbn [p_off]. lia.
    + rewrite ROcd. change (obj_start cd) with (obj_start dl). lia.
    + intros x Hx. exfalso.
      assert (SN : slots cd = []).
      { destruct (list_obj_facts _ _ _ _ H2 Hcd' eq_refl) as (_ & _ & _ & X). apply X.
        unfold cd, core, dl. cbn [p_bit p_size]. destruct (p_bit src); [left; reflexivity|right]. cbn [orb] in EBP. lia. }
      rewrite SN in Hx. destruct Hx.
  - (* the elements are copied one by one *)
    refine (fold_threads _ _ _ _ _ _ _ w2 w3 F2 E3). intros wa i wb _ Fa E.
    destruct (list_struct true dl i) as [de| |] eqn:ED; cbn [bind] in E; try discriminate.
    destruct (list_struct true src i) as [se| |] eqn:ESe; cbn [bind] in E; try discriminate.
    destruct (p_valid de) eqn:Vde.
    2:{ destruct f; cbn [copy_struct_gen] in E; [discriminate|]. rewrite Vde in E. discriminate. }
    destruct (list_struct_facts _ _ _ ED Vde) as (D1 & D2 & D3 & _). cbn [dl p_seg p_size p_off] in D1, D2, D3.
    destruct (list_struct_view (objs ++ [cd]) dl i de Hcd eq_refl eq_refl ED) as [Vde' Kde].
    destruct (srcv_list_struct l sm objs src i se Vs Hv Ek ESe) as [Vse Kse].
    apply (cs_threads l f sm nsid (objs ++ [cd]) pads wa de se wb QC Fa Hok D1); auto.
    + rewrite D2. exact Wf.
    + lia.
    + intros Vse'. destruct (list_struct_facts _ _ _ ESe Vse') as (_ & X & _). rewrite X. exact Wf.
    + exact (fun X => proj1 (Kde X)).
    + apply srcv_app. exact Vse.
Qed.

Lemma list_copy l f : C_cs l f -> forall w objs pads q src fc w',
  tinv w objs pads -> srcok (w_src w) l -> In q ((0, 0) :: flat_map slots objs) -> srcv (w_src w) objs l src ->
  p_valid src = true -> p_kind src = KList -> fc || is_src l = true ->
  write_ptr (S f) true w (fst q) (snd q) l src fc = Ok w' -> nsegs (w_dst w') < B32 ->
  exists h eo ep, tinv w' (objs ++ h :: eo) (pads ++ ep) /\ fresh_target w w' q h.
Proof.
  intros QC w objs pads q src fc w' T Hok Hq Vs Hv Ek Hcp HW Hb. pose proof T as [H C]. unfold B32 in Hb.
  destruct (srcv_list l w objs pads src T Vs Hv Ek) as (Sh & Tg). pose proof (shape_wf _ Sh) as Wf.
  destruct (list_shape_facts src Hv Ek Sh) as (Sz & Fc). set (sz := list_allocSize src) in *.
  destruct (slot_geometry _ _ _ _ H Hq) as (Q1 & _).
  unfold write_ptr in HW. cbn [write_ptr_gen] in HW. rewrite Hv, Ek, Hcp in HW. cbn [negb bind] in HW. fold sz in HW.
  destruct (alloc (w_dst w) (fst q) sz) as [[[m1 nsid] naddr]| |] eqn:EA; cbn [bind] in HW; try discriminate.
  destruct (alloc_keeps _ _ _ _ _ _ (hi_inv _ _ _ H) Q1 (proj1 Sz) EA) as (K1 & I1 & N1 & S1 & AD & L1 & _ & _ & _ & MX).
  unfold maxSegmentSize in MX. pose proof (zlen_nonneg (mem (w_dst w) nsid)) as Z0.
  destruct (padToWord_facts sz) as (PS & _); [unfold maxSegmentSize; lia|].
  set (dl0 := fun (cb : bool) (doff : Z) => mkPtr true nsid doff (p_len src) (p_size src) maxDepth KList cb (p_bit src) false).
  assert (ShD : forall doff, shape_ok (core (dl0 (p_comp src) doff))).
  { intros doff. unfold shape_ok in *. unfold core, dl0. cbn [p_kind p_len p_comp p_bit p_size]. rewrite Ek in Sh.
    unfold wc_of in *. cbn [p_size]. exact Sh. }
  assert (ObD : forall doff, obj_bytes (core (dl0 (p_comp src) doff)) = sz).
  { intros doff. unfold obj_bytes, core, dl0. cbn [p_kind]. unfold sz, list_allocSize. cbn [p_valid p_bit p_size p_len p_comp negb].
    rewrite Hv. reflexivity. }
  destruct (p_comp src) eqn:Hc.
  - (* composite list: the tag word is copied first *)
    destruct (Fc eq_refl) as (Esz & K0).
    destruct (Tg eq_refl) as (tag & Etag & Wtag).
    destruct (src_word_read l w objs pads m1 _ _ _ T Hok Wtag K1 N1) as [U8 RT].
    rewrite U8, RT in HW. cbn [bind w_dst w_set_dst] in HW. unfold lift0 in HW.
    destruct (writeRawPointer m1 nsid naddr tag) as [m2| |] eqn:EW; cbn [bind] in HW; try discriminate.
    destruct (addSize naddr 8) as [o|] eqn:EO; [|discriminate]. apply addSize_spec in EO. destruct EO as [-> EO].
    cbn [bind] in HW. cbv beta iota in HW.
    match type of HW with context [bind (if p_bit src || _ then ?A else ?B) _] =>
      destruct (if p_bit src || (PointerCount (p_size src) =? 0) then A else B) as [w3| |] eqn:E3 end;
      cbn [bind] in HW; try discriminate.
    cbv beta iota in HW. cbn [p_comp p_off p_seg] in HW.
    destruct (writeRawPointer_keeps _ _ _ _ _ (proj1 S1) I1 EW) as (K2 & I2 & N2 & _).
    assert (U2 : u32 (sz - 8) = sz - 8) by (apply u32_id; lia).
    replace (naddr + 8 - 8) with naddr in HW by lia. rewrite (u32_id naddr) in HW by lia.
    apply (list_copy_tail l f QC w objs pads q src nsid naddr true (w_set_dst (w_set_dst w m1) m2) (naddr + 8) (u32 (sz - 8)) w3 w');
      auto; cbn [w_dst w_set_dst w_src]; fold sz; try lia.
    + intros Hb2. unfold B32 in Hb2. split; [|apply cores_snoc; exact C].
      apply (hinv_alloc_comp (w_dst w) objs pads (fst q) sz m1 nsid naddr tag m2 (core (dl0 true (naddr + 8)))); auto; try reflexivity; lia.
    + split; [exact I2|split; [cbn [w_dst w_set_dst]; lia|reflexivity]].
    + unfold obj_start. cbn [p_comp p_off]. lia.
  - (* plain list *)
    cbn [bind] in HW. cbv beta iota in HW.
    match type of HW with context [bind (if p_bit src || _ then ?A else ?B) _] =>
      destruct (if p_bit src || (PointerCount (p_size src) =? 0) then A else B) as [w3| |] eqn:E3 end;
      cbn [bind] in HW; try discriminate.
    cbv beta iota in HW. cbn [p_comp p_off p_seg] in HW.
    apply (list_copy_tail l f QC w objs pads q src nsid naddr false (w_set_dst w m1) naddr sz w3 w');
      auto; cbn [w_dst w_set_dst w_src]; fold sz; try lia.
    + intros Hb2. unfold B32 in Hb2. split; [|apply cores_snoc; exact C].
      apply (hinv_alloc_obj (w_dst w) objs pads (fst q) sz m1 nsid naddr (core (dl0 false naddr))); auto; try reflexivity; lia.
    + split; [exact I1|split; [exact S1|reflexivity]].
Qed.

Lemma fresh_grows w w' q objs pads :
  (exists h eo ep, tinv w' (objs ++ h :: eo) (pads ++ ep) /\ fresh_target w w' q h) ->
  exists eo ep, tinv w' (objs ++ eo) (pads ++ ep).
Proof. intros (h & eo & ep & T & _). exists (h :: eo), ep. exact T. Qed.

Lemma wp_step_dst f : C_cs InDst f -> C_wp InDst (S f).
Proof.
  intros QC w objs pads q src fc w' [H C] Hok Hq Vs HW Hb. cbn [srcv] in Vs.
  assert (NC : (p_valid src = false \/ In (core src) objs /\ p_member src = false /\ fc = false \/
                p_kind src = KStruct /\ os_isZero (p_size src) = true \/
                p_kind src = KIface /\ 0 <= p_len src < 4294967296) ->
               exists eo ep, tinv w' (objs ++ eo) (pads ++ ep)).
  { intros Hsrc. destruct (write_ptr_hinv_gen f w objs pads q src fc w' H Hq Hsrc HW Hb) as [pads' H'].
    exists [], pads'. rewrite app_nil_r. split; auto. }
  destruct (p_valid src) eqn:Hv; [|apply NC; auto].
  pose proof Vs as Vs0.
  destruct Vs as [V|[[M V]|[(hl & i & Hhl & MA)|[(Ek & Esz & _)|(Ek & Hl & _)]]]]; [congruence| | | |].
  - (* a handle of a table object *)
    destruct fc; [|apply NC; auto].
    destruct (p_kind src) eqn:Ek.
    + destruct (os_isZero (p_size src)) eqn:EZ; [apply NC; auto|].
      apply (fresh_grows w w' q), (struct_copy InDst f QC w objs pads q src true w'); auto. split; auto.
    + apply (fresh_grows w w' q), (list_copy InDst f QC w objs pads q src true w'); auto. split; auto.
    + exfalso. destruct (core_facts src) as (_ & _ & _ & _ & _ & _ & C7).
      destruct (hi_good _ _ _ H _ V) as [_ (Sh & _)]. apply (proj1 C7) in Sh. unfold shape_ok in Sh. rewrite Ek in Sh. exact Sh.
  - (* a list member *)
    destruct MA as (_ & _ & _ & _ & _ & _ & _ & Ek & Hm).
    destruct (os_isZero (p_size src)) eqn:EZ; [apply NC; auto|].
    apply (fresh_grows w w' q), (struct_copy InDst f QC w objs pads q src fc w'); auto; [split; auto|rewrite Hm; apply Bool.orb_true_r].
  - apply NC. right. right. left. split; [exact Ek|]. rewrite Esz. reflexivity.
  - apply NC. right. right. right. auto.
Qed.

Lemma wp_step_src f : C_cs InSrc f -> C_wp InSrc (S f).
Proof.
  intros QC w objs pads q src fc w' [H C] Hms Hq Vs HW Hb.
  assert (Ecp : fc || true = true) by (destruct fc; reflexivity).
  destruct (p_valid src) eqn:Hv.
  2:{ rewrite write_ptr_invalid_loc in HW by exact Hv.
      destruct (write_ptr_hinv_gen f w objs pads q src fc w' H Hq (or_introl Hv) HW Hb) as [pads' H'].
      exists [], pads'. rewrite app_nil_r. split; auto. }
  destruct (p_kind src) eqn:Ek.
  - (* struct *)
    destruct (os_isZero (p_size src)) eqn:EZ.
    + unfold write_ptr in HW. cbn [write_ptr_gen] in HW. rewrite Hv, Ek, EZ in HW. cbn [negb] in HW.
      rewrite empty_struct_word_eq in HW. cbn [of_opt_panic bind] in HW. unfold lift0 in HW.
      destruct (writeRawPointer (w_dst w) (fst q) (snd q) empty_struct_word) as [m'| |] eqn:EW; cbn [bind] in HW; try discriminate.
      apply Ok_inj in HW. subst w'. apply tinv_ext. split; [|exact C]. cbn [w_dst w_set_dst].
      apply (hinv_write_inline (w_dst w) objs pads m' q empty_struct_word); auto.
    + apply (fresh_grows w w' q), (struct_copy InSrc f QC w objs pads q src fc w'); auto; [split; auto|cbn [is_src]; rewrite Ecp; reflexivity].
  - (* list *)
    apply (fresh_grows w w' q), (list_copy InSrc f QC w objs pads q src fc w'); auto. split; auto.
  - (* capability: the client is appended to the capability table of the message under
       construction, the pointer holds its new index *)
    destruct (Vs Hv) as (_ & _ & X). rewrite Ek in X.
    unfold write_ptr in HW. cbn [write_ptr_gen] in HW. rewrite Hv, Ek in HW. cbn [negb is_src] in HW.
    set (m1 := mkBM (bm_arena (w_dst w)) (bm_segs (w_dst w)) (bm_caps (w_dst w) ++ [p_len src]) (bm_rl (w_dst w))) in *.
    unfold lift0 in HW.
    destruct (writeRawPointer m1 (fst q) (snd q) (rawInterfacePointer (u32 (zlen (bm_caps (w_dst w)))))) as [m'| |] eqn:EW; cbn [bind] in HW; try discriminate.
    apply Ok_inj in HW. subst w'. apply tinv_ext. split; [|exact C]. cbn [w_dst w_set_dst].
    assert (H1 : hinv m1 objs pads).
    { apply (hinv_same_data (w_dst w)); auto; try reflexivity. exact (hi_inv _ _ _ H). }
    apply (hinv_write_inline m1 objs pads m' q (rawInterfacePointer (u32 (zlen (bm_caps (w_dst w)))))); auto.
    right. right. exists (u32 (zlen (bm_caps (w_dst w)))). split; [apply u32_range|reflexivity].
Qed.

(* [copy_loc_all]: writePtr and copyStruct with a handle of the message under construction or of
   another message as source, any pointer slot / struct view as destination, for every forceCopy,
   keep the table invariant; the tables only grow *)
Theorem copy_loc_all l : forall f, C_wp l f /\ C_cs l f.
Proof.
  induction f as [|f [IW IC]].
  - split.
    + intros w objs pads q src fc w' _ _ _ _ HW. discriminate HW.
    + intros w objs pads dst src w' _ _ _ _ _ _ HW. discriminate HW.
  - split; [|apply cs_step; exact IW]. destruct l; [apply wp_step_dst|apply wp_step_src]; exact IC.
Qed.

(* [copy_all]: inside one message, with any view of the table as source *)
Theorem copy_all : forall f, Q_wp f /\ Q_cs f.
Proof.
  intros f. destruct (copy_loc_all InDst f) as [W S]. split.
  - intros w objs pads q src fc w' T. apply (W w objs pads q src fc w' T I).
  - intros w objs pads dst src w' T. apply (S w objs pads dst src w' T I).
Qed.

(* [forced_copy_fresh]: what a COPYING writePtr inside one message does, at every level of the
   recursion.  Whenever writePtr copies - forceCopy (every pointer copied by copyStruct), or the
   source is a list member - and the source is a non-empty struct or a list, the tables grow by
   at least one entry [h], the copy: it starts at the old end of its segment (so it is none of the
   older objects, the source included: the invariant for [objs ++ h :: eo] makes it disjoint from
   all of them) and the slot written resolves to exactly [h].  Since copyStruct writes every
   pointer of the copy through writePtr with forceCopy, the same holds for every pointer slot
   below: no slot of a copy designates an object that existed before the call. *)
Theorem forced_copy_fresh f w objs pads q src fc w' :
  tinv w objs pads -> In q ((0, 0) :: flat_map slots objs) -> view objs src ->
  p_valid src = true -> p_kind src <> KIface -> (p_kind src = KStruct -> os_isZero (p_size src) = false) ->
  fc || p_member src = true ->
  write_ptr (S f) true w (fst q) (snd q) InDst src fc = Ok w' -> nsegs (w_dst w') < B32 ->
  exists h eo ep, tinv w' (objs ++ h :: eo) (pads ++ ep) /\ fresh_target w w' q h.
Proof.
  intros T Hq Vs Hv Hni Hnz Hcp HW Hb. destruct (copy_loc_all InDst f) as [_ QC].
  destruct (p_kind src) eqn:Ek; [| |congruence].
  - apply (struct_copy InDst f QC w objs pads q src fc w'); auto; [exact I|].
    cbn [is_src]. rewrite Bool.orb_false_r. exact Hcp.
  - apply (list_copy InDst f QC w objs pads q src fc w'); auto; [exact I|].
    destruct (view_list _ _ Vs Hv Ek) as [M _]. rewrite M, Bool.orb_false_r in Hcp. cbn [is_src]. rewrite Bool.orb_false_r. exact Hcp.
Qed.
