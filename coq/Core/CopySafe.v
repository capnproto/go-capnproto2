(* C01 / C02 for the recursive consumer "deep copy into another message" (model Core/Builder.v:
   write_ptr / copy_struct with the source in a second, read-only message): copying out of an
   ARBITRARY (hostile) source message into a well-formed destination never panics, keeps the
   destination well-formed, only grows it, never touches the source, and never increases the
   source's traversal budget.  This file has the invariants, the primitives (segment writes, alloc,
   place) and the fuel bound; the induction over the copy is in Core/CopyAlloc.v, which carries the
   size accounting along (write_ptr_safe, copy_struct_safe there).
   Standing assumptions: [msg_ok] for the source; [dok] for the destination (builder invariant
   [inv] + every segment at most maxSegmentSize bytes); strict reader; the copied pointer was
   handed out by the reader ([wf_ptr]) and, for lists, has a reader-made shape ([shape_ok]).
   Structs need no shape condition in the repaired code (writePtr pads the copy's data section
   to a word); as found, a struct taken from an element of a 1/2/4-byte list makes writePtr
   panic: copy_unaligned_refuted. *)
From CV Require Import Core.Builder Core.ReaderFacts Core.BuilderFacts Core.AllocProofs
                       Core.WritePtrProofs Core.HeapProofs Core.CopyProofs Core.LimitProofs.
From Coq Require Import ZifyBool ZifyNat.
Open Scope Z_scope.
Ltac Zify.zify_post_hook ::= Z.div_mod_to_equations.

Definition prim_size (sz : ObjectSize) : Prop :=
  sz = mkOS 0 0 \/ sz = mkOS 1 0 \/ sz = mkOS 2 0 \/ sz = mkOS 4 0 \/ sz = mkOS 8 0 \/ sz = mkOS 0 1.

Definition shape_ok (p : Ptr) : Prop :=
  p_valid p = true ->
  match p_kind p with
  | KStruct => True
  | KList => if p_comp p then 8 <= p_off p /\ DataSize (p_size p) mod 8 = 0 /\ p_bit p = false
             else if p_bit p then True else prim_size (p_size p)
  | KIface => True
  end.

Lemma shape_null : shape_ok nullPtr.
Proof. intros X. discriminate X. Qed.

Lemma readPtr_shape strict m rl sid s paddr depth q :
  fst (readPtr strict m rl sid s paddr depth) = Ok q -> shape_ok q.
Proof.
  destruct (readPtr strict m rl sid s paddr depth) as [r rl'] eqn:E. cbn [fst]. intros ->.
  destruct (readPtr_Ok _ _ _ _ _ _ _ _ _ E) as (dsid & dst & base & val & _ & [(_ & -> & _)|(_ & _ & C)]); [apply shape_null|].
  destruct C as [(_ & sp & _ & _ & _ & ->)|[(_ & lp & EL & _ & _ & ->)|(_ & _ & _ & ->)]]; intros _; try exact I.
  destruct (readListPtr_inv _ _ _ _ _ _ EL) as (a & EA & [(_ & hdr & _ & _ & _ & _ & _ & ->)|[(_ & ->)|(_ & _ & es & EE & ->)]]);
    cbn [p_kind p_comp p_off p_size p_bit]; [|exact I|exact (elementSize_cases val es EE)].
  apply element_spec in EA. split; [lia|]. split; [|reflexivity].
  rewrite structSize_data, Z.mul_comm. apply Z.mod_mul. lia.
Qed.

(* every list element has the shape writePtr needs (a struct needs none in the repaired code) *)
Lemma list_struct_shape fd p i e : list_struct fd p i = Ok e -> shape_ok e.
Proof.
  unfold list_struct. destruct (_ || _ || _); [discriminate|].
  destruct (p_bit p); [intros H; inversion H; apply shape_null|].
  destruct (element _ _ _); intros H; inversion H; [|apply shape_null]. intros _. exact I.
Qed.

Definition dok (m : bmsg) : Prop := inv m /\ segs_small m.
Definition grows (m m' : bmsg) : Prop :=
  nsegs m <= nsegs m' /\ forall i, 0 <= i -> zlen (mem m i) <= zlen (mem m' i).
Definition region_ok (m : bmsg) (sid off n : Z) : Prop :=
  0 <= sid < nsegs m /\ 0 <= off /\ off + n <= zlen (mem m sid).

Lemma grows_refl m : grows m m.
Proof. split; [lia|intros; lia]. Qed.
Lemma grows_trans a b c : grows a b -> grows b c -> grows a c.
Proof. intros [A1 A2] [B1 B2]. split; [lia|]. intros i Hi. specialize (A2 i Hi). specialize (B2 i Hi). lia. Qed.
Lemma region_grows m m' sid off n : grows m m' -> region_ok m sid off n -> region_ok m' sid off n.
Proof. intros [G1 G2] (R1 & R2 & R3). specialize (G2 sid ltac:(lia)). unfold region_ok. lia. Qed.

Lemma seg_write_safe m sid addr bs : dok m -> region_ok m sid addr (zlen bs) ->
  exists m', seg_write m sid addr bs = Ok m' /\ dok m' /\ nsegs m' = nsegs m /\
             (forall i, 0 <= i -> zlen (mem m' i) = zlen (mem m i)) /\
             bm_caps m' = bm_caps m /\ bm_rl m' = bm_rl m.
Proof.
  intros [Hi Hs] (R1 & R2 & R3). pose proof (Hs sid) as Hss. unfold maxSegmentSize in Hss.
  pose proof (zlen_nonneg bs) as Hb.
  destruct (seg_write m sid addr bs) as [m'| |] eqn:E.
  - exists m'. split; [reflexivity|].
    pose proof (seg_write_wrote m sid addr bs m' ltac:(lia) ltac:(lia) E) as W.
    split; [split|].
    + eapply wrote_inv; eauto. lia.
    + intros i. destruct (Z_le_gt_dec 0 i).
      * rewrite (wrote_len _ _ _ _ _ i W) by assumption. apply Hs.
      * unfold mem, get_seg. replace (Z.to_nat i) with 0%nat by lia.
        specialize (Hs 0). rewrite <- (wrote_len _ _ _ _ _ 0 W) in Hs by lia. exact Hs.
    + split; [exact (wrote_nsegs _ _ _ _ _ W)|]. split; [intros i Hi0; eapply wrote_len; eauto|].
      destruct W as (_ & _ & _ & _ & _ & _ & _ & _ & W9 & W10). auto.
  - exfalso. exact (seg_write_not_err _ _ _ _ E).
  - exfalso. unfold seg_write, addSizeUnchecked in E. cbv zeta in E.
    fold (mem m sid) in E. unfold blen in E. fold (mem m sid) in E.
    rewrite (u32_id (addr + zlen bs)) in E by lia.
    destruct (_ && _ && _) eqn:E2 in E; [discriminate|]. lia.
Qed.

Lemma writeRaw_safe m sid addr v : dok m -> region_ok m sid addr 8 ->
  exists m', writeRawPointer m sid addr v = Ok m' /\ dok m' /\ nsegs m' = nsegs m /\
             (forall i, 0 <= i -> zlen (mem m' i) = zlen (mem m i)) /\
             bm_caps m' = bm_caps m /\ bm_rl m' = bm_rl m.
Proof. intros Hd Hr. unfold writeRawPointer. apply seg_write_safe; auto. Qed.

Lemma same_len_grows m m' : nsegs m' = nsegs m -> (forall i, 0 <= i -> zlen (mem m' i) = zlen (mem m i)) -> grows m m'.
Proof. intros H1 H2. split; [lia|]. intros i Hi. rewrite H2 by assumption. lia. Qed.

Lemma nextAlloc_nopanic a b c : nextAlloc a b c <> Panic.
Proof.
  unfold nextAlloc. repeat (match goal with |- context [if ?b then _ else _] => destruct b end; try discriminate).
Qed.
Lemma allocSegment_nopanic m sz : allocSegment m sz <> Panic.
Proof.
  unfold allocSegment. destruct (sz >? maxAllocSize); [discriminate|]. destruct (bm_arena m).
  - destruct (negb _); [discriminate|]. destruct (hasCapacity _ _); [discriminate|].
    pose proof (nextAlloc_nopanic (blen (get_seg m 0)) maxAllocSize sz). destruct (nextAlloc _ _ _); cbn; congruence.
  - destruct (multi_find _ _ _ _) as [[id|] total]; [discriminate|].
    pose proof (nextAlloc_nopanic total maxInt64 sz). destruct (nextAlloc _ _ _); cbn; congruence.
Qed.
Lemma alloc_nopanic m sid sz : alloc m sid sz <> Panic.
Proof.
  unfold alloc. destruct (sz >? maxAllocSize); [discriminate|].
  destruct (hasCapacity _ _); cbn [bind].
  - destruct (addSize _ _); discriminate.
  - pose proof (allocSegment_nopanic m (padToWord sz)).
    destruct (allocSegment m (padToWord sz)) as [[m1 s1]| |]; cbn [bind]; try congruence.
    destruct (addSize _ _); discriminate.
Qed.

(* alloc: never a panic; on success the destination stays good, only grows, and the fresh
   region [addr, addr + padToWord sz) is the new end of its segment *)
Lemma alloc_safe m sid sz m' sid' addr : dok m -> 0 <= sid < nsegs m -> 0 <= sz ->
  alloc m sid sz = Ok (m', sid', addr) ->
  dok m' /\ grows m m' /\ 0 <= sid' < nsegs m' /\ 0 <= addr /\ addr = zlen (mem m sid') /\
  zlen (mem m' sid') = addr + padToWord sz /\ sz <= padToWord sz /\
  (forall i, 0 <= i -> i <> sid' -> mem m' i = mem m i) /\
  bm_caps m' = bm_caps m /\ bm_rl m' = bm_rl m.
Proof.
  intros [[Hwf Har] Hs] Hsid Hsz H.
  destruct (alloc_mem _ _ _ _ _ _ Hwf Har Hsid Hsz H) as (A1 & A2 & A3 & A4 & A5 & A6 & A7 & A8 & A9 & A10 & A11 & A12 & A13).
  pose proof H as H'. apply alloc_fresh in H'; auto. cbv zeta in H'.
  destruct H' as (_ & _ & _ & _ & F5 & _).
  split; [split; [split; assumption|]|].
  - intros i. destruct (Z.eq_dec i sid') as [->|Hne]; [assumption|].
    destruct (Z_le_gt_dec 0 i).
    + rewrite A10 by assumption. apply Hs.
    + unfold mem, get_seg. replace (Z.to_nat i) with 0%nat by lia. destruct (Z.eq_dec 0 sid') as [<-|N0].
      * exact A9.
      * specialize (A10 0 ltac:(lia) N0). unfold mem, get_seg in A10. change (Z.to_nat 0) with 0%nat in A10.
        rewrite A10. apply (Hs 0).
  - split.
    { split; [unfold nsegs; lia|]. intros i Hi. destruct (A1 i Hi) as [t ->]. rewrite zlen_app.
      pose proof (zlen_nonneg t). lia. }
    unfold nsegs. repeat split; auto; try lia. subst addr. apply zlen_nonneg.
Qed.

Lemma dok_caps m cs : dok m -> dok (mkBM (bm_arena m) (bm_segs m) cs (bm_rl m)).
Proof. intros [[H1 H2] H3]. split; [split|]; assumption. Qed.

(* [wgood w0 w]: w evolved from w0: destination good and grown, source untouched, source
   budget not increased and not negative *)
Definition wgood (w0 w : world) : Prop :=
  dok (w_dst w) /\ grows (w_dst w0) (w_dst w) /\ w_src w = w_src w0 /\ 0 <= w_src_rl w <= w_src_rl w0.
Definition rpost (w0 : world) (r : res world) : Prop :=
  match r with Panic => False | Err => True | Ok w' => wgood w0 w' end.

Lemma wgood_refl w : dok (w_dst w) -> 0 <= w_src_rl w -> wgood w w.
Proof. intros H1 H2. split; [assumption|]. split; [apply grows_refl|]. split; [reflexivity|lia]. Qed.
Lemma wgood_trans a b c : wgood a b -> wgood b c -> wgood a c.
Proof.
  intros (A1 & A2 & A3 & A4) (B1 & B2 & B3 & B4). split; [assumption|]. split; [eapply grows_trans; eauto|].
  split; [congruence|lia].
Qed.

(* a step that only changes the destination *)
Lemma wgood_set_dst w m' : dok m' -> grows (w_dst w) m' -> 0 <= w_src_rl w -> wgood w (w_set_dst w m').
Proof. intros H1 H2 H3. split; [exact H1|]. split; [exact H2|]. split; [reflexivity|cbn; lia]. Qed.

Lemma lift0_write_safe w sid addr v : dok (w_dst w) -> 0 <= w_src_rl w -> region_ok (w_dst w) sid addr 8 ->
  rpost w (lift0 w (writeRawPointer (w_dst w) sid addr v)).
Proof.
  intros Hd Hr Hreg. destruct (writeRaw_safe (w_dst w) sid addr v Hd Hreg) as (m' & -> & D & N & L & _).
  cbn. apply wgood_set_dst; auto. apply same_len_grows; auto.
Qed.

Lemma place_safe w dsid off tsid taddr raw : dok (w_dst w) -> 0 <= w_src_rl w ->
  region_ok (w_dst w) dsid off 8 -> 0 <= tsid < nsegs (w_dst w) ->
  rpost w (place w dsid off tsid taddr raw).
Proof.
  intros Hd Hr Hreg Ht. unfold place. cbv zeta.
  destruct (tsid =? dsid); [apply lift0_write_safe; assumption|].
  destruct (hasCapacity (get_seg (w_dst w) tsid) 8) eqn:HC.
  - pose proof (alloc_nopanic (w_dst w) tsid 8) as NP.
    destruct (alloc (w_dst w) tsid 8) as [[[m1 s1] padAddr]| |] eqn:EA; cbn [bind]; [|exact I|congruence].
    pose proof (alloc_in_place (w_dst w) tsid 8 m1 s1 padAddr HC EA) as ->.
    destruct (alloc_safe (w_dst w) tsid 8 m1 tsid padAddr Hd Ht ltac:(lia) EA) as (D1 & G1 & S1 & A0 & A1 & A2 & _).
    change (padToWord 8) with 8 in A2.
    destruct (writeRaw_safe m1 tsid padAddr (withOffset raw (nearPointerOffset padAddr taddr)) D1
                ltac:(unfold region_ok; lia)) as (m2 & -> & D2 & N2 & L2 & _). cbn [bind].
    pose proof (grows_trans _ _ _ G1 (same_len_grows _ _ N2 L2)) as G2.
    destruct (writeRaw_safe m2 dsid off (rawFarPointer tsid padAddr) D2 (region_grows _ _ _ _ _ G2 Hreg))
      as (m3 & -> & D3 & N3 & L3 & _).
    cbn. apply wgood_set_dst; auto. eapply grows_trans; [exact G2|apply same_len_grows; auto].
  - destruct Hreg as (Hds & Ho1 & Ho2).
    pose proof (alloc_nopanic (w_dst w) dsid 16) as NP.
    destruct (alloc (w_dst w) dsid 16) as [[[m1 psid] padAddr]| |] eqn:EA; cbn [bind]; [|exact I|congruence].
    destruct (alloc_safe (w_dst w) dsid 16 m1 psid padAddr Hd Hds ltac:(lia) EA) as (D1 & G1 & S1 & A0 & A1 & A2 & _).
    change (padToWord 16) with 16 in A2.
    destruct D1 as [I1 Sm1]. pose proof (Sm1 psid) as Sp. unfold maxSegmentSize in Sp.
    destruct (writeRaw_safe m1 psid padAddr (rawFarPointer tsid taddr) (conj I1 Sm1)
                ltac:(unfold region_ok; lia)) as (m2 & -> & D2 & N2 & L2 & _). cbn [bind].
    unfold addSizeUnchecked. rewrite (u32_id (padAddr + 8)) by lia.
    destruct (writeRaw_safe m2 psid (padAddr + 8) raw D2
                ltac:(unfold region_ok; rewrite N2, (L2 psid) by lia; lia)) as (m3 & -> & D3 & N3 & L3 & _).
    cbn [bind].
    pose proof (grows_trans _ _ _ G1 (grows_trans _ _ _ (same_len_grows _ _ N2 L2) (same_len_grows _ _ N3 L3))) as G3.
    destruct (writeRaw_safe m3 dsid off (rawDoubleFarPointer psid padAddr) D3
                (region_grows _ _ _ _ _ G3 (conj Hds (conj Ho1 Ho2)))) as (m4 & -> & D4 & N4 & L4 & _).
    cbn. apply wgood_set_dst; auto. eapply grows_trans; [exact G3|apply same_len_grows; auto].
Qed.

Lemma rawStructPointer_some o sz : DataSize sz mod 8 = 0 -> exists v, rawStructPointer o sz = Some v.
Proof.
  intros H. unfold rawStructPointer, dataWordCount. destruct (DataSize sz mod 8 =? 0) eqn:E; [|lia].
  eexists. reflexivity.
Qed.

Lemma src_data_slice m p : msg_ok m -> wf_struct m p -> p_valid p = true ->
  slice (seg_of m p) (p_off p) (DataSize (p_size p)) = Ok (sub (seg_of m p) (p_off p) (DataSize (p_size p))) /\
  zlen (sub (seg_of m p) (p_off p) (DataSize (p_size p))) = DataSize (p_size p).
Proof.
  intros Hm Hw V. destruct (wf_struct_inv m p Hw V) as (Hs & Hz & Ho & He). unfold wf_size in Hz.
  destruct (seg_of_ok m p Hm) as [Hl _]. unfold maxSegmentSize in Hl.
  split; [apply slice_ok; lia|apply sub_length; lia].
Qed.

Lemma dst_slice m sid off n : dok m -> region_ok m sid off n -> 0 <= n ->
  slice (mem m sid) off n = Ok (sub (mem m sid) off n) /\ zlen (sub (mem m sid) off n) = n.
Proof.
  intros [_ Hs] (R1 & R2 & R3) Hn. pose proof (Hs sid) as H. unfold maxSegmentSize in H.
  split; [apply slice_ok; lia|apply sub_length; lia].
Qed.

(* element i of a destination list *)
Lemma list_struct_at p i : p_valid p = true -> p_bit p = false -> 0 <= i < p_len p ->
  0 <= p_off p + i * totalSize (p_size p) <= maxSegmentSize ->
  exists d, list_struct true p i = Ok (mkPtr true (p_seg p) (p_off p + i * totalSize (p_size p)) 0 (p_size p) d
                                           KStruct false false true).
Proof.
  intros V B Hi Hr. unfold list_struct. rewrite V, B. cbn [negb orb].
  destruct (i <? 0) eqn:E1; [lia|]. destruct (i >=? p_len p) eqn:E2; [lia|]. cbn [orb].
  destruct (element _ _ _) eqn:E.
  - apply element_spec in E. destruct E as [-> _]. eexists. reflexivity.
  - apply element_none in E. lia.
Qed.

Lemma list_raw_shape p : p_valid p = true -> p_kind p = KList -> shape_ok p -> list_raw p <> Panic.
Proof.
  intros V K Hs. specialize (Hs V). rewrite K in Hs. unfold list_raw. rewrite V. cbn [negb].
  destruct (p_comp p).
  - destruct Hs as (_ & Hd & _). unfold totalWordCount, dataWordCount.
    destruct (DataSize (p_size p) mod 8 =? 0) eqn:E; [discriminate|lia].
  - destruct (p_bit p); [discriminate|].
    destruct Hs as [-> |[-> |[-> |[-> |[-> | -> ]]]]];
      cbv [DataSize PointerCount Z.eqb Pos.eqb andb negb]; discriminate.
Qed.

Definition dst_ok (m : bmsg) (d : Ptr) : Prop :=
  p_valid d = true /\ wf_size (p_size d) /\
  region_ok m (p_seg d) (p_off d) (DataSize (p_size d) + 8 * PointerCount (p_size d)).

Lemma dst_ptr_slot m d j : dok m -> dst_ok m d -> 0 <= j < PointerCount (p_size d) ->
  region_ok m (p_seg d) (pointerAddress d j) 8.
Proof.
  intros [_ Hs] (V & Hz & R1 & R2 & R3) Hj. unfold wf_size in Hz. pose proof (Hs (p_seg d)) as H.
  rewrite pointerAddress_eq by lia. unfold region_ok. lia.
Qed.

Lemma write_ptr_S f strict w dsid off l src forceCopy :
  write_ptr (S f) strict w dsid off l src forceCopy =
    if negb (p_valid src) then lift0 w (writeRawPointer (w_dst w) dsid off 0) else
    match p_kind src with
    | KIface =>
      if is_src l then
        let m := w_dst w in
        let c := zlen (bm_caps m) in
        let m1 := mkBM (bm_arena m) (bm_segs m) (bm_caps m ++ [p_len src]) (bm_rl m) in
        lift0 w (writeRawPointer m1 dsid off (rawInterfacePointer (u32 c)))
      else lift0 w (writeRawPointer (w_dst w) dsid off (rawInterfacePointer (p_len src)))
    | KStruct =>
      if os_isZero (p_size src) then
        do v <- of_opt_panic (rawStructPointer (-1) (mkOS 0 0));
        lift0 w (writeRawPointer (w_dst w) dsid off v)
      else
        do r <- (if forceCopy || is_src l || p_member src then
                   let csz := mkOS (padToWord (DataSize (p_size src))) (PointerCount (p_size src)) in
                   do a <- alloc (w_dst w) dsid (totalSize csz);
                   let '(m1, nsid, naddr) := a in
                   let dstp := mkPtr true nsid naddr 0 csz maxDepth KStruct false false false in
                   do w2 <- copy_struct f strict (w_set_dst w m1) dstp l src;
                   Ok (w2, dstp)
                 else Ok (w, src));
        let '(w', st) := r in
        do raw <- of_opt_panic (rawStructPointer 0 (p_size st));
        place w' dsid off (p_seg st) (p_off st) raw
    | KList =>
      do r <- (if forceCopy || is_src l then
                 let sz := list_allocSize src in
                 do a <- alloc (w_dst w) dsid sz;
                 let '(m1, nsid, naddr) := a in
                 let w1 := w_set_dst w m1 in
                 do x <- (if p_comp src then
                            do tag <- readRawPointer (nth (Z.to_nat (p_seg src)) (w_segs w1 l) []) (u32 (p_off src - 8));
                            do w2 <- lift0 w1 (writeRawPointer (w_dst w1) nsid naddr tag);
                            match addSize naddr 8 with
                            | None => Err
                            | Some o => Ok (w2, o, u32 (sz - 8))
                            end
                          else Ok (w1, naddr, sz));
                 let '(w2, doff, sz') := x in
                 let dstl := mkPtr true nsid doff (p_len src) (p_size src) maxDepth KList (p_comp src) (p_bit src) false in
                 do w3 <- (if p_bit src || (PointerCount (p_size src) =? 0) then
                             copy_bytes w2 l (p_seg src) (p_off src) nsid doff sz'
                           else
                             fold_res (iota (Z.to_nat (list_len src))) w2
                               (fun wa i =>
                                  do de <- list_struct true dstl i;
                                  do se <- list_struct true src i;
                                  copy_struct f strict wa de l se));
                 Ok (w3, dstl)
               else Ok (w, src));
      let '(w', lst) := r in
      let taddr := if p_comp lst then u32 (p_off lst - 8) else p_off lst in
      do raw <- list_raw lst;
      place w' dsid off (p_seg lst) taddr raw
    end.
Proof. reflexivity. Qed.

Lemma copy_struct_S f strict w dst l src :
  copy_struct (S f) strict w dst l src =
    if negb (p_valid dst) then Panic
    else if negb (p_valid src) then Ok w
    else
      do srcData <- slice (nth (Z.to_nat (p_seg src)) (w_segs w l) []) (p_off src) (DataSize (p_size src));
      do dstData <- slice (nth (Z.to_nat (p_seg dst)) (bm_data (w_dst w)) []) (p_off dst) (DataSize (p_size dst));
      let n := Nat.min (length srcData) (length dstData) in
      do w1 <- lift0 w (seg_write (w_dst w) (p_seg dst) (p_off dst)
                                  (firstn n srcData ++ repeat 0 (length dstData - n)));
      let ns := PointerCount (p_size src) in
      let nd := PointerCount (p_size dst) in
      do w2 <- fold_res (iota (Z.to_nat (Z.min ns nd))) w1
                 (fun wa j =>
                    let '(r, rl') := readPtr strict (w_segs wa l) (w_rl wa l) (p_seg src)
                                             (nth (Z.to_nat (p_seg src)) (w_segs wa l) [])
                                             (pointerAddress src j) (p_depth src) in
                    do q <- r;
                    write_ptr f strict (w_set_rl wa l rl') (p_seg dst) (pointerAddress dst j) l q true);
      fold_res (map (fun k => ns + k) (iota (Z.to_nat (nd - ns)))) w2
               (fun wa j => lift0 wa (writeRawPointer (w_dst wa) (p_seg dst) (pointerAddress dst j) 0)).
Proof. reflexivity. Qed.
Lemma write_ptr_O strict w dsid off l src fc : write_ptr 0 strict w dsid off l src fc = Err.
Proof. reflexivity. Qed.
Lemma copy_struct_O strict w dst l src : copy_struct 0 strict w dst l src = Err.
Proof. reflexivity. Qed.

(* the padded size of a struct copy *)
Lemma pad_size_wf sz : wf_size sz ->
  let sz' := mkOS (padToWord (DataSize sz)) (PointerCount sz) in
  wf_size sz' /\ DataSize sz <= DataSize sz' /\ DataSize sz' mod 8 = 0.
Proof. intros [H1 H2]. unfold wf_size, padToWord, u32. cbn [DataSize PointerCount]. lia. Qed.

(* FINDING (reproduced on the Go code at repo 38ec570, repaired since by "fix: writePtr pads the
   data section of a copied list-member struct to a whole word"): as found (write_ptr_asfound)
   [write_ptr_safe] (Core/CopyAlloc.v) is false.  List.Struct(i) on a byte list hands out a Struct of DataSize 1 (what
   generated StructList.At(i) does when a hostile message supplies a byte list for a
   List(struct) field); copying it with SetRoot / SetPtr panics in rawStructPointer ("data size
   not aligned by word").  The repaired variant copies it (zero-extended to a word). *)
Definition unaligned_msg : segs := [[0;0;0;0;0;0;1;0;  1;0;0;0;26;0;0;0;  104;105;0;0;0;0;0;0]].
Example copy_unaligned_refuted :
  let c := mkCfg 0 0 true true in
  msg_ok unaligned_msg /\
  exists r l e m0,
    fst (root c unaligned_msg 1000) = Ok r /\
    fst (struct_ptr c unaligned_msg 1000 r 0) = Ok l /\
    list_struct true l 0 = Ok e /\ wf_ptr unaligned_msg e /\ p_size e = mkOS 1 0 /\
    new_message ASingle [] 0 = Ok m0 /\ dok m0 /\
    write_ptr_asfound 8 true (mkW m0 unaligned_msg 1000) 0 0 InSrc e false = Panic /\
    exists w', write_ptr 8 true (mkW m0 unaligned_msg 1000) 0 0 InSrc e false = Ok w'.
Proof.
  split; [repeat constructor; cbn; try lia; unfold maxSegmentSize; lia|].
  do 4 eexists. split; [vm_compute; reflexivity|]. split; [vm_compute; reflexivity|].
  split; [vm_compute; reflexivity|]. split.
  { intros _. split; [cbn; lia|]. unfold wf_obj, wf_size. cbn. lia. }
  split; [reflexivity|]. split; [vm_compute; reflexivity|]. split.
  { split; [split|].
    - repeat constructor; cbn; lia.
    - intros _. reflexivity.
    - intros i. unfold mem, get_seg. cbn. destruct (Z.to_nat i) as [|[|n]]; cbn; unfold maxSegmentSize; lia. }
  split; [vm_compute; reflexivity|]. eexists. vm_compute. reflexivity.
Qed.

(* Builder.v reports fuel exhaustion as [Err]; it is excluded by stability: from the fuel
   computed below on, more fuel does not change the result, so no [Err] is a fuel artefact.
   writePtr -> copyStruct -> writePtr costs two units per pointer level:
   a valid pointer with depth budget d needs 2d + 3, copy_struct from a struct with budget d
   needs 2d + 2 (for a pointer obtained under depth limit D: 2D + 1). *)
Definition wneed (q : Ptr) : Z := if p_valid q then 2 * p_depth q + 3 else 1.
Definition cneed (s : Ptr) : Z := if p_valid s then 2 * p_depth s + 2 else 1.
Definition depth_nonneg (p : Ptr) : Prop := p_valid p = true -> 0 <= p_depth p.

Lemma fold_res_ext {A} (f g : A -> Z -> res A) : forall l a,
  (forall x b, In x l -> f b x = g b x) -> fold_res l a f = fold_res l a g.
Proof.
  induction l as [|x l IH]; intros a H; cbn [fold_res]; [reflexivity|].
  rewrite (H x a (or_introl eq_refl)). destruct (g a x); cbn [bind]; try reflexivity.
  apply IH. intros y b Hy. apply H. right. assumption.
Qed.

Definition S_wp (f : nat) : Prop := forall strict w dsid off l src fc,
  depth_nonneg src -> wneed src <= Z.of_nat f ->
  write_ptr f strict w dsid off l src fc = write_ptr (S f) strict w dsid off l src fc.
Definition S_cs (f : nat) : Prop := forall strict w dst l src,
  depth_nonneg src -> cneed src <= Z.of_nat f ->
  copy_struct f strict w dst l src = copy_struct (S f) strict w dst l src.

Lemma list_struct_true_depth p i e : depth_nonneg p -> list_struct true p i = Ok e ->
  depth_nonneg e /\ (p_valid e = true -> p_valid p = true /\ p_depth e <= p_depth p).
Proof.
  intros Hp H. split.
  - intros V. assert (p_valid p = true) as Vp.
    { unfold list_struct in H. destruct (p_valid p); [reflexivity|discriminate]. }
    destruct (list_struct_depth p i e (Hp Vp) H V) as (_ & X). lia.
  - intros V. assert (p_valid p = true) as Vp.
    { unfold list_struct in H. destruct (p_valid p); [reflexivity|discriminate]. }
    destruct (list_struct_depth p i e (Hp Vp) H V) as (_ & X). split; [assumption|lia].
Qed.

Lemma wp_stable_step f : S_cs f -> S_wp (S f).
Proof.
  intros IH strict w dsid off l src fc Hd Hn. unfold wneed in Hn.
  rewrite !write_ptr_S. destruct (p_valid src) eqn:V; cbn [negb]; [|reflexivity]. specialize (Hd V).
  destruct (p_kind src) eqn:K; [| |reflexivity].
  - destruct (os_isZero (p_size src)); [reflexivity|].
    destruct (fc || is_src l || p_member src); [|reflexivity]. cbv zeta.
    destruct (alloc _ _ _) as [[[m1 nsid] naddr]| |]; cbn [bind]; try reflexivity.
    rewrite (IH strict); [reflexivity|intros _; assumption|]. unfold cneed. rewrite V. lia.
  - destruct (fc || is_src l); [|reflexivity].
    destruct (alloc _ _ _) as [[[m1 nsid] naddr]| |]; cbn [bind]; try reflexivity.
    match goal with |- bind (bind ?X ?K1) ?K0 = bind (bind ?X ?K2) ?K0 =>
      destruct X as [[[w2 doff] sz']| |]; cbn [bind]; try reflexivity end.
    destruct (p_bit src || (PointerCount (p_size src) =? 0)); [reflexivity|].
    match goal with |- bind (bind (fold_res ?l ?a ?F) _) _ = bind (bind (fold_res ?l ?a ?G) _) _ =>
      rewrite (fold_res_ext F G l a); [reflexivity|] end.
    intros i wa _. destruct (list_struct true _ i) as [de| |]; cbn [bind]; try reflexivity.
    destruct (list_struct true src i) as [se| |] eqn:Ese; cbn [bind]; try reflexivity.
    destruct (list_struct_true_depth src i se (fun _ => Hd) Ese) as [Hse1 Hse2].
    apply IH; [exact Hse1|]. unfold cneed. destruct (p_valid se) eqn:Vse; [|lia].
    destruct (Hse2 eq_refl) as [_ Hle]. lia.
Qed.

Lemma cs_stable_step f : S_wp f -> S_cs (S f).
Proof.
  intros IH strict w dst l src Hd Hn. unfold cneed in Hn.
  rewrite !copy_struct_S. destruct (negb (p_valid dst)); [reflexivity|].
  destruct (p_valid src) eqn:V; cbn [negb]; [|reflexivity]. specialize (Hd V).
  destruct (slice _ _ _); cbn [bind]; try reflexivity.
  destruct (slice _ _ _); cbn [bind]; try reflexivity.
  destruct (lift0 _ _) as [w1| |]; cbn [bind]; try reflexivity.
  match goal with |- bind (fold_res ?l ?a ?F) _ = bind (fold_res ?l ?a ?G) _ =>
    rewrite (fold_res_ext F G l a); [reflexivity|] end.
  intros j wa _.
  destruct (readPtr strict (w_segs wa l) (w_rl wa l) (p_seg src) _ (pointerAddress src j) (p_depth src))
    as [r rl'] eqn:Er.
  destruct r as [q| |]; cbn [bind]; try reflexivity.
  pose proof (readPtr_depth strict (w_segs wa l) (w_rl wa l) (p_seg src)
                (nth (Z.to_nat (p_seg src)) (w_segs wa l) []) (pointerAddress src j) (p_depth src) q Hd) as Hq.
  rewrite Er in Hq. specialize (Hq eq_refl).
  apply IH.
  - intros Vq. specialize (Hq Vq). lia.
  - unfold wneed. destruct (p_valid q) eqn:Vq; [|lia]. specialize (Hq eq_refl). lia.
Qed.

Theorem copy_fuel_stable : forall f, S_wp f /\ S_cs f.
Proof.
  induction f as [|f [IHw IHc]].
  - split.
    + intros strict w dsid off l src fc Hd Hn. unfold wneed, depth_nonneg in *. destruct (p_valid src); [specialize (Hd eq_refl)|]; lia.
    + intros strict w dst l src Hd Hn. unfold cneed, depth_nonneg in *. destruct (p_valid src); [specialize (Hd eq_refl)|]; lia.
  - split; [apply wp_stable_step; assumption|apply cs_stable_step; assumption].
Qed.

(* copy_safe, fuel part: with fuel >= 2 * depth budget + 3 the result does not depend on the
   fuel, so "out of fuel" does not occur *)
Theorem write_ptr_fuel_enough f k strict w dsid off l src fc :
  depth_nonneg src -> wneed src <= Z.of_nat f ->
  write_ptr (f + k) strict w dsid off l src fc = write_ptr f strict w dsid off l src fc.
Proof.
  intros Hd Hn. induction k as [|k IH]; [rewrite Nat.add_0_r; reflexivity|].
  rewrite Nat.add_succ_r. destruct (copy_fuel_stable (f + k)) as [H _].
  rewrite <- H; [exact IH|exact Hd|lia].
Qed.
Theorem copy_struct_fuel_enough f k strict w dst l src :
  depth_nonneg src -> cneed src <= Z.of_nat f ->
  copy_struct (f + k) strict w dst l src = copy_struct f strict w dst l src.
Proof.
  intros Hd Hn. induction k as [|k IH]; [rewrite Nat.add_0_r; reflexivity|].
  rewrite Nat.add_succ_r. destruct (copy_fuel_stable (f + k)) as [_ H].
  rewrite <- H; [exact IH|exact Hd|lia].
Qed.
