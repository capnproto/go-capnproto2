(* [alloc_fresh]: allocation hands out fresh, zero-filled, word-aligned storage inside
   len <= cap and changes no existing byte, for every arena kind and all capacities
   (message.go alloc / allocSegment / SingleSegment.Allocate / MultiSegment.Allocate /
   nextAlloc). *)
From CV Require Import Core.Builder Core.ReaderFacts Core.BuilderFacts.
From Coq Require Import ZifyBool ZifyNat.
Open Scope Z_scope.

Ltac Zify.zify_post_hook ::= Z.div_mod_to_equations.

Lemma elem_range i n w : 0 <= i < n -> 0 <= w -> 0 <= i * w /\ i * w + w <= n * w.
Proof. nia. Qed.

Lemma padToWord_facts sz : 0 <= sz <= maxSegmentSize ->
  sz <= padToWord sz < sz + 8 /\ padToWord sz mod 8 = 0 /\ padToWord sz <= maxSegmentSize.
Proof. unfold padToWord, u32, maxSegmentSize. lia. Qed.

Lemma padToWord_aligned x : 0 <= x <= 4294967288 -> x mod 8 = 0 -> padToWord x = x.
Proof. unfold padToWord, u32. lia. Qed.

(* nextAlloc: a multiple of the word size, at least the padded request.  A successful call with
   req > 0 has passed the test curr < want <= max on the int64 want, so curr itself is below
   2^63 and the sum has not wrapped: no upper bound on curr is needed. *)
Lemma nextAlloc_ok curr max req r :
  0 <= curr -> 0 <= req ->
  nextAlloc curr max req = Ok r ->
  r mod 8 = 0 /\ 0 <= r /\ (req = 0 -> r = 0) /\ (0 < req -> padToWord req <= r).
Proof.
  intros Hc Hr. unfold nextAlloc.
  destruct (req =? 0) eqn:E0; [intros H; apply Ok_inj in H; subst r; lia|].
  destruct (req >? maxAllocSize) eqn:E1; [discriminate|].
  unfold maxAllocSize in *.
  destruct (padToWord_facts req ltac:(lia)) as (Hp1 & Hp2 & Hp3).
  set (padreq := padToWord req) in *.
  assert (Hw : s64 (curr + padreq) <= curr \/ s64 (curr + padreq) = curr + padreq).
  { unfold s64, maxSegmentSize in *. cbv zeta.
    destruct ((curr + padreq) mod 18446744073709551616 <? 9223372036854775808) eqn:E; lia. }
  set (want := s64 (curr + padreq)) in *.
  destruct ((want <=? curr) || (want >? max)) eqn:E2; [discriminate|].
  assert (Hwant : want = curr + padreq) by lia.
  cbv zeta.
  destruct (want <? 1024) eqn:E3.
  { destruct ((1024 - curr + 7) / 8 * 8 <? curr) eqn:E4; intros H; apply Ok_inj in H; subst r; lia. }
  destruct (want >? s64 (curr + curr)) eqn:E4; [intros H; apply Ok_inj in H; subst r; lia|].
  set (new := grow 400 curr want).
  destruct ((0 <? new) && (new <? want)) eqn:E5; [discriminate|].
  destruct (new <=? 0) eqn:E6; [intros H; apply Ok_inj in H; subst r; lia|].
  destruct (new - curr >? maxSegmentSize) eqn:E7; intros H; apply Ok_inj in H; subst r; unfold maxSegmentSize in *; lia.
Qed.

Theorem nextAlloc_facts curr max req r :
  0 <= curr < 9223372036854775808 -> 0 <= req ->
  nextAlloc curr max req = Ok r ->
  r mod 8 = 0 /\ 0 <= r /\ (req = 0 -> r = 0) /\ (0 < req -> padToWord req <= r).
Proof. intros [Hc _]. apply nextAlloc_ok. exact Hc. Qed.

Lemma hasCapacity_true s sz : seg_wf s -> hasCapacity s sz = true -> blen s + sz <= bs_cap s.
Proof. unfold hasCapacity, seg_wf, u32. intros [H1 H2] H. lia. Qed.

Lemma multi_find_some l : forall id total sz j t,
  0 <= id -> multi_find l id total sz = (Some j, t) ->
  id <= j < id + zlen l /\ hasCapacity (nth (Z.to_nat (j - id)) l (mkBS [] 0)) sz = true.
Proof.
  induction l as [|s l IH]; intros id total sz j t Hid H; cbn [multi_find] in H; [discriminate|].
  destruct (hasCapacity s sz) eqn:E.
  - injection H as <- <-. replace (id - id) with 0 by lia. cbn. unfold zlen. cbn [length]. split; [lia|assumption].
  - apply IH in H; [|lia]. destruct H as [H1 H2]. unfold zlen in *. cbn [length]. split; [lia|].
    replace (Z.to_nat (j - id)) with (S (Z.to_nat (j - (id + 1)))) by lia. exact H2.
Qed.

Lemma multi_find_none l : forall id total sz t,
  Forall seg_wf l -> 0 <= total -> multi_find l id total sz = (None, t) -> 0 <= t.
Proof.
  induction l as [|s l IH]; intros id total sz t Hwf Ht H; cbn [multi_find] in H.
  - now injection H as <-.
  - destruct (hasCapacity s sz); [discriminate|]. inversion Hwf as [|? ? Hs Hl]; subst.
    apply IH in H; auto. destruct Hs as [Hs _]. assert (0 <= blen s) by apply blen_nonneg. lia.
Qed.

(* a single-segment arena always has exactly its one segment *)
Definition arena_wf (m : bmsg) : Prop := bm_arena m = ASingle -> zlen (bm_segs m) = 1.

Lemma get_seg_app_old m s i : 0 <= i < zlen (bm_segs m) ->
  nth (Z.to_nat i) (bm_segs m ++ [s]) (mkBS [] 0) = get_seg m i.
Proof. intros H. unfold get_seg. apply app_nth1. unfold zlen in H. lia. Qed.

(* the segments of a message with one segment appended *)
Lemma get_seg_snoc_new m s a c r : get_seg (mkBM a (bm_segs m ++ [s]) c r) (zlen (bm_segs m)) = s.
Proof. unfold get_seg, zlen. cbn [bm_segs]. rewrite Nat2Z.id, app_nth2, Nat.sub_diag by lia. reflexivity. Qed.

Lemma get_seg_snoc_old m s a c r i : 0 <= i -> i <> zlen (bm_segs m) ->
  get_seg (mkBM a (bm_segs m ++ [s]) c r) i = get_seg m i.
Proof.
  intros Hi Hne. destruct (Z_lt_ge_dec i (zlen (bm_segs m))) as [L|G]; [apply get_seg_app_old; lia|].
  rewrite (get_seg_out m) by lia. apply nth_overflow. cbn [bm_segs]. rewrite app_length. cbn [length]. unfold zlen in *. lia.
Qed.

Lemma allocSegment_spec m sz m' id :
  bmsg_wf m -> arena_wf m -> 0 <= sz ->
  allocSegment m sz = Ok (m', id) ->
  0 <= id < zlen (bm_segs m') /\ bmsg_wf m' /\ arena_wf m' /\
  blen (get_seg m' id) + sz <= bs_cap (get_seg m' id) /\
  (forall i, 0 <= i -> bs_data (get_seg m' i) = bs_data (get_seg m i)) /\
  (forall i, 0 <= i -> i <> id -> get_seg m' i = get_seg m i) /\
  bs_cap (get_seg m id) <= bs_cap (get_seg m' id) /\
  zlen (bm_segs m) <= zlen (bm_segs m') <= zlen (bm_segs m) + 1 /\
  bm_arena m' = bm_arena m /\ bm_caps m' = bm_caps m /\ bm_rl m' = bm_rl m.
Proof.
  intros Hwf Har Hsz. unfold allocSegment.
  destruct (sz >? maxAllocSize) eqn:E0; [discriminate|].
  destruct (bm_arena m) eqn:EA.
  - (* single segment *)
    assert (H1 : zlen (bm_segs m) = 1) by (apply Har; assumption).
    assert (Hs := get_seg_wf m 0 Hwf).
    destruct (negb (blen (get_seg m 0) mod 8 =? 0)) eqn:E1; [discriminate|].
    destruct (hasCapacity (get_seg m 0) sz) eqn:E2.
    + intros [= <- <-]. apply hasCapacity_true in E2; auto.
      repeat split; auto; lia.
    + destruct (nextAlloc (blen (get_seg m 0)) maxAllocSize sz) as [inc| |] eqn:EN; cbn [bind]; try discriminate.
      intros [= <- <-].
      assert (Hb := blen_nonneg (get_seg m 0)).
      assert (Hsmall : sz <= maxSegmentSize) by (unfold maxAllocSize in E0; lia).
      destruct (nextAlloc_ok _ _ _ _ Hb Hsz EN) as (N1 & N2 & N3 & N4).
      assert (HP := padToWord_facts sz (conj Hsz Hsmall)).
      set (s' := mkBS (bs_data (get_seg m 0)) (bs_cap (get_seg m 0) + inc)).
      assert (Hs' : seg_wf s').
      { destruct Hs as [Hs1 Hs2]. unfold seg_wf, s', blen in *. cbn [bs_data bs_cap]. lia. }
      rewrite put_seg_nsegs. repeat split; try lia.
      * apply put_seg_wf; assumption.
      * unfold arena_wf. rewrite put_seg_nsegs. destruct (put_seg_fields m 0 s') as (-> & _ & _). auto.
      * rewrite get_put_same by lia. unfold s', blen. cbn [bs_data bs_cap].
        destruct Hs as [Hs1 _]. unfold blen in *.
        destruct (Z.eq_dec sz 0); lia.
      * intros i Hi. destruct (Z.eq_dec i 0) as [->|Hne].
        -- rewrite get_put_same by lia. reflexivity.
        -- rewrite get_put_other by lia. reflexivity.
      * intros i Hi Hne. rewrite get_put_other by lia. reflexivity.
      * rewrite get_put_same by lia. unfold s'. cbn [bs_cap]. lia.
      * destruct (put_seg_fields m 0 s') as (F & _ & _). rewrite F. exact EA.
  - (* multi segment *)
    destruct (multi_find (bm_segs m) 0 0 sz) as [[j|] total] eqn:EM.
    + intros [= <- <-]. apply multi_find_some in EM; [|lia]. destruct EM as [M1 M2].
      replace (j - 0) with j in M2 by lia.
      assert (Hs := get_seg_wf m j Hwf). fold (get_seg m j) in M2.
      apply hasCapacity_true in M2; auto. repeat split; auto; lia.
    + assert (Ht : 0 <= total) by (apply (multi_find_none (bm_segs m) 0 0 sz total Hwf (Z.le_refl 0) EM)).
      destruct (nextAlloc total maxInt64 sz) as [n| |] eqn:EN; cbn [bind]; try discriminate.
      intros [= <- <-]. cbn [bm_segs bm_arena bm_caps bm_rl].
      assert (Hsmall : sz <= maxSegmentSize) by (unfold maxAllocSize in E0; lia).
      destruct (nextAlloc_ok _ _ _ _ Ht Hsz EN) as (N1 & N2 & N3 & N4).
      assert (HP := padToWord_facts sz (conj Hsz Hsmall)).
      assert (Hz := zlen_nonneg (bm_segs m)).
      assert (Hz1 : zlen [mkBS [] n] = 1) by reflexivity.
      rewrite !zlen_app, Hz1.
      pose proof (get_seg_snoc_new m (mkBS [] n) AMulti (bm_caps m) (bm_rl m)) as Hnew.
      pose proof (get_seg_snoc_old m (mkBS [] n) AMulti (bm_caps m) (bm_rl m)) as Hold.
      repeat split; try lia.
      * unfold bmsg_wf. cbn [bm_segs]. apply Forall_app. split; [exact Hwf|].
        constructor; [|constructor]. unfold seg_wf, blen, zlen. cbn. lia.
      * unfold arena_wf. cbn [bm_arena]. discriminate.
      * rewrite Hnew. unfold blen, zlen. cbn. destruct (Z.eq_dec sz 0); lia.
      * intros i Hi. destruct (Z.eq_dec i (zlen (bm_segs m))) as [->|Hne].
        -- rewrite Hnew. rewrite get_seg_out by lia. reflexivity.
        -- rewrite Hold by assumption. reflexivity.
      * intros i Hi Hne. apply Hold; assumption.
      * rewrite Hnew. rewrite get_seg_out by lia. cbn [bs_cap]. lia.
Qed.

(* alloc(s, sz): the region is [addr, addr + padToWord sz) of segment sid', it starts at the
   segment's old length (0 for a segment created by this call), is word aligned, zero filled
   and inside len <= cap; no byte that existed before changes (all other segments keep their
   data, the chosen one is extended at its end; single-segment regrowth only raises the
   capacity); segment count, lengths and capacities only grow. *)
Theorem alloc_fresh m sid sz m' sid' addr :
  bmsg_wf m -> arena_wf m -> 0 <= sid < zlen (bm_segs m) -> 0 <= sz ->
  alloc m sid sz = Ok (m', sid', addr) ->
  let n := padToWord sz in
  0 <= sid' < zlen (bm_segs m') /\
  addr = blen (get_seg m sid') /\ addr mod 8 = 0 /\ n mod 8 = 0 /\ sz <= n /\
  bs_data (get_seg m' sid') = bs_data (get_seg m sid') ++ repeat 0 (Z.to_nat n) /\
  addr + n = blen (get_seg m' sid') /\
  blen (get_seg m' sid') <= bs_cap (get_seg m' sid') /\
  blen (get_seg m' sid') <= maxSegmentSize /\
  (forall i, 0 <= i -> i <> sid' -> bs_data (get_seg m' i) = bs_data (get_seg m i)) /\
  (forall i, 0 <= i -> bs_cap (get_seg m i) <= bs_cap (get_seg m' i)) /\
  zlen (bm_segs m) <= zlen (bm_segs m') <= zlen (bm_segs m) + 1 /\
  bmsg_wf m' /\ arena_wf m' /\
  bm_arena m' = bm_arena m /\ bm_caps m' = bm_caps m /\ bm_rl m' = bm_rl m.
Proof.
  intros Hwf Har Hsid Hsz. unfold alloc.
  destruct (sz >? maxAllocSize) eqn:E0; [discriminate|].
  assert (Hsmall : sz <= maxSegmentSize) by (unfold maxAllocSize in E0; lia).
  destruct (padToWord_facts sz (conj Hsz Hsmall)) as (P1 & P2 & P3).
  set (n := padToWord sz) in *.
  assert (Hpick : forall m1 sid1,
            (if hasCapacity (get_seg m sid) n then Ok (m, sid) else allocSegment m n) = Ok (m1, sid1) ->
            0 <= sid1 < zlen (bm_segs m1) /\ bmsg_wf m1 /\ arena_wf m1 /\
            blen (get_seg m1 sid1) + n <= bs_cap (get_seg m1 sid1) /\
            (forall i, 0 <= i -> bs_data (get_seg m1 i) = bs_data (get_seg m i)) /\
            (forall i, 0 <= i -> bs_cap (get_seg m i) <= bs_cap (get_seg m1 i)) /\
            zlen (bm_segs m) <= zlen (bm_segs m1) <= zlen (bm_segs m) + 1 /\
            bm_arena m1 = bm_arena m /\ bm_caps m1 = bm_caps m /\ bm_rl m1 = bm_rl m).
  { intros m1 sid1. destruct (hasCapacity (get_seg m sid) n) eqn:EH.
    - intros [= <- <-]. assert (Hs := get_seg_wf m sid Hwf).
      apply hasCapacity_true in EH; auto. repeat split; auto; lia.
    - intros HA. apply allocSegment_spec in HA; auto; [|lia].
      destruct HA as (A1 & A2 & A3 & A4 & A5 & A6 & A6' & A7 & A8 & A9 & A10).
      repeat split; auto; try lia.
      intros i Hi. destruct (Z.eq_dec i sid1) as [->|Hne]; [exact A6'|].
      rewrite A6 by assumption. lia. }
  destruct (if hasCapacity (get_seg m sid) n then Ok (m, sid) else allocSegment m n) as [[m1 sid1]| |] eqn:EP;
    cbn [bind]; try discriminate.
  destruct (Hpick m1 sid1 eq_refl) as (K1 & K2 & K3 & K4 & K5 & K6 & K7 & K8 & K9 & K10).
  destruct (addSize (blen (get_seg m1 sid1)) n) as [e|] eqn:EA; [|discriminate].
  intros [= <- <- <-]. apply addSize_spec in EA.
  assert (Hs1 := get_seg_wf m1 sid1 K2). destruct Hs1 as [S1 S2].
  assert (Hb := blen_nonneg (get_seg m1 sid1)).
  set (s' := mkBS (bs_data (get_seg m1 sid1) ++ repeat 0 (Z.to_nat n)) (bs_cap (get_seg m1 sid1))).
  assert (Hlen' : blen s' = blen (get_seg m1 sid1) + n).
  { unfold s', blen. cbn [bs_data]. rewrite zlen_app, zlen_repeat. lia. }
  assert (Hs' : seg_wf s') by (unfold seg_wf; rewrite Hlen'; unfold s'; cbn [bs_cap]; lia).
  assert (Hblen : blen (get_seg m1 sid1) = blen (get_seg m sid1)) by (unfold blen; rewrite K5 by lia; reflexivity).
  rewrite put_seg_nsegs. cbv zeta. rewrite get_put_same by lia.
  destruct (put_seg_fields m1 sid1 s') as (F1 & F2 & F3).
  repeat split; try lia; try congruence.
  - unfold s'. cbn [bs_data]. rewrite K5 by lia. reflexivity.
  - destruct Hs' as [W _]. exact W.
  - intros i Hi Hne. rewrite get_put_other by lia. apply K5. assumption.
  - intros i Hi. destruct (Z.eq_dec i sid1) as [->|Hne].
    + rewrite get_put_same by lia. unfold s'. cbn [bs_cap]. apply K6. lia.
    + rewrite get_put_other by lia. apply K6. assumption.
  - apply put_seg_wf; assumption.
  - unfold arena_wf. rewrite put_seg_nsegs, F1. exact K3.
Qed.
