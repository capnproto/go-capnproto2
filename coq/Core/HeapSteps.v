(* C05: every op of the sub-language keeps the table invariant; the theorem over op lists.
   (Second part of HeapOps.v; the copy paths come from HeapCopy.v.) *)
From CV Require Import Core.Builder Core.ReaderFacts Core.ArithFacts Core.BuilderFacts Core.AllocProofs
  Core.WritePtrProofs Core.HeapProofs Core.CopyProofs Core.BuildOps Core.BuildValid Core.BuildInv Core.HeapInv Core.ReadBridge
  Core.HeapOps Core.HeapCopy Core.HeapCopySrc.
From Coq Require Import ZifyBool ZifyNat.
Open Scope Z_scope.

Ltac Zify.zify_post_hook ::= Z.div_mod_to_equations.

(* the tables only grow *)
Definition ext (objs : list Ptr) (pads : list region) (objs' : list Ptr) (pads' : list region) : Prop :=
  (exists eo, objs' = objs ++ eo) /\ (exists ep, pads' = pads ++ ep).
Lemma ext_refl objs pads : ext objs pads objs pads.
Proof. split; exists []; now rewrite app_nil_r. Qed.
Lemma ext_app objs pads eo ep : ext objs pads (objs ++ eo) (pads ++ ep).
Proof. split; eexists; reflexivity. Qed.
Lemma ext_objs objs pads eo : ext objs pads (objs ++ eo) pads.
Proof. split; [eexists; reflexivity|exists []; now rewrite app_nil_r]. Qed.
Lemma ext_trans a b a1 b1 a2 b2 : ext a b a1 b1 -> ext a1 b1 a2 b2 -> ext a b a2 b2.
Proof. intros [[x ->] [y ->]] [[x' ->] [y' ->]]. split; eexists; rewrite <- app_assoc; reflexivity. Qed.

(* from the table invariant of the world back to the interpreter state *)
Lemma sinv_of_tinv st objs pads w1 eo ep :
  sinv st objs pads -> tinv w1 (objs ++ eo) (pads ++ ep) -> sinv (mkBSt w1 (st_h st)) (objs ++ eo) (pads ++ ep).
Proof.
  intros (_ & P & _) [H' C']. split; [exact H'|]. split; [|exact C'].
  apply (pool_ok_incl objs); auto. intros x Hx. apply in_or_app. left. exact Hx.
Qed.

Lemma view_as_struct objs p : view objs p -> view objs (as_struct p) /\ (p_valid (as_struct p) = true -> p_kind (as_struct p) = KStruct).
Proof.
  intros V. unfold as_struct. destruct (is_struct p) eqn:E.
  - split; [exact V|]. intros _. unfold is_struct in E. destruct (p_kind p); auto; rewrite Bool.andb_false_r in E; discriminate.
  - split; [apply view_null|discriminate].
Qed.

Lemma sview_as_struct sm p : sview sm p -> sview sm (as_struct p) /\ (p_valid (as_struct p) = true -> p_kind (as_struct p) = KStruct).
Proof.
  intros V. unfold as_struct. destruct (is_struct p) eqn:E.
  - split; [exact V|]. intros _. unfold is_struct in E. destruct (p_kind p); auto; rewrite Bool.andb_false_r in E; discriminate.
  - split; [apply sview_null|discriminate].
Qed.

(* storing any handle - of this message or of the source message - in a pointer slot *)
Lemma slot_store st objs pads f sd ad hs w1 :
  sinv st objs pads -> spool st -> In (sd, ad) ((0, 0) :: flat_map slots objs) ->
  write_ptr f true (st_w st) sd ad (fst (hget st hs)) (snd (hget st hs)) false = Ok w1 ->
  nsegs (w_dst w1) < 4294967296 ->
  exists objs' pads', sinv (mkBSt w1 (st_h st)) objs' pads' /\ ext objs pads objs' pads'.
Proof.
  intros S SP Hq HW Hns. pose proof S as (H & P & C).
  destruct (fst (hget st hs)) eqn:El.
  - pose proof (hget_view st objs pads hs S El) as Vw.
    destruct (copy_all f) as [QW _].
    destruct (QW (st_w st) objs pads (sd, ad) (snd (hget st hs)) false w1) as (eo & ep & T); auto.
    + split; auto.
    + exists (objs ++ eo), (pads ++ ep). split; [apply sinv_of_tinv; auto|apply ext_app].
  - pose proof (hget_sview st hs SP El) as Vw.
    destruct (copy_src_all f) as [QW _].
    destruct (QW (st_w st) objs pads (sd, ad) (snd (hget st hs)) false w1) as (eo & ep & T); auto.
    + split; auto.
    + apply SP.
    + exists (objs ++ eo), (pads ++ ep). split; [apply sinv_of_tinv; auto|apply ext_app].
Qed.

(* copying any struct handle - of this message or of the source message - into a struct view *)
Lemma struct_store st objs pads f dst hs w1 :
  sinv st objs pads -> spool st -> view objs dst -> (p_valid dst = true -> p_kind dst = KStruct) ->
  copy_struct f true (st_w st) dst (fst (hget st hs)) (as_struct (snd (hget st hs))) = Ok w1 ->
  nsegs (w_dst w1) < 4294967296 ->
  exists objs' pads', sinv (mkBSt w1 (st_h st)) objs' pads' /\ ext objs pads objs' pads'.
Proof.
  intros S SP Vd Kd HW Hns. pose proof S as (H & P & C).
  destruct (fst (hget st hs)) eqn:El.
  - pose proof (hget_view st objs pads hs S El) as Vq. destruct (view_as_struct objs _ Vq) as [Vsq Ksq].
    destruct (copy_all f) as [_ QC].
    destruct (QC (st_w st) objs pads dst (as_struct (snd (hget st hs))) w1) as (eo & ep & T); auto.
    + split; auto.
    + exists (objs ++ eo), (pads ++ ep). split; [apply sinv_of_tinv; auto|apply ext_app].
  - pose proof (hget_sview st hs SP El) as Vq. destruct (sview_as_struct _ _ Vq) as [Vsq Ksq].
    destruct (copy_src_all f) as [_ QC].
    destruct (QC (st_w st) objs pads dst (as_struct (snd (hget st hs))) w1) as (eo & ep & T); auto.
    + split; auto.
    + apply SP.
    + exists (objs ++ eo), (pads ++ ep). split; [apply sinv_of_tinv; auto|apply ext_app].
Qed.

(* the data setters of the theorem act on the message under construction *)
Definition setter_handle (o : bop) : option Z :=
  match o with BSetUint h _ _ _ | BSetBit h _ _ | BListSetUint h _ _ _ | BBitSet h _ _ => Some h | _ => None end.
Definition dst_only (st : bstate) (o : bop) : Prop :=
  match setter_handle o with Some h => fst (hget st h) = InDst | None => True end.

(* a read op on a handle of the source message leaves the message under construction alone *)
Lemma sinv_src_read st objs pads rl hs' :
  sinv st objs pads -> sinv (mkBSt (w_set_rl (st_w st) InSrc rl) (st_h st ++ map (fun p => (InSrc, p)) hs')) objs pads.
Proof.
  intros (H & P & C). split; [exact H|]. split; [|exact C]. cbn [st_h]. unfold pool_ok in *. apply Forall_app. split; [exact P|].
  apply Forall_forall. intros x Hx. apply in_map_iff in Hx. destruct Hx as (p & <- & _). cbn [fst]. discriminate.
Qed.

Lemma setter_of_handle st o h s : setter_of st o = Some (h, s) -> setter_handle o = Some h.
Proof. destruct o; try discriminate; intros [= <- _]; reflexivity. Qed.

Lemma dst_only_setter st o h s : dst_only st o -> setter_of st o = Some (h, s) -> fst (hget st h) = InDst.
Proof. unfold dst_only. intros Hdo ES. now rewrite (setter_of_handle _ _ _ _ ES) in Hdo. Qed.

(* the pointer word of a pointer setter is a slot of the table *)
Lemma ptr_slot_table st objs pads o sid addr hs :
  sinv st objs pads -> sub_op o = true -> ptr_slot st o sid addr hs -> In (sid, addr) ((0, 0) :: flat_map slots objs).
Proof.
  intros S Hop SL. pose proof S as (H & _). revert Hop.
  destruct SL as [h i hs' El V Hi|h i hs' a El EP|hs' _]; intros Hop.
  - destruct (as_struct_valid _ V) as [Eas Ek]. rewrite Eas in *.
    apply (struct_view_slots _ _ _ _ H (hget_view _ _ _ h S El) V Ek). cbn [sub_op] in Hop. lia.
  - pose proof (primitiveElem_valid _ _ _ _ _ EP) as V. destruct (as_list_valid _ V) as [Eas Ek]. rewrite Eas in *.
    destruct (list_view objs _ (hget_view _ _ _ h S El) V Ek) as [Hin _].
    destruct (list_elem_geom _ _ _ _ i (mkOS 0 1) a H Hin V Ek EP ltac:(left; reflexivity)) as (_ & _ & E3 & _).
    right. apply in_flat_map. exists (core (snd (hget st h))). split; [exact Hin|apply E3; reflexivity].
  - left. reflexivity.
Qed.

(* the destination of a struct setter is a struct view of the table *)
Lemma copy_dst_view st objs pads o dst hs :
  sinv st objs pads -> copy_dst st o dst hs -> view objs dst /\ (p_valid dst = true -> p_kind dst = KStruct).
Proof.
  intros S [h i hs' de El ED|h hs' El].
  - pose proof (list_struct_valid _ _ _ _ ED) as V. destruct (as_list_valid _ V) as [Eas Ek]. rewrite Eas in *.
    destruct (list_view objs _ (hget_view _ _ _ h S El) V Ek) as [Hin _].
    destruct (list_struct_view objs _ i de Hin V Ek ED) as [Vde Kde]. split; [exact Vde|]. intros X. apply Kde, X.
  - apply view_as_struct, (hget_view _ _ _ h S El).
Qed.

(* the ops of the sub-language are well formed *)
Lemma sub_op_wf o : sub_op o = true -> op_wf o.
Proof. destruct o; cbn [sub_op op_wf]; try exact (fun _ => I); unfold width_b; lia. Qed.

(* a list of a non-composite element type *)
Lemma plain_list_shape h :
  p_valid h = true -> p_kind h = KList -> p_comp h = false -> 0 <= p_len h < 536870912 ->
  (p_bit h = true /\ p_size h = mkOS 0 0 \/
   p_bit h = false /\ (p_size h = mkOS 0 1 \/ exists d, p_size h = mkOS d 0 /\ (d = 0 \/ d = 1 \/ d = 2 \/ d = 4 \/ d = 8))) ->
  shape_ok h /\ obj_bytes h = if p_bit h then bitListSize (p_len h)
                              else (DataSize (p_size h) + 8 * PointerCount (p_size h)) * p_len h.
Proof.
  intros Hv Ek Hc Hl Hk. assert (Sh : shape_ok h) by (unfold shape_ok; rewrite Ek; auto).
  split; [exact Sh|apply list_alloc_eq; assumption].
Qed.

(* the handle of a constructor of the sub-language has one of the shapes of the table, and its
   object is the bytes the constructor allocates *)
Lemma ctor_handle_shape m o sid r s a :
  sub_op o = true -> ctor_call m o = Some (sid, r) ->
  0 <= p_len (ctor_handle o s a) < 536870912 -> wf_size (p_size (ctor_handle o s a)) -> 0 <= ctor_size o <= maxAllocSize ->
  shape_ok (ctor_handle o s a) /\ obj_bytes (ctor_handle o s a) = ctor_size o.
Proof.
  intros Hop EC Hn Hw Hz.
  destruct o; try discriminate EC; clear EC;
    cbn [ctor_handle ctor_size sub_op p_len p_size] in *; unfold maxAllocSize, maxSegmentSize in Hz.
  - split; [|reflexivity]. unfold shape_ok, os_wf, wf_size, padToWord, u32 in *. cbn [p_kind p_size p_comp p_len p_bit DataSize PointerCount] in *.
    repeat split; try reflexivity; lia.
  - assert (Hsz : sz = 0 \/ sz = 1 \/ sz = 2 \/ sz = 4 \/ sz = 8).
    { destruct (sz =? 0) eqn:E0; [left; lia|right; apply width_b_ok; exact Hop]. }
    destruct (plain_list_shape (mkPtr true s a n (mkOS sz 0) maxDepth KList false false false)) as [Sh ->]; auto.
    { right. split; [reflexivity|]. right. exists sz. auto. }
    split; [exact Sh|]. cbn [p_bit p_size p_len DataSize PointerCount]. unfold timesUnchecked, u32. nia.
  - destruct (plain_list_shape (mkPtr true s a n (mkOS 0 0) maxDepth KList false true false)) as [Sh ->]; auto.
  - destruct (plain_list_shape (mkPtr true s a n (mkOS 0 1) maxDepth KList false false false)) as [Sh ->]; auto.
  - set (h := mkPtr _ _ _ _ _ _ _ _ _ _).
    assert (Hos : os_wf (p_size h)) by (unfold os_wf, wf_size, padToWord, u32 in *; cbn [h p_size DataSize PointerCount] in *; lia).
    pose proof (wc_of_nonneg h Hos) as W0. change (mkOS (padToWord dsz) pc) with (p_size h) in Hz |- *.
    rewrite (totalSize_wf _ Hos) in Hz |- *. fold (wc_of h) in Hz |- *. change n with (p_len h) in Hz, Hn |- *.
    assert (Ht : p_len h * wc_of h < 536870911) by lia.
    split; [unfold shape_ok; cbn [h p_kind p_comp p_bit]; auto 6|].
    unfold obj_bytes. cbn [h p_kind]. rewrite (list_alloc_comp h) by (reflexivity || lia || exact Hos). lia.
  - set (n := s32 _) in *.
    destruct (plain_list_shape (mkPtr true s a n (mkOS 1 0) maxDepth KList false false false)) as [Sh ->]; auto.
    { right. split; [reflexivity|]. right. exists 1. auto. }
    split; [exact Sh|]. cbn [p_bit p_size p_len DataSize PointerCount]. unfold timesUnchecked, u32. lia.
Qed.

(* the allocating constructors: the new object enters the table *)
Lemma ctor_call_sinv st objs pads o sid m p :
  sinv st objs pads -> sub_op o = true -> valid_sid st sid = true ->
  ctor_call (w_dst (st_w st)) o = Some (sid, Ok (m, p)) -> nsegs m < 4294967296 ->
  sinv (hpush st (w_set_dst (st_w st) m) InDst p) (objs ++ [core p]) pads.
Proof.
  intros S Hop Vs EC Hns. pose proof S as (H & P & C).
  destruct (ctor_call_alloc _ _ _ _ _ EC) as (m1 & a & EA & Hz & Eh & Hn & Wf & Wr).
  destruct (ctor_handle_fields _ _ _ _ (p_seg p) a EC) as (Hv & _ & Hm & Off).
  destruct (ctor_handle_shape _ _ _ _ (p_seg p) a Hop EC) as [Sh Eb]; rewrite <- ?Eh in *; auto.
  { apply Wf, sub_op_wf, Hop. }
  { split; [exact Hz|]. unfold alloc in EA. destruct (_ >? _) eqn:X; [discriminate|lia]. }
  pose proof (valid_sid_range _ _ Vs) as Hs.
  assert (Plain : p_comp p = false -> nsegs m1 < 4294967296 -> hinv m1 (objs ++ [core p]) pads).
  { intros Hc Hn1. rewrite Hc in Off.
    apply (hinv_alloc_obj (w_dst (st_w st)) objs pads sid (ctor_size o) m1 (p_seg p) a (core p)); auto. }
  split; [|split; [apply pool_push_obj; auto|apply cores_snoc, C]]. cbn [hpush st_w w_dst w_set_dst].
  destruct Wr as [[Hc ->]|(bs & EW & [(tag & Hc & Etag & ->)|[nul ->]])]; [auto| |].
  - (* composite list: the tag word is written *)
    destruct (alloc_region _ _ _ _ _ _ _ _ H Hs Hz EA) as (_ & I1 & _ & _ & S1 & AD & _ & _ & MX & _).
    destruct (writeRawPointer_keeps _ _ _ _ _ (proj1 S1) I1 EW) as (_ & _ & N2 & _).
    pose proof (zlen_nonneg (mem (w_dst (st_w st)) (p_seg p))) as Z0.
    assert (Ek : p_kind p = KList).
    { unfold shape_ok in Sh. destruct (p_kind p); [destruct Sh as (_ & X & _); congruence|reflexivity|contradiction]. }
    pose proof Sh as Sh'. unfold shape_ok in Sh'. rewrite Ek in Sh'. destruct Sh' as (Hl & [(X & _)|(_ & Hb & Hw & Ht)]); [congruence|].
    destruct (comp_list_size p Hv Hc Hb Hw (proj1 Hl) Ht) as (_ & K0 & PW).
    rewrite <- Eb in MX. unfold obj_bytes in MX. rewrite Ek, PW in MX. rewrite Hc in Off. unfold addSizeUnchecked, u32 in Off.
    apply (hinv_alloc_comp (w_dst (st_w st)) objs pads sid (ctor_size o) m1 (p_seg p) a tag m (core p)); auto; try lia.
    cbn [core p_off]. lia.
  - (* byte list: the bytes are written into the new object, which has no pointer slots *)
    destruct (alloc_region _ _ _ _ _ _ _ _ H Hs Hz EA) as (_ & _ & _ & _ & S1 & _).
    cbn [sub_op] in Hop. apply andb_prop in Hop. destruct Hop as [Hlv _]. pose proof (zlen_nonneg bs) as Zv.
    assert (W : wrote m1 m (p_seg p) a bs) by (apply seg_write_wrote; auto; lia).
    remember (p_seg p) as s1 eqn:Es. clear Es. subst p. cbn [ctor_handle ctor_size p_comp] in *.
    set (h := mkPtr _ _ _ _ _ _ _ _ _ _) in *.
    apply (hinv_data_write m1 _ pads m (core h) a bs); auto.
    + apply Plain; [reflexivity|]. unfold nsegs in *. rewrite <- (wrote_nsegs _ _ _ _ _ W). exact Hns.
    + apply in_or_app. right. left. reflexivity.
    + cbn. lia.
    + cbn. lia.
    + unfold obj_reg, obj_start. cbn [r_size core p_comp p_off h]. change (obj_bytes (core h)) with (obj_bytes h). rewrite Eb.
      rewrite s32_id by (destruct nul; lia). unfold timesUnchecked, padToWord, u32. destruct nul; lia.
    + intros q Hq. unfold slots, tgt_of, h in Hq. cbn in Hq. destruct Hq.
Qed.

(* bytes written at data offset [d] of a struct, as Struct.dataAddress / Struct.SetBit address them *)
Lemma struct_field_write st objs pads p d addr bs m1 :
  sinv st objs pads -> view objs p -> p_valid p = true -> p_kind p = KStruct -> 0 < zlen bs ->
  addOffset (p_off p) d = Some addr ->
  (0 <= DataSize (p_size p) <= 4294967288 -> 0 <= d /\ d + zlen bs <= DataSize (p_size p)) ->
  seg_write (w_dst (st_w st)) (p_seg p) addr bs = Ok m1 ->
  sinv (mkBSt (w_set_dst (st_w st) m1) (st_h st)) objs pads.
Proof.
  intros S Vw Hv Ek Hpos EA Hd EW. pose proof S as [H _].
  apply addOffset_spec in EA. destruct EA as [EA1 EA2].
  destruct (struct_view_geom _ _ _ p H Vw Hv Ek) as [[E0 _]|(ho & Hin & Eseg & D0 & P0 & Olo & Ohi & _)].
  { exfalso. rewrite E0 in Hd. cbn [DataSize] in Hd. lia. }
  destruct (obj_bounds _ _ _ _ H Hin) as (B1 & B2 & B3 & B4 & B5). rewrite Eseg in *.
  destruct Hd as [Hd0 Hd1]; [lia|].
  assert (Ead : addr = p_off p + d) by (subst addr; unfold u32; lia).
  apply (struct_data_write st objs pads p addr bs m1); auto; try lia.
  intros X1 X2 X3. apply seg_write_wrote; auto; lia.
Qed.

(* bytes written into a table object beside its pointer slots *)
Lemma obj_data_write st objs pads h addr bs m1 :
  sinv st objs pads -> In h objs -> p_off h <= addr -> addr + zlen bs <= obj_start h + r_size (obj_reg h) ->
  (forall q, In q (slots h) -> addr + zlen bs <= snd q \/ snd q + 8 <= addr) ->
  seg_write (w_dst (st_w st)) (p_seg h) addr bs = Ok m1 ->
  sinv (mkBSt (w_set_dst (st_w st) m1) (st_h st)) objs pads.
Proof.
  intros [H P] Hin Hlo Hhi Hsep EW. destruct (obj_bounds _ _ _ _ H Hin) as (B1 & B2 & B3 & B4 & B5).
  pose proof (zlen_nonneg bs) as Zb. apply seg_write_wrote in EW; [|lia|lia].
  split; [|exact P]. cbn [st_h st_w w_dst w_set_dst].
  apply (hinv_data_write (w_dst (st_w st)) objs pads m1 h addr bs); auto; lia.
Qed.

(* a data setter of the sub-language on a handle of the message under construction *)
Lemma setter_sinv st objs pads o h s m1 :
  sinv st objs pads -> sub_op o = true -> setter_of st o = Some (h, s) -> fst (hget st h) = InDst ->
  run_setter (w_dst (st_w st)) s = Ok m1 -> sinv (mkBSt (w_set_dst (st_w st) m1) (st_h st)) objs pads.
Proof.
  intros S Hop ES El E. pose proof S as [H P]. pose proof (hget_view st objs pads h S El) as Vw.
  destruct (run_setter_write _ _ _ E) as (Hval & addr & bs & SA & EW & Lb & _). clear E.
  destruct o; try discriminate ES; injection ES as -> <-; cbn [setter_ptr setter_width setter_addr sub_op] in *.
  1,2: destruct (as_struct_valid _ Hval) as [Eas Ek]. 3,4: destruct (as_list_valid _ Hval) as [Eas Ek].
  all: rewrite Eas in *; set (p := snd (hget st h)) in *.
  3,4: destruct (list_view objs p Vw Hval Ek) as [Hin _].
  - (* SetUint *)
    apply andb_prop in Hop. destruct Hop as [Ho1 Ho2].
    assert (Hn : n = 1 \/ n = 2 \/ n = 4 \/ n = 8) by (apply width_b_ok; exact Ho2).
    unfold dataAddress in SA.
    destruct (negb (p_valid p) || (u32 (off + n) >? DataSize (p_size p))) eqn:EE; [discriminate|].
    destruct (addOffset (p_off p) off) as [a|] eqn:EA; [|discriminate]. injection SA as ->.
    apply (struct_field_write st objs pads p off addr bs m1); auto; [lia|].
    apply addOffset_spec in EA. unfold u32 in EE. lia.
  - (* SetBit *)
    destruct SA as [EA Hnb].
    apply (struct_field_write st objs pads p (bitOffset_offset n) addr bs m1); auto; [lia|].
    unfold bitOffset_offset, u32 in *. lia.
  - (* UIntNList.Set *)
    assert (Hn : n = 1 \/ n = 2 \/ n = 4 \/ n = 8) by (apply width_b_ok; exact Hop).
    destruct (list_elem_geom _ _ _ p i (mkOS n 0) addr H Hin Hval Ek SA ltac:(right; exists n; auto)) as (E1 & E2 & _ & E4).
    assert (TS : totalSize (mkOS n 0) = n) by (unfold totalSize, pointerSize, u32; cbn; lia). rewrite TS in E2.
    apply (obj_data_write st objs pads (core p) addr bs m1); auto; try (cbn [core p_off]; lia).
    intros q Hq. replace (zlen bs) with n by lia. apply (E4 eq_refl q Hq).
  - (* BitList.Set *)
    destruct SA as (-> & Hi & Hbit).
    destruct (core_facts p) as (_ & _ & _ & _ & _ & _ & C7).
    destruct (hi_good _ _ _ H _ Hin) as [_ (Sh & _)]. apply (proj1 C7) in Sh.
    pose proof Sh as Sh'. unfold shape_ok in Sh'. rewrite Ek in Sh'. destruct Sh' as (Hlen & [(Hc & Hk)|(_ & Hb & _)]); [|congruence].
    assert (R : obj_start (core p) = p_off p /\ r_size (obj_reg (core p)) = padToWord (bitListSize (p_len p))).
    { change (obj_reg (core p)) with (obj_reg p). change (obj_start (core p)) with (obj_start p). unfold obj_reg, obj_start.
      rewrite Hc, list_alloc_eq, Hbit by auto. split; reflexivity. }
    destruct R as [R1 R2].
    destruct (obj_bounds _ _ _ _ H Hin) as (_ & B2 & _ & B4 & B5). rewrite R1, R2 in *.
    unfold bitListSize, padToWord, u32 in *. unfold bitOffset_offset in EW.
    replace ((p_off p + i / 8) mod 4294967296) with (p_off p + i / 8) in EW by (rewrite Z.mod_small; lia).
    apply (obj_data_write st objs pads (core p) (p_off p + i / 8) bs m1); auto.
    + cbn [core p_off]. lia.
    + rewrite R1, R2. lia.
    + intros q Hq. exfalso. change (slots (core p)) with (slots p) in Hq. unfold slots, tgt_of, et_of in Hq. rewrite Ek, Hc, Hbit in Hq. cbn in Hq. destruct Hq.
Qed.

Theorem bstep_hinv e st objs pads o st' out :
  sinv st objs pads -> spool st -> sub_op o = true -> dst_only st o -> bstep e st o = (Some st', out) ->
  nsegs (w_dst (st_w st')) < 4294967296 ->
  exists objs' pads', sinv st' objs' pads' /\ ext objs pads objs' pads'.
Proof.
  intros S SP Hop Hdo E. apply bstep_inv in E. pose proof S as [H P]. revert Hop Hdo.
  destruct E as [o|o sid m p EV EC|sid n EV Hn|sid idx EV|c|o|o h s w1 ES EW|o sid addr hs w1 SL EW|o dst hs w1 CD EW
                 |l0 ro l rs' v El EST|]; intros Hop Hdo Hns.
  - exists objs, pads. split; [now apply sinv_push_null|apply ext_refl].
  - eexists _, pads. split; [exact (ctor_call_sinv _ _ _ _ _ _ _ S Hop EV EC Hns)|apply ext_objs].
  - (* NewVoid: an object of no bytes *)
    apply valid_sid_range in EV.
    set (h := mkPtr true sid 0 n (mkOS 0 0) maxDepth KList false false false).
    exists (objs ++ [core h]), pads. split; [|apply ext_objs].
    destruct (plain_list_shape (core h)) as [Sh OB]; try reflexivity; [exact Hn|right; split; [reflexivity|]; right; exists 0; auto|].
    change (obj_bytes (core h) = 0) in OB.
    split.
    + cbn [hpush st_w].
      apply (hinv_add_obj (w_dst (st_w st)) objs pads (w_dst (st_w st)) (core h)); auto;
        try apply keeps_refl; try apply (hi_inv _ _ _ H); try apply (hi_small _ _ _ H); try lia; try apply (hi_nsegs _ _ _ H).
      * split; [exact Sh|]. pose proof (hi_nsegs _ _ _ H). split; [cbn; lia|]. split; [|cbn; lia].
        unfold obj_reg. cbn [r_size]. rewrite OB. cbn [core p_seg p_off h obj_start p_comp]. change (padToWord 0) with 0.
        apply in_seg_intro; rewrite ?zlen_bm, ?seg_len_bm; try lia. apply zlen_nonneg.
      * intros _ X. discriminate X.
      * intros q Hq. unfold slots, tgt_of, h in Hq. cbn in Hq. destruct Hq.
    + destruct P as [P C]. split; [|apply cores_snoc; exact C]. apply pool_push_obj; auto.
  - (* NewInterface *)
    exists objs, pads. split; [|apply ext_refl]. cbn [sub_op] in Hop.
    destruct P as [P C]. split; [exact H|]. split; [|exact C]. apply pool_ok_push; auto.
    right. right. right. right. split; [reflexivity|]. split; [cbn [p_len]; lia|reflexivity].
  - exists objs, pads. split; [|apply ext_refl]. apply sinv_same_segs; auto.
  - exists objs, pads. split; [exact S|apply ext_refl].
  - pose proof (dst_only_setter _ _ _ _ Hdo ES) as El. rewrite El in EW. destruct (set_in_dst _ _ _ EW) as (m1 & Er & ->).
    exists objs, pads. split; [exact (setter_sinv _ _ _ _ _ _ _ S Hop ES El Er)|apply ext_refl].
  - apply (slot_store st objs pads (e_fuel e) sid addr hs w1); auto. exact (ptr_slot_table _ _ _ _ _ _ _ S Hop SL).
  - destruct (copy_dst_view _ _ _ _ _ _ S CD) as [Vd Kd]. apply (struct_store st objs pads (e_fuel e) dst hs w1); auto.
  - (* read-side ops: the pool grows by at most one handle, a view of the table *)
    cbn [sub_op] in Hop. exists objs, pads. split; [|apply ext_refl].
    destruct l; [|apply sinv_src_read; exact S].
    rewrite <- (map_length snd (st_h st)), (step_new _ _ _ _ _ _ _ EST). cbn [cfg_of w_segs w_rl]. destruct P as [P C].
    assert (Push : forall r : res Ptr, (forall x, r = Ok x -> view objs x) ->
              sinv (mkBSt (w_set_rl (st_w st) InDst (rs_rl rs'))
                          (st_h st ++ map (fun p => (InDst, p)) [match r with Ok q => q | _ => nullPtr end])) objs pads).
    { intros r Hr. cbn [map]. apply read_push; auto. destruct r as [x| |]; try apply view_null. exact (Hr x eq_refl). }
    destruct ro; try discriminate Hop; cbn [pushed op_handle] in *; try rewrite handle_pool.
    all: try (cbn [map]; rewrite app_nil_r; destruct (w_set_rl_dst (st_w st) InDst (rs_rl rs')) as (T1 & T2 & _);
              apply sinv_same_segs; auto; fail).
    + apply Push. intros x Ex. eapply (root_view (e_cfgd e) (w_dst (st_w st)) objs pads _ x _ H C).
      rewrite <- Ex. apply surjective_pairing.
    + apply Push. intros x Ex.
      eapply (sptr_view (e_cfgd e) (w_dst (st_w st)) objs pads (snd (hget st h)) i _ x _ H C (hget_view st objs pads h S (eq_sym El)));
        [lia|rewrite <- Ex; apply surjective_pairing].
    + apply Push. intros x ELS.
      pose proof (list_struct_valid _ _ _ _ ELS) as Hval. destruct (as_list_valid _ Hval) as [Eas Ek]. rewrite Eas in *.
      destruct (list_view objs _ (hget_view st objs pads h S (eq_sym El)) Hval Ek) as [Hin _].
      exact (proj1 (list_struct_view objs _ i x Hin Hval Ek ELS)).
    + apply Push. intros x Ex.
      eapply (plat_view (e_cfgd e) (w_dst (st_w st)) objs pads (snd (hget st h)) i _ x _ H C (hget_view st objs pads h S (eq_sym El))).
      rewrite <- Ex. apply surjective_pairing.
  - (* reopen: the same bytes in a fresh multi-segment arena with cap = len; the old handles are
       dropped, the tables stay *)
    exists objs, pads. split; [|apply ext_refl]. destruct P as [P C].
    split; [|split; [|exact C]]; cbn [st_w st_h w_dst w_set_dst].
    + apply (hinv_same_data (w_dst (st_w st))); auto; [apply reopened_data|apply reopened_inv, (hi_inv _ _ _ H)].
    + apply Forall_map. eapply Forall_impl; [|exact P]. intros [[|] p0] Hp; cbn [drop_dst fst snd]; [intros _; apply view_null|discriminate].
Qed.

Lemma root_sview c sm rl p rl' : msg_ok sm -> cfg_strict c = true -> root c sm rl = (Ok p, rl') -> sview sm p.
Proof.
  intros Hm Hc HR. unfold root, lookup_segment in HR.
  destruct ((0 <=? 0) && (0 <? zlen sm)) eqn:E0; [|discriminate].
  destruct (negb _); [destruct (cfg_root c); discriminate|].
  rewrite Hc in HR. apply (readPtr_sview sm rl 0 0 (depth_limit c) p rl'); auto. lia.
Qed.

Lemma sptr_sview c sm hp i rl p rl' : msg_ok sm -> cfg_strict c = true -> sview sm hp ->
  struct_ptr c sm rl (as_struct hp) i = (Ok p, rl') -> sview sm p.
Proof.
  intros Hm Hc V HR. unfold struct_ptr in HR.
  destruct (negb (p_valid (as_struct hp)) || (i >=? PointerCount (p_size (as_struct hp)))) eqn:EE.
  { apply (f_equal fst) in HR. cbn [fst] in HR. apply Ok_inj in HR. subst p. apply sview_null. }
  assert (Hval : p_valid (as_struct hp) = true) by (destruct (p_valid (as_struct hp)); auto; discriminate).
  destruct (as_struct_valid hp Hval) as [Eas Ek]. rewrite Eas in *.
  destruct (V Hval) as (_ & Sg & _). rewrite Hc in HR. unfold seg_of in HR.
  eapply (readPtr_sview sm rl (p_seg hp)); eauto.
Qed.

Lemma plat_sview c sm hp i rl p rl' : msg_ok sm -> cfg_strict c = true -> sview sm hp ->
  ptrlist_at c true sm rl (as_list hp) i = (Ok p, rl') -> sview sm p.
Proof.
  intros Hm Hc V HR. unfold ptrlist_at in HR.
  destruct (primitiveElem true (as_list hp) i (mkOS 0 1)) as [addr| |] eqn:PE; try discriminate.
  pose proof (primitiveElem_valid _ _ _ _ _ PE) as Hval.
  destruct (as_list_valid hp Hval) as [Eas Ek]. rewrite Eas in *.
  destruct (V Hval) as (_ & Sg & _). rewrite Hc in HR. unfold seg_of in HR.
  eapply (readPtr_sview sm rl (p_seg hp)); eauto.
Qed.

(* no op writes the source message (the data setters by the premise [dst_only]) *)
Lemma bstep_src e st o st' out :
  dst_only st o -> bstep e st o = (Some st', out) -> w_src (st_w st') = w_src (st_w st).
Proof.
  intros Hdo E. apply bstep_inv in E. revert Hdo.
  destruct E as [o|o sid m p _ _|sid n _ _|sid idx _|c|o|o h s w1 ES EW|o sid addr hs w1 _ EW|o dst hs w1 _ EW
                 |l0 ro l rs' v _ _|]; intros Hdo; try reflexivity.
  - rewrite (dst_only_setter _ _ _ _ Hdo ES) in EW. destruct (set_in_dst _ _ _ EW) as (m1 & _ & ->). reflexivity.
  - exact (proj1 (src_pres true (e_fuel e)) true _ _ _ _ _ _ _ EW).
  - exact (proj2 (src_pres true (e_fuel e)) true _ _ _ _ _ EW).
  - apply w_set_rl_dst.
Qed.

(* every op leaves the source views of the pool intact *)
Theorem bstep_spool e st o st' out :
  cfg_strict (e_cfgs e) = true -> spool st -> dst_only st o -> bstep e st o = (Some st', out) -> spool st'.
Proof.
  intros Hcs SP Hdo E. pose proof SP as [Hm Pp]. unfold spool. rewrite (bstep_src _ _ _ _ _ Hdo E).
  split; [exact Hm|]. clear Hdo. apply bstep_inv in E.
  destruct E as [o|o sid m p _ _|sid n _ _|sid idx _|c|o|o h s w1 _ _|o sid addr hs w1 _ _|o dst hs w1 _ _
                 |l0 ro l rs' v El EST|]; cbn [st_h hpush]; try exact Pp.
  1-4: apply Forall_app; split; [exact Pp|]; constructor; [discriminate|constructor].
  - (* a read op on the source adds at most one handle, a source view *)
    apply Forall_app. split; [exact Pp|]. apply Forall_forall. intros x Hx. apply in_map_iff in Hx.
    destruct Hx as (p & <- & Hp). cbn [fst snd]. intros ->. cbn [cfg_of w_segs w_rl] in EST.
    rewrite <- (map_length snd (st_h st)), (step_new _ _ _ _ _ _ _ EST) in Hp.
    destruct ro; cbn [pushed op_handle] in Hp, El; try (destruct Hp; fail); destruct Hp as [<-|[]]; try rewrite handle_pool.
    + destruct (root _ _ _) as [[x| |] rl2] eqn:ER; cbn [fst]; try apply sview_null.
      apply (root_sview (e_cfgs e) _ _ _ _ Hm Hcs ER).
    + destruct (struct_ptr _ _ _ _ _) as [[x| |] rl2] eqn:ER; cbn [fst]; try apply sview_null.
      apply (sptr_sview (e_cfgs e) _ (snd (hget st h)) i _ _ _ Hm Hcs (hget_sview st h SP (eq_sym El)) ER).
    + destruct (list_struct true (as_list (snd (hget st h))) i) as [x| |] eqn:ELS; try apply sview_null.
      pose proof (list_struct_valid _ _ _ _ ELS) as Hval. destruct (as_list_valid _ Hval) as [Eas Ek]. rewrite Eas in *.
      apply (list_struct_sview _ _ i x (hget_sview st h SP (eq_sym El)) Ek ELS).
    + destruct (ptrlist_at _ _ _ _ _ _) as [[x| |] rl2] eqn:ER; cbn [fst]; try apply sview_null.
      apply (plat_sview (e_cfgs e) _ (snd (hget st h)) i _ _ _ Hm Hcs (hget_sview st h SP (eq_sym El)) ER).
  - apply Forall_map. eapply Forall_impl; [|exact Pp]. intros [[|] p0] Hp; cbn [drop_dst fst snd]; [discriminate|exact Hp].
Qed.

Definition sub_prog (ops : list bop) : bool := forallb sub_op ops.
Definition seg_bound (st : bstate) : Prop := nsegs (w_dst (st_w st)) < 4294967296.

(* [dst_only] at every step of a run *)
Fixpoint dst_run (e : benv) (st : bstate) (ops : list bop) : Prop :=
  match ops with
  | [] => True
  | o :: r => dst_only st o /\ match bstep e st o with (Some st1, _) => dst_run e st1 r | _ => True end
  end.

Theorem brun_hinv e : cfg_strict (e_cfgs e) = true -> forall ops st objs pads,
  sinv st objs pads -> spool st -> sub_prog ops = true -> dst_run e st ops -> Forall seg_bound (bstates e st ops) ->
  Forall (fun st' => exists objs' pads', sinv st' objs' pads') (bstates e st ops).
Proof.
  intros Hcs. induction ops as [|o r IH]; intros st objs pads S SP Hp Hd Hb; cbn [bstates] in *; constructor; eauto.
  cbn [sub_prog forallb] in Hp. apply andb_prop in Hp. destruct Hp as [Ho Hr].
  inversion Hb as [|? ? _ Hb']; subst. destruct Hd as [Hd1 Hd2].
  destruct (bstep e st o) as [[st1|] v] eqn:E; [|constructor].
  assert (B1 : seg_bound st1) by (destruct r; cbn [bstates] in Hb'; inversion Hb'; assumption).
  destruct (bstep_hinv e st objs pads o st1 v S SP Ho Hd1 E B1) as (objs1 & pads1 & S1 & _).
  pose proof (bstep_spool e st o st1 v Hcs SP Hd1 E) as SP1.
  eapply IH; eauto.
Qed.

Lemma hinv_fresh m : inv m -> 0 < nsegs m < 4294967296 -> mem m 0 = repeat 0 8 ->
  (forall i, 0 < i -> mem m i = []) -> hinv m [] [].
Proof.
  intros Hi Hn H0 Hr.
  assert (Sm : segs_small m).
  { intros i. destruct (Z_le_gt_dec i 0) as [L|G].
    - assert (E : mem m i = mem m 0) by (unfold mem, get_seg; replace (Z.to_nat i) with O by lia; reflexivity).
      rewrite E, H0. cbn. unfold maxSegmentSize. lia.
    - rewrite Hr by lia. cbn. unfold maxSegmentSize. lia. }
  constructor; auto; try lia; try (intros i j Hij Hj; cbn in Hj; lia); try (intros ? []; fail); try (intros ? ? _ []; fail).
  - intros r [<-|[]]. unfold in_msg, root_reg. cbn [r_seg r_start r_size].
    apply in_seg_intro; rewrite ?zlen_bm, ?seg_len_bm; try lia. rewrite H0. cbn. lia.
  - intros q [<-|[]]. apply null_slot_ok. cbn [fst snd].
    rewrite word_at_sub; try lia; [|rewrite H0; cbn; lia]. rewrite H0. reflexivity.
Qed.

Definition all_empty (m : bmsg) : Prop := forall i, mem m i = [].

Lemma alloc_on_empty m sid sz m1 s1 a :
  inv m -> all_empty m -> 0 <= sid < nsegs m -> 0 <= sz -> alloc m sid sz = Ok (m1, s1, a) ->
  mem m1 s1 = repeat 0 (Z.to_nat (padToWord sz)) /\ 0 <= s1 < nsegs m1 /\ (forall i, 0 <= i -> i <> s1 -> mem m1 i = []).
Proof.
  intros [Hwf Har] He Hs Hz EA.
  pose proof (alloc_fresh _ _ _ _ _ _ Hwf Har Hs Hz EA) as AF. cbv zeta in AF.
  destruct AF as (A1 & _ & _ & _ & _ & A6 & _ & _ & _ & A10 & _).
  unfold all_empty, mem in *. split; [rewrite A6, (He s1); reflexivity|]. split; [unfold nsegs; exact A1|].
  intros i Hi Hne. rewrite A10 by assumption. apply He.
Qed.

Definition root_cap_ok (a : arena_spec) : Prop :=
  match a with ArRaw (c :: _) => 8 <= c < 4294967296 | ArRaw [] => False | _ => True end.

Lemma raw_all_empty k cs rl : all_empty (mkBM k (map (fun c => mkBS [] c) cs) [] rl).
Proof.
  intros i. unfold mem, get_seg. cbn [bm_segs].
  destruct (Nat.lt_ge_cases (Z.to_nat i) (length (map (fun c => mkBS [] c) cs))) as [L|G].
  - apply nth_In with (d := mkBS [] 0) in L. apply in_map_iff in L. destruct L as (c & <- & _). reflexivity.
  - rewrite nth_overflow by lia. reflexivity.
Qed.

Lemma create_hinv a rl m :
  arena_spec_wf a -> root_cap_ok a -> create a rl = Ok m -> nsegs m < 4294967296 -> hinv m [] [].
Proof.
  intros Hw Hr Hc Hn.
  assert (Fin : forall m1 m2 sid x, inv m1 -> all_empty m1 -> 0 < nsegs m1 -> alloc m1 0 8 = Ok (m2, sid, x) -> sid = 0 ->
                nsegs m2 < 4294967296 -> hinv m2 [] []).
  { intros m1 m2 sid x I1 E1 N1 EA Es Hn2. subst sid.
    assert (H08 : 0 <= 8) by lia. assert (H0 : 0 <= 0 < nsegs m1) by lia.
    destruct (alloc_on_empty _ _ _ _ _ _ I1 E1 H0 H08 EA) as (A1 & A2 & A3).
    destruct (alloc_new _ _ _ _ _ _ I1 H0 H08 EA) as (I2 & _).
    apply hinv_fresh; auto; [lia|]. intros i Hi. apply A3; lia. }
  unfold create in Hc.
  assert (NM : forall k caps, caps_ok caps -> new_message k caps rl = Ok m -> hinv m [] []).
  { intros k caps Hcaps E. destruct (new_message_shape _ _ _ _ E) as (c & x & Hc0 & EA).
    apply (Fin (raw_message k [c] rl) m 0 x); auto.
    - apply raw_inv; [repeat constructor; auto|reflexivity].
    - apply raw_all_empty.
    - unfold nsegs, zlen; cbn; lia. }
  destruct a as [[c|]|[c|]|cs]; cbn [arena_spec_wf root_cap_ok] in *.
  - apply (NM ASingle [c]); auto. repeat constructor. exact Hw.
  - apply (NM ASingle []); auto. constructor.
  - apply (NM AMulti [c]); auto. repeat constructor. exact Hw.
  - apply (NM AMulti []); auto. constructor.
  - destruct cs as [|c r]; [destruct Hr|].
    destruct (newStruct (raw_message AMulti (c :: r) rl) 0 (mkOS 8 0)) as [[m1 p]| |] eqn:EN; cbn [bind] in Hc; try discriminate.
    apply Ok_inj in Hc. cbn [fst] in Hc. subst m1.
    unfold newStruct in EN. cbn [os_isValid negb DataSize PointerCount] in EN.
    change (negb (8 <=? 65535 * 8)) with false in EN. cbv iota in EN.
    change (totalSize (mkOS (padToWord 8) 0)) with 8 in EN.
    destruct (alloc (raw_message AMulti (c :: r) rl) 0 8) as [[[m2 sid] x]| |] eqn:EA; cbn [bind] in EN; try discriminate.
    apply Ok_inj in EN. injection EN as -> _.
    pose proof (raw_inv AMulti (c :: r) rl Hw ltac:(discriminate)) as I0.
    assert (Es : sid = 0).
    { eapply alloc_in_place; [|exact EA]. unfold raw_message, get_seg, hasCapacity, blen, zlen, u32. cbn. inversion Hw; subst. lia. }
    apply (Fin (raw_message AMulti (c :: r) rl) m sid x); auto.
    + apply raw_all_empty.
    + unfold nsegs, raw_message, zlen. cbn [bm_segs map length]. lia.
Qed.

(* [heap_inv_sublang]: every arena configuration that has a root word, every source message
   (any bytes 0..255), every program, every state the interpreter reaches while the message has
   fewer than 2^32 segments: every valid pool handle is a view of the object table resp. a source
   view, and the pointer-level invariant holds *)
Theorem heap_inv_sublang a cfgd cfgs ncaps fuel src ops m :
  arena_spec_wf a -> root_cap_ok a -> create a (init_rlimit cfgd) = Ok m -> sub_prog ops = true ->
  msg_ok src -> cfg_strict cfgs = true ->
  let st0 := mkBSt (mkW m src (init_rlimit cfgs)) [] in
  dst_run (mkEnv cfgd cfgs ncaps fuel) st0 ops ->
  Forall seg_bound (bstates (mkEnv cfgd cfgs ncaps fuel) st0 ops) ->
  Forall (fun st => exists objs pads, sinv st objs pads) (bstates (mkEnv cfgd cfgs ncaps fuel) st0 ops).
Proof.
  intros Ha Hr Hc Hp Hms Hcs st0 Hd Hb.
  assert (B0 : seg_bound st0) by (destruct ops; cbn [bstates] in Hb; inversion Hb; assumption).
  apply (brun_hinv (mkEnv cfgd cfgs ncaps fuel) Hcs ops st0 [] []); auto.
  - split; [cbn; eapply create_hinv; eauto|]. split; [constructor|intros h []].
  - split; [exact Hms|constructor].
Qed.
