(* [write_read_ptr]: the pointer word(s) that segment.go writePtr stores for an in-message
   target - near pointer, far pointer + landing pad, double-far pointer + two-word pad, chosen
   by the same capacity test as the code - are resolved by the reader model to exactly that
   target; only the pointer word and freshly allocated pad words change. *)
From CV Require Import Core.Builder Core.ReaderFacts Core.ArithFacts Core.BuilderFacts Core.AllocProofs.
From CV Require Core.ArithMore.
From Coq Require Import ZifyBool ZifyNat.
Open Scope Z_scope.

Ltac Zify.zify_post_hook ::= Z.div_mod_to_equations.

Lemma writeRawPointer_wrote m sid addr v m' :
  0 <= sid -> writeRawPointer m sid addr v = Ok m' -> wrote m m' sid addr (le_encode 8 v).
Proof. intros Hs H. unfold writeRawPointer in H. apply seg_write_wrote in H; auto. cbn. lia. Qed.

Lemma wrote_word_back m m' sid addr v :
  wrote m m' sid addr (le_encode 8 v) -> word64 v -> zlen (mem m sid) < 4294967296 ->
  readRawPointer (mem m' sid) addr = Ok v.
Proof.
  intros HW Hv Hl. unfold readRawPointer, readUintN.
  pose proof (wrote_slice_same _ _ _ _ _ HW Hl) as R. change (zlen (le_encode 8 v)) with 8 in R.
  rewrite R. cbn [bind]. f_equal. apply (le_decode_encode 8). unfold word64 in Hv.
  change (256 ^ Z.of_nat 8) with 18446744073709551616. exact Hv.
Qed.

Lemma slice_app_prefix d t base n :
  0 <= base -> 0 <= n -> base + n <= zlen d -> zlen (d ++ t) < 4294967296 ->
  slice (d ++ t) base n = slice d base n.
Proof.
  intros H1 H2 H3 H4. rewrite zlen_app in H4. assert (Ht := zlen_nonneg t).
  rewrite !slice_ok by (rewrite ?zlen_app; lia). f_equal. unfold sub.
  rewrite skipn_app. rewrite firstn_app. unfold zlen in *.
  replace (Z.to_nat n - length (skipn (Z.to_nat base) d))%nat with O by (rewrite skipn_length; lia).
  cbn [firstn]. now rewrite app_nil_r.
Qed.

Lemma readRawPointer_app_prefix d t a :
  0 <= a -> a + 8 <= zlen d -> zlen (d ++ t) < 4294967296 ->
  readRawPointer (d ++ t) a = readRawPointer d a.
Proof. intros. unfold readRawPointer, readUintN. rewrite slice_app_prefix by lia. reflexivity. Qed.

(* a word of the freshly appended zero region *)
Lemma zlen_mem_blen m i : zlen (mem m i) = blen (get_seg m i).
Proof. reflexivity. Qed.

(* all segments are addressable *)
Definition segs_small (m : bmsg) : Prop := forall i, zlen (mem m i) <= maxSegmentSize.

Lemma alloc_in_place m sid sz m' sid' addr :
  hasCapacity (get_seg m sid) (padToWord sz) = true ->
  alloc m sid sz = Ok (m', sid', addr) -> sid' = sid.
Proof.
  intros HC. unfold alloc. destruct (sz >? maxAllocSize); [discriminate|]. rewrite HC. cbn [bind].
  destruct (addSize _ _); [|discriminate]. now intros [= _ <- _].
Qed.

(* what place needs to know about an allocation: old words are still readable, the new
   region is inside the segment *)
Lemma alloc_mem m sid sz m' sid' addr :
  bmsg_wf m -> arena_wf m -> 0 <= sid < zlen (bm_segs m) -> 0 <= sz ->
  alloc m sid sz = Ok (m', sid', addr) ->
  (forall i, 0 <= i -> exists t, mem m' i = mem m i ++ t) /\
  zlen (mem m' sid') = addr + padToWord sz /\ addr = zlen (mem m sid') /\ addr mod 8 = 0 /\
  0 <= sid' < zlen (bm_segs m') /\ zlen (bm_segs m) <= zlen (bm_segs m') <= zlen (bm_segs m) + 1 /\
  bmsg_wf m' /\ arena_wf m' /\ zlen (mem m' sid') <= maxSegmentSize /\
  (forall i, 0 <= i -> i <> sid' -> mem m' i = mem m i) /\
  bm_caps m' = bm_caps m /\ bm_rl m' = bm_rl m /\ bm_arena m' = bm_arena m.
Proof.
  intros Hwf Har Hsid Hsz H. apply alloc_fresh in H; auto. cbv zeta in H.
  destruct H as (A1 & A2 & A3 & A4 & A5 & A6 & A7 & A8 & A9 & A10 & A11 & A12 & A13 & A14 & A15 & A16 & A17).
  unfold mem. repeat split; auto; try lia.
  intros i Hi. destruct (Z.eq_dec i sid') as [->|Hne].
  - eexists. exact A6.
  - exists []. rewrite app_nil_r. apply A10; auto.
Qed.

(* [resolves_to ms sid off tsid taddr raw]: the reader model resolves the pointer at (sid, off)
   to a struct / list pointer word [val] with the type and size fields of [raw] whose offset,
   applied to the base the reader computed, is the address taddr of segment tsid. *)
Definition resolves_to (ms : segs) (sid off tsid taddr raw : Z) : Prop :=
  exists base val,
    (forall strict, resolveFarPointer strict ms sid (nth (Z.to_nat sid) ms []) off = Ok (tsid, nth (Z.to_nat tsid) ms [], base, val)) /\
    word64 val /\ pointerType val = pointerType raw /\ structSize val = structSize raw /\
    listType val = listType raw /\ numListElements val = numListElements raw /\
    element base (ptr_offset val) 8 = Some taddr.

(* a non-null struct / list pointer word with zero offset (writePtr never places the zero word:
   zero-sized structs are encoded inline with offset -1, list words have the type bit set) *)
Definition raw_ok (raw : Z) : Prop := word64 raw /\ raw mod 4 < 2 /\ ptr_offset raw = 0 /\ raw <> 0.

Lemma raw_type raw : raw mod 4 < 2 -> 0 <= raw ->
  (pointerType raw = structPointer \/ pointerType raw = listPointer) /\
  (pointerType raw =? doubleFarPointer) = false /\ (pointerType raw =? farPointer) = false.
Proof.
  intros H H0. unfold pointerType, structPointer, listPointer, doubleFarPointer, farPointer. cbv zeta.
  destruct (raw mod 4 =? 2) eqn:E; lia.
Qed.

Lemma nearPointerOffset_ok paddr addr :
  0 <= paddr <= 4294967288 -> 0 <= addr <= 4294967288 -> paddr mod 8 = 0 -> addr mod 8 = 0 ->
  off_ok (nearPointerOffset paddr addr) /\ paddr + 8 + (nearPointerOffset paddr addr) * 8 = addr.
Proof. intros. unfold nearPointerOffset, off_ok, s32. cbv zeta. split_ifs; lia. Qed.

Lemma element_words base off x : 0 <= x <= maxSegmentSize -> base + off * 8 = x -> element base off 8 = Some x.
Proof.
  intros H1 H2. unfold element. cbv zeta.
  destruct ((base + off * 8 >? maxSegmentSize) || (base + off * 8 <? 0)) eqn:E; [lia|]. f_equal. lia.
Qed.

Lemma write_bytes_app_right d t k bs : 0 <= k ->
  write_bytes (d ++ t) (zlen d + k) bs = d ++ write_bytes t k bs.
Proof.
  intros Hk. unfold write_bytes, zlen.
  replace (Z.to_nat (Z.of_nat (length d) + k)) with (length d + Z.to_nat k)%nat by lia.
  rewrite firstn_app_2. rewrite skipn_app. rewrite skipn_all2 by lia.
  replace (length d + Z.to_nat k + length bs - length d)%nat with (Z.to_nat k + length bs)%nat by lia.
  cbn [app]. now rewrite <- app_assoc.
Qed.

Lemma write_bytes_app_left d t a bs : 0 <= a -> a + zlen bs <= zlen d ->
  write_bytes (d ++ t) a bs = write_bytes d a bs ++ t.
Proof.
  intros Ha Hl. unfold write_bytes, zlen in *.
  rewrite firstn_app, skipn_app.
  replace (Z.to_nat a - length d)%nat with O by lia.
  replace (Z.to_nat a + length bs - length d)%nat with O by lia.
  cbn [firstn skipn]. rewrite app_nil_r. now rewrite <- !app_assoc.
Qed.

Lemma wrote_nsegs m m' sid a bs : wrote m m' sid a bs -> zlen (bm_segs m') = zlen (bm_segs m).
Proof. intros H. apply H. Qed.
Lemma wrote_len m m' sid a bs i : wrote m m' sid a bs -> 0 <= i -> zlen (mem m' i) = zlen (mem m i).
Proof.
  intros (_ & _ & _ & W4 & _ & W6 & _) Hi. destruct (Z.eq_dec i sid) as [->|Hne]; [exact W6|].
  unfold mem. now rewrite W4.
Qed.
Lemma wrote_mem_other m m' sid a bs i : wrote m m' sid a bs -> 0 <= i -> i <> sid -> mem m' i = mem m i.
Proof. intros (_ & _ & _ & W4 & _) Hi Hne. unfold mem. now rewrite W4. Qed.

Lemma regionInBounds_true s base sz :
  base + sz <= maxSegmentSize -> base + sz <= zlen s -> regionInBounds s base sz = true.
Proof. intros. apply regionInBounds_spec. lia. Qed.

Definition place_pre (m : bmsg) (dsid off tsid taddr raw : Z) : Prop :=
  bmsg_wf m /\ arena_wf m /\ segs_small m /\ raw_ok raw /\
  0 <= dsid < zlen (bm_segs m) /\ 0 <= tsid < zlen (bm_segs m) /\ zlen (bm_segs m) < 4294967296 /\
  0 <= off /\ off mod 8 = 0 /\ off + 8 <= zlen (mem m dsid) /\
  0 <= taddr /\ taddr mod 8 = 0 /\ taddr <= zlen (mem m tsid).

Lemma padToWord_16 : padToWord 16 = 16. Proof. reflexivity. Qed.

(* the three ways through the placement switch: what is allocated and which words are written *)
Inductive place_run (m : bmsg) (d off t ta raw : Z) : bmsg -> Prop :=
| PRnear m' : t = d ->
    writeRawPointer m d off (withOffset raw (nearPointerOffset off ta)) = Ok m' ->
    place_run m d off t ta raw m'
| PRfar m1 pa m2 m3 : t <> d -> alloc m t 8 = Ok (m1, t, pa) ->
    writeRawPointer m1 t pa (withOffset raw (nearPointerOffset pa ta)) = Ok m2 ->
    writeRawPointer m2 d off (rawFarPointer t pa) = Ok m3 ->
    place_run m d off t ta raw m3
| PRdfar m1 ps pa m2 m3 m4 : t <> d -> alloc m d 16 = Ok (m1, ps, pa) ->
    writeRawPointer m1 ps pa (rawFarPointer t ta) = Ok m2 ->
    writeRawPointer m2 ps (addSizeUnchecked pa 8) raw = Ok m3 ->
    writeRawPointer m3 d off (rawDoubleFarPointer ps pa) = Ok m4 ->
    place_run m d off t ta raw m4.

Lemma place_inv w d off t ta raw w' :
  place w d off t ta raw = Ok w' -> exists m', w' = w_set_dst w m' /\ place_run (w_dst w) d off t ta raw m'.
Proof.
  unfold place. intros H. destruct (Z.eqb_spec t d) as [E|E].
  - apply lift0_Ok in H. destruct H as (m' & H & ->). eauto using PRnear.
  - destruct (hasCapacity _ 8) eqn:EC; apply bind_Ok in H; destruct H as ([[m1 s1] pa] & EA & H).
    + assert (s1 = t) by exact (alloc_in_place _ _ 8 _ _ _ EC EA). subst s1.
      apply bind_Ok in H. destruct H as (m2 & E2 & H). apply lift0_Ok in H. destruct H as (m3 & E3 & ->).
      eauto using PRfar.
    + apply bind_Ok in H. destruct H as (m2 & E2 & H). apply bind_Ok in H. destruct H as (m3 & E3 & H).
      apply lift0_Ok in H. destruct H as (m4 & E4 & ->). eauto using PRdfar.
Qed.

(* [grown m m1]: m1 is m with bytes appended to some segments (and possibly a new segment) *)
Definition grown (m m1 : bmsg) : Prop :=
  (forall i, 0 <= i -> exists tl, mem m1 i = mem m i ++ tl) /\
  bmsg_wf m1 /\ arena_wf m1 /\ zlen (bm_segs m) <= zlen (bm_segs m1) <= zlen (bm_segs m) + 1 /\
  bm_caps m1 = bm_caps m /\ bm_rl m1 = bm_rl m.

Lemma grown_refl m : bmsg_wf m -> arena_wf m -> grown m m.
Proof. intros Hwf Har. repeat split; auto; try lia. intros i _. exists []. now rewrite app_nil_r. Qed.

Lemma wrote_wf m m' sid a bs : wrote m m' sid a bs -> 0 <= sid -> bmsg_wf m /\ arena_wf m -> bmsg_wf m' /\ arena_wf m'.
Proof.
  intros (W1 & W2 & W3 & W4 & W5 & W6 & W7 & W8 & W9 & W10) Hs [Hwf Har]. split.
  - apply bmsg_wf_iff. intros i Hi. destruct (Z.eq_dec i sid) as [->|Hne].
    + pose proof (get_seg_wf m sid Hwf) as [S1 S2]. unfold seg_wf, blen in *. unfold mem in W6.
      rewrite W6, W5. lia.
    + rewrite W4 by assumption. now apply get_seg_wf.
  - unfold arena_wf in *. rewrite W7, W8. exact Har.
Qed.

(* a word written at or after the old end of its segment lands in the appended part *)
Lemma grown_write m m1 s a v m2 :
  grown m m1 -> 0 <= s -> zlen (mem m s) <= a -> writeRawPointer m1 s a v = Ok m2 -> grown m m2.
Proof.
  intros (X & Hwf & Har & N & C & RL) Hs Ha E. apply writeRawPointer_wrote in E; [|exact Hs].
  destruct (wrote_wf _ _ _ _ _ E Hs (conj Hwf Har)) as [Hwf2 Har2].
  destruct E as (_ & _ & W3 & W4 & _ & _ & W7 & _ & W9 & W10).
  repeat split; auto; try congruence; try lia.
  intros i Hi. destruct (X i Hi) as [tl Et]. destruct (Z.eq_dec i s) as [->|Hne].
  - rewrite W3, Et. replace a with (zlen (mem m s) + (a - zlen (mem m s))) by lia.
    rewrite write_bytes_app_right by lia. eauto.
  - exists tl. unfold mem. rewrite W4 by assumption. exact Et.
Qed.

(* place appends pad words to some segment, then writes the pointer word *)
Lemma place_frame m d off t ta raw m' :
  bmsg_wf m -> arena_wf m -> 0 <= d < zlen (bm_segs m) -> 0 <= t < zlen (bm_segs m) ->
  place_run m d off t ta raw m' -> exists m1 pw, grown m m1 /\ wrote m1 m' d off (le_encode 8 pw).
Proof.
  intros Hwf Har Hd Ht.
  assert (GA : forall sid sz m1 s a, 0 <= sid < zlen (bm_segs m) -> 0 <= sz -> alloc m sid sz = Ok (m1, s, a) ->
            grown m m1 /\ 0 <= s /\ a = zlen (mem m s) /\ a + padToWord sz <= maxSegmentSize).
  { intros sid sz m1 s a Hs Hz EA.
    destruct (alloc_mem m sid sz m1 s a Hwf Har Hs Hz EA) as (A1 & A2 & A3 & A4 & A5 & A6 & A7 & A8 & A9 & A10 & A11 & A12 & A13).
    unfold grown. repeat split; auto; lia. }
  intros [m1 E Ew|m1 pa m2 m3 E EA E2 E3|m1 ps pa m2 m3 m4 E EA E2 E3 E4].
  - exists m. eexists. split; [now apply grown_refl|]. apply writeRawPointer_wrote; [lia|exact Ew].
  - destruct (GA t 8 _ _ _ Ht ltac:(lia) EA) as (G1 & _ & Ea & _).
    exists m2. eexists. split; [|apply writeRawPointer_wrote; [lia|exact E3]].
    eapply grown_write; [exact G1| | |exact E2]; lia.
  - destruct (GA d 16 _ _ _ Hd ltac:(lia) EA) as (G1 & Hps & Ea & Mx).
    (* the second pad word is at pa + 8: the region of 16 bytes is inside the segment bound *)
    assert (EP8 : addSizeUnchecked pa 8 = pa + 8).
    { pose proof (zlen_nonneg (mem m ps)). unfold addSizeUnchecked, u32, maxSegmentSize in *. rewrite padToWord_16 in Mx. lia. }
    rewrite EP8 in E3.
    exists m3. eexists. split; [|apply writeRawPointer_wrote; [lia|exact E4]].
    eapply grown_write; [eapply grown_write; [exact G1| | |exact E2]| | |exact E3]; lia.
Qed.

(* [place_words ms d off t ta raw oldlen]: the pointer word at (d, off) and the landing pad, as
   readRawPointer finds them in ms; a pad starts at the old end [oldlen] of its segment *)
Inductive place_words (ms : segs) (d off t ta raw : Z) (oldlen : Z -> Z) : Prop :=
| PWnear : t = d ->
    readRawPointer (nth (Z.to_nat d) ms []) off = Ok (withOffset raw (nearPointerOffset off ta)) ->
    place_words ms d off t ta raw oldlen
| PWfar : t <> d -> oldlen t mod 8 = 0 ->
    readRawPointer (nth (Z.to_nat d) ms []) off = Ok (rawFarPointer t (oldlen t)) ->
    readRawPointer (nth (Z.to_nat t) ms []) (oldlen t) = Ok (withOffset raw (nearPointerOffset (oldlen t) ta)) ->
    place_words ms d off t ta raw oldlen
| PWdfar ps : t <> d -> 0 <= ps < zlen ms -> oldlen ps mod 8 = 0 ->
    readRawPointer (nth (Z.to_nat d) ms []) off = Ok (rawDoubleFarPointer ps (oldlen ps)) ->
    readRawPointer (nth (Z.to_nat ps) ms []) (oldlen ps) = Ok (rawFarPointer t ta) ->
    readRawPointer (nth (Z.to_nat ps) ms []) (oldlen ps + 8) = Ok raw ->
    place_words ms d off t ta raw oldlen.

(* segment ids below 0 designate segment 0 *)
Lemma segs_small_nonneg m : (forall i, 0 <= i -> zlen (mem m i) <= maxSegmentSize) -> segs_small m.
Proof. intros S i. destruct (Z_le_gt_dec i 0) as [L|G]; [rewrite (mem_neg _ i L)|]; apply S; lia. Qed.

Lemma wrote_small m m' sid a bs : wrote m m' sid a bs -> segs_small m -> segs_small m'.
Proof. intros W S. apply segs_small_nonneg. intros i Hi. rewrite (wrote_len _ _ _ _ _ i W Hi). apply S. Qed.

Lemma alloc_small m sid sz m1 s1 a :
  bmsg_wf m -> arena_wf m -> segs_small m -> 0 <= sid < zlen (bm_segs m) -> 0 <= sz ->
  alloc m sid sz = Ok (m1, s1, a) -> segs_small m1.
Proof.
  intros Hwf Har Hsm Hs Hz E.
  destruct (alloc_mem _ _ _ _ _ _ Hwf Har Hs Hz E) as (_ & _ & _ & _ & _ & _ & _ & _ & MX & A10 & _).
  apply segs_small_nonneg. intros i Hi. destruct (Z.eq_dec i s1) as [->|Hne]; [exact MX|].
  rewrite A10 by assumption. apply Hsm.
Qed.

(* the near pointer word stored at a for the target ta *)
Lemma near_word raw a ta :
  word64 raw -> raw mod 4 < 2 -> 0 <= a <= 4294967288 -> 0 <= ta <= 4294967288 -> a mod 8 = 0 -> ta mod 8 = 0 ->
  let v := withOffset raw (nearPointerOffset a ta) in
  word64 v /\ pointerType v = pointerType raw /\ structSize v = structSize raw /\
  listType v = listType raw /\ numListElements v = numListElements raw /\
  element (a + 8) (ptr_offset v) 8 = Some ta.
Proof.
  intros Rw Rt Ha Hta Am Tm. destruct (nearPointerOffset_ok a ta) as [N1 N2]; try lia.
  destruct (withOffset_roundtrip raw (nearPointerOffset a ta) Rw N1 Rt) as (Q1 & Q2 & Q3 & Q4 & Q5 & Q6).
  cbv zeta in *. split; [exact Q1|]. split; [exact Q2|]. split; [exact Q4|]. split; [exact Q5|]. split; [exact Q6|].
  rewrite Q3. apply element_words; [unfold maxSegmentSize; lia|lia].
Qed.

Lemma place_stores m d off t ta raw m' :
  place_pre m d off t ta raw -> place_run m d off t ta raw m' ->
  place_words (bm_data m') d off t ta raw (fun i => zlen (mem m i)).
Proof.
  intros (Hwf & Har & Hsm & (Rw & Rt & Ro & Rnz) & Hd & Ht & Hn & Ho0 & Ho & Hol & Ht0 & Hta & Htl).
  pose proof (Hsm t) as Hlt. pose proof (Hsm d) as Hld. unfold maxSegmentSize in Hlt, Hld.
  assert (WB : forall m1 m2 s a v, segs_small m1 -> 0 <= s -> word64 v -> writeRawPointer m1 s a v = Ok m2 ->
            wrote m1 m2 s a (le_encode 8 v) /\ segs_small m2 /\ readRawPointer (mem m2 s) a = Ok v).
  { intros m1 m2 s a v S Hs Hv E. apply writeRawPointer_wrote in E; [|exact Hs].
    split; [exact E|]. split; [eapply wrote_small; eauto|].
    apply (wrote_word_back m1 m2); auto. pose proof (S s). unfold maxSegmentSize in *. lia. }
  intros [m1 E Ew|m1 pa m2 m3 E EA E2 E3|m1 ps pa m2 m3 m4 E EA E2 E3 E4].
  - subst t. destruct (near_word raw off ta Rw Rt) as (Q1 & _); try lia.
    destruct (WB _ _ d _ _ Hsm ltac:(lia) Q1 Ew) as (_ & _ & R).
    apply PWnear; [reflexivity|]. now rewrite nth_bm_data.
  - destruct (alloc_mem m t 8 m1 t pa Hwf Har Ht ltac:(lia) EA) as (_ & A2 & A3 & A4 & _).
    pose proof (alloc_small m t 8 _ _ _ Hwf Har Hsm Ht ltac:(lia) EA) as S1.
    subst pa. set (pa := zlen (mem m t)) in *. assert (Hpa : 0 <= pa) by apply zlen_nonneg.
    destruct (near_word raw pa ta Rw Rt) as (Q1 & _); try lia.
    destruct (far_pointer_roundtrip t pa ltac:(lia) ltac:(lia)) as (F1 & _).
    destruct (WB _ _ t _ _ S1 ltac:(lia) Q1 E2) as (W2 & S2 & R2).
    destruct (WB _ _ d _ _ S2 ltac:(lia) F1 E3) as (W3 & _ & R3).
    apply PWfar; auto; rewrite nth_bm_data; [exact R3|].
    now rewrite (wrote_mem_other _ _ _ _ _ t W3) by lia.
  - destruct (alloc_mem m d 16 m1 ps pa Hwf Har Hd ltac:(lia) EA) as (A1 & A2 & A3 & A4 & A5 & A6 & _ & _ & A9 & _).
    pose proof (alloc_small m d 16 _ _ _ Hwf Har Hsm Hd ltac:(lia) EA) as S1.
    rewrite padToWord_16 in A2. unfold maxSegmentSize in A9.
    subst pa. set (pa := zlen (mem m ps)) in *. assert (Hpa : 0 <= pa) by apply zlen_nonneg.
    assert (EP8 : addSizeUnchecked pa 8 = pa + 8) by (unfold addSizeUnchecked, u32; lia).
    rewrite EP8 in E3.
    destruct (far_pointer_roundtrip t ta ltac:(lia) ltac:(lia)) as (F1 & _).
    destruct (double_far_pointer_roundtrip ps pa ltac:(lia) ltac:(lia)) as (D1 & _).
    destruct (WB _ _ ps _ _ S1 ltac:(lia) F1 E2) as (W2 & S2 & R2).
    destruct (WB _ _ ps _ _ S2 ltac:(lia) Rw E3) as (W3 & S3 & R3).
    destruct (WB _ _ d _ _ S3 ltac:(lia) D1 E4) as (W4 & _ & R4).
    (* the pointer word does not overlap the pad: the pad starts at the old end of its segment *)
    assert (Hsep : ps <> d \/ off + 8 <= pa) by (destruct (Z.eq_dec ps d) as [->|Hne]; [right; lia|left; exact Hne]).
    apply (PWdfar _ _ _ _ _ _ _ ps); auto; cbv beta; fold pa; rewrite ?nth_bm_data.
    + unfold bm_data. rewrite zlen_map, (wrote_nsegs _ _ _ _ _ W4), (wrote_nsegs _ _ _ _ _ W3), (wrote_nsegs _ _ _ _ _ W2). lia.
    + exact R4.
    + rewrite (readRawPointer_other _ _ _ _ _ ps pa W4), (readRawPointer_other _ _ _ _ _ ps pa W3);
        [exact R2|lia|cbn; lia|lia|cbn; lia].
    + rewrite (readRawPointer_other _ _ _ _ _ ps (pa + 8) W4); [exact R3|lia|cbn; lia].
Qed.

(* the reader resolves the stored words to the target *)
Lemma readRawPointer_bounds s a v : readRawPointer s a = Ok v -> 0 <= a /\ a + 8 <= zlen s /\ a + 8 < 4294967296.
Proof.
  unfold readRawPointer, readUintN, slice. cbv zeta. unfold addSizeUnchecked, u32.
  destruct ((0 <=? a) && (a <=? (a + 8) mod 4294967296) && ((a + 8) mod 4294967296 <=? zlen s)) eqn:E; [|discriminate].
  intros _. lia.
Qed.

Lemma lookup_nth (ms : segs) i : 0 <= i < zlen ms -> lookup_segment ms i = Ok (nth (Z.to_nat i) ms []).
Proof. intros H. unfold lookup_segment. assert (C : (0 <=? i) && (i <? zlen ms) = true) by lia. now rewrite C. Qed.

Lemma words_resolve (ms : segs) d off t ta raw oldlen :
  place_words ms d off t ta raw oldlen -> raw_ok raw ->
  off mod 8 = 0 -> 0 <= ta <= 4294967288 -> ta mod 8 = 0 -> 0 <= t < zlen ms -> zlen ms <= 4294967296 ->
  resolves_to ms d off t ta raw.
Proof.
  intros Pl (Rw & Rt & Ro & Rnz) Hoa Hta Htm Hts Hns.
  pose proof Rw as Rw'. unfold word64 in Rw'. destruct (raw_type raw Rt ltac:(lia)) as (T0 & T1 & T2).
  destruct Pl as [E W|Hne Pm W1 W2|ps Hne Hps Pm W1 W2 W3].
  - (* near *)
    subst t. destruct (readRawPointer_bounds _ _ _ W) as (G1 & G2 & G3).
    destruct (near_word raw off ta Rw Rt) as (Q1 & Q2 & Q); try lia.
    cbv zeta in *. set (v := withOffset raw (nearPointerOffset off ta)) in *.
    exists (off + 8), v. split; [|exact (conj Q1 (conj Q2 Q))].
    intros strict. unfold resolveFarPointer. rewrite W. cbn [bind]. cbv zeta. rewrite Q2, T1, T2.
    unfold addSize. cbv zeta. destruct (off + 8 >? maxSegmentSize) eqn:E; [unfold maxSegmentSize in E; lia|]. reflexivity.
  - (* far *)
    set (pa := oldlen t) in *.
    destruct (readRawPointer_bounds _ _ _ W1) as (G1 & G2 & G3).
    destruct (readRawPointer_bounds _ _ _ W2) as (G4 & G5 & G6).
    destruct (near_word raw pa ta Rw Rt) as (Q1 & Q2 & Q); try lia.
    cbv zeta in *. set (pv := withOffset raw (nearPointerOffset pa ta)) in *.
    destruct (far_pointer_roundtrip t pa ltac:(lia) ltac:(lia)) as (F1 & F2 & F3 & F4).
    cbv zeta in *. set (fv := rawFarPointer t pa) in *.
    exists (pa + 8), pv. split; [|exact (conj Q1 (conj Q2 Q))].
    intros strict. unfold resolveFarPointer. rewrite W1. cbn [bind]. cbv zeta. rewrite F2.
    change (farPointer =? doubleFarPointer) with false. change (farPointer =? farPointer) with true.
    cbv iota. rewrite F4. destruct (t =? d) eqn:E; [lia|].
    rewrite lookup_nth by lia. cbn [bind]. rewrite F3.
    replace (pa / 8 * 8) with pa by lia.
    rewrite regionInBounds_true by (unfold maxSegmentSize; lia). cbn [negb].
    unfold addSize. cbv zeta. destruct (pa + 8 >? maxSegmentSize) eqn:E2; [unfold maxSegmentSize in E2; lia|].
    rewrite W2. reflexivity.
  - (* double far *)
    set (pa := oldlen ps) in *.
    destruct (readRawPointer_bounds _ _ _ W1) as (G1 & G2 & G3).
    destruct (readRawPointer_bounds _ _ _ W2) as (G4 & G5 & G6).
    destruct (readRawPointer_bounds _ _ _ W3) as (G7 & G8 & G9).
    destruct (far_pointer_roundtrip t ta ltac:(lia) ltac:(lia)) as (F1 & F2 & F3 & F4).
    cbv zeta in *. set (fv := rawFarPointer t ta) in *.
    destruct (double_far_pointer_roundtrip ps pa ltac:(lia) ltac:(lia)) as (D1 & D2 & D3 & D4).
    cbv zeta in *. set (dv := rawDoubleFarPointer ps pa) in *.
    destruct (landingPadNearPointer_roundtrip fv raw F1 Rw F2 Rt) as (P1 & P2 & P3 & P4 & P5 & P6 & P7).
    cbv zeta in *.
    exists 0, (landingPadNearPointer fv raw). split.
    + intros strict. unfold resolveFarPointer. rewrite W1. cbn [bind]. cbv zeta. rewrite D2.
      change (doubleFarPointer =? doubleFarPointer) with true. cbv iota. rewrite D4.
      match goal with |- bind ?X _ = _ => assert (HPS : X = Ok (nth (Z.to_nat ps) ms [])) end.
      { destruct (ps =? d) eqn:E; [assert (EQ : ps = d) by lia; rewrite EQ; reflexivity|].
        apply lookup_nth. lia. }
      rewrite HPS. cbn [bind]. rewrite D3. replace (pa / 8 * 8) with pa by lia.
      rewrite regionInBounds_true by (unfold maxSegmentSize; lia). cbn [negb].
      rewrite W2. cbn [bind]. rewrite F2. change (farPointer =? farPointer) with true. cbn [negb].
      unfold addSize. cbv zeta. destruct (pa + 8 >? maxSegmentSize) eqn:E2; [unfold maxSegmentSize in E2; lia|].
      rewrite W3. cbn [bind]. cbv zeta. rewrite Ro.
      assert (HT : (negb (pointerType raw =? structPointer) && negb (pointerType raw =? listPointer)) || negb (0 =? 0) = false).
      { destruct T0 as [-> | ->]; reflexivity. }
      rewrite HT. rewrite F4.
      destruct (t =? d) eqn:E3; [lia|]. rewrite lookup_nth by lia. cbn [bind].
      (* the repaired reader's special case (pad resolving to the zero word) does not arise:
         the tag written is not the zero word *)
      assert (Hnz : (landingPadNearPointer fv raw =? 0) = false).
      { rewrite landingPadNearPointer_sum by (right; exact Rt).
        unfold ptr_offset, s32, u32 in *. cbv zeta in Ro.
        destruct (raw mod 4294967296 <? 2147483648) eqn:EE; lia. }
      rewrite Hnz. rewrite Bool.andb_false_r. reflexivity.
    + split; [exact P1|]. split; [exact P2|]. split; [exact P4|]. split; [exact P5|]. split; [exact P6|].
      unfold ArithMore.resolve in P7. rewrite P7. rewrite F3. f_equal. lia.
Qed.

(* [write_read_ptr] for the placement switch of writePtr: whichever of the three encodings the
   capacity test selects, the reader resolves the pointer word at (dsid, off) to (tsid, taddr)
   with raw's type and size fields.  Frame: every segment keeps its old bytes as a prefix,
   except the 8 bytes of the pointer word itself; pads are appended to their segments. *)
Theorem place_resolves w dsid off tsid taddr raw w' :
  place_pre (w_dst w) dsid off tsid taddr raw ->
  place w dsid off tsid taddr raw = Ok w' ->
  resolves_to (bm_data (w_dst w')) dsid off tsid taddr raw /\
  w_src w' = w_src w /\ w_src_rl w' = w_src_rl w /\
  bm_caps (w_dst w') = bm_caps (w_dst w) /\ bm_rl (w_dst w') = bm_rl (w_dst w) /\
  (exists pw, forall i, 0 <= i -> exists t,
     mem (w_dst w') i = (if i =? dsid then write_bytes (mem (w_dst w) i) off (le_encode 8 pw)
                         else mem (w_dst w) i) ++ t).
Proof.
  intros Hpre H. apply place_inv in H. destruct H as (m' & -> & Run). cbn [w_dst w_set_dst w_src w_src_rl].
  pose proof (place_stores _ _ _ _ _ _ _ Hpre Run) as Wd.
  destruct Hpre as (Hwf & Har & Hsm & Hraw & Hd & Ht & Hn & Ho0 & Ho & Hol & Ht0 & Hta & Htl).
  destruct (place_frame _ _ _ _ _ _ _ Hwf Har Hd Ht Run) as (m1 & pw & (X & _ & _ & N & C & RL) & W).
  destruct W as (_ & _ & W3 & W4 & _ & _ & W7 & _ & W9 & W10).
  pose proof (Hsm tsid) as Hlt. unfold maxSegmentSize in Hlt.
  split; [|repeat split; try congruence].
  - apply (words_resolve _ _ _ _ _ _ _ Wd); auto; try lia; unfold bm_data; rewrite zlen_map; lia.
  - exists pw. intros i Hi. destruct (X i Hi) as [tl Et]. exists tl.
    destruct (Z.eqb_spec i dsid) as [->|Hne].
    + rewrite W3, Et. apply write_bytes_app_left; [exact Ho0|exact Hol].
    + unfold mem. rewrite W4 by assumption. exact Et.
Qed.

(* struct target: Segment.readPtr returns a Struct at exactly (tsid, taddr) with raw's size *)
Theorem resolved_read_struct strict ms rl sid off tsid taddr raw depth :
  resolves_to ms sid off tsid taddr raw ->
  pointerType raw = structPointer -> os_isZero (structSize raw) = false ->
  regionInBounds (nth (Z.to_nat tsid) ms []) taddr (totalSize (structSize raw)) = true ->
  depth <> 0 -> totalSize (structSize raw) <= rl ->
  readPtr strict ms rl sid (nth (Z.to_nat sid) ms []) off depth =
  (Ok (mkPtr true tsid taddr 0 (structSize raw) (uint_dec depth) KStruct false false false),
   rl - totalSize (structSize raw)).
Proof.
  intros (base & val & R & Vw & Vt & Vs & _ & _ & Ve) Hst Hnz Hin Hd Hrl.
  unfold readPtr. rewrite (R strict).
  assert (Hv0 : (val =? 0) = false).
  { destruct (val =? 0) eqn:E; auto. assert (val = 0) by lia. subst val.
    rewrite <- Vs in Hnz. cbv in Hnz. discriminate. }
  rewrite Hv0. destruct (depth =? 0) eqn:ED; [lia|]. cbv zeta. rewrite Vt, Hst.
  change (structPointer =? structPointer) with true. cbv iota.
  unfold readStructPtr. rewrite Ve, Vs, Hin. cbn [negb].
  unfold canRead, struct_readSize. cbn [p_valid p_size p_seg p_off].
  destruct (rl >=? totalSize (structSize raw)) eqn:E; [reflexivity|lia].
Qed.

(* non-composite list target (element types 0..6) *)
Theorem resolved_read_list strict ms rl sid off tsid taddr raw depth lsize es :
  resolves_to ms sid off tsid taddr raw ->
  pointerType raw = listPointer -> listType raw <> 7 ->
  totalListSize raw = Some (Some lsize) -> elementSize raw = Some es ->
  regionInBounds (nth (Z.to_nat tsid) ms []) taddr lsize = true ->
  depth <> 0 ->
  let lp := if listType raw =? 1
            then mkPtr true tsid taddr (numListElements raw) (mkOS 0 0) 0 KList false true false
            else mkPtr true tsid taddr (numListElements raw) es 0 KList false false false in
  list_readSize lp <= rl ->
  readPtr strict ms rl sid (nth (Z.to_nat sid) ms []) off depth =
  (Ok (mkPtr true tsid taddr (numListElements raw) (p_size lp) (uint_dec depth) KList false (p_bit lp) false),
   rl - list_readSize lp).
Proof.
  intros (base & val & R & Vw & Vt & Vs & Vl & Vn & Ve) Hlt H7 Hts Hes Hin Hd lp Hrl.
  unfold readPtr. rewrite (R strict).
  assert (Hv0 : (val =? 0) = false).
  { destruct (val =? 0) eqn:E; auto. assert (val = 0) by lia. subst val.
    rewrite Hlt in Vt. cbv in Vt. discriminate. }
  rewrite Hv0. destruct (depth =? 0) eqn:ED; [lia|]. cbv zeta. rewrite Vt, Hlt.
  change (listPointer =? structPointer) with false. change (listPointer =? listPointer) with true. cbv iota.
  assert (HT : totalListSize val = totalListSize raw).
  { unfold totalListSize, elementSize. now rewrite Vl, Vn. }
  assert (HE : elementSize val = elementSize raw) by (unfold elementSize; now rewrite Vl).
  unfold readListPtr. rewrite Ve, HT, Hts, Hin. cbn [negb]. cbv zeta. rewrite Vl, Vn, HE, Hes.
  destruct (listType raw =? 7) eqn:E7; [lia|].
  subst lp. destruct (listType raw =? 1) eqn:E1; cbn [p_size p_bit] in *; unfold canRead;
    (match goal with |- context [if ?c then _ else _] => destruct c eqn:EC end; [reflexivity|lia]).
Qed.

(* [write_read_ptr], struct instance: placing a struct of size sz and reading the pointer back *)
Corollary write_read_ptr_struct w dsid off tsid taddr sz raw w' strict depth :
  place_pre (w_dst w) dsid off tsid taddr raw ->
  rawStructPointer 0 sz = Some raw -> os_wf sz -> os_isZero sz = false ->
  taddr + totalSize sz <= zlen (mem (w_dst w) tsid) ->
  place w dsid off tsid taddr raw = Ok w' ->
  depth <> 0 -> totalSize sz <= bm_rl (w_dst w') ->
  readPtr strict (bm_data (w_dst w')) (bm_rl (w_dst w')) dsid (mem (w_dst w') dsid) off depth =
  (Ok (mkPtr true tsid taddr 0 sz (uint_dec depth) KStruct false false false), bm_rl (w_dst w') - totalSize sz).
Proof.
  intros Hpre Hraw Hwf Hnz Hin Hpl Hd Hrl.
  destruct (struct_pointer_roundtrip 0 sz ltac:(unfold off_ok; lia) Hwf) as (p & Ep & Pw & Pt & Po & Ps).
  rewrite Hraw in Ep. apply (f_equal (fun o => match o with Some x => x | None => 0 end)) in Ep. subst p.
  destruct (place_resolves _ _ _ _ _ _ _ Hpre Hpl) as (R & _ & _ & _ & _ & (pw & Hfr)).
  rewrite <- (nth_bm_data (w_dst w') dsid).
  rewrite <- Ps. apply resolved_read_struct; auto; try (rewrite Ps; assumption).
  rewrite Ps. rewrite nth_bm_data.
  destruct Hpre as (_ & _ & Hsm & _ & Hd' & Ht & _ & Ho0 & _ & Hol & _).
  pose proof (Hsm tsid) as Hs1. apply regionInBounds_true; [lia|].
  destruct (Hfr tsid ltac:(lia)) as [t Et]. rewrite Et, zlen_app.
  pose proof (zlen_nonneg t).
  destruct (tsid =? dsid) eqn:E; [|lia].
  assert (tsid = dsid) by lia. subst tsid.
  unfold zlen at 1. rewrite write_bytes_length; [unfold zlen in *; lia|lia|].
  change (zlen (le_encode 8 pw)) with 8. exact Hol.
Qed.
