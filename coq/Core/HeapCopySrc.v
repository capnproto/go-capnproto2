(* C05: copies from another message.  The copy paths with a source-message handle keep the table
   invariant of the message under construction (the instance of [copy_loc_all] for a source
   view), and they never change the source message. *)
From CV Require Import Core.Builder Core.ReaderFacts Core.ArithFacts Core.BuilderFacts Core.AllocProofs
  Core.WritePtrProofs Core.HeapProofs Core.CopyProofs Core.BuildOps Core.BuildValid Core.BuildInv Core.HeapInv Core.ReadBridge
  Core.HeapOps Core.HeapCopy.
From Coq Require Import ZifyBool ZifyNat.
Open Scope Z_scope.

Ltac Zify.zify_post_hook ::= Z.div_mod_to_equations.

Definition R_wp (f : nat) : Prop := forall w objs pads q src fc w',
  tinv w objs pads -> msg_ok (w_src w) -> In q ((0, 0) :: flat_map slots objs) -> sview (w_src w) src ->
  write_ptr f true w (fst q) (snd q) InSrc src fc = Ok w' -> nsegs (w_dst w') < B32 ->
  exists eo ep, tinv w' (objs ++ eo) (pads ++ ep).

Definition R_cs (f : nat) : Prop := forall w objs pads dst src w',
  tinv w objs pads -> msg_ok (w_src w) -> view objs dst -> (p_valid dst = true -> p_kind dst = KStruct) ->
  sview (w_src w) src -> (p_valid src = true -> p_kind src = KStruct) ->
  copy_struct f true w dst InSrc src = Ok w' -> nsegs (w_dst w') < B32 ->
  exists eo ep, tinv w' (objs ++ eo) (pads ++ ep).

(* [copy_src_all]: writePtr and copyStruct with a handle of another message as source - any bytes
   0..255, any pointer graph that readPtr accepts - keep the table invariant of the message
   under construction *)
Theorem copy_src_all : forall f, R_wp f /\ R_cs f.
Proof. exact (copy_loc_all InSrc). Qed.

Lemma lift0_src w r w' : lift0 w r = Ok w' -> w_src w' = w_src w.
Proof. intros H. apply lift0_Ok in H. destruct H as (m & _ & ->). reflexivity. Qed.

Lemma place_src w d o t ta raw w' : place w d o t ta raw = Ok w' -> w_src w' = w_src w.
Proof. intros H. apply place_inv in H. destruct H as (m' & -> & _). reflexivity. Qed.

Lemma fold_src l (f : world -> Z -> res world) :
  (forall wa j wb, f wa j = Ok wb -> w_src wb = w_src wa) ->
  forall wa w2, fold_res l wa f = Ok w2 -> w_src w2 = w_src wa.
Proof.
  intros Hf. induction l as [|j r IH]; intros wa w2 H; cbn [fold_res] in H.
  - apply Ok_inj in H. now subst.
  - destruct (f wa j) as [wb| |] eqn:E; cbn [bind] in H; try discriminate.
    rewrite (IH _ _ H). apply (Hf _ _ _ E).
Qed.

Theorem src_pres : forall fp f,
  (forall strict w d o l src fc w', write_ptr_gen fp f strict w d o l src fc = Ok w' -> w_src w' = w_src w) /\
  (forall strict w dst l src w', copy_struct_gen fp f strict w dst l src = Ok w' -> w_src w' = w_src w).
Proof.
  intros fp. induction f as [|f [IW IC]]; [split; intros; discriminate|]. split.
  - intros strict w d o l src fc w' HW. cbn [write_ptr_gen] in HW. cbv zeta in HW.
    destruct (negb (p_valid src)); [exact (lift0_src _ _ _ HW)|].
    destruct (p_kind src).
    + destruct (os_isZero (p_size src)).
      { apply bind_Ok in HW. destruct HW as (v & _ & HW). exact (lift0_src _ _ _ HW). }
      (* the struct is copied or not; then the pointer to it is placed *)
      apply bind_Ok in HW. destruct HW as ([w1 st] & ER & HW).
      apply bind_Ok in HW. destruct HW as (raw & _ & HW). rewrite (place_src _ _ _ _ _ _ _ HW).
      destruct (fc || is_src l || p_member src); [|apply Ok_inj in ER; congruence].
      apply bind_Ok in ER. destruct ER as ([[m1 s1] a1] & _ & ER).
      apply bind_Ok in ER. destruct ER as (w2 & EC & ER). apply Ok_inj in ER. injection ER as <- _.
      exact (IC _ _ _ _ _ _ EC).
    + (* likewise the list: allocation, the tag word of a composite list, data or elements *)
      apply bind_Ok in HW. destruct HW as ([w1 lst] & ER & HW).
      apply bind_Ok in HW. destruct HW as (raw & _ & HW). rewrite (place_src _ _ _ _ _ _ _ HW).
      destruct (fc || is_src l); [|apply Ok_inj in ER; congruence].
      apply bind_Ok in ER. destruct ER as ([[m1 s1] a1] & _ & ER).
      apply bind_Ok in ER. destruct ER as ([[w2 doff] sz'] & EX & ER).
      apply bind_Ok in ER. destruct ER as (w3 & E3 & ER). apply Ok_inj in ER. injection ER as <- _.
      assert (S2 : w_src w2 = w_src w).
      { destruct (p_comp src); [|apply Ok_inj in EX; injection EX as <- _ _; reflexivity].
        apply bind_Ok in EX. destruct EX as (tag & _ & EX). apply bind_Ok in EX. destruct EX as (w2' & EL & EX).
        destruct (addSize _ _); [|discriminate]. apply Ok_inj in EX. injection EX as <- _ _. exact (lift0_src _ _ _ EL). }
      rewrite <- S2. destruct (p_bit src || (PointerCount (p_size src) =? 0)).
      * apply bind_Ok in E3. destruct E3 as (b & _ & E3). exact (lift0_src _ _ _ E3).
      * apply (fold_src _ _) with (wa := w2) in E3; [exact E3|]. intros wa j wb E.
        apply bind_Ok in E. destruct E as (de & _ & E). apply bind_Ok in E. destruct E as (se & _ & E).
        exact (IC _ _ _ _ _ _ E).
    + destruct (is_src l); exact (lift0_src _ _ _ HW).
  - intros strict w dst l src w' HW. cbn [copy_struct_gen] in HW.
    destruct (negb (p_valid dst)); [discriminate|].
    destruct (negb (p_valid src)); [apply Ok_inj in HW; now subst|].
    destruct (slice _ _ _); cbn [bind] in HW; try discriminate.
    destruct (slice _ _ _); cbn [bind] in HW; try discriminate.
    destruct (lift0 w _) as [w1| |] eqn:E1; cbn [bind] in HW; try discriminate.
    match type of HW with context [bind (fold_res ?L w1 ?F) _] => destruct (fold_res L w1 F) as [w2| |] eqn:E2 end; cbn [bind] in HW; try discriminate.
    apply fold_src in HW. 2:{ intros wa j wb E. apply (lift0_src _ _ _ E). }
    apply fold_src in E2.
    2:{ intros wa j wb E. destruct (readPtr _ _ _ _ _ _ _) as [r rl']. destruct r; cbn [bind] in E; try discriminate.
        rewrite (IW _ _ _ _ _ _ _ _ E). destruct l; reflexivity. }
    rewrite HW, E2. apply (lift0_src _ _ _ E1).
Qed.
