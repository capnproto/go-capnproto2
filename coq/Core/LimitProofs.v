(* C02, sequential part: the traversal limit bounds the total size handed out by pointer
   dereferences; the depth limit bounds the number of successful dereferences on any access
   path; the generic walker is bounded by both. *)
From CV Require Export Core.SafetyProofs.
From Coq Require Import ZifyBool.
Open Scope Z_scope.
Ltac Zify.zify_post_hook ::= Z.div_mod_to_equations.

(* what readPtr charges for the pointer it hands out: a struct's total size; for a list
   element size x length, a zero-sized element being charged one word; nothing for a
   capability or null *)
Definition readSize (p : Ptr) : Z :=
  match p_kind p with
  | KStruct => struct_readSize p
  | KList => list_readSize p
  | KIface => 0
  end.

Lemma struct_readSize_nonneg p : 0 <= struct_readSize p.
Proof. unfold struct_readSize. destruct (p_valid p); [apply totalSize_nonneg|lia]. Qed.
Lemma list_readSize_nonneg p : 0 <= list_readSize p.
Proof.
  unfold list_readSize. destruct (p_valid p); [|lia]. cbv zeta.
  destruct (times _ _) as [sz|] eqn:E; [|unfold maxSegmentSize; lia].
  apply times_spec in E. lia.
Qed.
Lemma readSize_nonneg p : 0 <= readSize p.
Proof. unfold readSize. destruct (p_kind p); [apply struct_readSize_nonneg|apply list_readSize_nonneg|lia]. Qed.
Lemma readSize_null : readSize nullPtr = 0.
Proof. reflexivity. Qed.

Lemma canRead_spec rl sz ok rl' : 0 <= rl -> 0 <= sz -> canRead rl sz = (ok, rl') ->
  0 <= rl' <= rl /\ (ok = true -> rl' = rl - sz) /\ (ok = false -> rl' = 0 /\ rl < sz).
Proof.
  unfold canRead. intros Hr Hs. destruct (rl >=? sz) eqn:E; intros H; inversion H; subst.
  - split; [lia|]. split; [reflexivity|discriminate].
  - split; [lia|]. split; [discriminate|]. intros _. lia.
Qed.

Lemma readStructPtr_valid sid s base val sp : readStructPtr sid s base val = Ok sp ->
  p_valid sp = true /\ p_kind sp = KStruct.
Proof. intros H. destruct (readStructPtr_inv _ _ _ _ _ H) as (a & _ & ->). split; reflexivity. Qed.
Lemma readListPtr_valid strict sid s base val lp : readListPtr strict sid s base val = Ok lp ->
  p_valid lp = true /\ p_kind lp = KList.
Proof.
  intros H.
  destruct (readListPtr_inv _ _ _ _ _ _ H) as (a & _ & [(_ & hdr & _ & _ & _ & _ & _ & ->)|[(_ & ->)|(_ & _ & es & _ & ->)]]);
    split; reflexivity.
Qed.

(* the size readPtr asks Message.canRead for (None: canRead is not reached) *)
Definition readPtr_request (strict : bool) (m : segs) (sid : Z) (s : seg) (paddr depth : Z) : option Z :=
  match resolveFarPointer strict m sid s paddr with
  | Ok (dsid, dst, base, val) =>
    if val =? 0 then None else if depth =? 0 then None else
    if pointerType val =? structPointer then
      match readStructPtr dsid dst base val with Ok sp => Some (struct_readSize sp) | _ => None end
    else if pointerType val =? listPointer then
      match readListPtr strict dsid dst base val with Ok lp => Some (list_readSize lp) | _ => None end
    else None
  | _ => None
  end.

Lemma readPtr_request_nonneg strict m sid s paddr depth sz :
  readPtr_request strict m sid s paddr depth = Some sz -> 0 <= sz.
Proof.
  unfold readPtr_request. destruct (resolveFarPointer _ _ _ _) as [[[[dsid dst] base] val]| |]; try discriminate.
  dif; [discriminate|]. dif; [discriminate|]. dif.
  - destruct (readStructPtr _ _ _ _); try discriminate. intros H. inversion H. apply struct_readSize_nonneg.
  - dif; [|discriminate]. destruct (readListPtr _ _ _ _ _); try discriminate.
    intros H. inversion H. apply list_readSize_nonneg.
Qed.

(* exact accounting of one readPtr: the budget is untouched when canRead is not reached;
   a granted request is subtracted and the object handed out has exactly that read size;
   a refused request zeroes the budget and yields an error *)
Lemma readPtr_limit_spec strict m rl sid s paddr depth :
  match readPtr_request strict m sid s paddr depth with
  | None => snd (readPtr strict m rl sid s paddr depth) = rl /\
            (forall p, fst (readPtr strict m rl sid s paddr depth) = Ok p -> readSize p = 0)
  | Some sz =>
      if rl >=? sz
      then snd (readPtr strict m rl sid s paddr depth) = rl - sz /\
           exists p, fst (readPtr strict m rl sid s paddr depth) = Ok p /\ p_valid p = true /\ readSize p = sz
      else readPtr strict m rl sid s paddr depth = (Err, 0)
  end.
Proof.
  unfold readPtr_request, readPtr.
  destruct (resolveFarPointer _ _ _ _) as [[[[dsid dst] base] val]| |];
    try (split; [reflexivity|discriminate]).
  destruct (val =? 0); [split; [reflexivity|]; cbn [fst]; intros p H; inversion H; reflexivity|].
  destruct (depth =? 0); [split; [reflexivity|discriminate]|]. cbv zeta.
  destruct (pointerType val =? structPointer).
  { destruct (readStructPtr dsid dst base val) as [sp| |] eqn:E; try (split; [reflexivity|discriminate]).
    apply readStructPtr_valid in E. destruct E as [V K].
    unfold canRead. destruct (rl >=? struct_readSize sp); [|reflexivity].
    split; [reflexivity|]. eexists. split; [reflexivity|]. split; [reflexivity|].
    unfold readSize, struct_readSize. pcbn. rewrite V. reflexivity. }
  destruct (pointerType val =? listPointer).
  { destruct (readListPtr strict dsid dst base val) as [lp| |] eqn:E; try (split; [reflexivity|discriminate]).
    apply readListPtr_valid in E. destruct E as [V K].
    unfold canRead. destruct (rl >=? list_readSize lp); [|reflexivity].
    split; [reflexivity|]. eexists. split; [reflexivity|]. split; [reflexivity|].
    unfold readSize, list_readSize. pcbn. rewrite V. reflexivity. }
  destruct (pointerType val =? otherPointer); [|split; [reflexivity|discriminate]].
  destruct (otherPointerType val =? 0); cbn [negb]; [|split; [reflexivity|discriminate]].
  split; [reflexivity|]. cbn [fst]. intros p H. inversion H. reflexivity.
Qed.

Lemma readPtr_charge strict m rl sid s paddr depth : 0 <= rl ->
  0 <= snd (readPtr strict m rl sid s paddr depth) <= rl /\
  match fst (readPtr strict m rl sid s paddr depth) with
  | Ok p => snd (readPtr strict m rl sid s paddr depth) + readSize p = rl
  | _ => True
  end.
Proof.
  intros Hr. pose proof (readPtr_limit_spec strict m rl sid s paddr depth) as H.
  destruct (readPtr_request strict m sid s paddr depth) as [sz|] eqn:Eq.
  - apply readPtr_request_nonneg in Eq. destruct (rl >=? sz) eqn:E.
    + destruct H as [H1 (p & H2 & _ & H3)]. rewrite H1, H2. split; lia.
    + rewrite H. cbn [fst snd]. split; [lia|exact I].
  - destruct H as [H1 H2]. rewrite H1. split; [lia|].
    destruct (fst (readPtr strict m rl sid s paddr depth)) eqn:E; try exact I.
    rewrite (H2 a eq_refl). lia.
Qed.

(* a result and remaining budget that respect the accounting, starting from budget rl *)
Definition charged (rl : Z) (x : res Ptr * Z) : Prop :=
  0 <= snd x <= rl /\ match fst x with Ok p => snd x + readSize p = rl | _ => True end.

Lemma struct_ptr_charge c m rl p i : 0 <= rl -> charged rl (struct_ptr c m rl p i).
Proof.
  intros Hr. unfold struct_ptr, charged. dif.
  - cbn [fst snd]. rewrite readSize_null. lia.
  - apply readPtr_charge. assumption.
Qed.
Lemma ptrlist_at_charge c fu m rl p i : 0 <= rl -> charged rl (ptrlist_at c fu m rl p i).
Proof.
  intros Hr. unfold ptrlist_at, charged. destruct (primitiveElem _ _ _ _).
  - apply readPtr_charge. assumption.
  - cbn [fst snd]. lia.
  - cbn [fst snd]. lia.
Qed.
Lemma root_charge c m rl : 0 <= rl -> charged rl (root c m rl).
Proof.
  intros Hr. unfold root, charged. destruct (lookup_segment m 0); try (cbn [fst snd]; lia).
  dif.
  - cbn [fst snd]. destruct (cfg_root c); lia.
  - apply readPtr_charge. assumption.
Qed.

(* [walkA] is [walk] with two ghost counters: the number of successful pointer dereferences
   (Struct.Ptr / PointerList.At returning a valid pointer) and the sum of the read sizes of
   the pointers handed out.  [walkA_erase] shows that dropping the counters gives [walk]. *)
Record acc (A : Type) := mkAcc { ac_val : A; ac_rl : Z; ac_d : Z; ac_h : Z }.
Arguments mkAcc {A}. Arguments ac_val {A}. Arguments ac_rl {A}. Arguments ac_d {A}. Arguments ac_h {A}.

Fixpoint iter_acc {A} (n : nat) (i rl : Z) (f : Z -> Z -> acc A) : acc (list A) :=
  match n with
  | O => mkAcc [] rl 0 0
  | S n' => let a := f i rl in
            let r := iter_acc n' (i + 1) (ac_rl a) f in
            mkAcc (ac_val a :: ac_val r) (ac_rl r) (ac_d a + ac_d r) (ac_h a + ac_h r)
  end.

Definition deref_count (r : res Ptr) : Z := match r with Ok q => if p_valid q then 1 else 0 | _ => 0 end.
Definition deref_size (r : res Ptr) : Z := match r with Ok q => readSize q | _ => 0 end.

(* one dereference followed by the walk of its result *)
Definition deref_then (x : res Ptr * Z) (k : Z -> res Ptr -> acc tree) : acc tree :=
  let a := k (snd x) (fst x) in
  mkAcc (ac_val a) (ac_rl a) (deref_count (fst x) + ac_d a) (deref_size (fst x) + ac_h a).

Fixpoint walkA (c : config) (fx : fixes) (m : segs) (dcap pcap : Z) (fuel : nat) (rl : Z) (r : res Ptr)
  : acc tree :=
  match r with
  | Err => mkAcc TErr rl 0 0
  | Panic => mkAcc TPanic rl 0 0
  | Ok p =>
    if negb (p_valid p) then mkAcc TNull rl 0 0 else
    match fuel with
    | O => mkAcc TFuel rl 0 0
    | S f =>
      match p_kind p with
      | KIface => mkAcc (TCap (p_len p)) rl 0 0
      | KStruct =>
        match collect (cap_count (DataSize (p_size p)) dcap) (fun o => struct_uint m p o 1) 0 with
        | Panic => mkAcc TPanic rl 0 0 | Err => mkAcc TErr rl 0 0
        | Ok data =>
          let a := iter_acc (cap_count (PointerCount (p_size p)) pcap) 0 rl
                     (fun i rl0 => deref_then (struct_ptr c m rl0 p i) (walkA c fx m dcap pcap f)) in
          mkAcc (TStruct data (ac_val a)) (ac_rl a) (ac_d a) (ac_h a)
        end
      | KList =>
        let n := cap_count (p_len p) pcap in
        if p_bit p then
          match collect n (fun i => bitlist_at (fx_bit fx) m p i) false with
          | Ok bs => mkAcc (TBits (p_len p) bs) rl 0 0 | Err => mkAcc TErr rl 0 0 | Panic => mkAcc TPanic rl 0 0
          end
        else if p_comp p then
          let a := iter_acc n 0 rl
                     (fun i rl0 => walkA c fx m dcap pcap f rl0 (list_struct (fx_depth fx) p i)) in
          mkAcc (TComp (p_len p) (p_size p) (ac_val a)) (ac_rl a) (ac_d a) (ac_h a)
        else if 0 <? PointerCount (p_size p) then
          let a := iter_acc n 0 rl
                     (fun i rl0 => deref_then (ptrlist_at c (fx_upgrade fx) m rl0 p i) (walkA c fx m dcap pcap f)) in
          mkAcc (TPtrs (p_len p) (ac_val a)) (ac_rl a) (ac_d a) (ac_h a)
        else
          let w := DataSize (p_size p) in
          if w =? 0 then mkAcc (TPrim 0 (p_len p) []) rl 0 0 else
          match collect n (fun i => list_uint_at (fx_upgrade fx) m p i w) 0 with
          | Ok vs => mkAcc (TPrim w (p_len p) vs) rl 0 0 | Err => mkAcc TErr rl 0 0 | Panic => mkAcc TPanic rl 0 0
          end
      end
    end
  end.

Lemma iter_acc_erase {A} (fa : Z -> Z -> acc A) (f : Z -> Z -> A * Z) :
  (forall j rl0, (ac_val (fa j rl0), ac_rl (fa j rl0)) = f j rl0) ->
  forall n i rl, (ac_val (iter_acc n i rl fa), ac_rl (iter_acc n i rl fa)) = iter_rl n i rl f.
Proof.
  intros H. induction n as [|n IH]; intros i rl; cbn [iter_acc iter_rl]; [reflexivity|]. cbv zeta.
  cbn [ac_val ac_rl]. rewrite <- (H i rl). rewrite <- (IH (i + 1) (ac_rl (fa i rl))). reflexivity.
Qed.

Lemma walkA_erase c fx m dcap pcap : forall fuel rl r,
  (ac_val (walkA c fx m dcap pcap fuel rl r), ac_rl (walkA c fx m dcap pcap fuel rl r)) =
  walk c fx m dcap pcap fuel rl r.
Proof.
  induction fuel as [|f IH]; intros rl r.
  - destruct r as [p| |]; cbn [walk walkA]; try reflexivity. destruct (negb (p_valid p)); reflexivity.
  - destruct r as [p| |]; cbn [walk walkA]; try reflexivity.
    destruct (negb (p_valid p)); [reflexivity|].
    destruct (p_kind p).
    + destruct (collect _ _ _); try reflexivity. cbv zeta. cbn [ac_val ac_rl].
      rewrite iter_node. erewrite <- iter_acc_erase; [reflexivity|].
      intros j rl0. unfold deref_then. cbv zeta. cbn [ac_val ac_rl].
      destruct (struct_ptr c m rl0 p j) as [q rl1]. cbn [fst snd]. apply IH.
    + cbv zeta. destruct (p_bit p); [destruct (collect _ _ _); reflexivity|].
      destruct (p_comp p).
      { cbn [ac_val ac_rl]. rewrite iter_node. erewrite <- iter_acc_erase; [reflexivity|]. intros j rl0. apply IH. }
      destruct (0 <? PointerCount (p_size p)).
      { cbn [ac_val ac_rl]. rewrite iter_node. erewrite <- iter_acc_erase; [reflexivity|].
        intros j rl0. unfold deref_then. cbv zeta. cbn [ac_val ac_rl].
        destruct (ptrlist_at c (fx_upgrade fx) m rl0 p j) as [q rl1]. cbn [fst snd]. apply IH. }
      destruct (_ =? 0); [reflexivity|]. destruct (collect _ _ _); reflexivity.
    + reflexivity.
Qed.

(* the walker hands out at most its budget: any message, any start pointer, any fuel *)
Definition handed_ok {A} (rl : Z) (a : acc A) : Prop :=
  0 <= ac_rl a /\ 0 <= ac_h a /\ ac_rl a + ac_h a <= rl.

Lemma iter_acc_handed {A} (f : Z -> Z -> acc A) :
  (forall j rl0, 0 <= rl0 -> handed_ok rl0 (f j rl0)) ->
  forall n i rl, 0 <= rl -> handed_ok rl (iter_acc n i rl f).
Proof.
  intros H. induction n as [|n IH]; intros i rl Hr; cbn [iter_acc].
  - unfold handed_ok. cbn. lia.
  - cbv zeta. destruct (H i rl Hr) as (H1 & H2 & H3).
    destruct (IH (i + 1) (ac_rl (f i rl)) H1) as (G1 & G2 & G3).
    unfold handed_ok. cbn [ac_rl ac_h]. lia.
Qed.

Lemma deref_then_handed rl x k : charged rl x ->
  (forall rl1 r, 0 <= rl1 -> handed_ok rl1 (k rl1 r)) -> handed_ok rl (deref_then x k).
Proof.
  intros [[H1 H1'] H2] Hk. unfold deref_then. cbv zeta.
  destruct (Hk (snd x) (fst x) H1) as (G1 & G2 & G3).
  unfold handed_ok. cbn [ac_rl ac_h]. unfold deref_size.
  destruct (fst x) as [q| |]; [pose proof (readSize_nonneg q)|..]; lia.
Qed.

(* a node adds nothing to what its children were handed *)
Lemma handed_node {A B} rl (a : acc A) (v : B) :
  handed_ok rl a -> handed_ok rl (mkAcc v (ac_rl a) (ac_d a) (ac_h a)).
Proof. exact (fun H => H). Qed.

Theorem walk_traversal c fx m dcap pcap : forall fuel rl r, 0 <= rl ->
  handed_ok rl (walkA c fx m dcap pcap fuel rl r).
Proof.
  assert (forall rl, 0 <= rl -> forall t, handed_ok rl (mkAcc (A:=tree) t rl 0 0)) as Hleaf
    by (intros; unfold handed_ok; cbn; lia).
  induction fuel as [|f IH]; intros rl r Hr.
  - destruct r as [p| |]; cbn [walkA]; auto. destruct (negb (p_valid p)); auto.
  - destruct r as [p| |]; cbn [walkA]; auto.
    destruct (negb (p_valid p)); auto.
    destruct (p_kind p); auto.
    + destruct (collect _ _ _); auto. cbv zeta. apply handed_node, iter_acc_handed; [|assumption].
      intros j rl0 H0. apply deref_then_handed; [apply struct_ptr_charge; assumption|]. intros; apply IH; assumption.
    + cbv zeta. destruct (p_bit p); [destruct (collect _ _ _); auto|].
      destruct (p_comp p).
      { apply handed_node, iter_acc_handed; [|assumption]. intros j rl0 H0. apply IH. assumption. }
      destruct (0 <? PointerCount (p_size p)).
      { apply handed_node, iter_acc_handed; [|assumption].
        intros j rl0 H0. apply deref_then_handed; [apply ptrlist_at_charge; assumption|]. intros; apply IH; assumption. }
      destruct (_ =? 0); auto. destruct (collect _ _ _); auto.
Qed.

(* in particular the walker never raises the budget *)
Lemma walk_rl_mono c fx m dcap pcap fuel rl r : 0 <= rl ->
  0 <= snd (walk c fx m dcap pcap fuel rl r) <= rl.
Proof.
  intros Hr. rewrite <- walkA_erase. cbn [snd].
  destruct (walk_traversal c fx m dcap pcap fuel rl r Hr) as (H1 & H2 & H3). lia.
Qed.

(* the read size handed out by one op: Root / Struct.Ptr / PointerList.At that succeeded *)
Definition handed (o : op) (v : oval) : Z :=
  match o, v with
  | ORoot, VPtr (Ok p) | OSPtr _ _, VPtr (Ok p) | OPLAt _ _, VPtr (Ok p) => readSize p
  | _, _ => 0
  end.

Fixpoint handed_sum (ops : list op) (vs : list oval) : Z :=
  match ops, vs with
  | o :: ops', v :: vs' => handed o v + handed_sum ops' vs'
  | _, _ => 0
  end.

(* Message.Reset re-arms the budget: the accounting below is per incarnation of the message
   (between two resets) *)
Definition is_reset (o : op) : bool :=
  match o with OReset _ | OResetLimit _ | OUnread _ => true | _ => false end.   (* ops that re-arm or raise the budget *)
Definition no_reset (ops : list op) : bool := forallb (fun o => negb (is_reset o)) ops.

Lemma step_charge c fx m st o : 0 <= rs_rl st -> is_reset o = false ->
  0 <= rs_rl (fst (step c fx m st o)) /\
  rs_rl (fst (step c fx m st o)) + handed o (snd (step c fx m st o)) <= rs_rl st.
Proof.
  intros Hr Hnr. destruct o; try discriminate Hnr; cbn [step]; try (cbn [fst snd handed push rs_rl]; lia).
  - pose proof (root_charge c m (rs_rl st) Hr) as [H1 H2].
    destruct (root c m (rs_rl st)) as [r rl]. cbn [fst snd push rs_rl handed] in *.
    destruct r; lia.
  - pose proof (struct_ptr_charge c m (rs_rl st) (as_struct (handle st h)) i Hr) as [H1 H2].
    destruct (struct_ptr _ _ _ _ _) as [r rl]. cbn [fst snd push rs_rl handed] in *.
    destruct r; lia.
  - pose proof (ptrlist_at_charge c (fx_upgrade fx) m (rs_rl st) (as_list (handle st h)) i Hr) as [H1 H2].
    destruct (ptrlist_at _ _ _ _ _ _) as [r rl]. cbn [fst snd push rs_rl handed] in *.
    destruct r; lia.
  - pose proof (walk_rl_mono c fx m dcap pcap (Z.to_nat fuel) (rs_rl st) (Ok (handle st h)) Hr) as H.
    destruct (walk _ _ _ _ _ _ _ _) as [t rl]. cbn [fst snd rs_rl handed] in *. lia.
Qed.

Lemma run_charge c fx m : forall ops st, 0 <= rs_rl st -> no_reset ops = true ->
  0 <= rs_rl (fst (run c fx m st ops)) /\
  rs_rl (fst (run c fx m st ops)) + handed_sum ops (snd (run c fx m st ops)) <= rs_rl st.
Proof.
  induction ops as [|o ops IH]; intros st Hr Hn; cbn [run].
  - cbn. lia.
  - cbn [no_reset forallb] in Hn. apply andb_prop in Hn. destruct Hn as [Hn1 Hn2].
    pose proof (step_charge c fx m st o Hr ltac:(destruct (is_reset o); [discriminate|reflexivity])) as [H1 H2].
    destruct (step c fx m st o) as [st1 v]. cbn [fst snd] in *.
    specialize (IH st1 H1 Hn2). destruct (run c fx m st1 ops) as [st2 vs]. cbn [fst snd handed_sum] in *. lia.
Qed.

Lemma run_app c fx m : forall a b st,
  run c fx m st (a ++ b) =
  (fst (run c fx m (fst (run c fx m st a)) b), snd (run c fx m st a) ++ snd (run c fx m (fst (run c fx m st a)) b)).
Proof.
  induction a as [|o a IH]; intros b st; cbn [run app].
  - cbn. destruct (run c fx m st b). reflexivity.
  - destruct (step c fx m st o) as [st1 v]. rewrite IH.
    destruct (run c fx m st1 a) as [st2 vs]. cbn [fst snd]. reflexivity.
Qed.

Lemma init_rlimit_nonneg c : 0 <= cfg_T c -> 0 <= init_rlimit c.
Proof. unfold init_rlimit, defaultTraverseLimit. dif; lia. Qed.

(* traversal_bound_seq: for ANY op list (any arguments) on ANY message:
   (1) the budget never goes negative and never increases along the run,
   (2) initial budget - final budget >= the sum of the read sizes of all pointers handed out,
       hence that sum is at most the configured limit,
   (3) a refused request leaves the budget at 0 (readPtr_limit_spec), after which every
       request of positive size is refused. *)
Lemma no_reset_app a b : no_reset (a ++ b) = true -> no_reset a = true /\ no_reset b = true.
Proof. unfold no_reset. rewrite forallb_app. apply andb_prop. Qed.

Theorem traversal_bound_seq c fx m ops : 0 <= cfg_T c -> no_reset ops = true ->
  let st := fst (run c fx m (init_state c) ops) in
  let vs := run_ops c fx m ops in
  0 <= rs_rl st /\
  handed_sum ops vs <= init_rlimit c - rs_rl st /\
  handed_sum ops vs <= init_rlimit c /\
  (forall ops1 ops2, ops = ops1 ++ ops2 -> rs_rl st <= rs_rl (fst (run c fx m (init_state c) ops1))).
Proof.
  intros HT Hnr st vs. pose proof (init_rlimit_nonneg c HT) as H0.
  pose proof (run_charge c fx m ops (init_state c) H0 Hnr) as [H1 H2].
  fold st in H1, H2. unfold run_ops in vs. fold (init_state c) in vs. fold vs in H2. cbn [init_state rs_rl] in H2.
  repeat split; try lia.
  intros ops1 ops2 ->. subst st. rewrite run_app. cbn [fst]. destruct (no_reset_app _ _ Hnr) as [Hn1 Hn2].
  pose proof (run_charge c fx m ops1 (init_state c) H0 Hn1) as [G1 _].
  pose proof (run_charge c fx m ops2 _ G1 Hn2) as [G2 G3].
  assert (0 <= handed_sum ops2 (snd (run c fx m (fst (run c fx m (init_state c) ops1)) ops2))) as G4.
  { clear. generalize (snd (run c fx m (fst (run c fx m (init_state c) ops1)) ops2)).
    induction ops2 as [|o r IH]; intros [|v vs]; cbn [handed_sum]; try lia.
    specialize (IH vs). assert (0 <= handed o v); [|lia].
    unfold handed. destruct o; try lia; destruct v; try lia; destruct r0; try lia; apply readSize_nonneg. }
  lia.
Qed.

(* once the budget is 0 every dereference of an object of positive read size is refused *)
Lemma refused_at_zero strict m sid s paddr depth sz :
  readPtr_request strict m sid s paddr depth = Some sz -> 0 < sz ->
  readPtr strict m 0 sid s paddr depth = (Err, 0).
Proof.
  intros H Hs. pose proof (readPtr_limit_spec strict m 0 sid s paddr depth) as G. rewrite H in G.
  destruct (0 >=? sz) eqn:E; [lia|exact G].
Qed.

(* exact form: every step other than a walk either leaves budget + handed-out size unchanged,
   or is a refused dereference: an error, and the budget is 0 from then on *)
Definition exact_or_refused (rl : Z) (x : res Ptr * Z) : Prop :=
  (snd x + match fst x with Ok p => readSize p | _ => 0 end = rl) \/ x = (Err, 0).

Lemma readPtr_exact strict m rl sid s paddr depth :
  exact_or_refused rl (readPtr strict m rl sid s paddr depth).
Proof.
  unfold exact_or_refused. pose proof (readPtr_limit_spec strict m rl sid s paddr depth) as H.
  destruct (readPtr_request strict m sid s paddr depth) as [sz|].
  - destruct (rl >=? sz); [|right; exact H]. destruct H as [H1 (p & H2 & _ & H3)]. left. rewrite H1, H2. lia.
  - destruct H as [H1 H2]. left. rewrite H1.
    destruct (fst (readPtr strict m rl sid s paddr depth)) eqn:E; [|lia|lia]. rewrite (H2 a eq_refl). lia.
Qed.

Lemma step_exact c fx m st o : (forall h dcap pcap fuel, o <> OWalk h dcap pcap fuel) -> is_reset o = false ->
  rs_rl (fst (step c fx m st o)) + handed o (snd (step c fx m st o)) = rs_rl st \/
  (rs_rl (fst (step c fx m st o)) = 0 /\ snd (step c fx m st o) = VPtr Err).
Proof.
  intros Hnw Hnr. destruct o; try discriminate Hnr; cbn [step]; try (left; cbn [fst snd handed push rs_rl]; lia).
  - assert (exact_or_refused (rs_rl st) (root c m (rs_rl st))) as H.
    { unfold root. destruct (lookup_segment m 0); try (left; cbn; lia).
      dif; [left; cbn [fst snd]; destruct (cfg_root c); lia|apply readPtr_exact]. }
    destruct (root c m (rs_rl st)) as [r rl]. destruct H as [H|H]; cbn [fst snd push rs_rl handed] in *.
    + left. destruct r; lia.
    + right. inversion H. auto.
  - assert (exact_or_refused (rs_rl st) (struct_ptr c m (rs_rl st) (as_struct (handle st h)) i)) as H.
    { unfold struct_ptr. dif; [left; cbn [fst snd]; rewrite readSize_null; lia|apply readPtr_exact]. }
    destruct (struct_ptr _ _ _ _ _) as [r rl]. destruct H as [H|H]; cbn [fst snd push rs_rl handed] in *.
    + left. destruct r; lia.
    + right. inversion H. auto.
  - assert (exact_or_refused (rs_rl st) (ptrlist_at c (fx_upgrade fx) m (rs_rl st) (as_list (handle st h)) i)) as H.
    { unfold ptrlist_at. destruct (primitiveElem _ _ _ _); [apply readPtr_exact|left; cbn; lia|left; cbn; lia]. }
    destruct (ptrlist_at _ _ _ _ _ _) as [r rl]. destruct H as [H|H]; cbn [fst snd push rs_rl handed] in *.
    + left. destruct r; lia.
    + right. inversion H. auto.
  - exfalso. eapply Hnw. reflexivity.
Qed.

Definition two64m := 18446744073709551616.

Lemma uint_dec_spec d : 1 <= d -> 0 <= uint_dec d <= d - 1.
Proof. unfold uint_dec, u64. lia. Qed.

(* a valid pointer handed out by readPtr has strictly less depth budget than was passed in,
   and readPtr hands out nothing valid at depth budget 0 *)
Lemma readPtr_depth strict m rl sid s paddr depth q : 0 <= depth ->
  fst (readPtr strict m rl sid s paddr depth) = Ok q -> p_valid q = true ->
  1 <= depth /\ 0 <= p_depth q <= depth - 1.
Proof.
  intros Hd H V. destruct (readPtr strict m rl sid s paddr depth) as [r rl'] eqn:E. cbn [fst] in H. subst r.
  destruct (readPtr_Ok _ _ _ _ _ _ _ _ _ E) as (dsid & dst & base & val & _ & [(_ & -> & _)|(_ & Hd0 & C)]); [discriminate V|].
  pose proof (uint_dec_spec depth ltac:(lia)) as Hu.
  destruct C as [(_ & sp & _ & _ & _ & ->)|[(_ & lp & _ & _ & _ & ->)|(_ & _ & _ & ->)]]; pcbn; lia.
Qed.

Lemma struct_ptr_depth c m rl p i q : 0 <= p_depth p ->
  fst (struct_ptr c m rl p i) = Ok q -> p_valid q = true ->
  p_valid p = true /\ 1 <= p_depth p /\ 0 <= p_depth q <= p_depth p - 1.
Proof.
  intros Hd. unfold struct_ptr. destruct (p_valid p); cbn [negb orb].
  - dif; [cbn [fst]; intros H; inversion H; discriminate|].
    intros H V. split; [reflexivity|]. eapply readPtr_depth; eassumption.
  - cbn [fst]. intros H; inversion H; discriminate.
Qed.

Lemma ptrlist_at_depth c fu m rl p i q : 0 <= p_depth p ->
  fst (ptrlist_at c fu m rl p i) = Ok q -> p_valid q = true ->
  p_valid p = true /\ 1 <= p_depth p /\ 0 <= p_depth q <= p_depth p - 1.
Proof.
  intros Hd. unfold ptrlist_at. destruct (primitiveElem fu p i _) eqn:E; try discriminate.
  intros H V. split; [|eapply readPtr_depth; eassumption].
  unfold primitiveElem in E. destruct (p_valid p); [reflexivity|discriminate].
Qed.

(* List.Struct (repaired: saturating decrement) never increases the depth budget: it lowers it,
   except that a budget of 0 stays 0 *)
Lemma list_struct_depth' p i q : 0 <= p_depth p ->
  list_struct true p i = Ok q -> p_valid q = true ->
  p_kind q = KStruct /\ 0 <= p_depth q /\ (p_depth q <= p_depth p - 1 \/ (p_depth p = 0 /\ p_depth q = 0)).
Proof.
  intros Hd. unfold list_struct. destruct (p_valid p); cbn [negb orb]; [|discriminate].
  dif; [discriminate|]. destruct (p_bit p); [intros H; inversion H; discriminate|].
  destruct (element _ _ _); [|intros H; inversion H; discriminate].
  intros H _. inversion H. pcbn. split; [reflexivity|]. cbn [andb].
  destruct (p_depth p =? 0) eqn:E; [lia|]. pose proof (uint_dec_spec (p_depth p) ltac:(lia)). lia.
Qed.

Lemma list_struct_depth p i q : 0 <= p_depth p ->
  list_struct true p i = Ok q -> p_valid q = true ->
  p_valid p = true /\ 0 <= p_depth q <= p_depth p.
Proof.
  intros Hd H V. destruct (list_struct_depth' p i q Hd H V) as (_ & H0 & H1). split; [|lia].
  unfold list_struct in H. destruct (p_valid p); [reflexivity|discriminate].
Qed.

(* ghost: for every handle, the number of successful pointer dereferences (Root's own,
   Struct.Ptr, PointerList.At) on the access path that produced it; List.Struct is a
   projection and does not count.  Only meaningful for valid handles (an invalid handle is
   the result of a failed or null dereference). *)
Definition lvl_of (lv : list Z) (h : Z) : Z := nth (Z.to_nat h) lv 0.
Definition step_lvl (lv : list Z) (o : op) : list Z :=
  match o with
  | ORoot => lv ++ [1]
  | OSPtr h _ | OPLAt h _ => lv ++ [lvl_of lv h + 1]
  | OLStruct h _ => lv ++ [lvl_of lv h]
  | OReset _ => []        (* all handles are dropped *)
  | _ => lv
  end.
Definition run_lvl (ops : list op) : list Z := fold_left step_lvl ops [].

Definition depth_inv (D : Z) (st : rstate) (lv : list Z) : Prop :=
  length lv = length (rs_handles st) /\
  forall h, p_valid (handle st h) = true ->
    1 <= lvl_of lv h /\ 0 <= p_depth (handle st h) /\ p_depth (handle st h) + lvl_of lv h <= D.

Lemma as_struct_valid p : p_valid (as_struct p) = true -> as_struct p = p /\ p_valid p = true.
Proof.
  unfold as_struct, is_struct. destruct (p_valid p) eqn:V; cbn [andb]; [|discriminate].
  destruct (p_kind p); try discriminate. auto.
Qed.
Lemma as_list_valid p : p_valid (as_list p) = true -> as_list p = p /\ p_valid p = true.
Proof.
  unfold as_list, is_list. destruct (p_valid p) eqn:V; cbn [andb]; [|discriminate].
  destruct (p_kind p); try discriminate. auto.
Qed.
Lemma as_struct_depth p : 0 <= p_depth p -> 0 <= p_depth (as_struct p).
Proof. unfold as_struct. destruct (is_struct p); cbn; lia. Qed.

(* pushing a handle: old handles keep their pointer and level *)
Lemma depth_inv_push D st lv r rl l :
  depth_inv D st lv ->
  (forall q, r = Ok q -> p_valid q = true -> 1 <= l /\ 0 <= p_depth q /\ p_depth q + l <= D) ->
  depth_inv D (push st r rl) (lv ++ [l]).
Proof.
  intros [Hlen Hinv] Hnew. split.
  - unfold push. cbn [rs_handles]. rewrite !app_length, Hlen. reflexivity.
  - intros h. unfold handle, push, lvl_of. cbn [rs_handles].
    remember (Z.to_nat h) as n eqn:Hn. clear Hn.
    destruct (Nat.lt_ge_cases n (length lv)) as [L|G].
    + rewrite !app_nth1 by lia. specialize (Hinv (Z.of_nat n)).
      unfold handle, lvl_of in Hinv. rewrite Nat2Z.id in Hinv. exact Hinv.
    + destruct (Nat.eq_dec n (length lv)) as [E|N].
      * subst n. rewrite (nth_middle lv []). rewrite Hlen. rewrite (nth_middle (rs_handles st) []).
        destruct r as [q| |]; try (cbn; discriminate). apply Hnew. reflexivity.
      * rewrite (nth_overflow (rs_handles st ++ _)) by (rewrite app_length; cbn; lia).
        cbn. discriminate.
Qed.

Lemma depth_inv_rl D st lv rl : depth_inv D st lv -> depth_inv D (mkRS (rs_handles st) rl) lv.
Proof. intros H. exact H. Qed.

(* Message.depthLimit(): 0 selects the default (64) *)
Lemma depth_limit_pos c : 0 <= cfg_D c -> 1 <= depth_limit c.
Proof. unfold depth_limit, defaultDepthLimit. dif; lia. Qed.
Lemma depth_limit_spec c : 1 <= cfg_D c -> depth_limit c = cfg_D c.
Proof. unfold depth_limit. dif; lia. Qed.

Lemma step_depth c fx m st lv o : 1 <= depth_limit c -> fx_depth fx = true ->
  depth_inv (depth_limit c) st lv -> depth_inv (depth_limit c) (fst (step c fx m st o)) (step_lvl lv o).
Proof.
  intros HD Hfd Hinv. pose proof Hinv as [Hlen Hh].
  destruct o; cbn [step step_lvl]; try exact Hinv.
  - (* root *)
    destruct (root c m (rs_rl st)) as [r rl] eqn:Er. cbn [fst]. apply depth_inv_push; [assumption|].
    intros q -> V. unfold root in Er. destruct (lookup_segment m 0) as [s0| |]; try (inversion Er; discriminate).
    destruct (negb _); [inversion Er; destruct (cfg_root c); discriminate|].
    pose proof (readPtr_depth (cfg_strict c) m (rs_rl st) 0 s0 0 (depth_limit c) q) as H.
    rewrite Er in H. specialize (H ltac:(lia) eq_refl V). lia.
  - (* Struct.Ptr *)
    destruct (struct_ptr c m (rs_rl st) (as_struct (handle st h)) i) as [r rl] eqn:Er. cbn [fst].
    apply depth_inv_push; [assumption|]. intros q -> V.
    destruct (p_valid (as_struct (handle st h))) eqn:Vp.
    + destruct (as_struct_valid _ Vp) as [Es Vh]. destruct (Hh h Vh) as (L1 & L2 & L3).
      pose proof (struct_ptr_depth c m (rs_rl st) (as_struct (handle st h)) i q) as H.
      rewrite Er, Es in H. specialize (H L2 eq_refl V). lia.
    + unfold struct_ptr in Er. rewrite Vp in Er. cbn [negb orb] in Er. inversion Er; subst. discriminate.
  - (* List.Struct *)
    cbn [fst]. apply depth_inv_push; [assumption|]. intros q Eq V. rewrite Hfd in Eq.
    destruct (p_valid (as_list (handle st h))) eqn:Vp.
    + destruct (as_list_valid _ Vp) as [Es Vh]. destruct (Hh h Vh) as (L1 & L2 & L3).
      rewrite Es in Eq. pose proof (list_struct_depth _ i q L2 Eq V). lia.
    + unfold list_struct in Eq. rewrite Vp in Eq. discriminate.
  - (* PointerList.At *)
    destruct (ptrlist_at c (fx_upgrade fx) m (rs_rl st) (as_list (handle st h)) i) as [r rl] eqn:Er. cbn [fst].
    apply depth_inv_push; [assumption|]. intros q -> V.
    destruct (p_valid (as_list (handle st h))) eqn:Vp.
    + destruct (as_list_valid _ Vp) as [Es Vh]. destruct (Hh h Vh) as (L1 & L2 & L3).
      pose proof (ptrlist_at_depth c (fx_upgrade fx) m (rs_rl st) (as_list (handle st h)) i q) as H.
      rewrite Er, Es in H. specialize (H L2 eq_refl V). lia.
    + unfold ptrlist_at, primitiveElem in Er. rewrite Vp in Er. cbn [negb orb] in Er. inversion Er.
  - (* walk: handles unchanged *)
    destruct (walk _ _ _ _ _ _ _ _) as [t rl]. cbn [fst]. exact Hinv.
  - (* reset: no handle is left *)
    cbn [fst]. split; [reflexivity|]. intros h0. unfold handle. cbn [rs_handles].
    destruct (Z.to_nat h0); cbn; discriminate.
Qed.

Lemma run_depth c fx m : 1 <= depth_limit c -> fx_depth fx = true ->
  forall ops st lv, depth_inv (depth_limit c) st lv ->
  depth_inv (depth_limit c) (fst (run c fx m st ops)) (fold_left step_lvl ops lv).
Proof.
  intros HD Hfd. induction ops as [|o ops IH]; intros st lv Hinv; cbn [run fold_left].
  - exact Hinv.
  - pose proof (step_depth c fx m st lv o HD Hfd Hinv) as H.
    destruct (step c fx m st o) as [st1 v]. cbn [fst] in H.
    specialize (IH st1 _ H). destruct (run c fx m st1 ops) as [st2 vs]. exact IH.
Qed.

Lemma depth_inv_init c : depth_inv (depth_limit c) (init_state c) [].
Proof.
  split; [reflexivity|]. intros h. unfold handle, init_state. cbn [rs_handles].
  destruct (Z.to_nat h); cbn; discriminate.
Qed.

(* depth_bound: for every op list mixing Struct.Ptr / PointerList.At / List.Struct in any
   order, every valid handle was reached through at most D successful dereferences (the
   root pointer's included), and its remaining depth budget plus that number is at most D.
   For all D >= 1 (both parities). *)
Theorem depth_bound c fx m ops : 1 <= depth_limit c -> fx_depth fx = true ->
  let st := fst (run c fx m (init_state c) ops) in
  forall h, p_valid (handle st h) = true ->
    1 <= lvl_of (run_lvl ops) h <= depth_limit c /\
    0 <= p_depth (handle st h) /\
    p_depth (handle st h) + lvl_of (run_lvl ops) h <= depth_limit c.
Proof.
  intros HD Hfd st h V.
  pose proof (run_depth c fx m HD Hfd ops _ _ (depth_inv_init c)) as [_ H]. specialize (H h V). unfold run_lvl. subst st. lia.
Qed.

(* consequence: a dereference applied to a handle already D levels deep never yields a
   valid pointer *)
Corollary depth_exhausted c fx m ops o : 1 <= depth_limit c -> fx_depth fx = true ->
  let st := fst (run c fx m (init_state c) ops) in
  forall h i, (o = OSPtr h i \/ o = OPLAt h i) -> depth_limit c <= lvl_of (run_lvl ops) h ->
  forall q, snd (step c fx m st o) = VPtr (Ok q) -> p_valid q = false.
Proof.
  intros HD Hfd st h i Ho Hl q Hq.
  destruct (p_valid q) eqn:V; [|reflexivity]. exfalso.
  pose proof (depth_bound c fx m (ops ++ [o]) HD Hfd) as H. cbn zeta in H.
  rewrite run_app in H. cbn [fst run] in H. fold st in H.
  pose proof (proj1 (run_depth c fx m HD Hfd ops _ _ (depth_inv_init c))) as Hlen. fold (run_lvl ops) st in Hlen.
  specialize (H (Z.of_nat (length (rs_handles st)))).
  unfold run_lvl in H. rewrite fold_left_app in H. cbn [fold_left] in H. fold (run_lvl ops) in H.
  destruct (step c fx m st o) as [st1 v] eqn:Es. cbn [fst snd] in *. subst v.
  assert (handle st1 (Z.of_nat (length (rs_handles st))) = q /\
          lvl_of (step_lvl (run_lvl ops) o) (Z.of_nat (length (rs_handles st))) = lvl_of (run_lvl ops) h + 1) as [E1 E2].
  { unfold handle, lvl_of. rewrite Nat2Z.id.
    destruct Ho as [-> | ->]; cbn [step step_lvl] in *.
    - destruct (struct_ptr _ _ _ _ _) as [r rl]. inversion Es; subst. unfold push. cbn [rs_handles].
      rewrite (nth_middle (rs_handles st) []). rewrite <- Hlen. rewrite (nth_middle (run_lvl ops) []).
      split; reflexivity.
    - destruct (ptrlist_at _ _ _ _ _ _) as [r rl]. inversion Es; subst. unfold push. cbn [rs_handles].
      rewrite (nth_middle (rs_handles st) []). rewrite <- Hlen. rewrite (nth_middle (run_lvl ops) []).
      split; reflexivity. }
  rewrite E1, E2 in H. specialize (H V). lia.
Qed.

(* F03 (fx_depth = false), D = 2: a cyclic message (struct -> composite list -> element ->
   the same composite list) whose op list keeps succeeding: List.Struct on a list with depth
   budget 0 wraps the uint to 2^64-1.  Handle 3 is valid although it is 3 > D dereferences
   below the root, and the descent can be continued for ever. *)
Definition cyc_msg : segs :=
  [[0;0;0;0;0;0;1;0;  1;0;0;0;15;0;0;0;  4;0;0;0;0;0;1;0;  249;255;255;255;15;0;0;0]].
Definition cyc_ops : list op :=
  [ORoot; OSPtr 0 0; OLStruct 1 0; OSPtr 2 0; OLStruct 3 0; OSPtr 4 0; OInfo 3; OInfo 5].

Example depth_prefix_refuted :
  msg_ok cyc_msg /\
  let c := mkCfg 0 2 true true in
  let st := fst (run c (mkFix false true true) cyc_msg (init_state c) cyc_ops) in
  p_valid (handle st 3) = true /\ lvl_of (run_lvl cyc_ops) 3 = 3 /\
  p_valid (handle st 5) = true /\ lvl_of (run_lvl cyc_ops) 5 = 4 /\
  p_depth (handle st 5) = 18446744073709551612.
Proof.
  split.
  - repeat constructor; cbn; try lia; unfold maxSegmentSize; lia.
  - vm_compute. repeat split.
Qed.
(* the repaired List.Struct stops the same op list at depth D *)
Example depth_fixed_stops :
  let c := mkCfg 0 2 true true in
  let st := fst (run c (mkFix true true true) cyc_msg (init_state c) cyc_ops) in
  p_valid (handle st 1) = true /\ p_valid (handle st 2) = true /\ p_valid (handle st 3) = false.
Proof. vm_compute. repeat split. Qed.

Fixpoint tree_nofuel (t : tree) : bool :=
  match t with
  | TFuel => false
  | TStruct _ ps => forallb tree_nofuel ps
  | TPtrs _ es => forallb tree_nofuel es
  | TComp _ _ es => forallb tree_nofuel es
  | _ => true
  end.

(* the fuel a pointer needs: depth budget + 2; a struct whose depth budget is 0 (it cannot
   be descended through) needs 1 *)
Definition fuel_ok (p : Ptr) (fuel : nat) : Prop :=
  p_depth p + 2 <= Z.of_nat fuel \/ (p_kind p = KStruct /\ p_depth p = 0 /\ (1 <= fuel)%nat).

Lemma walk_fuel c fx m dcap pcap : fx_depth fx = true ->
  forall fuel rl r,
  (forall p, r = Ok p -> p_valid p = true -> 0 <= p_depth p /\ fuel_ok p fuel) ->
  tree_nofuel (fst (walk c fx m dcap pcap fuel rl r)) = true.
Proof.
  intros Hfd. induction fuel as [|f IH]; intros rl r Hr.
  - destruct r as [p| |]; cbn [walk]; try reflexivity.
    destruct (p_valid p) eqn:V; cbn [negb]; [|reflexivity].
    destruct (Hr p eq_refl V) as [_ [H|(_ & _ & H)]]; exfalso; [|lia].
    destruct (Hr p eq_refl V) as [H0 _]. cbn in H. lia.
  - destruct r as [p| |]; cbn [walk]; try reflexivity.
    destruct (p_valid p) eqn:V; cbn [negb]; [|reflexivity].
    destruct (Hr p eq_refl V) as [Hd Hf]. clear Hr.
    destruct (p_kind p) eqn:K.
    + destruct (collect _ _ _); try reflexivity.
      rewrite iter_node. cbn [fst tree_nofuel]. apply forallb_Forall, iter_rl_Forall. intros j rl0 _.
      destruct (struct_ptr c m rl0 p j) as [q rl1] eqn:Eq.
      apply IH. intros q' -> Vq.
      pose proof (struct_ptr_depth c m rl0 p j q' Hd) as H. rewrite Eq in H. specialize (H eq_refl Vq).
      split; [lia|]. left. destruct Hf as [Hf|Hf]; lia.
    + cbv zeta. destruct (p_bit p); [destruct (collect _ _ _); reflexivity|].
      destruct Hf as [Hf|(Hf & _)]; [|congruence].
      destruct (p_comp p).
      { rewrite iter_node. cbn [fst tree_nofuel]. apply forallb_Forall, iter_rl_Forall. intros j rl0 _.
        apply IH. intros q Eq Vq. rewrite Hfd in Eq.
        destruct (list_struct_depth' p j q Hd Eq Vq) as (Kq & Hq0 & Hq).
        split; [assumption|]. unfold fuel_ok. destruct Hq as [Hq|[Hq1 Hq2]]; [left; lia|right].
        repeat split; try assumption. lia. }
      destruct (0 <? PointerCount (p_size p)).
      { rewrite iter_node. cbn [fst tree_nofuel]. apply forallb_Forall, iter_rl_Forall. intros j rl0 _.
        destruct (ptrlist_at c (fx_upgrade fx) m rl0 p j) as [q rl1] eqn:Eq.
        apply IH. intros q' -> Vq.
        pose proof (ptrlist_at_depth c (fx_upgrade fx) m rl0 p j q' Hd) as H. rewrite Eq in H.
        specialize (H eq_refl Vq). split; [lia|]. left. lia. }
      destruct (_ =? 0); [reflexivity|]. destruct (collect _ _ _); reflexivity.
    + reflexivity.
Qed.

(* pointer slots of an object: each can be dereferenced once by the walker *)
Definition slots (p : Ptr) : Z :=
  if p_valid p then
    match p_kind p with
    | KStruct => PointerCount (p_size p)
    | KList => if p_bit p then 0 else p_len p * PointerCount (p_size p)
    | KIface => 0
    end
  else 0.
Definition slots_r (r : res Ptr) : Z := match r with Ok p => slots p | _ => 0 end.

(* a well-formed object was charged at least one word per pointer slot *)
Lemma slots_le_readSize m p : msg_ok m -> wf_ptr m p -> 0 <= slots p /\ 8 * slots p <= readSize p.
Proof.
  intros Hm Hw. unfold slots, readSize. destruct (p_valid p) eqn:V.
  2:{ pose proof (struct_readSize_nonneg p). pose proof (list_readSize_nonneg p).
      destruct (p_kind p); lia. }
  destruct (Hw V) as [Hs Ho]. unfold wf_obj in Ho. destruct (p_kind p).
  - destruct Ho as (Hz & _ & _). unfold struct_readSize. rewrite V. rewrite (totalSize_wf _ Hz).
    unfold wf_size in Hz. lia.
  - destruct Ho as (Ho & Hl & Hr). destruct (p_bit p); [pose proof (list_readSize_nonneg p); lia|].
    destruct Hr as [Hz Hr]. destruct (seg_of_ok m p Hm) as [Hsl _]. unfold maxSegmentSize in Hsl.
    unfold list_readSize. rewrite V. cbv zeta. rewrite (totalSize_wf _ Hz) in *. unfold wf_size in Hz.
    destruct (_ =? 0) eqn:E0.
    + assert (PointerCount (p_size p) = 0) as -> by lia.
      destruct (times _ _) eqn:Et; [apply times_spec in Et|unfold maxSegmentSize]; lia.
    + destruct (times _ _) eqn:Et.
      * apply times_spec in Et. destruct Et as [-> _]. nia.
      * unfold maxSegmentSize. nia.
  - lia.
Qed.

Definition derefs_ok {A} (rl k : Z) (a : acc A) : Prop :=
  0 <= ac_rl a /\ 0 <= ac_d a /\ 8 * ac_d a + ac_rl a <= rl + 8 * k.

Lemma iter_acc_derefs {A} (f : Z -> Z -> acc A) k : 0 <= k ->
  forall n i rl,
  (forall j rl0, i <= j < i + Z.of_nat n -> 0 <= rl0 -> derefs_ok rl0 k (f j rl0)) -> 0 <= rl ->
  derefs_ok rl (k * Z.of_nat n) (iter_acc n i rl f).
Proof.
  intros Hk. induction n as [|n IH]; intros i rl H Hr; cbn [iter_acc].
  - unfold derefs_ok. cbn [ac_rl ac_d]. change (Z.of_nat 0) with 0. lia.
  - cbv zeta. destruct (H i rl ltac:(lia) Hr) as (H1 & H2 & H3).
    destruct (IH (i + 1) (ac_rl (f i rl)) ltac:(intros j rl0 Hj; apply H; lia) H1) as (G1 & G2 & G3).
    unfold derefs_ok. cbn [ac_rl ac_d]. lia.
Qed.

(* a node adds no dereference to those of its children *)
Lemma derefs_node {A B} rl k k' (a : acc A) (v : B) :
  derefs_ok rl k a -> k <= k' -> derefs_ok rl k' (mkAcc v (ac_rl a) (ac_d a) (ac_h a)).
Proof. unfold derefs_ok. cbn [ac_rl ac_d]. lia. Qed.

Lemma deref_then_derefs m rl x k : msg_ok m -> charged rl x -> res_sat (fst x) (wf_ptr m) ->
  (forall rl1 r, 0 <= rl1 -> res_sat r (wf_ptr m) -> derefs_ok rl1 (slots_r r) (k rl1 r)) ->
  derefs_ok rl 1 (deref_then x k).
Proof.
  intros Hm [[H1 H1'] H2] Hw Hk. unfold deref_then. cbv zeta.
  destruct (Hk (snd x) (fst x) H1 Hw) as (G1 & G2 & G3).
  unfold derefs_ok. cbn [ac_rl ac_d]. unfold deref_count, slots_r in *.
  destruct (fst x) as [q| |]; try lia.
  cbn [res_sat] in Hw. pose proof (slots_le_readSize m q Hm Hw). destruct (p_valid q); lia.
Qed.

Lemma walk_derefs c fx m dcap pcap : msg_ok m -> cfg_strict c = true ->
  forall fuel rl r, 0 <= rl -> res_sat r (wf_ptr m) ->
  derefs_ok rl (slots_r r) (walkA c fx m dcap pcap fuel rl r).
Proof.
  intros Hm Hc.
  assert (forall rl k, 0 <= rl -> 0 <= k -> forall t, derefs_ok rl k (mkAcc (A:=tree) t rl 0 0)) as Hleaf
    by (intros; unfold derefs_ok; cbn [ac_rl ac_d]; lia).
  induction fuel as [|f IH]; intros rl r Hr Hw.
  - destruct r as [p| |]; cbn [walkA]; try (apply Hleaf; cbn; lia).
    pose proof (slots_le_readSize m p Hm Hw) as [Hs _].
    destruct (negb (p_valid p)); apply Hleaf; cbn; lia.
  - destruct r as [p| |]; cbn [walkA]; try (apply Hleaf; cbn; lia).
    cbn [res_sat] in Hw. pose proof (slots_le_readSize m p Hm Hw) as [Hs _]. cbn [slots_r].
    destruct (p_valid p) eqn:V; cbn [negb]; [|apply Hleaf; lia].
    destruct (p_kind p) eqn:K; [| |apply Hleaf; lia].
    + assert (wf_struct m p) as Hws by (split; [assumption|intros _; assumption]).
      destruct (collect _ _ _); try (apply Hleaf; lia). cbv zeta.
      assert (0 <= Z.of_nat (cap_count (PointerCount (p_size p)) pcap) <= slots p) as Hn.
      { unfold slots in *. rewrite V, K in *. unfold cap_count. lia. }
      eapply derefs_node; [apply (iter_acc_derefs _ 1); [lia| |assumption]|lia]. intros j rl0 Hj H0.
      apply (deref_then_derefs m); try assumption.
      * apply struct_ptr_charge. assumption.
      * eapply res_sat_weaken; [apply struct_ptr_safe; auto; lia|auto].
    + assert (wf_list m p) as Hwl by (split; [assumption|intros _; assumption]).
      assert (forall j, 0 <= j < Z.of_nat (cap_count (p_len p) pcap) -> 0 <= j < list_len p) as Hidx.
      { intros j Hj. apply cap_count_le in Hj. unfold list_len. rewrite V. assumption. }
      destruct (wf_list_inv m p Hwl V) as (_ & _ & Hl & Hr').
      cbv zeta. destruct (p_bit p) eqn:Hb; [destruct (collect _ _ _); apply Hleaf; lia|].
      destruct Hr' as [Hz _]. unfold wf_size in Hz.
      assert (slots p = p_len p * PointerCount (p_size p)) as Hsl by (unfold slots; rewrite V, K, Hb; reflexivity).
      assert (0 <= Z.of_nat (cap_count (p_len p) pcap) <= p_len p) as Hn by (unfold cap_count; lia).
      destruct (p_comp p).
      { eapply derefs_node; [apply (iter_acc_derefs _ (PointerCount (p_size p))); [lia| |assumption]|nia].
        intros j rl0 Hj H0.
        pose proof (list_struct_safe (fx_depth fx) m p j Hm Hwl (Hidx j Hj)) as Hq.
        assert (slots_r (list_struct (fx_depth fx) p j) <= PointerCount (p_size p)) as Hsq.
        { unfold list_struct. destruct (_ || _); [cbn; lia|]. destruct (p_bit p); [cbn; lia|].
          destruct (element _ _ _); cbn; lia. }
        assert (res_sat (list_struct (fx_depth fx) p j) (wf_ptr m)) as Hq'
          by (eapply res_sat_weaken; [exact Hq|intros a [Ha _]; exact Ha]).
        specialize (IH rl0 _ H0 Hq'). unfold derefs_ok in *. lia. }
      destruct (0 <? PointerCount (p_size p)) eqn:Hpc.
      { eapply derefs_node; [apply (iter_acc_derefs _ 1); [lia| |assumption]|nia]. intros j rl0 Hj H0.
        apply (deref_then_derefs m); try assumption.
        * apply ptrlist_at_charge. assumption.
        * eapply res_sat_weaken; [apply ptrlist_at_safe; auto|auto]. }
      destruct (_ =? 0); [apply Hleaf; lia|]. destruct (collect _ _ _); apply Hleaf; lia.
Qed.

Lemma root_depth c m rl q : 1 <= depth_limit c ->
  fst (root c m rl) = Ok q -> p_valid q = true -> 0 <= p_depth q <= depth_limit c - 1.
Proof.
  intros HD. unfold root. destruct (lookup_segment m 0) as [s0| |]; try discriminate.
  destruct (negb _); [destruct (cfg_root c); discriminate|].
  intros H V. pose proof (readPtr_depth (cfg_strict c) m rl 0 s0 0 (depth_limit c) q) as G.
  specialize (G ltac:(lia) H V). lia.
Qed.

(* The walker on any well-formed start result whose depth budget the fuel covers: it never runs
   out of fuel (its recursion depth is bounded by the depth budget), does not panic, hands out at
   most its budget, and the number of successful dereferences is at most (budget consumed)/8 + the
   start object's pointer slots -- on any message, cyclic and aliasing pointer graphs included. *)
Lemma walk_bounded_res c fx m dcap pcap fuel rl r :
  msg_ok m -> cfg_strict c = true -> fx_depth fx = true -> fx_bit fx = true ->
  res_sat r (wf_ptr m) ->
  (forall p, r = Ok p -> p_valid p = true -> 0 <= p_depth p /\ p_depth p + 2 <= Z.of_nat fuel) -> 0 <= rl ->
  let a := walkA c fx m dcap pcap fuel rl r in
  (ac_val a, ac_rl a) = walk c fx m dcap pcap fuel rl r /\
  tree_ok (ac_val a) = true /\ tree_nofuel (ac_val a) = true /\
  0 <= ac_rl a /\ ac_rl a + ac_h a <= rl /\
  0 <= ac_d a /\ 8 * ac_d a <= (rl - ac_rl a) + 8 * slots_r r.
Proof.
  intros Hm Hc Hfd Hfb Hw Hd Hr a.
  pose proof (walkA_erase c fx m dcap pcap fuel rl r) as He. fold a in He.
  split; [exact He|].
  pose proof (walk_safe c fx m dcap pcap Hm Hc Hfb fuel rl r Hw) as H1. rewrite <- He in H1.
  pose proof (walk_fuel c fx m dcap pcap Hfd fuel rl r) as H2. rewrite <- He in H2.
  cbn [fst] in H1, H2.
  destruct (walk_traversal c fx m dcap pcap fuel rl r Hr) as (T1 & T2 & T3). fold a in T1, T2, T3.
  destruct (walk_derefs c fx m dcap pcap Hm Hc fuel rl r Hr Hw) as (D1 & D2 & D3). fold a in D1, D2, D3.
  split; [assumption|]. split; [|lia].
  apply H2. intros p E V. destruct (Hd p E V). split; [assumption|]. left. assumption.
Qed.

(* walk_bounded, from any well-formed start pointer with fuel >= depth budget + 2 *)
Theorem walk_bounded_from c fx m dcap pcap fuel rl p :
  msg_ok m -> cfg_strict c = true -> fx_depth fx = true -> fx_bit fx = true ->
  wf_ptr m p -> 0 <= p_depth p -> p_depth p + 2 <= Z.of_nat fuel -> 0 <= rl ->
  let a := walkA c fx m dcap pcap fuel rl (Ok p) in
  (ac_val a, ac_rl a) = walk c fx m dcap pcap fuel rl (Ok p) /\
  tree_ok (ac_val a) = true /\ tree_nofuel (ac_val a) = true /\
  0 <= ac_rl a /\ ac_rl a + ac_h a <= rl /\
  0 <= ac_d a /\ 8 * ac_d a <= (rl - ac_rl a) + 8 * slots p.
Proof.
  intros Hm Hc Hfd Hfb Hw Hd Hf Hr.
  apply (walk_bounded_res c fx m dcap pcap fuel rl (Ok p)); auto. intros p' [= <-] _. auto.
Qed.

(* walk_bounded for a whole message: Root followed by the walker with fuel D+1 *)
Theorem walk_bounded c fx m dcap pcap fuel :
  msg_ok m -> cfg_strict c = true -> cfg_root c = true -> fx_depth fx = true -> fx_bit fx = true ->
  1 <= depth_limit c -> 0 <= cfg_T c -> depth_limit c + 1 <= Z.of_nat fuel ->
  let T := init_rlimit c in
  let r := root c m T in
  let a := walkA c fx m dcap pcap fuel (snd r) (fst r) in
  (ac_val a, ac_rl a) = walk c fx m dcap pcap fuel (snd r) (fst r) /\
  tree_ok (ac_val a) = true /\ tree_nofuel (ac_val a) = true /\
  0 <= ac_rl a /\
  deref_size (fst r) + ac_h a <= T /\
  0 <= deref_count (fst r) + ac_d a <= T / 8 + 1.
Proof.
  intros Hm Hc Hrt Hfd Hfb HD HT Hf T r a.
  pose proof (init_rlimit_nonneg c HT) as H0. fold T in H0.
  assert (res_sat (fst r) (wf_ptr m)) as Hw
    by (eapply res_sat_weaken; [apply root_safe; assumption|auto]).
  destruct (root_charge c m T H0) as [[C1 C1'] C2]. fold r in C1, C1', C2.
  destruct (walk_bounded_res c fx m dcap pcap fuel (snd r) (fst r) Hm Hc Hfd Hfb Hw) as (B1 & B2 & B3 & B4 & B5 & B6 & B7);
    [intros p E V; pose proof (root_depth c m T p HD E V); lia|exact C1|].
  fold a in B1, B2, B3, B4, B5, B6, B7. repeat (split; [assumption|]).
  unfold deref_size, deref_count, slots_r in *.
  destruct (fst r) as [q| |]; cbn [res_sat] in Hw; [|lia|destruct Hw].
  pose proof (slots_le_readSize m q Hm Hw). pose proof (readSize_nonneg q).
  split; [lia|]. destruct (p_valid q); lia.
Qed.

(* Message.Reset / Decoder.ReuseBuffer: an op list with resets is a sequence of incarnations.
   For EVERY op list [pre ++ OReset true :: inc ++ post] (pre and post arbitrary, resets
   included; inc the ops up to the next reset):
   - right after the reset the budget is exactly Message.initReadLimit's value (the configured
     TraverseLimit, or the 64 MiB default when it is 0) and no handle survives,
   - within the incarnation the budget is never negative and the read sizes handed out sum to
     at most that value,
   - the observations of [inc] inside the whole run are those of the incarnation.
   The first incarnation (before any reset) is traversal_bound_seq. *)
Theorem traversal_bound_incarnations c fx m pre inc post : 0 <= cfg_T c -> no_reset inc = true ->
  let st0 := fst (run c fx m (init_state c) (pre ++ [OReset true])) in
  let r := run c fx m st0 inc in
  rs_rl st0 = init_rlimit c /\ rs_handles st0 = [] /\
  0 <= rs_rl (fst r) /\
  handed_sum inc (snd r) <= init_rlimit c - rs_rl (fst r) /\
  handed_sum inc (snd r) <= init_rlimit c /\
  run_ops c fx m (pre ++ OReset true :: inc ++ post) =
    snd (run c fx m (init_state c) pre) ++ VNum (Ok (init_rlimit c)) :: snd r ++ snd (run c fx m (fst r) post).
Proof.
  intros HT Hnr st0 r.
  assert (st0 = mkRS [] (init_rlimit c)) as E0.
  { subst st0. rewrite run_app. cbn [fst run step reset_limit]. reflexivity. }
  pose proof (run_charge c fx m inc st0 ltac:(rewrite E0; cbn [rs_rl]; apply init_rlimit_nonneg; exact HT) Hnr) as [H1 H2].
  fold r in H1, H2. rewrite E0 in H2. cbn [rs_rl] in H2.
  split; [rewrite E0; reflexivity|]. split; [rewrite E0; reflexivity|].
  split; [exact H1|]. split; [lia|]. split; [lia|].
  unfold run_ops. fold (init_state c). rewrite run_app. cbn [snd]. f_equal.
  cbn [run step reset_limit]. rewrite <- E0. rewrite (run_app c fx m inc post st0). fold r. reflexivity.
Qed.

(* sensitivity: the variant of Message.Reset that re-arms the budget with the default instead of
   the configured TraverseLimit (OReset false).  T = 8 admits exactly one dereference of the
   8-byte root struct; after the reset the variant has 64 MiB again, so the second incarnation
   hands out 16 > T bytes. *)
Definition obs_code (v : oval) : Z :=
  match v with VPtr (Ok _) => 1 | VPtr Err => 2 | VNum (Ok n) => n | _ => 0 end.

Example reset_default_refuted :
  let c := mkCfg 8 0 true true in
  let fx := mkFix true true true in
  let m := [[0;0;0;0;0;0;1;0;  0;0;0;0;0;0;0;0]] in
  msg_ok m /\
  (* repaired: budget T after the reset, the second Root of the incarnation is refused (2) *)
  map obs_code (run_ops c fx m [ORoot; OReset true; ORoot; ORoot]) = [1; 8; 1; 2] /\
  handed_sum [ORoot; ORoot] (skipn 2 (run_ops c fx m [ORoot; OReset true; ORoot; ORoot])) = 8 /\
  (* seeded variant: 64 MiB after the reset, both succeed: 16 bytes handed out with T = 8 *)
  map obs_code (run_ops c fx m [ORoot; OReset false; ORoot; ORoot]) = [1; 67108864; 1; 1] /\
  handed_sum [ORoot; ORoot] (skipn 2 (run_ops c fx m [ORoot; OReset false; ORoot; ORoot])) = 16.
Proof.
  cbv zeta. split; [repeat constructor; cbn; try lia; unfold maxSegmentSize; lia|].
  repeat split; vm_compute; reflexivity.
Qed.

(* non-vacuity (used by Properties_C02): the cyclic message walked with D = 3 *)
Lemma cyclic_walk_bounded_example :
  let c := mkCfg 4096 3 true true in
  let r := root c cyc_msg 4096 in
  let a := walkA c (mkFix true true true) cyc_msg 8 8 4 (snd r) (fst r) in
  msg_ok cyc_msg /\ tree_nofuel (ac_val a) = true /\
  ac_val a = TStruct [] [TComp 1 (mkOS 0 1) [TStruct [] [TErr]]] /\
  deref_count (fst r) + ac_d a = 2 /\ deref_size (fst r) + ac_h a = 16.
Proof.
  split; [repeat constructor; cbn; try lia; unfold maxSegmentSize; lia|].
  vm_compute. repeat split.
Qed.

(* The application can raise the budget itself: Message.ResetReadLimit (OResetLimit), Message.Unread
   (OUnread), or reuse the message (OReset).  The budget is never negative whatever is called,
   and between two such calls (a budget epoch) the read sizes handed out sum to at most the
   budget the epoch started with. *)
Lemma step_nonneg c fx m st o : 0 <= cfg_T c -> 0 <= rs_rl st -> 0 <= rs_rl (fst (step c fx m st o)).
Proof.
  intros HT Hr. destruct (is_reset o) eqn:E.
  - destruct o; try discriminate E; cbn [step fst rs_rl].
    + unfold reset_limit, defaultTraverseLimit. destruct fixed; [apply init_rlimit_nonneg; exact HT|lia].
    + apply u64_range.
    + apply u64_range.
  - apply step_charge; assumption.
Qed.

Lemma run_nonneg c fx m : forall ops st, 0 <= cfg_T c -> 0 <= rs_rl st -> 0 <= rs_rl (fst (run c fx m st ops)).
Proof.
  induction ops as [|o ops IH]; intros st HT Hr; cbn [run]; [exact Hr|].
  pose proof (step_nonneg c fx m st o HT Hr) as H. destruct (step c fx m st o) as [st1 v]. cbn [fst] in *.
  specialize (IH st1 HT H). destruct (run c fx m st1 ops). exact IH.
Qed.

Definition budget_after (c : config) (before : Z) (o : op) : Z :=
  match o with
  | OReset fixed => reset_limit fixed c
  | OResetLimit n => u64 n
  | OUnread n => u64 (before + u32 n)
  | _ => before
  end.

Theorem traversal_bound_epochs c fx m pre o inc : 0 <= cfg_T c -> is_reset o = true -> no_reset inc = true ->
  let st_pre := fst (run c fx m (init_state c) pre) in
  let st0 := fst (run c fx m (init_state c) (pre ++ [o])) in
  let r := run c fx m st0 inc in
  rs_rl st0 = budget_after c (rs_rl st_pre) o /\ 0 <= rs_rl st0 /\
  0 <= rs_rl (fst r) /\
  handed_sum inc (snd r) <= rs_rl st0 - rs_rl (fst r) /\
  handed_sum inc (snd r) <= rs_rl st0.
Proof.
  intros HT Ho Hnr st_pre st0 r.
  assert (0 <= rs_rl st0) as H0 by (apply run_nonneg; [exact HT|apply init_rlimit_nonneg; exact HT]).
  pose proof (run_charge c fx m inc st0 H0 Hnr) as [H1 H2]. fold r in H1, H2.
  split; [|split; [exact H0|split; [exact H1|split; lia]]].
  subst st0. rewrite run_app. cbn [fst]. fold st_pre.
  destruct o; try discriminate Ho; reflexivity.
Qed.
