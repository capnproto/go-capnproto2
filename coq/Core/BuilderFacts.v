(* Basic facts about the write-side model: segment tables, byte writes, little-endian
   encode/decode, and the frame property of the data setters ([setter_frame]). *)
From CV Require Import Core.Builder Core.ReaderFacts.
From Coq Require Import ZifyBool ZifyNat.
Open Scope Z_scope.

Ltac Zify.zify_post_hook ::= Z.div_mod_to_equations.

Lemma Ok_inj {A} (a b : A) : Ok a = Ok b -> a = b.
Proof. now intros [= ->]. Qed.

Lemma bind_Ok {A B} (r : res A) (f : A -> res B) b : bind r f = Ok b -> exists a, r = Ok a /\ f a = Ok b.
Proof. destruct r; cbn [bind]; try discriminate. eauto. Qed.

Lemma lift0_Ok w r w' : lift0 w r = Ok w' -> exists m, r = Ok m /\ w' = w_set_dst w m.
Proof. intros H. apply bind_Ok in H. destruct H as (m & E & H). apply Ok_inj in H. eauto. Qed.

Definition seg_wf (s : bseg) : Prop := blen s <= bs_cap s /\ blen s mod 8 = 0.
Definition bmsg_wf (m : bmsg) : Prop := Forall seg_wf (bm_segs m).

Lemma blen_nonneg s : 0 <= blen s.
Proof. unfold blen. apply zlen_nonneg. Qed.

Lemma zlen_app {A} (a b : list A) : zlen (a ++ b) = zlen a + zlen b.
Proof. unfold zlen. rewrite app_length. lia. Qed.

Lemma zlen_repeat {A} (x : A) n : zlen (repeat x n) = Z.of_nat n.
Proof. unfold zlen. now rewrite repeat_length. Qed.

Lemma zlen_map {A B} (f : A -> B) l : zlen (map f l) = zlen l.
Proof. unfold zlen. now rewrite map_length. Qed.

Lemma set_nth_length {A} n (l : list A) x : length (set_nth n l x) = length l.
Proof. revert n; induction l as [|y l IH]; intros [|n]; cbn; auto. Qed.

Lemma nth_set_nth_same {A} n (l : list A) x d : (n < length l)%nat -> nth n (set_nth n l x) d = x.
Proof. revert n; induction l as [|y l IH]; intros [|n] H; cbn in *; try lia; auto. apply IH. lia. Qed.

Lemma nth_set_nth_other {A} n k (l : list A) x d : n <> k -> nth k (set_nth n l x) d = nth k l d.
Proof.
  revert n k; induction l as [|y l IH]; intros [|n] [|k] H; cbn; auto; try congruence.
Qed.

Lemma Forall_set_nth {A} (P : A -> Prop) n l x : Forall P l -> P x -> Forall P (set_nth n l x).
Proof.
  intros H; revert n; induction H as [|y l Hy Hl IH]; intros [|n] Hx; cbn; constructor; auto.
Qed.

Lemma get_put_same m id s : 0 <= id < zlen (bm_segs m) -> get_seg (put_seg m id s) id = s.
Proof.
  intros H. unfold get_seg, put_seg. cbn [bm_segs]. apply nth_set_nth_same. unfold zlen in H. lia.
Qed.

Lemma get_put_other m id id' s : 0 <= id -> 0 <= id' -> id <> id' -> get_seg (put_seg m id s) id' = get_seg m id'.
Proof.
  intros H1 H2 H3. unfold get_seg, put_seg. cbn [bm_segs]. apply nth_set_nth_other. lia.
Qed.

Lemma put_seg_nsegs m id s : zlen (bm_segs (put_seg m id s)) = zlen (bm_segs m).
Proof. unfold put_seg, zlen. cbn [bm_segs]. now rewrite set_nth_length. Qed.

Lemma put_seg_fields m id s :
  bm_arena (put_seg m id s) = bm_arena m /\ bm_caps (put_seg m id s) = bm_caps m /\ bm_rl (put_seg m id s) = bm_rl m.
Proof. now unfold put_seg. Qed.

Lemma put_seg_wf m id s : bmsg_wf m -> seg_wf s -> bmsg_wf (put_seg m id s).
Proof. intros. unfold bmsg_wf, put_seg. cbn [bm_segs]. now apply Forall_set_nth. Qed.

Lemma Forall_nth_default {A} (P : A -> Prop) l d n : Forall P l -> P d -> P (nth n l d).
Proof. intros F Pd. destruct (nth_in_or_default n l d) as [I| ->]; [|exact Pd]. rewrite Forall_forall in F. auto. Qed.

Lemma get_seg_wf m id : bmsg_wf m -> seg_wf (get_seg m id).
Proof. intros H. unfold get_seg. apply Forall_nth_default; [exact H|]. unfold seg_wf, blen, zlen. cbn. lia. Qed.

Lemma bmsg_wf_iff m : bmsg_wf m <-> (forall i, 0 <= i -> seg_wf (get_seg m i)).
Proof.
  split.
  - intros H i _. now apply get_seg_wf.
  - intros H. unfold bmsg_wf. apply Forall_forall. intros s Hs.
    destruct (In_nth _ _ (mkBS [] 0) Hs) as (n & Hn & <-).
    specialize (H (Z.of_nat n) ltac:(lia)). unfold get_seg in H. now rewrite Nat2Z.id in H.
Qed.

Lemma get_seg_out m id : zlen (bm_segs m) <= id -> get_seg m id = mkBS [] 0.
Proof. intros H. unfold get_seg. apply nth_overflow. unfold zlen in H. lia. Qed.

Lemma le_encode_length n v : length (le_encode n v) = n.
Proof. revert v; induction n; intros; cbn; auto. Qed.

Lemma le_decode_encode n v : 0 <= v < 256 ^ Z.of_nat n -> le_decode (le_encode n v) = v.
Proof.
  revert v; induction n as [|n IH]; intros v H.
  - cbn in *. lia.
  - cbn [le_encode le_decode]. rewrite IH.
    + lia.
    + rewrite Nat2Z.inj_succ, Z.pow_succ_r in H by lia. lia.
Qed.

Lemma le_decode_encode_mod n v : le_decode (le_encode n v) = v mod 256 ^ Z.of_nat n.
Proof.
  revert v; induction n as [|n IH]; intros v.
  - cbn. now rewrite Z.mod_1_r.
  - cbn [le_encode le_decode]. rewrite IH. rewrite Nat2Z.inj_succ, Z.pow_succ_r by lia.
    assert (0 < 256 ^ Z.of_nat n) by (apply Z.pow_pos_nonneg; lia).
    rewrite (Z.mul_comm 256). rewrite Z.rem_mul_r by lia. lia.
Qed.

Lemma le_encode_bytes n v : Forall (fun b => 0 <= b < 256) (le_encode n v).
Proof. revert v; induction n; intros; cbn; constructor; auto. lia. Qed.

Lemma nth_firstn_lt {A} k n (l : list A) d : (k < n)%nat -> nth k (firstn n l) d = nth k l d.
Proof.
  revert k l; induction n as [|n IH]; intros k l H; [lia|].
  destruct l as [|y l]; [now destruct k|]. destruct k as [|k]; cbn; auto. apply IH. lia.
Qed.

Lemma nth_skipn_add {A} k n (l : list A) d : nth k (skipn n l) d = nth (n + k) l d.
Proof.
  revert l; induction n as [|n IH]; intros l; cbn; auto.
  destruct l as [|y l]; [now destruct k|]. apply IH.
Qed.

Lemma write_bytes_length d addr bs :
  0 <= addr -> addr + zlen bs <= zlen d -> length (write_bytes d addr bs) = length d.
Proof.
  intros H1 H2. unfold write_bytes, zlen in *. rewrite !app_length, firstn_length, skipn_length. lia.
Qed.

(* byte k of the result: the new byte inside the range, the old byte outside *)
Lemma write_bytes_nth d addr bs k x :
  0 <= addr -> addr + zlen bs <= zlen d ->
  nth k (write_bytes d addr bs) x =
  if (Z.to_nat addr <=? k)%nat && (k <? Z.to_nat addr + length bs)%nat
  then nth (k - Z.to_nat addr) bs x else nth k d x.
Proof.
  intros H1 H2. unfold write_bytes, zlen in *.
  assert (L : length (firstn (Z.to_nat addr) d) = Z.to_nat addr) by (rewrite firstn_length; lia).
  destruct (Nat.ltb_spec k (Z.to_nat addr)) as [A|A].
  - rewrite app_nth1 by lia. rewrite nth_firstn_lt by lia.
    destruct (Nat.leb_spec (Z.to_nat addr) k); try lia. reflexivity.
  - rewrite app_nth2 by lia. rewrite L.
    destruct (Nat.leb_spec (Z.to_nat addr) k); try lia. cbn [andb].
    destruct (Nat.ltb_spec k (Z.to_nat addr + length bs)) as [B|B].
    + rewrite app_nth1 by lia. reflexivity.
    + rewrite app_nth2 by lia. rewrite nth_skipn_add. f_equal. lia.
Qed.

(* the bytes in [base, base+n) *)
Lemma sub_write_same d addr bs :
  0 <= addr -> addr + zlen bs <= zlen d -> sub (write_bytes d addr bs) addr (zlen bs) = bs.
Proof.
  intros H1 H2. unfold sub, write_bytes, zlen in *.
  rewrite skipn_app. rewrite skipn_all2 by (rewrite firstn_length; lia).
  rewrite firstn_length. replace (Z.to_nat addr - Nat.min (Z.to_nat addr) (length d))%nat with O by lia.
  cbn [skipn app]. rewrite Nat2Z.id. rewrite firstn_app. rewrite firstn_all.
  replace (length bs - length bs)%nat with O by lia. cbn. now rewrite app_nil_r.
Qed.

Lemma sub_write_disjoint d addr bs base n :
  0 <= addr -> addr + zlen bs <= zlen d -> 0 <= base -> 0 <= n ->
  base + n <= addr \/ addr + zlen bs <= base ->
  sub (write_bytes d addr bs) base n = sub d base n.
Proof.
  intros H1 H2 H3 H4 H5. unfold sub.
  apply nth_ext with (d := 0) (d' := 0).
  - rewrite !firstn_length, !skipn_length. rewrite write_bytes_length by assumption. reflexivity.
  - intros k Hk. rewrite firstn_length, skipn_length in Hk.
    rewrite write_bytes_length in Hk by assumption.
    rewrite !nth_firstn_lt by lia. rewrite !nth_skipn_add. rewrite write_bytes_nth by assumption.
    unfold zlen in *.
    destruct (Nat.leb_spec (Z.to_nat addr) (Z.to_nat base + k)); cbn [andb]; auto.
    destruct (Nat.ltb_spec (Z.to_nat base + k) (Z.to_nat addr + length bs)); auto. lia.
Qed.

Lemma seg_write_ok m sid addr bs m' :
  zlen bs < 4294967296 ->
  seg_write m sid addr bs = Ok m' ->
  0 <= addr /\ addr + zlen bs <= blen (get_seg m sid) /\
  m' = put_seg m sid (mkBS (write_bytes (bs_data (get_seg m sid)) addr bs) (bs_cap (get_seg m sid))).
Proof.
  unfold seg_write, addSizeUnchecked. intros Hl H.
  destruct ((0 <=? addr) && (addr <=? u32 (addr + zlen bs)) && (u32 (addr + zlen bs) <=? blen (get_seg m sid))) eqn:E;
    [|discriminate].
  injection H as <-.
  assert (Hz := zlen_nonneg bs). unfold u32 in E.
  assert (Hb := blen_nonneg (get_seg m sid)).
  repeat split; lia.
Qed.

Lemma seg_write_not_err m sid addr bs : seg_write m sid addr bs <> Err.
Proof. unfold seg_write. destruct (_ && _ && _); discriminate. Qed.

Definition mem (m : bmsg) (sid : Z) : list Z := bs_data (get_seg m sid).

(* a negative index designates segment 0, as in [get_seg] *)
Lemma mem_neg m i : i <= 0 -> mem m i = mem m 0.
Proof. intros H. unfold mem, get_seg. now replace (Z.to_nat i) with (Z.to_nat 0) by lia. Qed.

Lemma seg_of_bm_data m p : seg_of (bm_data m) p = mem m (p_seg p).
Proof.
  unfold seg_of, bm_data, mem, get_seg.
  change (@nil Z) with (bs_data (mkBS [] 0)). apply map_nth.
Qed.

Lemma nth_bm_data m i : nth (Z.to_nat i) (bm_data m) [] = mem m i.
Proof.
  unfold bm_data, mem, get_seg. change (@nil Z) with (bs_data (mkBS [] 0)). apply map_nth.
Qed.

Lemma set_nth_overflow {A} n (l : list A) x : (length l <= n)%nat -> set_nth n l x = l.
Proof. revert n; induction l as [|y l IH]; intros [|n] H; cbn in *; auto; try lia. f_equal. apply IH. lia. Qed.

(* [wrote m m' sid addr bs]: m' is m with the bytes bs stored at [addr, addr+|bs|) of segment
   sid and nothing else changed (no other byte of any segment, no length, no capacity) *)
Definition wrote (m m' : bmsg) (sid addr : Z) (bs : list Z) : Prop :=
  0 <= addr /\ addr + zlen bs <= zlen (mem m sid) /\
  mem m' sid = write_bytes (mem m sid) addr bs /\
  (forall i, 0 <= i -> i <> sid -> get_seg m' i = get_seg m i) /\
  bs_cap (get_seg m' sid) = bs_cap (get_seg m sid) /\
  zlen (mem m' sid) = zlen (mem m sid) /\
  zlen (bm_segs m') = zlen (bm_segs m) /\
  bm_arena m' = bm_arena m /\ bm_caps m' = bm_caps m /\ bm_rl m' = bm_rl m.

Lemma seg_write_wrote m sid addr bs m' :
  0 <= sid -> zlen bs < 4294967296 -> seg_write m sid addr bs = Ok m' -> wrote m m' sid addr bs.
Proof.
  intros Hsid Hl H. apply seg_write_ok in H; auto. destruct H as (H1 & H2 & ->).
  unfold wrote, mem. fold (blen (get_seg m sid)).
  set (s' := mkBS (write_bytes (bs_data (get_seg m sid)) addr bs) (bs_cap (get_seg m sid))).
  assert (Hlen : length (write_bytes (bs_data (get_seg m sid)) addr bs) = length (bs_data (get_seg m sid)))
    by (apply write_bytes_length; unfold blen in H2; lia).
  destruct (Z_lt_ge_dec sid (zlen (bm_segs m))) as [L|G].
  - rewrite get_put_same by lia. rewrite put_seg_nsegs. unfold s'. cbn [bs_data bs_cap].
    repeat split; auto; try lia.
    + intros i Hi Hne. apply get_put_other; lia.
    + unfold zlen. now rewrite Hlen.
  - (* a segment outside the message: only the empty write passes the bounds check *)
    assert (E : get_seg m sid = mkBS [] 0) by (apply get_seg_out; lia).
    assert (Hp : put_seg m sid s' = m).
    { unfold put_seg. rewrite set_nth_overflow by (unfold zlen in G; lia). now destruct m. }
    rewrite Hp. rewrite E in *. unfold blen, zlen in H2. cbn in H2.
    assert (bs = []) by (destruct bs; cbn in *; [reflexivity|lia]). subst bs.
    assert (addr = 0) by (cbn in H2; lia). subst addr.
    cbn. repeat split; auto; lia.
Qed.

(* reads outside the written range, or in another segment, see the old bytes *)
Lemma slice_write_disjoint d addr bs base n :
  0 <= addr -> addr + zlen bs <= zlen d -> 0 <= n < 4294967296 ->
  base + n <= addr \/ addr + zlen bs <= base ->
  slice (write_bytes d addr bs) base n = slice d base n.
Proof.
  intros H1 H2 H3 H4. unfold slice. cbv zeta.
  assert (L : zlen (write_bytes d addr bs) = zlen d) by (unfold zlen; rewrite write_bytes_length; auto).
  rewrite L. unfold addSizeUnchecked, u32.
  destruct ((0 <=? base) && (base <=? (base + n) mod 4294967296) && ((base + n) mod 4294967296 <=? zlen d)) eqn:E; auto.
  f_equal. assert (Hz := zlen_nonneg bs).
  assert ((base + n) mod 4294967296 = base + n) by lia.
  change (firstn (Z.to_nat ((base + n) mod 4294967296 - base)) (skipn (Z.to_nat base) (write_bytes d addr bs)))
    with (sub (write_bytes d addr bs) base ((base + n) mod 4294967296 - base)).
  rewrite sub_write_disjoint by lia. reflexivity.
Qed.

Theorem wrote_slice_other m m' sid addr bs sid' base n :
  wrote m m' sid addr bs -> 0 <= sid' -> 0 <= n < 4294967296 ->
  sid' <> sid \/ base + n <= addr \/ addr + zlen bs <= base ->
  slice (mem m' sid') base n = slice (mem m sid') base n.
Proof.
  intros (W1 & W2 & W3 & W4 & _) Hs Hn Hd.
  destruct (Z.eq_dec sid' sid) as [->|Hne].
  - rewrite W3. apply slice_write_disjoint; auto. destruct Hd as [Hd|Hd]; [congruence|exact Hd].
  - unfold mem. rewrite W4 by assumption. reflexivity.
Qed.

Corollary wrote_readUintN_other m m' sid addr bs sid' base n :
  wrote m m' sid addr bs -> 0 <= sid' -> 0 <= n < 4294967296 ->
  sid' <> sid \/ base + n <= addr \/ addr + zlen bs <= base ->
  readUintN (mem m' sid') base n = readUintN (mem m sid') base n.
Proof. intros. unfold readUintN. erewrite wrote_slice_other; eauto. Qed.

(* reading back exactly the written range *)
Lemma wrote_slice_same m m' sid addr bs :
  wrote m m' sid addr bs -> zlen (mem m sid) < 4294967296 ->
  slice (mem m' sid) addr (zlen bs) = Ok bs.
Proof.
  intros (W1 & W2 & W3 & _ & _ & W6 & _) Hl.
  assert (Hz := zlen_nonneg bs).
  rewrite slice_ok by lia. rewrite W3, sub_write_same by lia. reflexivity.
Qed.

Definition width_ok (n : Z) : Prop := n = 1 \/ n = 2 \/ n = 4 \/ n = 8.

Lemma zlen_le_encode n v : 0 <= n -> zlen (le_encode (Z.to_nat n) v) = n.
Proof. intros. unfold zlen. rewrite le_encode_length. lia. Qed.

Lemma width_ok_range n : width_ok n -> 0 <= n < 4294967296.
Proof. intros [->|[->|[->| ->]]]; lia. Qed.

(* an n-byte little-endian store, read back *)
Lemma uint_write_back m sid addr n v m' :
  0 <= n < 4294967296 -> 0 <= sid -> zlen (mem m sid) < 4294967296 ->
  seg_write m sid addr (le_encode (Z.to_nat n) v) = Ok m' ->
  wrote m m' sid addr (le_encode (Z.to_nat n) v) /\ readUintN (mem m' sid) addr n = Ok (v mod 256 ^ n).
Proof.
  intros Hn Hs Hl HW. apply seg_write_wrote in HW; auto; [|rewrite zlen_le_encode; lia].
  split; [exact HW|]. unfold readUintN.
  pose proof (wrote_slice_same _ _ _ _ _ HW Hl) as R. rewrite zlen_le_encode in R by lia.
  rewrite R. cbn [bind]. rewrite le_decode_encode_mod. rewrite Z2Nat.id by lia. reflexivity.
Qed.

(* SetUint8/16/32/64: exactly the n bytes of the field change; reading the field back yields
   the value (truncated to the width, as the Go conversion does); every read of any other
   location - another segment, or a byte range of the same segment that does not overlap the
   field - is unchanged, and so are all lengths, capacities and the capability table *)
Theorem struct_set_uint_frame m p off n v m' :
  width_ok n -> 0 <= p_seg p -> zlen (mem m (p_seg p)) < 4294967296 ->
  struct_set_uint m p off n v = Ok m' ->
  exists addr, dataAddress p off n = Ok (Some addr) /\
    wrote m m' (p_seg p) addr (le_encode (Z.to_nat n) v) /\
    struct_uint (bm_data m') p off n = Ok (v mod 256 ^ n).
Proof.
  intros Hn Hs Hl. unfold struct_set_uint, struct_uint.
  destruct (dataAddress p off n) as [[addr|]| |] eqn:ED; cbn [bind]; try discriminate.
  intros HW. exists addr. split; [reflexivity|]. rewrite seg_of_bm_data.
  apply uint_write_back; auto using width_ok_range.
Qed.

(* the same for the typed list setters UInt8List..UInt64List.Set *)
Theorem list_set_uint_frame m p i n v m' :
  width_ok n -> 0 <= p_seg p -> zlen (mem m (p_seg p)) < 4294967296 ->
  list_set_uint m p i n v = Ok m' ->
  exists addr, primitiveElem true p i (mkOS n 0) = Ok addr /\
    wrote m m' (p_seg p) addr (le_encode (Z.to_nat n) v) /\
    list_uint_at true (bm_data m') p i n = Ok (v mod 256 ^ n).
Proof.
  intros Hn Hs Hl. unfold list_set_uint, list_uint_at.
  destruct (primitiveElem true p i (mkOS n 0)) as [addr| |] eqn:EP; try discriminate.
  intros HW. exists addr. split; [reflexivity|]. rewrite seg_of_bm_data.
  apply uint_write_back; auto using width_ok_range.
Qed.

(* frame for the accessors themselves: a struct field / list element read at another location *)
Corollary struct_uint_other m m' sid addr bs q off n :
  wrote m m' sid addr bs -> 0 <= p_seg q -> 0 <= n < 4294967296 ->
  (forall a, dataAddress q off n = Ok (Some a) -> p_seg q <> sid \/ a + n <= addr \/ addr + zlen bs <= a) ->
  struct_uint (bm_data m') q off n = struct_uint (bm_data m) q off n.
Proof.
  intros HW Hs Hn Hd. unfold struct_uint. destruct (dataAddress q off n) as [[a|]| |]; cbn [bind]; auto.
  rewrite !seg_of_bm_data. eapply wrote_readUintN_other; eauto.
Qed.

Corollary list_uint_at_other m m' sid addr bs q i n :
  wrote m m' sid addr bs -> 0 <= p_seg q -> 0 <= n < 4294967296 ->
  (forall a, primitiveElem true q i (mkOS n 0) = Ok a -> p_seg q <> sid \/ a + n <= addr \/ addr + zlen bs <= a) ->
  list_uint_at true (bm_data m') q i n = list_uint_at true (bm_data m) q i n.
Proof.
  intros HW Hs Hn Hd. unfold list_uint_at. destruct (primitiveElem true q i (mkOS n 0)) as [a| |]; auto.
  rewrite !seg_of_bm_data. eapply wrote_readUintN_other; eauto.
Qed.

Corollary readRawPointer_other m m' sid addr bs sid' a :
  wrote m m' sid addr bs -> 0 <= sid' ->
  sid' <> sid \/ a + 8 <= addr \/ addr + zlen bs <= a ->
  readRawPointer (mem m' sid') a = readRawPointer (mem m sid') a.
Proof. intros. unfold readRawPointer. eapply wrote_readUintN_other; eauto. lia. Qed.

Definition zrange (n : nat) : list Z := map Z.of_nat (seq 0 n).
Lemma in_zrange x n : 0 <= x < Z.of_nat n -> In x (zrange n).
Proof.
  intros H. unfold zrange. apply in_map_iff. exists (Z.to_nat x). split; [lia|].
  apply in_seq. lia.
Qed.

(* set_bit_in on a byte: exhaustive over the 256 x 8 x 2 cases (the whole domain) *)
Definition sbi_check : bool :=
  forallb (fun b => forallb (fun k => forallb (fun v =>
    (0 <=? set_bit_in b k v) && (set_bit_in b k v <? 256) &&
    forallb (fun j => Bool.eqb (Z.testbit (set_bit_in b k v) j) (if j =? k then v else Z.testbit b j)) (zrange 8))
    [true; false]) (zrange 8)) (zrange 256).
Lemma sbi_check_ok : sbi_check = true.
Proof. vm_compute. reflexivity. Qed.

Lemma set_bit_in_spec b k v : 0 <= b < 256 -> 0 <= k < 8 ->
  0 <= set_bit_in b k v < 256 /\
  forall j, 0 <= j < 8 -> Z.testbit (set_bit_in b k v) j = if j =? k then v else Z.testbit b j.
Proof.
  intros Hb Hk. pose proof sbi_check_ok as C. unfold sbi_check in C.
  rewrite forallb_forall in C. specialize (C b (in_zrange b 256 Hb)).
  rewrite forallb_forall in C. specialize (C k (in_zrange k 8 Hk)).
  rewrite forallb_forall in C. specialize (C v ltac:(destruct v; cbn; auto)).
  apply andb_prop in C. destruct C as [C1 C2]. apply andb_prop in C1. destruct C1 as [C0 C1].
  split; [lia|]. intros j Hj. rewrite forallb_forall in C2.
  specialize (C2 j (in_zrange j 8 Hj)). now apply Bool.eqb_prop in C2.
Qed.

Lemma readUintN_1 s addr : 0 <= addr -> addr + 1 <= zlen s -> zlen s < 4294967296 -> bytes_ok s ->
  exists b, readUintN s addr 1 = Ok b /\ 0 <= b < 256 /\ sub s addr 1 = [b].
Proof.
  intros H1 H2 H3 Hb. unfold readUintN. rewrite slice_ok by lia. cbn [bind].
  assert (L : zlen (sub s addr 1) = 1) by (apply sub_length; lia).
  destruct (sub s addr 1) as [|x [|y r]] eqn:E; unfold zlen in L; cbn in L; try lia.
  exists x. cbn [le_decode]. split; [f_equal; lia|]. split; [|reflexivity].
  pose proof (bytes_ok_sub s addr 1 Hb) as B. rewrite E in B. inversion B; subst. lia.
Qed.

(* a one-byte write read back *)
Lemma wrote_byte_back m m' sid addr x :
  wrote m m' sid addr [x] -> zlen (mem m sid) < 4294967296 -> readUintN (mem m' sid) addr 1 = Ok x.
Proof.
  intros HW Hl. unfold readUintN. pose proof (wrote_slice_same _ _ _ _ _ HW Hl) as R.
  change (zlen [x]) with 1 in R. rewrite R. cbn. f_equal. lia.
Qed.

(* one byte rewritten with bit k set to v: the other bits stay, bit k reads back as v *)
Lemma bit_write_back m sid addr b k v m' :
  0 <= sid -> zlen (mem m sid) < 4294967296 -> bytes_ok (mem m sid) -> 0 <= k < 8 ->
  readUintN (mem m sid) addr 1 = Ok b ->
  seg_write m sid addr [set_bit_in b k v] = Ok m' ->
  0 <= b < 256 /\ wrote m m' sid addr [set_bit_in b k v] /\
  (forall j, 0 <= j < 8 -> Z.testbit (set_bit_in b k v) j = if j =? k then v else Z.testbit b j) /\
  (do x <- readUintN (mem m' sid) addr 1; Ok (Z.testbit x k)) = Ok v.
Proof.
  intros Hs Hl Hb Hk ER HW. apply seg_write_wrote in HW; auto; [|cbn; lia].
  pose proof HW as (W1 & W2 & _). change (zlen [set_bit_in b k v]) with 1 in W2.
  destruct (readUintN_1 (mem m sid) addr W1 W2 Hl Hb) as (b' & R1 & R2 & _).
  rewrite ER in R1. apply Ok_inj in R1. subst b'.
  destruct (set_bit_in_spec b k v R2 Hk) as [S1 S2].
  split; [exact R2|]. split; [exact HW|]. split; [exact S2|].
  rewrite (wrote_byte_back _ _ _ _ _ HW Hl). cbn [bind]. rewrite S2 by lia. now rewrite Z.eqb_refl.
Qed.

(* Struct.SetBit: one byte is rewritten, in it exactly bit n mod 8 takes the value v;
   Struct.Bit reads v back *)
Theorem struct_set_bit_frame m p n v m' :
  0 <= p_seg p -> zlen (mem m (p_seg p)) < 4294967296 -> bytes_ok (mem m (p_seg p)) ->
  struct_set_bit m p n v = Ok m' ->
  exists addr b, addOffset (p_off p) (bitOffset_offset n) = Some addr /\
    readUintN (mem m (p_seg p)) addr 1 = Ok b /\ 0 <= b < 256 /\
    wrote m m' (p_seg p) addr [set_bit_in b (n mod 8) v] /\
    (forall j, 0 <= j < 8 -> Z.testbit (set_bit_in b (n mod 8) v) j = if j =? n mod 8 then v else Z.testbit b j) /\
    struct_bit (bm_data m') p n = Ok v.
Proof.
  intros Hs Hl Hb. unfold struct_set_bit, struct_bit.
  destruct (negb (p_valid p && (n <? u32 (DataSize (p_size p) * 8)))) eqn:EV; [discriminate|].
  destruct (addOffset (p_off p) (bitOffset_offset n)) as [addr|] eqn:EA; [|discriminate].
  rewrite nth_bm_data, seg_of_bm_data.
  destruct (readUintN (mem m (p_seg p)) addr 1) as [b| |] eqn:ER; cbn [bind]; try discriminate.
  intros HW. exists addr, b. split; [reflexivity|]. split; [exact ER|].
  apply (bit_write_back m (p_seg p) addr b (n mod 8) v m'); auto. lia.
Qed.

(* BitList.Set *)
Theorem bitlist_set_frame m p i v m' :
  0 <= p_seg p -> zlen (mem m (p_seg p)) < 4294967296 -> bytes_ok (mem m (p_seg p)) ->
  bitlist_set m p i v = Ok m' ->
  let addr := u32 (p_off p + bitOffset_offset i) in
  exists b, readUintN (mem m (p_seg p)) addr 1 = Ok b /\ 0 <= b < 256 /\
    wrote m m' (p_seg p) addr [set_bit_in b (i mod 8) v] /\
    (forall j, 0 <= j < 8 -> Z.testbit (set_bit_in b (i mod 8) v) j = if j =? i mod 8 then v else Z.testbit b j) /\
    bitlist_at true (bm_data m') p i = Ok v.
Proof.
  intros Hs Hl Hb. unfold bitlist_set, bitlist_at. cbv zeta.
  destruct (negb (p_valid p) || (i <? 0) || (i >=? p_len p)) eqn:EV; [discriminate|].
  destruct (negb (p_bit p)) eqn:EB; [discriminate|].
  rewrite nth_bm_data, seg_of_bm_data. set (addr := u32 (p_off p + bitOffset_offset i)).
  destruct (readUintN (mem m (p_seg p)) addr 1) as [b| |] eqn:ER; cbn [bind]; try discriminate.
  intros HW. exists b. split; [reflexivity|].
  apply (bit_write_back m (p_seg p) addr b (i mod 8) v m'); auto. lia.
Qed.

(* [setter_frame]: every data setter is one bounded write.  Whatever setter succeeded, the
   message afterwards is [wrote] of the old one at a range of the setter's width (where the
   range lies is said by the four theorems above), so by
   [wrote_slice_other] / [wrote_readUintN_other] / [struct_uint_other] / [list_uint_at_other] /
   [readRawPointer_other] every read that does not overlap that range is unchanged. *)
Inductive data_setter :=
| DSUint (p : Ptr) (off n v : Z) | DSBit (p : Ptr) (n : Z) (v : bool)
| DSListUint (p : Ptr) (i n v : Z) | DSListBit (p : Ptr) (i : Z) (v : bool).

Definition run_setter (m : bmsg) (s : data_setter) : res bmsg :=
  match s with
  | DSUint p off n v => struct_set_uint m p off n v
  | DSBit p n v => struct_set_bit m p n v
  | DSListUint p i n v => list_set_uint m p i n v
  | DSListBit p i v => bitlist_set m p i v
  end.
Definition setter_ptr (s : data_setter) : Ptr :=
  match s with DSUint p _ _ _ | DSBit p _ _ | DSListUint p _ _ _ | DSListBit p _ _ => p end.
Definition setter_width (s : data_setter) : Z :=
  match s with DSUint _ _ n _ | DSListUint _ _ n _ => n | _ => 1 end.
Definition setter_width_ok (s : data_setter) : Prop :=
  match s with DSUint _ _ n _ | DSListUint _ _ n _ => width_ok n | _ => True end.

Theorem setter_frame m s m' :
  setter_width_ok s -> 0 <= p_seg (setter_ptr s) ->
  zlen (mem m (p_seg (setter_ptr s))) < 4294967296 -> bytes_ok (mem m (p_seg (setter_ptr s))) ->
  run_setter m s = Ok m' ->
  exists addr bs, zlen bs = setter_width s /\ wrote m m' (p_seg (setter_ptr s)) addr bs.
Proof.
  intros Hw Hs Hl Hb H. destruct s as [p off n v|p n v|p i n v|p i v]; cbn in *.
  - destruct (struct_set_uint_frame _ _ _ _ _ _ Hw Hs Hl H) as (a & _ & W & _).
    exists a, (le_encode (Z.to_nat n) v). split; [|exact W].
    apply zlen_le_encode, width_ok_range, Hw.
  - destruct (struct_set_bit_frame _ _ _ _ _ Hs Hl Hb H) as (a & b & _ & _ & _ & W & _).
    exists a, [set_bit_in b (n mod 8) v]. split; [reflexivity|exact W].
  - destruct (list_set_uint_frame _ _ _ _ _ _ Hw Hs Hl H) as (a & _ & W & _).
    exists a, (le_encode (Z.to_nat n) v). split; [|exact W].
    apply zlen_le_encode, width_ok_range, Hw.
  - destruct (bitlist_set_frame _ _ _ _ _ Hs Hl Hb H) as (b & _ & _ & W & _).
    eexists _, [set_bit_in b (i mod 8) v]. split; [reflexivity|exact W].
Qed.
