(* The bytes invariant of the builder: every byte of the message under construction (and of the
   source message) stays in 0..255 - the segments are []byte.  It is what the packed / stream
   serialisation theorems of C14 need besides the geometry the table invariant gives. *)
From CV Require Import Core.Builder Core.Reader Core.ReaderFacts Core.BuilderFacts Core.WritePtrProofs Core.HeapProofs Core.BuildOps
  Core.BuildInv Core.HeapInv Core.HeapOps Core.HeapSteps Core.HeapMarshal.
Require Import ZArith List Lia Bool. Import ListNotations.
Open Scope Z_scope.

Definition mb (m : bmsg) : Prop := Forall bytes_ok (bm_data m).
Definition wb (w : world) : Prop := mb (w_dst w) /\ Forall bytes_ok (w_src w).

Lemma map_set_nth {A B} (f : A -> B) : forall n l x, map f (set_nth n l x) = set_nth n (map f l) (f x).
Proof. induction n as [|n IH]; intros [|y l] x; cbn [set_nth map]; try reflexivity. now rewrite IH. Qed.

Lemma mb_put_seg m id s : mb m -> bytes_ok (bs_data s) -> mb (put_seg m id s).
Proof.
  unfold mb, put_seg, bm_data. cbn [bm_segs]. intros H Hs. rewrite map_set_nth. now apply Forall_set_nth.
Qed.

Lemma mb_get m id : mb m -> bytes_ok (bs_data (get_seg m id)).
Proof.
  unfold mb, get_seg, bm_data. intros H.
  destruct (nth_in_or_default (Z.to_nat id) (bm_segs m) (mkBS [] 0)) as [Hi|Edf]; [|rewrite Edf; constructor].
  rewrite Forall_forall in H. apply H. now apply in_map.
Qed.

Lemma bytes_ok_app_i a b : bytes_ok a -> bytes_ok b -> bytes_ok (a ++ b).
Proof. intros. apply Forall_app. auto. Qed.
Lemma bytes_ok_repeat0 n : bytes_ok (repeat 0 n).
Proof. apply Forall_forall. intros x Hx. apply repeat_spec in Hx. subst. lia. Qed.

Lemma seg_write_mb m sid addr bs m' : mb m -> bytes_ok bs -> seg_write m sid addr bs = Ok m' -> mb m'.
Proof.
  unfold seg_write. intros H Hb. destruct (_ && _); [|discriminate]. intros E. apply Ok_inj in E. subst m'.
  apply mb_put_seg; [exact H|]. cbn [bs_data]. unfold write_bytes. pose proof (mb_get m sid H).
  apply bytes_ok_app_i; [now apply bytes_ok_firstn|]. apply bytes_ok_app_i; [exact Hb|now apply bytes_ok_skipn].
Qed.

Lemma wrp_mb m sid addr v m' : mb m -> writeRawPointer m sid addr v = Ok m' -> mb m'.
Proof. intros H. apply seg_write_mb; [exact H|apply le_encode_bytes]. Qed.

Lemma allocSegment_mb m sz m' id : mb m -> allocSegment m sz = Ok (m', id) -> mb m'.
Proof.
  unfold allocSegment. intros H. destruct (sz >? maxAllocSize); [discriminate|].
  destruct (bm_arena m).
  - destruct (negb _); [discriminate|]. destruct (hasCapacity _ _).
    + intros E. apply Ok_inj in E. now inversion E; subst.
    + destruct (nextAlloc _ _ _) as [inc| |]; cbn [bind]; try discriminate. intros E. apply Ok_inj in E. inversion E; subst.
      apply mb_put_seg; [exact H|]. cbn [bs_data]. now apply mb_get.
  - destruct (multi_find _ _ _ _) as [[i|] total].
    + intros E. apply Ok_inj in E. now inversion E; subst.
    + destruct (nextAlloc _ _ _) as [n| |]; cbn [bind]; try discriminate. intros E. apply Ok_inj in E. inversion E; subst.
      unfold mb, bm_data. cbn [bm_segs]. rewrite map_app. apply Forall_app. split; [exact H|]. repeat constructor.
Qed.

Lemma alloc_mb m sid sz m' sid' addr : mb m -> alloc m sid sz = Ok (m', sid', addr) -> mb m'.
Proof.
  unfold alloc. intros H. destruct (sz >? maxAllocSize); [discriminate|].
  destruct (hasCapacity _ _).
  - cbn [bind]. destruct (addSize _ _); [|discriminate]. intros E. apply Ok_inj in E. inversion E; subst.
    apply mb_put_seg; [exact H|]. cbn [bs_data]. apply bytes_ok_app_i; [now apply mb_get|apply bytes_ok_repeat0].
  - destruct (allocSegment m (padToWord sz)) as [[m1 s1]| |] eqn:EA; cbn [bind]; try discriminate.
    pose proof (allocSegment_mb _ _ _ _ H EA) as H1.
    destruct (addSize _ _); [|discriminate]. intros E. apply Ok_inj in E. inversion E; subst.
    apply mb_put_seg; [exact H1|]. cbn [bs_data]. apply bytes_ok_app_i; [now apply mb_get|apply bytes_ok_repeat0].
Qed.

Ltac ok_inv E := apply Ok_inj in E; inversion E; subst; clear E.

Lemma ctor_call_mb m o sid m' p : mb m -> sub_op o = true -> ctor_call m o = Some (sid, Ok (m', p)) -> mb m'.
Proof.
  intros H Hop EC. destruct (ctor_call_alloc _ _ _ _ _ EC) as (m1 & a & EA & _ & _ & _ & _ & Wr).
  pose proof (alloc_mb _ _ _ _ _ _ H EA) as H1. destruct Wr as [[_ ->]|(bs & EW & Hbs)]; [exact H1|].
  apply (seg_write_mb _ _ _ _ _ H1) in EW; [exact EW|].
  destruct Hbs as [(tag & _ & _ & ->)|[nul ->]]; [apply le_encode_bytes|].
  cbn [sub_op] in Hop. apply andb_prop in Hop. destruct Hop as [_ Hv]. rewrite forallb_forall in Hv.
  apply Forall_forall. intros x Hx. specialize (Hv x Hx). lia.
Qed.

Lemma run_setter_mb m s m' : mb m -> run_setter m s = Ok m' -> mb m'.
Proof.
  intros H E. destruct (run_setter_write _ _ _ E) as (_ & addr & bs & _ & EW & _ & Hb).
  exact (seg_write_mb _ _ _ _ _ H (Hb H) EW).
Qed.

Lemma wb_segs w l : wb w -> Forall bytes_ok (w_segs w l).
Proof. intros [H1 H2]. destruct l; [exact H1|exact H2]. Qed.
Lemma wb_set_dst w m : wb w -> mb m -> wb (w_set_dst w m).
Proof. intros [_ H2] H. split; [exact H|exact H2]. Qed.
Lemma wb_set_rl w l rl : wb w -> wb (w_set_rl w l rl).
Proof. intros [H1 H2]. destruct l; split; cbn; auto. Qed.
Lemma lift0_wb w r w' : wb w -> (forall m', r = Ok m' -> mb m') -> lift0 w r = Ok w' -> wb w'.
Proof.
  unfold lift0. intros H Hr. destruct r as [m'| |]; cbn [bind]; try discriminate. intros E. ok_inv E.
  apply wb_set_dst; auto.
Qed.

Lemma copy_bytes_wb w l ssid soff dsid doff n w' : wb w -> copy_bytes w l ssid soff dsid doff n = Ok w' -> wb w'.
Proof.
  unfold copy_bytes. intros H. destruct (slice _ _ _) as [b| |] eqn:ES; cbn [bind]; try discriminate.
  apply lift0_wb; [exact H|]. intros m' E. eapply seg_write_mb; [exact (proj1 H)| |exact E].
  eapply slice_bytes; [|exact ES]. apply nth_bytes_ok, wb_segs, H.
Qed.

Lemma place_wb w dsid off tsid taddr raw w' : wb w -> place w dsid off tsid taddr raw = Ok w' -> wb w'.
Proof.
  intros H E. apply place_inv in E. destruct E as (m' & -> & Run). apply wb_set_dst; [exact H|]. destruct H as [H _].
  destruct Run as [m1 _ E1|m1 pa m2 m3 _ EA E2 E3|m1 ps pa m2 m3 m4 _ EA E2 E3 E4];
    eauto using wrp_mb, alloc_mb.
Qed.

Definition B_wp fp f := forall strict w d o l src fc w', wb w -> write_ptr_gen fp f strict w d o l src fc = Ok w' -> wb w'.
Definition B_cs fp f := forall strict w dst l src w', wb w -> copy_struct_gen fp f strict w dst l src = Ok w' -> wb w'.

Lemma wrp_wb w sid addr v w' : wb w -> lift0 w (writeRawPointer (w_dst w) sid addr v) = Ok w' -> wb w'.
Proof. intros H. apply lift0_wb; [exact H|]. intros m' E. eapply wrp_mb; [exact (proj1 H)|exact E]. Qed.

Theorem bytes_all : forall fp f, B_wp fp f /\ B_cs fp f.
Proof.
  intros fp. induction f as [|f [IHw IHc]]; [split; intros ? ? ? ? ? ? ?; cbn; intros; discriminate|].
  split.
  - intros strict w d o l src fc w' H. cbn [write_ptr_gen].
    destruct (negb (p_valid src)). { apply wrp_wb, H. }
    destruct (p_kind src).
    + (* struct *)
      destruct (os_isZero _).
      { destruct (of_opt_panic _) as [v| |]; cbn [bind]; try discriminate. apply wrp_wb, H. }
      destruct (fc || is_src l || p_member src).
      * cbv zeta.
        destruct (alloc _ _ _) as [[[m1 s1] a]| |] eqn:EA; cbn [bind]; try discriminate.
        destruct (copy_struct_gen _ _ _ _ _ _ _) as [w2| |] eqn:EC; cbn [bind]; try discriminate.
        destruct (of_opt_panic _) as [raw| |]; cbn [bind]; try discriminate.
        apply place_wb. eapply IHc; [|exact EC]. apply wb_set_dst; [exact H|]. eapply alloc_mb; [exact (proj1 H)|exact EA].
      * cbn [bind]. destruct (of_opt_panic _) as [raw| |]; cbn [bind]; try discriminate. apply place_wb, H.
    + (* list *)
      destruct (fc || is_src l).
      * cbv zeta.
        destruct (alloc _ _ _) as [[[m1 s1] a]| |] eqn:EA; cbn [bind]; try discriminate.
        assert (H1 : wb (w_set_dst w m1)) by (apply wb_set_dst; [exact H|eapply alloc_mb; [exact (proj1 H)|exact EA]]).
        set (w1 := w_set_dst w m1) in *.
        assert (Tail : forall w2 doff sz' (dstl : Ptr), wb w2 ->
                  bind (bind (if p_bit src || (PointerCount (p_size src) =? 0)
                              then copy_bytes w2 l (p_seg src) (p_off src) s1 doff sz'
                              else fold_res (iota (Z.to_nat (list_len src))) w2
                                     (fun wa i => do de <- list_struct true dstl i;
                                                  do se <- list_struct true src i;
                                                  copy_struct_gen fp f strict wa de l se))
                             (fun w3 => Ok (w3, dstl)))
                       (fun r => let '(w', lst) := r in
                                 let taddr := if p_comp lst then u32 (p_off lst - 8) else p_off lst in
                                 do raw <- list_raw lst; place w' d o (p_seg lst) taddr raw) = Ok w' -> wb w').
        { intros w2 doff sz' dstl H2.
          destruct (p_bit src || (PointerCount (p_size src) =? 0)).
          - destruct (copy_bytes _ _ _ _ _ _ _) as [w3| |] eqn:EY; cbn [bind]; try discriminate.
            destruct (list_raw _) as [raw| |]; cbn [bind]; try discriminate. apply place_wb.
            eapply copy_bytes_wb; [exact H2|exact EY].
          - destruct (fold_res _ _ _) as [w3| |] eqn:EY; cbn [bind]; try discriminate.
            destruct (list_raw _) as [raw| |]; cbn [bind]; try discriminate. apply place_wb.
            eapply (fold_res_inv wb); [|exact H2|exact EY].
            intros x b b' _ Hb. cbv beta. destruct (list_struct _ _ _) as [de| |]; cbn [bind]; try discriminate.
            destruct (list_struct _ _ _) as [se| |]; cbn [bind]; try discriminate. apply IHc. exact Hb. }
        destruct (p_comp src) eqn:EPC.
        -- destruct (readRawPointer _ _) as [tag| |]; cbn [bind]; try discriminate.
           destruct (lift0 w1 _) as [w2| |] eqn:EL; cbn [bind]; try discriminate.
           destruct (addSize a 8) as [o8|]; cbn [bind]; try discriminate.
           intros E. eapply Tail; [|exact E]. eapply wrp_wb; [exact H1|exact EL].
        -- cbn [bind]. intros E. eapply Tail; [|exact E]. exact H1.
      * cbn [bind]. destruct (list_raw _) as [raw| |]; cbn [bind]; try discriminate. apply place_wb, H.
    + (* capability *)
      destruct (is_src l).
      * apply lift0_wb; [exact H|]. intros m' E. eapply wrp_mb; [|exact E]. exact (proj1 H).
      * apply wrp_wb, H.
  - intros strict w dst l src w' H. cbn [copy_struct_gen].
    destruct (negb (p_valid dst)); [discriminate|]. destruct (negb (p_valid src)). { intros E. ok_inv E. exact H. }
    destruct (slice _ _ _) as [sd| |] eqn:ES; cbn [bind]; try discriminate.
    destruct (slice (nth (Z.to_nat (p_seg dst)) _ _) _ _) as [dd| |] eqn:ED; cbn [bind]; try discriminate.
    destruct (lift0 w _) as [w1| |] eqn:E1; cbn [bind]; try discriminate.
    assert (H1 : wb w1).
    { eapply lift0_wb; [exact H| |exact E1]. intros m' E. eapply seg_write_mb; [exact (proj1 H)| |exact E].
      apply bytes_ok_app_i; [|apply bytes_ok_repeat0]. apply bytes_ok_firstn.
      eapply slice_bytes; [|exact ES]. apply nth_bytes_ok, wb_segs, H. }
    match goal with |- context [bind ?X _] => destruct X as [w2| |] eqn:E2 end; cbn [bind]; try discriminate.
    assert (H2 : wb w2).
    { eapply (fold_res_inv wb); [|exact H1|exact E2].
      intros x b b' _ Hb. cbv beta. destruct (readPtr _ _ _ _ _ _ _) as [r rl']. destruct r as [q| |]; cbn [bind]; try discriminate.
      apply IHw. apply wb_set_rl, Hb. }
    apply (fold_res_inv wb); [|exact H2]. intros x b b' _ Hb. cbv beta. apply wrp_wb, Hb.
Qed.

Lemma src_bmsg_data w : bm_data (src_bmsg w) = w_src w.
Proof. unfold src_bmsg, bm_data. cbn [bm_segs]. rewrite map_map. cbn [bs_data]. apply map_id. Qed.

Lemma set_in_wb w l f w' : wb w -> (forall m m', mb m -> f m = Ok m' -> mb m') -> set_in w l f = Ok w' -> wb w'.
Proof.
  intros H Hf. destruct l; cbn [set_in].
  - apply lift0_wb; [exact H|]. intros m' E. eapply Hf; [exact (proj1 H)|exact E].
  - destruct (f (src_bmsg w)) as [m| |] eqn:E; cbn [bind]; try discriminate. intros E1. ok_inv E1.
    split; [exact (proj1 H)|]. cbn [w_src]. eapply Hf; [|exact E]. unfold mb. rewrite src_bmsg_data. exact (proj2 H).
Qed.

Lemma bstep_wb e st o st' out : wb (st_w st) -> sub_op o = true -> bstep e st o = (Some st', out) -> wb (st_w st').
Proof.
  intros H Hop E. apply bstep_inv in E. pose proof (proj1 H) as Hm. revert Hop.
  destruct E as [o|o sid m p EV EC|sid n EV Hn|sid idx EV|c|o|o h s w1 ES EW|o sid addr hs w1 SL EW|o dst hs w1 CD EW
                 |l0 ro l rs' v El EST|]; intros Hop; cbn [st_w hpush]; try exact H.
  - apply wb_set_dst; [exact H|exact (ctor_call_mb _ _ _ _ _ Hm Hop EC)].
  - refine (set_in_wb _ _ _ _ H _ EW). intros m m' Hmm. apply run_setter_mb, Hmm.
  - exact (proj1 (bytes_all true _) true _ _ _ _ _ _ _ H EW).
  - exact (proj2 (bytes_all true _) true _ _ _ _ _ H EW).
  - apply wb_set_rl, H.
  - apply wb_set_dst; [exact H|]. unfold mb. rewrite reopened_data. exact Hm.
Qed.

Lemma bstates_wb e : forall ops st, wb (st_w st) -> sub_prog ops = true ->
  Forall (fun st => wb (st_w st)) (bstates e st ops).
Proof.
  induction ops as [|o r IH]; intros st H Hp; cbn [bstates]; constructor; auto.
  unfold sub_prog in Hp. cbn [forallb] in Hp. apply andb_prop in Hp. destruct Hp as [Ho Hr].
  destruct (bstep e st o) as [[st1|] out] eqn:E; [|constructor].
  apply IH; [|exact Hr]. eapply bstep_wb; eauto.
Qed.

Lemma raw_mb k caps T : mb (mkBM k (map (fun c => mkBS [] c) caps) [] T).
Proof. unfold mb, bm_data. cbn [bm_segs]. rewrite map_map. cbn [bs_data]. apply Forall_forall. intros x Hx. apply in_map_iff in Hx. destruct Hx as (c & <- & _). constructor. Qed.

Lemma new_message_mb k caps T m : new_message k caps T = Ok m -> mb m.
Proof.
  intros E. destruct (new_message_shape _ _ _ _ E) as (c & a & _ & EA). eapply alloc_mb; [|exact EA]. apply raw_mb.
Qed.

Lemma create_mb a rl m : create a rl = Ok m -> mb m.
Proof.
  unfold create. destruct a as [[c|]|[c|]|cs]; try apply new_message_mb.
  destruct cs as [|c r]; [discriminate|]. destruct (newStruct _ _ _) as [[m1 p]| |] eqn:EN; cbn [bind]; try discriminate.
  intros E. apply Ok_inj in E. cbn [fst] in E. subst m1.
  apply (ctor_call_mb (raw_message AMulti (c :: r) rl) (BNewStruct 0 8 0) 0 m p (raw_mb _ _ _) eq_refl).
  cbn [ctor_call]. now rewrite <- EN.
Qed.

(* every byte of every reachable state is a byte *)
Theorem bytes_inv_sublang a cfgd cfgs ncaps fuel src ops m :
  create a (init_rlimit cfgd) = Ok m -> sub_prog ops = true -> msg_ok src ->
  Forall (fun st => wb (st_w st)) (bstates (mkEnv cfgd cfgs ncaps fuel) (mkBSt (mkW m src (init_rlimit cfgs)) []) ops).
Proof.
  intros Hc Hp Hs. apply bstates_wb; [|exact Hp]. split; [eapply create_mb; exact Hc|].
  cbn [st_w w_src]. eapply Forall_impl; [|exact Hs]. intros s Hsk. exact (proj2 Hsk).
Qed.
