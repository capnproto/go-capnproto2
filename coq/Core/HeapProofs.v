(* Frame and freshness of the pointer-writing operations (writePtr incl. its copy branches,
   copyStruct): no byte that existed before changes except the pointer word / the destination
   struct itself; everything else they write lies in storage allocated during the call;
   segments, lengths and capacities only grow and the message stays well formed.
   Consequences: [copy_fresh] (independence of a copy from its source) and the allocation part
   of [heap_inv] (objects allocated at different times are disjoint). *)
From CV Require Import Core.Builder Core.ReaderFacts Core.ArithFacts Core.BuilderFacts Core.AllocProofs Core.WritePtrProofs.
From Coq Require Import ZifyBool ZifyNat.
Open Scope Z_scope.

Ltac Zify.zify_post_hook ::= Z.div_mod_to_equations.

Definition nsegs (m : bmsg) : Z := zlen (bm_segs m).
Definition inv (m : bmsg) : Prop := bmsg_wf m /\ arena_wf m.

(* [keeps m m' R]: every segment of m is a prefix of the corresponding segment of m', except
   for the bytes at positions R *)
Definition keeps (m m' : bmsg) (R : Z -> Z -> Prop) : Prop :=
  (forall i, 0 <= i -> zlen (mem m i) <= zlen (mem m' i)) /\
  (forall i k, 0 <= i -> 0 <= k < zlen (mem m i) -> ~ R i k ->
     nth (Z.to_nat k) (mem m' i) 0 = nth (Z.to_nat k) (mem m i) 0).

Definition Rnone : Z -> Z -> Prop := fun _ _ => False.
Definition Rword (sid off : Z) : Z -> Z -> Prop := fun i k => i = sid /\ off <= k < off + 8.

Lemma keeps_refl m R : keeps m m R.
Proof. split; intros; try lia; reflexivity. Qed.

Lemma keeps_weaken m m' (R R' : Z -> Z -> Prop) :
  (forall i k, 0 <= i -> 0 <= k < zlen (mem m i) -> R i k -> R' i k) -> keeps m m' R -> keeps m m' R'.
Proof. intros H [K1 K2]. split; [exact K1|]. intros i k Hi Hk Hn. apply K2; auto. Qed.

Lemma keeps_trans a b c (R1 R2 : Z -> Z -> Prop) :
  keeps a b R1 -> keeps b c R2 -> keeps a c (fun i k => R1 i k \/ R2 i k).
Proof.
  intros [A1 A2] [B1 B2]. split.
  - intros i Hi. specialize (A1 i Hi). specialize (B1 i Hi). lia.
  - intros i k Hi Hk Hn. rewrite B2.
    + apply A2; auto.
    + assumption.
    + specialize (A1 i Hi). lia.
    + intro X. apply Hn. now right.
Qed.

(* the second step only touches R1 or positions that did not exist at the start *)
Lemma keeps_step a b c (R1 R2 : Z -> Z -> Prop) :
  keeps a b R1 -> keeps b c R2 ->
  (forall i k, 0 <= i -> 0 <= k < zlen (mem a i) -> R2 i k -> R1 i k) ->
  keeps a c R1.
Proof.
  intros HA HB H. eapply keeps_weaken; [|eapply keeps_trans; eauto].
  intros i k Hi Hk [X|X]; auto.
Qed.

Lemma wrote_inv m m' sid a bs : wrote m m' sid a bs -> 0 <= sid -> inv m -> inv m'.
Proof. exact (wrote_wf m m' sid a bs). Qed.

Lemma wrote_keeps m m' sid a bs :
  wrote m m' sid a bs -> 0 <= sid -> keeps m m' (fun i k => i = sid /\ a <= k < a + zlen bs).
Proof.
  intros (W1 & W2 & W3 & W4 & W5 & W6 & _) Hs. split.
  - intros i Hi. destruct (Z.eq_dec i sid) as [->|Hne]; [lia|]. unfold mem. rewrite W4 by assumption. lia.
  - intros i k Hi Hk Hn. destruct (Z.eq_dec i sid) as [->|Hne].
    + rewrite W3. rewrite write_bytes_nth by lia.
      destruct ((Z.to_nat a <=? Z.to_nat k)%nat && (Z.to_nat k <? Z.to_nat a + length bs)%nat) eqn:E; auto.
      exfalso. apply Hn. unfold zlen. split; auto. lia.
    + unfold mem. rewrite W4 by assumption. reflexivity.
Qed.

Lemma writeRawPointer_keeps m sid off v m' :
  0 <= sid -> inv m -> writeRawPointer m sid off v = Ok m' ->
  keeps m m' (Rword sid off) /\ inv m' /\ nsegs m' = nsegs m /\
  bm_arena m' = bm_arena m /\ bm_caps m' = bm_caps m /\ bm_rl m' = bm_rl m.
Proof.
  intros Hs Hi H. apply writeRawPointer_wrote in H; auto.
  split; [|split; [eapply wrote_inv; eauto|]].
  - apply wrote_keeps in H; auto.
  - destruct H as (_ & _ & _ & _ & _ & _ & W7 & W8 & W9 & W10). unfold nsegs. auto.
Qed.

Lemma prefix_keeps m m' : (forall i, 0 <= i -> exists tl, mem m' i = mem m i ++ tl) -> keeps m m' Rnone.
Proof.
  intros X. split.
  - intros i Hi. destruct (X i Hi) as [t Et]. rewrite Et, zlen_app. pose proof (zlen_nonneg t). lia.
  - intros i k Hi Hk _. destruct (X i Hi) as [t Et]. rewrite Et. apply app_nth1. unfold zlen in Hk. lia.
Qed.

Lemma alloc_keeps m sid sz m' sid' addr :
  inv m -> 0 <= sid < nsegs m -> 0 <= sz ->
  alloc m sid sz = Ok (m', sid', addr) ->
  keeps m m' Rnone /\ inv m' /\ nsegs m <= nsegs m' /\ 0 <= sid' < nsegs m' /\
  addr = zlen (mem m sid') /\ zlen (mem m' sid') = addr + padToWord sz /\
  bm_caps m' = bm_caps m /\ bm_rl m' = bm_rl m /\ bm_arena m' = bm_arena m /\
  zlen (mem m' sid') <= maxSegmentSize.
Proof.
  intros [Hwf Har] Hsid Hsz H.
  destruct (alloc_mem _ _ _ _ _ _ Hwf Har Hsid Hsz H) as (A1 & A2 & A3 & A4 & A5 & A6 & A7 & A8 & A9 & A10 & A11 & A12 & A13).
  unfold nsegs, inv. repeat split; auto; try lia; now apply prefix_keeps.
Qed.

Lemma place_keeps w dsid off tsid taddr raw w' :
  inv (w_dst w) -> 0 <= dsid < nsegs (w_dst w) -> 0 <= tsid < nsegs (w_dst w) ->
  place w dsid off tsid taddr raw = Ok w' ->
  keeps (w_dst w) (w_dst w') (Rword dsid off) /\ inv (w_dst w') /\ nsegs (w_dst w) <= nsegs (w_dst w') /\
  w_src w' = w_src w /\ w_src_rl w' = w_src_rl w /\
  bm_caps (w_dst w') = bm_caps (w_dst w) /\ bm_rl (w_dst w') = bm_rl (w_dst w).
Proof.
  intros [Hwf Har] Hd Ht H. apply place_inv in H. destruct H as (m' & -> & Run). cbn [w_dst w_set_dst w_src w_src_rl].
  destruct (place_frame _ _ _ _ _ _ _ Hwf Har Hd Ht Run) as (m1 & pw & (X & Hwf1 & Har1 & N & C & RL) & W).
  pose proof (wrote_keeps _ _ _ _ _ W ltac:(lia)) as K.
  pose proof (wrote_inv _ _ _ _ _ W ltac:(lia) (conj Hwf1 Har1)) as I.
  destruct W as (_ & _ & _ & _ & _ & _ & W7 & _ & W9 & W10).
  unfold nsegs. split; [|repeat split; try apply I; try congruence; lia].
  eapply keeps_step; [eapply keeps_weaken; [|exact (prefix_keeps _ _ X)]|exact K|]; intros i k _ _ R; [destruct R|exact R].
Qed.

Definition G (m0 : bmsg) (s0 : segs) (w' : world) (R : Z -> Z -> Prop) : Prop :=
  keeps m0 (w_dst w') R /\ inv (w_dst w') /\ nsegs m0 <= nsegs (w_dst w') /\ w_src w' = s0.

Lemma G_step m0 s0 w1 w2 (R R2 : Z -> Z -> Prop) :
  G m0 s0 w1 R -> G (w_dst w1) (w_src w1) w2 R2 ->
  (forall i k, 0 <= i -> 0 <= k < zlen (mem m0 i) -> R2 i k -> R i k) ->
  G m0 s0 w2 R.
Proof.
  intros (K1 & I1 & N1 & S1) (K2 & I2 & N2 & S2) H. unfold G. repeat split; try apply I2.
  - eapply keeps_step; eauto.
  - eapply keeps_step; eauto.
  - lia.
  - congruence.
Qed.

Lemma fold_res_inv {A} (P : A -> Prop) l (f : A -> Z -> res A) : forall a a',
  (forall x b b', In x l -> P b -> f b x = Ok b' -> P b') -> P a -> fold_res l a f = Ok a' -> P a'.
Proof.
  induction l as [|x l IH]; intros a a' Hf Ha H; cbn [fold_res] in H.
  - apply Ok_inj in H. now subst.
  - destruct (f a x) as [b| |] eqn:E; cbn [bind] in H; try discriminate.
    eapply IH; [|eapply Hf; [left; reflexivity|exact Ha|exact E]|exact H].
    intros y c c' Hy. apply Hf. now right.
Qed.

Lemma in_iota x n : In x (iota n) -> 0 <= x < Z.of_nat n.
Proof. unfold iota. intros H. apply in_map_iff in H. destruct H as (k & <- & Hk). apply in_seq in Hk. lia. Qed.

Definition sz_ok (p : Ptr) : Prop := p_valid p = true -> wf_size (p_size p).

Lemma wf_size_00 : wf_size (mkOS 0 0).
Proof. unfold wf_size. cbn. lia. Qed.

Lemma pointerAddress_ge p j : wf_size (p_size p) -> 0 <= j -> 0 <= p_off p <= 4294967295 ->
  p_off p <= pointerAddress p j.
Proof.
  intros [[H1 H2] [H3 H4]] Hj Ho. unfold pointerAddress, addSize, element. cbv zeta.
  destruct (p_off p + DataSize (p_size p) >? maxSegmentSize) eqn:E1.
  - destruct ((4294967295 + j * 8 >? maxSegmentSize) || (4294967295 + j * 8 <? 0)) eqn:E2; lia.
  - destruct ((p_off p + DataSize (p_size p) + j * 8 >? maxSegmentSize) || (p_off p + DataSize (p_size p) + j * 8 <? 0)) eqn:E2; lia.
Qed.

(* sizes of what readPtr returns *)
Lemma readPtr_size_wf strict m rl sid s paddr depth q rl' :
  readPtr strict m rl sid s paddr depth = (Ok q, rl') -> sz_ok q.
Proof.
  intros H _.
  destruct (readPtr_Ok _ _ _ _ _ _ _ _ _ H) as (dsid & dst & base & val & _ &
    [(_ & -> & _)|(_ & _ & [(_ & sp & Es & _ & _ & ->)|[(_ & lp & El & _ & _ & ->)|(_ & _ & _ & ->)]])]);
    cbn [p_size]; try apply wf_size_00.
  - destruct (readStructPtr_inv _ _ _ _ _ Es) as (a & _ & ->). apply structSize_wf.
  - destruct (readListPtr_inv _ _ _ _ _ _ El) as (a & _ & [(_ & hdr & _ & _ & _ & _ & _ & ->)|[(_ & ->)|(_ & _ & es & EE & ->)]]);
      cbn [p_size]; [apply structSize_wf|apply wf_size_00|apply (elementSize_wf _ _ EE)].
Qed.

Lemma w_set_rl_dst w l rl :
  bm_segs (w_dst (w_set_rl w l rl)) = bm_segs (w_dst w) /\ bm_arena (w_dst (w_set_rl w l rl)) = bm_arena (w_dst w) /\
  w_src (w_set_rl w l rl) = w_src w.
Proof. destruct l; cbn; auto. Qed.

Lemma G_same_segs m0 s0 w w2 R :
  bm_segs (w_dst w2) = bm_segs (w_dst w) -> bm_arena (w_dst w2) = bm_arena (w_dst w) -> w_src w2 = w_src w ->
  G m0 s0 w R -> G m0 s0 w2 R.
Proof.
  intros E1 E2 E3 ((K1 & K2) & (I1 & I2) & N & S). unfold G, keeps, inv, bmsg_wf, arena_wf, nsegs, mem, get_seg in *.
  rewrite E1, E2, E3. repeat split; auto.
Qed.

Lemma G_refl w R : inv (w_dst w) -> G (w_dst w) (w_src w) w R.
Proof. intros H. unfold G. split; [apply keeps_refl|]. split; [exact H|]. split; [lia|reflexivity]. Qed.

Lemma G_weaken m0 s0 w (R R' : Z -> Z -> Prop) :
  (forall i k, 0 <= i -> 0 <= k < zlen (mem m0 i) -> R i k -> R' i k) -> G m0 s0 w R -> G m0 s0 w R'.
Proof. intros H (K & X). split; auto. eapply keeps_weaken; eauto. Qed.

(* single steps as G facts *)
Lemma G_write w sid off v m' :
  inv (w_dst w) -> 0 <= sid -> writeRawPointer (w_dst w) sid off v = Ok m' ->
  G (w_dst w) (w_src w) (w_set_dst w m') (Rword sid off).
Proof.
  intros Hi Hs H. destruct (writeRawPointer_keeps _ _ _ _ _ Hs Hi H) as (K & I & N & _).
  unfold G. cbn [w_dst w_set_dst w_src]. repeat split; try apply K; try apply I. lia.
Qed.

Lemma G_seg_write w sid addr bs m' :
  inv (w_dst w) -> 0 <= sid -> zlen bs < 4294967296 -> seg_write (w_dst w) sid addr bs = Ok m' ->
  G (w_dst w) (w_src w) (w_set_dst w m') (fun i k => i = sid /\ addr <= k).
Proof.
  intros Hi Hs Hl H. apply seg_write_wrote in H; auto.
  pose proof (wrote_inv _ _ _ _ _ H Hs Hi) as I. pose proof (wrote_keeps _ _ _ _ _ H Hs) as K.
  destruct H as (_ & _ & _ & _ & _ & _ & W7 & _).
  unfold G. cbn [w_dst w_set_dst w_src]. repeat split; try apply I.
  - apply K.
  - intros i k Hi' Hk Hn. apply K; auto. intros [-> X]. apply Hn. split; auto. lia.
  - unfold nsegs. lia.
Qed.

Lemma G_place w dsid off tsid taddr raw w' :
  inv (w_dst w) -> 0 <= dsid < nsegs (w_dst w) -> 0 <= tsid < nsegs (w_dst w) ->
  place w dsid off tsid taddr raw = Ok w' -> G (w_dst w) (w_src w) w' (Rword dsid off).
Proof.
  intros Hi Hd Ht H. destruct (place_keeps _ _ _ _ _ _ _ Hi Hd Ht H) as (K & I & N & S & _).
  unfold G. auto.
Qed.

Lemma slice_len s base n b : slice s base n = Ok b -> zlen b < 4294967296 /\ 0 <= base.
Proof.
  unfold slice. cbv zeta. unfold addSizeUnchecked, u32.
  destruct ((0 <=? base) && (base <=? (base + n) mod 4294967296) && ((base + n) mod 4294967296 <=? zlen s)) eqn:E; [|discriminate].
  intros H. apply Ok_inj in H. subst b. unfold zlen. rewrite firstn_length. lia.
Qed.

Lemma copy_struct_invalid_dst fp fuel strict w dst l src w' :
  p_valid dst = false -> copy_struct_gen fp fuel strict w dst l src = Ok w' -> False.
Proof. intros Hv. destruct fuel; cbn [copy_struct_gen]; [discriminate|]. rewrite Hv. cbn. discriminate. Qed.

Definition Rfrom (p : Ptr) : Z -> Z -> Prop := fun i k => i = p_seg p /\ p_off p <= k.

Definition P_wp (fp : bool) (fuel : nat) : Prop := forall strict w dsid off l src fc w',
  inv (w_dst w) -> 0 <= dsid < nsegs (w_dst w) -> sz_ok src ->
  ((fc || is_src l) = false -> p_valid src = true -> 0 <= p_seg src < nsegs (w_dst w)) ->
  write_ptr_gen fp fuel strict w dsid off l src fc = Ok w' ->
  G (w_dst w) (w_src w) w' (Rword dsid off).

Definition P_cs (fp : bool) (fuel : nat) : Prop := forall strict w dst l src w',
  inv (w_dst w) -> 0 <= p_seg dst < nsegs (w_dst w) -> wf_size (p_size dst) -> 0 <= p_off dst <= 4294967295 ->
  sz_ok src ->
  copy_struct_gen fp fuel strict w dst l src = Ok w' ->
  G (w_dst w) (w_src w) w' (Rfrom dst).

Lemma padToWord_nonneg sz : 0 <= padToWord sz.
Proof. unfold padToWord, u32. lia. Qed.

Lemma G_alloc w sid sz m1 nsid naddr :
  inv (w_dst w) -> 0 <= sid < nsegs (w_dst w) -> 0 <= sz ->
  alloc (w_dst w) sid sz = Ok (m1, nsid, naddr) ->
  G (w_dst w) (w_src w) (w_set_dst w m1) Rnone /\ 0 <= nsid < nsegs m1 /\
  naddr = zlen (mem (w_dst w) nsid) /\ 0 <= naddr <= 4294967295.
Proof.
  intros Hi Hs Hz H.
  destruct (alloc_keeps _ _ _ _ _ _ Hi Hs Hz H) as (K1 & I1 & N1 & S1 & AD & L1 & _ & _ & _ & MX).
  unfold G. cbn [w_dst w_set_dst w_src]. repeat split; try apply K1; try apply I1; try lia.
  - subst naddr. apply zlen_nonneg.
  - pose proof (padToWord_nonneg sz). unfold maxSegmentSize in MX. lia.
Qed.

Lemma totalSize_nn sz : 0 <= totalSize sz.
Proof. unfold totalSize, u32. lia. Qed.

Lemma list_struct_facts p i e :
  list_struct true p i = Ok e -> p_valid e = true ->
  p_seg e = p_seg p /\ p_size e = p_size p /\ p_off p <= p_off e <= 4294967295 /\ 0 <= i.
Proof.
  unfold list_struct. destruct (negb (p_valid p) || (i <? 0) || (i >=? p_len p)) eqn:E; [discriminate|].
  destruct (p_bit p); [intros H; apply Ok_inj in H; subst e; discriminate|].
  destruct (element (p_off p) i (totalSize (p_size p))) as [addr|] eqn:EE;
    [|intros H; apply Ok_inj in H; subst e; discriminate].
  intros H _. apply Ok_inj in H. subst e. cbn [p_seg p_size p_off].
  unfold element in EE. cbv zeta in EE. pose proof (totalSize_nn (p_size p)).
  destruct ((p_off p + i * totalSize (p_size p) >? maxSegmentSize) || (p_off p + i * totalSize (p_size p) <? 0)) eqn:E2; [discriminate|].
  injection EE as <-. unfold maxSegmentSize in *. repeat split; auto; nia.
Qed.

Theorem frame_all : forall fp fuel, P_wp fp fuel /\ P_cs fp fuel.
Proof.
  intros fp. induction fuel as [|f [IHwp IHcs]].
  { split; intros ? ? ? ? ? ? ?; cbn; intros; discriminate. }
  split.
  - (* ---------------- write_ptr ---------------- *)
    intros strict w dsid off l src fc w' Hinv Hd Hsz Hsrc. cbn [write_ptr_gen].
    set (m := w_dst w) in *.
    destruct (negb (p_valid src)) eqn:EV.
    { unfold lift0. destruct (writeRawPointer m dsid off 0) as [m'| |] eqn:EW; cbn [bind]; try discriminate.
      intros H. apply Ok_inj in H. subst w'. eapply G_write; [exact Hinv|lia|exact EW]. }
    assert (Hv : p_valid src = true) by (destruct (p_valid src); auto; discriminate).
    specialize (Hsz Hv).
    destruct (p_kind src) eqn:EK.
    + (* struct *)
      destruct (os_isZero (p_size src)) eqn:EZ.
      { destruct (of_opt_panic (rawStructPointer (-1) (mkOS 0 0))) as [v| |]; cbn [bind]; try discriminate.
        unfold lift0. destruct (writeRawPointer m dsid off v) as [m'| |] eqn:EW; cbn [bind]; try discriminate.
        intros H. apply Ok_inj in H. subst w'. eapply G_write; [exact Hinv|lia|exact EW]. }
      destruct (fc || is_src l || p_member src) eqn:EC.
      * cbv zeta.
        set (csz := if fp then mkOS (padToWord (DataSize (p_size src))) (PointerCount (p_size src)) else p_size src).
        assert (Hcsz : wf_size csz).
        { subst csz. destruct fp; [|exact Hsz]. destruct Hsz as [[H1 H2] H3]. unfold wf_size, padToWord, u32.
          cbn [DataSize PointerCount]. lia. }
        destruct (alloc m dsid (totalSize csz)) as [[[m1 nsid] naddr]| |] eqn:EA; cbn [bind]; try discriminate.
        set (dstp := mkPtr true nsid naddr 0 csz maxDepth KStruct false false false).
        destruct (copy_struct_gen fp f strict (w_set_dst w m1) dstp l src) as [w2| |] eqn:ECS; cbn [bind]; try discriminate.
        destruct (of_opt_panic (rawStructPointer 0 (p_size dstp))) as [raw| |]; cbn [bind]; try discriminate.
        intros HP.
        destruct (G_alloc w dsid _ m1 nsid naddr Hinv Hd (totalSize_nn _) EA) as (GA & NS & AD & AR).
        assert (GC : G m1 (w_src w) w2 (Rfrom dstp)).
        { apply (IHcs strict (w_set_dst w m1) dstp l src w2); cbn [w_dst w_set_dst]; auto.
          - apply GA. - intros _. exact Hsz. }
        assert (GP : G (w_dst w2) (w_src w2) w' (Rword dsid off)).
        { destruct GA as (_ & _ & NA & _). destruct GC as (_ & IC & NC & _). cbn [w_dst w_set_dst] in *. subst m.
          apply (G_place w2 dsid off nsid naddr raw w'); auto; try lia. }
        eapply G_step; [eapply G_step; [eapply G_weaken; [|exact GA]|exact GC|]|exact GP|].
        -- intros i k _ _ [].
        -- intros i k Hi Hk [X1 X2]. cbn [p_seg p_off dstp] in *. subst i. subst m. exfalso. lia.
        -- intros i k _ _ X. exact X.
      * assert (HR : 0 <= p_seg src < nsegs m).
        { apply Hsrc; auto. destruct fc; [discriminate|]. destruct (is_src l); [discriminate|]. reflexivity. }
        cbn [bind]. destruct (of_opt_panic (rawStructPointer 0 (p_size src))) as [raw| |]; cbn [bind]; try discriminate.
        intros HP. apply (G_place w dsid off (p_seg src) (p_off src) raw w'); auto.
    + (* list *)
      destruct (fc || is_src l) eqn:EC.
      * destruct (alloc m dsid (list_allocSize src)) as [[[m1 nsid] naddr]| |] eqn:EA; cbn [bind]; try discriminate.
        assert (Hlz : 0 <= list_allocSize src).
        { unfold list_allocSize. destruct (negb (p_valid src)); [lia|]. destruct (p_bit src); [unfold bitListSize, u32; lia|].
          destruct (negb (p_comp src)); [|unfold u32; lia].
          destruct (times (totalSize (p_size src)) (p_len src)) eqn:ET; [|lia].
          unfold times in ET. cbv zeta in ET.
          destruct ((totalSize (p_size src) * p_len src >? maxSegmentSize) || (totalSize (p_size src) * p_len src <? 0)) eqn:EB; [discriminate|].
          injection ET as <-. lia. }
        destruct (G_alloc w dsid _ m1 nsid naddr Hinv Hd Hlz EA) as (GA & NS & AD & AR).
        set (w1 := w_set_dst w m1) in *.
        (* the tag word *)
        match goal with |- context [bind (if p_comp src then ?A else ?B) _] =>
          destruct (if p_comp src then A else B) as [[[w2 doff] sz']| |] eqn:EX; cbn [bind]; try discriminate end.
        assert (G2 : G m1 (w_src w) w2 (Rfrom (mkPtr true nsid naddr 0 (mkOS 0 0) 0 KStruct false false false)) /\ naddr <= doff <= 4294967295).
        { destruct (p_comp src).
          - destruct (readRawPointer _ _) as [tag| |]; cbn [bind] in EX; try discriminate.
            unfold lift0 in EX. destruct (writeRawPointer (w_dst w1) nsid naddr tag) as [m2| |] eqn:EW; cbn [bind] in EX; try discriminate.
            destruct (addSize naddr 8) as [o|] eqn:EO; [|discriminate].
            apply Ok_inj in EX. injection EX as <- <- <-.
            apply addSize_spec in EO. split; [|unfold maxSegmentSize in EO; lia].
            assert (GW := G_write w1 nsid naddr tag m2 ltac:(apply GA) ltac:(lia) EW).
            unfold w1 in GW. cbn [w_dst w_set_dst w_src] in GW. unfold w1. cbn [w_set_dst].
            eapply G_weaken; [|exact GW]. intros i k _ _ [-> X]. split; cbn; lia.
          - apply Ok_inj in EX. injection EX as <- <- <-. split; [|lia].
            unfold w1. apply (G_refl (w_set_dst w m1)). apply GA. }
        destruct G2 as [G2 HDO].
        set (dstl := mkPtr true nsid doff (p_len src) (p_size src) maxDepth KList (p_comp src) (p_bit src) false) in *.
        match goal with |- context [bind (if p_bit src || (PointerCount (p_size src) =? 0) then ?A else ?B) _] =>
          destruct (if p_bit src || (PointerCount (p_size src) =? 0) then A else B) as [w3| |] eqn:E3; cbn [bind]; try discriminate end.
        assert (G3 : G m1 (w_src w) w3 (fun i k => i = nsid /\ naddr <= k)).
        { destruct (p_bit src || (PointerCount (p_size src) =? 0)).
          - (* raw bytes *)
            unfold copy_bytes in E3.
            destruct (slice _ (p_off src) sz') as [b| |] eqn:ES; cbn [bind] in E3; try discriminate.
            unfold lift0 in E3. destruct (seg_write (w_dst w2) nsid doff b) as [m3| |] eqn:EW; cbn [bind] in E3; try discriminate.
            apply Ok_inj in E3. subst w3.
            destruct (slice_len _ _ _ _ ES) as [BL _].
            assert (GW := G_seg_write w2 nsid doff b m3 ltac:(apply G2) ltac:(lia) BL EW).
            eapply G_step; [eapply G_weaken; [|exact G2]|exact GW|].
            + intros i k _ _ [X1 X2]. cbn in X1, X2. auto.
            + intros i k _ _ [-> X]. split; auto. lia.
          - (* element by element *)
            revert E3. apply fold_res_inv with (P := fun wa => G m1 (w_src w) wa (fun i k => i = nsid /\ naddr <= k)).
            + intros i wa wb Hin GA' Hstep.
              destruct (list_struct true dstl i) as [de| |] eqn:ED; cbn [bind] in Hstep; try discriminate.
              destruct (list_struct true src i) as [se| |] eqn:ESE; cbn [bind] in Hstep; try discriminate.
              destruct (p_valid de) eqn:EVD; [|exfalso; eapply copy_struct_invalid_dst; eauto].
              destruct (list_struct_facts _ _ _ ED EVD) as (F1 & F2 & F3 & F4). cbn [p_seg p_size p_off dstl] in *.
              assert (GS : G (w_dst wa) (w_src wa) wb (Rfrom de)).
              { apply (IHcs strict wa de l se wb); auto.
                - apply GA'.
                - destruct GA' as (_ & _ & NA & _). rewrite F1. lia.
                - rewrite F2. exact Hsz.
                - lia.
                - intros Hse. unfold list_struct in ESE.
                  destruct (_ || _ || _) in ESE; [discriminate|]. destruct (p_bit src); [apply Ok_inj in ESE; subst se; discriminate|].
                  destruct (element _ _ _); apply Ok_inj in ESE; subst se; [exact Hsz|discriminate]. }
              eapply G_step; [exact GA'|exact GS|].
              intros j k _ _ [X1 X2]. split; [congruence|lia].
            + eapply G_weaken; [|exact G2]. intros i k _ _ [X1 X2]. cbn in X1, X2. auto. }
        destruct (list_raw dstl) as [raw| |]; cbn [bind]; try discriminate.
        intros HP.
        assert (GP : G (w_dst w3) (w_src w3) w' (Rword dsid off)).
        { destruct GA as (_ & _ & NA & _). destruct G3 as (_ & I3 & N3 & _). subst w1. cbn [w_dst w_set_dst] in *. subst m.
          eapply G_place; [exact I3| | |exact HP]; cbn [p_seg dstl]; lia. }
        eapply G_step; [eapply G_step; [eapply G_weaken; [|exact GA]|exact G3|]|exact GP|].
        -- intros i k _ _ [].
        -- intros i k Hi Hk [X1 X2]. subst i. subst m. exfalso. lia.
        -- intros i k _ _ X. exact X.
      * assert (HR : 0 <= p_seg src < nsegs m) by (apply Hsrc; auto).
        cbn [bind]. destruct (list_raw src) as [raw| |]; cbn [bind]; try discriminate.
        intros HP. eapply G_place; [exact Hinv|exact Hd|exact HR|exact HP].
    + (* interface *)
      destruct (is_src l).
      * unfold lift0.
        set (m1 := mkBM (bm_arena m) (bm_segs m) (bm_caps m ++ [p_len src]) (bm_rl m)).
        destruct (writeRawPointer m1 dsid off _) as [m2| |] eqn:EW; cbn [bind]; try discriminate.
        intros H. apply Ok_inj in H. subst w'.
        assert (GW := G_write (w_set_dst w m1) dsid off _ m2 Hinv ltac:(lia) EW).
        cbn [w_dst w_set_dst w_src] in GW. exact GW.
      * unfold lift0. destruct (writeRawPointer m dsid off _) as [m2| |] eqn:EW; cbn [bind]; try discriminate.
        intros H. apply Ok_inj in H. subst w'. eapply G_write; [exact Hinv|lia|exact EW].
  - (* ---------------- copy_struct ---------------- *)
    intros strict w dst l src w' Hinv Hd Hds Hdo Hsz. cbn [copy_struct_gen].
    set (m := w_dst w) in *.
    destruct (negb (p_valid dst)); [discriminate|].
    destruct (negb (p_valid src)) eqn:EV.
    { intros H. apply Ok_inj in H. subst w'. apply G_refl. exact Hinv. }
    assert (Hv : p_valid src = true) by (destruct (p_valid src); auto; discriminate).
    specialize (Hsz Hv).
    destruct (slice _ (p_off src) _) as [sd| |]; cbn [bind]; try discriminate.
    destruct (slice _ (p_off dst) _) as [dd| |] eqn:ESD; cbn [bind]; try discriminate.
    unfold lift0 at 1.
    destruct (seg_write m (p_seg dst) (p_off dst) _) as [m1| |] eqn:EW; cbn [bind]; try discriminate.
    destruct (slice_len _ _ _ _ ESD) as [DL _].
    assert (G1 : G m (w_src w) (w_set_dst w m1) (Rfrom dst)).
    { unfold Rfrom. eapply G_seg_write; [exact Hinv|lia| |exact EW].
      unfold zlen in *. rewrite app_length, firstn_length, repeat_length. lia. }
    match goal with |- context [bind ?X _] => destruct X as [w2| |] eqn:E2; cbn [bind]; try discriminate end.
    assert (G2 : G m (w_src w) w2 (Rfrom dst)).
    { revert E2. apply fold_res_inv with (P := fun wa => G m (w_src w) wa (Rfrom dst)); [|exact G1].
      intros j wa wb Hin GA Hstep. apply in_iota in Hin.
      destruct (readPtr strict (w_segs wa l) (w_rl wa l) (p_seg src) _ (pointerAddress src j) (p_depth src)) as [r rl'] eqn:ER.
      destruct r as [q| |]; cbn [bind] in Hstep; try discriminate.
      pose proof (readPtr_size_wf _ _ _ _ _ _ _ _ _ ER) as Hq.
      destruct (w_set_rl_dst wa l rl') as (S1 & S2 & S3).
      assert (GA2 : G m (w_src w) (w_set_rl wa l rl') (Rfrom dst)) by (eapply G_same_segs; eauto).
      assert (GS : G (w_dst (w_set_rl wa l rl')) (w_src (w_set_rl wa l rl')) wb (Rword (p_seg dst) (pointerAddress dst j))).
      { apply (IHwp strict _ (p_seg dst) (pointerAddress dst j) l q true wb); auto.
        - apply GA2.
        - destruct GA2 as (_ & _ & NA & _). lia.
        - intros X. cbn in X. discriminate. }
      eapply G_step; [exact GA2|exact GS|].
      intros i k _ _ [-> X]. split; auto. pose proof (pointerAddress_ge dst j Hds ltac:(lia) Hdo). lia. }
    apply fold_res_inv with (P := fun wa => G m (w_src w) wa (Rfrom dst)); [|exact G2].
    intros j wa wb Hin GA Hstep. apply in_map_iff in Hin. destruct Hin as (k0 & <- & Hk0). apply in_iota in Hk0.
    unfold lift0 in Hstep.
    destruct (writeRawPointer (w_dst wa) (p_seg dst) _ 0) as [mb| |] eqn:EWB; cbn [bind] in Hstep; try discriminate.
    apply Ok_inj in Hstep. subst wb.
    assert (GW := G_write wa (p_seg dst) _ 0 mb ltac:(apply GA) ltac:(lia) EWB).
    eapply G_step; [exact GA|exact GW|].
    intros i k _ _ [-> X]. split; auto. destruct Hsz as [_ [Hp _]].
    pose proof (pointerAddress_ge dst (PointerCount (p_size src) + k0) Hds ltac:(lia) Hdo). lia.
Qed.

(* reads of bytes that existed before and are outside R are unchanged *)
Lemma keeps_sub m m' R i base n :
  keeps m m' R -> 0 <= i -> 0 <= base -> 0 <= n -> base + n <= zlen (mem m i) ->
  (forall k, base <= k < base + n -> ~ R i k) ->
  sub (mem m' i) base n = sub (mem m i) base n.
Proof.
  intros [K1 K2] Hi Hb Hn Hin HR. specialize (K1 i Hi). unfold sub.
  apply nth_ext with (d := 0) (d' := 0).
  - rewrite !firstn_length, !skipn_length. unfold zlen in *. lia.
  - intros k Hk. rewrite firstn_length, skipn_length in Hk. unfold zlen in *.
    rewrite !nth_firstn_lt by lia. rewrite !nth_skipn_add.
    replace (Z.to_nat base + k)%nat with (Z.to_nat (base + Z.of_nat k)) by lia.
    apply K2; auto; try lia. apply HR. lia.
Qed.

Lemma keeps_slice m m' R i base n :
  keeps m m' R -> 0 <= i -> 0 <= base -> 0 <= n -> base + n <= zlen (mem m i) -> base + n < 4294967296 ->
  (forall k, base <= k < base + n -> ~ R i k) ->
  slice (mem m' i) base n = slice (mem m i) base n.
Proof.
  intros K Hi Hb Hn Hin Hl HR. pose proof (proj1 K i Hi).
  rewrite !slice_in_range by lia. f_equal. eapply keeps_sub; eauto.
Qed.

(* [write_ptr_frame]: Struct.SetPtr / PointerList.Set / Message.SetRoot (all are write_ptr with
   forceCopy = false): the only pre-existing byte range that may change is the pointer word;
   the source message is not modified; the message stays well formed and only grows *)
Theorem write_ptr_frame fuel strict w dsid off l src w' :
  inv (w_dst w) -> 0 <= dsid < nsegs (w_dst w) -> sz_ok src ->
  (l = InDst -> p_valid src = true -> 0 <= p_seg src < nsegs (w_dst w)) ->
  write_ptr fuel strict w dsid off l src false = Ok w' ->
  keeps (w_dst w) (w_dst w') (Rword dsid off) /\ inv (w_dst w') /\
  nsegs (w_dst w) <= nsegs (w_dst w') /\ w_src w' = w_src w.
Proof.
  intros Hi Hd Hs Hr H. destruct (frame_all true fuel) as [P _].
  apply (P strict w dsid off l src false w'); auto.
  intros E Hv. apply Hr; auto. destruct l; [reflexivity|discriminate].
Qed.

(* [copy_struct_frame]: List.SetStruct / Struct.CopyFrom change nothing before the start of the
   destination struct in its segment and nothing in any other segment (besides appending) *)
Theorem copy_struct_frame fuel strict w dst l src w' :
  inv (w_dst w) -> 0 <= p_seg dst < nsegs (w_dst w) -> wf_size (p_size dst) -> 0 <= p_off dst <= 4294967295 ->
  sz_ok src ->
  copy_struct fuel strict w dst l src = Ok w' ->
  keeps (w_dst w) (w_dst w') (Rfrom dst) /\ inv (w_dst w') /\
  nsegs (w_dst w) <= nsegs (w_dst w') /\ w_src w' = w_src w.
Proof. intros. destruct (frame_all true fuel) as [_ P]. apply (P strict w dst l src w'); auto. Qed.

(* [copy_fresh]: a deep copy (assignment of a pointer from another message, of a list member,
   or any forced copy) leaves every byte of the source untouched - the source message is
   returned unchanged and, inside the destination, only the pointer word among the bytes that
   existed before the call may differ - so everything the copy consists of lies in storage
   allocated during the call.  Hence any later write into the copy (a range beyond the old
   segment lengths) is disjoint from every source byte range, and any later write into a
   source byte range is disjoint from the copy: by [wrote_slice_other] neither shows through. *)
Theorem copy_fresh fuel strict w dsid off l src fc w' i base n :
  inv (w_dst w) -> 0 <= dsid < nsegs (w_dst w) -> sz_ok src ->
  ((fc || is_src l) = false -> p_valid src = true -> 0 <= p_seg src < nsegs (w_dst w)) ->
  write_ptr fuel strict w dsid off l src fc = Ok w' ->
  w_src w' = w_src w /\
  (0 <= i -> 0 <= base -> 0 <= n -> base + n <= zlen (mem (w_dst w) i) -> zlen (mem (w_dst w') i) < 4294967296 ->
   (i <> dsid \/ base + n <= off \/ off + 8 <= base) ->
   slice (mem (w_dst w') i) base n = slice (mem (w_dst w) i) base n).
Proof.
  intros Hi Hd Hs Hr H. destruct (frame_all true fuel) as [P _].
  destruct (P strict w dsid off l src fc w' Hi Hd Hs Hr H) as (K & _ & _ & S).
  split; [exact S|]. intros H0 H1 H2 H3 H4 H5. pose proof (proj1 K i H0).
  apply (keeps_slice _ _ _ _ _ _ K); auto; try lia. intros k Hk [X1 X2]. lia.
Qed.

(* allocations made at different times never overlap: the later one starts at or after the end
   of the earlier one whenever they are in the same segment (lengths only grow in between) *)
Theorem allocs_disjoint m sid sz m1 s1 a1 m2 sid2 sz2 m3 s2 a2 :
  inv m -> 0 <= sid < nsegs m -> 0 <= sz -> alloc m sid sz = Ok (m1, s1, a1) ->
  (forall i, 0 <= i -> zlen (mem m1 i) <= zlen (mem m2 i)) ->
  inv m2 -> 0 <= sid2 < nsegs m2 -> 0 <= sz2 -> alloc m2 sid2 sz2 = Ok (m3, s2, a2) ->
  s1 <> s2 \/ a1 + padToWord sz <= a2.
Proof.
  intros Hi Hs Hz A1 Hgrow Hi2 Hs2 Hz2 A2.
  destruct (alloc_keeps _ _ _ _ _ _ Hi Hs Hz A1) as (_ & _ & _ & S1 & E1 & L1 & _).
  destruct (alloc_keeps _ _ _ _ _ _ Hi2 Hs2 Hz2 A2) as (_ & _ & _ & S2 & E2 & _).
  destruct (Z.eq_dec s1 s2) as [->|Hne]; [right|left; exact Hne].
  specialize (Hgrow s2 ltac:(lia)). lia.
Qed.
