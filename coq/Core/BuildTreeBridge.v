(* C05/C04 tree layer, part 1: the strict resolver of BuildValid.v (target of the table invariant
   [hinv]) and the resolver of the encoding specification (Spec/Spec.v [spec_resolve], strict
   mode) agree on every pointer word the former accepts, for ANY segment list (no byte range, no
   invariant needed): [resolve_ptr_spec].  Corollary over the table invariant: every pointer
   slot of every table object and the root word are resolved by the SPECIFICATION decoder to
   null, a capability, a zero-sized target, or exactly the specification target of ONE table
   object ([hinv_slot_spec]).  Proofs only; no new model definitions besides [conv]. *)
From CV Require Import Core.Builder Core.ReaderFacts Core.BuilderFacts Core.HeapProofs Core.BuildValid Core.HeapInv.
From CV Require Spec.Spec Spec.SpecProofs.
From Coq Require Import ZifyBool ZifyNat Lia.
Open Scope Z_scope.

Ltac Zify.zify_post_hook ::= Z.div_mod_to_equations.

Module S := CV.Spec.Spec.

Ltac inj H := apply (f_equal fst) in H; cbn [fst] in H; match type of H with _ = ?t => subst t end.

(* the specification target that corresponds to a target of the validator (byte addresses
   become word addresses; a capability index is the C field, 32 bits) *)
Definition conv (t : target) : S.target :=
  match t with
  | GNull => S.TgtNull
  | GCap i => S.TgtCap (i mod 4294967296)
  | GStruct s a dw pc => S.TgtStruct s (a / 8) dw pc
  | GList s a et n => S.TgtList s (a / 8) et n 0 0
  | GComp s a cnt dw pc => S.TgtList s (a / 8) 7 cnt dw pc
  | GBad _ => S.TgtNull
  end.

Lemma seg_at_nth (ms : segs) sid : 0 <= sid < zlen ms -> S.seg_at ms sid = Some (nth (Z.to_nat sid) ms []).
Proof. intros H. unfold S.seg_at, zlen, segs, seg in *. destruct (_ || _) eqn:E; [lia|reflexivity]. Qed.

(* byte offset [off] of the validator = word address [wa] of the specification *)
Lemma word_at_spec (ms : segs) sid off wa w :
  word_at ms sid off = Some w -> off = 8 * wa ->
  S.seg_at ms sid = Some (nth (Z.to_nat sid) ms []) /\
  S.in_words (nth (Z.to_nat sid) ms []) wa 1 = true /\
  S.word_at (nth (Z.to_nat sid) ms []) wa = w.
Proof.
  unfold word_at. cbv zeta. intros H ->.
  destruct ((0 <=? sid) && (sid <? zlen ms)) eqn:E1; [|discriminate].
  destruct ((0 <=? 8 * wa) && (8 * wa + 8 <=? zlen (nth (Z.to_nat sid) ms []))) eqn:E2; [|discriminate].
  assert (HH : le_decode (firstn 8 (skipn (Z.to_nat (8 * wa)) (nth (Z.to_nat sid) ms []))) = w) by congruence.
  clear H. split; [apply seg_at_nth; lia|]. unfold zlen in *. split.
  - unfold S.in_words, S.blen. lia.
  - unfold S.word_at. rewrite <- HH. apply eq_sym, CV.Spec.SpecProofs.le_decode_firstn_skipn. lia.
Qed.

Lemma in_seg_spec (ms : segs) sid start size :
  in_seg ms sid start size = true ->
  S.seg_at ms sid = Some (nth (Z.to_nat sid) ms []) /\ 0 <= start /\ start mod 8 = 0 /\ 0 <= size /\
  start + size <= S.blen (nth (Z.to_nat sid) ms []).
Proof.
  unfold in_seg, seg_len, S.blen. intros H. split; [apply seg_at_nth|unfold zlen in *]; lia.
Qed.

Lemma et_cases w : f_C w = 0 \/ f_C w = 1 \/ f_C w = 2 \/ f_C w = 3 \/ f_C w = 4 \/ f_C w = 5 \/ f_C w = 6 \/ f_C w = 7.
Proof. unfold f_C, two32. lia. Qed.

(* a struct / list pointer word (or tag word): same object *)
Lemma decode_obj_spec (ms : segs) sid base wb w t rs :
  decode_obj ms sid base w = (t, rs) -> is_bad t = false -> base = 8 * wb ->
  S.spec_obj true ms sid (wb + S.off30 w) w = Some (conv t).
Proof.
  unfold decode_obj. cbv zeta. intros H Hb ->.
  (* the specification reads the same bit fields *)
  unfold S.spec_obj. change S.ptr_kind with f_A. change S.off30 with f_off. change S.st_dwords with f_dw.
  change S.st_pcount with f_pc. change S.ls_esz with f_C. change S.ls_count with f_D.
  destruct (f_A w =? 0) eqn:EA0.
  - (* struct *)
    destruct (in_seg ms sid (8 * wb + 8 * f_off w) (8 * (f_dw w + f_pc w))) eqn:EI;
      [|inj H; discriminate].
    inj H. clear Hb. destruct (in_seg_spec _ _ _ _ EI) as (Sg & I1 & I2 & I3 & I4).
    rewrite Sg.
    assert (IW : S.in_words (nth (Z.to_nat sid) ms []) (wb + f_off w) (f_dw w + f_pc w) = true)
      by (unfold S.in_words; lia).
    rewrite IW. cbn [conv]. do 2 f_equal. lia.
  - destruct (f_C w <? 7) eqn:E7.
    + (* plain list *)
      destruct (in_seg ms sid (8 * wb + 8 * f_off w) ((f_D w * et_bits (f_C w) + 63) / 64 * 8)) eqn:EI;
        [|inj H; discriminate].
      inj H. clear Hb. destruct (in_seg_spec _ _ _ _ EI) as (Sg & I1 & I2 & I3 & I4).
      rewrite Sg. destruct (f_C w =? 7) eqn:E77; [lia|].
      assert (ND : 0 <= f_D w) by (unfold f_D; lia).
      assert (IB : S.in_bytes (nth (Z.to_nat sid) ms []) (wb + f_off w) (S.list_bytes (f_C w) (f_D w)) = true).
      { unfold S.in_bytes. revert I4. generalize (S.blen (nth (Z.to_nat sid) ms [])). intros L I4.
        destruct (et_cases w) as [C|[C|[C|[C|[C|[C|[C|C]]]]]]]; rewrite C in *;
          unfold et_bits, S.list_bytes in *; cbn [Z.eqb Pos.eqb] in *; lia. }
      rewrite IB. cbn [conv]. do 2 f_equal. lia.
    + (* composite list *)
      destruct (in_seg ms sid (8 * wb + 8 * f_off w) (8 + 8 * f_D w)) eqn:EI; cbn [negb] in H;
        [|inj H; discriminate].
      destruct (word_at ms sid (8 * wb + 8 * f_off w)) as [tag|] eqn:EW; [|inj H; discriminate].
      destruct (f_A tag =? 0) eqn:ET; cbn [negb] in H; [|inj H; discriminate].
      destruct ((tag / 4) mod two30 * (f_dw tag + f_pc tag) =? f_D w) eqn:EC; cbn [negb] in H;
        [|inj H; discriminate].
      inj H. clear Hb. destruct (in_seg_spec _ _ _ _ EI) as (Sg & I1 & I2 & I3 & I4).
      destruct (word_at_spec _ _ _ (wb + f_off w) _ EW ltac:(lia)) as (_ & _ & WS).
      rewrite Sg. destruct (f_C w =? 7) eqn:E77; [|pose proof (et_cases w); lia].
      assert (IW : S.in_words (nth (Z.to_nat sid) ms []) (wb + f_off w) (1 + f_D w) = true)
        by (unfold S.in_words; lia).
      rewrite IW, WS, ET. change (S.tag_count tag) with ((tag / 4) mod two30).
      assert (IW2 : S.in_words (nth (Z.to_nat sid) ms []) (wb + f_off w + 1)
                      ((tag / 4) mod two30 * (f_dw tag + f_pc tag)) = true).
      { unfold S.in_words. apply Z.eqb_eq in EC. rewrite EC. lia. }
      rewrite IW2, EC. cbn [negb orb andb conv]. do 2 f_equal. lia.
Qed.

(* THE BRIDGE: whatever the strict validator's resolver accepts at a word-aligned position, the
   specification's resolver (strict mode) resolves to the corresponding target.  Holds for every
   segment list. *)
Theorem resolve_ptr_spec (ms : segs) sid off t rs :
  resolve_ptr ms sid off = (t, rs) -> is_bad t = false -> off mod 8 = 0 ->
  S.spec_resolve true ms sid (off / 8) = Some (conv t).
Proof.
  unfold resolve_ptr. intros H Hb Hm.
  destruct (word_at ms sid off) as [w|] eqn:EW; [|inj H; discriminate].
  destruct (word_at_spec _ _ _ (off / 8) _ EW ltac:(lia)) as (Sg & IW & WS).
  unfold S.spec_resolve, S.spec_near. rewrite Sg, IW. cbn [negb]. rewrite WS.
  change S.ptr_kind with f_A. change S.off30 with f_off. change S.far_seg with f_seg. change S.far_off with f_padoff.
  change S.far_two with f_B.
  destruct (w =? 0) eqn:E0.
  { inj H. assert (W0 : w = 0) by lia. rewrite W0. reflexivity. }
  cbv zeta in H.
  destruct (f_A w =? 3) eqn:E3.
  { destruct ((w / 4) mod two30 =? 0) eqn:EZ; [|inj H; discriminate].
    inj H. clear Hb. destruct (f_A w =? 2) eqn:E2; [lia|].
    change (S.cap_zero w) with ((w / 4) mod two30). rewrite EZ. cbn [conv]. reflexivity. }
  destruct (f_A w =? 2) eqn:E2.
  - (* far *)
    destruct (f_B w =? 0) eqn:EB.
    + destruct (in_seg ms (f_seg w) (8 * f_padoff w) 8) eqn:EI; cbn [negb] in H; [|inj H; discriminate].
      destruct (word_at ms (f_seg w) (8 * f_padoff w)) as [pw|] eqn:EP; [|inj H; discriminate].
      destruct ((pw =? 0) || (2 <=? f_A pw)) eqn:EK; [inj H; discriminate|].
      destruct (decode_obj ms (f_seg w) (8 * f_padoff w + 8) pw) as [t0 rs0] eqn:ED.
      inj H.
      destruct (word_at_spec _ _ _ (f_padoff w) _ EP eq_refl) as (Sg2 & IW2 & WS2).
      rewrite Sg2, IW2, WS2.
      destruct (pw =? 0) eqn:EP0; [discriminate|].
      assert (A01 : f_A pw = 0 \/ f_A pw = 1) by (unfold f_A in *; lia).
      destruct (f_A pw =? 3) eqn:EP3; [lia|]. destruct (f_A pw =? 2) eqn:EP2; [lia|].
      exact (decode_obj_spec _ _ _ (f_padoff w + 1) _ _ _ ED Hb ltac:(lia)).
    + destruct (in_seg ms (f_seg w) (8 * f_padoff w) 16) eqn:EI; cbn [negb] in H; [|inj H; discriminate].
      destruct (word_at ms (f_seg w) (8 * f_padoff w)) as [fw|] eqn:EP; [|inj H; discriminate].
      destruct (word_at ms (f_seg w) (8 * f_padoff w + 8)) as [tag|] eqn:EP'; [|inj H; discriminate].
      destruct ((f_A fw =? 2) && (f_B fw =? 0)) eqn:EF; cbn [negb] in H; [|inj H; discriminate].
      destruct ((2 <=? f_A tag) || negb (f_off tag =? 0)) eqn:ET; [inj H; discriminate|].
      destruct (decode_obj ms (f_seg fw) (8 * f_padoff fw) tag) as [t0 rs0] eqn:ED.
      inj H.
      destruct (word_at_spec _ _ _ (f_padoff w) _ EP eq_refl) as (Sg2 & IW2 & WS2).
      destruct (word_at_spec _ _ _ (f_padoff w + 1) _ EP' ltac:(lia)) as (_ & IW3 & WS3).
      rewrite Sg2.
      assert (IWW : S.in_words (nth (Z.to_nat (f_seg w)) ms []) (f_padoff w) 2 = true)
        by (unfold S.in_words in *; lia).
      rewrite IWW, WS2, WS3, EF.
      assert (A01 : f_A tag = 0 \/ f_A tag = 1) by (unfold f_A in *; lia).
      assert (O0 : f_off tag = 0) by lia.
      assert (C1 : ((f_A tag =? 0) || (f_A tag =? 1)) = true) by lia.
      rewrite C1, O0. cbn [andb Z.eqb].
      pose proof (decode_obj_spec _ _ _ (f_padoff fw) _ _ _ ED Hb eq_refl) as DS.
      change S.off30 with f_off in DS. rewrite O0, Z.add_0_r in DS. exact DS.
  - (* near *)
    exact (decode_obj_spec _ _ _ (off / 8 + 1) _ _ _ H Hb ltac:(lia)).
Qed.

(* the specification target of a table object *)
Definition spec_tgt_of (h : Ptr) : S.target := conv (tgt_of h).

(* every pointer slot of every table object and the root word, as the SPECIFICATION resolves it
   (strict mode): null / capability / struct / list, and when the target occupies storage it
   is exactly the specification target of one table object *)
Theorem hinv_slot_spec m objs pads q :
  hinv m objs pads -> In q ((0, 0) :: flat_map slots objs) ->
  exists t rs, resolve_ptr (bm_data m) (fst q) (snd q) = (t, rs) /\
    S.spec_resolve true (bm_data m) (fst q) (snd q / 8) = Some (conv t) /\ simple_target t /\
    (rs = [] /\ no_tag t \/ exists ps r, rs = ps ++ [r] /\ incl ps pads /\
        (r_size r = 0 /\ no_tag t \/ exists h, In h objs /\ r = obj_reg h /\ t = tgt_of h)).
Proof.
  intros H Hq.
  destruct (slot_geometry _ _ _ _ H Hq) as (Q1 & Q2 & Q3 & Q4 & _).
  destruct (hinv_slot_res _ _ _ _ H Hq) as (t & rs & ER & ST & Hr).
  assert (NB : is_bad t = false) by (destruct t; cbn in ST |- *; try reflexivity; contradiction).
  pose proof (resolve_ptr_spec _ _ _ _ _ ER NB Q3) as SR.
  exists t, rs. split; [exact ER|]. split; [exact SR|]. split; [exact ST|exact Hr].
Qed.
