(* C16, closure of a deep copy inside one message - definitions and the frame lemmas.
   [CL m T P L0 N]: every pointer slot of the object table T (and the root slot) that lies in the
   area at or beyond the lengths L0 holds - in the sense of [slot_ok], i.e. as bytes of m - the
   null word, the inline empty struct, a capability index, or a pointer placed (through pads of P)
   to an entry of N.  The copy theorems of CopyClosure.v take N = the entries created by the call
   and L0 = the segment lengths before the call. *)
From CV Require Import Core.Builder Core.ReaderFacts Core.ArithFacts Core.BuilderFacts Core.AllocProofs
  Core.WritePtrProofs Core.HeapProofs Core.CopyProofs Core.BuildOps Core.BuildValid Core.BuildInv Core.HeapInv Core.ReadBridge
  Core.HeapOps Core.HeapCopy.
From Coq Require Import ZifyBool ZifyNat.
Open Scope Z_scope.

Ltac Zify.zify_post_hook ::= Z.div_mod_to_equations.

Definition CL (m : bmsg) (T : list Ptr) (P : list region) (L0 : Z -> Z) (N : list Ptr) : Prop :=
  forall s, In s ((0, 0) :: flat_map slots T) -> L0 (fst s) <= snd s -> slot_ok (bm_data m) P N s.

Definition lenf (m : bmsg) : Z -> Z := fun i => zlen (mem m i).

(* entries that start at or beyond the lengths L *)
Definition freshL (L : Z -> Z) (eo : list Ptr) : Prop := forall h, In h eo -> L (p_seg h) <= obj_start h.

Definition le_len (L0 : Z -> Z) (m : bmsg) : Prop := forall i, 0 <= i -> L0 i <= zlen (mem m i).

Lemma slot_ok_weaken (ms : segs) P N P' N' s : incl P P' -> incl N N' -> slot_ok ms P N s -> slot_ok ms P' N' s.
Proof.
  intros IP IN [S|[S|[(h & ps & raw & ol & Hh & Ips & Er & Hnz & Pl)|S]]].
  - left. exact S.
  - right. left. exact S.
  - right. right. left. exists h, ps, raw, ol. split; [apply IN, Hh|]. split; [intros x Hx; apply IP, Ips, Hx|].
    split; [exact Er|]. split; [exact Hnz|exact Pl].
  - right. right. right. exact S.
Qed.

Lemma CL_weaken m T P L0 N P' N' : incl P P' -> incl N N' -> CL m T P L0 N -> CL m T P' L0 N'.
Proof. intros IP IN C s Hs Ha. apply (slot_ok_weaken _ P N); auto. Qed.

Lemma CL_same_data m m' T P L0 N : bm_data m' = bm_data m -> CL m T P L0 N -> CL m' T P L0 N.
Proof. intros E C s Hs Ha. rewrite E. apply C; auto. Qed.

(* writes that spare every table slot and every pad *)
Lemma CL_frame m T P m' (R : Z -> Z -> Prop) L0 N :
  keeps m m' R -> nsegs m <= nsegs m' ->
  (forall q, In q ((0, 0) :: flat_map slots T) -> forall k, snd q <= k < snd q + 8 -> ~ R (fst q) k) ->
  (forall r, In r P -> forall k, r_start r <= k < r_start r + r_size r -> ~ R (r_seg r) k) ->
  CL m T P L0 N -> CL m' T P L0 N.
Proof.
  intros K Hn Hq Hp C s Hs Ha. apply (slot_ok_frame m m' R P N); auto; try apply incl_refl.
Qed.

(* a write of one table slot q, possibly with new entries and pads *)
Lemma CL_step m objs pads m' q L0 N eo ep :
  hinv m objs pads -> In q ((0, 0) :: flat_map slots objs) ->
  keeps m m' (Rword (fst q) (snd q)) -> nsegs m <= nsegs m' ->
  CL m objs pads L0 N ->
  (L0 (fst q) <= snd q -> slot_ok (bm_data m') (pads ++ ep) (N ++ eo) q) ->
  (forall s, In s (flat_map slots eo) -> L0 (fst s) <= snd s -> slot_ok (bm_data m') (pads ++ ep) (N ++ eo) s) ->
  CL m' (objs ++ eo) (pads ++ ep) L0 (N ++ eo).
Proof.
  intros H Hq K Hn C Sq Se s Hs Ha.
  assert (Hs' : In s ((0, 0) :: flat_map slots objs) \/ In s (flat_map slots eo)).
  { destruct Hs as [<-|Hs]; [left; left; reflexivity|]. rewrite flat_map_app in Hs. apply in_app_or in Hs.
    destruct Hs as [Hs|Hs]; [left; right; exact Hs|right; exact Hs]. }
  destruct Hs' as [Hs'|Hs']; [|apply Se; auto].
  destruct (slot_geometry _ _ _ _ H Hq) as (Q1 & Q2 & Q3 & Q4 & (rq & Rq1 & Rq2 & Rq3 & Rq4)).
  destruct (slot_geometry _ _ _ _ H Hs') as (P1 & P2 & P3 & P4 & _).
  assert (DEC : (fst s = fst q /\ snd s = snd q) \/ ~ (fst s = fst q /\ snd s = snd q)) by lia.
  destruct DEC as [[E1 E2]|NE].
  - assert (Eq : s = q) by (destruct q, s; cbn in *; congruence). subst s. apply Sq. exact Ha.
  - apply (slot_ok_frame m m' (Rword (fst q) (snd q)) pads N); auto.
    + intros k Hk [X1 X2]. lia.
    + intros r Hr k Hk [X1 X2].
      pose proof (hi_cross _ _ _ H _ _ Rq1 Hr) as D. pose proof (hi_pads _ _ _ H r Hr) as Pz.
      destruct r as [rs rst rsz]. destruct rq as [qs qst qsz]. cbv [reg_disjoint r_seg r_start r_size] in *. lia.
    + intros x Hx. apply in_or_app. left. exact Hx.
    + intros x Hx. apply in_or_app. left. exact Hx.
Qed.

(* a new table entry whose slots are null *)
Lemma CL_add_obj m objs pads m' h L0 N :
  keeps m m' Rnone -> nsegs m <= nsegs m' -> CL m objs pads L0 N ->
  (forall q, In q (slots h) -> word_at (bm_data m') (fst q) (snd q) = Some 0) ->
  CL m' (objs ++ [h]) pads L0 (N ++ [h]).
Proof.
  intros K Hn C Z s Hs Ha.
  assert (Hs' : In s ((0, 0) :: flat_map slots objs) \/ In s (slots h)).
  { destruct Hs as [<-|Hs]; [left; left; reflexivity|]. rewrite flat_map_app in Hs. apply in_app_or in Hs.
    destruct Hs as [Hs|Hs]; [left; right; exact Hs|]. cbn in Hs. rewrite app_nil_r in Hs. right. exact Hs. }
  destruct Hs' as [Hs'|Hs'].
  - apply (slot_ok_frame m m' Rnone pads N); auto.
    + apply incl_refl.
    + intros x Hx. apply in_or_app. left. exact Hx.
  - left. apply Z. exact Hs'.
Qed.

(* the slots of a freshly allocated object are null words (alloc zero-fills) *)
Lemma alloc_obj_null m objs pads sid sz m1 s1 a h :
  hinv m objs pads -> 0 <= sid < nsegs m -> 0 <= sz -> alloc m sid sz = Ok (m1, s1, a) ->
  nsegs m1 < 4294967296 ->
  p_valid h = true -> p_seg h = s1 -> p_off h = a -> shape_ok h -> obj_bytes h = sz ->
  (p_kind h = KList -> p_comp h = false) ->
  forall q, In q (slots h) -> word_at (bm_data m1) (fst q) (snd q) = Some 0.
Proof.
  intros H Hs Hz EA Hns Hv Es Eo Sh Eb Hnc.
  assert (Hc : p_comp h = false).
  { unfold shape_ok in Sh. destruct (p_kind h); [tauto|auto|contradiction]. }
  assert (OS : obj_start h = a) by (unfold obj_start; rewrite Hc; exact Eo).
  destruct (alloc_region _ _ _ _ _ _ _ _ H Hs Hz EA) as (K & I1 & Sm1 & N1 & S1 & AD & A8 & L1 & MX & Zr).
  pose proof (zlen_nonneg (mem m s1)) as Z0. pose proof (padToWord_nonneg sz) as P0.
  assert (Gd : good (bm_data m1) h) by (apply (new_obj_good m1 s1 a sz); auto; lia).
  intros q Hq. destruct (slot_in_obj _ _ _ Hv Gd Hq) as (S1' & S2 & S3 & _).
  unfold obj_reg in S3. cbn [r_size] in S3. rewrite Eb, OS in S3. rewrite S1', Es. apply Zr; lia.
Qed.

Lemma alloc_comp_null m objs pads sid sz m1 s1 a tag m2 h :
  hinv m objs pads -> 0 <= sid < nsegs m -> 0 <= sz -> alloc m sid sz = Ok (m1, s1, a) ->
  writeRawPointer m1 s1 a tag = Ok m2 -> rawStructPointer (p_len h) (p_size h) = Some tag ->
  nsegs m1 < 4294967296 ->
  p_valid h = true -> p_seg h = s1 -> p_off h = a + 8 -> shape_ok h -> obj_bytes h = sz ->
  p_kind h = KList -> p_comp h = true ->
  keeps m m2 Rnone /\
  forall q, In q (slots h) -> word_at (bm_data m2) (fst q) (snd q) = Some 0.
Proof.
  intros H Hs Hz EA EW Etag Hns Hv Es Eo Sh Eb Ek Hc.
  assert (OS : obj_start h = a) by (unfold obj_start; rewrite Hc; lia).
  destruct (alloc_region _ _ _ _ _ _ _ _ H Hs Hz EA) as (K & I1 & Sm1 & N1 & S1 & AD & A8 & L1 & MX & Zr).
  pose proof (zlen_nonneg (mem m s1)) as Z0.
  destruct (comp_tag_room h tag Hv Sh Ek Hc Etag) as [Hsz8 _]. rewrite Eb in Hsz8.
  assert (S10 : 0 <= s1) by lia.
  destruct (writeRawPointer_keeps _ _ _ _ _ S10 I1 EW) as (K2 & I2 & N2 & _).
  assert (Gd1 : good (bm_data m1) h) by (apply (new_obj_good m1 s1 a sz); auto; lia).
  split.
  - apply (keeps_step m m1 m2 Rnone (Rword s1 a)); auto. intros i k Hi Hk [X1 X2]. subst i. lia.
  - intros q Hq. destruct (slot_in_obj _ _ _ Hv Gd1 Hq) as (S1' & S2 & S3 & _).
    unfold obj_reg in S3. cbn [r_size] in S3. rewrite Eb, OS in S3. rewrite S1', Es.
    rewrite (keeps_word m1 m2 (Rword s1 a)); auto; try lia; [apply Zr; lia|]. intros k Hk [_ X]. lia.
Qed.

(* the three inline encodings: what the slot holds afterwards *)
Definition inline_word (v : Z) : Prop :=
  v = 0 \/ v = empty_struct_word \/ exists idx, 0 <= idx < 4294967296 /\ v = rawInterfacePointer idx.

Lemma write_inline_word m objs pads m' q v :
  hinv m objs pads -> In q ((0, 0) :: flat_map slots objs) -> inline_word v ->
  writeRawPointer m (fst q) (snd q) v = Ok m' ->
  (forall P N, slot_ok (bm_data m') P N q) /\ keeps m m' (Rword (fst q) (snd q)) /\ nsegs m' = nsegs m.
Proof.
  intros H Hq Hv HW.
  destruct (slot_geometry _ _ _ _ H Hq) as (Q1 & Q2 & Q3 & Q4 & _).
  assert (Q0 : 0 <= fst q) by lia.
  destruct (writeRawPointer_keeps _ _ _ _ _ Q0 (hi_inv _ _ _ H) HW) as (K & I' & N & _).
  assert (W := HW). apply writeRawPointer_wrote in W; [|lia].
  split; [|split; [exact K|exact N]].
  assert (Hw64 : word64 v).
  { destruct Hv as [-> |[-> |(idx & Hi & ->)]]; unfold word64, empty_struct_word; try lia.
    rewrite rawInterfacePointer_sum by assumption. lia. }
  assert (RD : word_at (bm_data m') (fst q) (snd q) = Some v).
  { apply word_at_mem; [rewrite N; exact Q1| |pose proof (hi_small _ _ _ H (fst q)); unfold maxSegmentSize in *; lia].
    apply (wrote_word_back m m'); auto. pose proof (hi_small _ _ _ H (fst q)). unfold maxSegmentSize in *. lia. }
  intros P N0. destruct Hv as [-> |[-> |(idx & Hi & ->)]]; [left; exact RD|right; left; exact RD|].
  right. right. right. exists idx. auto.
Qed.

Lemma write_ptr_inline f w q src fc w' :
  (p_valid src = false \/ p_kind src = KStruct /\ os_isZero (p_size src) = true \/
   p_kind src = KIface /\ 0 <= p_len src < 4294967296) ->
  write_ptr (S f) true w (fst q) (snd q) InDst src fc = Ok w' ->
  exists v, inline_word v /\ writeRawPointer (w_dst w) (fst q) (snd q) v = Ok (w_dst w').
Proof.
  intros Hsrc HW. unfold write_ptr in HW. cbn [write_ptr_gen] in HW.
  destruct (p_valid src) eqn:EV; cbn [negb] in HW.
  2:{ unfold lift0 in HW. destruct (writeRawPointer (w_dst w) (fst q) (snd q) 0) as [m'| |] eqn:EW; cbn [bind] in HW; try discriminate.
      apply Ok_inj in HW. subst w'. exists 0. split; [left; reflexivity|exact EW]. }
  destruct Hsrc as [X|[[EK0 EZ0]|[EKc Hidx]]]; [discriminate| |].
  - rewrite EK0, EZ0 in HW. rewrite empty_struct_word_eq in HW. cbn [of_opt_panic bind] in HW. unfold lift0 in HW.
    destruct (writeRawPointer (w_dst w) (fst q) (snd q) empty_struct_word) as [m'| |] eqn:EW; cbn [bind] in HW; try discriminate.
    apply Ok_inj in HW. subst w'. exists empty_struct_word. split; [right; left; reflexivity|exact EW].
  - rewrite EKc in HW. cbn [is_src] in HW. unfold lift0 in HW.
    destruct (writeRawPointer (w_dst w) (fst q) (snd q) (rawInterfacePointer (p_len src))) as [m'| |] eqn:EW; cbn [bind] in HW; try discriminate.
    apply Ok_inj in HW. subst w'. exists (rawInterfacePointer (p_len src)). split; [|exact EW].
    right. right. exists (p_len src). auto.
Qed.

(* a loop whose steps extend the tables, for any invariant relative to the extension *)
Lemma fold_threadX (I : world -> Prop) (T : world -> list Ptr -> list region -> Prop) l (f : world -> Z -> res world) :
  (forall wa j wb, In j l -> I wa -> f wa j = Ok wb -> I wb /\ nsegs (w_dst wa) <= nsegs (w_dst wb)) ->
  (forall wa eo ep, T wa eo ep -> I wa) ->
  (forall wa eo ep j wb, In j l -> T wa eo ep -> f wa j = Ok wb -> nsegs (w_dst wb) < B32 ->
     exists eo' ep', T wb (eo ++ eo') (ep ++ ep')) ->
  forall wa eo ep w2, T wa eo ep -> fold_res l wa f = Ok w2 -> nsegs (w_dst w2) < B32 ->
  exists eo' ep', T w2 (eo ++ eo') (ep ++ ep').
Proof.
  induction l as [|j r IH]; intros Hm HI Hs wa eo ep w2 T0 H Hb; cbn [fold_res] in H.
  - apply Ok_inj in H. subst. exists [], []. now rewrite !app_nil_r.
  - destruct (f wa j) as [wb| |] eqn:E; cbn [bind] in H; try discriminate.
    destruct (Hm wa j wb (or_introl eq_refl) (HI _ _ _ T0) E) as [Ib Nb].
    destruct (fold_mono I r f (fun wa j wb Hj => Hm wa j wb (or_intror Hj)) wb w2 Ib H) as [_ N2].
    destruct (Hs wa eo ep j wb (or_introl eq_refl) T0 E ltac:(lia)) as (eo1 & ep1 & T1).
    destruct (IH (fun wa j wb Hj => Hm wa j wb (or_intror Hj)) HI
                 (fun wa eo ep j wb Hj => Hs wa eo ep j wb (or_intror Hj)) wb (eo ++ eo1) (ep ++ ep1) w2) as (eo2 & ep2 & T2); auto.
    exists (eo1 ++ eo2), (ep1 ++ ep2). rewrite <- !app_assoc in T2. exact T2.
Qed.

Lemma freshL_app L eo eo' : freshL L eo -> freshL L eo' -> freshL L (eo ++ eo').
Proof. intros A B h Hh. apply in_app_or in Hh. destruct Hh; auto. Qed.

Lemma freshL_mono (L L' : Z -> Z) eo : (forall h, In h eo -> 0 <= p_seg h) -> (forall i, 0 <= i -> L i <= L' i) -> freshL L' eo -> freshL L eo.
Proof. intros Hs Hl F h Hh. specialize (F h Hh). specialize (Hl (p_seg h) (Hs h Hh)). lia. Qed.
