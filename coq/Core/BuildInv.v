(* An invariant of the op-list interpreter (BuildOps.brun): for every arena configuration and
   every well-formed op list, every state reached has a well-formed destination message
   (all segments whole words, len <= cap, single-segment arenas have their one segment) and a
   handle pool whose valid handles have encodable sizes and - for handles into the message
   being built - existing segments and addressable offsets.  This is the allocation / segment-level
   part of C05's heap_inv over op lists (HeapSteps.heap_inv_sublang is the whole of it); the case
   analysis of a step that all invariants of the interpreter share is [bstep_inv]. *)
From CV Require Import Core.Builder Core.ReaderFacts Core.ArithFacts Core.BuilderFacts Core.AllocProofs
  Core.WritePtrProofs Core.HeapProofs Core.BuildOps Core.BuildValid.
From Coq Require Import ZifyBool ZifyNat.
Open Scope Z_scope.

Ltac Zify.zify_post_hook ::= Z.div_mod_to_equations.

Lemma bytes_ok_firstn n s : bytes_ok s -> bytes_ok (firstn n s).
Proof. intros H. rewrite <- (firstn_skipn n s) in H. apply Forall_app in H. tauto. Qed.
Lemma bytes_ok_skipn n s : bytes_ok s -> bytes_ok (skipn n s).
Proof. intros H. rewrite <- (firstn_skipn n s) in H. apply Forall_app in H. tauto. Qed.
Lemma slice_bytes s base sz b : bytes_ok s -> slice s base sz = Ok b -> bytes_ok b.
Proof.
  unfold slice. intros H. destruct (_ && _); [|discriminate]. intros E. apply Ok_inj in E. subst b.
  apply bytes_ok_firstn, bytes_ok_skipn, H.
Qed.
Lemma nth_bytes_ok (ms : segs) i : Forall bytes_ok ms -> bytes_ok (nth i ms []).
Proof. intros H. apply Forall_nth_default; [exact H|constructor]. Qed.

Lemma readUintN1_range s addr b : bytes_ok s -> readUintN s addr 1 = Ok b -> 0 <= b < 256.
Proof.
  unfold readUintN. intros Hs. destruct (slice s addr 1) as [l| |] eqn:ES; cbn [bind]; try discriminate.
  intros E. apply Ok_inj in E. subst b. pose proof (slice_bytes _ _ _ _ Hs ES) as Hl.
  assert (Hlen : (length l <= 1)%nat).
  { unfold slice in ES. destruct (_ && _) eqn:C; [|discriminate]. apply Ok_inj in ES. subst l.
    rewrite firstn_length. unfold addSizeUnchecked, u32 in *.
    assert (0 <= addr) by lia. pose proof (Z.mod_le (addr + 1) 4294967296 ltac:(lia) ltac:(lia)). lia. }
  destruct l as [|x [|y r]]; cbn [le_decode length] in *; [lia| |lia].
  inversion Hl; subst. lia.
Qed.

Lemma primitiveElem_valid fu p i e a : primitiveElem fu p i e = Ok a -> p_valid p = true.
Proof. unfold primitiveElem. destruct (p_valid p); [reflexivity|discriminate]. Qed.

Lemma list_struct_valid fu p i e : list_struct fu p i = Ok e -> p_valid p = true.
Proof. unfold list_struct. destruct (p_valid p); [reflexivity|discriminate]. Qed.

Lemma is_src_false l : is_src l = false -> l = InDst.
Proof. destruct l; [reflexivity|discriminate]. Qed.

Definition pick_ok (m : segs) (sid : Z) (d : Z) (r : res seg) : Prop :=
  forall dst, r = Ok dst -> 0 <= d < zlen m.

Lemma pick_range m sid s d dst :
  0 <= sid < zlen m -> (if d =? sid then Ok s else lookup_segment m d) = Ok dst -> 0 <= d < zlen m.
Proof.
  intros Hs. destruct (d =? sid) eqn:E; [intros _; lia|].
  intros H. apply lookup_segment_spec in H. lia.
Qed.

Lemma resolve_seg_range strict m sid s paddr d dst base val :
  0 <= sid < zlen m -> resolveFarPointer strict m sid s paddr = Ok (d, dst, base, val) -> 0 <= d < zlen m.
Proof.
  intros Hs. unfold resolveFarPointer.
  destruct (readRawPointer s paddr) as [v| |]; cbn [bind]; try discriminate. cbv zeta.
  destruct (pointerType v =? doubleFarPointer).
  - destruct (if farSegment v =? sid then Ok s else lookup_segment m (farSegment v)) as [ps| |]; cbn [bind]; try discriminate.
    destruct (negb _); [discriminate|].
    destruct (readRawPointer ps (farAddress v)) as [far| |]; cbn [bind]; try discriminate.
    destruct (negb _); [discriminate|].
    destruct (addSize (farAddress v) 8); [|discriminate].
    destruct (readRawPointer ps z) as [tag| |]; cbn [bind]; try discriminate.
    destruct (_ || _); [discriminate|].
    destruct (if farSegment far =? sid then Ok s else lookup_segment m (farSegment far)) as [ds| |] eqn:EP; cbn [bind]; try discriminate.
    apply pick_range in EP; auto.
    destruct (strict && _).
    + destruct (rawStructPointer (-1) (mkOS 0 0)); [|discriminate]. intros H. apply Ok_inj in H. injection H as <- _ _ _. exact EP.
    + intros H. apply Ok_inj in H. injection H as <- _ _ _. exact EP.
  - destruct (pointerType v =? farPointer).
    + destruct (if farSegment v =? sid then Ok s else lookup_segment m (farSegment v)) as [ds| |] eqn:EP; cbn [bind]; try discriminate.
      apply pick_range in EP; auto.
      destruct (negb _); [discriminate|]. destruct (addSize (farAddress v) 8); [|discriminate].
      destruct (readRawPointer ds (farAddress v)) as [x| |]; cbn [bind]; try discriminate.
      intros H. apply Ok_inj in H. injection H as <- _ _ _. exact EP.
    + destruct (addSize paddr 8); [|discriminate]. intros H. apply Ok_inj in H. injection H as <- _ _ _. exact Hs.
Qed.

Definition addr_ok (p : Ptr) : Prop := 0 <= p_off p <= 4294967295.

Lemma readPtr_handle strict m rl sid s paddr depth q rl' :
  0 <= sid < zlen m -> readPtr strict m rl sid s paddr depth = (Ok q, rl') -> p_valid q = true ->
  0 <= p_seg q < zlen m /\ addr_ok q.
Proof.
  intros Hs H Hv. destruct (readPtr_Ok _ _ _ _ _ _ _ _ _ H) as (d & dst & base & val & ER & C).
  pose proof (resolve_seg_range _ _ _ _ _ _ _ _ _ Hs ER) as Hd. unfold addr_ok.
  destruct C as [(_ & -> & _)|(_ & _ & [(_ & sp & Es & _ & _ & ->)|[(_ & lp & El & _ & _ & ->)|(_ & _ & _ & ->)]])];
    [discriminate Hv| | |cbn; lia].
  - destruct (readStructPtr_inv _ _ _ _ _ Es) as (a & EE & ->). apply element_spec in EE. unfold maxSegmentSize in EE. cbn. lia.
  - destruct (readListPtr_inv _ _ _ _ _ _ El) as (a & EE & [(_ & hdr & _ & _ & EA & _ & _ & ->)|[(_ & ->)|(_ & _ & es & _ & ->)]]);
      apply element_spec in EE; unfold maxSegmentSize in *; cbn; lia.
Qed.

(* [hp rng n p]: a valid handle has an encodable size and, when [rng] (handles into the message
   being built), an existing segment and an addressable offset *)
Definition hp (rng : bool) (n : Z) (p : Ptr) : Prop :=
  sz_ok p /\ (rng = true -> p_valid p = true -> 0 <= p_seg p < n /\ addr_ok p).

Lemma hp_null rng n : hp rng n nullPtr.
Proof. split; [intros X; discriminate X|intros _ X; discriminate X]. Qed.

Lemma hp_mono rng n n' p : n <= n' -> hp rng n p -> hp rng n' p.
Proof. intros Hn [H1 H2]. split; auto. intros R V. destruct (H2 R V). split; [lia|auto]. Qed.

Lemma hp_as_struct rng n p : hp rng n p -> hp rng n (as_struct p).
Proof. unfold as_struct. destruct (is_struct p); auto using hp_null. Qed.
Lemma hp_as_list rng n p : hp rng n p -> hp rng n (as_list p).
Proof. unfold as_list. destruct (is_list p); auto using hp_null. Qed.

Lemma hp_nth rng n hs k : Forall (hp rng n) hs -> hp rng n (nth k hs nullPtr).
Proof. intros H. apply Forall_nth_default; [exact H|apply hp_null]. Qed.

Lemma hp_readPtr rng strict m rl sid s paddr depth q rl' :
  (rng = true -> 0 <= sid < zlen m) ->
  readPtr strict m rl sid s paddr depth = (Ok q, rl') -> hp rng (zlen m) q.
Proof.
  intros Hs H. split.
  - eapply readPtr_size_wf; eauto.
  - intros R V. eapply readPtr_handle; eauto.
Qed.

Lemma hp_list_struct rng n p i e : hp rng n p -> list_struct true p i = Ok e -> hp rng n e.
Proof.
  intros [H1 H2] H. unfold list_struct in H.
  destruct (negb (p_valid p) || (i <? 0) || (i >=? p_len p)) eqn:E; [discriminate|].
  assert (Hv : p_valid p = true) by (destruct (p_valid p); auto; discriminate).
  destruct (p_bit p); [apply Ok_inj in H; subst e; apply hp_null|].
  destruct (element (p_off p) i (totalSize (p_size p))) as [addr|] eqn:EE; [|apply Ok_inj in H; subst e; apply hp_null].
  apply Ok_inj in H. subst e. apply element_spec in EE. unfold maxSegmentSize in EE. split.
  - intros _. cbn. exact (H1 Hv).
  - intros R _. destruct (H2 R Hv) as [S _]. cbn. unfold addr_ok. cbn. split; [exact S|lia].
Qed.

(* the handle a read op adds to its pool: the result of one of the four pointer-valued accessors *)
Definition pushed (c : config) (ms : segs) (hs : list Ptr) (rl : Z) (o : op) : option (res Ptr) :=
  match o with
  | ORoot => Some (fst (root c ms rl))
  | OSPtr h i => Some (fst (struct_ptr c ms rl (as_struct (nth (Z.to_nat h) hs nullPtr)) i))
  | OLStruct h i => Some (list_struct true (as_list (nth (Z.to_nat h) hs nullPtr)) i)
  | OPLAt h i => Some (fst (ptrlist_at c true ms rl (as_list (nth (Z.to_nat h) hs nullPtr)) i))
  | _ => None
  end.

Lemma step_new c ms hs rl o rs' v : step c all_fixes ms (mkRS hs rl) o = (rs', v) ->
  skipn (length hs) (rs_handles rs') =
  match pushed c ms hs rl o with Some r => [match r with Ok q => q | _ => nullPtr end] | None => [] end.
Proof.
  assert (Hpush : forall (r : res Ptr) rl1, skipn (length hs) (rs_handles (push (mkRS hs rl) r rl1)) = [match r with Ok q => q | _ => nullPtr end]).
  { intros r rl1. unfold push. cbn [rs_handles]. now rewrite skipn_app, skipn_all, Nat.sub_diag. }
  destruct o; cbn [step pushed]; unfold handle, all_fixes; cbn [rs_handles rs_rl fx_upgrade fx_depth fx_bit];
    try (intros [= <- _]; cbn [rs_handles]; apply skipn_all).
  - destruct (root c ms rl) as [r rl1]. intros [= <- _]. apply Hpush.
  - destruct (struct_ptr _ _ _ _ _) as [r rl1]. intros [= <- _]. apply Hpush.
  - intros [= <- _]. apply Hpush.
  - destruct (ptrlist_at _ _ _ _ _ _) as [r rl1]. intros [= <- _]. apply Hpush.
  - destruct (walk _ _ _ _ _ _ _ _) as [t rl1]. intros [= <- _]. apply skipn_all.
  - intros [= <- _]. apply skipn_nil.
Qed.

Lemma step_new_handles rng c ms hs rl o rs' v :
  (forall h, op_handle o = Some h -> hp rng (zlen ms) (nth (Z.to_nat h) hs nullPtr)) ->
  step c all_fixes ms (mkRS hs rl) o = (rs', v) ->
  Forall (hp rng (zlen ms)) (skipn (length hs) (rs_handles rs')).
Proof.
  intros Hh E. rewrite (step_new _ _ _ _ _ _ _ E). clear E.
  destruct o; cbn [pushed]; try (constructor; fail); (constructor; [|constructor]); cbn [op_handle] in Hh.
  - (* root *)
    destruct (root c ms rl) as [[q| |] rl1] eqn:ER; cbn [fst]; try apply hp_null. unfold root in ER.
    destruct (lookup_segment ms 0) as [s0| |] eqn:EL; try (inversion ER; fail).
    apply lookup_segment_spec in EL.
    destruct (negb _); [destruct (cfg_root c); inversion ER|].
    eapply hp_readPtr; [|exact ER]. intros _. lia.
  - (* struct ptr *)
    destruct (struct_ptr _ _ _ _ _) as [[q| |] rl1] eqn:ER; cbn [fst]; try apply hp_null.
    pose proof (hp_as_struct _ _ _ (Hh h eq_refl)) as [P1 P2].
    unfold struct_ptr in ER. destruct (negb _ || _) eqn:EG; [inversion ER; apply hp_null|].
    eapply hp_readPtr; [|exact ER]. intros R. apply P2; auto.
    destruct (p_valid (as_struct (nth (Z.to_nat h) hs nullPtr))); auto; discriminate.
  - (* list struct *)
    destruct (list_struct _ _ _) as [q| |] eqn:EL; try apply hp_null.
    eapply hp_list_struct; [|exact EL]. apply hp_as_list, (Hh h eq_refl).
  - (* pointer list at *)
    destruct (ptrlist_at _ _ _ _ _ _) as [[q| |] rl1] eqn:ER; cbn [fst]; try apply hp_null.
    pose proof (hp_as_list _ _ _ (Hh h eq_refl)) as [P1 P2].
    unfold ptrlist_at in ER.
    destruct (primitiveElem true (as_list (nth (Z.to_nat h) hs nullPtr)) i (mkOS 0 1)) as [a| |] eqn:EP; try (inversion ER; fail).
    eapply hp_readPtr; [|exact ER]. intros R. apply P2; auto. exact (primitiveElem_valid _ _ _ _ _ EP).
Qed.

Definition new_ok (m m' : bmsg) (p : Ptr) : Prop :=
  inv m' /\ nsegs m <= nsegs m' /\ hp true (nsegs m') p.

Lemma alloc_new m sid sz m1 s1 a :
  inv m -> 0 <= sid < nsegs m -> 0 <= sz -> alloc m sid sz = Ok (m1, s1, a) ->
  inv m1 /\ nsegs m <= nsegs m1 /\ 0 <= s1 < nsegs m1 /\ 0 <= a <= 4294967295.
Proof.
  intros Hi Hs Hz H.
  destruct (alloc_keeps _ _ _ _ _ _ Hi Hs Hz H) as (_ & I1 & N1 & S1 & AD & L1 & _ & _ & _ & MX).
  split; [exact I1|]. split; [exact N1|]. split; [exact S1|].
  pose proof (zlen_nonneg (mem m s1)). pose proof (padToWord_nonneg sz). unfold maxSegmentSize in MX. lia.
Qed.

Lemma hp_new n s a len sz k comp bit :
  wf_size sz -> 0 <= s < n -> 0 <= a <= 4294967295 ->
  hp true n (mkPtr true s a len sz maxDepth k comp bit false).
Proof. intros Hw Hs Ha. split; [intros _; exact Hw|]. intros _ _. split; [exact Hs|exact Ha]. Qed.

Lemma seg_write_inv m sid a bs m' :
  inv m -> 0 <= sid -> zlen bs < 4294967296 -> seg_write m sid a bs = Ok m' ->
  inv m' /\ nsegs m' = nsegs m.
Proof.
  intros Hi Hs Hl H. apply seg_write_wrote in H; auto. split; [eapply wrote_inv; eauto|].
  destruct H as (_ & _ & _ & _ & _ & _ & W7 & _). exact W7.
Qed.

(* the address a data setter writes at *)
Definition setter_addr (s : data_setter) (addr : Z) : Prop :=
  match s with
  | DSUint p off n _ => dataAddress p off n = Ok (Some addr)
  | DSBit p n _ => addOffset (p_off p) (bitOffset_offset n) = Some addr /\ n < u32 (DataSize (p_size p) * 8)
  | DSListUint p i n _ => primitiveElem true p i (mkOS n 0) = Ok addr
  | DSListBit p i _ => addr = u32 (p_off p + bitOffset_offset i) /\ 0 <= i < p_len p /\ p_bit p = true
  end.

(* every data setter is a guard on its handle followed by one [seg_write] *)
Lemma run_setter_write m s m' : run_setter m s = Ok m' ->
  p_valid (setter_ptr s) = true /\
  exists addr bs, setter_addr s addr /\ seg_write m (p_seg (setter_ptr s)) addr bs = Ok m' /\
    zlen bs = Z.max 0 (setter_width s) /\ (Forall bytes_ok (bm_data m) -> bytes_ok bs).
Proof.
  destruct s as [p off n v|p n v|p i n v|p i v]; cbn [run_setter setter_ptr setter_width setter_addr].
  - unfold struct_set_uint. destruct (dataAddress p off n) as [[addr|]| |] eqn:ED; cbn [bind]; try discriminate.
    intros E. split; [unfold dataAddress in ED; destruct (p_valid p); [reflexivity|discriminate]|].
    exists addr, (le_encode (Z.to_nat n) v). repeat split; auto; [unfold zlen; rewrite le_encode_length; lia|intros _; apply le_encode_bytes].
  - unfold struct_set_bit. destruct (negb (p_valid p && _)) eqn:EG; [discriminate|].
    destruct (addOffset _ _) as [addr|] eqn:EA; [|discriminate].
    destruct (readUintN _ addr 1) as [b| |] eqn:ER; cbn [bind]; try discriminate.
    intros E. split; [destruct (p_valid p); [reflexivity|discriminate]|].
    exists addr, [set_bit_in b (n mod 8) v]. repeat split; auto; [lia|].
    intros Hm. constructor; [|constructor]. apply set_bit_in_spec; [|lia].
    eapply readUintN1_range; [|exact ER]. apply nth_bytes_ok, Hm.
  - unfold list_set_uint. destruct (primitiveElem true p i (mkOS n 0)) as [addr| |] eqn:EP; try discriminate.
    intros E. split; [exact (primitiveElem_valid _ _ _ _ _ EP)|].
    exists addr, (le_encode (Z.to_nat n) v). repeat split; auto; [unfold zlen; rewrite le_encode_length; lia|intros _; apply le_encode_bytes].
  - unfold bitlist_set. destruct (negb (p_valid p) || (i <? 0) || (i >=? p_len p)) eqn:EG; [discriminate|].
    destruct (negb (p_bit p)) eqn:EB; [discriminate|]. cbv zeta.
    destruct (readUintN _ _ 1) as [b| |] eqn:ER; cbn [bind]; try discriminate.
    intros E. split; [destruct (p_valid p); [reflexivity|discriminate]|].
    eexists _, [set_bit_in b (i mod 8) v]. repeat split; [| |destruct (p_bit p); [reflexivity|discriminate]|exact E|].
    1-2: lia.
    intros Hm. constructor; [|constructor]. apply set_bit_in_spec; [|lia].
    eapply readUintN1_range; [|exact ER]. apply nth_bytes_ok, Hm.
Qed.

Lemma data_setter_inv m s m' :
  inv m -> (p_valid (setter_ptr s) = true -> 0 <= p_seg (setter_ptr s)) ->
  setter_width s <= 8 -> run_setter m s = Ok m' -> inv m' /\ nsegs m' = nsegs m.
Proof.
  intros Hi Hs Hw E. destruct (run_setter_write _ _ _ E) as (V & addr & bs & _ & EW & Lb & _).
  apply (seg_write_inv _ _ _ _ _ Hi (Hs V)) in EW; [exact EW|lia].
Qed.

Lemma set_in_dst w f w1 : set_in w InDst f = Ok w1 -> exists m1, f (w_dst w) = Ok m1 /\ w1 = w_set_dst w m1.
Proof.
  unfold set_in, lift0. destruct (f (w_dst w)) as [m1| |]; cbn [bind]; try discriminate.
  intros E. apply Ok_inj in E. eauto.
Qed.

Lemma set_in_src w f w1 : set_in w InSrc f = Ok w1 -> w_dst w1 = w_dst w.
Proof.
  unfold set_in. destruct (f (src_bmsg w)); cbn [bind]; try discriminate. intros H. apply Ok_inj in H. subst w1. reflexivity.
Qed.

Lemma ctor_cases st sid r st' v :
  ctor st sid r = (Some st', v) -> exists m p, r = Ok (m, p) /\ st' = hpush st (w_set_dst (st_w st) m) InDst p.
Proof. destruct r as [[m p]| |]; cbn [ctor]; try discriminate. intros [= <- _]. eauto. Qed.

Lemma dset_cases st r st' v :
  dset st r = (Some st', v) -> st' = st \/ exists w, r = Ok w /\ st' = mkBSt w (st_h st).
Proof. destruct r as [w| |]; cbn [dset]; intros [= <- _]; eauto. Qed.

Lemma pset_cases st r st' v :
  pset st r = (Some st', v) -> exists w, r = Ok w /\ st' = mkBSt w (st_h st).
Proof. destruct r as [w| |]; cbn [pset]; try discriminate. intros [= <- _]. eauto. Qed.

(* the allocating constructor an op calls, with the segment it is asked to allocate in *)
Definition ctor_call (m : bmsg) (o : bop) : option (Z * res (bmsg * Ptr)) :=
  match o with
  | BNewStruct sid dsz pc => Some (sid, newStruct m sid (mkOS dsz pc))
  | BNewPrim sid sz n => Some (sid, newPrimitiveList m sid sz n)
  | BNewBit sid n => Some (sid, newBitList m sid n)
  | BNewPList sid n => Some (sid, newPointerList m sid n)
  | BNewComp sid dsz pc n => Some (sid, newCompositeList m sid (mkOS dsz pc) n)
  | BNewBytes sid v nul => Some (sid, newBytes m sid v nul)
  | _ => None
  end.

(* the data setter an op runs, with the handle it runs on *)
Definition setter_of (st : bstate) (o : bop) : option (Z * data_setter) :=
  match o with
  | BSetUint h off n v => Some (h, DSUint (as_struct (snd (hget st h))) off n v)
  | BSetBit h n v => Some (h, DSBit (as_struct (snd (hget st h))) n v)
  | BListSetUint h i n v => Some (h, DSListUint (as_list (snd (hget st h))) i n v)
  | BBitSet h i v => Some (h, DSListBit (as_list (snd (hget st h))) i v)
  | _ => None
  end.

(* [ptr_slot st o sid addr hs]: the pointer setter [o] passed its guards and stores handle [hs]
   in the pointer word at [addr] of segment [sid] *)
Inductive ptr_slot (st : bstate) : bop -> Z -> Z -> Z -> Prop :=
| PS_field h i hs :
    fst (hget st h) = InDst -> p_valid (as_struct (snd (hget st h))) = true ->
    i < PointerCount (p_size (as_struct (snd (hget st h)))) ->
    ptr_slot st (BSetPtr h i hs) (p_seg (as_struct (snd (hget st h)))) (pointerAddress (as_struct (snd (hget st h))) i) hs
| PS_elem h i hs addr :
    fst (hget st h) = InDst -> primitiveElem true (as_list (snd (hget st h))) i (mkOS 0 1) = Ok addr ->
    ptr_slot st (BPLSet h i hs) (p_seg (as_list (snd (hget st h)))) addr hs
| PS_root hs : bm_segs (w_dst (st_w st)) <> [] -> ptr_slot st (BSetRoot hs) 0 0 hs.

(* [copy_dst st o dst hs]: the struct setter [o] copies the struct of handle [hs] into [dst] *)
Inductive copy_dst (st : bstate) : bop -> Ptr -> Z -> Prop :=
| CD_elem h i hs de :
    fst (hget st h) = InDst -> list_struct true (as_list (snd (hget st h))) i = Ok de ->
    copy_dst st (BSetStruct h i hs) de hs
| CD_struct h hs : fst (hget st h) = InDst -> copy_dst st (BCopyFrom h hs) (as_struct (snd (hget st h))) hs.

Definition add_cap (m : bmsg) (c : Z) : bmsg := mkBM (bm_arena m) (bm_segs m) (bm_caps m ++ [c]) (bm_rl m).

(* BReopen: the message after Marshal / Unmarshal, and what becomes of a handle *)
Definition reopened (rl : Z) (m : bmsg) : bmsg := mkBM AMulti (map (fun d => mkBS d (zlen d)) (bm_data m)) [] rl.
Definition drop_dst (h : loc * Ptr) : loc * Ptr := match fst h with InDst => (InDst, nullPtr) | InSrc => h end.

Lemma reopened_data rl m : bm_data (reopened rl m) = bm_data m.
Proof. unfold reopened, bm_data at 1. cbn [bm_segs]. rewrite map_map. cbn [bs_data]. apply map_id. Qed.

Lemma reopened_nsegs rl m : nsegs (reopened rl m) = nsegs m.
Proof. unfold nsegs, reopened, bm_data. cbn [bm_segs]. now rewrite !zlen_map. Qed.

Lemma reopened_inv rl m : inv m -> inv (reopened rl m).
Proof.
  intros [Hw _]. split; [|discriminate].
  unfold bmsg_wf, reopened, bm_data in *. cbn [bm_segs]. rewrite map_map. apply Forall_map.
  eapply Forall_impl; [|exact Hw]. intros b [_ H8]. unfold seg_wf, blen in *. cbn [bs_data bs_cap]. lia.
Qed.


(* the successful steps of the interpreter, up to what the invariants need to know of them *)
Inductive bstep_shape (e : benv) (st : bstate) : bop -> bstate -> Prop :=
| SH_null o : bstep_shape e st o (hpush st (st_w st) InDst nullPtr)
| SH_ctor o sid m p :
    valid_sid st sid = true -> ctor_call (w_dst (st_w st)) o = Some (sid, Ok (m, p)) ->
    bstep_shape e st o (hpush st (w_set_dst (st_w st) m) InDst p)
| SH_void sid n :
    valid_sid st sid = true -> 0 <= n < 536870912 ->
    bstep_shape e st (BNewVoid sid n) (hpush st (st_w st) InDst (mkPtr true sid 0 n (mkOS 0 0) maxDepth KList false false false))
| SH_cap sid idx :
    valid_sid st sid = true ->
    bstep_shape e st (BNewCap sid idx) (hpush st (st_w st) InDst (mkPtr true sid 0 idx (mkOS 0 0) 0 KIface false false false))
| SH_addcap c :
    bstep_shape e st (BAddCap c) (mkBSt (w_set_dst (st_w st) (add_cap (w_dst (st_w st)) c)) (st_h st))
| SH_same o : bstep_shape e st o st
| SH_dset o h s w1 :
    setter_of st o = Some (h, s) -> set_in (st_w st) (fst (hget st h)) (fun m => run_setter m s) = Ok w1 ->
    bstep_shape e st o (mkBSt w1 (st_h st))
| SH_wptr o sid addr hs w1 :
    ptr_slot st o sid addr hs ->
    write_ptr (e_fuel e) true (st_w st) sid addr (fst (hget st hs)) (snd (hget st hs)) false = Ok w1 ->
    bstep_shape e st o (mkBSt w1 (st_h st))
| SH_copy o dst hs w1 :
    copy_dst st o dst hs ->
    copy_struct (e_fuel e) true (st_w st) dst (fst (hget st hs)) (as_struct (snd (hget st hs))) = Ok w1 ->
    bstep_shape e st o (mkBSt w1 (st_h st))
| SH_read l0 ro l rs' v :
    l = match op_handle ro with Some h => fst (hget st h) | None => l0 end ->
    step (cfg_of e l) all_fixes (w_segs (st_w st) l) (mkRS (map snd (st_h st)) (w_rl (st_w st) l)) ro = (rs', v) ->
    bstep_shape e st (BRead l0 ro)
      (mkBSt (w_set_rl (st_w st) l (rs_rl rs')) (st_h st ++ map (fun p => (l, p)) (skipn (length (st_h st)) (rs_handles rs'))))
| SH_reopen :
    bstep_shape e st BReopen
      (mkBSt (w_set_dst (st_w st) (reopened (init_rlimit (e_cfgd e)) (w_dst (st_w st)))) (map drop_dst (st_h st))).

Lemma bstep_inv e st o st' out : bstep e st o = (Some st', out) -> bstep_shape e st o st'.
Proof.
  unfold bstep. destruct o; cbv zeta.
  1-8: destruct (valid_sid st sid) eqn:EV; cbn [negb]; [|intros [= <- _]; apply SH_null].
  1-5,7: intros E; apply ctor_cases in E; destruct E as (m & p & Er & ->);
         apply (SH_ctor e st _ sid m p EV); cbn [ctor_call]; now rewrite Er.
  4-7: rewrite (surjective_pairing (hget st h)); intros E; apply dset_cases in E;
       destruct E as [->|(w1 & Er & ->)]; [apply SH_same|eapply SH_dset; [reflexivity|exact Er]].
  4-7: rewrite (surjective_pairing (hget st h)), (surjective_pairing (hget st hs));
       destruct (is_src (fst (hget st h))) eqn:EL; [discriminate|]; apply is_src_false in EL;
       intros E; apply pset_cases in E; destruct E as (w1 & Er & ->).
  - unfold newVoidList. destruct ((n <? 0) || (n >=? 536870912)) eqn:EN; intros [= <- _]; [apply SH_null|].
    apply SH_void; [exact EV|lia].
  - intros [= <- _]. apply SH_cap, EV.
  - intros [= <- _]. apply SH_addcap.
  - unfold struct_set_ptr in Er.
    destruct (negb _ || _) eqn:EG; [discriminate|]. apply Bool.orb_false_elim in EG. destruct EG as [G1 G2].
    eapply SH_wptr; [|exact Er]. apply PS_field; [exact EL|now apply Bool.negb_false_iff|lia].
  - unfold ptrlist_set in Er.
    destruct (primitiveElem _ _ _ _) as [addr| |] eqn:EP; cbn [bind] in Er; try discriminate.
    eapply SH_wptr; [|exact Er]. apply PS_elem; [exact EL|exact EP].
  - unfold list_set_struct in Er.
    destruct (p_bit _); [discriminate|].
    destruct (list_struct _ _ _) as [de| |] eqn:ED; cbn [bind] in Er; try discriminate.
    eapply SH_copy; [|exact Er]. apply CD_elem; [exact EL|exact ED].
  - eapply SH_copy; [|exact Er]. apply CD_struct, EL.
  - rewrite (surjective_pairing (hget st hs)).
    intros E. apply pset_cases in E. destruct E as (w1 & Er & ->). unfold set_root, set_root_gen in Er.
    destruct (bm_segs (w_dst (st_w st))) eqn:ES; [discriminate|]. destruct (negb _); [discriminate|].
    eapply SH_wptr; [|exact Er]. apply PS_root. rewrite ES. discriminate.
  - destruct (step _ _ _ _ _) as [rs' v] eqn:ES. intros [= <- _]. eapply SH_read; [reflexivity|exact ES].
  - destruct (root _ _ _). intros [= <- _]. apply SH_same.
  - destruct l; intros [= <- _]; apply SH_same.
  - intros [= <- _]. apply SH_reopen.
Qed.

Definition rng_of (l : loc) : bool := negb (is_src l).
Definition hk (m : bmsg) (h : loc * Ptr) : Prop := hp (rng_of (fst h)) (nsegs m) (snd h).
Definition binv (st : bstate) : Prop :=
  inv (w_dst (st_w st)) /\ Forall (hk (w_dst (st_w st))) (st_h st).

Definition op_wf (o : bop) : Prop :=
  match o with
  | BNewStruct _ dsz pc | BNewComp _ dsz pc _ => 0 <= dsz /\ 0 <= pc < 65536
  | BNewPrim _ sz _ => 0 <= sz <= 8
  | BNewBytes _ v _ => zlen v < 4294967296
  | BSetUint _ _ n _ | BListSetUint _ _ n _ => 0 <= n <= 8
  | _ => True
  end.

Lemma hk_mono m m' h : nsegs m <= nsegs m' -> hk m h -> hk m' h.
Proof. intros. eapply hp_mono; eauto. Qed.

Lemma hks_mono m m' hs : nsegs m <= nsegs m' -> Forall (hk m) hs -> Forall (hk m') hs.
Proof. intros Hn H. eapply Forall_impl; [|exact H]. intros a. now apply hk_mono. Qed.

Lemma hget_hk st h : binv st -> hk (w_dst (st_w st)) (hget st h).
Proof. intros [_ H]. unfold hget. apply Forall_nth_default; [exact H|apply hp_null]. Qed.

Lemma handle_pool st h : nth (Z.to_nat h) (map snd (st_h st)) nullPtr = snd (hget st h).
Proof. unfold hget. change nullPtr with (snd (InDst, nullPtr)). apply map_nth. Qed.

(* a handle of message [l] of the world, seen from the reader and from the pool *)
Lemma hk_segs w l q : hp (rng_of l) (zlen (w_segs w l)) q <-> hk (w_dst w) (l, q).
Proof.
  unfold hk. destruct l; cbn [fst snd rng_of is_src negb w_segs].
  - unfold bm_data, nsegs. now rewrite zlen_map.
  - split; intros [Z1 _]; (split; [exact Z1|discriminate]).
Qed.

Lemma binv_push st w' l p :
  inv (w_dst w') -> nsegs (w_dst (st_w st)) <= nsegs (w_dst w') -> binv st -> hk (w_dst w') (l, p) ->
  binv (hpush st w' l p).
Proof.
  intros Hi Hn [_ Hh] Hp. split; [exact Hi|]. cbn [st_h hpush st_w]. apply Forall_app. split.
  - eapply hks_mono; eauto.
  - constructor; [exact Hp|constructor].
Qed.

Lemma binv_set st w' :
  inv (w_dst w') -> nsegs (w_dst (st_w st)) <= nsegs (w_dst w') -> binv st -> binv (mkBSt w' (st_h st)).
Proof. intros Hi Hn [_ Hh]. split; [exact Hi|]. cbn [st_h st_w]. eapply hks_mono; eauto. Qed.

Lemma null_push_binv st : binv st -> binv (hpush st (st_w st) InDst nullPtr).
Proof. intros Hb. apply binv_push; auto; [apply Hb|lia|apply hp_null]. Qed.

Lemma valid_sid_range st sid : valid_sid st sid = true -> 0 <= sid < nsegs (w_dst (st_w st)).
Proof. unfold valid_sid, nsegs. lia. Qed.

(* the handle a constructor returns when its fresh storage starts at [a] in segment [s], and the
   number of bytes it allocates *)
Definition ctor_handle (o : bop) (s a : Z) : Ptr :=
  match o with
  | BNewStruct _ dsz pc => mkPtr true s a 0 (mkOS (padToWord dsz) pc) maxDepth KStruct false false false
  | BNewPrim _ sz n => mkPtr true s a n (mkOS sz 0) maxDepth KList false false false
  | BNewBit _ n => mkPtr true s a n (mkOS 0 0) maxDepth KList false true false
  | BNewPList _ n => mkPtr true s a n (mkOS 0 1) maxDepth KList false false false
  | BNewComp _ dsz pc n => mkPtr true s (addSizeUnchecked a 8) n (mkOS (padToWord dsz) pc) maxDepth KList true false false
  | BNewBytes _ v nul => mkPtr true s a (s32 (zlen v + (if nul then 1 else 0))) (mkOS 1 0) maxDepth KList false false false
  | _ => nullPtr
  end.
Definition ctor_size (o : bop) : Z :=
  match o with
  | BNewStruct _ dsz pc => totalSize (mkOS (padToWord dsz) pc)
  | BNewPrim _ sz n => timesUnchecked sz n
  | BNewBit _ n => bitListSize n
  | BNewPList _ n => 8 * n
  | BNewComp _ dsz pc n => 8 + totalSize (mkOS (padToWord dsz) pc) * n
  | BNewBytes _ v nul => timesUnchecked 1 (s32 (zlen v + (if nul then 1 else 0)))
  | _ => 0
  end.

Lemma ctor_handle_fields m o sid r s a : ctor_call m o = Some (sid, r) ->
  p_valid (ctor_handle o s a) = true /\ p_seg (ctor_handle o s a) = s /\ p_member (ctor_handle o s a) = false /\
  p_off (ctor_handle o s a) = (if p_comp (ctor_handle o s a) then addSizeUnchecked a 8 else a).
Proof. destruct o; try discriminate; intros _; cbn; auto. Qed.

(* every allocating constructor is one [alloc] in the segment asked for; the composite list and the
   byte list then write (the tag word, the bytes) at the start of the fresh storage *)
Lemma ctor_call_alloc m o sid m' p : ctor_call m o = Some (sid, Ok (m', p)) ->
  exists m1 a, alloc m sid (ctor_size o) = Ok (m1, p_seg p, a) /\ 0 <= ctor_size o /\ p = ctor_handle o (p_seg p) a /\
    0 <= p_len p < 536870912 /\ (op_wf o -> wf_size (p_size p)) /\
    (p_comp p = false /\ m' = m1 \/ exists bs, seg_write m1 (p_seg p) a bs = Ok m' /\
                  ((exists tag, p_comp p = true /\ rawStructPointer (p_len p) (p_size p) = Some tag /\ bs = le_encode 8 tag) \/
                   exists nul, o = BNewBytes sid bs nul)).
Proof.
  destruct o; try discriminate; cbn [ctor_call op_wf]; intros [= -> E].
  - unfold newStruct in E. destruct (negb (os_isValid (mkOS dsz pc))) eqn:EV; [discriminate|]. unfold os_isValid in EV.
    destruct (alloc m sid (totalSize _)) as [[[m1 s1] a]| |] eqn:EA; cbn [bind] in E; try discriminate. injection E as <- <-.
    exists m1, a. split; [exact EA|]. cbn [ctor_size]. split; [apply totalSize_nn|]. split; [reflexivity|]. split; [cbn; lia|]. split; [|left; split; reflexivity].
    intros [W1 W2]. unfold wf_size, padToWord, u32. cbn [p_size DataSize PointerCount] in *. lia.
  - unfold newPrimitiveList in E. destruct ((n <? 0) || (n >=? 536870912)) eqn:EN; [discriminate|].
    destruct (alloc m sid (timesUnchecked _ _)) as [[[m1 s1] a]| |] eqn:EA; cbn [bind] in E; try discriminate. injection E as <- <-.
    exists m1, a. split; [exact EA|]. cbn [ctor_size]. split; [unfold timesUnchecked, u32; lia|]. split; [reflexivity|]. split; [cbn; lia|]. split; [|left; split; reflexivity].
    intros W. unfold wf_size. cbn. lia.
  - unfold newBitList in E. destruct ((n <? 0) || (n >=? 536870912)) eqn:EN; [discriminate|].
    destruct (alloc m sid (bitListSize _)) as [[[m1 s1] a]| |] eqn:EA; cbn [bind] in E; try discriminate. injection E as <- <-.
    exists m1, a. split; [exact EA|]. cbn [ctor_size]. split; [unfold bitListSize, u32; lia|]. split; [reflexivity|]. split; [cbn; lia|].
    split; [intros _; apply wf_size_00|left; split; reflexivity].
  - unfold newPointerList in E. destruct (times 8 n) as [total|] eqn:ET; [|discriminate].
    apply times_spec in ET. destruct ET as [-> ET]. unfold maxSegmentSize in ET.
    destruct (alloc m sid (8 * n)) as [[[m1 s1] a]| |] eqn:EA; cbn [bind] in E; try discriminate. injection E as <- <-.
    exists m1, a. split; [exact EA|]. cbn [ctor_size]. split; [lia|]. split; [reflexivity|]. split; [cbn; lia|]. split; [|left; split; reflexivity].
    intros _. unfold wf_size. cbn. lia.
  - unfold newCompositeList in E. destruct (negb (os_isValid (mkOS dsz pc))) eqn:EV; [discriminate|]. unfold os_isValid in EV.
    destruct ((n <? 0) || (n >=? 536870912)) eqn:EN; [discriminate|]. cbn [DataSize PointerCount] in E.
    destruct (times _ n) as [total|] eqn:ET; [|discriminate].
    apply times_spec in ET. destruct ET as [-> ET]. unfold maxSegmentSize in *.
    destruct (_ >? _) eqn:EM; [discriminate|]. rewrite u32_id in E by lia.
    destruct (alloc m sid (8 + _)) as [[[m1 s1] a]| |] eqn:EA; cbn [bind] in E; try discriminate.
    destruct (rawStructPointer n _) as [tag|] eqn:ETag; cbn [of_opt_panic bind] in E; try discriminate.
    destruct (writeRawPointer m1 s1 a tag) as [m2| |] eqn:EW; cbn [bind] in E; try discriminate. injection E as <- <-.
    exists m1, a. split; [exact EA|]. cbn [ctor_size]. split; [lia|]. split; [reflexivity|]. split; [cbn; lia|].
    split; [|right; exists (le_encode 8 tag); split; [exact EW|left; eauto]].
    intros [W1 W2]. unfold wf_size, padToWord, u32. cbn [p_size DataSize PointerCount] in *. lia.
  - unfold newBytes, newPrimitiveList in E. destruct (_ || _) eqn:EN; [discriminate|].
    destruct (alloc m sid (timesUnchecked _ _)) as [[[m1 s1] a]| |] eqn:EA; cbn [bind p_seg p_off] in E; try discriminate.
    destruct (seg_write m1 s1 a v) as [m2| |] eqn:EW; cbn [bind] in E; try discriminate. injection E as <- <-.
    exists m1, a. split; [exact EA|]. cbn [ctor_size]. split; [unfold timesUnchecked, u32; lia|]. split; [reflexivity|]. split; [cbn [p_len]; lia|].
    split; [|right; exists v; split; [exact EW|right; eauto]].
    intros _. unfold wf_size. cbn. lia.
Qed.

Lemma ctor_call_ok m o sid m' p :
  inv m -> 0 <= sid < nsegs m -> op_wf o -> ctor_call m o = Some (sid, Ok (m', p)) -> new_ok m m' p.
Proof.
  intros Hi Hs Hwf EC. destruct (ctor_call_alloc _ _ _ _ _ EC) as (m1 & a & EA & Hz & Eh & _ & Wf & Wr).
  destruct (ctor_handle_fields _ _ _ _ (p_seg p) a EC) as (_ & _ & _ & Off). rewrite <- Eh in Off.
  destruct (alloc_new _ _ _ _ _ _ Hi Hs Hz EA) as (I1 & N1 & S1 & A1).
  assert (Hp : forall n, nsegs m1 <= n -> hp true n p).
  { intros n Hn. split; [intros _; exact (Wf Hwf)|]. intros _ _. split; [lia|].
    unfold addr_ok. destruct (p_comp p); unfold addSizeUnchecked, u32 in Off; lia. }
  destruct Wr as [[_ ->]|(bs & EW & Hbs)]; [split; [exact I1|]; split; [exact N1|apply Hp; lia]|].
  assert (Lb : zlen bs < 4294967296).
  { destruct Hbs as [(tag & _ & _ & ->)|[nul ->]]; [unfold zlen; rewrite le_encode_length; lia|exact Hwf]. }
  destruct (seg_write_inv _ _ _ _ _ I1 (proj1 S1) Lb EW) as [I2 N2].
  split; [exact I2|]. split; [lia|apply Hp; lia].
Qed.

Lemma newBytes_ok m sid v nul m' p :
  inv m -> 0 <= sid < nsegs m -> zlen v < 4294967296 ->
  newBytes m sid v nul = Ok (m', p) -> new_ok m m' p.
Proof. intros Hi Hs Hv E. apply (ctor_call_ok m (BNewBytes sid v nul) sid); auto. cbn [ctor_call]. now rewrite E. Qed.

Lemma hk_dst st h : binv st -> fst (hget st h) = InDst -> hp true (nsegs (w_dst (st_w st))) (snd (hget st h)).
Proof. intros Hb El. pose proof (hget_hk st h Hb) as HK. unfold hk in HK. rewrite El in HK. exact HK. Qed.

Lemma hk_src_range st hs : binv st -> fst (hget st hs) = InDst -> p_valid (snd (hget st hs)) = true ->
  0 <= p_seg (snd (hget st hs)) < nsegs (w_dst (st_w st)).
Proof. intros Hb El V. apply (hk_dst st hs Hb El); auto. Qed.

Lemma ptr_slot_range st o sid addr hs : binv st -> ptr_slot st o sid addr hs -> 0 <= sid < nsegs (w_dst (st_w st)).
Proof.
  intros Hb [h i hs' El V _|h i hs' a El EP|hs' ES].
  - apply (hp_as_struct _ _ _ (hk_dst st h Hb El)); auto.
  - apply (hp_as_list _ _ _ (hk_dst st h Hb El)); auto.
    exact (primitiveElem_valid _ _ _ _ _ EP).
  - unfold nsegs, zlen. destruct (bm_segs (w_dst (st_w st))); [congruence|cbn [length]; lia].
Qed.

Lemma copy_dst_hp st o dst hs : binv st -> copy_dst st o dst hs -> hp true (nsegs (w_dst (st_w st))) dst.
Proof.
  intros Hb [h i hs' de El ED|h hs' El].
  - exact (hp_list_struct _ _ _ _ _ (hp_as_list _ _ _ (hk_dst st h Hb El)) ED).
  - exact (hp_as_struct _ _ _ (hk_dst st h Hb El)).
Qed.


Lemma setter_of_ptr st o h s : setter_of st o = Some (h, s) ->
  setter_ptr s = as_struct (snd (hget st h)) \/ setter_ptr s = as_list (snd (hget st h)).
Proof. destruct o; try discriminate; intros [= <- <-]; cbn [setter_ptr]; auto. Qed.

Lemma setter_of_width st o h s : op_wf o -> setter_of st o = Some (h, s) -> setter_width s <= 8.
Proof. destruct o; try discriminate; intros Hwf [= _ <-]; cbn [setter_width op_wf] in *; lia. Qed.

Theorem bstep_binv e st o st' out :
  binv st -> op_wf o -> bstep e st o = (Some st', out) -> binv st'.
Proof.
  intros Hb Hwf E. apply bstep_inv in E. pose proof Hb as [Hi Hh]. revert Hwf.
  destruct E as [o|o sid m p EV EC|sid n EV Hn|sid idx EV|c|o|o h s w1 ES EW|o sid addr hs w1 SL EW|o dst hs w1 CD EW
                 |l0 ro l rs' v El ES|]; intros Hwf.
  - now apply null_push_binv.
  - destruct (ctor_call_ok _ _ _ _ _ Hi (valid_sid_range _ _ EV) Hwf EC) as (I & N & Hp). apply binv_push; auto.
  - apply binv_push; auto; [lia|]. apply hp_new; [apply wf_size_00|exact (valid_sid_range _ _ EV)|lia].
  - apply binv_push; auto; [lia|]. split; [intros _; apply wf_size_00|]. intros _ _.
    split; [apply valid_sid_range, EV|unfold addr_ok; cbn; lia].
  - apply binv_set; [exact Hi|apply Z.le_refl|exact Hb].
  - exact Hb.
  - assert (I : inv (w_dst w1) /\ nsegs (w_dst w1) = nsegs (w_dst (st_w st))).
    { destruct (fst (hget st h)) eqn:El; [|rewrite (set_in_src _ _ _ EW); auto].
      destruct (set_in_dst _ _ _ EW) as (m1 & Er & ->).
      apply (data_setter_inv _ s _ Hi); [|exact (setter_of_width _ _ _ _ Hwf ES)|exact Er].
      intros V. destruct (setter_of_ptr _ _ _ _ ES) as [Ep|Ep]; rewrite Ep in *.
      - apply (hp_as_struct _ _ _ (hk_dst st h Hb El)); auto.
      - apply (hp_as_list _ _ _ (hk_dst st h Hb El)); auto. }
    destruct I as [I N]. apply binv_set; auto. lia.
  - pose proof (hget_hk st hs Hb) as [Sz Rg].
    destruct (write_ptr_frame _ _ _ _ _ _ _ _ Hi (ptr_slot_range _ _ _ _ _ Hb SL) Sz
                (fun El => hk_src_range st hs Hb El) EW) as (_ & I & N & _).
    apply binv_set; auto.
  - destruct (p_valid dst) eqn:EVD; [|exfalso; eapply copy_struct_invalid_dst; eauto].
    destruct (copy_dst_hp _ _ _ _ Hb CD) as [Wf Rg]. destruct (Rg eq_refl EVD) as [SR AR].
    destruct (copy_struct_frame _ _ _ _ _ _ _ Hi SR (Wf EVD) AR (proj1 (hp_as_struct _ _ _ (hget_hk st hs Hb))) EW) as (_ & I & N & _).
    apply binv_set; auto.
  - destruct (w_set_rl_dst (st_w st) l (rs_rl rs')) as (T1 & T2 & _).
    assert (Hn : nsegs (w_dst (w_set_rl (st_w st) l (rs_rl rs'))) = nsegs (w_dst (st_w st))) by (unfold nsegs; now rewrite T1).
    split; cbn [st_w st_h].
    + destruct Hi as [I1 I2]. unfold inv, bmsg_wf, arena_wf. rewrite T1, T2. split; auto.
    + apply Forall_app. split; [eapply hks_mono; [|exact Hh]; lia|]. apply Forall_map.
      rewrite <- (map_length snd (st_h st)).
      eapply Forall_impl; [|apply (step_new_handles (rng_of l) _ _ _ _ _ _ _) with (2 := ES)].
      * intros q Hq. unfold hk. rewrite Hn. apply hk_segs, Hq.
      * intros h Hop. rewrite handle_pool. apply hk_segs. rewrite El, Hop. apply hget_hk, Hb.
  - split; cbn [st_w st_h w_dst w_set_dst]; [apply reopened_inv, Hi|].
    apply Forall_map. eapply Forall_impl; [|exact Hh].
    intros [[|] p0] Hp; unfold drop_dst, hk in *; cbn [fst snd] in *; [apply hp_null|].
    now rewrite reopened_nsegs.
Qed.

Definition caps_ok (cs : list Z) : Prop := Forall (fun c => 0 <= c) cs.
Definition arena_spec_wf (a : arena_spec) : Prop :=
  match a with
  | ArSingle (Some c) | ArMulti (Some c) => 0 <= c
  | ArRaw cs => caps_ok cs
  | _ => True
  end.

Lemma raw_inv k cs rl : caps_ok cs -> (k = ASingle -> length cs = 1%nat) -> inv (mkBM k (map (fun c => mkBS [] c) cs) [] rl).
Proof.
  intros Hc Hk. split.
  - unfold bmsg_wf. cbn [bm_segs]. apply Forall_forall. intros s Hs. apply in_map_iff in Hs.
    destruct Hs as (c & <- & Hin). unfold caps_ok in Hc. rewrite Forall_forall in Hc. specialize (Hc c Hin).
    unfold seg_wf, blen, zlen. cbn. lia.
  - unfold arena_wf. cbn [bm_arena bm_segs]. intros E. unfold zlen. rewrite map_length. rewrite (Hk E). reflexivity.
Qed.

(* NewMessage: whatever the arena, the root word is allocated in a message of one empty segment *)
Lemma new_message_shape k caps rl m : new_message k caps rl = Ok m ->
  exists c a, (caps_ok caps -> 0 <= c) /\ alloc (raw_message k [c] rl) 0 8 = Ok (m, 0, a).
Proof.
  unfold new_message. cbv zeta.
  match goal with |- context [bind ?X _] => destruct X as [m1| |] eqn:E1; cbn [bind]; try discriminate end.
  destruct (alloc m1 0 8) as [[[m2 sid] a]| |] eqn:EA; cbn [bind]; try discriminate.
  destruct (sid =? 0) eqn:Es; [|discriminate]. intros X. apply Ok_inj in X. subst m2.
  assert (sid = 0) by lia. subst sid.
  assert (Hc : exists c, (caps_ok caps -> 0 <= c) /\ m1 = raw_message k [c] rl); [|destruct Hc as (c & Hc & ->); eauto].
  destruct caps as [|c [|c2 r]]; try discriminate.
  - destruct k.
    + apply Ok_inj in E1. subst m1. exists 0. split; [lia|reflexivity].
    + unfold allocSegment in E1. cbn [bm_arena bm_segs map multi_find] in E1.
      destruct (8 >? maxAllocSize) eqn:E8; [discriminate|].
      destruct (nextAlloc 0 maxInt64 8) as [n| |] eqn:EN; cbn [bind] in E1; try discriminate.
      apply Ok_inj in E1. cbn [fst app] in E1. subst m1. exists n. split; [|reflexivity].
      intros _. apply (nextAlloc_facts 0 maxInt64 8 n); auto; lia.
  - apply Ok_inj in E1. subst m1. exists c. split; [|reflexivity]. intros Hc. now inversion Hc.
Qed.

Lemma new_message_inv k caps rl m :
  caps_ok caps -> new_message k caps rl = Ok m -> inv m.
Proof.
  intros Hc E. destruct (new_message_shape _ _ _ _ E) as (c & a & Hc0 & EA).
  pose proof (raw_inv k [c] rl ltac:(repeat constructor; auto) ltac:(reflexivity)) as I1.
  assert (H0 : 0 <= 0 < nsegs (raw_message k [c] rl)) by (unfold nsegs, zlen; cbn; lia).
  assert (H08 : 0 <= 8) by lia. exact (proj1 (alloc_new _ _ _ _ _ _ I1 H0 H08 EA)).
Qed.

Lemma create_inv a rl m : arena_spec_wf a -> create a rl = Ok m -> inv m.
Proof.
  intros Hw. unfold create. destruct a as [[c|]|[c|]|cs]; cbn [arena_spec_wf] in Hw.
  - apply new_message_inv. repeat constructor. exact Hw.
  - apply new_message_inv. constructor.
  - apply new_message_inv. repeat constructor. exact Hw.
  - apply new_message_inv. constructor.
  - destruct cs as [|c r]; [discriminate|].
    destruct (newStruct _ 0 _) as [[m1 p]| |] eqn:EN; cbn [bind]; try discriminate.
    intros H. apply Ok_inj in H. cbn [fst] in H. subst m1.
    pose proof (raw_inv AMulti (c :: r) rl Hw ltac:(discriminate)) as I0.
    assert (H0 : 0 <= 0 < nsegs (raw_message AMulti (c :: r) rl)).
    { unfold nsegs, raw_message, zlen. cbn [bm_segs map length]. lia. }
    apply (ctor_call_ok _ (BNewStruct 0 8 0) 0 m p I0 H0); [cbn; lia|cbn [ctor_call]; now rewrite <- EN].
Qed.

Fixpoint bstates (e : benv) (st : bstate) (ops : list bop) : list bstate :=
  st :: match ops with
        | [] => []
        | o :: r => match bstep e st o with
                    | (Some st1, _) => bstates e st1 r
                    | (None, _) => []
                    end
        end.

Theorem brun_binv e : forall ops st, binv st -> Forall op_wf ops -> Forall binv (bstates e st ops).
Proof.
  induction ops as [|o r IH]; intros st Hb Hw; cbn [bstates]; constructor; auto.
  inversion Hw as [|? ? Ho Hr]; subst.
  destruct (bstep e st o) as [[st1|] v] eqn:E; [|constructor].
  apply IH; auto. eapply bstep_binv; eauto.
Qed.

(* what the invariant says about the bytes: every segment is a whole number of words (the first
   check of [valid_message] never fails on a reachable state) and lies within its capacity *)
Lemma binv_words st : binv st ->
  forallb (fun s => zlen s mod 8 =? 0) (bm_data (w_dst (st_w st))) = true /\
  Forall (fun s => blen s <= bs_cap s) (bm_segs (w_dst (st_w st))).
Proof.
  intros [[Hwf _] _]. unfold bmsg_wf in Hwf. split.
  - apply forallb_forall. intros s Hs. unfold bm_data in Hs. apply in_map_iff in Hs.
    destruct Hs as (b & <- & Hb). rewrite Forall_forall in Hwf. destruct (Hwf b Hb) as [_ H]. unfold blen in H. lia.
  - eapply Forall_impl; [|exact Hwf]. intros b [H _]. exact H.
Qed.

(* [heap_inv_partial]: for every arena configuration, every well-formed op list and every state
   the interpreter reaches (stopping at a failed allocating / pointer-writing op), the message
   under construction has whole-word segments inside their capacities *)
Theorem heap_inv_partial a cfgd cfgs ncaps fuel src ops m :
  arena_spec_wf a -> Forall op_wf ops -> create a (init_rlimit cfgd) = Ok m ->
  Forall (fun st => binv st /\
            forallb (fun s => zlen s mod 8 =? 0) (bm_data (w_dst (st_w st))) = true /\
            Forall (fun s => blen s <= bs_cap s) (bm_segs (w_dst (st_w st))))
         (bstates (mkEnv cfgd cfgs ncaps fuel) (mkBSt (mkW m src (init_rlimit cfgs)) []) ops).
Proof.
  intros Ha Ho Hc.
  assert (B0 : binv (mkBSt (mkW m src (init_rlimit cfgs)) [])).
  { split; [eapply create_inv; eauto|constructor]. }
  pose proof (brun_binv (mkEnv cfgd cfgs ncaps fuel) ops _ B0 Ho) as H.
  eapply Forall_impl; [|exact H]. intros st Hb. split; [exact Hb|]. now apply binv_words.
Qed.
