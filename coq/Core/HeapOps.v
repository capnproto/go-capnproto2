(* C05: the pointer-level invariant [hinv] (HeapInv.v) lifted to the op-list interpreter of
   BuildOps.v.  The object table is a ghost list next to the interpreter state; every valid
   handle of the pool is a view of it: a handle of a table object (any depth limit), or a
   member (List.Struct) of a table list. *)
From CV Require Import Core.Builder Core.ReaderFacts Core.ArithFacts Core.BuilderFacts Core.AllocProofs
  Core.WritePtrProofs Core.HeapProofs Core.CopyProofs Core.BuildOps Core.BuildValid Core.BuildInv Core.HeapInv Core.ReadBridge.
From Coq Require Import ZifyBool ZifyNat.
Open Scope Z_scope.

Ltac Zify.zify_post_hook ::= Z.div_mod_to_equations.

Lemma alloc_small m sid sz m1 s1 a :
  inv m -> segs_small m -> 0 <= sid < nsegs m -> 0 <= sz -> alloc m sid sz = Ok (m1, s1, a) -> segs_small m1.
Proof. intros [Hwf Har]. now apply WritePtrProofs.alloc_small. Qed.

(* a word of the zero-filled region an allocation appended *)
Lemma le_decode_zeros n : le_decode (repeat 0 n) = 0.
Proof. induction n as [|n IH]; [reflexivity|]. cbn [repeat le_decode]. rewrite IH. reflexivity. Qed.

Lemma skipn_repeat_local {A} (x : A) k n : skipn k (repeat x n) = repeat x (n - k).
Proof. revert n; induction k as [|k IH]; intros [|n]; cbn; auto. Qed.
Lemma firstn_repeat_local {A} (x : A) k n : (k <= n)%nat -> firstn k (repeat x n) = repeat x k.
Proof. revert n; induction k as [|k IH]; intros [|n] H; cbn; auto; try lia. f_equal. apply IH. lia. Qed.

Lemma sub_app_zeros d n b : zlen d <= b -> 0 <= b -> b + 8 <= zlen d + Z.of_nat n -> sub (d ++ repeat 0 n) b 8 = repeat 0 8.
Proof.
  intros H1 H0 H2. unfold sub, zlen in *. rewrite skipn_app. rewrite skipn_all2 by lia. cbn [app].
  rewrite skipn_repeat_local. rewrite firstn_repeat_local by lia. reflexivity.
Qed.

(* the inline encodings of writePtr: the null word, the empty struct (offset -1), a capability
   pointer *)
Lemma hinv_write_inline m objs pads m' q v :
  hinv m objs pads -> In q ((0, 0) :: flat_map slots objs) ->
  (v = 0 \/ v = empty_struct_word \/ exists idx, 0 <= idx < 4294967296 /\ v = rawInterfacePointer idx) ->
  writeRawPointer m (fst q) (snd q) v = Ok m' ->
  hinv m' objs pads.
Proof.
  intros H Hq Hv HW.
  destruct (slot_geometry _ _ _ _ H Hq) as (Q1 & Q2 & Q3 & Q4 & _).
  assert (Q0 : 0 <= fst q) by lia.
  destruct (writeRawPointer_keeps _ _ _ _ _ Q0 (hi_inv _ _ _ H) HW) as (K & I' & N & _).
  assert (W := HW). apply writeRawPointer_wrote in W; [|lia].
  assert (Sm' : segs_small m').
  { exact (wrote_small _ _ _ _ _ W (hi_small _ _ _ H)). }
  rewrite <- (app_nil_r pads).
  apply (hinv_write_slot m objs pads m' q []); auto; try lia.
  - rewrite N. apply (hi_nsegs _ _ _ H).
  - intros p [].
  - (* the new word *)
    assert (Hw64 : word64 v).
    { destruct Hv as [-> |[-> |(idx & Hi & ->)]]; unfold word64, empty_struct_word; try lia.
      rewrite rawInterfacePointer_sum by assumption. lia. }
    assert (RD : word_at (bm_data m') (fst q) (snd q) = Some v).
    { apply word_at_mem; [rewrite N; exact Q1| |pose proof (hi_small _ _ _ H (fst q)); unfold maxSegmentSize in *; lia].
      apply (wrote_word_back m m'); auto. pose proof (hi_small _ _ _ H (fst q)). unfold maxSegmentSize in *. lia. }
    rewrite app_nil_r. destruct Hv as [-> |[-> |(idx & Hi & ->)]]; [left; exact RD|right; left; exact RD|].
    right. right. right. exists idx. auto.
Qed.

Lemma lift0_write_inline w objs pads q v w' :
  hinv (w_dst w) objs pads -> In q ((0, 0) :: flat_map slots objs) ->
  (v = 0 \/ v = empty_struct_word \/ exists idx, 0 <= idx < 4294967296 /\ v = rawInterfacePointer idx) ->
  lift0 w (writeRawPointer (w_dst w) (fst q) (snd q) v) = Ok w' ->
  hinv (w_dst w') objs pads.
Proof.
  intros H Hq Hv HW. unfold lift0 in HW.
  destruct (writeRawPointer (w_dst w) (fst q) (snd q) v) as [m'| |] eqn:EW; cbn [bind] in HW; try discriminate.
  apply Ok_inj in HW. subst w'. apply (hinv_write_inline (w_dst w) objs pads m' q v); auto.
Qed.

(* what a handle says about its object, without depth limit and member flag *)
Definition core (p : Ptr) : Ptr :=
  mkPtr (p_valid p) (p_seg p) (p_off p) (p_len p) (p_size p) 0 (p_kind p) (p_comp p) (p_bit p) false.

Lemma core_facts p :
  obj_reg (core p) = obj_reg p /\ tgt_of (core p) = tgt_of p /\ slots (core p) = slots p /\
  raw_of (core p) = raw_of p /\ obj_start (core p) = obj_start p /\ obj_bytes (core p) = obj_bytes p /\
  (shape_ok (core p) <-> shape_ok p).
Proof. destruct p. repeat split; try reflexivity; intros X; exact X. Qed.

Lemma core_idem p : core (core p) = core p.
Proof. reflexivity. Qed.

Lemma write_ptr_hinv_gen f w objs pads q src fc w' :
  hinv (w_dst w) objs pads -> In q ((0, 0) :: flat_map slots objs) ->
  (p_valid src = false \/ In (core src) objs /\ p_member src = false /\ fc = false \/
   p_kind src = KStruct /\ os_isZero (p_size src) = true \/
   p_kind src = KIface /\ 0 <= p_len src < 4294967296) ->
  write_ptr (S f) true w (fst q) (snd q) InDst src fc = Ok w' ->
  nsegs (w_dst w') < 4294967296 ->
  exists pads', hinv (w_dst w') objs (pads ++ pads').
Proof.
  intros H Hq Hsrc HW Hns. unfold write_ptr in HW. cbn [write_ptr_gen] in HW.
  assert (Inl : forall v, (v = 0 \/ v = empty_struct_word \/ exists idx, 0 <= idx < 4294967296 /\ v = rawInterfacePointer idx) ->
                lift0 w (writeRawPointer (w_dst w) (fst q) (snd q) v) = Ok w' -> exists pads', hinv (w_dst w') objs (pads ++ pads')).
  { intros v Hv E. exists []. rewrite app_nil_r. apply (lift0_write_inline w objs pads q v); auto. }
  destruct (p_valid src) eqn:EV; cbn [negb] in HW; [|apply (Inl 0); auto].
  destruct Hsrc as [X|[(Hin & Hmem & ->)|[[EK0 EZ0]|[EKc Hidx]]]]; [discriminate| | |].
  3:{ rewrite EKc in HW. cbn [is_src] in HW. apply (Inl (rawInterfacePointer (p_len src))); [|exact HW].
      right. right. exists (p_len src). auto. }
  2:{ rewrite EK0, EZ0, empty_struct_word_eq in HW. cbn [of_opt_panic bind] in HW. apply (Inl empty_struct_word); auto. }
  destruct (core_facts src) as (C1 & _ & _ & C4 & C5 & _ & C7).
  destruct (hi_good _ _ _ H _ Hin) as [_ (Sh & _ & Gi & Go)]. apply (proj1 C7) in Sh.
  destruct (p_kind src) eqn:EK.
  - (* struct *)
    destruct (struct_obj src Sh EK) as (_ & OS & _).
    destruct (os_isZero (p_size src)) eqn:EZ.
    + rewrite empty_struct_word_eq in HW. cbn [of_opt_panic bind] in HW. apply (Inl empty_struct_word); auto.
    + rewrite Hmem in HW. cbn [orb is_src bind] in HW.
      destruct (of_opt_panic (rawStructPointer 0 (p_size src))) as [raw| |] eqn:ER; cbn [bind] in HW; try discriminate.
      eapply (hinv_place (w_dst w) objs pads w q (core src) raw w'); eauto.
      * rewrite C4. unfold raw_of. rewrite EK. exact ER.
      * rewrite C5, OS. exact HW.
  - (* list *)
    cbn [orb is_src bind] in HW.
    destruct (list_raw src) as [raw| |] eqn:ER; cbn [bind] in HW; try discriminate.
    eapply (hinv_place (w_dst w) objs pads w q (core src) raw w'); eauto.
    + cbn [core p_kind]. intros X. rewrite EK in X. discriminate.
    + rewrite C4. unfold raw_of. rewrite EK. exact ER.
    + rewrite C1, C5 in Gi. destruct (in_seg_elim _ _ _ _ Gi) as (_ & Gi0 & _). cbn [core p_off] in Go.
      rewrite C5. unfold obj_start in *. destruct (p_comp src); [|exact HW].
      rewrite u32_id in HW by lia. exact HW.
  - unfold shape_ok in Sh. rewrite EK in Sh. destruct Sh.
Qed.

Lemma write_ptr_hinv f w objs pads q src w' :
  hinv (w_dst w) objs pads -> In q ((0, 0) :: flat_map slots objs) ->
  (p_valid src = false \/ In (core src) objs /\ p_member src = false \/
   p_kind src = KStruct /\ os_isZero (p_size src) = true \/
   p_kind src = KIface /\ 0 <= p_len src < 4294967296) ->
  write_ptr (S f) true w (fst q) (snd q) InDst src false = Ok w' ->
  nsegs (w_dst w') < 4294967296 ->
  exists pads', hinv (w_dst w') objs (pads ++ pads').
Proof.
  intros H Hq Hsrc. apply write_ptr_hinv_gen; auto.
  destruct Hsrc as [X|[[A B]|[X|X]]]; auto.
Qed.

(* an allocation under the invariant: the new region starts at the old end of its segment, is
   word aligned and holds zero words *)
Lemma alloc_region m objs pads sid sz m1 s1 a :
  hinv m objs pads -> 0 <= sid < nsegs m -> 0 <= sz -> alloc m sid sz = Ok (m1, s1, a) ->
  keeps m m1 Rnone /\ inv m1 /\ segs_small m1 /\ nsegs m <= nsegs m1 /\ 0 <= s1 < nsegs m1 /\
  a = zlen (mem m s1) /\ a mod 8 = 0 /\ zlen (mem m1 s1) = a + padToWord sz /\ a + padToWord sz <= 4294967288 /\
  (forall b, a <= b -> b + 8 <= a + padToWord sz -> word_at (bm_data m1) s1 b = Some 0).
Proof.
  intros H Hs Hz EA. pose proof (hi_inv _ _ _ H) as Hinv. pose proof Hinv as [Hwf Har].
  destruct (alloc_keeps _ _ _ _ _ _ Hinv Hs Hz EA) as (K & I1 & N1 & S1 & AD & L1 & _ & _ & _ & MX).
  pose proof (alloc_small _ _ _ _ _ _ Hinv (hi_small _ _ _ H) Hs Hz EA) as Sm1.
  pose proof (alloc_fresh _ _ _ _ _ _ Hwf Har Hs Hz EA) as AF. cbv zeta in AF.
  destruct AF as (_ & A2 & A3 & _ & _ & A6 & _). fold (mem m s1) in A2, A6. fold (mem m1 s1) in A6.
  unfold maxSegmentSize in MX. split; [exact K|]. split; [exact I1|]. split; [exact Sm1|]. repeat (split; [lia|]).
  intros b Hb1 Hb2. pose proof (zlen_nonneg (mem m s1)). pose proof (padToWord_nonneg sz).
  rewrite word_at_sub, A6, sub_app_zeros by lia. now rewrite le_decode_zeros.
Qed.

Lemma new_obj_good m1 s1 a sz h :
  0 <= s1 < nsegs m1 -> nsegs m1 < 4294967296 -> 0 <= a -> a mod 8 = 0 -> zlen (mem m1 s1) = a + padToWord sz ->
  shape_ok h -> p_seg h = s1 -> obj_start h = a -> obj_bytes h = sz -> p_off h <= 4294967288 ->
  good (bm_data m1) h.
Proof.
  intros S1 Hns A0 A8 L1 Sh Es OS Eb Ho. split; [exact Sh|]. split; [lia|]. split; [|exact Ho].
  rewrite OS, Es. unfold obj_reg. cbn [r_size]. rewrite Eb. pose proof (padToWord_nonneg sz).
  apply in_seg_intro; rewrite ?zlen_bm, ?seg_len_bm; lia.
Qed.

Lemma hinv_alloc_obj m objs pads sid sz m1 s1 a h :
  hinv m objs pads -> 0 <= sid < nsegs m -> 0 <= sz -> alloc m sid sz = Ok (m1, s1, a) ->
  nsegs m1 < 4294967296 ->
  p_valid h = true -> p_seg h = s1 -> p_off h = a -> shape_ok h -> obj_bytes h = sz ->
  (p_kind h = KList -> p_comp h = false) ->
  hinv m1 (objs ++ [h]) pads.
Proof.
  intros H Hs Hz EA Hns Hv Es Eo Sh Eb Hnc.
  assert (Hc : p_comp h = false).
  { unfold shape_ok in Sh. destruct (p_kind h); [tauto|auto|contradiction]. }
  assert (OS : obj_start h = a) by (unfold obj_start; rewrite Hc; exact Eo).
  destruct (alloc_region _ _ _ _ _ _ _ _ H Hs Hz EA) as (K & I1 & Sm1 & N1 & S1 & AD & A8 & L1 & MX & Zr).
  pose proof (zlen_nonneg (mem m s1)) as Z0. pose proof (padToWord_nonneg sz) as P0.
  assert (Gd : good (bm_data m1) h) by (apply (new_obj_good m1 s1 a sz); auto; lia).
  apply (hinv_add_obj m objs pads m1 h); auto.
  - intros Ek X. congruence.
  - right. rewrite Es, OS. lia.
  - intros q Hq. destruct (slot_in_obj _ _ _ Hv Gd Hq) as (S1' & S2 & S3 & _).
    unfold obj_reg in S3. cbn [r_size] in S3. rewrite Eb, OS in S3. rewrite S1', Es. apply Zr; lia.
Qed.

(* a composite list has room for its tag word, and the tag is a word *)
Lemma comp_tag_room h tag :
  p_valid h = true -> shape_ok h -> p_kind h = KList -> p_comp h = true ->
  rawStructPointer (p_len h) (p_size h) = Some tag -> 8 <= padToWord (obj_bytes h) /\ word64 tag.
Proof.
  intros Hv Sh Ek Hc Etag.
  pose proof Sh as Sh'. unfold shape_ok in Sh'. rewrite Ek in Sh'. destruct Sh' as (Hn & [(X & _)|(_ & Hb & Hw & Ht)]); [congruence|].
  destruct (list_elems h Hv Sh Ek Hb) as (_ & _ & _ & _ & _ & OE & _). unfold obj_reg, obj_start in OE. rewrite Hc in OE. cbn [r_size] in OE.
  pose proof (wc_of_nonneg h Hw) as W0. rewrite (totalSize_wf _ Hw) in OE. fold (wc_of h) in OE.
  split; [nia|].
  destruct (fields_tag (p_len h) (p_size h) Hw Hn) as (tag' & Etag' & T0 & _). unfold word64. congruence.
Qed.

(* a composite list: the allocation, then the tag word at its start *)
Lemma hinv_alloc_comp m objs pads sid sz m1 s1 a tag m2 h :
  hinv m objs pads -> 0 <= sid < nsegs m -> 0 <= sz -> alloc m sid sz = Ok (m1, s1, a) ->
  writeRawPointer m1 s1 a tag = Ok m2 -> rawStructPointer (p_len h) (p_size h) = Some tag ->
  nsegs m1 < 4294967296 ->
  p_valid h = true -> p_seg h = s1 -> p_off h = a + 8 -> shape_ok h -> obj_bytes h = sz ->
  p_kind h = KList -> p_comp h = true ->
  hinv m2 (objs ++ [h]) pads.
Proof.
  intros H Hs Hz EA EW Etag Hns Hv Es Eo Sh Eb Ek Hc.
  assert (OS : obj_start h = a) by (unfold obj_start; rewrite Hc; lia).
  destruct (alloc_region _ _ _ _ _ _ _ _ H Hs Hz EA) as (K & I1 & Sm1 & N1 & S1 & AD & A8 & L1 & MX & Zr).
  pose proof (zlen_nonneg (mem m s1)) as Z0.
  destruct (comp_tag_room h tag Hv Sh Ek Hc Etag) as [Hsz8 Htag64]. rewrite Eb in Hsz8.
  assert (S10 : 0 <= s1) by lia.
  destruct (writeRawPointer_keeps _ _ _ _ _ S10 I1 EW) as (K2 & I2 & N2 & _).
  assert (W := EW). apply writeRawPointer_wrote in W; [|lia].
  assert (Sm2 : segs_small m2).
  { eapply wrote_small; eauto. }
  assert (Gd1 : good (bm_data m1) h) by (apply (new_obj_good m1 s1 a sz); auto; lia).
  assert (G12 : grows (bm_data m1) (bm_data m2)) by (eapply keeps_grows; eauto; lia).
  assert (Gd : good (bm_data m2) h) by (eapply good_mono; eauto).
  assert (K02 : keeps m m2 Rnone).
  { apply (keeps_step m m1 m2 Rnone (Rword s1 a)); auto. intros i k Hi Hk [X1 X2]. subst i. lia. }
  apply (hinv_add_obj m objs pads m2 h); auto; try lia.
  - intros _ _. exists tag. split; [exact Etag|]. rewrite Es, Eo. replace (a + 8 - 8) with a by lia.
    apply word_at_mem; [rewrite N2; exact S1| |lia].
    apply (wrote_word_back m1 m2); auto. lia.
  - right. rewrite Es, OS. lia.
  - intros q Hq. destruct (slot_in_obj _ _ _ Hv Gd1 Hq) as (S1' & S2 & S3 & _).
    unfold obj_reg in S3. cbn [r_size] in S3. rewrite Eb, OS in S3. rewrite S1', Es.
    rewrite (keeps_word m1 m2 (Rword s1 a)); auto; try lia; [apply Zr; lia|]. intros k Hk [_ X]. lia.
Qed.

Lemma list_alloc_eq h : p_valid h = true -> shape_ok h -> p_kind h = KList -> p_comp h = false ->
  obj_bytes h = if p_bit h then bitListSize (p_len h)
                else (DataSize (p_size h) + 8 * PointerCount (p_size h)) * p_len h.
Proof.
  intros Hv Sh Ek Hc. destruct (p_bit h) eqn:Hb.
  - unfold obj_bytes, list_allocSize. now rewrite Ek, Hv, Hb.
  - destruct (list_elems h Hv Sh Ek Hb) as (_ & _ & TS & OB & _). rewrite OB, Hc, TS. ring.
Qed.

Definition member_at (h : Ptr) (i : Z) (p : Ptr) : Prop :=
  p_kind h = KList /\ p_bit h = false /\ 0 <= i < p_len h /\
  p_valid p = true /\ p_seg p = p_seg h /\ p_off p = p_off h + i * totalSize (p_size h) /\
  p_size p = p_size h /\ p_kind p = KStruct /\ p_member p = true.

Definition empty_view (p : Ptr) : Prop := p_kind p = KStruct /\ p_size p = mkOS 0 0 /\ p_member p = false /\ 0 <= p_seg p.
Definition cap_view (p : Ptr) : Prop := p_kind p = KIface /\ 0 <= p_len p < 4294967296 /\ p_member p = false.
Definition view (objs : list Ptr) (p : Ptr) : Prop :=
  p_valid p = false \/ (p_member p = false /\ In (core p) objs) \/ (exists h i, In h objs /\ member_at h i p) \/
  empty_view p \/ cap_view p.

(* handles of another message (the source of cross-message copies): what readPtr hands out for
   any bytes 0..255 *)
Definition sview (sm : segs) (p : Ptr) : Prop :=
  p_valid p = true ->
  wf_size (p_size p) /\ 0 <= p_seg p < zlen sm /\
  match p_kind p with
  | KStruct => True
  | KList => shape_ok p /\
             (p_comp p = true -> exists tag, rawStructPointer (p_len p) (p_size p) = Some tag /\
                                             word_at sm (p_seg p) (p_off p - 8) = Some tag)
  | KIface => 0 <= p_len p < 4294967296
  end.

Lemma sview_null sm : sview sm nullPtr.
Proof. intros X. discriminate X. Qed.

(* the pool: handles of the message under construction are views of the table, handles of the
   source message are source views *)
Definition pool_ok (objs : list Ptr) (st : bstate) : Prop :=
  Forall (fun x => fst x = InDst -> view objs (snd x)) (st_h st).
Definition spool (st : bstate) : Prop :=
  msg_ok (w_src (st_w st)) /\ Forall (fun x => fst x = InSrc -> sview (w_src (st_w st)) (snd x)) (st_h st).

(* the table holds cores *)
Definition cores (objs : list Ptr) : Prop := forall h, In h objs -> core h = h.

Definition sinv (st : bstate) (objs : list Ptr) (pads : list region) : Prop :=
  hinv (w_dst (st_w st)) objs pads /\ pool_ok objs st /\ cores objs.

Lemma view_incl objs objs' p : incl objs objs' -> view objs p -> view objs' p.
Proof.
  intros I [V|[[M V]|[(h & i & Hh & V)|V]]]; [left; exact V|right; left; split; auto|right; right; left; exists h, i; auto|right; right; right; exact V].
Qed.

Lemma pool_ok_incl objs objs' st : incl objs objs' -> pool_ok objs st -> pool_ok objs' st.
Proof.
  intros I P. unfold pool_ok in *. rewrite Forall_forall in *. intros x Hx El.
  eapply view_incl; eauto.
Qed.

Lemma pool_ok_push objs st w p : pool_ok objs st -> view objs p -> pool_ok objs (hpush st w InDst p).
Proof. intros H Hp. unfold pool_ok, hpush. cbn [st_h]. apply Forall_app. split; [exact H|]. constructor; [intros _; exact Hp|constructor]. Qed.

Lemma view_null objs : view objs nullPtr.
Proof. left. reflexivity. Qed.

Lemma sinv_push_null st objs pads : sinv st objs pads -> sinv (hpush st (st_w st) InDst nullPtr) objs pads.
Proof. intros (H & P & C). split; [exact H|]. split; [|exact C]. apply pool_ok_push; auto. apply view_null. Qed.

Lemma hget_view st objs pads h : sinv st objs pads -> fst (hget st h) = InDst -> view objs (snd (hget st h)).
Proof.
  intros (_ & P & _). unfold hget.
  apply (Forall_nth_default (fun x => fst x = InDst -> view objs (snd x))); [exact P|intros _; apply view_null].
Qed.

Lemma hget_sview st h : spool st -> fst (hget st h) = InSrc -> sview (w_src (st_w st)) (snd (hget st h)).
Proof.
  intros [_ P]. unfold hget.
  apply (Forall_nth_default (fun x => fst x = InSrc -> sview (w_src (st_w st)) (snd x))); [exact P|discriminate].
Qed.

(* a valid list handle is a handle of a table object *)
Lemma list_view objs p : view objs p -> p_valid p = true -> p_kind p = KList -> In (core p) objs /\ p_member p = false.
Proof.
  intros [V|[[M V]|[(h & i & Hh & (_ & _ & _ & _ & _ & _ & _ & Ek & _))|[(Ek & _)|(Ek & _)]]]] Hv Hk; [congruence|auto|congruence|congruence|congruence].
Qed.

(* the data section of element i of a list and the k-th pointer slot of element e are disjoint *)
Lemma elem_sep_bytes base W ds e i k lo hi q :
  0 <= ds -> 0 <= k -> ds + 8 * k + 8 <= W -> 0 <= e -> 0 <= i ->
  base + i * W <= lo -> hi <= base + i * W + ds ->
  q = base + e * W + ds + 8 * k ->
  hi <= q \/ q + 8 <= lo.
Proof.
  intros Hd Hk Hlt He Hi Hlo Hhi ->.
  destruct (Z.lt_trichotomy e i) as [L|[->|G]].
  - right. assert (X : e * W + W <= i * W) by nia. lia.
  - left. lia.
  - left. assert (X : i * W + W <= e * W) by nia. lia.
Qed.

Lemma elem_sep base W dw e i k lo hi q :
  0 <= W -> 0 <= dw -> 0 <= k -> dw + k < W -> 0 <= e -> 0 <= i ->
  base + 8 * (i * W) <= lo -> hi <= base + 8 * (i * W) + 8 * dw ->
  q = base + 8 * (e * W + dw) + 8 * k ->
  hi <= q \/ q + 8 <= lo.
Proof. intros. apply (elem_sep_bytes base (8 * W) (8 * dw) e i k lo hi q); lia. Qed.

Lemma list_data_sep h i lo hi q : p_valid h = true -> shape_ok h -> p_kind h = KList -> p_bit h = false ->
  0 <= i -> In q (slots h) ->
  p_off h + i * totalSize (p_size h) <= lo -> hi <= p_off h + i * totalSize (p_size h) + DataSize (p_size h) ->
  hi <= snd q \/ snd q + 8 <= lo.
Proof.
  intros Hv Sh Ek Hb Hi Hq Hlo Hhi. destruct (list_elems h Hv Sh Ek Hb) as ((Hd & _) & _ & TS & _ & _ & _ & SL & _).
  apply SL in Hq. destruct Hq as (e & k & He & Hk & ->). cbn [snd].
  apply (elem_sep_bytes (p_off h) (totalSize (p_size h)) (DataSize (p_size h)) e i k lo hi); auto; lia.
Qed.

(* a valid struct handle: where its sections lie in the table object that holds it *)
Lemma struct_view_geom m objs pads p :
  hinv m objs pads -> view objs p -> p_valid p = true -> p_kind p = KStruct ->
  (p_size p = mkOS 0 0 /\ 0 <= p_seg p) \/
  exists h, In h objs /\ p_seg h = p_seg p /\ 0 <= DataSize (p_size p) /\ 0 <= PointerCount (p_size p) /\
    p_off h <= p_off p /\
    p_off p + DataSize (p_size p) + 8 * PointerCount (p_size p) <= obj_start h + r_size (obj_reg h) /\
    (forall q lo hi, In q (slots h) -> p_off p <= lo -> hi <= p_off p + DataSize (p_size p) -> hi <= snd q \/ snd q + 8 <= lo) /\
    (forall j, 0 <= j < PointerCount (p_size p) -> In (p_seg p, p_off p + DataSize (p_size p) + 8 * j) (slots h)).
Proof.
  intros H V Hv Ek. destruct V as [V|[[M V]|[(h & i & Hh & MA)|[(_ & V & _ & Sg)|(V & _)]]]]; [congruence| | |left; split; [exact V|exact Sg]|congruence]; right.
  - (* a table struct *)
    destruct (core_facts p) as (C1 & _ & C3 & _ & C5 & _ & C7).
    destruct (hi_good _ _ _ H _ V) as [_ (Sh & _)]. apply (proj1 C7) in Sh.
    destruct (struct_obj p Sh Ek) as ((Hd & _ & Hp) & OS & RS & SL).
    exists (core p). split; [exact V|]. rewrite C1, C3, C5, OS, RS. cbn [core p_seg p_off]. repeat split; try lia.
    + intros q lo hi Hq Hlo Hhi. left. apply SL in Hq. destruct Hq as (k & Hk & ->). cbn [snd]. lia.
    + intros j Hj. apply SL. exists j. auto.
  - (* element i of a table list *)
    destruct MA as (Hk & Hb & Hi & _ & Es & Eo & Esz & _ & _).
    destruct (hi_good _ _ _ H _ Hh) as [Hvh (Sh & _)].
    destruct (list_elems h Hvh Sh Hk Hb) as ((Hd & Hp) & _ & TS & _ & OS & OE & SL & _).
    destruct (elem_range i (p_len h) (totalSize (p_size h)) Hi ltac:(lia)) as [K1 K2].
    exists h. split; [exact Hh|]. split; [auto|]. rewrite Esz, Eo. repeat split; try lia.
    + intros q lo hi Hq. apply (list_data_sep h i lo hi q); auto; lia.
    + intros j Hj. apply SL. exists i, j. rewrite Es. auto.
Qed.

(* bounds of a section of a table object *)
Lemma obj_bounds m objs pads h : hinv m objs pads -> In h objs ->
  0 <= p_seg h < nsegs m /\ 0 <= obj_start h /\ obj_start h <= p_off h /\
  obj_start h + r_size (obj_reg h) <= zlen (mem m (p_seg h)) /\ zlen (mem m (p_seg h)) <= 4294967288.
Proof.
  intros H Hh. destruct (hi_good _ _ _ H h Hh) as [_ (_ & _ & Gi & _)].
  destruct (in_seg_elim_bm _ _ _ _ Gi) as (G1 & G2 & G3 & G4 & G5).
  pose proof (hi_small _ _ _ H (p_seg h)) as Hsm. unfold maxSegmentSize in Hsm.
  assert (OS : obj_start h <= p_off h) by (unfold obj_start; destruct (p_comp h); lia). lia.
Qed.

(* an element of a table list, as List.primitiveElem addresses it *)
Lemma list_elem_geom m objs pads p i exp addr :
  hinv m objs pads -> In (core p) objs -> p_valid p = true -> p_kind p = KList ->
  primitiveElem true p i exp = Ok addr ->
  (exp = mkOS 0 1 \/ exists n, exp = mkOS n 0 /\ (n = 1 \/ n = 2 \/ n = 4 \/ n = 8)) ->
  p_off p <= addr /\ addr + totalSize exp <= obj_start (core p) + r_size (obj_reg (core p)) /\
  (exp = mkOS 0 1 -> In (p_seg p, addr) (slots (core p))) /\
  (PointerCount exp = 0 -> forall q, In q (slots (core p)) -> addr + DataSize exp <= snd q \/ snd q + 8 <= addr).
Proof.
  intros H Hin Hv Ek PE Hexp.
  destruct (core_facts p) as (C1 & _ & C3 & _ & C5 & _ & C7).
  destruct (hi_good _ _ _ H _ Hin) as [_ (Sh & _)]. apply (proj1 C7) in Sh. rewrite C1, C3, C5.
  unfold primitiveElem in PE. rewrite Hv in PE. cbn [negb orb] in PE.
  destruct ((i <? 0) || (i >=? p_len p)) eqn:EI; [discriminate|].
  destruct (p_bit p) eqn:EB; [discriminate|]. cbn [orb] in PE.
  destruct (list_elems p Hv Sh Ek EB) as ((Hd & Hp) & _ & TS & _ & OS & OE & SL & _).
  destruct (elem_range i (p_len p) (totalSize (p_size p)) ltac:(lia) ltac:(lia)) as [K1 K2].
  pose proof (fun lo hi q => list_data_sep p i lo hi q Hv Sh Ek EB ltac:(lia)) as Sep.
  destruct (p_comp p) eqn:Hc; cbn [negb andb orb] in PE.
  - (* composite list: exp is a prefix of the element's sections *)
    destruct ((DataSize (p_size p) <? DataSize exp) || (PointerCount (p_size p) <? PointerCount exp)) eqn:EO; [discriminate|].
    destruct (element (p_off p) i (totalSize (p_size p))) as [a0|] eqn:EE; [|discriminate].
    apply element_spec in EE. destruct EE as [-> _].
    destruct Hexp as [->|(n & -> & Hnn)]; cbn [DataSize PointerCount] in *.
    + change (0 <? 1) with true in PE. cbn [andb] in PE.
      destruct (addSize (p_off p + i * totalSize (p_size p)) (DataSize (p_size p))) as [a1|] eqn:EA; [|discriminate].
      apply Ok_inj in PE. subst a1. apply addSize_spec in EA. destruct EA as [-> _].
      change (totalSize (mkOS 0 1)) with 8. split; [lia|]. split; [lia|]. split; [|discriminate].
      intros _. apply SL. exists i, 0. repeat split; try lia. f_equal. lia.
    + change (0 <? 0) with false in PE. apply Ok_inj in PE. subst addr.
      assert (TN : totalSize (mkOS n 0) = n) by (destruct Hnn as [->|[->|[->| ->]]]; reflexivity). rewrite TN.
      split; [lia|]. split; [lia|]. split; [discriminate|]. intros _ q Hq. apply (Sep _ _ q Hq); lia.
  - (* plain list: exp is the element size *)
    destruct (negb (os_eqb (p_size p) exp)) eqn:EO; [discriminate|]. cbn [orb] in PE.
    assert (Esz : exp = p_size p).
    { unfold os_eqb in EO. destruct (p_size p) as [d c], exp as [d' c']. cbn in EO. f_equal; lia. }
    subst exp. destruct (element (p_off p) i (totalSize (p_size p))) as [a0|] eqn:EE; [|discriminate].
    apply Ok_inj in PE. subst a0. apply element_spec in EE. destruct EE as [-> _].
    split; [lia|]. split; [lia|]. split.
    + intros Esz. apply SL. exists i, 0. rewrite Esz. cbn [DataSize PointerCount]. repeat split; try lia. f_equal. lia.
    + intros _ q Hq. apply (Sep _ _ q Hq); lia.
Qed.

(* the sub-language, as an executable predicate on ops *)
Definition width_b (n : Z) : bool := (n =? 1) || (n =? 2) || (n =? 4) || (n =? 8).
Definition ro_op (o : op) : bool :=
  match o with
  | OHasPtr _ _ | OUint _ _ _ | OBit _ _ | OUintAt _ _ _ | OBitAt _ _ | OText _ | OData _ | OInfo _ | ORLimit | OWalk _ _ _ _ => true
  | _ => false
  end.
Definition sub_op (o : bop) : bool :=
  match o with
  | BNewStruct _ dsz pc => (0 <=? dsz) && (0 <=? pc) && (pc <? 65536)
  | BNewPrim _ sz _ => (sz =? 0) || width_b sz
  | BNewBit _ _ | BNewPList _ _ | BNewVoid _ _ => true
  | BNewComp _ dsz pc _ => (0 <=? dsz) && (0 <=? pc) && (pc <? 65536)
  | BNewBytes _ v _ => (zlen v <? 536870911) && forallb (fun b => (0 <=? b) && (b <? 256)) v   (* a []byte *)
  | BNewCap _ idx => (0 <=? idx) && (idx <? 4294967296)
  | BAddCap _ => true
  | BSetUint _ off n _ => (0 <=? off) && width_b n
  | BSetBit _ n _ => 0 <=? n
  | BListSetUint _ _ n _ => width_b n
  | BBitSet _ _ _ => true
  | BSetPtr _ i _ => 0 <=? i
  | BPLSet _ _ _ | BSetStruct _ _ _ | BCopyFrom _ _ => true
  | BSetRoot _ => true
  | BRead _ (OSPtr _ i) => 0 <=? i
  | BRead _ ORoot | BRead _ (OLStruct _ _) | BRead _ (OPLAt _ _) => true
  | BRead _ o => ro_op o
  | BRoundTrip _ _ _ | BDump _ | BReopen => true
  end.

Lemma cores_snoc objs h : cores objs -> cores (objs ++ [core h]).
Proof. intros C x Hx. apply in_app_or in Hx. destruct Hx as [Hx|[<-|[]]]; [apply C; exact Hx|reflexivity]. Qed.

Lemma pool_push_obj objs st w h : pool_ok objs st -> p_valid h = true -> p_member h = false ->
  pool_ok (objs ++ [core h]) (hpush st w InDst h).
Proof.
  intros P Hv Hm. apply pool_ok_push.
  - apply (pool_ok_incl objs); auto. apply incl_appl, incl_refl.
  - right. left. split; [exact Hm|]. apply in_or_app. right. left. reflexivity.
Qed.

Lemma width_b_ok n : width_b n = true -> n = 1 \/ n = 2 \/ n = 4 \/ n = 8.
Proof. unfold width_b. lia. Qed.

(* the invariant speaks about the segment bytes only *)
Lemma hinv_same_data m m1 objs pads :
  hinv m objs pads -> bm_data m1 = bm_data m -> inv m1 -> hinv m1 objs pads.
Proof.
  intros [Hi Hsm Hns Hg Htg Hin Hpd HdO HdP Hcr Hs] ED I1.
  assert (EM : forall i, mem m1 i = mem m i) by (intros i; rewrite <- !nth_bm_data; now rewrite ED).
  assert (EN : nsegs m1 = nsegs m) by (rewrite <- !zlen_bm; now rewrite ED).
  constructor; auto; try (rewrite ED; auto).
  - intros i. rewrite EM. apply Hsm.
  - rewrite EN. exact Hns.
Qed.

Lemma sinv_same_segs st objs pads w2 :
  sinv st objs pads -> bm_segs (w_dst w2) = bm_segs (w_dst (st_w st)) -> bm_arena (w_dst w2) = bm_arena (w_dst (st_w st)) ->
  sinv (mkBSt w2 (st_h st)) objs pads.
Proof.
  intros [H P] E1 E2. split; [|exact P]. cbn [st_w st_h].
  apply (hinv_same_data (w_dst (st_w st))); [exact H|unfold bm_data; now rewrite E1|].
  destruct (hi_inv _ _ _ H) as [A B]. split; [unfold bmsg_wf; now rewrite E1|unfold arena_wf; now rewrite E1, E2].
Qed.

Lemma write_ptr_invalid_loc f strict w d o l src fc : p_valid src = false ->
  write_ptr f strict w d o l src fc = write_ptr f strict w d o InDst src fc.
Proof. intros Hv. destruct f; [reflexivity|]. unfold write_ptr. cbn [write_ptr_gen]. now rewrite Hv. Qed.

Lemma ro_step_handles c ms hs rl o rs' v : ro_op o = true -> step c all_fixes ms (mkRS hs rl) o = (rs', v) -> rs_handles rs' = hs.
Proof.
  intros Hr. destruct o; try discriminate Hr; cbn [step]; try (intros E; inversion E; reflexivity).
  destruct (walk _ _ _ _ _ _ _ _) as [t rl1]. intros E. inversion E. reflexivity.
Qed.

Lemma as_struct_valid p : p_valid (as_struct p) = true -> as_struct p = p /\ p_kind p = KStruct.
Proof.
  unfold as_struct, is_struct. destruct (p_valid p && _) eqn:EE; [|discriminate].
  intros _. split; [reflexivity|]. destruct (p_kind p); auto; rewrite Bool.andb_false_r in EE; discriminate.
Qed.

Lemma as_list_valid p : p_valid (as_list p) = true -> as_list p = p /\ p_kind p = KList.
Proof.
  unfold as_list, is_list. destruct (p_valid p && _) eqn:EE; [|discriminate].
  intros _. split; [reflexivity|]. destruct (p_kind p); auto; rewrite Bool.andb_false_r in EE; discriminate.
Qed.

(* a data write inside the data section of a struct handle *)
Lemma struct_data_write st objs pads p addr bs m1 :
  sinv st objs pads -> view objs p -> p_valid p = true -> p_kind p = KStruct ->
  0 < zlen bs -> p_off p <= addr -> addr + zlen bs <= p_off p + DataSize (p_size p) ->
  (0 <= p_seg p -> zlen (mem (w_dst (st_w st)) (p_seg p)) < 4294967296 -> addr + zlen bs <= zlen (mem (w_dst (st_w st)) (p_seg p)) ->
   wrote (w_dst (st_w st)) m1 (p_seg p) addr bs) ->
  sinv (mkBSt (w_set_dst (st_w st) m1) (st_h st)) objs pads.
Proof.
  intros [H P] Vw Hv Ek Hpos Hlo Hhi HW.
  destruct (struct_view_geom _ _ _ p H Vw Hv Ek) as [[E0 _]|(ho & Hin & Eseg & D0 & P0 & Olo & Ohi & Hsep & _)].
  { exfalso. rewrite E0 in Hhi. cbn [DataSize] in Hhi. lia. }
  destruct (obj_bounds _ _ _ _ H Hin) as (B1 & B2 & B3 & B4 & B5). rewrite Eseg in *.
  split; [|exact P]. cbn [st_h st_w w_dst w_set_dst].
  apply (hinv_data_write (w_dst (st_w st)) objs pads m1 ho addr bs); auto; try lia.
  all: try (intros q Hq; apply (Hsep q addr (addr + zlen bs)); auto; lia).
  rewrite Eseg. apply HW; lia.
Qed.

(* storing a list member without pointer section (List.Struct of a primitive list, or of a
   composite list whose elements have no pointers): writePtr copies it into a fresh struct whose
   data section is the element padded to a word, and places a pointer to the copy *)
Lemma write_ptr_member_data f w objs pads q src w' :
  hinv (w_dst w) objs pads -> cores objs -> In q ((0, 0) :: flat_map slots objs) ->
  (exists h i, In h objs /\ member_at h i src) -> PointerCount (p_size src) = 0 ->
  write_ptr (S f) true w (fst q) (snd q) InDst src false = Ok w' ->
  nsegs (w_dst w') < 4294967296 ->
  exists objs' pads', hinv (w_dst w') objs' pads' /\ cores objs' /\ incl objs objs'.
Proof.
  intros H C Hq (hl & i & Hhl & MA) Hpc HW Hns.
  pose proof MA as (Hk & Hb & Hi & Hv & Es & Eo & Esz & Ek & Hm).
  destruct (os_isZero (p_size src)) eqn:EZ.
  { (* the inline empty struct *)
    destruct (write_ptr_hinv f w objs pads q src w' H Hq (or_intror (or_intror (or_introl (conj Ek EZ)))) HW Hns) as [pads' H'].
    exists objs, (pads ++ pads'). split; [exact H'|]. split; [exact C|apply incl_refl]. }
  destruct (slot_geometry _ _ _ _ H Hq) as (Q1 & _).
  (* the element size is a legal data size *)
  destruct (hi_good _ _ _ H hl Hhl) as [Hvl (Shl & _)].
  destruct (list_elems hl Hvl Shl Hk Hb) as ((DSb & _) & _). rewrite <- Esz in DSb.
  set (DS := DataSize (p_size src)) in *.
  assert (DSpos : 0 < DS) by (unfold os_isZero in EZ; fold DS in EZ; rewrite Hpc in EZ; lia).
  destruct (padToWord_facts DS ltac:(unfold maxSegmentSize; lia)) as (PW1 & PW2 & _).
  assert (PP : padToWord (padToWord DS) = padToWord DS) by (apply padToWord_aligned; lia).
  unfold write_ptr in HW. cbn [write_ptr_gen] in HW. rewrite Hv, Ek, EZ, Hm in HW. cbn [negb] in HW.
  rewrite Bool.orb_true_r in HW. cbn [bind] in HW. fold DS in HW. rewrite Hpc in HW.
  set (csz := mkOS (padToWord DS) 0) in *.
  assert (TS : totalSize csz = padToWord DS) by (unfold totalSize, pointerSize, u32, csz; cbn [DataSize PointerCount]; lia).
  rewrite TS in HW.
  destruct (alloc (w_dst w) (fst q) (padToWord DS)) as [[[m1 nsid] naddr]| |] eqn:EA; cbn [bind] in HW; try discriminate.
  set (dstp := mkPtr true nsid naddr 0 csz maxDepth KStruct false false false) in *.
  destruct f as [|f]; [cbn [copy_struct_gen bind] in HW; discriminate HW|].
  assert (Hz : 0 <= padToWord DS) by lia.
  destruct (alloc_region _ _ _ _ _ _ _ _ H Q1 Hz EA) as (K1 & I1 & Sm1 & N1 & S1 & AD & _ & L1 & MX & _).
  rewrite PP in L1, MX. pose proof (zlen_nonneg (mem (w_dst w) nsid)) as Z0.
  (* copyStruct of a struct without pointers is its data phase: one write of the element followed by zero padding *)
  assert (CS : copy_struct_gen true (S f) true (w_set_dst w m1) dstp InDst src = copy_data_phase (w_set_dst w m1) dstp InDst src).
  { unfold copy_data_phase. cbn [copy_struct_gen]. change (p_valid dstp) with true. rewrite Hv, Hpc. cbn [negb].
    destruct (slice _ (p_off src) _); cbn [bind]; try reflexivity.
    destruct (slice _ (p_off dstp) _); cbn [bind]; try reflexivity.
    destruct (lift0 _ _); reflexivity. }
  rewrite CS in HW.
  destruct (copy_data_phase (w_set_dst w m1) dstp InDst src) as [w2| |] eqn:ECD; cbn [bind] in HW; try discriminate.
  pose proof (Sm1 (p_seg src)) as SmS. unfold maxSegmentSize in SmS.
  apply copy_struct_data in ECD; cbn [w_segs w_dst w_set_dst dstp p_seg p_size csz DataSize]; rewrite ?nth_bm_data; try lia.
  cbv zeta in ECD. destruct ECD as (EW & _). cbn [w_dst w_set_dst dstp p_seg p_off p_size csz DataSize] in EW, HW.
  set (bs := resize_data _ _) in EW. set (m2 := w_dst w2) in *.
  assert (Lb : zlen bs = padToWord DS) by (unfold zlen, bs; rewrite resize_data_length; lia).
  assert (N12 : nsegs m2 = nsegs m1) by (unfold nsegs; apply (wrote_nsegs _ _ _ _ _ EW)).
  destruct (of_opt_panic (rawStructPointer 0 csz)) as [raw| |] eqn:ER; cbn [bind] in HW; try discriminate.
  (* bounds of the intermediate messages from the final one *)
  assert (I2 : inv m2) by (apply (wrote_inv _ _ _ _ _ EW); [lia|exact I1]).
  assert (Q12 : 0 <= fst q < nsegs m2) by lia.
  assert (S12 : 0 <= nsid < nsegs m2) by lia.
  destruct (place_keeps w2 (fst q) (snd q) nsid naddr raw w' I2 Q12 S12 HW) as (_ & _ & N2' & _).
  fold m2 in N2'.
  (* the new struct joins the table *)
  assert (H1 : hinv m1 (objs ++ [core dstp]) pads).
  { apply (hinv_alloc_obj (w_dst w) objs pads (fst q) (padToWord DS) m1 nsid naddr (core dstp)); auto; try reflexivity; try lia.
    all: unfold shape_ok, obj_bytes, core, dstp, os_wf; cbn [p_kind p_size p_comp p_len p_bit]; try exact TS; try discriminate.
    all: try (unfold csz; cbn [DataSize PointerCount]; split; [lia|]; split; [reflexivity|]; split; reflexivity). }
  assert (Hd1 : In (core dstp) (objs ++ [core dstp])) by (apply in_or_app; right; left; reflexivity).
  assert (H2 : hinv m2 (objs ++ [core dstp]) pads).
  { apply (hinv_data_write m1 _ pads m2 (core dstp) naddr bs); auto; cbn [core dstp p_seg p_off]; try lia.
    - rewrite Lb. unfold obj_reg, obj_start, obj_bytes, core, dstp. cbn [p_kind p_comp p_off p_size r_size]. rewrite TS, PP. lia.
    - intros x Hx. unfold slots, tgt_of, core, dstp, csz in Hx. cbn in Hx. destruct Hx. }
  assert (Hq2 : In q ((0, 0) :: flat_map slots (objs ++ [core dstp]))).
  { destruct Hq as [<-|Hq]; [left; reflexivity|right]. rewrite flat_map_app. apply in_or_app. left. exact Hq. }
  destruct (hinv_place m2 (objs ++ [core dstp]) pads w2 q (core dstp) raw w') as [pads' H'];
    auto.
  all: try (unfold core, dstp; cbn [p_size]; intros _; unfold os_isZero, csz; cbn [DataSize PointerCount]; lia).
  all: try (unfold raw_of, core, dstp; cbn [p_kind p_size]; exact ER).
  exists (objs ++ [core dstp]), (pads ++ pads'). split; [exact H'|]. split; [apply cores_snoc; exact C|apply incl_appl, incl_refl].
Qed.

Lemma view_of_read m objs pads q depth p :
  hinv m objs pads -> cores objs -> 0 <= fst q ->
  (p = nullPtr \/ p = empty_handle q depth \/ (exists h, In h objs /\ p = handle_of h depth) \/
   (exists idx, 0 <= idx < 4294967296 /\ p = mkPtr true (fst q) 0 idx (mkOS 0 0) 0 KIface false false false)) -> view objs p.
Proof.
  intros H C Hq0 [->|[->|[(h & Hh & ->)|(idx & Hi & ->)]]].
  4:{ right. right. right. right. split; [reflexivity|]. split; [exact Hi|reflexivity]. }
  - apply view_null.
  - right. right. right. left. repeat split. exact Hq0.
  - right. left. split; [reflexivity|]. destruct (hi_good _ _ _ H h Hh) as [V _].
    assert (E : core (handle_of h depth) = core h) by (unfold core, handle_of; cbn; now rewrite V).
    rewrite E, (C h Hh). exact Hh.
Qed.

(* what the reader hands out for the pointer in a table slot *)
Lemma slot_view strict m objs pads q rl depth p rl' :
  hinv m objs pads -> cores objs -> In q ((0, 0) :: flat_map slots objs) ->
  readPtr strict (bm_data m) rl (fst q) (nth (Z.to_nat (fst q)) (bm_data m) []) (snd q) depth = (Ok p, rl') ->
  view objs p.
Proof.
  intros H C Hq HR. destruct (slot_geometry _ _ _ _ H Hq) as (Q1 & _).
  apply (view_of_read m objs pads q depth); auto; [lia|]. apply (read_slot strict m objs pads q rl depth p rl'); auto.
Qed.

Lemma root_view c m objs pads rl p rl' :
  hinv m objs pads -> cores objs -> root c (bm_data m) rl = (Ok p, rl') -> view objs p.
Proof.
  intros H C HR. unfold root in HR. unfold lookup_segment in HR.
  destruct ((0 <=? 0) && (0 <? zlen (bm_data m))); [|discriminate].
  destruct (negb _); [destruct (cfg_root c); discriminate|].
  apply (slot_view (cfg_strict c) m objs pads (0, 0) rl (depth_limit c) p rl'); auto. left. reflexivity.
Qed.

Lemma sptr_view c m objs pads hp i rl p rl' :
  hinv m objs pads -> cores objs -> view objs hp -> 0 <= i ->
  struct_ptr c (bm_data m) rl (as_struct hp) i = (Ok p, rl') -> view objs p.
Proof.
  intros H C V Hi HR. unfold struct_ptr in HR.
  destruct (negb (p_valid (as_struct hp)) || (i >=? PointerCount (p_size (as_struct hp)))) eqn:EE.
  { apply (f_equal fst) in HR. cbn [fst] in HR. apply Ok_inj in HR. subst p. apply view_null. }
  assert (Hval : p_valid (as_struct hp) = true) by (destruct (p_valid (as_struct hp)); auto; discriminate).
  destruct (as_struct_valid hp Hval) as [Eas Ek]. rewrite Eas in *.
  destruct (struct_view_geom _ _ _ hp H V Hval Ek) as [[E0 _]|(ho & Hin & Eseg & D0 & P0 & Olo & Ohi & _ & Hsl)].
  { exfalso. rewrite E0 in EE. cbn [PointerCount] in EE. rewrite Hval in EE. cbn [negb orb] in EE. lia. }
  destruct (obj_bounds _ _ _ _ H Hin) as (B1 & B2 & B3 & B4 & B5). rewrite Eseg in *.
  assert (PA : pointerAddress hp i = p_off hp + DataSize (p_size hp) + 8 * i).
  { apply pointerAddress_eq; unfold maxSegmentSize; lia. }
  apply (slot_view (cfg_strict c) m objs pads (p_seg hp, pointerAddress hp i) rl (p_depth hp) p rl'); auto.
  right. apply in_flat_map. exists ho. split; [exact Hin|]. rewrite PA. apply Hsl. lia.
Qed.

Lemma plat_view c m objs pads hp i rl p rl' :
  hinv m objs pads -> cores objs -> view objs hp ->
  ptrlist_at c true (bm_data m) rl (as_list hp) i = (Ok p, rl') -> view objs p.
Proof.
  intros H C V HR. unfold ptrlist_at in HR.
  destruct (primitiveElem true (as_list hp) i (mkOS 0 1)) as [addr| |] eqn:PE; try discriminate.
  assert (Hval : p_valid (as_list hp) = true).
  { unfold primitiveElem in PE. destruct (p_valid (as_list hp)); auto. cbn in PE. discriminate. }
  destruct (as_list_valid hp Hval) as [Eas Ek]. rewrite Eas in *.
  destruct (list_view objs hp V Hval Ek) as [Hin _].
  destruct (list_elem_geom _ _ _ hp i (mkOS 0 1) addr H Hin Hval Ek PE ltac:(left; reflexivity)) as (_ & _ & E3 & _).
  apply (slot_view (cfg_strict c) m objs pads (p_seg hp, addr) rl (p_depth hp) p rl'); auto.
  right. apply in_flat_map. exists (core hp). split; [exact Hin|]. apply E3. reflexivity.
Qed.

Lemma read_push st objs pads rl1 x : sinv st objs pads -> view objs x ->
  sinv (mkBSt (w_set_rl (st_w st) InDst rl1) (st_h st ++ [(InDst, x)])) objs pads.
Proof.
  intros S V. destruct (w_set_rl_dst (st_w st) InDst rl1) as (U1 & U2 & _).
  destruct (sinv_same_segs st objs pads _ S U1 U2) as (H2 & P2 & C2). split; [exact H2|]. split; [|exact C2].
  cbn [st_h]. unfold pool_ok. apply Forall_app. split; [exact P2|]. constructor; [|constructor]. intros _. exact V.
Qed.

Lemma skipn_push (hs : list (loc * Ptr)) (x : Ptr) : skipn (length hs) (map snd hs ++ [x]) = [x].
Proof. rewrite skipn_app, skipn_all2 by (rewrite map_length; lia). rewrite map_length, Nat.sub_diag. reflexivity. Qed.

