(* C05, pointer-level heap invariant [hinv]: the pointer words the builder stores are valid for
   the strict validity predicate of BuildValid.v ([resolve_ptr]), and stay valid under
   allocation of a new object, data writes inside an object, and the placement of a pointer to
   a table object into a table slot.  HeapOps.v and HeapSteps.v lift it to op lists
   ([heap_inv_sublang]). *)
From CV Require Import Core.Builder Core.ReaderFacts Core.ArithFacts Core.BuilderFacts Core.AllocProofs
  Core.WritePtrProofs Core.HeapProofs Core.BuildValid.
From Coq Require Import ZifyBool ZifyNat.
Open Scope Z_scope.

Ltac Zify.zify_post_hook ::= Z.div_mod_to_equations.

Ltac unf := unfold f_A, f_off, f_dw, f_pc, f_C, f_D, f_B, f_padoff, f_seg, two30, two32 in *.

Lemma fields_withOffset p o :
  0 <= p < 18446744073709551616 -> p mod 4 < 2 -> off_ok o ->
  let q := withOffset p o in
  0 <= q < 18446744073709551616 /\ f_A q = p mod 4 /\ f_off q = o /\ f_dw q = f_dw p /\ f_pc q = f_pc p /\
  f_C q = f_C p /\ f_D q = f_D p /\ (p / 4294967296 <> 0 \/ p mod 4 <> 0 -> q <> 0).
Proof.
  intros Hp Ht Ho. cbv zeta. rewrite withOffset_sum. unfold off_ok in Ho. unf.
  repeat split; try lia.
  - cbv zeta. destruct (_ <? _) eqn:E; lia.
Qed.

Lemma fields_struct sz : os_wf sz ->
  exists raw, rawStructPointer 0 sz = Some raw /\ 0 <= raw < 18446744073709551616 /\ raw mod 4 = 0 /\
    f_dw raw = DataSize sz / 8 /\ f_pc raw = PointerCount sz /\ f_off raw = 0 /\
    raw / 4294967296 = PointerCount sz * 65536 + DataSize sz / 8.
Proof.
  intros Hw. rewrite rawStructPointer_sum by assumption. destruct Hw as (Hd & Hm & Hp).
  eexists. split; [reflexivity|]. unf. cbv zeta. repeat split; try lia.
  destruct (_ <? _) eqn:E; lia.
Qed.

Lemma fields_list lt len : 0 <= lt < 8 -> 0 <= len < 536870912 ->
  let raw := rawListPointer 0 lt len in
  0 <= raw < 18446744073709551616 /\ raw mod 4 = 1 /\ f_C raw = lt /\ f_D raw = len /\ f_off raw = 0.
Proof.
  intros Hl Hn. cbv zeta. rewrite rawListPointer_sum by assumption. unf. cbv zeta. repeat split; try lia.
  destruct (_ <? _) eqn:E; lia.
Qed.

Lemma fields_far seg off : 0 <= seg < 4294967296 -> 0 <= off < 4294967296 -> off mod 8 = 0 ->
  let w := rawFarPointer seg off in
  0 <= w < 18446744073709551616 /\ w <> 0 /\ f_A w = 2 /\ f_B w = 0 /\ f_seg w = seg /\ 8 * f_padoff w = off.
Proof.
  intros Hs Ho Ha. cbv zeta. rewrite rawFarPointer_sum by assumption. unf. repeat split; lia.
Qed.

Lemma fields_dfar seg off : 0 <= seg < 4294967296 -> 0 <= off < 4294967296 -> off mod 8 = 0 ->
  let w := rawDoubleFarPointer seg off in
  0 <= w < 18446744073709551616 /\ w <> 0 /\ f_A w = 2 /\ f_B w = 1 /\ f_seg w = seg /\ 8 * f_padoff w = off.
Proof.
  intros Hs Ho Ha. cbv zeta. rewrite rawDoubleFarPointer_sum by assumption. unf. repeat split; lia.
Qed.

Lemma word_at_of_read (ms : segs) sid off w :
  0 <= sid < zlen ms -> readRawPointer (nth (Z.to_nat sid) ms []) off = Ok w -> off + 8 < 4294967296 ->
  word_at ms sid off = Some w.
Proof.
  intros Hs H Hl.
  unfold readRawPointer, readUintN, slice in H. cbv zeta in H. unfold addSizeUnchecked, u32 in H.
  destruct ((0 <=? off) && (off <=? (off + 8) mod 4294967296) && ((off + 8) mod 4294967296 <=? zlen (nth (Z.to_nat sid) ms []))) eqn:E2;
    [|discriminate].
  cbn [bind] in H. apply Ok_inj in H.
  assert (H0 : (off + 8) mod 4294967296 = off + 8) by lia. rewrite H0 in *.
  replace (off + 8 - off) with 8 in H by lia.
  unfold word_at. cbv zeta.
  apply andb_prop in E2. destruct E2 as [E2a E2c]. apply andb_prop in E2a. destruct E2a as [E2a E2b].
  assert (C1 : (0 <=? sid) && (sid <? zlen ms) = true) by (apply andb_true_intro; split; lia).
  rewrite C1. rewrite E2a, E2c. cbn [andb]. f_equal. exact H.
Qed.

Lemma word_at_mem m sid off w :
  0 <= sid < nsegs m -> readRawPointer (mem m sid) off = Ok w -> off + 8 < 4294967296 ->
  word_at (bm_data m) sid off = Some w.
Proof.
  intros Hs H Hl. apply word_at_of_read; auto.
  - unfold bm_data. rewrite zlen_map. exact Hs.
  - now rewrite nth_bm_data.
Qed.

(* what exactly the placement switch stores: [place_words] (WritePtrProofs.v) read through word_at,
   with the landing pad as a region *)
Inductive placed (ms' : segs) (dsid off tsid taddr raw : Z) (oldlen : Z -> Z) : list region -> Prop :=
| PlNear : tsid = dsid ->
    word_at ms' dsid off = Some (withOffset raw (nearPointerOffset off taddr)) ->
    placed ms' dsid off tsid taddr raw oldlen []
| PlFar padAddr : tsid <> dsid -> padAddr = oldlen tsid ->
    word_at ms' dsid off = Some (rawFarPointer tsid padAddr) ->
    word_at ms' tsid padAddr = Some (withOffset raw (nearPointerOffset padAddr taddr)) ->
    placed ms' dsid off tsid taddr raw oldlen [mkReg tsid padAddr 8]
| PlDfar psid padAddr : tsid <> dsid -> 0 <= psid -> padAddr = oldlen psid ->
    word_at ms' dsid off = Some (rawDoubleFarPointer psid padAddr) ->
    word_at ms' psid padAddr = Some (rawFarPointer tsid taddr) ->
    word_at ms' psid (padAddr + 8) = Some raw ->
    placed ms' dsid off tsid taddr raw oldlen [mkReg psid padAddr 16].

Lemma words_placed (ms : segs) dsid off tsid taddr raw oldlen :
  place_words ms dsid off tsid taddr raw oldlen -> 0 <= dsid < zlen ms -> 0 <= tsid < zlen ms ->
  exists pads, placed ms dsid off tsid taddr raw oldlen pads.
Proof.
  assert (WA : forall sid a v, 0 <= sid < zlen ms -> readRawPointer (nth (Z.to_nat sid) ms []) a = Ok v ->
            word_at ms sid a = Some v).
  { intros sid a v Hs R. apply word_at_of_read; auto. apply (readRawPointer_bounds _ _ _ R). }
  intros [E R|Hne _ R1 R2|ps Hne Hps _ R1 R2 R3] Hd Ht; eexists.
  - apply PlNear; auto.
  - eapply PlFar; eauto.
  - eapply PlDfar; eauto. lia.
Qed.

Lemma place_layout w dsid off tsid taddr raw w' :
  place_pre (w_dst w) dsid off tsid taddr raw ->
  place w dsid off tsid taddr raw = Ok w' ->
  exists pads, placed (bm_data (w_dst w')) dsid off tsid taddr raw (fun i => zlen (mem (w_dst w) i)) pads.
Proof.
  intros Hpre H. apply place_inv in H. destruct H as (m' & -> & Run). cbn [w_dst w_set_dst].
  pose proof (place_stores _ _ _ _ _ _ _ Hpre Run) as Wd.
  destruct Hpre as (Hwf & Har & _ & _ & Hd & Ht & _).
  destruct (place_frame _ _ _ _ _ _ _ Hwf Har Hd Ht Run) as (m1 & pw & (_ & _ & _ & N & _) & W).
  apply (words_placed _ _ _ _ _ _ _ Wd); unfold bm_data; rewrite zlen_map, (wrote_nsegs _ _ _ _ _ W); lia.
Qed.

Lemma word_at_range (ms : segs) sid a w : word_at ms sid a = Some w ->
  0 <= sid < zlen ms /\ 0 <= a /\ a + 8 <= seg_len ms sid.
Proof.
  unfold word_at, seg_len. cbv zeta.
  destruct ((0 <=? sid) && (sid <? zlen ms)) eqn:E; [|discriminate].
  destruct ((0 <=? a) && (a + 8 <=? zlen (nth (Z.to_nat sid) ms []))) eqn:E2; [|discriminate]. intros _. lia.
Qed.

Lemma decode_obj_eq (m : segs) sid base w base' w' :
  f_A w = f_A w' -> f_dw w = f_dw w' -> f_pc w = f_pc w' -> f_C w = f_C w' -> f_D w = f_D w' ->
  base + 8 * f_off w = base' + 8 * f_off w' ->
  decode_obj m sid base w = decode_obj m sid base' w'.
Proof. intros E1 E2 E3 E4 E5 E6. unfold decode_obj. cbv zeta. now rewrite E1, E2, E3, E4, E5, E6. Qed.

Definition raw_word (raw : Z) : Prop :=
  0 <= raw < 18446744073709551616 /\ raw mod 4 < 2 /\ f_off raw = 0 /\ (raw / 4294967296 <> 0 \/ raw mod 4 <> 0).

Lemma in_seg_intro (ms : segs) sid start size :
  0 <= sid < zlen ms -> 0 <= start -> 0 <= size -> start + size <= seg_len ms sid -> start mod 8 = 0 ->
  in_seg ms sid start size = true.
Proof. intros. unfold in_seg. repeat (apply andb_true_intro; split); lia. Qed.

(* at most one pad: a region at the old end of its segment that holds the pad words *)
Lemma placed_pads (ms' : segs) dsid off tsid taddr raw oldlen pads :
  placed ms' dsid off tsid taddr raw oldlen pads -> (forall i, 0 <= oldlen i /\ oldlen i mod 8 = 0) ->
  (length pads <= 1)%nat /\
  forall p, In p pads -> 0 < r_size p /\ r_start p = oldlen (r_seg p) /\ in_seg ms' (r_seg p) (r_start p) (r_size p) = true.
Proof.
  intros [E W|padAddr Hne -> W1 W2|psid padAddr Hne Hps -> W1 W2 W3] Ho; (split; [cbn; lia|]); intros p Hp.
  - destruct Hp.
  - destruct Hp as [<-|[]]. cbn [r_size r_seg r_start]. split; [lia|]. split; [reflexivity|].
    destruct (word_at_range _ _ _ _ W2) as (X1 & X2 & X3). apply in_seg_intro; try lia; apply Ho.
  - destruct Hp as [<-|[]]. cbn [r_size r_seg r_start]. split; [lia|]. split; [reflexivity|].
    destruct (word_at_range _ _ _ _ W3) as (X1 & X2 & X3). apply in_seg_intro; try lia; apply Ho.
Qed.

(* the near pointer word stored at a for the target taddr decodes like raw at taddr *)
Lemma near_decode (ms : segs) sid a taddr raw :
  raw_word raw -> 0 <= a <= 4294967288 -> a mod 8 = 0 -> 0 <= taddr <= 4294967288 -> taddr mod 8 = 0 ->
  let w := withOffset raw (nearPointerOffset a taddr) in
  (w =? 0) = false /\ f_A w = raw mod 4 /\ decode_obj ms sid (a + 8) w = decode_obj ms sid taddr raw.
Proof.
  intros (Rw & Rt & Ro & Rnz) Ha Am Hta Tm. destruct (nearPointerOffset_ok a taddr) as [N1 N2]; try lia.
  destruct (fields_withOffset raw (nearPointerOffset a taddr) Rw Rt N1) as (Q0 & Q1 & Q2 & Q3 & Q4 & Q5 & Q6 & Q7).
  cbv zeta in *. set (w := withOffset raw (nearPointerOffset a taddr)) in *.
  split; [destruct (w =? 0) eqn:E0; [exfalso; apply (Q7 Rnz); lia|reflexivity]|]. split; [exact Q1|].
  assert (Raw0 : f_A raw = raw mod 4) by reflexivity.
  apply decode_obj_eq; try congruence. rewrite Q2, Ro. lia.
Qed.

Lemma placed_resolve (ms' : segs) dsid off tsid taddr raw oldlen pads :
  placed ms' dsid off tsid taddr raw oldlen pads -> raw_word raw ->
  0 <= off <= 4294967288 -> off mod 8 = 0 -> 0 <= taddr <= 4294967288 -> taddr mod 8 = 0 ->
  0 <= tsid < 4294967296 -> zlen ms' <= 4294967296 ->
  (forall p, In p pads -> 0 <= r_start p /\ r_start p + r_size p <= 4294967288 /\ r_start p mod 8 = 0) ->
  resolve_ptr ms' dsid off = (let '(t, rs) := decode_obj ms' tsid taddr raw in (t, pads ++ rs)).
Proof.
  intros Hp (Rw & Rt & Ro & Rnz) Hoff Hoa Hta Htm Hts Hns Hol.
  assert (Raw0 : f_A raw = raw mod 4) by reflexivity.
  destruct Hp as [E W|padAddr Hne Epa W1 W2|psid padAddr Hne Hps Epa W1 W2 W3].
  - (* near *)
    subst tsid. unfold resolve_ptr. rewrite W.
    destruct (near_decode ms' dsid off taddr raw (conj Rw (conj Rt (conj Ro Rnz)))) as (E0 & Q1 & DE); try lia.
    cbv zeta in *. rewrite E0, Q1, DE. destruct (raw mod 4 =? 3) eqn:E3; [lia|]. destruct (raw mod 4 =? 2) eqn:E2; [lia|].
    destruct (decode_obj ms' dsid taddr raw). reflexivity.
  - (* far *)
    destruct (Hol _ (or_introl eq_refl)) as (P0 & P1 & P2). cbn [r_start r_size] in P0, P1, P2.
    unfold resolve_ptr. rewrite W1.
    destruct (fields_far tsid padAddr Hts ltac:(lia) P2) as (F0 & F1 & F2 & F3 & F4 & F5). cbv zeta in *.
    set (fw := rawFarPointer tsid padAddr) in *.
    destruct (fw =? 0) eqn:E0; [lia|]. rewrite F2. change (2 =? 3) with false. change (2 =? 2) with true. cbv iota.
    rewrite F3, F4, F5. change (0 =? 0) with true. cbv iota.
    destruct (word_at_range _ _ _ _ W2) as (G1 & G2 & G3).
    rewrite in_seg_intro by lia. cbn [negb]. rewrite W2.
    destruct (near_decode ms' tsid padAddr taddr raw (conj Rw (conj Rt (conj Ro Rnz)))) as (EP & Q1 & DE); try lia.
    cbv zeta in *. rewrite EP, Q1, DE. destruct (2 <=? raw mod 4) eqn:E2; [lia|]. cbn [orb].
    destruct (decode_obj ms' tsid taddr raw). reflexivity.
  - (* double far *)
    destruct (Hol _ (or_introl eq_refl)) as (P0 & P1 & P2). cbn [r_start r_size] in P0, P1, P2.
    destruct (word_at_range _ _ _ _ W2) as (G1 & G2 & G3).
    destruct (word_at_range _ _ _ _ W3) as (G4 & G5 & G6).
    assert (Hpsid : 0 <= psid < 4294967296) by lia.
    unfold resolve_ptr. rewrite W1.
    destruct (fields_dfar psid padAddr Hpsid ltac:(lia) P2) as (D0 & D1 & D2 & D3 & D4 & D5). cbv zeta in *.
    set (dw := rawDoubleFarPointer psid padAddr) in *.
    destruct (dw =? 0) eqn:E0; [lia|]. rewrite D2. change (2 =? 3) with false. change (2 =? 2) with true. cbv iota.
    rewrite D3, D4, D5. change (1 =? 0) with false. cbv iota.
    rewrite in_seg_intro by lia. cbn [negb]. rewrite W2, W3.
    destruct (fields_far tsid taddr Hts ltac:(lia) Htm) as (F0 & F1 & F2 & F3 & F4 & F5). cbv zeta in *.
    set (fw := rawFarPointer tsid taddr) in *.
    rewrite F2, F3. change ((2 =? 2) && (0 =? 0)) with true. cbn [negb].
    rewrite Raw0, Ro. destruct (2 <=? raw mod 4) eqn:E2; [lia|]. change (0 =? 0) with true. cbn [negb orb].
    rewrite F4, F5. destruct (decode_obj ms' tsid taddr raw). reflexivity.
Qed.

Definition simple_target (t : target) : Prop := match t with GBad _ => False | _ => True end.
(* targets whose decoding reads nothing but the pointer word itself *)
Definition no_tag (t : target) : Prop := match t with GBad _ | GComp _ _ _ _ _ => False | _ => True end.
(* the tag word a composite-list target depends on *)
Definition tag_pos (t : target) : option (Z * Z) :=
  match t with GComp sid addr _ _ _ => Some (sid, addr - 8) | _ => None end.

Lemma no_tag_simple t : no_tag t -> simple_target t.
Proof. destruct t; cbn; auto. Qed.

Definition grows (ms ms' : segs) : Prop :=
  zlen ms <= zlen ms' /\ forall i, 0 <= i < zlen ms -> seg_len ms i <= seg_len ms' i.

Lemma in_seg_mono (ms ms' : segs) sid st sz : grows ms ms' -> in_seg ms sid st sz = true -> in_seg ms' sid st sz = true.
Proof.
  intros [G1 G2] H. unfold in_seg in *.
  repeat (apply andb_prop in H; destruct H as [H ?]).
  specialize (G2 sid ltac:(lia)). repeat (apply andb_true_intro; split); lia.
Qed.

Ltac bad_target H S := apply (f_equal fst) in H; cbn [fst] in H; subst; cbn in S; contradiction.

Lemma decode_obj_stable (ms ms' : segs) sid base w t rs :
  grows ms ms' -> decode_obj ms sid base w = (t, rs) -> simple_target t ->
  (forall p, tag_pos t = Some p -> word_at ms' (fst p) (snd p) = word_at ms (fst p) (snd p)) ->
  decode_obj ms' sid base w = (t, rs).
Proof.
  intros G H S Wt. unfold decode_obj in *. cbv zeta in *.
  destruct (f_A w =? 0).
  - destruct (in_seg ms sid _ _) eqn:E; [|bad_target H S].
    rewrite (in_seg_mono _ _ _ _ _ G E). exact H.
  - destruct (f_C w <? 7).
    + destruct (in_seg ms sid _ _) eqn:E; [|bad_target H S].
      rewrite (in_seg_mono _ _ _ _ _ G E). exact H.
    + destruct (in_seg ms sid (base + 8 * f_off w) (8 + 8 * f_D w)) eqn:E; cbn [negb] in *; [|bad_target H S].
      rewrite (in_seg_mono _ _ _ _ _ G E). cbn [negb].
      destruct (word_at ms sid (base + 8 * f_off w)) as [tag|] eqn:EW; [|bad_target H S].
      destruct (negb (f_A tag =? 0)) eqn:E2; [bad_target H S|].
      destruct (negb (_ =? f_D w)) eqn:E3; [bad_target H S|].
      assert (Et : t = GComp sid (base + 8 * f_off w + 8) ((tag / 4) mod two30) (f_dw tag) (f_pc tag)).
      { apply (f_equal fst) in H. cbn [fst] in H. auto. }
      specialize (Wt (sid, base + 8 * f_off w + 8 - 8)). rewrite Et in Wt. specialize (Wt eq_refl). cbn [fst snd] in Wt.
      replace (base + 8 * f_off w + 8 - 8) with (base + 8 * f_off w) in Wt by lia.
      rewrite Wt, EW, E2, E3. exact H.
Qed.

Lemma decode_obj_one (ms : segs) sid base w t rs :
  decode_obj ms sid base w = (t, rs) -> simple_target t -> exists r, rs = [r].
Proof.
  intros H S. unfold decode_obj in H. cbv zeta in H.
  destruct (f_A w =? 0).
  - destruct (in_seg ms sid _ _); [|bad_target H S]. apply (f_equal snd) in H. cbn [snd] in H. subst rs. eexists; reflexivity.
  - destruct (f_C w <? 7).
    + destruct (in_seg ms sid _ _); [|bad_target H S]. apply (f_equal snd) in H. cbn [snd] in H. subst rs. eexists; reflexivity.
    + destruct (negb (in_seg ms sid _ _)); [bad_target H S|].
      destruct (word_at ms sid (base + 8 * f_off w)) as [tag|]; [|bad_target H S].
      destruct (negb (f_A tag =? 0)); [bad_target H S|].
      destruct (negb _); [bad_target H S|].
      apply (f_equal snd) in H. cbn [snd] in H. subst rs. eexists; reflexivity.
Qed.

(* the words of a region *)
Definition word_in (r : region) (i b : Z) : Prop :=
  i = r_seg r /\ r_start r <= b /\ b + 8 <= r_start r + r_size r.

Lemma resolve_stable (ms ms' : segs) s a t rs :
  grows ms ms' -> resolve_ptr ms s a = (t, rs) -> simple_target t ->
  word_at ms' s a = word_at ms s a ->
  (forall r i b, In r (removelast rs) -> word_in r i b -> word_at ms' i b = word_at ms i b) ->
  (forall p, tag_pos t = Some p -> word_at ms' (fst p) (snd p) = word_at ms (fst p) (snd p)) ->
  resolve_ptr ms' s a = (t, rs).
Proof.
  intros G H S W0 Wp Wt. unfold resolve_ptr in *. rewrite W0.
  destruct (word_at ms s a) as [w|]; [|bad_target H S].
  destruct (w =? 0); [exact H|].
  destruct (f_A w =? 3); [exact H|].
  destruct (f_A w =? 2).
  - cbv zeta in *. destruct (f_B w =? 0).
    + destruct (in_seg ms (f_seg w) (8 * f_padoff w) 8) eqn:E; cbn [negb] in H; [|bad_target H S].
      rewrite (in_seg_mono _ _ _ _ _ G E). cbn [negb].
      destruct (word_at ms (f_seg w) (8 * f_padoff w)) as [pw|] eqn:EW; [|bad_target H S].
      destruct ((pw =? 0) || (2 <=? f_A pw)) eqn:EB; [bad_target H S|].
      destruct (decode_obj ms (f_seg w) (8 * f_padoff w + 8) pw) as [t0 rs0] eqn:ED.
      assert (Et : t0 = t) by (apply (f_equal fst) in H; exact H).
      assert (Er : mkReg (f_seg w) (8 * f_padoff w) 8 :: rs0 = rs) by (apply (f_equal snd) in H; exact H).
      subst t rs.
      rewrite (Wp (mkReg (f_seg w) (8 * f_padoff w) 8) (f_seg w) (8 * f_padoff w)).
      * rewrite EW, EB. rewrite (decode_obj_stable _ _ _ _ _ _ _ G ED S Wt). reflexivity.
      * (* the pad is not the last region: the object follows *)
        destruct (decode_obj_one _ _ _ _ _ _ ED S) as [r0 ->]. cbn [removelast]. left. reflexivity.
      * unfold word_in. cbn. lia.
    + destruct (in_seg ms (f_seg w) (8 * f_padoff w) 16) eqn:E; cbn [negb] in H; [|bad_target H S].
      rewrite (in_seg_mono _ _ _ _ _ G E). cbn [negb].
      destruct (word_at ms (f_seg w) (8 * f_padoff w)) as [fw|] eqn:EW1; [|bad_target H S].
      destruct (word_at ms (f_seg w) (8 * f_padoff w + 8)) as [tag|] eqn:EW2; [|bad_target H S].
      destruct (negb ((f_A fw =? 2) && (f_B fw =? 0))) eqn:EB1; [bad_target H S|].
      destruct ((2 <=? f_A tag) || negb (f_off tag =? 0)) eqn:EB2; [bad_target H S|].
      destruct (decode_obj ms (f_seg fw) (8 * f_padoff fw) tag) as [t0 rs0] eqn:ED.
      assert (Et : t0 = t) by (apply (f_equal fst) in H; exact H).
      assert (Er : mkReg (f_seg w) (8 * f_padoff w) 16 :: rs0 = rs) by (apply (f_equal snd) in H; exact H).
      subst t rs.
      assert (NL : In (mkReg (f_seg w) (8 * f_padoff w) 16) (removelast (mkReg (f_seg w) (8 * f_padoff w) 16 :: rs0))).
      { destruct (decode_obj_one _ _ _ _ _ _ ED S) as [r0 ->]. left. reflexivity. }
      rewrite (Wp _ (f_seg w) (8 * f_padoff w) NL) by (unfold word_in; cbn; lia).
      rewrite (Wp _ (f_seg w) (8 * f_padoff w + 8) NL) by (unfold word_in; cbn; lia).
      rewrite EW1, EW2, EB1, EB2. rewrite (decode_obj_stable _ _ _ _ _ _ _ G ED S Wt). reflexivity.
  - destruct (decode_obj ms s (a + 8) w) as [t0 rs0] eqn:ED.
    assert (Et : t0 = t) by (apply (f_equal fst) in H; exact H).
    assert (Er : rs0 = rs) by (apply (f_equal snd) in H; exact H). subst.
    rewrite (decode_obj_stable _ _ _ _ _ _ _ G ED S Wt). reflexivity.
Qed.

(* the handles constructors return are the objects of the table; a composite list's region
   starts with its tag word, one word before the handle's offset *)
Definition obj_bytes (h : Ptr) : Z :=
  match p_kind h with KStruct => totalSize (p_size h) | KList => list_allocSize h | KIface => 0 end.
Definition obj_start (h : Ptr) : Z := if p_comp h then p_off h - 8 else p_off h.
Definition obj_reg (h : Ptr) : region := mkReg (p_seg h) (obj_start h) (padToWord (obj_bytes h)).

Definition et_of (h : Ptr) : Z :=
  if p_bit h then 1 else if PointerCount (p_size h) =? 1 then 6
  else let d := DataSize (p_size h) in
       if d =? 0 then 0 else if d =? 1 then 2 else if d =? 2 then 3 else if d =? 4 then 4 else 5.

Definition tgt_of (h : Ptr) : target :=
  match p_kind h with
  | KStruct => GStruct (p_seg h) (p_off h) (DataSize (p_size h) / 8) (PointerCount (p_size h))
  | KList => if p_comp h then GComp (p_seg h) (p_off h) (p_len h) (DataSize (p_size h) / 8) (PointerCount (p_size h))
             else GList (p_seg h) (p_off h) (et_of h) (p_len h)
  | KIface => GNull
  end.

(* the shapes constructors produce *)
Definition wc_of (h : Ptr) : Z := DataSize (p_size h) / 8 + PointerCount (p_size h).
Definition shape_ok (h : Ptr) : Prop :=
  match p_kind h with
  | KStruct => os_wf (p_size h) /\ p_comp h = false /\ p_len h = 0 /\ p_bit h = false
  | KList => 0 <= p_len h < 536870912 /\
             (p_comp h = false /\
              (p_bit h = true /\ p_size h = mkOS 0 0 \/
               p_bit h = false /\ (p_size h = mkOS 0 1 \/ exists d, p_size h = mkOS d 0 /\ (d = 0 \/ d = 1 \/ d = 2 \/ d = 4 \/ d = 8))) \/
              p_comp h = true /\ p_bit h = false /\ os_wf (p_size h) /\ p_len h * wc_of h < 536870911)
  | KIface => False
  end.

Definition good (ms : segs) (h : Ptr) : Prop :=
  shape_ok h /\ 0 <= p_seg h < 4294967296 /\
  in_seg ms (p_seg h) (obj_start h) (r_size (obj_reg h)) = true /\ p_off h <= 4294967288.

(* the tag word of a composite list *)
Definition tag_ok (ms : segs) (h : Ptr) : Prop :=
  p_kind h = KList -> p_comp h = true ->
  exists tag, rawStructPointer (p_len h) (p_size h) = Some tag /\ word_at ms (p_seg h) (p_off h - 8) = Some tag.

(* the pointer word writePtr places for an object *)
Definition raw_of (h : Ptr) : res Z :=
  match p_kind h with
  | KStruct => of_opt_panic (rawStructPointer 0 (p_size h))
  | KList => list_raw h
  | KIface => Err
  end.

Lemma fields_tag n sz : os_wf sz -> 0 <= n < 536870912 ->
  exists tag, rawStructPointer n sz = Some tag /\ 0 <= tag < 18446744073709551616 /\ f_A tag = 0 /\
    (tag / 4) mod two30 = n /\ f_dw tag = DataSize sz / 8 /\ f_pc tag = PointerCount sz.
Proof.
  intros Hw Hn. rewrite rawStructPointer_sum by assumption. destruct Hw as (Hd & Hm & Hp).
  eexists. split; [reflexivity|]. unf. repeat split; lia.
Qed.

Lemma list_bytes_eq n bits : 0 <= n < 536870912 -> (bits = 0 \/ bits = 1 \/ bits = 8 \/ bits = 16 \/ bits = 32 \/ bits = 64) ->
  (n * bits + 63) / 64 * 8 = ((n * bits + 7) / 8 + 7) / 8 * 8.
Proof. intros Hn [->|[->|[->|[->|[->| ->]]]]]; lia. Qed.

Lemma times_small sz n : 0 <= sz <= 8 -> 0 <= n < 536870912 -> times sz n = Some (sz * n).
Proof.
  intros Hs Hn. unfold times. cbv zeta.
  destruct ((sz * n >? maxSegmentSize) || (sz * n <? 0)) eqn:E; [unfold maxSegmentSize in E; nia|reflexivity].
Qed.

Lemma list_alloc_plain h d pc :
  p_valid h = true -> p_comp h = false -> p_bit h = false -> p_size h = mkOS d pc ->
  0 <= d <= 8 -> (pc = 0 \/ pc = 1 /\ d = 0) -> 0 <= p_len h < 536870912 ->
  list_allocSize h = (d + 8 * pc) * p_len h.
Proof.
  intros Hv Hc Hb Hs Hd Hp Hn. unfold list_allocSize. rewrite Hv, Hb, Hc, Hs. cbn [negb].
  assert (T : totalSize (mkOS d pc) = d + 8 * pc).
  { unfold totalSize, pointerSize, u32. cbn [DataSize PointerCount]. lia. }
  rewrite T. rewrite times_small by lia. reflexivity.
Qed.

Lemma totalSize_wf sz : os_wf sz -> totalSize sz = 8 * (DataSize sz / 8 + PointerCount sz).
Proof. intros (Hd & Hm & Hp). unfold totalSize, pointerSize, u32. lia. Qed.

Lemma wc_of_nonneg h : os_wf (p_size h) -> 0 <= wc_of h.
Proof. intros (Hd & _ & Hp). unfold wc_of. lia. Qed.

Lemma list_alloc_comp h :
  p_valid h = true -> p_comp h = true -> p_bit h = false -> os_wf (p_size h) ->
  0 <= p_len h -> p_len h * wc_of h < 536870911 ->
  list_allocSize h = 8 + 8 * (p_len h * wc_of h).
Proof.
  intros Hv Hc Hb Hw Hn Ht. unfold list_allocSize. rewrite Hv, Hb, Hc. cbn [negb].
  rewrite (totalSize_wf _ Hw). fold (wc_of h).
  assert (W0 : 0 <= wc_of h) by (unfold wc_of; destruct Hw as (Hd & Hm & Hp); lia).
  unfold times. cbv zeta.
  assert (E : 8 * wc_of h * p_len h = 8 * (p_len h * wc_of h)) by ring. rewrite E.
  set (k := p_len h * wc_of h) in *. assert (K0 : 0 <= k) by (unfold k; nia). clearbody k.
  destruct ((8 * k >? maxSegmentSize) || (8 * k <? 0)) eqn:EB; [unfold maxSegmentSize in EB; lia|].
  unfold u32. lia.
Qed.

(* a composite list: its tag word, then p_len elements of wc_of words *)
Lemma comp_list_size h :
  p_valid h = true -> p_comp h = true -> p_bit h = false -> os_wf (p_size h) ->
  0 <= p_len h -> p_len h * wc_of h < 536870911 ->
  0 <= wc_of h /\ 0 <= p_len h * wc_of h /\ padToWord (list_allocSize h) = 8 + 8 * (p_len h * wc_of h).
Proof.
  intros Hv Hc Hb Hw Hn Ht. rewrite (list_alloc_comp h) by assumption.
  assert (W0 : 0 <= wc_of h) by (unfold wc_of; destruct Hw as (Hd & Hm & Hp); lia).
  assert (K0 : 0 <= p_len h * wc_of h) by nia. unfold padToWord, u32. lia.
Qed.

(* the pointer word and the padded size of a list of a non-composite element type *)
Lemma plain_list_raw h :
  p_valid h = true -> p_comp h = false -> 0 <= p_len h < 536870912 ->
  (p_bit h = true /\ p_size h = mkOS 0 0 \/
   p_bit h = false /\ (p_size h = mkOS 0 1 \/ exists d, p_size h = mkOS d 0 /\ (d = 0 \/ d = 1 \/ d = 2 \/ d = 4 \/ d = 8))) ->
  list_raw h = Ok (rawListPointer 0 (et_of h) (p_len h)) /\ 0 <= et_of h < 7 /\
  padToWord (list_allocSize h) = (p_len h * et_bits (et_of h) + 63) / 64 * 8.
Proof.
  intros Hv Hc Hn Hk.
  assert (HA : forall d pc, p_bit h = false -> p_size h = mkOS d pc -> 0 <= d <= 8 -> (pc = 0 \/ pc = 1 /\ d = 0) ->
            padToWord (list_allocSize h) = (p_len h * (8 * (d + 8 * pc)) + 63) / 64 * 8).
  { intros d pc Hb E1 E2 E3. rewrite (list_alloc_plain h d pc) by auto.
    assert (K : 0 <= (d + 8 * pc) * p_len h <= 4294967288) by nia.
    replace (p_len h * (8 * (d + 8 * pc))) with (8 * ((d + 8 * pc) * p_len h)) by ring.
    set (k := (d + 8 * pc) * p_len h) in *. clearbody k. unfold padToWord, u32. lia. }
  (* with the fields of h known, list_raw and et_of compute *)
  destruct h as [v sg o ln sz dp kd cp bt mb]. cbn [p_valid p_comp p_len p_bit p_size] in *. subst v cp.
  destruct Hk as [[-> ->]|[-> [->|(d & -> & [->|[->|[->|[->| ->]]]])]]];
    (split; [reflexivity|split; [now cbv|]]); try (rewrite (HA _ _ eq_refl eq_refl) by lia; reflexivity).
  unfold list_allocSize, bitListSize, padToWord, u32. cbn [p_valid p_bit p_len negb]. change (et_bits _) with 1. lia.
Qed.

Lemma obj_decode (ms : segs) h :
  p_valid h = true -> good ms h -> tag_ok ms h -> (p_kind h = KStruct -> os_isZero (p_size h) = false) ->
  exists raw, raw_of h = Ok raw /\ raw_word raw /\
    decode_obj ms (p_seg h) (obj_start h) raw = (tgt_of h, [obj_reg h]).
Proof.
  intros Hv (Hs & Hseg & Hin & Hoff) Htag Hnz. unfold raw_of, tgt_of, obj_reg, obj_bytes, shape_ok in *.
  destruct (p_kind h) eqn:EK.
  - (* struct *)
    specialize (Hnz eq_refl). destruct Hs as (Hs & Hcomp & _). unfold obj_start in *. rewrite Hcomp in *.
    destruct (fields_struct (p_size h) Hs) as (raw & E & R0 & R1 & R2 & R3 & R4 & R5).
    exists raw. rewrite E. cbn [of_opt_panic]. split; [reflexivity|].
    pose proof Hs as (Hd & Hm & Hp). rewrite (totalSize_wf _ Hs), padToWord_aligned in * by lia.
    split.
    + unfold raw_word. split; [exact R0|]. split; [lia|]. split; [exact R4|].
      left. rewrite R5. unfold os_isZero in Hnz. lia.
    + unfold decode_obj. cbv zeta. unfold f_A. rewrite R1. change (0 =? 0) with true. cbv iota.
      rewrite R4, R2, R3. replace (p_off h + 8 * 0) with (p_off h) by lia.
      cbn [r_size] in Hin. rewrite Hin. reflexivity.
  - (* list *)
    destruct Hs as (Hn & [(Hc & Hk)|(Hc & Hb & Hw & Ht)]).
    + unfold obj_start in *. rewrite Hc in *.
    destruct (plain_list_raw h Hv Hc Hn Hk) as (L1 & L3 & L5).
    exists (rawListPointer 0 (et_of h) (p_len h)). split; [exact L1|].
    destruct (fields_list (et_of h) (p_len h) ltac:(lia) Hn) as (F0 & F1 & F2 & F3 & F4). cbv zeta in *.
    set (raw := rawListPointer 0 (et_of h) (p_len h)) in *. split.
    * unfold raw_word. split; [exact F0|]. split; [lia|]. split; [exact F4|]. right. lia.
    * unfold decode_obj. cbv zeta. unfold f_A. rewrite F1. change (1 =? 0) with false. cbv iota.
      rewrite F2, F3, F4. destruct (et_of h <? 7) eqn:E7; [|lia].
      replace (p_off h + 8 * 0) with (p_off h) by lia.
      cbn [r_size] in Hin. rewrite L5 in Hin. rewrite Hin. rewrite L5. reflexivity.
    + (* composite list *)
      unfold obj_start in *. rewrite Hc in *.
      destruct (Htag EK Hc) as (tag & Etag & Wtag).
      destruct (comp_list_size h Hv Hc Hb Hw (proj1 Hn) Ht) as (W0 & K0 & PW).
      assert (TW : totalWordCount (p_size h) = Some (wc_of h)).
      { unfold totalWordCount, dataWordCount, wc_of. destruct Hw as (Hd & Hm & Hp). rewrite Hm. cbn [Z.eqb].
        f_equal. apply s32_id. lia. }
      assert (S32 : s32 (p_len h * wc_of h) = p_len h * wc_of h) by (apply s32_id; lia).
      exists (rawListPointer 0 7 (p_len h * wc_of h)). split.
      { unfold list_raw. rewrite Hv, Hc, TW. cbn [negb]. now rewrite S32. }
      destruct (fields_list 7 (p_len h * wc_of h) ltac:(lia) ltac:(lia)) as (F0 & F1 & F2 & F3 & F4). cbv zeta in *.
      set (raw := rawListPointer 0 7 (p_len h * wc_of h)) in *. split.
      * unfold raw_word. split; [exact F0|]. split; [lia|]. split; [exact F4|]. right. lia.
      * rewrite PW in *. cbn [r_size] in Hin.
        destruct (fields_tag (p_len h) (p_size h) Hw Hn) as (tag' & Etag' & T0 & T1 & T2 & T3 & T4).
        rewrite Etag in Etag'. assert (tag' = tag) by congruence. subst tag'.
        unfold decode_obj. cbv zeta. unfold f_A at 1. rewrite F1. change (1 =? 0) with false. cbv iota.
        rewrite F2, F3, F4. change (7 <? 7) with false. cbv iota.
        replace (p_off h - 8 + 8 * 0) with (p_off h - 8) by lia.
        rewrite Hin. cbn [negb]. rewrite Wtag. rewrite T1. change (0 =? 0) with true. cbn [negb].
        rewrite T2, T3, T4. fold (wc_of h). rewrite Z.eqb_refl. cbn [negb].
        replace (p_off h - 8 + 8) with (p_off h) by lia. reflexivity.
  - destruct Hs.
Qed.

Lemma seg_len_bm m i : seg_len (bm_data m) i = zlen (mem m i).
Proof. unfold seg_len. now rewrite nth_bm_data. Qed.

Lemma zlen_bm m : zlen (bm_data m) = nsegs m.
Proof. unfold bm_data, nsegs. apply zlen_map. Qed.

Lemma word_at_sub m i b : 0 <= i < nsegs m -> 0 <= b -> b + 8 <= zlen (mem m i) ->
  word_at (bm_data m) i b = Some (le_decode (sub (mem m i) b 8)).
Proof.
  intros Hi Hb Hl. unfold word_at. cbv zeta. rewrite zlen_bm, nth_bm_data.
  assert (C1 : (0 <=? i) && (i <? nsegs m) = true) by (apply andb_true_intro; split; lia).
  assert (C2 : (0 <=? b) && (b + 8 <=? zlen (mem m i)) = true) by (apply andb_true_intro; split; lia).
  rewrite C1, C2. reflexivity.
Qed.

Lemma word_at_bm m i b w : word_at (bm_data m) i b = Some w -> 0 <= i < nsegs m /\ 0 <= b /\ b + 8 <= zlen (mem m i).
Proof. intros E. apply word_at_range in E. now rewrite zlen_bm, seg_len_bm in E. Qed.

Lemma keeps_word m m' (R : Z -> Z -> Prop) i b :
  keeps m m' R -> 0 <= i < nsegs m -> nsegs m <= nsegs m' -> 0 <= b -> b + 8 <= zlen (mem m i) ->
  (forall k, b <= k < b + 8 -> ~ R i k) ->
  word_at (bm_data m') i b = word_at (bm_data m) i b.
Proof.
  intros K Hi Hn Hb Hl HR. pose proof (proj1 K i ltac:(lia)) as L.
  rewrite !word_at_sub by lia. f_equal. f_equal. eapply keeps_sub; eauto; lia.
Qed.

Lemma keeps_grows m m' R : keeps m m' R -> nsegs m <= nsegs m' -> grows (bm_data m) (bm_data m').
Proof.
  intros K Hn. split; [rewrite !zlen_bm; exact Hn|]. intros i Hi. rewrite !seg_len_bm. apply (proj1 K). lia.
Qed.

Definition root_reg : region := mkReg 0 0 8.
Definition slots (h : Ptr) : list (Z * Z) := children (tgt_of h).
Definition in_msg (ms : segs) (r : region) : Prop := in_seg ms (r_seg r) (r_start r) (r_size r) = true.

Definition empty_struct_word : Z := 4294967292.   (* rawStructPointer (-1) (mkOS 0 0) *)
Lemma empty_struct_word_eq : rawStructPointer (-1) (mkOS 0 0) = Some empty_struct_word.
Proof. reflexivity. Qed.

(* what a pointer slot holds: the null word, the inline empty struct (offset -1), the words the
   placement switch stores for a table object (with pads of the pad table), or a capability
   pointer *)
Definition slot_ok (ms : segs) (pads : list region) (objs : list Ptr) (q : Z * Z) : Prop :=
  word_at ms (fst q) (snd q) = Some 0 \/
  word_at ms (fst q) (snd q) = Some empty_struct_word \/
  (exists h ps raw oldlen, In h objs /\ incl ps pads /\ raw_of h = Ok raw /\
    (p_kind h = KStruct -> os_isZero (p_size h) = false) /\
    placed ms (fst q) (snd q) (p_seg h) (obj_start h) raw oldlen ps) \/
  (exists idx, 0 <= idx < 4294967296 /\ word_at ms (fst q) (snd q) = Some (rawInterfacePointer idx)).

(* ... and how the strict validator resolves it *)
Definition slot_res (ms : segs) (pads : list region) (objs : list Ptr) (q : Z * Z) : Prop :=
  exists t rs, resolve_ptr ms (fst q) (snd q) = (t, rs) /\ simple_target t /\
    (rs = [] /\ no_tag t \/ exists ps r, rs = ps ++ [r] /\ incl ps pads /\
        (r_size r = 0 /\ no_tag t \/ exists h, In h objs /\ r = obj_reg h /\ t = tgt_of h)).

(* a set of written bytes that spares the tag word of a composite list *)
Definition tag_free (R : Z -> Z -> Prop) (h : Ptr) : Prop :=
  p_kind h = KList -> p_comp h = true -> forall k, p_off h - 8 <= k < p_off h -> ~ R (p_seg h) k.

Definition regsO (objs : list Ptr) : list region := root_reg :: map obj_reg objs.
Definition all_regs (objs : list Ptr) (pads : list region) : list region := regsO objs ++ pads.
Definition ord_disjoint (l : list region) : Prop :=
  forall i j, (i < j)%nat -> (j < length l)%nat -> reg_disjoint (nth i l root_reg) (nth j l root_reg) = true.

(* [objs]: the objects allocated so far, a handle each, in allocation order; [pads]: the landing
   pads of the far pointers stored so far *)
Record hinv (m : bmsg) (objs : list Ptr) (pads : list region) : Prop := mkHinv {
  hi_inv : inv m;
  hi_small : segs_small m;
  hi_nsegs : nsegs m < 4294967296;
  hi_good : forall h, In h objs -> p_valid h = true /\ good (bm_data m) h;
  hi_tags : forall h, In h objs -> tag_ok (bm_data m) h;
  hi_in : forall r, In r (all_regs objs pads) -> in_msg (bm_data m) r;
  hi_pads : forall r, In r pads -> 0 < r_size r;
  hi_disjO : ord_disjoint (regsO objs);
  hi_disjP : ord_disjoint pads;
  hi_cross : forall a p, In a (regsO objs) -> In p pads -> reg_disjoint a p = true;
  hi_slots : forall q, In q ((0, 0) :: flat_map slots objs) -> slot_ok (bm_data m) pads objs q
}.

Lemma ord_disjoint_snoc l x : ord_disjoint l -> (forall a, In a l -> reg_disjoint a x = true) -> ord_disjoint (l ++ [x]).
Proof.
  intros H Hx i j Hij Hj. rewrite app_length in Hj. cbn [length] in Hj.
  destruct (Nat.lt_ge_cases j (length l)) as [L|G].
  - rewrite !app_nth1 by lia. apply H; auto.
  - assert (j = length l) by lia. subst j. rewrite (app_nth1 l [x]) by lia. rewrite app_nth2 by lia.
    rewrite Nat.sub_diag. cbn [nth]. apply Hx. apply nth_In. lia.
Qed.

Lemma in_seg_elim (ms : segs) sid st sz : in_seg ms sid st sz = true ->
  0 <= sid < zlen ms /\ 0 <= st /\ 0 <= sz /\ st + sz <= seg_len ms sid /\ st mod 8 = 0.
Proof. unfold in_seg. intros H. repeat (apply andb_prop in H; destruct H as [H ?]). lia. Qed.

Lemma hi_in_regsO m objs pads a : hinv m objs pads -> In a (regsO objs) -> in_msg (bm_data m) a.
Proof. intros H Ha. apply (hi_in _ _ _ H). apply in_or_app. left. exact Ha. Qed.

Lemma hi_in_pad m objs pads a : hinv m objs pads -> In a pads -> in_msg (bm_data m) a.
Proof. intros H Ha. apply (hi_in _ _ _ H). apply in_or_app. right. exact Ha. Qed.

Lemma in_seg_elim_bm m sid st sz : in_seg (bm_data m) sid st sz = true ->
  0 <= sid < nsegs m /\ 0 <= st /\ 0 <= sz /\ st + sz <= zlen (mem m sid) /\ st mod 8 = 0.
Proof. intros G. apply in_seg_elim in G. now rewrite zlen_bm, seg_len_bm in G. Qed.

Lemma in_zseq a start step n : In a (zseq start step n) <-> exists k, 0 <= k < Z.of_nat n /\ a = start + step * k.
Proof.
  unfold zseq. rewrite in_map_iff. split.
  - intros (j & <- & Hj). apply in_seq in Hj. exists (Z.of_nat j). split; [lia|reflexivity].
  - intros (k & Hk & ->). exists (Z.to_nat k). split; [rewrite Z2Nat.id by lia; reflexivity|apply in_seq; lia].
Qed.

(* a struct object: its data section, then its pointer slots *)
Lemma struct_obj h : shape_ok h -> p_kind h = KStruct ->
  os_wf (p_size h) /\ obj_start h = p_off h /\
  r_size (obj_reg h) = DataSize (p_size h) + 8 * PointerCount (p_size h) /\
  forall q, In q (slots h) <-> exists k, 0 <= k < PointerCount (p_size h) /\ q = (p_seg h, p_off h + DataSize (p_size h) + 8 * k).
Proof.
  intros Sh Ek. unfold shape_ok in Sh. rewrite Ek in Sh. destruct Sh as (Hw & Hc & _). pose proof Hw as (Hd & Hm & Hp).
  unfold obj_reg, obj_start, obj_bytes, slots, tgt_of. rewrite Ek, Hc. cbn [r_size children].
  rewrite (totalSize_wf _ Hw), padToWord_aligned by lia.
  split; [exact Hw|]. split; [reflexivity|]. split; [lia|].
  intros q. rewrite in_map_iff. split.
  - intros (a & <- & Ha). apply in_zseq in Ha. destruct Ha as (k & Hk & ->). exists k. split; [lia|f_equal; lia].
  - intros (k & Hk & ->). exists (p_off h + 8 * (DataSize (p_size h) / 8) + 8 * k). split; [f_equal; lia|].
    apply in_zseq. exists k. split; [lia|reflexivity].
Qed.

(* a list object other than a bit list: [p_len h] elements of [totalSize (p_size h)] bytes from
   [p_off h] on (behind the tag word of a composite list), each a data section followed by its
   pointer slots *)
Lemma list_elems h : p_valid h = true -> shape_ok h -> p_kind h = KList -> p_bit h = false ->
  wf_size (p_size h) /\ 0 <= p_len h /\
  totalSize (p_size h) = DataSize (p_size h) + 8 * PointerCount (p_size h) /\
  obj_bytes h = (if p_comp h then 8 else 0) + p_len h * totalSize (p_size h) /\
  obj_start h <= p_off h /\ p_off h + p_len h * totalSize (p_size h) <= obj_start h + r_size (obj_reg h) /\
  (forall q, In q (slots h) <-> exists e k, 0 <= e < p_len h /\ 0 <= k < PointerCount (p_size h) /\
    q = (p_seg h, p_off h + e * totalSize (p_size h) + DataSize (p_size h) + 8 * k)) /\
  (0 < PointerCount (p_size h) -> DataSize (p_size h) mod 8 = 0).
Proof.
  intros Hv Sh Ek Hb. unfold shape_ok in Sh. rewrite Ek in Sh.
  unfold obj_reg, obj_start, obj_bytes, slots, tgt_of. rewrite Ek. cbn [r_size].
  destruct Sh as (Hn & [(Hc & [[X _]|[_ Hsz]])|(Hc & _ & Hw & Ht)]); [congruence| |]; rewrite Hc.
  - (* plain: pointers (0, 1), or data of 0, 1, 2, 4 or 8 bytes *)
    assert (Hd : exists d pc, p_size h = mkOS d pc /\ (pc = 1 /\ d = 0 \/ pc = 0 /\ (d = 0 \/ d = 1 \/ d = 2 \/ d = 4 \/ d = 8))).
    { destruct Hsz as [E|(d & E & Hd)]; [exists 0, 1|exists d, 0]; auto. }
    clear Hsz. destruct Hd as (d & pc & Hsz & Hd).
    rewrite (list_alloc_plain h d pc) by (auto; lia). unfold et_of. rewrite Hb, Hsz. cbn [DataSize PointerCount].
    assert (TS : totalSize (mkOS d pc) = d + 8 * pc) by (destruct Hd as [[-> ->]|[-> [->|[->|[->|[->| ->]]]]]]; reflexivity).
    rewrite TS.
    assert (B : 0 <= p_len h * (d + 8 * pc) <= 4294967288) by nia.
    pose proof (padToWord_facts _ B) as (P1 & _).
    split; [unfold wf_size; cbn [DataSize PointerCount]; lia|]. split; [lia|]. split; [reflexivity|]. split; [ring|]. split; [lia|].
    split; [replace ((d + 8 * pc) * p_len h) with (p_len h * (d + 8 * pc)) by ring; lia|].
    split; [|lia]. intros q. destruct Hd as [[-> ->]|[-> Hd]].
    + cbn [Z.eqb Pos.eqb children]. rewrite in_map_iff. split.
      * intros (a & <- & Ha). apply in_zseq in Ha. destruct Ha as (e & He & ->). exists e, 0. split; [lia|]. split; [lia|]. f_equal. lia.
      * intros (e & k & He & Hk & ->). exists (p_off h + 8 * e). split; [f_equal; lia|]. apply in_zseq. exists e. split; [lia|reflexivity].
    + assert (E6 : ((if d =? 0 then 0 else if d =? 1 then 2 else if d =? 2 then 3 else if d =? 4 then 4 else 5) =? 6) = false)
        by (destruct Hd as [->|[->|[->|[->| ->]]]]; reflexivity).
      cbn [Z.eqb children]. cbv zeta. rewrite E6. split; [intros []|]. intros (e & k & _ & Hk & _). lia.
  - (* composite *)
    pose proof (wc_of_nonneg h Hw) as W0. pose proof Hw as (Hd & Hm & Hp).
    rewrite (list_alloc_comp h) by (auto; lia). rewrite (totalSize_wf _ Hw). fold (wc_of h).
    assert (K0 : 0 <= p_len h * wc_of h) by nia.
    rewrite padToWord_aligned by lia.
    split; [unfold wf_size; lia|]. split; [lia|]. split; [unfold wc_of; lia|]. split; [ring|]. split; [lia|]. split; [lia|].
    split; [|intros _; exact Hm]. intros q. cbn [children]. rewrite in_flat_map. split.
    + intros (e & He & Hq). apply in_zseq in He. destruct He as (e' & He & ->). apply in_map_iff in Hq.
      destruct Hq as (a & <- & Ha). apply in_zseq in Ha. destruct Ha as (k & Hk & ->). exists e', k.
      split; [lia|]. split; [lia|]. f_equal. unfold wc_of. lia.
    + intros (e & k & He & Hk & ->). exists e. split; [apply in_zseq; exists e; lia|]. apply in_map_iff.
      exists (p_off h + 8 * (e * wc_of h + DataSize (p_size h) / 8) + 8 * k). split; [f_equal; unfold wc_of; lia|].
      apply in_zseq. exists k. split; [lia|reflexivity].
Qed.

(* a bit list has no pointer slots *)
Lemma bit_list_slots h : shape_ok h -> p_kind h = KList -> p_bit h = true -> slots h = [].
Proof.
  intros Sh Ek Hb. unfold shape_ok in Sh. rewrite Ek in Sh.
  destruct Sh as (_ & [(Hc & _)|(_ & X & _)]); [|congruence]. unfold slots, tgt_of, et_of. now rewrite Ek, Hc, Hb.
Qed.

(* a slot's own word lies inside its object (or is the root word) *)
Lemma slot_in_obj (ms : segs) h q : p_valid h = true -> good ms h -> In q (slots h) ->
  fst q = p_seg h /\ p_off h <= snd q /\ snd q + 8 <= obj_start h + r_size (obj_reg h) /\ snd q mod 8 = p_off h mod 8.
Proof.
  intros Hv (Hs & _) Hq. destruct (p_kind h) eqn:EK.
  - destruct (struct_obj h Hs EK) as ((Hd & Hm & Hp) & OS & RS & SL). apply SL in Hq. destruct Hq as (k & Hk & ->).
    cbn [fst snd]. rewrite OS, RS. lia.
  - destruct (p_bit h) eqn:Hb; [rewrite (bit_list_slots h Hs EK Hb) in Hq; destruct Hq|].
    destruct (list_elems h Hv Hs EK Hb) as ((Hd & Hp) & Hn & TS & _ & OS & OE & SL & Dm). apply SL in Hq.
    destruct Hq as (e & k & He & Hk & ->). cbn [fst snd]. specialize (Dm ltac:(lia)).
    destruct (elem_range e (p_len h) (totalSize (p_size h)) He ltac:(lia)) as [K1 K2].
    set (a := e * totalSize (p_size h)) in *. set (b := p_len h * totalSize (p_size h)) in *.
    assert (a mod 8 = 0) by (unfold a; rewrite TS; clear - Dm; nia).
    clearbody a b. lia.
  - unfold shape_ok in Hs. rewrite EK in Hs. destruct Hs.
Qed.

Lemma removelast_snoc {A} (l : list A) x : removelast (l ++ [x]) = l.
Proof. apply removelast_last. Qed.

Lemma tag_ok_frame m m' (R : Z -> Z -> Prop) h :
  keeps m m' R -> nsegs m <= nsegs m' -> tag_ok (bm_data m) h -> tag_free R h -> tag_ok (bm_data m') h.
Proof.
  intros K Hn T F Ek Hc. destruct (T Ek Hc) as (tag & E1 & E2). exists tag. split; [exact E1|].
  destruct (word_at_bm _ _ _ _ E2) as (G1 & G2 & G3).
  rewrite <- E2. apply (keeps_word m m' R); auto; try lia.
  intros k Hk. apply (F Ek Hc). lia.
Qed.

Lemma tag_pos_tgt h p : tag_pos (tgt_of h) = Some p -> p_kind h = KList /\ p_comp h = true /\ p = (p_seg h, p_off h - 8).
Proof.
  unfold tgt_of. destruct (p_kind h); cbn; try discriminate. destruct (p_comp h); cbn; try discriminate.
  intros E. injection E as <-. auto.
Qed.

(* ... and resolves exactly as before *)
Lemma slot_resolve_frame m m' (R : Z -> Z -> Prop) pads objs q :
  (forall r, In r pads -> in_msg (bm_data m) r) ->
  (forall h, In h objs -> tag_ok (bm_data m) h) ->
  keeps m m' R -> nsegs m <= nsegs m' ->
  (forall k, snd q <= k < snd q + 8 -> ~ R (fst q) k) ->
  (forall r, In r pads -> forall k, r_start r <= k < r_start r + r_size r -> ~ R (r_seg r) k) ->
  (forall h, In h objs -> tag_free R h) ->
  slot_res (bm_data m) pads objs q ->
  resolve_ptr (bm_data m') (fst q) (snd q) = resolve_ptr (bm_data m) (fst q) (snd q).
Proof.
  intros Hin Htg K Hn Hq Hp Hf (t & rs & E & S & C). rewrite E.
  apply (resolve_stable (bm_data m)); auto.
  - eapply keeps_grows; eauto.
  - unfold resolve_ptr in E. destruct (word_at (bm_data m) (fst q) (snd q)) as [w|] eqn:EW;
      [|bad_target E S].
    destruct (word_at_bm _ _ _ _ EW) as (G1 & G2 & G3).
    rewrite <- EW. apply (keeps_word m m' R); auto.
  - intros r i b Hr Hw.
    destruct C as [[-> _]|(ps & r0 & -> & Ips & _)]; [destruct Hr|].
    rewrite removelast_snoc in Hr. specialize (Hin r (Ips r Hr)). unfold in_msg in Hin.
    destruct (in_seg_elim_bm _ _ _ _ Hin) as (G1 & G2 & G3 & G4 & _).
    destruct Hw as (-> & W1 & W2).
    apply (keeps_word m m' R); auto; try lia.
    intros k Hk. apply (Hp r (Ips r Hr)). lia.
  - intros p Hp'.
    assert (HT : exists h, In h objs /\ t = tgt_of h).
    { destruct C as [[_ N]|(ps & r0 & _ & _ & [[_ N]|(h & Hh & _ & Et)])].
      - destruct t; cbn in N, Hp'; try contradiction; discriminate.
      - destruct t; cbn in N, Hp'; try contradiction; discriminate.
      - exists h. auto. }
    destruct HT as (h & Hh & ->). destruct (tag_pos_tgt _ _ Hp') as (Ek & Hc & ->). cbn [fst snd].
    destruct (Htg h Hh Ek Hc) as (tag & _ & E2).
    destruct (word_at_bm _ _ _ _ E2) as (G1 & G2 & G3).
    apply (keeps_word m m' R); auto; try lia.
    intros k Hk. apply (Hf h Hh Ek Hc). lia.
Qed.

(* a slot whose own word and whose pads are not touched keeps its content *)
Lemma slot_ok_frame m m' (R : Z -> Z -> Prop) pads objs pads' objs' q :
  keeps m m' R -> nsegs m <= nsegs m' ->
  (forall k, snd q <= k < snd q + 8 -> ~ R (fst q) k) ->
  (forall r, In r pads -> forall k, r_start r <= k < r_start r + r_size r -> ~ R (r_seg r) k) ->
  incl pads pads' -> incl objs objs' ->
  slot_ok (bm_data m) pads objs q -> slot_ok (bm_data m') pads' objs' q.
Proof.
  intros K Hn Hq Hp Ip Io S.
  assert (W : forall i b w, word_at (bm_data m) i b = Some w -> (forall k, b <= k < b + 8 -> ~ R i k) ->
                word_at (bm_data m') i b = Some w).
  { intros i b w E HR. destruct (word_at_bm _ _ _ _ E) as (G1 & G2 & G3).
    rewrite <- E. apply (keeps_word m m' R); auto. }
  destruct S as [S|[S|[(h & ps & raw & oldlen & Hh & Ips & Er & Hnz & Pl)|(idx & Hi & S)]]].
  4:{ right. right. right. exists idx. split; [exact Hi|]. apply W; auto. }
  - left. apply W; auto.
  - right. left. apply W; auto.
  - right. right. left. exists h, ps, raw, oldlen. split; [apply Io, Hh|]. split; [intros x Hx; apply Ip, Ips, Hx|].
    split; [exact Er|]. split; [exact Hnz|].
    destruct Pl as [E W1|padAddr Hne Epa W1 W2|psid padAddr Hne Hps Epa W1 W2 W3].
    + apply PlNear; auto.
    + assert (Hin : In (mkReg (p_seg h) padAddr 8) pads) by (apply Ips; left; reflexivity).
      apply PlFar; auto. apply W; auto. intros k Hk. apply (Hp _ Hin). cbn [r_start r_size]. lia.
    + assert (Hin : In (mkReg psid padAddr 16) pads) by (apply Ips; left; reflexivity).
      apply PlDfar; auto; apply W; auto; intros k Hk; apply (Hp _ Hin); cbn [r_start r_size]; lia.
Qed.

Lemma null_slot_ok (ms : segs) pads objs q : word_at ms (fst q) (snd q) = Some 0 -> slot_ok ms pads objs q.
Proof. intros H. left. exact H. Qed.

Lemma in_msg_mono (ms ms' : segs) r : grows ms ms' -> in_msg ms r -> in_msg ms' r.
Proof. unfold in_msg. intros. eapply in_seg_mono; eauto. Qed.

Lemma good_mono (ms ms' : segs) h : grows ms ms' -> good ms h -> good ms' h.
Proof. intros G (A & B & C & D). split; [exact A|]. split; [exact B|]. split; [eapply in_seg_mono; eauto|exact D]. Qed.

Lemma fresh_disjoint (m : bmsg) a r :
  in_msg (bm_data m) a -> (r_size r = 0 \/ zlen (mem m (r_seg r)) <= r_start r) -> reg_disjoint a r = true.
Proof.
  intros Ha Hr. unfold reg_disjoint. unfold in_msg in Ha.
  destruct (in_seg_elim_bm _ _ _ _ Ha) as (G1 & G2 & G3 & G4 & _).
  destruct Hr as [Hr|Hr]; [rewrite Hr; cbn; now rewrite Bool.orb_true_r|].
  destruct (Z.eq_dec (r_seg a) (r_seg r)) as [E|E].
  - rewrite E in G4. assert (X : (r_start a + r_size a <=? r_start r) = true) by lia. rewrite X.
    now rewrite !Bool.orb_true_r.
  - assert (X : negb (r_seg a =? r_seg r) = true) by (destruct (r_seg a =? r_seg r) eqn:EE; [lia|reflexivity]).
    rewrite X. now rewrite !Bool.orb_true_r.
Qed.

Lemma reg_disjoint_sym a b : reg_disjoint a b = true -> reg_disjoint b a = true.
Proof. unfold reg_disjoint. intros H. lia. Qed.

Lemma tag_free_none h : tag_free Rnone h.
Proof. intros _ _ k _ X. exact X. Qed.

(* One step of the builder, seen from the tables.  Bytes outside R are kept; at most one object
   or one pad is added, in storage that did not exist before; every slot either keeps its own
   word, or is shown to hold an admissible word afterwards. *)
Lemma hinv_step m objs pads m' (R : Z -> Z -> Prop) eo ep :
  hinv m objs pads -> keeps m m' R -> inv m' -> segs_small m' -> nsegs m <= nsegs m' -> nsegs m' < 4294967296 ->
  (length eo + length ep <= 1)%nat ->
  (forall r, In r pads -> forall k, r_start r <= k < r_start r + r_size r -> ~ R (r_seg r) k) ->
  (forall h, In h objs -> tag_free R h) ->
  (forall h, In h eo -> p_valid h = true /\ good (bm_data m') h /\ tag_ok (bm_data m') h /\
                        (r_size (obj_reg h) = 0 \/ zlen (mem m (p_seg h)) <= obj_start h)) ->
  (forall p, In p ep -> 0 < r_size p /\ zlen (mem m (r_seg p)) <= r_start p /\ in_msg (bm_data m') p) ->
  (forall q, In q ((0, 0) :: flat_map slots (objs ++ eo)) ->
     In q ((0, 0) :: flat_map slots objs) /\ (forall k, snd q <= k < snd q + 8 -> ~ R (fst q) k) \/
     slot_ok (bm_data m') (pads ++ ep) (objs ++ eo) q) ->
  hinv m' (objs ++ eo) (pads ++ ep).
Proof.
  intros H K I' Sm' Hn Hn' L1 Hp Hf Ho Hpn Hq.
  pose proof (fun a => hi_in_regsO m objs pads a H) as InO. pose proof (fun a => hi_in_pad m objs pads a H) as InP.
  destruct H as [Hi Hsm Hns Hg Htg Hin Hpd HdO HdP Hcr Hs].
  assert (G : grows (bm_data m) (bm_data m')) by (eapply keeps_grows; eauto).
  assert (RO : regsO (objs ++ eo) = regsO objs ++ map obj_reg eo) by (unfold regsO; now rewrite map_app).
  (* a new region lies behind everything the old tables hold *)
  assert (FO : forall a h, in_msg (bm_data m) a -> In h eo -> reg_disjoint a (obj_reg h) = true).
  { intros a h Ha Hh. apply (fresh_disjoint m); auto. apply Ho, Hh. }
  assert (FP : forall a p, in_msg (bm_data m) a -> In p ep -> reg_disjoint a p = true).
  { intros a p Ha Hp'. apply (fresh_disjoint m); auto. right. apply Hpn, Hp'. }
  constructor; auto.
  - intros x Hx. apply in_app_or in Hx. destruct Hx as [Hx|Hx]; [|split; apply Ho, Hx].
    destruct (Hg x Hx) as [V Gx]. split; [exact V|eapply good_mono; eauto].
  - intros x Hx. apply in_app_or in Hx. destruct Hx as [Hx|Hx]; [|apply Ho, Hx].
    apply (tag_ok_frame m m' R); auto.
  - intros r Hr. unfold all_regs in Hr. rewrite RO in Hr.
    apply in_app_or in Hr. destruct Hr as [Hr|Hr]; apply in_app_or in Hr; destruct Hr as [Hr|Hr];
      try (eapply in_msg_mono; eauto; fail); [|apply Hpn, Hr].
    apply in_map_iff in Hr. destruct Hr as (h & <- & Hh). apply (Ho h Hh).
  - intros r Hr. apply in_app_or in Hr. destruct Hr as [Hr|Hr]; [apply Hpd, Hr|apply Hpn, Hr].
  - rewrite RO. destruct eo as [|h [|h1 eo]]; [now rewrite app_nil_r| |cbn in L1; lia].
    apply ord_disjoint_snoc; auto. intros a Ha. apply FO; auto. left. reflexivity.
  - destruct ep as [|p0 [|p1 ep]]; [now rewrite app_nil_r| |cbn in L1; lia].
    apply ord_disjoint_snoc; auto. intros a Ha. apply FP; auto. left. reflexivity.
  - intros a p Ha Hp'. rewrite RO in Ha. apply in_app_or in Ha. apply in_app_or in Hp'.
    destruct Ha as [Ha|Ha], Hp' as [Hp'|Hp']; auto.
    + apply in_map_iff in Ha. destruct Ha as (h & <- & Hh). apply reg_disjoint_sym, FO; auto.
    + destruct eo, ep; cbn [In map length] in Ha, Hp', L1; try contradiction. lia.
  - intros q Hq'. destruct (Hq q Hq') as [[Hq0 Hr]|S]; [|exact S].
    apply (slot_ok_frame m m' R pads objs); auto; apply incl_appl, incl_refl.
Qed.

Lemma hinv_add_obj m objs pads m' h :
  hinv m objs pads ->
  keeps m m' Rnone -> inv m' -> segs_small m' -> nsegs m <= nsegs m' -> nsegs m' < 4294967296 ->
  p_valid h = true -> good (bm_data m') h -> tag_ok (bm_data m') h ->
  (r_size (obj_reg h) = 0 \/ zlen (mem m (p_seg h)) <= obj_start h) ->
  (forall q, In q (slots h) -> word_at (bm_data m') (fst q) (snd q) = Some 0) ->
  hinv m' (objs ++ [h]) pads.
Proof.
  intros H K I' Sm' Hn Hn' Hv Gd Tg Fr Z. rewrite <- (app_nil_r pads).
  apply (hinv_step m objs pads m' Rnone [h] []); auto using tag_free_none.
  - intros x [<-|[]]. auto.
  - intros p Hp. destruct Hp.
  - intros q Hq. cbn [In] in Hq. rewrite flat_map_app in Hq. cbn [flat_map] in Hq. rewrite app_nil_r in Hq.
    destruct Hq as [Hq|Hq]; [left; split; [left; exact Hq|auto]|].
    apply in_app_or in Hq. destruct Hq as [Hq|Hq]; [left; split; [right; exact Hq|auto]|].
    right. apply null_slot_ok, Z, Hq.
Qed.

Lemma hinv_frame m objs pads m' (R : Z -> Z -> Prop) pads' :
  hinv m objs pads -> keeps m m' R -> inv m' -> segs_small m' -> nsegs m <= nsegs m' -> nsegs m' < 4294967296 ->
  (forall q, In q ((0, 0) :: flat_map slots objs) -> forall k, snd q <= k < snd q + 8 -> ~ R (fst q) k) ->
  (forall r, In r pads -> forall k, r_start r <= k < r_start r + r_size r -> ~ R (r_seg r) k) ->
  (forall h, In h objs -> tag_free R h) ->
  pads' = pads ->
  hinv m' objs pads'.
Proof.
  intros H K I' Sm' Hn Hn' Hq Hp Hf ->. rewrite <- (app_nil_r objs), <- (app_nil_r pads).
  apply (hinv_step m objs pads m' R [] []); auto.
  - intros x Hx. destruct Hx.
  - intros x Hx. destruct Hx.
  - intros q Hq'. rewrite app_nil_r in Hq'. left. auto.
Qed.

Lemma objs_disjoint m objs pads k k' :
  hinv m objs pads -> k <> k' -> (k < length objs)%nat -> (k' < length objs)%nat ->
  reg_disjoint (obj_reg (nth k objs nullPtr)) (obj_reg (nth k' objs nullPtr)) = true.
Proof.
  intros H Hne Hk Hk'. pose proof (hi_disjO _ _ _ H) as D. unfold ord_disjoint, regsO in D.
  assert (E : forall n, (n < length objs)%nat -> nth (S n) (root_reg :: map obj_reg objs) root_reg = obj_reg (nth n objs nullPtr)).
  { intros n Hn'. cbn [nth]. rewrite (nth_indep _ root_reg (obj_reg nullPtr)) by (rewrite map_length; lia). apply map_nth. }
  destruct (Nat.lt_ge_cases k k') as [L|G'].
  - rewrite <- (E k), <- (E k') by lia. apply D; [lia|cbn [length]; rewrite map_length; lia].
  - apply reg_disjoint_sym. rewrite <- (E k), <- (E k') by lia. apply D; [lia|cbn [length]; rewrite map_length; lia].
Qed.

Lemma objs_same_or_disjoint m objs pads h h' :
  hinv m objs pads -> In h objs -> In h' objs -> h' = h \/ reg_disjoint (obj_reg h) (obj_reg h') = true.
Proof.
  intros H Hh Hh'. destruct (In_nth _ _ nullPtr Hh) as (n & Hn & <-). destruct (In_nth _ _ nullPtr Hh') as (n' & Hn' & <-).
  destruct (Nat.eq_dec n n') as [->|Hne]; [now left|right]. now apply (objs_disjoint m objs pads).
Qed.

Lemma root_disjoint m objs pads h : hinv m objs pads -> In h objs -> reg_disjoint root_reg (obj_reg h) = true.
Proof.
  intros H Hh. destruct (In_nth _ _ nullPtr Hh) as (k & Hk & <-).
  pose proof (hi_disjO _ _ _ H) as D. unfold ord_disjoint, regsO in D.
  specialize (D O (S k) ltac:(lia) ltac:(cbn [length]; rewrite map_length; lia)). cbn [nth] in D.
  rewrite (nth_indep _ root_reg (obj_reg nullPtr)) in D by (rewrite map_length; lia). rewrite map_nth in D. exact D.
Qed.

(* the tag word of a composite list is the first word of its region *)
Lemma tag_in_reg (ms : segs) h : p_valid h = true -> good ms h -> p_kind h = KList -> p_comp h = true ->
  obj_start h = p_off h - 8 /\ 8 <= r_size (obj_reg h).
Proof.
  intros Hv (Sh & _) Ek Hc. unfold shape_ok in Sh. rewrite Ek in Sh.
  destruct Sh as (Hn & [(Hc' & _)|(_ & Hb & Hw & Ht)]); [congruence|].
  unfold obj_start, obj_reg, obj_bytes. rewrite Ek, Hc. cbn [r_size]. split; [reflexivity|].
  destruct (comp_list_size h Hv Hc Hb Hw (proj1 Hn) Ht) as (_ & K0 & ->). lia.
Qed.

(* a byte range inside one object, behind its tag word and beside its pointer slots, touches no
   pointer slot, no pad and no tag word *)
Lemma data_range_avoids m objs pads h lo hi :
  hinv m objs pads -> In h objs -> p_off h <= lo -> hi <= obj_start h + r_size (obj_reg h) ->
  (forall q, In q (slots h) -> hi <= snd q \/ snd q + 8 <= lo) ->
  let R := fun i k => i = p_seg h /\ lo <= k < hi in
  (forall q, In q ((0, 0) :: flat_map slots objs) -> forall k, snd q <= k < snd q + 8 -> ~ R (fst q) k) /\
  (forall r, In r pads -> forall k, r_start r <= k < r_start r + r_size r -> ~ R (r_seg r) k) /\
  (forall h', In h' objs -> tag_free R h').
Proof.
  intros H Hh Hlo Hhi Hsl R.
  assert (OS : obj_start h <= p_off h) by (unfold obj_start; destruct (p_comp h); lia).
  split; [|split].
  - intros q Hq k Hk [E1 E2].
    destruct Hq as [<-|Hq].
    + cbn [fst snd] in *. pose proof (root_disjoint _ _ _ _ H Hh) as D. cbv [reg_disjoint root_reg obj_reg r_seg r_start r_size] in D, Hhi. lia.
    + apply in_flat_map in Hq. destruct Hq as (h' & Hh' & Hq).
      destruct (hi_good _ _ _ H h' Hh') as [V' G'].
      destruct (slot_in_obj _ _ _ V' G' Hq) as (S1 & S2 & S3 & _).
      assert (OS' : obj_start h' <= p_off h') by (unfold obj_start; destruct (p_comp h'); lia).
      destruct (objs_same_or_disjoint _ _ _ _ _ H Hh Hh') as [->|D].
      * specialize (Hsl q Hq). lia.
      * cbv [reg_disjoint obj_reg r_seg r_start r_size] in D, S3, Hhi. lia.
  - intros r Hr k Hk [E1 E2].
    assert (Ha : In (obj_reg h) (regsO objs)) by (unfold regsO; right; apply in_map; exact Hh).
    pose proof (hi_cross _ _ _ H _ _ Ha Hr) as D. pose proof (hi_pads _ _ _ H r Hr) as Pz.
    destruct r as [rs rst rsz]. cbv [reg_disjoint obj_reg r_seg r_start r_size] in *. lia.
  - intros h' Hh' Ek Hc k Hk [E1 E2].
    destruct (hi_good _ _ _ H h' Hh') as [V' G'].
    destruct (tag_in_reg _ _ V' G' Ek Hc) as [T1 T2].
    destruct (objs_same_or_disjoint _ _ _ _ _ H Hh Hh') as [->|D].
    + lia.
    + cbv [reg_disjoint obj_reg r_seg r_start r_size] in D, T2, Hhi. lia.
Qed.

Lemma f_off_ptr_offset w : ptr_offset w = f_off w.
Proof. rewrite ptr_offset_spec. unfold signed, bits, f_off, two30. cbv zeta. reflexivity. Qed.

Lemma raw_word_ok raw : raw_word raw -> raw_ok raw.
Proof.
  intros (R0 & R1 & R2 & R3). unfold raw_ok, word64. split; [exact R0|]. split; [exact R1|]. split.
  - rewrite f_off_ptr_offset. exact R2.
  - intros ->. cbn in R3. lia.
Qed.

(* segments stay addressable under place *)
Lemma place_small w dsid off tsid taddr raw w' :
  inv (w_dst w) -> segs_small (w_dst w) -> 0 <= dsid < nsegs (w_dst w) -> 0 <= tsid < nsegs (w_dst w) ->
  place w dsid off tsid taddr raw = Ok w' -> segs_small (w_dst w').
Proof.
  intros [Hwf Har] Hsm Hd Ht H. apply place_inv in H. destruct H as (m' & -> & Run). cbn [w_dst w_set_dst].
  assert (W : forall m1 m2 sid a v, segs_small m1 -> writeRawPointer m1 sid a v = Ok m2 -> 0 <= sid -> segs_small m2).
  { intros m1 m2 sid a v S E Hs. apply writeRawPointer_wrote in E; [|exact Hs]. eapply wrote_small; eauto. }
  destruct Run as [m1 E Ew|m1 pa m2 m3 E EA E2 E3|m1 ps pa m2 m3 m4 E EA E2 E3 E4].
  - eapply W; [exact Hsm|exact Ew|lia].
  - pose proof (alloc_small _ _ _ _ _ _ Hwf Har Hsm Ht (Z.lt_le_incl 0 8 eq_refl) EA) as S1.
    eapply W; [eapply W; [exact S1|exact E2|]|exact E3|]; lia.
  - pose proof (alloc_small _ _ _ _ _ _ Hwf Har Hsm Hd (Z.lt_le_incl 0 16 eq_refl) EA) as S1.
    destruct (alloc_mem _ _ _ _ _ _ Hwf Har Hd (Z.lt_le_incl 0 16 eq_refl) EA) as (_ & _ & _ & _ & Hps & _).
    eapply W; [eapply W; [eapply W; [exact S1|exact E2|]|exact E3|]|exact E4|]; lia.
Qed.

(* a slot position: existing, aligned, inside root word or an object *)
Lemma slot_geometry m objs pads q :
  hinv m objs pads -> In q ((0, 0) :: flat_map slots objs) ->
  0 <= fst q < nsegs m /\ 0 <= snd q /\ snd q mod 8 = 0 /\ snd q + 8 <= zlen (mem m (fst q)) /\
  exists r, In r (regsO objs) /\ r_seg r = fst q /\ r_start r <= snd q /\ snd q + 8 <= r_start r + r_size r.
Proof.
  intros H Hq. destruct Hq as [<-|Hq].
  - pose proof (hi_in_regsO _ _ _ root_reg H (or_introl eq_refl)) as I0.
    unfold in_msg, root_reg in I0. cbn [r_seg r_start r_size] in I0.
    destruct (in_seg_elim_bm _ _ _ _ I0) as (G1 & G2 & G3 & G4 & G5).
    cbn [fst snd]. repeat split; try lia. exists root_reg. split; [left; reflexivity|]. cbn. lia.
  - apply in_flat_map in Hq. destruct Hq as (h & Hh & Hq).
    destruct (hi_good _ _ _ H h Hh) as [V G].
    destruct (slot_in_obj _ _ _ V G Hq) as (S1 & S2 & S3 & S4).
    destruct G as (_ & _ & Gi & _). destruct (in_seg_elim_bm _ _ _ _ Gi) as (G1 & G2 & G3 & G4 & G5). rewrite S1.
    assert (OS : obj_start h = p_off h \/ obj_start h = p_off h - 8) by (unfold obj_start; destruct (p_comp h); lia).
    repeat split; try lia. exists (obj_reg h). split; [right; apply in_map; exact Hh|].
    unfold obj_reg in *. cbn [r_seg r_start r_size] in *. lia.
Qed.

(* writing a pointer slot spares every tag word *)
Lemma slot_avoids_tags m objs pads q :
  hinv m objs pads -> In q ((0, 0) :: flat_map slots objs) ->
  forall h, In h objs -> tag_free (Rword (fst q) (snd q)) h.
Proof.
  intros H Hq h Hh Ek Hc k Hk [E1 E2].
  destruct (hi_good _ _ _ H h Hh) as [V G].
  destruct (tag_in_reg _ _ V G Ek Hc) as [T1 T2].
  destruct Hq as [<-|Hq].
  - cbn [fst snd] in *. pose proof (root_disjoint _ _ _ _ H Hh) as D.
    cbv [reg_disjoint root_reg obj_reg r_seg r_start r_size] in D, T2. lia.
  - apply in_flat_map in Hq. destruct Hq as (h' & Hh' & Hq).
    destruct (hi_good _ _ _ H h' Hh') as [V' G'].
    destruct (slot_in_obj _ _ _ V' G' Hq) as (S1 & S2 & S3 & _).
    assert (OS' : obj_start h' <= p_off h') by (unfold obj_start; destruct (p_comp h'); lia).
    destruct (objs_same_or_disjoint _ _ _ _ _ H Hh Hh') as [->|D].
    + lia.
    + cbv [reg_disjoint obj_reg r_seg r_start r_size] in D, S3, T2. lia.
Qed.

(* ... and every pad *)
Lemma slot_avoids_pads m objs pads q :
  hinv m objs pads -> In q ((0, 0) :: flat_map slots objs) ->
  forall r, In r pads -> forall k, r_start r <= k < r_start r + r_size r -> ~ Rword (fst q) (snd q) (r_seg r) k.
Proof.
  intros H Hq r Hr k Hk [X1 X2].
  destruct (slot_geometry _ _ _ _ H Hq) as (_ & _ & _ & _ & (rq & Rq1 & Rq2 & Rq3 & Rq4)).
  pose proof (hi_cross _ _ _ H _ _ Rq1 Hr) as D. pose proof (hi_pads _ _ _ H r Hr) as Pz.
  destruct r as [rs rst rsz]. destruct rq as [qs qst qsz]. cbv [reg_disjoint r_seg r_start r_size] in *. lia.
Qed.

(* the strict validator resolves every table slot: null, the inline empty struct, or through
   pads of the pad table to exactly one table object *)
Lemma hinv_slot_res m objs pads q :
  hinv m objs pads -> In q ((0, 0) :: flat_map slots objs) -> slot_res (bm_data m) pads objs q.
Proof.
  intros H Hq. destruct (slot_geometry _ _ _ _ H Hq) as (Q1 & Q2 & Q3 & Q4 & _).
  pose proof (hi_small _ _ _ H (fst q)) as Hsq. unfold maxSegmentSize in Hsq.
  destruct (hi_slots _ _ _ H q Hq) as [S|[S|[(h & ps & raw & oldlen & Hh & Ips & Er & Hnz & Pl)|(idx & Hi & S)]]].
  4:{ exists (GCap idx), []. split; [|split; [exact I|left; split; [reflexivity|exact I]]].
      unfold resolve_ptr. rewrite S. rewrite rawInterfacePointer_sum by assumption.
      set (w := idx * 4294967296 + 3).
      assert (E0 : (w =? 0) = false) by (unfold w; lia). rewrite E0.
      assert (E3 : (f_A w =? 3) = true) by (unfold f_A, w; lia). rewrite E3.
      assert (EZ : ((w / 4) mod two30 =? 0) = true) by (unfold two30, w; lia). rewrite EZ.
      assert (EI : w / two32 = idx) by (unfold two32, w; lia). rewrite EI. reflexivity. }
  - exists GNull, []. unfold resolve_ptr. rewrite S. cbn. split; [reflexivity|]. split; [exact I|left; split; [reflexivity|exact I]].
  - exists (GStruct (fst q) (snd q) 0 0), [mkReg (fst q) (snd q) 0]. split; [|split; [exact I|]].
    + unfold resolve_ptr. rewrite S. unfold empty_struct_word.
      change (4294967292 =? 0) with false. change (f_A 4294967292 =? 3) with false. change (f_A 4294967292 =? 2) with false. cbv iota.
      unfold decode_obj. cbv zeta. change (f_A 4294967292 =? 0) with true. cbv iota.
      change (f_off 4294967292) with (-1). change (f_dw 4294967292) with 0. change (f_pc 4294967292) with 0.
      replace (snd q + 8 + 8 * -1) with (snd q) by lia. change (8 * (0 + 0)) with 0.
      rewrite in_seg_intro; [reflexivity| | | | |]; try lia.
      * rewrite zlen_bm. exact Q1.
      * rewrite seg_len_bm. lia.
    + right. exists [], (mkReg (fst q) (snd q) 0). split; [reflexivity|]. split; [intros x []|left; split; [reflexivity|exact I]].
  - destruct (hi_good _ _ _ H h Hh) as [V G]. pose proof (hi_tags _ _ _ H h Hh) as T.
    destruct (obj_decode (bm_data m) h V G T Hnz) as (raw' & Er' & Rw & DE). rewrite Er in Er'. apply Ok_inj in Er'. subst raw'.
    pose proof G as (_ & Gs & Gi & Go). destruct (in_seg_elim_bm _ _ _ _ Gi) as (T1 & T2 & T3 & T4 & T5).
    pose proof (hi_small _ _ _ H (p_seg h)) as Hsh. unfold maxSegmentSize in Hsh.
    assert (PR := placed_resolve (bm_data m) (fst q) (snd q) (p_seg h) (obj_start h) raw oldlen ps Pl Rw).
    exists (tgt_of h), (ps ++ [obj_reg h]). split; [|split].
    + rewrite PR; try lia.
      * rewrite DE. reflexivity.
      * rewrite zlen_bm. pose proof (hi_nsegs _ _ _ H). lia.
      * intros p Hp. pose proof (hi_in_pad _ _ _ p H (Ips p Hp)) as Ip.
        unfold in_msg in Ip. destruct (in_seg_elim_bm _ _ _ _ Ip) as (Y1 & Y2 & Y3 & Y4 & Y5).
        pose proof (hi_small _ _ _ H (r_seg p)) as Hsp. unfold maxSegmentSize in Hsp. lia.
    + unfold tgt_of. destruct (p_kind h); try exact I. destruct (p_comp h); exact I.
    + right. exists ps, (obj_reg h). split; [reflexivity|]. split; [exact Ips|]. right. exists h. auto.
Qed.

Lemma hinv_write_slot m objs pads m' q pads' :
  hinv m objs pads -> In q ((0, 0) :: flat_map slots objs) ->
  keeps m m' (Rword (fst q) (snd q)) -> inv m' -> segs_small m' -> nsegs m <= nsegs m' -> nsegs m' < 4294967296 ->
  (length pads' <= 1)%nat ->
  (forall p, In p pads' -> 0 < r_size p /\ zlen (mem m (r_seg p)) <= r_start p /\ in_msg (bm_data m') p) ->
  slot_ok (bm_data m') (pads ++ pads') objs q ->
  hinv m' objs (pads ++ pads').
Proof.
  intros H Hq K I' Sm' N' Hns' L1 PF SQ.
  destruct (slot_geometry _ _ _ _ H Hq) as (_ & _ & Q3 & _).
  rewrite <- (app_nil_r objs).
  apply (hinv_step m objs pads m' (Rword (fst q) (snd q)) [] pads'); auto.
  - exact (slot_avoids_pads _ _ _ _ H Hq).
  - exact (slot_avoids_tags _ _ _ _ H Hq).
  - intros x Hx. destruct Hx.
  - intros q' Hq'. rewrite app_nil_r in *.
    destruct (slot_geometry _ _ _ _ H Hq') as (_ & _ & P3 & _).
    assert (DEC : (fst q' = fst q /\ snd q' = snd q) \/ ~ (fst q' = fst q /\ snd q' = snd q)) by lia.
    destruct DEC as [[E1 E2]|NE].
    + right. assert (Eq : q' = q) by (destruct q, q'; cbn in *; congruence). subst q'. exact SQ.
    + left. split; [exact Hq'|]. intros k Hk [X1 X2]. lia.
Qed.

Lemma hinv_place_full m objs pads w q ht raw w' :
  w_dst w = m -> hinv m objs pads ->
  In q ((0, 0) :: flat_map slots objs) -> In ht objs ->
  (p_kind ht = KStruct -> os_isZero (p_size ht) = false) ->
  raw_of ht = Ok raw ->
  place w (fst q) (snd q) (p_seg ht) (obj_start ht) raw = Ok w' ->
  nsegs (w_dst w') < 4294967296 ->
  exists pads', hinv (w_dst w') objs (pads ++ pads') /\
    resolve_ptr (bm_data (w_dst w')) (fst q) (snd q) = (tgt_of ht, pads' ++ [obj_reg ht]) /\
    keeps m (w_dst w') (Rword (fst q) (snd q)) /\
    (forall q', In q' ((0, 0) :: flat_map slots objs) -> ~ (fst q' = fst q /\ snd q' = snd q) ->
       resolve_ptr (bm_data (w_dst w')) (fst q') (snd q') = resolve_ptr (bm_data m) (fst q') (snd q')) /\
    placed (bm_data (w_dst w')) (fst q) (snd q) (p_seg ht) (obj_start ht) raw (fun i => zlen (mem m i)) pads'.
Proof.
  intros Ew H Hq Hht Hnz Hraw Hpl Hns'. subst m. set (m := w_dst w) in *.
  destruct (slot_geometry _ _ _ _ H Hq) as (Q1 & Q2 & Q3 & Q4 & (rq & Rq1 & Rq2 & Rq3 & Rq4)).
  destruct (hi_good _ _ _ H ht Hht) as [Vt Gt].
  pose proof (hi_tags _ _ _ H ht Hht) as Tt.
  destruct (obj_decode (bm_data m) ht Vt Gt Tt Hnz) as (raw' & Er & Rw & _). rewrite Hraw in Er. apply Ok_inj in Er. subst raw'.
  pose proof Gt as (_ & Gs & Gi & Go). destruct (in_seg_elim_bm _ _ _ _ Gi) as (T1 & T2 & T3 & T4 & T5).
  destruct (hi_inv _ _ _ H) as [Hwf Har]. pose proof (hi_small _ _ _ H) as Hsm. pose proof (hi_nsegs _ _ _ H) as Hns.
  assert (OSt : obj_start ht <= p_off ht) by (unfold obj_start; destruct (p_comp ht); lia).
  assert (Hpre : place_pre m (fst q) (snd q) (p_seg ht) (obj_start ht) raw).
  { unfold place_pre. repeat split; auto; try (apply raw_word_ok; exact Rw); try (unfold nsegs in *; lia).
    all: try (apply (raw_word_ok _ Rw)). }
  destruct (place_layout _ _ _ _ _ _ _ Hpre Hpl) as (pads' & Hpd).
  destruct (place_keeps _ _ _ _ _ _ _ (conj Hwf Har) Q1 T1 Hpl) as (K & I' & N' & _).
  pose proof (place_small _ _ _ _ _ _ _ (conj Hwf Har) Hsm Q1 T1 Hpl) as Sm'.
  set (m' := w_dst w') in *.
  assert (G : grows (bm_data m) (bm_data m')) by (eapply keeps_grows; eauto).
  exists pads'.
  (* the new pads: fresh, inside the new message, of positive size *)
  destruct (placed_pads _ _ _ _ _ _ _ _ Hpd) as (L1 & PP).
  { intros i. split; [apply zlen_nonneg|]. exact (proj2 (get_seg_wf m i Hwf)). }
  assert (PF : forall p, In p pads' -> 0 < r_size p /\ zlen (mem m (r_seg p)) <= r_start p /\ in_msg (bm_data m') p).
  { intros p Hp. destruct (PP p Hp) as (Z1 & Z2 & Z3). cbv beta in Z2. fold m in Z2. split; [exact Z1|]. split; [lia|exact Z3]. }
  assert (TF := slot_avoids_tags _ _ _ _ H Hq).
  assert (PadF := slot_avoids_pads _ _ _ _ H Hq).
  assert (RQ : resolve_ptr (bm_data m') (fst q) (snd q) = (tgt_of ht, pads' ++ [obj_reg ht])).
  { assert (PR := placed_resolve (bm_data m') (fst q) (snd q) (p_seg ht) (obj_start ht) raw (fun i => zlen (mem m i)) pads' Hpd Rw).
    assert (Gt' : good (bm_data m') ht) by (eapply good_mono; eauto).
    assert (Tt' : tag_ok (bm_data m') ht) by (apply (tag_ok_frame m m' (Rword (fst q) (snd q))); auto).
    destruct (obj_decode (bm_data m') ht Vt Gt' Tt' Hnz) as (raw2 & Er2 & _ & DE). rewrite Hraw in Er2. apply Ok_inj in Er2. subst raw2.
    rewrite PR; try lia.
    - rewrite DE. reflexivity.
    - pose proof (Hsm (fst q)). unfold maxSegmentSize in *. lia.
    - rewrite zlen_bm. lia.
    - intros p Hp. destruct (PF p Hp) as (Z1 & Z2 & Z3). unfold in_msg in Z3.
      destruct (in_seg_elim_bm _ _ _ _ Z3) as (Y1 & Y2 & Y3 & Y4 & Y5).
      pose proof (Sm' (r_seg p)). unfold maxSegmentSize in *. lia. }
  split; [|split; [exact RQ|split; [exact K|split; [|exact Hpd]]]].
  2:{ intros q' Hq' NE. apply (slot_resolve_frame m m' (Rword (fst q) (snd q)) pads objs); auto.
      - intros r. exact (hi_in_pad m objs pads r H).
      - apply (hi_tags _ _ _ H).
      - intros k Hk [X1 X2]. destruct (slot_geometry _ _ _ _ H Hq') as (_ & _ & P3 & _). lia.
      - apply hinv_slot_res; auto. }
  apply (hinv_write_slot m objs pads m' q pads'); auto.
  right. right. left. exists ht, pads', raw, (fun i => zlen (mem m i)). split; [exact Hht|].
  split; [apply incl_appr, incl_refl|]. auto.
Qed.

Lemma hinv_place m objs pads w q ht raw w' :
  w_dst w = m -> hinv m objs pads ->
  In q ((0, 0) :: flat_map slots objs) -> In ht objs ->
  (p_kind ht = KStruct -> os_isZero (p_size ht) = false) ->
  raw_of ht = Ok raw ->
  place w (fst q) (snd q) (p_seg ht) (obj_start ht) raw = Ok w' ->
  nsegs (w_dst w') < 4294967296 ->
  exists pads', hinv (w_dst w') objs (pads ++ pads').
Proof.
  intros A B C D E F G I. destruct (hinv_place_full m objs pads w q ht raw w' A B C D E F G I) as (pads' & X & _).
  exists pads'. exact X.
Qed.

(* every pointer word in a slot of a table object, and the root word, resolves under the strict
   rules of BuildValid.v: null, or through well-formed pads (taken from the pad table) to a
   region that is exactly one table object with matching kind, element size and count; all
   regions involved lie inside their segments (that regions of different table entries are
   disjoint is part of [hinv] itself: hi_disjO, hi_disjP, hi_cross) *)
Theorem hinv_pointers_valid m objs pads q :
  hinv m objs pads -> In q ((0, 0) :: flat_map slots objs) ->
  exists t rs, resolve_ptr (bm_data m) (fst q) (snd q) = (t, rs) /\ is_bad t = false /\
    (forall r, In r rs -> in_msg (bm_data m) r \/ r_size r = 0) /\
    (rs = [] /\ no_tag t \/ exists ps r, rs = ps ++ [r] /\ incl ps pads /\
        (r_size r = 0 /\ no_tag t \/ exists h, In h objs /\ r = obj_reg h /\ t = tgt_of h)).
Proof.
  intros H Hq. destruct (hinv_slot_res _ _ _ _ H Hq) as (t & rs & E & S & C).
  exists t, rs. split; [exact E|]. split; [destruct t; cbn in *; auto; contradiction|]. split; [|exact C].
  intros r Hr. destruct C as [[-> _]|(ps & r0 & -> & Ips & D)]; [destruct Hr|].
  apply in_app_or in Hr. destruct Hr as [Hr|[<-|[]]].
  - left. apply (hi_in_pad _ _ _ _ H), Ips, Hr.
  - destruct D as [[D _]|(h & Hh & -> & _)]; [right; exact D|left].
    apply (hi_in_regsO _ _ _ _ H). right. apply in_map. exact Hh.
Qed.

(* a data write inside the data part of a table object keeps the invariant *)
Theorem hinv_data_write m objs pads m' h addr bs :
  hinv m objs pads -> In h objs -> 0 <= p_seg h ->
  wrote m m' (p_seg h) addr bs ->
  p_off h <= addr -> addr + zlen bs <= obj_start h + r_size (obj_reg h) ->
  (forall q, In q (slots h) -> addr + zlen bs <= snd q \/ snd q + 8 <= addr) ->
  hinv m' objs pads.
Proof.
  intros H Hh Hs W Hlo Hhi Hsl.
  pose proof (wrote_keeps _ _ _ _ _ W Hs) as K. pose proof (wrote_inv _ _ _ _ _ W Hs (hi_inv _ _ _ H)) as I'.
  assert (N : nsegs m' = nsegs m) by (unfold nsegs; apply (wrote_nsegs _ _ _ _ _ W)).
  destruct (data_range_avoids m objs pads h addr (addr + zlen bs) H Hh Hlo Hhi Hsl) as (A1 & A2 & A3).
  apply (hinv_frame m objs pads m' (fun i k => i = p_seg h /\ addr <= k < addr + zlen bs)); auto.
  - exact (wrote_small _ _ _ _ _ W (hi_small _ _ _ H)).
  - lia.
  - rewrite N. apply (hi_nsegs _ _ _ H).
Qed.

(* the invariant holds initially: a message whose only content is the null root word, with
   empty object and pad tables *)
Definition hinv_ex_msg : bmsg := mkBM AMulti [mkBS (repeat 0 8) 64] [] 100.
Example hinv_initial : hinv hinv_ex_msg [] [].
Proof.
  constructor.
  - split; [repeat constructor; cbn; lia|unfold arena_wf; cbn; discriminate].
  - intros i. unfold mem, get_seg, hinv_ex_msg. cbn [bm_segs].
    destruct (Z.to_nat i) as [|[|n]]; cbn; unfold maxSegmentSize; lia.
  - cbn. lia.
  - intros h [].
  - intros h [].
  - intros r [<-|[]]. reflexivity.
  - intros r [].
  - intros i j Hij Hj. cbn in Hj. lia.
  - intros i j Hij Hj. cbn in Hj. lia.
  - intros a p _ [].
  - intros q [<-|[]]. apply null_slot_ok. reflexivity.
Qed.

(* the abstract store of a message: the bytes of every table object and the target of every
   pointer slot.  A data write inside one object: the written bytes are read back, every other
   byte of every segment is unchanged (in particular the data of every other object), and
   every pointer slot of the table resolves exactly as before. *)
Theorem data_write_read_back m objs pads m' h addr bs :
  hinv m objs pads -> In h objs -> 0 <= p_seg h ->
  wrote m m' (p_seg h) addr bs ->
  p_off h <= addr -> addr + zlen bs <= obj_start h + r_size (obj_reg h) ->
  (forall q, In q (slots h) -> addr + zlen bs <= snd q \/ snd q + 8 <= addr) ->
  slice (mem m' (p_seg h)) addr (zlen bs) = Ok bs /\
  keeps m m' (fun i k => i = p_seg h /\ addr <= k < addr + zlen bs) /\
  (forall q, In q ((0, 0) :: flat_map slots objs) ->
     resolve_ptr (bm_data m') (fst q) (snd q) = resolve_ptr (bm_data m) (fst q) (snd q)).
Proof.
  intros H Hh Hs W Hlo Hhi Hsl.
  pose proof (wrote_keeps _ _ _ _ _ W Hs) as K.
  assert (N : nsegs m' = nsegs m) by (unfold nsegs; apply (wrote_nsegs _ _ _ _ _ W)).
  destruct (data_range_avoids m objs pads h addr (addr + zlen bs) H Hh Hlo Hhi Hsl) as (A1 & A2 & A3).
  split; [|split; [exact K|]].
  - apply (wrote_slice_same m m'); auto. pose proof (hi_small _ _ _ H (p_seg h)). unfold maxSegmentSize in *. lia.
  - intros q Hq. apply (slot_resolve_frame m m' (fun i k => i = p_seg h /\ addr <= k < addr + zlen bs) pads objs); auto; try lia.
    + intros r. exact (hi_in_pad m objs pads r H).
    + apply (hi_tags _ _ _ H).
    + apply hinv_slot_res; auto.
Qed.
