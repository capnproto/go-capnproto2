(* C12 — invariants used for deadlock freedom: the answer a pipelined call was made on belongs
   to a call whose implementation was started; an embargoed return carries a result. *)
From CV Require Import Server.Server Server.StepCases Server.ServerProofs Server.AqInv Server.AqFrame Server.AqSteps Server.AqPreserve.
From Coq Require Import List Arith Bool Lia.
Import ListNotations.

Record invD (P : params) (c : config) : Prop := {
  d_gotp : forall a, gotp c a = true -> ipc c a <> INone;
  d_root : forall p, ppc c p <> PInit -> ipc c (proot c p) <> INone;
  d_tret : forall p, ppc c p = PEmbRet -> tret c p <> TNone
}.

Lemma invD_init : forall P, invD P (init P).
Proof. intros P. constructor; simpl; intros; congruence. Qed.

Ltac dfin D :=
  constructor; cbn -[set_nth has_ongoing next_id]; intros; unfold upd in *; eqb_cases;
  try solve [ eauto using (d_gotp _ _ D), (d_root _ _ D), (d_tret _ _ D)
            | congruence | discriminate
            | match goal with H : _ |- _ => apply (d_gotp _ _ D) in H; congruence end
            | match goal with H : _ |- _ => apply (d_root _ _ D) in H; congruence end
            | match goal with H : _ |- _ => apply (d_tret _ _ D) in H; congruence end ].

Lemma invD_deliver : forall P a p b k emb c, invD P c -> ppc c p <> PInit ->
  invD P (deliver a p b k emb c).
Proof.
  intros P a p b k emb c D Hp. rewrite deliver_recv.
  destruct (recv_of c a b k); destruct emb; unfold panic; dfin D.
Qed.

Lemma invD_if_ph : forall P c2 (b : bool) f, invD P c2 -> invD P (if b then set_aq_ph f c2 else c2).
Proof. intros P c2 b f H. destruct b; auto. destruct H; constructor; auto. Qed.

(* the answer a pipelined call finds as its target belongs to a call whose implementation was started *)
Lemma target_started : forall P c on a b, invA P c -> invD P c -> pipe_target P c on = Some (a, b) -> ipc c a <> INone.
Proof.
  intros P c on a b A D Et. unfold pipe_target in Et. destruct (p_kind P on).
  - destruct (spc c on); try discriminate. destruct (gotp c on) eqn:Eg; inv_some. apply (d_gotp _ _ D); auto.
  - destruct (penq c on) eqn:Eq; inv_some. apply (d_root _ _ D).
    intros E0. rewrite (a_q4 _ _ A _ E0) in Eq. discriminate.
Qed.

Lemma invD_step : forall P c t c', inv P c -> invA P c -> invD P c -> step P c t = Some c' -> invD P c'.
Proof.
  intros P c t c' I A D H. apply step_sstep in H. destruct H; try destruct Hen.
  all: try (assert (Hq : ppc c p = PQueued) by (eapply draining_queued; eauto)).
  all: try (assert (Hr : ipc c (proot c p) <> INone) by (apply (d_root _ _ D); first [congruence|destruct Ep; congruence])).
  all: try (pose proof (target_started _ _ _ _ _ A D Et) as Ha; unfold recorded).
  all: try (pose proof (i_ack _ _ I _ Es)).
  all: try match goal with |- context [wake] => unfold wake; destruct (full c) end.
  all: try solve [dfin D].
  - (* s_drain *) apply invD_if_ph. apply invD_deliver; [|cbn; congruence].
    dfin D.
  - (* s_pipe_pass *) apply invD_deliver; auto. congruence.
  - (* s_target_emb *) destruct e; dfin D.
Qed.
