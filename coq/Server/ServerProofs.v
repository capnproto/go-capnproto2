(* C12 — the invariant of the server core (slots, gate, full, drain, Shutdown) of the Server model
   (coq/Server/Server.v): facts about the slot table as a list, the invariant, [core_eq] for the steps
   that leave the core alone, and preservation by the changes the method goroutine makes. *)
From CV Require Import Server.Server Server.StepCases.
From Coq Require Import List Arith Bool Lia.
Import ListNotations.

Lemma set_nth_length : forall A (l : list A) i v, length (set_nth l i v) = length l.
Proof. induction l; destruct i; simpl; intros; auto. Qed.

Lemma nth_error_set_nth_eq : forall A (l : list A) i v, i < length l -> nth_error (set_nth l i v) i = Some v.
Proof. induction l; destruct i; simpl; intros; try lia; auto. apply IHl. lia. Qed.

Lemma nth_error_set_nth_neq : forall A (l : list A) i j v, i <> j -> nth_error (set_nth l i v) j = nth_error l j.
Proof. induction l; destruct i; destruct j; simpl; intros; try congruence; auto. Qed.

Lemma nth_error_set_nth_inv : forall A (l : list A) i j v w, nth_error (set_nth l i v) j = Some w ->
  (j = i /\ w = v) \/ (j <> i /\ nth_error l j = Some w).
Proof.
  intros A l i j v w H. destruct (Nat.eq_dec i j) as [<-|N].
  - left. split; auto. destruct (lt_dec i (length l)) as [L|L].
    + rewrite nth_error_set_nth_eq in H by auto. congruence.
    + assert (E : nth_error (set_nth l i v) i = None) by (apply nth_error_None; rewrite set_nth_length; lia). congruence.
  - right. rewrite nth_error_set_nth_neq in H by auto. auto.
Qed.

Lemma next_id_some : forall l i, next_id l = Some i -> nth_error l i = Some None.
Proof.
  induction l as [|a l IH]; simpl; intros i H; try discriminate.
  destruct a.
  - destruct (next_id l) eqn:E; try discriminate. inversion H; subst. simpl. auto.
  - inversion H; subst. reflexivity.
Qed.

Lemma next_id_none : forall l, next_id l = None -> forall i, nth_error l i <> Some None.
Proof.
  induction l as [|a l IH]; simpl; intros H i.
  - destruct i; discriminate.
  - destruct a; try discriminate. destruct (next_id l) eqn:E; try discriminate.
    destruct i; simpl; [discriminate|]. apply IH. reflexivity.
Qed.

Lemma next_id_none_iff : forall l, next_id l = None <-> (forall i, nth_error l i <> Some None).
Proof.
  split. apply next_id_none.
  induction l as [|a l IH]; simpl; intros H; auto.
  destruct a.
  - rewrite IH; auto. intros i. apply (H (S i)).
  - exfalso. apply (H 0). reflexivity.
Qed.

Lemma has_ongoing_true : forall l, has_ongoing l = true <-> exists i x, nth_error l i = Some (Some x).
Proof.
  induction l as [|a l IH]; simpl.
  - split; [discriminate|]. intros (i & x & H). destruct i; discriminate.
  - destruct a.
    + split; auto. intros _. exists 0, c. reflexivity.
    + rewrite IH. split; intros (i & x & H).
      * exists (S i), x. exact H.
      * destruct i; simpl in H; [discriminate|]. eauto.
Qed.

Lemma has_ongoing_false : forall l, has_ongoing l = false <-> forall i x, nth_error l i <> Some (Some x).
Proof.
  intros l. split.
  - intros H i x E. assert (has_ongoing l = true) by (apply has_ongoing_true; eauto). congruence.
  - intros H. destruct (has_ongoing l) eqn:E; auto. apply has_ongoing_true in E. destruct E as (i & x & E).
    exfalso. eapply H; eauto.
Qed.

Lemma repeat_nth_error : forall A (v : A) n i, i < n -> nth_error (repeat v n) i = Some v.
Proof. induction n; simpl; intros; try lia. destruct i; simpl; auto. apply IHn. lia. Qed.

Lemma repeat_nth_error_inv : forall A (v w : A) n i, nth_error (repeat v n) i = Some w -> w = v.
Proof. induction n; destruct i; simpl; intros; try discriminate. congruence. eauto. Qed.

Lemma cancel_all_other : forall l f, forall x, f x = true -> cancel_all l f x = true.
Proof.
  induction l as [|a l IH]; simpl; intros; auto. destruct a; auto. apply IH. unfold upd.
  destruct (Nat.eqb x c); auto.
Qed.

Lemma cancel_all_in : forall l f i x, nth_error l i = Some (Some x) -> cancel_all l f x = true.
Proof.
  induction l as [|a l IH]; intros f i x H; destruct i; simpl in *; try discriminate.
  - inversion H; subst. apply cancel_all_other. apply upd_same.
  - destruct a; eauto.
Qed.

Definition holds_gate (s : spc_t) : bool :=
  match s with SWaitFull | SFullWoken | SWaitAck => true | _ => false end.

Definition pre_impl (s : spc_t) : bool :=
  match s with S0 | SWaitGate _ | SWaitFull | SFullWoken => true | _ => false end.

(* The clauses are grouped by the fields they read: the slot table, the starting gate, the program
   counters of one call, the caller waiting for a free slot, Shutdown. No lemma rebuilds [inv] from
   four old groups and one new: each preservation lemma below goes through all five. *)
Record inv_slots (P : params) (c : config) : Prop := {
  i_len : length (ongoing c) = p_max P;
  i_slot1 : forall i x, nth_error (ongoing c) i = Some (Some x) -> holds_slot (ipc c x) = true /\ slot c x = i;
  i_slot2 : forall x, holds_slot (ipc c x) = true -> nth_error (ongoing c) (slot c x) = Some (Some x)
}.
Record inv_gate (P : params) (c : config) : Prop := {
  i_gate1 : forall x, holds_gate (spc c x) = true -> starting c = Some x;
  i_gate2 : forall x, starting c = Some x -> holds_gate (spc c x) = true;
  i_gaterel : forall x h, spc c x = SWaitGate h -> gate_rel c h = true \/ starting c = Some h
}.
Record inv_pcs (P : params) (c : config) : Prop := {
  i_run : forall x, ipc c x = IRun -> spc c x = SWaitAck;
  i_pre : forall x, pre_impl (spc c x) = true -> ipc c x = INone;
  i_ack : forall x, spc c x = SWaitAck -> ipc c x <> INone;
  i_idone : forall x, idone c x = true <-> ipc c x = IDone;
  i_acked : forall x, acked c x = true -> ipc c x <> INone /\ ipc c x <> IRun
}.
Record inv_full (P : params) (c : config) : Prop := {
  i_full1 : forall w, full c = Some w -> spc c w = SWaitFull;
  i_full2 : forall w, spc c w = SWaitFull -> full c = Some w;
  i_fullslots : forall w, spc c w = SWaitFull -> next_id (ongoing c) = None;
  i_woken : forall w, spc c w = SFullWoken -> next_id (ongoing c) <> None
}.
Record inv_shut (P : params) (c : config) : Prop := {
  i_dnil : drain c = DNil <-> shpc c = ShInit;
  i_dopen : drain c = DOpen -> shpc c = ShWait /\ has_ongoing (ongoing c) = true;
  i_dclosed : drain c = DClosed -> has_ongoing (ongoing c) = false;
  i_shwait : shpc c = ShWait -> drain c <> DNil;
  i_shcount : shcount c = match shpc c with ShDone => 1 | _ => 0 end
}.
Record inv (P : params) (c : config) : Prop := {
  i_slots :> inv_slots P c;
  i_gate :> inv_gate P c;
  i_pcs :> inv_pcs P c;
  i_full :> inv_full P c;
  i_shut :> inv_shut P c
}.

Lemma inv_init : forall P, inv P (init P).
Proof.
  intros P. constructor; constructor; simpl; intros; try discriminate; try tauto; auto.
  - apply repeat_length.
  - apply repeat_nth_error_inv in H. discriminate.
  - split; intros; discriminate.
Qed.

(* steps that leave the server core untouched *)
Definition core_eq (c c' : config) : Prop :=
  ongoing c' = ongoing c /\ slot c' = slot c /\ ipc c' = ipc c /\ spc c' = spc c /\ starting c' = starting c /\
  full c' = full c /\ drain c' = drain c /\ shpc c' = shpc c /\ shcount c' = shcount c /\
  gate_rel c' = gate_rel c /\ idone c' = idone c /\ acked c' = acked c.

Lemma inv_core_eq : forall P c c', core_eq c c' -> inv P c -> inv P c'.
Proof.
  intros P c c' (E1 & E2 & E3 & E4 & E5 & E6 & E7 & E8 & E9 & E10 & E11 & E12) [[] [] [] [] []].
  constructor; constructor; rewrite ?E1, ?E2, ?E3, ?E4, ?E5, ?E6, ?E7, ?E8, ?E9, ?E10, ?E11, ?E12; auto.
Qed.

Lemma core_eq_refl : forall c, core_eq c c.
Proof. intros; repeat split. Qed.

Ltac core := repeat split; reflexivity.

Create HintDb inv discriminated.
#[export] Hint Resolve i_slots i_gate i_pcs i_full i_shut i_len i_slot1 i_slot2 i_gate1 i_gate2 i_run i_pre i_ack i_full1 i_full2 i_fullslots i_woken
  i_dnil i_dopen i_dclosed i_shwait i_shcount i_gaterel i_idone i_acked : inv.

(* The preservation lemmas below open the same way: the new invariant is split into its clauses, the
   projections of the updated configuration are computed and the call ids compared; what is then a
   clause of the old invariant, or has contradictory premises, is closed. [clauses] does this for one
   group, [all_groups] for the five of [inv]; the bullets after a call are the clauses left over. *)
Ltac clauses :=
  constructor; cbn -[nth_error next_id has_ongoing set_nth]; intros; unfold upd in *; eqb_cases;
  eauto 4 with inv; try congruence.
Ltac all_groups := constructor; clauses.

(* close(srv.drain) happens when the last slot is freed *)
Lemma closed_no_slot : forall P c x, inv P c -> drain c = DClosed -> holds_slot (ipc c x) = true -> False.
Proof.
  intros P c x I Ed Hx. assert (H : has_ongoing (ongoing c) = true).
  { apply has_ongoing_true. exists (slot c x), x. apply (i_slot2 _ _ I); auto. }
  rewrite (i_dclosed _ _ I Ed) in H. discriminate.
Qed.

Lemma holds_slot_not : forall i, holds_slot i = true -> i <> INone /\ i <> IDone.
Proof. destruct i; split; discriminate. Qed.

(* the goroutine of x moves on, keeping its slot *)
Lemma inv_move : forall P c x i', inv P c -> holds_slot (ipc c x) = true -> holds_slot i' = true -> i' <> IRun ->
  inv P (set_ipc (upd (ipc c) x i') c).
Proof.
  intros P c x i' I Hx Hi' Hr. destruct (holds_slot_not _ Hx) as (X1 & X2), (holds_slot_not _ Hi') as (Y1 & Y2).
  all_groups.
  - split; auto. apply (i_slot1 _ _ I); auto.
  - exfalso. apply X1, (i_pre _ _ I); auto.
  - rewrite (i_idone _ _ I). split; congruence.
Qed.

(* of all clauses only i_acked reads acked *)
Lemma inv_set_acked : forall P c x, inv P c -> ipc c x <> INone -> ipc c x <> IRun ->
  inv P (set_acked (upd (acked c) x true) c).
Proof. intros P c x I H1 H2. all_groups. Qed.

(* close(done) *)
Lemma inv_closed : forall P c x, inv P c -> ipc c x = IClose ->
  inv P (set_ipc (upd (ipc c) x IDone) (set_idone (upd (idone c) x true) c)).
Proof.
  intros P c x I Hx. all_groups.
  - apply (i_slot1 _ _ I) in H. rewrite Hx in H. destruct H; discriminate.
  - discriminate.
  - rewrite (i_pre _ _ I) in Hx; auto. discriminate.
  - tauto.
  - split; discriminate.
Qed.

Lemma inv_ev : forall P c e, inv P c -> inv P (ev e c).
Proof. intros. eapply inv_core_eq; [|eassumption]. core. Qed.

Lemma core_eq_complete : forall c x k, core_eq c (complete x k c).
Proof. intros; core. Qed.

Lemma core_eq_trans : forall a b c, core_eq a b -> core_eq b c -> core_eq a c.
Proof.
  unfold core_eq; intros a b c H1 H2.
  destruct H1 as (A1 & A2 & A3 & A4 & A5 & A6 & A7 & A8 & A9 & A10 & A11 & A12).
  destruct H2 as (B1 & B2 & B3 & B4 & B5 & B6 & B7 & B8 & B9 & B10 & B11 & B12).
  repeat split; congruence.
Qed.

Lemma core_eq_deliver : forall a p b k emb c, core_eq c (deliver a p b k emb c).
Proof. intros. rewrite deliver_recv. destruct (recv_of c a b k); destruct emb; core. Qed.

Lemma core_eq_if_ph : forall c c2 (b : bool) f, core_eq c c2 -> core_eq c (if b then set_aq_ph f c2 else c2).
Proof. intros c c2 b f H. destruct b; auto. Qed.
