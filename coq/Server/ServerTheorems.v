(* C12 — theorems about the server core over all schedules. *)
From CV Require Import Server.Server Server.StepCases Server.ServerProofs Server.ServerSteps Server.ServerStart.
From Coq Require Import List Arith Bool Lia.
Import ListNotations.

Lemma inv_step : forall P c t c', inv P c -> step P c t = Some c' -> inv P c'.
Proof.
  intros P c t c' I H. apply step_sstep in H.
  assert (M : forall x i', holds_slot (ipc c x) = true -> holds_slot i' = true -> i' <> IRun ->
                forall c', core_eq (set_ipc (upd (ipc c) x i') c) c' -> inv P c').
  { intros x i' H1 H2 H3 c2 E. apply (inv_core_eq _ _ _ E). apply inv_move; auto. }
  assert (W : forall x, holds_gate (spc c x) = true -> spc c x <> SWaitFull -> ipc c x <> IRun ->
                forall c', core_eq (set_spc (upd (spc c) x SDone) (release_gate x c)) c' -> inv P c').
  { intros x H1 H2 H3 c2 E. apply (inv_core_eq _ _ _ E). apply inv_release_woken; auto. }
  pose proof (i_shcount _ _ I) as Hn.
  destruct H.
  (* steps that leave the server core alone *)
  all: try (apply (inv_core_eq P c); [core|exact I]).
  - (* s_issue *) apply (inv_enters P (ev (EvIssue x) c) x); auto; [apply inv_ev; auto|..]; cbn; rewrite Es; reflexivity.
  - (* s_gate *) apply (inv_enters P c x); auto; rewrite Es; reflexivity.
  - (* s_woken *) assert (Est : starting c = Some x) by (apply (i_gate1 _ _ I); rewrite Es; reflexivity).
    rewrite <- take_slot_starting by auto. apply inv_take_slot; auto; rewrite Es; reflexivity.
  - (* s_woken_shut *) apply (W x); rewrite ?Es; auto; [discriminate| |core].
    rewrite (i_pre _ _ I x); [discriminate|rewrite Es; reflexivity].
  - (* s_started *) apply (W x); rewrite ?Es; auto; [discriminate| |core].
    apply orb_true_iff in Ea. destruct Ea as [Ea|Ea]; [apply (i_acked _ _ I); auto|].
    apply (i_idone _ _ I) in Ea. congruence.
  - (* s_ctx_gate *) apply inv_start_reject; auto; rewrite Es; reflexivity.
  - (* s_ctx_full *) assert (Hi : ipc c x = INone) by (apply (i_pre _ _ I); destruct Es as [-> | ->]; reflexivity).
    apply (inv_core_eq P (set_full None (set_spc (upd (spc c) x SDone) (release_gate x c)))); [core|].
    apply inv_release; [auto|destruct Es as [-> | ->]; reflexivity|congruence].
  - (* s_ack *) apply inv_ev, (inv_set_acked P (set_ipc (upd (ipc c) x IAcked) c) x).
    + apply inv_move; rewrite ?Ei; auto; discriminate.
    + cbn. rewrite upd_same. discriminate.
    + cbn. rewrite upd_same. discriminate.
  - (* s_ret *) apply (M x IRet); auto; [destruct Ei as [-> | ->]; reflexivity|discriminate|core].
  - (* s_fulfill *) apply (M x IDrain); rewrite ?Ei; auto; [discriminate|core].
  - (* s_drain *) apply (inv_core_eq P c); auto. apply core_eq_if_ph. eapply core_eq_trans; [|apply core_eq_deliver]. core.
  - (* s_drained *) apply (M x IReturn); rewrite ?Ei; auto; [discriminate|core].
  - (* s_return *) apply (M x ISlot); rewrite ?Ei; auto; [discriminate|core].
  - (* s_slot *) apply inv_ev, inv_free; auto.
  - (* s_slot_closed *) exfalso. apply (closed_no_slot P c x I Ed). rewrite Ei. reflexivity.
  - (* s_close *) apply inv_closed; auto.
  - (* s_pipe_pass *) apply (inv_core_eq P c); auto. apply core_eq_deliver.
  - (* s_shut_wait *) rewrite Esh in Hn. apply inv_ev. all_groups. split; discriminate.
  - (* s_shut_idle *) rewrite Esh in Hn. apply inv_ev. all_groups. split; discriminate.
  - (* s_shut_closed *) rewrite Esh in Hn. all_groups. split; intros; congruence.
  - (* s_shut_user *) rewrite Esh in Hn. apply inv_ev. all_groups.
    + split; [intros E; apply (i_dnil _ _ I) in E; congruence | discriminate].
    + destruct (i_dopen _ _ I H); congruence.
Qed.

Lemma inv_reachable : forall P c, reachable P c -> inv P c.
Proof. induction 1. apply inv_init. eapply inv_step; eauto. Qed.

Lemma run_reachable : forall P s c, reachable P c -> reachable P (run P c s).
Proof.
  induction s as [|t s IH]; simpl; intros c H; auto.
  destruct (step P c t) eqn:E; auto. apply IH. econstructor; eauto.
Qed.

Lemma slot_injective : forall P c x y, inv P c ->
  holds_slot (ipc c x) = true -> holds_slot (ipc c y) = true -> slot c x = slot c y -> x = y.
Proof.
  intros P c x y I Hx Hy E. pose proof (i_slot2 _ _ I x Hx) as A. pose proof (i_slot2 _ _ I y Hy) as B.
  rewrite E in A. congruence.
Qed.

Lemma NoDup_map_inj : forall (f : cid -> nat) l,
  (forall x y, In x l -> In y l -> f x = f y -> x = y) -> NoDup l -> NoDup (map f l).
Proof.
  induction l as [|a l IH]; simpl; intros Hinj Hnd; constructor.
  - inversion Hnd; subst. intros Hin. apply in_map_iff in Hin. destruct Hin as (y & E & Hy).
    assert (y = a) by (apply Hinj; auto). subst. contradiction.
  - inversion Hnd; subst. apply IH; auto.
Qed.

(* every set of distinct calls that hold a slot — in particular every set of calls whose
   implementation function is executing — has at most MaxConcurrentCalls elements *)
Lemma running_le_max_lemma : forall P c, reachable P c ->
  forall l, NoDup l -> (forall x, In x l -> holds_slot (ipc c x) = true) -> length l <= p_max P.
Proof.
  intros P c R l Hnd Hl. pose proof (inv_reachable _ _ R) as I.
  rewrite <- (map_length (slot c) l). rewrite <- (seq_length (p_max P) 0).
  apply NoDup_incl_length.
  - apply NoDup_map_inj; auto. intros x y Hx Hy. apply (slot_injective P c); auto.
  - intros i Hi. apply in_map_iff in Hi. destruct Hi as (x & E & Hx). subst.
    apply in_seq. split; [lia|]. simpl. rewrite <- (i_len _ _ I).
    apply nth_error_Some. rewrite (i_slot2 _ _ I x (Hl x Hx)). discriminate.
Qed.

Lemma in_impl_holds_slot : forall i, in_impl i = true -> holds_slot i = true.
Proof. destruct i; simpl; auto. Qed.

(* at most one implementation is started and has neither acknowledged nor returned: the call it
   belongs to holds the starting gate *)
Lemma unacked_unique : forall P c, reachable P c ->
  forall i j, ipc c i = IRun -> ipc c j = IRun -> i = j.
Proof.
  intros P c R i j Hi Hj. pose proof (inv_reachable _ _ R) as I.
  pose proof (i_run _ _ I i Hi) as Si. pose proof (i_run _ _ I j Hj) as Sj.
  pose proof (i_gate1 _ _ I i) as Gi. pose proof (i_gate1 _ _ I j) as Gj.
  rewrite Si in Gi. rewrite Sj in Gj. specialize (Gi eq_refl). specialize (Gj eq_refl). congruence.
Qed.

Lemma core_eq_ipc : forall c c' x, core_eq c c' -> ipc c' x = ipc c x.
Proof. intros c c' x (_ & _ & E & _). rewrite E. reflexivity. Qed.

Lemma take_slot_ipc : forall x id c j, ipc c j = INone -> ipc (take_slot x id c) j <> INone -> j = x.
Proof. intros x id c j H. cbn. unfold upd. eqb_cases; auto. congruence. Qed.

(* an implementation is only ever started by its own start goroutine, while srv.drain is nil *)
Lemma begin_step : forall P c t c' j, step P c t = Some c' ->
  ipc c j = INone -> ipc c' j <> INone -> ipc c' j = IRun /\ drain c = DNil /\ t = TStart j.
Proof.
  intros P c t c' j H Hn Hs. apply step_sstep in H. destruct H; try destruct Hen.
  all: try solve [exfalso; apply Hs; cbn; unfold upd; eqb_cases; congruence].
  1-3: assert (j = x) by (eapply take_slot_ipc; [|exact Hs]; exact Hn); subst j;
    (split; [cbn; apply upd_same|auto]).
  - exfalso. apply Hs. cbn. unfold upd. eqb_cases; destruct Ei; congruence.
  - exfalso. apply Hs. destruct w; cbn [ipc set_aq_ph]; subst c2; rewrite (core_eq_ipc _ _ j (core_eq_deliver _ _ _ _ _ _)); auto.
  - exfalso. apply Hs. rewrite (core_eq_ipc _ _ j (core_eq_deliver _ _ _ _ _ _)). auto.
Qed.

(* gate: when the implementation of call j is started, every other call whose implementation
   was started earlier has acknowledged delivery or returned *)
Lemma gate_lemma : forall P c t c' j, reachable P c -> step P c t = Some c' ->
  ipc c j = INone -> ipc c' j <> INone ->
  forall i, i <> j -> ipc c' i <> IRun.
Proof.
  intros P c t c' j R H Hn Hs i Ni Hi.
  destruct (begin_step _ _ _ _ _ H Hn Hs) as (Hj & _).
  apply Ni. apply (unacked_unique P c'); auto. econstructor; eauto.
Qed.

Lemma shutdown_once_lemma : forall P c, reachable P c ->
  shcount c <= 1 /\ (shpc c = ShDone -> shcount c = 1).
Proof.
  intros P c R. pose proof (i_shcount _ _ (inv_reachable _ _ R)) as H.
  destruct (shpc c); split; intros; try discriminate; lia.
Qed.

(* when the user's Shutdown runs no call holds a slot: every started implementation has
   returned, delivered its results and freed its slot *)
Lemma shutdown_after_calls_lemma : forall P c, reachable P c ->
  (shpc c = ShUser \/ shpc c = ShDone) -> forall x, holds_slot (ipc c x) = false.
Proof.
  intros P c R Hs x. pose proof (inv_reachable _ _ R) as I.
  destruct (holds_slot (ipc c x)) eqn:E; auto. exfalso.
  pose proof (i_slot2 _ _ I x E) as A.
  assert (Hh : has_ongoing (ongoing c) = true) by (apply has_ongoing_true; eauto).
  destruct (drain c) eqn:Ed.
  - apply (i_dnil _ _ I) in Ed. destruct Hs; congruence.
  - apply (i_dopen _ _ I) in Ed. destruct Ed. destruct Hs; congruence.
  - apply (i_dclosed _ _ I) in Ed. congruence.
Qed.

(* no implementation is started once Shutdown has executed its first critical section *)
Lemma no_start_after_shutdown_lemma : forall P c t c' j, reachable P c -> step P c t = Some c' ->
  shpc c <> ShInit -> ipc c j = INone -> ipc c' j = INone.
Proof.
  intros P c t c' j R H Hs Hn. pose proof (inv_reachable _ _ R) as I.
  destruct (ipc c' j) eqn:E; auto; exfalso.
  all: assert (Hne : ipc c' j <> INone) by congruence.
  all: destruct (begin_step _ _ _ _ _ H Hn Hne) as (_ & Hd & _).
  all: apply (i_dnil _ _ I) in Hd; congruence.
Qed.

(* Shutdown cancels the context of every call that holds a slot *)
Lemma shutdown_cancels_lemma : forall P c c', reachable P c -> step P c TShutdown = Some c' ->
  shpc c = ShInit -> forall x, holds_slot (ipc c x) = true -> icanc c' x = true.
Proof.
  intros P c c' R H Hs x Hx. pose proof (inv_reachable _ _ R) as I.
  simpl in H. unfold step_shutdown in H. rewrite Hs in H.
  pose proof (i_slot2 _ _ I x Hx) as A.
  assert (Hh : has_ongoing (ongoing c) = true) by (apply has_ongoing_true; eauto).
  destruct (drain c) eqn:Ed.
  - rewrite Hh in H. inv_some. cbn. eapply cancel_all_in; eauto.
  - apply (i_dopen _ _ I) in Ed. destruct Ed; congruence.
  - apply (i_dclosed _ _ I) in Ed. congruence.
Qed.
