(* C12 — WHERE a pipelined call is delivered (repaired code, p_fixed = true): a call pipelined on
   the answer of call [on] is delivered to a capability in the result of [on] (DRes on) or, while the
   delivered call [on] is still running, to [on]'s pipeline caller (DFwd on) - never to another
   answer. The invariant ties the recorded basis (index in aq.bases) to the queue position of the
   call it was pipelined on. *)
From CV Require Import Server.Server Server.StepCases Server.ServerProofs Server.AqInv Server.AqFrame Server.AqSteps Server.AqPreserve
  Server.ServerOrder.
From Coq Require Import List Arith Bool Lia.
Import ListNotations.

(* the target recorded for p when it entered queueCaller.PipelineRecv is the right one *)
Definition basis_ok (P : params) (c : config) (p on : cid) : Prop :=
  (p_kind P on = Direct /\ proot c p = on /\ pbasis c p = 0)
  \/ (p_kind P on <> Direct /\ exists i, penq c on = Some i /\ pbasis c p = S i /\ proot c p = proot c on).

Definition dest_ok (P : params) (p : cid) (d : dest) : Prop :=
  exists on, p_kind P p = Pipe on /\ (d = DRes on \/ (d = DFwd on /\ p_kind P on <> Direct)).

Record invB (P : params) (c : config) : Prop := {
  b_basis : forall p on, p_kind P p = Pipe on -> ppc c p <> PInit -> basis_ok P c p on;
  b_deliv : forall p d, In (p, d) (delivs (trace c)) -> dest_ok P p d
}.

Lemma invB_init : forall P, invB P (init P).
Proof. intros P. constructor; simpl; intros; [congruence|contradiction]. Qed.

Lemma delivs_in : forall tr p d, In (EvDeliver p d) tr <-> In (p, d) (delivs tr).
Proof.
  induction tr as [|e tr IH]; simpl; intros p d; [tauto|].
  destruct e; simpl; rewrite <- IH; split; intros H; try (destruct H as [H|H]; [discriminate|auto]); auto.
  - destruct H as [H|H]; [inversion H; auto|auto].
  - destruct H as [H|H]; [inversion H; auto|auto].
Qed.

(* steps that neither record a target nor deliver *)
Lemma invB_same : forall P c c', invB P c ->
  proot c' = proot c -> pbasis c' = pbasis c -> penq c' = penq c ->
  (forall x, ppc c' x <> PInit -> ppc c x <> PInit) ->
  delivs (trace c') = delivs (trace c) -> invB P c'.
Proof.
  intros P c c' B E1 E2 E3 Hp Ed. constructor.
  - intros p on K H. pose proof (b_basis _ _ B p on K (Hp _ H)) as Q.
    unfold basis_ok in *. rewrite E1, E2, E3. exact Q.
  - intros p d H. rewrite Ed in H. apply (b_deliv _ _ B); auto.
Qed.

(* what deliver adds to the trace *)
Lemma deliver_delivs : forall a p b k emb c x d,
  In (x, d) (delivs (trace (deliver a p b k emb c))) ->
  In (x, d) (delivs (trace c))
  \/ (x = p /\ ((b = 0 /\ d = DRes a)
                \/ exists j e, b = S j /\ nth_error (aq_q c a) j = Some e /\ (d = DRes e \/ d = DFwd e))).
Proof.
  intros a p b k emb c x d. unfold deliver.
  destruct b as [|j].
  - cbn. intros [H|H]; auto. inversion H; subst. right. auto.
  - destruct (Nat.ltb j k); [|cbn; auto].
    destruct (nth_error (aq_q c a) j) eqn:En; [|cbn; auto].
    destruct (tret c c0).
    + cbn. intros [H|H]; auto. inversion H; subst. right. split; auto. right. exists j, c0. auto.
    + cbn. intros [H|H]; auto. inversion H; subst. right. split; auto. right. exists j, c0. auto.
    + destruct emb; cbn; auto.
Qed.

Lemma deliver_fields : forall a p b k emb c,
  proot (deliver a p b k emb c) = proot c /\ pbasis (deliver a p b k emb c) = pbasis c /\
  penq (deliver a p b k emb c) = penq c.
Proof. intros. rewrite deliver_recv. destruct (recv_of c a b k); destruct emb; repeat split. Qed.

(* the two clauses of invA used here: unlike invA they still hold of the configuration that s_drain
   hands to deliver, after its phase and trace updates *)
Definition invA' (P : params) (c : config) : Prop :=
  (forall p, p_kind P p = Direct -> ppc c p = PInit)
  /\ (forall p i, penq c p = Some i -> nth_error (aq_q c (proot c p)) i = Some p).

Lemma invA_invA' : forall P c, invA P c -> invA' P c.
Proof. intros P c A. split; [apply (a_kp _ _ A)|apply (a_q2 _ _ A)]. Qed.

(* a delivery through bases[pbasis p] of the answer p was recorded for reaches the right target *)
Lemma delivery_dest_ok : forall P c p a d, invA' P c -> invB P c ->
  ppc c p <> PInit -> proot c p = a ->
  ((pbasis c p = 0 /\ d = DRes a)
   \/ exists j e, pbasis c p = S j /\ nth_error (aq_q c a) j = Some e /\ (d = DRes e \/ d = DFwd e)) ->
  dest_ok P p d.
Proof.
  intros P c p a d (A1 & A2) B Hp Hr Hd.
  destruct (p_kind P p) eqn:K; [exfalso; apply Hp; apply A1; auto|].
  exists on. split; auto.
  destruct (b_basis _ _ B p on K Hp) as [(K1 & R1 & B1)|(K1 & i & Q1 & B1 & R1)].
  - destruct Hd as [(_ & ->)|(j & e & Hb & _)]; [left; congruence|congruence].
  - destruct Hd as [(Hb & _)|(j & e & Hb & Hn & Hd)]; [congruence|].
    assert (j = i) by congruence. subst j.
    pose proof (A2 _ _ Q1) as Hon. rewrite <- R1, Hr in Hon.
    assert (e = on) by congruence. subst e. destruct Hd as [Hd|Hd]; auto.
Qed.

Lemma deliver_ppc_init : forall a p b k emb c x, ppc c p <> PInit ->
  ppc (deliver a p b k emb c) x <> PInit -> ppc c x <> PInit.
Proof.
  intros a p b k emb c x Hp H. destruct (deliver_ppc a p b k emb c x) as [E|(-> & _)]; congruence.
Qed.

Lemma invB_deliver : forall P c p k emb, invA' P c -> invB P c -> ppc c p <> PInit ->
  invB P (deliver (proot c p) p (pbasis c p) k emb c).
Proof.
  intros P c p k emb A B Hp.
  destruct (deliver_fields (proot c p) p (pbasis c p) k emb c) as (E1 & E2 & E3).
  constructor.
  - intros x on K H. apply deliver_ppc_init in H; auto.
    pose proof (b_basis _ _ B x on K H) as Q. unfold basis_ok in *. rewrite E1, E2, E3. exact Q.
  - intros x d H. apply deliver_delivs in H. destruct H as [H|(-> & H)].
    + apply (b_deliv _ _ B); auto.
    + eapply delivery_dest_ok; eauto.
Qed.

Lemma invB_if_ph : forall P c2 (b : bool) f, invB P c2 -> invB P (if b then set_aq_ph f c2 else c2).
Proof. intros P c2 b f H. destruct b; auto. destruct H; constructor; auto. Qed.

(* a call enters queueCaller.PipelineRecv: the target it records is the right one *)
Lemma invB_record : forall P c p on a b c2, p_fixed P = true -> invA P c -> invB P c ->
  p_kind P p = Pipe on -> ppc c p = PInit -> pipe_target P c on = Some (a, b) ->
  proot c2 = upd (proot c) p a -> pbasis c2 = upd (pbasis c) p b ->
  (forall x, x <> p -> penq c2 x = penq c x) ->
  (forall x, x <> p -> ppc c2 x = ppc c x) ->
  delivs (trace c2) = delivs (trace c) -> invB P c2.
Proof.
  intros P c p on a b c2 F A B Ek Ep Et E1 E2 E3 E4 E5. constructor.
  - intros x on' K Hx. unfold basis_ok. rewrite E1, E2. unfold upd.
    destruct (Nat.eqb_spec x p) as [->|Nx].
    + assert (on' = on) by congruence. subst on'.
      unfold pipe_target in Et. destruct (p_kind P on) eqn:Kon.
      * destruct (spc c on); try discriminate. destruct (gotp c on); inv_some. left. auto.
      * destruct (penq c on) eqn:Eq; inv_some. rewrite F. right. split; [congruence|].
        assert (Non : on <> p) by (intros ->; rewrite (a_q4 _ _ A _ Ep) in Eq; discriminate).
        exists n. rewrite (E3 _ Non). destruct (Nat.eqb_spec on p); [congruence|]. auto.
    + rewrite E4 in Hx by auto.
      destruct (b_basis _ _ B x on' K Hx) as [Q|(K1 & i & Q1 & Q2 & Q3)]; [left; exact Q|].
      right. split; auto.
      assert (Non : on' <> p) by (intros ->; rewrite (a_q4 _ _ A _ Ep) in Q1; discriminate).
      exists i. rewrite (E3 _ Non). destruct (Nat.eqb_spec on' p); [congruence|]. auto.
  - intros x d Hd. rewrite E5 in Hd. apply (b_deliv _ _ B); auto.
Qed.

Lemma invB_frame : forall P c c', aq_frame P c c' -> invB P c -> invB P c'.
Proof.
  intros P c c' F B.
  apply (invB_same P c _ B); [exact (f_proot _ _ _ F)|exact (f_pbasis _ _ _ F)|exact (f_penq _ _ _ F)| |exact (f_delivs _ _ _ F)].
  intros y. rewrite (f_ppc _ _ _ F). auto.
Qed.

Lemma invB_step : forall P c t c', p_fixed P = true -> inv P c -> invA P c -> invB P c ->
  step P c t = Some c' -> invB P c'.
Proof.
  intros P c t c' F I A B H. apply step_sstep in H. pose proof (frame_step P c t c' I A H) as Fq.
  destruct H; cbn [aq_quiet] in Fq.
  all: try (apply (invB_frame P c); [solve [apply Fq; auto]|exact B]); clear Fq.
  all: try (assert (Hq : ppc c p = PQueued) by (eapply draining_queued; eauto)).
  all: try (assert (Hi : ppc c p <> PInit) by (first [congruence|destruct Ep; congruence])).
  all: try solve [apply (invB_same P c _ B); auto; intros y; cbn; unfold upd; destruct (Nat.eqb_spec y p); subst; congruence].
  all: try solve [unfold recorded; eapply invB_record; eauto; try reflexivity; intros y Ny; cbn; unfold upd;
                  destruct (Nat.eqb_spec y p); congruence].
  - (* s_drain *) apply invB_if_ph. destruct (a_q3 _ _ A _ _ _ En) as (_ & Hr).
    set (cc := ev (EvProc x p) (set_aq_ph (upd (aq_ph c) x (ADraining (S k))) c)).
    assert (B1 : invB P cc) by (destruct B; constructor; auto).
    assert (A1 : invA' P cc) by (apply (invA_invA' P c A)).
    subst c2. replace x with (proot cc p) at 1 by exact Hr.
    change (pbasis c p) with (pbasis cc p).
    apply invB_deliver; auto.
  - (* s_pipe_pass *) apply invB_deliver; auto. apply invA_invA'; auto.
Qed.
