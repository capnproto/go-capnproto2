(* C12 / C07 — r.ReleaseArgs(): on every path of Server.start, of the method goroutine and of the
   answerQueue (enqueue, fulfill, reject, pass-through, cancelled waits, "call after shutdown") the
   arguments of a call are released exactly once, and no later than the call's completion
   (Returner.Return).  [rel c x] (ghost field of the model) counts the ReleaseArgs of call x.

   The invariant: the counter is a function of the program counters - it is 1 exactly from the
   stage on at which the code has passed its r.ReleaseArgs() / r.Reject(..) / the target's r.Return(). *)
From CV Require Import Server.Server Server.StepCases Server.ServerProofs Server.ServerSteps Server.ServerStart Server.ServerTheorems
  Server.ServerOnce Server.AqInv Server.AqFrame Server.AqPreserve Server.AqTheorems Server.OnceTheorems.
From Coq Require Import List Arith Bool Lia.
Import ListNotations.

(* direct call: rejected by start (no goroutine, start has returned), or its goroutine is past
   "err := m.Impl(ctx, call); r.ReleaseArgs()" *)
Definition args_done_direct (c : config) (x : cid) : bool :=
  match ipc c x with
  | IDrain | IReturn | ISlot | IClose | IDone => true
  | INone => match spc c x with SDone => true | _ => false end
  | _ => false
  end.

(* pipelined call: rejected (ctx / answer's error / error of the call it was pipelined on), or the
   capability it was delivered to has returned (r.Return() / r.Reject(e) release the arguments) *)
Definition args_done_pipe (c : config) (x : cid) : bool :=
  match ppc c x with PEmbRet | PDone => true | _ => false end.

Definition args_done (P : params) (c : config) (x : cid) : bool :=
  match p_kind P x with Direct => args_done_direct c x | Pipe _ => args_done_pipe c x end.

Definition b2n (b : bool) : nat := if b then 1 else 0.

Record invR (P : params) (c : config) : Prop := {
  r_rel : forall x, rel c x = b2n (args_done_direct c x) + b2n (args_done_pipe c x)
}.

Lemma invR_init : forall P, invR P (init P).
Proof. intros P. constructor; simpl; intros; auto. Qed.

Lemma invR_eq : forall P c c', rel c' = rel c -> ipc c' = ipc c -> spc c' = spc c -> ppc c' = ppc c ->
  invR P c -> invR P c'.
Proof.
  intros P c c' E1 E2 E3 E4 [R1]. constructor; unfold args_done_direct, args_done_pipe in *; intros;
    rewrite ?E1, ?E2, ?E3, ?E4; auto.
Qed.

(* [stage] of ServerOnce.v, for invR: rel grows exactly when the call enters args_done_direct / args_done_pipe *)
Ltac rfin I R :=
  constructor;
  intros y; pose proof (r_rel _ _ R y) as Hy; pose proof (i_pre _ _ I y) as Hpre; pose proof (i_ack _ _ I y) as Hack;
  unfold args_done_direct, args_done_pipe, b2n, pre_impl in *;
  cbn -[nth_error next_id has_ongoing set_nth] in *; unfold upd in *;
  eqb_cases; rw_pcs;
  cbn -[nth_error next_id has_ongoing set_nth] in *; spec_refl; rw_pcs;
  cbn -[nth_error next_id has_ongoing set_nth] in *;
  try solve [ assumption | congruence | lia ];
  try solve [ split_pcs; cbn in *; spec_refl; solve [ assumption | congruence | lia ] ].

Lemma invR_if_ph : forall P c2 (b : bool) f, invR P c2 -> invR P (if b then set_aq_ph f c2 else c2).
Proof. intros P c2 b f H. destruct b; auto. eapply invR_eq; [..|exact H]; reflexivity. Qed.

(* bases[b].recv(..) on a call that has not been released yet *)
Lemma invR_deliver : forall P a p b k emb c, inv P c -> invR P c ->
  (ppc c p = PQueued \/ ppc c p = PWaitReady) -> invR P (deliver a p b k emb c).
Proof.
  intros P a p b k emb c I R Hp. rewrite deliver_recv. unfold reject_call, release, complete, panic.
  destruct (recv_of c a b k); destruct emb; destruct Hp as [Hp|Hp]; rfin I R.
Qed.

Lemma invR_step : forall P c t c', p_relfix P = true -> inv P c -> invA P c -> invR P c ->
  step P c t = Some c' -> invR P c'.
Proof.
  intros P c t c' Fx I A R H. apply step_sstep in H. destruct H; try destruct Hen; rewrite ?Fx.
  all: try (assert (Hq : ppc c p = PQueued) by (eapply draining_queued; eauto)).
  all: try match goal with |- context [wake] => unfold wake; destruct (full c) as [w|] eqn:Ef; [pose proof (i_full1 _ _ I _ Ef)|] end.
  all: repeat match goal with E : _ \/ _ |- _ => destruct E end; try subst c2.
  all: try match goal with
           | |- context [deliver] => fail 1
           | _ => solve [unfold recorded, start_reject, start_reject_if, release_if, release_gate, reject_call, release, complete;
                         rfin I R]
           end.
  - (* s_drain *) apply invR_if_ph, invR_deliver; auto.
    + eapply inv_core_eq; [|exact I]. core.
    + eapply invR_eq; [..|exact R]; reflexivity.
  - (* s_pipe_pass *) apply invR_deliver; auto.
Qed.

Lemma invR_reachable : forall P c, p_relfix P = true -> reachable P c -> invR P c.
Proof.
  intros P c Fx. induction 1. apply invR_init.
  eapply invR_step; eauto. apply inv_reachable; auto. apply invA_reachable; auto.
Qed.

Lemma rel_is_stage : forall P c x, p_relfix P = true -> reachable P c ->
  rel c x = b2n (args_done P c x).
Proof.
  intros P c x Fx Rc. pose proof (invR_reachable P c Fx Rc) as R. pose proof (invA_reachable P c Rc) as A.
  pose proof (inv_reachable P c Rc) as I. rewrite (r_rel _ _ R x). unfold args_done. destruct (p_kind P x) eqn:Ek.
  - unfold args_done_pipe. rewrite (a_kp _ _ A x Ek). simpl. lia.
  - assert (K : p_kind P x <> Direct) by congruence.
    unfold args_done_direct. rewrite (pipe_ipc_none P c x I A K), (a_ks _ _ A x K). simpl. reflexivity.
Qed.

Lemma finished_args_done : forall P c x, finished P c x = true -> args_done P c x = true.
Proof.
  intros P c x. unfold finished, args_done, finished_direct, args_done_direct, args_done_pipe, pdone.
  destruct (p_kind P x); [destruct (ipc c x); auto; discriminate | destruct (ppc c x); auto; discriminate].
Qed.

(* For the code as it is (p_relfix = true), in every reachable configuration (all schedules, all
   MaxConcurrentCalls / queue sizes / call sets): the arguments of every call have been released
   at most once; exactly once iff the call is at or past the stage [args_done] (rejected by start,
   goroutine past m.Impl, rejected by the answerQueue, target returned); and whenever the call has
   completed (its Returner.Return was called: compl non-empty / [finished]) they HAVE been released:
   release happens no later than completion, on every path. *)
Lemma args_released_once_lemma : forall P c x, p_relfix P = true -> reachable P c ->
  rel c x <= 1 /\
  (rel c x = 1 <-> args_done P c x = true) /\
  (compl c x <> [] -> rel c x = 1) /\
  (finished P c x = true -> rel c x = 1).
Proof.
  intros P c x Fx Rc. rewrite (rel_is_stage P c x Fx Rc).
  assert (Hf : finished P c x = true -> b2n (args_done P c x) = 1).
  { intros Hfin. rewrite (finished_args_done _ _ _ Hfin). reflexivity. }
  repeat split.
  - destruct (args_done P c x); simpl; lia.
  - destruct (args_done P c x); simpl; auto; discriminate.
  - intros ->. reflexivity.
  - intros Hc. apply Hf. destruct (each_call_once_lemma P c x Rc) as (Hle & Hiff). apply Hiff.
    destruct (compl c x); [congruence|]. simpl in *. lia.
  - exact Hf.
Qed.

(* release and completion are different steps of the method goroutine: between "m.Impl returned"
   and Returner.Return the arguments are already released and the call has not completed yet *)
Lemma args_released_before_return_lemma : forall P c x, p_relfix P = true -> reachable P c ->
  p_kind P x = Direct -> (ipc c x = IDrain \/ ipc c x = IReturn) -> rel c x = 1 /\ compl c x = [].
Proof.
  intros P c x Fx Rc K Hi. split.
  - rewrite (rel_is_stage P c x Fx Rc). unfold args_done, args_done_direct. rewrite K.
    destruct Hi as [-> | ->]; reflexivity.
  - apply (direct_once_lemma P c x Rc K). unfold finished_direct. destruct Hi as [-> | ->]; reflexivity.
Qed.

(* MaxConcurrentCalls = 1; call 0 runs (acked), call 1 waits for the slot, its context is cancelled *)
Definition ex_params_rel (relfix : bool) : params :=
  mkParams 1 1 (fun x => match x with 3 => Pipe 0 | _ => Direct end) (fun _ => None) true (fun _ => false) relfix.
Definition ex_sched_rel : list tid :=
  [TStart 0; TAck 0; TStart 0; TStart 1; TCancel 1; TStartCtx 1].

(* non-vacuity: the code as it is, cancelled while waiting for a slot: completed with ctx.Err(), released once *)
Lemma args_released_example :
  let c := run (ex_params_rel true) (init (ex_params_rel true)) ex_sched_rel in
  compl c 1 = [CCtx] /\ rel c 1 = 1 /\ spc c 1 = SDone /\ rel c 0 = 0.
Proof. vm_compute. repeat split. Qed.

(* ... and every other path: a queued pipelined call delivered and returned by its target, the
   method goroutine, a call rejected after Shutdown *)
Lemma args_released_example_paths :
  let c := run (ex_params_rel true) (init (ex_params_rel true))
               (ex_sched_rel ++ [TPipe 3; TRet 0 false; TImpl 0; TImpl 0; TTargetRet 3 false; TImpl 0; TImpl 0; TImpl 0; TImpl 0;
                                 TEmb 3; TShutdown; TShutdown; TStart 2]) in
  rel c 0 = 1 /\ rel c 1 = 1 /\ rel c 2 = 1 /\ rel c 3 = 1 /\
  compl c 0 = [COk] /\ compl c 2 = [CFail] /\ compl c 3 = [COk].
Proof. vm_compute. repeat split. Qed.

(* the variant that calls r.Returner.Return(ctx.Err()) instead of r.Reject(ctx.Err()) on the
   "cancelled while waiting for a free slot" branch: the call completes, its arguments are never released *)
Lemma args_released_once_refuted_lemma :
  exists P c x, p_relfix P = false /\ reachable P c /\ compl c x <> [] /\ finished P c x = true /\ rel c x = 0 /\
                spc c x = SDone /\ ipc c x = INone.    (* start has returned, no goroutine: nobody is left to release *)
Proof.
  exists (ex_params_rel false), (run (ex_params_rel false) (init (ex_params_rel false)) ex_sched_rel), 1.
  split; [reflexivity|]. split; [apply run_reachable; apply reach_init|].
  vm_compute. repeat split; auto; discriminate.
Qed.
