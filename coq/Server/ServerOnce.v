(* C12 — every direct call completes (its Returner.Return is called) exactly once. *)
From CV Require Import Server.Server Server.StepCases Server.ServerProofs Server.ServerSteps Server.ServerStart Server.ServerTheorems
  Server.AqInv Server.AqTheorems.
From Coq Require Import List Arith Bool Lia.
Import ListNotations.

(* the stage of a direct call at which its Returner.Return has been called *)
Definition finished_direct (c : config) (x : cid) : bool :=
  match ipc c x with
  | ISlot | IClose | IDone => true
  | INone => match spc c x with SDone => true | _ => false end
  | _ => false
  end.

(* the completions of a direct call are counted by its stage *)
Definition inv2 (P : params) (c : config) : Prop :=
  forall x, p_kind P x = Direct -> length (compl c x) = if finished_direct c x then 1 else 0.

Lemma inv2_init : forall P, inv2 P (init P).
Proof. intros P x _. reflexivity. Qed.

Ltac rw_pcs :=
  repeat match goal with E : spc _ _ = _ |- _ => rewrite E in * end;
  repeat match goal with E : ipc _ _ = _ |- _ => rewrite E in * end;
  repeat match goal with E : ppc _ _ = _ |- _ => rewrite E in * end.

Ltac spec_refl :=
  repeat match goal with
  | H : ?a = ?a -> _ |- _ => specialize (H eq_refl)
  | H : ?a <> ?a |- _ => exfalso; apply H; reflexivity
  end.

Ltac split_pcs :=
  repeat match goal with
  | |- context [match ipc ?c ?x with _ => _ end] => destruct (ipc c x) eqn:?
  | H : context [match ipc ?c ?x with _ => _ end] |- _ => destruct (ipc c x) eqn:?
  | |- context [match spc ?c ?x with _ => _ end] => destruct (spc c x) eqn:?
  | H : context [match spc ?c ?x with _ => _ end] |- _ => destruct (spc c x) eqn:?
  | |- context [match ppc ?c ?x with _ => _ end] => destruct (ppc c x) eqn:?
  | H : context [match ppc ?c ?x with _ => _ end] |- _ => destruct (ppc c x) eqn:?
  end.

(* one case of inv2's preservation, for the call y: compute the fields of the new configuration, compare
   y with the call that moved, rewrite the program counters the guards give; what is left says that compl
   grew exactly when the call entered [finished_direct], by congruence or lia, if need be after cases on
   the program counters still matched on *)
Ltac stage I J :=
  intros y Ky; pose proof (J y Ky) as Hy; pose proof (i_pre _ _ I y) as Hpre; pose proof (i_ack _ _ I y) as Hack;
  unfold finished_direct, pre_impl in *;
  cbn -[nth_error next_id has_ongoing set_nth] in *; unfold upd in *;
  eqb_cases; rw_pcs;
  cbn -[nth_error next_id has_ongoing set_nth] in *; spec_refl; rw_pcs;
  cbn -[nth_error next_id has_ongoing set_nth] in *;
  try solve [ assumption | congruence | lia ];
  try solve [ split_pcs; cbn in *; spec_refl; solve [ assumption | congruence | lia ] ].

Lemma inv2_deliver : forall P a p b k emb c, inv P c -> inv2 P c -> p_kind P p <> Direct -> inv2 P (deliver a p b k emb c).
Proof.
  intros P a p b k emb c I J Hp. rewrite deliver_recv. unfold reject_call, release, complete, panic.
  destruct (recv_of c a b k); destruct emb; stage I J.
Qed.

Lemma inv2_if_ph : forall P c2 (b : bool) f, inv2 P c2 -> inv2 P (if b then set_aq_ph f c2 else c2).
Proof. intros P c2 b f H. destruct b; auto. Qed.

Lemma inv2_step : forall P c t c', inv P c -> invA P c -> inv2 P c -> step P c t = Some c' -> inv2 P c'.
Proof.
  intros P c t c' I A J H. apply step_sstep in H. destruct H; try destruct Hen.
  all: try (assert (Kp : p_kind P p <> Direct)
              by (first [congruence | intros K; rewrite (a_kp _ _ A p K) in Ep; discriminate
                        | eapply (a_kq _ _ _ _ A), nth_error_In; eauto])).
  all: try match goal with |- context [wake] => unfold wake; destruct (full c) as [w|] eqn:Ef; [pose proof (i_full1 _ _ I _ Ef)|] end.
  all: try solve [unfold recorded; stage I J].
  - (* s_ctx_full *) destruct Es; stage I J.
  - (* s_ret *) destruct Ei; stage I J.
  - (* s_drain *) apply inv2_if_ph, inv2_deliver; auto. eapply inv_core_eq; [|exact I]. core.
  - (* s_pipe_pass *) apply inv2_deliver; auto.
Qed.

Lemma inv2_reachable : forall P c, reachable P c -> inv2 P c.
Proof.
  induction 1. apply inv2_init. eapply inv2_step; eauto. apply inv_reachable; auto. apply invA_reachable; auto.
Qed.

(* a direct call never completes twice, and it has completed exactly once as soon as it was
   rejected by start or its goroutine has passed r.Returner.Return *)
Lemma direct_once_lemma : forall P c x, reachable P c -> p_kind P x = Direct ->
  length (compl c x) <= 1 /\ (finished_direct c x = true -> length (compl c x) = 1) /\
  (finished_direct c x = false -> compl c x = []).
Proof.
  intros P c x R K. pose proof (inv2_reachable _ _ R x K) as H.
  destruct (finished_direct c x); repeat split; intros; try discriminate; try lia.
  destruct (compl c x); auto; discriminate.
Qed.

(* a direct call whose Send/Recv has returned and whose goroutine (if any) has terminated
   has completed exactly once *)
Lemma direct_done_once_lemma : forall P c x, reachable P c -> p_kind P x = Direct ->
  spc c x = SDone -> (ipc c x = INone \/ ipc c x = IDone) -> length (compl c x) = 1.
Proof.
  intros P c x R K Hs Hi. apply (direct_once_lemma P c x R K). unfold finished_direct.
  destruct Hi as [-> | ->]; auto. rewrite Hs. reflexivity.
Qed.
