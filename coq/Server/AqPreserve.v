(* C12 — every step preserves the answerQueue invariant. *)
From CV Require Import Server.Server Server.StepCases Server.ServerProofs Server.AqInv Server.AqFrame Server.AqSteps.
From Coq Require Import List Arith Bool Lia.
Import ListNotations.

Lemma not_direct : forall P c p, invA P c -> ppc c p <> PInit -> p_kind P p <> Direct.
Proof. intros P c p A H K. apply H. apply (a_kp _ _ A); auto. Qed.

Lemma compl_len0 : forall P c p, invA P c -> ppc c p <> PInit -> ppc c p <> PDone -> length (compl c p) = 0.
Proof.
  intros P c p A H1 H2. rewrite (a_j3 _ _ A p (not_direct _ _ _ A H1)).
  destruct (ppc c p); simpl; auto. congruence.
Qed.

Lemma pipe_target_bound : forall P c on a b, invA P c -> pipe_target P c on = Some (a, b) ->
  b <= length (aq_q c a).
Proof.
  intros P c on a b A H. unfold pipe_target in H. destruct (p_kind P on).
  - destruct (spc c on); try discriminate. destruct (gotp c on); inv_some. lia.
  - destruct (penq c on) eqn:E; inv_some. pose proof (a_q2 _ _ A _ _ E) as Q.
    assert (n < length (aq_q c (proot c on))) by (apply nth_error_Some; rewrite Q; discriminate).
    destruct (p_fixed P); lia.
Qed.

Ltac side :=
  try reflexivity;
  try (split; discriminate);
  try (intros; cbn; reflexivity);
  try (intros; cbn; unfold upd; eqb_cases; (reflexivity || congruence));
  try (cbn; unfold upd; rewrite ?Nat.eqb_refl; simpl; lia).

Lemma invA_step : forall P c t c', inv P c -> invA P c -> step P c t = Some c' -> invA P c'.
Proof.
  intros P c t c' I A H. apply step_sstep in H. pose proof (frame_step P c t c' I A H) as F.
  destruct H; cbn [aq_quiet] in F.
  all: try (apply (invA_frame P c); [solve [apply F; auto]|exact A]); clear F.
  all: try (assert (Kp : p_kind P p <> Direct) by congruence).
  all: try (assert (Hm : movable (ppc c p)) by (split; first [congruence|destruct Ep; congruence])).
  all: try (assert (Hl : length (compl c p) = 0) by (apply (compl_len0 P); auto; first [congruence|destruct Ep; congruence])).
  - (* s_fulfill: fulfill / reject begin *)
    pose proof (a_q5 _ _ A x) as Q. rewrite Ei in Q.
    eapply (invA_phase P c _ x (ADraining 0)); eauto; side.
    destruct (aq_ph c x); simpl in *; try discriminate; reflexivity.
  - (* s_drain_rej: a queue entry fails *)
    assert (Hq : ppc c p = PQueued) by (eapply draining_queued; eauto).
    assert (Hl : length (compl c p) = 0) by (apply (compl_len0 P); auto; congruence).
    eapply (invA_process P c _ x p k PDone (ADraining (S k))); eauto; side.
  - (* s_drain: a queue entry is delivered, or fails with the error of the entry it was pipelined on *)
    assert (Hq : ppc c p = PQueued) by (eapply draining_queued; eauto).
    assert (Hl : length (compl c p) = 0) by (apply (compl_len0 P); auto; congruence).
    assert (Hk : k < length (aq_q c x)) by (apply nth_error_Some; congruence).
    subst c2. rewrite deliver_recv.
    destruct (recv_of _ x (pbasis c p) k) eqn:Ev;
      [| |exfalso; revert Ev; apply recv_of_assigned; [eapply (a_q8 _ _ A); eauto|apply Nat.lt_le_incl, Hk]].
    + destruct w.
      * eapply (invA_process P c _ x p k PDelivered (ADrainWait (S k))); eauto; side.
      * eapply (invA_process P c _ x p k PDelivered (ADraining (S k))); eauto; side.
    + destruct w.
      * eapply (invA_process P c _ x p k PEmbRet (ADrainWait (S k))); eauto; side.
      * eapply (invA_process P c _ x p k PEmbRet (ADraining (S k))); eauto; side.
  - (* s_drained: the drain loop ends *)
    pose proof (a_q1b _ _ A x) as Q. rewrite Eph in Q. simpl in Q. apply nth_error_None in En.
    eapply (invA_phase P c _ x ADrained); eauto; side.
    rewrite Eph. simpl. lia.
  - (* s_pipe_full *) pose proof (pipe_target_bound _ _ _ _ _ A Et). eapply (invA_enter P c _ p a b PWaitDrain); eauto; side.
  - (* s_pipe_enq *) pose proof (pipe_target_bound _ _ _ _ _ A Et). eapply (invA_enqueue P c _ p a b); eauto; side.
  - (* s_pipe_late *) pose proof (pipe_target_bound _ _ _ _ _ A Et). eapply (invA_enter P c _ p a b PWaitReady); eauto; side.
  - (* s_pipe_drain *) eapply (invA_move P c _ p PWaitReady); eauto; side.
  - (* s_pipe_rej *) eapply (invA_move P c _ p PDone); eauto; side.
  - (* s_pipe_pass *) rewrite deliver_recv.
    destruct (recv_of c (proot c p) (pbasis c p) _) eqn:Ev;
      [| |exfalso; revert Ev; apply recv_of_assigned; [apply (a_q9 _ _ A); congruence|apply le_n]].
    + eapply (invA_move P c _ p PDirect); eauto; side.
    + eapply (invA_move P c _ p PDone); eauto; side.
  - (* s_pipe_ctx *) eapply (invA_move P c _ p PDone); eauto; side.
  - (* s_target_emb *) eapply (invA_move P c _ p PEmbRet); eauto; side.
  - (* s_target *) eapply (invA_move P c _ p PDone); eauto; side.
  - (* s_emb *) eapply (invA_move P c _ p PDone); eauto; side.
  - (* s_drain_ack *) pose proof (a_q5 _ _ A a) as Q. rewrite Eph in Q.
    eapply (invA_phase P c _ a (ADraining k)); eauto; side; rewrite Eph; reflexivity.
Qed.
