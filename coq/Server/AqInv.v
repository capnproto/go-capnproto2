(* C12 — the answerQueue invariant: queue entries, drain index, enqueue / processing order,
   exactly-once for pipelined calls. Definitions, list lemmas and the frame lemma for steps that
   do not touch the answerQueue state. *)
From CV Require Import Server.Server Server.ServerProofs.
From Coq Require Import List Arith Bool Lia.
Import ListNotations.

(* how many queue entries the drain loop has processed *)
Definition qidx (ph : aqphase) (n : nat) : nat :=
  match ph with AQueueing => 0 | ADraining k | ADrainWait k => k | ADrained => n end.
Definition iclass (i : ipc_t) : nat :=
  match i with INone | IRun | IAcked | IRet => 0 | IDrain => 1 | _ => 2 end.
Definition pclass (ph : aqphase) : nat :=
  match ph with AQueueing => 0 | ADraining _ | ADrainWait _ => 1 | ADrained => 2 end.
Definition pdone (s : ppc_t) : bool := match s with PDone => true | _ => false end.

(* chronological projections of the (newest-first) trace *)
Fixpoint enqs (a : cid) (tr : list event) : list cid :=
  match tr with
  | [] => []
  | EvEnq p r _ :: t => if Nat.eqb r a then enqs a t ++ [p] else enqs a t
  | _ :: t => enqs a t
  end.
Fixpoint procs (a : cid) (tr : list event) : list cid :=
  match tr with
  | [] => []
  | EvProc r p :: t => if Nat.eqb r a then procs a t ++ [p] else procs a t
  | _ :: t => procs a t
  end.

(* the deliveries recorded in the trace (newest first) *)
Fixpoint delivs (tr : list event) : list (cid * dest) :=
  match tr with
  | [] => []
  | EvDeliver p d :: t => (p, d) :: delivs t
  | _ :: t => delivs t
  end.

(* a_kp, a_ks: a call only uses the program counter of its kind. a_q1, a_q1b: the entries still queued
   are those from the drain index on. a_q2 .. a_q4: penq and proot locate the entry of a call. a_q5: the
   phase of the queue follows the pc of the goroutine ([iclass] / [pclass]). a_q8, a_q9: a recorded basis
   lies in the part of the queue before the call. a_j3: completions of a pipelined call. a_t1, a_t2: the
   queue and its processed prefix are projections of the trace. *)
Record invA (P : params) (c : config) : Prop := {
  a_kp : forall p, p_kind P p = Direct -> ppc c p = PInit;
  a_ks : forall p, p_kind P p <> Direct -> spc c p = S0;
  a_q1 : forall a i p, nth_error (aq_q c a) i = Some p ->
         (ppc c p = PQueued <-> qidx (aq_ph c a) (length (aq_q c a)) <= i);
  a_q1b : forall a, qidx (aq_ph c a) (length (aq_q c a)) <= length (aq_q c a);
  a_q2 : forall p i, penq c p = Some i -> nth_error (aq_q c (proot c p)) i = Some p;
  a_q2' : forall p, ppc c p = PQueued -> penq c p <> None;
  a_q3 : forall a i p, nth_error (aq_q c a) i = Some p -> penq c p = Some i /\ proot c p = a;
  a_q4 : forall p, ppc c p = PInit -> penq c p = None;
  a_q5 : forall a, iclass (ipc c a) = pclass (aq_ph c a);
  a_q8 : forall a m p, nth_error (aq_q c a) m = Some p -> pbasis c p <= m;
  a_q9 : forall p, ppc c p <> PInit -> pbasis c p <= length (aq_q c (proot c p));
  a_j3 : forall p, p_kind P p <> Direct -> length (compl c p) = if pdone (ppc c p) then 1 else 0;
  a_t1 : forall a, enqs a (trace c) = aq_q c a;
  a_t2 : forall a, procs a (trace c) = firstn (qidx (aq_ph c a) (length (aq_q c a))) (aq_q c a)
}.

Lemma invA_init : forall P, invA P (init P).
Proof.
  intros P. constructor; simpl; intros; auto; try discriminate; try lia.
  all: try (destruct i; discriminate). all: try (destruct m; discriminate).
Qed.

(* queue entries are pipelined calls *)
Lemma a_kq : forall P c a p, invA P c -> In p (aq_q c a) -> p_kind P p <> Direct.
Proof.
  intros P c a p A Hin K. apply In_nth_error in Hin. destruct Hin as (i & Hi).
  destruct (a_q3 _ _ A _ _ _ Hi) as (E & _). pose proof (a_q4 _ _ A p (a_kp _ _ A p K)). congruence.
Qed.

(* the queue entry the drain loop is at is still queued *)
Lemma draining_queued : forall P c a k p, invA P c -> aq_ph c a = ADraining k -> nth_error (aq_q c a) k = Some p ->
  ppc c p = PQueued.
Proof. intros P c a k p A Hph Hn. apply (a_q1 _ _ A _ _ _ Hn). rewrite Hph. simpl. lia. Qed.

Lemma nth_error_snoc_lt : forall A (l : list A) x i, i < length l -> nth_error (l ++ [x]) i = nth_error l i.
Proof. intros. apply nth_error_app1. auto. Qed.

Lemma nth_error_snoc_eq : forall A (l : list A) x, nth_error (l ++ [x]) (length l) = Some x.
Proof. intros. rewrite nth_error_app2 by lia. rewrite Nat.sub_diag. reflexivity. Qed.

Lemma nth_error_snoc_inv : forall A (l : list A) x i y, nth_error (l ++ [x]) i = Some y ->
  (i < length l /\ nth_error l i = Some y) \/ (i = length l /\ y = x).
Proof.
  intros A l x i y H. destruct (lt_dec i (length l)).
  - left. rewrite nth_error_app1 in H by auto. auto.
  - right. rewrite nth_error_app2 in H by lia. destruct (i - length l) eqn:E.
    + simpl in H. inversion H. split; auto. lia.
    + simpl in H. destruct n0; discriminate.
Qed.

Lemma firstn_snoc_nth : forall A (l : list A) k x, nth_error l k = Some x -> firstn (S k) l = firstn k l ++ [x].
Proof.
  induction l as [|a l IH]; intros k x H; destruct k; simpl in *; try discriminate.
  - inversion H. destruct l; reflexivity.
  - rewrite (IH _ _ H). reflexivity.
Qed.

Lemma firstn_app_le : forall A (l l' : list A) k, k <= length l -> firstn k (l ++ l') = firstn k l.
Proof. intros. rewrite firstn_app. replace (k - length l) with 0 by lia. simpl. apply app_nil_r. Qed.

Record aq_frame (P : params) (c c' : config) : Prop := {
  f_ppc : ppc c' = ppc c;
  f_q : aq_q c' = aq_q c;
  f_ph : aq_ph c' = aq_ph c;
  f_penq : penq c' = penq c;
  f_proot : proot c' = proot c;
  f_pbasis : pbasis c' = pbasis c;
  f_icl : forall x, iclass (ipc c' x) = iclass (ipc c x);
  f_spc : forall p, p_kind P p <> Direct -> spc c' p = spc c p;
  f_compl : forall p, p_kind P p <> Direct -> compl c' p = compl c p;
  f_enqs : forall a, enqs a (trace c') = enqs a (trace c);
  f_procs : forall a, procs a (trace c') = procs a (trace c);
  f_delivs : delivs (trace c') = delivs (trace c)
}.

Lemma invA_frame : forall P c c', aq_frame P c c' -> invA P c -> invA P c'.
Proof.
  intros P c c' F A. destruct F. destruct A.
  constructor; intros;
    rewrite ?f_ppc0, ?f_q0, ?f_ph0, ?f_penq0, ?f_proot0, ?f_pbasis0, ?f_icl0, ?f_enqs0, ?f_procs0 in *;
    try (rewrite f_spc0 by auto); try (rewrite f_compl0 by auto); eauto.
Qed.
