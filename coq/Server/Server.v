(* C12 — executable small-step model of server.Server (server/server.go: start, the
   implementation goroutine, Shutdown) and of server.answerQueue (server/answer.go:
   queueCaller.PipelineRecv, fulfill, reject, returnEmbargoer).

   Threads are program counters over the atomic sections of the Go code (a section is the
   code between two blocking operations / mutex hand-overs; srv.mu and aq.mu critical
   sections are single steps).  [step P c t] fires the next section of thread [t] in
   configuration [c], or is [None] when the thread is blocked / finished / does not exist.
   Where a Go [select] has a ctx.Done() arm, the thread has a second thread id for taking
   that arm ([TStartCtx], [TPipeCtx]); when both arms are ready both ids are enabled (Go
   picks randomly).  Decisions of the application and of the environment are steps too:
   [TAck]/[TRet] (the method implementation acknowledges / returns), [TTargetRet] (the
   capability a pipelined call was delivered to returns), [TCancel] (a caller's context is
   cancelled).  Reachability under any schedule = any list of thread ids ([run]).

   This file contains no proofs (it must extract even when a proof breaks). *)
From Coq Require Import List Arith Bool.
Import ListNotations.

Definition cid := nat.

(* What a call is.  [Direct]: a call on the server itself (Server.Send / Server.Recv).
   [Pipe on]: a call pipelined on the not-yet-returned answer of call [on]; [on] is either a
   direct call (PipelineSend/Recv on the answerQueue returned by start) or itself a
   pipelined call that was queued (the queueCaller returned by queueCaller.PipelineRecv). *)
Inductive kind := Direct | Pipe (on : cid).

(* Static part of a history: queue sizes, who calls what, program order of each caller
   ([p_pred c = Some d]: the same caller goroutine issued d immediately before c, so c's
   Send/Recv is entered only after d's has returned), and the variant of the code:
   [p_fixed = false] is the code before the fix of the basis off-by-one in
   queueCaller.PipelineRecv (basis := len(q)-1), [true] the repaired code (basis := len(q)). *)
Record params := mkParams {
  p_max : nat;            (* Policy.MaxConcurrentCalls, >= 1 after New *)
  p_qsize : nat;          (* Policy.AnswerQueueSize, >= 1 after New *)
  p_kind : cid -> kind;
  p_pred : cid -> option cid;
  p_fixed : bool;
  p_slow : cid -> bool;    (* the capability a queued call is delivered to withholds its delivery
                              acknowledgement (its Recv blocks) until the environment lets it *)
  p_relfix : bool          (* [true]: the code as it is: start's "cancelled while waiting for a free slot" branch
                              does r.Reject(ctx.Err()) (= r.ReleaseArgs(); r.Returner.Return(..)).  [false]: the
                              variant that does r.Returner.Return(ctx.Err()) there (arguments never released) *)
}.

(* program counters *)
Inductive spc_t :=          (* a goroutine inside Server.start *)
| S0                        (* not yet entered *)
| SWaitGate (h : cid)       (* select { <-wait (starting channel of h) ; <-ctx.Done } *)
| SWaitFull                 (* gate held; select { <-full ; <-ctx.Done }, full still open *)
| SFullWoken                (* same select, full has been closed by a returning call *)
| SWaitAck                  (* gate and slot held, goroutine spawned; select { <-ack ; <-done } *)
| SDone.                    (* start has returned *)

Inductive ipc_t :=          (* the goroutine spawned by start *)
| INone                     (* not spawned *)
| IRun                      (* inside m.Impl, Ack not called *)
| IAcked                    (* inside m.Impl, after Call.Ack *)
| IRet                      (* m.Impl returned; before aq.fulfill / aq.reject *)
| IDrain                    (* inside fulfill/reject, queue being drained *)
| IReturn                   (* before r.Returner.Return *)
| ISlot                     (* before the srv.mu section that frees the slot *)
| IClose                    (* before close(done) *)
| IDone.

Inductive ppc_t :=          (* a pipelined call: the goroutine inside queueCaller.PipelineRecv, then the call itself *)
| PInit
| PWaitDrain                (* queue full: select { <-aq.draining ; <-ctx.Done } *)
| PWaitReady                (* draining/drained: select { <-b.ready ; <-ctx.Done } *)
| PQueued                   (* entry in aq.q; PipelineRecv has returned a queueCaller *)
| PDelivered                (* delivered by fulfill to its target behind a returnEmbargoer; target has not returned *)
| PEmbRet                   (* embargoed return recorded; waiting for the goroutine that forwards it *)
| PDirect                   (* delivered pass-through (queue drained) with the caller's own Returner *)
| PDone.                    (* its Returner.Return has been called *)

Inductive shpc_t := ShInit | ShWait | ShUser | ShDone.

Inductive dstate := DNil | DOpen | DClosed.          (* srv.drain: nil / open channel / closed channel *)
(* ADrainWait k: the drain loop has delivered entry k-1 and is blocked inside the target's Recv
   (the target has not acknowledged delivery yet) *)
Inductive aqphase := AQueueing | ADraining (k : nat) | ADrained | ADrainWait (k : nat).
(* result of a pipelined call as seen by its returnEmbargoer / its caller *)
Inductive tres := TNone | TOk | TErr (origin : cid).

(* completion classes (what Returner.Return received) *)
Inductive cls :=
| COk
| CErr (origin : cid)       (* the error returned by the implementation / target of call [origin] *)
| CCtx                      (* ctx.Err() *)
| CFail.                    (* "call after shutdown" *)

(* where a pipelined call is delivered *)
Inductive dest :=
| DRes (c : cid)            (* a capability in the result struct of call c (transform applied) *)
| DFwd (c : cid).           (* the PipelineCaller of the still-running delivered call c *)

Inductive event :=
| EvIssue (c : cid)         (* a caller enters start for c *)
| EvBegin (c : cid)         (* m.Impl invoked for c *)
| EvAck (c : cid)
| EvImplRet (c : cid) (err : bool)
| EvComplete (c : cid) (k : cls)
| EvStartRet (c : cid) (pcall : bool)   (* start returns to the caller; pcall = non-nil PipelineCaller *)
| EvSlotFree (c : cid)
| EvEnq (p : cid) (root : cid) (basis : nat)
| EvDeliver (p : cid) (d : dest)
| EvProc (a : cid) (p : cid)   (* ghost: the drain loop of a's answerQueue processes queue entry p *)
| EvShutCall
| EvShutUser.

Record config := mkConfig {
  ongoing : list (option cid);
  starting : option cid;
  full : option cid;
  drain : dstate;
  spc : cid -> spc_t;
  ipc : cid -> ipc_t;
  ppc : cid -> ppc_t;
  shpc : shpc_t;
  cancelled : cid -> bool;
  icanc : cid -> bool;
  acked : cid -> bool;
  gate_rel : cid -> bool;
  idone : cid -> bool;
  slot : cid -> nat;
  ierr : cid -> bool;
  gotp : cid -> bool;
  aq_q : cid -> list cid;
  aq_ph : cid -> aqphase;
  penq : cid -> option nat;
  proot : cid -> cid;
  pbasis : cid -> nat;
  tret : cid -> tres;
  compl : cid -> list cls;
  trace : list event;
  panicked : bool;
  shcount : nat;
  rel : cid -> nat          (* ghost: how many times r.ReleaseArgs() has run for each call *)
}.
Definition set_ongoing (v : list (option cid)) (c : config) : config := mkConfig v (starting c) (full c) (drain c) (spc c) (ipc c) (ppc c) (shpc c) (cancelled c) (icanc c) (acked c) (gate_rel c) (idone c) (slot c) (ierr c) (gotp c) (aq_q c) (aq_ph c) (penq c) (proot c) (pbasis c) (tret c) (compl c) (trace c) (panicked c) (shcount c) (rel c).
Definition set_starting (v : option cid) (c : config) : config := mkConfig (ongoing c) v (full c) (drain c) (spc c) (ipc c) (ppc c) (shpc c) (cancelled c) (icanc c) (acked c) (gate_rel c) (idone c) (slot c) (ierr c) (gotp c) (aq_q c) (aq_ph c) (penq c) (proot c) (pbasis c) (tret c) (compl c) (trace c) (panicked c) (shcount c) (rel c).
Definition set_full (v : option cid) (c : config) : config := mkConfig (ongoing c) (starting c) v (drain c) (spc c) (ipc c) (ppc c) (shpc c) (cancelled c) (icanc c) (acked c) (gate_rel c) (idone c) (slot c) (ierr c) (gotp c) (aq_q c) (aq_ph c) (penq c) (proot c) (pbasis c) (tret c) (compl c) (trace c) (panicked c) (shcount c) (rel c).
Definition set_drain (v : dstate) (c : config) : config := mkConfig (ongoing c) (starting c) (full c) v (spc c) (ipc c) (ppc c) (shpc c) (cancelled c) (icanc c) (acked c) (gate_rel c) (idone c) (slot c) (ierr c) (gotp c) (aq_q c) (aq_ph c) (penq c) (proot c) (pbasis c) (tret c) (compl c) (trace c) (panicked c) (shcount c) (rel c).
Definition set_spc (v : cid -> spc_t) (c : config) : config := mkConfig (ongoing c) (starting c) (full c) (drain c) v (ipc c) (ppc c) (shpc c) (cancelled c) (icanc c) (acked c) (gate_rel c) (idone c) (slot c) (ierr c) (gotp c) (aq_q c) (aq_ph c) (penq c) (proot c) (pbasis c) (tret c) (compl c) (trace c) (panicked c) (shcount c) (rel c).
Definition set_ipc (v : cid -> ipc_t) (c : config) : config := mkConfig (ongoing c) (starting c) (full c) (drain c) (spc c) v (ppc c) (shpc c) (cancelled c) (icanc c) (acked c) (gate_rel c) (idone c) (slot c) (ierr c) (gotp c) (aq_q c) (aq_ph c) (penq c) (proot c) (pbasis c) (tret c) (compl c) (trace c) (panicked c) (shcount c) (rel c).
Definition set_ppc (v : cid -> ppc_t) (c : config) : config := mkConfig (ongoing c) (starting c) (full c) (drain c) (spc c) (ipc c) v (shpc c) (cancelled c) (icanc c) (acked c) (gate_rel c) (idone c) (slot c) (ierr c) (gotp c) (aq_q c) (aq_ph c) (penq c) (proot c) (pbasis c) (tret c) (compl c) (trace c) (panicked c) (shcount c) (rel c).
Definition set_shpc (v : shpc_t) (c : config) : config := mkConfig (ongoing c) (starting c) (full c) (drain c) (spc c) (ipc c) (ppc c) v (cancelled c) (icanc c) (acked c) (gate_rel c) (idone c) (slot c) (ierr c) (gotp c) (aq_q c) (aq_ph c) (penq c) (proot c) (pbasis c) (tret c) (compl c) (trace c) (panicked c) (shcount c) (rel c).
Definition set_cancelled (v : cid -> bool) (c : config) : config := mkConfig (ongoing c) (starting c) (full c) (drain c) (spc c) (ipc c) (ppc c) (shpc c) v (icanc c) (acked c) (gate_rel c) (idone c) (slot c) (ierr c) (gotp c) (aq_q c) (aq_ph c) (penq c) (proot c) (pbasis c) (tret c) (compl c) (trace c) (panicked c) (shcount c) (rel c).
Definition set_icanc (v : cid -> bool) (c : config) : config := mkConfig (ongoing c) (starting c) (full c) (drain c) (spc c) (ipc c) (ppc c) (shpc c) (cancelled c) v (acked c) (gate_rel c) (idone c) (slot c) (ierr c) (gotp c) (aq_q c) (aq_ph c) (penq c) (proot c) (pbasis c) (tret c) (compl c) (trace c) (panicked c) (shcount c) (rel c).
Definition set_acked (v : cid -> bool) (c : config) : config := mkConfig (ongoing c) (starting c) (full c) (drain c) (spc c) (ipc c) (ppc c) (shpc c) (cancelled c) (icanc c) v (gate_rel c) (idone c) (slot c) (ierr c) (gotp c) (aq_q c) (aq_ph c) (penq c) (proot c) (pbasis c) (tret c) (compl c) (trace c) (panicked c) (shcount c) (rel c).
Definition set_gate_rel (v : cid -> bool) (c : config) : config := mkConfig (ongoing c) (starting c) (full c) (drain c) (spc c) (ipc c) (ppc c) (shpc c) (cancelled c) (icanc c) (acked c) v (idone c) (slot c) (ierr c) (gotp c) (aq_q c) (aq_ph c) (penq c) (proot c) (pbasis c) (tret c) (compl c) (trace c) (panicked c) (shcount c) (rel c).
Definition set_idone (v : cid -> bool) (c : config) : config := mkConfig (ongoing c) (starting c) (full c) (drain c) (spc c) (ipc c) (ppc c) (shpc c) (cancelled c) (icanc c) (acked c) (gate_rel c) v (slot c) (ierr c) (gotp c) (aq_q c) (aq_ph c) (penq c) (proot c) (pbasis c) (tret c) (compl c) (trace c) (panicked c) (shcount c) (rel c).
Definition set_slot (v : cid -> nat) (c : config) : config := mkConfig (ongoing c) (starting c) (full c) (drain c) (spc c) (ipc c) (ppc c) (shpc c) (cancelled c) (icanc c) (acked c) (gate_rel c) (idone c) v (ierr c) (gotp c) (aq_q c) (aq_ph c) (penq c) (proot c) (pbasis c) (tret c) (compl c) (trace c) (panicked c) (shcount c) (rel c).
Definition set_ierr (v : cid -> bool) (c : config) : config := mkConfig (ongoing c) (starting c) (full c) (drain c) (spc c) (ipc c) (ppc c) (shpc c) (cancelled c) (icanc c) (acked c) (gate_rel c) (idone c) (slot c) v (gotp c) (aq_q c) (aq_ph c) (penq c) (proot c) (pbasis c) (tret c) (compl c) (trace c) (panicked c) (shcount c) (rel c).
Definition set_gotp (v : cid -> bool) (c : config) : config := mkConfig (ongoing c) (starting c) (full c) (drain c) (spc c) (ipc c) (ppc c) (shpc c) (cancelled c) (icanc c) (acked c) (gate_rel c) (idone c) (slot c) (ierr c) v (aq_q c) (aq_ph c) (penq c) (proot c) (pbasis c) (tret c) (compl c) (trace c) (panicked c) (shcount c) (rel c).
Definition set_aq_q (v : cid -> list cid) (c : config) : config := mkConfig (ongoing c) (starting c) (full c) (drain c) (spc c) (ipc c) (ppc c) (shpc c) (cancelled c) (icanc c) (acked c) (gate_rel c) (idone c) (slot c) (ierr c) (gotp c) v (aq_ph c) (penq c) (proot c) (pbasis c) (tret c) (compl c) (trace c) (panicked c) (shcount c) (rel c).
Definition set_aq_ph (v : cid -> aqphase) (c : config) : config := mkConfig (ongoing c) (starting c) (full c) (drain c) (spc c) (ipc c) (ppc c) (shpc c) (cancelled c) (icanc c) (acked c) (gate_rel c) (idone c) (slot c) (ierr c) (gotp c) (aq_q c) v (penq c) (proot c) (pbasis c) (tret c) (compl c) (trace c) (panicked c) (shcount c) (rel c).
Definition set_penq (v : cid -> option nat) (c : config) : config := mkConfig (ongoing c) (starting c) (full c) (drain c) (spc c) (ipc c) (ppc c) (shpc c) (cancelled c) (icanc c) (acked c) (gate_rel c) (idone c) (slot c) (ierr c) (gotp c) (aq_q c) (aq_ph c) v (proot c) (pbasis c) (tret c) (compl c) (trace c) (panicked c) (shcount c) (rel c).
Definition set_proot (v : cid -> cid) (c : config) : config := mkConfig (ongoing c) (starting c) (full c) (drain c) (spc c) (ipc c) (ppc c) (shpc c) (cancelled c) (icanc c) (acked c) (gate_rel c) (idone c) (slot c) (ierr c) (gotp c) (aq_q c) (aq_ph c) (penq c) v (pbasis c) (tret c) (compl c) (trace c) (panicked c) (shcount c) (rel c).
Definition set_pbasis (v : cid -> nat) (c : config) : config := mkConfig (ongoing c) (starting c) (full c) (drain c) (spc c) (ipc c) (ppc c) (shpc c) (cancelled c) (icanc c) (acked c) (gate_rel c) (idone c) (slot c) (ierr c) (gotp c) (aq_q c) (aq_ph c) (penq c) (proot c) v (tret c) (compl c) (trace c) (panicked c) (shcount c) (rel c).
Definition set_tret (v : cid -> tres) (c : config) : config := mkConfig (ongoing c) (starting c) (full c) (drain c) (spc c) (ipc c) (ppc c) (shpc c) (cancelled c) (icanc c) (acked c) (gate_rel c) (idone c) (slot c) (ierr c) (gotp c) (aq_q c) (aq_ph c) (penq c) (proot c) (pbasis c) v (compl c) (trace c) (panicked c) (shcount c) (rel c).
Definition set_compl (v : cid -> list cls) (c : config) : config := mkConfig (ongoing c) (starting c) (full c) (drain c) (spc c) (ipc c) (ppc c) (shpc c) (cancelled c) (icanc c) (acked c) (gate_rel c) (idone c) (slot c) (ierr c) (gotp c) (aq_q c) (aq_ph c) (penq c) (proot c) (pbasis c) (tret c) v (trace c) (panicked c) (shcount c) (rel c).
Definition set_trace (v : list event) (c : config) : config := mkConfig (ongoing c) (starting c) (full c) (drain c) (spc c) (ipc c) (ppc c) (shpc c) (cancelled c) (icanc c) (acked c) (gate_rel c) (idone c) (slot c) (ierr c) (gotp c) (aq_q c) (aq_ph c) (penq c) (proot c) (pbasis c) (tret c) (compl c) v (panicked c) (shcount c) (rel c).
Definition set_panicked (v : bool) (c : config) : config := mkConfig (ongoing c) (starting c) (full c) (drain c) (spc c) (ipc c) (ppc c) (shpc c) (cancelled c) (icanc c) (acked c) (gate_rel c) (idone c) (slot c) (ierr c) (gotp c) (aq_q c) (aq_ph c) (penq c) (proot c) (pbasis c) (tret c) (compl c) (trace c) v (shcount c) (rel c).
Definition set_shcount (v : nat) (c : config) : config := mkConfig (ongoing c) (starting c) (full c) (drain c) (spc c) (ipc c) (ppc c) (shpc c) (cancelled c) (icanc c) (acked c) (gate_rel c) (idone c) (slot c) (ierr c) (gotp c) (aq_q c) (aq_ph c) (penq c) (proot c) (pbasis c) (tret c) (compl c) (trace c) (panicked c) v (rel c).
Definition set_rel (v : cid -> nat) (c : config) : config := mkConfig (ongoing c) (starting c) (full c) (drain c) (spc c) (ipc c) (ppc c) (shpc c) (cancelled c) (icanc c) (acked c) (gate_rel c) (idone c) (slot c) (ierr c) (gotp c) (aq_q c) (aq_ph c) (penq c) (proot c) (pbasis c) (tret c) (compl c) (trace c) (panicked c) (shcount c) v.

Definition upd {A} (f : cid -> A) (c : cid) (v : A) : cid -> A :=
  fun x => if Nat.eqb x c then v else f x.

Definition ev (e : event) (c : config) : config := set_trace (e :: trace c) c.
Definition panic (c : config) : config := set_panicked true c.

(* Returner.Return(k) on call x *)
Definition complete (x : cid) (k : cls) (c : config) : config :=
  ev (EvComplete x k) (set_compl (upd (compl c) x (k :: compl c x)) c).

(* r.ReleaseArgs() of call x *)
Definition release (x : cid) (c : config) : config :=
  set_rel (upd (rel c) x (S (rel c x))) c.

(* r.Reject(e) = r.ReleaseArgs(); r.Returner.Return(e)   (capability.go, Recv.Reject) *)
Definition reject_call (x : cid) (k : cls) (c : config) : config := complete x k (release x c).

Definition init (P : params) : config :=
  mkConfig (repeat None (p_max P)) None None DNil
           (fun _ => S0) (fun _ => INone) (fun _ => PInit) ShInit
           (fun _ => false) (fun _ => false) (fun _ => false) (fun _ => false)
           (fun _ => false) (fun _ => 0) (fun _ => false) (fun _ => false)
           (fun _ => []) (fun _ => AQueueing) (fun _ => None) (fun _ => 0)
           (fun _ => 0) (fun _ => TNone)
           (fun _ => []) [] false 0 (fun _ => 0).

(* ---- srv.nextID / srv.hasOngoing / slot update *)
Fixpoint next_id (l : list (option cid)) : option nat :=
  match l with
  | [] => None
  | None :: _ => Some 0
  | Some _ :: r => match next_id r with Some i => Some (S i) | None => None end
  end.

Fixpoint has_ongoing (l : list (option cid)) : bool :=
  match l with [] => false | Some _ :: _ => true | None :: r => has_ongoing r end.

Fixpoint set_nth {A} (l : list A) (i : nat) (v : A) : list A :=
  match l, i with
  | [], _ => []
  | _ :: r, 0 => v :: r
  | x :: r, S j => x :: set_nth r j v
  end.

(* has the caller-order predecessor finished its Send/Recv/PipelineRecv? *)
Definition call_returned (P : params) (c : config) (d : cid) : bool :=
  match p_kind P d with
  | Direct => match spc c d with SDone => true | _ => false end
  | Pipe _ => match ppc c d with PInit | PWaitDrain | PWaitReady => false | _ => true end
  end.

Definition pred_done (P : params) (c : config) (x : cid) : bool :=
  match p_pred P x with None => true | Some d => call_returned P c d end.

(* ------------------------------------------------------------------ Server.start *)

(* release the gate: srv.starting = nil; close(starting) *)
Definition release_gate (x : cid) (c : config) : config :=
  set_starting None (set_gate_rel (upd (gate_rel c) x true) c).

(* r.Reject(e); return nil *)
Definition start_reject (x : cid) (k : cls) (c : config) : config :=
  ev (EvStartRet x false) (set_spc (upd (spc c) x SDone) (reject_call x k c)).

(* the same with the ReleaseArgs made conditional: [b = false] is the variant of the branch that only
   does r.Returner.Return(e); return nil *)
Definition release_if (b : bool) (x : cid) (c : config) : config :=
  set_rel (upd (rel c) x (if b then S (rel c x) else rel c x)) c.
Definition start_reject_if (b : bool) (x : cid) (k : cls) (c : config) : config :=
  ev (EvStartRet x false) (set_spc (upd (spc c) x SDone) (complete x k (release_if b x c))).

(* srv.ongoing[id] = cstate{cancel}; unlock; go func(){...}() *)
Definition take_slot (x : cid) (id : nat) (c : config) : config :=
  ev (EvBegin x)
     (set_spc (upd (spc c) x SWaitAck)
     (set_ipc (upd (ipc c) x IRun)
     (set_slot (upd (slot c) x id)
     (set_ongoing (set_nth (ongoing c) id (Some x)) c)))).

(* the critical section at the top of start: the for-loop iteration under srv.mu, and, when
   the gate is free, everything up to the next Unlock *)
Definition enter_start (x : cid) (c : config) : config :=
  match drain c with
  | DNil =>
    match starting c with
    | Some h => set_spc (upd (spc c) x (SWaitGate h)) c
    | None =>
      let c1 := set_starting (Some x) c in
      match next_id (ongoing c1) with
      | Some id => take_slot x id c1
      | None => set_spc (upd (spc c1) x SWaitFull) (set_full (Some x) c1)
      end
    end
  | _ => start_reject x CFail c
  end.

Definition step_start (P : params) (c : config) (x : cid) : option config :=
  match p_kind P x with
  | Pipe _ => None
  | Direct =>
    match spc c x with
    | S0 => if pred_done P c x then Some (enter_start x (ev (EvIssue x) c)) else None
    | SWaitGate h => if gate_rel c h then Some (enter_start x c) else None
    | SWaitFull => None
    | SFullWoken =>
      (* srv.mu.Lock(); id = srv.nextID(); if srv.drain != nil {...} *)
      match next_id (ongoing c) with
      | None => Some (panic c)                        (* srv.ongoing[-1] *)
      | Some id =>
        match drain c with
        | DNil => Some (take_slot x id c)
        | _ => Some (start_reject x CFail (release_gate x c))
        end
      end
    | SWaitAck =>
      if acked c x || idone c x then
        (* pcall = aq iff the ack arm was taken; when both are ready the ack arm is modelled *)
        Some (ev (EvStartRet x (acked c x))
                 (set_spc (upd (spc c) x SDone) (set_gotp (upd (gotp c) x (acked c x)) (release_gate x c))))
      else None
    | SDone => None
    end
  end.

(* the ctx.Done() arm of the select the start goroutine is blocked in *)
Definition step_start_ctx (P : params) (c : config) (x : cid) : option config :=
  match p_kind P x with
  | Pipe _ => None
  | Direct =>
    if cancelled c x then
      match spc c x with
      | SWaitGate _ => Some (start_reject x CCtx c)
      | SWaitFull | SFullWoken =>
        Some (start_reject_if (p_relfix P) x CCtx (set_full None (release_gate x c)))
      | _ => None
      end
    else None
  end.

(* ------------------------------------------------------------------ the implementation *)

Definition step_ack (c : config) (x : cid) : option config :=
  match ipc c x with
  | IRun => Some (ev (EvAck x) (set_ipc (upd (ipc c) x IAcked) (set_acked (upd (acked c) x true) c)))
  | _ => None
  end.

Definition step_ret (c : config) (x : cid) (e : bool) : option config :=
  match ipc c x with
  | IRun | IAcked =>
    Some (ev (EvImplRet x e) (set_ipc (upd (ipc c) x IRet) (set_ierr (upd (ierr c) x e) c)))
  | _ => None
  end.

(* status of the queue entry at index j of a's queue, as bases[j+1].recv sees it *)
Definition entry_status (c : config) (a : cid) (j : nat) : option tres :=
  match nth_error (aq_q c a) j with
  | None => None
  | Some e => Some (tret c e)
  end.

(* bases[b].recv(ctx, transform, r) for call p on the fulfilled answer a.
   [k] = number of queue entries already processed (bases[1..k] assigned).
   [emb]: r's Returner is a returnEmbargoer (p is a queue entry) or p's own Returner. *)
Definition deliver (a p b k : nat) (emb : bool) (c : config) : config :=
  let delivered d := ev (EvDeliver p d) (set_ppc (upd (ppc c) p (if emb then PDelivered else PDirect)) c) in
  let rejected o :=
    (* r.Reject(re.err): ReleaseArgs, then the Returner (the returnEmbargoer / p's own) *)
    if emb then set_ppc (upd (ppc c) p PEmbRet) (set_tret (upd (tret c) p (TErr o)) (release p c))
    else set_ppc (upd (ppc c) p PDone) (reject_call p (CErr o) c) in
  match b with
  | 0 => delivered (DRes a)
  | S j =>
    if Nat.ltb j k then
      match nth_error (aq_q c a) j with
      | None => panic c
      | Some e =>
        match tret c e with
        | TNone => delivered (DFwd e)
        | TOk => delivered (DRes e)
        | TErr o => rejected o
        end
      end
    else panic c                                     (* bases[b].recv is still nil *)
  end.

Definition all_free (l : list (option cid)) : bool := negb (has_ongoing l).

Definition step_impl (P : params) (c : config) (x : cid) : option config :=
  match ipc c x with
  | IRet =>
    (* r.ReleaseArgs(); then the aq.mu section of fulfill / reject: q := aq.q; aq.q = nil; bases...; close(aq.draining) *)
    Some (set_ipc (upd (ipc c) x IDrain) (set_aq_ph (upd (aq_ph c) x (ADraining 0)) (release x c)))
  | IDrain =>
    match aq_ph c x with
    | ADraining k =>
      match nth_error (aq_q c x) k with
      | Some p =>
        let c1 := ev (EvProc x p) (set_aq_ph (upd (aq_ph c) x (ADraining (S k))) c) in
        if ierr c x then
          (* reject: q[i].Reject(e) *)
          Some (set_ppc (upd (ppc c1) p PDone) (set_tret (upd (tret c1) p (TErr x)) (reject_call p (CErr x) c1)))
        else
          let c2 := deliver x p (pbasis c p) k true c1 in
          (* recv(...) returns only when the target has acknowledged delivery *)
          Some (if p_slow P p && (match ppc c2 p with PDelivered => true | _ => false end)
                then set_aq_ph (upd (aq_ph c2) x (ADrainWait (S k))) c2 else c2)
      | None =>
        (* end of the loop; fulfill: spawn the return forwarders, close(ready) *)
        Some (set_ipc (upd (ipc c) x IReturn) (set_aq_ph (upd (aq_ph c) x ADrained) c))
      end
    | _ => None
    end
  | IReturn =>
    Some (set_ipc (upd (ipc c) x ISlot) (complete x (if ierr c x then CErr x else COk) c))
  | ISlot =>
    (* srv.mu section after Return *)
    let og := set_nth (ongoing c) (slot c x) None in
    let c1 := set_ongoing og c in
    let c2 := match drain c1 with
              | DNil => c1
              | DOpen => if all_free og then set_drain DClosed c1 else c1
              | DClosed => if all_free og then panic c1 else c1      (* close of closed channel *)
              end in
    let c3 := match full c2 with
              | Some w => set_full None (set_spc (upd (spc c2) w SFullWoken) c2)
              | None => c2
              end in
    Some (ev (EvSlotFree x) (set_ipc (upd (ipc c3) x IClose) c3))
  | IClose =>
    Some (set_ipc (upd (ipc c) x IDone) (set_idone (upd (idone c) x true) c))
  | _ => None
  end.

(* ------------------------------------------------------------------ answerQueue callers *)

Definition ready_closed (c : config) (a : cid) : bool :=
  match aq_ph c a with
  | AQueueing => false
  | ADraining _ | ADrainWait _ => ierr c a   (* reject closes ready at once, fulfill at the end *)
  | ADrained => true
  end.

(* the target (root answer, basis) of pipelined call p, known once the call it is made on has
   a PipelineCaller of ours *)
Definition pipe_target (P : params) (c : config) (on : cid) : option (cid * nat) :=
  match p_kind P on with
  | Direct => match spc c on with
              | SDone => if gotp c on then Some (on, 0) else None
              | _ => None
              end
  | Pipe _ => match penq c on with
              | Some idx => Some (proot c on, if p_fixed P then S idx else idx)
              | None => None
              end
  end.

Definition passthrough (a p : cid) (c : config) : config :=
  if ierr c a then set_ppc (upd (ppc c) p PDone) (reject_call p (CErr a) c)
  else deliver a p (pbasis c p) (length (aq_q c a)) false c.

Definition step_pipe (P : params) (c : config) (p : cid) : option config :=
  match p_kind P p with
  | Direct => None
  | Pipe on =>
    match ppc c p with
    | PInit =>
      if pred_done P c p then
        match pipe_target P c on with
        | None => None
        | Some (a, b) =>
          let c0 := set_proot (upd (proot c) p a) (set_pbasis (upd (pbasis c) p b) (ev (EvIssue p) c)) in
          match aq_ph c0 a with
          | AQueueing =>
            if Nat.eqb (length (aq_q c0 a)) (p_qsize P) then
              Some (set_ppc (upd (ppc c0) p PWaitDrain) c0)
            else
              Some (ev (EvEnq p a b)
                   (set_ppc (upd (ppc c0) p PQueued)
                   (set_penq (upd (penq c0) p (Some (length (aq_q c0 a))))
                   (set_aq_q (upd (aq_q c0) a (aq_q c0 a ++ [p])) c0))))
          | _ => Some (set_ppc (upd (ppc c0) p PWaitReady) c0)
          end
        end
      else None
    | PWaitDrain =>
      match aq_ph c (proot c p) with
      | AQueueing => None
      | _ => Some (set_ppc (upd (ppc c) p PWaitReady) c)
      end
    | PWaitReady =>
      if ready_closed c (proot c p) then Some (passthrough (proot c p) p c) else None
    | _ => None
    end
  end.

Definition step_pipe_ctx (P : params) (c : config) (p : cid) : option config :=
  match p_kind P p with
  | Direct => None
  | Pipe _ =>
    if cancelled c p then
      match ppc c p with
      | PWaitDrain | PWaitReady => Some (set_ppc (upd (ppc c) p PDone) (reject_call p CCtx c))
      | _ => None
      end
    else None
  end.

(* the capability a pipelined call was delivered to returns: r.Return() / r.Reject(e), i.e. it releases the
   arguments it was handed (ReleaseArgs travels with the Recv) and then calls the Returner *)
Definition step_target_ret (c : config) (p : cid) (e : bool) : option config :=
  let r := if e then TErr p else TOk in
  match ppc c p with
  | PDelivered => Some (set_ppc (upd (ppc c) p PEmbRet) (set_tret (upd (tret c) p r) (release p c)))
  | PDirect => Some (set_ppc (upd (ppc c) p PDone) (set_tret (upd (tret c) p r) (reject_call p (if e then CErr p else COk) c)))
  | _ => None
  end.

(* go func(e, ret){ <-e.returned; ret.Return(err) }, spawned at the end of fulfill *)
Definition step_emb (c : config) (p : cid) : option config :=
  match ppc c p with
  | PEmbRet =>
    match aq_ph c (proot c p) with
    | ADrained =>
      match tret c p with
      | TOk => Some (set_ppc (upd (ppc c) p PDone) (complete p COk c))
      | TErr o => Some (set_ppc (upd (ppc c) p PDone) (complete p (CErr o) c))
      | TNone => None
      end
    | _ => None
    end
  | _ => None
  end.

(* ------------------------------------------------------------------ Shutdown *)

Fixpoint cancel_all (l : list (option cid)) (f : cid -> bool) : cid -> bool :=
  match l with
  | [] => f
  | Some x :: r => cancel_all r (upd f x true)
  | None :: r => cancel_all r f
  end.

Definition step_shutdown (c : config) : option config :=
  match shpc c with
  | ShInit =>
    match drain c with
    | DNil =>
      if has_ongoing (ongoing c) then
        Some (ev EvShutCall (set_shpc ShWait (set_drain DOpen (set_icanc (cancel_all (ongoing c) (icanc c)) c))))
      else
        Some (ev EvShutCall (set_shpc ShUser (set_drain DClosed c)))
    | _ => Some (panic c)               (* "Shutdown called multiple times" *)
    end
  | ShWait => match drain c with DClosed => Some (set_shpc ShUser c) | _ => None end
  | ShUser => Some (ev EvShutUser (set_shpc ShDone (set_shcount (S (shcount c)) c)))
  | ShDone => None
  end.

(* the target the drain loop of a is blocked in acknowledges delivery: recv(...) returns *)
Definition step_drain_ack (c : config) (a : cid) : option config :=
  match aq_ph c a with
  | ADrainWait k => Some (set_aq_ph (upd (aq_ph c) a (ADraining k)) c)
  | _ => None
  end.

Definition step_cancel (c : config) (x : cid) : option config :=
  if cancelled c x then None else Some (set_cancelled (upd (cancelled c) x true) c).

(* ------------------------------------------------------------------ the step function *)

Inductive tid :=
| TStart (c : cid) | TStartCtx (c : cid)
| TAck (c : cid) | TRet (c : cid) (err : bool)
| TImpl (c : cid)
| TPipe (p : cid) | TPipeCtx (p : cid)
| TTargetRet (p : cid) (err : bool)
| TEmb (p : cid)
| TCancel (c : cid)
| TShutdown
| TDrainAck (a : cid).

Definition step (P : params) (c : config) (t : tid) : option config :=
  match t with
  | TStart x => step_start P c x
  | TStartCtx x => step_start_ctx P c x
  | TAck x => step_ack c x
  | TRet x e => step_ret c x e
  | TImpl x => step_impl P c x
  | TPipe p => step_pipe P c p
  | TPipeCtx p => step_pipe_ctx P c p
  | TTargetRet p e => step_target_ret c p e
  | TEmb p => step_emb c p
  | TCancel x => step_cancel c x
  | TShutdown => step_shutdown c
  | TDrainAck a => step_drain_ack c a
  end.

(* a schedule is a list of thread ids; steps that are not enabled are skipped *)
Fixpoint run (P : params) (c : config) (s : list tid) : config :=
  match s with
  | [] => c
  | t :: r => match step P c t with Some c' => run P c' r | None => run P c r end
  end.

Inductive reachable (P : params) : config -> Prop :=
| reach_init : reachable P (init P)
| reach_step : forall c t c', reachable P c -> step P c t = Some c' -> reachable P c'.

(* ------------------------------------------------------------------ observation (for the driver) *)

(* the goroutine of the call is executing m.Impl *)
Definition in_impl (i : ipc_t) : bool := match i with IRun | IAcked => true | _ => false end.
Definition holds_slot (i : ipc_t) : bool :=
  match i with IRun | IAcked | IRet | IDrain | IReturn | ISlot => true | _ => false end.

Fixpoint count_slots (l : list (option cid)) : nat :=
  match l with [] => 0 | Some _ :: r => S (count_slots r) | None :: r => count_slots r end.
