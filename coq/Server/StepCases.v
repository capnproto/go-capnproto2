(* C12 — the case tree of [step] as a relation: which guard holds and what the new configuration is, for every
   way a step can fire. Only the direction step -> sstep is proved ([step_sstep]): the preservation proofs
   destruct [sstep]; the proofs that a step is enabled, or that evaluate one particular step (NoStuck.v,
   AqTheorems.v, shutdown_cancels_lemma, seen_in_order_lemma), unfold the step functions themselves. *)
From CV Require Import Server.Server.
From Coq Require Import List Arith Bool.
Import ListNotations.

(* what bases[b].recv finds when k queue entries have been processed *)
Inductive recv_t := RDeliver (d : dest) | RReject (o : cid) | RNil.

Definition recv_of (c : config) (a b k : nat) : recv_t :=
  match b with
  | 0 => RDeliver (DRes a)
  | S j =>
    if Nat.ltb j k then
      match nth_error (aq_q c a) j with
      | None => RNil
      | Some e => match tret c e with TNone => RDeliver (DFwd e) | TOk => RDeliver (DRes e) | TErr o => RReject o end
      end
    else RNil
  end.

Lemma deliver_recv : forall a p b k emb c,
  deliver a p b k emb c =
  match recv_of c a b k with
  | RDeliver d => ev (EvDeliver p d) (set_ppc (upd (ppc c) p (if emb then PDelivered else PDirect)) c)
  | RReject o =>
    if emb then set_ppc (upd (ppc c) p PEmbRet) (set_tret (upd (tret c) p (TErr o)) (release p c))
    else set_ppc (upd (ppc c) p PDone) (reject_call p (CErr o) c)
  | RNil => panic c
  end.
Proof.
  intros. unfold deliver, recv_of. destruct b; auto. destruct (Nat.ltb b k); auto.
  destruct (nth_error (aq_q c a) b); auto. destruct (tret c c0); auto.
Qed.

(* bases[1..k] are assigned once k entries are processed, so a basis within the queue finds its entry *)
Lemma recv_of_assigned : forall c a b k, b <= k -> k <= length (aq_q c a) -> recv_of c a b k <> RNil.
Proof.
  intros c a b k Hb Hk. unfold recv_of. destruct b as [|j]; [discriminate|].
  replace (Nat.ltb j k) with true by (symmetry; apply Nat.ltb_lt; exact Hb).
  destruct (nth_error (aq_q c a) j) eqn:En.
  - destruct (tret c c0); discriminate.
  - apply nth_error_None in En. exfalso. apply (Nat.lt_irrefl j). eapply Nat.lt_le_trans; [exact Hb|].
    eapply Nat.le_trans; eauto.
Qed.

Lemma upd_same : forall A (f : cid -> A) x v, upd f x v x = v.
Proof. intros. unfold upd. rewrite Nat.eqb_refl. reflexivity. Qed.

Ltac eqb_cases :=
  repeat match goal with
  | |- context [Nat.eqb ?a ?b] => destruct (Nat.eqb_spec a b); subst
  | H : context [Nat.eqb ?a ?b] |- _ => destruct (Nat.eqb_spec a b); subst
  end.

Ltac inv_some :=
  repeat match goal with
  | H : Some _ = Some _ |- _ => inversion H; subst; clear H
  | H : None = Some _ |- _ => discriminate H
  | H : Some _ = None |- _ => discriminate H
  end.

Section Cases.
  Variable P : params.
  Variable c : config.

  (* the srv.mu section at the top of start, enters from [c0] *)
  Inductive enters (x : cid) (c0 : config) : config -> Prop :=
  | en_wait : forall h (Ed : drain c0 = DNil) (Est : starting c0 = Some h),
      enters x c0 (set_spc (upd (spc c0) x (SWaitGate h)) c0)
  | en_slot : forall id (Ed : drain c0 = DNil) (Est : starting c0 = None) (En : next_id (ongoing c0) = Some id),
      enters x c0 (take_slot x id (set_starting (Some x) c0))
  | en_full : forall (Ed : drain c0 = DNil) (Est : starting c0 = None) (En : next_id (ongoing c0) = None),
      enters x c0 (set_spc (upd (spc c0) x SWaitFull) (set_full (Some x) (set_starting (Some x) c0)))
  | en_shut : forall (Ed : drain c0 <> DNil), enters x c0 (start_reject x CFail c0).

  Lemma enter_enters : forall x c0, enters x c0 (enter_start x c0).
  Proof.
    intros x c0. unfold enter_start. destruct (drain c0) eqn:Ed; try (apply en_shut; congruence).
    destruct (starting c0) eqn:Es; [apply en_wait; auto|].
    cbn -[next_id take_slot]. destruct (next_id (ongoing c0)) eqn:En; [apply en_slot|apply en_full]; auto.
  Qed.

  (* a caller waiting for a free slot is woken: close(srv.full); srv.full = nil *)
  Definition wake (c2 : config) : config :=
    match full c with
    | Some w => set_full None (set_spc (upd (spc c) w SFullWoken) c2)
    | None => c2
    end.

  (* the left side is the end of step_impl's ISlot branch, word for word, so that step_sstep can rewrite it *)
  Lemma slot_wake : forall x c2, full c2 = full c -> spc c2 = spc c -> ipc c2 = ipc c ->
    (let c3 := match full c2 with
               | Some w => set_full None (set_spc (upd (spc c2) w SFullWoken) c2)
               | None => c2
               end in
     set_ipc (upd (ipc c3) x IClose) c3) = set_ipc (upd (ipc c) x IClose) (wake c2).
  Proof. intros x c2 E1 E2 E3. unfold wake. rewrite E1, E2. destruct (full c); cbn; rewrite E3; reflexivity. Qed.

  (* srv.drain after a slot was freed, leaving the table og: the last call closes an open channel *)
  Definition drain_after (og : list (option cid)) (d' : dstate) : Prop :=
    (d' = drain c /\ (drain c = DOpen -> has_ongoing og = true))
    \/ (drain c = DOpen /\ has_ongoing og = false /\ d' = DClosed).

  (* queueCaller.PipelineRecv has found its target *)
  Definition recorded (p a : cid) (b : nat) : config :=
    set_proot (upd (proot c) p a) (set_pbasis (upd (pbasis c) p b) (ev (EvIssue p) c)).

  (* the guards are named, so that [destruct] on a step introduces them under these names *)
  Inductive sstep : tid -> config -> Prop :=
  | s_issue : forall x c' (Ek : p_kind P x = Direct) (Es : spc c x = S0) (Epd : pred_done P c x = true)
      (Hen : enters x (ev (EvIssue x) c) c'), sstep (TStart x) c'
  | s_gate : forall x h c' (Ek : p_kind P x = Direct) (Es : spc c x = SWaitGate h) (Eg : gate_rel c h = true)
      (Hen : enters x c c'), sstep (TStart x) c'
  | s_woken : forall x id (Ek : p_kind P x = Direct) (Es : spc c x = SFullWoken) (En : next_id (ongoing c) = Some id)
      (Ed : drain c = DNil), sstep (TStart x) (take_slot x id c)
  | s_woken_shut : forall x id (Ek : p_kind P x = Direct) (Es : spc c x = SFullWoken)
      (En : next_id (ongoing c) = Some id) (Ed : drain c <> DNil),
      sstep (TStart x) (start_reject x CFail (release_gate x c))
  | s_woken_none : forall x (Ek : p_kind P x = Direct) (Es : spc c x = SFullWoken) (En : next_id (ongoing c) = None),
      sstep (TStart x) (panic c)
  | s_started : forall x (Ek : p_kind P x = Direct) (Es : spc c x = SWaitAck) (Ea : acked c x || idone c x = true),
      sstep (TStart x) (ev (EvStartRet x (acked c x))
                          (set_spc (upd (spc c) x SDone) (set_gotp (upd (gotp c) x (acked c x)) (release_gate x c))))
  | s_ctx_gate : forall x h (Ek : p_kind P x = Direct) (Ec : cancelled c x = true) (Es : spc c x = SWaitGate h),
      sstep (TStartCtx x) (start_reject x CCtx c)
  | s_ctx_full : forall x (Ek : p_kind P x = Direct) (Ec : cancelled c x = true)
      (Es : spc c x = SWaitFull \/ spc c x = SFullWoken),
      sstep (TStartCtx x) (start_reject_if (p_relfix P) x CCtx (set_full None (release_gate x c)))
  | s_ack : forall x (Ei : ipc c x = IRun),
      sstep (TAck x) (ev (EvAck x) (set_ipc (upd (ipc c) x IAcked) (set_acked (upd (acked c) x true) c)))
  | s_ret : forall x e (Ei : ipc c x = IRun \/ ipc c x = IAcked),
      sstep (TRet x e) (ev (EvImplRet x e) (set_ipc (upd (ipc c) x IRet) (set_ierr (upd (ierr c) x e) c)))
  | s_fulfill : forall x (Ei : ipc c x = IRet),
      sstep (TImpl x) (set_ipc (upd (ipc c) x IDrain) (set_aq_ph (upd (aq_ph c) x (ADraining 0)) (release x c)))
  | s_drain_rej : forall x k p (Ei : ipc c x = IDrain) (Eph : aq_ph c x = ADraining k)
      (En : nth_error (aq_q c x) k = Some p) (Ee : ierr c x = true),
      let c1 := ev (EvProc x p) (set_aq_ph (upd (aq_ph c) x (ADraining (S k))) c) in
      sstep (TImpl x) (set_ppc (upd (ppc c1) p PDone) (set_tret (upd (tret c1) p (TErr x)) (reject_call p (CErr x) c1)))
  | s_drain : forall x k p (w : bool) (Ei : ipc c x = IDrain) (Eph : aq_ph c x = ADraining k)
      (En : nth_error (aq_q c x) k = Some p) (Ee : ierr c x = false),
      let c2 := deliver x p (pbasis c p) k true (ev (EvProc x p) (set_aq_ph (upd (aq_ph c) x (ADraining (S k))) c)) in
      forall (Hw : w = true -> p_slow P p = true /\ ppc c2 p = PDelivered),
      sstep (TImpl x) (if w then set_aq_ph (upd (aq_ph c2) x (ADrainWait (S k))) c2 else c2)
  | s_drained : forall x k (Ei : ipc c x = IDrain) (Eph : aq_ph c x = ADraining k) (En : nth_error (aq_q c x) k = None),
      sstep (TImpl x) (set_ipc (upd (ipc c) x IReturn) (set_aq_ph (upd (aq_ph c) x ADrained) c))
  | s_return : forall x (Ei : ipc c x = IReturn),
      sstep (TImpl x) (set_ipc (upd (ipc c) x ISlot) (complete x (if ierr c x then CErr x else COk) c))
  | s_slot : forall x d' (Ei : ipc c x = ISlot),
      let og := set_nth (ongoing c) (slot c x) None in
      forall (Hd : drain_after og d'),
      sstep (TImpl x) (ev (EvSlotFree x) (set_ipc (upd (ipc c) x IClose) (wake (set_drain d' (set_ongoing og c)))))
  | s_slot_closed : forall x (Ei : ipc c x = ISlot),
      let og := set_nth (ongoing c) (slot c x) None in
      forall (Ed : drain c = DClosed) (Eh : has_ongoing og = false),
      sstep (TImpl x) (ev (EvSlotFree x) (set_ipc (upd (ipc c) x IClose) (wake (panic (set_ongoing og c)))))
  | s_close : forall x (Ei : ipc c x = IClose),
      sstep (TImpl x) (set_ipc (upd (ipc c) x IDone) (set_idone (upd (idone c) x true) c))
  | s_pipe_full : forall p on a b (Ek : p_kind P p = Pipe on) (Ep : ppc c p = PInit) (Epd : pred_done P c p = true)
      (Et : pipe_target P c on = Some (a, b)) (Eph : aq_ph c a = AQueueing) (El : length (aq_q c a) = p_qsize P),
      sstep (TPipe p) (set_ppc (upd (ppc c) p PWaitDrain) (recorded p a b))
  | s_pipe_enq : forall p on a b (Ek : p_kind P p = Pipe on) (Ep : ppc c p = PInit) (Epd : pred_done P c p = true)
      (Et : pipe_target P c on = Some (a, b)) (Eph : aq_ph c a = AQueueing) (El : length (aq_q c a) <> p_qsize P),
      sstep (TPipe p) (ev (EvEnq p a b)
                          (set_ppc (upd (ppc c) p PQueued)
                          (set_penq (upd (penq c) p (Some (length (aq_q c a))))
                          (set_aq_q (upd (aq_q c) a (aq_q c a ++ [p])) (recorded p a b)))))
  | s_pipe_late : forall p on a b (Ek : p_kind P p = Pipe on) (Ep : ppc c p = PInit) (Epd : pred_done P c p = true)
      (Et : pipe_target P c on = Some (a, b)) (Eph : aq_ph c a <> AQueueing),
      sstep (TPipe p) (set_ppc (upd (ppc c) p PWaitReady) (recorded p a b))
  | s_pipe_drain : forall p on (Ek : p_kind P p = Pipe on) (Ep : ppc c p = PWaitDrain)
      (Eph : aq_ph c (proot c p) <> AQueueing),
      sstep (TPipe p) (set_ppc (upd (ppc c) p PWaitReady) c)
  | s_pipe_rej : forall p on (Ek : p_kind P p = Pipe on) (Ep : ppc c p = PWaitReady)
      (Er : ready_closed c (proot c p) = true) (Ee : ierr c (proot c p) = true),
      sstep (TPipe p) (set_ppc (upd (ppc c) p PDone) (reject_call p (CErr (proot c p)) c))
  | s_pipe_pass : forall p on (Ek : p_kind P p = Pipe on) (Ep : ppc c p = PWaitReady)
      (Er : ready_closed c (proot c p) = true) (Ee : ierr c (proot c p) = false),
      sstep (TPipe p) (deliver (proot c p) p (pbasis c p) (length (aq_q c (proot c p))) false c)
  | s_pipe_ctx : forall p on (Ek : p_kind P p = Pipe on) (Ec : cancelled c p = true)
      (Ep : ppc c p = PWaitDrain \/ ppc c p = PWaitReady),
      sstep (TPipeCtx p) (set_ppc (upd (ppc c) p PDone) (reject_call p CCtx c))
  | s_target_emb : forall p e (Ep : ppc c p = PDelivered),
      sstep (TTargetRet p e)
            (set_ppc (upd (ppc c) p PEmbRet) (set_tret (upd (tret c) p (if e then TErr p else TOk)) (release p c)))
  | s_target : forall p e (Ep : ppc c p = PDirect),
      sstep (TTargetRet p e)
            (set_ppc (upd (ppc c) p PDone) (set_tret (upd (tret c) p (if e then TErr p else TOk))
                                                     (reject_call p (if e then CErr p else COk) c)))
  | s_emb : forall p k (Ep : ppc c p = PEmbRet) (Eph : aq_ph c (proot c p) = ADrained)
      (Et : (tret c p = TOk /\ k = COk) \/ (exists o, tret c p = TErr o /\ k = CErr o)),
      sstep (TEmb p) (set_ppc (upd (ppc c) p PDone) (complete p k c))
  | s_cancel : forall x (Ec : cancelled c x = false), sstep (TCancel x) (set_cancelled (upd (cancelled c) x true) c)
  | s_shut_wait : forall (Esh : shpc c = ShInit) (Ed : drain c = DNil) (Eh : has_ongoing (ongoing c) = true),
      sstep TShutdown (ev EvShutCall (set_shpc ShWait (set_drain DOpen (set_icanc (cancel_all (ongoing c) (icanc c)) c))))
  | s_shut_idle : forall (Esh : shpc c = ShInit) (Ed : drain c = DNil) (Eh : has_ongoing (ongoing c) = false),
      sstep TShutdown (ev EvShutCall (set_shpc ShUser (set_drain DClosed c)))
  | s_shut_twice : forall (Esh : shpc c = ShInit) (Ed : drain c <> DNil), sstep TShutdown (panic c)
  | s_shut_closed : forall (Esh : shpc c = ShWait) (Ed : drain c = DClosed), sstep TShutdown (set_shpc ShUser c)
  | s_shut_user : forall (Esh : shpc c = ShUser),
      sstep TShutdown (ev EvShutUser (set_shpc ShDone (set_shcount (S (shcount c)) c)))
  | s_drain_ack : forall a k (Eph : aq_ph c a = ADrainWait k),
      sstep (TDrainAck a) (set_aq_ph (upd (aq_ph c) a (ADraining k)) c).

  Lemma step_sstep : forall t c', step P c t = Some c' -> sstep t c'.
  Proof.
    intros t c' H. destruct t; simpl in H.
    - unfold step_start in H. destruct (p_kind P c0) eqn:Ek; try discriminate.
      destruct (spc c c0) eqn:Es; try discriminate.
      + destruct (pred_done P c c0) eqn:Ep; inv_some. eapply s_issue; eauto. apply enter_enters.
      + destruct (gate_rel c h) eqn:Eg; inv_some. eapply s_gate; eauto. apply enter_enters.
      + destruct (next_id (ongoing c)) eqn:En; [destruct (drain c) eqn:Ed|]; inv_some.
        * eapply s_woken; eauto.
        * eapply s_woken_shut; eauto. congruence.
        * eapply s_woken_shut; eauto. congruence.
        * apply s_woken_none; auto.
      + destruct (acked c c0 || idone c c0) eqn:Ea; inv_some. apply s_started; auto.
    - unfold step_start_ctx in H. destruct (p_kind P c0) eqn:Ek; try discriminate.
      destruct (cancelled c c0) eqn:Ec; try discriminate.
      destruct (spc c c0) eqn:Es; inv_some.
      + eapply s_ctx_gate; eauto.
      + apply s_ctx_full; auto.
      + apply s_ctx_full; auto.
    - unfold step_ack in H. destruct (ipc c c0) eqn:Ei; inv_some. apply s_ack; auto.
    - unfold step_ret in H. destruct (ipc c c0) eqn:Ei; inv_some; apply s_ret; auto.
    - unfold step_impl in H. destruct (ipc c c0) eqn:Ei; try discriminate.
      + inv_some. apply s_fulfill; auto.
      + destruct (aq_ph c c0) eqn:Eph; try discriminate. destruct (nth_error (aq_q c c0) k) eqn:En.
        * destruct (ierr c c0) eqn:Ee; inv_some.
          -- eapply s_drain_rej; eauto.
          -- eapply (s_drain c0 k c1 (p_slow P c1 && _)); eauto.
             intros E. apply andb_prop in E. destruct E as (E1 & E2). split; auto.
             match type of E2 with match ?s with _ => _ end = true => destruct s; try discriminate end. reflexivity.
        * inv_some. eapply s_drained; eauto.
      + inv_some. apply s_return; auto.
      + cbv zeta in H. inv_some. unfold all_free.
        destruct (drain c) eqn:Ed; [|destruct (has_ongoing (set_nth (ongoing c) (slot c c0) None)) eqn:Eh..]; cbn [negb];
          rewrite slot_wake by reflexivity.
        * apply (s_slot c0 (drain c)); auto. left. split; congruence.
        * apply (s_slot c0 (drain c)); auto. left. split; congruence.
        * apply (s_slot c0 DClosed); auto. right. auto.
        * apply (s_slot c0 (drain c)); auto. left. split; congruence.
        * apply s_slot_closed; auto.
      + inv_some. apply s_close; auto.
    - unfold step_pipe in H. destruct (p_kind P p) eqn:Ek; try discriminate.
      destruct (ppc c p) eqn:Ep; try discriminate.
      + destruct (pred_done P c p) eqn:Epd; try discriminate.
        destruct (pipe_target P c on) as [[a b]|] eqn:Et; try discriminate.
        cbn in H. destruct (aq_ph c a) eqn:Eph; [destruct (Nat.eqb_spec (length (aq_q c a)) (p_qsize P))|..]; inv_some.
        * eapply s_pipe_full; eauto.
        * eapply s_pipe_enq; eauto.
        * eapply s_pipe_late; eauto. congruence.
        * eapply s_pipe_late; eauto. congruence.
        * eapply s_pipe_late; eauto. congruence.
      + destruct (aq_ph c (proot c p)) eqn:Eph; inv_some; eapply s_pipe_drain; eauto; congruence.
      + destruct (ready_closed c (proot c p)) eqn:Er; inv_some. unfold passthrough.
        destruct (ierr c (proot c p)) eqn:Ee; [eapply s_pipe_rej|eapply s_pipe_pass]; eauto.
    - unfold step_pipe_ctx in H. destruct (p_kind P p) eqn:Ek; try discriminate.
      destruct (cancelled c p) eqn:Ec; try discriminate.
      destruct (ppc c p) eqn:Ep; inv_some; eapply s_pipe_ctx; eauto.
    - unfold step_target_ret in H. destruct (ppc c p) eqn:Ep; inv_some; [apply s_target_emb|apply s_target]; auto.
    - unfold step_emb in H. destruct (ppc c p) eqn:Ep; try discriminate.
      destruct (aq_ph c (proot c p)) eqn:Eph; try discriminate.
      destruct (tret c p) eqn:Et; inv_some; apply s_emb; eauto.
    - unfold step_cancel in H. destruct (cancelled c c0) eqn:Ec; inv_some. apply s_cancel; auto.
    - unfold step_shutdown in H. destruct (shpc c) eqn:Es; try discriminate.
      + destruct (drain c) eqn:Ed; [destruct (has_ongoing (ongoing c)) eqn:Eh|..]; inv_some.
        * apply s_shut_wait; auto.
        * apply s_shut_idle; auto.
        * apply s_shut_twice; congruence.
        * apply s_shut_twice; congruence.
      + destruct (drain c) eqn:Ed; inv_some. apply s_shut_closed; auto.
      + inv_some. apply s_shut_user; auto.
    - unfold step_drain_ack in H. destruct (aq_ph c a) eqn:Eph; inv_some. apply s_drain_ack; auto.
  Qed.
End Cases.
