(* C12 — steps of start, Ack/return decisions, cancel, Shutdown and the tail of the
   implementation goroutine leave the answerQueue state alone (frame condition). *)
From CV Require Import Server.Server Server.StepCases Server.ServerProofs Server.AqInv.
From Coq Require Import List Arith Bool Lia.
Import ListNotations.

Ltac frame :=
  constructor; cbn -[set_nth next_id has_ongoing]; try reflexivity; intros; unfold upd; eqb_cases;
  try reflexivity; try congruence.

(* a pipelined call has no implementation goroutine *)
Lemma pipe_ipc_none : forall P c p, inv P c -> invA P c -> p_kind P p <> Direct -> ipc c p = INone.
Proof. intros P c p I A K. apply (i_pre _ _ I). rewrite (a_ks _ _ A p K). reflexivity. Qed.

(* the steps of start, the application's and the environment's decisions, Shutdown, and the tail of the
   goroutine (Returner.Return, the slot section, close(done)) *)
Definition aq_quiet (c : config) (t : tid) : Prop :=
  match t with
  | TStart _ | TStartCtx _ | TAck _ | TRet _ _ | TCancel _ | TShutdown => True
  | TImpl x => ipc c x = IReturn \/ ipc c x = ISlot \/ ipc c x = IClose
  | _ => False
  end.

Lemma frame_step : forall P c t c', inv P c -> invA P c -> sstep P c t c' -> aq_quiet c t -> aq_frame P c c'.
Proof.
  intros P c t c' I A H Q. destruct H; try destruct Hen; try contradiction;
    try (exfalso; destruct Q as [Q|[Q|Q]]; congruence); try clear Q.
  all: try match goal with |- context [wake] => unfold wake; destruct (full c) as [w|] eqn:Ef end.
  all: frame.
  all: try (rewrite Ei; reflexivity).
  all: try (rewrite (i_pre _ _ I x) by (rewrite Es; reflexivity); reflexivity).
  - destruct Ei as [-> | ->]; reflexivity.
  - rewrite (pipe_ipc_none P c x) in Ei by auto. discriminate.
  - pose proof (i_full1 _ _ I w Ef). rewrite (a_ks _ _ A w) in *; auto. discriminate.
  - pose proof (i_full1 _ _ I w Ef). rewrite (a_ks _ _ A w) in *; auto. discriminate.
Qed.
