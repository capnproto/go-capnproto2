(* C12 — preservation of the answerQueue invariant: generic lemmas about the kinds of change, one
   section each (invA_move: a pipelined call moves between non-queued states; invA_process: the drain
   loop processes an entry; invA_enter / invA_enqueue: a call records its target and waits, or is
   appended to the queue; invA_phase: the phase of a queue changes). The new configuration is
   characterised by equations on its fields, so the proofs do not unfold the step functions. *)
From CV Require Import Server.Server Server.StepCases Server.ServerProofs Server.AqInv.
From Coq Require Import List Arith Bool Lia.
Import ListNotations.

Definition movable (s : ppc_t) : Prop := s <> PInit /\ s <> PQueued.

Ltac cid_cases x y :=
  destruct (Nat.eq_dec x y) as [?E|?N];
  [ subst x; rewrite ?Nat.eqb_refl in *
  | let N' := fresh in pose proof (proj2 (Nat.eqb_neq x y) ltac:(assumption)) as N'; rewrite ?N' in *; clear N' ].

Section Move.
  Variable P : params.
  Variables c c' : config.
  Variable p : cid.
  Variable s' : ppc_t.
  Hypothesis A : invA P c.
  Hypothesis Hfrom : movable (ppc c p).
  Hypothesis Hto : movable s'.
  Hypothesis Hppc : ppc c' = upd (ppc c) p s'.
  Hypothesis Hq : aq_q c' = aq_q c.
  Hypothesis Hph : aq_ph c' = aq_ph c.
  Hypothesis Hpenq : penq c' = penq c.
  Hypothesis Hproot : proot c' = proot c.
  Hypothesis Hpbasis : pbasis c' = pbasis c.
  Hypothesis Hipc : ipc c' = ipc c.
  Hypothesis Hspc : spc c' = spc c.
  Hypothesis Hcomp : forall y, y <> p -> compl c' y = compl c y.
  Hypothesis Hcomp' : length (compl c' p) = if pdone s' then 1 else 0.
  Hypothesis Henqs : forall a, enqs a (trace c') = enqs a (trace c).
  Hypothesis Hprocs : forall a, procs a (trace c') = procs a (trace c).

  Lemma invA_move : invA P c'.
  Proof.
    destruct Hfrom as (F1 & F2). destruct Hto as (T1 & T2).
    constructor; intros; rewrite ?Hppc, ?Hq, ?Hph, ?Hpenq, ?Hproot, ?Hpbasis, ?Hipc, ?Hspc, ?Henqs, ?Hprocs in *;
      unfold upd in *.
    - eqb_cases; eauto using (a_kp _ _ A). rewrite (a_kp _ _ A _ H) in F1. congruence.
    - eauto using (a_ks _ _ A).
    - pose proof (a_q1 _ _ A _ _ _ H) as Q. eqb_cases; auto. rewrite <- Q. split; intros; congruence.
    - apply (a_q1b _ _ A).
    - eauto using (a_q2 _ _ A).
    - eqb_cases; try congruence. apply (a_q2' _ _ A); auto.
    - eauto using (a_q3 _ _ A).
    - eqb_cases; try congruence. apply (a_q4 _ _ A); auto.
    - apply (a_q5 _ _ A).
    - eauto using (a_q8 _ _ A).
    - apply (a_q9 _ _ A). eqb_cases; auto.
    - destruct (Nat.eqb_spec p0 p); subst; auto. rewrite Hcomp by auto. apply (a_j3 _ _ A); auto.
    - apply (a_t1 _ _ A).
    - apply (a_t2 _ _ A).
  Qed.
End Move.

Section Process.
  Variable P : params.
  Variables c c' : config.
  Variables a p : cid.
  Variable k : nat.
  Variable s' : ppc_t.
  Variable ph' : aqphase.
  Hypothesis A : invA P c.
  Hypothesis Hqi : forall n, qidx ph' n = S k.
  Hypothesis Hpc : pclass ph' = 1.
  Hypothesis Hph0 : aq_ph c a = ADraining k.
  Hypothesis Hnth : nth_error (aq_q c a) k = Some p.
  Hypothesis Hto : movable s'.
  Hypothesis Hppc : ppc c' = upd (ppc c) p s'.
  Hypothesis Hq : aq_q c' = aq_q c.
  Hypothesis Hph : forall y, aq_ph c' y = upd (aq_ph c) a ph' y.
  Hypothesis Hpenq : penq c' = penq c.
  Hypothesis Hproot : proot c' = proot c.
  Hypothesis Hpbasis : pbasis c' = pbasis c.
  Hypothesis Hipc : ipc c' = ipc c.
  Hypothesis Hspc : spc c' = spc c.
  Hypothesis Hcomp : forall y, y <> p -> compl c' y = compl c y.
  Hypothesis Hcomp' : length (compl c' p) = if pdone s' then 1 else 0.
  Hypothesis Henqs : forall b, enqs b (trace c') = enqs b (trace c).
  Hypothesis Hprocs : forall b, procs b (trace c') = if Nat.eqb a b then procs b (trace c) ++ [p] else procs b (trace c).

  Lemma invA_process : invA P c'.
  Proof.
    pose proof (draining_queued _ _ _ _ _ A Hph0 Hnth) as Hpq.
    assert (Hlt : k < length (aq_q c a)) by (apply nth_error_Some; rewrite Hnth; discriminate).
    destruct Hto as (T1 & T2).
    constructor; intros; rewrite ?Hppc, ?Hq, ?Hph, ?Hpenq, ?Hproot, ?Hpbasis, ?Hipc, ?Hspc, ?Henqs, ?Hprocs in *;
      unfold upd in *.
    - eqb_cases; eauto using (a_kp _ _ A). rewrite (a_kp _ _ A _ H) in Hpq. discriminate.
    - eauto using (a_ks _ _ A).
    - (* q1 *)
      destruct (a_q3 _ _ A _ _ _ H) as (E1 & E2). destruct (a_q3 _ _ A _ _ _ Hnth) as (E3 & E4).
      pose proof (a_q1 _ _ A _ _ _ H) as Q.
      destruct (Nat.eqb_spec a0 a) as [->|Na].
      + rewrite Hqi. rewrite Hph0 in Q. simpl in Q.
        destruct (Nat.eqb_spec p0 p) as [->|Np].
        * assert (i = k) by congruence. split; intros; [congruence|lia].
        * assert (i <> k) by (intros ->; congruence). rewrite Q. lia.
      + destruct (Nat.eqb_spec p0 p) as [->|Np]; [congruence|]. exact Q.
    - pose proof (a_q1b _ _ A a0). destruct (Nat.eqb_spec a0 a) as [->|Na]; auto. rewrite Hqi. exact Hlt.
    - eauto using (a_q2 _ _ A).
    - eqb_cases; try congruence. apply (a_q2' _ _ A); auto.
    - eauto using (a_q3 _ _ A).
    - eqb_cases; try congruence. apply (a_q4 _ _ A); auto.
    - pose proof (a_q5 _ _ A a0) as Q. destruct (Nat.eqb_spec a0 a) as [->|Na]; auto. rewrite Hph0 in Q. rewrite Hpc. exact Q.
    - eauto using (a_q8 _ _ A).
    - apply (a_q9 _ _ A). eqb_cases; auto. rewrite Hpq. discriminate.
    - destruct (Nat.eqb_spec p0 p) as [->|Np]; auto. rewrite Hcomp by auto. apply (a_j3 _ _ A); auto.
    - apply (a_t1 _ _ A).
    - pose proof (a_t2 _ _ A a0) as Q. destruct (Nat.eqb_spec a a0) as [<-|Na].
      + rewrite Nat.eqb_refl. rewrite Hqi. rewrite Hph0 in Q. simpl in Q. rewrite Q.
        symmetry. apply firstn_snoc_nth. auto.
      + destruct (Nat.eqb_spec a0 a); [congruence|]. exact Q.
  Qed.
End Process.

(* a pipelined call enters queueCaller.PipelineRecv: target recorded; not (yet) queued, or queued *)
Section Enter.
  Variable P : params.
  Variables c c' : config.
  Variables p a : cid.
  Variable b : nat.
  Variable s' : ppc_t.
  Hypothesis A : invA P c.
  Hypothesis Hkind : p_kind P p <> Direct.
  Hypothesis Hfrom : ppc c p = PInit.
  Hypothesis Hb : b <= length (aq_q c a).
  Hypothesis Hproot : proot c' = upd (proot c) p a.
  Hypothesis Hpbasis : pbasis c' = upd (pbasis c) p b.
  Hypothesis Hph : aq_ph c' = aq_ph c.
  Hypothesis Hipc : ipc c' = ipc c.
  Hypothesis Hspc : spc c' = spc c.
  Hypothesis Hcomp : compl c' = compl c.
  Hypothesis Hprocs : forall x, procs x (trace c') = procs x (trace c).

  Lemma not_entry : forall x i, nth_error (aq_q c x) i = Some p -> False.
  Proof.
    intros x i H. destruct (a_q3 _ _ A _ _ _ H) as (E & _). rewrite (a_q4 _ _ A _ Hfrom) in E. discriminate.
  Qed.

  Section NotQueued.
    Hypothesis Hto : movable s'.
    Hypothesis Hnd : pdone s' = false.
    Hypothesis Hppc : ppc c' = upd (ppc c) p s'.
    Hypothesis Hq : aq_q c' = aq_q c.
    Hypothesis Hpenq : penq c' = penq c.
    Hypothesis Henqs : forall x, enqs x (trace c') = enqs x (trace c).

    Lemma invA_enter : invA P c'.
    Proof.
      destruct Hto as (T1 & T2).
      constructor; intros; rewrite ?Hppc, ?Hq, ?Hph, ?Hpenq, ?Hproot, ?Hpbasis, ?Hipc, ?Hspc, ?Hcomp, ?Henqs, ?Hprocs in *;
        unfold upd in *.
      - eqb_cases; eauto using (a_kp _ _ A). contradiction.
      - eauto using (a_ks _ _ A).
      - destruct (Nat.eqb_spec p0 p) as [->|Np]; [exfalso; eapply not_entry; eauto|]. apply (a_q1 _ _ A); auto.
      - apply (a_q1b _ _ A).
      - destruct (Nat.eqb_spec p0 p) as [->|Np]; [rewrite (a_q4 _ _ A _ Hfrom) in H; discriminate|]. apply (a_q2 _ _ A); auto.
      - eqb_cases; try congruence. apply (a_q2' _ _ A); auto.
      - destruct (Nat.eqb_spec p0 p) as [->|Np]; [exfalso; eapply not_entry; eauto|]. apply (a_q3 _ _ A); auto.
      - eqb_cases; try congruence. apply (a_q4 _ _ A); auto.
      - apply (a_q5 _ _ A).
      - destruct (Nat.eqb_spec p0 p) as [->|Np]; [exfalso; eapply not_entry; eauto|]. eapply (a_q8 _ _ A); eauto.
      - cid_cases p0 p; auto. apply (a_q9 _ _ A); auto.
      - destruct (Nat.eqb_spec p0 p) as [->|Np]; [|apply (a_j3 _ _ A); auto].
        pose proof (a_j3 _ _ A p H) as J. rewrite Hfrom in J. simpl in J. rewrite J.
        rewrite Hnd. reflexivity.
      - apply (a_t1 _ _ A).
      - apply (a_t2 _ _ A).
    Qed.
  End NotQueued.

  Section Queued.
    Hypothesis Hphq : aq_ph c a = AQueueing.
    Hypothesis Hppc : ppc c' = upd (ppc c) p PQueued.
    Hypothesis Hq : aq_q c' = upd (aq_q c) a (aq_q c a ++ [p]).
    Hypothesis Hpenq : penq c' = upd (penq c) p (Some (length (aq_q c a))).
    Hypothesis Henqs : forall x, enqs x (trace c') = if Nat.eqb a x then enqs x (trace c) ++ [p] else enqs x (trace c).

    Lemma invA_enqueue : invA P c'.
    Proof.
      constructor; intros; rewrite ?Hppc, ?Hq, ?Hph, ?Hpenq, ?Hproot, ?Hpbasis, ?Hipc, ?Hspc, ?Hcomp, ?Henqs, ?Hprocs in *;
        unfold upd in *.
      - eqb_cases; eauto using (a_kp _ _ A). contradiction.
      - eauto using (a_ks _ _ A).
      - (* q1 *)
        destruct (Nat.eqb_spec a0 a) as [->|Na].
        + rewrite Hphq. simpl. apply nth_error_snoc_inv in H. destruct H as [(Hl & H)|(Hl & ->)].
          * destruct (Nat.eqb_spec p0 p) as [->|Np]; [exfalso; eapply not_entry; eauto|].
            pose proof (a_q1 _ _ A _ _ _ H) as Q. rewrite Hphq in Q. exact Q.
          * rewrite Nat.eqb_refl. split; intros; auto; lia.
        + destruct (Nat.eqb_spec p0 p) as [->|Np]; [exfalso; eapply not_entry; eauto|]. apply (a_q1 _ _ A); auto.
      - destruct (Nat.eqb_spec a0 a) as [->|Na]; [|apply (a_q1b _ _ A)]. rewrite Hphq. simpl. lia.
      - (* q2 *)
        destruct (Nat.eqb_spec p0 p) as [->|Np].
        + inversion H; subst. rewrite Nat.eqb_refl. apply nth_error_snoc_eq.
        + pose proof (a_q2 _ _ A _ _ H) as Q. destruct (Nat.eqb_spec (proot c p0) a) as [E|Ne]; auto.
          rewrite E in Q. rewrite nth_error_snoc_lt; auto. apply nth_error_Some. rewrite Q. discriminate.
      - eqb_cases; try congruence. apply (a_q2' _ _ A); auto.
      - (* q3 *)
        destruct (Nat.eqb_spec a0 a) as [->|Na].
        + apply nth_error_snoc_inv in H. destruct H as [(Hl & H)|(Hl & ->)].
          * destruct (Nat.eqb_spec p0 p) as [->|Np]; [exfalso; eapply not_entry; eauto|]. apply (a_q3 _ _ A); auto.
          * rewrite Nat.eqb_refl. subst. auto.
        + destruct (Nat.eqb_spec p0 p) as [->|Np]; [exfalso; eapply not_entry; eauto|]. apply (a_q3 _ _ A); auto.
      - eqb_cases; try congruence. apply (a_q4 _ _ A); auto.
      - apply (a_q5 _ _ A).
      - (* q8 *)
        destruct (Nat.eqb_spec a0 a) as [->|Na].
        + apply nth_error_snoc_inv in H. destruct H as [(Hl & H)|(Hl & ->)].
          * destruct (Nat.eqb_spec p0 p) as [->|Np]; [exfalso; eapply not_entry; eauto|]. eapply (a_q8 _ _ A); eauto.
          * rewrite Nat.eqb_refl. lia.
        + destruct (Nat.eqb_spec p0 p) as [->|Np]; [exfalso; eapply not_entry; eauto|]. eapply (a_q8 _ _ A); eauto.
      - (* q9 *)
        cid_cases p0 p.
        + rewrite app_length. simpl. lia.
        + pose proof (a_q9 _ _ A p0 H) as Q. destruct (Nat.eqb_spec (proot c p0) a) as [E|Ne]; auto.
          rewrite app_length. rewrite E in Q. lia.
      - destruct (Nat.eqb_spec p0 p) as [->|Np]; [|apply (a_j3 _ _ A); auto].
        pose proof (a_j3 _ _ A p H) as J. rewrite Hfrom in J. simpl in J. rewrite J. reflexivity.
      - destruct (Nat.eqb_spec a a0) as [<-|Na].
        + rewrite Nat.eqb_refl. rewrite (a_t1 _ _ A). reflexivity.
        + destruct (Nat.eqb_spec a0 a); [congruence|]. apply (a_t1 _ _ A).
      - pose proof (a_t2 _ _ A a0) as Q. destruct (Nat.eqb_spec a0 a) as [->|Na]; auto.
        rewrite Hphq in *. simpl in *. exact Q.
    Qed.
  End Queued.
End Enter.

(* the phase of a's queue changes to one with the same drain index (fulfill / reject begin, the drain
   loop ends, the target the drain loop is blocked in acknowledges delivery), the goroutine of a moving
   along with it *)
Section Phase.
  Variable P : params.
  Variables c c' : config.
  Variable a : cid.
  Variable ph' : aqphase.
  Hypothesis A : invA P c.
  Hypothesis Hipc : forall y, y <> a -> ipc c' y = ipc c y.
  Hypothesis Hcl : iclass (ipc c' a) = pclass ph'.
  Hypothesis Hph : aq_ph c' = upd (aq_ph c) a ph'.
  Hypothesis Hidx : qidx ph' (length (aq_q c a)) = qidx (aq_ph c a) (length (aq_q c a)).
  Hypothesis Hppc : ppc c' = ppc c.
  Hypothesis Hq : aq_q c' = aq_q c.
  Hypothesis Hpenq : penq c' = penq c.
  Hypothesis Hproot : proot c' = proot c.
  Hypothesis Hpbasis : pbasis c' = pbasis c.
  Hypothesis Hspc : spc c' = spc c.
  Hypothesis Hcomp : compl c' = compl c.
  Hypothesis Henqs : forall x, enqs x (trace c') = enqs x (trace c).
  Hypothesis Hprocs : forall x, procs x (trace c') = procs x (trace c).

  Lemma invA_phase : invA P c'.
  Proof.
    constructor; intros; rewrite ?Hppc, ?Hq, ?Hph, ?Hpenq, ?Hproot, ?Hpbasis, ?Hspc, ?Hcomp, ?Henqs, ?Hprocs in *;
      unfold upd in *.
    - apply (a_kp _ _ A); auto.
    - apply (a_ks _ _ A); auto.
    - destruct (Nat.eqb_spec a0 a) as [->|Na]; [rewrite Hidx|]; apply (a_q1 _ _ A); auto.
    - destruct (Nat.eqb_spec a0 a) as [->|Na]; [rewrite Hidx|]; apply (a_q1b _ _ A); auto.
    - apply (a_q2 _ _ A); auto.
    - apply (a_q2' _ _ A); auto.
    - apply (a_q3 _ _ A); auto.
    - apply (a_q4 _ _ A); auto.
    - destruct (Nat.eqb_spec a0 a) as [->|Na]; auto. rewrite Hipc by auto. apply (a_q5 _ _ A).
    - eapply (a_q8 _ _ A); eauto.
    - apply (a_q9 _ _ A); auto.
    - apply (a_j3 _ _ A); auto.
    - apply (a_t1 _ _ A).
    - destruct (Nat.eqb_spec a0 a) as [->|Na]; [rewrite Hidx|]; apply (a_t2 _ _ A).
  Qed.
End Phase.
