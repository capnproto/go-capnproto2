(* C12 — preservation of the core invariant by the changes Server.start makes: waiting for the gate,
   taking it, waiting for a slot, taking a slot, leaving. *)
From CV Require Import Server.Server Server.StepCases Server.ServerProofs.
From Coq Require Import List Arith Bool Lia.
Import ListNotations.

Lemma gate_unique : forall P c x y, inv P c ->
  holds_gate (spc c x) = true -> holds_gate (spc c y) = true -> x = y.
Proof. intros P c x y I Hx Hy. apply (i_gate1 _ _ I) in Hx, Hy. congruence. Qed.

(* a caller that is not past the gate cannot be the one start is waiting on for a slot, nor have a goroutine *)
Lemma before_gate : forall P c x, inv P c -> pre_impl (spc c x) = true -> holds_gate (spc c x) = false ->
  ipc c x = INone /\ full c <> Some x.
Proof.
  intros P c x I Hp Hg. split; [apply (i_pre _ _ I); auto|].
  intros H. rewrite (i_full1 _ _ I _ H) in Hg. discriminate.
Qed.

(* the gate is taken: wait for its holder *)
Lemma inv_wait_gate : forall P c x h, inv P c -> pre_impl (spc c x) = true -> holds_gate (spc c x) = false ->
  starting c = Some h -> inv P (set_spc (upd (spc c) x (SWaitGate h)) c).
Proof.
  intros P c x h I Hp Hg Hs. destruct (before_gate P c x I Hp Hg) as (Hi & Hf). all_groups.
  inversion H; subst; auto.
Qed.

(* rejected before the gate was taken *)
Lemma inv_rejected : forall P c x, inv P c -> pre_impl (spc c x) = true -> holds_gate (spc c x) = false ->
  inv P (set_spc (upd (spc c) x SDone) c).
Proof. intros P c x I Hp Hg. destruct (before_gate P c x I Hp Hg) as (Hi & Hf). all_groups. Qed.

(* gate taken, no free slot *)
Lemma inv_wait_full : forall P c x, inv P c -> pre_impl (spc c x) = true -> holds_gate (spc c x) = false ->
  starting c = None -> next_id (ongoing c) = None ->
  inv P (set_spc (upd (spc c) x SWaitFull) (set_full (Some x) (set_starting (Some x) c))).
Proof.
  intros P c x I Hp Hg Hs Hn. destruct (before_gate P c x I Hp Hg) as (Hi & Hf).
  assert (Hfree : forall y, holds_gate (spc c y) = true -> False).
  { intros y H. apply (i_gate1 _ _ I) in H. congruence. }
  all_groups.
  - destruct (i_gaterel _ _ I _ _ H); auto; congruence.
  - exfalso. apply (Hfree w). rewrite H. reflexivity.
Qed.

(* the gate holder leaves start: rejected, cancelled, or after the Ack / the return of the implementation *)
Lemma inv_release : forall P c x, inv P c -> holds_gate (spc c x) = true -> ipc c x <> IRun ->
  inv P (set_full None (set_spc (upd (spc c) x SDone) (release_gate x c))).
Proof.
  intros P c x I Hg Hr. pose proof (gate_unique P c x) as Hu. unfold release_gate. all_groups.
  - discriminate.
  - exfalso. apply n. symmetry. auto.
  - destruct (i_gaterel _ _ I _ _ H) as [E|E]; auto.
    exfalso. apply n. apply (i_gate2 _ _ I) in E. symmetry. auto.
  - discriminate.
  - exfalso. apply n. symmetry. apply Hu; auto. rewrite H. reflexivity.
Qed.

Lemma gate_full_none : forall P c x, inv P c -> holds_gate (spc c x) = true -> spc c x <> SWaitFull -> full c = None.
Proof.
  intros P c x I Hg Hs. destruct (full c) as [w|] eqn:Ef; auto. pose proof (i_full1 _ _ I _ Ef) as Hw.
  assert (x = w) by (apply (gate_unique P c); auto; rewrite Hw; reflexivity). congruence.
Qed.

(* srv.ongoing[id] = x for a free id, by the caller that holds (or now takes) the gate *)
Lemma inv_take_slot : forall P c x id,
  inv P c -> next_id (ongoing c) = Some id -> drain c = DNil ->
  (starting c = None \/ starting c = Some x) -> pre_impl (spc c x) = true ->
  inv P (take_slot x id (set_starting (Some x) c)).
Proof.
  intros P c x id I Hid Hd Hs Hp.
  assert (Hx : ipc c x = INone) by (apply (i_pre _ _ I); auto).
  assert (Hat : nth_error (ongoing c) id = Some None) by (apply next_id_some; auto).
  assert (Hlt : id < length (ongoing c)) by (apply nth_error_Some; congruence).
  assert (Hg : forall y, holds_gate (spc c y) = true -> y = x).
  { intros y H. apply (i_gate1 _ _ I) in H. destruct Hs; congruence. }
  unfold take_slot. all_groups.
  - rewrite set_nth_length. apply (i_len _ _ I).
  - destruct (nth_error_set_nth_inv _ _ _ _ _ _ H) as [(E & _)|(_ & E)]; auto.
    apply (i_slot1 _ _ I) in E. rewrite Hx in E. destruct E; discriminate.
  - destruct (nth_error_set_nth_inv _ _ _ _ _ _ H) as [(_ & E)|(_ & E)]; [congruence|]. apply (i_slot1 _ _ I); auto.
  - apply nth_error_set_nth_eq; auto.
  - pose proof (i_slot2 _ _ I _ H) as E. rewrite nth_error_set_nth_neq; congruence.
  - symmetry; auto.
  - destruct (i_gaterel _ _ I _ _ H) as [E|E]; auto. destruct Hs; right; congruence.
  - discriminate.
  - split; [intros E; apply (i_idone _ _ I) in E; congruence | discriminate].
  - apply (i_acked _ _ I) in H. tauto.
  - apply (i_full1 _ _ I) in H. apply (i_fullslots _ _ I) in H. congruence.
  - apply (i_fullslots _ _ I) in H. congruence.
  - exfalso. apply n, Hg. rewrite H. reflexivity.
Qed.

Lemma take_slot_starting : forall x id c, starting c = Some x ->
  take_slot x id (set_starting (Some x) c) = take_slot x id c.
Proof. intros x id c H. destruct c; simpl in *; subst; reflexivity. Qed.

Lemma inv_release_woken : forall P c x, inv P c -> holds_gate (spc c x) = true -> spc c x <> SWaitFull ->
  ipc c x <> IRun -> inv P (set_spc (upd (spc c) x SDone) (release_gate x c)).
Proof.
  intros P c x I Hg Hs Hr. eapply inv_core_eq; [|apply (inv_release P c x); auto].
  repeat split; try reflexivity. cbn. eapply gate_full_none; eauto.
Qed.

Lemma inv_start_reject : forall P c x k, inv P c -> pre_impl (spc c x) = true -> holds_gate (spc c x) = false ->
  inv P (start_reject x k c).
Proof. intros P c x k I Hp Hg. eapply inv_core_eq; [|apply (inv_rejected P c x); auto]. core. Qed.

Lemma inv_enters : forall P c x c', inv P c -> pre_impl (spc c x) = true -> holds_gate (spc c x) = false ->
  enters x c c' -> inv P c'.
Proof.
  intros P c x c' I Hp Hg H. destruct H.
  - apply inv_wait_gate; auto.
  - apply inv_take_slot; auto.
  - apply inv_wait_full; auto.
  - apply inv_start_reject; auto.
Qed.
