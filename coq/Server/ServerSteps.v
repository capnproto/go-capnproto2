(* C12 — preservation of the core invariant by the srv.mu section that frees a slot. *)
From CV Require Import Server.Server Server.StepCases Server.ServerProofs.
From Coq Require Import List Arith Bool Lia.
Import ListNotations.

(* the srv.mu section after Return: the slot is freed; an open drain channel is closed when this was the
   last call; a caller waiting for a slot is woken *)
Lemma inv_free : forall P c x d', inv P c -> ipc c x = ISlot ->
  let og := set_nth (ongoing c) (slot c x) None in
  drain_after c og d' ->
  inv P (set_ipc (upd (ipc c) x IClose) (wake c (set_drain d' (set_ongoing og c)))).
Proof.
  intros P c x d' I Hx og Hd.
  assert (Hat : nth_error (ongoing c) (slot c x) = Some (Some x)) by (apply (i_slot2 _ _ I); rewrite Hx; reflexivity).
  assert (Hself : nth_error og (slot c x) = Some None).
  { apply nth_error_set_nth_eq, nth_error_Some. congruence. }
  assert (Sl : forall c', ongoing c' = og -> slot c' = slot c -> ipc c' = upd (ipc c) x IClose -> inv_slots P c').
  { intros c' E1 E2 E3. constructor; rewrite ?E1, ?E2, ?E3; unfold upd.
    - unfold og. rewrite set_nth_length. apply (i_len _ _ I).
    - intros i y H. destruct (nth_error_set_nth_inv _ _ _ _ _ _ H) as [(_ & E)|(N & E)]; [discriminate|].
      destruct (i_slot1 _ _ I _ _ E) as (Hh & Hsl). destruct (Nat.eqb_spec y x); [congruence|auto].
    - intros y H. destruct (Nat.eqb_spec y x); [discriminate|].
      pose proof (i_slot2 _ _ I y H). unfold og. rewrite nth_error_set_nth_neq; congruence. }
  assert (Sh : forall c', ongoing c' = og -> drain c' = d' -> shpc c' = shpc c -> shcount c' = shcount c -> inv_shut P c').
  { assert (Hon : has_ongoing (ongoing c) = true) by (apply has_ongoing_true; eauto).
    intros c' E1 E2 E3 E4. destruct (i_shut _ _ I) as [D1 D2 D3 D4 D5].
    constructor; rewrite ?E1, ?E2, ?E3, ?E4; auto; destruct Hd as [(-> & Ho)|(Ed & Ho & ->)]; auto; try discriminate.
    - split; [discriminate|]. intros E. apply D1 in E. congruence.
    - intros E. split; auto. apply D2; auto.
    - intros E. apply D3 in E. congruence. }
  assert (Hnext : next_id og <> None) by (intros H; apply (next_id_none _ H (slot c x)), Hself).
  assert (Hpre : pre_impl (spc c x) = true -> False) by (intros H; apply (i_pre _ _ I) in H; congruence).
  assert (Hdone : idone c x = true <-> IClose = IDone).
  { split; [intros H; apply (i_idone _ _ I) in H; congruence|discriminate]. }
  assert (Hcl : IClose <> INone /\ IClose <> IRun) by (split; discriminate).
  unfold wake. destruct (full c) as [w|] eqn:Hf; [pose proof (i_full1 _ _ I _ Hf) as Ew|]; constructor;
    try (apply Sl; reflexivity); try (apply Sh; reflexivity); clauses.
  - apply (i_gate1 _ _ I). rewrite Ew. reflexivity.
  - apply (i_run _ _ I) in H. congruence.
  - exfalso. apply Hpre. rewrite Ew. reflexivity.
  - apply (i_pre _ _ I). rewrite Ew. reflexivity.
  - apply (i_full2 _ _ I) in H. congruence.
  - apply (i_full2 _ _ I) in H. congruence.
  - apply (i_full2 _ _ I) in H. congruence.
Qed.
