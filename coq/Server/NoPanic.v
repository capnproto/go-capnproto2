(* C12 — no reachable configuration has panicked: srv.ongoing[-1] after the full wake-up, close of the
   closed drain channel, a second Shutdown and a nil bases[b].recv are unreachable. *)
From CV Require Import Server.Server Server.StepCases Server.ServerProofs Server.ServerSteps Server.ServerStart Server.ServerTheorems
  Server.AqInv Server.AqTheorems.
From Coq Require Import List Arith Bool Lia.
Import ListNotations.

Lemma deliver_nopanic : forall a p b k e c, panicked c = false -> b <= k -> k <= length (aq_q c a) ->
  panicked (deliver a p b k e c) = false.
Proof.
  intros a p b k e c N Hb Hk. rewrite deliver_recv. pose proof (recv_of_assigned c a b k Hb Hk).
  destruct (recv_of c a b k); [destruct e; simpl; auto..|congruence].
Qed.

Lemma reachable_nopanic : forall P c, reachable P c -> panicked c = false.
Proof.
  induction 1 as [|c t c' R IH H]; [reflexivity|].
  pose proof (inv_reachable _ _ R) as I. pose proof (invA_reachable _ _ R) as A.
  apply step_sstep in H. destruct H; try destruct Hen.
  all: try match goal with |- context [wake] => unfold wake; destruct (full c) end.
  all: try (exact IH).
  - (* s_woken_none *) exfalso. apply (i_woken _ _ I _ Es). exact En.
  - (* s_drain *) assert (Hk : k < length (aq_q c x)) by (apply nth_error_Some; congruence).
    destruct w; apply deliver_nopanic; auto; first [exact (a_q8 _ _ A _ _ _ En) | apply Nat.lt_le_incl, Hk].
  - (* s_slot_closed, a waiter woken *) exfalso. apply (closed_no_slot P c x I Ed). rewrite Ei. reflexivity.
  - (* s_slot_closed, no waiter *) exfalso. apply (closed_no_slot P c x I Ed). rewrite Ei. reflexivity.
  - (* s_pipe_pass *) apply deliver_nopanic; auto. apply (a_q9 _ _ A). congruence.
  - (* s_shut_twice *) exfalso. apply Ed. apply (i_dnil _ _ I). exact Esh.
Qed.
