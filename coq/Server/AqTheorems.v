(* C12 — theorems about the answerQueue over all schedules: exactly-once for pipelined calls,
   queue order. *)
From CV Require Import Server.Server Server.ServerProofs Server.ServerSteps Server.ServerStart Server.ServerTheorems
  Server.StepCases Server.AqInv Server.AqFrame Server.AqSteps Server.AqPreserve.
From Coq Require Import List Arith Bool Lia.
Import ListNotations.

Lemma invA_reachable : forall P c, reachable P c -> invA P c.
Proof.
  induction 1. apply invA_init. eapply invA_step; eauto. apply inv_reachable; auto.
Qed.

(* a pipelined call never completes twice, and its Returner.Return has been called exactly once
   from the step on that moves it to PDone (rejected with ctx / the parent's error / the error of
   the call it was pipelined on, or returned by the capability it was delivered to) *)
Lemma pipe_once_lemma : forall P c p, reachable P c -> p_kind P p <> Direct ->
  length (compl c p) <= 1 /\ (ppc c p = PDone <-> length (compl c p) = 1).
Proof.
  intros P c p R K. pose proof (a_j3 _ _ (invA_reachable _ _ R) p K) as J.
  destruct (ppc c p); simpl in J; rewrite J; split; try lia; split; intros; try discriminate; auto.
Qed.

(* the calls queued on answer a are processed by fulfill / reject in the order in which they were
   queued: at any time the processed calls are a prefix of the queued ones ... *)
Lemma queue_order_prefix_lemma : forall P c a, reachable P c ->
  procs a (trace c) = firstn (qidx (aq_ph c a) (length (aq_q c a))) (enqs a (trace c)).
Proof. intros P c a R. pose proof (invA_reachable _ _ R) as A. rewrite (a_t1 _ _ A). apply (a_t2 _ _ A). Qed.

(* ... and once the drain loop has ended every queued call has been processed *)
Lemma queue_order_complete_lemma : forall P c a, reachable P c -> aq_ph c a = ADrained ->
  procs a (trace c) = enqs a (trace c).
Proof.
  intros P c a R H. rewrite (queue_order_prefix_lemma P c a R). rewrite H. simpl.
  rewrite (a_t1 _ _ (invA_reachable _ _ R)). apply firstn_all.
Qed.

(* what processing a queue entry means: if the answer failed the call fails with the answer's
   error; otherwise it is delivered (to the answer's result, to the result of the queued call it
   was pipelined on, or to that call's pipeline caller), or fails with the error of the queued call
   it was pipelined on *)
Lemma process_step_lemma : forall P c a c' k p, reachable P c -> step P c (TImpl a) = Some c' ->
  ipc c a = IDrain -> aq_ph c a = ADraining k -> nth_error (aq_q c a) k = Some p ->
  ppc c p = PQueued /\ compl c p = [] /\
  procs a (trace c') = procs a (trace c) ++ [p] /\
  if ierr c a then ppc c' p = PDone /\ compl c' p = [CErr a]
  else (ppc c' p = PDelivered /\ exists d, hd_error (trace c') = Some (EvDeliver p d))
       \/ (ppc c' p = PEmbRet /\ exists o, tret c' p = TErr o).
Proof.
  intros P c a c' k p R H Hi Hph Hn. pose proof (invA_reachable _ _ R) as A.
  assert (Hq : ppc c p = PQueued) by (eapply draining_queued; eauto).
  assert (Hl : compl c p = []).
  { assert (length (compl c p) = 0) by (apply (compl_len0 P); auto; congruence).
    destruct (compl c p); auto; discriminate. }
  split; auto. split; auto.
  simpl in H. unfold step_impl in H. rewrite Hi, Hph, Hn in H.
  destruct (ierr c a); inv_some.
  - cbn. unfold upd. rewrite !Nat.eqb_refl. rewrite Hl. auto.
  - assert (Hk : k < length (aq_q c a)) by (apply nth_error_Some; congruence).
    rewrite deliver_recv.
    destruct (recv_of _ a (pbasis c p) k) eqn:Ev;
      [| |exfalso; revert Ev; apply recv_of_assigned; [eapply (a_q8 _ _ A); eauto|apply Nat.lt_le_incl, Hk]].
    + match goal with |- context [if ?b then _ else _] => destruct b end;
        cbn; unfold upd; rewrite !Nat.eqb_refl; (split; auto); left; split; eauto.
    + match goal with |- context [if ?b then _ else _] => destruct b end;
        cbn; unfold upd; rewrite !Nat.eqb_refl; (split; auto); right; split; eauto.
Qed.

(* a call that arrived while the queue was draining is passed through only when the drain loop
   has ended (all queued calls processed), or fails with the answer's error *)
Lemma passthrough_after_queue_lemma : forall P c p c', reachable P c -> step P c (TPipe p) = Some c' ->
  ppc c p = PWaitReady ->
  if ierr c (proot c p) then ppc c' p = PDone /\ hd_error (compl c' p) = Some (CErr (proot c p))
  else aq_ph c (proot c p) = ADrained /\ procs (proot c p) (trace c) = enqs (proot c p) (trace c).
Proof.
  intros P c p c' R H Hp. simpl in H. unfold step_pipe in H.
  destruct (p_kind P p); try discriminate. rewrite Hp in H.
  destruct (ready_closed c (proot c p)) eqn:Er; inv_some.
  unfold passthrough. destruct (ierr c (proot c p)) eqn:Ee.
  - cbn. unfold upd. rewrite !Nat.eqb_refl. auto.
  - unfold ready_closed in Er. destruct (aq_ph c (proot c p)) eqn:Eph; try congruence.
    split; auto. apply (queue_order_complete_lemma P); auto.
Qed.

(* a call that arrives while the queue of its answer is draining (also while the drain loop is
   blocked in a target that has not acknowledged delivery) is neither queued nor delivered: it
   waits for the end of the drain (PWaitReady), see passthrough_after_queue_lemma *)
Lemma arrival_during_drain_lemma : forall P c p c' on a b, step P c (TPipe p) = Some c' ->
  p_kind P p = Pipe on -> ppc c p = PInit -> pipe_target P c on = Some (a, b) -> aq_ph c a <> AQueueing ->
  ppc c' p = PWaitReady /\ proot c' p = a /\ trace c' = EvIssue p :: trace c.
Proof.
  intros P c p c' on a b H K Hp Ht Hph. simpl in H. unfold step_pipe in H. rewrite K, Hp, Ht in H.
  destruct (pred_done P c p); try discriminate.
  cbn in H. destruct (aq_ph c a); try congruence; inv_some; cbn; unfold upd; rewrite !Nat.eqb_refl; auto.
Qed.

Definition waiting_caller (s : ppc_t) : Prop := s = PWaitDrain \/ s = PWaitReady.

(* a caller blocked on a full queue (select on aq.draining) can move as soon as the drain has
   STARTED (close(aq.draining) is the first thing fulfill / reject do, before any queued call is
   delivered or rejected); a caller blocked on ready can move as soon as ready is closed *)
Lemma blocked_caller_enabled_lemma : forall P c p, reachable P c ->
  (ppc c p = PWaitDrain -> aq_ph c (proot c p) <> AQueueing -> step P c (TPipe p) <> None) /\
  (ppc c p = PWaitReady -> ready_closed c (proot c p) = true -> step P c (TPipe p) <> None).
Proof.
  intros P c p R. pose proof (invA_reachable _ _ R) as A.
  assert (K : ppc c p <> PInit -> exists on, p_kind P p = Pipe on).
  { intros H. destruct (p_kind P p) eqn:E; eauto. exfalso. apply H. apply (a_kp _ _ A); auto. }
  split; intros Hp Hph.
  - destruct K as (on & K); [congruence|]. simpl. unfold step_pipe. rewrite K, Hp.
    destruct (aq_ph c (proot c p)); try congruence; discriminate.
  - destruct K as (on & K); [congruence|]. simpl. unfold step_pipe. rewrite K, Hp, Hph. discriminate.
Qed.

(* reject: from the moment the goroutine of a is inside aq.reject (and ever after) every caller
   blocked on a's answerQueue can move - the queued calls are rejected only after the blocked
   callers have been released *)
Lemma reject_releases_callers_lemma : forall P c a p, reachable P c ->
  ierr c a = true -> iclass (ipc c a) <> 0 -> proot c p = a -> waiting_caller (ppc c p) ->
  step P c (TPipe p) <> None.
Proof.
  intros P c a p R He Hi Hr Hw. pose proof (invA_reachable _ _ R) as A.
  pose proof (a_q5 _ _ A a) as Q.
  destruct (blocked_caller_enabled_lemma P c p R) as (H1 & H2). rewrite Hr in *.
  destruct Hw as [Hw|Hw].
  - apply H1; auto. intros E. rewrite E in Q. simpl in Q. congruence.
  - apply H2; auto. unfold ready_closed. destruct (aq_ph c a); simpl in Q; auto; congruence.
Qed.

(* fulfill and reject: once the drain of a has ended no caller stays blocked on a's answerQueue *)
Lemma drained_releases_callers_lemma : forall P c a p, reachable P c ->
  aq_ph c a = ADrained -> proot c p = a -> waiting_caller (ppc c p) -> step P c (TPipe p) <> None.
Proof.
  intros P c a p R Hd Hr Hw.
  destruct (blocked_caller_enabled_lemma P c p R) as (H1 & H2). rewrite Hr in *.
  destruct Hw as [Hw|Hw].
  - apply H1; auto. congruence.
  - apply H2; auto. unfold ready_closed. rewrite Hd. reflexivity.
Qed.
