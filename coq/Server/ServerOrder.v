(* C12 — the same-caller half of the gate, as an invariant [invK] and its preservation: a call is
   entered only after the call issued just before by the same caller has returned from
   Send/Recv/PipelineRecv. What follows from it over all schedules (the implementation of a later
   direct call is never started while an earlier one of the same caller is started-and-unacknowledged;
   earlier calls are seen first) is in OrderTheorems.v. *)
From CV Require Import Server.Server Server.StepCases Server.ServerProofs Server.AqInv Server.AqFrame Server.AqSteps Server.AqPreserve.
From Coq Require Import List Arith Bool Lia.
Import ListNotations.

Definition returned_st (s : ppc_t) : bool :=
  match s with PInit | PWaitDrain | PWaitReady => false | _ => true end.

Definition entered (P : params) (c : config) (j : cid) : Prop :=
  match p_kind P j with Direct => spc c j <> S0 | Pipe _ => ppc c j <> PInit end.

(* the caller woken by a freed slot is a direct call inside start *)
Lemma woken_spc : forall P c c2 x y, inv P c -> invA P c -> spc c2 = spc c ->
  spc (ev (EvSlotFree x) (set_ipc (upd (ipc c) x IClose) (wake c c2))) y = spc c y
  \/ (p_kind P y = Direct /\ spc c y <> SDone /\ (spc c y = S0 -> pred_done P c y = true)).
Proof.
  intros P c c2 x y I A E. unfold wake. destruct (full c) as [w|] eqn:Ef; cbn; rewrite ?E; auto.
  pose proof (i_full1 _ _ I _ Ef) as Ew. unfold upd. destruct (Nat.eqb_spec y w) as [->|N]; auto.
  right. rewrite Ew. repeat split; try discriminate.
  destruct (p_kind P w) eqn:Ek; auto. rewrite (a_ks _ _ A w) in Ew by congruence. discriminate.
Qed.

(* how spc can change in one step *)
Lemma spc_step : forall P c t c' y, inv P c -> invA P c -> step P c t = Some c' ->
  spc c' y = spc c y
  \/ (p_kind P y = Direct /\ spc c y <> SDone /\ (spc c y = S0 -> pred_done P c y = true)).
Proof.
  intros P c t c' y I A H. apply step_sstep in H. destruct H; try destruct Hen.
  all: try (left; reflexivity).
  all: try (destruct (Nat.eq_dec y x) as [->|N];
            [right; repeat split; first [assumption|congruence|destruct Es; congruence]
            |left; cbn; unfold upd; eqb_cases; congruence]).
  - (* s_drain *) left. destruct w; cbn [spc set_aq_ph]; subst c2;
      destruct (core_eq_deliver x p (pbasis c p) k true (ev (EvProc x p) (set_aq_ph (upd (aq_ph c) x (ADraining (S k))) c)))
        as (_ & _ & _ & E & _); rewrite E; reflexivity.
  - (* s_slot *) apply woken_spc; auto.
  - (* s_slot_closed *) apply woken_spc; auto.
  - (* s_pipe_pass *) left. destruct (core_eq_deliver (proot c p) p (pbasis c p) (length (aq_q c (proot c p))) false c) as (_ & _ & _ & E & _).
    rewrite E. reflexivity.
Qed.

Lemma deliver_ppc : forall a p b k emb c y,
  ppc (deliver a p b k emb c) y = ppc c y \/ (y = p /\ returned_st (ppc (deliver a p b k emb c) y) = true).
Proof.
  intros. rewrite deliver_recv. destruct (recv_of c a b k); destruct emb; cbn; unfold upd; destruct (Nat.eqb_spec y p); auto.
Qed.

(* how ppc can change in one step *)
Lemma ppc_step : forall P c t c' y, inv P c -> invA P c -> step P c t = Some c' ->
  ppc c' y = ppc c y
  \/ (ppc c y = PInit /\ p_kind P y <> Direct /\ pred_done P c y = true)
  \/ (ppc c y <> PInit /\ returned_st (ppc c' y) = true)
  \/ (ppc c y = PWaitDrain /\ ppc c' y = PWaitReady).
Proof.
  intros P c t c' y I A H. apply step_sstep in H. pose proof (frame_step P c t c' I A H) as F.
  destruct H; cbn [aq_quiet] in F.
  all: try (left; rewrite (f_ppc _ _ _ (F ltac:(auto))); reflexivity); clear F.
  all: try (left; reflexivity).
  all: try (assert (Hq : ppc c p = PQueued) by (eapply draining_queued; eauto)).
  all: try (assert (Kp : p_kind P p <> Direct) by congruence).
  all: try (assert (Hi : ppc c p <> PInit) by (first [congruence|destruct Ep; congruence])).
  2: { (* s_drain *) subst c2. destruct w; cbn [ppc set_aq_ph].
       all: match goal with |- context [deliver ?a ?p ?b ?k ?e ?cc] => destruct (deliver_ppc a p b k e cc y) as [E|(-> & E)] end.
       all: first [left; exact E|right; right; left; (split; [congruence|exact E])]. }
  7: { (* s_pipe_pass *) destruct (deliver_ppc (proot c p) p (pbasis c p) (length (aq_q c (proot c p))) false c y) as [E|(-> & E)];
       [left; exact E|right; right; left; (split; [congruence|exact E])]. }
  all: unfold recorded; cbn; unfold upd; destruct (Nat.eqb_spec y p) as [->|N]; auto.
Qed.

Definition invK (P : params) (c : config) : Prop :=
  forall j d, p_pred P j = Some d -> entered P c j -> call_returned P c d = true.

Lemma invK_init : forall P, invK P (init P).
Proof. intros P j d _ E. unfold entered in E. simpl in E. destruct (p_kind P j); congruence. Qed.

Lemma call_returned_mono : forall P c t c' d, inv P c -> invA P c -> step P c t = Some c' ->
  call_returned P c d = true -> call_returned P c' d = true.
Proof.
  intros P c t c' d I A H R. unfold call_returned in *. destruct (p_kind P d) eqn:Ek.
  - destruct (spc_step P c t c' d I A H) as [E|(_ & N & _)].
    + rewrite E. exact R.
    + destruct (spc c d); try discriminate. congruence.
  - fold (returned_st (ppc c d)) in R. fold (returned_st (ppc c' d)).
    destruct (ppc_step P c t c' d I A H) as [E|[(E & _)|[(_ & E)|(E & _)]]].
    + rewrite E. exact R.
    + rewrite E in R. discriminate.
    + exact E.
    + rewrite E in R. discriminate.
Qed.

Lemma invK_step : forall P c t c', inv P c -> invA P c -> invK P c -> step P c t = Some c' -> invK P c'.
Proof.
  intros P c t c' I A K H j d Hp E.
  assert (Hcases : entered P c j \/ pred_done P c j = true).
  { unfold entered in *. destruct (p_kind P j) eqn:Ek.
    - destruct (spc_step P c t c' j I A H) as [Es|(_ & _ & Es)].
      + left. congruence.
      + destruct (spc c j) eqn:E0; try (left; congruence). right. auto.
    - destruct (ppc_step P c t c' j I A H) as [Es|[(_ & _ & Es)|[(Es & _)|(Es & _)]]].
      + left. congruence.
      + right. exact Es.
      + left. exact Es.
      + left. congruence. }
  eapply call_returned_mono; eauto.
  destruct Hcases as [E0|E0].
  - apply K with (j := j); auto.
  - unfold pred_done in E0. rewrite Hp in E0. exact E0.
Qed.
