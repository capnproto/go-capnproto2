(* C12 — termination measures: every step a thread takes itself strictly decreases that
   thread's measure; the only exception is the wait loop on the starting gate in Server.start,
   where a goroutine woken by the release of the gate it waited for (gate_rel c h = true) may find
   the gate taken again (starting c = Some h') and waits for that holder; every call takes and
   releases the gate at most once, so the loop is bounded by the number of competing calls (not
   stated as a theorem: params has no bound on the number of calls). *)
From CV Require Import Server.Server Server.StepCases Server.ServerProofs Server.AqInv.
From Coq Require Import List Arith Bool Lia.
Import ListNotations.

(* IDrain counts the queue entries still to process, above the 3 of IReturn that the end of the loop
   (no entry left) moves to; IRet, which moves to IDrain with the whole queue to go, lies above that *)
Definition impl_measure (c : config) (x : cid) : nat :=
  match ipc c x with
  | IRet => 5 + length (aq_q c x)
  | IDrain => 4 + (length (aq_q c x) - qidx (aq_ph c x) (length (aq_q c x)))
  | IReturn => 3
  | ISlot => 2
  | IClose => 1
  | _ => 0
  end.

Definition pipe_measure (c : config) (p : cid) : nat :=
  match ppc c p with PInit => 3 | PWaitDrain => 2 | PWaitReady => 1 | _ => 0 end.

Definition shut_measure (c : config) : nat :=
  match shpc c with ShInit => 3 | ShWait => 2 | ShUser => 1 | ShDone => 0 end.

Definition start_measure (c : config) (x : cid) : nat :=
  match spc c x with
  | S0 => 5 | SWaitGate _ => 4 | SWaitFull => 3 | SFullWoken => 2 | SWaitAck => 1 | SDone => 0
  end.

Lemma deliver_aq : forall a p b k e c,
  aq_q (deliver a p b k e c) = aq_q c /\ aq_ph (deliver a p b k e c) = aq_ph c /\ ipc (deliver a p b k e c) = ipc c.
Proof. intros. rewrite deliver_recv. destruct (recv_of c a b k); destruct e; repeat split. Qed.

Lemma impl_measure_lemma : forall P c x c', invA P c -> step P c (TImpl x) = Some c' ->
  impl_measure c' x < impl_measure c x.
Proof.
  intros P c x c' A H. apply step_sstep in H. unfold impl_measure.
  inversion H; subst; clear H; try (unfold wake; destruct (full c)); cbn; rewrite ?upd_same, ?Ei; simpl; try lia.
  all: try (assert (Hl : k < length (aq_q c x)) by (apply nth_error_Some; congruence)).
  all: try (subst c2; destruct (deliver_aq x p (pbasis c p) k true (ev (EvProc x p) (set_aq_ph (upd (aq_ph c) x (ADraining (S k))) c)))
              as (E1 & E2 & E3); destruct w; cbn [ipc aq_q aq_ph set_aq_ph]; rewrite ?E1, ?E2, ?E3; cbn; rewrite ?upd_same, ?Ei).
  all: rewrite ?Eph; simpl; lia.
Qed.

Lemma deliver_ppc_measure : forall a p b k c,
  match ppc (deliver a p b k false c) p with PInit | PWaitDrain | PWaitReady => ppc c p = ppc (deliver a p b k false c) p | _ => True end.
Proof.
  intros. rewrite deliver_recv. destruct (recv_of c a b k); cbn; rewrite ?upd_same; auto.
  destruct (ppc c p); auto.
Qed.

Lemma pipe_measure_lemma : forall P c p c', panicked c' = false ->
  (step P c (TPipe p) = Some c' \/ step P c (TPipeCtx p) = Some c') ->
  pipe_measure c' p < pipe_measure c p.
Proof.
  intros P c p c' Hnp [H|H]; apply step_sstep in H; unfold pipe_measure.
  all: inversion H; subst; clear H; unfold recorded; cbn; rewrite ?upd_same; try (destruct Ep as [-> | ->]); rewrite ?Ep; try lia.
  rewrite deliver_recv in *. destruct (recv_of c (proot c p) (pbasis c p) _); cbn in *; rewrite ?upd_same; try lia.
Qed.

Lemma shut_measure_lemma : forall P c c', panicked c' = false -> step P c TShutdown = Some c' ->
  shut_measure c' < shut_measure c.
Proof.
  intros P c c' Hnp H. apply step_sstep in H. unfold shut_measure.
  inversion H; subst; clear H; cbn in *; rewrite ?Esh; try lia; congruence.
Qed.

(* start: every own step decreases the measure, except a re-wait on the gate, which waits for a
   call that has not released the gate while the one waited for before has *)
Lemma start_measure_lemma : forall P c x c', panicked c' = false ->
  (step P c (TStart x) = Some c' \/ step P c (TStartCtx x) = Some c') ->
  start_measure c' x < start_measure c x
  \/ (exists h h', spc c x = SWaitGate h /\ spc c' x = SWaitGate h' /\
                   gate_rel c h = true /\ starting c = Some h').
Proof.
  intros P c x c' Hnp [H|H]; apply step_sstep in H; unfold start_measure.
  all: inversion H; subst; clear H; try destruct Hen; cbn in *; rewrite ?upd_same; try (destruct Es as [-> | ->]); rewrite ?Es;
    try (left; lia); try congruence.
  right. exists h, h0. auto.
Qed.
