(* Totality of the rendering walk (TextM.shown_struct / shown_list) for nested, recursive and
   mutually recursive types: an explicit fuel bound under which the walk never runs out of fuel,
   for ALL stored values, cache states and encoder configurations with the default-expansion
   guard (c_cut = true).

   Measure.  A call of marshalStruct on a struct whose pointers have depth [maxd ps], with the
   expansion stack [exp], for type [id]:
       ((1 + maxd ps) + freec SS exp * (DD + 1)) * (G + 2) + min (grank id) G
   - entering a group field: the value and the stack stay, the group rank drops;
   - entering a struct / list stored in the value: the value depth drops;
   - expanding the default of a null struct field of type sid: sid is pushed on the stack
     (it was not on it, or the guard writes "()"), so the number [freec] of struct types not yet
     on the stack drops, and the default value has depth <= DD.
   Premises on the schema ([tot_schema]): group fields refer to groups of strictly smaller rank
   (groups are acyclic, ranks <= G); struct-typed slots name a type of the list SS and their
   default value has depth <= DD; the default value of a LIST-typed slot holds no pointers
   (null, empty, or a list of primitives: depth <= 1).  The last premise cannot be dropped:
   [render_listdefault_refuted] below (a list default containing a struct of the enclosing type
   diverges for every fuel, also with the guard: the guard covers struct defaults only). *)
From CV Require Import Text.Strquote Text.TextSpec Text.StrquoteProofs Text.TextM Text.TextProofs.
From Coq Require Import Lia ZifyBool ZifyNat.
Open Scope Z_scope.

Fixpoint rdepth (v : rval) : nat :=
  match v with
  | RStruct _ ps => S ((fix go (l : list rval) : nat := match l with [] => O | p :: r => Nat.max (rdepth p) (go r) end) ps)
  | RPtrs ps => S ((fix go (l : list rval) : nat := match l with [] => O | p :: r => Nat.max (rdepth p) (go r) end) ps)
  | RComp es => S ((fix go (l : list rval) : nat := match l with [] => O | p :: r => Nat.max (rdepth p) (go r) end) es)
  | _ => 1%nat
  end.

Definition maxd (l : list rval) : nat := fold_right (fun p m => Nat.max (rdepth p) m) O l.

Lemma maxd_go : forall ps,
  (fix go (l : list rval) : nat := match l with [] => O | p :: r => Nat.max (rdepth p) (go r) end) ps = maxd ps.
Proof. induction ps as [|p r IH]; [reflexivity|]. cbn [maxd fold_right]. fold (maxd r). rewrite <- IH. reflexivity. Qed.

Lemma rdepth_struct : forall d ps, rdepth (RStruct d ps) = S (maxd ps).
Proof. intros. cbn [rdepth]. now rewrite maxd_go. Qed.
Lemma rdepth_ptrs : forall ps, rdepth (RPtrs ps) = S (maxd ps).
Proof. intros. cbn [rdepth]. now rewrite maxd_go. Qed.
Lemma rdepth_comp : forall ps, rdepth (RComp ps) = S (maxd ps).
Proof. intros. cbn [rdepth]. now rewrite maxd_go. Qed.

Lemma rdepth_pos : forall v, (1 <= rdepth v)%nat.
Proof. destruct v; cbn [rdepth]; lia. Qed.

Lemma maxd_in : forall ps p, In p ps -> (rdepth p <= maxd ps)%nat.
Proof.
  induction ps as [|q r IH]; intros p H; [contradiction|]. cbn [maxd fold_right]. fold (maxd r).
  destruct H as [->|H]; [lia|]. specialize (IH p H). lia.
Qed.

Lemma ptr_at_cases : forall ps off, In (ptr_at ps off) ps \/ ptr_at ps off = RNull.
Proof. intros ps off. unfold ptr_at. destruct (nth_in_or_default (Z.to_nat (off mod 65536)) ps RNull); auto. Qed.

Lemma as_struct_depth : forall p d ps, as_struct p = (d, ps) -> (S (maxd ps) <= rdepth p)%nat.
Proof.
  intros p d ps H. destruct p; cbn [as_struct] in H; inversion H; subst;
    try (cbn [maxd fold_right]; apply rdepth_pos).
  rewrite rdepth_struct. lia.
Qed.

Lemma struct_elems_depth : forall l ps p, struct_elems l = Ok ps -> In p ps -> (rdepth p < rdepth l)%nat.
Proof.
  intros l ps p H Hin. destruct l; cbn [struct_elems] in H.
  - inversion H; subst; contradiction.
  - inversion H; subst; contradiction.
  - destruct (length xs =? 0)%nat; inversion H; subst; contradiction.
  - inversion H; subst. rewrite rdepth_ptrs. apply maxd_in in Hin. lia.
  - inversion H; subst. rewrite rdepth_comp. apply maxd_in in Hin. lia.
  - inversion H; subst; contradiction.
Qed.

Lemma first_ptrs_depth : forall es ps p, first_ptrs es = Some ps -> In p ps -> (rdepth p <= maxd es)%nat.
Proof.
  induction es as [|e r IH]; intros ps p H Hin; cbn [first_ptrs] in H.
  - inversion H; subst; contradiction.
  - destruct e as [|d [|q qs]| | | |]; try discriminate.
    destruct (first_ptrs r) as [ps'|] eqn:E; [|discriminate]. inversion H; subst.
    cbn [maxd fold_right]. fold (maxd r). destruct Hin as [<-|Hin].
    + rewrite rdepth_struct. cbn [maxd fold_right]. lia.
    + specialize (IH ps' p eq_refl Hin). lia.
Qed.

Lemma ptr_elems_depth : forall l ps p, ptr_elems l = Ok ps -> In p ps -> (rdepth p < rdepth l)%nat.
Proof.
  intros l ps p H Hin. destruct l; cbn [ptr_elems] in H.
  - inversion H; subst; contradiction.
  - inversion H; subst; contradiction.
  - destruct (length xs =? 0)%nat; inversion H; subst; contradiction.
  - inversion H; subst. rewrite rdepth_ptrs. apply maxd_in in Hin. lia.
  - destruct (first_ptrs es) as [ps'|] eqn:E; [|discriminate]. inversion H; subst.
    rewrite rdepth_comp. pose proof (first_ptrs_depth _ _ _ E Hin). lia.
  - inversion H; subst; contradiction.
Qed.

(* the number of struct types of SS not yet on the expansion stack *)
Definition freec (SS exp : list Z) : nat := length (filter (fun s => negb (existsb (Z.eqb s) exp)) SS).

Lemma freec_nil : forall SS, freec SS [] = length SS.
Proof. unfold freec. induction SS as [|a r IH]; [reflexivity|]. cbn [filter existsb negb length]. f_equal. exact IH. Qed.

Lemma freec_le : forall SS exp sid, (freec SS (sid :: exp) <= freec SS exp)%nat.
Proof.
  unfold freec. induction SS as [|a r IH]; intros exp sid; cbn [filter existsb]; [lia|].
  specialize (IH exp sid). cbn [existsb] in IH.
  destruct (a =? sid); cbn [orb negb]; destruct (existsb (Z.eqb a) exp); cbn [negb length]; lia.
Qed.

Lemma freec_lt : forall SS exp sid, In sid SS -> existsb (Z.eqb sid) exp = false ->
  (freec SS (sid :: exp) < freec SS exp)%nat.
Proof.
  unfold freec. induction SS as [|a r IH]; intros exp sid Hin Hex; [contradiction|].
  pose proof (freec_le r exp sid) as Hle. unfold freec in Hle. cbn [filter existsb]. cbn [existsb] in Hle.
  destruct Hin as [->|Hin].
  - rewrite Z.eqb_refl, Hex. cbn [orb negb length]. lia.
  - specialize (IH exp sid Hin Hex). cbn [existsb] in IH.
    destruct (a =? sid); cbn [orb negb]; destruct (existsb (Z.eqb a) exp); cbn [negb length]; lia.
Qed.

Definition tot_field (grank : Z -> nat) (DD : nat) (SS : list Z) (owner : Z) (fd : field) : Prop :=
  match f_kind fd with
  | FGroup gid => (grank gid < grank owner)%nat
  | FSlot _ t _ dptr _ _ _ =>
    match t with
    | TStruct sid => In sid SS /\ (rdepth dptr <= DD)%nat
    | TList _ _ => (rdepth dptr <= 1)%nat
    | _ => True
    end
  | FOther => True
  end.

(* groups ranked (acyclic, rank <= G), struct-typed slots name a type of SS with a default of depth <= DD,
   list defaults hold no pointers *)
Definition tot_schema (sc : schema) (grank : Z -> nat) (G DD : nat) (SS : list Z) : Prop :=
  forall id dc doff fc fields, lookup (s_nodes sc) id = Some (NStruct dc doff fc fields) ->
    (grank id <= G)%nat /\ Forall (tot_field grank DD SS id) fields.

Section Total.
Variables (ffmt : Z -> Z -> list Z) (c : cfg) (sc : schema) (grank : Z -> nat) (G DD : nat) (SS : list Z).
Hypothesis Hcut : c_cut c = true.
Hypothesis Hsc : tot_schema sc grank G DD SS.

(* the measure without the group rank: value depth [d] under the expansion stack [exp] *)
Definition need (d : nat) (exp : list Z) : nat := ((d + freec SS exp * (DD + 1)) * (G + 2))%nat.
Definition needs (exp : list Z) (id : Z) (ps : list rval) : nat := (need (S (maxd ps)) exp + Nat.min (grank id) G)%nat.
Definition needl (exp : list Z) (l : rval) : nat := need (rdepth l) exp.

Lemma need_mono : forall a b exp, (a <= b -> need a exp <= need b exp)%nat.
Proof. intros. apply Nat.mul_le_mono_r. lia. Qed.

(* one level down in the value leaves room for a whole chain of groups *)
Lemma need_drop : forall a b exp, (a < b -> need a exp + G + 2 <= need b exp)%nat.
Proof.
  intros a b exp H. unfold need.
  assert (Hm : ((a + freec SS exp * (DD + 1) + 1) * (G + 2) <= (b + freec SS exp * (DD + 1)) * (G + 2))%nat)
    by (apply Nat.mul_le_mono_r; lia).
  rewrite Nat.mul_add_distr_r in Hm. lia.
Qed.

(* so does pushing a type on the stack and starting on its default *)
Lemma need_push : forall a b exp sid, In sid SS -> existsb (Z.eqb sid) exp = false ->
  (a <= DD -> need a (sid :: exp) + G + 2 <= need b exp)%nat.
Proof.
  intros a b exp sid Hin Hex Ha. pose proof (freec_lt SS exp sid Hin Hex) as Hlt. unfold need.
  assert (Hk : ((freec SS (sid :: exp) + 1) * (DD + 1) <= freec SS exp * (DD + 1))%nat) by (apply Nat.mul_le_mono_r; lia).
  assert (H : ((a + freec SS (sid :: exp) * (DD + 1) + 1) * (G + 2) <= (b + freec SS exp * (DD + 1)) * (G + 2))%nat)
    by (apply Nat.mul_le_mono_r; lia).
  rewrite Nat.mul_add_distr_r in H. lia.
Qed.

Lemma needl_ge2 : forall exp l, (2 <= needl exp l)%nat.
Proof. intros exp l. pose proof (rdepth_pos l). pose proof (need_drop 0 (rdepth l) exp). unfold needl. lia. Qed.

(* the second alternative of the list clause serves the default of a list-typed slot (and a null
   list): it holds no pointers (premise rdepth dptr <= 1 of [tot_field]), so one unit of fuel is
   enough *)
Lemma total_ind : forall fuel,
  (forall exp id d ps, (needs exp id ps < fuel)%nat -> no_oof (shown_struct ffmt c sc fuel exp id d ps)) /\
  (forall exp e l, (needl exp l <= fuel)%nat \/ ((rdepth l <= 1)%nat /\ (1 <= fuel)%nat) ->
     no_oof (shown_list ffmt c sc fuel exp e l)).
Proof.
  induction fuel as [|f [IHs IHl]].
  { split; [intros; lia|]. intros exp e l [H|[_ H]]; [pose proof (needl_ge2 exp l)|]; lia. }
  split.
  - (* marshalStruct *)
    intros exp id d ps Hf. unfold needs in Hf. apply no_oof_wp. cbn [shown_struct]. apply wp_find.
    destruct (lookup (s_nodes sc) id) as [[dc doff fc fields| |]|] eqn:El; try apply wp_fail.
    destruct (Hsc _ _ _ _ _ El) as [HG Hfields]. rewrite Forall_forall in Hfields.
    apply wp_charge. eapply wp_map; [|auto]. apply wp_collect_fields_any. intros fd Hin.
    specialize (Hfields fd Hin). unfold tot_field in Hfields.
    destruct (f_kind fd) as [off t dflt dptr tcost dvcost dpcost|gid|]; [| |now apply wp_ret].
    + (* slot *)
      destruct (negb _); [now apply wp_ret|]. do 3 apply wp_charge. eapply wp_map; [|auto].
      destruct t as [| |bits|bits|bits| | |ecost e|eid|sid| |]; try now apply slot_value_flat.
      * (* list field: the stored list one level down, or the default, which holds no pointers *)
        unfold slot_value. apply wp_charge. eapply wp_bind; [apply wp_default_ptr|]. intros p' ->.
        apply no_oof_wp, IHl. pose proof (need_drop 0 (S (maxd ps)) exp).
        destruct (if c_acc c then _ else _); [right; lia|].
        destruct (ptr_at_cases ps off) as [Hp|Hp]; [left|right; rewrite Hp; cbn [rdepth]; lia].
        apply maxd_in in Hp. pose proof (need_drop (rdepth (ptr_at ps off)) (S (maxd ps)) exp). unfold needl. lia.
      * (* struct field *)
        destruct Hfields as [HinS Hdd]. unfold slot_value.
        destruct (if c_acc c then _ else _) eqn:Econd.
        -- rewrite Hcut. cbn [andb].
           destruct (existsb (Z.eqb sid) exp) eqn:Eex; [now apply wp_ret|]. apply wp_charge.
           destruct (as_struct dptr) as [d' ps'] eqn:Ea. apply no_oof_wp, IHs. unfold needs.
           pose proof (as_struct_depth _ _ _ Ea).
           pose proof (need_push (S (maxd ps')) (S (maxd ps)) exp sid HinS Eex). lia.
        -- destruct (as_struct (ptr_at ps off)) as [d' ps'] eqn:Ea. apply no_oof_wp, IHs. unfold needs.
           pose proof (as_struct_depth _ _ _ Ea).
           destruct (ptr_at_cases ps off) as [Hp|Hp]; [|rewrite Hp in Econd; destruct (c_acc c); discriminate].
           apply maxd_in in Hp. pose proof (need_drop (S (maxd ps')) (S (maxd ps)) exp). lia.
    + (* group: same value and stack, smaller rank *)
      destruct (negb _); [now apply wp_ret|]. apply wp_charge. eapply wp_map; [|auto].
      apply no_oof_wp, IHs. unfold needs. lia.
  - (* marshalList *)
    intros exp e l Hf. apply no_oof_wp. cbn [shown_list].
    destruct e as [| |bits|bits|bits| | |ecost ee|eid|sid| |]; try (now apply wp_ret);
      try (eapply wp_map; [apply wp_lift; first [apply prim_elems_no|apply ptr_elems_no]|auto]).
    + (* list of lists *)
      apply wp_charge. eapply wp_bind; [apply wp_lift, ptr_elems_no|]. intros pl Hpl. eapply wp_map; [|auto].
      apply wp_collect_elems_any. intros p Hin.
      pose proof (ptr_elems_depth _ _ _ Hpl Hin). pose proof (rdepth_pos p).
      apply no_oof_wp, IHl. left. destruct Hf as [Hf|[Hf _]]; [|lia].
      pose proof (need_drop (rdepth p) (rdepth l) exp). unfold needl in *. lia.
    + (* enums *)
      eapply wp_bind; [apply wp_lift, prim_elems_no|]. intros xs _. eapply wp_map; [|auto].
      apply wp_collect_elems_any. intros; apply wp_shown_enum_any.
    + (* structs *)
      eapply wp_bind; [apply wp_lift, struct_elems_no|]. intros pl Hpl. eapply wp_map; [|auto].
      apply wp_collect_elems_any. intros p Hin.
      pose proof (struct_elems_depth _ _ _ Hpl Hin). pose proof (rdepth_pos p).
      destruct (as_struct p) as [d' pp] eqn:Ea. pose proof (as_struct_depth _ _ _ Ea).
      apply no_oof_wp, IHs. destruct Hf as [Hf|[Hf _]]; [|lia].
      pose proof (need_drop (S (maxd pp)) (rdepth l) exp). unfold needs, needl in *. lia.
Qed.

(* the explicit bound for Encode of a value v of type id on an encoder in ANY cache state *)
Definition fuel_bound (v : rval) : nat := ((rdepth v + length SS * (DD + 1)) * (G + 2) + G + 1)%nat.

Lemma shown_struct_total : forall fuel id v st, (fuel_bound v <= fuel)%nat ->
  (let (d, ps) := as_struct v in shown_struct ffmt c sc fuel [] id d ps st) <> OutOfFuel.
Proof.
  intros fuel id v st Hf. destruct (as_struct v) as [d ps] eqn:Ea.
  destruct (total_ind fuel) as [Hs _]. apply Hs. unfold needs, fuel_bound in *.
  pose proof (need_mono _ _ [] (as_struct_depth _ _ _ Ea)) as Hd. unfold need in *. rewrite freec_nil in *. lia.
Qed.

End Total.

(* within the bound, Encode on an encoder in any cache state never runs out of fuel *)
Theorem encode_total_partial : forall ffmt c sc grank G DD SS fuel id v st,
  c_cut c = true -> tot_schema sc grank G DD SS -> (fuel_bound G DD SS v <= fuel)%nat ->
  fst (encode ffmt c sc fuel id v st) <> OutOfFuel.
Proof.
  intros ffmt c sc grank G DD SS fuel id v st Hcut Hsc Hf.
  pose proof (shown_struct_total ffmt c sc grank G DD SS Hcut Hsc fuel id v st Hf) as H.
  unfold encode. destruct (as_struct v) as [d ps].
  destruct (shown_struct ffmt c sc fuel [] id d ps st) as [[t st']|e|]; cbn [fst]; congruence.
Qed.

(* Render totality.  For every schema satisfying [tot_schema] (groups acyclic; struct-typed slots
   name a type of SS and have a default of depth <= DD; list defaults hold no pointers), every
   encoder configuration with the default-expansion guard, every stored value v (any bytes, any
   pointer kinds, discriminants of no member, ...), every type id: with
       fuel >= (depth v + |SS| * (DD + 1)) * (G + 2) + G + 1
   Encode returns text or one of the enumerated errors [err]; it never runs out of fuel (and the
   result type has no panic outcome).  _partial: (a) the list-default premise is a restriction
   (necessary in some form: render_listdefault_refuted); (b) which inputs give [Err] is not
   characterised by a theorem (ENotFound/ENotStruct/ENotEnum: a type id that does not resolve to
   a node of the right kind; EBudget: read sizes above the budget; EIllTyped: a pointer-less list
   where a list of pointers / structs is expected; see docs/C20.md). *)
Theorem render_total_partial : forall ffmt c sc grank G DD SS fuel id v,
  c_cut c = true -> tot_schema sc grank G DD SS -> (fuel_bound G DD SS v <= fuel)%nat ->
  (exists out, render ffmt c sc fuel id v = Ok out) \/ (exists e, render ffmt c sc fuel id v = Err e).
Proof.
  intros ffmt c sc grank G DD SS fuel id v Hcut Hsc Hf.
  pose proof (encode_total_partial ffmt c sc grank G DD SS fuel id v None Hcut Hsc Hf) as H.
  unfold render. destruct (fst (encode ffmt c sc fuel id v None)); [left|right|contradiction]; eexists; reflexivity.
Qed.

(* parse_render without the success premise: within the fuel bound the outcome is either an
   enumerated error or a text that reads back as exactly the field values shown.
   _partial: the error alternative is not excluded (see render_total_partial (b)). *)
Theorem render_faithful_total_partial : forall ffmt c sc grank G DD SS fuel id v,
  schema_ok sc -> rval_ok v ->
  c_cut c = true -> tot_schema sc grank G DD SS -> (fuel_bound G DD SS v <= fuel)%nat ->
  (exists out t, render ffmt c sc fuel id v = Ok out /\ shown ffmt c sc fuel id v = Ok t /\
                 out = print t /\ wf_tval t /\ parse_text out = Some t)
  \/ (exists e, render ffmt c sc fuel id v = Err e).
Proof.
  intros ffmt c sc grank G DD SS fuel id v Hok Hv Hcut Hsc Hf.
  destruct (render_total_partial ffmt c sc grank G DD SS fuel id v Hcut Hsc Hf) as [[out Ho]|He]; [left|now right].
  destruct (parse_render _ _ _ _ _ _ _ Hok Hv Ho) as (t & H1 & H2 & H3 & H4).
  exists out, t. repeat split; assumption.
Qed.

(* the premises are met by the recursive type  struct Node { next :Node; }  and by the 3-cycle
   C -> D -> E -> C: [tot_schema] is checked node by node *)
Lemma tot_schema_nodes : forall sc grank G DD SS,
  Forall (fun p => match snd p with
                   | NStruct _ _ _ fields => (grank (fst p) <= G)%nat /\ Forall (tot_field grank DD SS (fst p)) fields
                   | _ => True
                   end) (s_nodes sc) ->
  tot_schema sc grank G DD SS.
Proof. intros sc grank G DD SS H id dc doff fc fields El. exact (lookup_Forall _ _ _ _ H El). Qed.

Lemma cyc_field_total : forall name t owner SS, In t SS ->
  tot_field (fun _ => O) 1 SS owner (cyc_field name t).
Proof. intros name t owner SS H. split; [exact H|cbn; lia]. Qed.

Example rec_schema_total : tot_schema rec_schema (fun _ => O) 0 1 [1].
Proof.
  apply tot_schema_nodes. repeat constructor.
Qed.

Example rec_value_total :
  fuel_bound 0 1 [1] rec_value = 9%nat /\
  render no_floats cfg_fixed rec_schema 9 1 rec_value
  = Ok [40; 110; 101; 120; 116; 32; 61; 32; 40; 110; 101; 120; 116; 32; 61; 32; 40; 41; 41; 41].
Proof. split; vm_compute; reflexivity. Qed.

Example cyc3_schema_total : tot_schema cyc3_schema (fun _ => O) 0 1 [1; 2; 3].
Proof.
  apply tot_schema_nodes.
  repeat (constructor; [split; [lia|constructor; [apply cyc_field_total; cbn; auto|constructor]]|]).
  constructor.
Qed.

(* the list-default premise cannot be dropped:  struct L { l :List(L) = [()]; }
   The default of l is a one-element list whose element has a null l, whose default is that list
   again.  The default-expansion guard (c_cut) covers struct defaults only: the walk diverges for
   every fuel (Go: fatal stack overflow), on the fixed configuration. *)
Definition ldef_list : rval := RPtrs [RStruct [] []].
Definition ldef_schema : schema :=
  mkSchema [(1, NStruct 0 0 56 [mkField [108] 2 65535 (FSlot 0 (TList 24 (TStruct 1)) 0 ldef_list 32 24 40)])] 100.

Lemma ldef_diverges : forall fuel,
  (forall exp st, shown_struct no_floats cfg_fixed ldef_schema fuel exp 1 [] [] st = OutOfFuel) /\
  (forall exp st, shown_list no_floats cfg_fixed ldef_schema fuel exp (TStruct 1) ldef_list st = OutOfFuel).
Proof.
  induction fuel as [|f [IHs IHl]]; [split; reflexivity|]. split.
  - intros exp st. destruct st as [b|]; simpl; unfold bind; simpl; rewrite IHl; reflexivity.
  - intros exp st. simpl. unfold bind. simpl. unfold bind. rewrite IHs. reflexivity.
Qed.

Example render_listdefault_refuted : forall fuel,
  render no_floats cfg_fixed ldef_schema fuel 1 (RStruct [] []) = OutOfFuel.
Proof.
  intros fuel. unfold render, encode. cbn [as_struct]. rewrite (proj1 (ldef_diverges fuel)). reflexivity.
Qed.
