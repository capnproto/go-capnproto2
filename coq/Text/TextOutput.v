(* Well-formedness of the WHOLE output of the text encoder (not only of its string literals):
   every byte is printable ASCII, and the output is a concatenation of bytes other than the
   double quote and of literals [quote s] produced by the quoting function (strquote.Append) -
   every quote character of the output belongs to such a literal, whose inside is described by
   StrquoteProofs.quote_wellformed (quotes and backslashes only as escape sequences).
   Print level: for all value trees whose names / identifiers / markers / float tokens consist of
   printable bytes other than the double quote ([out_ok]; floats included).  Render level: for
   all float-free schemas with identifier names and all stored values (through shown_wf). *)
From CV Require Import Text.Strquote Text.TextSpec Text.StrquoteProofs Text.TextM Text.TextProofs.
From Coq Require Import Lia ZifyBool.
Open Scope Z_scope.

Definition plainc (c : Z) : Prop := printable c /\ c <> 34.
Definition plain (l : list Z) : Prop := Forall plainc l.

(* a sequence of non-quote bytes and whole literals *)
Inductive qstruct : list Z -> Prop :=
| qs_nil : qstruct []
| qs_plain c r : c <> 34 -> qstruct r -> qstruct (c :: r)
| qs_lit s r : bytes_ok s -> qstruct r -> qstruct (quote s ++ r).

Definition outw (l : list Z) : Prop := Forall printable l /\ qstruct l.

Fixpoint out_ok (t : tval) : Prop :=
  match t with
  | TvVoid | TvBool _ | TvInt _ => True
  | TvFloat tok => plain tok
  | TvStr s | TvData s => bytes_ok s
  | TvIdent n => plain n
  | TvMarker m => plain m
  | TvList l => out_oks l
  | TvStruct fs => out_okf fs
  end
with out_oks (l : tvals) : Prop :=
  match l with TNil => True | TCons v r => out_ok v /\ out_oks r end
with out_okf (fs : tfields) : Prop :=
  match fs with FNil => True | FCons n v r => plain n /\ out_ok v /\ out_okf r end.

Lemma qstruct_app : forall a b, qstruct a -> qstruct b -> qstruct (a ++ b).
Proof.
  intros a b Ha Hb. induction Ha as [|c r Hc _ IH|s r Hs _ IH]; [assumption| |].
  - cbn [app]. now constructor.
  - rewrite <- app_assoc. now constructor.
Qed.

Lemma outw_app : forall a b, outw a -> outw b -> outw (a ++ b).
Proof. intros a b [A1 A2] [B1 B2]. split; [apply Forall_app; now split|now apply qstruct_app]. Qed.

Lemma outw_nil : outw [].
Proof. split; constructor. Qed.

Lemma outw_plain : forall l, plain l -> outw l.
Proof.
  induction 1 as [|c r [Hp Hq] _ [IH1 IH2]]; [apply outw_nil|].
  split; [now constructor|now constructor].
Qed.

Lemma outw_cons : forall c l, plainc c -> outw l -> outw (c :: l).
Proof. intros c l Hc Hl. apply (outw_app [c] l); [|assumption]. apply outw_plain. now constructor. Qed.

Lemma outw_quote : forall s, bytes_ok s -> outw (quote s).
Proof.
  intros s Hs. split; [now apply quote_printable|].
  rewrite <- (app_nil_r (quote s)). constructor; [assumption|constructor].
Qed.

Lemma numchar_plain : forall c, is_numchar c = true -> plainc c.
Proof.
  intros c H. unfold is_numchar, is_idchar, is_alpha, is_digit in H. unfold plainc, printable. lia.
Qed.

Lemma idchar_plain : forall c, is_idchar c = true -> plainc c.
Proof. intros c H. apply numchar_plain. unfold is_numchar. rewrite H. reflexivity. Qed.

Lemma forallb_plain : forall p l, (forall c, p c = true -> plainc c) -> forallb p l = true -> plain l.
Proof.
  intros p l Hp H. unfold plain. rewrite Forall_forall. intros c Hc.
  apply Hp. rewrite forallb_forall in H. now apply H.
Qed.

Lemma plain_const : forall l, forallb (fun c => (32 <=? c) && (c <? 127) && negb (c =? 34)) l = true -> plain l.
Proof. intros l. apply forallb_plain. intros c H. unfold plainc, printable. lia. Qed.

Lemma plain_print_int : forall z, plain (print_int z).
Proof. intros z. eapply forallb_plain; [exact numchar_plain|apply print_int_numchar]. Qed.

Lemma print_outw_all :
  (forall t, out_ok t -> outw (print t)) /\
  (forall l, out_oks l -> forall first, outw (print_elems first l)) /\
  (forall fs, out_okf fs -> forall first, outw (print_fields first fs)).
Proof.
  apply tval_mutind.
  - intros _. apply outw_plain. apply plain_const. reflexivity.
  - intros [|] _; apply outw_plain; apply plain_const; reflexivity.
  - intros z _. apply outw_plain. apply plain_print_int.
  - intros tok H. now apply outw_plain.
  - intros s H. now apply outw_quote.
  - intros s H. now apply outw_quote.
  - intros n H. now apply outw_plain.
  - intros m H. now apply outw_plain.
  - intros l IH H. cbn [print]. cbn [out_ok] in H.
    apply outw_cons; [unfold plainc, printable; lia|].
    apply outw_app; [now apply IH|]. apply outw_plain. apply plain_const. reflexivity.
  - intros fs IH H. cbn [print]. cbn [out_ok] in H.
    apply outw_cons; [unfold plainc, printable; lia|].
    apply outw_app; [now apply IH|]. apply outw_plain. apply plain_const. reflexivity.
  - intros _ first. apply outw_nil.
  - intros v IHv r IHr [Hv Hr] first. cbn [print_elems].
    apply outw_app; [destruct first; [apply outw_nil|apply outw_plain; apply plain_const; reflexivity]|].
    apply outw_app; [now apply IHv|now apply IHr].
  - intros _ first. apply outw_nil.
  - intros n v IHv r IHr (Hn & Hv & Hr) first. cbn [print_fields].
    apply outw_app; [destruct first; [apply outw_nil|apply outw_plain; apply plain_const; reflexivity]|].
    apply outw_app; [now apply outw_plain|].
    apply outw_app; [apply outw_plain; apply plain_const; reflexivity|].
    apply outw_app; [now apply IHv|now apply IHr].
Qed.

Theorem print_printable : forall t, out_ok t -> Forall printable (print t).
Proof. intros t H. exact (proj1 (proj1 print_outw_all t H)). Qed.

Theorem print_quotes_balanced : forall t, out_ok t -> qstruct (print t).
Proof. intros t H. exact (proj2 (proj1 print_outw_all t H)). Qed.

(* the float-free fragment with identifier names is inside [out_ok] *)
Lemma wf_out_all :
  (forall t, wf_tval t -> out_ok t) /\ (forall l, wf_tvals l -> out_oks l) /\ (forall fs, wf_tfields fs -> out_okf fs).
Proof.
  apply tval_mutind; cbn [wf_tval wf_tvals wf_tfields out_ok out_oks out_okf]; try tauto.
  - intros n [[Hn _] _]. eapply forallb_plain; [exact idchar_plain|exact Hn].
  - intros m [->| ->]; apply plain_const; reflexivity.
  - intros n v IHv r IHr ([_ Hn] & Hv & Hr). split; [|split; auto].
    eapply forallb_plain; [exact idchar_plain|exact Hn].
Qed.

(* qstruct is not vacuous: a lone quote, or a literal cut short, is not of this shape *)
Lemma qstruct_inv_quote : forall l, qstruct l -> forall r, l = 34 :: r ->
  exists s r', bytes_ok s /\ l = quote s ++ r'.
Proof.
  intros l H. destruct H as [|c r0 Hc _|s r0 Hs _]; intros r E.
  - discriminate.
  - inversion E; subst. contradiction.
  - exists s, r0. split; [assumption|reflexivity].
Qed.

Example lone_quote_not_balanced : ~ qstruct [34].
Proof.
  intros H. destruct (qstruct_inv_quote _ H [] eq_refl) as (s & r' & Hs & E).
  destruct (quote_wellformed s Hs) as (body & Eq & _). rewrite Eq in E.
  cbn [app] in E. inversion E as [E']. destruct body; cbn [app] in E'; discriminate.
Qed.

(* Render level: all float-free schemas with identifier names, all stored values, all
   configurations and fuel: whatever Encode writes on success is printable ASCII throughout and
   every quote in it belongs to a literal of the quoting function *)
Theorem output_printable : forall ffmt c sc fuel id v out,
  schema_ok sc -> rval_ok v -> render ffmt c sc fuel id v = Ok out -> Forall printable out.
Proof.
  intros ffmt c sc fuel id v out Hsc Hv H.
  destruct (parse_render _ _ _ _ _ _ _ Hsc Hv H) as (t & _ & -> & Hw & _).
  apply print_printable. now apply (proj1 wf_out_all).
Qed.

Theorem output_quotes_balanced : forall ffmt c sc fuel id v out,
  schema_ok sc -> rval_ok v -> render ffmt c sc fuel id v = Ok out -> qstruct out.
Proof.
  intros ffmt c sc fuel id v out Hsc Hv H.
  destruct (parse_render _ _ _ _ _ _ _ Hsc Hv H) as (t & _ & -> & Hw & _).
  apply print_quotes_balanced. now apply (proj1 wf_out_all).
Qed.

Example ex2_value_ok : rval_ok ex2_value_t.
Proof. cbn. repeat split; intros _; repeat constructor; unfold byte_ok; lia. Qed.

Example output_example :
  exists out, render no_floats cfg_fixed ex2_schema 9 1 ex2_value_t = Ok out /\ Forall printable out /\ qstruct out.
Proof.
  destruct (render no_floats cfg_fixed ex2_schema 9 1 ex2_value_t) as [out| |] eqn:E;
    [|vm_compute in E; discriminate|vm_compute in E; discriminate].
  exists out. split; [reflexivity|].
  split; [eapply output_printable|eapply output_quotes_balanced]; try exact E;
    first [apply ex2_schema_ok|apply ex2_value_ok].
Qed.
