(* C01 / C02 for the text encoder composed with the reader model (Text/TextRead.v):
   for ALL segment bytes, all well-formed schemas, all limits:
     render_r_no_panic        never [RPanic];
     render_r_reads_wf_budget every Core accessor call it makes has a well-formed receiver
                              (so C01_accessor_safe applies to each: in-segment results), and
                              the bytes handed out by its dereferences + the budget left <= the
                              budget it started with (<= T), the budget never goes negative;
     render_r_no_fuel_partial with fuel >= fuel_for G D it never returns [RFuel] on any message
                              (cyclic ones included) PROVIDED the walks of the schema's own default
                              values do not (hypothesis [dflt_total]; that is TextM's walk over the
                              trusted schema message, C20).
   One induction on fuel ([walk_sat], over [sat nf]) proves all three. *)
From CV Require Import Core.SafetyProofs Core.LimitProofs Text.TextRead.
From Coq Require Import ZifyBool ZifyNat.
Open Scope Z_scope.
(* Coq's ZifyBool sets this same hook to boolean case-splitting at every import; this line replaces that
   by div/mod elimination, and without it the lia calls of this file are about 30 times slower. *)
Ltac Zify.zify_post_hook ::= Z.div_mod_to_equations.

Lemma lookup_in : forall ns id n, TM.lookup ns id = Some n -> In (id, n) ns.
Proof.
  induction ns as [|[k n0] r IH]; intros id n H; cbn in H; [discriminate|].
  destruct (k =? id) eqn:E.
  - inversion H. subst. left. f_equal. lia.
  - right. apply IH. assumption.
Qed.

Lemma grp_ok_all sc0 g id :
  (forall kn, In kn (TM.s_nodes sc0) -> grp_ok sc0 (S g) (fst kn) = true) -> grp_ok sc0 (S g) id = true.
Proof.
  intros H. cbn [grp_ok]. destruct (TM.lookup (TM.s_nodes sc0) id) as [n|] eqn:L; [|reflexivity].
  pose proof (lookup_in _ _ _ L) as Hin. specialize (H _ Hin). cbn [fst grp_ok] in H. rewrite L in H. exact H.
Qed.

Section Proofs.
Variable ffmt : Z -> Z -> list Z.
Variable sc : TM.schema.
Variable c : config.
Variable fx : fixes.
Variable m : segs.
Variable rd : list Z -> Z -> TM.rval -> TM.res TS.tval.
Variable rdl : list Z -> TM.ty -> TM.rval -> TM.res TS.tval.
Variable G : nat.

Hypothesis Hm : msg_ok m.
Hypothesis Hstrict : cfg_strict c = true.
Hypothesis Hbit : fx_bit fx = true.
Hypothesis Hdepth : fx_depth fx = true.
Hypothesis Hsc : schema_wf G sc = true.
Hypothesis HG : (1 <= G)%nat.

Definition dflt_total : Prop :=
  (forall exp sid v, rd exp sid v <> TM.OutOfFuel) /\ (forall exp e v, rdl exp e v <> TM.OutOfFuel).

Definition inv (s : rst) : Prop := 0 <= r_rl s /\ Forall (wf_ptr m) (r_log s).
Definition step_ok (s s' : rst) : Prop :=
  inv s' /\ r_rl s' + r_h s' <= r_rl s + r_h s /\ r_h s <= r_h s' /\ r_d s <= r_d s'.
Definition sat {A} (nf : bool) (x : RM A) (P : A -> Prop) : Prop :=
  forall s, inv s ->
    step_ok s (snd (x s)) /\
    match fst (x s) with ROk a => P a | RErr => True | RPanic => False | RFuel => nf = false end.

Lemma step_refl s : inv s -> step_ok s s.
Proof. intros H. unfold step_ok. repeat split; try apply H; lia. Qed.
Lemma step_trans a b d : step_ok a b -> step_ok b d -> step_ok a d.
Proof. unfold step_ok. intros (H1 & H2 & H3 & H4) (G1 & G2 & G3 & G4). repeat split; try apply G1; lia. Qed.

Lemma sat_ret {A} nf (a : A) (P : A -> Prop) : P a -> sat nf (rret a) P.
Proof. intros H s Hs. cbn. split; [apply step_refl; assumption|assumption]. Qed.
Lemma sat_fail {A} nf (P : A -> Prop) : sat nf (@rfail A) P.
Proof. intros s Hs. cbn. split; [apply step_refl; assumption|exact I]. Qed.
Lemma sat_bind {A B} nf (x : RM A) (k : A -> RM B) (Q : A -> Prop) (P : B -> Prop) :
  sat nf x Q -> (forall a, Q a -> sat nf (k a) P) -> sat nf (rbind x k) P.
Proof.
  intros Hx Hk s Hs. unfold rbind. specialize (Hx s Hs). destruct (x s) as [o s1]. cbn [fst snd] in Hx.
  destruct Hx as [H1 H2]. destruct o as [a| | |]; cbn [fst snd]; try (split; assumption).
  specialize (Hk a H2 s1 ltac:(apply H1)). destruct Hk as [K1 K2]. split; [|assumption].
  eapply step_trans; eassumption.
Qed.
Lemma sat_map {A B} nf (x : RM A) (g : A -> B) (Q : A -> Prop) :
  sat nf x Q -> sat nf (a <-- x ;; rret (g a)) (fun _ => True).
Proof. intros H. eapply sat_bind; [exact H|]. intros. apply sat_ret. exact I. Qed.
Lemma sat_weaken {A} nf (x : RM A) (P Q : A -> Prop) : sat nf x P -> (forall a, P a -> Q a) -> sat nf x Q.
Proof.
  intros Hx H s Hs. specialize (Hx s Hs). destruct Hx as [H1 H2]. split; [assumption|].
  destruct (fst (x s)); auto.
Qed.

Lemma sat_acc {A} nf (p : Ptr) (r : res A) (P : A -> Prop) :
  wf_ptr m p -> res_sat r P -> sat nf (acc p r) P.
Proof.
  intros Hp Hr s [Hs1 Hs2]. unfold acc. cbn [fst snd]. split.
  - unfold step_ok, inv. cbn [r_rl r_h r_d r_log]. repeat split; try lia. constructor; assumption.
  - destruct r; cbn in *; auto.
Qed.

Lemma sat_deref nf (p : Ptr) (x : Z -> res Ptr * Z) (P : Ptr -> Prop) :
  wf_ptr m p ->
  (forall rl, 0 <= rl -> charged rl (x rl) /\ res_sat (fst (x rl)) P) ->
  sat nf (deref p x) P.
Proof.
  intros Hp Hx s [Hs1 Hs2]. unfold deref. destruct (Hx (r_rl s) Hs1) as [[[C1 C1'] C2] C3].
  destruct (x (r_rl s)) as [r rl']. cbn [fst snd] in *.
  assert (Forall (wf_ptr m) (p :: r_log s)) as HL by (constructor; assumption).
  destruct r as [q| |]; cbn [fst snd res_sat] in *.
  - split; [|assumption]. unfold step_ok, inv. cbn [r_rl r_h r_d r_log].
    change (rsize q) with (readSize q). pose proof (readSize_nonneg q).
    repeat split; try assumption; try lia. destruct (p_valid q); lia.
  - split; [|exact I]. unfold step_ok, inv. cbn [r_rl r_h r_d r_log]. repeat split; try assumption; lia.
  - contradiction.
Qed.

Lemma sat_dflt nf r : (nf = true -> r <> TM.OutOfFuel) -> sat nf (of_dflt r) (fun _ => True).
Proof.
  intros H s Hs. unfold of_dflt. cbn [fst snd]. split; [apply step_refl; assumption|].
  destruct r; try exact I. destruct nf; [exfalso; apply H; reflexivity|reflexivity].
Qed.

Lemma sat_for_each {A} nf (f : Z -> RM A) (P : A -> Prop) : forall n i,
  (forall j, i <= j < i + Z.of_nat n -> sat nf (f j) P) -> sat nf (for_each n i f) (Forall P).
Proof.
  induction n as [|n IH]; intros i H; cbn [for_each].
  - apply sat_ret. constructor.
  - eapply sat_bind; [apply H; lia|]. intros a Ha.
    eapply sat_bind; [apply IH; intros j Hj; apply H; lia|]. intros r Hr.
    apply sat_ret. constructor; assumption.
Qed.

Lemma sat_fields nf (step : TM.field -> RM (option TS.tval)) : forall fields,
  (forall fd, In fd fields -> sat nf (step fd) (fun _ => True)) ->
  sat nf (fields_r step fields) (fun _ => True).
Proof.
  induction fields as [|fd r IH]; intros H; cbn [fields_r].
  - apply sat_ret. exact I.
  - eapply sat_bind; [apply H; left; reflexivity|]. intros o _.
    eapply sat_bind; [apply IH; intros; apply H; right; assumption|]. intros fs _.
    apply sat_ret. exact I.
Qed.

Lemma sat_enum nf id v : sat nf (enum_r sc id v) (fun _ => True).
Proof.
  unfold enum_r. destruct (TM.lookup _ _) as [[| |]|]; try apply sat_fail.
  dif; [apply sat_ret; exact I|]. destruct (nth_error _ _) as [[name ?]|]; [apply sat_ret; exact I|apply sat_fail].
Qed.
Lemma sat_enum_lenient nf id v : sat nf (enum_lenient sc id v) (fun _ => True).
Proof.
  intros s Hs. unfold enum_lenient. pose proof (sat_enum nf id v s Hs) as H.
  destruct (enum_r sc id v s) as [o s']. cbn [fst snd] in *. destruct o; cbn [fst snd]; try assumption.
Qed.

Lemma lookup_node_ok id n : TM.lookup (TM.s_nodes sc) id = Some n -> node_ok n = true.
Proof.
  intros L. apply lookup_in in L. pose proof Hsc as H. unfold schema_wf in H. rewrite forallb_forall in H.
  specialize (H _ L). cbn [fst snd] in H. apply andb_prop in H. apply H.
Qed.

Lemma wf_grp id : grp_ok sc G id = true.
Proof.
  replace G with (S (pred G)) by lia. apply grp_ok_all. intros kn Hin.
  replace (S (pred G)) with G by lia. pose proof Hsc as H. unfold schema_wf in H. rewrite forallb_forall in H.
  specialize (H _ Hin). apply andb_prop in H. apply H.
Qed.

Definition dok (p : Ptr) : Prop := p_valid p = true -> 0 <= p_depth p.
Definition dep (p : Ptr) : Z := if p_valid p then p_depth p else 0.
Definition K : Z := Z.of_nat G + 3.

(* what a dereference from receiver [p] hands out *)
Definition child_of (p q : Ptr) : Prop :=
  wf_ptr m q /\ (p_valid q = true -> p_valid p = true /\ 1 <= p_depth p /\ 0 <= p_depth q <= p_depth p - 1).

Lemma sat_ptr_field nf p off : wf_struct m p -> dok p -> sat nf (ptr_field c m p off) (child_of p).
Proof.
  intros Hw Hd. unfold ptr_field. apply sat_deref; [apply Hw|]. intros rl Hrl. split.
  - apply struct_ptr_charge. assumption.
  - pose proof (struct_ptr_safe c m rl p (off mod 65536) Hm Hw ltac:(lia)) as Hs.
    destruct (fst (struct_ptr c m rl p (off mod 65536))) as [q| |] eqn:E; cbn [res_sat] in *; auto.
    split; [auto|]. intros V. destruct (p_valid p) eqn:Vp.
    + pose proof (struct_ptr_depth c m rl p (off mod 65536) q (Hd Vp) E V) as H. rewrite Vp in H. exact H.
    + unfold struct_ptr in E. rewrite Vp in E. cbn in E. inversion E. subst q. discriminate.
Qed.

Lemma sat_ptr_elem nf l i : wf_list m l -> dok l -> 0 <= i < list_len l ->
  sat nf (ptr_elem c fx m l i) (child_of l).
Proof.
  intros Hw Hd Hi. unfold ptr_elem. apply sat_deref; [apply Hw|]. intros rl Hrl. split.
  - apply ptrlist_at_charge. assumption.
  - pose proof (ptrlist_at_safe c (fx_upgrade fx) m rl l i Hm Hw Hi) as Hs.
    destruct (fst (ptrlist_at c (fx_upgrade fx) m rl l i)) as [q| |] eqn:E; cbn [res_sat] in *; auto.
    split; [auto|]. intros V. apply list_len_valid in Hi. destruct Hi as [Vl _].
    eapply ptrlist_at_depth; eauto.
Qed.

Lemma is_struct_wf q : wf_ptr m q -> is_struct q = true -> wf_struct m q /\ p_valid q = true.
Proof.
  intros Hw H. unfold is_struct in H. apply andb_prop in H. destruct H as [V Hk].
  split; [|assumption]. split; [assumption|]. intros _. destruct (p_kind q); try discriminate. reflexivity.
Qed.
Lemma is_list_wf q : wf_ptr m q -> is_list q = true -> wf_list m q /\ p_valid q = true.
Proof.
  intros Hw H. unfold is_list in H. apply andb_prop in H. destruct H as [V Hk].
  split; [|assumption]. split; [assumption|]. intros _. destruct (p_kind q); try discriminate. reflexivity.
Qed.

Lemma off_ok_range off n : off_ok off n = true -> 0 <= n <= 8 -> 0 <= u32 (off * n) < 524288.
Proof.
  unfold off_ok. intros H Hn. apply andb_prop in H. destruct H as [H1 H2].
  rewrite u32_id; nia.
Qed.

Lemma sat_data_field nf p off n : wf_struct m p -> off_ok off n = true -> 0 <= n <= 8 ->
  sat nf (data_field m p off n) (fun _ => True).
Proof.
  intros Hw Ho Hn. unfold data_field. apply sat_acc; [apply Hw|].
  pose proof (struct_uint_safe m p (u32 (off * n)) n Hm Hw (off_ok_range off n Ho Hn) Hn) as H.
  destruct (struct_uint m p (u32 (off * n)) n); cbn; auto.
Qed.

Lemma width_div b : width_ok b = true -> 0 <= b / 8 <= 8.
Proof. unfold width_ok. intros H. lia. Qed.
Lemma fwidth_div b : (b =? 32) || (b =? 64) = true -> 0 <= b / 8 <= 8.
Proof. intros H. lia. Qed.

Lemma res_nopanic_sat {A} (r : res A) : r <> Panic -> res_sat r (fun _ => True).
Proof. destruct r; cbn; auto. Qed.

Lemma sat_slot nf rs rl exp p off t dflt dptr :
  wf_struct m p -> dok p -> slot_ok off t = true ->
  (nf = true -> dflt_total) ->
  (forall sid q, wf_struct m q -> p_valid q = true -> p_valid p = true ->
                 1 <= p_depth p -> 0 <= p_depth q <= p_depth p - 1 -> sat nf (rs exp sid q) (fun _ => True)) ->
  (forall e q, ty_ok e = true -> wf_list m q -> p_valid q = true -> p_valid p = true ->
               1 <= p_depth p -> 0 <= p_depth q <= p_depth p - 1 -> sat nf (rl e q) (fun _ => True)) ->
  sat nf (slot_r ffmt sc c m rd rdl rs rl exp p off t dflt dptr) (fun _ => True).
Proof.
  intros Hw Hd Hok Hdt Hrs Hrl. unfold slot_ok in Hok. apply andb_prop in Hok. destruct Hok as [Hty Hoff].
  destruct t; cbn [slot_r]; cbn [ty_ok] in Hty; cbv beta iota in Hoff.
  - apply sat_ret; exact I.
  - eapply sat_map.
    apply sat_acc; [apply Hw|]. apply res_nopanic_sat. apply struct_bit_safe; auto. lia.
  - eapply sat_map; apply sat_data_field; auto; apply width_div; exact Hty.
  - eapply sat_map; apply sat_data_field; auto; apply width_div; exact Hty.
  - eapply sat_map; apply sat_data_field; auto; apply fwidth_div; exact Hty.
  - (* text *)
    eapply sat_bind; [apply sat_ptr_field; assumption|]. intros q [Hq _].
    apply (sat_map _ _ _ (fun _ => True)).
    apply sat_acc; [assumption|]. eapply res_sat_weaken; [apply ptr_text_safe; assumption|auto].
  - (* data *)
    eapply sat_bind; [apply sat_ptr_field; assumption|]. intros q [Hq _].
    apply (sat_map _ _ _ (fun _ => True)).
    apply sat_acc; [assumption|]. eapply res_sat_weaken; [apply ptr_data_safe; assumption|auto].
  - (* list *)
    eapply sat_bind; [apply sat_ptr_field; assumption|]. intros q [Hq Hdq].
    destruct (is_list q) eqn:E.
    + destruct (is_list_wf q Hq E) as [Hwl V]. destruct (Hdq V) as (Vp & H1 & H2). apply Hrl; assumption.
    + apply sat_dflt. intros Hn. apply (Hdt Hn).
  - (* enum *)
    eapply sat_bind; [apply sat_data_field; auto; lia|]. intros v _. apply sat_enum.
  - (* struct *)
    eapply sat_bind; [apply sat_ptr_field; assumption|]. intros q [Hq Hdq].
    destruct (is_struct q) eqn:E.
    + destruct (is_struct_wf q Hq E) as [Hws V]. destruct (Hdq V) as (Vp & H1 & H2). apply Hrs; assumption.
    + destruct (existsb _ _); [apply sat_ret; exact I|]. apply sat_dflt. intros Hn. apply (Hdt Hn).
  - (* interface *)
    eapply sat_map.
    apply sat_acc; [apply Hw|]. apply res_nopanic_sat. apply struct_hasptr_safe; auto. lia.
  - apply sat_ret; exact I.
Qed.

Lemma sat_bytes_elem nf text l i : wf_list m l -> dok l -> 0 <= i < list_len l ->
  sat nf (bytes_elem c fx m text l i) (fun _ => True).
Proof.
  intros Hw Hd Hi s Hs. unfold bytes_elem.
  pose proof (sat_ptr_elem nf l i Hw Hd Hi s Hs) as H.
  destruct (ptr_elem c fx m l i s) as [o s1]. cbn [fst snd] in H. destruct H as [H1 H2].
  destruct o as [q| | |]; cbn [fst snd]; try (split; [assumption|auto]).
  destruct H2 as [Hq _].
  assert (sat nf (o <-- acc q (if text then ptr_text m q else ptr_data m q) ;;
                  rret (TS.TvStr (match o with Some b => b | None => [] end))) (fun _ => True)) as Hk.
  { apply (sat_map _ _ _ (fun _ => True)). apply sat_acc; [assumption|].
    destruct text; (eapply res_sat_weaken; [first [apply ptr_text_safe|apply ptr_data_safe]; assumption|auto]). }
  specialize (Hk s1 ltac:(apply H1)). destruct Hk as [K1 K2]. split; [|assumption].
  eapply step_trans; eassumption.
Qed.

Definition need_s (nf : bool) (fuel : nat) (id : Z) (p : Ptr) : Prop :=
  nf = true -> dflt_total /\
    exists g : nat, grp_ok sc g id = true /\ (g <= G)%nat /\ K * dep p + Z.of_nat g + 1 <= Z.of_nat fuel.
Definition need_l (nf : bool) (fuel : nat) (l : Ptr) : Prop :=
  nf = true -> dflt_total /\ (1 <= fuel)%nat /\
    (p_valid l = true -> K * p_depth l + Z.of_nat G + 2 <= Z.of_nat fuel).

Lemma list_len_idx l j : 0 <= j < 0 + Z.of_nat (len_nat l) -> 0 <= j < list_len l.
Proof. unfold len_nat. lia. Qed.

Lemma walk_sat nf : forall fuel,
  (forall exp id p, wf_struct m p -> dok p -> need_s nf fuel id p ->
     sat nf (struct_r ffmt sc c fx m rd rdl fuel exp id p) (fun _ => True)) /\
  (forall exp e l, wf_list m l -> dok l -> ty_ok e = true -> need_l nf fuel l ->
     sat nf (list_r ffmt sc c fx m rd rdl fuel exp e l) (fun _ => True)).
Proof.
  induction fuel as [|f [IHs IHl]].
  { split.
    - intros exp id p Hw Hd Hn s Hs. cbn. split; [apply step_refl; assumption|].
      destruct nf; [|reflexivity]. exfalso. destruct (Hn eq_refl) as [_ (g & _ & _ & H)].
      unfold dep, K in H. unfold dok in Hd. destruct (p_valid p); [specialize (Hd eq_refl)|]; nia.
    - intros exp e l Hw Hd Hty Hn s Hs. cbn. split; [apply step_refl; assumption|].
      destruct nf; [|reflexivity]. exfalso. destruct (Hn eq_refl) as [_ [H _]]. lia. }
  split.
  - (* marshalStruct *)
    intros exp id p Hw Hd Hn. cbn [struct_r].
    destruct (TM.lookup (TM.s_nodes sc) id) as [n|] eqn:L; [|apply sat_fail].
    pose proof (lookup_node_ok id n L) as Hno.
    destruct n as [dcount doff fcost fields| |]; try apply sat_fail.
    cbn [node_ok] in Hno. apply andb_prop in Hno. destruct Hno as [Hdo Hfs]. rewrite forallb_forall in Hfs.
    eapply sat_bind with (Q := fun _ => True).
    { destruct (0 <? dcount); [apply sat_data_field; auto; lia|apply sat_ret; exact I]. }
    intros disc _. eapply sat_map.
    apply sat_fields. intros fd Hin. specialize (Hfs fd Hin). unfold field_ok in Hfs.
    destruct (TM.f_kind fd) as [off t dflt dptr tc dvc dpc|gid|] eqn:Ek; cbv beta iota.
    + (* slot *)
      destruct (negb _); [apply sat_ret; exact I|].
      eapply sat_map.
      apply sat_slot; try assumption.
      * intros Hnf. apply (Hn Hnf).
      * intros sid q Hwq Vq Vp H1 H2. apply IHs; [assumption|intros _; lia|].
        intros Hnf. destruct (Hn Hnf) as [Hdt (g & Hg & Hgl & Hfu)]. split; [assumption|].
        exists G. split; [apply wf_grp|]. split; [lia|]. unfold dep in *. rewrite Vq. rewrite Vp in Hfu.
        unfold K in *. nia.
      * intros e q Hte Hwq Vq Vp H1 H2. apply IHl; [assumption|intros _; lia|assumption|].
        intros Hnf. destruct (Hn Hnf) as [Hdt (g & Hg & Hgl & Hfu)]. split; [assumption|].
        unfold dep in Hfu. rewrite Vp in Hfu. unfold K in *. split; [lia|]. intros _. nia.
    + (* group: the same struct *)
      destruct (negb _); [apply sat_ret; exact I|].
      eapply sat_map.
      apply IHs; [assumption|assumption|].
      intros Hnf. destruct (Hn Hnf) as [Hdt (g & Hg & Hgl & Hfu)]. split; [assumption|].
      destruct g as [|g']; [discriminate|]. cbn [grp_ok] in Hg. rewrite L in Hg. rewrite forallb_forall in Hg.
      specialize (Hg fd Hin). rewrite Ek in Hg. exists g'. split; [assumption|]. split; lia.
    + apply sat_ret; exact I.
  - (* marshalList *)
    intros exp e l Hw Hd Hty Hn. cbn [list_r]. cbv zeta.
    assert (forall j, 0 <= j < list_len l -> p_valid l = true /\ 0 <= p_depth l /\
              (nf = true -> dflt_total /\ K * p_depth l + Z.of_nat G + 1 <= Z.of_nat f)) as Hv.
    { intros j Hj. apply list_len_valid in Hj. destruct Hj as [V _]. split; [assumption|].
      split; [apply Hd; assumption|]. intros Hnf. destruct (Hn Hnf) as (Hdt & _ & H). specialize (H V).
      split; [assumption|lia]. }
    assert (forall n, 0 <= n -> forall j, 0 <= j < 0 + Z.of_nat (len_nat l) ->
              sat nf (acc l (list_uint_at (fx_upgrade fx) m l j n)) (fun _ => True)) as Hu.
    { intros n Hn0 j Hj. apply list_len_idx in Hj. apply sat_acc; [apply Hw|].
      eapply res_sat_weaken; [apply list_uint_at_safe; auto|intros; exact I]. }
    destruct e; cbn [ty_ok] in Hty.
    + apply sat_ret; exact I.
    + eapply sat_map. apply sat_for_each. intros j Hj.
      apply list_len_idx in Hj. apply sat_acc; [apply Hw|]. rewrite Hbit. apply res_nopanic_sat.
      apply bitlist_at_safe; auto.
    + eapply sat_map. apply sat_for_each. apply Hu. apply width_div; assumption.
    + eapply sat_map. apply sat_for_each. apply Hu. apply width_div; assumption.
    + eapply sat_map. apply sat_for_each. apply Hu. apply fwidth_div; assumption.
    + eapply sat_map. apply sat_for_each. intros j Hj.
      apply list_len_idx in Hj. apply sat_bytes_elem; assumption.
    + eapply sat_map. apply sat_for_each. intros j Hj.
      apply list_len_idx in Hj. apply sat_bytes_elem; assumption.
    + (* list of lists *)
      eapply sat_map. apply sat_for_each. intros j Hj.
      apply list_len_idx in Hj. destruct (Hv j Hj) as (Vl & Hdl & Hfu).
      eapply sat_bind; [apply sat_ptr_elem; assumption|]. intros q [Hq Hdq].
      apply IHl; [apply wf_list_as_list; assumption| |assumption|].
      * intros V. apply as_list_valid in V. destruct V as [-> V]. destruct (Hdq V) as (_ & _ & H). lia.
      * intros Hnf. destruct (Hfu Hnf) as [Hdt Hf]. split; [assumption|]. unfold K in *. split; [nia|].
        intros V. apply as_list_valid in V. destruct V as [-> V]. destruct (Hdq V) as (_ & H1 & H2). nia.
    + (* enums *)
      eapply sat_map. apply sat_for_each. intros j Hj.
      eapply sat_bind; [apply Hu; [lia|assumption]|]. intros v _. apply sat_enum_lenient.
    + (* list of structs *)
      eapply sat_map. apply sat_for_each. intros j Hj.
      apply list_len_idx in Hj. destruct (Hv j Hj) as (Vl & Hdl & Hfu).
      eapply sat_bind with (Q := fun q => wf_struct m q /\
          (p_valid q = true -> 0 <= p_depth q /\ (p_depth q <= p_depth l - 1 \/ (p_depth l = 0 /\ p_depth q = 0)))).
      { apply sat_acc; [apply Hw|]. pose proof (list_struct_safe (fx_depth fx) m l j Hm Hw Hj) as Hs.
        rewrite Hdepth in *. destruct (list_struct true l j) as [q| |] eqn:E; cbn [res_sat] in *; auto.
        split; [assumption|]. intros V. destruct (list_struct_depth' l j q Hdl E V) as (_ & H1 & H2). auto. }
      intros q [Hwq Hdq]. apply IHs; [assumption|intros V; apply (Hdq V)|].
      intros Hnf. destruct (Hfu Hnf) as [Hdt Hf]. split; [assumption|].
      exists G. split; [apply wf_grp|]. split; [lia|]. unfold dep, K in *.
      destruct (p_valid q); [destruct (Hdq eq_refl) as [H0 [H1|[H1 H2]]]; nia|nia].
    + (* interfaces *)
      eapply sat_map. apply sat_for_each with (P := fun _ => True). intros j Hj.
      apply list_len_idx in Hj. destruct (Hv j Hj) as (Vl & Hdl & Hfu).
      eapply sat_bind; [apply sat_ptr_elem; assumption|]. intros q _. apply sat_ret; exact I.
    + apply sat_ret; exact I.
Qed.


Definition final_ok (rl : Z) (s : rst) : Prop :=
  Forall (wf_ptr m) (r_log s) /\ 0 <= r_rl s /\ 0 <= r_h s /\ 0 <= r_d s /\ r_rl s + r_h s <= rl.

Lemma shown_r_sat nf fuel id p rl D :
  wf_ptr m p -> (p_valid p = true -> 0 <= p_depth p) -> 0 <= rl ->
  (nf = true -> dflt_total /\ (fuel_for G D <= fuel)%nat /\ (p_valid p = true -> p_depth p <= D) /\ 0 <= D) ->
  let r := shown_r ffmt sc c fx m rd rdl fuel id p rl in
  final_ok rl (snd r) /\
  match fst r with ROk _ => True | RErr => True | RPanic => False | RFuel => nf = false end.
Proof.
  intros Hw Hd Hrl Hn. unfold shown_r.
  assert (dok (as_struct p)) as Hd'.
  { intros V. apply as_struct_valid in V. destruct V as [-> V]. auto. }
  destruct (walk_sat nf fuel) as [Ws _].
  specialize (Ws [] id (as_struct p) (wf_struct_as_struct m p Hw) Hd').
  assert (need_s nf fuel id (as_struct p)) as Hns.
  { intros Hnf. destruct (Hn Hnf) as (Hdt & Hf & Hpd & HD). split; [assumption|].
    exists G. split; [apply wf_grp|]. split; [lia|]. unfold fuel_for in Hf. unfold dep, K.
    destruct (p_valid (as_struct p)) eqn:V.
    - apply as_struct_valid in V. destruct V as [E V]. rewrite E. specialize (Hpd V). specialize (Hd V). nia.
    - nia. }
  assert (inv (mkRst rl 0 0 [])) as Hi by (split; cbn [r_rl r_log]; [assumption|constructor]).
  specialize (Ws Hns (mkRst rl 0 0 []) Hi). cbv zeta.
  destruct Ws as [[[I1 I2] [S2 [S3 S4]]] R].
  cbn [r_rl r_h r_d] in *. split; [|exact R]. unfold final_ok. repeat split; try assumption; lia.
Qed.
End Proofs.

Section Top.
Variable ffmt : Z -> Z -> list Z.
Variable sc : TM.schema.
Variable c : config.
Variable fx : fixes.
Variable m : segs.
Variable rd : list Z -> Z -> TM.rval -> TM.res TS.tval.
Variable rdl : list Z -> TM.ty -> TM.rval -> TM.res TS.tval.

(* standing hypotheses: the message is a list of byte segments of admissible length; the
   repaired reader (as C01 / C02); a well-formed schema; the receiver is a pointer the reader
   handed out (well-formed, unsigned depth limit) *)
Definition std_hyps (G : nat) (p : Ptr) (rl : Z) : Prop :=
  msg_ok m /\ cfg_strict c = true /\ fx_bit fx = true /\ fx_depth fx = true /\
  schema_wf G sc = true /\ (1 <= G)%nat /\
  wf_ptr m p /\ (p_valid p = true -> 0 <= p_depth p) /\ 0 <= rl.

Lemma render_fst fuel id p rl :
  fst (render_r ffmt sc c fx m rd rdl fuel id p rl) =
  match fst (shown_r ffmt sc c fx m rd rdl fuel id p rl) with
  | ROk t => ROk (TM.print t) | RErr => RErr | RPanic => RPanic | RFuel => RFuel end.
Proof. unfold render_r. destruct (shown_r _ _ _ _ _ _ _ _ _ _ _) as [[| | |] s]; reflexivity. Qed.
Lemma render_snd fuel id p rl :
  snd (render_r ffmt sc c fx m rd rdl fuel id p rl) = snd (shown_r ffmt sc c fx m rd rdl fuel id p rl).
Proof. unfold render_r. destruct (shown_r _ _ _ _ _ _ _ _ _ _ _) as [[| | |] s]; reflexivity. Qed.

(* all segment bytes, all well-formed schemas, all limits, ALL fuel *)
Theorem render_r_no_panic G fuel id p rl : std_hyps G p rl ->
  fst (render_r ffmt sc c fx m rd rdl fuel id p rl) <> RPanic.
Proof.
  intros (H1 & H2 & H3 & H4 & H5 & H6 & H7 & H8 & H9).
  pose proof (shown_r_sat ffmt sc c fx m rd rdl G H1 H2 H3 H4 H5 H6 false fuel id p rl 0 H7 H8 H9
                ltac:(discriminate)) as [_ R].
  rewrite render_fst. destruct (fst (shown_r _ _ _ _ _ _ _ _ _ _ _)); try discriminate. contradiction.
Qed.

(* every Core accessor call made during the walk has a well-formed receiver; the budget never
   goes negative, and budget left + bytes handed out <= budget at the start *)
Theorem render_r_reads_wf_budget G fuel id p rl : std_hyps G p rl ->
  let s := snd (render_r ffmt sc c fx m rd rdl fuel id p rl) in
  Forall (wf_ptr m) (r_log s) /\ 0 <= r_rl s /\ 0 <= r_h s /\ 0 <= r_d s /\ r_rl s + r_h s <= rl.
Proof.
  intros (H1 & H2 & H3 & H4 & H5 & H6 & H7 & H8 & H9).
  pose proof (shown_r_sat ffmt sc c fx m rd rdl G H1 H2 H3 H4 H5 H6 false fuel id p rl 0 H7 H8 H9
                ltac:(discriminate)) as [F _].
  cbv zeta. rewrite render_snd. exact F.
Qed.

(* fuel_for G D suffices on every message, cyclic ones included, for a receiver whose depth
   limit is at most D - PROVIDED the walks of the schema's own default values are total
   (dflt_total: TextM's walk over the trusted schema message; not proved here) *)
Theorem render_r_no_fuel_partial G D fuel id p rl : std_hyps G p rl ->
  dflt_total rd rdl -> 0 <= D -> (p_valid p = true -> p_depth p <= D) -> (fuel_for G D <= fuel)%nat ->
  fst (render_r ffmt sc c fx m rd rdl fuel id p rl) <> RFuel.
Proof.
  intros (H1 & H2 & H3 & H4 & H5 & H6 & H7 & H8 & H9) Hdt HD Hp Hf.
  pose proof (shown_r_sat ffmt sc c fx m rd rdl G H1 H2 H3 H4 H5 H6 true fuel id p rl D H7 H8 H9
                (fun _ => conj Hdt (conj Hf (conj Hp HD)))) as [_ R].
  rewrite render_fst. destruct (fst (shown_r _ _ _ _ _ _ _ _ _ _ _)); try discriminate.
Qed.
End Top.
