(* Proofs about the rendering model (TextM.v) against the independent reader (TextSpec.v):
   reading back what is printed, and the encoder's independence of its history. *)
From CV Require Import Text.Strquote Text.TextSpec Text.StrquoteProofs Text.TextM.
From Coq Require Import Decimal DecimalPos DecimalZ ZifyBool ZifyNat.
Open Scope Z_scope.

Definition name_ok (n : list Z) : Prop := n <> [] /\ forallb is_idchar n = true.
Definition ident_ok (n : list Z) : Prop :=
  forallb is_idchar n = true /\ exists c r, n = c :: r /\ is_alpha c = true.

(* the float-free fragment *)
Fixpoint wf_tval (t : tval) : Prop :=
  match t with
  | TvVoid | TvBool _ | TvInt _ => True
  | TvFloat _ | TvData _ => False
  | TvStr s => bytes_ok s
  | TvIdent n => ident_ok n /\ ident_value n = TvIdent n
  | TvMarker m => m = marker_cap \/ m = marker_any
  | TvList l => wf_tvals l
  | TvStruct fs => wf_tfields fs
  end
with wf_tvals (l : tvals) : Prop :=
  match l with TNil => True | TCons v r => wf_tval v /\ wf_tvals r end
with wf_tfields (fs : tfields) : Prop :=
  match fs with FNil => True | FCons n v r => name_ok n /\ wf_tval v /\ wf_tfields r end.

Fixpoint msize (t : tval) : nat :=
  match t with
  | TvList l => S (msl l)
  | TvStruct fs => S (msf fs)
  | _ => 1%nat
  end
with msl (l : tvals) : nat :=
  match l with TNil => O | TCons v r => S (msize v + msl r) end
with msf (fs : tfields) : nat :=
  match fs with FNil => O | FCons _ v r => S (msize v + msf r) end.

Scheme tval_mind := Induction for tval Sort Prop
  with tvals_mind := Induction for tvals Sort Prop
  with tfields_mind := Induction for tfields Sort Prop.
Combined Scheme tval_mutind from tval_mind, tvals_mind, tfields_mind.

(* what may follow a value: nothing, or ',' ')' ']' *)
Definition ends_token (rest : list Z) : Prop :=
  match rest with [] => True | c :: _ => c = 44 \/ c = 41 \/ c = 93 end.

Lemma span_app : forall p a b, forallb p a = true ->
  match b with [] => True | c :: _ => p c = false end ->
  span p (a ++ b) = (a, b).
Proof.
  induction a as [|x a IH]; intros b Ha Hb; simpl in *.
  - destruct b as [|c b]; [reflexivity|]. simpl. now rewrite Hb.
  - apply andb_true_iff in Ha. destruct Ha as [Hx Ha]. rewrite Hx, (IH b Ha Hb). reflexivity.
Qed.

Lemma ends_token_head : forall (p : Z -> bool) rest, ends_token rest ->
  p 44 = false -> p 41 = false -> p 93 = false ->
  match rest with [] => True | c :: _ => p c = false end.
Proof.
  intros p [|c r] H H1 H2 H3; [exact I|]. simpl in H. destruct H as [->|[->| ->]]; assumption.
Qed.

Lemma skip_ws_nonblank : forall c r, is_blank c = false -> skip_ws (c :: r) = c :: r.
Proof. intros c r H. simpl. now rewrite H. Qed.

Lemma parse_value_blank : forall fuel l, parse_value fuel (32 :: l) = parse_value fuel l.
Proof. intros [|f] l; reflexivity. Qed.

Lemma parse_elems_blank : forall fuel l, parse_elems fuel (32 :: l) = parse_elems fuel l.
Proof. intros [|f] l; [reflexivity|]. cbn [parse_elems]. now rewrite parse_value_blank. Qed.

Lemma parse_fields_blank : forall fuel l, parse_fields fuel (32 :: l) = parse_fields fuel l.
Proof. intros [|f] l; reflexivity. Qed.

Lemma skip_ws_eq_sign : forall x, skip_ws (eq_sign ++ x) = 61 :: 32 :: x.
Proof. reflexivity. Qed.

Lemma uint_of_digits_bytes : forall u, uint_of_digits (uint_bytes u) = Some u.
Proof. induction u; simpl; try rewrite IHu; reflexivity. Qed.

Lemma uint_bytes_numchar : forall u, forallb is_numchar (uint_bytes u) = true.
Proof. induction u; simpl; try rewrite IHu; reflexivity. Qed.

Lemma uint_bytes_head : forall u, u <> Nil ->
  exists c r, uint_bytes u = c :: r /\ is_digit c = true.
Proof. destruct u; intros H; try congruence; simpl; eexists; eexists; split; reflexivity. Qed.

Lemma print_int_numchar : forall z, forallb is_numchar (print_int z) = true.
Proof.
  intros z. unfold print_int. destruct (Z.to_int z); simpl; apply uint_bytes_numchar.
Qed.

Lemma to_int_nonnil : forall z, match Z.to_int z with Pos u => u <> Nil | Neg u => u <> Nil end.
Proof.
  destruct z; simpl; try apply Unsigned.to_uint_nonnil. discriminate.
Qed.

Lemma print_int_head : forall z, exists c r, print_int z = c :: r /\ (is_digit c = true \/ c = 45).
Proof.
  intros z. unfold print_int. pose proof (to_int_nonnil z) as H. destruct (Z.to_int z) as [u|u].
  - destruct (uint_bytes_head u H) as (c & r & E & D). exists c, r. split; [assumption|now left].
  - eexists; eexists. split; [reflexivity|now right].
Qed.

Lemma number_of_print_int : forall z, number_of_token (print_int z) = TvInt z.
Proof.
  intros z. unfold print_int. pose proof (to_int_nonnil z) as H. pose proof (DecimalZ.of_to z) as R.
  destruct (Z.to_int z) as [u|u].
  - destruct (uint_bytes_head u H) as (c & r & E & D). unfold number_of_token. rewrite E.
    assert (Hc : (c =? 45) = false) by (unfold is_digit in D; lia). rewrite Hc. cbn [andb].
    rewrite <- E, uint_of_digits_bytes. simpl in R. now rewrite R.
  - destruct (uint_bytes_head u H) as (c & r & E & D). unfold number_of_token.
    change (45 =? 45) with true. rewrite E. cbn [length Nat.eqb negb andb].
    rewrite <- E, uint_of_digits_bytes. simpl in R. now rewrite R.
Qed.

Lemma alpha_not_special : forall c, is_alpha c = true ->
  (c =? 40) = false /\ (c =? 91) = false /\ (c =? 34) = false /\ (c =? 60) = false /\
  (c =? 48) = false /\ is_digit c = false /\ (c =? 45) = false /\ (c =? 43) = false /\ is_blank c = false.
Proof. intros c H. unfold is_alpha in H. unfold is_digit, is_blank. lia. Qed.

Lemma starts_hexlit_false : forall c r, (c =? 48) = false -> starts_hexlit c r = false.
Proof. intros c [|a [|b r]] H; simpl; try reflexivity. now rewrite H. Qed.

Lemma starts_hexlit_inv : forall c l, starts_hexlit c l = true -> exists l', l = 120 :: 34 :: l'.
Proof.
  intros c [|a [|b l]] H; cbn [starts_hexlit] in H; try discriminate.
  exists l. f_equal; [|f_equal]; lia.
Qed.

Lemma parse_ident_token : forall name rest fuel, ident_ok name -> ends_token rest ->
  parse_value (S fuel) (name ++ rest) = Some (ident_value name, rest).
Proof.
  intros name rest fuel [Hall (c & r & -> & Hc)] He.
  destruct (alpha_not_special c Hc) as (H1 & H2 & H3 & H4 & H5 & H6 & H7 & H8 & H9).
  cbn [List.app parse_value]. rewrite (skip_ws_nonblank _ _ H9). cbv beta iota.
  rewrite H1, H2, H3, H4, (starts_hexlit_false _ _ H5), H6, H7, H8, Hc. cbn [orb].
  change (c :: r ++ rest) with ((c :: r) ++ rest).
  rewrite (span_app is_idchar (c :: r) rest Hall); [reflexivity|].
  apply ends_token_head; [assumption|reflexivity..].
Qed.

(* a digit or '-' opens none of the bracketed forms *)
Lemma digit_not_special : forall c, is_digit c = true \/ c = 45 ->
  (c =? 40) = false /\ (c =? 91) = false /\ (c =? 34) = false /\ (c =? 60) = false /\
  is_digit c || (c =? 45) || (c =? 43) = true /\ is_blank c = false.
Proof. intros c H. unfold is_digit, is_blank in *. lia. Qed.

Lemma kw_ident_ok : forall n, In n [kw_void; kw_true; kw_false] -> ident_ok n.
Proof.
  intros n [<-|[<-|[<-|[]]]]; (split; [reflexivity|]; eexists; eexists; split; reflexivity).
Qed.

Lemma parse_int_token : forall z rest fuel, ends_token rest ->
  parse_value (S fuel) (print_int z ++ rest) = Some (TvInt z, rest).
Proof.
  intros z rest fuel He.
  destruct (print_int_head z) as (c & r & E & Hc).
  pose proof (print_int_numchar z) as Hn. pose proof (number_of_print_int z) as Hv.
  rewrite E in *. destruct (digit_not_special c Hc) as (H1 & H2 & H3 & H4 & H6 & Hb).
  cbn [List.app parse_value]. rewrite (skip_ws_nonblank _ _ Hb). cbv beta iota.
  rewrite H1, H2, H3, H4.
  (* no 0x-literal starts here: the token holds no quote and what follows it is , ) ] or nothing *)
  assert (H5 : starts_hexlit c (r ++ rest) = false).
  { destruct (starts_hexlit c (r ++ rest)) eqn:E5; [|reflexivity].
    apply starts_hexlit_inv in E5. destruct E5 as [l' E5].
    destruct r as [|a [|b r]]; cbn [List.app] in E5.
    - subst rest. cbn in He. lia.
    - injection E5 as -> ->. cbn in He. lia.
    - injection E5 as -> -> _. cbn [forallb] in Hn. change (is_numchar 34) with false in Hn. lia. }
  rewrite H5, H6.
  change (c :: r ++ rest) with ((c :: r) ++ rest).
  rewrite (span_app is_numchar (c :: r) rest Hn); [now rewrite Hv|].
  apply ends_token_head; [assumption|reflexivity..].
Qed.

Lemma parse_str_token : forall s rest fuel, bytes_ok s ->
  parse_value (S fuel) (quote s ++ rest) = Some (TvStr s, rest).
Proof.
  intros s rest fuel Hs. rewrite quote_eq. unfold quote_gen.
  cbn [List.app parse_value]. rewrite skip_ws_nonblank by reflexivity. cbv beta iota.
  change (34 =? 40) with false. change (34 =? 91) with false. change (34 =? 34) with true. cbv iota.
  rewrite <- app_assoc. change ([34] ++ rest) with (34 :: rest). now rewrite parse_quote_body.
Qed.

Lemma parse_marker_token : forall m rest fuel, m = marker_cap \/ m = marker_any ->
  parse_value (S fuel) (m ++ rest) = Some (TvMarker m, rest).
Proof. intros m rest fuel [->| ->]; reflexivity. Qed.

Lemma print_head : forall t, wf_tval t ->
  exists c r, print t = c :: r /\ is_blank c = false /\ c <> 93 /\ c <> 41.
Proof.
  intros t H. destruct t; simpl in H; try contradiction.
  - eexists; eexists; repeat split; try reflexivity; discriminate.
  - destruct b; eexists; eexists; repeat split; try reflexivity; discriminate.
  - destruct (print_int_head z) as (c & r & E & Hc). exists c, r. simpl. split; [assumption|].
    unfold is_digit, is_blank in *. lia.
  - simpl. rewrite quote_eq. unfold quote_gen. eexists; eexists; repeat split; try reflexivity; discriminate.
  - destruct H as [[_ (c & r & -> & Hc)] _]. exists c, r. simpl. split; [reflexivity|].
    unfold is_alpha, is_blank in *. lia.
  - destruct H as [->| ->]; eexists; eexists; repeat split; try reflexivity; discriminate.
  - eexists; eexists; repeat split; try reflexivity; discriminate.
  - eexists; eexists; repeat split; try reflexivity; discriminate.
Qed.

Lemma name_head : forall n, name_ok n -> exists c q, n = c :: q /\ is_blank c = false /\ c <> 41.
Proof.
  intros [|c q] [Hne Hall]; [congruence|]. exists c, q. split; [reflexivity|].
  cbn [forallb] in Hall. unfold is_idchar, is_alpha, is_digit, is_blank in *. lia.
Qed.

Definition P_val (t : tval) : Prop := wf_tval t -> forall fuel rest,
  (msize t < fuel)%nat -> ends_token rest -> parse_value fuel (print t ++ rest) = Some (t, rest).
Definition P_elems (l : tvals) : Prop := wf_tvals l -> forall fuel rest,
  (msl l < fuel)%nat ->
  match l with
  | TNil => True
  | TCons v r => parse_elems fuel (print v ++ print_elems false r ++ 93 :: rest) = Some (l, rest)
  end.
Definition P_fields (fs : tfields) : Prop := wf_tfields fs -> forall fuel rest,
  (msf fs < fuel)%nat ->
  match fs with
  | FNil => True
  | FCons n v r => parse_fields fuel (n ++ eq_sign ++ print v ++ print_fields false r ++ 41 :: rest) = Some (fs, rest)
  end.

Lemma parse_print_all :
  (forall t, P_val t) /\ (forall l, P_elems l) /\ (forall fs, P_fields fs).
Proof.
  apply tval_mutind; unfold P_val, P_elems, P_fields.
  - (* void *) intros _ [|f] rest Hf He; [simpl in Hf; lia|].
    apply (parse_ident_token kw_void); [apply kw_ident_ok; cbn; auto|assumption].
  - (* bool *) intros b _ [|f] rest Hf He; [simpl in Hf; lia|].
    destruct b.
    + apply (parse_ident_token kw_true); [apply kw_ident_ok; cbn; auto|assumption].
    + apply (parse_ident_token kw_false); [apply kw_ident_ok; cbn; auto|assumption].
  - (* int *) intros z _ [|f] rest Hf He; [simpl in Hf; lia|]. now apply parse_int_token.
  - (* float *) intros tok H; contradiction.
  - (* str *) intros s H [|f] rest Hf He; [simpl in Hf; lia|]. now apply parse_str_token.
  - (* data *) intros s H; contradiction.
  - (* ident *) intros n [H1 H2] [|f] rest Hf He; [simpl in Hf; lia|].
    cbn [print]. rewrite (parse_ident_token n rest f H1 He). now rewrite H2.
  - (* marker *) intros m H [|f] rest Hf He; [simpl in Hf; lia|]. now apply parse_marker_token.
  - (* list *) intros l IH H [|f] rest Hf He; [simpl in Hf; lia|].
    simpl in H, Hf. cbn [print List.app parse_value]. rewrite skip_ws_nonblank by reflexivity. cbv beta iota.
    change (91 =? 40) with false. change (91 =? 91) with true. cbv iota.
    destruct l as [|v r].
    + reflexivity.
    + cbn [print_elems]. destruct H as [Hv Hr].
      destruct (print_head v Hv) as (c & q & E & Hb & H93 & H41).
      rewrite <- !app_assoc. rewrite E. rewrite !app_nil_l, <- !app_comm_cons.
      rewrite (skip_ws_nonblank _ _ Hb). cbv beta iota.
      destruct (Z.eqb_spec c 93); [contradiction|].
      match goal with |- context [parse_elems f ?x] =>
        change x with ((c :: q) ++ print_elems false r ++ 93 :: rest) end.
      rewrite <- E. rewrite (IH (conj Hv Hr) f rest); [reflexivity|lia].
  - (* struct *) intros fs IH H [|f] rest Hf He; [simpl in Hf; lia|].
    simpl in H, Hf. cbn [print List.app parse_value]. rewrite skip_ws_nonblank by reflexivity. cbv beta iota.
    change (40 =? 40) with true. cbv iota.
    destruct fs as [|n v r].
    + reflexivity.
    + cbn [print_fields]. destruct H as [Hn [Hv Hr]].
      destruct (name_head n Hn) as (c & q & -> & Hb & H41).
      rewrite <- !app_assoc. rewrite !app_nil_l, <- !app_comm_cons.
      rewrite (skip_ws_nonblank _ _ Hb). cbv beta iota.
      destruct (Z.eqb_spec c 41); [contradiction|].
      match goal with |- context [parse_fields f ?x] =>
        change x with ((c :: q) ++ eq_sign ++ print v ++ print_fields false r ++ 41 :: rest) end.
      rewrite (IH (conj Hn (conj Hv Hr)) f rest); [reflexivity|lia].
  - (* TNil *) intros; exact I.
  - (* TCons *) intros v IHv r IHr [Hv Hr] [|f] rest Hf; [simpl in Hf; lia|]. simpl in Hf.
    cbn [parse_elems]. destruct r as [|v' r']; cbn [print_elems List.app].
    + rewrite (IHv Hv f (93 :: rest)); [reflexivity|lia|cbn; tauto].
    + unfold sep. rewrite <- !app_assoc. cbn [List.app].
      rewrite (IHv Hv f (44 :: 32 :: _)); [|lia|cbn; tauto].
      rewrite skip_ws_nonblank by reflexivity. cbv beta iota.
      change (44 =? 93) with false. change (44 =? 44) with true. cbv iota.
      rewrite parse_elems_blank, (IHr Hr f rest); [reflexivity|lia].
  - (* FNil *) intros; exact I.
  - (* FCons *) intros n v IHv r IHr [Hn [Hv Hr]] [|f] rest Hf; [simpl in Hf; lia|]. simpl in Hf.
    cbn [parse_fields].
    destruct (name_head n Hn) as (c0 & q0 & -> & Hb & _). destruct Hn as [_ Hn2].
    rewrite <- !app_comm_cons. rewrite (skip_ws_nonblank _ _ Hb).
    match goal with |- context [span is_idchar ?x] =>
      change x with ((c0 :: q0) ++ eq_sign ++ print v ++ print_fields false r ++ 41 :: rest) end.
    rewrite (span_app is_idchar (c0 :: q0) _ Hn2); [|reflexivity]. cbv beta iota.
    rewrite skip_ws_eq_sign. cbv beta iota.
    change (61 =? 61) with true. cbn [negb]. rewrite parse_value_blank.
    destruct r as [|n' v' r']; cbn [print_fields List.app].
    + rewrite (IHv Hv f (41 :: rest)); [reflexivity|lia|cbn; tauto].
    + unfold sep. rewrite <- !app_assoc. cbn [List.app].
      rewrite (IHv Hv f (44 :: 32 :: _)); [|lia|cbn; tauto].
      rewrite skip_ws_nonblank by reflexivity. cbv beta iota.
      change (44 =? 41) with false. change (44 =? 44) with true. cbv iota.
      rewrite parse_fields_blank, (IHr Hr f rest); [reflexivity|lia].
Qed.

Lemma print_length : forall t, wf_tval t -> (1 <= length (print t))%nat.
Proof. intros t H. destruct (print_head t H) as (c & r & E & _). rewrite E. simpl. lia. Qed.

Lemma msize_le_print :
  (forall t, wf_tval t -> (msize t <= length (print t))%nat) /\
  (forall l, wf_tvals l -> forall b : bool, (msl l <= length (print_elems b l) + (if b then 1 else 0))%nat) /\
  (forall fs, wf_tfields fs -> forall b : bool, (msf fs <= length (print_fields b fs) + (if b then 1 else 0))%nat).
Proof.
  apply tval_mutind.
  (* a leaf of the fragment has size 1 and prints at least one byte *)
  1-8: intros; first [contradiction|now apply print_length].
  - intros l IH H. cbn [msize print wf_tval] in *. specialize (IH H true). cbv beta iota in IH.
    cbn [length]. rewrite app_length. cbn [length]. lia.
  - intros fs IH H. cbn [msize print wf_tval] in *. specialize (IH H true). cbv beta iota in IH.
    cbn [length]. rewrite app_length. cbn [length]. lia.
  - intros _ b. cbn [msl]. lia.
  - intros v IHv r IHr [Hv Hr] b. cbn [msl print_elems]. rewrite !app_length.
    specialize (IHv Hv). specialize (IHr Hr false). destruct b; cbn [length sep] in *; lia.
  - intros _ b. cbn [msf]. lia.
  - intros n v IHv r IHr [[Hn _] [Hv Hr]] b. cbn [msf print_fields]. rewrite !app_length.
    specialize (IHv Hv). specialize (IHr Hr false). destruct b; cbn [length sep] in *; lia.
Qed.

(* every printed value of the float-free fragment is read back exactly, with nothing left *)
Theorem parse_print : forall t, wf_tval t -> parse_text (print t) = Some t.
Proof.
  intros t H. unfold parse_text.
  destruct parse_print_all as [PV _].
  pose proof (PV t H (S (length (print t))) [] ) as E. rewrite app_nil_r in E.
  rewrite E; [reflexivity| |exact I].
  destruct msize_le_print as [M _]. specialize (M t H). lia.
Qed.

Corollary print_injective : forall t1 t2, wf_tval t1 -> wf_tval t2 -> print t1 = print t2 -> t1 = t2.
Proof.
  intros t1 t2 H1 H2 E. pose proof (parse_print t1 H1) as P1. rewrite E, (parse_print t2 H2) in P1.
  now inversion P1.
Qed.

Lemma find_fixed : forall c sc st, c_fixed c = true -> s_load sc <= c_limit0 c ->
  find c sc st = Ok (tt, Some (c_reset c)).
Proof.
  intros c sc st Hf Hl. unfold find. rewrite Hf.
  destruct st; [reflexivity|]. destruct (Z.leb_spec (s_load sc) (c_limit0 c)); [reflexivity|lia].
Qed.

(* with the fix, the first thing marshalStruct does (Find) puts the cache into a state that
   does not depend on what was there: the whole walk is the same function of the value *)
Lemma shown_struct_state_irrelevant : forall ffmt c sc, c_fixed c = true -> s_load sc <= c_limit0 c ->
  forall fuel exp id d ps st1 st2,
  shown_struct ffmt c sc fuel exp id d ps st1 = shown_struct ffmt c sc fuel exp id d ps st2.
Proof.
  intros ffmt c sc Hf Hl fuel exp id d ps st1 st2. destruct fuel as [|f]; [reflexivity|].
  cbn [shown_struct].
  unfold bind at 1. symmetry. unfold bind at 1.
  rewrite !(find_fixed c sc _ Hf Hl). reflexivity.
Qed.

(* what Encode / EncodeList write is a function of the walk's result; the cache they started
   from is kept only as the cache after an OutOfFuel *)
Lemma fst_outcome : forall (r : res (tval * cache)) st1 st2,
  fst (match r with Ok (t, st') => (Ok (print t), st') | Err e => (Err e, Some 0) | OutOfFuel => (OutOfFuel, st1) end)
  = fst (match r with Ok (t, st') => (Ok (print t), st') | Err e => (Err e, Some 0) | OutOfFuel => (OutOfFuel, st2) end).
Proof. intros [[t s]|e|] st1 st2; reflexivity. Qed.

Theorem encode_state_irrelevant : forall ffmt c sc fuel id v st,
  c_fixed c = true -> s_load sc <= c_limit0 c ->
  fst (encode ffmt c sc fuel id v st) = fst (encode ffmt c sc fuel id v None).
Proof.
  intros ffmt c sc fuel id v st Hf Hl. unfold encode. destruct (as_struct v) as [d ps].
  rewrite (shown_struct_state_irrelevant ffmt c sc Hf Hl fuel [] id d ps st None). apply fst_outcome.
Qed.

(* Encode after any history of Encodes (of any values) on the same encoder writes what a
   fresh encoder writes: encode_state_irrelevant at the state that history leaves *)
Theorem encode_history_independent : forall ffmt c sc fuel hist id v,
  c_fixed c = true -> s_load sc <= c_limit0 c ->
  fst (encode ffmt c sc fuel id v (run_history ffmt c sc fuel hist None))
  = fst (encode ffmt c sc fuel id v None).
Proof. intros. now apply encode_state_irrelevant. Qed.

(* the n-th Encode of the same value equals the first, for every n: encode_state_irrelevant at
   the state n Encodes leave *)
Corollary encode_nth_eq_first : forall ffmt c sc fuel id v n,
  c_fixed c = true -> s_load sc <= c_limit0 c ->
  fst (encode ffmt c sc fuel id v (encode_again ffmt c sc fuel id v n None))
  = fst (encode ffmt c sc fuel id v None).
Proof. intros. now apply encode_state_irrelevant. Qed.

(* without the fix of F10 (cfg_prefix): a struct with one Void field; read sizes as measured on a
   real schema (field list 56, name 2, Type 32, Value 24 bytes; 114 bytes per Encode).  The 64 MiB
   budget of the cached schema message lasts for 588,673 Encodes; the next one fails. *)
Definition ex_schema : schema :=
  mkSchema [(1, NStruct 0 0 56 [mkField [120] 2 65535 (FSlot 0 TVoid 0 RNull 32 24 0)])] 100.
Definition ex_value : rval := RStruct [] [].
Definition no_floats (bits pat : Z) : list Z := [63].

Example encode_first_ok :
  fst (encode no_floats cfg_prefix ex_schema 5 1 ex_value None) = Ok [40; 120; 32; 61; 32; 118; 111; 105; 100; 41].
Proof. vm_compute. reflexivity. Qed.

Lemma charge_ok : forall k b, k <= b -> charge k (Some b) = Ok (tt, Some (b - k)).
Proof. intros k b H. unfold charge. destruct (Z.leb_spec k b); [reflexivity|lia]. Qed.

Lemma encode_again_succ : forall ffmt c sc fuel id v n st,
  encode_again ffmt c sc fuel id v (N.succ n) st
  = snd (encode ffmt c sc fuel id v (encode_again ffmt c sc fuel id v n st)).
Proof. intros. apply N.iter_succ. Qed.

Lemma encode_again_succ_r : forall ffmt c sc fuel id v n st,
  encode_again ffmt c sc fuel id v (N.succ n) st
  = encode_again ffmt c sc fuel id v n (snd (encode ffmt c sc fuel id v st)).
Proof. intros. apply N.iter_succ_r. Qed.

(* on the loaded cache an Encode of the example costs its four schema reads and nothing else *)
Lemma ex_encode_loaded : forall b, 114 <= b ->
  encode no_floats cfg_prefix ex_schema 5 1 ex_value (Some b)
  = (Ok [40; 120; 32; 61; 32; 118; 111; 105; 100; 41], Some (b - 114)).
Proof.
  intros b H. unfold encode, ex_value, as_struct.
  cbn -[charge Z.sub]. unfold bind.
  do 4 (rewrite charge_ok by lia; cbv beta iota).
  cbn. do 2 f_equal. lia.
Qed.

Lemma ex_encode_again_loaded : forall n b, 114 * Z.of_N n <= b ->
  encode_again no_floats cfg_prefix ex_schema 5 1 ex_value n (Some b) = Some (b - 114 * Z.of_N n).
Proof.
  induction n as [|n IH] using N.peano_ind; intros b H.
  - cbn. f_equal. lia.
  - rewrite encode_again_succ, IH, ex_encode_loaded by lia. cbn [snd]. f_equal. lia.
Qed.

(* the first Encode loads the schema (100 bytes of the 64 MiB) and pays like the others *)
Lemma ex_encode_again : forall n, (1 <= n)%N -> 114 * Z.of_N n <= 67108764 ->
  encode_again no_floats cfg_prefix ex_schema 5 1 ex_value n None = Some (67108764 - 114 * Z.of_N n).
Proof.
  intros n H1 H. rewrite <- (N.succ_pred n) in * by lia. rewrite encode_again_succ_r.
  change (snd (encode _ _ _ _ _ _ None)) with (Some (67108764 - 114)).
  rewrite ex_encode_again_loaded by lia. f_equal. lia.
Qed.

Example encode_history_independent_refuted :
  exists n, fst (encode no_floats cfg_prefix ex_schema 5 1 ex_value
                   (encode_again no_floats cfg_prefix ex_schema 5 1 ex_value n None))
            <> fst (encode no_floats cfg_prefix ex_schema 5 1 ex_value None).
Proof. exists 588673%N. rewrite ex_encode_again by lia. vm_compute. discriminate. Qed.

(* the same example on the fixed cache: still fine after as many Encodes *)
Example encode_fixed_example :
  fst (encode no_floats cfg_fixed ex_schema 5 1 ex_value
         (encode_again no_floats cfg_fixed ex_schema 5 1 ex_value 588673%N None))
  = Ok [40; 120; 32; 61; 32; 118; 111; 105; 100; 41].
Proof. rewrite encode_state_irrelevant; [vm_compute; reflexivity|reflexivity|cbn; lia]. Qed.

Fixpoint ty_ff (t : ty) : Prop :=
  match t with TFloat _ => False | TList _ e => ty_ff e | _ => True end.

Fixpoint rval_ok (v : rval) : Prop :=
  match v with
  | RStruct _ ps => (fix go (l : list rval) : Prop := match l with [] => True | p :: r => rval_ok p /\ go r end) ps
  | RPtrs ps => (fix go (l : list rval) : Prop := match l with [] => True | p :: r => rval_ok p /\ go r end) ps
  | RComp es => (fix go (l : list rval) : Prop := match l with [] => True | p :: r => rval_ok p /\ go r end) es
  | RPrim w xs => w = 8 -> bytes_ok xs
  | _ => True
  end.

Lemma rval_ok_go : forall ps,
  (fix go (l : list rval) : Prop := match l with [] => True | p :: r => rval_ok p /\ go r end) ps <-> Forall rval_ok ps.
Proof.
  induction ps as [|p ps IH].
  - split; intros _; [constructor|exact I].
  - split; intros H.
    + destruct H as [Hp Hr]. constructor; [assumption|now apply IH].
    + inversion H; subst. split; [assumption|now apply IH].
Qed.

Definition field_ok (fd : field) : Prop :=
  name_ok (f_name fd) /\
  match f_kind fd with FSlot _ t _ dptr _ _ _ => ty_ff t /\ rval_ok dptr | _ => True end.
Definition enumerant_ok (p : list Z * Z) : Prop := ident_ok (fst p) /\ ident_value (fst p) = TvIdent (fst p).
Definition node_ok (n : node) : Prop :=
  match n with
  | NStruct _ _ _ fields => Forall field_ok fields
  | NEnum _ names => Forall enumerant_ok names
  | NOther => True
  end.
(* a float-free schema whose names are identifiers (enumerants not true/false/void) *)
Definition schema_ok (sc : schema) : Prop := Forall (fun p => node_ok (snd p)) (s_nodes sc).

Lemma lookup_Forall : forall (P : Z * node -> Prop) ns id n,
  Forall P ns -> lookup ns id = Some n -> P (id, n).
Proof.
  induction ns as [|[k m] ns IH]; intros id n H E; simpl in E; [discriminate|].
  inversion H; subst. destruct (Z.eqb_spec k id); [inversion E; subst; assumption|]. now apply IH.
Qed.

(* [Q] holds of the value of every successful run of [x], and [F] holds if a run ends in
   OutOfFuel.  F := True makes it a postcondition; F := False with a trivial Q is [no_oof]. *)
Definition wp {A} (F : Prop) (x : M A) (Q : A -> Prop) : Prop :=
  forall st, match x st with Ok (a, _) => Q a | Err _ => True | OutOfFuel => F end.

Definition no_oof {A} (m : M A) : Prop := forall st, m st <> OutOfFuel.

Lemma no_oof_wp : forall {A} (m : M A), no_oof m <-> wp False m (fun _ => True).
Proof.
  intros A m. split; intros H st; specialize (H st); destruct (m st) as [[a s]|e|]; try exact I; try discriminate.
  - now apply H.
  - contradiction.
Qed.

Lemma wp_post : forall {A} (m : M A) Q st a st', wp True m Q -> m st = Ok (a, st') -> Q a.
Proof. intros A m Q st a st' H E. specialize (H st). now rewrite E in H. Qed.

Lemma wp_ret : forall {A} F (a : A) (Q : A -> Prop), Q a -> wp F (ret a) Q.
Proof. intros A F a Q H st. exact H. Qed.

Lemma wp_fail : forall {A} F e (Q : A -> Prop), wp F (fail e) Q.
Proof. intros A F e Q st. exact I. Qed.

Lemma wp_bind : forall {A B} F (m : M A) (k : A -> M B) (Q : A -> Prop) (P : B -> Prop),
  wp F m Q -> (forall a, Q a -> wp F (k a) P) -> wp F (bind m k) P.
Proof.
  intros A B F m k Q P Hm Hk st. unfold bind. specialize (Hm st).
  destruct (m st) as [[a st']|e|]; [now apply Hk|exact I|exact Hm].
Qed.

Lemma wp_weaken : forall {A} F (m : M A) (Q P : A -> Prop),
  wp F m Q -> (forall a, Q a -> P a) -> wp F m P.
Proof. intros A F m Q P Hm H st. specialize (Hm st). destruct (m st) as [[a st']|e|]; auto. Qed.

Lemma wp_map : forall {A B} F (m : M A) (g : A -> B) (Q : A -> Prop) (P : B -> Prop),
  wp F m Q -> (forall a, Q a -> P (g a)) -> wp F (a <- m ;; ret (g a)) P.
Proof. intros A B F m g Q P Hm H. eapply wp_bind; [exact Hm|]. intros a Ha. apply wp_ret, H, Ha. Qed.

Lemma wp_charge : forall {B} F k (x : M B) P, wp F x P -> wp F (charge k ;; x) P.
Proof.
  intros B F k x P H [b|]; unfold bind, charge; [destruct (k <=? b)|]; try exact I. apply H.
Qed.

Lemma wp_find : forall {B} F c sc (x : M B) P, wp F x P -> wp F (find c sc ;; x) P.
Proof.
  intros B F c sc x P H [b|]; unfold bind, find; [|destruct (s_load sc <=? c_limit0 c)]; try exact I; apply H.
Qed.

Lemma wp_lift : forall {A} F (r : res A), r <> OutOfFuel -> wp F (lift r) (fun a => r = Ok a).
Proof. intros A F r H st. unfold lift. destruct r; [reflexivity|exact I|congruence]. Qed.

Lemma prim_elems_no : forall w l, prim_elems w l <> OutOfFuel.
Proof. intros w l. destruct l; cbn [prim_elems]; try discriminate; [destruct (w0 =? w)|destruct (w =? 1)]; discriminate. Qed.
Lemma ptr_elems_no : forall l, ptr_elems l <> OutOfFuel.
Proof.
  intros l. destruct l; cbn [ptr_elems]; try discriminate.
  - destruct (length xs =? 0)%nat; discriminate.
  - destruct (first_ptrs es); discriminate.
Qed.
Lemma struct_elems_no : forall l, struct_elems l <> OutOfFuel.
Proof. intros l. destruct l; cbn [struct_elems]; try discriminate. destruct (length xs =? 0)%nat; discriminate. Qed.

(* the pointer a list field is shown from: the default when the stored one is unusable *)
Lemma wp_default_ptr : forall F (b : bool) k (d p : rval),
  wp F (if b then charge k ;; ret d else ret p) (fun p' => p' = if b then d else p).
Proof. intros F [|] k d p; [apply wp_charge|]; now apply wp_ret. Qed.

Lemma wp_collect_elems : forall {A} F (step : A -> M tval) (Pv : tval -> Prop) (Pl : tvals -> Prop) l,
  Pl TNil -> (forall v vs, Pv v -> Pl vs -> Pl (TCons v vs)) ->
  (forall x, In x l -> wp F (step x) Pv) -> wp F (collect_elems step l) Pl.
Proof.
  intros A F step Pv Pl l H0 Hc. induction l as [|x r IH]; intros H; cbn [collect_elems].
  - now apply wp_ret.
  - eapply wp_bind; [apply H; now left|]. intros v Hv.
    eapply wp_map; [apply IH; intros; apply H; now right|]. intros vs Hvs. now apply Hc.
Qed.

(* [Pf] is kept by every field a step contributes *)
Lemma wp_collect_fields : forall F (step : field -> M (option tval)) (Pf : tfields -> Prop) fields,
  Pf FNil ->
  (forall fd, In fd fields ->
     wp F (step fd) (fun o => forall fs, Pf fs -> Pf (match o with Some v => FCons (f_name fd) v fs | None => fs end))) ->
  wp F (collect_fields step fields) Pf.
Proof.
  intros F step Pf fields H0. induction fields as [|fd r IH]; intros H; cbn [collect_fields].
  - now apply wp_ret.
  - eapply wp_bind; [apply H; now left|]. intros o Ho.
    eapply wp_map; [apply IH; intros; apply H; now right|exact Ho].
Qed.

Lemma wp_shown_enum : forall F c sc id v (Q : tval -> Prop),
  Q (TvInt v) ->
  (forall ecost names name nc, lookup (s_nodes sc) id = Some (NEnum ecost names) -> In (name, nc) names -> Q (TvIdent name)) ->
  wp F (shown_enum c sc id v) Q.
Proof.
  intros F c sc id v Q Hi Hn. unfold shown_enum. apply wp_find.
  destruct (lookup (s_nodes sc) id) as [[| ecost names |]|] eqn:El; try apply wp_fail.
  apply wp_charge. destruct (Z.of_nat (length names) <=? v); [now apply wp_ret|].
  destruct (nth_error names (Z.to_nat v)) as [[name nc]|] eqn:En; [|apply wp_fail].
  apply wp_charge, wp_ret. eapply Hn; [reflexivity|]. eapply nth_error_In; eassumption.
Qed.

Lemma wp_collect_fields_any : forall F (step : field -> M (option tval)) fields,
  (forall fd, In fd fields -> wp F (step fd) (fun _ => True)) -> wp F (collect_fields step fields) (fun _ => True).
Proof.
  intros F step fields H. apply wp_collect_fields; [exact I|]. intros fd Hin.
  eapply wp_weaken; [now apply H|auto].
Qed.

Lemma wp_collect_elems_any : forall {A} F (step : A -> M tval) l,
  (forall x, In x l -> wp F (step x) (fun _ => True)) -> wp F (collect_elems step l) (fun _ => True).
Proof. intros A F step l. now apply wp_collect_elems. Qed.

Lemma wp_shown_enum_any : forall F c sc id v, wp F (shown_enum c sc id v) (fun _ => True).
Proof. intros. apply wp_shown_enum; intros; exact I. Qed.

Lemma wf_tvals_map : forall {A} (f : A -> tval) l, (forall x, In x l -> wf_tval (f x)) -> wf_tvals (tvals_of (map f l)).
Proof.
  intros A f. induction l as [|x r IH]; intros H; [exact I|].
  split; [apply H; now left|apply IH; intros; apply H; now right].
Qed.

Lemma wf_tvals_repeat : forall v n, wf_tval v -> wf_tvals (tvals_of (repeat v n)).
Proof. intros v n H. induction n; [exact I|now split]. Qed.

Lemma removelast_ok : forall l, bytes_ok l -> bytes_ok (removelast l).
Proof.
  induction 1 as [|x l Hx Hl IH]; simpl; [constructor|]. destruct l; [constructor|]. constructor; assumption.
Qed.

Lemma data_of_ok : forall p b, rval_ok p -> data_of p = Some b -> bytes_ok b.
Proof.
  intros [| d0 pp0 | w xs | ps0 | es0 |] b H E; simpl in E; try discriminate.
  destruct (Z.eqb_spec w 8); [|discriminate]. inversion E; subst. now apply H.
Qed.
Lemma text_of_ok : forall p b, rval_ok p -> text_of p = Some b -> bytes_ok b.
Proof.
  intros [| d0 pp0 | w xs | ps0 | es0 |] b H E; simpl in E; try discriminate.
  destruct (Z.eqb_spec w 8); [|discriminate]. destruct (last xs 1 =? 0); [|discriminate].
  inversion E; subst. apply removelast_ok. now apply H.
Qed.
Lemma data_bytes_ok : forall p, rval_ok p -> bytes_ok (data_bytes p).
Proof.
  intros p H. unfold data_bytes. destruct (data_of p) eqn:E; [eapply data_of_ok; eassumption|constructor].
Qed.
Lemma text_bytes_ok : forall p, rval_ok p -> bytes_ok (text_bytes p).
Proof.
  intros p H. unfold text_bytes. destruct (text_of p) eqn:E; [eapply text_of_ok; eassumption|constructor].
Qed.

Lemma ptr_at_ok : forall ptrs off, Forall rval_ok ptrs -> rval_ok (ptr_at ptrs off).
Proof.
  intros ptrs off H. unfold ptr_at. generalize (Z.to_nat (off mod 65536)) as n.
  induction H as [|p l Hp _ IH]; intros [|n]; simpl; auto.
Qed.

Lemma as_struct_ok : forall p d ps, rval_ok p -> as_struct p = (d, ps) -> Forall rval_ok ps.
Proof.
  intros [| d0 ps0 | w0 xs0 | ps0 | es0 |] d ps H E; simpl in E; inversion E; subst; try constructor.
  now apply rval_ok_go.
Qed.

Lemma first_ptrs_ok : forall es ps, Forall rval_ok es -> first_ptrs es = Some ps -> Forall rval_ok ps.
Proof.
  induction es as [|e es IH]; intros ps H E; simpl in E.
  - inversion E; subst. constructor.
  - inversion H as [|? ? He Hes]; subst.
    destruct e as [| d [|p pp] | | | |]; try discriminate.
    destruct (first_ptrs es) as [ps'|] eqn:E'; [|discriminate]. inversion E; subst.
    constructor; [|now apply IH].
    simpl in He. tauto.
Qed.

Lemma ptr_elems_ok : forall l ps, rval_ok l -> ptr_elems l = Ok ps -> Forall rval_ok ps.
Proof.
  intros [| d0 pp0 | w xs | ps0 | es0 |] ps H E; simpl in E; try (inversion E; subst; constructor).
  - destruct (length xs =? 0)%nat; inversion E; subst; constructor.
  - inversion E; subst. now apply rval_ok_go.
  - destruct (first_ptrs es0) as [ps'|] eqn:E'; [|discriminate]. inversion E; subst.
    eapply first_ptrs_ok; [|eassumption]. now apply rval_ok_go.
Qed.

Lemma struct_elems_ok : forall l ps, rval_ok l -> struct_elems l = Ok ps -> Forall rval_ok ps.
Proof.
  intros [| d0 pp0 | w xs | ps0 | es0 |] ps H E; simpl in E; try (inversion E; subst; constructor).
  - destruct (length xs =? 0)%nat; inversion E; subst; constructor.
  - inversion E; subst. now apply rval_ok_go.
  - inversion E; subst. now apply rval_ok_go.
Qed.

Lemma shown_enum_wf : forall F c sc id v, schema_ok sc -> wp F (shown_enum c sc id v) wf_tval.
Proof.
  intros F c sc id v Hsc. apply wp_shown_enum; [exact I|]. intros ecost names name nc El Hin.
  pose proof (lookup_Forall _ _ _ _ Hsc El) as Hn. cbn [snd node_ok] in Hn.
  rewrite Forall_forall in Hn. exact (Hn _ Hin).
Qed.

Lemma ident_null_ok : wf_tval (TvIdent ident_null).
Proof.
  split; [|reflexivity]. split; [reflexivity|]. eexists; eexists; split; reflexivity.
Qed.

Lemma shown_wf : forall ffmt c sc, schema_ok sc -> forall fuel,
  (forall exp id d ps, Forall rval_ok ps -> wp True (shown_struct ffmt c sc fuel exp id d ps) wf_tval) /\
  (forall exp e l, ty_ff e -> rval_ok l -> wp True (shown_list ffmt c sc fuel exp e l) wf_tval).
Proof.
  intros ffmt c sc Hsc. induction fuel as [|f [IHs IHl]]; [split; intros; intros st; exact I|].
  split.
  - (* marshalStruct *)
    intros exp id d ps Hps. cbn [shown_struct]. apply wp_find.
    destruct (lookup (s_nodes sc) id) as [[dcount doff fcost fields| |]|] eqn:El; try apply wp_fail.
    pose proof (lookup_Forall _ _ _ _ Hsc El) as Hn. cbn [snd node_ok] in Hn. rewrite Forall_forall in Hn.
    apply wp_charge. eapply wp_map; [|intros fs Hfs; exact Hfs].
    apply wp_collect_fields; [exact I|]. intros fd Hin. destruct (Hn fd Hin) as [Hname Hk].
    destruct (f_kind fd) as [off t dflt dptr tcost dvcost dpcost|gid|]; [| |apply wp_ret; auto].
    + (* slot *)
      destruct (negb _); [apply wp_ret; auto|]. destruct Hk as [Hty Hdp].
      do 3 apply wp_charge. eapply wp_map; [|intros v Hv fs Hfs; exact (conj Hname (conj Hv Hfs))].
      pose proof (ptr_at_ok ps off Hps) as Hp. unfold slot_value.
      destruct t as [| |bits|bits|bits| | |ecost e|eid|sid| |]; cbn [ty_ff] in Hty; try (apply wp_ret; exact I).
      * contradiction.
      * (* text *)
        destruct (c_acc c); [apply wp_charge|destruct (is_null (ptr_at ps off)); [apply wp_charge|]];
          apply wp_ret; cbn [wf_tval]; try now apply text_bytes_ok.
        destruct (text_of (ptr_at ps off)) eqn:E; [eapply text_of_ok; eassumption|now apply text_bytes_ok].
      * (* data *)
        destruct (c_acc c); [apply wp_charge|destruct (is_null (ptr_at ps off)); [apply wp_charge|]];
          apply wp_ret; cbn [wf_tval]; try now apply data_bytes_ok.
        destruct (data_of (ptr_at ps off)) eqn:E; [eapply data_of_ok; eassumption|now apply data_bytes_ok].
      * (* list *)
        apply wp_charge. eapply wp_bind; [apply wp_default_ptr|]. intros p' ->.
        apply IHl; [assumption|]. now destruct (if c_acc c then _ else _).
      * (* enum *) now apply shown_enum_wf.
      * (* struct *)
        destruct (if c_acc c then _ else _).
        -- destruct (c_cut c && existsb (Z.eqb sid) exp); [apply wp_ret; exact I|]. apply wp_charge.
           destruct (as_struct dptr) as [d' ps'] eqn:Ea. apply IHs. exact (as_struct_ok _ _ _ Hdp Ea).
        -- destruct (as_struct (ptr_at ps off)) as [d' ps'] eqn:Ea. apply IHs. exact (as_struct_ok _ _ _ Hp Ea).
      * (* interface *) apply wp_ret. destruct (is_null (ptr_at ps off)); [apply ident_null_ok|now left].
      * (* anypointer *) apply wp_ret. now right.
    + (* group *)
      destruct (negb _); [apply wp_ret; auto|]. apply wp_charge.
      eapply wp_map; [now apply IHs|]. intros v Hv fs Hfs. exact (conj Hname (conj Hv Hfs)).
  - (* marshalList *)
    intros exp e l Hty Hl. cbn [shown_list].
    destruct e as [| |bits|bits|bits| | |ecost ee|eid|sid| |]; cbn [ty_ff] in Hty;
      try (eapply wp_map; [apply wp_lift, prim_elems_no|]; intros xs _; apply wf_tvals_map; intros; exact I).
    + apply wp_ret. now apply wf_tvals_repeat.
    + contradiction.
    + (* text *)
      eapply wp_map; [apply wp_lift, ptr_elems_no|]. intros pl Hpl. apply wf_tvals_map. intros x Hx.
      apply text_bytes_ok. pose proof (ptr_elems_ok _ _ Hl Hpl) as Ha. rewrite Forall_forall in Ha. now apply Ha.
    + (* data *)
      eapply wp_map; [apply wp_lift, ptr_elems_no|]. intros pl Hpl. apply wf_tvals_map. intros x Hx.
      apply data_bytes_ok. pose proof (ptr_elems_ok _ _ Hl Hpl) as Ha. rewrite Forall_forall in Ha. now apply Ha.
    + (* list of lists *)
      apply wp_charge. eapply wp_bind; [apply wp_lift, ptr_elems_no|]. intros pl Hpl.
      pose proof (ptr_elems_ok _ _ Hl Hpl) as Ha. rewrite Forall_forall in Ha.
      eapply wp_map; [|intros vs Hvs; exact Hvs].
      apply (wp_collect_elems _ _ wf_tval); [exact I|now split|]. intros x Hx. apply IHl; [assumption|now apply Ha].
    + (* enums *)
      eapply wp_bind; [apply wp_lift, prim_elems_no|]. intros xs _. eapply wp_map; [|intros vs Hvs; exact Hvs].
      apply (wp_collect_elems _ _ wf_tval); [exact I|now split|]. intros x _. now apply shown_enum_wf.
    + (* structs *)
      eapply wp_bind; [apply wp_lift, struct_elems_no|]. intros pl Hpl.
      pose proof (struct_elems_ok _ _ Hl Hpl) as Ha. rewrite Forall_forall in Ha.
      eapply wp_map; [|intros vs Hvs; exact Hvs].
      apply (wp_collect_elems _ _ wf_tval); [exact I|now split|]. intros x Hx.
      destruct (as_struct x) as [d' ps'] eqn:Ea. apply IHs. exact (as_struct_ok _ _ _ (Ha x Hx) Ea).
    + (* interfaces *)
      eapply wp_map; [apply wp_lift, ptr_elems_no|]. intros pl _. apply wf_tvals_map. intros x _.
      destruct (is_null x); [apply ident_null_ok|now left].
    + apply wp_ret. apply wf_tvals_repeat. now right.
Qed.

(* For every float-free schema with identifier names, every stored value (bytes in range),
   every encoder configuration: if Encode on a fresh encoder succeeds, the text it writes is read
   back by the independent reader as exactly the tree of field values the walk shows
   (defaults applied, only the active union member, groups as nested structs). *)
Theorem parse_render : forall ffmt c sc fuel id v out,
  schema_ok sc -> rval_ok v ->
  render ffmt c sc fuel id v = Ok out ->
  exists t, shown ffmt c sc fuel id v = Ok t /\ out = print t /\ wf_tval t /\ parse_text out = Some t.
Proof.
  intros ffmt c sc fuel id v out Hsc Hv H. unfold render, encode, shown in *.
  destruct (as_struct v) as [d ps] eqn:Ea.
  destruct (shown_struct ffmt c sc fuel [] id d ps None) as [[t st']|e|] eqn:Es; simpl in H; try discriminate.
  inversion H; subst out. exists t.
  assert (Hw : wf_tval t).
  { eapply wp_post; [|exact Es]. apply (shown_wf ffmt c sc Hsc fuel). eapply as_struct_ok; eassumption. }
  split; [reflexivity|]. split; [reflexivity|]. split; [assumption|now apply parse_print].
Qed.

(* faithfulness: two values (of any two types of the schema) whose texts coincide show the same field values *)
Corollary render_faithful : forall ffmt c sc fuel id1 v1 id2 v2 out,
  schema_ok sc -> rval_ok v1 -> rval_ok v2 ->
  render ffmt c sc fuel id1 v1 = Ok out -> render ffmt c sc fuel id2 v2 = Ok out ->
  shown ffmt c sc fuel id1 v1 = shown ffmt c sc fuel id2 v2.
Proof.
  intros ffmt c sc fuel id1 v1 id2 v2 out Hsc H1 H2 R1 R2.
  destruct (parse_render _ _ _ _ _ _ _ Hsc H1 R1) as (t1 & S1 & _ & _ & P1).
  destruct (parse_render _ _ _ _ _ _ _ Hsc H2 R2) as (t2 & S2 & _ & _ & P2).
  rewrite S1, S2. rewrite P1 in P2. now inversion P2.
Qed.

(* non-vacuity: a union with a group, an enum (in and out of range), defaults, text with quotes *)
Definition ex2_schema : schema :=
  mkSchema
    [ (1, NStruct 2 0 56
            [ mkField [97] 2 65535 (FSlot 1 (TInt 16) 65535 RNull 32 24 0);               (* a :Int16 = -1 *)
              mkField [116] 2 0 (FSlot 0 TText 0 (RPrim 8 [104; 105; 0]) 32 24 3);       (* t :Text = hi, union member 0 *)
              mkField [103] 2 1 (FGroup 2);                                                (* g :group, union member 1 *)
              mkField [101] 2 65535 (FSlot 2 (TEnum 3) 0 RNull 32 24 0);                  (* e :E *)
              mkField [108] 2 65535 (FSlot 1 (TList 24 (TList 24 (TUint 8))) 0 RNull 32 24 0) ]);
      (2, NStruct 0 0 56 [ mkField [120] 2 65535 (FSlot 1 TBool 1 RNull 32 24 0) ]);      (* x :Bool = true *)
      (3, NEnum 16 [([117], 2); ([118], 2)]) ]
    400.
Definition ex2_value_t : rval :=   (* member t set to a DQUOTE b BACKSLASH, e = 1, l = [[1,2],[]] *)
  RStruct [0; 0; 5; 0; 1; 0; 0; 0] [RPrim 8 [97; 34; 98; 92; 0]; RPtrs [RPrim 8 [1; 2]; RNull]].
Definition ex2_value_g : rval :=   (* member g, e = 7 (no such enumerant) *)
  RStruct [1; 0; 0; 0; 7; 0; 0; 0] [].

Example ex2_schema_ok : schema_ok ex2_schema.
Proof.
  repeat constructor; try discriminate; try reflexivity;
    try (eexists; eexists; split; reflexivity); try (intros _; repeat constructor; unfold byte_ok; lia).
Qed.

Example parse_render_example_t :
  exists out, render no_floats cfg_fixed ex2_schema 9 1 ex2_value_t = Ok out /\
    parse_text out = Some (TvStruct (FCons [97] (TvInt (-6))
                            (FCons [116] (TvStr [97; 34; 98; 92])
                            (FCons [101] (TvIdent [118])
                            (FCons [108] (TvList (TCons (TvList (TCons (TvInt 1) (TCons (TvInt 2) TNil))) (TCons (TvList TNil) TNil)))
                             FNil))))).
Proof. eexists. split; vm_compute; reflexivity. Qed.

Example parse_render_example_g :
  exists out, render no_floats cfg_fixed ex2_schema 9 1 ex2_value_g = Ok out /\
    parse_text out = Some (TvStruct (FCons [97] (TvInt (-1))
                            (FCons [103] (TvStruct (FCons [120] (TvBool true) FNil))
                            (FCons [101] (TvInt 7)
                            (FCons [108] (TvList TNil) FNil))))).
Proof. eexists. split; vm_compute; reflexivity. Qed.

(* The result type of the walk has no panic outcome: every Go panic site of marshal.go
   (fields[f.CodeOrder()], enums.At, the typed lists' At, Value accessors of the wrong kind) is
   excluded by the checks modelled before it or by the schema assumptions stated in docs/C20.md.
   What remains is non-termination = [OutOfFuel] for every fuel.

   A struct with a field of its own type:  struct Node { next :Node; }   (read sizes as measured) *)
Definition rec_schema : schema :=
  mkSchema [(1, NStruct 0 0 56 [mkField [110; 101; 120; 116] 5 65535 (FSlot 0 (TStruct 1) 0 RNull 32 24 0)])] 100.
Definition rec_value : rval := RStruct [] [RNull].     (* a list node whose next pointer is null *)

(* without the default-expansion guard (cfg_nocut): the default value of next is written, which
   contains next again ... the walk does not terminate for any amount of fuel (in Go: fatal stack
   overflow) *)
Lemma rec_diverges : forall fuel exp st,
  shown_struct no_floats cfg_nocut rec_schema fuel exp 1 [] [] st = OutOfFuel.
Proof.
  induction fuel as [|f IH]; intros exp st; [reflexivity|].
  destruct st as [b|]; simpl; unfold bind; simpl; rewrite IH; reflexivity.
Qed.

Example render_total_refuted : forall fuel,
  render no_floats cfg_nocut rec_schema fuel 1 rec_value = OutOfFuel.
Proof.
  intros [|f]; [reflexivity|].
  unfold render, encode. simpl. unfold bind. simpl. rewrite rec_diverges. reflexivity.
Qed.

(* with the guard: inside the default value of Node a further null Node is written as () *)
Example render_total_fixed_example :
  render no_floats cfg_fixed rec_schema 3 1 rec_value
  = Ok [40; 110; 101; 120; 116; 32; 61; 32; 40; 110; 101; 120; 116; 32; 61; 32; 40; 41; 41; 41].   (* (next = (next = ())) *)
Proof. vm_compute. reflexivity. Qed.

(* Totality for flat structs.  For structs whose fields are all of primitive, text, data, enum,
   interface or AnyPointer type (no struct / list / group fields) the walk returns (a value or an
   error) with fuel 1, for EVERY stored value, cache state and expansion stack: discriminants
   of no member, enum ordinals without an enumerant, offsets outside the sections and pointers
   of the wrong kind never make it diverge.
   _partial: nested values are not covered here.  The fuel bound for them (struct / list / group
   fields, recursive types, the fixed walk) is TextTotal.render_total_partial, under the schema
   premises stated there; its failure without the guard is [render_total_refuted]; the Go side
   of it is exercised by the hostile / recursive-type correspondence runs. *)
Definition flat_ty (t : ty) : Prop := match t with TStruct _ | TList _ _ => False | _ => True end.
Definition flat_field (fd : field) : Prop :=
  match f_kind fd with FSlot _ t _ _ _ _ _ => flat_ty t | FGroup _ => False | FOther => True end.
Definition flat_schema (sc : schema) : Prop :=
  Forall (fun p => match snd p with NStruct _ _ _ fields => Forall flat_field fields | _ => True end) (s_nodes sc).

(* a slot that is neither a struct nor a list makes no recursive call *)
Lemma slot_value_flat : forall F ffmt c sc rs rl exp d ps off t dflt dptr dpcost, flat_ty t ->
  wp F (slot_value ffmt c sc rs rl exp d ps off t dflt dptr dpcost) (fun _ => True).
Proof.
  intros F ffmt c sc rs rl exp d ps off t dflt dptr dpcost Ht. unfold slot_value.
  destruct t; try contradiction; try (apply wp_ret; exact I); try apply wp_shown_enum_any.
  all: destruct (c_acc c); [apply wp_charge|destruct (is_null (ptr_at ps off)); [apply wp_charge|]]; now apply wp_ret.
Qed.

Theorem render_total_flat_partial : forall ffmt c sc fuel exp id d ps,
  flat_schema sc -> no_oof (shown_struct ffmt c sc (S fuel) exp id d ps).
Proof.
  intros ffmt c sc fuel exp id d ps Hflat. apply no_oof_wp. cbn [shown_struct]. apply wp_find.
  destruct (lookup (s_nodes sc) id) as [[dc doff fc fields| |]|] eqn:El; try apply wp_fail.
  pose proof (lookup_Forall _ _ _ _ Hflat El) as Hf. cbn [snd] in Hf. rewrite Forall_forall in Hf.
  apply wp_charge. eapply wp_map; [|auto]. apply wp_collect_fields_any. intros fd Hin.
  specialize (Hf fd Hin). unfold flat_field in Hf.
  destruct (f_kind fd) as [off t dflt dptr tcost dvcost dpcost|gid|]; [|contradiction|now apply wp_ret].
  destruct (negb _); [now apply wp_ret|]. do 3 apply wp_charge. eapply wp_map; [|auto].
  now apply slot_value_flat.
Qed.

Definition cache_coherent (st : enc_state) : Prop :=
  match es_cache st with Some (sc', _) => sc' = es_reg st | None => True end.

Definition op_loadable (c : cfg) (o : enc_op) : Prop :=
  match o with OpUse reg => s_load reg <= c_limit0 c | _ => True end.

Lemma with_schema_coherent : forall sc c, cache_coherent (mkEnc sc (with_schema sc c)).
Proof. intros sc [b|]; reflexivity. Qed.

Lemma apply_e_reg : forall f st, es_reg (snd (apply_e f st)) = es_reg st.
Proof.
  intros f [reg [[sc' b]|]]; unfold apply_e; simpl.
  - destruct (f sc' (Some b)); reflexivity.
  - destruct (f reg None); reflexivity.
Qed.

Lemma apply_e_coherent : forall f st, cache_coherent st -> cache_coherent (snd (apply_e f st)).
Proof.
  intros f [reg [[sc' b]|]] H; unfold cache_coherent in H; unfold apply_e; simpl in *.
  - subst sc'. destruct (f reg (Some b)) as [r c']. simpl. apply with_schema_coherent.
  - destruct (f reg None) as [r c']. simpl. apply with_schema_coherent.
Qed.

(* an operation whose output does not depend on the cache it finds gives, on a coherent
   encoder, the output of a fresh encoder on the same registry *)
Lemma apply_e_fresh : forall f st,
  (forall b, fst (f (es_reg st) (Some b)) = fst (f (es_reg st) None)) -> cache_coherent st ->
  fst (apply_e f st) = fst (f (es_reg st) None).
Proof.
  intros f [reg [[sc' b]|]] Hf H; unfold cache_coherent in H; unfold apply_e; simpl in *.
  - subst sc'. rewrite <- (Hf b). destruct (f reg (Some b)); reflexivity.
  - destruct (f reg None); reflexivity.
Qed.

Lemma run_ops_coherent : forall ffmt c fuel ops st,
  cache_coherent st -> cache_coherent (run_ops ffmt c true fuel ops st).
Proof.
  intros ffmt c fuel. induction ops as [|o r IH]; intros st H; [assumption|].
  simpl. apply IH. destruct o as [id v|id l|reg]; simpl.
  - now apply apply_e_coherent.
  - now apply apply_e_coherent.
  - exact I.
Qed.

(* the registry an encoder ends up with is loadable if the first one and all later ones are *)
Lemma run_ops_reg_loadable : forall ffmt c fuel ops st,
  s_load (es_reg st) <= c_limit0 c -> Forall (op_loadable c) ops ->
  s_load (es_reg (run_ops ffmt c true fuel ops st)) <= c_limit0 c.
Proof.
  intros ffmt c fuel. induction ops as [|o r IH]; intros st H Hops; [assumption|].
  inversion Hops; subst. simpl. apply IH; [|assumption].
  destruct o as [id v|id l|reg]; simpl.
  - unfold encode_e. now rewrite apply_e_reg.
  - unfold encode_list_e. now rewrite apply_e_reg.
  - assumption.
Qed.

(* EncodeList: the walk of the first element starts with Find, after which nothing depends on the
   cache that was there; an empty list never consults it *)
Lemma encode_list_state_irrelevant : forall ffmt c sc fuel id l st,
  c_fixed c = true -> s_load sc <= c_limit0 c ->
  fst (encode_list ffmt c sc fuel id l st) = fst (encode_list ffmt c sc fuel id l None).
Proof.
  intros ffmt c sc fuel id l st Hf Hl. unfold encode_list. destruct fuel as [|f]; [reflexivity|].
  cbn [shown_list]. unfold bind at 1 3, lift. destruct (struct_elems l) as [[|p ps]|e|]; try reflexivity.
  cbn [collect_elems]. unfold bind. destruct (as_struct p) as [d pp].
  rewrite (shown_struct_state_irrelevant ffmt c sc Hf Hl f [] id d pp st None). apply fst_outcome.
Qed.

(* after any history of Encode, EncodeList and UseRegistry calls (with the invalidation), an
   operation whose output does not depend on the cache writes what it writes on a fresh encoder
   pointed at the current registry *)
Lemma run_ops_fresh : forall ffmt c fuel reg0 ops (f : schema -> cache -> res (list Z) * cache),
  s_load reg0 <= c_limit0 c -> Forall (op_loadable c) ops ->
  (forall sc b, s_load sc <= c_limit0 c -> fst (f sc (Some b)) = fst (f sc None)) ->
  let st := run_ops ffmt c true fuel ops (enc_init reg0) in
  fst (apply_e f st) = fst (f (es_reg st) None).
Proof.
  intros ffmt c fuel reg0 ops f Hl Hops Hf st. apply apply_e_fresh.
  - intros b. apply Hf. now apply run_ops_reg_loadable.
  - apply run_ops_coherent. exact I.
Qed.

(* Encode / EncodeList after ANY history of Encode, EncodeList and UseRegistry calls on one
   encoder write what a fresh encoder pointed at the same (current) registry writes *)
Theorem encode_history_independent_reg : forall ffmt c fuel reg0 ops id v,
  c_fixed c = true -> s_load reg0 <= c_limit0 c -> Forall (op_loadable c) ops ->
  let st := run_ops ffmt c true fuel ops (enc_init reg0) in
  fst (encode_e ffmt c fuel id v st) = fst (encode ffmt c (es_reg st) fuel id v None).
Proof.
  intros ffmt c fuel reg0 ops id v Hf Hl Hops.
  apply (run_ops_fresh ffmt c fuel reg0 ops (fun sc => encode ffmt c sc fuel id v) Hl Hops).
  intros sc b Hsc. now apply encode_state_irrelevant.
Qed.

Theorem encode_list_history_independent : forall ffmt c fuel reg0 ops id l,
  c_fixed c = true -> s_load reg0 <= c_limit0 c -> Forall (op_loadable c) ops ->
  let st := run_ops ffmt c true fuel ops (enc_init reg0) in
  fst (encode_list_e ffmt c fuel id l st) = fst (encode_list ffmt c (es_reg st) fuel id l None).
Proof.
  intros ffmt c fuel reg0 ops id l Hf Hl Hops.
  apply (run_ops_fresh ffmt c fuel reg0 ops (fun sc => encode_list ffmt c sc fuel id l) Hl Hops).
  intros sc b Hsc. now apply encode_list_state_irrelevant.
Qed.

(* UseRegistry keeping the cached nodes: schema revision with a renamed field *)
Definition reg_v1 : schema :=
  mkSchema [(1, NStruct 0 0 56 [mkField [107; 101; 121] 4 65535 (FSlot 0 (TUint 8) 0 RNull 32 24 0)])] 100.   (* key *)
Definition reg_v2 : schema :=
  mkSchema [(1, NStruct 0 0 56 [mkField [110; 97; 109; 101] 5 65535 (FSlot 0 (TUint 8) 0 RNull 32 24 0)])] 100. (* name *)
Definition reg_empty : schema := mkSchema [] 8.

Example encode_history_independent_reg_refuted :
  exists ops id v,
    let st := run_ops no_floats cfg_fixed false 5 ops (enc_init reg_v1) in
    fst (encode_e no_floats cfg_fixed 5 id v st) <> fst (encode no_floats cfg_fixed (es_reg st) 5 id v None).
Proof.
  exists [OpEncode 1 (RStruct [7] []); OpUse reg_v2], 1, (RStruct [7] []). vm_compute. discriminate.
Qed.

(* ... and a type the new registry does not know is still rendered *)
Example use_registry_unknown_type_refuted :
  let st := run_ops no_floats cfg_fixed false 5 [OpEncode 1 (RStruct [7] []); OpUse reg_empty] (enc_init reg_v1) in
  fst (encode_e no_floats cfg_fixed 5 1 (RStruct [7] []) st) = Ok [40; 107; 101; 121; 32; 61; 32; 55; 41]   (* (key = 7) *)
  /\ fst (encode no_floats cfg_fixed reg_empty 5 1 (RStruct [7] []) None) = Err ENotFound.
Proof. split; vm_compute; reflexivity. Qed.

(* with the invalidation: the same history gives the new name / the error *)
Example use_registry_example :
  let st := run_ops no_floats cfg_fixed true 5 [OpEncode 1 (RStruct [7] []); OpUse reg_v2] (enc_init reg_v1) in
  fst (encode_e no_floats cfg_fixed 5 1 (RStruct [7] []) st) = Ok [40; 110; 97; 109; 101; 32; 61; 32; 55; 41].  (* (name = 7) *)
Proof. vm_compute. reflexivity. Qed.

(* schema cycles of length 2 and 3 (A.b:B, B.a:A;  C.p:D, D.q:E, E.r:C), null fields.
   The stack of types whose default is being written must be searched as a whole: with the
   innermost entry alone the walk alternates between the types for ever. *)
Definition cyc_field (name : list Z) (t : Z) : field := mkField name 2 65535 (FSlot 0 (TStruct t) 0 RNull 32 24 0).
Definition cyc2_schema : schema :=
  mkSchema [(1, NStruct 0 0 56 [cyc_field [98] 2]); (2, NStruct 0 0 56 [cyc_field [97] 1])] 200.
Definition cyc3_schema : schema :=
  mkSchema [(1, NStruct 0 0 56 [cyc_field [112] 2]); (2, NStruct 0 0 56 [cyc_field [113] 3]);
            (3, NStruct 0 0 56 [cyc_field [114] 1])] 300.

Lemma cyc3_diverges : forall fuel exp st id, id = 1 \/ id = 2 \/ id = 3 ->
  shown_struct no_floats cfg_nocut cyc3_schema fuel exp id [] [] st = OutOfFuel.
Proof.
  induction fuel as [|f IH]; intros exp st id Hid; [reflexivity|].
  destruct Hid as [->|[->| ->]]; destruct st as [b|]; simpl; unfold bind; simpl; rewrite IH; auto.
Qed.

Example render_cycle3_refuted : forall fuel,
  render no_floats cfg_nocut cyc3_schema fuel 1 (RStruct [] []) = OutOfFuel.
Proof.
  intros fuel. unfold render, encode. simpl. rewrite cyc3_diverges; auto.
Qed.

Example render_cycle2_example :
  render no_floats cfg_fixed cyc2_schema 9 1 (RStruct [] [])
  = Ok [40; 98; 32; 61; 32; 40; 97; 32; 61; 32; 40; 98; 32; 61; 32; 40; 41; 41; 41; 41].      (* (b = (a = (b = ()))) *)
Proof. vm_compute. reflexivity. Qed.

Example render_cycle3_example :
  render no_floats cfg_fixed cyc3_schema 9 1 (RStruct [] [])
  = Ok [40; 112; 32; 61; 32; 40; 113; 32; 61; 32; 40; 114; 32; 61; 32; 40; 112; 32; 61; 32; 40; 41; 41; 41; 41; 41].
    (* (p = (q = (r = (p = ())))) *)
Proof. vm_compute. reflexivity. Qed.

(* One slot field: what the walk shows is the rendering of the value the generated accessor
   returns - wrong-kind pointers included (a struct where a list / text is expected, a list in
   a struct slot, a capability, a byte list without NUL in a Text slot: the accessor returns the
   field's default, and so does the walk).  [rs]/[rl] are the recursive calls, any functions. *)
Theorem slot_value_eq_accessor : forall ffmt c sc rs rl exp data ptrs off t dflt dptr dpcost st,
  c_acc c = true ->
  slot_value ffmt c sc rs rl exp data ptrs off t dflt dptr dpcost st
  = show_aval ffmt c sc rs rl exp dpcost (accessor data ptrs off t dflt dptr) st.
Proof.
  intros ffmt c sc rs rl exp data ptrs off t dflt dptr dpcost st Hacc.
  unfold slot_value, accessor, show_aval. rewrite Hacc.
  destruct t as [| |bits|bits|bits| | |ecost e|eid|sid| |]; try reflexivity.
  all: destruct (ptr_at ptrs off) eqn:Ep; simpl; try reflexivity.
  all: try (destruct dptr; reflexivity).
  all: unfold bind, ret; destruct (charge ecost st) as [[u s1]|e1|]; try reflexivity;
       destruct (charge dpcost s1) as [[u2 s2]|e2|]; reflexivity.
Qed.

(* The whole struct: marshalStruct is the walk over the fields in code order in which every slot
   is read with its generated accessor. *)
Definition field_step_acc (ffmt : Z -> Z -> list Z) (c : cfg) (sc : schema) (f : nat) (exp : list Z)
    (disc : Z) (data : list Z) (ptrs : list rval) (fd : field) : M (option tval) :=
  match f_kind fd with
  | FOther => ret None
  | k =>
    if negb ((f_disc fd =? 65535) || (f_disc fd =? disc)) then ret None
    else
      charge (f_ncost fd) ;;
      match k with
      | FGroup gid => v <- shown_struct ffmt c sc f exp gid data ptrs ;; ret (Some v)
      | FSlot off t dflt dptr tcost dvcost dpcost =>
        charge tcost ;; charge dvcost ;;
        v <- show_aval ffmt c sc (shown_struct ffmt c sc f) (shown_list ffmt c sc f exp) exp dpcost
               (accessor data ptrs off t dflt dptr) ;;
        ret (Some v)
      | FOther => ret None
      end
  end.

Lemma bind_ext : forall {A B} (m : M A) (k1 k2 : A -> M B) st,
  (forall a s, k1 a s = k2 a s) -> bind m k1 st = bind m k2 st.
Proof. intros A B m k1 k2 st H. unfold bind. destruct (m st) as [[a s]|e|]; auto. Qed.

Lemma collect_fields_ext : forall (s1 s2 : field -> M (option tval)) fields,
  (forall fd st, s1 fd st = s2 fd st) -> forall st, collect_fields s1 fields st = collect_fields s2 fields st.
Proof.
  intros s1 s2 fields H. induction fields as [|fd r IH]; intros st; [reflexivity|].
  cbn [collect_fields]. unfold bind. rewrite H. destruct (s2 fd st) as [[o st1]|e|]; try reflexivity.
  now rewrite IH.
Qed.

Theorem shown_struct_via_accessors : forall ffmt c sc f exp id data ptrs st,
  c_acc c = true ->
  shown_struct ffmt c sc (S f) exp id data ptrs st =
  (find c sc ;;
   match lookup (s_nodes sc) id with
   | None => fail ENotFound
   | Some (NStruct dcount doff fcost fields) =>
     let disc := if 0 <? dcount then get_le data (doff * 2) 2 else 0 in
     charge fcost ;;
     fs <- collect_fields (field_step_acc ffmt c sc f exp disc data ptrs) fields ;;
     ret (TvStruct fs)
   | Some _ => fail ENotStruct
   end) st.
Proof.
  intros ffmt c sc f exp id data ptrs st Hacc. cbn [shown_struct]. apply bind_ext. intros _ s0.
  destruct (lookup (s_nodes sc) id) as [[dcount doff fcost fields| |]|]; try reflexivity.
  apply bind_ext. intros _ s1. unfold bind.
  rewrite (collect_fields_ext _ (field_step_acc ffmt c sc f exp (if 0 <? dcount then get_le data (doff * 2) 2 else 0) data ptrs));
    [reflexivity|].
  intros fd st'. unfold field_step_acc.
  destruct (f_kind fd) as [off t dflt dptr tcost dvcost dpcost|gid|]; try reflexivity.
  destruct (negb _); [reflexivity|]. do 3 (apply bind_ext; intros _ ?). unfold bind.
  now rewrite slot_value_eq_accessor.
Qed.

(* without the accessor fix (cfg_noacc): field  t :Text = foo  whose pointer slot holds a struct
   pointer: the accessor returns foo, the text shows the empty string *)
Definition acc_schema : schema :=
  mkSchema [(1, NStruct 0 0 56 [mkField [116] 2 65535 (FSlot 0 TText 0 (RPrim 8 [102; 111; 111; 0]) 32 24 4)])] 100.
Definition acc_value : rval := RStruct [] [RStruct [] []].

Example accessor_says_foo : accessor [] [RStruct [] []] 0 TText 0 (RPrim 8 [102; 111; 111; 0]) = AvText [102; 111; 111].
Proof. reflexivity. Qed.

Example shows_accessor_value_refuted :
  render no_floats cfg_noacc acc_schema 5 1 acc_value = Ok [40; 116; 32; 61; 32; 34; 34; 41]            (* (t = "") *)
  /\ render no_floats cfg_fixed acc_schema 5 1 acc_value = Ok [40; 116; 32; 61; 32; 34; 102; 111; 111; 34; 41].  (* (t = "foo") *)
Proof. split; vm_compute; reflexivity. Qed.

(* parse_render on a USED encoder: any cache state (hence, by encode_history_independent_reg,
   any history of Encode / EncodeList / UseRegistry calls) *)
Corollary parse_encode_any_state : forall ffmt c sc fuel id v st out,
  c_fixed c = true -> s_load sc <= c_limit0 c -> schema_ok sc -> rval_ok v ->
  fst (encode ffmt c sc fuel id v st) = Ok out ->
  exists t, shown ffmt c sc fuel id v = Ok t /\ out = print t /\ wf_tval t /\ parse_text out = Some t.
Proof.
  intros ffmt c sc fuel id v st out Hf Hl Hsc Hv H.
  rewrite (encode_state_irrelevant ffmt c sc fuel id v st Hf Hl) in H.
  now apply (parse_render ffmt c sc fuel id v out Hsc Hv).
Qed.
