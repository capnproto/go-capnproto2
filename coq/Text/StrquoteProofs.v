(* Proofs about the model of strquote.Append (Strquote.v) against the independent literal
   reader (TextSpec.v).  In the comments of Text/, DQ (DQUOTE) stands for the double-quote
   character: a literal one would open a string inside a Coq comment. *)
From CV Require Import Text.Strquote Text.TextSpec.
From Coq Require Import ZifyBool ZifyNat.
Open Scope Z_scope.

Lemma skipn_skipn_add {A} : forall (l : list A) a b, skipn a (skipn b l) = skipn (a + b) l.
Proof.
  induction l as [|x l IH]; intros a b.
  - now rewrite !skipn_nil.
  - destruct b as [|b].
    + now rewrite Nat.add_0_r.
    + rewrite Nat.add_succ_r. simpl. apply IH.
Qed.

Lemma skipn_split_slice : forall (s : list Z) last i, (last <= i)%nat ->
  skipn last s = slice s last i ++ skipn i s.
Proof.
  intros s last i H. unfold slice.
  rewrite <- (firstn_skipn (i - last) (skipn last s)) at 1.
  f_equal. rewrite skipn_skipn_add. f_equal. lia.
Qed.

Lemma slice_length : forall (s : list Z) last i, (last <= i)%nat -> (i <= length s)%nat ->
  length (slice s last i) = (i - last)%nat.
Proof.
  intros s last i H1 H2. unfold slice. rewrite firstn_length, skipn_length. lia.
Qed.

Lemma slice_snoc : forall (s : list Z) last i b r, (last <= i)%nat -> (i <= length s)%nat ->
  skipn i s = b :: r -> slice s last (S i) = slice s last i ++ [b].
Proof.
  intros s last i b r H1 H2 E.
  pose proof (skipn_split_slice s last i H1) as S1. rewrite E in S1.
  unfold slice at 1. rewrite S1.
  replace (S i - last)%nat with (length (slice s last i) + 1)%nat
    by (rewrite slice_length by assumption; lia).
  rewrite firstn_app_2. reflexivity.
Qed.

Lemma slice_same : forall (s : list Z) i, slice s i i = [].
Proof. intros. unfold slice. now rewrite Nat.sub_diag. Qed.

Lemma quote_body_app : forall fixed a b,
  quote_body fixed (a ++ b) = quote_body fixed a ++ quote_body fixed b.
Proof.
  induction a as [|x a IH]; intros b; simpl; [reflexivity|]. now rewrite IH, app_assoc.
Qed.

Lemma quote_body_noesc : forall fixed a,
  Forall (fun b => needs_escape fixed b = false) a -> quote_body fixed a = a.
Proof.
  induction 1 as [|x a Hx _ IH]; simpl; [reflexivity|].
  unfold quote_byte. rewrite Hx, IH. reflexivity.
Qed.

Lemma append_loop_spec : forall fixed s rest i last buf,
  rest = skipn i s -> (last <= i)%nat -> (i <= length s)%nat ->
  Forall (fun b => needs_escape fixed b = false) (slice s last i) ->
  append_loop fixed s rest i last buf = buf ++ quote_body fixed (skipn last s).
Proof.
  intros fixed s. induction rest as [|b r IH]; intros i last buf E Hl Hi Hf.
  - simpl. f_equal.
    rewrite (skipn_split_slice s last i Hl), <- E, app_nil_r.
    symmetry. now apply quote_body_noesc.
  - symmetry in E. pose proof E as E0.
    assert (Er : r = skipn (S i) s).
    { change (S i) with (1 + i)%nat. rewrite <- skipn_skipn_add, E. reflexivity. }
    assert (Hi' : (S i <= length s)%nat).
    { destruct (Nat.le_gt_cases (length s) i) as [Hge|Hlt]; [|lia].
      rewrite skipn_all2 in E by assumption. discriminate. }
    cbn [append_loop]. destruct (needs_escape fixed b) eqn:Hb.
    + rewrite (IH (S i) (S i)); [|assumption|lia|assumption|rewrite slice_same; constructor].
      rewrite (skipn_split_slice s last i Hl), E, quote_body_app.
      rewrite (quote_body_noesc fixed _ Hf). cbn [quote_body]. unfold quote_byte. rewrite Hb.
      rewrite <- Er. now rewrite <- !app_assoc.
    + apply (IH (S i) last); [assumption|lia|assumption|].
      rewrite (slice_snoc s last i b r Hl Hi E0). apply Forall_app. split; [assumption|].
      constructor; [assumption|constructor].
Qed.

Theorem append_eq_quote_gen : forall fixed buf s,
  append fixed buf s = buf ++ quote_gen fixed s.
Proof.
  intros. unfold append, quote_gen.
  rewrite (append_loop_spec fixed s s 0 0); [|reflexivity|lia|lia|rewrite slice_same; constructor].
  simpl. rewrite <- !app_assoc. reflexivity.
Qed.

Corollary quote_eq : forall s, quote s = quote_gen true s.
Proof. intros. unfold quote. now rewrite append_eq_quote_gen. Qed.

Lemma hex_digit_t_val : forall d, 0 <= d < 16 -> hex_val (hex_digit_t d) = Some d.
Proof.
  intros d H. rewrite <- (Z2Nat.id d) by lia. assert (Hn : (Z.to_nat d < 16)%nat) by lia.
  revert Hn. generalize (Z.to_nat d). intros n Hn.
  do 16 (destruct n as [|n]; [reflexivity|]). lia.
Qed.

Lemma nibbles : forall b, byte_ok b ->
  0 <= b / 16 < 16 /\ 0 <= b mod 16 < 16 /\ 16 * (b / 16) + b mod 16 = b.
Proof. unfold byte_ok. intros b H. Z.div_mod_to_equations. lia. Qed.

Lemma parse_body_plain : forall c r, c <> 34 -> c <> 10 -> c <> 92 ->
  parse_body (c :: r) = cons_res c (parse_body r).
Proof.
  intros c r H1 H2 H3. cbn [parse_body].
  destruct (Z.eqb_spec c 34), (Z.eqb_spec c 10), (Z.eqb_spec c 92); try contradiction. reflexivity.
Qed.

Lemma parse_body_esc : forall e v r, simple_escape e = Some v ->
  parse_body (92 :: e :: r) = cons_res v (parse_body r).
Proof.
  intros e v r H. unfold simple_escape in H.
  repeat match type of H with
  | context [if ?x =? ?c then _ else _] => destruct (Z.eqb_spec x c) as [->|_]; [inversion H; reflexivity|]
  end. discriminate.
Qed.

Lemma parse_body_hex : forall h1 h2 a c r, hex_val h1 = Some a -> hex_val h2 = Some c ->
  parse_body (92 :: 120 :: h1 :: h2 :: r) = cons_res (16 * a + c) (parse_body r).
Proof. intros h1 h2 a c r Ha Hc. cbn [parse_body Z.eqb Pos.eqb]. now rewrite Ha, Hc. Qed.

(* an escaped byte is written as a one-character escape that the reader maps back to it, or as \xHH *)
Lemma escape_byte_cases : forall b,
  (exists e, escape_byte b = [92; e] /\ simple_escape e = Some b) \/
  escape_byte b = [92; 120; hex_digit_t (b / 16); hex_digit_t (b mod 16)].
Proof.
  intros b. unfold escape_byte.
  repeat match goal with
  | |- context [if ?x =? ?c then _ else _] =>
    destruct (Z.eqb_spec x c) as [->|_]; [left; eexists; split; reflexivity|]
  end. right. reflexivity.
Qed.

Lemma parse_quote_byte : forall b l, byte_ok b ->
  parse_body (quote_byte true b ++ l) = cons_res b (parse_body l).
Proof.
  intros b l Hb. unfold quote_byte. destruct (needs_escape true b) eqn:Hn.
  - destruct (escape_byte_cases b) as [(e & -> & He)| ->].
    + now apply parse_body_esc.
    + destruct (nibbles b Hb) as (H1 & H2 & E). cbn [app].
      now rewrite (parse_body_hex _ _ _ _ _ (hex_digit_t_val _ H1) (hex_digit_t_val _ H2)), E.
  - unfold needs_escape in Hn. apply parse_body_plain; lia.
Qed.

Lemma parse_quote_body : forall s rest, bytes_ok s ->
  parse_body (quote_body true s ++ 34 :: rest) = Some (s, rest).
Proof.
  induction s as [|b s IH]; intros rest Hs.
  - reflexivity.
  - inversion Hs as [|? ? Hb Hs']; subst. simpl. rewrite <- app_assoc.
    rewrite parse_quote_byte by assumption. rewrite IH by assumption. reflexivity.
Qed.

Theorem unquote_quote_app : forall s rest, bytes_ok s ->
  parse_literal (quote s ++ rest) = Some (s, rest).
Proof.
  intros s rest Hs. rewrite quote_eq. unfold quote_gen. simpl. rewrite <- app_assoc.
  now apply parse_quote_body.
Qed.

Theorem unquote_quote : forall s, bytes_ok s -> parse_literal (quote s) = Some (s, []).
Proof. intros s Hs. rewrite <- (app_nil_r (quote s)). now apply unquote_quote_app. Qed.

Corollary quote_injective : forall s1 s2, bytes_ok s1 -> bytes_ok s2 ->
  quote s1 = quote s2 -> s1 = s2.
Proof.
  intros s1 s2 H1 H2 E. pose proof (unquote_quote s1 H1) as P1. rewrite E, (unquote_quote s2 H2) in P1.
  now inversion P1.
Qed.

Definition printable (c : Z) : Prop := 32 <= c < 127.
Definition is_hex (c : Z) : Prop := exists d, hex_val c = Some d.

(* the body of a literal is a sequence of: a printable byte other than 'DQ' and '\', or a
   backslash followed by a one-character escape, or \x and two hex digits.  In particular a
   'DQ' or '\' never stands alone. *)
Inductive wf_body : list Z -> Prop :=
| wf_nil : wf_body []
| wf_plain c r : printable c -> c <> 34 -> c <> 92 -> wf_body r -> wf_body (c :: r)
| wf_esc e v r : simple_escape e = Some v -> wf_body r -> wf_body (92 :: e :: r)
| wf_hex h1 h2 r : is_hex h1 -> is_hex h2 -> wf_body r -> wf_body (92 :: 120 :: h1 :: h2 :: r).

Lemma wf_quote_byte : forall b r, byte_ok b -> wf_body r -> wf_body (quote_byte true b ++ r).
Proof.
  intros b r Hb Hr. unfold quote_byte. destruct (needs_escape true b) eqn:Hn.
  - destruct (escape_byte_cases b) as [(e & -> & He)| ->].
    + eapply wf_esc; eassumption.
    + destruct (nibbles b Hb) as (H1 & H2 & _).
      apply wf_hex; [eexists; now apply hex_digit_t_val..|assumption].
  - unfold needs_escape in Hn. unfold byte_ok in Hb. apply wf_plain; [unfold printable; lia|lia|lia|assumption].
Qed.

Lemma wf_quote_body : forall s, bytes_ok s -> wf_body (quote_body true s).
Proof.
  induction 1 as [|b s Hb _ IH]; simpl; [constructor|]. now apply wf_quote_byte.
Qed.

Theorem quote_wellformed : forall s, bytes_ok s ->
  exists body, quote s = 34 :: body ++ [34] /\ wf_body body.
Proof.
  intros s Hs. exists (quote_body true s). split; [apply quote_eq|now apply wf_quote_body].
Qed.

Lemma simple_escape_printable : forall e v, simple_escape e = Some v -> printable e.
Proof.
  intros e v H. unfold simple_escape in H. unfold printable.
  repeat match type of H with
  | context [if ?x =? ?c then _ else _] => destruct (Z.eqb_spec x c); [lia|]
  end. discriminate.
Qed.

Lemma is_hex_printable : forall h, is_hex h -> printable h.
Proof.
  intros h [d H]. unfold hex_val in H. unfold printable.
  destruct ((48 <=? h) && (h <=? 57)) eqn:E1; [lia|].
  destruct ((97 <=? h) && (h <=? 102)) eqn:E2; [lia|].
  destruct ((65 <=? h) && (h <=? 70)) eqn:E3; [lia|discriminate].
Qed.

Lemma wf_body_printable : forall body, wf_body body -> Forall printable body.
Proof.
  assert (P92 : printable 92) by (unfold printable; lia).
  induction 1 as [|c r Hc _ _ _ IH|e v r He _ IH|h1 h2 r H1 H2 _ IH].
  - constructor.
  - now constructor.
  - constructor; [assumption|]. constructor; [eapply simple_escape_printable; eassumption|assumption].
  - constructor; [assumption|]. constructor; [unfold printable; lia|].
    constructor; [now apply is_hex_printable|]. constructor; [now apply is_hex_printable|assumption].
Qed.

Theorem quote_printable : forall s, bytes_ok s -> Forall printable (quote s).
Proof.
  intros s Hs. destruct (quote_wellformed s Hs) as (body & -> & Hb).
  assert (P34 : printable 34) by (unfold printable; lia).
  constructor; [assumption|]. apply Forall_app. split; [now apply wf_body_printable|].
  constructor; [assumption|constructor].
Qed.

(* a well-formed body never ends a literal early: the reader consumes all of it *)
Lemma wf_body_parses : forall body rest, wf_body body ->
  exists s, parse_body (body ++ 34 :: rest) = Some (s, rest).
Proof.
  induction 1 as [|c r Hp H34 H92 _ [s IH]|e v r He _ [s IH]|h1 h2 r [a Ha] [c Hc] _ [s IH]]; cbn [app].
  - exists []. reflexivity.
  - exists (c :: s). unfold printable in Hp. rewrite parse_body_plain, IH by lia. reflexivity.
  - exists (v :: s). now rewrite (parse_body_esc _ _ _ He), IH.
  - exists (16 * a + c :: s). now rewrite (parse_body_hex _ _ _ _ _ Ha Hc), IH.
Qed.

(* the code before the fix of F09 (quote_prefix): a quote in the text ends the literal early: the
   reader gets the empty string back and finds a stray 'DQ' after the literal *)
Example unquote_quote_refuted :
  exists s, bytes_ok s /\ parse_literal (quote_prefix s) <> Some (s, []).
Proof.
  exists [34]. split; [repeat constructor; unfold byte_ok; lia|]. vm_compute. discriminate.
Qed.

(* backslash is not escaped: the two different texts  \n (2 bytes)  and  LF (1 byte)  are
   rendered identically *)
Example quote_injective_refuted :
  exists s1 s2, bytes_ok s1 /\ bytes_ok s2 /\ s1 <> s2 /\ quote_prefix s1 = quote_prefix s2.
Proof.
  exists [92; 110], [10].
  split; [repeat constructor; unfold byte_ok; lia|].
  split; [repeat constructor; unfold byte_ok; lia|].
  split; [discriminate|reflexivity].
Qed.

(* non-vacuity of the round trip: a string with every kind of escape *)
Example unquote_quote_example :
  parse_literal (quote [7; 8; 12; 10; 13; 9; 11; 39; 34; 92; 0; 31; 32; 65; 126; 127; 128; 255])
  = Some ([7; 8; 12; 10; 13; 9; 11; 39; 34; 92; 0; 31; 32; 65; 126; 127; 128; 255], []).
Proof. vm_compute. reflexivity. Qed.
