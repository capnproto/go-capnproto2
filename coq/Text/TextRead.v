(* L1 model of /repo/encoding/text/marshal.go (marshalStruct, marshalFieldValue, marshalList,
   marshalEnum) and of the String methods of the typed lists (list.go) COMPOSED WITH THE READER
   MODEL Core/Reader.v: the value is not an abstract tree (as in Text/TextM.v) but a [Ptr] into
   arbitrary segment bytes [m]; every field is read with the Core accessor the Go code calls
   (Struct.Uint8..64 / Bit / Ptr / HasPtr, List.Struct, PointerList.At, UInt*List.At, BitList.At,
   Ptr.text / Ptr.Data), the traversal budget of the VALUE message is threaded through every
   pointer dereference, and every pointer carries its depth limit.

   The schema is TextM's schema representation.  Schema reads are free here (after the fix of
   F10 nodemap.Find re-arms the schema message's budget on every call; the schema budget is
   C20's subject, Text/TextM.v).  The DEFAULT VALUE of a pointer field lives in the schema
   message, not in the value message: it is TextM's abstract [rval] and the walk of a default
   (struct default of a null / wrong-kind struct pointer when the type is not already being
   defaulted - the default-expansion guard c_cut -, list default of a null / wrong-kind list pointer)
   is delegated to the arguments [rd] / [rdl] (instantiated with TextM.shown_struct / shown_list
   at extraction).  Floats: the oracle [ffmt] as in TextM.

   Outcome: [ROk] value | [RErr] (Go returned an error) | [RPanic] (Go would panic) | [RFuel].
   State: remaining traversal budget of the value message + ghosts (number of successful
   pointer dereferences, bytes handed out, receivers of every accessor call).
   No proofs in this file. *)
From CV Require Export Core.ReadOps.
From CV Require Text.TextSpec Text.TextM.
Open Scope Z_scope.

Module TS := CV.Text.TextSpec.
Module TM := CV.Text.TextM.

(* ------------------------------------------------------------------ state, outcome, monad *)
Record rst : Type := mkRst {
  r_rl : Z;              (* Message.rlimit of the value message *)
  r_d : Z;               (* ghost: successful dereferences (a valid pointer was handed out) *)
  r_h : Z;               (* ghost: sum of the read sizes of the pointers handed out *)
  r_log : list Ptr }.    (* ghost: receiver of every Core accessor call, newest first *)

Inductive out (A : Type) : Type := ROk (a : A) | RErr | RPanic | RFuel.
Arguments ROk {A} a. Arguments RErr {A}. Arguments RPanic {A}. Arguments RFuel {A}.

Definition RM (A : Type) : Type := rst -> out A * rst.
Definition rret {A} (a : A) : RM A := fun s => (ROk a, s).
Definition rfail {A} : RM A := fun s => (RErr, s).
Definition rbind {A B} (x : RM A) (k : A -> RM B) : RM B :=
  fun s => match x s with
           | (ROk a, s') => k a s'
           | (RErr, s') => (RErr, s')
           | (RPanic, s') => (RPanic, s')
           | (RFuel, s') => (RFuel, s')
           end.
Notation "x <-- m ;; k" := (rbind m (fun x => k)) (at level 61, m at next level, right associativity).

Definition of_res {A} (r : res A) : out A :=
  match r with Ok a => ROk a | Err => RErr | Panic => RPanic end.

(* a Core accessor call on receiver [p] that does not dereference a pointer *)
Definition acc {A} (p : Ptr) (r : res A) : RM A :=
  fun s => (of_res r, mkRst (r_rl s) (r_d s) (r_h s) (p :: r_log s)).

(* what readPtr charges for the pointer it hands out (= LimitProofs.readSize) *)
Definition rsize (p : Ptr) : Z :=
  match p_kind p with
  | KStruct => struct_readSize p
  | KList => list_readSize p
  | KIface => 0
  end.

(* a Core accessor call on receiver [p] that dereferences a pointer (Struct.Ptr, PointerList.At) *)
Definition deref (p : Ptr) (x : Z -> res Ptr * Z) : RM Ptr :=
  fun s =>
    let '(r, rl') := x (r_rl s) in
    match r with
    | Ok q => (ROk q, mkRst rl' (r_d s + (if p_valid q then 1 else 0)) (r_h s + rsize q) (p :: r_log s))
    | Err => (RErr, mkRst rl' (r_d s) (r_h s) (p :: r_log s))
    | Panic => (RPanic, mkRst rl' (r_d s) (r_h s) (p :: r_log s))
    end.

(* the walk of a default value (TextM's walk over the schema's own value) *)
Definition of_dflt (r : TM.res TS.tval) : RM TS.tval :=
  fun s => (match r with TM.Ok t => ROk t | TM.Err _ => RErr | TM.OutOfFuel => RFuel end, s).

(* for i := i0; i < i0+n; i++ { f(i) }, stopping at the first error *)
Fixpoint for_each {A} (n : nat) (i : Z) (f : Z -> RM A) : RM (list A) :=
  match n with
  | O => rret []
  | S n' => a <-- f i ;; r <-- for_each n' (i + 1) f ;; rret (a :: r)
  end.

Fixpoint fields_r (step : TM.field -> RM (option TS.tval)) (fields : list TM.field) : RM TS.tfields :=
  match fields with
  | [] => rret TS.FNil
  | fd :: r =>
    o <-- step fd ;;
    fs <-- fields_r step r ;;
    rret (match o with Some v => TS.FCons (TM.f_name fd) v fs | None => fs end)
  end.

Definition marker_error : list Z := [60;101;114;114;111;114;62].   (* <error> *)

(* ------------------------------------------------------------------ schema well-formedness *)
(* group nesting below [id] ends within n levels (a group is rendered on the SAME struct: no
   pointer is dereferenced, so only the schema bounds that recursion) *)
Fixpoint grp_ok (sc : TM.schema) (n : nat) (id : Z) : bool :=
  match n with
  | O => false
  | S n' =>
    match TM.lookup (TM.s_nodes sc) id with
    | Some (TM.NStruct _ _ _ fields) =>
      forallb (fun fd => match TM.f_kind fd with TM.FGroup gid => grp_ok sc n' gid | _ => true end) fields
    | _ => true
    end
  end.

Definition width_ok (bits : Z) : bool := (bits =? 8) || (bits =? 16) || (bits =? 32) || (bits =? 64).
Fixpoint ty_ok (t : TM.ty) : bool :=
  match t with
  | TM.TInt b | TM.TUint b => width_ok b
  | TM.TFloat b => (b =? 32) || (b =? 64)
  | TM.TList _ e => ty_ok e
  | _ => true
  end.
(* byte offset of a data field: DataOffset < 2^19 (the documented domain of Struct.UintN) *)
Definition off_ok (off n : Z) : bool := (0 <=? off) && (off * n <? 524288).
Definition slot_ok (off : Z) (t : TM.ty) : bool :=
  ty_ok t &&
  match t with
  | TM.TInt b | TM.TUint b | TM.TFloat b => off_ok off (b / 8)
  | TM.TEnum _ => off_ok off 2
  | _ => 0 <=? off
  end.
Definition field_ok (fd : TM.field) : bool :=
  match TM.f_kind fd with TM.FSlot off t _ _ _ _ _ => slot_ok off t | _ => true end.
Definition node_ok (n : TM.node) : bool :=
  match n with
  | TM.NStruct _ doff _ fields => off_ok doff 2 && forallb field_ok fields
  | _ => true
  end.
(* decidable: every node has in-domain offsets / supported widths, and group nesting ends within G *)
Definition schema_wf (G : nat) (sc : TM.schema) : bool :=
  forallb (fun kn => node_ok (snd kn) && grp_ok sc G (fst kn)) (TM.s_nodes sc).

(* ------------------------------------------------------------------ the walk *)
Section Walk.
Variable ffmt : Z -> Z -> list Z.
Variable sc : TM.schema.
Variable c : config.
Variable fx : fixes.
Variable m : segs.
Variable rd : list Z -> Z -> TM.rval -> TM.res TS.tval.      (* exp, struct id, default pointer *)
Variable rdl : list Z -> TM.ty -> TM.rval -> TM.res TS.tval. (* exp, element type, default pointer *)

(* marshalEnum (schema reads only) *)
Definition enum_r (id v : Z) : RM TS.tval :=
  match TM.lookup (TM.s_nodes sc) id with
  | None => rfail
  | Some (TM.NEnum _ names) =>
    if zlen names <=? v then rret (TS.TvInt v)
    else match nth_error names (Z.to_nat v) with
         | Some (name, _) => rret (TS.TvIdent name)
         | None => rfail
         end
  | Some _ => rfail
  end.
(* inside marshalList the error of marshalEnum is dropped: nothing is written for the element *)
Definition enum_lenient (id v : Z) : RM TS.tval :=
  fun s => match enum_r id v s with
           | (RErr, s') => (ROk (TS.TvIdent []), s')
           | x => x
           end.

(* Struct.UintN(DataOffset(off * n)): the product is a uint32 *)
Definition data_field (p : Ptr) (off n : Z) : RM Z := acc p (struct_uint m p (u32 (off * n)) n).

(* s.Ptr(uint16(off)) *)
Definition ptr_field (p : Ptr) (off : Z) : RM Ptr :=
  deref p (fun rl => struct_ptr c m rl p (off mod 65536)).

(* PointerList{l}.At(i) *)
Definition ptr_elem (l : Ptr) (i : Z) : RM Ptr :=
  deref l (fun rl => ptrlist_at c (fx_upgrade fx) m rl l i).

(* TextList.String / DataList.String: one element; an error of BytesAt / At is written as <error> *)
Definition bytes_elem (text : bool) (l : Ptr) (i : Z) : RM TS.tval :=
  fun s => match ptr_elem l i s with
           | (ROk q, s') =>
             (o <-- acc q (if text then ptr_text m q else ptr_data m q) ;;
              rret (TS.TvStr (match o with Some b => b | None => [] end))) s'
           | (RErr, s') => (ROk (TS.TvIdent marker_error), s')
           | (RPanic, s') => (RPanic, s')
           | (RFuel, s') => (RFuel, s')
           end.

(* marshalFieldValue after Type() / DefaultValue(); [rs] = marshalStruct, [rl] = marshalList *)
Definition slot_r (rs : list Z -> Z -> Ptr -> RM TS.tval) (rl : TM.ty -> Ptr -> RM TS.tval)
    (exp : list Z) (p : Ptr) (off : Z) (t : TM.ty) (dflt : Z) (dptr : TM.rval) : RM TS.tval :=
  match t with
  | TM.TVoid => rret TS.TvVoid
  | TM.TBool =>
    b <-- acc p (struct_bit m p off) ;;
    rret (TS.TvBool (xorb b (negb (dflt =? 0))))
  | TM.TInt bits =>
    v <-- data_field p off (bits / 8) ;; rret (TS.TvInt (TM.sint bits (Z.lxor v dflt)))
  | TM.TUint bits =>
    v <-- data_field p off (bits / 8) ;; rret (TS.TvInt (Z.lxor v dflt))
  | TM.TFloat bits =>
    v <-- data_field p off (bits / 8) ;; rret (TS.TvFloat (ffmt bits (Z.lxor v dflt)))
  | TM.TStruct sid =>
    q <-- ptr_field p off ;;
    (* st := p.Struct(); st.IsValid() *)
    if is_struct q then rs exp sid q
    else
      (* null or not a struct pointer: the default; inside the default of a type a further
         null field of that type is written as () *)
      if existsb (Z.eqb sid) exp then rret (TS.TvStruct TS.FNil)
      else of_dflt (rd (sid :: exp) sid dptr)
  | TM.TData =>
    q <-- ptr_field p off ;;
    o <-- acc q (ptr_data m q) ;;                                  (* p.DataDefault(def) *)
    rret (TS.TvStr (match o with Some b => b | None => TM.data_bytes dptr end))
  | TM.TText =>
    q <-- ptr_field p off ;;
    o <-- acc q (ptr_text m q) ;;                                  (* p.TextBytesDefault(def) *)
    rret (TS.TvStr (match o with Some b => b | None => TM.text_bytes dptr end))
  | TM.TList _ e =>
    q <-- ptr_field p off ;;
    (* l := p.List(); !l.IsValid(): the default list *)
    if is_list q then rl e q else of_dflt (rdl exp e dptr)
  | TM.TEnum eid =>
    v <-- data_field p off 2 ;; enum_r eid (Z.lxor v dflt)
  | TM.TInterface =>
    b <-- acc p (struct_hasptr m p (off mod 65536)) ;;
    rret (if b then TS.TvMarker TM.marker_cap else TS.TvIdent TM.ident_null)
  | TM.TAnyPointer => rret (TS.TvMarker TM.marker_any)
  end.

Definition len_nat (l : Ptr) : nat := Z.to_nat (list_len l).

Fixpoint struct_r (fuel : nat) (exp : list Z) (id : Z) (p : Ptr) {struct fuel} : RM TS.tval :=
  match fuel with
  | O => fun s => (RFuel, s)
  | S f =>
    match TM.lookup (TM.s_nodes sc) id with
    | None => rfail
    | Some (TM.NStruct dcount doff _ fields) =>
      disc <-- (if 0 <? dcount then data_field p doff 2 else rret 0) ;;
      fs <-- fields_r (fun fd =>
               match TM.f_kind fd with
               | TM.FOther => rret None
               | k =>
                 if negb ((TM.f_disc fd =? 65535) || (TM.f_disc fd =? disc)) then rret None
                 else
                   match k with
                   | TM.FGroup gid => v <-- struct_r f exp gid p ;; rret (Some v)
                   | TM.FSlot off t dflt dptr _ _ _ =>
                     v <-- slot_r (struct_r f) (list_r f exp) exp p off t dflt dptr ;; rret (Some v)
                   | TM.FOther => rret None
                   end
               end) fields ;;
      rret (TS.TvStruct fs)
    | Some _ => rfail
    end
  end
with list_r (fuel : nat) (exp : list Z) (e : TM.ty) (l : Ptr) {struct fuel} : RM TS.tval :=
  match fuel with
  | O => fun s => (RFuel, s)
  | S f =>
    let n := len_nat l in
    match e with
    | TM.TVoid => rret (TS.TvList (TM.tvals_of (repeat TS.TvVoid n)))
    | TM.TBool =>
      bs <-- for_each n 0 (fun i => acc l (bitlist_at (fx_bit fx) m l i)) ;;
      rret (TS.TvList (TM.tvals_of (map TS.TvBool bs)))
    | TM.TInt bits =>
      xs <-- for_each n 0 (fun i => acc l (list_uint_at (fx_upgrade fx) m l i (bits / 8))) ;;
      rret (TS.TvList (TM.tvals_of (map (fun x => TS.TvInt (TM.sint bits x)) xs)))
    | TM.TUint bits =>
      xs <-- for_each n 0 (fun i => acc l (list_uint_at (fx_upgrade fx) m l i (bits / 8))) ;;
      rret (TS.TvList (TM.tvals_of (map TS.TvInt xs)))
    | TM.TFloat bits =>
      xs <-- for_each n 0 (fun i => acc l (list_uint_at (fx_upgrade fx) m l i (bits / 8))) ;;
      rret (TS.TvList (TM.tvals_of (map (fun x => TS.TvFloat (ffmt bits x)) xs)))
    | TM.TData => vs <-- for_each n 0 (bytes_elem false l) ;; rret (TS.TvList (TM.tvals_of vs))
    | TM.TText => vs <-- for_each n 0 (bytes_elem true l) ;; rret (TS.TvList (TM.tvals_of vs))
    | TM.TStruct sid =>
      vs <-- for_each n 0 (fun i =>
               q <-- acc l (list_struct (fx_depth fx) l i) ;; struct_r f exp sid q) ;;
      rret (TS.TvList (TM.tvals_of vs))
    | TM.TList _ ee =>
      vs <-- for_each n 0 (fun i => q <-- ptr_elem l i ;; list_r f exp ee (as_list q)) ;;
      rret (TS.TvList (TM.tvals_of vs))
    | TM.TEnum eid =>
      vs <-- for_each n 0 (fun i =>
               v <-- acc l (list_uint_at (fx_upgrade fx) m l i 2) ;; enum_lenient eid v) ;;
      rret (TS.TvList (TM.tvals_of vs))
    | TM.TInterface =>
      vs <-- for_each n 0 (fun i =>
               q <-- ptr_elem l i ;;
               rret (if p_valid q then TS.TvMarker TM.marker_cap else TS.TvIdent TM.ident_null)) ;;
      rret (TS.TvList (TM.tvals_of vs))
    | TM.TAnyPointer => rret (TS.TvList (TM.tvals_of (repeat (TS.TvMarker TM.marker_any) n)))
    end
  end.

(* text.Marshal(id, s) with s = p.Struct(), on a message with [rl] bytes of budget left *)
Definition shown_r (fuel : nat) (id : Z) (p : Ptr) (rl : Z) : out TS.tval * rst :=
  struct_r fuel [] id (as_struct p) (mkRst rl 0 0 []).

Definition render_r (fuel : nat) (id : Z) (p : Ptr) (rl : Z) : out (list Z) * rst :=
  match shown_r fuel id p rl with
  | (ROk t, s) => (ROk (TM.print t), s)
  | (RErr, s) => (RErr, s)
  | (RPanic, s) => (RPanic, s)
  | (RFuel, s) => (RFuel, s)
  end.
End Walk.

(* the fuel that suffices: every dereference lowers the depth limit, between two dereferences
   there are at most G group levels and one list level *)
Definition fuel_for (G : nat) (D : Z) : nat := Z.to_nat ((Z.of_nat G + 3) * D + Z.of_nat G + 1).

(* the default-value walks as the code does them: TextM's walk (fixed configuration) over the
   schema's own default value, on a schema message whose budget Find has re-armed *)
Definition dflt_struct (ffmt : Z -> Z -> list Z) (sc : TM.schema) (dfuel : nat)
    (exp : list Z) (sid : Z) (dptr : TM.rval) : TM.res TS.tval :=
  let (d, ps) := TM.as_struct dptr in
  match TM.shown_struct ffmt TM.cfg_fixed sc dfuel exp sid d ps (Some (TM.c_reset TM.cfg_fixed)) with
  | TM.Ok (t, _) => TM.Ok t
  | TM.Err e => TM.Err e
  | TM.OutOfFuel => TM.OutOfFuel
  end.
Definition dflt_list (ffmt : Z -> Z -> list Z) (sc : TM.schema) (dfuel : nat)
    (exp : list Z) (e : TM.ty) (dptr : TM.rval) : TM.res TS.tval :=
  match TM.shown_list ffmt TM.cfg_fixed sc dfuel exp e dptr (Some (TM.c_reset TM.cfg_fixed)) with
  | TM.Ok (t, _) => TM.Ok t
  | TM.Err e => TM.Err e
  | TM.OutOfFuel => TM.OutOfFuel
  end.

(* the instance that is extracted and run against text.Marshal *)
Definition render_go (ffmt : Z -> Z -> list Z) (sc : TM.schema) (c : config) (fx : fixes) (m : segs)
    (dfuel fuel : nat) (id : Z) (p : Ptr) (rl : Z) : out (list Z) * rst :=
  render_r ffmt sc c fx m (dflt_struct ffmt sc dfuel) (dflt_list ffmt sc dfuel) fuel id p rl.
