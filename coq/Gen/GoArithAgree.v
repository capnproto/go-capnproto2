(* Hand-written, checked by the kernel on every run against the REGENERATED Gen/GoArith.v:
   every function translated from the Go source by gotrans equals the hand-written L0
   definition of Core/Arith.v (Core/ArithMore.v) on the whole range of its Go argument types
   (where the domain is smaller this is stated as a hypothesis and listed in docs/gotrans.md).
   A change of the Go arithmetic that changes a function's value makes this file fail to compile. *)
From Coq Require Import ZArith Lia Bool ZifyBool Btauto.
From CV Require Import Base.GoSem Base.Bits Core.Arith Core.ArithMore Gen.GoArith.
Open Scope Z_scope.
Ltac Zify.zify_post_hook ::= Z.div_mod_to_equations.

(* ranges of the Go types *)
Definition in_u8 (z : Z) := 0 <= z < 256.
Definition in_u16 (z : Z) := 0 <= z < 65536.
Definition in_u32 (z : Z) := 0 <= z < 4294967296.
Definition in_u64 (z : Z) := 0 <= z < 18446744073709551616.
Definition in_s32 (z : Z) := -2147483648 <= z < 2147483648.
Definition in_s64 (z : Z) := -9223372036854775808 <= z < 9223372036854775808.
Definition in_os (s : ObjectSize) := in_u32 (DataSize s) /\ in_u16 (PointerCount s).

(* Go's (value, ok) results against the option of Core/Arith.v: the value returned with
   ok = false is 0xffffffff in address.go *)
Definition ok_pair (d : Z) (o : option Z) : Z * bool :=
  match o with Some x => (x, true) | None => (d, false) end.

Ltac unranges := unfold in_os, in_u8, in_u16, in_u32, in_u64, in_s32, in_s64 in *.
Ltac unwrap := unfold wrap_u8, wrap_u16, wrap_u32, wrap_u64, wrap_s8, wrap_s16, wrap_s32, wrap_s64,
                      u8, u16, u32, u64, s32, s64 in *.
Ltac bits := rewrite ?land_3, ?land_7, ?ldiff_3, ?ldiff_7, ?ldiff_fffffffc,
                     ?shiftr_1, ?shiftr_2, ?shiftr_32, ?shiftr_35, ?shiftr_48.
Ltac split_ifs :=
  repeat match goal with
         | |- context [if ?c then _ else _] => let E := fresh "E" in destruct c eqn:E
         end.
(* [lor_ac]: equal up to associativity / commutativity of bitwise OR (operand order in the Go
   source is irrelevant), by extensionality on bits *)
Ltac lor_ac :=
  first [ reflexivity
        | (unwrap; apply Z.bits_inj'; let n := fresh "n" in let Hn := fresh "Hn" in intros n Hn;
           rewrite ?Z.lor_spec; btauto) ].
Ltac fin := first [reflexivity | lia | (f_equal; lia) | (repeat f_equal; lia)].

(* ------------------------------------------------------------------ address.go *)

(* [s64_noop]: every signed 64-bit wrap in the goal whose argument is provably in range is the
   identity.  Innermost first (an argument that still contains a wrap is skipped), so the proofs
   do not depend on the order of operands or on the names of Go locals. *)
Lemma wrap_s64_id : forall z, -9223372036854775808 <= z < 9223372036854775808 -> wrap_s64 z = z.
Proof. intros z H. unfold wrap_s64. cbv zeta. destruct (_ <? _) eqn:E; lia. Qed.
Ltac no_wrap_in e := lazymatch e with context [wrap_s64 _] => fail | _ => idtac end.
Ltac s64_noop :=
  repeat match goal with
         | |- context [wrap_s64 ?e] => no_wrap_in e; rewrite (wrap_s64_id e) by nia
         end.
Ltac ok_pair_fin := cbv zeta; split_ifs; try lia; [reflexivity | f_equal; unwrap; lia].

Theorem go_addSize_agrees : forall a sz, in_u32 a -> in_u32 sz ->
  go_addSize a sz = ok_pair 4294967295 (addSize a sz).
Proof.
  intros a sz Ha Hsz. unranges. unfold go_addSize, addSize, ok_pair, maxSegmentSize.
  s64_noop. replace (sz + a) with (a + sz) by lia. ok_pair_fin.
Qed.

Theorem go_addSizeUnchecked_agrees : forall a sz, go_addSizeUnchecked a sz = addSizeUnchecked a sz.
Proof. reflexivity. Qed.

Theorem go_element_agrees : forall a i sz, in_u32 a -> in_s32 i -> in_u32 sz ->
  go_element a i sz = ok_pair 4294967295 (element a i sz).
Proof.
  intros a i sz Ha Hi Hsz. unranges. unfold go_element, element, ok_pair, maxSegmentSize.
  assert (Hm : -9223372034707292160 <= i * sz <= 9223372030412324865) by nia.
  (* from here on the product is a variable: the remaining range conditions are linear *)
  rewrite ?(Z.mul_comm sz i). set (P := i * sz) in *. clearbody P.
  s64_noop. replace (P + a) with (a + P) by lia. ok_pair_fin.
Qed.

Theorem go_addOffset_agrees : forall a o, go_addOffset a o = addOffset a o.
Proof. reflexivity. Qed.

Theorem go_times_agrees : forall sz n, in_u32 sz -> in_s32 n ->
  go_times sz n = ok_pair 4294967295 (times sz n).
Proof.
  intros sz n Hsz Hn. unranges. unfold go_times, times, ok_pair, maxSegmentSize.
  assert (Hm : -9223372036854775808 <= sz * n < 9223372036854775808) by nia.
  rewrite ?(Z.mul_comm n sz). set (P := sz * n) in *. clearbody P.
  s64_noop. ok_pair_fin.
Qed.

Theorem go_timesUnchecked_agrees : forall sz n, go_timesUnchecked sz n = timesUnchecked sz n.
Proof. reflexivity. Qed.

Theorem go_padToWord_agrees : forall sz, go_padToWord sz = padToWord sz.
Proof. intro sz. unfold go_padToWord, padToWord. cbv zeta. bits. reflexivity. Qed.

Theorem go_isZero_agrees : forall s, go_isZero s = os_isZero s.
Proof. reflexivity. Qed.
Theorem go_isOneByte_agrees : forall s, go_isOneByte s = os_isOneByte s.
Proof. reflexivity. Qed.
Theorem go_isValid_agrees : forall s, go_isValid s = os_isValid s.
Proof. reflexivity. Qed.
Theorem go_pointerSize_agrees : forall s, go_pointerSize s = pointerSize s.
Proof. reflexivity. Qed.
Theorem go_totalSize_agrees : forall s, go_totalSize s = totalSize s.
Proof. reflexivity. Qed.

Theorem go_dataWordCount_agrees : forall s, in_os s -> go_dataWordCount s = dataWordCount s.
Proof.
  intros [ds pc] [Hd Hp]. unranges. cbn [DataSize PointerCount] in *.
  unfold go_dataWordCount, dataWordCount. cbn [DataSize PointerCount].
  rewrite rem_mod_nonneg, quot_div_nonneg by lia.
  destruct (ds mod 8 =? 0) eqn:E; cbn [negb]; [|reflexivity].
  f_equal. unwrap. split_ifs; lia.
Qed.

Theorem go_totalWordCount_agrees : forall s, in_os s -> go_totalWordCount s = totalWordCount s.
Proof.
  intros s Hs. unfold go_totalWordCount, totalWordCount.
  rewrite go_dataWordCount_agrees by assumption.
  destruct (dataWordCount s); reflexivity.
Qed.

Theorem go_BitOffset_offset_agrees : forall bit, in_u32 bit -> go_BitOffset_offset bit = bitOffset_offset bit.
Proof.
  intros bit H. unranges. unfold go_BitOffset_offset, bitOffset_offset.
  apply quot_div_nonneg; lia.
Qed.

Theorem go_BitOffset_mask_agrees : forall bit, in_u32 bit -> go_BitOffset_mask bit = bitOffset_mask bit.
Proof.
  intros bit H. unranges. unfold go_BitOffset_mask, bitOffset_mask.
  rewrite rem_mod_nonneg by lia. rewrite Z.mul_1_l.
  assert (Hk : 0 <= bit mod 8 < 8) by (apply Z.mod_pos_bound; lia).
  assert (Hp : 0 < 2 ^ (bit mod 8) < 256).
  { split; [apply Z.pow_pos_nonneg; lia|].
    change 256 with (2 ^ 8). apply Z.pow_lt_mono_r; lia. }
  unfold wrap_u8. apply Z.mod_small. lia.
Qed.

(* ------------------------------------------------------------------ list.go *)

(* Domain: the Go comment restricts bitListSize to [0, 1<<29); Core/Arith.v's definition is
   stated for n >= 0. They agree as long as n + 7 does not wrap in int32. (For n < 0 Go's
   truncated division differs from the floor division of Arith.bitListSize: see docs/gotrans.md.) *)
Theorem go_bitListSize_agrees : forall n, 0 <= n < 2147483648 - 7 ->
  go_bitListSize n = bitListSize n.
Proof.
  intros n H. unfold go_bitListSize, bitListSize.
  assert (Hw : wrap_s32 (n + 7) = n + 7) by (unwrap; split_ifs; lia).
  rewrite Hw, quot_div_nonneg by lia. reflexivity.
Qed.

(* ------------------------------------------------------------------ rawpointer.go *)

Theorem go_resolve_agrees : forall off base, in_s32 off -> in_u32 base ->
  go_resolve off base = ok_pair 4294967295 (resolve off base).
Proof.
  intros off base Ho Hb. unfold go_resolve, resolve.
  apply go_element_agrees; unranges; lia.
Qed.

Theorem go_nearPointerOffset_agrees : forall paddr addr, in_u32 paddr -> in_u32 addr ->
  go_nearPointerOffset paddr addr = nearPointerOffset paddr addr.
Proof.
  intros paddr addr Hp Ha. unranges. unfold go_nearPointerOffset, nearPointerOffset.
  rewrite !quot_div_nonneg by lia.
  assert (H : wrap_u32 (wrap_u32 (addr / 8 - paddr / 8) - 1) mod 4294967296
              = (addr / 8 - paddr / 8 - 1) mod 4294967296) by (unwrap; lia).
  unfold wrap_s32, s32. rewrite H. reflexivity.
Qed.

Theorem go_rawStructPointer_agrees : forall off sz, in_s32 off -> in_os sz ->
  go_rawStructPointer off sz = rawStructPointer off sz.
Proof.
  intros off sz Ho Hs. unfold go_rawStructPointer, rawStructPointer.
  rewrite go_dataWordCount_agrees by assumption.
  destruct (dataWordCount sz) as [d|] eqn:E; [|reflexivity].
  assert (Hd : 0 <= d < 536870912).
  { unfold dataWordCount in E. destruct Hs as [Hs _]. unranges.
    destruct (DataSize sz mod 8 =? 0); [|discriminate]. injection E as <-. lia. }
  assert (Hsd : s32 d = d) by (unwrap; split_ifs; lia).
  rewrite Hsd. lor_ac.
Qed.

Theorem go_rawListPointer_agrees : forall off lt len, in_s32 off -> in_s64 lt -> in_s32 len ->
  go_rawListPointer off lt len = rawListPointer off lt len.
Proof.
  intros off lt len Ho Hl Hn. unfold go_rawListPointer, rawListPointer, listPointer.
  assert (H : wrap_u64 (wrap_u64 lt * 4294967296) = u64 (lt * 4294967296)) by (unwrap; lia).
  rewrite H. lor_ac.
Qed.

Theorem go_rawInterfacePointer_agrees : forall cap, go_rawInterfacePointer cap = rawInterfacePointer cap.
Proof. lor_ac. Qed.

Theorem go_rawFarPointer_agrees : forall seg off, go_rawFarPointer seg off = rawFarPointer seg off.
Proof. intros. unfold go_rawFarPointer, rawFarPointer, farPointer. bits. lor_ac. Qed.

Theorem go_rawDoubleFarPointer_agrees : forall seg off,
  go_rawDoubleFarPointer seg off = rawDoubleFarPointer seg off.
Proof. intros. unfold go_rawDoubleFarPointer, rawDoubleFarPointer, doubleFarPointer. bits. lor_ac. Qed.

Theorem go_pointerType_agrees : forall p, in_u64 p -> go_pointerType p = pointerType p.
Proof.
  intros p Hp. unranges. unfold go_pointerType, pointerType. bits.
  rewrite (wrap_s64_id (p mod 4)), (wrap_s64_id (p mod 8)) by lia. first [reflexivity | (split_ifs; lia)].
Qed.

Theorem go_structSize_agrees : forall p, go_structSize p = structSize p.
Proof. intro p. unfold go_structSize, structSize. bits. reflexivity. Qed.

Theorem go_listType_agrees : forall p, in_u64 p -> go_listType p = listType p.
Proof.
  intros p Hp. unranges. unfold go_listType, listType. bits. apply wrap_s64_id. lia.
Qed.

Theorem go_numListElements_agrees : forall p, go_numListElements p = numListElements p.
Proof. intro p. unfold go_numListElements, numListElements. bits. reflexivity. Qed.

Lemma numListElements_range : forall p, in_u64 p -> 0 <= numListElements p < 536870912.
Proof. intros p Hp. unranges. unfold numListElements. unwrap. split_ifs; lia. Qed.

Theorem go_elementSize_agrees : forall p, in_u64 p -> go_elementSize p = elementSize p.
Proof.
  intros p Hp. unfold go_elementSize, elementSize. rewrite go_listType_agrees by assumption.
  reflexivity.
Qed.

(* Arith.totalListSize: Some (Some sz) = (sz, true), Some None = (0xffffffff, false), None = panic *)
Theorem go_totalListSize_agrees : forall p, in_u64 p ->
  go_totalListSize p = match totalListSize p with
                       | Some r => Some (ok_pair 4294967295 r)
                       | None => None
                       end.
Proof.
  intros p Hp. unfold go_totalListSize, totalListSize.
  rewrite go_listType_agrees, go_elementSize_agrees, go_numListElements_agrees by assumption.
  pose proof (numListElements_range p Hp) as Hn.
  cbv zeta.
  destruct (listType p =? 1) eqn:E1.
  { rewrite go_bitListSize_agrees by lia. reflexivity. }
  destruct (listType p =? 7) eqn:E7.
  { rewrite go_times_agrees; [reflexivity | unranges; lia | unranges; unwrap; split_ifs; lia]. }
  destruct (elementSize p); reflexivity.
Qed.

Theorem go_rawPointer_offset_agrees : forall p, go_rawPointer_offset p = ptr_offset p.
Proof. intro p. unfold go_rawPointer_offset, ptr_offset. bits. reflexivity. Qed.

Theorem go_withOffset_agrees : forall p off, go_withOffset p off = withOffset p off.
Proof. intros. unfold go_withOffset, withOffset. bits. reflexivity. Qed.

Theorem go_farAddress_agrees : forall p, go_farAddress p = farAddress p.
Proof. intro p. unfold go_farAddress, farAddress. bits. reflexivity. Qed.

Theorem go_farSegment_agrees : forall p, go_farSegment p = farSegment p.
Proof. intro p. unfold go_farSegment, farSegment. bits. reflexivity. Qed.

Theorem go_otherPointerType_agrees : forall p, go_otherPointerType p = otherPointerType p.
Proof. intro p. unfold go_otherPointerType, otherPointerType. bits. reflexivity. Qed.

Theorem go_capabilityIndex_agrees : forall p, go_capabilityIndex p = capabilityIndex p.
Proof. intro p. unfold go_capabilityIndex, capabilityIndex. bits. reflexivity. Qed.

Theorem go_landingPadNearPointer_agrees : forall far tag, in_u64 far ->
  go_landingPadNearPointer far tag = landingPadNearPointer far tag.
Proof.
  intros far tag Hf. unranges. unfold go_landingPadNearPointer, landingPadNearPointer. bits.
  assert (H : wrap_u32 (far / 4 * 4) = u32 far / 4 * 4) by (unwrap; lia).
  rewrite H. reflexivity.
Qed.

(* ------------------------------------------------------------------ segment.go *)

Theorem go_inBounds_agrees : forall len addr, go_inBounds len addr = inBounds len addr.
Proof. reflexivity. Qed.

Theorem go_regionInBounds_agrees : forall len base sz, in_u32 base -> in_u32 sz ->
  go_regionInBounds len base sz = regionInBounds len base sz.
Proof.
  intros len base sz Hb Hs. unfold go_regionInBounds, regionInBounds.
  rewrite go_addSize_agrees by assumption.
  destruct (addSize base sz); reflexivity.
Qed.

(* ------------------------------------------------------------------ struct.go *)

Theorem go_pointerAddress_agrees : forall off size i, in_u32 off -> in_os size -> in_u16 i ->
  go_pointerAddress off size i = pointerAddress off size i.
Proof.
  intros off [ds pc] i Ho [Hd Hp] Hi. cbn [DataSize PointerCount] in *.
  unfold go_pointerAddress, pointerAddress. cbn [DataSize PointerCount].
  rewrite go_addSize_agrees by assumption.
  unfold addSize, ok_pair, maxSegmentSize. unranges. cbv zeta.
  destruct (off + ds >? 4294967288) eqn:E1; rewrite go_element_agrees by (unranges; lia);
    unfold element, ok_pair, maxSegmentSize; cbv zeta; split_ifs; lia.
Qed.

Theorem go_bitInData_agrees : forall seg_ok size bit, go_bitInData seg_ok size bit = bitInData seg_ok size bit.
Proof. reflexivity. Qed.

(* Arith.dataAddress: Some (Some a) = (a, true), Some None = (0, false), None = panic *)
Theorem go_dataAddress_agrees : forall seg_nil p_off size off sz,
  go_dataAddress seg_nil p_off size off sz =
  match dataAddress seg_nil p_off size off sz with
  | Some r => Some (ok_pair 0 r)
  | None => None
  end.
Proof.
  intros. unfold go_dataAddress, dataAddress.
  change (wrap_u32 (off + sz)) with (u32 (off + sz)).
  destruct (seg_nil || (u32 (off + sz) >? DataSize size)); [reflexivity|].
  rewrite go_addOffset_agrees. destruct (addOffset p_off off); reflexivity.
Qed.

(* ------------------------------------------------------------------ message.go *)

Theorem go_canRead_step_agrees : forall curr sz, in_u64 curr -> in_u32 sz ->
  go_canRead_step curr sz = canRead_step curr sz.
Proof.
  intros curr sz Hc Hs. unranges. unfold go_canRead_step, canRead_step. cbv zeta.
  destruct (curr >=? sz) eqn:E; [|reflexivity].
  f_equal. unwrap. lia.
Qed.

(* non-vacuity: the range hypotheses are satisfiable, and a concrete instance *)
Example agree_hyps_satisfiable :
  in_u32 4294967295 /\ in_s32 (-2147483648) /\ in_s64 (-1) /\ in_u64 18446744073709551615 /\
  in_u16 65535 /\ in_os (mkOS 524280 65535) /\
  go_element 16 (-1) 8 = (8, true) /\ element 16 (-1) 8 = Some 8.
Proof. unfold in_os. unranges. cbn [DataSize PointerCount]. vm_compute. intuition congruence. Qed.
