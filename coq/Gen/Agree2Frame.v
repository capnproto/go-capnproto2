(* Translator tie, second group, owner Frame/Frame.v (C14: stream framing):
   message.go streamHeaderSize and streamHeader.segmentSize (as a function of the 32-bit word it
   reads from the header) as generated into Gen/GoArith2.v equal stream_header_size /
   segment_size of Frame/Frame.v. *)
From Coq Require Import ZArith Lia Bool ZifyBool.
From CV Require Import Base.GoSem Base.Bits Core.Arith Gen.GoArith Gen.GoArithAgree Gen.GoArith2.
From CV Require Frame.Frame.
Open Scope Z_scope.
Ltac Zify.zify_post_hook ::= Z.div_mod_to_equations.

Module F := Frame.Frame.

Ltac unframe := unfold F.wrap32, F.wrap64, F.to_int32, F.word_size, F.max_segment_size,
                       F.two31, F.two32, F.two64 in *.

Theorem go_streamHeaderSize_agrees : forall maxSeg, in_u32 maxSeg ->
  go_streamHeaderSize maxSeg = F.stream_header_size maxSeg.
Proof.
  intros m Hm. unranges. unfold go_streamHeaderSize, F.stream_header_size. bits. cbv zeta.
  unframe. unwrap.
  rewrite (Z.mod_small (m + 2)), (Z.mod_small ((m + 2) * 4)), (Z.mod_small ((m + 2) * 4 + 7)) by lia. lia.
Qed.

(* Size.times with sz = wordSize, as restated in Frame.v *)
Lemma word_times_times : forall n, F.word_times n = times 8 n.
Proof. intro n. unfold F.word_times, times, maxSegmentSize. unframe. reflexivity. Qed.

(* (sz, err != nil) of segmentSize for the word s read at the segment's header slot *)
Definition seg_size_pair (r : F.res Z) : Z * bool :=
  match r with F.Ok sz => (sz, false) | _ => (0, true) end.

Lemma to_int32_wrap : forall w, in_u32 w -> wrap_s32 w = F.to_int32 w.
Proof. intros w H. unranges. unframe. unwrap. split_ifs; lia. Qed.

Lemma to_int32_range : forall w, in_u32 w -> in_s32 (F.to_int32 w).
Proof. intros w H. unranges. unframe. split_ifs; lia. Qed.

Lemma in_u32_8 : in_u32 8.
Proof. unranges. lia. Qed.

Theorem go_segmentSize_agrees : forall word i, in_u32 word ->
  go_segmentSize word i =
  seg_size_pair (match F.word_times (F.to_int32 word) with
                 | Some sz => F.Ok sz
                 | None => F.Err F.ESegOverflow
                 end).
Proof.
  intros word i Hw. unfold go_segmentSize.
  rewrite (to_int32_wrap word Hw), word_times_times.
  rewrite (go_times_agrees 8 (F.to_int32 word) in_u32_8 (to_int32_range word Hw)).
  destruct (times 8 (F.to_int32 word)); reflexivity.
Qed.

(* the same against Frame.segment_size: when the header holds the word s at the segment's slot
   (the read does not panic), the model's result is the translated function of s *)
Theorem go_segmentSize_agrees_header : forall hb i s, in_u32 s ->
  F.uint32_at hb (F.seg_index i) = F.Ok s ->
  seg_size_pair (F.segment_size hb i) = go_segmentSize s i.
Proof.
  intros hb i s Hs Hrd. unfold F.segment_size. rewrite Hrd. cbn [F.bind].
  symmetry. apply go_segmentSize_agrees. exact Hs.
Qed.
