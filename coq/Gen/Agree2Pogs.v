(* Translator tie, second group, owner Pogs/PogsM.v (C19: pogs):
   pogs/insert.go isFieldInBounds (as a function of t.Which()) as generated into Gen/GoArith2.v
   against is_field_in_bounds of Pogs/PogsM.v.
   They agree exactly where the Go arithmetic does not wrap: Size(off+1)*k is computed in uint32
   and uint16(off+1) truncates; the model computes in Z. The agreement is therefore stated under
   the no-wrap hypotheses, and the cases outside are DISAGREEMENTS (see the _refuted examples and
   docs/gotrans.md): for such offsets the Go code reports a field as in bounds which is not. *)
From Coq Require Import ZArith Lia Bool ZifyBool.
From CV Require Import Base.GoSem Base.Bits Core.Arith Gen.GoArith Gen.GoArithAgree Gen.GoArith2.
From CV Require Pogs.PogsM.
Open Scope Z_scope.
Ltac Zify.zify_post_hook ::= Z.div_mod_to_equations.

Module P := Pogs.PogsM.

(* schema.Type_Which values that pogs maps to the model's field type *)
Definition which_matches (t : P.ftype) (w : Z) : Prop :=
  match t with
  | P.TVoid => w = 0
  | P.TBool => w = 1
  | P.TInt n => (n = 8%nat /\ (w = 2 \/ w = 6)) \/                 (* int8, uint8 *)
                (n = 16%nat /\ (w = 3 \/ w = 7 \/ w = 15)) \/      (* int16, uint16, enum *)
                (n = 32%nat /\ (w = 4 \/ w = 8 \/ w = 10)) \/      (* int32, uint32, float32 *)
                (n = 64%nat /\ (w = 5 \/ w = 9 \/ w = 11))         (* int64, uint64, float64 *)
  | P.TText _ => w = 12
  | P.TData => w = 13
  | P.TList _ => w = 14
  | P.TStruct _ _ => w = 16
  | P.TIface => w = 17
  | P.TAnyPtr => w = 18
  end.

(* the arithmetic of the Go function does not wrap for this field *)
Definition no_wrap (t : P.ftype) (off : Z) : Prop :=
  match t with
  | P.TVoid | P.TBool => True
  | P.TInt w => (off + 1) * P.wbytes w < 4294967296
  | _ => off + 1 < 65536
  end.

Theorem go_isFieldInBounds_agrees : forall t w s off,
  which_matches t w -> in_u32 off -> no_wrap t off ->
  go_isFieldInBounds w (mkOS (P.s_dbytes s) (P.s_pcount s)) off = P.is_field_in_bounds s off t.
Proof.
  intros t w s off Hm Ho Hn. unranges.
  unfold go_isFieldInBounds, P.is_field_in_bounds. cbn [DataSize PointerCount]. cbv zeta.
  destruct t as [| |n|tb| |e|ip id| |]; cbn [which_matches no_wrap] in *.
  1: { subst w. reflexivity. }
  1: { subst w. cbn [Z.eqb Pos.eqb orb]. rewrite quot_div_nonneg by lia.
       rewrite Z.geb_leb. f_equal. unwrap. lia. }
  1: { (* TInt n *)
    unfold P.wbytes in *.
    destruct Hm as [[-> Hw]|[[-> Hw]|[[-> Hw]|[-> Hw]]]];
      [change (Z.of_nat 8 / 8) with 1 in * | change (Z.of_nat 16 / 8) with 2 in *
      |change (Z.of_nat 32 / 8) with 4 in * | change (Z.of_nat 64 / 8) with 8 in *];
      repeat match goal with H : _ \/ _ |- _ => destruct H as [H|H] end; subst w;
      cbn [Z.eqb Pos.eqb orb]; rewrite Z.geb_leb; f_equal; unwrap; lia. }
  (* the six pointer-typed fields: one comparison with the pointer count *)
  all: subst w; cbn [Z.eqb Pos.eqb orb]; rewrite Z.geb_leb; f_equal; unwrap; lia.
Qed.

(* ---- outside the no-wrap domain the Go code and the model DISAGREE (arguments in the ranges of
   the Go types: off is a uint32 taken from the schema). The Go code says "in bounds". *)
Definition empty_struct : P.strct := P.Strct 0 (fun _ => false) 0 (fun _ => P.PNull).

(* uint16 field at offset 2^31-1: Size(off+1)*2 wraps to 0 *)
Example isFieldInBounds_int16_refuted :
  go_isFieldInBounds 3 (mkOS 0 0) 2147483647 = true /\
  P.is_field_in_bounds empty_struct 2147483647 (P.TInt 16) = false.
Proof. vm_compute. split; reflexivity. Qed.

(* any data field at offset 2^32-1: off+1 wraps to 0 *)
Example isFieldInBounds_int8_refuted :
  go_isFieldInBounds 2 (mkOS 0 0) 4294967295 = true /\
  P.is_field_in_bounds empty_struct 4294967295 (P.TInt 8) = false.
Proof. vm_compute. split; reflexivity. Qed.

(* pointer field at offset 65535: uint16(off+1) truncates to 0 *)
Example isFieldInBounds_pointer_refuted :
  go_isFieldInBounds 12 (mkOS 0 0) 65535 = true /\
  P.is_field_in_bounds empty_struct 65535 (P.TText false) = false.
Proof. vm_compute. split; reflexivity. Qed.

(* non-vacuity *)
Example isFieldInBounds_hyps_satisfiable :
  which_matches (P.TInt 32) 10 /\ no_wrap (P.TInt 32) 7 /\ which_matches P.TAnyPtr 18 /\ no_wrap P.TAnyPtr 65534.
Proof. cbn. unfold P.wbytes. cbn. intuition lia. Qed.
