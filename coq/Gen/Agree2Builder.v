(* Translator tie, second group, owner Core/Builder.v (C04/C05/C16: the builder model):
   message.go nextAlloc (with its growth loop), hasCapacity, address.go maxAllocSize, as generated
   into Gen/GoArith2.v, equal the definitions of Core/Builder.v. Hand-written; re-checked
   against the regenerated file on every run. *)
From Coq Require Import ZArith Lia Bool ZifyBool.
From CV Require Import Base.GoSem Base.Bits Core.Arith Core.Builder Gen.GoArith Gen.GoArithAgree Gen.GoArith2.
Open Scope Z_scope.
Ltac Zify.zify_post_hook ::= Z.div_mod_to_equations.

Theorem go_maxAllocSize_agrees : go_maxAllocSize = maxAllocSize.
Proof. reflexivity. Qed.

(* cap(b), len(b): 0 <= len <= cap <= maxInt in Go; only the int range is needed *)
Theorem go_hasCapacity_agrees : forall s sz,
  0 <= bs_cap s < 9223372036854775808 -> 0 <= blen s < 9223372036854775808 ->
  go_hasCapacity (bs_cap s) (blen s) sz = hasCapacity s sz.
Proof.
  intros s sz Hc Hl. unfold go_hasCapacity, hasCapacity. rewrite wrap_s64_id by lia. reflexivity.
Qed.

(* ---- the growth loop: for 0 < new && new < want { new += new / 4 } *)

Definition step (x : Z) : Z := wrap_s64 (x + Z.quot x 4).

Lemma loop1_S : forall f want x,
  go_nextAlloc_loop1 (S f) want x =
  if (0 <? x) && (x <? want) then go_nextAlloc_loop1 f want (step x) else Some x.
Proof. reflexivity. Qed.

Lemma loop1_fuel_mono : forall f want new r,
  go_nextAlloc_loop1 f want new = Some r -> go_nextAlloc_loop1 (S f) want new = Some r.
Proof.
  induction f as [|f IH]; intros want new r H; [discriminate|].
  rewrite loop1_S in *. destruct ((0 <? new) && (new <? want)); [apply IH|]; exact H.
Qed.

Lemma loop1_fuel_ge : forall k f want new r,
  go_nextAlloc_loop1 f want new = Some r -> go_nextAlloc_loop1 (k + f) want new = Some r.
Proof. induction k; intros; [assumption|]. cbn [Nat.add]. apply loop1_fuel_mono. auto. Qed.

(* the loop of the model ([grow], any larger fuel) computes the same value, and the loop has left *)
Lemma loop1_grow : forall f want new r,
  go_nextAlloc_loop1 f want new = Some r ->
  forall g, (f <= g)%nat -> grow g new want = r /\ (0 <? r) && (r <? want) = false.
Proof.
  induction f as [|f IH]; intros want new r H g Hg; [discriminate|].
  destruct g as [|g]; [lia|].
  rewrite loop1_S in H. cbn [grow].
  destruct ((0 <? new) && (new <? want)) eqn:E.
  - unfold step in H. rewrite quot_div_nonneg in H by lia. apply (IH _ _ _ H). lia.
  - injection H as <-. split; [reflexivity|exact E].
Qed.

Lemma loop1_in_s64 : forall f w x y, in_s64 x -> go_nextAlloc_loop1 f w x = Some y -> in_s64 y.
Proof.
  induction f; intros w x y Hx H; [discriminate|]. rewrite loop1_S in H.
  destruct ((0 <? x) && (x <? w)).
  - eapply IHf; [|exact H]. unfold step. unranges. unwrap. split_ifs; lia.
  - injection H as <-. exact Hx.
Qed.

Lemma step_grows : forall x, 4 <= x < 9223372036854775808 ->
  step x <= 0 \/ 4 * step x >= 5 * x - 3.
Proof.
  intros x Hx. unfold step. rewrite quot_div_nonneg by lia. unwrap. split_ifs; lia.
Qed.

(* in the branch where the loop runs (1024 <= want <= 2*curr) five iterations are enough *)
Lemma loop1_exits : forall want curr, 512 <= curr -> curr < want -> want <= 2 * curr ->
  2 * curr < 9223372036854775808 ->
  exists r, go_nextAlloc_loop1 5 want curr = Some r.
Proof.
  intros want curr Hc Hw Hd Hm.
  assert (Hs : forall x, 0 < x -> x < want -> step x <= 0 \/ 4 * step x >= 5 * x - 3).
  { intros x H0 H1. destruct (Z_lt_le_dec x 4) as [Hlt|Hge].
    - unfold step. rewrite quot_div_nonneg by lia. unwrap. split_ifs; lia.
    - apply step_grows. lia. }
  rewrite loop1_S. destruct ((0 <? curr) && (curr <? want)) eqn:E0; [|eauto]. set (x1 := step curr).
  rewrite loop1_S. destruct ((0 <? x1) && (x1 <? want)) eqn:E1; [|eauto]. set (x2 := step x1).
  rewrite loop1_S. destruct ((0 <? x2) && (x2 <? want)) eqn:E2; [|eauto]. set (x3 := step x2).
  rewrite loop1_S. destruct ((0 <? x3) && (x3 <? want)) eqn:E3; [|eauto]. set (x4 := step x3).
  rewrite loop1_S. destruct ((0 <? x4) && (x4 <? want)) eqn:E4; [|eauto].
  exfalso.
  pose proof (Hs curr ltac:(lia) ltac:(lia)) as G0. pose proof (Hs x1 ltac:(lia) ltac:(lia)) as G1.
  pose proof (Hs x2 ltac:(lia) ltac:(lia)) as G2. pose proof (Hs x3 ltac:(lia) ltac:(lia)) as G3.
  fold x1 in G0. fold x2 in G1. fold x3 in G2. fold x4 in G3. lia.
Qed.

(* a sum of two non-negative 64-bit values either fits or wraps to a negative number *)
Lemma s64_sum : forall x, 0 <= x < 18446744073709551616 ->
  (s64 x = x /\ x < 9223372036854775808) \/ s64 x < 0.
Proof. intros x H. unfold s64. cbv zeta. destruct (_ <? _) eqn:E; lia. Qed.

Definition alloc_pair (r : res Z) : Z * bool :=
  match r with Ok n => (n, false) | _ => (0, true) end.

(* nextAlloc(curr, max int64, req Size) (int, error): the error is observed as non-nil.
   Fuel: 5 iterations suffice (any fuel >= 5 gives the same result), OutOfFuel does not occur.
   Domain: 0 <= curr (curr is a segment length / the message's total size); for curr close to
   minInt64 the Go code's 1024 - curr wraps, which Builder.nextAlloc does not model. *)
Theorem go_nextAlloc_agrees : forall k curr max req,
  0 <= curr < 9223372036854775808 -> in_s64 max -> in_u32 req ->
  go_nextAlloc (k + 5) curr max req = Done (alloc_pair (nextAlloc curr max req)).
Proof.
  intros k curr max req Hc Hm Hr. unranges.
  unfold go_nextAlloc, nextAlloc.
  rewrite go_maxAllocSize_agrees, go_padToWord_agrees.
  change (wrap_s64 (curr + padToWord req)) with (s64 (curr + padToWord req)).
  change (wrap_s64 (curr + curr)) with (s64 (curr + curr)).
  destruct (req =? 0) eqn:E0; [reflexivity|].
  destruct (req >? maxAllocSize) eqn:E1; [reflexivity|].
  cbv zeta.
  set (padreq := padToWord req). set (want := s64 (curr + padreq)).
  assert (Hpad : 0 <= padreq <= 4294967288 /\ padreq mod 8 = 0).
  { subst padreq. unfold padToWord, maxAllocSize, maxSegmentSize in *. unwrap. lia. }
  destruct ((want <=? curr) || (want >? max)) eqn:E2; [reflexivity|].
  assert (Hweq : want = curr + padreq) by (destruct (s64_sum (curr + padreq)); lia).
  destruct (want <? 1024) eqn:E3.
  - bits. rewrite (wrap_s64_id (1024 - curr)), (wrap_s64_id (1024 - curr + 7)), (wrap_s64_id (curr + 7)) by lia.
    destruct ((1024 - curr + 7) / 8 * 8 <? curr); reflexivity.
  - destruct (want >? s64 (curr + curr)) eqn:E4; [reflexivity|].
    destruct (s64_sum (curr + curr)) as [[Hdeq Hdlt]|]; [lia| |lia]. rewrite Hdeq in E4.
    destruct (loop1_exits want curr ltac:(lia) ltac:(lia) ltac:(lia) ltac:(lia)) as [r Hr5].
    rewrite (loop1_fuel_ge k 5 want curr r Hr5).
    destruct (loop1_grow 5 want curr r Hr5 400 ltac:(lia)) as [Hg Hleft].
    rewrite Hg, Hleft.
    destruct (r <=? 0) eqn:E5; [reflexivity|].
    pose proof (loop1_in_s64 5 want curr r ltac:(unranges; lia) Hr5) as Hrs. unranges.
    rewrite (wrap_s64_id (r - curr)) by lia. unfold maxAllocSize, maxSegmentSize in *.
    destruct (r - curr >? 4294967288) eqn:E6; [reflexivity|].
    bits. rewrite (wrap_s64_id (r - curr + 7)) by lia. reflexivity.
Qed.

(* non-vacuity, and the three branches on concrete values *)
Example nextAlloc_examples :
  go_nextAlloc 5 0 9223372036854775807 8 = Done (1024, false) /\
  go_nextAlloc 5 4096 9223372036854775807 8 = Done (1024, false) /\
  go_nextAlloc 5 4096 9223372036854775807 100000 = Done (100000, false) /\
  go_nextAlloc 5 4096 4100 8 = Done (0, true) /\
  nextAlloc 4096 9223372036854775807 8 = Ok 1024.
Proof. vm_compute. repeat split; reflexivity. Qed.
