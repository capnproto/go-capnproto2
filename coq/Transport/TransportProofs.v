(* Proofs about the transport model: after a torn write the stream stops (VFixed); the code as
   found (VFound) and the naive repair (VUnwrap) are refuted by concrete fault schedules. *)
From Coq Require Import List ZArith Bool Arith Lia.
From CV Require Import Transport.Transport.
Import ListNotations.

Lemma is_prefix_nil {A} (l : list A) : is_prefix [] l.
Proof. exists l. reflexivity. Qed.

Lemma is_prefix_refl {A} (l : list A) : is_prefix l l.
Proof. exists []. now rewrite app_nil_r. Qed.

Lemma is_prefix_app {A} (a p l : list A) : is_prefix p l -> is_prefix (a ++ p) (a ++ l).
Proof. intros [s ->]. exists s. now rewrite app_assoc. Qed.

Lemma is_prefix_app_r {A} (p l m : list A) : is_prefix p l -> is_prefix p (l ++ m).
Proof. intros [s ->]. exists (s ++ m). now rewrite app_assoc. Qed.

Lemma firstn_is_prefix {A} n (l : list A) : is_prefix (firstn n l) l.
Proof. exists (skipn n l). symmetry. apply firstn_skipn. Qed.

Lemma is_prefix_length {A} (p l : list A) : is_prefix p l -> length p <= length l.
Proof. intros [s ->]. rewrite app_length. lia. Qed.

Lemma is_prefix_full {A} (p l : list A) : is_prefix p l -> length p = length l -> p = l.
Proof.
  intros [s ->] H. rewrite app_length in H. assert (length s = 0) by lia.
  destruct s; [now rewrite app_nil_r | discriminate].
Qed.

(* What Transport.v and CtxWrite.v have in common: a state with a wire and a sticky error flag,
   a send that refuses on a broken stream and otherwise puts a prefix of the frame on the wire,
   breaking the stream exactly when it fails with part of the frame written, and a run that
   folds send over the operations. *)
Section Stream.
  Variables (T Op : Type) (wire : T -> list Z) (brk : T -> bool) (fr : Op -> frame).
  Variable send : Op -> T -> T * sres.
  Variable run : T -> list Op -> T * list sres.

  Definition run_of : Prop := forall t ops, run t ops =
    match ops with
    | [] => (t, [])
    | o :: rest => let '(t1, r) := send o t in let '(t2, rs) := run t1 rest in (t2, r :: rs)
    end.

  (* one send on a healthy stream; p = the bytes of the frame that reached the wire *)
  Definition sent (o : Op) (t t' : T) (r : sres) : Prop :=
    exists p, wire t' = wire t ++ p /\ is_prefix p (frame_bytes (fr o)) /\
      (r = SOk /\ p = frame_bytes (fr o) /\ brk t' = false \/ r = SErr /\ brk t' = (0 <? length p)).

  Lemma sent_ok o t t' :
    wire t' = wire t ++ frame_bytes (fr o) -> brk t' = false -> sent o t t' SOk.
  Proof. intros Hw Hb. exists (frame_bytes (fr o)). auto 7 using is_prefix_refl. Qed.

  Lemma sent_err o t t' p :
    wire t' = wire t ++ p -> is_prefix p (frame_bytes (fr o)) -> brk t' = (0 <? length p) ->
    sent o t t' SErr.
  Proof. intros Hw Hp Hb. exists p. auto 6. Qed.

  (* w0 followed by whole frames of fs, in order, followed by at most one torn frame, which is
     there only if the stream is broken; [well_framed] and [w_well_framed] are [framed []] *)
  Definition framed (w0 : list Z) (fs : list frame) (t : T) : Prop :=
    exists done tail,
      wire t = w0 ++ concat (map frame_bytes done) ++ tail /\
      subseq done fs /\
      (brk t = false -> tail = []) /\
      (tail <> [] -> exists f, In f fs /\ is_prefix tail (frame_bytes f)).

  Hypothesis run_eq : run_of.
  Hypothesis send_broken : forall o t, brk t = true -> send o t = (t, SNmErr).

  (* once broken, every later send fails and the state does not change *)
  Lemma run_sticky : forall ops t,
    brk t = true -> run t ops = (t, map (fun _ => SNmErr) ops).
  Proof.
    induction ops as [|o rest IH]; intros t Hb; rewrite run_eq; [reflexivity|].
    rewrite (send_broken o t Hb), (IH t Hb). reflexivity.
  Qed.

  Lemma run_app : forall a t b,
    run t (a ++ b) =
    let '(ta, ra) := run t a in let '(tb, rb) := run ta b in (tb, ra ++ rb).
  Proof.
    induction a as [|o a IH]; intros t b; cbn [app].
    - rewrite (run_eq t []). now destruct (run t b).
    - rewrite (run_eq t (o :: a ++ b)), (run_eq t (o :: a)). destruct (send o t) as [t1 r]. rewrite IH.
      destruct (run t1 a) as [ta ra]. now destruct (run ta b).
  Qed.

  (* a send that breaks the stream is the last thing the stream sees *)
  Lemma run_after_break a o b t t1 rs1 t2 r :
    run t a = (t1, rs1) -> send o t1 = (t2, r) -> brk t2 = true ->
    run t (a ++ o :: b) = (t2, rs1 ++ r :: map (fun _ => SNmErr) b).
  Proof.
    intros Ha Hs Hb. now rewrite run_app, Ha, run_eq, Hs, (run_sticky b t2 Hb).
  Qed.

  Hypothesis send_spec : forall o t t' r, brk t = false -> send o t = (t', r) -> sent o t t' r.

  Lemma run_framed : forall ops t t' rs,
    brk t = false -> run t ops = (t', rs) -> framed (wire t) (map fr ops) t'.
  Proof.
    induction ops as [|o rest IH]; intros t t' rs Hb H; rewrite run_eq in H.
    - injection H as <- _. exists [], []. rewrite !app_nil_r.
      repeat split; [constructor | congruence].
    - destruct (send o t) as [t1 r] eqn:Hs. destruct (run t1 rest) as [t2 rs2] eqn:Hr.
      injection H as -> _.
      destruct (send_spec _ _ _ _ Hb Hs) as (p & Hw1 & Hp & Hcase).
      destruct (brk t1) eqn:Hb1.
      + (* nothing follows: p is the tail *)
        rewrite (run_sticky _ _ Hb1) in Hr. injection Hr as <- _.
        exists [], p. repeat split; [exact Hw1 | constructor | congruence |].
        intros _. exists (fr o). split; [now left | exact Hp].
      + (* p is the whole frame or nothing, and the rest of the run is framed by induction *)
        destruct (IH _ _ _ Hb1 Hr) as (done & tail & Hwire & Hsub & Htl & Hpre).
        assert (Hpre' : tail <> [] ->
                  exists f, In f (map fr (o :: rest)) /\ is_prefix tail (frame_bytes f)).
        { intros Hn. destruct (Hpre Hn) as (f & Hin & Hf). exists f. split; [now right | exact Hf]. }
        destruct Hcase as [(_ & -> & _) | (_ & Hz)].
        * exists (fr o :: done), tail. repeat split; auto.
          -- rewrite Hwire, Hw1. cbn [map concat]. now rewrite <- !app_assoc.
          -- now constructor.
        * symmetry in Hz. apply Nat.ltb_ge, Nat.le_0_r, length_zero_iff_nil in Hz. subst p.
          rewrite app_nil_r in Hw1. exists done, tail. repeat split; auto.
          -- congruence.
          -- now constructor.
  Qed.

  (* from a healthy state: the wire grows by whole frames plus at most one torn frame, and once
     the stream is broken every later send fails without changing the state *)
  Theorem run_stops_stream t0 ops t rs :
    brk t0 = false -> run t0 ops = (t, rs) ->
    framed (wire t0) (map fr ops) t /\
    (brk t = true -> forall more, run t more = (t, map (fun _ => SNmErr) more)).
  Proof.
    intros Hb H. split; [exact (run_framed _ _ _ _ Hb H) | intros Hb' more; now apply run_sticky].
  Qed.
End Stream.
Arguments run_of {T Op}.
Arguments sent {T Op}.
Arguments framed {T}.
Arguments run_after_break {T Op brk send run}.
Arguments run_stops_stream {T Op wire brk fr send run}.

Lemma ctxw_write_spec o b n e : ctxw_write o b = (n, e) ->
  n <= length b /\ (e = ENone -> n = length b) /\ (e = EPartial -> 0 < n).
Proof.
  destruct o as [|k|]; cbn [ctxw_write]; intros H; injection H as <- <-.
  - repeat split; auto. discriminate.
  - split; [apply Nat.le_min_r|].
    destruct (0 <? Nat.min k (length b)) eqn:E; cbn [andb].
    + apply Nat.ltb_lt in E. destruct (Nat.min k (length b) <? length b); split; auto; discriminate.
    + split; discriminate.
  - repeat split; [lia | discriminate..].
Qed.

(* [encode_bufs] and [send1] test for one value of the context state and treat all others alike *)
Lemma alive_cases (al : option nat) :
  al = Some 0 \/ forall A (a b : A), match al with Some 0 => a | _ => b end = b.
Proof. destruct al as [[|k]|]; auto. Qed.

Lemma cmode_cases (c : cmode) :
  c = CDone \/ forall A (a b : A), match c with CDone => a | _ => b end = b.
Proof. destruct c; auto. Qed.

Lemma encode_bufs_spec orc : forall bufs st w al st' w' e,
  encode_bufs orc bufs st w al = (st', w', e) ->
  exists p, wire st' = wire st ++ p /\ is_prefix p (concat bufs) /\ w' = w + length p /\
            broken st' = broken st /\ (e = ENone -> p = concat bufs) /\
            (e = EPartial -> 0 < length p).
Proof.
  induction bufs as [|b rest IH]; intros st w al st' w' e H; cbn [encode_bufs] in H.
  - injection H as <- <- <-. exists []. rewrite app_nil_r.
    repeat split; auto using is_prefix_nil. discriminate.
  - destruct (alive_cases al) as [-> | Hlive].
    { (* the context is done: no Write is made *)
      injection H as <- <- <-. exists []. rewrite app_nil_r.
      repeat split; auto using is_prefix_nil; discriminate. }
    rewrite Hlive in H.
    destruct (ctxw_write (orc (nw st)) b) as [n e1] eqn:Hw.
    destruct (ctxw_write_spec _ _ _ _ Hw) as (Hle & Hok & Hpart). destruct e1.
    2,3: (* the Write failed after n bytes of b *)
      injection H as <- <- <-; exists (firstn n b); rewrite firstn_length_le by exact Hle;
      cbn [concat]; repeat split; auto using is_prefix_app_r, firstn_is_prefix; discriminate.
    (* b is written whole; the rest by induction *)
    rewrite (Hok eq_refl), firstn_all in H.
    apply IH in H as (p & Hwire & Hp & -> & Hb & Hok' & Hpart').
    exists (b ++ p). cbn [wire broken concat] in *. rewrite app_length, Hwire, <- app_assoc.
    repeat split; auto using is_prefix_app.
    + lia.
    + now intros ->%Hok'.
    + intros He%Hpart'. lia.
Qed.

Definition send_op (v : variant) (orc : nat -> wout) (o : op) : tstate -> tstate * sres :=
  send1 v orc (fst o) (snd o).

Lemma run_from_eq v orc : run_of (send_op v orc) (run_from v orc).
Proof. intros t [|[c f] ops]; reflexivity. Qed.

Lemma send1_broken v orc o st : broken st = true -> send_op v orc o st = (st, SNmErr).
Proof. intros Hb. unfold send_op, send1. now rewrite Hb. Qed.

Lemma send1_fixed_spec orc o st st' r :
  broken st = false -> send_op VFixed orc o st = (st', r) -> sent wire broken snd o st st' r.
Proof.
  destruct o as [c f]. unfold send_op, send1; cbn [fst snd]. intros Hb H. rewrite Hb in H.
  destruct (cmode_cases c) as [-> | Hlive].
  { (* the context is done: nothing is sent *)
    injection H as <- <-. apply sent_err with (p := []); auto using is_prefix_nil.
    now rewrite app_nil_r. }
  rewrite Hlive in H.
  destruct (encode_bufs orc f st 0 (alive_of c)) as [[st1 w] e] eqn:He.
  apply encode_bufs_spec in He as (p & Hwire & Hp & -> & Hbr & Hok & _).
  destruct e; injection H as <- <-.
  2,3: now apply sent_err with (p := p).
  apply sent_ok; [now rewrite Hwire, (Hok eq_refl) | congruence].
Qed.

(* a short write (0 < n < len) breaks the stream, in the fixed code *)
Lemma send1_partial orc f st st1 w :
  broken st = false -> encode_bufs orc f st 0 None = (st1, w, EPartial) ->
  send1 VFixed orc CLive f st = (mkT (wire st1) (nw st1) true, SErr).
Proof.
  intros Hb He. unfold send1. rewrite Hb. cbn [alive_of]. rewrite He. cbn [sets_broken].
  apply encode_bufs_spec in He as (p & _ & _ & -> & _ & _ & Hpart).
  cbn [Nat.add]. now rewrite (proj2 (Nat.ltb_lt _ _) (Hpart eq_refl)).
Qed.

Lemma short_write_sets_broken orc f st st1 w :
  broken st = false -> encode_bufs orc f st 0 None = (st1, w, EPartial) ->
  broken (fst (send1 VFixed orc CLive f st)) = true.
Proof. intros Hb He. now rewrite (send1_partial _ _ _ _ _ Hb He). Qed.

Lemma subseq_refl_nil {A} (l : list A) : subseq [] l.
Proof. constructor. Qed.

(* THE theorem: for every message sequence and every fault schedule the wire of the fixed code
   is whole frames plus at most one torn frame, and once a frame is torn (stream broken) every
   later NewMessage/send fails without writing a byte. *)
Theorem torn_write_stops_stream_fixed : forall orc ops st rs,
  run VFixed orc ops = (st, rs) ->
  well_framed (map snd ops) st /\
  (broken st = true -> forall more, run_from VFixed orc st more = (st, map (fun _ => SNmErr) more)).
Proof.
  intros orc ops st rs.
  exact (run_stops_stream (run_from_eq VFixed orc) (send1_broken VFixed orc) (send1_fixed_spec orc)
           t_init ops st rs eq_refl).
Qed.

(* a short write is followed by no byte at all: explicit form for one torn write *)
Theorem after_short_write_nothing_written : forall orc ops1 f ops2 st1 rs1 st1' w,
  run VFixed orc ops1 = (st1, rs1) -> broken st1 = false ->
  encode_bufs orc f st1 0 None = (st1', w, EPartial) ->
  forall st rs, run VFixed orc (ops1 ++ (CLive, f) :: ops2) = (st, rs) ->
  wire st = wire st1' /\ rs = rs1 ++ SErr :: map (fun _ => SNmErr) ops2.
Proof.
  intros orc ops1 f ops2 st1 rs1 st1' w H1 Hb He st rs H.
  pose proof (run_after_break (run_from_eq VFixed orc) (send1_broken VFixed orc) ops1 (CLive, f) ops2
                _ _ _ _ _ H1 (send1_partial _ _ _ _ _ Hb He) eq_refl) as E.
  injection (eq_trans (eq_sym H) E) as -> ->. split; reflexivity.
Qed.

Local Open Scope Z_scope.
Example torn_example :
  run_tbl VFixed [(1%nat, WErr 2)] [(CLive, [[0;0]; [1;2;3;4]]); (CLive, [[0;0]; [5;6;7;8]])]
  = ([0;0;1;2], [SErr; SNmErr]).
Proof. vm_compute. reflexivity. Qed.

(* cancellation between two Writes of one frame: the header is on the wire, the segment is not;
   the fixed code marks the stream broken, the code as found goes on *)
Example cancel_between_writes_fixed :
  run_tbl VFixed [] [(CCancel1, [[9;9]; [1;2;3;4]]); (CLive, [[9;9]; [5;6;7;8]])]
  = ([9;9], [SErr; SNmErr]).
Proof. vm_compute. reflexivity. Qed.

Example cancel_between_writes_found_refuted :
  run_tbl VFound [] [(CCancel1, [[9;9]; [1;2;3;4]]); (CLive, [[9;9]; [5;6;7;8]])]
  = ([9;9;9;9;5;6;7;8], [SErr; SOk]).
Proof. vm_compute. reflexivity. Qed.

Definition f1 : frame := [[1;2;3;4]].
Definition f2 : frame := [[5;6;7;8]].

Lemma subseq_two_cases (f1 f2 : frame) (d : list frame) : subseq d [f1; f2] ->
  d = [] \/ d = [f1] \/ d = [f2] \/ d = [f1; f2].
Proof.
  intros H. inversion H as [ | x l1 l2 H2 | x l1 l2 H2]; subst; auto;
    inversion H2 as [ | y m1 m2 H3 | y m1 m2 H3]; subst; auto 6;
    inversion H3; subst; auto 6.
Qed.

(* F18: the code as found never marks the stream broken, so a second message follows the
   torn one and the peer parses garbage *)
Example torn_write_stops_stream_found_refuted :
  exists orc ops st rs, run VFound orc ops = (st, rs) /\ ~ well_framed (map snd ops) st.
Proof.
  exists (orc_of [(0%nat, WErr 2)]), [(CLive, f1); (CLive, f2)].
  eexists. eexists. split; [vm_compute; reflexivity|].
  intros (done & tail & Hw & Hs & Ht & _). cbn in *.
  specialize (Ht eq_refl). subst tail. rewrite app_nil_r in Hw.
  destruct (subseq_two_cases _ _ _ Hs) as [->|[->|[->| ->]]]; vm_compute in Hw; discriminate.
Qed.

Example found_sends_after_torn_write :
  run_tbl VFound [(0%nat, WErr 2)] [(CLive, f1); (CLive, f2)] = ([1;2;5;6;7;8], [SErr; SOk]).
Proof. vm_compute. reflexivity. Qed.

(* making the assertion see through the wrapping is not enough: an error with n = 0 on the
   segment write leaves a bare header on the wire and the stream goes on *)
Example torn_write_stops_stream_unwrap_refuted :
  exists orc ops st rs, run VUnwrap orc ops = (st, rs) /\ ~ well_framed (map snd ops) st.
Proof.
  exists (orc_of [(1%nat, WErr 0)]), [(CLive, [[9;9]; [1;2;3;4]]); (CLive, [[9;9]; [5;6;7;8]])].
  eexists. eexists. split; [vm_compute; reflexivity|].
  intros (done & tail & Hw & Hs & Ht & _). cbn in *.
  specialize (Ht eq_refl). subst tail. rewrite app_nil_r in Hw.
  destruct (subseq_two_cases _ _ _ Hs) as [->|[->|[->| ->]]]; vm_compute in Hw; discriminate.
Qed.
