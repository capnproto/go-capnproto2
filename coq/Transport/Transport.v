(* C09 / Transport — model of the outbound byte stream of rpc/transport.go.

   Modelled code (same checks, same order):
     ctxWriteCloser.Write      n, err := wc.write(b); if 0 < n < len(b) { err = partialWriteError{err} }
     capnp.Encoder.Encode      one Write per buffer (header, then each segment; net.Buffers.WriteTo
                               over a plain io.Writer), stops at the first error and returns
                               errorf("encode: %v", err) -- the dynamic type of err is lost
     streamCodec.Encode        (after the fix) counts the bytes written during this Encode and
                               returns partialWriteError when an error leaves part of a frame on the wire
     transport.NewMessage      fails when the sticky transport.err is set
     send closure              ctx.Err() check, transport.err check, Encode, classification of the
                               error, sticky transport.err
   The environment decides the outcome of every Write call ([wout], any function of the call index).
   Not modelled here: deadlines (SetWriteDeadline path of ctxWriteCloser.write; see CtxWrite.v),
   the packed encoder.

   Three variants of the classification are kept:
     VFound   the code as found: the type assertion is applied to the error wrapped by
              Encoder.Encode, so it never succeeds (F18)
     VUnwrap  a hypothetical repair that only makes the assertion see through the wrapping:
              still wrong, a frame can be torn at a buffer boundary by an error with n = 0
     VFixed   the repair that was applied: any failed Encode that has put bytes on the wire
              breaks the stream. *)
From Coq Require Import List ZArith Bool Arith Lia.
Import ListNotations.

Definition frame := list (list Z).          (* the buffers of one message, one Write call each *)
Definition frame_bytes (f : frame) : list Z := concat f.

(* outcome of one Write call, chosen by the environment *)
Inductive wout :=
| WOk                 (* everything written, nil error *)
| WErr (n : nat)      (* non-nil error after n bytes (n is clipped to the buffer length) *)
| WCtx.               (* the write context is already done: (0, ctx.Err()) without touching the stream *)

Inductive werr := ENone | EPlain | EPartial.

Record tstate := mkT { wire : list Z; nw : nat; broken : bool }.

Definition t_init : tstate := mkT [] 0 false.

(* ctxWriteCloser.Write *)
Definition ctxw_write (o : wout) (b : list Z) : nat * werr :=
  match o with
  | WOk => (length b, ENone)
  | WCtx => (0, EPlain)
  | WErr n =>
      let n' := Nat.min n (length b) in
      (n', if (0 <? n') && (n' <? length b) then EPartial else EPlain)
  end.

(* Encoder.Encode's write loop; [written] = bytes put on the wire by this Encode so far;
   [alive]: None = the send context stays live, Some k = it is cancelled (by another goroutine)
   while the k-th next Write is in progress: that Write still completes, every later Write of
   this Encode returns (0, ctx.Err()) without reaching the stream (ctxWriteCloser.write's early
   cancel check) and without consuming an index of the environment's oracle *)
Fixpoint encode_bufs (orc : nat -> wout) (bufs : frame) (st : tstate) (written : nat)
  (alive : option nat) : tstate * nat * werr :=
  match bufs with
  | [] => (st, written, ENone)
  | b :: rest =>
      match alive with
      | Some 0 => (st, written, EPlain)
      | _ =>
        let '(n, e) := ctxw_write (orc (nw st)) b in
        let st' := mkT (wire st ++ firstn n b) (S (nw st)) (broken st) in
        match e with
        | ENone => encode_bufs orc rest st' (written + n)
                     (match alive with Some (S k) => Some k | _ => None end)
        | _ => (st', written + n, e)
        end
      end
  end.

(* state of the send context *)
Inductive cmode :=
| CLive                (* not cancelled during this send *)
| CDone                (* already done when send is called *)
| CCancel1.            (* cancelled while the first Write of the frame is in progress *)

Definition alive_of (c : cmode) : option nat :=
  match c with CCancel1 => Some 1 | _ => None end.

Inductive variant := VFound | VUnwrap | VFixed.

(* does the send closure set the sticky transport.err? *)
Definition sets_broken (v : variant) (written : nat) (e : werr) : bool :=
  match v with
  | VFound => false
  | VUnwrap => match e with EPartial => true | _ => false end
  | VFixed => match e with ENone => false | _ => 0 <? written end
  end.

Inductive sres := SOk | SErr | SNmErr.

(* one NewMessage + send of frame f under context behaviour c *)
Definition send1 (v : variant) (orc : nat -> wout) (c : cmode) (f : frame) (st : tstate)
  : tstate * sres :=
  if broken st then (st, SNmErr)
  else match c with CDone => (st, SErr) | _ =>
    let '(st', w, e) := encode_bufs orc f st 0 (alive_of c) in
    match e with
    | ENone => (st', SOk)
    | _ => (mkT (wire st') (nw st') (sets_broken v w e), SErr)
    end
  end.

Definition op := (cmode * frame)%type.

Fixpoint run_from (v : variant) (orc : nat -> wout) (st : tstate) (ops : list op)
  : tstate * list sres :=
  match ops with
  | [] => (st, [])
  | (c, f) :: rest =>
      let '(st1, r) := send1 v orc c f st in
      let '(st2, rs) := run_from v orc st1 rest in
      (st2, r :: rs)
  end.

Definition run (v : variant) (orc : nat -> wout) (ops : list op) := run_from v orc t_init ops.

(* oracle from a finite fault table (write index, outcome); every other write succeeds *)
Fixpoint orc_of (tbl : list (nat * wout)) (i : nat) : wout :=
  match tbl with
  | [] => WOk
  | (j, o) :: rest => if Nat.eqb i j then o else orc_of rest i
  end.

(* what the correspondence run compares *)
Definition run_tbl (v : variant) (tbl : list (nat * wout)) (ops : list op) : list Z * list sres :=
  let '(st, rs) := run v (orc_of tbl) ops in (wire st, rs).

(* ---- specification side -------------------------------------------------- *)
Inductive subseq {A} : list A -> list A -> Prop :=
| sub_nil : forall l, subseq [] l
| sub_take : forall x l1 l2, subseq l1 l2 -> subseq (x :: l1) (x :: l2)
| sub_skip : forall x l1 l2, subseq l1 l2 -> subseq l1 (x :: l2).

Definition is_prefix {A} (p l : list A) : Prop := exists s, l = p ++ s.

(* the wire holds whole frames (a subsequence of what was sent, in order) followed by at most
   one torn frame, and a torn frame is there only if the stream is marked broken *)
Definition well_framed (fs : list frame) (st : tstate) : Prop :=
  exists done tail,
    wire st = concat (map frame_bytes done) ++ tail /\
    subseq done fs /\
    (broken st = false -> tail = []) /\
    (tail <> [] -> exists f, In f fs /\ is_prefix tail (frame_bytes f)).
