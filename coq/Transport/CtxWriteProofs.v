(* Proofs about the byte-level write-path model (Transport/CtxWrite.v). *)
From Coq Require Import List ZArith Bool Arith Lia.
From CV Require Import Transport.Transport Transport.TransportProofs Transport.CtxWrite.
Import ListNotations.

Lemma firstn_add_skipn {A} : forall n m (l : list A),
  firstn n l ++ firstn m (skipn n l) = firstn (n + m) l.
Proof.
  induction n as [|n IH]; intros m l; cbn.
  - reflexivity.
  - destruct l as [|x l]; cbn.
    + now rewrite firstn_nil.
    + now rewrite IH.
Qed.

Lemma so_acc_le o len : so_acc o len <= len.
Proof. destruct o; cbn; lia. Qed.

Lemma so_acc_ok o len : so_kind o = ROk -> so_acc o len = len.
Proof. destruct o; cbn; intros H; try discriminate; reflexivity. Qed.

(* one call on the stream: k bytes of b accepted, one entry in the call log *)
Lemma stream_write_spec orc st b st' k r :
  stream_write orc st b = (st', k, r) ->
  w_wire st' = w_wire st ++ firstn k b /\ k <= length b /\ w_broken st' = w_broken st /\
  w_log st' = length b :: w_log st /\ (r = ROk -> k = length b).
Proof.
  unfold stream_write. intros H. injection H as <- <- <-. cbn.
  repeat split; auto using so_acc_le, so_acc_ok.
Qed.

(* ctxWriteCloser.write: THE COUNT RETURNED IS THE NUMBER OF BYTES THE STREAM ACCEPTED (first
   Write and grace-period Write together), and those bytes are the first n bytes of b *)
Lemma cw_write_count g orc cf st cs b st' cs' n r :
  cw_write WCode g orc cf st cs b = (st', cs', n, r) ->
  w_wire st' = w_wire st ++ firstn n b /\ n <= length b /\ w_broken st' = w_broken st /\
  (r = ROk -> n = length b) /\
  (exists l, w_log st' = l ++ w_log st) /\
  (c_done cs = true -> st' = st /\ n = 0).
Proof.
  unfold cw_write. destruct (c_done cs) eqn:Hd.
  - intros H. injection H as <- _ <- <-. rewrite app_nil_r.
    repeat split; auto; try lia; try discriminate. now exists [].
  - destruct (stream_write orc st b) as [[st1 n1] r1] eqn:H1.
    apply stream_write_spec in H1 as (Hw1 & Hle1 & Hb1 & Hl1 & Hok1).
    destruct (c_dl g && c_pwt g && (0 <? n1) && is_tmo r1).
    + (* grace period: a second Write, of b[n1:] *)
      destruct (stream_write orc st1 (skipn n1 b)) as [[st2 n2] r2] eqn:H2.
      apply stream_write_spec in H2 as (Hw2 & Hle2 & Hb2 & Hl2 & Hok2).
      rewrite skipn_length in Hle2, Hok2, Hl2.
      intros H. injection H as <- _ <- <-. repeat split; try discriminate.
      * rewrite Hw2, Hw1, <- app_assoc. f_equal. apply firstn_add_skipn.
      * lia.
      * congruence.
      * intros Hr%Hok2. lia.
      * exists [length b - n1; length b]. now rewrite Hl2, Hl1.
    + intros H. injection H as <- _ <- <-. repeat split; auto; try discriminate.
      exists [length b]. now rewrite Hl1.
Qed.

Lemma cw_Write_spec g orc cf st cs b st' cs' n e :
  cw_Write WCode g orc cf st cs b = (st', cs', n, e) ->
  w_wire st' = w_wire st ++ firstn n b /\ n <= length b /\ w_broken st' = w_broken st /\
  (e = ENone -> n = length b) /\ (exists l, w_log st' = l ++ w_log st).
Proof.
  unfold cw_Write. destruct (cw_write WCode g orc cf st cs b) as [[[st1 cs1] n1] r1] eqn:H1.
  apply cw_write_count in H1 as (Hw & Hle & Hb & Hok & Hl & _).
  intros H. injection H as <- _ <- <-. repeat split; auto.
  destruct ((0 <? n1) && (n1 <? length b)); [discriminate|].
  destruct r1; try discriminate. auto.
Qed.

(* Encoder.Encode's write loop: [written] IS THE NUMBER OF BYTES OF THIS FRAME THE STREAM ACCEPTED, and
   they are a prefix of the frame's bytes *)
Lemma cw_encode_count g orc cf : forall bufs st cs w st' w' e,
  cw_encode WCode g orc cf bufs st cs w = (st', w', e) ->
  exists p, w_wire st' = w_wire st ++ p /\ is_prefix p (concat bufs) /\ w' = w + length p /\
            w_broken st' = w_broken st /\ (e = ENone -> p = concat bufs) /\
            (exists l, w_log st' = l ++ w_log st).
Proof.
  induction bufs as [|b rest IH]; intros st cs w st' w' e H; cbn [cw_encode] in H.
  - injection H as <- <- <-. exists []. rewrite app_nil_r.
    repeat split; auto using is_prefix_nil. now exists [].
  - destruct (cw_Write WCode g orc cf st cs b) as [[[st1 cs1] n] e1] eqn:Hw.
    apply cw_Write_spec in Hw as (Hwire & Hle & Hb & Hok & (l1 & Hl1)). destruct e1.
    2,3: (* the Write failed after n bytes of b *)
      injection H as <- <- <-; exists (firstn n b); rewrite firstn_length_le by exact Hle;
      cbn [concat]; repeat split; auto using is_prefix_app_r, firstn_is_prefix;
      [discriminate | now exists l1].
    (* b is written whole; the rest by induction *)
    rewrite (Hok eq_refl), firstn_all in *.
    apply IH in H as (p & Hwire' & Hp & -> & Hb' & Hok' & (l2 & Hl2)).
    exists (b ++ p). cbn [concat]. rewrite app_length, Hwire', Hwire, <- app_assoc.
    repeat split; auto using is_prefix_app.
    + lia.
    + congruence.
    + now intros ->%Hok'.
    + exists (l2 ++ l1). now rewrite Hl2, Hl1, app_assoc.
Qed.

Lemma cw_run_from_eq v g orc : run_of (cw_send v g orc) (cw_run_from v g orc).
Proof. intros t [|o ops]; reflexivity. Qed.

(* once the sticky error is set NewMessage fails and NO Write call is made on the stream: the
   state, call log included (hence every byte handed over), is unchanged -- for either variant *)
Lemma cw_send_broken v g orc o st : w_broken st = true -> cw_send v g orc o st = (st, SNmErr).
Proof. destruct o as [[c0 cf] f]. intros Hb. unfold cw_send. now rewrite Hb. Qed.

Lemma cw_send_sent g orc o st st' r :
  w_broken st = false -> cw_send WCode g orc o st = (st', r) ->
  sent w_wire w_broken wop_frame o st st' r.
Proof.
  destruct o as [[c0 cf] f]. unfold cw_send. intros Hb H. rewrite Hb in H. destruct c0.
  - (* the context is done: nothing is sent *)
    injection H as <- <-. apply sent_err with (p := []); auto using is_prefix_nil.
    now rewrite app_nil_r.
  - destruct (cw_encode WCode g orc cf f st (mkC false 0) 0) as [[st1 w] e] eqn:He.
    apply cw_encode_count in He as (p & Hwire & Hp & -> & Hbr & Hok & _).
    destruct e; injection H as <- <-.
    2,3: now apply sent_err with (p := p).
    apply sent_ok; [now rewrite Hwire, (Hok eq_refl) | congruence].
Qed.

(* one NewMessage + send on a healthy stream: p = the bytes of this frame the stream accepted.
   TORN <-> STICKY ERROR, precisely:
     - torn p f -> transport.err is set;
     - transport.err is set <-> the send failed and the stream accepted at least one byte of the frame;
     - hence transport.err set and not torn happens only when the WHOLE frame was accepted and the
       last stream call nevertheless reported an error (the peer has a complete frame; stopping
       is still the safe decision) *)
Lemma cw_send_spec g orc o st st' r :
  w_broken st = false -> cw_send WCode g orc o st = (st', r) ->
  exists p, w_wire st' = w_wire st ++ p /\ is_prefix p (frame_bytes (wop_frame o)) /\
    (r = SOk \/ r = SErr) /\
    (r = SOk -> p = frame_bytes (wop_frame o) /\ w_broken st' = false) /\
    (w_broken st' = true <-> (r = SErr /\ 0 < length p)) /\
    (torn p (wop_frame o) -> w_broken st' = true) /\
    (w_broken st' = true -> torn p (wop_frame o) \/ (p = frame_bytes (wop_frame o) /\ r = SErr)).
Proof.
  intros Hb H. destruct (cw_send_sent _ _ _ _ _ _ Hb H) as (p & Hw & Hp & Hcase).
  exists p. split; [exact Hw|]. split; [exact Hp|]. unfold torn.
  destruct Hcase as [(-> & -> & ->) | (-> & ->)].
  - split; [now left|]. split; [now split|].
    split; [split; [discriminate | intros [E _]; discriminate]|].
    split; [intros [_ Hlt]; lia | discriminate].
  - rewrite Nat.ltb_lt. split; [now right|]. split; [discriminate|].
    split; [tauto|]. split; [tauto|]. intros Hpos.
    destruct (Nat.eq_dec (length p) (length (frame_bytes (wop_frame o)))) as [E|E].
    + right. split; [now apply is_prefix_full | reflexivity].
    + left. apply is_prefix_length in Hp. lia.
Qed.

(* THE theorem at byte granularity: for every configuration (deadline support or not, grace
   period or not), every stream oracle, every context oracle and every message sequence, the
   bytes the stream accepted are whole frames (a subsequence of the frames sent, in order) plus
   at most one torn frame, a torn frame is there only with the sticky error set, and once it is
   set every later NewMessage fails and no Write call at all is made on the stream *)
Theorem torn_write_stops_stream_bytes : forall g orc ops st rs,
  cw_run WCode g orc ops = (st, rs) ->
  w_well_framed (map wop_frame ops) st /\
  (w_broken st = true ->
     forall more, cw_run_from WCode g orc st more = (st, map (fun _ => SNmErr) more)).
Proof.
  intros g orc ops st rs.
  exact (run_stops_stream (cw_run_from_eq WCode g orc) (cw_send_broken WCode g orc)
           (cw_send_sent g orc) w_init ops st rs eq_refl).
Qed.

(* explicit form: a send that leaves the frame torn -- the stream accepted 0 < |p| < |frame|
   bytes, WHEREVER the tear is: inside the first buffer (the 8-byte header) with or without
   progress in the grace period, at a buffer boundary, inside a later buffer -- fails, and after
   it the stream sees nothing: same wire, same call log (not a single further Write call), every
   later operation returns the NewMessage error *)
Theorem after_torn_frame_nothing_handed : forall g orc ops1 o ops2 st1 rs1 st2 r,
  cw_run WCode g orc ops1 = (st1, rs1) -> w_broken st1 = false ->
  cw_send WCode g orc o st1 = (st2, r) ->
  (exists p, w_wire st2 = w_wire st1 ++ p /\ torn p (wop_frame o)) ->
  cw_run WCode g orc (ops1 ++ o :: ops2) = (st2, rs1 ++ SErr :: map (fun _ => SNmErr) ops2) /\
  w_broken st2 = true.
Proof.
  intros g orc ops1 o ops2 st1 rs1 st2 r H1 Hb Hs (p & Hwp & Ht).
  destruct (cw_send_spec _ _ _ _ _ _ Hb Hs) as (p' & Hw' & _ & _ & _ & Hbr & Htorn & _).
  assert (p' = p) by (rewrite Hw' in Hwp; now apply app_inv_head in Hwp). subst p'.
  specialize (Htorn Ht). destruct (proj1 Hbr Htorn) as [-> _].
  split; [|exact Htorn].
  exact (run_after_break (cw_run_from_eq WCode g orc) (cw_send_broken WCode g orc)
           ops1 o ops2 _ _ _ _ _ H1 Hs Htorn).
Qed.

Local Open Scope Z_scope.
Definition hdr1 : list Z := [0;0;0;0;2;0;0;0].
Definition fA : frame := [hdr1; [1;2;3;4;5;6;7;8;9;10;11;12;13;14;15;16]].
Definition fB : frame := [hdr1; [21;22;23;24;25;26;27;28;29;30;31;32;33;34;35;36]].

(* the seeded scenario on the code as it is: 3 header bytes, context deadline, grace period
   elapses with no progress: (3, timeout) -> sticky error, nothing follows *)
Example torn_in_header_example :
  cw_run_tbl WCode true true [(0%nat, SoTmo 3); (1%nat, SoTmo 0)] [(MDeadline, fA); (MLive, fB)]
  = ([0;0;0], [8%nat; 5%nat], true, [SErr; SNmErr]).
Proof. vm_compute. reflexivity. Qed.

(* partial progress in the grace period *)
Example torn_in_header_progress_example :
  cw_run_tbl WCode true true [(0%nat, SoTmo 3); (1%nat, SoTmo 2)] [(MDeadline, fA); (MLive, fB)]
  = ([0;0;0;0;2], [8%nat; 5%nat], true, [SErr; SNmErr]).
Proof. vm_compute. reflexivity. Qed.

(* the grace period completes the header, but the context is done: the segment is never
   written, the frame is torn at the buffer boundary *)
Example grace_completes_header_only_example :
  cw_run_tbl WCode true true [(0%nat, SoTmo 3)] [(MCancelAt 0, fA); (MLive, fB)]
  = (hdr1, [8%nat; 5%nat], true, [SErr; SNmErr]).
Proof. vm_compute. reflexivity. Qed.

(* a time-out of the stream's own with a live context: the grace period saves the frame *)
Example grace_saves_frame_example :
  cw_run_tbl WCode true true [(0%nat, SoTmo 3)] [(MLive, fA); (MLive, fB)]
  = (frame_bytes fA ++ frame_bytes fB, [8%nat; 5%nat; 16%nat; 8%nat; 16%nat], false, [SOk; SOk]).
Proof. vm_compute. reflexivity. Qed.

Example after_torn_hyps_satisfiable :
  exists g orc ops1 o st1 rs1 st2 r,
    cw_run WCode g orc ops1 = (st1, rs1) /\ w_broken st1 = false /\
    cw_send WCode g orc o st1 = (st2, r) /\
    (exists p, w_wire st2 = w_wire st1 ++ p /\ torn p (wop_frame o)).
Proof.
  exists (mkCfg true true), (worc_of [(2%nat, SoTmo 3); (3%nat, SoTmo 0)]),
    [wop_of (MLive, fB)], (wop_of (MDeadline, fA)).
  eexists. eexists. eexists. eexists.
  split; [vm_compute; reflexivity|]. split; [reflexivity|].
  split; [vm_compute; reflexivity|].
  exists [0;0;0]. split; [reflexivity|]. unfold torn. cbn. lia.
Qed.

(* WSeeded: the count is no longer the number of accepted bytes ... *)
Example cw_write_count_seeded_refuted :
  exists g orc cf st cs b st' cs' n r,
    cw_write WSeeded g orc cf st cs b = (st', cs', n, r) /\
    w_wire st' <> w_wire st ++ firstn n b.
Proof.
  exists (mkCfg true true), (worc_of [(0%nat, SoTmo 3); (1%nat, SoTmo 0)]), (cf_of MDeadline),
    w_init, (mkC false 0), hdr1.
  eexists. eexists. eexists. eexists. split; [vm_compute; reflexivity|].
  vm_compute. discriminate.
Qed.

(* ... so 3 of 8 header bytes are on the wire, no sticky error, and the next frame follows *)
Example seeded_sends_after_torn_header :
  cw_run_tbl WSeeded true true [(0%nat, SoTmo 3); (1%nat, SoTmo 0)] [(MDeadline, fA); (MLive, fB)]
  = ([0;0;0] ++ frame_bytes fB, [8%nat; 5%nat; 8%nat; 16%nat], false, [SErr; SOk]).
Proof. vm_compute. reflexivity. Qed.

Example after_torn_frame_nothing_handed_seeded_refuted :
  ~ (forall g orc ops1 o ops2 st1 rs1 st2 r,
      cw_run WSeeded g orc ops1 = (st1, rs1) -> w_broken st1 = false ->
      cw_send WSeeded g orc o st1 = (st2, r) ->
      (exists p, w_wire st2 = w_wire st1 ++ p /\ torn p (wop_frame o)) ->
      cw_run WSeeded g orc (ops1 ++ o :: ops2) = (st2, rs1 ++ SErr :: map (fun _ => SNmErr) ops2) /\
      w_broken st2 = true).
Proof.
  intros H.
  specialize (H (mkCfg true true) (worc_of [(0%nat, SoTmo 3); (1%nat, SoTmo 0)]) []
                (wop_of (MDeadline, fA)) [wop_of (MLive, fB)] w_init []
                (mkW [0;0;0] [5%nat; 8%nat] false) SErr eq_refl eq_refl).
  assert (Hs : cw_send WSeeded (mkCfg true true) (worc_of [(0%nat, SoTmo 3); (1%nat, SoTmo 0)])
                 (wop_of (MDeadline, fA)) w_init = (mkW [0;0;0] [5%nat; 8%nat] false, SErr))
    by (vm_compute; reflexivity).
  specialize (H Hs).
  destruct H as [_ Hb].
  - exists [0;0;0]. split; [reflexivity|]. unfold torn. cbn. lia.
  - discriminate.
Qed.
