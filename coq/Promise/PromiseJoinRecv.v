(* The promise a call is delivered at is the end of the traversal that STARTED at the call's receiver: for
   PipelineSend/Recv on k0 the delivery promise is reached from k0 along next edges; for a call through a proxy
   client, from the proxy's owner. *)
From CV Require Import Promise.Promise Promise.PromiseProofs Promise.PromiseJoin Promise.PromiseJoinThms
  Promise.PromiseJoinInv Promise.PromiseJoinRefs Promise.PromiseJoinDest Promise.PromiseJoinChain
  Promise.PromiseJoinForest Promise.PromiseJoinLive Promise.PromiseJoinHook Promise.PromiseJoinPath.
Open Scope Z_scope.

Definition rcv (c : jconfig) (th : jthread) (k : nat) : Prop :=
  match j_op th with
  | JSend k0 _ _ => nreach c k0 k
  | JCall _ _ => exists x, j_via th = Some x /\ nreach c (own c x) k
  | _ => True
  end.

Lemma rcv_ext : forall c a b k, j_op a = j_op b -> j_via a = j_via b -> rcv c a k -> rcv c b k.
Proof. intros c a b k Ho Hv H. unfold rcv in *. rewrite <- Ho, <- Hv. exact H. Qed.

Lemma rcv_snoc : forall c th k n, rcv c th k -> p_next (getp c k) = Some n -> rcv c th n.
Proof.
  intros c th k n H Hn. unfold rcv in *. destruct (j_op th); auto.
  - exact (nreach_snoc c _ _ _ H Hn).
  - destruct H as [x [E N]]. exists x. split; [exact E|exact (nreach_snoc c _ _ _ N Hn)].
Qed.

(* DN: a call's traversal is at, and each of its logged deliveries was made at, a promise reached along next edges
   from its receiver (rcv: the promise of PipelineSend, the owner of the proxy of a client call) *)
Record DN (c : jconfig) : Prop := {
  D_thr : forall t th, nth_error (jthreads c) t = Some th -> jcallpc (j_pc th) = true -> rcv c th (j_cur th);
  D_ev : forall t th k d, nth_error (jthreads c) t = Some th -> In (JEDeliver t k d) (jevents c) -> rcv c th k
}.

Lemma DN_step : forall v c t c', JV c -> JE4 c -> JInv c -> DN c -> jstep v c t = Some c' -> DN c'.
Proof.
  intros v c t c' HV HE HI HD Hs.
  pose proof (next_mono_step v c t c' HE Hs) as Hmono.
  pose proof (owner_step v c t c' Hs) as Hown.
  assert (Hrm : forall th0 k, (forall x, j_via th0 = Some x -> (x < length (jproxies c))%nat) ->
                              rcv c th0 k -> rcv c' th0 k).
  { intros th0 k Hvx H. unfold rcv in *. destruct (j_op th0); auto.
    - exact (nreach_mono c c' _ _ Hmono H).
    - destruct H as [x [E N]]. exists x. split; [exact E|]. unfold own. rewrite (Hown x (Hvx x E)).
      exact (nreach_mono c c' _ _ Hmono N). }
  jthread Hs Hth.
  destruct (V_thr c HV t th Hth) as [_ [_ Hvvia]].
  pose proof (D_thr c HD t th Hth) as Hdt.
  pose proof (D_ev c HD t th) as Hde.
  pose proof (HI t th Hth) as Hinv. unfold jtinv in Hinv.
  jcases Hs.
  all: goal_matches.
  all: repeat match goal with H : j_pc _ = _ |- _ => rewrite H in Hdt end; simpl in Hdt.
  all: constructor;
    [ intros t0 th0 H0; simpl in H0; rewrite ?close_sigs_threads in H0; simpl in H0;
      destruct (jupd_nth_cases _ _ _ _ _ _ Hth H0) as [[-> ->]|[Hne H0']]; clear H0;
      [ idtac
      | intros Hpc; apply Hrm; [exact (proj2 (proj2 (V_thr c HV _ _ H0')))|exact (D_thr c HD _ _ H0' Hpc)] ]
    | intros t0 th0 k0 d0 H0 Hin; simpl in H0; rewrite ?close_sigs_threads in H0; simpl in H0;
      simpl in Hin; rewrite ?close_sigs_events in Hin; simpl in Hin;
      repeat (destruct Hin as [Hin|Hin]; [try discriminate Hin|]);
      destruct (jupd_nth_cases _ _ _ _ _ _ Hth H0) as [[-> ->]|[Hne H0']]; clear H0;
      try (apply Hrm; [exact (proj2 (proj2 (V_thr c HV _ _ H0')))|exact (D_ev c HD _ _ _ _ H0' Hin)]);
      try (exfalso; inversion Hin; subst; apply Hne; reflexivity) ].
  (* threads *)
  all: try (intros Hpc; unfold jcall_done in *;
            repeat match goal with |- context [match j_via ?th with _ => _ end] => destruct (j_via th) eqn:? end;
            repeat match goal with H : context [match j_via ?th with _ => _ end] |- _ => destruct (j_via th) eqn:? end;
            cbn [j_pc j_op j_via j_cur jgoto jfinish sj_pc sj_cur sj_par sj_path sj_via sj_rest sj_waitx sj_res sj_out] in Hpc |- *;
            repeat match goal with H : j_pc _ = _ |- _ => rewrite H in Hpc end; simpl in Hpc; try discriminate Hpc).
  all: try (apply (rcv_ext _ th); [reflexivity|reflexivity|apply Hrm; [exact (proj2 (proj2 (V_thr c HV t th Hth)))|apply Hdt; reflexivity]]).
  all: try (apply (rcv_ext _ th); [reflexivity|reflexivity|
            apply Hrm; [exact (proj2 (proj2 (V_thr c HV t th Hth)))|eapply rcv_snoc; [apply Hdt; reflexivity|eassumption]]]).
  all: try (unfold rcv; cbn [j_op j_via j_cur jgoto sj_pc sj_cur sj_path sj_via];
            match goal with H : j_op _ = _ |- _ => rewrite H end; apply nr_refl).
  all: try (unfold rcv; cbn [j_op j_via j_cur jgoto sj_pc sj_cur sj_path sj_via];
            match goal with H : j_op _ = _ |- _ => rewrite H end;
            match goal with H : lookup_slot _ _ = Some (HProxy ?x) |- _ =>
              destruct (lookup_slot_in _ _ _ H) as [s' Hs']; pose proof (V_slots c HV _ _ Hs') as Hlt;
              exists x; split; [reflexivity|unfold own; rewrite (Hown x Hlt); apply nr_refl] end).
  (* events *)
  all: try (apply (rcv_ext _ th); [reflexivity|reflexivity|apply Hrm; [exact (proj2 (proj2 (V_thr c HV t th Hth)))|exact (Hde _ _ Hth Hin)]]).
  all: try (inversion Hin; subst;
            apply (rcv_ext _ th); [reflexivity|reflexivity|apply Hrm; [exact (proj2 (proj2 (V_thr c HV t th Hth)))|apply Hdt; reflexivity]]).
  all: try (unfold rcv; cbn [j_op j_via j_cur jgoto sj_pc sj_cur sj_path sj_via];
            match goal with H : j_op _ = _ |- _ => rewrite H end; exact I).
  all: exfalso; repeat match goal with H : j_op _ = _ |- _ => rewrite H in Hinv end;
       repeat match goal with H : j_pc _ = _ |- _ => rewrite H in Hinv end;
       destruct Hinv as [_ Hcnt]; exact (no_deliver_yet _ _ _ _ Hcnt Hin).
Qed.

Lemma DN_reach : forall v np ops c, jv_alloc_table v = true -> jreach v np ops c -> DN c.
Proof.
  intros v np ops c Hv H. induction H as [|c t c' Hr IH Hs].
  - constructor.
    + intros t th Hth Hpc. simpl in Hth. rewrite nth_error_map in Hth. destruct (nth_error ops t); inversion Hth; subst.
      discriminate Hpc.
    + intros t th k d _ [].
  - exact (DN_step v c t c' (JV_reach v np ops c Hr) (JE4_reach v np ops c Hv Hr) (jreach_inv v np ops c Hr) IH Hs).
Qed.

(* the delivery promise is reached from the call's receiver *)
Theorem join_delivery_receiver : forall v np ops c, jv_alloc_table v = true -> jreach v np ops c ->
  forall t th k d, nth_error (jthreads c) t = Some th -> In (JEDeliver t k d) (jevents c) ->
    match j_op th with
    | JSend k0 _ _ => nreach c k0 k
    | JCall _ _ => exists x, j_via th = Some x /\ nreach c (jx_owner (getx c x)) k
    | _ => True
    end.
Proof. intros v np ops c Hv Hr t th k d Hth Hin. exact (D_ev c (DN_reach v np ops c Hv Hr) t th k d Hth Hin). Qed.

(* RN: a promise whose result is set has not been joined onto another *)
Definition RN (c : jconfig) : Prop := forall k, p_result (getp c k) <> None -> p_next (getp c k) = None.

Lemma RN_step : forall v c t c', JR c -> JZ c -> JE4 c -> RN c -> jstep v c t = Some c' -> RN c'.
Proof.
  intros v c t c' HR HZ HE HN Hs.
  jthread Hs Hth.
  pose proof (fun Hp => act_next _ (phase_act c t th (j_cur th) HE Hth Hp)) as Hact.
  pose proof (fun k => proj1 (HZ k)) as Hcn.
  jcases Hs.
  all: goal_matches.
  all: own_phase HR Hth.
  all: norm_negb.
  all: unfold jphase, jpre, jpost in Hact;
       repeat match goal with H : j_pc _ = _ |- _ => rewrite H in Hact end; rewrite ?Nat.eqb_refl in Hact; simpl in Hact.
  all: intros k0; pose proof (HN k0) as H0.
  all: jsimp.
  all: eqb_all; simpl; try exact H0.
  all: intros Hres.
  all: try (exfalso; specialize (Hpre eq_refl); destruct Hpre as [_ Hrn]; exact (Hres Hrn)).
  all: try (apply Hact; reflexivity).
  all: apply Hcn; assumption.
Qed.

Lemma RN_reach : forall v np ops c, jv_alloc_table v = true -> jreach v np ops c -> RN c.
Proof.
  intros v np ops c Hv H. induction H as [|c t c' Hr IH Hs].
  - intros k Hres. destruct (getp_init np ops k) as [E|E]; rewrite E in *; reflexivity.
  - exact (RN_step v c t c' (JR_reach v np ops c Hr) (JZ_reach v np ops c Hv Hr) (JE4_reach v np ops c Hv Hr) IH Hs).
Qed.

(* DE: a delivery other than to a PipelineCaller was made at the end of a chain (a promise without next) *)
Definition DE (c : jconfig) : Prop :=
  forall t k d, In (JEDeliver t k d) (jevents c) -> d <> DCaller -> p_next (getp c k) = None.

Lemma DE_step : forall v c t c', JR c -> JS c -> JK c -> JF c -> RN c -> DE c -> jstep v c t = Some c' -> DE c'.
Proof.
  intros v c t c' HR HS HK HF HN HD Hs.
  jthread Hs Hth.
  pose proof (HK t th Hth) as Hkok. unfold kok in Hkok.
  assert (Hsig : forall k, jphase k th = true -> p_signals (getp c k) <> []).
  { intros k Hp. apply (S_thr c HS t th k Hth). unfold jphase in Hp. apply orb_true_iff in Hp. exact Hp. }
  jcases Hs.
  all: goal_matches.
  all: own_phase HR Hth.
  all: repeat match goal with H : j_pc _ = _ |- _ => rewrite H in Hkok end.
  all: unfold jphase, jpre, jpost in Hsig; repeat match goal with H : j_pc _ = _ |- _ => rewrite H in Hsig end; simpl in Hsig.
  all: intros t0 k0 d0 Hin Hd; simpl in Hin; rewrite ?close_sigs_events in Hin; simpl in Hin.
  all: repeat (destruct Hin as [Hin|Hin]; [try discriminate Hin|]).
  (* an older delivery *)
  all: try (pose proof (HD _ _ _ Hin Hd) as Hnx; pose proof (HF _ _ _ Hin Hd) as [Hfa Hfb];
            jsimp;
            eqb_all; simpl;
            first [ exact Hnx
                  | (exfalso; specialize (Hpre eq_refl); destruct Hpre as [_ Hrn];
                     destruct Hfb as [Hfb|Hfb]; [exact (Hfb Hrn)|];
                     apply (Hsig (j_cur th)); [rewrite ?Nat.eqb_refl; reflexivity|exact Hfb]) ]).
  (* the delivery made in this step: at a promise without a next edge *)
  all: inversion Hin; subst; try (exfalso; apply Hd; reflexivity).
  all: jsimp; first [assumption|apply HN; exact (proj2 Hkok)].
Qed.

Lemma DE_reach : forall v np ops c, jv_alloc_table v = true -> jreach v np ops c -> DE c.
Proof.
  intros v np ops c Hv H. induction H as [|c t c' Hr IH Hs]; [intros t k d []|].
  exact (DE_step v c t c' (JR_reach v np ops c Hr) (JS_reach v np ops c Hr) (JK_reach v np ops c Hr)
           (JF_reach v np ops c Hr) (RN_reach v np ops c Hv Hr) IH Hs).
Qed.

(* pipelined_exactly_once, destination part on chains, tied to the receiver: a delivery of call t was made at a
   promise k reached along next from the call's receiver (the promise of PipelineSend/Recv, or the owner of the proxy
   client the call came through); it went to k's PipelineCaller (only while k was unresolved: join_caller_before_
   resolution), or k is the END of that chain, its result is final, and the call went to what that result holds at the
   call's path *)
Theorem join_delivery_destination_recv : forall v np ops c, jv_alloc_table v = true -> jreach v np ops c ->
  forall t th k d, nth_error (jthreads c) t = Some th -> In (JEDeliver t k d) (jevents c) ->
    match j_op th with
    | JSend k0 _ _ => nreach c k0 k
    | JCall _ _ => exists x, j_via th = Some x /\ nreach c (jx_owner (getx c x)) k
    | _ => True
    end /\
    (d = DCaller \/
     (p_next (getp c k) = None /\ d = res_dest (jcur_res (getp c k)) (j_path th) /\ p_caller (getp c k) = false /\
      (p_result (getp c k) <> None \/ p_signals (getp c k) = []))).
Proof.
  intros v np ops c Hv Hr t th k d Hth Hin. split; [exact (join_delivery_receiver v np ops c Hv Hr t th k d Hth Hin)|].
  destruct (join_delivery_destination v np ops c Hr t th k d Hth Hin) as [H|[A [B C]]]; [left; exact H|].
  destruct (dest_caller_dec d) as [Hd|Hd]; [left; exact Hd|right].
  split; [exact (DE_reach v np ops c Hv Hr t k d Hin Hd)|]. auto.
Qed.

(* pipelined_exactly_once on chains, the three parts in one statement *)
Theorem join_pipelined_exactly_once_full : forall v np ops c, jv_alloc_table v = true -> jreach v np ops c ->
  (forall t th, nth_error (jthreads c) t = Some th ->
    match j_op th with
    | JSend _ _ _ =>
      (jcnt (jis_deliver t) (jevents c) <= 1)%nat /\
      (j_pc th = QDone -> jcnt (jis_deliver t) (jevents c) = 1%nat)
    | JCall _ _ =>
      (jcnt (jis_deliver t) (jevents c) <= 1)%nat /\
      (j_pc th = QDone -> (j_out th = ONoSlot /\ jcnt (jis_deliver t) (jevents c) = 0%nat) \/
                          (j_out th = ORet /\ jcnt (jis_deliver t) (jevents c) = 1%nat))
    | _ => True
    end) /\
  wf_jcaller (jevents c) /\
  (forall t th k d, nth_error (jthreads c) t = Some th -> In (JEDeliver t k d) (jevents c) ->
    match j_op th with
    | JSend k0 _ _ => nreach c k0 k
    | JCall _ _ => exists x, j_via th = Some x /\ nreach c (jx_owner (getx c x)) k
    | _ => True
    end /\
    (d = DCaller \/
     (p_next (getp c k) = None /\ d = res_dest (jcur_res (getp c k)) (j_path th) /\ p_caller (getp c k) = false /\
      (p_result (getp c k) <> None \/ p_signals (getp c k) = [])))).
Proof.
  intros v np ops c Hv H. split; [exact (join_pipelined_exactly_once v np ops c H)|].
  split; [exact (join_caller_before_resolution v np ops c H)|exact (join_delivery_destination_recv v np ops c Hv H)].
Qed.
