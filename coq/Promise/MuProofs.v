(* mu is free at every section boundary, in every configuration reachable under any schedule
   from any operation list, for the model of answer.go after the F11 fix (both orders of
   resolve).  On the model of the code as found this fails: client_idempotent_refuted.
   This is the proof for every variant with v_unlock_on_hit; for [fixed] alone the invariant [Inv]
   (PromiseProofs.v) carries the same fact as its clause I_mu, which the other clauses need. *)
From CV Require Import Promise.Promise.
Open Scope Z_scope.

Lemma step_thread_mu : forall v c t th c',
  v_unlock_on_hit v = true -> mu c = None -> step_thread v c t th = Some c' -> mu c' = None.
Proof.
  intros v c t th c' Hv Hmu Hs.
  unfold step_thread, sec_resolve_start, sec_fulfil_proxy, sec_commit, sec_close, sec_call_lock, sec_call_relock,
    sec_call_finish, sec_after_res, sec_client, sec_call_start, sec_release_proxy, commit, mu_free in Hs.
  rewrite Hv, Hmu in Hs. destruct (v_known_first v).
  (* no section but Future.Client writes mu *)
  all: repeat match type of Hs with
         | (if ?b then _ else _) = _ => destruct b
         | match ?x with _ => _ end = _ => destruct x
         end; try discriminate; injection Hs as <-; exact Hmu.
Qed.

Lemma mu_always_free : forall v ops c, v_unlock_on_hit v = true -> reach v ops c -> mu c = None.
Proof.
  intros v ops c Hv H. induction H as [|c t c' Hr IH Hs]; [reflexivity|].
  unfold step in Hs. destruct (nth_error (threads c) t) as [th|]; [|discriminate].
  exact (step_thread_mu v c t th c' Hv IH Hs).
Qed.
