(* The client table of a joined chain is reference counted (clientsRefs).  Over all operation lists and all
   interleavings of the model with Join: the references are conserved by Join and each ReleaseClients call
   consumes exactly one, so the table is given up (and the proxy clients released) only by the last
   ReleaseClients of the promises that share it.  This is what the seeded change C11-r2-1 violates. *)
From CV Require Import Promise.Promise Promise.PromiseProofs Promise.PromiseJoin Promise.PromiseJoinThms
  Promise.PromiseJoinInv.
Open Scope Z_scope.

(* clientsRefs minus 1 if the promise has not called ReleaseClients yet *)
Definition pot (p : prom) : Z := p_crefs p - (if p_relflag p then 0 else 1).

Fixpoint pm_sum (m : list (nat * prom)) : Z :=
  match m with [] => 0 | (_, p) :: r => pot p + pm_sum r end.

Lemma pm_sum_set : forall m k p, pm_sum (pm_set m k p) = pm_sum m - pot (pm_get m k) + pot p.
Proof.
  induction m as [|[k0 p0] m IH]; intros k p; cbn [pm_set pm_get pm_sum].
  - assert (pot dfl_prom = 0) by reflexivity. lia.
  - destruct (Nat.eqb k0 k); cbn [pm_sum]; [lia|]. rewrite IH. lia.
Qed.

Lemma sum_setp : forall c k p, pm_sum (proms (setp c k p)) = pm_sum (proms c) - pot (getp c k) + pot p.
Proof. intros. unfold setp, getp. simpl. apply pm_sum_set. Qed.

Lemma sum_close_sigs : forall sigs c, pm_sum (proms (close_sigs c sigs)) = pm_sum (proms c).
Proof.
  induction sigs as [|s sigs IH]; intros c; simpl; auto.
  rewrite IH, sum_setp. unfold pot. simpl. lia.
Qed.

Lemma pot_close_joined : forall p, pot (close_joined p) = pot p.
Proof. intros. unfold close_joined. destruct (p_joined p); reflexivity. Qed.

(* a ReleaseClients call that has set its flag and has not yet reached the end of the chain *)
Definition owes (th : jthread) : bool :=
  match j_pc th with QRelWalk => negb (Nat.eqb (j_waitx th) 0) | _ => false end.

Fixpoint jcount (f : jthread -> bool) (l : list jthread) : Z :=
  match l with [] => 0 | a :: r => (if f a then 1 else 0) + jcount f r end.

Lemma jcount_upd : forall f l t th th', nth_error l t = Some th ->
  jcount f (upd t th' l) = jcount f l - (if f th then 1 else 0) + (if f th' then 1 else 0).
Proof.
  induction l as [|a l IH]; intros t th th' H; destruct t; cbn [jcount upd nth_error] in *; try discriminate.
  - inversion H; subst. lia.
  - rewrite (IH t th th' H). lia.
Qed.

Lemma thr_sett : forall c t th, jthreads (sett c t th) = upd t th (jthreads c). Proof. reflexivity. Qed.
Lemma thr_setp : forall c k p, jthreads (setp c k p) = jthreads c. Proof. reflexivity. Qed.
Lemma thr_jlog : forall c e, jthreads (jlog c e) = jthreads c. Proof. reflexivity. Qed.
Lemma thr_setx : forall c x p, jthreads (setx c x p) = jthreads c. Proof. reflexivity. Qed.
Lemma thr_sjslots : forall c v, jthreads (sjslots c v) = jthreads c. Proof. reflexivity. Qed.
Lemma thr_sjproxies : forall c v, jthreads (sjproxies c v) = jthreads c. Proof. reflexivity. Qed.
Lemma thr_sjgates : forall c v, jthreads (sjgates c v) = jthreads c. Proof. reflexivity. Qed.
Lemma prm_sett : forall c t th, proms (sett c t th) = proms c. Proof. reflexivity. Qed.
Lemma prm_jlog : forall c e, proms (jlog c e) = proms c. Proof. reflexivity. Qed.
Lemma prm_setx : forall c x p, proms (setx c x p) = proms c. Proof. reflexivity. Qed.
Lemma prm_sjslots : forall c v, proms (sjslots c v) = proms c. Proof. reflexivity. Qed.
Lemma prm_sjproxies : forall c v, proms (sjproxies c v) = proms c. Proof. reflexivity. Qed.
Lemma prm_sjgates : forall c v, proms (sjgates c v) = proms c. Proof. reflexivity. Qed.

(* JC: summed over all promises, clientsRefs less one per promise that has not called ReleaseClients (pot) equals
   the number of ReleaseClients calls that have set their flag and not yet reached the end of their chain (owes) *)
Definition JC (c : jconfig) : Prop := pm_sum (proms c) = jcount owes (jthreads c).

Lemma JC_step : forall v c t c', jv_refs_sum v = true -> JC c -> jstep v c t = Some c' -> JC c'.
Proof.
  intros v c t c' Hv HN Hs. unfold JC in *.
  jthread Hs Hth.
  junfold Hs. rewrite ?Hv in Hs. jexplode Hs; inversion Hs; subst; clear Hs.
  all: unfold resolve_entry, do_known, do_final.
  all: goal_matches.
  all: repeat progress (jsimp; rewrite ?sum_close_sigs, ?pm_sum_set); fold_getp; jsimp.
  all: rewrite (jcount_upd _ _ _ _ _ Hth).
  all: rewrite ?Nat.eqb_refl.
  all: rewrite HN; unfold owes; simpl;
       repeat match goal with H : j_pc _ = _ |- _ => rewrite H end; simpl.
  all: unfold pot; simpl.
  all: eqb_all; simpl.
  all: repeat match goal with
              | H : _ && _ = true |- _ => apply andb_true_iff in H; destruct H
              | H : _ && _ = false |- _ => apply andb_false_iff in H; destruct H
              end.
  all: repeat match goal with H : p_relflag _ = _ |- _ => rewrite H end.
  all: repeat match goal with H : (j_waitx _ =? 0)%nat = _ |- _ => rewrite H end; simpl.
  all: repeat match goal with |- context [p_relflag ?p] => destruct (p_relflag p) eqn:? end.
  all: repeat match goal with |- context [(j_waitx ?th =? 0)%nat] => destruct (j_waitx th =? 0)%nat eqn:? end; simpl.
  all: try lia.
  all: try discriminate.
Qed.

Lemma JC_init : forall np ops, JC (jinit np ops).
Proof.
  intros np ops. unfold JC, jinit. simpl.
  assert (H1 : forall l, pm_sum (map (fun k => (k, new_prom k)) l) = 0).
  { induction l; simpl; auto. }
  assert (H2 : forall l, jcount owes (map mk_jthread l) = 0).
  { induction l; simpl; auto. }
  rewrite H1, H2. reflexivity.
Qed.

(* Over all op lists and interleavings (code as it is: Join adds all of p's references to the promise joined
   onto): the sum over all promises of clientsRefs equals the number of promises that have not called
   ReleaseClients plus the number of ReleaseClients calls that have set their flag and not yet reached the end of
   their chain.  Join conserves the references; a ReleaseClients call consumes exactly one, at the end of the chain. *)
Theorem join_refs_conserved : forall v np ops c, jv_refs_sum v = true -> jreach v np ops c ->
  pm_sum (proms c) = jcount owes (jthreads c).
Proof.
  intros v np ops c Hv H. induction H as [|c t c' Hr IH Hs]; [apply JC_init|exact (JC_step v c t c' Hv IH Hs)].
Qed.

(* The same count with the two parts of pot summed separately: all clientsRefs, and the promises that have not
   called ReleaseClients yet.  (What this says of a single chain is join_chain_release in PromiseJoinChain.v.) *)
Fixpoint pm_unreleased (m : list (nat * prom)) : Z :=
  match m with [] => 0 | (_, p) :: r => (if p_relflag p then 0 else 1) + pm_unreleased r end.

Fixpoint pm_refs (m : list (nat * prom)) : Z :=
  match m with [] => 0 | (_, p) :: r => p_crefs p + pm_refs r end.

Lemma pm_sum_split : forall m, pm_sum m = pm_refs m - pm_unreleased m.
Proof. induction m as [|[k p] m IH]; simpl; [reflexivity|]. unfold pot. rewrite IH. lia. Qed.

Theorem join_refs_count : forall v np ops c, jv_refs_sum v = true -> jreach v np ops c ->
  pm_refs (proms c) = pm_unreleased (proms c) + jcount owes (jthreads c).
Proof.
  intros v np ops c Hv H. pose proof (join_refs_conserved v np ops c Hv H) as E. rewrite pm_sum_split in E. lia.
Qed.

(* the seeded change C11-r2-1 (parent.clientsRefs++) loses references: on the child-first chain of
   [refs_history] the count no longer matches after the second Join *)
Example join_refs_conservation_refuted :
  let c := jrun jrefs1 (jinit 3 [JJoin 2 1; JJoin 1 0]) [0%nat; 0%nat; 1%nat; 1%nat] in
  pm_refs (proms c) = 2 /\ pm_unreleased (proms c) = 3 /\ jcount owes (jthreads c) = 0.
Proof. vm_compute. repeat split; reflexivity. Qed.

Lemma jcount_nonneg : forall f l, 0 <= jcount f l.
Proof. induction l; cbn [jcount]; [lia|]. destruct (f a); lia. Qed.

Lemma jcount_pos : forall f l, 0 < jcount f l -> exists t th, nth_error l t = Some th /\ f th = true.
Proof.
  induction l as [|a l IH]; cbn [jcount]; intros H; [lia|].
  destruct (f a) eqn:E.
  - exists 0%nat, a. auto.
  - destruct (IH ltac:(lia)) as [t [th [H1 H2]]]. exists (S t), th. auto.
Qed.

Lemma jcount_mem : forall f l t th, nth_error l t = Some th -> f th = true -> 0 < jcount f l.
Proof.
  induction l as [|a l IH]; intros t th H Hf; destruct t; cbn [jcount nth_error] in *; try discriminate.
  - inversion H; subst. rewrite Hf. pose proof (jcount_nonneg f l). lia.
  - pose proof (IH t th H Hf). destruct (f a); lia.
Qed.

Lemma jcount_init : forall f ops, (forall o, f (mk_jthread o) = false) -> jcount f (map mk_jthread ops) = 0.
Proof. induction ops; cbn [jcount map]; intros H; auto. rewrite H, IHops; auto. Qed.

Ltac thr_simp Hth := jsimp; rewrite ?(jcount_upd _ _ _ _ _ Hth).
