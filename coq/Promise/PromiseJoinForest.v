(* Joined promises form a forest.  Precondition of Join (answer.go: "When acquiring multiple Promise.mu mutexes,
   they must be acquired in traversal order"; a promise must not be joined to itself or to a promise that is or
   will be joined to it): here, as in the generators, promise k only joins promises of lower index.  Under this
   precondition every [next] edge goes to a lower index, in every configuration reachable under any schedule.
   Without it Join can block forever: [self_join_refuted], [cyclic_join_refuted]. *)
From CV Require Import Promise.Promise Promise.PromiseProofs Promise.PromiseJoin Promise.PromiseJoinThms
  Promise.PromiseJoinInv.
Open Scope Z_scope.

Definition op_ordered (o : jop) : Prop := match o with JJoin k par => (par < k)%nat | _ => True end.
Definition join_ordered (ops : list jop) : Prop := Forall op_ordered ops.

(* a Join thread past its first section works on its own promise and looks at a lower one *)
Definition jjoin_pc (p : jpc) : bool :=
  match p with QJStopWait | QJRelock | QJPar | QJWaitRes | QJWaitJ | QJLockP => true | _ => false end.

Definition ftinv (th : jthread) : Prop :=
  op_ordered (j_op th) /\ (jjoin_pc (j_pc th) = true -> (j_par th < j_cur th)%nat).

(* FO: every next edge left by Join goes to a promise of lower index, and every thread keeps the ordering of its
   operation: a Join thread looks at (j_par) a promise below its own (j_cur) *)
Record FO (c : jconfig) : Prop := {
  F_next : forall k q, p_next (getp c k) = Some q -> (q < k)%nat;
  F_thr : forall t th, nth_error (jthreads c) t = Some th -> ftinv th
}.

Lemma FO_step : forall v c t c', FO c -> jstep v c t = Some c' -> FO c'.
Proof.
  intros v c t c' HF Hs.
  jthread Hs Hth.
  pose proof (F_thr c HF t th Hth) as [Hop Hpar].
  jcases Hs.
  all: goal_matches.
  all: constructor.
  (* next edges *)
  all: try (intros k0 q0 Hn; jsimp_in Hn; simpl in Hn; eqb_all; simpl in Hn;
            first [ exact (F_next c HF _ _ Hn)
                  | (injection Hn as <-; repeat match goal with H : j_pc _ = _ |- _ => rewrite H in Hpar end;
                     apply Hpar; reflexivity) ]).
  (* threads *)
  all: intros t0 th0 H0; simpl in H0; rewrite ?close_sigs_threads in H0; simpl in H0;
       destruct (jupd_nth_cases _ _ _ _ _ _ Hth H0) as [[-> ->]|[Hne H0']];
       [|exact (F_thr c HF _ _ H0')].
  all: unfold ftinv; simpl; repeat match goal with H : j_pc _ = _ |- _ => rewrite H in * end;
       repeat match goal with H : j_op _ = _ |- _ => rewrite H in * end; simpl in *.
  all: (split; [exact Hop|]); intros Hj; try discriminate Hj; try (apply Hpar; reflexivity).
  all: try exact Hop.
  all: pose proof (F_next c HF _ _ Heqo); specialize (Hpar eq_refl); lia.
Qed.

Lemma FO_init : forall np ops, join_ordered ops -> FO (jinit np ops).
Proof.
  intros np ops Ho. constructor.
  - intros k q H. destruct (getp_init np ops k) as [E|E]; rewrite E in H; discriminate.
  - intros t th H. simpl in H. rewrite nth_error_map in H. destruct (nth_error ops t) as [o|] eqn:E; inversion H; subst.
    split; [|discriminate]. simpl. apply nth_error_In in E. unfold join_ordered in Ho.
    rewrite Forall_forall in Ho. exact (Ho o E).
Qed.

(* the forest invariant: every next edge goes to a promise of lower index (so chains are finite, acyclic and
   end in a promise that is not joined), and a Join thread always looks at a promise below its own *)
Theorem join_forest : forall v np ops c, join_ordered ops -> jreach v np ops c ->
  (forall k q, p_next (getp c k) = Some q -> (q < k)%nat) /\
  (forall t th, nth_error (jthreads c) t = Some th -> jjoin_pc (j_pc th) = true -> (j_par th < j_cur th)%nat).
Proof.
  intros v np ops c Ho H.
  assert (HF : FO c). { induction H as [|c t c' Hr IH Hs]; [apply FO_init; auto|exact (FO_step v c t c' IH Hs)]. }
  split; [exact (F_next c HF)|]. intros t th Hth. exact (proj2 (F_thr c HF t th Hth)).
Qed.

(* p.Join(p.Answer()): the thread holds p.mu and waits for it *)
Example self_join_refuted :
  let c := jrun jfixed (jinit 1 [JJoin 0 0]) [0%nat; 0%nat; 0%nat] in
  jenabled jfixed c 0 = false /\ jfinished c 0 = false /\ jmutex_blocked c 0 = true.
Proof. vm_compute. repeat split; reflexivity. Qed.

(* p.Join(q) || q.Join(p): each holds its own mu and waits for the other's *)
Example cyclic_join_refuted :
  let c := jrun jfixed (jinit 2 [JJoin 0 1; JJoin 1 0]) [0%nat; 1%nat; 0%nat; 1%nat] in
  jenabled jfixed c 0 = false /\ jenabled jfixed c 1 = false /\
  jfinished c 0 = false /\ jfinished c 1 = false /\ jmutex_blocked c 0 = true /\ jmutex_blocked c 1 = true.
Proof. vm_compute. repeat split; reflexivity. Qed.

(* the section of a Join thread that holds p.mu and locks the promise it looks at can always run when that
   promise's mu is free (the traversal switch is exhaustive) *)
Lemma join_par_enabled : forall v c t th,
  j_par th <> j_cur th -> free c (j_par th) = true -> sec_join_par v c t th <> None.
Proof.
  intros v c t th Hne Hfree. unfold sec_join_par.
  destruct (Nat.eqb_spec (j_par th) (j_cur th)); [contradiction|]. rewrite Hfree. simpl.
  destruct (p_caller (getp c (j_par th))) eqn:Ec.
  - destruct (negb (jv_alloc_table v) && negb (p_hastable (getp c (j_par th))) &&
              negb match p_clients (getp c (j_cur th)) with [] => true | _ :: _ => false end); discriminate.
  - destruct (is_pres (getp c (j_par th))) eqn:E1; [discriminate|].
    destruct (is_pjoin (getp c (j_par th))) eqn:E2; [discriminate|].
    destruct (p_is_resolved (getp c (j_par th))) eqn:E3; [discriminate|].
    destruct (p_next (getp c (j_par th))) eqn:E4; [discriminate|].
    exfalso. unfold is_pres, p_is_resolved, p_is_joined in *. rewrite Ec, E2, E4 in *. simpl in *.
    destruct (no_signals (getp c (j_par th))); discriminate.
Qed.

(* Under the Join precondition: if some promise's mu is held (so that threads may be waiting for it), some thread
   can take a step.  Hence no operation is blocked forever on a Promise.mu: the lock order p, then the promise
   joined, is acyclic.  (The mutex part of no_stuck on chains; the channel waits are PromiseJoinStuck.v / PromiseJoinWaits.v.) *)
Theorem join_no_mutex_deadlock : forall v np ops c, jv_alloc_table v = true -> join_ordered ops ->
  jreach v np ops c -> forall k t, p_mu (getp c k) = Some t -> exists t', jenabled v c t' = true.
Proof.
  intros v np ops c Hv Ho Hr.
  destruct (join_forest v np ops c Ho Hr) as [_ Hpar].
  destruct (join_mu_discipline v np ops c Hv Hr) as [HM _].
  intros k. induction k as [k IH] using lt_wf_ind. intros t Hmu.
  destruct (HM k t Hmu) as [th [Hth [Hpc Hcur]]].
  assert (Hlt : (j_par th < j_cur th)%nat) by (apply (Hpar t th Hth); rewrite Hpc; reflexivity).
  destruct (p_mu (getp c (j_par th))) as [t2|] eqn:E.
  - apply (IH (j_par th) ltac:(lia) t2 E).
  - exists t. unfold jenabled, jstep. rewrite Hth. unfold jstep_thread. rewrite Hpc.
    destruct (sec_join_par v c t th) eqn:Es; [reflexivity|].
    exfalso. apply (join_par_enabled v c t th); [lia| |exact Es]. unfold free. rewrite E. reflexivity.
Qed.
