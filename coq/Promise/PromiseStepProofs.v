(* Every step of the model of answer.go after both fixes preserves the invariant Inv. *)
From CV Require Import Promise.Promise Promise.PromiseProofs.
Open Scope Z_scope.

Lemma cnt_deliver_new : forall t d l, cnt (is_deliver t) (EDeliver t d :: l) = S (cnt (is_deliver t) l).
Proof. intros. rewrite cnt_cons. simpl. rewrite Nat.eqb_refl. reflexivity. Qed.

Lemma sig_done_open : forall c, Inv c -> sig_open c = true -> done_open c = true.
Proof. intros c HI Hs. destruct (done_open c) eqn:E; auto. pose proof (I_done c HI E). congruence. Qed.

Lemma tinv_res_done : forall c t th o, is_res_op (t_op th) = true ->
  (o = OPanic /\ caller c = false) \/
  (o = ORet /\ In (EBegin t) (events c) /\ In (EResolved t) (events c) /\ result c = Some (op_res (t_op th))) ->
  tinv c t (finish th o).
Proof. unfold tinv. intros c t th o Hop H. simpl. destruct (t_op th); try discriminate Hop; exact H. Qed.

Lemma tinv_precommit : forall c t th p, is_res_op (t_op th) = true -> precommit_pc p = true ->
  caller c = false -> sig_open c = true -> In (EBegin t) (events c) -> tinv c t (goto th p).
Proof.
  unfold tinv. intros c t th p Hop Hp. simpl.
  destruct (t_op th); try discriminate Hop; destruct p; try discriminate Hp; auto.
Qed.

Lemma resolve_start_inv : forall c t th c',
  Inv c -> nth_error (threads c) t = Some th -> t_pc th = PStart -> is_res_op (t_op th) = true ->
  sec_resolve_start fixed c t th = Some c' -> Inv c'.
Proof.
  intros c t th c' HI Hth Hpc Hop Hs.
  pose proof (I_mu c HI) as Hmu. unfold sec_resolve_start, mu_free in Hs. rewrite Hmu in Hs.
  cbn [negb fixed v_late_fulfil v_known_first commit] in Hs.
  destruct (caller c) eqn:Hc; cbn [negb] in Hs.
  2:{ injection Hs as <-. apply (inv_goto c t th); auto. apply tinv_res_done; auto. }
  pose proof (I_caller_sig c HI Hc) as Hso. pose proof (sig_done_open c HI Hso) as Hdo.
  destruct (0 <? ongoing c).
  - injection Hs as <-.
    apply (inv_resolve c _ t th (goto th PStopWait) false (op_res (t_op th))); simpl; auto.
    + rewrite Hc. reflexivity.
    + apply tinv_precommit; simpl; auto.
  - destruct (iter_order (op_ord (t_op th)) (clients c)) eqn:Hord; injection Hs as <-.
    + (* no proxy clients: result, signals, Done in one section *)
      apply (inv_resolve c _ t th (finish th ORet) true (op_res (t_op th))); simpl; auto.
      * rewrite Hc. reflexivity.
      * apply tinv_res_done; simpl; auto 10.
    + apply (inv_resolve c _ t th (goto th (PFul (n :: l))) true (op_res (t_op th))); simpl; auto.
      * rewrite Hc. reflexivity.
      * apply tinv_postk; simpl; auto.
Qed.

Lemma commit_inv : forall c t th c',
  Inv c -> nth_error (threads c) t = Some th -> t_pc th = PCommit ->
  sec_commit fixed c t th = Some c' -> Inv c'.
Proof.
  intros c t th c' HI Hth Hpc Hs.
  assert (Hpre : in_precommit th = true) by (unfold in_precommit; rewrite Hpc; reflexivity).
  destruct (precommit_facts c t th (I_threads c HI t th Hth) Hpre) as (Hop & Hc & Hso & Hb).
  pose proof (I_mu c HI) as Hmu. unfold sec_commit, mu_free in Hs. rewrite Hmu in Hs.
  cbn [negb fixed v_late_fulfil v_known_first commit] in Hs.
  assert (Hp : exists p, postk_pc p = true /\ Some (set_thread (commit_k c t (op_res (t_op th))) t (goto th p)) = Some c')
    by (destruct (iter_order _ _); eexists; (split; [|exact Hs]); reflexivity).
  destruct Hp as (p & Hp & Hs'). injection Hs' as <-.
  apply (inv_resolve c _ t th (goto th p) true (op_res (t_op th))); simpl; auto.
  - rewrite Hc. reflexivity.
  - apply tinv_postk; simpl; auto. apply (sig_done_open c HI Hso).
Qed.

Lemma call_done_noprec : forall th, in_precommit (call_done th) = false.
Proof. intros th. unfold call_done. destruct (t_via th); reflexivity. Qed.

(* the stepping thread's own invariant after its call was delivered to d (not the caller) *)
Lemma tinv_delivered : forall c t th,
  tinv c t th -> (t_pc th = PCallLock \/ t_pc th = PAfterRes) ->
  (match t_op th with OSend _ _ | OCall _ _ => True | _ => False end) ->
  tinv (log c (EDeliver t (res_dest (cur_res c) (t_path th)))) t (call_done th).
Proof.
  intros c t th HT Hpc Hop. unfold tinv in *. unfold call_done.
  destruct (t_op th) eqn:Eop; try contradiction.
  - destruct HT as [H1 [H2 [H3 H4]]]. rewrite H3. simpl. rewrite Eop, cnt_deliver_new, H1.
    assert (Hp : t_path th = p) by (destruct Hpc as [E|E]; rewrite E in H4; tauto).
    assert (H0 : delivered_pc (t_pc th) = false) by (destruct Hpc as [E|E]; rewrite E; reflexivity).
    rewrite H0, Hp. repeat split; auto.
    intros d0 [He|Hin]; [inversion He; right; reflexivity|auto].
  - assert (H0 : cnt (is_deliver t) (events c) = 0%nat) by (destruct Hpc as [E|E]; rewrite E in HT; tauto).
    destruct (t_via th); simpl; rewrite Eop, cnt_deliver_new, H0; auto.
Qed.

Lemma inv_delivered : forall c t th,
  Inv c -> nth_error (threads c) t = Some th -> (t_pc th = PCallLock \/ t_pc th = PAfterRes) ->
  (match t_op th with OSend _ _ | OCall _ _ => True | _ => False end) -> sig_open c = false ->
  Inv (set_thread (log c (EDeliver t (res_dest (cur_res c) (t_path th)))) t (call_done th)).
Proof.
  intros c t th HI Hth Hpc Hop Hso. apply (inv_deliver c t th); auto.
  - intros E. destruct (res_dest_not_caller _ _ E).
  - apply tinv_delivered; auto. exact (I_threads c HI t th Hth).
  - rewrite call_done_noprec. reflexivity.
Qed.

Lemma call_lock_inv : forall c t th c',
  Inv c -> nth_error (threads c) t = Some th -> t_pc th = PCallLock ->
  sec_call_lock c t th = Some c' -> Inv c'.
Proof.
  intros c t th c' HI Hth Hpc Hs.
  pose proof (I_mu c HI) as Hmu. pose proof (I_threads c HI t th Hth) as HT.
  unfold sec_call_lock, mu_free in Hs. rewrite Hmu in Hs. cbn [negb] in Hs.
  assert (Hop : match t_op th with OSend _ _ | OCall _ _ => True | _ => False end).
  { unfold tinv in HT. rewrite Hpc in HT. destruct (t_op th); tauto. }
  destruct (caller c) eqn:Hc; [|destruct (sig_open c) eqn:Hso]; injection Hs as <-.
  - apply (inv_nores c _ t th (goto th PInCaller) [EDeliver t DCaller]); simpl; auto.
    + right. exists DCaller. repeat split; congruence.
    + apply HI.
    + apply px_preserved_refl. reflexivity.
    + unfold tinv in *. simpl. rewrite Hpc in HT. destruct (t_op th); try contradiction.
      * destruct HT as [H1 [H2 [H3 H4]]]. rewrite cnt_deliver_new, H1. simpl. repeat split; auto.
        intros d [He|Hin]; [inversion He; auto|auto].
      * rewrite cnt_deliver_new, HT. reflexivity.
  - apply (inv_goto c t th); auto.
    unfold tinv in *. simpl. rewrite Hpc in HT. destruct (t_op th); try contradiction; auto.
  - apply inv_delivered; auto.
Qed.

Lemma tab_slot : forall cal so cl pxs sl s h, Tab cal so cl pxs sl ->
  (forall d, h = HDirect d -> so = false /\ d <> DCaller) -> Tab cal so cl pxs ((s, h) :: sl).
Proof.
  intros cal so cl pxs sl s h [T1 T2 T3 T4 T5] Hh. constructor; auto.
  intros s0 d [E|Hin]; [inversion E; subst; auto|exact (T5 s0 d Hin)].
Qed.

Lemma tinv_client_direct : forall c t th p s, t_op th = OClient p s -> sig_open c = false ->
  tinv c t (finish th (OHandle (HDirect (res_dest (cur_res c) p)))).
Proof. intros c t th p s Hop Hso. unfold tinv. simpl. rewrite Hop. eexists. split; [reflexivity|]. simpl. auto. Qed.

(* Future.Client after the resolution: a handle on what the result holds at the path *)
Lemma inv_client_direct : forall c t th p s,
  Inv c -> nth_error (threads c) t = Some th -> t_op th = OClient p s -> sig_open c = false ->
  Inv (set_thread (set_slot c s (HDirect (res_dest (cur_res c) p))) t
                  (finish th (OHandle (HDirect (res_dest (cur_res c) p))))).
Proof.
  intros c t th p s HI Hth Hop Hso. pose proof (I_mu c HI) as Hmu.
  apply (inv_nores c _ t th (finish th (OHandle (HDirect (res_dest (cur_res c) p)))) []); simpl; auto.
  - apply tab_slot; [apply HI|]. intros d E. inversion E. split; [exact Hso|apply res_dest_not_caller].
  - apply px_preserved_refl. reflexivity.
  - apply (tinv_client_direct c t th p s Hop Hso).
Qed.

Lemma after_res_inv : forall c t th c',
  Inv c -> nth_error (threads c) t = Some th -> t_pc th = PAfterRes ->
  sec_after_res c t th = Some c' -> Inv c'.
Proof.
  intros c t th c' HI Hth Hpc Hs.
  pose proof (I_mu c HI) as Hmu. pose proof (I_threads c HI t th Hth) as HT.
  unfold sec_after_res, mu_free in Hs. rewrite Hmu in Hs. cbn [negb] in Hs.
  assert (Hso : sig_open c = false).
  { unfold tinv in HT. rewrite Hpc in HT. destruct (t_op th); tauto. }
  assert (Hcf : caller c = false).
  { destruct (caller c) eqn:E; auto. pose proof (I_caller_sig c HI E). congruence. }
  destruct (t_op th) eqn:Hop; try discriminate.
  - (* OSend *) injection Hs as <-. apply inv_delivered; auto. rewrite Hop. exact I.
  - (* OClient *) injection Hs as <-. apply (inv_client_direct c t th p slot); auto.
  - (* OCall *) injection Hs as <-. apply inv_delivered; auto. rewrite Hop. exact I.
  - (* ORelease *)
    assert (HR : forall th' cl n, tinv c t th' -> in_precommit th' = false ->
                   Inv (set_thread (set_table c cl n true (proxies c)) t th')).
    { intros th' cl n HT' Hp. apply (inv_nores c _ t th th' []); simpl; auto.
      - destruct (I_tab c HI) as [T1 T2 T3 T4 T5]. constructor; auto. congruence.
      - apply px_preserved_refl. reflexivity.
      - rewrite Hp. reflexivity. }
    destruct (relflag c); [|destruct (0 <? crefs c - 1)]; injection Hs as <-.
    + apply (inv_goto c t th); auto. unfold tinv. simpl. rewrite Hop. exact I.
    + apply HR; auto. unfold tinv. simpl. rewrite Hop. exact I.
    + apply HR; auto. unfold tinv. simpl. rewrite Hop. exact Hso.
  - (* OWait *) injection Hs as <-. apply (inv_goto c t th); auto.
    unfold tinv. simpl. rewrite Hop. auto.
Qed.

Lemma NoDup_snoc : forall A (l : list A) a, NoDup l -> ~ In a l -> NoDup (l ++ [a]).
Proof.
  induction l as [|b l IH]; intros a Hn Hin; simpl.
  - constructor; [intros []|constructor].
  - inversion Hn; subst. constructor.
    + intros H. apply in_app_or in H. destruct H as [H|[H|[]]]; [auto|subst; apply Hin; left; reflexivity].
    + apply IH; auto. intros H. apply Hin. right. exact H.
Qed.

Lemma client_inv : forall c t th c' p s,
  Inv c -> nth_error (threads c) t = Some th -> t_pc th = PStart -> t_op th = OClient p s ->
  sec_client fixed c t th p s = Some c' -> Inv c'.
Proof.
  intros c t th c' p s HI Hth Hpc Hop Hs.
  pose proof (I_mu c HI) as Hmu. pose proof (I_tab c HI) as HT.
  unfold sec_client, mu_free in Hs. rewrite Hmu in Hs. cbn [negb fixed v_unlock_on_hit] in Hs.
  destruct (caller c) eqn:Hc.
  - destruct (T_table HT eq_refl) as [Ht1 Ht2].
    destruct (find_client (clients c) p) as [x|] eqn:Hf; injection Hs as <-.
    + destruct (table_lookup (clients c) (proxies c) 0 p x Ht1 Ht2 (find_client_some _ _ _ Hf)) as [px [Ha [Hb _]]].
      rewrite Nat.sub_0_r in Ha.
      apply (inv_nores c _ t th (finish th (OHandle (HProxy x))) []); simpl; auto.
      * rewrite Hc. apply tab_slot; [exact HT|discriminate].
      * apply px_preserved_refl. reflexivity.
      * unfold tinv. simpl. rewrite Hop. eexists. split; [reflexivity|]. simpl. eauto.
    + set (np := {| px_path := p; px_refs := 1; px_calls := 0; px_target := None; px_done := false; px_rel := false |}).
      apply (inv_nores c _ t th (finish th (OHandle (HProxy (length (proxies c))))) []); simpl; auto.
      * apply tab_slot; [|discriminate]. destruct HT as [_ T2 T3 T4 T5]. constructor; auto.
        -- intros _. rewrite !map_app, app_length, Ht1, Ht2. simpl. split; [reflexivity|].
           rewrite Nat.add_1_r, seq_S. reflexivity.
        -- rewrite map_app. simpl. apply NoDup_snoc; [exact T2|]. rewrite <- Ht1. apply find_client_none. exact Hf.
        -- intros x px Hx Hfl. destruct (nth_error_app_new _ _ _ _ _ Hx) as [Hx'|[_ ->]]; [exact (T3 x px Hx' Hfl)|].
           simpl in Hfl. destruct Hfl as [Hfl|Hfl]; [discriminate|congruence].
        -- intros x px Hx. destruct (nth_error_app_new _ _ _ _ _ Hx) as [Hx'|[_ ->]]; [exact (T4 x px Hx')|discriminate].
      * intros x px Hx. exists px. simpl. split; auto. rewrite nth_error_app1; auto. apply nth_error_Some. congruence.
      * unfold tinv. simpl. rewrite Hop. eexists. split; [reflexivity|]. simpl. exists np. split; auto.
        rewrite nth_error_app2, Nat.sub_diag by auto. reflexivity.
  - destruct (done_open c) eqn:Hdo; injection Hs as <-.
    + apply (inv_goto c t th); auto. unfold tinv. simpl. rewrite Hop. exact I.
    + apply (inv_client_direct c t th p s); auto. exact (I_done c HI Hdo).
Qed.

Lemma get_px_target_ok : forall c x, Inv c -> px_target (get_px c x) <> Some DCaller.
Proof.
  intros c x HI. destruct (nth_error (proxies c) x) as [px|] eqn:E.
  - rewrite (get_px_nth c x px E). exact (T_target (I_tab c HI) x px E).
  - unfold get_px. rewrite nth_overflow by (apply nth_error_None; exact E). discriminate.
Qed.

Lemma get_px_late : forall c x, Inv c -> (px_rel (get_px c x) = true \/ px_target (get_px c x) <> None) -> sig_open c = false.
Proof.
  intros c x HI H. destruct (nth_error (proxies c) x) as [px|] eqn:E.
  - rewrite (get_px_nth c x px E) in H. exact (T_late (I_tab c HI) x px E H).
  - unfold get_px in H. rewrite nth_overflow in H by (apply nth_error_None; exact E). simpl in H.
    destruct H as [H|H]; [discriminate|congruence].
Qed.

Lemma call_start_inv : forall c t th c' s g,
  Inv c -> nth_error (threads c) t = Some th -> t_pc th = PStart -> t_op th = OCall s g ->
  sec_call_start c t th s = Some c' -> Inv c'.
Proof.
  intros c t th c' s g HI Hth Hpc Hop Hs.
  pose proof (I_threads c HI t th Hth) as HT. unfold tinv in HT. rewrite Hop, Hpc in HT.
  unfold sec_call_start in Hs.
  assert (Hdel : forall d, d <> DCaller -> sig_open c = false ->
                   Inv (set_thread (log c (EDeliver t d)) t (finish th ORet))).
  { intros d Hd Hso. apply (inv_deliver c t th); auto.
    unfold tinv. simpl. rewrite Hop, cnt_deliver_new, HT. auto. }
  destruct (lookup_slot (slots c) s) as [[x|d]|] eqn:Hl.
  - destruct (px_rel (get_px c x)) eqn:Hrel; [|destruct (px_target (get_px c x)) as [d|] eqn:Htg]; injection Hs as <-.
    + apply Hdel; [discriminate|]. apply (get_px_late c x HI); auto.
    + apply Hdel; [|apply (get_px_late c x HI); right; congruence].
      intros ->. exact (get_px_target_ok c x HI Htg).
    + apply (inv_set_px c t th); simpl; auto; [discriminate|].
      unfold tinv. simpl. rewrite Hop. exact HT.
  - injection Hs as <-. destruct (lookup_slot_in _ _ _ Hl) as [s' Hin].
    destruct (T_slots (I_tab c HI) s' d Hin) as [Hso Hd]. apply Hdel; auto.
  - injection Hs as <-. apply (inv_goto c t th); auto. unfold tinv. simpl. rewrite Hop. auto.
Qed.

Lemma fulfil_proxy_inv : forall c t th c' rest,
  Inv c -> nth_error (threads c) t = Some th -> t_pc th = PFul rest ->
  sec_fulfil_proxy fixed c t th rest = Some c' -> Inv c'.
Proof.
  intros c t th c' rest HI Hth Hpc Hs.
  assert (Hpk : in_postk th = true) by (unfold in_postk; rewrite Hpc; reflexivity).
  destruct (postk_facts c t th (I_threads c HI t th Hth) Hpk) as (Hop & Hb & Hr & Hres & Hso & Hdo).
  assert (Hcf : caller c = false).
  { destruct (caller c) eqn:E; auto. pose proof (I_caller_sig c HI E). congruence. }
  assert (Hgo : forall c0 p, postk_pc p = true -> events c0 = events c -> result c0 = result c ->
                  sig_open c0 = sig_open c -> done_open c0 = done_open c -> tinv c0 t (goto th p)).
  { intros c0 p Hp E1 E2 E3 E4. apply tinv_postk; auto; congruence. }
  assert (Hp : in_precommit th = false) by (unfold in_precommit; rewrite Hpc; reflexivity).
  unfold sec_fulfil_proxy in Hs. cbn [fixed v_late_fulfil v_known_first] in Hs.
  destruct rest as [|x rest'].
  - injection Hs as <-. apply (inv_goto c t th); auto.
  - destruct (negb (res_alive c)).
    { injection Hs as <-. apply (inv_goto c t th); auto. apply tinv_res_done; auto. }
    destruct (px_refs (get_px c x) =? 0); injection Hs as <-.
    all: apply (inv_set_px c t th); simpl; auto;
      intros E; injection E as E; exact (res_dest_not_caller _ _ E).
Qed.

Lemma close_inv : forall c t th c',
  Inv c -> nth_error (threads c) t = Some th -> t_pc th = PClose ->
  sec_close c t th = Some c' -> Inv c'.
Proof.
  intros c t th c' HI Hth Hpc Hs. pose proof (I_mu c HI) as Hmu.
  assert (Hpk : in_postk th = true) by (unfold in_postk; rewrite Hpc; reflexivity).
  destruct (postk_facts c t th (I_threads c HI t th Hth) Hpk) as (Hop & Hb & Hr & Hres & Hso & Hdo).
  unfold sec_close, mu_free in Hs. rewrite Hmu in Hs. injection Hs as <-.
  apply (inv_nores c _ t th (finish th ORet) []); simpl; auto.
  - apply HI.
  - apply px_preserved_refl. reflexivity.
  - apply tinv_res_done; simpl; auto 10.
Qed.

Lemma release_proxy_inv : forall c t th c' rest,
  Inv c -> nth_error (threads c) t = Some th -> t_pc th = PRel rest ->
  sec_release_proxy c t th rest = Some c' -> Inv c'.
Proof.
  intros c t th c' rest HI Hth Hpc Hs.
  pose proof (I_threads c HI t th Hth) as HT. unfold tinv in HT. rewrite Hpc in HT.
  assert (HT' : t_op th = ORelease /\ sig_open c = false).
  { destruct (t_op th); try tauto; simpl; tauto. }
  destruct HT' as [Hop Hso].
  assert (Hgo : forall c0 th', t_op th' = ORelease -> sig_open c0 = false ->
                  match t_pc th' with PRel _ | PRelWait _ _ | PDone => True | _ => False end -> tinv c0 t th').
  { intros c0 th' E E' Hp. unfold tinv. rewrite E. destruct (t_pc th'); try contradiction; auto. }
  unfold sec_release_proxy in Hs.
  destruct rest as [|x rest'].
  - injection Hs as <-. apply (inv_goto c t th); auto; apply Hgo; simpl; auto.
  - destruct (px_rel (get_px c x)).
    + injection Hs as <-. apply (inv_goto c t th); auto; apply Hgo; simpl; auto.
    + destruct (px_target (get_px c x)) as [d|] eqn:Htg; [|destruct (0 <? px_refs (get_px c x) - 1)];
        injection Hs as <-; apply (inv_set_px c t th); simpl; auto; try discriminate; try (apply Hgo; simpl; auto).
      rewrite <- Htg. apply get_px_target_ok. exact HI.
Qed.

(* leaving a wait: the clause of tinv for the new program counter asks nothing new, except after
   <-p.resolved, where the closed channel is recorded *)
Lemma tinv_move : forall c t th p, tinv c t th ->
  match t_pc th, p with
  | PInCaller, PCallRelock | PFulWait _ _, PFul _ | PStopWait, PCommit | PRelWait _ _, PRel _ => True
  | PWaitRes, PAfterRes => sig_open c = false /\ match t_op th with OClient _ _ => done_open c = false | _ => True end
  | _, _ => False
  end -> tinv c t (goto th p).
Proof.
  unfold tinv. intros c t th p HT Hp. simpl.
  destruct (t_pc th); destruct p; try contradiction; destruct (t_op th); simpl in *; tauto.
Qed.

Lemma step_inv : forall c t c', Inv c -> step fixed c t = Some c' -> Inv c'.
Proof.
  intros c t c' HI Hs. unfold step in Hs.
  destruct (nth_error (threads c) t) as [th|] eqn:Hth; [|discriminate].
  pose proof (I_threads c HI t th Hth) as HT. pose proof (I_mu c HI) as Hmu.
  assert (Hmove : forall p, tinv c t (goto th p) -> implb (precommit_pc p) (in_precommit th) = true ->
                    Inv (set_thread c t (goto th p))) by (intros p; apply (inv_goto c t th); auto).
  unfold step_thread in Hs.
  destruct (t_pc th) eqn:Hpc.
  - (* PStart *)
    destruct (t_op th) eqn:Hop.
    + eapply resolve_start_inv; eauto. rewrite Hop. reflexivity.
    + eapply resolve_start_inv; eauto. rewrite Hop. reflexivity.
    + (* OSend *)
      injection Hs as <-. apply (inv_goto c t th); auto.
      unfold tinv in *. simpl. rewrite Hop in *. rewrite Hpc in HT. simpl in *. tauto.
    + eapply client_inv; eauto.
    + eapply call_start_inv; eauto.
    + (* ORelease *)
      destruct (done_open c) eqn:Hdo; [discriminate|]. injection Hs as <-. apply Hmove; auto.
      unfold tinv. simpl. rewrite Hop. exact (I_done c HI Hdo).
    + (* OWait *)
      destruct (done_open c) eqn:Hdo; [discriminate|]. injection Hs as <-. apply Hmove; auto.
      unfold tinv. simpl. rewrite Hop. exact (I_done c HI Hdo).
    + (* OUngate *)
      injection Hs as <-. apply (inv_own_thread c _ t th (finish th ORet)); auto. unfold tinv. simpl. rewrite Hop. exact I.
    + (* OConsume *)
      destruct (done_open c) eqn:Hdo; [discriminate|]. injection Hs as <-.
      apply (inv_own_thread c _ t th (finish th ORet)); auto. unfold tinv. simpl. rewrite Hop. exact I.
  - eapply call_lock_inv; eauto.
  - (* PInCaller *)
    destruct (negb (op_gated (t_op th)) || mem_nat t (gates c)); [|discriminate]. injection Hs as <-.
    apply Hmove; auto. apply tinv_move; [exact HT|rewrite Hpc; exact I].
  - (* PCallRelock *)
    unfold sec_call_relock, mu_free in Hs. rewrite Hmu in Hs. injection Hs as <-.
    apply (inv_own_thread c _ t th (call_done th)); auto.
    + unfold tinv, call_done in *. rewrite Hpc in HT. destruct (t_op th) eqn:Hop; try contradiction.
      * destruct HT as [H1 [H2 [H3 H4]]]. rewrite H3. simpl. rewrite Hop. simpl in *. tauto.
      * destruct (t_via th); simpl; rewrite Hop; auto.
    + rewrite call_done_noprec. reflexivity.
  - (* PWaitRes *)
    assert (Hboth : sig_open c = false /\ match t_op th with OClient _ _ => done_open c = false | _ => True end).
    { destruct (t_op th); try (destruct (sig_open c); [discriminate|auto]);
        destruct (done_open c) eqn:Hdo; [discriminate|]; split; [exact (I_done c HI Hdo)|reflexivity]. }
    assert (Hs' : Some (set_thread c t (goto th PAfterRes)) = Some c').
    { destruct Hboth as [Hso Hcl]. destruct (t_op th); try (rewrite Hso in Hs; exact Hs); rewrite Hcl in Hs; exact Hs. }
    injection Hs' as <-. apply Hmove; auto. apply tinv_move; [exact HT|rewrite Hpc; exact Hboth].
  - eapply after_res_inv; eauto.
  - (* PCallFinish *)
    unfold sec_call_finish in Hs.
    assert (HT' : forall c0, events c0 = events c -> tinv c0 t (finish th ORet)).
    { intros c0 He. unfold tinv in *. simpl. rewrite He. rewrite Hpc in HT. destruct (t_op th); try contradiction.
      - destruct HT as [_ [_ [_ []]]].
      - auto. }
    destruct (t_via th) as [x|]; injection Hs as <-.
    + apply (inv_set_px c t th); simpl; auto. apply get_px_target_ok; exact HI.
    + apply (inv_goto c t th); auto.
  - eapply fulfil_proxy_inv; eauto.
  - (* PFulWait *)
    destruct (px_done (get_px c x)); [|discriminate]. injection Hs as <-.
    apply Hmove; auto. apply tinv_move; [exact HT|rewrite Hpc; exact I].
  - (* PStopWait *)
    destruct (stopped c); try discriminate. injection Hs as <-.
    apply Hmove; [apply tinv_move; [exact HT|rewrite Hpc; exact I]|].
    unfold in_precommit. rewrite Hpc. reflexivity.
  - eapply commit_inv; eauto.
  - eapply close_inv; eauto.
  - eapply release_proxy_inv; eauto.
  - (* PRelWait *)
    destruct (px_done (get_px c x)); [|discriminate]. injection Hs as <-.
    apply Hmove; auto. apply tinv_move; [exact HT|rewrite Hpc; exact I].
  - discriminate.
Qed.
