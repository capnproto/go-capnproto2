(* proxy_clients_resolved_and_released for the model of answer.go as it is: every proxy client handed out
   refers to what the result holds at its path once Fulfill/Reject has returned, and is released once the
   ReleaseClients call that took the table has returned.  All op lists, all interleavings. *)
From CV Require Import Promise.Promise Promise.PromiseProofs Promise.PromiseStepProofs Promise.PromiseTheorems
  Promise.PromiseLive.
Open Scope Z_scope.

(* ---- T1: until ReleaseClients takes it, the table lists every proxy; it is taken only after the resolution *)
Definition T1 (c : config) : Prop :=
  (relflag c = false -> map snd (clients c) = seq 0 (length (proxies c))) /\
  (sig_open c = true -> relflag c = false).

Lemma T1_step : forall c t c', Inv c -> T1 c -> step fixed c t = Some c' -> T1 c'.
Proof.
  intros c t c' HI [HA HB] Hs. unfold T1.
  step_cases HI Hs Hth.
  all: pose proof (I_threads c HI t th Hth) as HT; unfold tinv in HT.
  all: repeat match goal with H : t_pc _ = _ |- _ => rewrite H in HT end.
  all: repeat match goal with H : t_op _ = _ |- _ => rewrite H in HT end.
  all: simpl; rewrite ?length_upd; (split; [|intros; try congruence; auto]).
  all: try exact HA.
  all: try (intros; congruence).
  all: try (apply HB; auto; congruence).
  all: try (intros; apply HA; auto; congruence).
  all: try (exfalso; destruct HT; congruence).
  all: try (exfalso; congruence).
  (* Future.Client creates a proxy *)
  intros Hr. rewrite map_app, app_length, (HA Hr). simpl. rewrite Nat.add_1_r, seq_S. reflexivity.
Qed.

(* ---- GT: a proxy's target is what the result holds at its path *)
Definition GT (c : config) : Prop :=
  forall x px d, nth_error (proxies c) x = Some px -> px_target px = Some d ->
                 exists r, result c = Some r /\ d = res_dest r (px_path px).

Lemma GT_step : forall c t c', Inv c -> GT c -> step fixed c t = Some c' -> GT c'.
Proof.
  intros c t c' HI HN Hs. unfold GT in *.
  pose proof (T_late (I_tab c HI)) as Hlate. pose proof (I_res_none c HI) as Hrn.
  step_cases HI Hs Hth.
  all: pose proof (I_threads c HI t th Hth) as HT; unfold tinv in HT.
  all: repeat match goal with H : t_pc _ = _ |- _ => rewrite H in HT end.
  all: intros x0 px0 d0 Hx0 Htg; px_cases Hx0; simpl in *.
  (* unchanged proxies and result *)
  all: try (eapply HN; eauto; fail).
  all: try discriminate.
  (* the result is being set: no proxy has a target yet *)
  all: try (exfalso;
            first [ assert (Hso : sig_open c = false) by (eapply Hlate; [exact Hx0|right; congruence])
                  | assert (Hso : sig_open c = false) by (eapply Hlate; [exact Hx0'|right; congruence]) ];
            destruct (t_op th); try (exfalso; tauto);
            first [ destruct HT as [_ [Hs1 _]]; congruence
                  | match goal with H : caller ?cc = true |- _ => pose proof (I_caller_sig cc HI H); congruence end ]).
  (* a target is set by resolve: it is computed from the result *)
  all: try (injection Htg as <-; destruct (t_op th); try (exfalso; tauto);
            destruct HT as [_ [_ [Hres _]]]; eexists; split; [exact Hres|reflexivity]).
  all: try (rewrite ?(get_px_nth _ _ _ Hb0) in *; eapply HN; eauto; fail).
  all: try (eapply (HN _ _ _ Hb0); congruence).
  all: injection Htg as <-; destruct (t_op th); try (exfalso; tauto); destruct HT as [_ [_ [Hres _]]];
       (eexists; split; [exact Hres|reflexivity]).
Qed.

(* ---- thread clauses: what the fulfil loop / the release loop have done so far *)
Definition has_target (px : proxy) : Prop := px_target px <> None.
Definition is_rel (px : proxy) : Prop := px_rel px = true.

Definition all_px (c : config) (P : proxy -> Prop) (rest : list nat) : Prop :=
  forall y px, nth_error (proxies c) y = Some px -> In y rest \/ P px.

Definition tinv3 (c : config) (th : thread) : Prop :=
  match t_op th with
  | OFulfill _ _ | OReject _ =>
    match t_pc th with
    | PFul rest | PFulWait _ rest => sig_open c = false /\ all_px c has_target rest
    | PClose => sig_open c = false /\ all_px c has_target []
    | PDone => t_out th = ORet -> sig_open c = false /\ all_px c has_target []
    | _ => True
    end
  | ORelease =>
    match t_pc th with
    | PRel rest | PRelWait _ rest => sig_open c = false /\ all_px c is_rel rest
    | PDone => t_out th = ORet -> sig_open c = false /\ all_px c is_rel []
    | _ => True
    end
  | _ => True
  end.

Definition NP (c : config) : Prop := forall t th, nth_error (threads c) t = Some th -> tinv3 c th.

Definition mono3 (c c' : config) : Prop :=
  (sig_open c = false -> sig_open c' = false) /\
  forall y px', nth_error (proxies c') y = Some px' ->
    caller c = true \/
    exists px, nth_error (proxies c) y = Some px /\ (has_target px -> has_target px') /\ (is_rel px -> is_rel px').

Lemma all_px_mono : forall c c' (P : proxy -> Prop) (rest : list nat), Inv c -> sig_open c = false ->
  (forall y px', nth_error (proxies c') y = Some px' ->
     caller c = true \/ exists px, nth_error (proxies c) y = Some px /\ (P px -> P px')) ->
  all_px c P rest -> all_px c' P rest.
Proof.
  intros c c' P rest HI Hs Hm Ha y px' Hy.
  destruct (Hm y px' Hy) as [Hc|[px [H1 H2]]].
  - pose proof (I_caller_sig c HI Hc). congruence.
  - destruct (Ha y px H1); auto.
Qed.

Lemma tinv3_mono : forall c c', Inv c -> mono3 c c' -> forall th, tinv3 c th -> tinv3 c' th.
Proof.
  intros c c' HI [Hs Hm] th HT. unfold tinv3 in *.
  assert (HT1 : forall rest, sig_open c = false /\ all_px c has_target rest -> sig_open c' = false /\ all_px c' has_target rest).
  { intros rest [H1 H2]. split; auto. apply (all_px_mono c c' has_target rest HI H1); auto.
    intros y px' Hy. destruct (Hm y px' Hy) as [|[px [A [B _]]]]; eauto. }
  assert (HT2 : forall rest, sig_open c = false /\ all_px c is_rel rest -> sig_open c' = false /\ all_px c' is_rel rest).
  { intros rest [H1 H2]. split; auto. apply (all_px_mono c c' is_rel rest HI H1); auto.
    intros y px' Hy. destruct (Hm y px' Hy) as [|[px [A [_ B]]]]; eauto. }
  destruct (t_op th); auto; destruct (t_pc th); auto.
Qed.

Lemma mono3_upd : forall c (l' : list proxy) x p',
  l' = upd x p' (proxies c) ->
  (has_target (get_px c x) -> has_target p') -> (is_rel (get_px c x) -> is_rel p') ->
  forall y px', nth_error l' y = Some px' ->
    caller c = true \/
    exists px, nth_error (proxies c) y = Some px /\ (has_target px -> has_target px') /\ (is_rel px -> is_rel px').
Proof.
  intros c l' x p' -> H1 H2 y px' Hy. right.
  destruct (nth_error_upd_cases _ _ _ _ _ _ Hy) as [[-> [-> [b0 Hb0]]]|[Hne Hy']].
  - exists b0. rewrite (get_px_nth c x b0 Hb0) in *. auto.
  - exists px'. auto.
Qed.

Lemma mono3_step : forall c t c', Inv c -> step fixed c t = Some c' -> mono3 c c'.
Proof.
  intros c t c' HI Hs.
  step_cases HI Hs Hth; (split; [simpl; intros; try congruence; auto|]).
  all: simpl.
  all: try (intros y px' Hy; right; exists px'; auto; fail).
  all: try (eapply mono3_upd; [reflexivity| |]; unfold has_target, is_rel; simpl; intros; try congruence; auto; fail).
  (* a new proxy: only while caller is set *)
  all: intros y px' Hy; left; assumption.
Qed.

Lemma mem_nat_in : forall x l, mem_nat x l = true <-> In x l.
Proof.
  induction l as [|a l IH]; simpl; [split; [discriminate|tauto]|].
  rewrite orb_true_iff, IH, Nat.eqb_eq. split; intros [H|H]; auto.
Qed.

Lemma iter_order_complete : forall ord cl y, In y (map snd cl) -> In y (iter_order ord cl).
Proof.
  intros ord cl y H. unfold iter_order. apply in_or_app.
  destruct (mem_nat y (pick_ord ord cl)) eqn:E.
  - left. apply mem_nat_in. exact E.
  - right. apply filter_In. split; auto. rewrite E. reflexivity.
Qed.

Lemma table_covers : forall c y px, map snd (clients c) = seq 0 (length (proxies c)) ->
  nth_error (proxies c) y = Some px -> In y (map snd (clients c)).
Proof.
  intros c y px H Hy. rewrite H. apply in_seq. split; [lia|]. simpl. apply nth_error_Some. congruence.
Qed.

Lemma all_px_start : forall c P ord, T1 c -> sig_open c = true -> all_px c P (iter_order ord (clients c)).
Proof.
  intros c P ord [HA HB] Hs y px Hy. left. apply iter_order_complete.
  apply (table_covers c y px); auto.
Qed.

Lemma all_px_upd : forall c (P : proxy -> Prop) x rest p' c',
  proxies c' = upd x p' (proxies c) -> P p' -> (forall b0, nth_error (proxies c) x = Some b0 -> P b0 -> P p') ->
  all_px c P (x :: rest) -> all_px c' P rest.
Proof.
  intros c P x rest p' c' Hp HP _ Ha y px' Hy. rewrite Hp in Hy.
  destruct (nth_error_upd_cases _ _ _ _ _ _ Hy) as [[-> [-> _]]|[Hne Hy']]; [right; exact HP|].
  destruct (Ha y px' Hy') as [[E|Hin]|HPx]; auto. congruence.
Qed.

Lemma all_px_skip : forall c (P : proxy -> Prop) x rest, P (get_px c x) -> all_px c P (x :: rest) -> all_px c P rest.
Proof.
  intros c P x rest HP Ha y px Hy. destruct (Ha y px Hy) as [[E|Hin]|HPx]; auto.
  subst. rewrite (get_px_nth c y px Hy) in HP. auto.
Qed.

Lemma NP_step : forall c t c', Inv c -> T1 c -> NP c -> step fixed c t = Some c' -> NP c'.
Proof.
  intros c t c' HI HT1 HN Hs. unfold NP in *.
  pose proof (tinv3_mono c c' HI (mono3_step c t c' HI Hs)) as Hm.
  step_cases HI Hs Hth.
  all: pose proof (I_threads c HI t th Hth) as HT; unfold tinv in HT.
  all: repeat match goal with H : t_pc _ = _ |- _ => rewrite H in HT end.
  all: apply (thread_clause_step tinv3 _ _ t th Hth Hm); [|exact HN]; eexists; split; [simpl; reflexivity|].
  all: unfold tinv3; cbn [t_pc t_op t_out goto finish enter_call];
       repeat match goal with H : t_pc _ = _ |- _ => rewrite H end;
       repeat match goal with H : t_op _ = _ |- _ => rewrite H in * end.
  all: destruct (t_op th) eqn:Hop; try (exfalso; tauto); try (intros; exact I).
  all: try (intros _ Hd; discriminate Hd).
  all: try (intros _ _; discriminate).
  all: intros Hold; try intros _.
  all: try (destruct Hold as [Hsf Hall]).
  all: try (split; [simpl; try reflexivity; try assumption; try tauto|]).
  all: unfold all_px in *; simpl.
  (* the loops are entered with the whole table *)
  all: try (assert (Hs1 : sig_open c = true) by (first [ apply (I_caller_sig c HI); assumption | tauto ]);
            intros y px Hy;
            match goal with H : iter_order ?o (clients ?cc) = _ |- _ =>
              destruct (all_px_start cc has_target o HT1 Hs1 y px Hy) as [Hin|Hp];
              [rewrite H in Hin; simpl in Hin; tauto | auto] end; fail).
  all: try (intros y px Hy; left; apply (table_covers c y px); [apply (proj1 HT1); assumption|exact Hy]; fail).
  (* steps that leave the proxies alone *)
  all: try (exact Hall).
  all: try (intros y px Hy; destruct (Hall y px Hy) as [[]|]; auto; fail).
  (* one more proxy fulfilled / released *)
  all: try (intros y px Hy; destruct (nth_error_upd_cases _ _ _ _ _ _ Hy) as [[-> [-> _]]|[Hne Hy']];
            [right; unfold has_target, is_rel; simpl; congruence
            |destruct (Hall y px Hy') as [[E|Hin]|HP]; [congruence|auto|auto]]; fail).
  all: try (intros y px Hy; destruct (Hall y px Hy) as [[E|Hin]|HP]; auto; subst; right;
            unfold is_rel; rewrite <- (get_px_nth c _ _ Hy); assumption).
Qed.

Lemma reach_inv3 : forall ops c, reach fixed ops c -> Inv c /\ T1 c /\ GT c /\ NP c.
Proof.
  intros ops c H. induction H as [|c t c' Hr [IH1 [IH2 [IH3 IH4]]] Hs].
  - split; [apply init_inv|]. split; [|split].
    + split; simpl; auto.
    + intros x px d Hx. destruct x; discriminate.
    + intros t th Hth. simpl in Hth. rewrite nth_error_map in Hth. destruct (nth_error ops t); inversion Hth; subst.
      unfold tinv3, mk_thread. simpl. destruct o; exact I.
  - split; [exact (step_inv c t c' IH1 Hs)|]. split; [exact (T1_step c t c' IH1 IH2 Hs)|].
    split; [exact (GT_step c t c' IH1 IH3 Hs)|exact (NP_step c t c' IH1 IH2 IH4 Hs)].
Qed.

(* Once Fulfill/Reject has returned, every proxy client handed out refers to what the result holds at its
   path (the capability, or the failure / rejection); once the ReleaseClients call that took the table has
   returned (outcome ORet, the others return ONoop), every proxy client has been released. *)
Theorem proxy_clients_resolved_and_released : forall ops c, reach fixed ops c ->
  (forall t th, nth_error (threads c) t = Some th -> is_res_op (t_op th) = true -> t_pc th = PDone ->
     t_out th = ORet ->
     forall x px, nth_error (proxies c) x = Some px ->
       px_target px = Some (res_dest (op_res (t_op th)) (px_path px))) /\
  (forall t th, nth_error (threads c) t = Some th -> t_op th = ORelease -> t_pc th = PDone -> t_out th = ORet ->
     forall x px, nth_error (proxies c) x = Some px -> px_rel px = true).
Proof.
  intros ops c Hr. destruct (reach_inv3 ops c Hr) as [HI [H1 [HG HN]]]. split.
  - intros t th Hth Hop Hpc Hout x px Hx.
    pose proof (HN t th Hth) as T3. unfold tinv3 in T3. rewrite Hpc in T3.
    pose proof (I_threads c HI t th Hth) as T. unfold tinv in T. rewrite Hpc in T.
    assert (Hres : result c = Some (op_res (t_op th))).
    { destruct (t_op th); try discriminate; destruct T as [[E _]|[_ [_ [_ E]]]]; congruence. }
    assert (Htg : has_target px).
    { destruct (t_op th); try discriminate; destruct (T3 Hout) as [_ Ha]; destruct (Ha x px Hx) as [[]|]; auto. }
    unfold has_target in Htg. destruct (px_target px) as [d|] eqn:Ed; [|congruence].
    destruct (HG x px d Hx Ed) as [r [Hr1 Hr2]]. congruence.
  - intros t th Hth Hop Hpc Hout x px Hx.
    pose proof (HN t th Hth) as T3. unfold tinv3 in T3. rewrite Hop, Hpc in T3.
    destruct (T3 Hout) as [_ Ha]. destruct (Ha x px Hx) as [[]|]; auto.
Qed.
