(* The proxy-hook invariants on the Join model: JV, JP3, JP2, JP1 are what NS, N4, N5, NT of PromiseLive.v say of
   the single promise, here for the proxies of all client tables.  (Where a proxy's owner and the calls through it
   are on the joined chain is PromiseJoinPath.v.) *)
From CV Require Import Promise.Promise Promise.PromiseProofs Promise.PromiseJoin Promise.PromiseJoinThms
  Promise.PromiseJoinInv Promise.PromiseJoinRefs Promise.PromiseJoinDest Promise.PromiseJoinChain
  Promise.PromiseJoinForest.
Open Scope Z_scope.

Lemma rows_add_row : forall cl q row x, In x (concat (map snd (add_row cl q row))) <-> In x (concat (map snd cl)) \/ In x row.
Proof.
  induction cl as [|[q' row'] cl IH]; intros q row x; simpl.
  - rewrite app_nil_r. tauto.
  - destruct (path_eqb q' q); simpl; rewrite ?in_app_iff; [tauto|]. rewrite IH. tauto.
Qed.

Lemma rows_merge_tab : forall src dst x,
  In x (concat (map snd (merge_tab dst src))) <-> In x (concat (map snd dst)) \/ In x (concat (map snd src)).
Proof.
  induction src as [|[q row] src IH]; intros dst x; simpl; [tauto|].
  rewrite IH, rows_add_row, in_app_iff. tauto.
Qed.

Lemma find_row_in : forall cl q x, In x (find_row cl q) -> In x (concat (map snd cl)).
Proof.
  induction cl as [|[q' row'] cl IH]; intros q x H; simpl in *; [destruct H|].
  rewrite in_app_iff. destruct (path_eqb q' q); auto. right. eapply IH; eauto.
Qed.

Definition in_rows (c : jconfig) (r x : nat) : Prop := In x (rows_of (getp c r)).

(* the proxies a thread mentions (loop list, the hook it waits for, the client it calls through) are below n *)
Definition vthr (n : nat) (th : jthread) : Prop :=
  (forall x, In x (j_rest th) -> (x < n)%nat) /\
  (match j_pc th with QFulWait | QRelWait => (j_waitx th < n)%nat | _ => True end) /\
  (forall x, j_via th = Some x -> (x < n)%nat).

Lemma vthr_mono : forall n n' th, (n <= n')%nat -> vthr n th -> vthr n' th.
Proof.
  intros n n' th Hle [A [B C]]. repeat split.
  - intros x Hx. specialize (A x Hx). lia.
  - destruct (j_pc th); auto; lia.
  - intros x Hx. specialize (C x Hx). lia.
Qed.

(* JV: client tables, slots and threads only mention existing proxies *)
Record JV (c : jconfig) : Prop := {
  V_rows : forall r x, in_rows c r x -> (x < length (jproxies c))%nat;
  V_slots : forall s x, In (s, HProxy x) (jslots c) -> (x < length (jproxies c))%nat;
  V_thr : forall t th, nth_error (jthreads c) t = Some th -> vthr (length (jproxies c)) th
}.

Lemma len_setx : forall c x p, length (jproxies (setx c x p)) = length (jproxies c).
Proof. intros. unfold setx. simpl. apply length_upd. Qed.

Lemma prx_sett : forall c t th, jproxies (sett c t th) = jproxies c. Proof. reflexivity. Qed.
Lemma prx_setp : forall c k p, jproxies (setp c k p) = jproxies c. Proof. reflexivity. Qed.
Lemma prx_jlog : forall c e, jproxies (jlog c e) = jproxies c. Proof. reflexivity. Qed.
Lemma prx_sjslots : forall c v, jproxies (sjslots c v) = jproxies c. Proof. reflexivity. Qed.
Lemma prx_sjgates : forall c v, jproxies (sjgates c v) = jproxies c. Proof. reflexivity. Qed.
Lemma prx_setx : forall c x p, jproxies (setx c x p) = upd x p (jproxies c). Proof. reflexivity. Qed.
Lemma prx_close_sigs : forall sigs c, jproxies (close_sigs c sigs) = jproxies c.
Proof. exact close_sigs_proxies. Qed.
Lemma prx_sjproxies : forall c v, jproxies (sjproxies c v) = v. Proof. reflexivity. Qed.

Lemma JV_step : forall v c t c', JV c -> jstep v c t = Some c' -> JV c'.
Proof.
  intros v c t c' HV Hs.
  jleaves Hs Hth.
  all: destruct (V_thr c HV t th Hth) as [Hrest [Hwx Hvia]].
  all: goal_matches.
  all: constructor;
    [ (* rows *)
      intros r0 x0 Hin; unfold in_rows, rows_of in *;
      jsimp_in Hin;
      revert Hin; eqb_all; simpl; intros Hin;
      jsimp; rewrite ?length_upd, ?app_length; simpl;
      rewrite ?rows_merge_tab, ?rows_add_row in Hin; simpl in Hin;
      repeat match goal with H : _ \/ _ |- _ => destruct H end; try contradiction; subst;
      try (match goal with H : In ?x (concat (map snd (p_clients (getp ?cc ?r)))) |- _ =>
             pose proof (V_rows cc HV r x H) end); try lia
    | (* slots *)
      intros s0 x0 Hin; simpl in Hin; rewrite ?close_sigs_slots in Hin; simpl in Hin;
      jsimp; rewrite ?length_upd, ?app_length; simpl;
      repeat match goal with H : _ \/ _ |- _ => destruct H end;
      try (match goal with H : (_, _) = (_, _) |- _ => inversion H; subst end);
      try (match goal with H : In (_, HProxy ?x) (jslots ?cc) |- _ => pose proof (V_slots cc HV _ x H) end); try lia
    | (* threads *)
      intros t0 th0 H0; simpl in H0; rewrite ?close_sigs_threads in H0; simpl in H0;
      destruct (jupd_nth_cases _ _ _ _ _ _ Hth H0) as [[-> ->]|[Hne H0']]; clear H0;
      jsimp; rewrite ?length_upd, ?app_length; simpl;
      [ unfold vthr
      | apply (vthr_mono (length (jproxies c))); [lia|exact (V_thr c HV _ _ H0')] ] ].
  (* the stepping thread *)
  all: cbn [j_pc j_rest j_via j_waitx jgoto jfinish sj_pc sj_cur sj_par sj_path sj_via sj_rest sj_waitx sj_res sj_out];
       repeat match goal with |- context [match j_via ?th with _ => _ end] => destruct (j_via th) eqn:? end;
       cbn [j_pc j_rest j_via j_waitx jgoto jfinish sj_pc sj_cur sj_par sj_path sj_via sj_rest sj_waitx sj_res sj_out];
       repeat match goal with H : j_pc _ = _ |- _ => rewrite H in * end;
       repeat match goal with H : j_rest _ = _ |- _ => rewrite H in * end.
  all: repeat split.
  all: try exact I.
  all: try (intros y Hy; first [ apply Hrest; first [exact Hy | right; exact Hy] | apply Hvia; exact Hy ];
            fail).
  all: try (first [ (apply Hrest; left; reflexivity) | exact Hwx ]; fail).
  all: try (intros y Hy; unfold rows_of in Hy;
            jsimp_in Hy;
            revert Hy; eqb_all; simpl; intros Hy;
            apply (V_rows c HV _ _ Hy); fail).
  all: try (intros y Hy; first [discriminate Hy | (inversion Hy; subst)];
            match goal with H : lookup_slot _ _ = Some (HProxy ?x) |- _ =>
              destruct (lookup_slot_in _ _ _ H) as [s' Hs']; exact (V_slots c HV _ _ Hs') end).
  all: try (intros y Hy; try discriminate Hy; specialize (Hvia y); rewrite ?app_length; simpl;
            first [ (pose proof (Hvia Hy); lia) | (pose proof (Hrest y Hy); lia) | (pose proof (Hrest y (or_intror Hy)); lia) ]; fail).
  all: try (intros y Hy; apply Hvia; congruence).
  all: try (apply (V_rows c HV (j_cur th) x0); unfold in_rows, rows_of; eapply find_row_in;
            match goal with H : find_row _ _ = _ |- _ => rewrite H end; left; reflexivity).
  all: destruct p as [q row]; rewrite rows_merge_tab, rows_add_row in Hin;
       destruct Hin as [[Hin|Hin]|Hin];
       [ exact (V_rows c HV (j_par th) x0 Hin)
       | apply (V_rows c HV (j_cur th) x0); unfold in_rows, rows_of; rewrite Heql; simpl; apply in_or_app; left; exact Hin
       | apply (V_rows c HV (j_cur th) x0); unfold in_rows, rows_of; rewrite Heql; simpl; apply in_or_app; right; exact Hin ].
Qed.

Lemma JV_reach : forall v np ops c, jreach v np ops c -> JV c.
Proof.
  intros v np ops c H. induction H as [|c t c' Hr IH Hs]; [|exact (JV_step v c t c' IH Hs)].
  constructor.
  - intros r x Hin. unfold in_rows, rows_of in Hin. destruct (getp_init np ops r) as [E|E]; rewrite E in Hin; destruct Hin.
  - intros s x [].
  - intros t th Hth. simpl in Hth. rewrite nth_error_map in Hth. destruct (nth_error ops t); inversion Hth; subst.
    simpl. repeat split; auto; intros; try contradiction; discriminate.
Qed.

(* the sections of a call between its entry into the traversal and hook.calls-- *)
Definition jcallpc (p : jpc) : bool :=
  match p with QTrav | QWaitJ | QInCaller | QRelock | QWaitKnown | QAfterKnown | QCallFinish => true | _ => false end.

Definition jin_px (x : nat) (th : jthread) : bool :=
  match j_op th with
  | JCall _ _ => match j_via th with Some y => Nat.eqb x y && jcallpc (j_pc th) | None => false end
  | _ => false
  end.

(* JP3: hook.calls of a proxy counts the threads inside a call through it *)
Definition JP3 (c : jconfig) : Prop :=
  forall x px, nth_error (jproxies c) x = Some px -> jx_calls px = jcount (jin_px x) (jthreads c).

Lemma getx_nth : forall c x px, nth_error (jproxies c) x = Some px -> getx c x = px.
Proof. intros. unfold getx. apply nth_error_nth. exact H. Qed.

Lemma jcount_zero : forall f l, (forall t th, nth_error l t = Some th -> f th = false) -> jcount f l = 0.
Proof.
  induction l as [|a l IH]; intros H; cbn [jcount]; [reflexivity|].
  rewrite (H 0%nat a eq_refl), IH; [reflexivity|]. intros t th Ht. exact (H (S t) th Ht).
Qed.

Ltac jpx_cases Hx0 :=
  jsimp_in Hx0;
  match type of Hx0 with
  | nth_error (upd ?x ?p ?l) ?x0 = Some ?px0 =>
    let b0 := fresh "b0" in let Hb0 := fresh "Hb0" in let Hne := fresh "Hne" in let Hx0' := fresh "Hx0'" in
    destruct (nth_error_upd_cases _ _ _ _ _ _ Hx0) as [[-> [-> [b0 Hb0]]]|[Hne Hx0']];
    [rewrite ?(getx_nth _ _ _ Hb0) in *|]
  | nth_error (?l ++ [?a]) ?x0 = Some ?px0 =>
    let Hx0' := fresh "Hx0'" in
    destruct (nth_error_app_new _ _ _ _ _ Hx0) as [Hx0'|[-> ->]]
  | _ => idtac
  end.

(* JVia: only client calls (JCall) carry a proxy in j_via *)
Definition JVia (c : jconfig) : Prop :=
  forall t th, nth_error (jthreads c) t = Some th ->
    match j_op th with JCall _ _ => True | _ => j_via th = None end.

Lemma JVia_step : forall v c t c', JVia c -> jstep v c t = Some c' -> JVia c'.
Proof.
  intros v c t c' HO Hs.
  jthread Hs Hth.
  pose proof (HO t th Hth) as Hown.
  jcases Hs.
  all: goal_matches.
  all: intros t0 th0 H0; simpl in H0; rewrite ?close_sigs_threads in H0; simpl in H0;
       destruct (jupd_nth_cases _ _ _ _ _ _ Hth H0) as [[-> ->]|[Hne H0']]; [|exact (HO _ _ H0')].
  all: simpl; repeat match goal with H : j_op _ = _ |- _ => rewrite H in * end; simpl in *; auto; try congruence.
  all: destruct (j_op th); auto; congruence.
Qed.

Lemma JVia_reach : forall v np ops c, jreach v np ops c -> JVia c.
Proof.
  intros v np ops c H. induction H as [|c t c' Hr IH Hs]; [|exact (JVia_step v c t c' IH Hs)].
  intros t th H. simpl in H. rewrite nth_error_map in H. destruct (nth_error ops t) as [o|]; inversion H; subst.
  destruct o; reflexivity.
Qed.

Lemma JP3_step : forall v c t c', JV c -> JVia c -> JP3 c -> jstep v c t = Some c' -> JP3 c'.
Proof.
  intros v c t c' HV HA HP Hs.
  jleaves Hs Hth.
  all: pose proof (HA t th Hth) as Hvia0.
  all: goal_matches.
  all: intros x0 px0 Hx0; jpx_cases Hx0.
  all: thr_simp Hth.
  all: first [ rewrite <- (HP _ _ Hb0) | rewrite <- (HP _ _ Hx0') | rewrite <- (HP _ _ Hx0) | idtac ].
  all: unfold jin_px; cbn [j_op j_pc j_via jgoto jfinish sj_pc sj_cur sj_par sj_path sj_via sj_rest sj_waitx sj_res sj_out];
       repeat match goal with H : j_pc _ = _ |- _ => rewrite H end;
       repeat match goal with H : j_op _ = _ |- _ => rewrite H end;
       repeat match goal with H : j_via _ = _ |- _ => rewrite H end; cbn [jcallpc]; simpl.
  all: rewrite ?andb_false_r, ?andb_true_r; eqb_all; simpl; try lia.
  all: try (destruct (j_via th); rewrite ?andb_false_r; simpl; lia).
  all: try (rewrite jcount_zero; [lia|];
            intros t1 th1 H1; destruct (V_thr c HV t1 th1 H1) as [_ [_ Hv1]];
            destruct (j_op th1); auto; destruct (j_via th1) as [y|] eqn:Ey; auto;
            specialize (Hv1 y eq_refl); destruct (Nat.eqb_spec (length (jproxies c)) y); [lia|reflexivity]).
  all: destruct (j_op th); simpl; try lia; congruence.
Qed.

Lemma JP3_reach : forall v np ops c, jreach v np ops c -> JP3 c.
Proof.
  intros v np ops c H. induction H as [|c t c' Hr IH Hs].
  - intros x px Hx. destruct x; discriminate.
  - exact (JP3_step v c t c' (JV_reach v np ops c Hr) (JVia_reach v np ops c Hr) IH Hs).
Qed.

(* JP2: hook.refs is 0 or 1 and done is closed once refs = 0 and calls = 0 *)
Definition JP2 (c : jconfig) : Prop :=
  forall x px, nth_error (jproxies c) x = Some px ->
    0 <= jx_refs px /\ (jx_target px = None -> jx_rel px = false -> jx_refs px = 1) /\
    (jx_refs px <= 0 -> jx_calls px = 0 -> jx_done px = true).

Ltac jboolp :=
  repeat match goal with
         | H : (_ <? _) = true |- _ => apply Z.ltb_lt in H
         | H : (_ <? _) = false |- _ => apply Z.ltb_ge in H
         | H : (_ =? _) = true |- _ => apply Z.eqb_eq in H
         | H : (_ =? _) = false |- _ => apply Z.eqb_neq in H
         end.

Lemma JP2_step : forall v c t c', JP3 c -> JP2 c -> jstep v c t = Some c' -> JP2 c'.
Proof.
  intros v c t c' H3 HP Hs.
  jleaves Hs Hth.
  all: goal_matches.
  all: intros x0 px0 Hx0; jpx_cases Hx0.
  all: try (exact (HP _ _ Hx0)); try (exact (HP _ _ Hx0')).
  all: try (simpl; repeat split; intros; try lia; try discriminate; fail).
  all: pose proof (HP _ _ Hb0) as [Ha [Hb Hc]]; pose proof (H3 _ _ Hb0) as Hcnt;
       match type of Hb0 with nth_error _ ?x = _ =>
         pose proof (jcount_nonneg (jin_px x) (jthreads c)) as Hnn end.
  all: simpl; jboolp; repeat split; intros; try lia; try discriminate; try congruence;
       repeat match goal with
              | |- context [if ?b then _ else _] => destruct b eqn:?
              | H : context [if ?b then _ else _] |- _ => destruct b eqn:?
              end; jboolp;
       try reflexivity; try lia; try (apply Hc; lia); try (rewrite Hb in *; auto; lia); try congruence.
Qed.

Lemma JP2_reach : forall v np ops c, jreach v np ops c -> JP2 c.
Proof.
  intros v np ops c H. induction H as [|c t c' Hr IH Hs].
  - intros x px Hx. destruct x; discriminate.
  - exact (JP2_step v c t c' (JP3_reach v np ops c Hr) IH Hs).
Qed.

(* JP1: a thread waiting for a hook's done has dropped that hook's last reference *)
Definition JP1 (c : jconfig) : Prop :=
  forall t th, nth_error (jthreads c) t = Some th ->
    match j_pc th with
    | QFulWait | QRelWait => exists px, nth_error (jproxies c) (j_waitx th) = Some px /\ jx_refs px <= 0
    | _ => True
    end.

Definition refs_mono (c c' : jconfig) : Prop :=
  forall x px, nth_error (jproxies c) x = Some px ->
    exists px', nth_error (jproxies c') x = Some px' /\ jx_refs px' <= jx_refs px.

Lemma refs_mono_upd : forall (l : list jproxy) x p' y px,
  nth_error l y = Some px -> (forall b0, nth_error l x = Some b0 -> jx_refs p' <= jx_refs b0) ->
  exists px', nth_error (upd x p' l) y = Some px' /\ jx_refs px' <= jx_refs px.
Proof.
  intros l x p' y px Hy Hr. destruct (Nat.eq_dec x y) as [->|Hne].
  - exists p'. split; [eapply nth_error_upd_same; eauto|auto].
  - exists px. split; [rewrite nth_error_upd_other; auto|lia].
Qed.

Lemma refs_mono_step : forall v c t c', JP2 c -> jstep v c t = Some c' -> refs_mono c c'.
Proof.
  intros v c t c' H2 Hs.
  jleaves Hs Hth; goal_matches.
  all: intros y px Hy; jsimp.
  all: try (exists px; split; [exact Hy|lia]).
  all: try (exists px; split; [rewrite nth_error_app1; [exact Hy|apply nth_error_Some; congruence]|lia]).
  all: apply refs_mono_upd; [exact Hy|]; intros b0 Hb0; rewrite ?(getx_nth _ _ _ Hb0) in *; simpl;
       pose proof (H2 _ _ Hb0) as [Ha _]; jboolp; lia.
Qed.

Lemma JP1_step : forall v c t c', JV c -> JP2 c -> JP1 c -> jstep v c t = Some c' -> JP1 c'.
Proof.
  intros v c t c' HV H2 HP Hs.
  pose proof (refs_mono_step v c t c' H2 Hs) as Hm.
  intros t0 th0 H0.
  jthread Hs Hth.
  destruct (V_thr c HV t th Hth) as [Hrest _].
  destruct (jstep_frame v c t th c' Hth Hs) as [[th' [Hup _]] _].
  rewrite Hup in H0. destruct (jupd_nth_cases _ _ _ _ _ _ Hth H0) as [[-> ->]|[Hne H0']].
  2:{ pose proof (HP t0 th0 H0') as Hold. destruct (j_pc th0); auto;
        destruct Hold as [px [A B]]; destruct (Hm _ _ A) as [px' [A' B']]; exists px'; split; auto; lia. }
  (* the stepping thread: it enters a wait right after dropping the reference *)
  clear H0. junfold Hs. jexplode Hs; inversion Hs; subst; clear Hs.
  all: unfold resolve_entry, do_known, do_final in *; simpl in Hup; rewrite ?close_sigs_threads in Hup; simpl in Hup.
  all: repeat match type of Hup with context [match ?x with _ => _ end] => destruct x eqn:? end; simpl in Hup;
       rewrite ?close_sigs_threads in Hup; simpl in Hup.
  all: assert (Hth' : nth_error (upd t th' (jthreads c)) t = Some th') by (eapply nth_error_upd_same; eauto);
       rewrite <- Hup in Hth'; rewrite (nth_error_upd_same _ _ _ _ _ Hth) in Hth'; inversion Hth'; subst th'; clear Hth' Hup.
  all: cbn [j_pc j_waitx jgoto jfinish sj_pc sj_cur sj_par sj_path sj_via sj_rest sj_waitx sj_res sj_out];
       repeat match goal with H : j_pc _ = _ |- _ => rewrite H end; try exact I.
  all: assert (Hn : (n < length (jproxies c))%nat) by (apply Hrest; left; reflexivity);
       destruct (nth_error (jproxies c) n) as [b0|] eqn:Hb0; [|apply nth_error_None in Hb0; lia];
       eexists; split; [jsimp; eapply nth_error_upd_same; exact Hb0|];
       rewrite ?(getx_nth _ _ _ Hb0) in *; simpl; jboolp; lia.
Qed.

Lemma JP1_reach : forall v np ops c, jreach v np ops c -> JP1 c.
Proof.
  intros v np ops c H. induction H as [|c t c' Hr IH Hs].
  - intros t th Hth. simpl in Hth. rewrite nth_error_map in Hth. destruct (nth_error ops t); inversion Hth; subst. exact I.
  - exact (JP1_step v c t c' (JV_reach v np ops c Hr) (JP2_reach v np ops c Hr) IH Hs).
Qed.
