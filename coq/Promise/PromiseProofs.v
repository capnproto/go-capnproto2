(* Proofs about the small-step model of Promise (coq/Promise/Promise.v): invariants of every
   configuration reachable under ANY schedule from ANY operation list. *)
From CV Require Import Promise.Promise.
Open Scope Z_scope.

(* F11 on the model of answer.go as found: ask for the client of path [0] twice; the second call
   returns the same proxy and leaves mu held by a thread that has finished, so the third
   operation can never start *)
Definition f11_history : list op := [OClient [0] 0; OClient [0] 1; OSend [1] false].

Example client_idempotent_refuted :
  let c := run as_found (init f11_history) [0%nat; 1%nat; 2%nat] in
  finished c 1 = true /\ mu c = Some 1%nat /\ finished c 2 = false /\ enabled as_found c 2 = false.
Proof. vm_compute. repeat split; reflexivity. Qed.

Lemma nth_error_upd_same : forall A (l : list A) n x y,
  nth_error l n = Some y -> nth_error (upd n x l) n = Some x.
Proof. induction l; destruct n; simpl; intros; try discriminate; eauto. Qed.

Lemma nth_error_upd_other : forall A (l : list A) n m x,
  n <> m -> nth_error (upd n x l) m = nth_error l m.
Proof. induction l; destruct n, m; simpl; intros; try congruence; eauto. Qed.

Lemma length_upd : forall A (l : list A) n x, length (upd n x l) = length l.
Proof. induction l; destruct n; simpl; intros; auto. Qed.

Lemma nth_upd_same : forall A (l : list A) n x d, (n < length l)%nat -> nth n (upd n x l) d = x.
Proof. induction l; destruct n; simpl; intros; try lia; auto. apply IHl. lia. Qed.

Lemma nth_upd_other : forall A (l : list A) n m x d, n <> m -> nth m (upd n x l) d = nth m l d.
Proof. induction l; destruct n, m; simpl; intros; try congruence; auto. Qed.

Definition is_begin (e : event) : bool := match e with EBegin _ => true | _ => false end.
Definition is_resolved (e : event) : bool := match e with EResolved _ => true | _ => false end.
Definition is_deliver (t : nat) (e : event) : bool :=
  match e with EDeliver t' _ => Nat.eqb t t' | _ => false end.

Definition cnt (f : event -> bool) (l : list event) : nat := length (filter f l).

Definition b2n (b : bool) : nat := if b then 1%nat else 0%nat.

Lemma cnt_cons : forall f e l, cnt f (e :: l) = (b2n (f e) + cnt f l)%nat.
Proof. intros. unfold cnt. simpl. destruct (f e); reflexivity. Qed.

Definition is_res_op (o : op) : bool :=
  match o with OFulfill _ _ | OReject _ => true | _ => false end.

(* a call has been delivered (its EDeliver event is in the log) at these points *)
Definition delivered_pc (p : pc) : bool :=
  match p with PInCaller | PCallRelock | PCallFinish | PDone => true | _ => false end.

(* what holds of thread number t in configuration c *)
Definition tinv (c : config) (t : nat) (th : thread) : Prop :=
  let ev := events c in
  match t_op th with
  | OFulfill _ _ | OReject _ =>
    match t_pc th with
    | PStart => True
    | PStopWait | PCommit => caller c = false /\ sig_open c = true /\ In (EBegin t) ev
    | PFul _ | PFulWait _ _ | PClose =>
      In (EBegin t) ev /\ In (EResolved t) ev /\ result c = Some (op_res (t_op th)) /\
      sig_open c = false /\ done_open c = true
    | PDone => (t_out th = OPanic /\ caller c = false) \/
               (t_out th = ORet /\ In (EBegin t) ev /\ In (EResolved t) ev /\ result c = Some (op_res (t_op th)))
    | _ => False
    end
  | OSend p _ =>
    cnt (is_deliver t) ev = b2n (delivered_pc (t_pc th)) /\
    (forall d, In (EDeliver t d) ev -> d = DCaller \/ d = res_dest (cur_res c) p) /\
    t_via th = None /\
    match t_pc th with
    | PStart => True
    | PCallLock | PWaitRes => t_path th = p
    | PAfterRes => t_path th = p /\ sig_open c = false
    | PInCaller | PCallRelock => t_path th = p /\ In (EDeliver t DCaller) ev
    | PDone => t_out th = ORet
    | _ => False
    end
  | OCall _ _ =>
    match t_pc th with
    | PStart | PCallLock | PWaitRes => cnt (is_deliver t) ev = 0%nat
    | PAfterRes => cnt (is_deliver t) ev = 0%nat /\ sig_open c = false
    | PInCaller | PCallRelock | PCallFinish => cnt (is_deliver t) ev = 1%nat
    | PDone => (t_out th = ONoSlot /\ cnt (is_deliver t) ev = 0%nat) \/
               (t_out th = ORet /\ cnt (is_deliver t) ev = 1%nat)
    | _ => False
    end
  | OClient p _ =>
    match t_pc th with
    | PStart | PWaitRes => True
    | PAfterRes => sig_open c = false /\ done_open c = false
    | PDone => exists h, t_out th = OHandle h /\
                 match h with
                 | HProxy x => exists px, nth_error (proxies c) x = Some px /\ px_path px = p
                 | HDirect d => d = res_dest (cur_res c) p /\ sig_open c = false
                 end
    | _ => False
    end
  | ORelease =>
    match t_pc th with
    | PStart | PDone => True
    | PAfterRes | PRel _ | PRelWait _ _ => sig_open c = false
    | _ => False
    end
  | OWait =>
    match t_pc th with
    | PStart => True
    | PAfterRes => sig_open c = false
    | PDone => t_out th = OStruct (match cur_res c with RRej => false | _ => true end) /\ sig_open c = false
    | _ => False
    end
  | OUngate _ | OConsume => match t_pc th with PStart | PDone => True | _ => False end
  end.

(* resolve between "caller := nil" and "result known", and between "result known" and closing the
   signals; tinv leaves these program counters to Fulfill / Reject *)
Definition precommit_pc (p : pc) : bool :=
  match p with PStopWait | PCommit => true | _ => false end.
Definition postk_pc (p : pc) : bool :=
  match p with PFul _ | PFulWait _ _ | PClose => true | _ => false end.
Definition in_postk (th : thread) : bool := postk_pc (t_pc th).

Definition in_precommit (th : thread) : bool := precommit_pc (t_pc th).

(* the log, newest event first: a delivery to the PipelineCaller is logged only while no
   Fulfill/Reject has passed its check (no EBegin is older), any other delivery only after the
   resolution (an EResolved is older) *)
Fixpoint wf_log (l : list event) : Prop :=
  match l with
  | [] => True
  | e :: r => wf_log r /\
              match e with
              | EDeliver _ DCaller => cnt is_begin r = 0%nat
              | EDeliver _ _ => cnt is_resolved r = 1%nat
              | _ => True
              end
  end.

(* proxies: one per path, all in the table while the promise is unresolved (cal); none released or
   resolved, and no direct handle handed out, before the resolution (so) *)
Record Tab (cal so : bool) (cl : list (path * nat)) (pxs : list proxy) (sl : list (Z * handle)) : Prop := {
  T_table : cal = true -> map fst cl = map px_path pxs /\ map snd cl = seq 0 (length pxs);
  T_paths : NoDup (map px_path pxs);
  T_late : forall x px, nth_error pxs x = Some px -> (px_rel px = true \/ px_target px <> None) -> so = false;
  T_target : forall x px, nth_error pxs x = Some px -> px_target px <> Some DCaller;
  T_slots : forall s d, In (s, HDirect d) sl -> so = false /\ d <> DCaller
}.
Arguments T_table {cal so cl pxs sl}.
Arguments T_paths {cal so cl pxs sl}.
Arguments T_late {cal so cl pxs sl}.
Arguments T_target {cal so cl pxs sl}.
Arguments T_slots {cal so cl pxs sl}.

Record Inv (c : config) : Prop := {
  I_mu : mu c = None;
  I_caller_sig : caller c = true -> sig_open c = true;
  I_res_none : sig_open c = true -> result c = None;
  I_done : done_open c = false -> sig_open c = false;
  I_begin : cnt is_begin (events c) = b2n (negb (caller c));
  I_resolved : cnt is_resolved (events c) = b2n (negb (sig_open c));
  I_result : sig_open c = false -> exists r, result c = Some r;
  (* before resolution every delivery went to the PipelineCaller *)
  I_early : sig_open c = true -> forall t d, In (EDeliver t d) (events c) -> d = DCaller;
  I_log : wf_log (events c);
  I_tab : Tab (caller c) (sig_open c) (clients c) (proxies c) (slots c);
  I_threads : forall t th, nth_error (threads c) t = Some th -> tinv c t th;
  I_unique : forall t1 t2 th1 th2, nth_error (threads c) t1 = Some th1 -> nth_error (threads c) t2 = Some th2 ->
                                   in_precommit th1 = true -> in_precommit th2 = true -> t1 = t2
}.

Lemma path_eqb_eq : forall a b, path_eqb a b = true <-> a = b.
Proof.
  induction a as [|x a IH]; destruct b as [|y b]; simpl; split; intro H; try discriminate; auto.
  - apply andb_true_iff in H. destruct H as [H1 H2]. apply Z.eqb_eq in H1. apply IH in H2. congruence.
  - inversion H; subst. rewrite Z.eqb_refl. simpl. apply IH. reflexivity.
Qed.

Lemma cnt_app : forall f a b, cnt f (a ++ b) = (cnt f a + cnt f b)%nat.
Proof. intros. unfold cnt. rewrite filter_app, app_length. reflexivity. Qed.

Lemma cnt_in : forall f e l, In e l -> f e = true -> (1 <= cnt f l)%nat.
Proof.
  intros f e l Hin He. apply in_split in Hin. destruct Hin as (l1 & l2 & ->).
  rewrite cnt_app, cnt_cons, He. simpl. lia.
Qed.

Lemma cnt_in2 : forall f a b l, In a l -> In b l -> a <> b -> f a = true -> f b = true -> (2 <= cnt f l)%nat.
Proof.
  intros f a b l Ha Hb Hne Fa Fb. apply in_split in Ha. destruct Ha as (l1 & l2 & ->).
  rewrite cnt_app, cnt_cons, Fa. apply in_app_or in Hb. destruct Hb as [Hb|[Hb|Hb]]; [|congruence|].
  - pose proof (cnt_in f b l1 Hb Fb). simpl. lia.
  - pose proof (cnt_in f b l2 Hb Fb). simpl. lia.
Qed.

Lemma cnt_none : forall t l, (forall d, ~ In (EDeliver t d) l) -> cnt (is_deliver t) l = 0%nat.
Proof.
  induction l as [|e l IH]; intros H; [reflexivity|].
  rewrite cnt_cons, IH by (intros d Hd; apply (H d); right; exact Hd).
  destruct e as [t'|t'|t' d]; simpl; auto.
  destruct (Nat.eqb t t') eqn:E; auto. apply Nat.eqb_eq in E. subst. exfalso. apply (H d). left. reflexivity.
Qed.

Lemma find_client_none : forall cl p, find_client cl p = None -> ~ In p (map fst cl).
Proof.
  induction cl as [|[q x] cl IH]; simpl; intros p H; auto.
  destruct (path_eqb q p) eqn:E; [discriminate|].
  intros [Hq|Hin]; [subst; assert (path_eqb p p = true) by (apply path_eqb_eq; reflexivity); congruence|].
  exact (IH p H Hin).
Qed.

Lemma find_client_some : forall cl p x, find_client cl p = Some x -> In (p, x) cl.
Proof.
  induction cl as [|[q y] cl IH]; simpl; intros p x H; [discriminate|].
  destruct (path_eqb q p) eqn:E.
  - apply path_eqb_eq in E. inversion H; subst. left. reflexivity.
  - right. apply IH. exact H.
Qed.

Lemma table_lookup : forall (cl : list (path * nat)) (pxs : list proxy) k p x,
  map fst cl = map px_path pxs -> map snd cl = seq k (length pxs) -> In (p, x) cl ->
  exists px, nth_error pxs (x - k) = Some px /\ px_path px = p /\ (k <= x)%nat.
Proof.
  induction cl as [|[q y] cl IH]; intros pxs k p x H1 H2 Hin; [destruct Hin|].
  destruct pxs as [|px pxs]; [discriminate|]. simpl in H1, H2. inversion H1; inversion H2; subst.
  destruct Hin as [Heq|Hin].
  - inversion Heq; subst. exists px. rewrite Nat.sub_diag. simpl. auto.
  - destruct (IH pxs (S k) p x H3 H5 Hin) as [px' [Ha [Hb Hc]]].
    exists px'. replace (x - k)%nat with (S (x - S k)) by lia. simpl. repeat split; auto. lia.
Qed.

Lemma nth_error_app_new : forall A (l : list A) x a b,
  nth_error (l ++ [a]) x = Some b -> nth_error l x = Some b \/ (x = length l /\ b = a).
Proof.
  intros. destruct (Nat.lt_ge_cases x (length l)).
  - rewrite nth_error_app1 in H by auto. auto.
  - rewrite nth_error_app2 in H by auto. destruct (x - length l)%nat eqn:E; simpl in H.
    + inversion H. right. split; [lia|auto].
    + destruct n; discriminate.
Qed.

Lemma nth_error_upd_cases : forall A (l : list A) x a y b,
  nth_error (upd x a l) y = Some b -> (y = x /\ b = a /\ exists b0, nth_error l x = Some b0) \/ (y <> x /\ nth_error l y = Some b).
Proof.
  intros A l x a y b H. destruct (Nat.eq_dec y x) as [->|N].
  - left. destruct (nth_error l x) as [b0|] eqn:E.
    + rewrite (nth_error_upd_same _ _ _ _ _ E) in H. inversion H. eauto.
    + exfalso. apply nth_error_None in E. assert (nth_error (upd x a l) x = None).
      { apply nth_error_None. rewrite length_upd. exact E. } congruence.
  - right. rewrite nth_error_upd_other in H by auto. auto.
Qed.

Lemma get_px_nth : forall c x px, nth_error (proxies c) x = Some px -> get_px c x = px.
Proof. intros. unfold get_px. apply nth_error_nth. exact H. Qed.

Lemma res_dest_not_caller : forall r p, res_dest r p <> DCaller.
Proof. intros r p. unfold res_dest. destruct r; [destruct (lookup_cap caps p)|]; discriminate. Qed.

Lemma lookup_slot_in : forall sl s h, lookup_slot sl s = Some h -> exists s', In (s', h) sl.
Proof.
  induction sl as [|[k h0] sl IH]; simpl; intros s h H; [discriminate|].
  destruct (k =? s); [inversion H; subst; eauto|]. destruct (IH s h H) as [s' Hs]. eauto.
Qed.

Lemma precommit_facts : forall c t th, tinv c t th -> in_precommit th = true ->
  is_res_op (t_op th) = true /\ caller c = false /\ sig_open c = true /\ In (EBegin t) (events c).
Proof.
  unfold tinv, in_precommit. intros c t th T P.
  destruct (t_pc th); try discriminate P; destruct (t_op th); simpl; tauto.
Qed.

Lemma postk_facts : forall c t th, tinv c t th -> in_postk th = true ->
  is_res_op (t_op th) = true /\ In (EBegin t) (events c) /\ In (EResolved t) (events c) /\
  result c = Some (op_res (t_op th)) /\ sig_open c = false /\ done_open c = true.
Proof.
  unfold tinv, in_postk. intros c t th T P.
  destruct (t_pc th); try discriminate P; destruct (t_op th); simpl; tauto.
Qed.

Lemma tinv_postk : forall c t th p, is_res_op (t_op th) = true -> postk_pc p = true ->
  In (EBegin t) (events c) -> In (EResolved t) (events c) -> result c = Some (op_res (t_op th)) ->
  sig_open c = false -> done_open c = true -> tinv c t (goto th p).
Proof.
  unfold tinv. intros c t th p Hop Hp. simpl.
  destruct (t_op th); try discriminate Hop; destruct p; try discriminate Hp; auto 6.
Qed.

Definition px_preserved (c c' : config) : Prop :=
  forall x px, nth_error (proxies c) x = Some px ->
               exists px', nth_error (proxies c') x = Some px' /\ px_path px' = px_path px.

Lemma px_preserved_refl : forall c c', proxies c' = proxies c -> px_preserved c c'.
Proof. intros c c' H x px Hx. exists px. rewrite H. auto. Qed.

Lemma tinv_other : forall c c' t th new,
  Inv c -> tinv c t th ->
  events c' = new ++ events c ->
  (forall d, ~ In (EDeliver t d) new) ->
  (caller c = false -> caller c' = false) ->
  (sig_open c = false -> sig_open c' = false) ->
  (forall r, result c = Some r -> result c' = Some r) ->
  (in_precommit th = true -> sig_open c' = true) ->
  (in_postk th = true -> done_open c' = true) ->
  (done_open c = false -> done_open c' = false) ->
  px_preserved c c' ->
  tinv c' t th.
Proof.
  intros c c' t th new HI HT Hev Hnew Hcal Hsig Hres Hpre Hpost Hdn Hpx.
  assert (Hcnt : cnt (is_deliver t) (events c') = cnt (is_deliver t) (events c)).
  { rewrite Hev, cnt_app, (cnt_none t new Hnew). reflexivity. }
  assert (Hin : forall e, In e (events c) -> In e (events c')).
  { intros e He. rewrite Hev. apply in_or_app. right. exact He. }
  assert (Hback : forall d, In (EDeliver t d) (events c') -> In (EDeliver t d) (events c)).
  { intros d Hd. rewrite Hev in Hd. apply in_app_or in Hd. destruct Hd as [Hd|Hd]; [exfalso; exact (Hnew d Hd)|exact Hd]. }
  assert (Hcur : sig_open c = false -> cur_res c' = cur_res c).
  { intros Hs. destruct (I_result c HI Hs) as [r Hr]. unfold cur_res. rewrite Hr, (Hres r Hr). reflexivity. }
  assert (Hdest : forall p d, (In (EDeliver t d) (events c) -> d = DCaller \/ d = res_dest (cur_res c) p) ->
                              In (EDeliver t d) (events c') -> d = DCaller \/ d = res_dest (cur_res c') p).
  { intros p d H Hd. apply Hback in Hd. destruct (sig_open c) eqn:Hs.
    - left. exact (I_early c HI Hs t d Hd).
    - rewrite (Hcur eq_refl). auto. }
  unfold tinv in *. unfold in_precommit in Hpre. unfold in_postk in Hpost.
  destruct (t_op th) eqn:Hop.
  - (* OFulfill *) destruct (t_pc th); simpl in Hpre, Hpost; intuition auto.
  - (* OReject *) destruct (t_pc th); simpl in Hpre, Hpost; intuition auto.
  - (* OSend *) rewrite Hcnt. destruct HT as [H1 [H2 [H3 H4]]].
    split; [exact H1|]. split; [intros d; apply Hdest; apply H2|]. split; [exact H3|].
    destruct (t_pc th); intuition auto.
  - (* OClient *) destruct (t_pc th); auto; [tauto|].
    destruct HT as [h [Ho Hh]]. exists h. split; auto. destruct h as [x|d].
    + destruct Hh as [px [Ha Hb]]. destruct (Hpx x px Ha) as [px' [Hc Hd]]. exists px'. split; congruence.
    + destruct Hh as [Ha Hb]. rewrite (Hcur Hb). auto.
  - (* OCall *) rewrite Hcnt. destruct (t_pc th); intuition auto.
  - (* ORelease *) destruct (t_pc th); auto.
  - (* OWait *) destruct (t_pc th); auto. destruct HT as [Ha Hb]. rewrite (Hcur Hb). auto.
  - destruct (t_pc th); auto.
  - destruct (t_pc th); auto.
Qed.

Lemma postk_unique : forall c t1 t2 th1 th2, Inv c ->
  nth_error (threads c) t1 = Some th1 -> nth_error (threads c) t2 = Some th2 ->
  in_postk th1 = true -> in_postk th2 = true -> t1 = t2.
Proof.
  intros c t1 t2 th1 th2 HI H1 H2 P1 P2.
  destruct (Nat.eq_dec t1 t2) as [|Hne]; auto. exfalso.
  destruct (postk_facts c t1 th1 (I_threads c HI t1 th1 H1) P1) as (_ & _ & R1 & _ & Hs & _).
  destruct (postk_facts c t2 th2 (I_threads c HI t2 th2 H2) P2) as (_ & _ & R2 & _).
  assert (Hne' : EResolved t1 <> EResolved t2) by congruence.
  pose proof (cnt_in2 is_resolved _ _ _ R1 R2 Hne' eq_refl eq_refl) as H.
  rewrite (I_resolved c HI), Hs in H. simpl in H. lia.
Qed.

Lemma unique_after_upd : forall c c' t th th',
  Inv c -> nth_error (threads c) t = Some th -> threads c' = upd t th' (threads c) ->
  implb (in_precommit th') (in_precommit th) = true ->
  forall t1 t2 th1 th2, nth_error (threads c') t1 = Some th1 -> nth_error (threads c') t2 = Some th2 ->
                        in_precommit th1 = true -> in_precommit th2 = true -> t1 = t2.
Proof.
  intros c c' t th th' HI Hth Hup Hpre t1 t2 th1 th2 H1 H2 P1 P2. rewrite Hup in H1, H2.
  destruct (nth_error_upd_cases _ _ _ _ _ _ H1) as [(-> & -> & _)|[N1 E1]];
  destruct (nth_error_upd_cases _ _ _ _ _ _ H2) as [(-> & -> & _)|[N2 E2]]; auto.
  - rewrite P1 in Hpre. exact (I_unique c HI t t2 th th2 Hth E2 Hpre P2).
  - rewrite P2 in Hpre. exact (I_unique c HI t1 t th1 th E1 Hth P1 Hpre).
  - exact (I_unique c HI t1 t2 th1 th2 E1 E2 P1 P2).
Qed.

(* A step of thread t that leaves caller / sig_open / result alone.  It may log the delivery of t's own
   call, and resolve's last section (t between "result known" and closing the signals) may close Done. *)
Lemma inv_nores : forall c c' t th th' new,
  Inv c -> nth_error (threads c) t = Some th -> threads c' = upd t th' (threads c) ->
  mu c' = None -> caller c' = caller c -> sig_open c' = sig_open c -> result c' = result c ->
  events c' = new ++ events c ->
  (new = [] \/ exists d, new = [EDeliver t d] /\ (d = DCaller -> caller c = true) /\ (d <> DCaller -> sig_open c = false)) ->
  (done_open c' = done_open c \/ done_open c' = false /\ in_postk th = true) ->
  Tab (caller c) (sig_open c) (clients c') (proxies c') (slots c') -> px_preserved c c' ->
  tinv c' t th' -> implb (in_precommit th') (in_precommit th) = true ->
  Inv c'.
Proof.
  intros c c' t th th' new HI Hth Hup Hmu Hcal Hsig Hres Hev Hnew Hdn Htab Hpx HT Hpre.
  pose proof (I_threads c HI) as HTs.
  assert (Hd : forall t0 d, In (EDeliver t0 d) new ->
                 t0 = t /\ (d = DCaller -> caller c = true) /\ (d <> DCaller -> sig_open c = false)).
  { intros t0 d Hin. destruct Hnew as [->|(d0 & -> & H)]; [destruct Hin|].
    destruct Hin as [E|[]]. inversion E; subst. auto. }
  assert (Hcb : cnt is_begin new = 0%nat /\ cnt is_resolved new = 0%nat)
    by (destruct Hnew as [->|(d0 & -> & _)]; auto).
  constructor; rewrite ?Hcal, ?Hsig, ?Hres, ?Hev, ?cnt_app, ?(proj1 Hcb), ?(proj2 Hcb); try apply HI; auto.
  - intros E. destruct Hdn as [Hdn|[_ P]]; [rewrite Hdn in E; exact (I_done c HI E)|].
    apply (postk_facts c t th (HTs t th Hth) P).
  - intros Hs t0 d Hin. apply in_app_or in Hin. destruct Hin as [Hin|Hin]; [|exact (I_early c HI Hs t0 d Hin)].
    destruct (Hd t0 d Hin) as (_ & _ & H). destruct d; auto; rewrite H in Hs; discriminate.
  - destruct Hnew as [->|(d & -> & H1 & H2)]; [apply HI|]. simpl. split; [apply HI|].
    destruct d; try (rewrite (I_resolved c HI), H2 by discriminate; reflexivity).
    rewrite (I_begin c HI), (H1 eq_refl). reflexivity.
  - intros t0 th0 H0. rewrite Hup in H0.
    destruct (nth_error_upd_cases _ _ _ _ _ _ H0) as [(-> & -> & _)|[N E]]; [exact HT|].
    apply (tinv_other c c' t0 th0 new); auto; try congruence.
    + intros d Hin. apply N. apply (Hd t0 d Hin).
    + intros P. rewrite Hsig. apply (precommit_facts c t0 th0 (HTs t0 th0 E) P).
    + intros P. destruct Hdn as [Hdn|[_ Pt]].
      * rewrite Hdn. apply (postk_facts c t0 th0 (HTs t0 th0 E) P).
      * exfalso. apply N. exact (postk_unique c t0 t th0 th HI E Hth P Pt).
    + destruct Hdn as [Hdn|[Hdn _]]; congruence.
  - exact (unique_after_upd c c' t th th' HI Hth Hup Hpre).
Qed.

(* the tables are left alone as well *)
Lemma inv_own_thread : forall c c' t th th',
  Inv c -> nth_error (threads c) t = Some th -> threads c' = upd t th' (threads c) ->
  mu c' = None -> caller c' = caller c -> sig_open c' = sig_open c -> result c' = result c ->
  events c' = events c -> done_open c' = done_open c ->
  clients c' = clients c -> proxies c' = proxies c -> slots c' = slots c ->
  tinv c' t th' -> implb (in_precommit th') (in_precommit th) = true -> Inv c'.
Proof.
  intros c c' t th th' HI Hth Hup Hmu Hcal Hsig Hres Hev Hdone Hcl Hpx Hsl HT Hpre.
  apply (inv_nores c c' t th th' []); auto.
  - rewrite Hcl, Hpx, Hsl. apply HI.
  - apply px_preserved_refl. exact Hpx.
Qed.

(* only the thread moves *)
Lemma inv_goto : forall c t th th',
  Inv c -> nth_error (threads c) t = Some th -> tinv c t th' ->
  implb (in_precommit th') (in_precommit th) = true -> Inv (set_thread c t th').
Proof. intros c t th th' HI Hth HT Hpre. apply (inv_own_thread c _ t th th'); auto. apply HI. Qed.

(* the thread's call is delivered *)
Lemma inv_deliver : forall c t th th' d,
  Inv c -> nth_error (threads c) t = Some th ->
  (d = DCaller -> caller c = true) -> (d <> DCaller -> sig_open c = false) ->
  tinv (log c (EDeliver t d)) t th' -> implb (in_precommit th') (in_precommit th) = true ->
  Inv (set_thread (log c (EDeliver t d)) t th').
Proof.
  intros c t th th' d HI Hth Hd1 Hd2 HT Hpre.
  apply (inv_nores c _ t th th' [EDeliver t d]); eauto; try apply HI. apply px_preserved_refl. reflexivity.
Qed.

Lemma map_upd_path : forall (l : list proxy) x p',
  (forall p, nth_error l x = Some p -> px_path p' = px_path p) ->
  map px_path (upd x p' l) = map px_path l.
Proof.
  induction l as [|a l IH]; intros x p' H; destruct x; simpl; auto.
  - rewrite (H a eq_refl). reflexivity.
  - rewrite IH; auto.
Qed.

Lemma px_preserved_map : forall c c', map px_path (proxies c') = map px_path (proxies c) -> px_preserved c c'.
Proof.
  intros c c' H x px Hx.
  pose proof (map_nth_error px_path x (proxies c) Hx) as H1. rewrite <- H in H1.
  destruct (nth_error (proxies c') x) as [px'|] eqn:E.
  - rewrite (map_nth_error px_path x (proxies c') E) in H1. inversion H1. eauto.
  - apply nth_error_None in E. assert (nth_error (map px_path (proxies c')) x = None).
    { apply nth_error_None. rewrite map_length. exact E. } congruence.
Qed.

(* the thread rewrites one proxy (same path) *)
Lemma inv_set_px : forall c t th th' x p',
  Inv c -> nth_error (threads c) t = Some th ->
  px_path p' = px_path (get_px c x) ->
  (sig_open c = false \/ (px_rel p' = px_rel (get_px c x) /\ px_target p' = px_target (get_px c x))) ->
  px_target p' <> Some DCaller ->
  tinv (set_px c x p') t th' -> implb (in_precommit th') (in_precommit th) = true ->
  Inv (set_thread (set_px c x p') t th').
Proof.
  intros c t th th' x p' HI Hth Hpath Hflags Htg HT Hpre. pose proof (I_tab c HI) as [T1 T2 T3 T4 T5].
  assert (Hmap : map px_path (upd x p' (proxies c)) = map px_path (proxies c)).
  { apply map_upd_path. intros p Hp. rewrite Hpath, (get_px_nth c x p Hp). reflexivity. }
  apply (inv_nores c _ t th th' []); auto; try apply HI; [constructor; cbn [proxies clients slots set_px set_thread]|].
  - intros Hc. rewrite Hmap, length_upd. exact (T1 Hc).
  - rewrite Hmap. exact T2.
  - intros y py Hy Hf. destruct (nth_error_upd_cases _ _ _ _ _ _ Hy) as [(-> & -> & b0 & Hb0)|[N Hy']]; [|exact (T3 y py Hy' Hf)].
    destruct Hflags as [Hs|[Hr Ht]]; auto.
    apply (T3 x b0 Hb0). rewrite (get_px_nth c x b0 Hb0) in Hr, Ht. rewrite <- Hr, <- Ht. exact Hf.
  - intros y py Hy. destruct (nth_error_upd_cases _ _ _ _ _ _ Hy) as [(-> & -> & _)|[N Hy']]; [exact Htg|exact (T4 y py Hy')].
  - exact T5.
  - apply px_preserved_map. exact Hmap.
Qed.

(* A section of resolve run by thread t: it logs EBegin if it is the one that clears caller, and
   EResolved if it makes the result known (k). [caller c = true \/ in_precommit th = true] says that t is
   the resolver: it clears caller in this section, or did in an earlier one. *)
Lemma inv_resolve : forall c c' t th th' (k : bool) r,
  Inv c -> nth_error (threads c) t = Some th -> threads c' = upd t th' (threads c) ->
  mu c' = None -> clients c' = clients c -> proxies c' = proxies c -> slots c' = slots c ->
  events c' = (if k then [EResolved t] else []) ++ (if caller c then [EBegin t] else []) ++ events c ->
  caller c' = false ->
  (caller c = true \/ in_precommit th = true) ->
  (if k then sig_open c' = false /\ result c' = Some r
   else sig_open c' = sig_open c /\ result c' = result c) ->
  (done_open c' = done_open c \/ (done_open c' = false /\ sig_open c' = false /\ caller c = true)) ->
  tinv c' t th' -> Inv c'.
Proof.
  intros c c' t th th' k r HI Hth Hup Hmu Hcl Hpx Hsl Hev Hcal Hwho Hkind Hdn HT.
  pose proof (I_threads c HI) as HTs.
  assert (Hso : sig_open c = true).
  { destruct Hwho as [Hc|P]; [exact (I_caller_sig c HI Hc)|apply (precommit_facts c t th (HTs t th Hth) P)]. }
  assert (Hother : forall t0 th0, t0 <> t -> nth_error (threads c) t0 = Some th0 -> in_precommit th0 = true -> False).
  { intros t0 th0 N E P. destruct (precommit_facts c t0 th0 (HTs t0 th0 E) P) as (_ & Hc & _).
    destruct Hwho as [Hc'|P']; [congruence|]. apply N. exact (I_unique c HI t0 t th0 th E Hth P P'). }
  set (new := (if k then [EResolved t] else []) ++ (if caller c then [EBegin t] else [])).
  rewrite app_assoc in Hev. fold new in Hev.
  assert (Hnew : forall t0 d, ~ In (EDeliver t0 d) new).
  { intros t0 d. unfold new. destruct k, (caller c); simpl; intuition discriminate. }
  assert (Hb : cnt is_begin new = b2n (caller c) /\ cnt is_resolved new = b2n k).
  { unfold new. destruct k, (caller c); auto. }
  constructor; auto.
  - rewrite Hcal. discriminate.
  - intros Hs. destruct k; [destruct Hkind; congruence|]. destruct Hkind as [H1 H2].
    rewrite H2. apply (I_res_none c HI). congruence.
  - intros Hd. destruct Hdn as [Hd'|[_ [Hd' _]]]; [|exact Hd'].
    rewrite Hd' in Hd. pose proof (I_done c HI Hd). congruence.
  - rewrite Hev, cnt_app, (proj1 Hb), (I_begin c HI), Hcal. destruct (caller c); reflexivity.
  - rewrite Hev, cnt_app, (proj2 Hb), (I_resolved c HI), Hso. destruct k; destruct Hkind as [-> _]; try rewrite Hso; reflexivity.
  - intros Hs. destruct k; [destruct Hkind as (_ & H2); eauto|destruct Hkind; congruence].
  - intros Hs t0 d Hin. rewrite Hev in Hin. apply in_app_or in Hin. destruct Hin as [Hin|Hin]; [exfalso; exact (Hnew t0 d Hin)|].
    exact (I_early c HI Hso t0 d Hin).
  - rewrite Hev. unfold new. pose proof (I_log c HI). destruct k, (caller c); simpl; auto.
  - rewrite Hcal, Hcl, Hpx, Hsl. destruct (I_tab c HI) as [T1 T2 T3 T4 T5]. constructor; auto; try discriminate.
    + intros x px Hx Hf. pose proof (T3 x px Hx Hf). congruence.
    + intros s d Hin. destruct (T5 s d Hin). congruence.
  - intros t0 th0 H0. rewrite Hup in H0.
    destruct (nth_error_upd_cases _ _ _ _ _ _ H0) as [(-> & -> & _)|[N E]]; [exact HT|].
    apply (tinv_other c c' t0 th0 new); auto;
      try solve [intros; congruence]; try solve [apply px_preserved_refl; exact Hpx].
    + intros r0 Hr0. pose proof (I_res_none c HI Hso). congruence.
    + intros P. exfalso. exact (Hother t0 th0 N E P).
    + intros P. pose proof (postk_facts c t0 th0 (HTs t0 th0 E) P). intuition congruence.
    + intros Hd. pose proof (I_done c HI Hd). congruence.
  - intros t1 t2 th1 th2 H1 H2 P1 P2. rewrite Hup in H1, H2.
    destruct (nth_error_upd_cases _ _ _ _ _ _ H1) as [(-> & -> & _)|[N1 E1]];
    destruct (nth_error_upd_cases _ _ _ _ _ _ H2) as [(-> & -> & _)|[N2 E2]]; auto; exfalso.
    + exact (Hother t2 th2 N2 E2 P2).
    + exact (Hother t1 th1 N1 E1 P1).
    + exact (Hother t2 th2 N2 E2 P2).
Qed.

Lemma init_thread : forall ops t th, nth_error (threads (init ops)) t = Some th ->
  exists o, nth_error ops t = Some o /\ th = mk_thread o.
Proof.
  intros ops t th H. simpl in H. rewrite nth_error_map in H.
  destruct (nth_error ops t) as [o|]; inversion H. eauto.
Qed.

Lemma init_inv : forall ops, Inv (init ops).
Proof.
  intros ops. constructor; simpl; auto; try discriminate.
  - intros _ t d [].
  - constructor; simpl; auto; [constructor| | |intros s d []]; intros [|x] px Hx; discriminate.
  - intros t th H. destruct (init_thread ops t th H) as (o & _ & ->).
    unfold tinv, mk_thread; simpl. destruct o; simpl; auto.
    repeat split; auto. intros d [].
  - intros t1 t2 th1 th2 H1 _ P1. destruct (init_thread ops t1 th1 H1) as (o & _ & ->). discriminate.
Qed.
