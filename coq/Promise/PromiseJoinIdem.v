(* client_idempotent on chains: Future.Client calls for the same path that ended at the same promise, while that
   promise is still unresolved, returned the same proxy.  (Across a Join the code itself returns the proxy of the
   promise joined onto - the row of a path then holds both promises' proxies and Client() takes the first.) *)
From CV Require Import Promise.Promise Promise.PromiseProofs Promise.PromiseJoin Promise.PromiseJoinThms
  Promise.PromiseJoinInv Promise.PromiseJoinRefs Promise.PromiseJoinDest Promise.PromiseJoinChain
  Promise.PromiseJoinForest Promise.PromiseJoinLive Promise.PromiseJoinStuck Promise.PromiseJoinHook
  Promise.PromiseJoinPath Promise.PromiseJoinHookStuck Promise.PromiseJoinLands.
Open Scope Z_scope.

Lemma path_eqb_refl : forall a, path_eqb a a = true.
Proof. intros a. apply path_eqb_eq. reflexivity. Qed.

Lemma find_row_add_row : forall cl q' row q,
  find_row (add_row cl q' row) q = if path_eqb q' q then find_row cl q ++ row else find_row cl q.
Proof.
  induction cl as [|[q0 row0] cl IH]; intros q' row q; simpl.
  - destruct (path_eqb q' q); reflexivity.
  - destruct (path_eqb q0 q') eqn:E0; simpl.
    + apply path_eqb_eq in E0. subst q0. destruct (path_eqb q' q); reflexivity.
    + rewrite IH. destruct (path_eqb q0 q) eqn:E1; [|reflexivity].
      apply path_eqb_eq in E1. subst q0. destruct (path_eqb q' q) eqn:E2; [|reflexivity].
      apply path_eqb_eq in E2. subst q'. rewrite path_eqb_refl in E0. discriminate.
Qed.

Lemma find_row_merge : forall src dst q, exists extra, find_row (merge_tab dst src) q = find_row dst q ++ extra.
Proof.
  induction src as [|[q' row] src IH]; intros dst q; simpl.
  - exists []. rewrite app_nil_r. reflexivity.
  - destruct (IH (add_row dst q' row) q) as [extra E]. rewrite E, find_row_add_row.
    destruct (path_eqb q' q); [exists (row ++ extra); rewrite app_assoc; reflexivity|exists extra; reflexivity].
Qed.

Definition headed (l : list nat) (x : nat) : Prop := exists rest, l = x :: rest.

Lemma headed_app : forall l x extra, headed l x -> headed (l ++ extra) x.
Proof. intros l x extra [rest ->]. exists (rest ++ extra). reflexivity. Qed.

(* the first proxy of a row stays the first while the promise is unresolved *)
Lemma head_step : forall v c t c', JR c -> JS c -> JW c -> jstep v c t = Some c' ->
  forall r q x, p_caller (getp c r) = true -> headed (find_row (p_clients (getp c r)) q) x ->
    p_caller (getp c' r) = true -> headed (find_row (p_clients (getp c' r)) q) x.
Proof.
  intros v c t c' HR HS HW Hs.
  jthread Hs Hth.
  pose proof (HW t th Hth) as Hw. unfold wrel in Hw.
  pose proof (S_unres c HS) as Hun. unfold has_sig in Hun.
  jcases Hs.
  all: goal_matches.
  all: own_phase HR Hth.
  all: repeat match goal with H : j_pc _ = _ |- _ => rewrite H in Hw end.
  all: norm_negb.
  all: intros r0 q0 x0 Hc Hh.
  all: jsimp.
  all: eqb_all; simpl; intros Hc'; try exact Hh; try discriminate Hc'.
  all: try (rewrite find_row_add_row; destruct (path_eqb _ _); [apply headed_app|]; exact Hh).
  all: try (destruct p as [q row];
            match goal with |- headed (find_row (merge_tab ?d ?l0) ?q1) _ =>
              destruct (find_row_merge l0 d q1) as [extra E]; rewrite E, find_row_add_row end;
            destruct (path_eqb _ _); repeat apply headed_app; exact Hh).
  all: try (exfalso; specialize (Hpre eq_refl); destruct Hpre as [Hb _];
            pose proof (begin_not_caller c _ _ HR Hb); congruence).
  all: exfalso; apply (Hun _ Hc); apply (lands_end c _ Hw); simpl in *; assumption.
Qed.

Definition cidem (c : jconfig) (th : jthread) : Prop :=
  match j_op th, j_pc th, j_out th with
  | JClient _ q _, QDone, OHandle (HProxy x) =>
      p_caller (getp c (j_cur th)) = true -> headed (find_row (p_clients (getp c (j_cur th))) q) x
  | _, _, _ => True
  end.

(* CI: the proxy a finished Future.Client returned is the first of its path's row in the table of the promise its
   traversal ended at, for as long as that promise is unresolved *)
Definition CI (c : jconfig) : Prop := forall t th, nth_error (jthreads c) t = Some th -> cidem c th.

Lemma caller_step : forall v c t c', jstep v c t = Some c' ->
  forall r, p_caller (getp c' r) = true -> p_caller (getp c r) = true.
Proof. intros v c t c' Hs r. exact (proj1 (prom_step v c t c' Hs r)). Qed.

Lemma cidem_mono : forall c c' th,
  (forall r q x, p_caller (getp c r) = true -> headed (find_row (p_clients (getp c r)) q) x ->
     p_caller (getp c' r) = true -> headed (find_row (p_clients (getp c' r)) q) x) ->
  (forall r, p_caller (getp c' r) = true -> p_caller (getp c r) = true) ->
  cidem c th -> cidem c' th.
Proof.
  unfold cidem. intros c c' th Hhd Hcs A.
  destruct (j_op th); try exact I. destruct (j_pc th); try exact I. destruct (j_out th) as [| | |h| | |]; try exact I.
  destruct h; try exact I. intros Hc'. exact (Hhd _ _ _ (Hcs _ Hc') (A (Hcs _ Hc')) Hc').
Qed.

Lemma CI_step : forall v c t c', JR c -> JS c -> JW c -> CI c -> jstep v c t = Some c' -> CI c'.
Proof.
  intros v c t c' HR HS HW HI Hs.
  pose proof (head_step v c t c' HR HS HW Hs) as Hhd.
  pose proof (caller_step v c t c' Hs) as Hcs.
  jthread Hs Hth.
  pose proof (HI t th Hth) as Hown. unfold cidem in Hown.
  jcases Hs.
  all: goal_matches.
  all: intros t0 th0 H0; simpl in H0; rewrite ?close_sigs_threads in H0; simpl in H0;
       destruct (jupd_nth_cases _ _ _ _ _ _ Hth H0) as [[-> ->]|[Hne H0']]; clear H0;
       [ idtac
       | exact (cidem_mono c _ th0 Hhd Hcs (HI _ _ H0')) ].
  all: unfold cidem, jcall_done;
       repeat match goal with |- context [match j_via ?th with _ => _ end] => destruct (j_via th) eqn:? end;
       cbn [j_pc j_op j_via j_cur j_rest j_waitx j_res j_out jgoto jfinish sj_pc sj_cur sj_par sj_path sj_via sj_rest sj_waitx sj_res sj_out].
  all: repeat match goal with H : j_pc _ = _ |- _ => rewrite H end.
  all: repeat match goal with H : j_op _ = _ |- _ => rewrite H end.
  all: try (destruct (j_op th); exact I).
  all: intros _; jsimp; rewrite ?Nat.eqb_refl; simpl;
       rewrite ?find_row_add_row, ?path_eqb_refl;
       match goal with E : find_row _ _ = _ |- _ => rewrite E end; eexists; reflexivity.
Qed.

Lemma CI_reach : forall v np ops c, jv_alloc_table v = true -> jreach v np ops c -> CI c.
Proof.
  intros v np ops c Hv H. induction H as [|c t c' Hr IH Hs].
  - intros t th Hth. simpl in Hth. rewrite nth_error_map in Hth. destruct (nth_error ops t) as [o|]; inversion Hth; subst.
    unfold cidem. destruct o; exact I.
  - exact (CI_step v c t c' (JR_reach v np ops c Hr) (JS_reach v np ops c Hr) (JW_reach v np ops c Hv Hr) IH Hs).
Qed.

Theorem join_client_idempotent : forall v np ops c,
  jv_alloc_table v = true -> jreach v np ops c ->
  forall t1 t2 th1 th2 k1 k2 q s1 s2 x1 x2,
    nth_error (jthreads c) t1 = Some th1 -> nth_error (jthreads c) t2 = Some th2 ->
    j_op th1 = JClient k1 q s1 -> j_op th2 = JClient k2 q s2 ->
    j_pc th1 = QDone -> j_pc th2 = QDone ->
    j_out th1 = OHandle (HProxy x1) -> j_out th2 = OHandle (HProxy x2) ->
    j_cur th1 = j_cur th2 -> p_caller (getp c (j_cur th1)) = true ->
    x1 = x2.
Proof.
  intros v np ops c Hv Hr t1 t2 th1 th2 k1 k2 q s1 s2 x1 x2 H1 H2 O1 O2 P1 P2 U1 U2 Hcur Hc.
  pose proof (CI_reach v np ops c Hv Hr t1 th1 H1) as A1. pose proof (CI_reach v np ops c Hv Hr t2 th2 H2) as A2.
  unfold cidem in A1, A2. rewrite O1, P1, U1 in A1. rewrite O2, P2, U2 in A2. rewrite <- Hcur in A2.
  destruct (A1 Hc) as [r1 E1]. destruct (A2 Hc) as [r2 E2]. congruence.
Qed.
