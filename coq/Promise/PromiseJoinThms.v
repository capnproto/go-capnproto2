(* Theorems over all operation lists and all interleavings for the model WITH Join (PromiseJoin.v):
   every pipelined call on a promise or anywhere in its joined chain is delivered at most once at any
   time and exactly once when it has returned. *)
From CV Require Import Promise.Promise Promise.PromiseProofs Promise.PromiseJoin.
Open Scope Z_scope.

Lemma close_sigs_events : forall sigs c, jevents (close_sigs c sigs) = jevents c.
Proof. induction sigs; intros; simpl; auto. rewrite IHsigs. reflexivity. Qed.

Lemma close_sigs_threads : forall sigs c, jthreads (close_sigs c sigs) = jthreads c.
Proof. induction sigs; intros; simpl; auto. rewrite IHsigs. reflexivity. Qed.

Lemma close_sigs_proxies : forall sigs c, jproxies (close_sigs c sigs) = jproxies c.
Proof. induction sigs; intros; simpl; auto. rewrite IHsigs. reflexivity. Qed.

Lemma close_sigs_slots : forall sigs c, jslots (close_sigs c sigs) = jslots c.
Proof. induction sigs; intros; simpl; auto. rewrite IHsigs. reflexivity. Qed.

Definition jis_deliver (t : nat) (e : jevent) : bool :=
  match e with JEDeliver t' _ _ | JEDirect t' _ => Nat.eqb t t' | _ => false end.

Definition jcnt (f : jevent -> bool) (l : list jevent) : nat := length (filter f l).

Lemma jcnt_cons : forall f e l, jcnt f (e :: l) = (b2n (f e) + jcnt f l)%nat.
Proof. intros. unfold jcnt. simpl. destruct (f e); reflexivity. Qed.

Definition jdel (p : jpc) : bool :=
  match p with QInCaller | QRelock | QCallFinish | QDone => true | _ => false end.

(* the sections a pipelined call goes through *)
Definition jcall_pc (p : jpc) : bool :=
  match p with
  | QStart | QTrav | QWaitJ | QInCaller | QRelock | QWaitKnown | QAfterKnown | QCallFinish | QDone => true
  | _ => false
  end.

Definition jtinv (c : jconfig) (t : nat) (th : jthread) : Prop :=
  match j_op th with
  | JSend _ _ _ => jcall_pc (j_pc th) = true /\ jcnt (jis_deliver t) (jevents c) = b2n (jdel (j_pc th))
  | JCall _ _ =>
    jcall_pc (j_pc th) = true /\
    match j_pc th with
    | QDone => (j_out th = ONoSlot /\ jcnt (jis_deliver t) (jevents c) = 0%nat) \/
               (j_out th = ORet /\ jcnt (jis_deliver t) (jevents c) = 1%nat)
    | pc => jcnt (jis_deliver t) (jevents c) = b2n (jdel pc)
    end
  | _ => True
  end.

(* JInv: a PipelineSend / client-call thread has logged one delivery (JEDeliver or JEDirect) exactly when it is
   past the section that delivers (jdel), and a JCall that found no slot has logged none *)
Definition JInv (c : jconfig) : Prop := forall t th, nth_error (jthreads c) t = Some th -> jtinv c t th.

Ltac jexplode Hs :=
  repeat (match type of Hs with
          | (if ?b then _ else _) = Some _ => destruct b eqn:?
          | match ?x with _ => _ end = Some _ => destruct x eqn:?
          end); try discriminate Hs.

Ltac junfold Hs :=
  unfold jstep_thread, sec_jresolve_start, sec_jfulfil, sec_join_start, sec_join_par, sec_trav, sec_jrelock,
    sec_jcall_finish, sec_jcall_start, sec_rel_walk, sec_jrelease_proxy, sec_wait_walk, jcall_done in Hs.

(* the stepping thread, then one goal per leaf of its step function *)
Ltac jthread Hs Hth :=
  unfold jstep in Hs;
  match type of Hs with match nth_error ?l ?t with _ => _ end = _ =>
    destruct (nth_error l t) as [th|] eqn:Hth; [|discriminate Hs] end.

Ltac jcases Hs :=
  junfold Hs; jexplode Hs; inversion Hs; subst; clear Hs; unfold resolve_entry, do_known, do_final in *.

Definition jev_thread (e : jevent) : nat :=
  match e with JEDeliver x _ _ | JEDirect x _ | JEBegin x _ | JEResolved x _ => x end.

Lemma cnt_deliver_other : forall t e l, t <> jev_thread e ->
  jcnt (jis_deliver t) (e :: l) = jcnt (jis_deliver t) l.
Proof.
  intros t e l Hne. rewrite jcnt_cons. destruct e; simpl in *; auto;
    (destruct (Nat.eqb t t0) eqn:E; [apply Nat.eqb_eq in E; congruence|reflexivity]).
Qed.

Lemma cnt_deliver_same : forall t k d l, jcnt (jis_deliver t) (JEDeliver t k d :: l) = S (jcnt (jis_deliver t) l).
Proof. intros. rewrite jcnt_cons. simpl. rewrite Nat.eqb_refl. reflexivity. Qed.

Lemma cnt_direct_same : forall t d l, jcnt (jis_deliver t) (JEDirect t d :: l) = S (jcnt (jis_deliver t) l).
Proof. intros. rewrite jcnt_cons. simpl. rewrite Nat.eqb_refl. reflexivity. Qed.

Lemma jupd_nth_cases : forall (l : list jthread) t th th' t0 th0,
  nth_error l t = Some th -> nth_error (upd t th' l) t0 = Some th0 ->
  (t0 = t /\ th0 = th') \/ (t0 <> t /\ nth_error l t0 = Some th0).
Proof.
  intros l t th th' t0 th0 Hth H0. destruct (Nat.eq_dec t0 t) as [->|Hne].
  - rewrite (nth_error_upd_same _ _ _ _ _ Hth) in H0. inversion H0. auto.
  - rewrite nth_error_upd_other in H0 by auto. auto.
Qed.

Ltac goal_matches :=
  repeat match goal with
         | |- context [match ?x with _ => _ end] => destruct x eqn:?
         | |- context [if ?b then _ else _] => destruct b eqn:?
         end.

(* every step rewrites only the stepping thread's record (same operation) and logs only deliveries of
   the stepping thread (or EBegin / EResolved) *)
Lemma jstep_frame : forall v c t th c',
  nth_error (jthreads c) t = Some th -> jstep_thread v c t th = Some c' ->
  (exists th', jthreads c' = upd t th' (jthreads c) /\ j_op th' = j_op th) /\
  (forall t0, t0 <> t -> jcnt (jis_deliver t0) (jevents c') = jcnt (jis_deliver t0) (jevents c)).
Proof.
  intros v c t th c' Hth Hs.
  jcases Hs.
  all: split; [goal_matches; eexists; simpl; rewrite ?close_sigs_threads; simpl; (split; [reflexivity|simpl; congruence])
              |intros t0 Hne; goal_matches; simpl; rewrite ?close_sigs_events; simpl;
               repeat (rewrite cnt_deliver_other by (simpl; auto)); reflexivity].
Qed.

Definition is_call_op (o : jop) : bool := match o with JSend _ _ _ | JCall _ _ => true | _ => false end.

Lemma JInv_step : forall v c t c', JInv c -> jstep v c t = Some c' -> JInv c'.
Proof.
  intros v c t c' HN Hs. unfold JInv in *.
  jthread Hs Hth.
  destruct (jstep_frame v c t th c' Hth Hs) as [[th' [Hup Hop]] Hcnt].
  intros t0 th0 H0. rewrite Hup in H0.
  destruct (jupd_nth_cases _ _ _ _ _ _ Hth H0) as [[-> ->]|[Hne H0']].
  2:{ pose proof (HN _ _ H0') as T0. unfold jtinv in *. rewrite (Hcnt t0 Hne). exact T0. }
  (* the stepping thread *)
  destruct (is_call_op (j_op th)) eqn:Hcall.
  2:{ unfold jtinv. rewrite Hop. destruct (j_op th); try discriminate; exact I. }
  pose proof (HN t th Hth) as HT. unfold jtinv in HT.
  clear Hcnt HN.
  junfold Hs. destruct (j_op th) eqn:Eop; try discriminate.
  all: jexplode Hs; inversion Hs; subst; clear Hs.
  all: repeat match goal with H : j_pc _ = _ |- _ => rewrite H in HT end.
  all: try (exfalso; simpl in HT; destruct HT; discriminate).
  all: destruct HT as [_ HT].
  all: simpl in Hup; rewrite ?close_sigs_threads in Hup; simpl in Hup.
  all: assert (Hth' : nth_error (upd t th' (jthreads c)) t = Some th') by (eapply nth_error_upd_same; eauto).
  all: rewrite <- Hup in Hth'; simpl in Hth'; rewrite ?close_sigs_threads in Hth'; simpl in Hth';
       rewrite (nth_error_upd_same _ _ _ _ _ Hth) in Hth'; inversion Hth'; subst th'; clear Hth' Hup.
  all: unfold jtinv; try (destruct (j_via th)); simpl; rewrite ?Eop; simpl; rewrite ?close_sigs_events; simpl.
  all: repeat match goal with H : j_pc _ = _ |- _ => rewrite H end; simpl.
  all: rewrite ?cnt_deliver_same, ?cnt_direct_same, ?jcnt_cons; simpl in HT.
  all: try (split; [reflexivity|]).
  all: try (rewrite HT; simpl; auto; fail); try (auto; fail).
Qed.

Lemma jinit_inv : forall np ops, JInv (jinit np ops).
Proof.
  intros np ops t th H. simpl in H. rewrite nth_error_map in H. destruct (nth_error ops t) as [o|]; inversion H; subst.
  unfold jtinv, mk_jthread. simpl. destruct o; simpl; auto.
Qed.

Lemma jreach_inv : forall v np ops c, jreach v np ops c -> JInv c.
Proof.
  intros v np ops c H. induction H as [|c t c' Hr IH Hs]; [apply jinit_inv|exact (JInv_step v c t c' IH Hs)].
Qed.

(* Exactly-once on a promise and its joined chain, for every variant of the code modelled, every number
   of promises, every operation list (any Joins, any transforms), every interleaving: the call of a
   PipelineSend/PipelineRecv thread, or of a call through a returned client, has been delivered at most
   once at any time, and exactly once when it has returned (a call on an empty slot returns ONoSlot
   without a delivery). *)
Theorem join_pipelined_exactly_once : forall v np ops c, jreach v np ops c ->
  forall t th, nth_error (jthreads c) t = Some th ->
    match j_op th with
    | JSend _ _ _ =>
      (jcnt (jis_deliver t) (jevents c) <= 1)%nat /\
      (j_pc th = QDone -> jcnt (jis_deliver t) (jevents c) = 1%nat)
    | JCall _ _ =>
      (jcnt (jis_deliver t) (jevents c) <= 1)%nat /\
      (j_pc th = QDone -> (j_out th = ONoSlot /\ jcnt (jis_deliver t) (jevents c) = 0%nat) \/
                          (j_out th = ORet /\ jcnt (jis_deliver t) (jevents c) = 1%nat))
    | _ => True
    end.
Proof.
  intros v np ops c Hr t th Hth. pose proof (jreach_inv v np ops c Hr t th Hth) as T. unfold jtinv in T.
  destruct (j_op th); auto.
  - destruct T as [_ T]. rewrite T. split; [destruct (jdel (j_pc th)); simpl; lia|].
    intros Hd. rewrite Hd. reflexivity.
  - destruct T as [_ T]. split.
    + destruct (j_pc th); simpl in T; try lia; destruct T as [[_ T]|[_ T]]; lia.
    + intros Hd. rewrite Hd in T. exact T.
Qed.
