(* Deadlock freedom on joined chains (channel part), from the invariants of PromiseJoinLive.v, the forest
   invariant and the mutex discipline. *)
From CV Require Import Promise.Promise Promise.PromiseProofs Promise.PromiseJoin Promise.PromiseJoinThms
  Promise.PromiseJoinInv Promise.PromiseJoinRefs Promise.PromiseJoinDest Promise.PromiseJoinChain
  Promise.PromiseJoinForest Promise.PromiseJoinLive.
Open Scope Z_scope.

(* the program counters an operation goes through *)
Definition pc_ok (o : jop) (p : jpc) : bool :=
  match p with
  | QStart | QDone => true
  | _ =>
    match o with
    | JFulfill _ _ | JReject _ => match p with QStopWait | QKnown | QFul | QFulWait | QClose => true | _ => false end
    | JJoin _ _ => match p with
                   | QStopWait | QKnown | QFul | QFulWait | QClose
                   | QJStopWait | QJRelock | QJPar | QJWaitRes | QJWaitJ | QJLockP => true
                   | _ => false end
    | JSend _ _ _ | JCall _ _ =>
      match p with QTrav | QWaitJ | QInCaller | QRelock | QWaitKnown | QAfterKnown | QCallFinish => true | _ => false end
    | JClient _ _ _ => match p with QTrav | QWaitJ | QWaitRes | QAfterRes => true | _ => false end
    | JRelease _ => match p with QRelWalk | QRel | QRelWait => true | _ => false end
    | JWait _ => match p with QWaitWalk => true | _ => false end
    | JUngate _ => false
    end
  end.

(* JOP: every thread is at a program counter of its own operation *)
Definition JOP (c : jconfig) : Prop := forall t th, nth_error (jthreads c) t = Some th -> pc_ok (j_op th) (j_pc th) = true.

Lemma JOP_step : forall v c t c', JOP c -> jstep v c t = Some c' -> JOP c'.
Proof.
  intros v c t c' HO Hs.
  jthread Hs Hth.
  pose proof (HO t th Hth) as Hown.
  jcases Hs.
  all: goal_matches.
  all: intros t0 th0 H0; simpl in H0; rewrite ?close_sigs_threads in H0; simpl in H0;
       destruct (jupd_nth_cases _ _ _ _ _ _ Hth H0) as [[-> ->]|[Hne H0']]; [|exact (HO _ _ H0')].
  all: simpl; repeat match goal with H : j_pc _ = _ |- _ => rewrite H in * end;
       repeat match goal with H : j_op _ = _ |- _ => rewrite H in * end; simpl in *; try reflexivity; try exact Hown.
  all: destruct (j_op th); simpl in *; try discriminate; try reflexivity.
Qed.

Lemma JOP_reach : forall v np ops c, jreach v np ops c -> JOP c.
Proof.
  intros v np ops c H. induction H as [|c t c' Hr IH Hs]; [|exact (JOP_step v c t c' IH Hs)].
  intros t th H. simpl in H. rewrite nth_error_map in H. destruct (nth_error ops t); inversion H; subst. reflexivity.
Qed.

Ltac jexplode_none Hs :=
  repeat (match type of Hs with
          | (if ?b then _ else _) = None => destruct b eqn:?
          | match ?x with _ => _ end = None => destruct x eqn:?
          end); try discriminate Hs.

(* the promise whose channel a blocked thread waits on (as a function of the thread: waited, PromiseJoinWaits.v) *)
Definition blocked_on (th : jthread) (k : nat) : Prop :=
  (j_pc th = QStart /\ (j_op th = JRelease k \/ j_op th = JWait k)) \/
  ((j_pc th = QWaitJ \/ j_pc th = QWaitKnown \/ j_pc th = QWaitRes) /\ k = j_cur th) \/
  ((j_pc th = QJWaitRes \/ j_pc th = QJWaitJ) /\ k = j_par th).

Definition wait_kind (c : jconfig) (th : jthread) : Prop :=
  (j_pc th = QStart /\ exists k, (j_op th = JRelease k \/ j_op th = JWait k) /\ p_resclosed (getp c k) = false) \/
  (j_pc th = QWaitJ /\ p_joined (getp c (j_cur th)) = COpen) \/
  (j_pc th = QWaitKnown /\ p_known (getp c (j_cur th)) = COpen) \/
  (j_pc th = QWaitRes /\ p_resclosed (getp c (j_cur th)) = false) \/
  ((j_pc th = QStopWait \/ j_pc th = QJStopWait) /\ p_stopped (getp c (j_cur th)) <> CClosed) \/
  (j_pc th = QJWaitRes /\ p_resclosed (getp c (j_par th)) = false) \/
  (j_pc th = QJWaitJ /\ p_joined (getp c (j_par th)) = COpen).

Lemma jdisabled_cases : forall v c t th,
  (forall k, free c k = true) -> pc_ok (j_op th) (j_pc th) = true ->
  (j_pc th = QJPar -> j_par th <> j_cur th) ->
  jstep_thread v c t th = None ->
  j_pc th = QDone \/
  (j_pc th = QInCaller /\ jop_gated (j_op th) = true /\ mem_nat t (jgates c) = false) \/
  (j_pc th = QFulWait \/ j_pc th = QRelWait) \/
  wait_kind c th.
Proof.
  intros v c t th HM Hok Hself Hs. unfold wait_kind.
  unfold jstep_thread in Hs.
  destruct (j_pc th) eqn:Hpc; simpl in Hok.
  all: try (left; reflexivity).
  all: try (right; right; left; auto; fail).
  all: try unfold sec_jresolve_start in Hs; try unfold sec_join_start in Hs; try unfold sec_trav in Hs;
       try unfold sec_jrelock in Hs; try unfold sec_jcall_finish in Hs; try unfold sec_jcall_start in Hs;
       try unfold sec_rel_walk in Hs; try unfold sec_jrelease_proxy in Hs; try unfold sec_wait_walk in Hs;
       try unfold sec_jfulfil in Hs; try unfold jcall_done in Hs;
       repeat rewrite HM in Hs; simpl in Hs.
  all: try (exfalso; exact (join_par_enabled v c t th (Hself eq_refl) (HM _) Hs)).
  all: jexplode_none Hs.
  all: try discriminate Hok.
  all: try (right; left; apply orb_false_iff in Heqb; destruct Heqb as [Hg Hm]; apply negb_false_iff in Hg; auto; fail).
  all: right; right; right.
  all: try (left; split; [reflexivity|]; eexists; split; [eauto|]; assumption).
  all: try (right; left; split; auto; fail).
  all: try (right; right; left; split; auto; fail).
  all: try (right; right; right; left; split; auto; fail).
  all: try (right; right; right; right; left; split; [auto|congruence]; fail).
  all: try (right; right; right; right; right; left; split; auto; fail).
  all: try (right; right; right; right; right; right; split; auto; fail).
  all: exfalso; rewrite HM in Heqb; discriminate Heqb.
Qed.

Lemma JE3_reach : forall v np ops c, join_ordered ops -> jreach v np ops c -> JE3 c.
Proof.
  intros v np ops c Ho H. induction H as [|c t c' Hr IH Hs].
  - intros k Hrc. destruct (getp_init np ops k) as [E|E]; rewrite E in Hrc; [discriminate|].
    exists k. split; [lia|]. rewrite E. left. reflexivity.
  - apply (JE3_step v c t c'); auto.
    intros t0 th0 H0 Hpc. destruct (join_forest v np ops c Ho Hr) as [_ Hf].
    apply (Hf t0 th0 H0). rewrite Hpc. reflexivity.
Qed.

Lemma jdisabled_thread : forall v c t th,
  jenabled v c t = false -> nth_error (jthreads c) t = Some th -> jstep_thread v c t th = None.
Proof.
  intros v c t th Hdis Hth. unfold jenabled, jstep in Hdis. rewrite Hth in Hdis.
  destruct (jstep_thread v c t th); [discriminate|reflexivity].
Qed.

(* at rest, a thread inside a PipelineCaller is one the application holds there; search the thread list for one *)
Lemma held_or_none : forall v c, (forall t, jenabled v c t = false) ->
  (exists t th, nth_error (jthreads c) t = Some th /\ j_pc th = QInCaller /\
                jop_gated (j_op th) = true /\ mem_nat t (jgates c) = false) \/
  (forall t th, nth_error (jthreads c) t = Some th -> j_pc th <> QInCaller).
Proof.
  intros v c Hdis.
  set (f := fun th => match j_pc th with QInCaller => true | _ => false end).
  destruct (Z_lt_dec 0 (jcount f (jthreads c))) as [Hp|Hz].
  - left. destruct (jcount_pos _ _ Hp) as [t [th [Hth Hf]]]. exists t, th. unfold f in Hf.
    destruct (j_pc th) eqn:Hpc; try discriminate Hf.
    pose proof (jdisabled_thread v c t th (Hdis t) Hth) as Hs. unfold jstep_thread in Hs. rewrite Hpc in Hs.
    destruct (negb (jop_gated (j_op th)) || mem_nat t (jgates c)) eqn:E; [discriminate|].
    apply orb_false_iff in E. destruct E as [E1 E2]. apply negb_false_iff in E1. auto.
  - right. intros t th Hth Hpc. apply Hz. apply (jcount_mem _ _ _ _ Hth). unfold f. rewrite Hpc. reflexivity.
Qed.

Section Stuck.
  Variable v : jvariant.
  Variable np : nat.
  Variable ops : list jop.
  Variable c : jconfig.
  Hypothesis Hv1 : jv_close_joined v = true.
  Hypothesis Hv2 : jv_alloc_table v = true.
  Hypothesis Hord : join_ordered ops.
  Hypothesis Hr : jreach v np ops c.
  Hypothesis Hdis : forall t, jenabled v c t = false.
  Hypothesis Hnogate : forall t th, nth_error (jthreads c) t = Some th -> j_pc th <> QInCaller.
  Hypothesis Hnohook : forall t th, nth_error (jthreads c) t = Some th -> j_pc th <> QFulWait /\ j_pc th <> QRelWait.

  Lemma all_free : forall k, free c k = true.
  Proof.
    intros k. unfold free. destruct (p_mu (getp c k)) as [t|] eqn:E; [|reflexivity]. exfalso.
    destruct (join_no_mutex_deadlock v np ops c Hv2 Hord Hr k t E) as [t' Ht']. rewrite Hdis in Ht'. discriminate.
  Qed.

  Lemma classify : forall t th, nth_error (jthreads c) t = Some th -> j_pc th = QDone \/ wait_kind c th.
  Proof.
    intros t th Hth.
    pose proof (jdisabled_thread v c t th (Hdis t) Hth) as Hs.
    destruct (jdisabled_cases v c t th all_free (JOP_reach v np ops c Hr t th Hth)) as [H|[H|[H|H]]]; auto.
    - intros Hpc. destruct (join_forest v np ops c Hord Hr) as [_ Hf].
      pose proof (Hf t th Hth ltac:(rewrite Hpc; reflexivity)). lia.
    - exfalso. exact (Hnogate t th Hth (proj1 H)).
    - exfalso. destruct (Hnohook t th Hth). destruct H; contradiction.
  Qed.

  (* no thread is at a program counter whose section can always run when every mutex is free, nor (Hnogate,
     Hnohook) inside a PipelineCaller or waiting for a hook *)
  Lemma not_runnable : forall t th, nth_error (jthreads c) t = Some th ->
    match j_pc th with
    | QKnown | QFul | QClose | QJRelock | QJLockP | QRelock | QJPar | QTrav | QAfterKnown | QAfterRes
    | QCallFinish | QRel | QRelWalk | QWaitWalk | QInCaller | QFulWait | QRelWait => False
    | _ => True
    end.
  Proof.
    intros t th Hth. destruct (classify t th Hth) as [H|H]; [rewrite H; exact I|].
    unfold wait_kind in H.
    destruct H as [[H _]|[[H _]|[[H _]|[[H _]|[[[H|H] _]|[[H _]|[H _]]]]]]]; rewrite H; exact I.
  Qed.

  Lemma no_stopwait : forall t th, nth_error (jthreads c) t = Some th ->
    j_pc th <> QStopWait /\ j_pc th <> QJStopWait.
  Proof.
    intros t th Hth.
    assert (G : (j_pc th = QStopWait \/ j_pc th = QJStopWait) -> False).
    { intros Hpc.
      pose proof (JC1_reach v np ops c Hr) as HC. pose proof (JT_reach v np ops c Hv1 Hv2 Hr) as HT.
      assert (Hst : p_stopped (getp c (j_cur th)) = COpen).
      { pose proof (T_thr c HT t th Hth) as T. unfold tchan in T.
        destruct (classify t th Hth) as [H|H]; [destruct Hpc; congruence|].
        unfold wait_kind in H.
        destruct H as [[H _]|[[H _]|[[H _]|[[H _]|[[_ H]|[[H _]|[H _]]]]]]]; try (destruct Hpc; congruence).
        destruct (p_stopped (getp c (j_cur th))) eqn:E; auto; [|congruence].
        destruct Hpc as [Hp|Hp]; rewrite Hp in T; destruct T; congruence. }
      destruct (C_stopped c HC _ Hst) as [Hpos _]. rewrite (C_ongoing c HC) in Hpos.
      destruct (jcount_pos _ _ Hpos) as [t2 [th2 [H2 Hf]]].
      pose proof (not_runnable t2 th2 H2) as N. unfold jin_caller in Hf.
      destruct (j_pc th2); try discriminate; exact N. }
    split; intros H; apply G; auto.
  Qed.

  Lemma phase_thread : forall k, act (getp c k) = true ->
    exists t th, nth_error (jthreads c) t = Some th /\ jphase k th = true.
  Proof.
    intros k Ha. pose proof (JE4_reach v np ops c Hv2 Hr k) as E. rewrite Ha in E.
    apply jcount_pos. lia.
  Qed.

  (* D k: "promise k waits for something that is not coming".  It holds of an unresolved promise, passes from the
     promise a Join in progress looks at to the promise being joined, and from the holder of a signal to the signal's
     promise.  Used twice: below with "some promise is unresolved", and in PromiseJoinWaits.v with dep, which names
     the unresolved promise the wait is tied to. *)
  Variable D : nat -> Prop.
  Hypothesis D_here : forall r, p_caller (getp c r) = true -> D r.
  Hypothesis D_join : forall t th, nth_error (jthreads c) t = Some th -> jjoin_pc (j_pc th) = true ->
    D (j_par th) -> D (j_cur th).
  Hypothesis D_sig : forall r k, In k (p_signals (getp c r)) -> D r -> D k.

  (* a thread of promise k' in Join's waiting states waits on a lower promise *)
  Lemma join_thread_waits : forall t th k',
    nth_error (jthreads c) t = Some th -> jpre th k' = true ->
    (forall m, (m < k')%nat -> (p_joined (getp c m) = COpen -> D m) /\ (p_resclosed (getp c m) = false -> D m)) ->
    D k'.
  Proof.
    intros t th k' Hth Hp IH.
    pose proof (not_runnable t th Hth) as N. destruct (no_stopwait t th Hth) as [S1 S2].
    destruct (join_forest v np ops c Hord Hr) as [_ Hf].
    unfold jpre in Hp.
    destruct (j_pc th) eqn:Hpc; try discriminate Hp; try contradiction; try congruence;
      apply Nat.eqb_eq in Hp;
      assert (Hlt : (j_par th < k')%nat) by (rewrite <- Hp; apply (Hf t th Hth); rewrite Hpc; reflexivity);
      destruct (classify t th Hth) as [H|H]; try congruence; unfold wait_kind in H;
      destruct H as [[H _]|[[H _]|[[H _]|[[H _]|[[[H|H] _]|[[H H']|[H H']]]]]]]; try congruence;
      rewrite <- Hp; apply (D_join t th Hth); try (rewrite Hpc; reflexivity).
    - exact (proj2 (IH _ Hlt) H').
    - exact (proj1 (IH _ Hlt) H').
  Qed.

  Lemma waits_lead : forall k,
    (p_joined (getp c k) = COpen -> D k) /\ (p_resclosed (getp c k) = false -> D k).
  Proof.
    induction k as [k IH] using lt_wf_ind.
    pose proof (JT_reach v np ops c Hv1 Hv2 Hr) as HT.
    split.
    - (* pending join *)
      intros Hj. destruct (phase_thread k (T_joined c HT k Hj)) as [t [th [Hth Hp]]].
      unfold jphase in Hp. apply orb_true_iff in Hp. destruct Hp as [Hp|Hp].
      + exact (join_thread_waits t th k Hth Hp IH).
      + exfalso. pose proof (T_thr c HT t th Hth) as T. unfold tchan in T. unfold jpost in Hp.
        destruct (j_pc th); try discriminate Hp; apply Nat.eqb_eq in Hp; rewrite Hp in T; destruct T; congruence.
    - (* resolved channel still open: the signal sits at a promise r <= k that is unresolved or being joined *)
      intros Hrc. pose proof (JE3_reach v np ops c Hord Hr) as HE3.
      destruct (HE3 k Hrc) as [r [Hle Hin]]. apply (D_sig r k Hin).
      destruct (p_caller (getp c r)) eqn:Ec; [exact (D_here r Ec)|].
      pose proof (JZ_reach v np ops c Hv2 Hr r) as [_ Z2].
      assert (Hn : p_next (getp c r) = None).
      { destruct (p_next (getp c r)) eqn:En; auto. destruct (Z2 ltac:(congruence)) as [_ [_ Hs]]. rewrite Hs in Hin. destruct Hin. }
      assert (Ha : act (getp c r) = true).
      { unfold act, p_is_joined, no_signals. rewrite Ec, Hn. destruct (p_signals (getp c r)); [destruct Hin|reflexivity]. }
      destruct (phase_thread r Ha) as [t [th [Hth Hp]]].
      unfold jphase in Hp. apply orb_true_iff in Hp. destruct Hp as [Hp|Hp].
      + apply (join_thread_waits t th r Hth Hp). intros m Hm. apply IH. lia.
      + exfalso. pose proof (not_runnable t th Hth) as N. unfold jpost in Hp.
        destruct (j_pc th); try discriminate Hp; exact N.
  Qed.

  (* every operation that has not finished is blocked on a channel of a promise of which D holds *)
  Lemma unfinished_waits : forall t th,
    nth_error (jthreads c) t = Some th -> j_pc th <> QDone -> exists k, blocked_on th k /\ D k.
  Proof.
    intros t th Hth Hnd.
    pose proof (JT_reach v np ops c Hv1 Hv2 Hr) as HT.
    destruct (classify t th Hth) as [H|H]; [contradiction|]. unfold wait_kind in H. unfold blocked_on.
    destruct H as [[P [k [O H]]]|[[P H]|[[P H]|[[P H]|[[H _]|[[P H]|[P H]]]]]]].
    - exists k. split; [left; auto|exact (proj2 (waits_lead k) H)].
    - exists (j_cur th). split; [right; left; auto|exact (proj1 (waits_lead _) H)].
    - (* pendingDone open: its closer is waiting for callsStopped or about to run *)
      exfalso. destruct (phase_thread _ (T_known c HT _ H)) as [t1 [th1 [Hth1 Hp]]].
      pose proof (T_thr c HT t1 th1 Hth1) as T. unfold tchan in T.
      pose proof (not_runnable t1 th1 Hth1) as N. destruct (no_stopwait t1 th1 Hth1) as [S1 S2].
      unfold jphase, jpre, jpost in Hp.
      destruct (j_pc th1); simpl in Hp; try discriminate Hp; try contradiction; try congruence;
        rewrite orb_false_r in Hp || rewrite orb_false_l in Hp || idtac;
        try (apply Nat.eqb_eq in Hp; rewrite Hp in T; first [destruct T; congruence | congruence]).
    - exists (j_cur th). split; [right; left; auto|exact (proj2 (waits_lead _) H)].
    - exfalso. destruct (no_stopwait t th Hth). destruct H; contradiction.
    - exists (j_par th). split; [right; right; auto|exact (proj2 (waits_lead _) H)].
    - exists (j_par th). split; [right; right; auto|exact (proj1 (waits_lead _) H)].
  Qed.
End Stuck.

Definition unresolved_exists (c : jconfig) : Prop := exists r, p_caller (getp c r) = true.

Lemma waits_lead_to_unresolved : forall v np ops c,
  jv_close_joined v = true -> jv_alloc_table v = true -> join_ordered ops -> jreach v np ops c ->
  (forall t, jenabled v c t = false) ->
  (forall t th, nth_error (jthreads c) t = Some th -> j_pc th <> QInCaller) ->
  (forall t th, nth_error (jthreads c) t = Some th -> j_pc th <> QFulWait /\ j_pc th <> QRelWait) ->
  forall k, (p_joined (getp c k) = COpen -> unresolved_exists c) /\
            (p_resclosed (getp c k) = false -> unresolved_exists c).
Proof.
  intros v np ops c Hv1 Hv2 Ho Hr Hdis Hng Hnh.
  apply (waits_lead v np ops c Hv1 Hv2 Ho Hr Hdis Hng Hnh (fun _ => unresolved_exists c));
    unfold unresolved_exists; eauto.
Qed.

(* no_stuck on joined chains.  Preconditions: the code as it is (resolve closes p.joined, Join allocates the table)
   and the precondition of Join (join_ordered).  If no thread can take a step, then
   (1) the application is holding a call inside a PipelineCaller (gated, not released), or
   (2) some ClientPromise.Fulfill / Client.Release is waiting for the calls of a proxy hook to drain (this file
       does not analyse these waits; join_fulfil_never_waits_for_hook in PromiseJoinHookStuck.v and
       join_release_never_waits_for_hook in PromiseJoinLands.v exclude them, which gives join_no_stuck there), or
   (3) every unfinished operation waits - on its own promise's resolved / joined channel, or through Join threads -
       for a promise that nobody has asked to resolve (p.caller still set for some promise). *)
Theorem join_no_stuck_partial : forall v np ops c,
  jv_close_joined v = true -> jv_alloc_table v = true -> join_ordered ops -> jreach v np ops c ->
  (forall t, jenabled v c t = false) ->
  (exists t th, nth_error (jthreads c) t = Some th /\ j_pc th = QInCaller /\
                jop_gated (j_op th) = true /\ mem_nat t (jgates c) = false) \/
  (exists t th, nth_error (jthreads c) t = Some th /\ (j_pc th = QFulWait \/ j_pc th = QRelWait)) \/
  (forall t th, nth_error (jthreads c) t = Some th -> j_pc th <> QDone ->
                exists r, p_caller (getp c r) = true).
Proof.
  intros v np ops c Hv1 Hv2 Ho Hr Hdis.
  destruct (held_or_none v c Hdis) as [H|Hng]; [left; exact H|].
  (* is some thread waiting for a hook? (decidable: search the thread list) *)
  set (f := fun th => match j_pc th with QFulWait | QRelWait => true | _ => false end).
  destruct (Z_lt_dec 0 (jcount f (jthreads c))) as [Hp|Hz].
  { right. left. destruct (jcount_pos _ _ Hp) as [t [th [Hth Hf]]]. exists t, th. split; [exact Hth|].
    unfold f in Hf. destruct (j_pc th); try discriminate Hf; auto. }
  assert (Hnh : forall t th, nth_error (jthreads c) t = Some th -> f th = false).
  { intros t th Hth. destruct (f th) eqn:E; auto. exfalso. apply Hz. exact (jcount_mem _ _ _ _ Hth E). }
  right. right. intros t th Hth Hnd.
  destruct (unfinished_waits v np ops c Hv1 Hv2 Ho Hr Hdis) with (D := fun _ : nat => unresolved_exists c)
    (t := t) (th := th) as [_ [_ H]]; unfold unresolved_exists; eauto.
  intros t0 th0 H0. specialize (Hnh t0 th0 H0). unfold f in Hnh. split; intros Hpc; rewrite Hpc in Hnh; discriminate.
Qed.

(* waiters_released on chains (same preconditions): at rest, with no call held by the application, no hook wait,
   and every promise asked to resolve or joined (no promise with its caller still set), every operation has
   finished: every Done/Struct waiter, ReleaseClients call, Client() and pipelined call on the chain was released *)
Theorem join_waiters_released_partial : forall v np ops c,
  jv_close_joined v = true -> jv_alloc_table v = true -> join_ordered ops -> jreach v np ops c ->
  (forall t, jenabled v c t = false) ->
  (forall t th, nth_error (jthreads c) t = Some th -> j_pc th = QInCaller ->
                jop_gated (j_op th) = true -> mem_nat t (jgates c) = true) ->
  (forall t th, nth_error (jthreads c) t = Some th -> j_pc th <> QFulWait /\ j_pc th <> QRelWait) ->
  (forall k, p_caller (getp c k) = false) ->
  forall t th, nth_error (jthreads c) t = Some th -> j_pc th = QDone.
Proof.
  intros v np ops c Hv1 Hv2 Ho Hr Hdis Hgate Hhook Hall t th Hth.
  destruct (join_no_stuck_partial v np ops c Hv1 Hv2 Ho Hr Hdis) as [[t1 [th1 [H1 [P1 [G1 M1]]]]]|[[t1 [th1 [H1 P1]]]|H]].
  - rewrite (Hgate t1 th1 H1 P1 G1) in M1. discriminate.
  - destruct (Hhook t1 th1 H1). destruct P1; contradiction.
  - destruct (j_pc th) eqn:Hpc; auto;
      (destruct (H t th Hth ltac:(congruence)) as [r Hc]; rewrite Hall in Hc; discriminate).
Qed.
