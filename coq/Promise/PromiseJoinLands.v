(* A promise whose resolved channel is closed reaches, along next, a settled promise (signals handed out, no next
   edge); a settled promise's table only holds proxies whose target is set; ReleaseClients therefore never waits
   for a proxy hook, and every proxy in a settled promise's table has that promise's result at its path. *)
From CV Require Import Promise.Promise Promise.PromiseProofs Promise.PromiseJoin Promise.PromiseJoinThms
  Promise.PromiseJoinInv Promise.PromiseJoinRefs Promise.PromiseJoinDest Promise.PromiseJoinChain
  Promise.PromiseJoinForest Promise.PromiseJoinLive Promise.PromiseJoinStuck Promise.PromiseJoinHook
  Promise.PromiseJoinPath Promise.PromiseJoinHookStuck.
Open Scope Z_scope.

(* the resolved state: signals closed and cleared, not joined *)
Definition settled (c : jconfig) (r : nat) : Prop := p_signals (getp c r) = [] /\ p_next (getp c r) = None.

Lemma settled_step : forall v c t c', JS c -> jstep v c t = Some c' -> forall r, settled c r -> settled c' r.
Proof.
  intros v c t c' HS Hs.
  jthread Hs Hth.
  assert (Hsig : forall k, jphase k th = true -> p_signals (getp c k) <> []).
  { intros k Hp. apply (S_thr c HS t th k Hth). unfold jphase in Hp. apply orb_true_iff in Hp. exact Hp. }
  pose proof (S_unres c HS) as Hun. unfold has_sig in Hun.
  jcases Hs.
  all: goal_matches.
  all: unfold jphase, jpre, jpost in Hsig; repeat match goal with H : j_pc _ = _ |- _ => rewrite H in Hsig end; simpl in Hsig.
  all: intros r0 [Hs0 Hn0]; unfold settled.
  all: jsimp.
  all: eqb_all; simpl; try (split; assumption).
  all: try (split; [reflexivity|assumption]).
  all: try (exfalso; match goal with H : nth_error _ _ = Some ?tt |- _ => apply (Hsig (j_cur tt)) end; [rewrite ?Nat.eqb_refl; reflexivity|assumption]).
  all: try (exfalso; match goal with H : p_caller (getp _ ?k) = true |- _ => apply (Hun k H); assumption end).
Qed.

(* SGR: a signal moves only along Join edges: it sits in the signals of a promise its owner reaches *)
Definition SGR (c : jconfig) : Prop := forall r s, In s (p_signals (getp c r)) -> nreach c s r.

Lemma SGR_step : forall v c t c', JE4 c -> SGR c -> jstep v c t = Some c' -> SGR c'.
Proof.
  intros v c t c' HE HG Hs.
  pose proof (next_mono_step v c t c' HE Hs) as Hmono.
  jthread Hs Hth.
  jcases Hs.
  all: goal_matches.
  all: intros r0 s0 Hin;
       jsimp_in Hin;
       revert Hin; eqb_all; simpl; intros Hin; try contradiction.
  all: try (apply (nreach_mono c); [exact Hmono|apply HG; exact Hin]).
  all: apply in_app_or in Hin; destruct Hin as [Hin|Hin]; [apply (nreach_mono c); [exact Hmono|apply HG; exact Hin]|].
  all: eapply nreach_snoc; [apply (nreach_mono c); [exact Hmono|apply HG; exact Hin]|].
  all: jsimp; eqb_all; simpl; try congruence.
Qed.

(* k's next-chain ends in a settled promise *)
Inductive lands (c : jconfig) : nat -> Prop :=
| ld_here : forall k, settled c k -> lands c k
| ld_next : forall k q, p_next (getp c k) = Some q -> lands c q -> lands c k.

Lemma lands_mono : forall c c' k,
  (forall k q, p_next (getp c k) = Some q -> p_next (getp c' k) = Some q) ->
  (forall r, settled c r -> settled c' r) -> lands c k -> lands c' k.
Proof. intros c c' k Hm Hs H. induction H; [apply ld_here; auto|eapply ld_next; eauto]. Qed.

Lemma lands_nreach : forall c s r, nreach c s r -> settled c r -> lands c s.
Proof. intros c s r H Hs. induction H; [apply ld_here; exact Hs|eapply ld_next; eauto]. Qed.

Lemma lands_end : forall c k, lands c k -> p_next (getp c k) = None -> settled c k.
Proof. intros c k H Hn. inversion H; subst; [assumption|congruence]. Qed.

Lemma lands_next : forall c k q, lands c k -> p_next (getp c k) = Some q -> lands c q.
Proof.
  intros c k q H Hn. inversion H as [k' [_ Hs]|k' q' Hn' Hl]; subst; [congruence|].
  assert (q' = q) by congruence. subst. exact Hl.
Qed.

(* RC: from a promise whose resolved channel is closed, the next edges lead to a settled promise *)
Definition RC (c : jconfig) : Prop := forall k, p_resclosed (getp c k) = true -> lands c k.

Lemma RC_step : forall v c t c', JS c -> JZ c -> JE4 c -> SGR c -> RC c -> jstep v c t = Some c' -> RC c'.
Proof.
  intros v c t c' HS HZ HE HG HC Hs.
  pose proof (next_mono_step v c t c' HE Hs) as Hmono.
  pose proof (settled_step v c t c' HS Hs) as Hset.
  jthread Hs Hth.
  pose proof (fun Hp => act_next _ (phase_act c t th (j_cur th) HE Hth Hp)) as Hact.
  pose proof (fun k => proj1 (HZ k)) as Hcn.
  jcases Hs.
  all: goal_matches.
  all: unfold jphase, jpre, jpost in Hact;
       repeat match goal with H : j_pc _ = _ |- _ => rewrite H in Hact end; rewrite ?Nat.eqb_refl in Hact; simpl in Hact.
  all: intros k0 Hrc;
       jsimp_in Hrc;
       revert Hrc; eqb_all; simpl; intros Hrc.
  all: try (apply (lands_mono c); [exact Hmono|exact Hset|apply HC; exact Hrc]).
  all: norm_negb.
  all: match type of Hrc with (if mem_nat ?a ?l then _ else _) = true =>
         destruct (mem_nat a l) eqn:Hm; [|eapply lands_mono; [exact Hmono|exact Hset|apply HC; exact Hrc]] end.
  all: apply jmem_in in Hm.
  all: match type of Hm with In ?a (p_signals (getp ?cc ?k)) =>
         apply (lands_nreach _ a k); [apply (nreach_mono cc); [exact Hmono|apply HG; exact Hm]|] end.
  all: unfold settled; jsimp;
       eqb_all; simpl; split; [reflexivity|].
  all: first [apply Hact; reflexivity|apply Hcn; assumption].
Qed.

(* once set, a proxy's target stays set *)
Definition tgt (c : jconfig) (x : nat) : Prop := jx_target (getx c x) <> None.

Lemma tgt_step : forall v c t c', jstep v c t = Some c' -> forall x, tgt c x -> tgt c' x.
Proof.
  intros v c t c' Hs x Hx. apply (px_step v c t c' Hs x); [|exact Hx].
  destruct (lt_dec x (length (jproxies c))); auto. exfalso. apply Hx. unfold getx. rewrite nth_overflow by lia. reflexivity.
Qed.

Lemma rows_step : forall v c t c', jstep v c t = Some c' ->
  forall r x, in_rows c' r x -> in_rows c r x \/ p_caller (getp c r) = true.
Proof. intros v c t c' Hs r. exact (proj2 (prom_step v c t c' Hs r)). Qed.

Definition lpost (c : jconfig) (th : jthread) : Prop :=
  match j_pc th with
  | QFul | QFulWait => forall x, in_rows c (j_cur th) x -> In x (j_rest th) \/ tgt c x
  | QClose => forall x, in_rows c (j_cur th) x -> tgt c x
  | _ => True
  end.

(* JL: the loop list of a resolve that is fulfilling the proxies covers every proxy of its promise's table whose
   target is not yet set (none is left at QClose); every proxy in a settled promise's table has its target set *)
Record JL (c : jconfig) : Prop := {
  L_post : forall t th, nth_error (jthreads c) t = Some th -> lpost c th;
  L_set : forall r x, settled c r -> in_rows c r x -> tgt c x
}.

(* lpost reads the rows of the thread's promise and the targets; rows only grow while the promise is unresolved,
   and a promise in its resolve loop is not *)
Lemma lpost_mono : forall c c' th,
  (forall x, tgt c x -> tgt c' x) ->
  (forall r x, in_rows c' r x -> in_rows c r x \/ p_caller (getp c r) = true) ->
  (jpost th (j_cur th) = true -> p_caller (getp c (j_cur th)) = false) ->
  lpost c th -> lpost c' th.
Proof.
  unfold lpost, jpost. intros c c' th Htg Hrows Hcf H. rewrite Nat.eqb_refl in Hcf.
  destruct (j_pc th); try exact I; intros x Hx;
    (destruct (Hrows _ _ Hx) as [Hx'|Hc]; [|rewrite Hcf in Hc by reflexivity; discriminate]).
  - destruct (H x Hx'); auto.
  - destruct (H x Hx'); auto.
  - auto.
Qed.

Lemma JL_step : forall v c t c', JV c -> JR c -> JS c -> JL c -> jstep v c t = Some c' -> JL c'.
Proof.
  intros v c t c' HV HR HS HL Hs.
  pose proof (tgt_step v c t c' Hs) as Htg.
  pose proof (rows_step v c t c' Hs) as Hrows.
  pose proof (S_unres c HS) as Hun. unfold has_sig in Hun.
  jthread Hs Hth.
  pose proof (L_post c HL t th Hth) as Hown. unfold lpost in Hown.
  destruct (V_thr c HV t th Hth) as [Hvrest _].
  jcases Hs.
  all: goal_matches.
  all: norm_negb.
  all: repeat match goal with H : j_pc _ = _ |- _ => rewrite H in Hown end.
  all: constructor;
    [ intros t0 th0 H0; simpl in H0; rewrite ?close_sigs_threads in H0; simpl in H0;
      destruct (jupd_nth_cases _ _ _ _ _ _ Hth H0) as [[-> ->]|[Hne H0']]; clear H0;
      [ idtac
      | apply (lpost_mono c); [exact Htg|exact Hrows| |exact (L_post c HL _ _ H0')];
        intros Hp; exact (begin_not_caller c _ _ HR (proj1 (R_post c HR _ th0 _ H0' Hp))) ]
    | intros r0 x0 [Hs0 Hn0] Hin; destruct (Hrows _ _ Hin) as [Hin'|Hc];
      unfold in_rows, rows_of in Hin;
      jsimp_in Hin;
      jsimp_in Hs0;
      jsimp_in Hn0;
      revert Hs0 Hn0; eqb_all; simpl; intros Hs0 Hn0;
      try discriminate Hn0;
      try (exfalso; exact (Hun _ Hc Hs0));
      try (apply Htg; exact (L_set c HL _ _ (conj Hs0 Hn0) Hin')) ].
  all: try (unfold lpost, jcall_done;
            repeat match goal with |- context [match j_via ?th with _ => _ end] => destruct (j_via th) eqn:? end;
            cbn [j_pc j_op j_via j_cur j_rest j_waitx jgoto jfinish sj_pc sj_cur sj_par sj_path sj_via sj_rest sj_waitx sj_res sj_out];
            repeat match goal with H : j_pc _ = _ |- _ => rewrite H end;
            exact I).
  all: try (simpl in Hin; simpl in Hin; apply Htg; apply Hown; exact Hin).
  all: try (exfalso; match goal with E : rows_of _ = [] |- _ =>
              unfold rows_of in E; jsimp_in E; rewrite ?Nat.eqb_refl in E; simpl in E;
              simpl in Hin; simpl in Hin; rewrite E in Hin; exact Hin end).
  all: try (exfalso; apply app_eq_nil in Hs0; destruct Hs0 as [Hs0 _];
            match goal with H : p_caller (getp _ ?k) = true |- _ => exact (Hun k H Hs0) end).
  all: unfold lpost;
       cbn [j_pc j_op j_via j_cur j_rest j_waitx jgoto jfinish sj_pc sj_cur sj_par sj_path sj_via sj_rest sj_waitx sj_res sj_out];
       intros y Hy.
  (* QFulWait -> QFul, and the end of the loop *)
  all: try (exact (Hown y Hy)).
  all: try (destruct (Hown y Hy) as [A|A]; [match goal with E : j_rest _ = [] |- _ => rewrite ?E in A; destruct A end|exact A]).
  (* one proxy fulfilled *)
  all: try (match goal with E : j_rest _ = ?n :: _ |- _ =>
              pose proof (Hvrest n ltac:(rewrite ?E; left; reflexivity)) as Hlt;
              destruct (Hown y Hy) as [A|A]; [rewrite ?E in A; destruct A as [<-|A]; [right|left; exact A]|right; apply Htg; exact A];
              unfold tgt, getx; jsimp; rewrite nth_upd_same by exact Hlt; simpl; discriminate end).
  (* the loop list is the table *)
  all: left; unfold in_rows, rows_of in *;
       repeat progress (jsimp_in Hy; rewrite ?Nat.eqb_refl in Hy; simpl in Hy);
       repeat progress (jsimp; rewrite ?Nat.eqb_refl; simpl);
       simpl in *; exact Hy.
Qed.

Definition wrel (c : jconfig) (th : jthread) : Prop :=
  match j_pc th with
  | QRelWalk => lands c (j_cur th)
  | QRel => forall x, In x (j_rest th) -> tgt c x
  | QRelWait => False
  | _ => True
  end.

(* JW: a ReleaseClients call walks towards a settled promise; every proxy of the table it took has its target
   set, so the call never waits for a hook's done (QRelWait is not reached) *)
Definition JW (c : jconfig) : Prop := forall t th, nth_error (jthreads c) t = Some th -> wrel c th.

Lemma JW_step : forall v c t c', JS c -> JE4 c -> RC c -> JL c -> JW c -> jstep v c t = Some c' -> JW c'.
Proof.
  intros v c t c' HS HE HC HL HW Hs.
  pose proof (next_mono_step v c t c' HE Hs) as Hmono.
  pose proof (settled_step v c t c' HS Hs) as Hset.
  pose proof (tgt_step v c t c' Hs) as Htg.
  assert (Hld : forall k, lands c k -> lands c' k) by (intros k H; exact (lands_mono c c' k Hmono Hset H)).
  clear Hmono Hset.
  jthread Hs Hth.
  pose proof (HW t th Hth) as Hown. unfold wrel in Hown.
  jcases Hs.
  all: goal_matches.
  all: repeat match goal with H : j_pc _ = _ |- _ => rewrite H in Hown end.
  all: intros t0 th0 H0; simpl in H0; rewrite ?close_sigs_threads in H0; simpl in H0;
       destruct (jupd_nth_cases _ _ _ _ _ _ Hth H0) as [[-> ->]|[Hne H0']]; clear H0;
       [ idtac
       | pose proof (HW _ _ H0') as A; unfold wrel in *; destruct (j_pc th0); try exact I;
         first [exact (Hld _ A)|(intros y Hy; apply Htg; exact (A y Hy))|exact A] ].
  all: try contradiction.
  all: try (unfold wrel, jcall_done;
            repeat match goal with |- context [match j_via ?th with _ => _ end] => destruct (j_via th) eqn:? end;
            cbn [j_pc j_op j_via j_cur j_rest j_waitx jgoto jfinish sj_pc sj_cur sj_par sj_path sj_via sj_rest sj_waitx sj_res sj_out];
            repeat match goal with H : j_pc _ = _ |- _ => rewrite H end;
            exact I).
  all: unfold wrel;
       cbn [j_pc j_op j_via j_cur j_rest j_waitx jgoto jfinish sj_pc sj_cur sj_par sj_path sj_via sj_rest sj_waitx sj_res sj_out];
       repeat match goal with H : j_pc _ = _ |- _ => rewrite H end.
  all: try (apply Hld; apply HC; assumption).
  all: try (apply Hld; eapply lands_next; [exact Hown|simpl in *; eassumption]).
  all: try (exfalso; match goal with H : jx_target (getx _ ?n) = None |- _ => apply (Hown n); [left; reflexivity|exact H] end).
  all: try (intros y Hy; apply Htg; apply Hown; right; exact Hy).
  all: intros y Hy; apply Htg; apply (L_set c HL (j_cur th)); [apply lands_end; [exact Hown|simpl in *; assumption]|exact Hy].
Qed.

Lemma SGR_reach : forall v np ops c, jv_alloc_table v = true -> jreach v np ops c -> SGR c.
Proof.
  intros v np ops c Hv H. induction H as [|c t c' Hr IH Hs].
  - intros r s Hin. destruct (getp_init np ops r) as [E|E]; rewrite E in Hin; simpl in Hin; [destruct Hin|].
    destruct Hin as [<-|[]]. apply nr_refl.
  - exact (SGR_step v c t c' (JE4_reach v np ops c Hv Hr) IH Hs).
Qed.

Lemma RC_reach : forall v np ops c, jv_alloc_table v = true -> jreach v np ops c -> RC c.
Proof.
  intros v np ops c Hv H. induction H as [|c t c' Hr IH Hs].
  - intros k Hrc. apply ld_here. unfold settled.
    destruct (getp_init np ops k) as [E|E]; rewrite E in *; simpl in *; [split; reflexivity|discriminate].
  - exact (RC_step v c t c' (JS_reach v np ops c Hr) (JZ_reach v np ops c Hv Hr) (JE4_reach v np ops c Hv Hr)
             (SGR_reach v np ops c Hv Hr) IH Hs).
Qed.

Lemma JL_reach : forall v np ops c, jreach v np ops c -> JL c.
Proof.
  intros v np ops c H. induction H as [|c t c' Hr IH Hs].
  - constructor.
    + intros t th Hth. simpl in Hth. rewrite nth_error_map in Hth. destruct (nth_error ops t); inversion Hth; subst. exact I.
    + intros r x _ Hin. unfold in_rows, rows_of in Hin. destruct (getp_init np ops r) as [E|E]; rewrite E in Hin; destruct Hin.
  - exact (JL_step v c t c' (JV_reach v np ops c Hr) (JR_reach v np ops c Hr) (JS_reach v np ops c Hr) IH Hs).
Qed.

Lemma JW_reach : forall v np ops c, jv_alloc_table v = true -> jreach v np ops c -> JW c.
Proof.
  intros v np ops c Hv H. induction H as [|c t c' Hr IH Hs].
  - intros t th Hth. simpl in Hth. rewrite nth_error_map in Hth. destruct (nth_error ops t); inversion Hth; subst. exact I.
  - exact (JW_step v c t c' (JS_reach v np ops c Hr) (JE4_reach v np ops c Hv Hr) (RC_reach v np ops c Hv Hr)
             (JL_reach v np ops c Hr) IH Hs).
Qed.

(* ReleaseClients / Client.Release never waits for the calls of a proxy hook *)
Theorem join_release_never_waits_for_hook : forall v np ops c,
  jv_alloc_table v = true -> jreach v np ops c ->
  forall t th, nth_error (jthreads c) t = Some th -> j_pc th <> QRelWait.
Proof.
  intros v np ops c Hv Hr t th Hth Hpc. pose proof (JW_reach v np ops c Hv Hr t th Hth) as W.
  unfold wrel in W. rewrite Hpc in W. exact W.
Qed.

(* no_stuck on chains, same shape as the single-promise C11_no_stuck: if nothing can move then the application holds a
   call inside a PipelineCaller, or every unfinished operation waits - directly or through Join threads - for a
   promise nobody has asked to resolve *)
Theorem join_no_stuck : forall v np ops c,
  jv_close_joined v = true -> jv_alloc_table v = true -> join_ordered ops -> jreach v np ops c ->
  (forall t, jenabled v c t = false) ->
  (exists t th, nth_error (jthreads c) t = Some th /\ j_pc th = QInCaller /\
                jop_gated (j_op th) = true /\ mem_nat t (jgates c) = false) \/
  (forall t th, nth_error (jthreads c) t = Some th -> j_pc th <> QDone ->
                exists r, p_caller (getp c r) = true).
Proof.
  intros v np ops c Hv1 Hv2 Ho Hr Hdis.
  destruct (join_no_stuck_chain_partial v np ops c Hv1 Hv2 Ho Hr Hdis) as [H|[[t [th [Hth Hpc]]]|H]]; auto.
  exfalso. exact (join_release_never_waits_for_hook v np ops c Hv2 Hr t th Hth Hpc).
Qed.

(* waiters_released on chains: at rest, no call held by the application, every promise asked to resolve or joined
   => every operation (Done/Struct waiters, ReleaseClients, Client(), pipelined calls, Joins) has finished *)
Theorem join_waiters_released : forall v np ops c,
  jv_close_joined v = true -> jv_alloc_table v = true -> join_ordered ops -> jreach v np ops c ->
  (forall t, jenabled v c t = false) ->
  (forall t th, nth_error (jthreads c) t = Some th -> j_pc th = QInCaller ->
                jop_gated (j_op th) = true -> mem_nat t (jgates c) = true) ->
  (forall k, p_caller (getp c k) = false) ->
  forall t th, nth_error (jthreads c) t = Some th -> j_pc th = QDone.
Proof.
  intros v np ops c Hv1 Hv2 Ho Hr Hdis Hgate Hall t th Hth.
  destruct (join_no_stuck v np ops c Hv1 Hv2 Ho Hr Hdis) as [[t1 [th1 [H1 [P1 [G1 M1]]]]]|H].
  - rewrite (Hgate t1 th1 H1 P1 G1) in M1. discriminate.
  - destruct (j_pc th) eqn:Hpc; auto;
      (destruct (H t th Hth ltac:(congruence)) as [r Hc]; rewrite Hall in Hc; discriminate).
Qed.

(* the destination "result at the end of k's next-chain, at path q" *)
Inductive endd (c : jconfig) : nat -> path -> dest -> Prop :=
| ed_here : forall k q res, p_next (getp c k) = None -> p_result (getp c k) = Some res -> endd c k q (res_dest res q)
| ed_next : forall k k' q d, p_next (getp c k) = Some k' -> endd c k' q d -> endd c k q d.

Lemma endd_mono : forall c c' k q d,
  (forall k q, p_next (getp c k) = Some q -> p_next (getp c' k) = Some q) ->
  (forall k res, p_next (getp c k) = None -> p_result (getp c k) = Some res ->
                 p_next (getp c' k) = None /\ p_result (getp c' k) = Some res) ->
  endd c k q d -> endd c' k q d.
Proof.
  intros c c' k q d Hm He H. induction H as [k q res Hn Hr|k k' q d Hn H IH].
  - destruct (He k res Hn Hr) as [A B]. apply ed_here; assumption.
  - eapply ed_next; eauto.
Qed.

Lemma endd_nreach : forall c a r q res, nreach c a r -> p_next (getp c r) = None -> p_result (getp c r) = Some res ->
  endd c a q (res_dest res q).
Proof. intros c a r q res H Hn Hr. induction H; [apply ed_here; assumption|eapply ed_next; eauto]. Qed.

Lemma endd_det : forall c a q d r res, endd c a q d -> nreach c a r ->
  p_next (getp c r) = None -> p_result (getp c r) = Some res -> d = res_dest res q.
Proof.
  intros c a q d r res H. revert r res. induction H as [k q res0 Hn Hr|k k' q d Hn H IH]; intros r res Hnr Hrn Hrr.
  - inversion Hnr; subst; [congruence|congruence].
  - inversion Hnr as [|a b e Hn' Hnr']; subst; [congruence|]. assert (b = k') by congruence. subst. eauto.
Qed.

(* a promise that has a result and no next edge keeps both *)
Lemma resend_step : forall v c t c', JR c -> jstep v c t = Some c' ->
  forall k res, p_next (getp c k) = None -> p_result (getp c k) = Some res ->
                p_next (getp c' k) = None /\ p_result (getp c' k) = Some res.
Proof.
  intros v c t c' HR Hs.
  jthread Hs Hth.
  pose proof (fun k H => proj2 (proj2 (R_begin c HR k) H)) as Hcr.
  jcases Hs.
  all: goal_matches.
  all: own_phase HR Hth.
  all: norm_negb.
  all: intros k0 res0 Hn0 Hr0.
  all: jsimp.
  all: eqb_all; simpl; try (split; assumption).
  all: try (exfalso; specialize (Hpre eq_refl); destruct Hpre as [_ Hrn]; congruence).
  all: try (specialize (Hpost eq_refl); destruct Hpost as [_ Hrs]; split; [assumption|congruence]).
  all: exfalso; match goal with H : p_caller (getp _ ?k) = true |- _ => pose proof (Hcr k H) end; congruence.
Qed.

(* TG: a proxy's target is the result at the end of its owner's chain, at its path *)
Definition TG (c : jconfig) : Prop :=
  forall x px, nth_error (jproxies c) x = Some px ->
    forall d, jx_target px = Some d -> endd c (jx_owner px) (jx_path px) d.

Lemma TG_step : forall v c t c', JR c -> JE4 c -> JX c -> TG c -> jstep v c t = Some c' -> TG c'.
Proof.
  intros v c t c' HR HE HX HT Hs.
  pose proof (next_mono_step v c t c' HE Hs) as Hmono.
  pose proof (resend_step v c t c' HR Hs) as Hend.
  assert (Hed : forall k q d, endd c k q d -> endd c' k q d) by (intros; eapply endd_mono; eauto).
  clear Hmono Hend.
  jthread Hs Hth.
  destruct (X_thr c HX t th Hth) as [_ Hxpc].
  pose proof (fun Hp => act_next _ (phase_act c t th (j_cur th) HE Hth Hp)) as Hact.
  jcases Hs.
  all: goal_matches.
  all: own_phase HR Hth.
  all: unfold jphase, jpre, jpost in Hact;
       repeat match goal with H : j_pc _ = _ |- _ => rewrite H in Hact end;
       repeat match goal with H : j_pc _ = _ |- _ => rewrite H in Hxpc end; rewrite ?Nat.eqb_refl in Hact; simpl in Hact.
  all: intros x0 px0 Hx0 d0 Hd0; simpl in Hx0; jpx_cases Hx0.
  all: try (apply Hed; exact (HT _ _ Hx0 _ Hd0)); try (apply Hed; exact (HT _ _ Hx0' _ Hd0)).
  all: try discriminate Hd0.
  all: simpl in Hd0 |- *; try (apply Hed; exact (HT _ _ Hb0 _ Hd0)).
  all: inversion Hd0; subst d0; apply Hed.
  all: specialize (Hpost eq_refl); destruct Hpost as [_ Hrs].
  all: pose proof (Hxpc n ltac:(left; reflexivity)) as Hn; unfold own in Hn; rewrite (getx_nth _ _ _ Hb0) in Hn.
  all: exact (endd_nreach c _ _ _ _ Hn (Hact eq_refl) Hrs).
Qed.

Lemma TG_reach : forall v np ops c, jv_alloc_table v = true -> jreach v np ops c -> TG c.
Proof.
  intros v np ops c Hv H. induction H as [|c t c' Hr IH Hs].
  - intros x px Hx. destruct x; discriminate.
  - exact (TG_step v c t c' (JR_reach v np ops c Hr) (JE4_reach v np ops c Hv Hr) (JX_reach v np ops c Hv Hr) IH Hs).
Qed.

(* proxy targets on chains: in a settled (resolved) promise's client table every proxy has been given that promise's
   result at the proxy's path *)
Theorem join_proxy_targets : forall v np ops c,
  jv_alloc_table v = true -> jreach v np ops c ->
  forall r x res, settled c r -> p_result (getp c r) = Some res -> in_rows c r x ->
    jx_target (getx c x) = Some (res_dest res (jx_path (getx c x))).
Proof.
  intros v np ops c Hv Hr r x res Hst Hres Hin.
  pose proof (L_set c (JL_reach v np ops c Hr) r x Hst Hin) as Ht. unfold tgt in Ht.
  destruct (jx_target (getx c x)) as [d|] eqn:Ed; [|congruence]. f_equal.
  pose proof (V_rows c (JV_reach v np ops c Hr) r x Hin) as Hlt.
  destruct (nth_error (jproxies c) x) as [px|] eqn:Ex; [|apply nth_error_None in Ex; lia].
  pose proof (getx_nth _ _ _ Ex) as Eg. rewrite Eg in *.
  pose proof (TG_reach v np ops c Hv Hr x px Ex d Ed) as He.
  pose proof (X_rows c (JX_reach v np ops c Hv Hr) r x Hin) as Hn. unfold own in Hn. rewrite Eg in Hn.
  exact (endd_det c _ _ _ r res He Hn (proj2 Hst) Hres).
Qed.

Lemma lands_exists : forall c k, lands c k -> exists r, nreach c k r /\ settled c r.
Proof.
  intros c k H. induction H as [k Hs|k q Hn H [r [Hr Hs]]].
  - exists k. split; [apply nr_refl|exact Hs].
  - exists r. split; [eapply nr_step; eauto|exact Hs].
Qed.

(* RC and the second clause of JL, with lands spelled out as a chain of next edges *)
Theorem join_resclosed_lands : forall v np ops c,
  jv_alloc_table v = true -> jreach v np ops c ->
  forall k, p_resclosed (getp c k) = true ->
    exists r, nreach c k r /\ settled c r /\ (forall x, in_rows c r x -> jx_target (getx c x) <> None).
Proof.
  intros v np ops c Hv Hr k Hrc.
  destruct (lands_exists c k (RC_reach v np ops c Hv Hr k Hrc)) as [r [Hn Hs]].
  exists r. split; [exact Hn|]. split; [exact Hs|]. intros x Hin. exact (L_set c (JL_reach v np ops c Hr) r x Hs Hin).
Qed.

(* the premises of the chain theorems can be met together *)
Definition premises_history : list jop :=
  [JClient 2 [] 0; JJoin 2 1; JJoin 1 0; JFulfill 0 []; JCall 0 false; JRelease 2; JRelease 1; JRelease 0; JWait 2].

Lemma jquiesce_reach : forall v np ops fuel c n c',
  jreach v np ops c -> jquiesce v fuel c n = Some c' -> jreach v np ops c'.
Proof.
  induction fuel as [|f IH]; simpl; intros c n c' Hr Hq; [discriminate|].
  destruct (jfirst_enabled v c n) as [t|]; [|inversion Hq; subst; exact Hr].
  destruct (jstep v c t) as [c1|] eqn:E; [|inversion Hq; subst; exact Hr].
  exact (IH c1 n c' (jreach_step v np ops c t c1 Hr E) Hq).
Qed.

Definition premises_final : jconfig :=
  Eval vm_compute in
  match jquiesce jfixed 1000 (jinit 3 premises_history) 9 with Some c => c | None => jinit 3 premises_history end.

Theorem join_premises_satisfiable :
  jv_close_joined jfixed = true /\ jv_alloc_table jfixed = true /\ jv_refs_sum jfixed = true /\
  join_ordered premises_history /\
  exists c, jreach jfixed 3 premises_history c /\ (forall t, jenabled jfixed c t = false) /\
            (forall t th, nth_error (jthreads c) t = Some th -> j_pc th = QDone).
Proof.
  split; [reflexivity|]. split; [reflexivity|]. split; [reflexivity|]. split.
  { unfold join_ordered, premises_history. repeat constructor. }
  exists premises_final.
  assert (Hq : jquiesce jfixed 1000 (jinit 3 premises_history) 9 = Some premises_final) by (vm_compute; reflexivity).
  split; [exact (jquiesce_reach jfixed 3 premises_history 1000 _ 9 _ (jreach_init jfixed 3 premises_history) Hq)|].
  assert (Hlen : length (jthreads premises_final) = 9%nat) by (vm_compute; reflexivity).
  assert (Hall : forallb (fun th => match j_pc th with QDone => true | _ => false end) (jthreads premises_final) = true)
    by (vm_compute; reflexivity).
  assert (Hdone : forall t th, nth_error (jthreads premises_final) t = Some th -> j_pc th = QDone).
  { intros t th Hth. rewrite forallb_forall in Hall. specialize (Hall th (nth_error_In _ _ Hth)).
    destruct (j_pc th); try discriminate Hall; reflexivity. }
  split; [|exact Hdone].
  intros t. unfold jenabled, jstep. destruct (nth_error (jthreads premises_final) t) as [th|] eqn:Hth; [|reflexivity].
  unfold jstep_thread. rewrite (Hdone t th Hth). reflexivity.
Qed.
