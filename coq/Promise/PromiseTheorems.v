(* The C11 statements about the model of answer.go after the two fixes (variant [fixed]), for
   every operation list and every schedule, derived from the invariant Inv. *)
From CV Require Import Promise.Promise Promise.PromiseProofs Promise.PromiseStepProofs Promise.MuProofs.
Open Scope Z_scope.

Lemma reach_inv : forall ops c, reach fixed ops c -> Inv c.
Proof.
  intros ops c H. induction H as [|c t c' Hr IH Hs]; [apply init_inv|exact (step_inv c t c' IH Hs)].
Qed.

(* ---- the promise resolves at most once; a second Fulfill / Reject panics *)
Lemma resolve_once : forall ops c, reach fixed ops c ->
  (cnt is_resolved (events c) <= 1)%nat /\ (cnt is_begin (events c) <= 1)%nat /\
  (cnt is_resolved (events c) = 1%nat <-> sig_open c = false) /\
  forall t th, nth_error (threads c) t = Some th -> is_res_op (t_op th) = true -> t_pc th = PDone ->
    (t_out th = OPanic /\ caller c = false) \/
    (t_out th = ORet /\ In (EBegin t) (events c) /\ In (EResolved t) (events c) /\
     result c = Some (op_res (t_op th))).
Proof.
  intros ops c H. pose proof (reach_inv ops c H) as HI.
  rewrite (I_resolved c HI), (I_begin c HI).
  repeat split.
  - destruct (sig_open c); simpl; lia.
  - destruct (caller c); simpl; lia.
  - destruct (sig_open c); simpl; congruence.
  - destruct (sig_open c); simpl; congruence.
  - intros t th Hth Hop Hpc. pose proof (I_threads c HI t th Hth) as T. unfold tinv in T. rewrite Hpc in T.
    destruct (t_op th); try discriminate; exact T.
Qed.

(* ---- every pipelined call is delivered exactly once, to the PipelineCaller only before any
   Fulfill/Reject has passed its check, otherwise (after the resolution) to what the result
   holds at its path *)
Lemma pipelined_exactly_once : forall ops c, reach fixed ops c ->
  wf_log (events c) /\
  (sig_open c = true -> forall t d, In (EDeliver t d) (events c) -> d = DCaller) /\
  forall t th, nth_error (threads c) t = Some th ->
    match t_op th with
    | OSend p _ =>
      (cnt (is_deliver t) (events c) <= 1)%nat /\
      (t_pc th = PDone -> cnt (is_deliver t) (events c) = 1%nat /\ t_out th = ORet) /\
      (forall d, In (EDeliver t d) (events c) -> d = DCaller \/ d = res_dest (cur_res c) p)
    | OCall _ _ =>
      (cnt (is_deliver t) (events c) <= 1)%nat /\
      (t_pc th = PDone -> (t_out th = ONoSlot /\ cnt (is_deliver t) (events c) = 0%nat) \/
                          (t_out th = ORet /\ cnt (is_deliver t) (events c) = 1%nat))
    | _ => True
    end.
Proof.
  intros ops c H. pose proof (reach_inv ops c H) as HI.
  split; [apply HI|]. split; [apply HI|].
  intros t th Hth. pose proof (I_threads c HI t th Hth) as T. unfold tinv in T.
  destruct (t_op th); auto.
  - destruct T as [H1 [H2 [H3 H4]]]. rewrite H1. split; [|split; [|exact H2]].
    + destruct (delivered_pc (t_pc th)); simpl; lia.
    + intros Hpc. rewrite Hpc in H4. rewrite Hpc. simpl. auto.
  - split.
    + destruct (t_pc th); try tauto; try lia.
    + intros Hpc. rewrite Hpc in T. exact T.
Qed.

(* ---- asking for the same pipelined client again returns the same proxy and leaves mu free *)
Lemma nodup_map_nth : forall (l : list proxy) x y a b,
  NoDup (map px_path l) -> nth_error l x = Some a -> nth_error l y = Some b -> px_path a = px_path b -> x = y.
Proof.
  intros l x y a b Hn Hx Hy Hp.
  apply (proj1 (NoDup_nth_error (map px_path l)) Hn).
  - rewrite map_length. apply nth_error_Some. congruence.
  - rewrite (map_nth_error px_path x l Hx), (map_nth_error px_path y l Hy). congruence.
Qed.

Lemma client_idempotent : forall ops c, reach fixed ops c ->
  mu c = None /\
  forall t1 t2 th1 th2 p s1 s2 x1 x2,
    nth_error (threads c) t1 = Some th1 -> nth_error (threads c) t2 = Some th2 ->
    t_op th1 = OClient p s1 -> t_op th2 = OClient p s2 ->
    t_pc th1 = PDone -> t_pc th2 = PDone ->
    t_out th1 = OHandle (HProxy x1) -> t_out th2 = OHandle (HProxy x2) -> x1 = x2.
Proof.
  intros ops c H. pose proof (reach_inv ops c H) as HI. split; [apply HI|].
  intros t1 t2 th1 th2 p s1 s2 x1 x2 H1 H2 O1 O2 P1 P2 R1 R2.
  pose proof (I_threads c HI t1 th1 H1) as T1. pose proof (I_threads c HI t2 th2 H2) as T2.
  unfold tinv in T1, T2. rewrite O1, P1 in T1. rewrite O2, P2 in T2.
  destruct T1 as [h1 [E1 T1]]. destruct T2 as [h2 [E2 T2]].
  rewrite R1 in E1. rewrite R2 in E2. inversion E1; inversion E2; subst h1 h2.
  destruct T1 as [px1 [A1 B1]]. destruct T2 as [px2 [A2 B2]].
  apply (nodup_map_nth (proxies c) x1 x2 px1 px2 (T_paths (I_tab c HI)) A1 A2). congruence.
Qed.

(* ---- once the promise is resolved nobody who waits for it stays blocked: every unfinished
   Struct/Done waiter (and ReleaseClients caller) has an enabled step.  (That it then finishes
   in two steps is by the shape of the program; that resolution eventually comes is no_stuck in
   PromiseLive.v.) *)
Lemma waiters_enabled : forall ops c, reach fixed ops c -> done_open c = false ->
  forall t th, nth_error (threads c) t = Some th -> t_op th = OWait -> t_pc th <> PDone ->
               enabled fixed c t = true.
Proof.
  intros ops c H Hso t th Hth Hop Hpc. pose proof (reach_inv ops c H) as HI.
  pose proof (I_threads c HI t th Hth) as T. unfold tinv in T. rewrite Hop in T.
  unfold enabled, step. rewrite Hth. unfold step_thread.
  destruct (t_pc th) eqn:E; try contradiction; try congruence.
  - rewrite Hop, Hso. reflexivity.
  - unfold sec_after_res, mu_free. rewrite (I_mu c HI), Hop. reflexivity.
Qed.

(* ---- refuted on the model of answer.go before the second fix (F11 fixed only): the resolve
   deadlock.  Two proxy clients, a call through each is inside the PipelineCaller, Fulfill is
   requested, a new call through each proxy arrives while the resolution is pending, then the
   PipelineCaller returns both calls: Fulfill (thread 4) and the new call through the proxy that
   resolve had not reached yet (thread 6) wait for each other forever; the Struct waiter is never
   released. *)
Definition deadlock_history : list op :=
  [OClient [0] 0; OClient [1] 1; OCall 0 true; OCall 1 true; OFulfill [([0], 1); ([1], 2)] [];
   OCall 0 false; OCall 1 false; OUngate 2; OUngate 3; OWait].

Definition all_tids (c : config) : list nat := seq 0 (length (threads c)).

Example no_stuck_refuted :
  match quiesce f11_fixed 1000 (init deadlock_history) 10 with
  | Some c => forallb (fun t => negb (enabled f11_fixed c t)) (all_tids c) = true /\
              finished c 4 = false /\ finished c 6 = false /\ finished c 9 = false /\ mu c = None
  | None => False
  end.
Proof. vm_compute. repeat split; reflexivity. Qed.

(* the same history on the model of the fixed code runs to completion *)
Example deadlock_history_fixed :
  match quiesce fixed 1000 (init deadlock_history) 10 with
  | Some c => forallb (finished c) (all_tids c) = true
  | None => False
  end.
Proof. vm_compute. reflexivity. Qed.
