(* Liveness side of C11 for the model of answer.go after the fixes: counting invariants
   (ongoingCalls = threads inside the PipelineCaller, hook.calls = threads inside a call through
   that proxy, ...) in every configuration reachable under any schedule, then deadlock freedom. *)
From CV Require Import Promise.Promise Promise.PromiseProofs Promise.PromiseStepProofs Promise.PromiseTheorems.
Open Scope Z_scope.

Definition b2z (b : bool) : Z := if b then 1 else 0.

Fixpoint countT (f : thread -> bool) (l : list thread) : Z :=
  match l with [] => 0 | a :: r => b2z (f a) + countT f r end.

Lemma countT_nonneg : forall f l, 0 <= countT f l.
Proof. induction l; cbn [countT]; [lia|]. destruct (f a); unfold b2z; lia. Qed.

Lemma countT_upd : forall f l t th th',
  nth_error l t = Some th -> countT f (upd t th' l) = countT f l - b2z (f th) + b2z (f th').
Proof.
  induction l as [|a l IH]; intros t th th' H; destruct t; cbn [countT upd nth_error] in *; try discriminate.
  - inversion H; subst. lia.
  - rewrite (IH t th th' H). lia.
Qed.

Lemma countT_pos : forall f l, 0 < countT f l -> exists t th, nth_error l t = Some th /\ f th = true.
Proof.
  induction l as [|a l IH]; cbn [countT]; intros H; [lia|].
  destruct (f a) eqn:E.
  - exists 0%nat, a. auto.
  - unfold b2z in H. destruct (IH ltac:(lia)) as [t [th [H1 H2]]]. exists (S t), th. auto.
Qed.

Lemma countT_mem : forall f l t th, nth_error l t = Some th -> f th = true -> 0 < countT f l.
Proof.
  induction l as [|a l IH]; intros t th H Hf; destruct t; cbn [countT nth_error] in *; try discriminate.
  - inversion H; subst. rewrite Hf. pose proof (countT_nonneg f l). unfold b2z. lia.
  - pose proof (IH t th H Hf). destruct (f a); unfold b2z; lia.
Qed.

Lemma countT_map_init : forall f ops, (forall o, f (mk_thread o) = false) -> countT f (map mk_thread ops) = 0.
Proof. induction ops; cbn [countT map]; intros H; auto. rewrite H, IHops; auto. Qed.

(* inside caller.PipelineSend / PipelineRecv: counted in ongoingCalls *)
Definition in_caller (th : thread) : bool :=
  match t_pc th with PInCaller | PCallRelock => true | _ => false end.

(* inside a call that came through proxy x: counted in that hook's calls *)
Definition call_pc (p : pc) : bool :=
  match p with PCallLock | PInCaller | PCallRelock | PWaitRes | PAfterRes | PCallFinish => true | _ => false end.

Definition in_px_call (x : nat) (th : thread) : bool :=
  match t_op th with
  | OCall _ _ => match t_via th with Some y => Nat.eqb x y && call_pc (t_pc th) | None => false end
  | _ => false
  end.

Ltac explode Hs :=
  repeat (match type of Hs with
          | (if ?b then _ else _) = Some _ => destruct b eqn:?
          | match ?x with _ => _ end = Some _ => destruct x eqn:?
          end); try discriminate Hs.

Ltac norm_negb :=
  repeat match goal with
         | H : negb _ = true |- _ => apply negb_true_iff in H
         | H : negb _ = false |- _ => apply negb_false_iff in H
         end.

(* One goal per way a step of the fixed model can go: the tests it passed are in the context
   (equations named Heq..), c' is replaced by the configuration the section returns. *)
Ltac step_cases HI Hs Hth :=
  unfold step in Hs;
  match type of Hs with match nth_error ?l ?t with _ => _ end = _ =>
    destruct (nth_error l t) as [th|] eqn:Hth; [|discriminate Hs] end;
  let Hmu := fresh "Hmu" in
  pose proof (I_mu _ HI) as Hmu;
  unfold step_thread, sec_resolve_start, sec_fulfil_proxy, sec_commit, sec_close, sec_call_lock, sec_call_relock,
    sec_call_finish, sec_after_res, sec_client, sec_call_start, sec_release_proxy, mu_free, call_done,
    commit, close_done, commit_k in Hs;
  rewrite Hmu in Hs; cbn [negb v_late_fulfil v_unlock_on_hit v_known_first fixed] in Hs;
  explode Hs; injection Hs as <-; norm_negb;
  repeat match goal with |- context [match t_via ?th with _ => _ end] => destruct (t_via th) eqn:? end.

(* the fields of the configuration after the step, and of the thread that took it *)
Ltac fields :=
  cbn [mu caller sig_open ongoing stopped clients crefs relflag result proxies threads slots gates events
       done_open res_alive set_thread set_px log set_slot set_mu set_core set_table set_done add_gate
       t_op t_pc t_path t_via t_out goto finish enter_call].

(* what the context knows of the stepping thread and of the flags, put into the goal *)
Ltac known :=
  repeat match goal with
         | H : t_pc _ = _ |- _ => rewrite H
         | H : t_op _ = _ |- _ => rewrite H
         | H : t_via _ = _ |- _ => rewrite H
         | H : _ = true |- _ => rewrite H
         | H : _ = false |- _ => rewrite H
         end.

Ltac boolp :=
  repeat match goal with
         | H : (_ <? _) = true |- _ => apply Z.ltb_lt in H
         | H : (_ <? _) = false |- _ => apply Z.ltb_ge in H
         | H : (_ =? _) = true |- _ => apply Z.eqb_eq in H
         | H : (_ =? _) = false |- _ => apply Z.eqb_neq in H
         end.

(* a clause that counts threads: the step takes one thread from th to th' *)
Ltac count_step Hth := fields; rewrite (countT_upd _ _ _ _ _ Hth); fields.

(* ---- N1: ongoingCalls counts the threads inside the PipelineCaller *)
Definition N1 (c : config) : Prop := ongoing c = countT in_caller (threads c).

Lemma N1_step : forall c t c', Inv c -> N1 c -> step fixed c t = Some c' -> N1 c'.
Proof.
  intros c t c' HI HN Hs. unfold N1 in *.
  step_cases HI Hs Hth; count_step Hth; rewrite <- HN; unfold in_caller; fields; known; cbn; lia.
Qed.

(* ---- N2: callsStopped is open only while calls are still inside the PipelineCaller *)
Definition N2 (c : config) : Prop := stopped c = COpen -> 0 < ongoing c /\ caller c = false.

Lemma N2_step : forall c t c', Inv c -> N2 c -> step fixed c t = Some c' -> N2 c'.
Proof.
  intros c t c' HI HN Hs. unfold N2 in *.
  step_cases HI Hs Hth; fields; intros;
    repeat match goal with
           | H : context [match stopped ?c0 with _ => _ end] |- _ => destruct (stopped c0) eqn:?
           | H : context [if ?b then _ else _] |- _ => destruct b eqn:?
           end; boolp; try discriminate;
    try (destruct HN as [H1 H2]; [congruence|]); try (split; [lia|congruence]); try congruence; auto.
Qed.

(* ---- N3: exactly one thread is between "caller := nil" and the commit while the promise is pending *)
Definition N3 (c : config) : Prop :=
  countT in_precommit (threads c) = b2z (negb (caller c) && sig_open c).

Lemma N3_step : forall c t c', Inv c -> N3 c -> step fixed c t = Some c' -> N3 c'.
Proof.
  intros c t c' HI HN Hs. unfold N3 in *.
  pose proof (I_caller_sig c HI) as Hcs.
  step_cases HI Hs Hth; count_step Hth; rewrite HN.
  all: pose proof (precommit_facts c t th (I_threads c HI t th Hth)) as HP; unfold in_precommit in *.
  all: rewrite Heqp in *; cbn [precommit_pc] in *.
  all: try (destruct (HP eq_refl) as (_ & Hc & Hso & _)); try (pose proof (Hcs ltac:(assumption)) as Hso).
  all: known; cbn; lia.
Qed.

(* ---- NL: the owner releases the result only after the resolution is signalled *)
Definition NL (c : config) : Prop := done_open c = true -> res_alive c = true.

Lemma NL_step : forall c t c', Inv c -> NL c -> step fixed c t = Some c' -> NL c'.
Proof.
  intros c t c' HI HN Hs. unfold NL in *.
  step_cases HI Hs Hth; fields; intros; try discriminate; try congruence; auto.
Qed.

(* ---- N6: exactly one thread is between "result known" and closing the signals *)
Definition N6 (c : config) : Prop :=
  countT in_postk (threads c) = b2z (negb (sig_open c) && done_open c).

Lemma N6_step : forall c t c', Inv c -> NL c -> N6 c -> step fixed c t = Some c' -> N6 c'.
Proof.
  intros c t c' HI HL HN Hs. unfold N6, NL in *.
  pose proof (I_caller_sig c HI) as Hcs. pose proof (sig_done_open c HI) as Hdn.
  step_cases HI Hs Hth; count_step Hth; rewrite HN.
  all: pose proof (postk_facts c t th (I_threads c HI t th Hth)) as HP;
       pose proof (precommit_facts c t th (I_threads c HI t th Hth)) as HQ; unfold in_postk, in_precommit in *.
  all: rewrite Heqp in *; cbn [postk_pc precommit_pc] in *.
  all: try (destruct (HP eq_refl) as (_ & _ & _ & _ & Hso & Hdo); pose proof (HL Hdo));
       try (destruct (HQ eq_refl) as (_ & _ & Hso & _));
       try (pose proof (Hcs ltac:(assumption)) as Hso); try (pose proof (Hdn ltac:(assumption)) as Hdo).
  all: known; cbn; try lia; congruence.
Qed.

(* ---- NS: proxy handles in the slots refer to existing proxies *)
Definition NS (c : config) : Prop :=
  forall s x, In (s, HProxy x) (slots c) -> (x < length (proxies c))%nat.

Lemma NS_step : forall c t c', Inv c -> NS c -> step fixed c t = Some c' -> NS c'.
Proof.
  intros c t c' HI HN Hs. unfold NS in *.
  pose proof (T_table (I_tab c HI)) as Htab.
  step_cases HI Hs Hth; fields; intros s0 x0 Hin; rewrite ?length_upd, ?app_length; simpl;
    try (destruct Hin as [He|Hin]; [inversion He; subst|]); try discriminate;
    try (specialize (HN _ _ Hin); lia); try lia.
  (* Future.Client found the proxy in the table *)
  destruct (Htab eq_refl) as [H1 H2].
  match goal with H : find_client _ _ = Some _ |- _ =>
    destruct (table_lookup _ _ 0%nat _ _ H1 H2 (find_client_some _ _ _ H)) as [px [Ha _]] end.
  rewrite Nat.sub_0_r in Ha. apply nth_error_Some. congruence.
Qed.

Lemma lookup_slot_in' : forall sl s h, lookup_slot sl s = Some h -> In (s, h) sl \/ exists s', In (s', h) sl.
Proof. intros. right. eapply lookup_slot_in; eauto. Qed.

(* ---- N4: hook.calls of a proxy counts the threads inside a call through it *)
Definition N4 (c : config) : Prop :=
  forall x, px_calls (get_px c x) = countT (in_px_call x) (threads c).

Lemma via_none_b2z : forall (o : option nat) (f : nat -> bool),
  b2z (match o with Some y => f y && false | None => false end) = 0.
Proof. intros. destruct o; rewrite ?andb_false_r; reflexivity. Qed.

Lemma nth_upd : forall A (l : list A) x a y d,
  nth y (upd x a l) d = if Nat.eqb y x && Nat.ltb x (length l) then a else nth y l d.
Proof.
  intros A l x a y d. destruct (Nat.eqb_spec y x) as [->|N]; [|apply nth_upd_other; auto].
  destruct (Nat.ltb_spec x (length l)); [apply nth_upd_same; auto|].
  rewrite !nth_overflow; rewrite ?length_upd; auto.
Qed.

Lemma px_calls_app_new : forall (l : list proxy) p y, px_calls p = 0 ->
  px_calls (nth y (l ++ [p]) dflt_proxy) = px_calls (nth y l dflt_proxy).
Proof.
  intros l p y Hp. destruct (Nat.lt_ge_cases y (length l)); [rewrite app_nth1; auto|].
  rewrite app_nth2, (nth_overflow l) by auto. destruct (y - length l)%nat as [|[|k]]; auto.
Qed.

Lemma N4_step : forall c t c', Inv c -> NS c -> N4 c -> step fixed c t = Some c' -> N4 c'.
Proof.
  intros c t c' HI HS HN Hs x0. specialize (HN x0).
  step_cases HI Hs Hth; count_step Hth; rewrite <- HN; unfold in_px_call, get_px; fields.
  all: rewrite ?nth_upd; known; cbn [call_pc]; rewrite ?via_none_b2z, ?andb_true_r; cbn [b2z]; try lia.
  all: repeat match goal with |- context [Nat.eqb ?a ?b] => destruct (Nat.eqb_spec a b) as [->|?] end;
       repeat match goal with |- context [Nat.ltb ?a ?b] => destruct (Nat.ltb_spec a b) end;
       cbn [andb px_calls b2z]; try lia.
  - (* Future.Client makes a proxy: no calls yet *)
    rewrite px_calls_app_new by reflexivity. lia.
  - (* startCall on a handle from a slot: the proxy exists *)
    exfalso. match goal with H : lookup_slot _ _ = _ |- _ => destruct (lookup_slot_in _ _ _ H) as [s' Hi] end.
    specialize (HS _ _ Hi). lia.
  - (* finish(): only calls get here *)
    pose proof (I_threads c HI t th Hth) as T. unfold tinv in T. rewrite Heqp in T.
    destruct (t_op th); try (exfalso; tauto). cbn [b2z]. lia.
  - (* ... through a proxy that does not exist: impossible, the thread is counted *)
    exfalso. pose proof (I_threads c HI t th Hth) as T. unfold tinv in T. rewrite Heqp in T.
    destruct (t_op th) eqn:Hop; try tauto.
    assert (Hf : in_px_call n th = true) by (unfold in_px_call; rewrite Hop, Heqo, Heqp, Nat.eqb_refl; reflexivity).
    pose proof (countT_mem _ _ _ _ Hth Hf) as Hpos. rewrite <- HN in Hpos. unfold get_px in Hpos.
    rewrite nth_overflow in Hpos by assumption. discriminate Hpos.
Qed.

(* ---- N5: hook.refs is 0 or 1, and done is closed as soon as refs = 0 and calls = 0 *)
Definition N5 (c : config) : Prop :=
  forall x px, nth_error (proxies c) x = Some px ->
    0 <= px_refs px /\ (px_target px = None -> px_rel px = false -> px_refs px = 1) /\
    (px_refs px <= 0 -> px_calls px = 0 -> px_done px = true).

(* which proxy of the new configuration Hx0 speaks of: the one just written, the one just made, an old one *)
Ltac px_cases Hx0 :=
  simpl in Hx0;
  match type of Hx0 with
  | nth_error (upd ?x ?p ?l) ?x0 = Some ?px0 =>
    let b0 := fresh "b0" in let Hb0 := fresh "Hb0" in let Hne := fresh "Hne" in
    destruct (nth_error_upd_cases _ _ _ _ _ _ Hx0) as [[-> [-> [b0 Hb0]]]|[Hne Hx0']];
    [rewrite ?(get_px_nth _ _ _ Hb0) in *|]
  | nth_error (?l ++ [?a]) ?x0 = Some ?px0 =>
    let Hx0' := fresh "Hx0'" in
    destruct (nth_error_app_new _ _ _ _ _ Hx0) as [Hx0'|[-> ->]]
  | _ => idtac
  end.

Lemma N5_step : forall c t c', Inv c -> N4 c -> N5 c -> step fixed c t = Some c' -> N5 c'.
Proof.
  intros c t c' HI H4 HN Hs. unfold N5 in *.
  step_cases HI Hs Hth.
  all: intros x0 px0 Hx0; px_cases Hx0.
  all: try (exact (HN _ _ Hx0)); try (exact (HN _ _ Hx0')).
  all: try (simpl; repeat split; intros; try lia; try discriminate; fail).
  all: pose proof (HN _ _ Hb0) as [Ha [Hb Hc]];
       match type of Hb0 with nth_error _ ?x = _ =>
         pose proof (H4 x) as Hcnt; rewrite (get_px_nth _ _ _ Hb0) in Hcnt;
         pose proof (countT_nonneg (in_px_call x) (threads c)) as Hnn end.
  all: simpl; boolp; repeat split; intros; try lia; try discriminate; try congruence;
       repeat match goal with
              | |- context [if ?b then _ else _] => destruct b eqn:?
              | H : context [if ?b then _ else _] |- _ => destruct b eqn:?
              end; boolp;
       try reflexivity; try lia; try (apply Hc; lia); try (rewrite Hb in *; auto; lia); try congruence.
Qed.

(* ---- NA: while the resolution is pending (a Fulfill/Reject may wait for callsStopped) the channel exists *)
Definition NA (c : config) : Prop := caller c = false -> sig_open c = true -> stopped c <> CNil.

Lemma NA_step : forall c t c', Inv c -> NA c -> step fixed c t = Some c' -> NA c'.
Proof.
  intros c t c' HI HN Hs. unfold NA in *.
  step_cases HI Hs Hth; fields; intros Hc Hso; try discriminate; try congruence; auto.
  (* the PipelineCaller returned a call: callsStopped is closed, or stays as it is *)
  all: specialize (HN Hc Hso); destruct (stopped c); [contradiction|destruct (_ =? _); discriminate|discriminate].
Qed.

(* ---- TV: the table only refers to existing proxies *)
Definition TV (c : config) : Prop := forall p x, In (p, x) (clients c) -> (x < length (proxies c))%nat.

Lemma TV_step : forall c t c', Inv c -> TV c -> step fixed c t = Some c' -> TV c'.
Proof.
  intros c t c' HI HN Hs. unfold TV in *.
  step_cases HI Hs Hth; fields; intros p0 x0 Hin; rewrite ?length_upd, ?app_length; simpl;
    try (exact (HN _ _ Hin)); try contradiction.
  apply in_app_or in Hin. destruct Hin as [Hin|[He|[]]]; [specialize (HN _ _ Hin); lia|inversion He; lia].
Qed.

(* ---- thread-indexed clauses *)

(* a clause P about every thread, stable under steps for the threads that do not move *)
Lemma thread_clause_step : forall (P : config -> thread -> Prop) c c' t th,
  nth_error (threads c) t = Some th ->
  (forall th0, P c th0 -> P c' th0) ->
  (exists th', threads c' = upd t th' (threads c) /\ (P c th -> P c' th')) ->
  (forall t0 th0, nth_error (threads c) t0 = Some th0 -> P c th0) ->
  forall t0 th0, nth_error (threads c') t0 = Some th0 -> P c' th0.
Proof.
  intros P c c' t th Hth Hm (th' & Hup & Hown) HN t0 th0 H0. rewrite Hup in H0.
  destruct (nth_error_upd_cases _ _ _ _ _ _ H0) as [(-> & -> & _)|[_ H0']]; eauto.
Qed.

(* NT: indices carried in the program counters are valid; a thread waiting for a hook's done has
   dropped that hook's last reference; a call waiting for the resolution saw caller = nil *)
Definition valid_ix (c : config) (l : list nat) : Prop := forall y, In y l -> (y < length (proxies c))%nat.
Definition refs0 (c : config) (x : nat) : Prop :=
  exists px, nth_error (proxies c) x = Some px /\ px_refs px <= 0.

Definition tinv2 (c : config) (th : thread) : Prop :=
  (t_pc th = PWaitRes -> caller c = false) /\
  match t_pc th with
  | PFul rest | PRel rest => valid_ix c rest
  | PFulWait x rest | PRelWait x rest => valid_ix c rest /\ refs0 c x
  | _ => True
  end.

Definition NT (c : config) : Prop := forall t th, nth_error (threads c) t = Some th -> tinv2 c th.

Definition mono (c c' : config) : Prop :=
  (caller c = false -> caller c' = false) /\
  (forall y px, nth_error (proxies c) y = Some px ->
                exists px', nth_error (proxies c') y = Some px' /\ px_refs px' <= px_refs px).

Lemma valid_ix_mono : forall c c' l, mono c c' -> valid_ix c l -> valid_ix c' l.
Proof.
  intros c c' l [_ Hm] Hv y Hy. specialize (Hv y Hy).
  destruct (nth_error (proxies c) y) as [px|] eqn:E; [|apply nth_error_None in E; lia].
  destruct (Hm y px E) as [px' [H1 _]]. apply nth_error_Some. congruence.
Qed.

Lemma refs0_mono : forall c c' x, mono c c' -> refs0 c x -> refs0 c' x.
Proof.
  intros c c' x [_ Hm] [px [H1 H2]]. destruct (Hm x px H1) as [px' [H3 H4]]. exists px'. split; [auto|lia].
Qed.

Lemma tinv2_mono : forall c c', mono c c' -> forall th, tinv2 c th -> tinv2 c' th.
Proof.
  intros c c' Hm th [H1 H2]. split; [intros Hp; apply (proj1 Hm); auto|].
  destruct (t_pc th); auto; try (eapply valid_ix_mono; eauto).
  - destruct H2; split; [eapply valid_ix_mono|eapply refs0_mono]; eauto.
  - destruct H2; split; [eapply valid_ix_mono|eapply refs0_mono]; eauto.
Qed.

Lemma mono_px_upd : forall (l : list proxy) x p' y px,
  nth_error l y = Some px -> (forall b0, nth_error l x = Some b0 -> px_refs p' <= px_refs b0) ->
  exists px', nth_error (upd x p' l) y = Some px' /\ px_refs px' <= px_refs px.
Proof.
  intros l x p' y px Hy Hr. destruct (Nat.eq_dec x y) as [->|Hne].
  - exists p'. split; [eapply nth_error_upd_same; eauto|auto].
  - exists px. split; [rewrite nth_error_upd_other; auto|lia].
Qed.

Lemma pick_ord_in : forall ord cl y, In y (pick_ord ord cl) -> In y (map snd cl).
Proof.
  induction ord as [|q ord IH]; simpl; intros cl y H; [contradiction|].
  destruct (find_client cl q) as [x|] eqn:E; [|eauto].
  destruct (mem_nat x (pick_ord ord cl)); [eauto|].
  destruct H as [<-|H]; [|eauto].
  apply find_client_some in E. apply in_map_iff. exists (q, x). auto.
Qed.

Lemma iter_order_in : forall ord cl y, In y (iter_order ord cl) -> In y (map snd cl).
Proof.
  intros ord cl y H. unfold iter_order in H. apply in_app_or in H. destruct H as [H|H].
  - eapply pick_ord_in; eauto.
  - apply filter_In in H. tauto.
Qed.

Lemma table_valid : forall c l, TV c -> (forall y, In y l -> In y (map snd (clients c))) -> valid_ix c l.
Proof.
  intros c l HV H y Hy. apply H in Hy. apply in_map_iff in Hy. destruct Hy as [[p x] [<- Hin]]. exact (HV _ _ Hin).
Qed.

Lemma mono_step : forall c t c', Inv c -> N5 c -> step fixed c t = Some c' -> mono c c'.
Proof.
  intros c t c' HI H5 Hs.
  step_cases HI Hs Hth; (split; [fields; intros; try congruence; auto|]).
  all: intros y px Hy; fields.
  all: try (exists px; split; [exact Hy|lia]).
  all: try (exists px; split; [rewrite nth_error_app1; [exact Hy|apply nth_error_Some; congruence]|lia]).
  all: apply mono_px_upd; [exact Hy|]; intros b0 Hb0; rewrite (get_px_nth _ _ _ Hb0) in *; simpl;
       pose proof (H5 _ _ Hb0) as [Ha _]; boolp; lia.
Qed.

Lemma valid_cons : forall c x l, valid_ix c (x :: l) -> (x < length (proxies c))%nat /\ valid_ix c l.
Proof. intros c x l H. split; [apply H; left; reflexivity|intros y Hy; apply H; right; exact Hy]. Qed.

Lemma NT_step : forall c t c', Inv c -> N5 c -> TV c -> NT c -> step fixed c t = Some c' -> NT c'.
Proof.
  intros c t c' HI H5 HV HN Hs. unfold NT in *.
  pose proof (tinv2_mono c c' (mono_step c t c' HI H5 Hs)) as Hm.
  step_cases HI Hs Hth.
  all: apply (thread_clause_step tinv2 _ _ t th Hth Hm); [|exact HN]; eexists; split; [fields; reflexivity|].
  all: unfold tinv2; fields; known; intros [HB HC].
  all: split; [intros; try discriminate; try congruence; auto|].
  all: try exact I.
  all: try (apply valid_cons in HC; destruct HC as [HC1 HC2]).
  all: try (destruct HC as [HC1 HC2]).
  (* entering the fulfil / release loop: the indices come from the table *)
  all: try (apply table_valid; [exact HV|]; intros y Hy; simpl;
            first [ rewrite <- Heql in Hy; eapply iter_order_in; exact Hy | exact Hy ]).
  (* inside the loops *)
  all: try (intros y Hy; simpl; rewrite ?length_upd; first [apply HC2; exact Hy | apply HC; exact Hy | apply HC1; exact Hy]).
  all: try (split; [intros y Hy; simpl; rewrite ?length_upd; apply HC2; exact Hy|]).
  all: try (intros y Hy; simpl; apply (table_valid c _ HV (fun y H => H)); exact Hy).
  all: match goal with |- refs0 _ ?x =>
         destruct (nth_error (proxies c) x) as [b0|] eqn:Hb0; [|apply nth_error_None in Hb0; lia];
         eexists; split; [simpl; eapply nth_error_upd_same; exact Hb0|];
         rewrite ?(get_px_nth _ _ _ Hb0) in *; simpl; boolp; lia end.
Qed.

Record Inv2 (c : config) : Prop := {
  J1 : N1 c; J2 : N2 c; J3 : N3 c; JL : NL c; J6 : N6 c; JS : NS c; J4 : N4 c; J5 : N5 c; JA : NA c; JV : TV c; JT : NT c
}.

Lemma init_inv2 : forall ops, Inv2 (init ops).
Proof.
  intros ops. constructor.
  - unfold N1. simpl. rewrite countT_map_init; auto.
  - unfold N2. simpl. discriminate.
  - unfold N3. simpl. rewrite countT_map_init; auto.
  - unfold NL. simpl. auto.
  - unfold N6. simpl. rewrite countT_map_init; auto.
  - intros s x [].
  - intros x. unfold get_px. simpl. rewrite countT_map_init; [destruct x; reflexivity|].
    intros o. unfold in_px_call. destruct o; reflexivity.
  - intros x px H. destruct x; discriminate.
  - discriminate.
  - intros p x [].
  - intros t th H. destruct (init_thread ops t th H) as (o & _ & ->). split; [discriminate|exact I].
Qed.

Lemma step_inv2 : forall c t c', Inv c -> Inv2 c -> step fixed c t = Some c' -> Inv2 c'.
Proof.
  intros c t c' HI [H1 H2 H3 HL H6 HS H4 H5 HA HV HT] Hs. constructor.
  - eapply N1_step; eauto.
  - eapply N2_step; eauto.
  - eapply N3_step; eauto.
  - eapply NL_step; eauto.
  - eapply N6_step; eauto.
  - eapply NS_step; eauto.
  - eapply N4_step; eauto.
  - eapply N5_step; eauto.
  - eapply NA_step; eauto.
  - eapply TV_step; eauto.
  - eapply NT_step; eauto.
Qed.

Lemma reach_inv2 : forall ops c, reach fixed ops c -> Inv c /\ Inv2 c.
Proof.
  intros ops c H. induction H as [|c t c' Hr [IH1 IH2] Hs].
  - split; [apply init_inv|apply init_inv2].
  - split; [exact (step_inv c t c' IH1 Hs)|exact (step_inv2 c t c' IH1 IH2 Hs)].
Qed.

Ltac explode_none Hs :=
  repeat (match type of Hs with
          | (if ?b then _ else _) = None => destruct b eqn:?
          | match ?x with _ => _ end = None => destruct x eqn:?
          end); try discriminate Hs.

(* what a thread that has no step is waiting for, by its program counter; at the other program counters
   (a section that only needs mu) a thread always has a step *)
Definition blocked_at (c : config) (t : nat) (th : thread) : Prop :=
  match t_pc th with
  | PDone => True
  | PStart => (t_op th = OWait \/ t_op th = ORelease \/ t_op th = OConsume) /\ done_open c = true
  | PInCaller => op_gated (t_op th) = true /\ mem_nat t (gates c) = false
  | PWaitRes => match t_op th with OClient _ _ => done_open c = true | _ => sig_open c = true end
  | PStopWait => stopped c <> CClosed
  | PFulWait x _ | PRelWait x _ => px_done (get_px c x) = false /\ sig_open c = false
  | _ => False
  end.

Lemma disabled_cases : forall c t th,
  Inv c -> nth_error (threads c) t = Some th -> step_thread fixed c t th = None -> blocked_at c t th.
Proof.
  intros c t th HI Hth Hs.
  pose proof (I_mu _ HI) as Hmu. pose proof (I_threads c HI t th Hth) as HT. unfold tinv in HT.
  unfold step_thread, sec_resolve_start, sec_fulfil_proxy, sec_commit, sec_close, sec_call_lock, sec_call_relock,
    sec_call_finish, sec_after_res, sec_client, sec_call_start, sec_release_proxy, mu_free, call_done in Hs.
  rewrite Hmu in Hs. cbn [negb v_late_fulfil v_unlock_on_hit v_known_first fixed] in Hs.
  unfold blocked_at.
  explode_none Hs; try discriminate.
  (* PInCaller: the test [negb (op_gated ..) || mem_nat t (gates c)] failed *)
  all: try match goal with H : _ || _ = false |- _ =>
             apply orb_false_iff in H; destruct H as [Hg Hm]; apply negb_false_iff in Hg end.
  all: destruct (t_op th); tauto.
Qed.

Definition all_disabled (c : config) : Prop := forall t, enabled fixed c t = false.

Definition at_incaller (th : thread) : bool := match t_pc th with PInCaller => true | _ => false end.

Lemma disabled_thread : forall c t th, all_disabled c -> nth_error (threads c) t = Some th ->
  step_thread fixed c t th = None.
Proof.
  intros c t th H Hth. specialize (H t). unfold enabled, step in H. rewrite Hth in H.
  destruct (step_thread fixed c t th); [discriminate|reflexivity].
Qed.

(* If no thread can move, then either the application is holding a call inside the
   PipelineCaller (gated and not released), or every unfinished thread is a Done/Struct waiter,
   a ReleaseClients call or the result's owner waiting on a promise that nobody has asked to
   resolve (caller still set; in particular no Fulfill/Reject is unfinished). *)
Theorem no_stuck : forall ops c, reach fixed ops c -> all_disabled c ->
  (exists t th, nth_error (threads c) t = Some th /\ t_pc th = PInCaller /\
                op_gated (t_op th) = true /\ mem_nat t (gates c) = false) \/
  (forall t th, nth_error (threads c) t = Some th -> t_pc th <> PDone ->
     caller c = true /\ t_pc th = PStart /\ (t_op th = OWait \/ t_op th = ORelease \/ t_op th = OConsume)).
Proof.
  intros ops c Hr Hdis. destruct (reach_inv2 ops c Hr) as [HI H2].
  assert (DC : forall t th, nth_error (threads c) t = Some th -> blocked_at c t th)
    by (intros t th H; exact (disabled_cases c t th HI H (disabled_thread c t th Hdis H))).
  unfold blocked_at in DC.
  destruct (Z_lt_dec 0 (countT at_incaller (threads c))) as [Hpos|Hzero].
  { left. destruct (countT_pos _ _ Hpos) as [t [th [Hth Hf]]]. exists t, th.
    unfold at_incaller in Hf. destruct (t_pc th) eqn:Hpc; try discriminate.
    pose proof (DC t th Hth) as D. rewrite Hpc in D. tauto. }
  right.
  assert (NoIn : forall t th, nth_error (threads c) t = Some th -> t_pc th <> PInCaller).
  { intros t th Hth Hpc. apply Hzero. apply (countT_mem _ _ _ _ Hth). unfold at_incaller. rewrite Hpc. reflexivity. }
  (* A: nobody is inside the PipelineCaller *)
  assert (A : ongoing c = 0).
  { rewrite (J1 c H2). pose proof (countT_nonneg in_caller (threads c)) as Hnn.
    destruct (Z_lt_dec 0 (countT in_caller (threads c))) as [Hp|]; [|lia]. exfalso.
    destruct (countT_pos _ _ Hp) as [t [th [Hth Hf]]]. unfold in_caller in Hf.
    destruct (t_pc th) eqn:Hpc; try discriminate; [exact (NoIn t th Hth Hpc)|].
    pose proof (DC t th Hth) as D. rewrite Hpc in D. exact D. }
  (* B: no Fulfill/Reject waits for callsStopped *)
  assert (B : forall t th, nth_error (threads c) t = Some th -> t_pc th <> PStopWait).
  { intros t th Hth Hpc. pose proof (DC t th Hth) as D. rewrite Hpc in D.
    assert (P : in_precommit th = true) by (unfold in_precommit; rewrite Hpc; reflexivity).
    destruct (precommit_facts c t th (I_threads c HI t th Hth) P) as (_ & Hc & Hso & _).
    pose proof (JA c H2 Hc Hso) as Hn. destruct (stopped c) eqn:Es; try congruence.
    destruct (J2 c H2 Es) as [Ho _]. lia. }
  (* C: pending resolution is impossible *)
  assert (C : sig_open c = true -> caller c = true).
  { intros Hs. destruct (caller c) eqn:Ec; auto. exfalso.
    pose proof (J3 c H2) as H3. unfold N3 in H3. rewrite Ec, Hs in H3. simpl in H3.
    destruct (countT_pos in_precommit (threads c) ltac:(lia)) as [t [th [Hth Hf]]].
    unfold in_precommit in Hf. destruct (t_pc th) eqn:Hpc; try discriminate; [exact (B t th Hth Hpc)|].
    pose proof (DC t th Hth) as D. rewrite Hpc in D. exact D. }
  (* D: nobody waits for a hook's done *)
  assert (D : forall t th x rest, nth_error (threads c) t = Some th ->
                (t_pc th = PFulWait x rest \/ t_pc th = PRelWait x rest) -> False).
  { intros t th x rest Hth Hpc.
    assert (Hfacts : (px_done (get_px c x) = false /\ sig_open c = false) /\ refs0 c x).
    { pose proof (DC t th Hth) as E. pose proof (JT c H2 t th Hth) as [_ T].
      destruct Hpc as [Hpc|Hpc]; rewrite Hpc in E, T; tauto. }
    destruct Hfacts as [[Hdone Hsig] [px [Hpx Hrefs]]]. rewrite (get_px_nth c x px Hpx) in Hdone.
    destruct (J5 c H2 x px Hpx) as [_ [_ Hd]].
    pose proof (J4 c H2 x) as Hcalls. rewrite (get_px_nth c x px Hpx) in Hcalls.
    destruct (Z.eq_dec (px_calls px) 0) as [Hz|Hnz]; [rewrite (Hd Hrefs Hz) in Hdone; discriminate|].
    pose proof (countT_nonneg (in_px_call x) (threads c)) as Hnn.
    destruct (countT_pos (in_px_call x) (threads c) ltac:(lia)) as [t1 [th1 [Hth1 Hf]]].
    (* a call through the hook is still in progress, and cannot be blocked anywhere *)
    unfold in_px_call in Hf. destruct (t_op th1) eqn:Hop1; try discriminate.
    destruct (t_via th1); try discriminate. apply andb_true_iff in Hf. destruct Hf as [_ Hf].
    pose proof (DC t1 th1 Hth1) as E. rewrite Hop1 in E.
    destruct (t_pc th1) eqn:Hpc1; try discriminate Hf; try contradiction; [exact (NoIn t1 th1 Hth1 Hpc1)|congruence]. }
  (* E: the signals are closed as soon as the result is known *)
  assert (E : done_open c = true -> sig_open c = true).
  { intros Hd. destruct (sig_open c) eqn:Es; auto. exfalso.
    pose proof (J6 c H2) as H6. unfold N6 in H6. rewrite Es, Hd in H6. simpl in H6.
    destruct (countT_pos in_postk (threads c) ltac:(lia)) as [t [th [Hth Hf]]].
    unfold in_postk in Hf. pose proof (DC t th Hth) as F.
    destruct (t_pc th) eqn:Hpc; try discriminate; try contradiction.
    exact (D t th x rest Hth (or_introl Hpc)). }
  intros t th Hth Hnd. pose proof (DC t th Hth) as F.
  destruct (t_pc th) eqn:Hpc; try contradiction.
  - tauto.
  - destruct (NoIn t th Hth Hpc).
  - exfalso. pose proof (JT c H2 t th Hth) as [T _]. specialize (T Hpc).
    rewrite C in T; [discriminate|]. destruct (t_op th); auto.
  - destruct (D t th x rest Hth (or_introl Hpc)).
  - destruct (B t th Hth Hpc).
  - destruct (D t th x rest Hth (or_intror Hpc)).
Qed.

(* When the system has come to rest, no call is held inside the PipelineCaller by the application,
   and a Fulfill or Reject was among the operations, then every operation has finished: in
   particular every Done/Struct waiter, ReleaseClients call and pipelined call was released. *)
Theorem waiters_released : forall ops c, reach fixed ops c -> all_disabled c ->
  (forall t th, nth_error (threads c) t = Some th -> t_pc th = PInCaller ->
                op_gated (t_op th) = true -> mem_nat t (gates c) = true) ->
  (exists t th, nth_error (threads c) t = Some th /\ is_res_op (t_op th) = true) ->
  forall t th, nth_error (threads c) t = Some th -> t_pc th = PDone.
Proof.
  intros ops c Hr Hdis Hgate [t0 [th0 [Hth0 Hop0]]] t th Hth.
  destruct (reach_inv2 ops c Hr) as [HI H2].
  destruct (no_stuck ops c Hr Hdis) as [[t1 [th1 [H1 [P1 [G1 M1]]]]]|Hrest].
  { rewrite (Hgate t1 th1 H1 P1 G1) in M1. discriminate. }
  (* the resolver has finished, so caller is nil: nobody can be left *)
  assert (Hpc0 : t_pc th0 = PDone).
  { destruct (t_pc th0) eqn:Hpc0; auto; exfalso;
      assert (Hnd : t_pc th0 <> PDone) by congruence;
      destruct (Hrest t0 th0 Hth0 Hnd) as [_ [_ [E|[E|E]]]]; rewrite E in Hop0; discriminate. }
  assert (Hcf : caller c = false).
  { pose proof (I_threads c HI t0 th0 Hth0) as T. unfold tinv in T. rewrite Hpc0 in T.
    assert (T' : caller c = false \/ In (EBegin t0) (events c)) by (destruct (t_op th0); try discriminate; tauto).
    destruct T' as [|T']; auto. pose proof (cnt_in is_begin _ _ T' eq_refl) as Hb.
    rewrite (I_begin c HI) in Hb. destruct (caller c); auto. simpl in Hb. lia. }
  destruct (t_pc th) eqn:Hpc; auto;
    assert (Hnd : t_pc th <> PDone) by congruence;
    destruct (Hrest t th Hth Hnd) as [Hc _]; congruence.
Qed.

(* resolve reads the result (res.client(t) in the loop over the proxy clients) only while the
   resolution has not been signalled, hence before the owner of the result may release it *)
Theorem result_read_alive : forall ops c t th x rest, reach fixed ops c ->
  nth_error (threads c) t = Some th -> t_pc th = PFul (x :: rest) ->
  done_open c = true /\ res_alive c = true.
Proof.
  intros ops c t th x rest Hr Hth Hpc. destruct (reach_inv2 ops c Hr) as [HI H2].
  assert (P : in_postk th = true) by (unfold in_postk; rewrite Hpc; reflexivity).
  destruct (postk_facts c t th (I_threads c HI t th Hth) P) as (_ & _ & _ & _ & _ & Hd).
  split; [exact Hd|exact (JL c H2 Hd)].
Qed.

(* refuted on the withdrawn repair (signals closed before the proxies are fulfilled): the owner
   releases the result between Done and resolve's read of it *)
Definition lifetime_history : list op := [OClient [0] 0; OFulfill [([0], 1)] []; OConsume].

Example result_lifetime_refuted :
  let c := run late_fixed (init lifetime_history) [0%nat; 1%nat; 2%nat; 1%nat] in
  match nth_error (threads c) 1 with
  | Some th => t_pc th = PDone /\ t_out th = OPanic /\ res_alive c = false
  | None => False
  end.
Proof. vm_compute. repeat split; reflexivity. Qed.

Example lifetime_history_fixed :
  let c := run fixed (init lifetime_history) [0%nat; 1%nat; 2%nat; 1%nat; 1%nat; 1%nat; 1%nat; 2%nat] in
  forallb (finished c) (seq 0 3) = true /\
  match nth_error (threads c) 1 with Some th => t_out th = ORet | None => False end.
Proof. vm_compute. repeat split; reflexivity. Qed.
