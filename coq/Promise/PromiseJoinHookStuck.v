(* A resolver never waits forever for the calls of a proxy hook (ClientPromise.Fulfill waiting for the hook's calls
   to drain), on chains: the call it waits for travels along the next-chain from the proxy's owner to the promise
   being resolved, and that promise's joined / pendingDone channels are already closed. *)
From CV Require Import Promise.Promise Promise.PromiseProofs Promise.PromiseJoin Promise.PromiseJoinThms
  Promise.PromiseJoinInv Promise.PromiseJoinRefs Promise.PromiseJoinDest Promise.PromiseJoinChain
  Promise.PromiseJoinForest Promise.PromiseJoinLive Promise.PromiseJoinStuck Promise.PromiseJoinHook
  Promise.PromiseJoinPath.
Open Scope Z_scope.

Theorem join_fulfil_never_waits_for_hook : forall v np ops c,
  jv_close_joined v = true -> jv_alloc_table v = true -> join_ordered ops -> jreach v np ops c ->
  (forall t, jenabled v c t = false) ->
  (forall t th, nth_error (jthreads c) t = Some th -> j_pc th <> QInCaller) ->
  forall t th, nth_error (jthreads c) t = Some th -> j_pc th <> QFulWait.
Proof.
  intros v np ops c Hv1 Hv2 Hord Hr Hdis Hnogate t th Hth Hpc.
  pose proof (JT_reach v np ops c Hv1 Hv2 Hr) as HT.
  pose proof (JX_reach v np ops c Hv2 Hr) as HX.
  pose proof (JE4_reach v np ops c Hv2 Hr) as HE.
  pose proof (JP1_reach v np ops c Hr t th Hth) as P1. rewrite Hpc in P1. destruct P1 as [px [Hpx Hrefs]].
  assert (Hdone : jx_done px = false).
  { specialize (Hdis t). unfold jenabled, jstep in Hdis. rewrite Hth in Hdis. unfold jstep_thread in Hdis.
    rewrite Hpc in Hdis. rewrite (getx_nth _ _ _ Hpx) in Hdis. destruct (jx_done px); [discriminate|reflexivity]. }
  destruct (JP2_reach v np ops c Hr _ _ Hpx) as [_ [_ P2]].
  assert (Hcalls : jx_calls px <> 0) by (intros E; rewrite (P2 Hrefs E) in Hdone; discriminate).
  pose proof (JP3_reach v np ops c Hr _ _ Hpx) as P3.
  pose proof (jcount_nonneg (jin_px (j_waitx th)) (jthreads c)) as Hnn.
  destruct (jcount_pos (jin_px (j_waitx th)) (jthreads c) ltac:(lia)) as [t1 [th1 [Hth1 Hin]]].
  (* the resolver's promise is in its post phase: no next edge, channels closed *)
  assert (Hact : act (getp c (j_cur th)) = true).
  { apply (phase_act c t th _ HE Hth). unfold jphase, jpre, jpost. rewrite Hpc, Nat.eqb_refl. reflexivity. }
  pose proof (T_thr c HT t th Hth) as T. unfold tchan in T. rewrite Hpc in T. destruct T as [Tk Tj].
  destruct (X_thr c HX t th Hth) as [_ Xw]. rewrite Hpc in Xw. destruct Xw as [_ Xw].
  destruct (X_thr c HX t1 th1 Hth1) as [Xv _]. specialize (Xv _ Hin).
  assert (Hsame : act (getp c (j_cur th1)) = true -> j_cur th1 = j_cur th).
  { intros Ha. exact (nreach_det c _ _ _ Xv Xw (act_next _ Ha) (act_next _ Hact)). }
  (* the call cannot move: which wait is it in? *)
  pose proof (jdisabled_thread v c t1 th1 (Hdis t1) Hth1) as Hs1.
  assert (Hself : j_pc th1 = QJPar -> j_par th1 <> j_cur th1).
  { intros E. destruct (join_forest v np ops c Hord Hr) as [_ Hf].
    pose proof (Hf t1 th1 Hth1 ltac:(rewrite E; reflexivity)). lia. }
  unfold jin_px in Hin. destruct (j_op th1) eqn:Hop1; try discriminate Hin.
  destruct (j_via th1) eqn:Hvia1; try discriminate Hin.
  apply andb_true_iff in Hin. destruct Hin as [_ Hcp].
  destruct (jdisabled_cases v c t1 th1 (all_free v np ops c Hv2 Hord Hr Hdis)
              (JOP_reach v np ops c Hr t1 th1 Hth1) Hself Hs1) as [H|[H|[H|H]]].
  - rewrite H in Hcp. discriminate.
  - exact (Hnogate t1 th1 Hth1 (proj1 H)).
  - destruct H as [H|H]; rewrite H in Hcp; discriminate.
  - unfold wait_kind in H.
    destruct H as [[H _]|[[H J]|[[H K]|[[H _]|[[[H|H] _]|[[H _]|[H _]]]]]]]; try (rewrite H in Hcp; discriminate).
    + rewrite (Hsame (T_joined c HT _ J)) in J. contradiction.
    + rewrite (Hsame (T_known c HT _ K)) in K. contradiction.
Qed.

(* no_stuck on chains with the Fulfill-side hook wait eliminated: of alternative (2) of join_no_stuck_partial only
   Client.Release / ReleaseClients waiting for a hook's calls (QRelWait) is left here; PromiseJoinLands.v excludes it. *)
Theorem join_no_stuck_chain_partial : forall v np ops c,
  jv_close_joined v = true -> jv_alloc_table v = true -> join_ordered ops -> jreach v np ops c ->
  (forall t, jenabled v c t = false) ->
  (exists t th, nth_error (jthreads c) t = Some th /\ j_pc th = QInCaller /\
                jop_gated (j_op th) = true /\ mem_nat t (jgates c) = false) \/
  (exists t th, nth_error (jthreads c) t = Some th /\ j_pc th = QRelWait) \/
  (forall t th, nth_error (jthreads c) t = Some th -> j_pc th <> QDone ->
                exists r, p_caller (getp c r) = true).
Proof.
  intros v np ops c Hv1 Hv2 Ho Hr Hdis.
  destruct (join_no_stuck_partial v np ops c Hv1 Hv2 Ho Hr Hdis) as [H|[[t [th [Hth [Hpc|Hpc]]]]|H]]; auto.
  - (* a Fulfill-side hook wait: only possible if the application holds a call *)
    destruct (held_or_none v c Hdis) as [Hh|Hng]; [left; exact Hh|]. exfalso.
    exact (join_fulfil_never_waits_for_hook v np ops c Hv1 Hv2 Ho Hr Hdis Hng t th Hth Hpc).
  - right. left. exists t, th. auto.
Qed.
