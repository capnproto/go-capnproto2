(* Per-chain form of the client-table reference law: a joined promise holds no references, clients or signals
   (they live at the promise it was joined onto), so when all promises other than k have been joined, k's
   clientsRefs is exactly the number of promises that have not called ReleaseClients (plus calls under way). *)
From CV Require Import Promise.Promise Promise.PromiseProofs Promise.PromiseJoin Promise.PromiseJoinThms
  Promise.PromiseJoinInv Promise.PromiseJoinRefs Promise.PromiseJoinDest.
Open Scope Z_scope.

Definition joined_empty (p : prom) : Prop :=
  (p_caller p = true -> p_next p = None) /\
  (p_next p <> None -> p_crefs p = 0 /\ p_clients p = [] /\ p_signals p = []).

(* JZ: a promise that Join has moved onto another (next set) keeps no clientsRefs, clients or signals, and an
   unresolved promise (caller != nil) has not been joined *)
Definition JZ (c : jconfig) : Prop := forall k, joined_empty (getp c k).

Lemma JZ_step : forall v c t c', jv_alloc_table v = true -> JR c -> JZ c -> jstep v c t = Some c' -> JZ c'.
Proof.
  intros v c t c' Hv HR HZ Hs.
  jthread Hs Hth.
  junfold Hs. rewrite ?Hv in Hs. simpl in Hs. jexplode Hs; inversion Hs; subst; clear Hs.
  all: unfold resolve_entry, do_known, do_final; free_facts.
  all: own_phase HR Hth.
  all: goal_matches.
  all: norm_negb.
  all: try (specialize (Hpre eq_refl); destruct Hpre as [Hinb Hrn]; pose proof (begin_not_caller c _ _ HR Hinb) as Hcf).
  all: try (specialize (Hpost eq_refl); destruct Hpost as [Hinb Hrs]; pose proof (begin_not_caller c _ _ HR Hinb) as Hcf).
  all: intros k0; pose proof (HZ k0) as [Z1 Z2]; unfold joined_empty.
  all: jsimp; eqb_all; simpl.
  all: try (split; [exact Z1|exact Z2]).
  all: try (split; [intros Hc; first [discriminate Hc | exact (Z1 Hc) | reflexivity | congruence]
                   |intros Hn; first [ (exfalso; apply Hn; reflexivity)
                                     | (destruct (Z2 Hn) as [A [B C]]; repeat split; auto; congruence)
                                     | (repeat split; reflexivity) ]]; fail).
  all: try (split; [intros Hc; first [congruence | exact (Z1 Hc)]
                   |intros Hn; exfalso; apply Hn; first [assumption | (apply Z1; assumption)]]; fail).
Qed.

Lemma JZ_reach : forall v np ops c, jv_alloc_table v = true -> jreach v np ops c -> JZ c.
Proof.
  intros v np ops c Hv H. induction H as [|c t c' Hr IH Hs].
  - intros k. unfold joined_empty. destruct (getp_init np ops k) as [E|E]; rewrite E; simpl; split; intros; congruence.
  - exact (JZ_step v c t c' Hv (JR_reach v np ops c Hr) IH Hs).
Qed.

(* the promise map has one entry per index *)
Definition keys (c : jconfig) : list nat := map fst (proms c).

Lemma pm_set_keys : forall m k p, NoDup (map fst m) -> NoDup (map fst (pm_set m k p)).
Proof.
  induction m as [|[k0 p0] m IH]; intros k p H; simpl.
  - constructor; [intros []|constructor].
  - destruct (Nat.eqb k0 k) eqn:E; simpl; [exact H|].
    inversion H; subst. constructor; [|apply IH; auto].
    intros Hin. apply H2. clear - Hin E.
    induction m as [|[k1 p1] m IHm]; simpl in *.
    + destruct Hin as [->|[]]. rewrite Nat.eqb_refl in E. discriminate.
    + destruct (Nat.eqb k1 k); simpl in *; auto. destruct Hin; auto.
Qed.

Lemma keys_setp : forall c k p, NoDup (keys c) -> NoDup (keys (setp c k p)).
Proof. intros. unfold keys, setp. simpl. apply pm_set_keys. exact H. Qed.

Lemma keys_close_sigs : forall sigs c, NoDup (keys c) -> NoDup (keys (close_sigs c sigs)).
Proof. induction sigs; intros c H; simpl; auto. apply IHsigs. apply keys_setp. exact H. Qed.

Lemma keys_step : forall v c t c', NoDup (keys c) -> jstep v c t = Some c' -> NoDup (keys c').
Proof.
  intros v c t c' HN Hs.
  jthread Hs Hth.
  jcases Hs.
  all: goal_matches.
  all: unfold keys in *; jsimp.
  all: repeat first [ exact HN | apply pm_set_keys | (apply keys_close_sigs; unfold keys; jsimp) ].
Qed.

Lemma keys_init : forall np ops, NoDup (keys (jinit np ops)).
Proof.
  intros. unfold keys, jinit. simpl. rewrite map_map. simpl. rewrite map_id. apply seq_NoDup.
Qed.

Lemma keys_reach : forall v np ops c, jreach v np ops c -> NoDup (keys c).
Proof.
  intros v np ops c H. induction H as [|c t c' Hr IH Hs]; [apply keys_init|exact (keys_step v c t c' IH Hs)].
Qed.

Lemma pm_get_in : forall m k p, NoDup (map fst m) -> In (k, p) m -> pm_get m k = p.
Proof.
  induction m as [|[k0 p0] m IH]; intros k p Hn Hin; [destruct Hin|]. simpl. inversion Hn; subst.
  destruct Hin as [E|Hin].
  - inversion E; subst. rewrite Nat.eqb_refl. reflexivity.
  - destruct (Nat.eqb_spec k0 k); [subst; exfalso; apply H1; apply in_map_iff; exists (k, p); auto|].
    apply IH; auto.
Qed.

Lemma pm_get_absent : forall m k, ~ In k (map fst m) -> pm_get m k = dfl_prom.
Proof.
  induction m as [|[k1 p1] m IH]; intros k H; [reflexivity|]. cbn [pm_get].
  destruct (Nat.eqb_spec k1 k); [subst; exfalso; apply H; left; reflexivity|].
  apply IH. intros Hin. apply H. right. exact Hin.
Qed.

Lemma pm_refs_single : forall m k, NoDup (map fst m) ->
  (forall k', k' <> k -> p_crefs (pm_get m k') = 0) -> pm_refs m = p_crefs (pm_get m k).
Proof.
  induction m as [|[k0 p0] m IH]; intros k Hn Hz; [reflexivity|].
  inversion Hn; subst. cbn [pm_refs pm_get].
  assert (Hz' : forall k', k' <> k -> k' <> k0 -> p_crefs (pm_get m k') = 0).
  { intros k' H1' H2'. specialize (Hz k' H1'). cbn [pm_get] in Hz.
    destruct (Nat.eqb_spec k0 k'); [congruence|exact Hz]. }
  destruct (Nat.eqb_spec k0 k).
  - subst. assert (pm_refs m = 0); [|lia].
    clear IH Hn Hz. induction m as [|[k1 p1] m IHm]; [reflexivity|]. cbn [pm_refs].
    assert (k1 <> k) by (intros ->; apply H1; left; reflexivity).
    assert (E : p_crefs p1 = 0).
    { specialize (Hz' k1 H H). cbn [pm_get] in Hz'. rewrite Nat.eqb_refl in Hz'. exact Hz'. }
    rewrite E. rewrite IHm; [reflexivity| | |].
    + intros Hin. apply H1. right. exact Hin.
    + inversion H2; auto.
    + intros k' A B. destruct (Nat.eq_dec k' k1) as [->|Hne].
      * inversion H2; subst. rewrite pm_get_absent by assumption. reflexivity.
      * specialize (Hz' k' A B). cbn [pm_get] in Hz'. destruct (Nat.eqb_spec k1 k'); [congruence|exact Hz'].
  - assert (E : p_crefs p0 = 0).
    { specialize (Hz k0 n). cbn [pm_get] in Hz. rewrite Nat.eqb_refl in Hz. exact Hz. }
    rewrite E, (IH k H2); [lia|].
    intros k' A. destruct (Nat.eq_dec k' k0) as [->|Hne]; [|apply Hz'; auto].
    rewrite pm_get_absent by assumption. reflexivity.
Qed.

(* A joined promise holds no references, clients or signals; an unresolved promise is not joined. *)
Theorem join_joined_empty : forall v np ops c, jv_alloc_table v = true -> jreach v np ops c -> forall k,
  (p_caller (getp c k) = true -> p_next (getp c k) = None) /\
  (p_next (getp c k) <> None ->
   p_crefs (getp c k) = 0 /\ p_clients (getp c k) = [] /\ p_signals (getp c k) = []).
Proof. intros v np ops c Hv H k. exact (JZ_reach v np ops c Hv H k). Qed.

(* Per chain: when every promise other than k has been joined (one tree, k at its end), k's clientsRefs is exactly
   the number of promises that have not called ReleaseClients yet plus the ReleaseClients calls still walking to k.
   So k's client table is given up, and the proxy clients released, by the last ReleaseClients among the joined
   promises and k — not before (what the seeded change C11-r2-1 broke) and not later. *)
Theorem join_chain_release : forall v np ops c,
  jv_alloc_table v = true -> jv_refs_sum v = true -> jreach v np ops c ->
  forall k, (forall k', k' <> k -> p_next (getp c k') <> None \/ p_crefs (getp c k') = 0) ->
    p_crefs (getp c k) = pm_unreleased (proms c) + jcount owes (jthreads c).
Proof.
  intros v np ops c Hv Hs Hr k Hall.
  rewrite <- (join_refs_count v np ops c Hs Hr).
  symmetry. apply pm_refs_single; [exact (keys_reach v np ops c Hr)|].
  intros k' Hne. destruct (Hall k' Hne) as [Hn|Hz]; [|exact Hz].
  exact (proj1 (proj2 (JZ_reach v np ops c Hv Hr k') Hn)).
Qed.
