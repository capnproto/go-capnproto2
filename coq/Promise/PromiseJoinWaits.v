(* no_stuck / waiters_released on chains with the unresolved promise TIED to the blocked thread: an unfinished
   operation at rest waits on a channel of a promise k, and k depends (along next edges and Joins in progress) on a
   promise r that nobody has asked to resolve. *)
From CV Require Import Promise.Promise Promise.PromiseProofs Promise.PromiseJoin Promise.PromiseJoinThms
  Promise.PromiseJoinInv Promise.PromiseJoinRefs Promise.PromiseJoinDest Promise.PromiseJoinChain
  Promise.PromiseJoinForest Promise.PromiseJoinLive Promise.PromiseJoinStuck Promise.PromiseJoinHook
  Promise.PromiseJoinPath Promise.PromiseJoinHookStuck Promise.PromiseJoinLands.
Open Scope Z_scope.

(* the promise whose channel a thread is blocked on: resolved_k (Struct / ReleaseClients / Client() / Join),
   joined_k (a traversal or a Join that found k pending join), pendingDone_k (a call that found k pending) *)
Definition waited (th : jthread) : option nat :=
  match j_pc th with
  | QStart => match j_op th with JRelease k | JWait k => Some k | _ => None end
  | QWaitJ | QWaitKnown | QWaitRes => Some (j_cur th)
  | QJWaitRes | QJWaitJ => Some (j_par th)
  | _ => None
  end.

(* k's outcome depends on r: r is k, or k was joined onto a promise that depends on r, or a Join of k is in progress
   onto a promise that depends on r *)
Inductive waits_on (c : jconfig) : nat -> nat -> Prop :=
| wo_here : forall k, waits_on c k k
| wo_next : forall k q r, p_next (getp c k) = Some q -> waits_on c q r -> waits_on c k r
| wo_join : forall k t th r, nth_error (jthreads c) t = Some th -> jjoin_pc (j_pc th) = true -> j_cur th = k ->
              waits_on c (j_par th) r -> waits_on c k r.

Lemma waits_on_nreach : forall c k q r, nreach c k q -> waits_on c q r -> waits_on c k r.
Proof. intros c k q r H W. induction H; [exact W|eapply wo_next; eauto]. Qed.

Definition dep (c : jconfig) (k : nat) : Prop := exists r, waits_on c k r /\ p_caller (getp c r) = true.

Section Stuck2.
  Variable v : jvariant.
  Variable np : nat.
  Variable ops : list jop.
  Variable c : jconfig.
  Hypothesis Hv1 : jv_close_joined v = true.
  Hypothesis Hv2 : jv_alloc_table v = true.
  Hypothesis Hord : join_ordered ops.
  Hypothesis Hr : jreach v np ops c.
  Hypothesis Hdis : forall t, jenabled v c t = false.
  Hypothesis Hnogate : forall t th, nth_error (jthreads c) t = Some th -> j_pc th <> QInCaller.

  Lemma nohook : forall t th, nth_error (jthreads c) t = Some th -> j_pc th <> QFulWait /\ j_pc th <> QRelWait.
  Proof.
    intros t th Hth. split.
    - exact (join_fulfil_never_waits_for_hook v np ops c Hv1 Hv2 Hord Hr Hdis Hnogate t th Hth).
    - exact (join_release_never_waits_for_hook v np ops c Hv2 Hr t th Hth).
  Qed.

  Lemma blocked_waited : forall th k, blocked_on th k -> waited th = Some k.
  Proof.
    unfold blocked_on, waited. intros th k [[P [O|O]]|[[[P|[P|P]] E]|[[P|P] E]]]; rewrite P, ?O, ?E; reflexivity.
  Qed.

  Lemma dep_here : forall r, p_caller (getp c r) = true -> dep c r.
  Proof. intros r Hc. exists r. split; [apply wo_here|exact Hc]. Qed.

  Lemma dep_join : forall t th, nth_error (jthreads c) t = Some th -> jjoin_pc (j_pc th) = true ->
    dep c (j_par th) -> dep c (j_cur th).
  Proof. intros t th Hth Hj [r [W Hc]]. exists r. split; [exact (wo_join c _ t th r Hth Hj eq_refl W)|exact Hc]. Qed.

  Lemma dep_sig : forall r k, In k (p_signals (getp c r)) -> dep c r -> dep c k.
  Proof.
    intros r k Hin [x [W Hc]]. exists x. split; [|exact Hc].
    exact (waits_on_nreach c k r x (SGR_reach v np ops c Hv2 Hr r k Hin) W).
  Qed.

  Lemma waits_dep : forall k,
    (p_joined (getp c k) = COpen -> dep c k) /\ (p_resclosed (getp c k) = false -> dep c k).
  Proof. exact (waits_lead v np ops c Hv1 Hv2 Hord Hr Hdis Hnogate nohook (dep c) dep_here dep_join dep_sig). Qed.

  Lemma unfinished_waits_dep : forall t th,
    nth_error (jthreads c) t = Some th -> j_pc th <> QDone ->
    exists k, waited th = Some k /\ dep c k.
  Proof.
    intros t th Hth Hnd.
    destruct (unfinished_waits v np ops c Hv1 Hv2 Hord Hr Hdis Hnogate nohook (dep c) dep_here dep_join dep_sig
                t th Hth Hnd) as [k [B Hd]].
    exists k. split; [exact (blocked_waited th k B)|exact Hd].
  Qed.
End Stuck2.

(* no_stuck on chains.  If no thread can take a step then the application holds a call inside a PipelineCaller (gated,
   not released), or every unfinished operation is blocked on a channel of a promise k (waited) and k depends - along
   next edges and Joins in progress - on a promise r that nobody has asked to resolve (its caller is still set) *)
Theorem join_no_stuck_tied : forall v np ops c,
  jv_close_joined v = true -> jv_alloc_table v = true -> join_ordered ops -> jreach v np ops c ->
  (forall t, jenabled v c t = false) ->
  (exists t th, nth_error (jthreads c) t = Some th /\ j_pc th = QInCaller /\
                jop_gated (j_op th) = true /\ mem_nat t (jgates c) = false) \/
  (forall t th, nth_error (jthreads c) t = Some th -> j_pc th <> QDone ->
     exists k r, waited th = Some k /\ waits_on c k r /\ p_caller (getp c r) = true).
Proof.
  intros v np ops c Hv1 Hv2 Ho Hr Hdis.
  destruct (held_or_none v c Hdis) as [H|Hng]; [left; exact H|].
  right. intros t th Hth Hnd.
    destruct (unfinished_waits_dep v np ops c Hv1 Hv2 Ho Hr Hdis Hng t th Hth Hnd) as [k [Hw [r [W Hc]]]].
    exists k, r. auto.
Qed.

(* waiters_released on chains, per chain: at rest, with no call held by the application, an operation whose promise
   depends only on promises that were asked to resolve (or joined) has finished *)
Theorem join_waiters_released_tied : forall v np ops c,
  jv_close_joined v = true -> jv_alloc_table v = true -> join_ordered ops -> jreach v np ops c ->
  (forall t, jenabled v c t = false) ->
  (forall t th, nth_error (jthreads c) t = Some th -> j_pc th = QInCaller ->
                jop_gated (j_op th) = true -> mem_nat t (jgates c) = true) ->
  forall t th, nth_error (jthreads c) t = Some th ->
    (forall k r, waited th = Some k -> waits_on c k r -> p_caller (getp c r) = false) ->
    j_pc th = QDone.
Proof.
  intros v np ops c Hv1 Hv2 Ho Hr Hdis Hgate t th Hth Hall.
  destruct (join_no_stuck_tied v np ops c Hv1 Hv2 Ho Hr Hdis) as [[t1 [th1 [H1 [P1 [G1 M1]]]]]|H].
  - rewrite (Hgate t1 th1 H1 P1 G1) in M1. discriminate.
  - destruct (j_pc th) eqn:Hpc; auto;
      (destruct (H t th Hth ltac:(congruence)) as [k [r [Hw [W Hc]]]]; rewrite (Hall k r Hw W) in Hc; discriminate).
Qed.

(* waiters_enabled on chains: once resolved_k is closed, an unfinished Struct / ReleaseClients on k can take a step,
   unless the mutex of the promise it is at is held (then some thread can: join_no_mutex_deadlock) *)
Theorem join_waiters_enabled : forall v np ops c,
  jv_alloc_table v = true -> jreach v np ops c ->
  forall t th k, nth_error (jthreads c) t = Some th -> j_op th = JWait k \/ j_op th = JRelease k ->
    j_pc th <> QDone -> p_resclosed (getp c k) = true ->
    jenabled v c t = true \/ p_mu (getp c (j_cur th)) <> None.
Proof.
  intros v np ops c Hv Hr t th k Hth Hop Hnd Hrc.
  pose proof (JOP_reach v np ops c Hr t th Hth) as Hok.
  pose proof (join_release_never_waits_for_hook v np ops c Hv Hr t th Hth) as Hnw.
  destruct (p_mu (getp c (j_cur th))) eqn:Hmu; [right; discriminate|left].
  assert (Hfree : free c (j_cur th) = true) by (unfold free; rewrite Hmu; reflexivity).
  unfold jenabled, jstep. rewrite Hth. unfold jstep_thread.
  destruct Hop as [Hop|Hop]; rewrite Hop in *; destruct (j_pc th) eqn:Hpc; simpl in Hok; try discriminate Hok;
    try contradiction; try (rewrite Hrc; reflexivity).
  - unfold sec_wait_walk. rewrite Hfree. simpl. destruct (p_next _); reflexivity.
  - unfold sec_rel_walk. rewrite Hfree. simpl.
    destruct ((j_waitx th =? 0)%nat && p_relflag (getp c (j_cur th))); [reflexivity|].
    destruct (p_next (if (j_waitx th =? 0)%nat then sp_relflag (getp c (j_cur th)) true else getp c (j_cur th)));
      [reflexivity|].
    destruct (0 <? _); reflexivity.
  - unfold sec_jrelease_proxy. destruct (j_rest th) as [|x rest]; [reflexivity|].
    destruct (jx_rel (getx c x)); [reflexivity|]. destruct (jx_target (getx c x)); [reflexivity|].
    destruct (0 <? _); reflexivity.
Qed.
