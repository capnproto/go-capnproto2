(* Facts about the model with Join (coq/Promise/PromiseJoin.v): the concrete histories that refute the
   seeded change C11-3 and the code as found (F11c), and that complete on the model of the code as it is.
   (The theorems over all interleavings of this model are in PromiseJoinThms.v and the files after it.) *)
From CV Require Import Promise.Promise Promise.PromiseJoin.
Open Scope Z_scope.

(* S@0 gated; F@0; J@1:0; U:0; then PipelineSend, Client, Struct on promise 1 *)
Definition seed3_history : list jop :=
  [JSend 0 [0] true; JFulfill 0 [([0], 1)]; JJoin 1 0; JUngate 0; JSend 1 [0] false; JClient 1 [0] 0; JWait 1].

Definition jall_tids (c : jconfig) : list nat := seq 0 (length (jthreads c)).

(* resolve's final block without "close(p.joined)": promise 1 is resolved (its waiter returns) but stays
   in the pending-join state: the pipelined call and Client() on it can never run, nothing is enabled *)
Example join_resolve_refuted :
  match jquiesce jseed3 1000 (jinit 2 seed3_history) 7 with
  | Some c => forallb (fun t => negb (jenabled jseed3 c t)) (jall_tids c) = true /\
              jfinished c 4 = false /\ jfinished c 5 = false /\ jfinished c 6 = true /\ all_mu_free c = true
  | None => False
  end.
Proof. vm_compute. repeat split; reflexivity. Qed.

Example seed3_history_fixed :
  match jquiesce jfixed 1000 (jinit 2 seed3_history) 7 with
  | Some c => forallb (jfinished c) (jall_tids c) = true /\ all_mu_free c = true
  | None => False
  end.
Proof. vm_compute. repeat split; reflexivity. Qed.

(* F11c: Client() on promise 1, then 1.Join(0) with promise 0 having no client table: panic with
   promise 0's mu left locked; Fulfill on 0 can never start *)
Definition f11c_history : list jop := [JClient 1 [0] 0; JJoin 1 0; JFulfill 0 [([0], 1)]].

Example join_nil_table_refuted :
  match jquiesce jf11c 1000 (jinit 2 f11c_history) 3 with
  | Some c => match nth_error (jthreads c) 1 with
              | Some th => j_out th = OPanic | None => False end /\
              jmutex_blocked c 2 = true /\ all_mu_free c = false
  | None => False
  end.
Proof. vm_compute. repeat split; reflexivity. Qed.

Example f11c_history_fixed :
  match jquiesce jfixed 1000 (jinit 2 f11c_history) 3 with
  | Some c => forallb (jfinished c) (jall_tids c) = true /\ all_mu_free c = true
  | None => False
  end.
Proof. vm_compute. repeat split; reflexivity. Qed.

(* seeded C11-r2-1: Join hands the promise joined onto ONE reference to the client table instead of all of p's
   (parent.clientsRefs++): chain 2 -> 1 -> 0 joined child first, client requested on promise 2; after
   ReleaseClients on 2 and on 1 (the leaf's owner has not released) the call through the client fails *)
Definition refs_history : list jop :=
  [JClient 2 [0] 0; JJoin 2 1; JJoin 1 0; JFulfill 0 [([0], 1)]; JRelease 2; JRelease 1; JCall 0 false].

Example join_refs_refuted :
  match jquiesce jrefs1 1000 (jinit 3 refs_history) 7 with
  | Some c => In (JEDirect 6 DFail) (jevents c) /\ p_relflag (getp c 0) = false
  | None => False
  end.
Proof. vm_compute. split; [left; reflexivity|reflexivity]. Qed.

Example refs_history_fixed :
  match jquiesce jfixed 1000 (jinit 3 refs_history) 7 with
  | Some c => In (JEDirect 6 (DCap 1)) (jevents c) /\ p_relflag (getp c 0) = false
  | None => False
  end.
Proof. vm_compute. split; [left; reflexivity|reflexivity]. Qed.
