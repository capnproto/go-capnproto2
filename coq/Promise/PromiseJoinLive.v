(* Liveness invariants of the model with Join, per promise, over all operation lists and interleavings: JC1 is
   N1 and N2 of PromiseLive.v for each promise, JE4 is N3 and N6 in one count; JT (the channels a worker has
   opened) and JE3 (resolved channels and signals) have no single-promise counterpart. *)
From CV Require Import Promise.Promise Promise.PromiseProofs Promise.PromiseJoin Promise.PromiseJoinThms
  Promise.PromiseJoinInv Promise.PromiseJoinRefs Promise.PromiseJoinDest Promise.PromiseJoinChain.
Open Scope Z_scope.

(* threads inside the PipelineCaller of promise k *)
Definition jin_caller (k : nat) (th : jthread) : bool :=
  match j_pc th with QInCaller | QRelock => Nat.eqb (j_cur th) k | _ => false end.

(* JC1: ongoingCalls of every promise counts the threads inside its PipelineCaller (C_ongoing);
   callsStopped is open only while there are such threads and caller is nil (C_stopped) *)
Record JC1 (c : jconfig) : Prop := {
  C_ongoing : forall k, p_ongoing (getp c k) = jcount (jin_caller k) (jthreads c);
  C_stopped : forall k, p_stopped (getp c k) = COpen -> 0 < p_ongoing (getp c k) /\ p_caller (getp c k) = false
}.


Lemma JC1_step : forall v c t c', JR c -> JC1 c -> jstep v c t = Some c' -> JC1 c'.
Proof.
  intros v c t c' HR HC Hs.
  jleaves Hs Hth.
  all: own_phase HR Hth.
  all: goal_matches.
  all: norm_negb.
  all: constructor; intros k0; pose proof (C_ongoing c HC k0) as Ho; pose proof (C_stopped c HC k0) as Hst.
  (* ongoing *)
  all: try (thr_simp Hth; rewrite <- Ho;
            jsimp;
            unfold jin_caller; cbn [j_pc j_cur jgoto jfinish sj_pc sj_cur sj_par sj_path sj_via sj_rest sj_waitx sj_res sj_out];
            repeat match goal with H : j_pc _ = _ |- _ => rewrite H end;
            eqb_all; simpl; try lia;
            repeat match goal with |- context [match j_via ?th with _ => _ end] => destruct (j_via th) end;
            simpl; repeat match goal with H : j_pc _ = _ |- _ => rewrite H end; eqb_all; simpl; lia).
  (* callsStopped *)
  all: jsimp.
  all: eqb_all; simpl.
  all: try exact Hst.
  all: intros Hs'; try discriminate Hs'.
  all: repeat match goal with
              | H : context [match p_stopped ?p with _ => _ end] |- _ => destruct (p_stopped p) eqn:?
              | H : context [if ?b then _ else _] |- _ => destruct b eqn:?
              end; try discriminate.
  all: repeat match goal with
              | H : (_ <? _) = true |- _ => apply Z.ltb_lt in H
              | H : (_ <? _) = false |- _ => apply Z.ltb_ge in H
              | H : (_ =? _) = true |- _ => apply Z.eqb_eq in H
              | H : (_ =? _) = false |- _ => apply Z.eqb_neq in H
              end.
  all: try (destruct (Hst ltac:(first [assumption|reflexivity])) as [Hp Hcf]; split; [lia|first [exact Hcf|reflexivity|congruence]]; fail).
  all: repeat match goal with H : context [getp (jlog _ _) _] |- _ =>
                jsimp_in H; rewrite ?Nat.eqb_refl in H; simpl in H end.
  all: try (split; [lia|first [reflexivity|assumption]]).
  all: try (exfalso; destruct (Hst ltac:(first [assumption|reflexivity])) as [Hp Hcf]; congruence).
  all: specialize (Hpre eq_refl); destruct Hpre as [Hinb _]; pose proof (begin_not_caller c _ _ HR Hinb); split; [lia|assumption].
Qed.

Lemma JC1_reach : forall v np ops c, jreach v np ops c -> JC1 c.
Proof.
  intros v np ops c H. induction H as [|c t c' Hr IH Hs].
  - constructor; intros k.
    + simpl. rewrite jcount_init by reflexivity. destruct (getp_init np ops k) as [E|E]; rewrite E; reflexivity.
    + destruct (getp_init np ops k) as [E|E]; rewrite E; discriminate.
  - exact (JC1_step v c t c' (JR_reach v np ops c Hr) IH Hs).
Qed.

Definition jphase (k : nat) (th : jthread) : bool := jpre th k || jpost th k.

Definition act (p : prom) : bool :=
  negb (p_caller p) && negb (p_is_joined p) && negb (no_signals p).

(* JE4: while a promise is neither unresolved, nor joined, nor resolved (act), exactly one thread is working on it,
   between "caller := nil" and the final block of resolve / the end of Join (jphase); otherwise none is *)
Definition JE4 (c : jconfig) : Prop := forall k, jcount (jphase k) (jthreads c) = (if act (getp c k) then 1 else 0).

Lemma act_next : forall p, act p = true -> p_next p = None.
Proof.
  intros p H. unfold act, p_is_joined in H. destruct (p_next p); [|reflexivity].
  rewrite andb_false_r in H. discriminate.
Qed.

Lemma phase_act : forall c t th k, JE4 c -> nth_error (jthreads c) t = Some th -> jphase k th = true ->
  act (getp c k) = true.
Proof.
  intros c t th k HE Hth Hp. pose proof (jcount_mem _ _ _ _ Hth Hp) as Hpos. rewrite (HE k) in Hpos.
  destruct (act (getp c k)); [reflexivity|lia].
Qed.

Lemma JE4_step : forall v c t c', JR c -> JS c -> JZ c -> JE4 c -> jstep v c t = Some c' -> JE4 c'.
Proof.
  intros v c t c' HR HS HZ HE Hs.
  jleaves Hs Hth.
  all: pose proof (phase_act c t th (j_cur th) HE Hth) as Hact;
       unfold jphase, jpre, jpost in Hact;
       repeat match goal with H : j_pc _ = _ |- _ => rewrite H in Hact end; rewrite ?Nat.eqb_refl in Hact; simpl in Hact.
  all: own_phase HR Hth.
  all: pose proof (S_thr c HS t th (j_cur th) Hth) as Hsig; unfold jpre, jpost in Hsig;
       repeat match goal with H : j_pc _ = _ |- _ => rewrite H in Hsig end; rewrite ?Nat.eqb_refl in Hsig.
  all: goal_matches.
  all: norm_negb.
  all: try (specialize (Hpre eq_refl); destruct Hpre as [Hinb Hrn]; pose proof (begin_not_caller c _ _ HR Hinb) as Hcf).
  all: try (specialize (Hpost eq_refl); destruct Hpost as [Hinb Hrs]; pose proof (begin_not_caller c _ _ HR Hinb) as Hcf).
  all: intros k0; pose proof (HE k0) as H0.
  all: thr_simp Hth; rewrite H0.
  all: jsimp.
  all: unfold jphase, jpre, jpost;
       cbn [j_pc j_cur jgoto jfinish sj_pc sj_cur sj_par sj_path sj_via sj_rest sj_waitx sj_res sj_out];
       repeat match goal with H : j_pc _ = _ |- _ => rewrite H end; simpl.
  all: repeat match goal with |- context [match j_via ?th with _ => _ end] => destruct (j_via th) end; simpl;
       repeat match goal with H : j_pc _ = _ |- _ => rewrite H end; simpl.
  all: eqb_all; simpl; try lia.
  all: try (specialize (Hact eq_refl)).
  all: repeat match goal with
              | H : p_caller (getp ?cc ?k) = true |- _ =>
                lazymatch goal with
                | _ : p_next (getp cc k) = None |- _ => fail
                | _ => pose proof (proj1 (HZ k) H); pose proof (S_unres cc HS k H)
                end
              end.
  all: unfold has_sig in *.
  all: unfold act, p_is_joined, no_signals in *; simpl.
  all: repeat match goal with
              | H : p_caller _ = _ |- _ => rewrite H in *
              | H : p_next _ = _ |- _ => rewrite H in *
              end; simpl in *.
  all: repeat match goal with
              | |- context [p_caller ?p] => destruct (p_caller p) eqn:?
              | |- context [p_next ?p] => destruct (p_next p) eqn:?
              | |- context [match p_signals ?p with _ => _ end] => destruct (p_signals p) eqn:?
              end; simpl in *; try lia; try congruence.
Qed.

Lemma JE4_reach : forall v np ops c, jv_alloc_table v = true -> jreach v np ops c -> JE4 c.
Proof.
  intros v np ops c Hv H. induction H as [|c t c' Hr IH Hs].
  - intros k. simpl. rewrite jcount_init by reflexivity.
    destruct (getp_init np ops k) as [E|E]; rewrite E; reflexivity.
  - exact (JE4_step v c t c' (JR_reach v np ops c Hr) (JS_reach v np ops c Hr) (JZ_reach v np ops c Hv Hr) IH Hs).
Qed.

(* what the worker on a promise has opened and closed so far, read off resolve and Join: callsStopped is made
   before the wait for ongoing calls, pendingDone is open from resolve's entry until the result is set, joined is
   opened when Join has to wait *)
Definition tchan (c : jconfig) (th : jthread) : Prop :=
  let p := getp c (j_cur th) in
  match j_pc th with
  | QStopWait => p_stopped p <> CNil /\ p_known p = COpen
  | QKnown => p_known p = COpen
  | QJStopWait => p_stopped p <> CNil /\ p_known p <> COpen
  | QFul | QFulWait | QClose => p_known p <> COpen /\ p_joined p <> COpen
  | QJRelock | QJPar | QJWaitRes | QJWaitJ | QJLockP => p_known p <> COpen
  | _ => True
  end.

(* JT: each worker's promise has its channels as tchan says for the worker's pc; an open pendingDone or an open
   joined belongs to a promise that has a worker (act) *)
Record JT (c : jconfig) : Prop := {
  T_thr : forall t th, nth_error (jthreads c) t = Some th -> tchan c th;
  T_known : forall k, p_known (getp c k) = COpen -> act (getp c k) = true;
  T_joined : forall k, p_joined (getp c k) = COpen -> act (getp c k) = true
}.

Lemma worker_begin : forall c t th, JR c -> nth_error (jthreads c) t = Some th -> jphase (j_cur th) th = true ->
  In (JEBegin t (j_cur th)) (jevents c).
Proof.
  intros c t th HR Hth Hp. apply orb_true_iff in Hp. destruct Hp as [Hp|Hp];
    [exact (proj1 (R_pre c HR t th _ Hth Hp))|exact (proj1 (R_post c HR t th _ Hth Hp))].
Qed.

Lemma tchan_idle : forall c th, jphase (j_cur th) th = false -> tchan c th.
Proof.
  unfold jphase, jpre, jpost, tchan. intros c th. rewrite Nat.eqb_refl.
  destruct (j_pc th); simpl; intros; try discriminate; exact I.
Qed.

(* tchan reads pendingDone, joined and whether callsStopped is nil, of the thread's promise *)
Lemma tchan_frame : forall c c' th,
  p_known (getp c' (j_cur th)) = p_known (getp c (j_cur th)) ->
  p_joined (getp c' (j_cur th)) = p_joined (getp c (j_cur th)) ->
  (p_stopped (getp c (j_cur th)) <> CNil -> p_stopped (getp c' (j_cur th)) <> CNil) ->
  tchan c th -> tchan c' th.
Proof. unfold tchan. intros c c' th K J S. rewrite K, J. destruct (j_pc th); tauto. Qed.

Lemma JT_step : forall v c t c', jv_close_joined v = true -> JR c -> JS c -> JZ c -> JE4 c -> JT c ->
  jstep v c t = Some c' -> JT c'.
Proof.
  intros v c t c' Hv HR HS HZ HE HT Hs.
  jthread Hs Hth.
  pose proof (phase_act c t th (j_cur th) HE Hth) as Hact.
  junfold Hs. jexplode Hs; inversion Hs; subst; clear Hs.
  all: unfold resolve_entry, do_known, do_final; rewrite ?Hv; free_facts.
  all: own_phase HR Hth.
  all: unfold jphase, jpre, jpost in Hact;
       repeat match goal with H : j_pc _ = _ |- _ => rewrite H in Hact end; rewrite ?Nat.eqb_refl in Hact; simpl in Hact.
  all: pose proof (T_thr c HT t th Hth) as Hown; unfold tchan in Hown;
       repeat match goal with H : j_pc _ = _ |- _ => rewrite H in Hown end.
  all: goal_matches.
  all: norm_negb.
  all: try (specialize (Hpre eq_refl); destruct Hpre as [Hinb Hrn]; pose proof (begin_not_caller c _ _ HR Hinb) as Hcf).
  all: try (specialize (Hpost eq_refl); destruct Hpost as [Hinb Hrs]; pose proof (begin_not_caller c _ _ HR Hinb) as Hcf).
  all: constructor;
    [ intros t0 th0 H0; simpl in H0; rewrite ?close_sigs_threads in H0; simpl in H0;
      destruct (jupd_nth_cases _ _ _ _ _ _ Hth H0) as [[-> ->]|[Hne H0']]; clear H0;
      [ (* the stepping thread's own clause *)
        unfold tchan;
        cbn [j_pc j_cur jgoto jfinish sj_pc sj_cur sj_par sj_path sj_via sj_rest sj_waitx sj_res sj_out];
        repeat match goal with H : j_pc _ = _ |- _ => rewrite H end;
        repeat match goal with |- context [match j_via ?th with _ => _ end] => destruct (j_via th) end; simpl;
        repeat match goal with H : j_pc _ = _ |- _ => rewrite H end;
        jsimp; rewrite ?Nat.eqb_refl; eqb_all; simpl;
        first [ exact I | tauto
              | (repeat split; try discriminate; try reflexivity; try tauto; try apply shut_not_open; congruence)
              | (* Join's first section: the promise was unresolved, so its pendingDone is not open *)
                (repeat split; try discriminate;
                 intros Hk; match goal with H : p_caller (getp ?cc ?k) = true |- _ =>
                   pose proof (T_known cc HT k Hk) as A; unfold act in A; rewrite H in A; discriminate A end) ]
      | (* another thread: if it works on a promise, the stepping thread does not write that promise's channels
           (one worker per promise, and it is not unresolved) *)
        destruct (jphase (j_cur th0) th0) eqn:Hph; [|exact (tchan_idle _ _ Hph)];
        pose proof (worker_begin c t0 th0 HR H0' Hph) as Hin0;
        pose proof (begin_not_caller c _ _ HR Hin0) as Hcf0;
        apply (tchan_frame c); [| | |exact (T_thr c HT t0 th0 H0')]; jsimp; eqb_all; simpl;
        first [ reflexivity | (intros; congruence)
              | (exfalso; apply Hne; symmetry; eapply (begin_unique c); eauto; congruence)
              | (exfalso; replace (j_cur th0) with (j_cur th) in Hin0 by congruence;
                 apply Hne; symmetry; eapply (begin_unique c); eauto) ] ]
    | | ].
  (* pendingDone / joined open => the promise is being worked on *)
  all: intros k0 Hk; revert Hk; jsimp; eqb_all; simpl; intros Hk; try discriminate Hk;
       try (exfalso; exact (shut_not_open _ Hk));
       first [ exact (T_known c HT _ Hk) | exact (T_joined c HT _ Hk) | idtac ].
  (* act of the record just written *)
  all: try (specialize (Hact eq_refl)).
  all: repeat match goal with
              | H : p_caller (getp ?cc ?k) = true |- _ =>
                lazymatch goal with
                | _ : p_next (getp cc k) = None |- _ => fail
                | _ => pose proof (proj1 (HZ k) H); pose proof (S_unres cc HS k H)
                end
              end.
  all: unfold has_sig in *.
  all: unfold act, p_is_joined, no_signals in *; simpl.
  all: repeat match goal with
              | H : p_caller _ = _ |- _ => rewrite H in *
              | H : p_next _ = _ |- _ => rewrite H in *
              end; simpl in *.
  all: repeat match goal with
              | |- context [p_caller ?p] => destruct (p_caller p) eqn:?
              | |- context [p_next ?p] => destruct (p_next p) eqn:?
              | |- context [match p_signals ?p with _ => _ end] => destruct (p_signals p) eqn:?
              end; simpl in *; try reflexivity; try congruence.
  all: exfalso;
       first [ pose proof (T_known c HT _ Hk) as A | pose proof (T_joined c HT _ Hk) as A ];
       unfold act in A;
       repeat match goal with H : p_caller _ = _ |- _ => rewrite H in A end; simpl in A; discriminate A.
Qed.

Lemma JT_reach : forall v np ops c, jv_close_joined v = true -> jv_alloc_table v = true -> jreach v np ops c -> JT c.
Proof.
  intros v np ops c Hv1 Hv2 H. induction H as [|c t c' Hr IH Hs].
  - constructor.
    + intros t th H. simpl in H. rewrite nth_error_map in H. destruct (nth_error ops t); inversion H; subst. exact I.
    + intros k Hk. destruct (getp_init np ops k) as [E|E]; rewrite E in Hk; discriminate.
    + intros k Hk. destruct (getp_init np ops k) as [E|E]; rewrite E in Hk; discriminate.
  - exact (JT_step v c t c' Hv1 (JR_reach v np ops c Hr) (JS_reach v np ops c Hr) (JZ_reach v np ops c Hv2 Hr)
                   (JE4_reach v np ops c Hv2 Hr) IH Hs).
Qed.

Lemma jmem_in : forall x l, mem_nat x l = true <-> In x l.
Proof.
  induction l as [|a l IH]; simpl; [split; [discriminate|tauto]|].
  rewrite orb_true_iff, IH, Nat.eqb_eq. split; intros [H|H]; auto.
Qed.

(* JE3: a promise whose resolved channel is not closed has its signal in the signals list of itself or of a promise
   of lower index (Join moves signals to the promise joined onto, which is lower under join_ordered) *)
Definition JE3 (c : jconfig) : Prop :=
  forall k, p_resclosed (getp c k) = false -> exists r, (r <= k)%nat /\ In k (p_signals (getp c r)).

Lemma JE3_step : forall v c t c',
  (forall t th, nth_error (jthreads c) t = Some th -> j_pc th = QJPar -> (j_par th < j_cur th)%nat) ->
  JE3 c -> jstep v c t = Some c' -> JE3 c'.
Proof.
  intros v c t c' HF HE Hs.
  jleaves Hs Hth.
  all: pose proof (HF t th Hth) as Hlt.
  all: goal_matches.
  all: norm_negb.
  all: intros k0 Hrc; revert Hrc.
  all: jsimp.
  all: eqb_all; simpl.
  all: repeat match goal with |- context [mem_nat ?a ?b] => destruct (mem_nat a b) eqn:? end; intros Hrc; try discriminate Hrc.
  all: destruct (HE _ Hrc) as [r [Hle Hin]].
  (* same holder *)
  all: try (exists r; split; [exact Hle|];
            jsimp;
            eqb_all; simpl;
            first [ exact Hin | (apply in_or_app; left; exact Hin)
                  | (exfalso; apply jmem_in in Hin;
                     repeat match goal with H : mem_nat _ _ = false |- _ =>
                       jsimp_in H; rewrite ?Nat.eqb_refl in H; simpl in H end; congruence) ]; fail).
  (* the holder was joined: its signals moved to the promise it joined *)
  all: try (exists (j_par th); specialize (Hlt ltac:(assumption)); split;
            [ jsimp_in Hin;
              match type of Hin with In _ (p_signals (getp _ ?r0)) => assert (r0 = j_cur th) by congruence end; lia
            | jsimp;
              eqb_all; simpl; apply in_or_app; right; congruence ]; fail).
  all: specialize (Hlt Heqj);
       destruct (Nat.eq_dec r (j_cur th)) as [->|Hr1];
       [ exists (j_par th); split; [lia|];
         jsimp;
         eqb_all; simpl; apply in_or_app; right; exact Hin
       | exists r; split; [exact Hle|];
         jsimp;
         eqb_all; simpl;
         first [ exact Hin | (apply in_or_app; left; exact Hin) | congruence ] ].
Qed.
