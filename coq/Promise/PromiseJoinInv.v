(* Invariants of the model with Join (PromiseJoin.v) over all operation lists and all interleavings:
   the mutex discipline (ordered locking in Join, no leaked mutex), resolve-once per promise, and where
   pipelined calls are delivered along a joined chain. *)
From CV Require Import Promise.Promise Promise.PromiseProofs Promise.PromiseJoin Promise.PromiseJoinThms.
Open Scope Z_scope.

Lemma pm_get_set : forall m k p k', pm_get (pm_set m k p) k' = if Nat.eqb k k' then p else pm_get m k'.
Proof.
  induction m as [|[k0 p0] m IH]; intros k p k'; simpl.
  - destruct (Nat.eqb k k'); reflexivity.
  - destruct (Nat.eqb k0 k) eqn:E; simpl.
    + apply Nat.eqb_eq in E. subst. destruct (Nat.eqb k k'); reflexivity.
    + rewrite IH. destruct (Nat.eqb k0 k') eqn:E2; auto.
      apply Nat.eqb_eq in E2. subst. rewrite Nat.eqb_sym, E. reflexivity.
Qed.

Lemma getp_setp : forall c k p k', getp (setp c k p) k' = if Nat.eqb k k' then p else getp c k'.
Proof. intros. unfold getp, setp. simpl. apply pm_get_set. Qed.

Lemma getp_sett : forall c t th k, getp (sett c t th) k = getp c k. Proof. reflexivity. Qed.
Lemma getp_jlog : forall c e k, getp (jlog c e) k = getp c k. Proof. reflexivity. Qed.
Lemma getp_setx : forall c x p k, getp (setx c x p) k = getp c k. Proof. reflexivity. Qed.
Lemma getp_sjslots : forall c v k, getp (sjslots c v) k = getp c k. Proof. reflexivity. Qed.
Lemma getp_sjproxies : forall c v k, getp (sjproxies c v) k = getp c k. Proof. reflexivity. Qed.
Lemma getp_sjgates : forall c v k, getp (sjgates c v) k = getp c k. Proof. reflexivity. Qed.
Lemma getp_sjthreads : forall c v k, getp (sjthreads c v) k = getp c k. Proof. reflexivity. Qed.
Lemma getp_sjevents : forall c v k, getp (sjevents c v) k = getp c k. Proof. reflexivity. Qed.

(* close_sigs writes the resclosed field only *)
Lemma getp_close_sigs : forall sigs c k,
  getp (close_sigs c sigs) k =
  sp_resclosed (getp c k) (if mem_nat k sigs then true else p_resclosed (getp c k)).
Proof.
  induction sigs as [|s sigs IH]; intros c k; simpl; [destruct (getp c k); reflexivity|].
  rewrite IH, getp_setp, (Nat.eqb_sym k s). destruct (Nat.eqb_spec s k); subst; simpl; [|reflexivity].
  destruct (mem_nat k sigs); reflexivity.
Qed.

(* close_joined writes the joined field only *)
Definition shut (j : chan) : chan := match j with COpen => CClosed | _ => j end.

Lemma close_joined_eq : forall p, close_joined p = sp_joined p (shut (p_joined p)).
Proof. intros [] ; unfold close_joined; simpl; destruct p_joined; reflexivity. Qed.

Lemma shut_not_open : forall j, shut j <> COpen.
Proof. destruct j; discriminate. Qed.

(* Normal form of the observations of a configuration built by the setters: the projections other than
   proms compute through the setters, getp sees only proms (pm_get_set), close_sigs and close_joined
   write one field each. *)
Ltac fold_getp :=
  repeat match goal with |- context [pm_get (proms ?c) ?k] => change (pm_get (proms c) k) with (getp c k) end.

Ltac jsimp :=
  repeat progress
    (unfold getp;
     cbn [proms jthreads jproxies jslots jgates jevents sett setp setx jlog
          sproms sjthreads sjproxies sjslots sjgates sjevents];
     rewrite ?pm_get_set; fold_getp;
     try match goal with |- context [close_sigs _ _] =>
           rewrite ?getp_close_sigs, ?close_sigs_threads, ?close_sigs_events, ?close_sigs_proxies, ?close_sigs_slots
         end;
     try match goal with |- context [close_joined _] => rewrite ?close_joined_eq end).

Ltac jsimp_in H :=
  repeat progress
    (unfold getp in H;
     cbn [proms jthreads jproxies jslots jgates jevents sett setp setx jlog
          sproms sjthreads sjproxies sjslots sjgates sjevents] in H;
     rewrite ?pm_get_set in H;
     repeat match type of H with context [pm_get (proms ?c) ?k] => change (pm_get (proms c) k) with (getp c k) in H end;
     try match type of H with context [close_sigs _ _] =>
           rewrite ?getp_close_sigs, ?close_sigs_threads, ?close_sigs_events, ?close_sigs_proxies, ?close_sigs_slots in H
         end;
     try match type of H with context [close_joined _] => rewrite ?close_joined_eq in H end).

(* JM: a promise's mu is held at a section boundary only by a Join thread on that promise that is about to lock
   the promise it joins (QJPar); everywhere else a section releases what it locked *)
Definition JM (c : jconfig) : Prop :=
  forall k t, p_mu (getp c k) = Some t ->
    exists th, nth_error (jthreads c) t = Some th /\ j_pc th = QJPar /\ j_cur th = k.

Ltac free_facts :=
  repeat match goal with
         | H : negb (free ?c ?k) = false |- _ =>
           let F := fresh "Hfree" in
           assert (F : p_mu (getp c k) = None)
             by (unfold free in H; destruct (p_mu (getp c k)); [discriminate H|reflexivity]);
           clear H
         end.

Lemma JM_step : forall v c t c', jv_alloc_table v = true -> JM c -> jstep v c t = Some c' -> JM c'.
Proof.
  intros v c t c' Hv HN Hs. unfold JM in *.
  jthread Hs Hth.
  junfold Hs. rewrite ?Hv in Hs. simpl in Hs.
  jexplode Hs; inversion Hs; subst; clear Hs.
  all: unfold resolve_entry, do_known, do_final.
  all: free_facts.
  all: intros k0 t0 Hm; goal_matches.
  all: repeat match goal with H : context [match ?x with _ => _ end] |- _ =>
                match type of H with p_mu _ = Some _ => destruct x eqn:? end end.
  all: jsimp_in Hm; simpl in Hm.
  all: repeat match type of Hm with context [Nat.eqb ?a ?b] => destruct (Nat.eqb_spec a b); subst; simpl in Hm end.
  all: try discriminate Hm.
  all: try congruence.
  (* the section left mu held by the stepping thread: it is now at QJPar on that promise *)
  all: try (injection Hm as <-; eexists; split;
            [simpl; rewrite ?close_sigs_threads; simpl; eapply nth_error_upd_same; eauto|simpl; auto]; fail).
  (* an untouched promise *)
  all: destruct (HN _ _ Hm) as [th0 [H0 [Hp Hc]]];
       destruct (Nat.eq_dec t0 t) as [->|Hne];
       [ rewrite Hth in H0; inversion H0; subst th0;
         first [ congruence
               | (eexists; split; [simpl; rewrite ?close_sigs_threads; simpl; eapply nth_error_upd_same; eauto|simpl; auto]) ]
       | exists th0; split; [simpl; rewrite ?close_sigs_threads; simpl; rewrite nth_error_upd_other by auto; exact H0|auto] ].
Qed.

Lemma JM_init : forall np ops, JM (jinit np ops).
Proof.
  intros np ops k t H. exfalso. unfold getp, jinit in H. simpl in H.
  induction (seq 0 np) as [|a l IH]; simpl in H; [discriminate|].
  destruct (Nat.eqb a k); [discriminate|auto].
Qed.

Lemma JM_reach : forall v np ops c, jv_alloc_table v = true -> jreach v np ops c -> JM c.
Proof.
  intros v np ops c Hv H. induction H as [|c t c' Hr IH Hs]; [apply JM_init|exact (JM_step v c t c' Hv IH Hs)].
Qed.

(* client_idempotent on chains, mu part: in every reachable configuration a promise's mu is held only by a
   Join thread that has locked its own promise and is about to lock the promise it joins (ordered locking);
   in particular, when every operation has finished, the mu of every promise is free, and a Future.Client /
   PipelineSend / ... thread never holds a mu across sections.  (The "same proxy" part does not hold across a
   Join in the code: after q.Join(p) the row of a path can hold p's and q's proxies and Client() returns the
   first; both resolve to the same capability.) *)
Theorem join_mu_discipline : forall v np ops c, jv_alloc_table v = true -> jreach v np ops c ->
  (forall k t, p_mu (getp c k) = Some t ->
     exists th, nth_error (jthreads c) t = Some th /\ j_pc th = QJPar /\ j_cur th = k) /\
  ((forall t, jfinished c t = true) -> forall k, p_mu (getp c k) = None).
Proof.
  intros v np ops c Hv Hr. pose proof (JM_reach v np ops c Hv Hr) as HM. split; [exact HM|].
  intros Hfin k. destruct (p_mu (getp c k)) as [t|] eqn:E; auto.
  destruct (HM k t E) as [th [Hth [Hpc _]]]. specialize (Hfin t). unfold jfinished in Hfin.
  rewrite Hth, Hpc in Hfin. discriminate.
Qed.

Definition jis_begin (k : nat) (e : jevent) : bool := match e with JEBegin _ k' => Nat.eqb k k' | _ => false end.
Definition jis_resolved (k : nat) (e : jevent) : bool := match e with JEResolved _ k' => Nat.eqb k k' | _ => false end.

(* the thread is between "caller := nil" on promise k and setting k's result *)
Definition jpre (th : jthread) (k : nat) : bool :=
  match j_pc th with
  | QStopWait | QKnown | QJStopWait | QJRelock | QJPar | QJWaitRes | QJWaitJ | QJLockP => Nat.eqb (j_cur th) k
  | _ => false
  end.

(* the thread has set k's result and is fulfilling the proxies / about to close the signals *)
Definition jpost (th : jthread) (k : nat) : bool :=
  match j_pc th with QFul | QFulWait | QClose => Nat.eqb (j_cur th) k | _ => false end.

(* JR: resolve-once per promise.  At most one JEBegin k is logged, and none while k is unresolved (caller != nil);
   JEResolved k is logged exactly when k's result is set; the thread in jpre / jpost on k is the one that logged
   JEBegin k, and k's result is still unset / is that thread's j_res *)
Record JR (c : jconfig) : Prop := {
  R_begin : forall k, (jcnt (jis_begin k) (jevents c) <= 1)%nat /\
                      (p_caller (getp c k) = true -> jcnt (jis_begin k) (jevents c) = 0%nat /\ p_result (getp c k) = None);
  R_res : forall k, jcnt (jis_resolved k) (jevents c) = match p_result (getp c k) with Some _ => 1%nat | None => 0%nat end;
  R_pre : forall t th k, nth_error (jthreads c) t = Some th -> jpre th k = true ->
                         In (JEBegin t k) (jevents c) /\ p_result (getp c k) = None;
  R_post : forall t th k, nth_error (jthreads c) t = Some th -> jpost th k = true ->
                          In (JEBegin t k) (jevents c) /\ p_result (getp c k) = Some (j_res th)
}.

Lemma begin_in_cnt : forall l k t, In (JEBegin t k) l -> (1 <= jcnt (jis_begin k) l)%nat.
Proof.
  induction l as [|e l IH]; intros k t H; [destruct H|]. rewrite jcnt_cons. destruct H as [->|H].
  - simpl. rewrite Nat.eqb_refl. simpl. lia.
  - specialize (IH k t H). lia.
Qed.

Lemma two_begin : forall l k t1 t2, In (JEBegin t1 k) l -> In (JEBegin t2 k) l -> t1 <> t2 ->
  (2 <= jcnt (jis_begin k) l)%nat.
Proof.
  induction l as [|e l IH]; intros k t1 t2 H1 H2 Hne; [destruct H1|].
  rewrite jcnt_cons. destruct H1 as [->|H1]; destruct H2 as [E|H2].
  - inversion E. congruence.
  - simpl. rewrite Nat.eqb_refl. pose proof (begin_in_cnt l k t2 H2). simpl. lia.
  - subst e. simpl. rewrite Nat.eqb_refl. pose proof (begin_in_cnt l k t1 H1). simpl. lia.
  - specialize (IH k t1 t2 H1 H2 Hne). lia.
Qed.

Lemma begin_unique : forall c k t1 t2, JR c -> In (JEBegin t1 k) (jevents c) -> In (JEBegin t2 k) (jevents c) -> t1 = t2.
Proof.
  intros c k t1 t2 HR H1 H2. destruct (Nat.eq_dec t1 t2); auto. exfalso.
  pose proof (two_begin _ _ _ _ H1 H2 n). destruct (R_begin c HR k). lia.
Qed.

Lemma begin_not_caller : forall c k t, JR c -> In (JEBegin t k) (jevents c) -> p_caller (getp c k) = false.
Proof.
  intros c k t HR H. destruct (p_caller (getp c k)) eqn:E; auto. exfalso.
  destruct (R_begin c HR k) as [_ H0]. destruct (H0 E) as [H1 _].
  pose proof (begin_in_cnt _ _ _ H). lia.
Qed.

Ltac norm_negb :=
  repeat match goal with
         | H : negb _ = false |- _ => apply negb_false_iff in H
         | H : negb _ = true |- _ => apply negb_true_iff in H
         end.

Ltac jleaves Hs Hth := jthread Hs Hth; jcases Hs; free_facts.

Ltac eqb_all :=
  repeat match goal with
         | |- context [Nat.eqb ?a ?a] => rewrite Nat.eqb_refl
         | H : context [Nat.eqb ?a ?a] |- _ => rewrite Nat.eqb_refl in H
         | |- context [Nat.eqb ?a ?b] => destruct (Nat.eqb_spec a b); subst; simpl
         | H : context [Nat.eqb ?a ?b] |- _ => destruct (Nat.eqb_spec a b); subst; simpl in H
         end;
  try match goal with H : ?x <> ?x |- _ => exfalso; apply H; reflexivity end.

(* facts about the stepping thread's own resolve phase *)
Ltac own_phase HR Hth :=
  let P1 := fresh "Hpre" in let P2 := fresh "Hpost" in
  match type of Hth with nth_error _ ?t = Some ?th =>
    pose proof (R_pre _ HR t th (j_cur th) Hth) as P1;
    pose proof (R_post _ HR t th (j_cur th) Hth) as P2;
    unfold jpre in P1; unfold jpost in P2;
    repeat match goal with H : j_pc th = _ |- _ => rewrite H in P1 end;
    repeat match goal with H : j_pc th = _ |- _ => rewrite H in P2 end;
    rewrite ?Nat.eqb_refl in P1; rewrite ?Nat.eqb_refl in P2
  end.

Definition rescnt (p : prom) : nat := match p_result p with Some _ => 1%nat | None => 0%nat end.

(* the two clauses of JR about one promise and the log *)
Lemma JR_prom_step : forall v c t c', JR c -> jstep v c t = Some c' ->
  forall k, ((jcnt (jis_begin k) (jevents c') <= 1)%nat /\
             (p_caller (getp c' k) = true -> jcnt (jis_begin k) (jevents c') = 0%nat /\ p_result (getp c' k) = None)) /\
            jcnt (jis_resolved k) (jevents c') = rescnt (getp c' k).
Proof.
  intros v c t c' HR Hs k0.
  jleaves Hs Hth.
  all: own_phase HR Hth.
  all: goal_matches; simpl; rewrite ?close_sigs_events; simpl; rewrite ?jcnt_cons; simpl.
  all: unfold rescnt; jsimp; simpl.
  all: norm_negb.
  all: pose proof (R_begin c HR k0) as [Hle Hc0]; pose proof (R_res c HR k0) as Hr0.
  all: try (specialize (Hpre eq_refl); destruct Hpre as [Hin Hrn]; pose proof (begin_not_caller c _ _ HR Hin) as Hcf).
  all: try (specialize (Hpost eq_refl); destruct Hpost as [Hin Hrs]; pose proof (begin_not_caller c _ _ HR Hin) as Hcf).
  all: eqb_all; simpl.
  all: split.
  all: try (split; [lia|intros Hc; first [discriminate Hc | congruence | (destruct (Hc0 Hc) as [Ha Hb]; split; [lia|exact Hb])]]; fail).
  all: try (match goal with H : p_caller (getp ?cc ?k) = true |- _ => destruct (proj2 (R_begin cc HR k) H) as [Hz Hn] end;
            split; [lia|intros Hc; first [discriminate Hc | congruence]]; fail).
  all: try exact Hr0.
  all: try (rewrite Hr0; try rewrite Hrn; try rewrite Hrs; reflexivity).
  all: try (match goal with H : p_caller (getp ?cc ?k) = true |- _ => destruct (proj2 (R_begin cc HR k) H) as [Hz Hn] end;
            rewrite Hr0, Hn; reflexivity).
Qed.

Lemma JR_thr_step : forall v c t c', JR c -> jstep v c t = Some c' ->
  forall t0 th0 k0, nth_error (jthreads c') t0 = Some th0 ->
    (jpre th0 k0 = true -> In (JEBegin t0 k0) (jevents c') /\ p_result (getp c' k0) = None) /\
    (jpost th0 k0 = true -> In (JEBegin t0 k0) (jevents c') /\ p_result (getp c' k0) = Some (j_res th0)).
Proof.
  intros v c t c' HR Hs.
  jleaves Hs Hth.
  all: own_phase HR Hth.
  all: goal_matches.
  all: intros t0 th0 k0 H0.
  all: simpl in H0; rewrite ?close_sigs_threads in H0; simpl in H0.
  all: destruct (jupd_nth_cases _ _ _ _ _ _ Hth H0) as [[-> ->]|[Hne H0']]; clear H0.
  all: norm_negb.
  all: try (specialize (Hpre eq_refl); destruct Hpre as [Hin Hrn]).
  all: try (specialize (Hpost eq_refl); destruct Hpost as [Hin Hrs]).
  (* another thread *)
  all: try (assert (Hne' : t0 <> t) by exact Hne;
            split; intros Hp;
            [destruct (R_pre c HR t0 th0 k0 H0' Hp) as [Hin0 Hr0]|destruct (R_post c HR t0 th0 k0 H0' Hp) as [Hin0 Hr0]];
            pose proof (begin_not_caller c _ _ HR Hin0) as Hcf0;
            (split; [simpl; rewrite ?close_sigs_events; simpl; auto 6|]);
            jsimp; simpl; eqb_all; simpl;
            first [ exact Hr0 | congruence
                  | (exfalso; apply Hne'; symmetry; eapply (begin_unique c); eauto) ]).
  (* the stepping thread *)
  all: unfold jpre, jpost; simpl;
       repeat match goal with H : j_pc _ = _ |- _ => rewrite H end; simpl.
  all: try (split; intros Hp; discriminate Hp).
  all: split; intros Hp; try discriminate Hp; apply Nat.eqb_eq in Hp; subst; simpl in *.
  all: (split; [simpl; rewrite ?close_sigs_events; simpl; auto 6|]).
  all: jsimp; simpl; eqb_all; simpl.
  all: try reflexivity; try assumption; try congruence.
  all: try (match goal with H : p_caller (getp ?cc ?k) = true |- _ => exact (proj2 (proj2 (R_begin cc HR k) H)) end).
Qed.

Lemma JR_step : forall v c t c', JR c -> jstep v c t = Some c' -> JR c'.
Proof.
  intros v c t c' HR Hs. constructor.
  - intros k. exact (proj1 (JR_prom_step v c t c' HR Hs k)).
  - intros k. rewrite (proj2 (JR_prom_step v c t c' HR Hs k)). reflexivity.
  - intros t0 th0 k0 H0 Hp. exact (proj1 (JR_thr_step v c t c' HR Hs t0 th0 k0 H0) Hp).
  - intros t0 th0 k0 H0 Hp. exact (proj2 (JR_thr_step v c t c' HR Hs t0 th0 k0 H0) Hp).
Qed.

Lemma getp_init : forall np ops k, getp (jinit np ops) k = dfl_prom \/ getp (jinit np ops) k = new_prom k.
Proof.
  intros np ops k. unfold getp, jinit. simpl. induction (seq 0 np) as [|a l IH]; simpl; auto.
  destruct (Nat.eqb_spec a k); subst; auto.
Qed.

Lemma JR_init : forall np ops, JR (jinit np ops).
Proof.
  intros np ops. constructor.
  - intros k. simpl. split; [unfold jcnt; simpl; lia|]. intros _. split; [reflexivity|].
    destruct (getp_init np ops k) as [H|H]; rewrite H; reflexivity.
  - intros k. simpl. destruct (getp_init np ops k) as [H|H]; rewrite H; reflexivity.
  - intros t th k H Hp. simpl in H. rewrite nth_error_map in H. destruct (nth_error ops t); inversion H; subst. discriminate.
  - intros t th k H Hp. simpl in H. rewrite nth_error_map in H. destruct (nth_error ops t); inversion H; subst. discriminate.
Qed.

Lemma JR_reach : forall v np ops c, jreach v np ops c -> JR c.
Proof.
  intros v np ops c H. induction H as [|c t c' Hr IH Hs]; [apply JR_init|exact (JR_step v c t c' IH Hs)].
Qed.

(* resolve_once on chains: every promise leaves the unresolved state at most once (one Fulfill, Reject or
   Join passes its isUnresolved check; the others panic, by the definition of their first section) and its
   result is set at most once; the result is set iff JEResolved was logged for it *)
Theorem join_resolve_once : forall v np ops c, jreach v np ops c -> forall k,
  (jcnt (jis_begin k) (jevents c) <= 1)%nat /\ (jcnt (jis_resolved k) (jevents c) <= 1)%nat /\
  (p_caller (getp c k) = true -> jcnt (jis_begin k) (jevents c) = 0%nat /\ p_result (getp c k) = None) /\
  (jcnt (jis_resolved k) (jevents c) = 1%nat <-> exists r, p_result (getp c k) = Some r).
Proof.
  intros v np ops c Hr k. pose proof (JR_reach v np ops c Hr) as HR.
  destruct (R_begin c HR k) as [H1 H2]. pose proof (R_res c HR k) as H3.
  split; [exact H1|]. split; [rewrite H3; destruct (p_result (getp c k)); lia|]. split; [exact H2|].
  rewrite H3. destruct (p_result (getp c k)) as [r|]; split; intros H; eauto; try discriminate.
  destruct H as [r H]. discriminate.
Qed.

(* newest event first: a call is handed to the PipelineCaller of promise k (the end of the traversal of the
   chain at that moment) only while no Fulfill / Reject / Join has taken k out of the unresolved state *)
Fixpoint wf_jcaller (l : list jevent) : Prop :=
  match l with
  | [] => True
  | e :: r => wf_jcaller r /\
              match e with
              | JEDeliver _ k DCaller => jcnt (jis_begin k) r = 0%nat
              | _ => True
              end
  end.

Lemma wf_jcaller_step : forall v c t c', JR c -> wf_jcaller (jevents c) -> jstep v c t = Some c' ->
  wf_jcaller (jevents c').
Proof.
  intros v c t c' HR HW Hs.
  jleaves Hs Hth.
  all: goal_matches; simpl; rewrite ?close_sigs_events; simpl.
  all: norm_negb.
  all: repeat split; auto.
  all: try (match goal with H : p_caller (getp ?cc ?k) = true |- _ => exact (proj1 (proj2 (R_begin cc HR k) H)) end).
  all: try (destruct (res_dest _ _) eqn:Ed; auto; exfalso; eapply res_dest_not_caller; eauto).
Qed.

Theorem join_caller_before_resolution : forall v np ops c, jreach v np ops c -> wf_jcaller (jevents c).
Proof.
  intros v np ops c H. induction H as [|c t c' Hr IH Hs]; [exact I|].
  exact (wf_jcaller_step v c t c' (JR_reach v np ops c Hr) IH Hs).
Qed.
