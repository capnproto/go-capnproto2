(* Released proxies on chains: every proxy is in some promise's client table, or in the loop of the ReleaseClients
   call that took its table, or released.  So once the table of a chain has been taken (C11_join_chain_release: by
   the last ReleaseClients of the chain) and that call has returned, every proxy that was in it is released. *)
From CV Require Import Promise.Promise Promise.PromiseProofs Promise.PromiseJoin Promise.PromiseJoinThms
  Promise.PromiseJoinInv Promise.PromiseJoinRefs Promise.PromiseJoinDest Promise.PromiseJoinChain
  Promise.PromiseJoinForest Promise.PromiseJoinLive Promise.PromiseJoinStuck Promise.PromiseJoinHook
  Promise.PromiseJoinPath Promise.PromiseJoinHookStuck Promise.PromiseJoinLands.
Open Scope Z_scope.

Definition in_loop (c : jconfig) (x : nat) : Prop :=
  exists t th, nth_error (jthreads c) t = Some th /\ j_pc th = QRel /\ In x (j_rest th).

Definition held (c : jconfig) (x : nat) : Prop :=
  (exists r, in_rows c r x) \/ in_loop c x \/ jx_rel (getx c x) = true.

Lemma rel_step : forall v c t c', jstep v c t = Some c' -> forall x, jx_rel (getx c x) = true -> jx_rel (getx c' x) = true.
Proof.
  intros v c t c' Hs x Hx. apply (px_step v c t c' Hs x); [|exact Hx].
  destruct (lt_dec x (length (jproxies c))); auto. exfalso. unfold getx in Hx. rewrite nth_overflow in Hx by lia. discriminate.
Qed.

(* a proxy in a table stays in a table (its own, or the one its promise was joined onto) or goes to the loop of the
   ReleaseClients call that takes the table *)
Lemma rows_fwd_step : forall v c t c', jstep v c t = Some c' ->
  forall r x, in_rows c r x -> (exists r', in_rows c' r' x) \/ in_loop c' x.
Proof.
  intros v c t c' Hs.
  jthread Hs Hth.
  jcases Hs.
  all: goal_matches.
  all: intros r0 x0 Hin.
  (* the table of r0 is unchanged or has grown *)
  all: try (left; exists r0; unfold in_rows, rows_of in *;
            jsimp;
            eqb_all; simpl;
            rewrite ?rows_merge_tab, ?rows_add_row; auto; fail).
  (* Join: the joining promise's rows move to the promise joined onto *)
  all: try (destruct (Nat.eq_dec r0 (j_cur th)) as [->|Hne]; [left; exists (j_par th)|left; exists r0];
            unfold in_rows, rows_of in *;
            jsimp;
            eqb_all; simpl;
            try (destruct p as [q row]); rewrite ?rows_merge_tab, ?rows_add_row;
            try match goal with E : p_clients _ = _ |- _ => rewrite E in Hin end; simpl in Hin;
            try apply in_app_or in Hin; tauto).
  (* ReleaseClients takes the table *)
  all: destruct (Nat.eq_dec r0 (j_cur th)) as [->|Hne];
       [ right; eexists t, _; split; [simpl; eapply nth_error_upd_same; exact Hth|split; [reflexivity|exact Hin]]
       | left; exists r0; unfold in_rows, rows_of in *;
         jsimp; eqb_all; simpl; exact Hin ].
Qed.

(* a proxy in a ReleaseClients loop stays there until that call releases it *)
Lemma loop_fwd_step : forall v c t c', JV c -> JW c -> jstep v c t = Some c' ->
  forall x, in_loop c x -> in_loop c' x \/ jx_rel (getx c' x) = true.
Proof.
  intros v c t c' HV HW Hs x [t0 [th0 [H0 [Hp0 Hr0]]]].
  destruct (Nat.eq_dec t0 t) as [->|Hne].
  - unfold jstep in Hs. rewrite H0 in Hs. unfold jstep_thread in Hs. rewrite Hp0 in Hs. unfold sec_jrelease_proxy in Hs.
    pose proof (HW t th0 H0) as W. unfold wrel in W. rewrite Hp0 in W.
    destruct (V_thr c HV t th0 H0) as [Hvr _].
    destruct (j_rest th0) as [|y rest] eqn:Er; [destruct Hr0|].
    pose proof (Hvr y (or_introl eq_refl)) as Hlt.
    assert (Hnew : forall cc, In x rest -> jthreads cc = jthreads c ->
                   in_loop (sett cc t (sj_rest th0 rest)) x).
    { intros cc Hin E. exists t, (sj_rest th0 rest). split; [simpl; rewrite E; eapply nth_error_upd_same; exact H0|].
      split; [exact Hp0|exact Hin]. }
    destruct Hr0 as [<-|Hr0].
    + right. destruct (jx_rel (getx c y)) eqn:E1; [inversion Hs; subst; exact E1|].
      destruct (jx_target (getx c y)) eqn:E2;
        [inversion Hs; subst; unfold getx; simpl; rewrite nth_upd_same by exact Hlt; reflexivity|].
      exfalso. apply (W y (or_introl eq_refl)). exact E2.
    + left. destruct (jx_rel (getx c y)) eqn:E1; [inversion Hs; subst; apply Hnew; auto|].
      destruct (jx_target (getx c y)) eqn:E2; [inversion Hs; subst; apply Hnew; auto|].
      exfalso. apply (W y (or_introl eq_refl)). exact E2.
  - left. unfold jstep in Hs. destruct (nth_error (jthreads c) t) as [th|] eqn:Hth; [|discriminate].
    destruct (jstep_frame v c t th c' Hth Hs) as [[th' [E _]] _].
    exists t0, th0. split; [rewrite E; rewrite nth_error_upd_other by auto; exact H0|]. auto.
Qed.

(* a new proxy is put into the table of the promise it was asked on *)
Lemma len_step : forall v c t c', jstep v c t = Some c' ->
  forall x, (x < length (jproxies c'))%nat -> (x < length (jproxies c))%nat \/ exists r, in_rows c' r x.
Proof.
  intros v c t c' Hs.
  jleaves Hs Hth; goal_matches.
  all: intros x0 Hx0; jsimp_in Hx0; rewrite ?length_upd in Hx0; auto.
  rewrite app_length in Hx0. simpl in Hx0.
  destruct (Nat.eq_dec x0 (length (jproxies c))) as [->|Hne]; [|left; lia].
  right. exists (j_cur th). unfold in_rows, rows_of.
  jsimp; rewrite ?Nat.eqb_refl; simpl.
  apply rows_add_row. right. left. reflexivity.
Qed.

(* PR: every proxy is in some promise's client table, in the loop of a ReleaseClients call, or released *)
Definition PR (c : jconfig) : Prop := forall x, (x < length (jproxies c))%nat -> held c x.

Lemma PR_step : forall v c t c', JV c -> JW c -> PR c -> jstep v c t = Some c' -> PR c'.
Proof.
  intros v c t c' HV HW HP Hs x Hx.
  destruct (len_step v c t c' Hs x Hx) as [Hlt|Hnew]; [|left; exact Hnew].
  destruct (HP x Hlt) as [[r Hin]|[Hl|Hrel]].
  - destruct (rows_fwd_step v c t c' Hs r x Hin) as [A|A]; [left; exact A|right; left; exact A].
  - destruct (loop_fwd_step v c t c' HV HW Hs x Hl) as [A|A]; [right; left; exact A|right; right; exact A].
  - right. right. exact (rel_step v c t c' Hs x Hrel).
Qed.

Lemma PR_reach : forall v np ops c, jv_alloc_table v = true -> jreach v np ops c -> PR c.
Proof.
  intros v np ops c Hv H. induction H as [|c t c' Hr IH Hs].
  - intros x Hx. simpl in Hx. lia.
  - exact (PR_step v c t c' (JV_reach v np ops c Hr) (JW_reach v np ops c Hv Hr) IH Hs).
Qed.

(* released proxies on chains: a proxy that is in no table any more, while no ReleaseClients call is in its loop, is
   released.  (The table of a chain is taken by the last ReleaseClients of the chain: join_chain_release.) *)
Theorem join_proxies_released : forall v np ops c,
  jv_alloc_table v = true -> jreach v np ops c ->
  forall x, (x < length (jproxies c))%nat ->
    (forall r, ~ in_rows c r x) ->
    (forall t th, nth_error (jthreads c) t = Some th -> j_pc th = QRel -> ~ In x (j_rest th)) ->
    jx_rel (getx c x) = true.
Proof.
  intros v np ops c Hv Hr x Hx Hno Hnl.
  destruct (PR_reach v np ops c Hv Hr x Hx) as [[r Hin]|[[t [th [Hth [Hp Hin]]]]|Hrel]].
  - exfalso. exact (Hno r Hin).
  - exfalso. exact (Hnl t th Hth Hp Hin).
  - exact Hrel.
Qed.

(* PT: every proxy is still in a table or has its target set (a table is only taken from a settled promise) *)
Definition PT (c : jconfig) : Prop := forall x, (x < length (jproxies c))%nat -> (exists r, in_rows c r x) \/ tgt c x.

Lemma PT_reach : forall v np ops c, jv_alloc_table v = true -> jreach v np ops c -> PT c.
Proof.
  intros v np ops c Hv H. induction H as [|c t c' Hr IH Hs].
  - intros x Hx. simpl in Hx. lia.
  - intros x Hx.
    destruct (len_step v c t c' Hs x Hx) as [Hlt|Hnew]; [|left; exact Hnew].
    destruct (IH x Hlt) as [[r Hin]|Ht]; [|right; exact (tgt_step v c t c' Hs x Ht)].
    destruct (rows_fwd_step v c t c' Hs r x Hin) as [A|[t0 [th0 [H0 [Hp0 Hin0]]]]]; [left; exact A|].
    right. pose proof (JW_reach v np ops c' Hv (jreach_step v np ops c t c' Hr Hs) t0 th0 H0) as W.
    unfold wrel in W. rewrite Hp0 in W. exact (W x Hin0).
Qed.

(* proxy targets, table-free form: a proxy whose owner's next-chain ends in a settled promise r has r's result at its
   path - whether it is still in r's table or the table has already been taken by ReleaseClients *)
Theorem join_proxy_targets_chain : forall v np ops c,
  jv_alloc_table v = true -> jreach v np ops c ->
  forall x r res, (x < length (jproxies c))%nat -> nreach c (own c x) r -> settled c r ->
    p_result (getp c r) = Some res ->
    jx_target (getx c x) = Some (res_dest res (jx_path (getx c x))).
Proof.
  intros v np ops c Hv Hr x r res Hx Hn Hst Hres.
  destruct (PT_reach v np ops c Hv Hr x Hx) as [[r' Hin]|Ht].
  - assert (r' = r).
    { pose proof (X_rows c (JX_reach v np ops c Hv Hr) r' x Hin) as Hn'.
      apply (nreach_det c _ _ _ Hn' Hn); [|exact (proj2 Hst)].
      destruct (p_next (getp c r')) eqn:En; [|reflexivity]. exfalso.
      destruct (proj2 (JZ_reach v np ops c Hv Hr r') ltac:(congruence)) as [_ [Hc _]].
      unfold in_rows, rows_of in Hin. rewrite Hc in Hin. destruct Hin. }
    subst r'. exact (join_proxy_targets v np ops c Hv Hr r x res Hst Hres Hin).
  - unfold tgt in Ht. destruct (jx_target (getx c x)) as [d|] eqn:Ed; [|congruence]. f_equal.
    destruct (nth_error (jproxies c) x) as [px|] eqn:Ex; [|apply nth_error_None in Ex; lia].
    pose proof (getx_nth _ _ _ Ex) as Eg. unfold own in Hn. rewrite Eg in *.
    exact (endd_det c _ _ _ r res (TG_reach v np ops c Hv Hr x px Ex d Ed) Hn (proj2 Hst) Hres).
Qed.

Definition res_pc (p : jpc) : bool := match p with QStopWait | QKnown | QFul | QFulWait | QClose => true | _ => false end.

Definition fdone (c : jconfig) (th : jthread) : Prop :=
  match j_op th with
  | JFulfill k _ | JReject k =>
    (res_pc (j_pc th) = true -> j_cur th = k /\ j_res th = jop_res (j_op th)) /\
    (j_pc th = QDone -> j_out th = ORet -> settled c k /\ p_result (getp c k) = Some (jop_res (j_op th)))
  | _ => True
  end.

(* FD: a Fulfill / Reject inside resolve works on its own promise with its own resolution; one that has returned
   left its promise settled, with that resolution as the result *)
Definition FD (c : jconfig) : Prop := forall t th, nth_error (jthreads c) t = Some th -> fdone c th.

Lemma FD_step : forall v c t c', JOP c -> JR c -> JS c -> JZ c -> JE4 c -> FD c -> jstep v c t = Some c' -> FD c'.
Proof.
  intros v c t c' HO HR HS HZ HE HF Hs.
  pose proof (settled_step v c t c' HS Hs) as Hset.
  pose proof (resend_step v c t c' HR Hs) as Hend.
  assert (Hkeep : forall k res, settled c k /\ p_result (getp c k) = Some res ->
                                settled c' k /\ p_result (getp c' k) = Some res).
  { intros k res [A B]. split; [exact (Hset k A)|exact (proj2 (Hend k res (proj2 A) B))]. }
  clear Hset Hend.
  jthread Hs Hth.
  pose proof (HF t th Hth) as Hown. unfold fdone in Hown.
  pose proof (HO t th Hth) as Hok.
  pose proof (fun Hp => act_next _ (phase_act c t th (j_cur th) HE Hth Hp)) as Hact.
  pose proof (fun k => proj1 (HZ k)) as Hcn.
  jcases Hs.
  all: goal_matches.
  all: norm_negb.
  all: unfold jphase, jpre, jpost in Hact;
       repeat match goal with H : j_pc _ = _ |- _ => rewrite H in Hact end; rewrite ?Nat.eqb_refl in Hact; simpl in Hact.
  all: intros t0 th0 H0; simpl in H0; rewrite ?close_sigs_threads in H0; simpl in H0;
       destruct (jupd_nth_cases _ _ _ _ _ _ Hth H0) as [[-> ->]|[Hne H0']]; clear H0;
       [ idtac
       | pose proof (HF _ _ H0') as A; unfold fdone in *; destruct (j_op th0); try exact I;
         (destruct A as [A1 A2]; split; [exact A1|intros P1 P2; exact (Hkeep _ _ (A2 P1 P2))]) ].
  all: unfold fdone, jcall_done;
       repeat match goal with |- context [match j_via ?th with _ => _ end] => destruct (j_via th) eqn:? end;
       cbn [j_pc j_op j_via j_cur j_rest j_waitx j_res j_out jgoto jfinish sj_pc sj_cur sj_par sj_path sj_via sj_rest sj_waitx sj_res sj_out].
  all: match goal with
       | H : j_op _ = _ |- _ => rewrite H in Hok
       | _ => destruct (j_op th) eqn:Hop
       end; cbv beta iota in Hown |- *; try exact I.
  all: repeat match goal with H : j_pc _ = _ |- _ => rewrite H in Hok end;
       repeat match goal with H : j_pc _ = _ |- _ => rewrite H in Hown end; simpl in Hok; try discriminate Hok.
  all: repeat match goal with
              | H : JFulfill _ _ = _ |- _ => inversion H; subst; clear H
              | H : JReject _ = _ |- _ => inversion H; subst; clear H
              end.
  all: split; [intros Hp; simpl in Hp; try discriminate Hp|intros P1 P2; try discriminate P1; try discriminate P2].
  all: try (split; reflexivity).
  all: try (apply (proj1 Hown); reflexivity).
  all: try (destruct (proj1 Hown eq_refl) as [Hc Hrs]; rewrite <- Hrs, <- Hc).
  all: unfold settled;
       jsimp;
       rewrite ?Nat.eqb_refl; simpl.
  all: split; [split; [reflexivity|]|reflexivity].
  all: first [apply Hact; reflexivity|apply Hcn; assumption].
Qed.

Lemma FD_reach : forall v np ops c, jv_alloc_table v = true -> jreach v np ops c -> FD c.
Proof.
  intros v np ops c Hv H. induction H as [|c t c' Hr IH Hs].
  - intros t th Hth. simpl in Hth. rewrite nth_error_map in Hth. destruct (nth_error ops t) as [o|]; inversion Hth; subst.
    unfold fdone. destruct o; simpl; try exact I; (split; [discriminate|discriminate]).
  - exact (FD_step v c t c' (JOP_reach v np ops c Hr) (JR_reach v np ops c Hr) (JS_reach v np ops c Hr)
             (JZ_reach v np ops c Hv Hr) (JE4_reach v np ops c Hv Hr) IH Hs).
Qed.

(* proxy_clients_resolved_and_released on chains, in the shape of the single-promise theorem:
   (resolved) once Fulfill / Reject of promise k has returned, every proxy whose owner's next-chain ends at k - the
   pipelined clients of k and of every promise joined, directly or not, onto k - refers to what that resolution holds
   at the proxy's path;
   (released) every proxy is in some promise's client table, in the loop of the ReleaseClients call that took its
   table, or released. *)
Theorem join_proxy_clients_resolved_and_released : forall v np ops c,
  jv_alloc_table v = true -> jreach v np ops c ->
  (forall t th k, nth_error (jthreads c) t = Some th -> (exists caps, j_op th = JFulfill k caps) \/ j_op th = JReject k ->
     j_pc th = QDone -> j_out th = ORet ->
     forall x, (x < length (jproxies c))%nat -> nreach c (own c x) k ->
       jx_target (getx c x) = Some (res_dest (jop_res (j_op th)) (jx_path (getx c x)))) /\
  (forall x, (x < length (jproxies c))%nat ->
     (exists r, in_rows c r x) \/
     (exists t th, nth_error (jthreads c) t = Some th /\ j_pc th = QRel /\ In x (j_rest th)) \/
     jx_rel (getx c x) = true).
Proof.
  intros v np ops c Hv Hr. split.
  - intros t th k Hth Hop Hpc Hout x Hx Hn.
    pose proof (FD_reach v np ops c Hv Hr t th Hth) as F. unfold fdone in F.
    assert (Hs : settled c k /\ p_result (getp c k) = Some (jop_res (j_op th))).
    { destruct Hop as [[caps E]|E]; rewrite E in F |- *; exact (proj2 F Hpc Hout). }
    destruct Hs as [Hst Hres].
    exact (join_proxy_targets_chain v np ops c Hv Hr x k _ Hx Hn Hst Hres).
  - exact (PR_reach v np ops c Hv Hr).
Qed.
