(* next edges are permanent; reachability along them; a proxy in r's client table has an owner whose next-chain leads
   to r, and a call made through the proxy is somewhere on that chain. *)
From CV Require Import Promise.Promise Promise.PromiseProofs Promise.PromiseJoin Promise.PromiseJoinThms
  Promise.PromiseJoinInv Promise.PromiseJoinRefs Promise.PromiseJoinDest Promise.PromiseJoinChain
  Promise.PromiseJoinForest Promise.PromiseJoinLive Promise.PromiseJoinHook.
Open Scope Z_scope.

Inductive nreach (c : jconfig) : nat -> nat -> Prop :=
| nr_refl : forall a, nreach c a a
| nr_step : forall a b d, p_next (getp c a) = Some b -> nreach c b d -> nreach c a d.

Lemma nreach_snoc : forall c a b d, nreach c a b -> p_next (getp c b) = Some d -> nreach c a d.
Proof. intros c a b d H. induction H; intros Hn; [eapply nr_step; [exact Hn|apply nr_refl]|eapply nr_step; eauto]. Qed.

Lemma nreach_mono : forall c c' a b,
  (forall k q, p_next (getp c k) = Some q -> p_next (getp c' k) = Some q) -> nreach c a b -> nreach c' a b.
Proof. intros c c' a b Hm H. induction H; [apply nr_refl|eapply nr_step; eauto]. Qed.

Lemma nreach_det : forall c a b d, nreach c a b -> nreach c a d ->
  p_next (getp c b) = None -> p_next (getp c d) = None -> b = d.
Proof.
  intros c a b d H. revert d. induction H as [a|a b' e Hn H IH]; intros d Hd Hb Hdn.
  - inversion Hd; subst; auto. congruence.
  - inversion Hd; subst; [congruence|]. assert (b' = b) by congruence. subst. apply IH; auto.
Qed.

(* next edges never change once set (they are set when the promise had none) *)
Lemma next_mono_step : forall v c t c', JE4 c -> jstep v c t = Some c' ->
  forall k q, p_next (getp c k) = Some q -> p_next (getp c' k) = Some q.
Proof.
  intros v c t c' HE Hs.
  jthread Hs Hth.
  pose proof (phase_act c t th (j_cur th) HE Hth) as Hact.
  jcases Hs.
  all: goal_matches.
  all: unfold jphase, jpre, jpost in Hact;
       repeat match goal with H : j_pc _ = _ |- _ => rewrite H in Hact end; rewrite ?Nat.eqb_refl in Hact; simpl in Hact.
  all: intros k0 q0 Hn.
  all: jsimp.
  all: eqb_all; simpl; try exact Hn.
  all: exfalso; specialize (Hact eq_refl); unfold act, p_is_joined in Hact; rewrite Hn in Hact;
       rewrite andb_false_r in Hact || (destruct (p_caller _) in Hact; simpl in Hact); discriminate.
Qed.

(* what a step does to an existing proxy: owner (and path) stay, a target once set stays set, released stays released *)
Lemma px_step : forall v c t c', jstep v c t = Some c' ->
  forall x, (x < length (jproxies c))%nat ->
    jx_owner (getx c' x) = jx_owner (getx c x) /\
    (jx_target (getx c x) <> None -> jx_target (getx c' x) <> None) /\
    (jx_rel (getx c x) = true -> jx_rel (getx c' x) = true).
Proof.
  intros v c t c' Hs.
  jleaves Hs Hth; goal_matches.
  all: intros x0 Hx0; unfold getx; jsimp.
  all: try (repeat split; auto; fail).
  all: try (rewrite app_nth1 by exact Hx0; repeat split; auto; fail).
  all: match goal with |- context [nth ?y (upd ?x ?p ?l) ?d] =>
         destruct (Nat.eq_dec x y) as [->|Hne];
         [rewrite nth_upd_same by exact Hx0; simpl; repeat split; auto; discriminate
         |rewrite nth_upd_other by exact Hne; repeat split; auto] end.
Qed.

Lemma owner_step : forall v c t c', jstep v c t = Some c' ->
  forall x, (x < length (jproxies c))%nat -> jx_owner (getx c' x) = jx_owner (getx c x).
Proof. intros v c t c' Hs x Hx. exact (proj1 (px_step v c t c' Hs x Hx)). Qed.

(* what a step does to a promise seen from outside: it does not become unresolved again, and its table only grows
   while it is unresolved (Client() adds a row, Join merges into the promise joined onto) *)
Lemma prom_step : forall v c t c', jstep v c t = Some c' -> forall r,
  (p_caller (getp c' r) = true -> p_caller (getp c r) = true) /\
  (forall x, in_rows c' r x -> in_rows c r x \/ p_caller (getp c r) = true).
Proof.
  intros v c t c' Hs.
  jleaves Hs Hth; goal_matches.
  all: norm_negb.
  all: intros r0; unfold in_rows, rows_of; jsimp; eqb_all; simpl.
  all: split; [auto; try discriminate|intros x0 Hin; try contradiction; auto].
Qed.

Definition own (c : jconfig) (x : nat) : nat := jx_owner (getx c x).

Definition xthr (c : jconfig) (th : jthread) : Prop :=
  (forall x, jin_px x th = true -> nreach c (own c x) (j_cur th)) /\
  match j_pc th with
  | QFul => forall x, In x (j_rest th) -> nreach c (own c x) (j_cur th)
  | QFulWait => (forall x, In x (j_rest th) -> nreach c (own c x) (j_cur th)) /\ nreach c (own c (j_waitx th)) (j_cur th)
  | _ => True
  end.

(* JX: the owner of a proxy in r's client table reaches r along next edges (Join moved the row there); a call
   through a proxy, and a resolve loop holding it in its list, are at a promise the proxy's owner reaches *)
Record JX (c : jconfig) : Prop := {
  X_rows : forall r x, in_rows c r x -> nreach c (own c x) r;
  X_thr : forall t th, nth_error (jthreads c) t = Some th -> xthr c th
}.

(* xthr speaks of proxies the thread mentions (below the number of proxies: vthr) and of chains from their owners *)
Lemma xthr_mono : forall c c' th,
  (forall x r, (x < length (jproxies c))%nat -> nreach c (own c x) r -> nreach c' (own c' x) r) ->
  vthr (length (jproxies c)) th -> xthr c th -> xthr c' th.
Proof.
  intros c c' th Htr [VA [VB VC]] [A B]. split.
  - intros y Hx. apply Htr; [|exact (A y Hx)].
    unfold jin_px in Hx. destruct (j_op th); try discriminate. destruct (j_via th) as [z|] eqn:Ey; try discriminate.
    apply andb_true_iff in Hx. destruct Hx as [Hx _]. apply Nat.eqb_eq in Hx. subst. apply VC. reflexivity.
  - destruct (j_pc th); try exact I.
    + intros y Hx. apply Htr; [exact (VA y Hx)|exact (B y Hx)].
    + destruct B as [B1 B2]. split; [intros y Hx; apply Htr; [exact (VA y Hx)|exact (B1 y Hx)]|apply Htr; [exact VB|exact B2]].
Qed.

Lemma JX_step : forall v c t c', JV c -> JE4 c -> JX c -> jstep v c t = Some c' -> JX c'.
Proof.
  intros v c t c' HV HE HX Hs.
  pose proof (next_mono_step v c t c' HE Hs) as Hmono.
  pose proof (owner_step v c t c' Hs) as Hown.
  assert (Htr : forall x r, (x < length (jproxies c))%nat -> nreach c (own c x) r -> nreach c' (own c' x) r).
  { intros x r Hx H. unfold own. rewrite (Hown x Hx). exact (nreach_mono c c' _ _ Hmono H). }
  jthread Hs Hth.
  destruct (V_thr c HV t th Hth) as [Hvrest [Hvwx Hvvia]].
  destruct (X_thr c HX t th Hth) as [Hxvia Hxpc].
  jcases Hs.
  all: goal_matches.
  all: constructor;
    [ (* tables *)
      intros r0 x0 Hin; unfold in_rows, rows_of in Hin;
      jsimp_in Hin;
      revert Hin; eqb_all; simpl; intros Hin;
      rewrite ?rows_merge_tab, ?rows_add_row in Hin; simpl in Hin;
      repeat match goal with H : _ \/ _ |- _ => destruct H end; try contradiction
    | (* threads *)
      intros t0 th0 H0; simpl in H0; rewrite ?close_sigs_threads in H0; simpl in H0;
      destruct (jupd_nth_cases _ _ _ _ _ _ Hth H0) as [[-> ->]|[Hne H0']]; clear H0;
      [ idtac
      | exact (xthr_mono c _ th0 Htr (V_thr c HV _ _ H0') (X_thr c HX _ _ H0')) ] ].
  (* old rows *)
  all: try (match goal with H : In ?x (concat (map snd (p_clients (getp ?cc ?r)))) |- _ =>
              apply Htr; [exact (V_rows cc HV r x H)|]; exact (X_rows cc HX r x H) end).
  (* the stepping thread *)
  all: try (unfold xthr;
            cbn [j_pc j_op j_via j_cur j_rest j_waitx jgoto jfinish sj_pc sj_cur sj_par sj_path sj_via sj_rest sj_waitx sj_res sj_out];
            repeat match goal with |- context [match j_via ?th with _ => _ end] => destruct (j_via th) eqn:? end;
            cbn [j_pc j_op j_via j_cur j_rest j_waitx jgoto jfinish sj_pc sj_cur sj_par sj_path sj_via sj_rest sj_waitx sj_res sj_out];
            split;
            [ intros y Hy; unfold jin_px in Hy;
              cbn [j_pc j_op j_via jgoto jfinish sj_pc sj_cur sj_par sj_path sj_via sj_rest sj_waitx sj_res sj_out] in Hy;
              repeat match goal with H : j_op _ = _ |- _ => rewrite H in Hy end;
              repeat match goal with H : j_via _ = _ |- _ => rewrite H in Hy end;
              repeat match goal with H : j_pc _ = _ |- _ => rewrite H in Hy end;
              simpl in Hy; rewrite ?andb_false_r in Hy; try discriminate Hy;
              try (destruct (j_op th) eqn:Hop; try discriminate Hy);
              try (destruct (j_via th) as [z|] eqn:Hvz; try discriminate Hy);
              rewrite ?andb_false_r in Hy; try discriminate Hy;
              apply andb_true_iff in Hy; destruct Hy as [Hy _]; apply Nat.eqb_eq in Hy; subst
            | repeat match goal with H : j_pc _ = _ |- _ => rewrite H in * end; try exact I ]).
  all: try (assert (Hjin : jin_px z th = true)
              by (unfold jin_px; rewrite Hop, Hvz;
                  repeat match goal with H : j_pc _ = _ |- _ => rewrite H end; simpl; rewrite Nat.eqb_refl; reflexivity)).
  all: try (apply Htr; [apply Hvvia; first [assumption|reflexivity]|apply Hxvia; exact Hjin]).
  all: try (eapply nreach_snoc; [apply Htr; [apply Hvvia; first [assumption|reflexivity]|apply Hxvia; exact Hjin]|apply Hmono; eassumption]).
  all: try congruence.
  all: repeat match goal with H : Some ?a = Some ?b |- _ => assert (a = b) by congruence; subst; clear H end.
  all: try (apply Htr; [apply Hvvia; first [assumption|reflexivity]|apply Hxvia; exact Hjin]).
  (* a call entering through a proxy starts at the proxy's owner *)
  all: try (match goal with H : lookup_slot _ _ = Some (HProxy ?x) |- _ =>
              destruct (lookup_slot_in _ _ _ H) as [s' Hs']; pose proof (V_slots c HV _ _ Hs') as Hlt;
              unfold own; rewrite (Hown x Hlt); apply nr_refl end).
  (* the loop list of a resolver is the table of its promise *)
  all: try (intros x0 Hin; unfold rows_of in Hin;
            jsimp_in Hin; simpl in Hin;
            match goal with H : In ?x (concat (map snd (p_clients (getp ?cc ?r)))) |- _ =>
              apply Htr; [exact (V_rows cc HV r x H)|]; exact (X_rows cc HX r x H) end).
  (* a call that came through proxy n stays on the chain *)
  all: try (match goal with H : j_via ?tt = Some ?n |- nreach _ (own _ ?n) _ =>
              assert (Hjin : jin_px n tt = true)
                by (unfold jin_px; rewrite H; repeat match goal with H1 : j_op _ = _ |- _ => rewrite H1 end;
                    repeat match goal with H1 : j_pc _ = _ |- _ => rewrite H1 end; simpl; rewrite Nat.eqb_refl; reflexivity);
              apply Htr; [apply Hvvia; reflexivity|apply Hxvia; exact Hjin] end).
  (* the resolver's loop *)
  all: try (match goal with E : j_rest _ = _ :: _ |- _ =>
              try split; intros; (apply Htr; [apply Hvrest|apply Hxpc]; rewrite ?E; simpl; auto) end).
  all: try (intros x0 Hin; apply Htr; [apply Hvrest; exact Hin|apply (proj1 Hxpc); exact Hin]).
  all: try (intros x0 Hin; unfold rows_of in Hin;
            repeat progress (jsimp_in Hin; rewrite ?Nat.eqb_refl in Hin; simpl in Hin);
            match goal with H : In ?x (concat (map snd (p_clients (getp ?cc ?r)))) |- _ =>
              apply Htr; [exact (V_rows cc HV r x H)|]; exact (X_rows cc HX r x H) end).
  (* Join: the child's rows move to the parent, one more edge *)
  all: try (destruct p as [q row]; rewrite rows_merge_tab, rows_add_row in Hin;
       destruct Hin as [[Hin|Hin]|Hin];
       [ apply Htr; [exact (V_rows c HV (j_par th) x0 Hin)|exact (X_rows c HX (j_par th) x0 Hin)] | | ]).
  (* a new proxy is owned by the promise whose table gets it *)
  all: try (subst x0; unfold own, getx; jsimp; rewrite app_nth2 by lia;
            rewrite Nat.sub_diag; simpl; apply nr_refl).
  all: (assert (Hc : in_rows c (j_cur th) x0)
         by (unfold in_rows, rows_of; rewrite Heql; simpl; apply in_or_app; first [left; exact Hin|right; exact Hin]));
       eapply nreach_snoc; [apply Htr; [exact (V_rows c HV _ _ Hc)|exact (X_rows c HX _ _ Hc)]|].
  all: jsimp; eqb_all; simpl; try congruence.
Qed.

Lemma JX_reach : forall v np ops c, jv_alloc_table v = true -> jreach v np ops c -> JX c.
Proof.
  intros v np ops c Hv H. induction H as [|c t c' Hr IH Hs].
  - constructor.
    + intros r x Hin. unfold in_rows, rows_of in Hin. destruct (getp_init np ops r) as [E|E]; rewrite E in Hin; destruct Hin.
    + intros t th Hth. simpl in Hth. rewrite nth_error_map in Hth. destruct (nth_error ops t) as [o|]; inversion Hth; subst.
      split; [intros x Hx; unfold jin_px in Hx; destruct o; simpl in Hx; discriminate|destruct o; exact I].
  - exact (JX_step v c t c' (JV_reach v np ops c Hr) (JE4_reach v np ops c Hv Hr) IH Hs).
Qed.
