(* With no Join operation the Join-specific state of PromiseJoin.v is inert: no promise is ever pending join or joined,
   no Promise.mu is held at a section boundary, no thread is in a Join section.  Each promise then runs the
   single-promise protocol of Promise.v on its own fields.  (A full simulation between the two models on the projected
   observables is not proved; this lemma removes the Join-specific part of the difference.) *)
From CV Require Import Promise.Promise Promise.PromiseProofs Promise.PromiseJoin Promise.PromiseJoinThms
  Promise.PromiseJoinInv Promise.PromiseJoinForest.
Open Scope Z_scope.

Definition no_join_op (o : jop) : Prop := match o with JJoin _ _ => False | _ => True end.

(* NJ: no promise has a next edge, a joined channel or a held mu; no thread is a Join or in a Join section *)
Record NJ (c : jconfig) : Prop := {
  NJ_prom : forall k, p_next (getp c k) = None /\ p_joined (getp c k) = CNil /\ p_mu (getp c k) = None;
  NJ_thr : forall t th, nth_error (jthreads c) t = Some th -> no_join_op (j_op th) /\ jjoin_pc (j_pc th) = false
}.

Lemma NJ_step : forall v c t c', NJ c -> jstep v c t = Some c' -> NJ c'.
Proof.
  intros v c t c' HN Hs.
  jthread Hs Hth.
  destruct (NJ_thr c HN t th Hth) as [Hop Hpc].
  jcases Hs.
  all: goal_matches.
  all: repeat match goal with H : j_op _ = _ |- _ => rewrite H in Hop end; simpl in Hop; try contradiction.
  all: repeat match goal with H : j_pc _ = _ |- _ => rewrite H in Hpc end; simpl in Hpc; try discriminate Hpc.
  all: constructor.
  all: try (intros k0; destruct (NJ_prom c HN k0) as [A [B C]];
            jsimp; eqb_all; simpl; rewrite ?(proj1 (proj2 (NJ_prom c HN _)));
            repeat split; first [assumption | reflexivity | apply (NJ_prom c HN)]).
  all: intros t0 th0 H0; simpl in H0; rewrite ?close_sigs_threads in H0; simpl in H0;
       destruct (jupd_nth_cases _ _ _ _ _ _ Hth H0) as [[-> ->]|[Hne H0']]; [|exact (NJ_thr c HN _ _ H0')].
  all: simpl; repeat match goal with H : j_op _ = _ |- _ => rewrite H end;
       repeat match goal with H : j_pc _ = _ |- _ => rewrite H end; simpl; split; try exact I; try reflexivity; try assumption.
Qed.

(* Join model with zero Joins: the Join-specific state is inert, in every reachable configuration *)
Theorem join_zero_joins_inert : forall v np ops c, Forall no_join_op ops -> jreach v np ops c ->
  (forall k, p_next (getp c k) = None /\ p_joined (getp c k) = CNil /\ p_mu (getp c k) = None) /\
  (forall t th, nth_error (jthreads c) t = Some th -> jjoin_pc (j_pc th) = false).
Proof.
  intros v np ops c Ho H.
  assert (HN : NJ c).
  { induction H as [|c t c' Hr IH Hs]; [|exact (NJ_step v c t c' IH Hs)].
    constructor.
    - intros k. destruct (getp_init np ops k) as [E|E]; rewrite E; auto.
    - intros t th Hth. simpl in Hth. rewrite nth_error_map in Hth. destruct (nth_error ops t) as [o|] eqn:E; inversion Hth; subst.
      split; [|reflexivity]. simpl. rewrite Forall_forall in Ho. exact (Ho o (nth_error_In _ _ E)). }
  split; [exact (NJ_prom c HN)|]. intros t th Hth. exact (proj2 (NJ_thr c HN t th Hth)).
Qed.

(* with zero Joins the precondition of Join holds vacuously: the chain theorems apply to every promise on its own *)
Lemma no_join_ordered : forall ops, Forall no_join_op ops -> join_ordered ops.
Proof.
  intros ops H. unfold join_ordered. eapply Forall_impl; [|exact H].
  intros o Ho. destruct o; simpl in *; auto; contradiction.
Qed.

Theorem join_zero_joins_inert_ordered : forall v np ops c, Forall no_join_op ops -> jreach v np ops c ->
  (forall k, p_next (getp c k) = None /\ p_joined (getp c k) = CNil /\ p_mu (getp c k) = None) /\
  (forall t th, nth_error (jthreads c) t = Some th -> jjoin_pc (j_pc th) = false) /\
  join_ordered ops.
Proof.
  intros v np ops c Hn Hr. destruct (join_zero_joins_inert v np ops c Hn Hr) as [A B].
  split; [exact A|]. split; [exact B|exact (no_join_ordered ops Hn)].
Qed.
