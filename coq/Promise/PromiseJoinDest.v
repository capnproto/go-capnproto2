(* Destination of pipelined calls along a joined chain, all op lists and interleavings: a call that is not
   handed to a PipelineCaller is delivered to what the result of the promise at the end of its traversal holds at
   the call's path, and that result is final. *)
From CV Require Import Promise.Promise Promise.PromiseProofs Promise.PromiseJoin Promise.PromiseJoinThms
  Promise.PromiseJoinInv.
Open Scope Z_scope.

Definition has_sig (c : jconfig) (k : nat) : Prop := p_signals (getp c k) <> [].

(* JS: an unresolved promise (S_unres) and a promise some thread is resolving or joining (S_thr: jpre / jpost)
   still have a non-empty signals list; it is emptied only by resolve's final block and by Join *)
Record JS (c : jconfig) : Prop := {
  S_unres : forall k, p_caller (getp c k) = true -> has_sig c k;
  S_thr : forall t th k, nth_error (jthreads c) t = Some th -> (jpre th k = true \/ jpost th k = true) -> has_sig c k
}.

Lemma app_not_nil : forall (A : Type) (a b : list A), a <> [] -> a ++ b <> [].
Proof. intros A a b H E. apply app_eq_nil in E. tauto. Qed.

Lemma JS_step : forall v c t c', JR c -> JS c -> jstep v c t = Some c' -> JS c'.
Proof.
  intros v c t c' HR HS Hs.
  jleaves Hs Hth.
  all: own_phase HR Hth.
  all: goal_matches.
  all: norm_negb.
  all: try (specialize (Hpre eq_refl); destruct Hpre as [Hin Hrn]).
  all: try (specialize (Hpost eq_refl); destruct Hpost as [Hin Hrs]).
  all: constructor.
  (* unresolved promises *)
  all: try (intros k0 Hc; unfold has_sig; revert Hc;
            jsimp; simpl; eqb_all; simpl;
            intros Hc; try discriminate Hc;
            first [ exact (S_unres c HS _ Hc)
                  | (apply app_not_nil; exact (S_unres c HS _ Hc))
                  | (pose proof (begin_not_caller c _ _ HR Hin); congruence) ]).
  (* threads *)
  all: intros t0 th0 k0 H0 Hp; simpl in H0; rewrite ?close_sigs_threads in H0; simpl in H0;
       destruct (jupd_nth_cases _ _ _ _ _ _ Hth H0) as [[-> ->]|[Hne H0']]; clear H0.
  (* another thread: its promise is not the one the stepping thread finishes *)
  all: try (assert (Hne' : t0 <> t) by exact Hne;
            pose proof (S_thr c HS t0 th0 k0 H0' Hp) as Hold;
            assert (Hin0 : In (JEBegin t0 k0) (jevents c))
              by (destruct Hp as [Hp|Hp]; [exact (proj1 (R_pre c HR t0 th0 k0 H0' Hp))|exact (proj1 (R_post c HR t0 th0 k0 H0' Hp))]);
            pose proof (begin_not_caller c _ _ HR Hin0) as Hcf0;
            unfold has_sig in *;
            jsimp; simpl; eqb_all; simpl;
            first [ exact Hold | (apply app_not_nil; exact Hold) | congruence
                  | (exfalso; apply Hne'; symmetry; eapply (begin_unique c); eauto) ]).
  (* the stepping thread *)
  all: pose proof (S_thr c HS t th (j_cur th) Hth) as Hown; unfold jpre, jpost in Hown, Hp; simpl in Hp;
       repeat match goal with H : j_pc _ = _ |- _ => rewrite H in Hown end;
       repeat match goal with H : j_pc _ = _ |- _ => rewrite H in Hp end;
       rewrite ?Nat.eqb_refl in Hown; simpl in Hp.
  all: destruct Hp as [Hp|Hp]; try discriminate Hp; apply Nat.eqb_eq in Hp; subst.
  all: unfold has_sig in *;
       jsimp; simpl; eqb_all; simpl.
  all: try (apply Hown; auto; fail).
  all: try (match goal with H : p_caller (getp ?cc ?k) = true |- _ => exact (S_unres cc HS k H) end).
Qed.

Lemma JS_init : forall np ops, JS (jinit np ops).
Proof.
  intros np ops. constructor.
  - intros k Hc. unfold has_sig. destruct (getp_init np ops k) as [E|E]; rewrite E in *; simpl in *; discriminate.
  - intros t th k H [Hp|Hp]; simpl in H; rewrite nth_error_map in H; destruct (nth_error ops t); inversion H; subst; discriminate.
Qed.

Lemma JS_reach : forall v np ops c, jreach v np ops c -> JS c.
Proof.
  intros v np ops c H. induction H as [|c t c' Hr IH Hs]; [apply JS_init|].
  exact (JS_step v c t c' (JR_reach v np ops c Hr) IH Hs).
Qed.

(* JG: a promise seen in the pending-resolution state (mu free) has its pendingDone open or its result set *)
Definition pend_ok (p : prom) : Prop :=
  p_caller p = false -> p_next p = None -> is_pjoin p = false -> p_signals p <> [] -> p_mu p = None ->
  p_known p = COpen \/ p_result p <> None.

Definition JG (c : jconfig) : Prop := forall k, pend_ok (getp c k).

Lemma JG_step : forall v c t c', JG c -> jstep v c t = Some c' -> JG c'.
Proof.
  intros v c t c' HG Hs.
  jleaves Hs Hth.
  all: goal_matches.
  all: intros k0; pose proof (HG k0) as H0.
  all: jsimp.
  all: eqb_all; try exact H0.
  all: unfold pend_ok in *; simpl.
  all: intros; try discriminate; try congruence; auto.
  all: try (left; reflexivity).
  all: try (right; discriminate).
Qed.

Lemma JG_reach : forall v np ops c, jreach v np ops c -> JG c.
Proof.
  intros v np ops c H. induction H as [|c t c' Hr IH Hs]; [|exact (JG_step v c t c' IH Hs)].
  intros k. unfold pend_ok. destruct (getp_init np ops k) as [E|E]; rewrite E; simpl; intros; try discriminate; congruence.
Qed.

(* JK: a call that waits for / has seen pendingDone will find the result *)
Definition kok (c : jconfig) (th : jthread) : Prop :=
  match j_pc th with
  | QWaitKnown => p_caller (getp c (j_cur th)) = false /\
                  (p_known (getp c (j_cur th)) = COpen \/ p_result (getp c (j_cur th)) <> None)
  | QAfterKnown => p_caller (getp c (j_cur th)) = false /\ p_result (getp c (j_cur th)) <> None
  | _ => True
  end.

Definition JK (c : jconfig) : Prop := forall t th, nth_error (jthreads c) t = Some th -> kok c th.

Lemma JK_step : forall v c t c', JG c -> JK c -> jstep v c t = Some c' -> JK c'.
Proof.
  intros v c t c' HG HK Hs.
  jleaves Hs Hth.
  all: pose proof (HK t th Hth) as Hown; unfold kok in Hown;
       repeat match goal with H : j_pc _ = _ |- _ => rewrite H in Hown end.
  all: goal_matches.
  all: norm_negb.
  all: intros t0 th0 H0; simpl in H0; rewrite ?close_sigs_threads in H0; simpl in H0;
       destruct (jupd_nth_cases _ _ _ _ _ _ Hth H0) as [[-> ->]|[Hne H0']]; clear H0.
  (* another thread *)
  all: try (pose proof (HK t0 th0 H0') as Hold; jsimp;
            unfold kok in *; destruct (j_pc th0); auto;
            jsimp; eqb_all; simpl;
            first [ exact Hold | (destruct Hold as [Ha Hb]; split; [congruence|]; try (right; discriminate);
                                  try (destruct Hb; [left|right]; congruence); congruence) ]).
  (* the stepping thread *)
  all: try (unfold kok; simpl; repeat match goal with H : j_pc _ = _ |- _ => rewrite H end; exact I).
  all: try (unfold kok; simpl; repeat match goal with H : j_pc _ = _ |- _ => rewrite H end;
            jsimp; simpl; exact Hown).
  (* a call finds the promise pending: G *)
  all: try (unfold kok; simpl; jsimp; simpl;
            match goal with |- p_caller (getp ?cc ?k) = false /\ _ =>
              pose proof (HG k) as Hg; unfold pend_ok in Hg;
              unfold is_pres, p_is_joined, no_signals in *;
              destruct (p_caller (getp cc k)); try discriminate;
              destruct (p_next (getp cc k)) eqn:En; try discriminate;
              destruct (is_pjoin (getp cc k)) eqn:Ej; try discriminate;
              destruct (p_signals (getp cc k)) eqn:Es; try discriminate;
              split; [reflexivity|apply Hg; auto; discriminate] end; fail).
  (* pendingDone was seen closed *)
  all: try (unfold kok; simpl; destruct Hown as [Ha [Hb|Hb]]; split; auto; congruence).
Qed.

Lemma JK_reach : forall v np ops c, jreach v np ops c -> JK c.
Proof.
  intros v np ops c H. induction H as [|c t c' Hr IH Hs].
  - intros t th H. simpl in H. rewrite nth_error_map in H. destruct (nth_error ops t); inversion H; subst. exact I.
  - exact (JK_step v c t c' (JG_reach v np ops c Hr) IH Hs).
Qed.

(* JF: the promise a delivery was made at, other than to its PipelineCaller, is frozen: caller is nil and either
   the result is set or the signals list is empty (the resolved state, or an index the configuration holds no
   promise for: dfl_prom) *)
Definition frozen (c : jconfig) (k : nat) : Prop :=
  p_caller (getp c k) = false /\ (p_result (getp c k) <> None \/ p_signals (getp c k) = []).

Definition JF (c : jconfig) : Prop :=
  forall t k d, In (JEDeliver t k d) (jevents c) -> d <> DCaller -> frozen c k.

Lemma frozen_close : forall sigs c k, frozen c k -> frozen (close_sigs c sigs) k.
Proof.
  intros sigs c k H. unfold frozen. rewrite getp_close_sigs. exact H.
Qed.

Lemma JF_step : forall v c t c', JK c -> JF c -> jstep v c t = Some c' -> JF c'.
Proof.
  intros v c t c' HK HF Hs.
  jleaves Hs Hth.
  all: pose proof (HK t th Hth) as Hown; unfold kok in Hown;
       repeat match goal with H : j_pc _ = _ |- _ => rewrite H in Hown end.
  all: goal_matches.
  all: norm_negb.
  all: intros t0 k0 d0 Hin Hd; simpl in Hin; rewrite ?close_sigs_events in Hin; simpl in Hin.
  all: repeat (destruct Hin as [Hin|Hin]; [try discriminate Hin|]).
  (* an older delivery *)
  all: try (pose proof (HF _ _ _ Hin Hd) as [Ha Hb]; unfold frozen;
            jsimp;
            eqb_all; simpl;
            first [ (split; [exact Ha|exact Hb]) | congruence
                  | (split; [first [exact Ha|reflexivity]|first [left; discriminate | exact Hb | (right; reflexivity)]]) ]).
  (* the delivery made in this step *)
  all: try (inversion Hin; subst; try (exfalso; apply Hd; reflexivity);
            unfold frozen; jsimp;
            first [ (destruct Hown as [Ha Hb]; split; [exact Ha|left; exact Hb])
                  | (unfold is_pres, p_is_joined, no_signals in *;
                     match goal with |- p_caller (getp ?cc ?k) = false /\ _ =>
                       repeat match goal with H : p_caller (getp cc k) = _ |- _ => rewrite H in * end;
                       repeat match goal with H : p_next (getp cc k) = _ |- _ => rewrite H in * end;
                       repeat match goal with H : is_pjoin (getp cc k) = _ |- _ => rewrite H in * end;
                       simpl in *;
                       destruct (p_signals (getp cc k)); simpl in *; try congruence;
                       split; [reflexivity|right; reflexivity] end) ]; fail).
Qed.

Lemma JF_reach : forall v np ops c, jreach v np ops c -> JF c.
Proof.
  intros v np ops c H. induction H as [|c t c' Hr IH Hs]; [intros t k d []|].
  exact (JF_step v c t c' (JK_reach v np ops c Hr) IH Hs).
Qed.

(* JD: every logged delivery of a thread went to the PipelineCaller or to what the result of the promise it was
   made at holds at the thread's path *)
Definition JD (c : jconfig) : Prop :=
  forall t th k d, nth_error (jthreads c) t = Some th -> In (JEDeliver t k d) (jevents c) ->
    d = DCaller \/ d = res_dest (jcur_res (getp c k)) (j_path th).

Lemma no_deliver_yet : forall t k d l, jcnt (jis_deliver t) l = 0%nat -> ~ In (JEDeliver t k d) l.
Proof.
  induction l as [|e l IH]; intros H Hin; [destruct Hin|]. rewrite jcnt_cons in H. destruct Hin as [->|Hin].
  - simpl in H. rewrite Nat.eqb_refl in H. discriminate.
  - apply IH; auto. destruct (jis_deliver t e); simpl in H; [discriminate|exact H].
Qed.

Lemma dest_caller_dec : forall d : dest, {d = DCaller} + {d <> DCaller}.
Proof. destruct d; [left; reflexivity|right; discriminate..]. Qed.

Lemma JD_step : forall v c t c', JR c -> JS c -> JF c -> JInv c -> JD c -> jstep v c t = Some c' -> JD c'.
Proof.
  intros v c t c' HR HS HF HI HD Hs.
  jleaves Hs Hth.
  all: own_phase HR Hth.
  all: pose proof (S_thr c HS t th (j_cur th) Hth) as Hsig; unfold jpre, jpost in Hsig;
       repeat match goal with H : j_pc _ = _ |- _ => rewrite H in Hsig end; rewrite ?Nat.eqb_refl in Hsig.
  all: pose proof (HI t th Hth) as Hcnt; unfold jtinv in Hcnt;
       repeat match goal with H : j_pc _ = _ |- _ => rewrite H in Hcnt end;
       repeat match goal with H : j_op _ = _ |- _ => rewrite H in Hcnt end.
  all: goal_matches.
  all: norm_negb.
  all: try (specialize (Hpre eq_refl); destruct Hpre as [Hinb Hrn]).
  all: try (specialize (Hpost eq_refl); destruct Hpost as [Hinb Hrs]).
  all: intros t0 th0 k0 d0 H0 Hin; simpl in H0, Hin; rewrite ?close_sigs_threads in H0; rewrite ?close_sigs_events in Hin;
       simpl in H0, Hin.
  all: destruct (jupd_nth_cases _ _ _ _ _ _ Hth H0) as [[-> ->]|[Hne H0']]; clear H0.
  all: repeat (destruct Hin as [Hin|Hin]; [try discriminate Hin|]).
  (* the delivery made in this step *)
  all: try (inversion Hin; subst; try congruence;
            first [ (left; reflexivity)
                  | (right; jsimp; simpl; reflexivity) ]; fail).
  (* a step before the thread's first delivery changes its path *)
  all: try (exfalso; simpl in Hcnt;
            first [ exact (no_deliver_yet _ _ _ _ (proj2 Hcnt) Hin) | exact (no_deliver_yet _ _ _ _ Hcnt Hin) ]; fail).
  (* an older delivery *)
  all: destruct (dest_caller_dec d0) as [Hdc|Hdc]; [left; exact Hdc|].
  all: pose proof (HF _ _ _ Hin Hdc) as [Ha Hb].
  all: first [ destruct (HD _ _ _ _ Hth Hin) as [Hold|Hold] | destruct (HD _ _ _ _ H0' Hin) as [Hold|Hold] ];
       [left; exact Hold|right].
  all: unfold jcur_res in *;
       jsimp; simpl; eqb_all; simpl.
  all: try exact Hold.
  all: try (rewrite Hrs in Hold; exact Hold).
  all: try (exfalso; destruct Hb as [Hb|Hb]; [congruence|apply Hsig; auto]; fail).
  all: try congruence.
  all: rewrite Hrs in *; first [exact Hold | reflexivity | (rewrite Hold; reflexivity)].
Qed.

Lemma JD_reach : forall v np ops c, jreach v np ops c -> JD c.
Proof.
  intros v np ops c H. induction H as [|c t c' Hr IH Hs]; [intros t th k d _ []|].
  exact (JD_step v c t c' (JR_reach v np ops c Hr) (JS_reach v np ops c Hr) (JF_reach v np ops c Hr)
                 (jreach_inv v np ops c Hr) IH Hs).
Qed.

(* Destination on chains (deliveries to a PipelineCaller: join_caller_before_resolution in PromiseJoinInv.v):
   every delivery that is not to a PipelineCaller was made on the result of the promise at the end of the call's
   traversal (what that result holds at the call's path: the capability, or the failure / rejection error), and
   that promise's result is final (it can no longer be set or changed). *)
Theorem join_delivery_destination : forall v np ops c, jreach v np ops c ->
  forall t th k d, nth_error (jthreads c) t = Some th -> In (JEDeliver t k d) (jevents c) ->
    d = DCaller \/
    (d = res_dest (jcur_res (getp c k)) (j_path th) /\ p_caller (getp c k) = false /\
     (p_result (getp c k) <> None \/ p_signals (getp c k) = [])).
Proof.
  intros v np ops c Hr t th k d Hth Hin.
  destruct (dest_caller_dec d) as [Hd|Hd]; [left; exact Hd|right].
  destruct (JD_reach v np ops c Hr t th k d Hth Hin) as [H|H]; [contradiction|].
  destruct (JF_reach v np ops c Hr t k d Hin Hd) as [Ha Hb]. auto.
Qed.
