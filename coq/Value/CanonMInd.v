(* C18 [T2]: the induction on depth.  Q_ptr f: canonicalPtr with fuel f appends the canonical
   bytes of the value (snd (enc (norm v))) at the end of the segment and returns a pointer whose
   word, wherever it is stored, is fst (enc (norm v)).  Q_fill: fillCanonicalStruct writes the
   block (data words, pointer words) and appends the children in pointer order = enc_cells.
   No domain restriction: a capability makes canonicalPtr fail, so the hypothesis 'returns KOk'
   already excludes values containing one. *)
From CV Require Import Value.ValueEq Value.ValueEqProofs Value.EqualM Value.Den Value.DenFacts Value.DenLists
                       Value.CanonSpec Value.CanonProofs Value.CanonProofs3 Value.CanonM Value.CanonMStruct
                       Value.CanonMWords Value.CanonMData Value.CanonMHeap Value.CanonMLoop Value.CanonSafe.
From CV Require Import Core.ReaderFacts Core.SafetyProofs Core.BuilderFacts Core.ArithFacts Core.CopyProofs Core.CopySafe.
From Coq Require Import ZifyBool ZifyNat.
Ltac Zify.zify_post_hook ::= Z.div_mod_to_equations.
Open Scope Z_scope.

Definition aligned (p : Ptr) : Prop := p_kind p = KStruct -> DataSize (p_size p) mod 8 = 0.

(* composite lists handed out by readPtr have word-aligned element data sections (tag word) *)
Definition caligned (p : Ptr) : Prop := p_comp p = true -> DataSize (p_size p) mod 8 = 0 /\ p_bit p = false.

Lemma readListPtr_caligned strict sid s base val lp : readListPtr strict sid s base val = Ok lp -> caligned lp.
Proof.
  unfold readListPtr. destruct (element base (ptr_offset val) 8); [|discriminate].
  destruct (totalListSize val) as [[lsize|]|]; try discriminate.
  destruct (negb (regionInBounds s z lsize)); [discriminate|]. cbv zeta.
  destruct (listType val =? 7).
  - destruct (readRawPointer s z) as [hdr| |]; try discriminate. cbn [bind].
    destruct (addSize z 8); [|discriminate].
    destruct (negb (pointerType hdr =? structPointer)); [discriminate|].
    destruct (strict && (s32 (ptr_offset hdr) <? 0)); [discriminate|].
    destruct (times (totalSize (structSize hdr)) (s32 (ptr_offset hdr))); [|discriminate].
    destruct (negb (regionInBounds s z0 z1)); [discriminate|].
    intros H. inversion H; subst. intros _. cbn [p_size p_bit]. rewrite structSize_data. split; [lia|reflexivity].
  - destruct (listType val =? 1).
    + intros H. inversion H; subst. intros K. discriminate K.
    + destruct (elementSize val); [|discriminate]. intros H. inversion H; subst. intros K. discriminate K.
Qed.

(* struct pointers handed out by readPtr have word-aligned data sections, composite lists
   word-aligned element data sections *)
Lemma readPtr_aligned_both strict m rl sid s a dep q rl' :
  readPtr strict m rl sid s a dep = (Ok q, rl') -> aligned q /\ caligned q.
Proof.
  unfold readPtr, aligned. destruct (resolveFarPointer strict m sid s a) as [[[[dsid dst] base] val]| |]; try discriminate.
  destruct (val =? 0); [intros H; inversion H; subst; split; intros K; [reflexivity|discriminate K]|].
  destruct (dep =? 0); [discriminate|]. cbv zeta.
  destruct (pointerType val =? structPointer).
  { unfold readStructPtr. destruct (element base (ptr_offset val) 8); [|discriminate].
    destruct (negb (regionInBounds dst z (totalSize (structSize val)))); [discriminate|].
    unfold canRead, struct_readSize. cbn [p_valid p_size]. destruct (rl >=? totalSize (structSize val)); [|discriminate].
    intros H. inversion H; subst. split; [intros _; cbn [p_size]; rewrite structSize_data; lia|intros K; discriminate K]. }
  destruct (pointerType val =? listPointer).
  { destruct (readListPtr strict dsid dst base val) as [lp| |] eqn:EL; try discriminate.
    unfold canRead. destruct (rl >=? list_readSize lp); [|discriminate].
    intros H. inversion H; subst. split; [intros K; discriminate K|].
    pose proof (readListPtr_caligned _ _ _ _ _ _ EL) as C. intros K. cbn [p_comp p_size p_bit] in *. apply C. exact K. }
  destruct (pointerType val =? otherPointer); [|discriminate].
  destruct (negb (otherPointerType val =? 0)); [discriminate|].
  intros H. inversion H; subst. split; intros K; discriminate K.
Qed.

Lemma readPtr_aligned strict m rl sid s a dep q rl' :
  readPtr strict m rl sid s a dep = (Ok q, rl') -> aligned q.
Proof. intros H. apply (readPtr_aligned_both _ _ _ _ _ _ _ _ _ H). Qed.

Lemma readPtr_caligned strict m rl sid s a dep q rl' :
  readPtr strict m rl sid s a dep = (Ok q, rl') -> caligned q.
Proof. intros H. apply (readPtr_aligned_both _ _ _ _ _ _ _ _ _ H). Qed.

Lemma seg_write_slots data cap A ws : 0 <= A -> A + 8 * zlen ws <= zlen data -> zlen data < 4294967296 ->
  seg_write (seg0 data cap) 0 A (bytes_of_words ws) = Ok (seg0 (set_slots data A ws) cap).
Proof.
  intros HA Hb Hl. rewrite seg_write_raw by (unfold zlen in *; rewrite ?bytes_of_words_length; lia).
  unfold set_slots, write_bytes. rewrite bytes_of_words_length. reflexivity.
Qed.

Lemma put_word_app_left d t a w : 0 <= a -> a + 8 <= zlen d -> put_word (d ++ t) a w = put_word d a w ++ t.
Proof. intros Ha Hb. rewrite <- !set_slots_one. apply set_slots_app_left; [exact Ha|exact Hb]. Qed.

Lemma firstn_bytes_words d k : bytes_ok d -> (length d mod 8 = 0)%nat ->
  firstn (8 * k) d = bytes_of_words (firstn k (words_of_bytes d)).
Proof. intros Hb Hl. rewrite bow_firstn, (bow_wob d Hb Hl). reflexivity. Qed.


Lemma stripN_firstn l : stripN l = firstn (length (stripN l)) l.
Proof.
  induction l as [|y r IH]; [reflexivity|]. cbn [stripN]. destruct (stripN r) eqn:E.
  - destruct (is_null y); reflexivity.
  - cbn [length] in *. change (firstn (S (S (length l))) (y :: r)) with (y :: firstn (S (length l)) r).
    f_equal. exact IH.
Qed.

Lemma stripN_length_le l : (length (stripN l) <= length l)%nat.
Proof. rewrite (stripN_firstn l) at 1. rewrite firstn_length. lia. Qed.

Lemma stripN_map_norm_length vs : length (stripN (map norm vs)) = length (stripN vs).
Proof.
  induction vs as [|y r IH]; [reflexivity|]. cbn [map stripN].
  destruct (stripN (map norm r)) eqn:E1; destruct (stripN r) eqn:E2; cbn [length] in IH; try discriminate.
  - rewrite is_null_norm. destruct (is_null y); reflexivity.
  - cbn [length]. lia.
Qed.

Lemma set_slots_end data ws : set_slots (data ++ repeat 0 (8 * length ws)) (zlen data) ws = data ++ bytes_of_words ws.
Proof.
  unfold set_slots, zlen. rewrite Nat2Z.id, firstn_app, Nat.sub_diag, firstn_all. cbn [firstn]. rewrite app_nil_r.
  f_equal. rewrite skipn_all2 by (rewrite app_length, repeat_length; lia). apply app_nil_r.
Qed.


Lemma alloc_bound data cap sz m1 s1 a1 : 0 <= sz <= 4294967288 -> sz mod 8 = 0 ->
  alloc (seg0 data cap) 0 sz = Ok (m1, s1, a1) -> zlen data + sz <= 4294967288.
Proof. intros Hs Hmm H. rewrite <- (padToWord_mult sz Hs Hmm). exact (proj1 (alloc_seg0_end _ _ _ _ _ _ H)). Qed.

Lemma enc_struct_assemble ws vs pwords kids pos cur F :
  let k := zlen (strip0 ws) in let j := zlen (stripN vs) in
  k <= 65535 -> j < 65536 -> zlen pwords = j -> cur - pos - 1 < 536870912 ->
  (vdepth (norm (VStruct ws vs)) <= F)%nat ->
  (forall F', (forall i, 0 <= i < j -> (vdepth (norm (nthv vs i)) <= F')%nat) ->
     enc_cells (enc F') (map CP (firstn (Z.to_nat j) (map norm vs))) (cur + k) (cur + k + j) = COk (pwords, kids)) ->
  enc F (norm (VStruct ws vs)) pos cur
  = COk (if (k =? 0) && (j =? 0) then struct_word (-1) 0 0 else struct_word (cur - pos - 1) k j,
         (strip0 ws ++ pwords) ++ kids).
Proof.
  intros k j Hk0 Hj0 Lp Hoff HFd Hcells.
  assert (Kn : 0 <= k) by (unfold k, zlen; lia). assert (Jn : 0 <= j) by (unfold j, zlen; lia).
  set (ps' := stripN (map norm vs)) in *.
  assert (Eps : ps' = firstn (Z.to_nat j) (map norm vs)).
  { unfold ps', j, zlen. rewrite Nat2Z.id, <- stripN_map_norm_length. apply stripN_firstn. }
  assert (Lps : zlen ps' = j) by (unfold ps', j, zlen; rewrite stripN_map_norm_length; reflexivity).
  change (norm (VStruct ws vs)) with (VStruct (strip0 ws) ps') in *.
  destruct F as [|F']; [cbn [vdepth] in HFd; lia|].
  assert (HFk : forall i, 0 <= i < j -> (vdepth (norm (nthv vs i)) <= F')%nat).
  { intros i Hi0. cbn [vdepth] in HFd.
    assert (Hin : In (norm (nthv vs i)) ps').
    { assert (En : norm (nthv vs i) = nth (Z.to_nat i) (map norm vs) VNull)
        by (unfold nthv; symmetry; exact (map_nth norm vs VNull (Z.to_nat i))).
      pose proof (stripN_length_le vs) as Lj.
      rewrite En, Eps. rewrite <- (nth_firstn_lt (Z.to_nat i) (Z.to_nat j)) by lia. apply nth_In.
      rewrite firstn_length, map_length. unfold j, zlen in *. lia. }
    pose proof (vdepth_in_fold _ _ Hin). lia. }
  specialize (Hcells F' HFk).
  cbn [enc]. fold k. rewrite Lps.
  destruct ((k =? 0) && (j =? 0)) eqn:E0.
  - assert (k = 0 /\ j = 0) as [Ek Ej] by lia.
    destruct (strip0 ws) eqn:Es; [|unfold k, zlen in Ek; cbn [length] in Ek; lia].
    destruct pwords; [|unfold zlen in Lp; cbn [length] in Lp; lia].
    rewrite Ej in Hcells. cbn [Z.to_nat firstn map enc_cells] in Hcells. inversion Hcells. reflexivity.
  - unfold two16, two29.
    destruct ((k >=? 65536) || (j >=? 65536) || (cur - pos - 1 >=? 536870912)) eqn:E1; [lia|].
    unfold struct_cells. rewrite enc_cells_app_words. fold k. rewrite <- Eps in Hcells. rewrite Hcells.
    cbn [cbind fst snd]. reflexivity.
Qed.

Lemma newStruct_seg0 data cap k j m1 ss : hinv data -> 0 <= k <= 65535 -> 0 <= j < 65536 ->
  newStruct (seg0 data cap) 0 (mkOS (8 * k) j) = Ok (m1, ss) ->
  zlen data + 8 * k + 8 * j <= 4294967288 /\
  ss = mkPtr true 0 (zlen data) 0 (mkOS (8 * k) j) maxDepth KStruct false false false /\
  exists cap1, m1 = seg0 (data ++ repeat 0 (Z.to_nat (8 * k + 8 * j))) cap1.
Proof.
  intros [Hi1 Hi2] Hk Hj H. unfold newStruct, os_isValid in H. cbn [DataSize PointerCount] in H.
  destruct (8 * k <=? 65535 * 8) eqn:E8; [|lia]. cbn [negb] in H.
  rewrite (padToWord_mult (8 * k)) in H by lia.
  replace (totalSize (mkOS (8 * k) j)) with (8 * k + 8 * j) in H
    by (unfold totalSize, pointerSize, u32; cbn [DataSize PointerCount]; lia).
  destruct (alloc (seg0 data cap) 0 (8 * k + 8 * j)) as [[[m' sid1] addr]| |] eqn:Ea; try discriminate.
  destruct (alloc_seg0_end data cap (8 * k + 8 * j) m' sid1 addr Ea) as (Hbound & cap1 & -> & -> & ->).
  rewrite (padToWord_mult (8 * k + 8 * j)) in * by lia.
  cbn [bind] in H. inversion H; subst. split; [lia|]. split; [reflexivity|]. exists cap1. reflexivity.
Qed.

Lemma ptr_word_new_struct A k j a :
  ptr_word (mkPtr true 0 A 0 (mkOS (8 * k) j) maxDepth KStruct false false false) a
  = if (k =? 0) && (j =? 0) then struct_word (-1) 0 0 else struct_word (A / 8 - a / 8 - 1) k j.
Proof.
  unfold ptr_word, os_isZero. cbn [p_valid negb p_kind p_size p_off DataSize PointerCount].
  replace (8 * k =? 0) with (k =? 0) by lia. destruct ((k =? 0) && (j =? 0)); [reflexivity|].
  replace (8 * k / 8) with k by lia. reflexivity.
Qed.

Section Ind.
Context (c : config) (fx : cfix) (m : segs).
Context (Hstrict : cfg_strict c = true) (Hfx : all_cfixed fx) (Hm : msg_ok m).

(* what canonicalPtr / canonicalList establish: the object's canonical words are appended at the
   end of the segment, and the returned pointer's word, wherever stored, is the specification's.
   [a] ranges over the slots below the appended object, so enc's pre-order offset
   zlen data / 8 - a / 8 - 1 is non-negative. *)
Definition Qconcl (data : list Z) (v : value) (w' : world) (cp : Ptr) : Prop :=
  exists body cap' rl',
    w' = dstw (data ++ bytes_of_words body) cap' m rl' /\ hinv (data ++ bytes_of_words body) /\
    cp_shape cp (zlen (data ++ bytes_of_words body)) /\
    forall a F, 0 <= a -> a mod 8 = 0 -> a + 8 <= zlen data -> (vdepth (norm v) <= F)%nat ->
      enc F (norm v) (a / 8) (zlen data / 8) = COk (ptr_word cp a, body).

Definition Q_ptr (f : nat) : Prop := forall data cap rl p v w' cp,
  hinv data -> wf_ptr m p -> aligned p -> caligned p -> den true m 0 [] p v ->
  canonical_ptr c fx f (dstw data cap m rl) 0 p = KOk (w', cp) -> Qconcl data v w' cp.

Definition Q_list (f : nat) : Prop := forall data cap rl p v w' cp,
  hinv data -> wf_ptr m p -> p_valid p = true -> p_kind p = KList -> caligned p -> den true m 0 [] p v ->
  canonical_list c fx f (dstw data cap m rl) 0 p = KOk (w', cp) -> Qconcl data v w' cp.

(* the destination struct of a fill: a struct of segment 0 at byte address A with dn data words
   and pn pointers, inside the segment *)
Definition dst_at (dst : Ptr) (A dn pn : Z) : Prop :=
  p_valid dst = true /\ p_seg dst = 0 /\ p_off dst = A /\ p_size dst = mkOS (8 * dn) pn.

(* dn <= zlen ws, pn <= zlen vs and not equality with the truncated sizes: an element of a struct
   list is filled into a block of the list's common element size, which may exceed its own *)
Definition Q_fill (f : nat) : Prop := forall data cap rl dst s ws vs A dn pn w',
  hinv data -> dst_at dst A dn pn -> 0 <= A -> A mod 8 = 0 -> 0 <= dn -> 0 <= pn < 65536 ->
  A + 8 * dn + 8 * pn <= zlen data ->
  p_valid s = true -> p_kind s = KStruct -> wf_ptr m s -> aligned s ->
  den true m 0 [] s (VStruct ws vs) ->
  dn <= zlen ws -> pn <= zlen vs ->
  fill_canonical c fx f (dstw data cap m rl) dst s = KOk w' ->
  exists pwords kids cap' rl',
    zlen pwords = pn /\
    w' = dstw (set_slots data A (firstn (Z.to_nat dn) ws ++ pwords) ++ bytes_of_words kids) cap' m rl' /\
    hinv (data ++ bytes_of_words kids) /\
    forall F, (forall i, 0 <= i < pn -> (vdepth (norm (nthv vs i)) <= F)%nat) ->
      enc_cells (enc F) (map CP (firstn (Z.to_nat pn) (map norm vs))) (A / 8 + dn) (zlen data / 8) = COk (pwords, kids).

(* one pointer slot at byte address T of the destination: the child [p0] just read from the source
   (it denotes [v]: [q] is the same pointer read with another budget) is canonicalised behind the
   data and the pointer that comes back is stored by [set] *)
Lemma canon_child_slot f (set : world -> Ptr -> res world) : Q_ptr f ->
  forall data cap rl rl0 sid seg addr dep dep' rlk q rlk' p0 v T w0,
  hinv data -> 0 <= T -> T mod 8 = 0 -> T + 8 <= zlen data ->
  readPtr true m rl0 sid seg addr dep = (Ok p0, rl) -> wf_ptr m p0 ->
  readPtr true m rlk sid seg addr dep' = (Ok q, rlk') -> den true m 0 [] q v ->
  (forall w2 cp, set w2 cp = write_ptr 4 true w2 0 T InDst cp false) ->
  kbind (canonical_ptr c fx f (dstw data cap m rl) 0 p0) (fun wc => let '(w2, cp) := wc in of_res (set w2 cp)) = KOk w0 ->
  exists word body cap' rl',
    w0 = dstw (put_word data T word ++ bytes_of_words body) cap' m rl' /\ hinv (data ++ bytes_of_words body) /\
    forall F, (vdepth (norm v) <= F)%nat -> enc F (norm v) (T / 8) (zlen data / 8) = COk (word, body).
Proof.
  intros HQ data cap rl rl0 sid seg addr dep dep' rlk q rlk' p0 v T w0 Hinv HT HTm HTb ER WP RK DK Hset Hs0.
  assert (DP : den true m 0 [] p0 v) by (eapply den_core; [eapply readPtr_core; [exact RK|exact ER]| exact DK]).
  destruct (canonical_ptr c fx f (dstw data cap m rl) 0 p0) as [[w2 cp]| | |] eqn:EC; try discriminate.
  cbn [kbind] in Hs0.
  destruct (HQ data cap rl p0 v w2 cp Hinv WP (readPtr_aligned _ _ _ _ _ _ _ _ _ ER) (readPtr_caligned _ _ _ _ _ _ _ _ _ ER) DP EC)
    as (body & cap2 & rl2 & -> & Hinv2 & Hcp & Henc).
  rewrite Hset in Hs0.
  assert (Lb : zlen (data ++ bytes_of_words body) = zlen data + 8 * zlen body)
    by (rewrite zlen_app; unfold zlen; rewrite bytes_of_words_length; lia).
  assert (Zb : 0 <= zlen body) by (unfold zlen; lia).
  destruct Hinv2 as [Hv1 Hv2].
  rewrite (write_ptr_seg0 3) in Hs0 by (assumption || lia).
  cbn [of_res] in Hs0. inversion Hs0; subst w0; clear Hs0.
  exists (ptr_word cp T), body, cap2, rl2. split; [f_equal; apply put_word_app_left; lia|].
  split; [split; assumption|]. intros F HF. apply Henc; assumption.
Qed.

Lemma fill_step f : Q_ptr f -> Q_fill (S f).
Proof.
  intros HQ data cap rl dst s ws vs A dn pn w' Hi (Dv & Dseg & Doff & Dsz) HA HAm Hdn Hpn Hb Hv Hk Hwf Hal D Hdw Hpv H.
  destruct Hi as [Hi1 Hi2].
  destruct (den_struct_aligned m _ _ s ws vs Hm D Hv Hk (Hal Hk)) as (d & _ & Sl & Ebw & Lws & [Wd Wp] & Lvs & K).
  assert (Ld : length d = (8 * length ws)%nat) by (rewrite <- Ebw; apply bytes_of_words_length).
  rewrite fill_canonical_S in H. rewrite Doff, Dsz in H. cbn [DataSize PointerCount] in H.
  replace (dst_seg (dstw data cap m rl) dst) with data in H by (unfold dst_seg; rewrite Dseg; reflexivity).
  change (src_seg (dstw data cap m rl) s) with (seg_of m s) in H.
  assert (Z0 : 0 <= zlen data) by (unfold zlen; lia).
  rewrite slice_ok in H by lia. rewrite Sl in H. cbn [of_res kbind] in H.
  assert (Lsub : length (sub data A (8 * dn)) = Z.to_nat (8 * dn)).
  { apply Nat2Z.inj. change (zlen (sub data A (8 * dn)) = Z.of_nat (Z.to_nat (8 * dn))). rewrite sub_length by lia. lia. }
  rewrite Lsub in H. unfold zlen in Hdw.
  rewrite Nat.min_l in H by lia.
  replace (Z.to_nat (8 * dn)) with (8 * Z.to_nat dn)%nat in H by lia.
  rewrite <- Ebw, <- bow_firstn in H.
  set (dws := firstn (Z.to_nat dn) ws) in *.
  assert (Ldw : zlen dws = dn) by (unfold dws, zlen; rewrite firstn_length; lia).
  unfold lift0 in H. cbn [w_dst dstw] in H. rewrite Dseg in H.
  rewrite seg_write_slots in H by lia. cbn [bind of_res kbind w_set_dst w_src w_src_rl] in H.
  change (mkW (seg0 (set_slots data A dws) cap) m rl) with (dstw (set_slots data A dws) cap m rl) in H.
  assert (Ls1 : zlen (set_slots data A dws) = zlen data).
  { apply set_slots_length; [lia|]. unfold zlen in *. lia. }
  set (data1 := set_slots data A dws) in *.
  set (vals := firstn (Z.to_nat pn) (map norm vs)).
  assert (Lvals : zlen vals = pn) by (unfold vals, zlen in *; rewrite firstn_length, map_length; lia).
  (* the loop *)
  set (step := fun (wa : world) (i : Z) =>
                 let '(r, rl') := struct_ptr c (w_src wa) (w_src_rl wa) s i in
                 let wb := w_set_rl wa InSrc rl' in
                 kbind (of_res r) (fun p0 : Ptr =>
                 kbind (canonical_ptr c fx f wb 0 p0) (fun wc : world * Ptr =>
                 let '(w2, cp) := wc in of_res (struct_set_ptr 4 w2 dst i InDst cp)))) in *.
  set (okF := fun F : nat => forall i, 0 <= i < pn -> (vdepth (norm (nthv vs i)) <= F)%nat).
  assert (Hstep : forall i data0 cap0 rl0 w0, 0 <= i < zlen vals -> hinv data0 -> (A + 8 * dn) + 8 * zlen vals <= zlen data0 ->
            step (dstw data0 cap0 m rl0) i = KOk w0 ->
            exists word body cap' rl',
              w0 = dstw (put_word data0 ((A + 8 * dn) + 8 * i) word ++ bytes_of_words body) cap' m rl' /\
              hinv (data0 ++ bytes_of_words body) /\
              forall F, okF F -> enc F (nth (Z.to_nat i) vals VNull) ((A + 8 * dn) / 8 + i) (zlen data0 / 8) = COk (word, body)).
  { intros i data0 cap0 rl0 w0 Hi0 Hinv0 Hb0 Hs0. unfold step in Hs0. cbn [w_src w_src_rl dstw] in Hs0.
    assert (Hpi : 0 <= i < PointerCount (p_size s)) by (unfold zlen in *; lia).
    pose proof (struct_ptr_safe c m rl0 s i Hm (conj Hwf (fun _ => Hk)) ltac:(lia)) as SS.
    rewrite (struct_ptr_unfold c m rl0 s i Hv (proj2 Hpi)), Hstrict in Hs0, SS.
    destruct (readPtr true m rl0 (p_seg s) (seg_of m s) (pointerAddress s i) (p_depth s)) as [r rl1] eqn:ER.
    destruct r as [p0| |]; try discriminate. cbn [of_res kbind fst res_sat] in Hs0, SS.
    destruct (K i Hpi) as (dep & rlk & q & rlk' & RK & DK).
    change (w_set_rl (dstw data0 cap0 m rl0) InSrc rl1) with (dstw data0 cap0 m rl1) in Hs0.
    assert (Hip : 0 <= i < pn) by lia.
    destruct (canon_child_slot f (fun w2 cp => struct_set_ptr 4 w2 dst i InDst cp) HQ data0 cap0 rl1 rl0 _ _ _ _ dep rlk q rlk'
                p0 (nthv vs i) ((A + 8 * dn) + 8 * i) w0 Hinv0 ltac:(lia) ltac:(lia) ltac:(lia) ER (SS eq_refl) RK DK)
      as (word & body & cap2 & rl2 & E & Hinv2 & Henc); [|exact Hs0|].
    { intros w2 cp. unfold struct_set_ptr. rewrite Dv, Dsz, Dseg. cbn [negb orb PointerCount].
      destruct (i >=? pn) eqn:Eip; [lia|].
      rewrite pointerAddress_eq; rewrite ?Doff, ?Dsz; cbn [DataSize]; destruct Hinv0; unfold maxSegmentSize, zlen in *; try lia. reflexivity. }
    exists word, body, cap2, rl2. split; [exact E|]. split; [exact Hinv2|]. intros F HF.
    replace ((A + 8 * dn) / 8 + i) with (((A + 8 * dn) + 8 * i) / 8) by lia.
    replace (nth (Z.to_nat i) vals VNull) with (norm (nthv vs i)); [apply Henc, HF, Hip|].
    unfold vals, nthv. rewrite nth_firstn_lt by lia.
    change VNull with (norm VNull) at 2. rewrite map_nth. reflexivity. }
  replace (Z.to_nat pn) with (length vals) in H by (unfold zlen in Lvals; lia).
  change (w_set_dst (dstw data cap m rl) (seg0 data1 cap)) with (dstw data1 cap m rl) in H.
  destruct (slots_loop step m (A + 8 * dn) vals okF enc ltac:(lia) ltac:(lia) Hstep (length vals) (le_n _)
                       data1 cap rl w' ltac:(unfold hinv; rewrite Ls1; split; assumption)
                       ltac:(rewrite Ls1; lia) H)
    as (pwords & kids & cap' & rl' & Lp & -> & Hinvk & Ec0).
  exists pwords, kids, cap', rl'. split; [unfold zlen in *; lia|]. split.
  - f_equal. f_equal. unfold data1. rewrite <- Ldw. rewrite set_slots_app; [reflexivity|lia|].
    rewrite zlen_app. unfold zlen in *. lia.
  - split.
    + unfold hinv in *. rewrite zlen_app in *. rewrite Ls1 in Hinvk. exact Hinvk.
    + intros F HF. specialize (Ec0 F HF). rewrite firstn_all in Ec0. rewrite Ls1 in Ec0.
      replace ((A + 8 * dn) / 8) with (A / 8 + dn) in Ec0 by lia. exact Ec0.
Qed.

(* canonicalPtr.  Q_fill f -> Q_list f -> Q_ptr (S f): null; struct (canonicalStructSize_spec gives the size, newStruct_seg0 the
   fresh block at the end, Q_fill the block and the children, then enc's struct case); list = Q_list;
   capability pointer: KErr, excluded by the hypothesis *)
Lemma ptr_step f : Q_fill f -> Q_list f -> Q_ptr (S f).
Proof.
  intros HF HL data cap rl p v w' cp Hi Hwf Hal Hcal D H. rewrite canonical_ptr_S in H.
  destruct (p_valid p) eqn:Hv; cbn [negb] in H.
  2:{ (* null *)
    inversion H; subst w' cp; clear H. pose proof (den_is_null _ _ _ _ _ _ D) as Hn. rewrite Hv in Hn.
    destruct v; try discriminate. exists [], cap, rl. cbn [bytes_of_words flat_map]. rewrite app_nil_r.
    split; [reflexivity|]. split; [exact Hi|]. split; [left; reflexivity|].
    intros a F _ _ _ HFd. cbn [norm vdepth] in HFd. destruct F; [lia|]. reflexivity. }
  destruct (p_kind p) eqn:Hk.
  2:{ exact (HL data cap rl p v w' cp Hi Hwf Hv Hk Hcal D H). }
  2:{ discriminate H. }
  destruct v as [| |ws vs| |]; try (exfalso; inversion D; subst; congruence).
  destruct Hfx as (_ & _ & Hfn & _). rewrite Hfn, Hstrict in H. cbn [w_src w_dst dstw] in H.
  destruct (canonicalStructSize_spec m 0 [] p _ Hm Hwf Hv Hk (Hal Hk) D) as (ws' & vs' & E & Hcss).
  inversion E; subst ws' vs'; clear E. rewrite Hcss in H. cbn [of_res kbind] in H.
  destruct (den_struct_aligned m _ _ p ws vs Hm D Hv Hk (Hal Hk)) as (d & _ & _ & _ & Lws & [Wd Wp] & Lvs & _).
  set (k := zlen (strip0 ws)) in *. set (j := zlen (stripN vs)) in *.
  pose proof (strip0_length_le ws) as Lk. pose proof (stripN_length_le vs) as Lj.
  assert (Hk0 : 0 <= k <= 65535) by (unfold k, zlen in *; lia).
  assert (Hj0 : 0 <= j < 65536) by (unfold j, zlen in *; lia).
  destruct (newStruct (seg0 data cap) 0 (mkOS (8 * k) j)) as [[m1 ss0]| |] eqn:EN; try discriminate H.
  destruct (newStruct_seg0 data cap k j m1 ss0 Hi Hk0 Hj0 EN) as (Hbound & -> & cap1 & ->).
  cbn [lift bind of_res kbind] in H.
  set (ss := mkPtr true 0 (zlen data) 0 (mkOS (8 * k) j) maxDepth KStruct false false false) in *.
  set (data1 := data ++ repeat 0 (Z.to_nat (8 * k + 8 * j))) in *.
  change (w_set_dst (dstw data cap m rl) (seg0 data1 cap1)) with (dstw data1 cap1 m rl) in H.
  destruct (fill_canonical c fx f (dstw data1 cap1 m rl) ss p) as [w2| | |] eqn:Ef; try discriminate.
  cbn [kbind] in H. inversion H; subst w' cp; clear H.
  destruct Hi as [Hi1 Hi2]. assert (Z0 : 0 <= zlen data) by (unfold zlen; lia).
  assert (L1 : zlen data1 = zlen data + 8 * k + 8 * j) by (unfold data1; rewrite zlen_app; unfold zlen; rewrite repeat_length; lia).
  destruct (HF data1 cap1 rl ss p ws vs (zlen data) k j w2 ltac:(split; lia) ltac:(repeat split) Z0 Hi1 ltac:(lia) Hj0 ltac:(lia)
               Hv Hk Hwf Hal D ltac:(unfold k, zlen in *; lia) ltac:(unfold j, zlen in *; lia) Ef)
    as (pwords & kids & cap2 & rl2 & Lp & -> & Hinv2 & Hcells).
  set (dws := firstn (Z.to_nat k) ws) in *.
  assert (Edws : dws = strip0 ws) by (unfold dws, k, zlen; rewrite Nat2Z.id; symmetry; apply strip0_firstn).
  assert (Lblock : zlen (dws ++ pwords) = k + j) by (rewrite zlen_app, Edws, Lp; reflexivity).
  assert (Edata : set_slots data1 (zlen data) (dws ++ pwords) = data ++ bytes_of_words (dws ++ pwords)).
  { unfold data1. replace (Z.to_nat (8 * k + 8 * j)) with (8 * length (dws ++ pwords))%nat by (unfold zlen in Lblock; lia).
    apply set_slots_end. }
  rewrite Edata. exists ((dws ++ pwords) ++ kids), cap2, rl2.
  rewrite (bow_app (dws ++ pwords) kids), <- app_assoc. split; [reflexivity|].
  assert (Lbw : zlen (bytes_of_words (dws ++ pwords)) = 8 * k + 8 * j) by (unfold zlen in *; rewrite bytes_of_words_length; lia).
  split.
  { unfold hinv in *. rewrite !zlen_app in *. rewrite Lbw. rewrite L1 in Hinv2. lia. }
  split.
  { right. unfold ss. cbn [p_valid p_seg p_member p_off p_kind p_size].
    split; [reflexivity|]. split; [reflexivity|]. split; [reflexivity|]. split; [exact Hi1|].
    split.
    - rewrite !zlen_app, Lbw. assert (0 <= zlen (bytes_of_words kids)) by (unfold zlen; lia). lia.
    - unfold os_wf. cbn [DataSize PointerCount]. lia. }
  intros a F Ha Ham Hab HFd.
  rewrite (enc_struct_assemble ws vs pwords kids (a / 8) (zlen data / 8) F); fold k j; try lia; try assumption.
  - unfold ss. rewrite Edws, ptr_word_new_struct. reflexivity.
  - intros F' HF'. rewrite <- (Hcells F' HF'). f_equal. lia.
Qed.

End Ind.
