(* C18 [T2]: canonicalList, the struct-list case.  The element size computed for a struct list is
   the specification's (CanonMBlocks.elem_size_list), the loop of one fillCanonicalStruct per
   element is CanonMLoop.blocks_loop.  list_comp_case: newCompositeList appends the tag word struct_word n dn pn and n zero blocks; each
   element fills its block (possibly larger than its own truncated size = pad0 / padN) and appends
   its children: exactly enc's LComp case. *)
From CV Require Import Value.ValueEq Value.ValueEqProofs Value.EqualM Value.Den Value.DenFacts Value.DenLists
                       Value.CanonSpec Value.CanonProofs Value.CanonProofs2 Value.CanonProofs3 Value.CanonM Value.CanonMStruct
                       Value.CanonMWords Value.CanonMData Value.CanonMHeap Value.CanonMLoop Value.CanonSafe
                       Value.CanonMInd.
From CV Require Import Core.ReaderFacts Core.SafetyProofs Core.BuilderFacts Core.ArithFacts Core.CopySafe.
From Coq Require Import ZifyBool ZifyNat.
Ltac Zify.zify_post_hook ::= Z.div_mod_to_equations.
Open Scope Z_scope.
From CV Require Import Value.CanonMBlocks Value.CanonMBytes.

Section ListC2.
Context (c : config) (fx : cfix) (m : segs).
Context (Hstrict : cfg_strict c = true) (Hfx : all_cfixed fx) (Hm : msg_ok m).



Lemma list_comp_case f : Q_fill c fx m f -> forall data cap rl p vs w' cp,
  hinv data -> wf_ptr m p -> caligned p -> den true m 0 [] p (VList LComp vs) ->
  canonical_list c fx (S f) (dstw data cap m rl) 0 p = KOk (w', cp) -> Qconcl m data (VList LComp vs) w' cp.
Proof.
  intros HF data cap rl p vs w' cp Hi Hwf Hcal D H.
  destruct (den_comp_inv m _ _ D) as (Hv & Hk & Hb & Hc & Hws & Lvs & K).
  destruct (Hcal Hc) as [Hal _].
  destruct (Hwf Hv) as (Hseg & Hobj). unfold wf_obj in Hobj. rewrite Hk, Hb in Hobj.
  destruct Hobj as (Ho & Hlen & _ & Hbd).
  destruct Hfx as (Hcl & Hbp & Hfn & Hfd & Hfu & Hfb).
  destruct (comp_elems_max_len m Hm p vs Hwf Hv Hk Hb Hal Lvs K) as [Hdn Hpn].
  set (n := p_len p) in *.
  set (ns := map norm vs) in *.
  set (dn' := max_len sdata ns) in *. set (pn' := max_len sptrs ns) in *.
  set (dn := Z.of_nat dn') in *. set (pn := Z.of_nat pn') in *.
  destruct Hws as [Hws1 Hws2].
  assert (Bdn : 0 <= dn <= 65535) by (unfold dn; lia).
  assert (Bpn : 0 <= pn < 65536) by (unfold pn; lia).
  pose proof (fun i => norm_nthv_max_len sdata vs i eq_refl) as LeD.
  pose proof (fun i => norm_nthv_max_len sptrs vs i eq_refl) as LeP. fold ns dn' pn' in LeD, LeP.
  destruct Hi as [Hi1 Hi2]. assert (Z0 : 0 <= zlen data) by (unfold zlen; lia).
  (* the code *)
  rewrite canonical_list_S in H. rewrite Hv, Hcl, Hc in H. cbn [negb andb] in H. rewrite Bool.andb_false_r in H.
  rewrite Hfn, Hstrict, Hfd in H. cbn [w_src dstw] in H. unfold list_len at 1 in H. rewrite Hv in H. fold n in H.
  pose proof (elem_size_list m Hm p vs Hwf Hv Hk Hb Hal Lvs K) as Esz. fold n in Esz. rewrite Esz in H. clear Esz.
  fold ns dn' pn' dn pn in H. cbn [of_res kbind] in H.
  unfold newCompositeList, os_isValid in H. cbn [DataSize PointerCount w_dst dstw] in H.
  destruct (8 * dn <=? 65535 * 8) eqn:E8; [|lia]. cbn [negb] in H.
  destruct ((n <? 0) || (n >=? 536870912)) eqn:En; [lia|].
  rewrite (padToWord_mult (8 * dn)) in H by lia.
  set (bw := dn + pn) in *. assert (Ebw : bw = dn + pn) by reflexivity. clearbody bw.
  assert (Ets : totalSize (mkOS (8 * dn) pn) = 8 * bw)
    by (unfold totalSize, pointerSize, u32; cbn [DataSize PointerCount]; lia).
  rewrite Ets in H.
  destruct (times (8 * bw) n) as [total|] eqn:Et; [|discriminate H].
  apply times_spec in Et. destruct Et as [-> Ht]. unfold maxSegmentSize in Ht.
  set (total := 8 * bw * n) in *. assert (Etot : total = 8 * (bw * n)) by (unfold total; lia). clearbody total.
  destruct (total >? maxSegmentSize - 8) eqn:Egt; [discriminate H|]. unfold maxSegmentSize in Egt.
  rewrite (u32_id (8 + total)) in H by lia.
  unfold lift in H.
  destruct (alloc (seg0 data cap) 0 (8 + total)) as [[[m1 sid1] addr]| |] eqn:Ea; try discriminate H.
  destruct (alloc_seg0_end data cap (8 + total) m1 sid1 addr Ea) as (Hbound & cap1 & -> & -> & ->).
  rewrite (padToWord_mult (8 + total)) in * by lia.
  cbn [bind] in H.
  assert (Owf : os_wf (mkOS (8 * dn) pn)) by (unfold os_wf; cbn [DataSize PointerCount]; lia).
  rewrite (raw_struct_is_struct_word n (mkOS (8 * dn) pn) Owf) in H. cbn [of_opt_panic bind DataSize PointerCount] in H.
  replace (8 * dn / 8) with dn in H by lia.
  set (tag := struct_word n dn pn) in *.
  assert (Lz : zlen (data ++ repeat 0 (Z.to_nat (8 + total))) = zlen data + 8 + total)
    by (rewrite zlen_app; unfold zlen; rewrite repeat_length; lia).
  rewrite writeRaw_seg0 in H by lia. cbn [bind of_res kbind w_set_dst w_src w_src_rl] in H.
  replace (addSizeUnchecked (zlen data) 8) with (zlen data + 8) in H by (unfold addSizeUnchecked, u32; lia).
  assert (Edata1 : put_word (data ++ repeat 0 (Z.to_nat (8 + total))) (zlen data) tag
                   = (data ++ le_encode 8 tag) ++ repeat 0 (Z.to_nat total)).
  { pose proof (put_word_mid data (repeat 0 (Z.to_nat (8 + total))) [] tag ltac:(rewrite repeat_length; lia)) as E.
    rewrite !app_nil_r in E. fold (zlen data) in E. rewrite E, skipn_repeat, <- app_assoc. f_equal. f_equal. f_equal. lia. }
  rewrite Edata1 in H.
  set (dataT := data ++ le_encode 8 tag) in *.
  assert (LT : zlen dataT = zlen data + 8) by (unfold dataT; rewrite zlen_app; unfold zlen; rewrite le_encode_length; lia).
  set (data1 := dataT ++ repeat 0 (Z.to_nat total)) in *.
  assert (L1 : zlen data1 = zlen data + 8 + total) by (unfold data1; rewrite zlen_app, LT; unfold zlen; rewrite repeat_length; lia).
  set (cl := mkPtr true 0 (zlen data + 8) n (mkOS (8 * dn) pn) maxDepth KList true false false) in *.
  change (w_set_dst (dstw data cap m rl) (seg0 data1 cap1)) with (dstw data1 cap1 m rl) in H.
  unfold list_len in H. cbn [p_valid p_len cl] in H.
  match type of H with context [kfold ?l ?w0 ?st] => destruct (kfold l w0 st) as [w3| | |] eqn:Ek end; try discriminate H.
  cbn [kbind] in H. inversion H; subst w' cp; clear H.
  (* the loop *)
  set (step := fun (wa : world) (i : Z) =>
                 kbind (of_res (list_struct true cl i)) (fun de : Ptr =>
                 kbind (of_res (list_struct true p i)) (fun se : Ptr => fill_canonical c fx f wa de se))) in *.
  set (cellsOf := fun i : Z => struct_cells (pad0 dn' (sdata (norm (nthv vs i)))) (padN pn' (sptrs (norm (nthv vs i))))).
  assert (Hcells : forall i, zlen (cellsOf i) = bw).
  { intros i. unfold cellsOf, struct_cells, zlen. rewrite app_length, !map_length, pad0_length, padN_length by auto. lia. }
  set (okF := fun F : nat => forall i j, 0 <= i < n -> 0 <= j < pn ->
                (vdepth (norm (nthv (sptrs (nthv vs i)) j)) <= F)%nat).
  assert (Hn0 : Z.of_nat (Z.to_nat n) = n) by lia.
  assert (Hstep : forall i data0 cap0 rl0 w0, 0 <= i < Z.of_nat (Z.to_nat n) -> hinv data0 ->
            (zlen data + 8) + 8 * bw * Z.of_nat (Z.to_nat n) <= zlen data0 ->
            step (dstw data0 cap0 m rl0) i = KOk w0 ->
            exists block body cap' rl',
              zlen block = bw /\
              w0 = dstw (set_slots data0 ((zlen data + 8) + 8 * bw * i) block ++ bytes_of_words body) cap' m rl' /\
              hinv (data0 ++ bytes_of_words body) /\
              forall F, okF F -> enc_cells (enc F) (cellsOf i) ((zlen data + 8) / 8 + bw * i) (zlen data0 / 8) = COk (block, body)).
  { intros i data0 cap0 rl0 w0 Hi0 Hinv0 Hb0 Hs0. unfold step in Hs0. rewrite Hn0 in Hi0, Hb0.
    destruct (elem_span (zlen data + 8) n (8 * bw) i (zlen data0) ltac:(lia) ltac:(lia) Hi0 ltac:(lia)) as [HA0 HA1].
    set (A := (zlen data + 8) + 8 * bw * i) in *. assert (EA : A = zlen data + 8 + i * (8 * bw)) by (unfold A; lia). clearbody A.
    rewrite (list_struct_ok true cl i eq_refl eq_refl Hi0) in Hs0 by (cbn [cl p_off p_size]; rewrite Ets; destruct Hinv0; lia).
    cbn [cl p_seg p_off p_size p_depth of_res kbind] in Hs0. rewrite Ets, <- EA in Hs0.
    destruct (list_struct_den true m 0 [] p vs i Hm Hwf Hv Hk Hb Hi0 (K i Hi0)) as (se & El & We & Ve & Kse & Cz & De).
    rewrite El in Hs0. cbn [of_res kbind] in Hs0.
    destruct (comp_elem_shape m Hm p vs i Hwf Hv Hk Hb Hal Hi0 (K i Hi0)) as (ws & ps & Ev & Lws & Lps).
    rewrite Ev in De.
    set (de := mkPtr true 0 A 0 (mkOS (8 * dn) pn) (if true && (maxDepth =? 0) then 0 else uint_dec maxDepth)
                     KStruct false false true) in Hs0.
    assert (Hdst : dst_at de A dn pn) by (repeat split).
    destruct (HF data0 cap0 rl0 de se ws ps A dn pn w0 Hinv0 Hdst ltac:(lia) ltac:(lia)
                 ltac:(lia) Bpn ltac:(lia) Ve Kse We ltac:(intros _; rewrite Cz; exact Hal) De ltac:(lia) ltac:(lia) Hs0)
      as (pwords & kids & cap2 & rl2 & Lp & -> & Hinv2 & Hc0).
    exists (firstn (Z.to_nat dn) ws ++ pwords), kids, cap2, rl2.
    assert (Lf : zlen (firstn (Z.to_nat dn) ws) = dn) by (unfold zlen in *; rewrite firstn_length; lia).
    split; [rewrite zlen_app; lia|]. split; [reflexivity|]. split; [exact Hinv2|].
    intros F HFo.
    assert (Ecell : cellsOf i = map CW (firstn (Z.to_nat dn) ws) ++ map CP (firstn (Z.to_nat pn) (map norm ps))).
    { unfold cellsOf, struct_cells. pose proof (LeD i) as L1'. pose proof (LeP i) as L2'. rewrite Ev in *.
      cbn [norm sdata sptrs] in *. unfold dn, pn. rewrite !Nat2Z.id.
      rewrite pad0_strip0 by (unfold zlen in *; lia).
      rewrite padN_stripN by (rewrite map_length; unfold zlen in *; lia). reflexivity. }
    rewrite Ecell, enc_cells_app_words, Lf.
    replace ((zlen data + 8) / 8 + bw * i + dn) with (A / 8 + dn) by lia.
    rewrite Hc0; [reflexivity|].
    intros j Hj. specialize (HFo i j Hi0 Hj). rewrite Ev in HFo. exact HFo. }
  destruct (blocks_loop step m (zlen data + 8) bw (Z.to_nat n) cellsOf okF enc ltac:(lia) ltac:(lia) ltac:(lia)
                        Hcells Hstep (Z.to_nat n) (le_n _) data1 cap1 rl w3 ltac:(split; lia)
                        ltac:(lia) Ek)
    as (words & kids & cap' & rl' & Lw & -> & Hinvk & Ec0).
  rewrite Hn0 in Lw.
  assert (Edata : set_slots data1 (zlen data + 8) words = dataT ++ bytes_of_words words).
  { unfold data1. replace (Z.to_nat total) with (8 * length words)%nat by (unfold zlen in *; lia).
    rewrite <- LT. apply set_slots_end. }
  rewrite Edata. exists ((tag :: words) ++ kids), cap', rl'.
  assert (Ebody : (dataT ++ bytes_of_words words) ++ bytes_of_words kids = data ++ bytes_of_words ((tag :: words) ++ kids)).
  { unfold dataT. rewrite bow_app. change (bytes_of_words (tag :: words)) with (le_encode 8 tag ++ bytes_of_words words).
    rewrite <- !app_assoc. reflexivity. }
  rewrite Ebody. split; [reflexivity|].
  assert (Lbw : zlen (bytes_of_words words) = total) by (unfold zlen in *; rewrite bytes_of_words_length; lia).
  assert (Hinv3 : hinv (data ++ bytes_of_words ((tag :: words) ++ kids))).
  { rewrite <- Ebody. unfold hinv in *. rewrite !zlen_app in *. rewrite L1 in Hinvk. rewrite LT, Lbw. lia. }
  split; [exact Hinv3|].
  split.
  { right. unfold cl. cbn [p_valid p_seg p_member p_off p_kind p_size p_len p_comp p_bit DataSize PointerCount].
    split; [reflexivity|]. split; [reflexivity|]. split; [reflexivity|]. split; [lia|].
    split.
    - rewrite <- Ebody, !zlen_app, LT. assert (0 <= zlen (bytes_of_words kids)) by (unfold zlen; lia). lia.
    - split; [lia|]. split; [exact Owf|]. split; [lia|]. replace (8 * dn / 8) with dn by lia. lia. }
  intros a F Ha Ham Hab HFd.
  (* the specification *)
  assert (Lpe : zlen (pad_elems ns) = n) by (unfold pad_elems, ns; rewrite !zlen_map; exact Lvs).
  assert (Ecells : flat_map (fun e => struct_cells (pad0 dn' (sdata e)) (padN pn' (sptrs e))) (pad_elems ns)
                   = flat_map cellsOf (iota (Z.to_nat n))).
  { unfold pad_elems. fold dn' pn'. rewrite flat_map_map. cbn [sdata sptrs].
    rewrite (flat_map_ext_in _ (fun e => struct_cells (pad0 dn' (sdata e)) (padN pn' (sptrs e)))).
    2:{ intros e He. rewrite pad0_id, padN_id; [reflexivity| |].
        - apply padN_length. apply length_le_max_len. exact He.
        - apply pad0_length. apply length_le_max_len. exact He. }
    unfold ns. rewrite flat_map_map. rewrite <- (map_nthv_iota vs) at 1. rewrite flat_map_map.
    replace (length vs) with (Z.to_nat n) by (unfold zlen in *; lia). reflexivity. }
  change (norm (VList LComp vs)) with (VList LComp (pad_elems ns)) in *.
  destruct F as [|F']; [cbn [vdepth] in HFd; lia|].
  assert (HFk : okF F').
  { intros i j Hi0 Hj0. cbn [vdepth] in HFd.
    destruct (comp_elem_shape m Hm p vs i Hwf Hv Hk Hb Hal Hi0 (K i Hi0)) as (ws & ps & Ev & Lws & Lps). rewrite Ev. cbn [sptrs].
    set (e' := VStruct (pad0 dn' (strip0 ws)) (padN pn' (stripN (map norm ps)))).
    assert (Hin : In e' (pad_elems ns)).
    { unfold pad_elems. fold dn' pn'. apply in_map_iff. exists (norm (nthv vs i)). split.
      - rewrite Ev. reflexivity.
      - unfold ns. apply in_map. unfold nthv. apply nth_In. unfold zlen in *. lia. }
    pose proof (vdepth_in_fold _ _ Hin) as Hd. unfold e' in Hd. cbn [vdepth] in Hd.
    pose proof (LeP i) as L2'. rewrite Ev in L2'. cbn [norm sptrs] in L2'.
    rewrite padN_stripN in Hd by (rewrite map_length; unfold zlen, pn in *; lia).
    assert (Hin2 : In (norm (nthv ps j)) (firstn pn' (map norm ps))).
    { assert (Enj : norm (nthv ps j) = nth (Z.to_nat j) (map norm ps) VNull)
        by (unfold nthv; symmetry; exact (map_nth norm ps VNull (Z.to_nat j))).
      rewrite Enj. rewrite <- (nth_firstn_lt (Z.to_nat j) pn') by (unfold pn in *; lia). apply nth_In.
      rewrite firstn_length, map_length. unfold zlen, pn in *. lia. }
    pose proof (vdepth_in_fold _ _ Hin2). lia. }
  specialize (Ec0 F' HFk).
  cbn [enc]. rewrite Lpe. rewrite max_len_pad_elems_d, max_len_pad_elems_p. fold dn' pn' dn pn.
  unfold two29, two16.
  destruct ((n >=? 536870912) || (zlen data / 8 - a / 8 - 1 >=? 536870912)) eqn:E1; [lia|].
  rewrite <- Ebw.
  destruct ((dn >=? 65536) || (pn >=? 65536) || (n * bw >=? 536870912)) eqn:E2; [lia|].
  replace (Z.to_nat dn) with dn' by (unfold dn; lia). replace (Z.to_nat pn) with pn' by (unfold pn; lia).
  rewrite Ecells. cbn [enc_cells].
  replace (zlen data / 8 + 1) with ((zlen data + 8) / 8) by lia.
  replace ((zlen data + 8) / 8 + n * bw) with (zlen data1 / 8) by lia.
  rewrite Ec0. cbn [cbind fst snd].
  unfold ptr_word, cl. cbn [p_valid negb p_kind p_comp p_bit p_size PointerCount DataSize p_off p_len].
  replace (8 * dn / 8) with dn by lia. replace ((zlen data + 8 - 8) / 8) with (zlen data / 8) by lia.
  rewrite <- Ebw. reflexivity.
Qed.

End ListC2.
