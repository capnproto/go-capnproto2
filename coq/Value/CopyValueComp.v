(* C16 [T2] copy_value: writePtr of the lists whose elements are copied by copyStruct: pointer lists and struct lists *)
From CV Require Import Value.ValueEq Value.ValueEqProofs Value.EqualM Value.Den Value.DenFacts Value.DenLists
                       Value.CanonSpec Value.CanonProofs Value.CanonProofs3 Value.CanonM Value.CanonMStruct Value.CanonMData Value.CanonMHeap
                       Value.CanonMLoop Value.CanonMInd Value.CanonMBytes Value.CanonMBlocks Value.CopyValue Value.CopyValueHeap Value.CopyValueDefs.
From CV Require Import Core.ReaderFacts Core.SafetyProofs Core.BuilderFacts Core.ArithFacts Core.CopyProofs Core.CopySafe
                       Core.WritePtrProofs.
From Coq Require Import ZifyBool ZifyNat.
Ltac Zify.zify_post_hook ::= Z.div_mod_to_equations.
Open Scope Z_scope.

Section Copy.
Context (m : segs) (Hm : msg_ok m).

(* element i of the destination list at B is filled by copyStruct from element i of the source;
   the elements read back as structs denoting the source's element values *)
Lemma copy_elems f : CopyValueDefs.P_cs m f -> forall src dstl vs dn pn B D cap rl w',
  wf_ptr m src -> p_valid src = true -> p_kind src = KList -> p_bit src = false -> p_size src = mkOS (8 * dn) pn ->
  0 <= dn <= 65535 -> 0 <= pn < 65536 -> zlen vs = p_len src -> forallb cvdom vs = true ->
  (forall i, 0 <= i < p_len src -> den true m 0 [] (elem_ptr src i) (nthv vs i)) ->
  (forall i, 0 <= i < p_len src -> exists ws ps, nthv vs i = VStruct ws ps /\ zlen ws = dn /\ zlen ps = pn) ->
  p_valid dstl = true -> p_bit dstl = false -> p_seg dstl = 0 -> p_off dstl = B -> p_len dstl = p_len src ->
  p_size dstl = p_size src ->
  hinv D -> 0 <= B -> B mod 8 = 0 -> B + 8 * (dn + pn) * p_len src <= zlen D ->
  fold_res (iota (Z.to_nat (p_len src))) (dstw D cap m rl)
    (fun wa i => do de <- list_struct true dstl i; do se <- list_struct true src i; copy_struct f true wa de InSrc se) = Ok w' ->
  exists words kids cap' rl',
    zlen words = (dn + pn) * p_len src /\ w' = dstw (set_slots D B words ++ kids) cap' m rl' /\ hinv (D ++ kids) /\ bytes_ok kids /\
    forall pre' tail, zlen pre' = zlen D -> sub pre' B (8 * (dn + pn) * p_len src) = bytes_of_words words ->
      forall i, 0 <= i < p_len src -> zlen (pre' ++ kids ++ tail) <= BOUND -> forall mid caps,
        den true [pre' ++ kids ++ tail] mid caps
            (mkPtr true 0 (B + i * (8 * (dn + pn))) 0 (mkOS (8 * dn) pn) 0 KStruct false false true) (nthv vs i).
Proof.
  intros HC src dstl vs dn pn B D cap rl w' Hwf Hv Hk Hb Esize Bdn Bpn Lvs Hsd DE Shape Dv Db Dseg Doff Dlen Dsz Hi HB HBm Hbd H.
  set (n := p_len src) in *. remember (dn + pn) as bw eqn:Ebw.
  assert (Ets : totalSize (p_size src) = 8 * bw) by (rewrite totalSize_wf, Esize by (rewrite Esize; split; cbn [DataSize PointerCount]; lia); cbn [DataSize PointerCount]; lia).
  assert (Hlen : 0 <= n) by (destruct (Hwf Hv) as (_ & Hobj); unfold wf_obj in Hobj; rewrite Hk in Hobj; apply Hobj).
  destruct (Z_le_gt_dec n 0) as [Hn0|Hn0].
  { replace (Z.to_nat n) with 0%nat in H by lia. cbn [iota seq map fold_res] in H. apply Ok_inj in H. subst w'.
    exists [], [], cap, rl. rewrite set_slots_nil, !app_nil_r by (pose proof (zlen_nonneg D); nia).
    split; [unfold zlen; cbn [length]; nia|]. split; [reflexivity|]. split; [exact Hi|]. split; [constructor|]. intros; lia. }
  assert (En : Z.of_nat (Z.to_nat n) = n) by lia.
  set (P := fun (i : Z) (M : list Z) => zlen M <= BOUND -> forall mid caps,
              den true [M] mid caps (mkPtr true 0 (B + i * (8 * bw)) 0 (mkOS (8 * dn) pn) 0 KStruct false false true) (nthv vs i)).
  match type of H with fold_res _ _ ?st = _ =>
    destruct (sem_blocks_loop st m B bw (Z.to_nat n) P HB HBm ltac:(lia)) with (k := Z.to_nat n) (D := D) (cap := cap) (rl := rl) (w' := w')
      as (words & kids & cap2 & rl2 & Lw & -> & Hinvk & Bk & PostL) end;
    [ | apply le_n | exact Hi | rewrite En; exact Hbd | exact H | ].
  2:{ rewrite En in *. exists words, kids, cap2, rl2. split; [exact Lw|]. split; [reflexivity|]. split; [exact Hinvk|]. split; [exact Bk|]. exact PostL. }
  (* the step: copyStruct of source element i into the block at A *)
  rewrite En. clear H w'.
  intros i D0 cap0 rl0 w0 Hin Hinv0 Hb0 Hs0.
  destruct (block_in bw i n ltac:(lia) Hin) as [Hblk0 Hblk].
  remember (B + 8 * bw * i) as A eqn:EA.
  assert (HA : 0 <= A /\ A mod 8 = 0 /\ A + 8 * dn + 8 * pn <= zlen D0) by lia.
  rewrite (list_struct_ok true dstl i) in Hs0 by (rewrite ?Dlen, ?Doff, ?Dsz, ?Ets; destruct Hinv0; try assumption; lia).
  destruct (list_struct_den true m 0 [] src vs i Hm Hwf Hv Hk Hb Hin (DE i Hin)) as (se & El & We & Ve & Kse & Sse & De).
  rewrite El in Hs0. cbn [bind] in Hs0.
  destruct (Shape i Hin) as (ws & ps & Ev & Lws & Lps). rewrite Ev in De.
  assert (SDi : forallb cvdom ps = true).
  { assert (SD0 : cvdom (nthv vs i) = true) by (eapply forallb_In; [exact Hsd|]; apply nth_In; unfold zlen in Lvs; lia).
    rewrite Ev in SD0. exact SD0. }
  assert (Ale : aligned se) by (intros _; rewrite Sse, Esize; cbn [DataSize]; lia).
  match type of Hs0 with copy_struct _ _ _ ?de0 _ _ = _ => set (de := de0) in * end.
  assert (Hdst : dst_at de A dn pn).
  { unfold dst_at, de. cbn [p_valid p_seg p_off p_size]. rewrite Dseg, Doff, Dsz, Ets. repeat split; [lia|exact Esize]. }
  destruct (HC D0 cap0 rl0 de se ws ps A dn pn w0 Hinv0 Hdst ltac:(apply HA) ltac:(apply HA) Bdn Bpn ltac:(apply HA)
               Ve Kse We Ale De SDi Hs0) as (pwords & kids & cap2 & rl2 & Lp & -> & Hinv2 & Bk0 & PostC).
  replace (Z.to_nat dn) with (length ws) in * by (unfold zlen in Lws; lia). rewrite resize_words_id in *.
  exists (ws ++ pwords), kids, cap2, rl2.
  split; [rewrite zlen_app; lia|]. split; [reflexivity|]. split; [exact Hinv2|]. split; [exact Bk0|].
  intros pre' tail Lp' Hs Hbound mid caps. rewrite Ev. rewrite Ebw in Hs.
  pose proof (zlen_nonneg tail) as Lt0. pose proof (zlen_nonneg kids) as Lk0.
  assert (Hw64 : Forall w64 ws).
  { destruct (den_struct_data _ _ _ _ _ _ _ Hm De) as (_ & _ & _ & _ & _ & _ & -> & _ & Hbd0 & _). apply wob_w64, Hbd0. }
  apply (struct_den (pre' ++ kids ++ tail) _ A dn pn ws ps); try reflexivity; try lia; try assumption.
  - cbn [p_off]. lia.
  - rewrite !zlen_app. lia.
  - rewrite sub_app_l by lia. rewrite <- Lws. apply (sub_bow_prefix _ _ ws pwords); [lia|]. rewrite Lws, Lp. exact Hs.
  - intros j Hj. pose proof (PostC pre' tail Lp' Hs Hbound j Hj) as R.
    replace (Z.to_nat pn) with (length ps) in R by (unfold zlen in Lps; lia). rewrite resize_ptrs_id in R. exact R.
Qed.

Lemma wp_ptr_list f : CopyValueDefs.P_cs m f -> forall D cap rl a src vs fc w',
  hinv D -> 0 <= a -> a mod 8 = 0 -> a + 8 <= zlen D ->
  wf_ptr m src -> den true m 0 [] src (VList LPtr vs) -> forallb cvdom vs = true ->
  write_ptr (S f) true (dstw D cap m rl) 0 a InSrc src fc = Ok w' ->
  exists word body cap' rl',
    w' = dstw (put_word D a word ++ body) cap' m rl' /\ hinv (D ++ body) /\ bytes_ok body /\
    forall pre' tail, zlen pre' = zlen D -> word_is pre' a word -> zlen (pre' ++ body ++ tail) <= BOUND ->
      reads_as (pre' ++ body ++ tail) a (VList LPtr vs).
Proof.
  intros HC D cap rl a src vs fc w' Hi Ha Ham Hab Hwf D0 Hsd H.
  destruct (den_ptrs_inv m _ _ D0) as (Hv & Hk & Hb & Hc & Hsz & Lvs & K).
  destruct (den_elem true m 0 [] src LPtr vs Hm D0 Hv) as (_ & _ & _ & DE).
  destruct (Hwf Hv) as (Hseg & Hobj). unfold wf_obj in Hobj. rewrite Hk, Hb, Hsz in Hobj.
  destruct Hobj as (Ho & Hlen & _ & Hbd). change (totalSize (mkOS 0 1)) with 8 in Hbd.
  pose proof (proj1 (seg_of_ok m src Hm)) as Hsl. unfold maxSegmentSize in Hsl.
  pose proof Hi as [Hi1 Hi2]. pose proof (zlen_nonneg D) as Z0.
  set (n := p_len src) in *.
  assert (Esz : list_allocSize src = 8 * n).
  { unfold list_allocSize. rewrite Hv, Hb, Hc, Hsz. cbn [negb]. change (totalSize (mkOS 0 1)) with 8. fold n.
    rewrite times_some by (unfold maxSegmentSize; lia). reflexivity. }
  rewrite write_ptr_S in H. rewrite Hv, Hk in H. cbn [negb] in H.
  replace (fc || is_src InSrc) with true in H by (cbn [is_src]; rewrite Bool.orb_true_r; reflexivity).
  cbv zeta in H. rewrite Esz in H. cbn [w_dst dstw] in H.
  destruct (alloc (seg0 D cap) 0 (8 * n)) as [[[m1 sid1] addr]| |] eqn:Ea; try discriminate H.
  destruct (alloc_seg0_end D cap (8 * n) m1 sid1 addr Ea) as (Hbound0 & cap1 & -> & -> & ->).
  rewrite (padToWord_mult (8 * n)) in * by lia.
  cbn [bind] in H. rewrite Hc, Hb, Hsz in H. cbn [bind PointerCount orb] in H. change (1 =? 0) with false in H. cbv iota in H.
  unfold list_len in H. rewrite Hv in H. fold n in H.
  set (D1 := D ++ repeat 0 (Z.to_nat (8 * n))) in *.
  change (w_set_dst (dstw D cap m rl) (seg0 D1 cap1)) with (dstw D1 cap1 m rl) in H.
  assert (L1 : zlen D1 = zlen D + 8 * n) by (unfold D1; rewrite zlen_app, zlen_repeat; lia).
  set (dstl := mkPtr true 0 (zlen D) n (mkOS 0 1) maxDepth KList false false false) in *.
  match type of H with context [fold_res (iota (Z.to_nat n)) ?w0 ?st] => destruct (fold_res (iota (Z.to_nat n)) w0 st) as [w3| |] eqn:E1; try discriminate H end.
  cbn [bind] in H.
  destruct (copy_elems f HC src dstl vs 0 1 (zlen D) D1 cap1 rl w3 Hwf Hv Hk Hb Hsz ltac:(lia) ltac:(lia) Lvs Hsd DE) with (12 := E1)
    as (words & kids & cap2 & rl2 & Lw & -> & Hinvk & Bk & PostL); try reflexivity; try (fold n; lia); try (split; lia).
  { intros i Hi0. destruct (K i Hi0) as (_ & _ & _ & _ & vi & _ & _ & Evi). exists [], [vi]. repeat split. exact Evi. }
  { symmetry. exact Hsz. }
  fold n in Lw, PostL. change (0 + 1) with 1 in Lw, PostL.
  replace (set_slots D1 (zlen D) words) with (D ++ bytes_of_words words) in H.
  2:{ unfold D1. replace (Z.to_nat (8 * n)) with (8 * length words)%nat by (unfold zlen in Lw; lia). symmetry. apply set_slots_end. }
  change (list_raw dstl) with (Ok (rawListPointer 0 6 n)) in H. cbn [bind p_comp p_seg p_off dstl] in H. rewrite <- app_assoc in H.
  pose proof (zlen_bow words) as Lbw. pose proof (zlen_nonneg kids) as Lk0.
  refine (wp_finish m D _ cap2 rl2 a _ _ w' _ _ Ha Hab H _).
  { unfold hinv in *. rewrite !zlen_app in *. lia. }
  { apply Forall_app; split; [apply bow_bytes_ok|exact Bk]. }
  intros pre' tail Lp' Hbound HwM. pose proof (zlen_nonneg tail) as Lt0. rewrite <- app_assoc, app_assoc in *.
  set (M := (pre' ++ bytes_of_words words) ++ kids ++ tail) in *.
  assert (LM : zlen M = zlen D + 8 * n + zlen kids + zlen tail) by (unfold M; rewrite !zlen_app; lia).
  destruct (read_near_list true M a (zlen D) 6 n 1 ltac:(lia) Hlen Ha Ham ltac:(lia) ltac:(unfold BOUND in *; lia) Z0 Hi1) as (rl' & RR).
  - cbv zeta. rewrite (elementSize_raw 6 n) by lia. change (6 =? 1) with false. cbv iota.
    change (totalSize (es_of 6)) with 8. lia.
  - exact HwM.
  - lia.
  - cbv zeta in RR. rewrite (elementSize_raw 6 n) in RR by lia. change (6 =? 1) with false in RR. cbv iota in RR.
    change (es_of 6) with (mkOS 0 1) in RR.
    eexists 1, 4294967288, _, rl'. split; [exact RR|]. intros mid caps.
    apply den_ptrs; try reflexivity; try assumption.
    intros i Hi0. cbn [p_len] in Hi0. destruct (K i Hi0) as (_ & _ & _ & _ & vi & _ & _ & Evi).
    pose proof (PostL (pre' ++ bytes_of_words words) tail ltac:(rewrite zlen_app; lia)
                      ltac:(rewrite <- Lp'; replace (8 * 1 * n) with (zlen (bytes_of_words words)) by lia; apply sub_end)
                      i Hi0 Hbound mid caps) as R.
    fold M in R. rewrite Evi in R.
    destruct (den_struct_inv _ _ _ _ _ _ R eq_refl eq_refl) as (d & vs0 & Ev & _ & _ & _ & K0).
    inversion Ev; subst vs0. destruct (K0 0 ltac:(cbn; lia)) as (dep & rl0 & q & rl0' & R0 & Dq).
    exists dep, rl0, q, rl0', vi. split; [|split; [exact Dq|exact Evi]].
    rewrite pointerAddress_eq in R0 by (cbn [p_off p_size DataSize]; unfold BOUND, maxSegmentSize in *; lia).
    cbn [p_off p_size DataSize p_seg] in R0 |- *. replace (zlen D + 8 * i) with (zlen D + i * (8 * 1) + 8 * 0 + 8 * 0) by lia. exact R0.
Qed.

(* the pointer word at a and the tag word at B read back as the list of the elements behind the tag *)
Lemma comp_list_reads M a B n dn pn t vs :
  0 <= a -> a mod 8 = 0 -> a + 8 <= B -> B mod 8 = 0 -> B + 8 + 8 * ((dn + pn) * n) <= zlen M -> zlen M <= BOUND ->
  0 <= dn <= 65535 -> 0 <= pn < 65536 -> 0 <= n -> (dn + pn) * n < 536870912 ->
  word_is M a (withOffset (rawListPointer 0 7 ((dn + pn) * n)) (nearPointerOffset a B)) ->
  word_is M B t -> word64 t -> pointerType t = structPointer -> structSize t = mkOS (8 * dn) pn -> s32 (ptr_offset t) = n ->
  zlen vs = n ->
  (forall i, 0 <= i < n -> forall mid caps,
     den true [M] mid caps (mkPtr true 0 (B + 8 + i * (8 * (dn + pn))) 0 (mkOS (8 * dn) pn) 0 KStruct false false true) (nthv vs i)) ->
  reads_as M a (VList LComp vs).
Proof.
  intros Ha Ham HaB HBm Hb Hbound Bdn Bpn Hn Hwc HwM HtM T64 Tpt Tsz Tn Lvs Elems. unfold BOUND in Hbound.
  assert (Owf : os_wf (mkOS (8 * dn) pn)) by (unfold os_wf; cbn [DataSize PointerCount]; lia).
  assert (Ets : totalSize (mkOS (8 * dn) pn) = 8 * (dn + pn)) by (rewrite totalSize_wf by (split; cbn [DataSize PointerCount]; lia); cbn [DataSize PointerCount]; lia).
  assert (Hwc0 : 0 <= (dn + pn) * n) by nia.
  assert (HrdM : readRawPointer M B = Ok t) by (apply rd_word; try assumption; lia).
  destruct (read_near_comp true M a B n (mkOS (8 * dn) pn) ((dn + pn) * n) t 1 ltac:(lia) Hn Owf ltac:(rewrite Ets; lia) Ha Ham ltac:(lia)
              Hbound ltac:(lia) HBm ltac:(lia) HwM HrdM Tpt Tsz Tn ltac:(lia)) as (rl' & RR).
  eexists 1, 4294967288, _, rl'. split; [exact RR|]. intros mid caps.
  apply den_comp; try reflexivity; try assumption.
  - cbn [p_size]. unfold wf_size. cbn [DataSize PointerCount]. lia.
  - intros i Hi0. eapply den_core; [|exact (Elems i Hi0 mid caps)]. unfold elem_ptr. cbn [p_seg p_off p_size]. rewrite Ets. repeat split.
Qed.

Lemma wp_comp_list f : CopyValueDefs.P_cs m f -> forall D cap rl a src vs fc w',
  hinv D -> 0 <= a -> a mod 8 = 0 -> a + 8 <= zlen D ->
  wf_ptr m src -> caligned src -> ctag_ok m src -> den true m 0 [] src (VList LComp vs) -> forallb cvdom vs = true ->
  write_ptr (S f) true (dstw D cap m rl) 0 a InSrc src fc = Ok w' ->
  exists word body cap' rl',
    w' = dstw (put_word D a word ++ body) cap' m rl' /\ hinv (D ++ body) /\ bytes_ok body /\
    forall pre' tail, zlen pre' = zlen D -> word_is pre' a word -> zlen (pre' ++ body ++ tail) <= BOUND ->
      reads_as (pre' ++ body ++ tail) a (VList LComp vs).
Proof.
  intros HC D cap rl a src vs fc w' Hi Ha Ham Hab Hwf Hcal Hctg D0 Hsd H.
  destruct (den_comp_inv m _ _ D0) as (Hv & Hk & Hb & Hc & [Hws1 Hws2] & Lvs & DE).
  destruct (Hcal Hc) as [Hal _].
  destruct (Hctg Hv Hk Hc) as (Ho8 & t & Et & T64 & Tpt & Tsz & Tn).
  destruct (Hwf Hv) as (Hseg & Hobj). unfold wf_obj in Hobj. rewrite Hk, Hb in Hobj.
  destruct Hobj as (Ho & Hlen & _ & Hbd).
  pose proof (seg_of_ok m src Hm) as Hsok. pose proof (proj1 Hsok) as Hsl. unfold maxSegmentSize in Hsl.
  pose proof Hi as [Hi1 Hi2]. pose proof (zlen_nonneg D) as Z0.
  set (n := p_len src) in *. set (pn := PointerCount (p_size src)) in *.
  remember (DataSize (p_size src) / 8) as dn eqn:Edn.
  assert (Eds : DataSize (p_size src) = 8 * dn) by lia. clear Edn.
  remember (dn + pn) as bw eqn:Ebw.
  assert (Esize : p_size src = mkOS (8 * dn) pn) by (unfold pn; rewrite <- Eds; destruct (p_size src); reflexivity).
  assert (Ets : totalSize (p_size src) = 8 * bw) by (rewrite totalSize_wf by (split; assumption); fold pn; lia).
  rewrite Ets in Hbd.
  assert (Shape : forall i, 0 <= i < n -> exists ws ps, nthv vs i = VStruct ws ps /\ zlen ws = dn /\ zlen ps = pn).
  { intros i Hi0. destruct (comp_elem_shape m Hm src vs i Hwf Hv Hk Hb Hal Hi0 (DE i Hi0)) as (ws & ps & E & L1 & L2).
    exists ws, ps. split; [exact E|]. split; [lia|exact L2]. }
  assert (Bnb : 0 <= n * bw /\ 8 * (n * bw) <= 4294967288) by nia.
  assert (Esz : list_allocSize src = 8 * (n * bw) + 8).
  { unfold list_allocSize. rewrite Hv, Hb, Hc, Ets. cbn [negb]. fold n.
    rewrite times_some by (unfold maxSegmentSize; lia). rewrite u32_id; lia. }
  rewrite write_ptr_S in H. rewrite Hv, Hk in H. cbn [negb] in H.
  replace (fc || is_src InSrc) with true in H by (cbn [is_src]; rewrite Bool.orb_true_r; reflexivity).
  cbv zeta in H. rewrite Esz in H. cbn [w_dst dstw] in H.
  destruct (alloc (seg0 D cap) 0 (8 * (n * bw) + 8)) as [[[m1 sid1] addr]| |] eqn:Ea; try discriminate H.
  destruct (alloc_seg0_end D cap (8 * (n * bw) + 8) m1 sid1 addr Ea) as (Hbound0 & cap1 & -> & -> & ->).
  rewrite (padToWord_mult (8 * (n * bw) + 8)) in * by lia.
  cbn [bind] in H. rewrite Hc in H. cbn [w_segs w_set_dst w_src w_dst dstw] in H.
  change (nth (Z.to_nat (p_seg src)) m []) with (seg_of m src) in H.
  rewrite (u32_id (p_off src - 8)) in H by lia. rewrite Et in H. cbn [bind] in H.
  unfold lift0 in H. cbn [w_dst] in H.
  rewrite writeRaw_seg0 in H by (rewrite ?zlen_app, ?zlen_repeat; lia). cbn [bind] in H.
  replace (addSize (zlen D) 8) with (Some (zlen D + 8)) in H
    by (symmetry; apply addSize_spec; unfold maxSegmentSize; lia).
  cbn [bind] in H. rewrite (u32_id (8 * (n * bw) + 8 - 8)) in H by lia.
  replace (8 * (n * bw) + 8 - 8) with (8 * (n * bw)) in H by lia.
  set (DT := D ++ le_encode 8 t) in *.
  assert (LT : zlen DT = zlen D + 8) by (unfold DT; rewrite zlen_app, zlen_le_encode8; lia).
  replace (put_word (D ++ repeat 0 (Z.to_nat (8 * (n * bw) + 8))) (zlen D) t) with (DT ++ repeat 0 (Z.to_nat (8 * (n * bw)))) in H.
  2:{ pose proof (put_word_mid D (repeat 0 (Z.to_nat (8 * (n * bw) + 8))) [] t ltac:(rewrite repeat_length; lia)) as E.
      rewrite !app_nil_r in E. fold (zlen D) in E. rewrite E, skipn_repeat. unfold DT. rewrite <- app_assoc. do 3 f_equal. lia. }
  set (D1 := DT ++ repeat 0 (Z.to_nat (8 * (n * bw)))) in *.
  assert (L1 : zlen D1 = zlen D + 8 + 8 * (n * bw)) by (unfold D1; rewrite zlen_app, LT, zlen_repeat; lia).
  rewrite Hb in H. cbn [orb] in H.
  set (dstl := mkPtr true 0 (zlen D + 8) n (p_size src) maxDepth KList true false false) in *.
  (* the elements are struct pointers of the same sizes as the source's *)
  set (elemq := fun i : Z => mkPtr true 0 (zlen D + 8 + i * (8 * bw)) 0 (mkOS (8 * dn) pn) 0 KStruct false false true).
  assert (Finish : forall cap3 rl3 words kids, zlen words = bw * n -> hinv (D1 ++ kids) -> bytes_ok kids ->
            (forall pre' tail, zlen pre' = zlen D1 -> sub pre' (zlen D + 8) (8 * bw * n) = bytes_of_words words ->
               forall i, 0 <= i < n -> zlen (pre' ++ kids ++ tail) <= BOUND -> forall mid caps,
                 den true [pre' ++ kids ++ tail] mid caps (elemq i) (nthv vs i)) ->
            (do raw <- list_raw dstl;
             place (dstw (set_slots D1 (zlen D + 8) words ++ kids) cap3 m rl3) 0 a (p_seg dstl)
                   (if p_comp dstl then u32 (p_off dstl - 8) else p_off dstl) raw) = Ok w' ->
            exists word body cap' rl',
              w' = dstw (put_word D a word ++ body) cap' m rl' /\ hinv (D ++ body) /\ bytes_ok body /\
              forall pre' tail, zlen pre' = zlen D -> word_is pre' a word -> zlen (pre' ++ body ++ tail) <= BOUND ->
                reads_as (pre' ++ body ++ tail) a (VList LComp vs)).
  { intros cap3 rl3 words kids Lw Hinvk Bk PostL HP.
    replace (set_slots D1 (zlen D + 8) words) with (DT ++ bytes_of_words words) in HP.
    2:{ unfold D1. replace (Z.to_nat (8 * (n * bw))) with (8 * length words)%nat by (unfold zlen in Lw; lia).
        rewrite <- LT. symmetry. apply set_slots_end. }
    replace (list_raw dstl) with (Ok (rawListPointer 0 7 (bw * n))) in HP.
    2:{ unfold list_raw, dstl. cbn [p_valid p_comp p_size p_len negb]. unfold totalWordCount, dataWordCount. rewrite Eds.
        replace (8 * dn mod 8 =? 0) with true by lia. fold pn. replace (8 * dn / 8) with dn by lia. rewrite <- Ebw.
        rewrite (s32_id bw), (Z.mul_comm n), s32_id by lia. reflexivity. }
    cbn [bind p_comp p_seg p_off dstl] in HP. rewrite (u32_id (zlen D + 8 - 8)) in HP by lia.
    replace (zlen D + 8 - 8) with (zlen D) in HP by lia. unfold DT in HP. rewrite <- !app_assoc in HP.
    pose proof (zlen_bow words) as Lbw. pose proof (zlen_nonneg kids) as Lk0.
    refine (wp_finish m D _ cap3 rl3 a _ _ w' _ _ Ha Hab HP _).
    { unfold hinv in *. rewrite !zlen_app, ?zlen_le_encode8 in *. lia. }
    { apply Forall_app; split; [apply le_encode_bytes|]. apply Forall_app; split; [apply bow_bytes_ok|exact Bk]. }
    intros pre' tail Lp' Hbound HwM. pose proof (zlen_nonneg tail) as Lt0.
    rewrite <- !app_assoc in *.
    apply (comp_list_reads _ a (zlen D) n dn pn t vs); try assumption; try lia.
    - rewrite !zlen_app, zlen_le_encode8 in *. lia.
    - rewrite <- Ebw. exact HwM.
    - rewrite <- Lp'. apply word_is_mid.
    - rewrite Tsz. exact Esize.
    - intros i Hi0 mid caps. rewrite <- Ebw.
      pose proof (PostL (pre' ++ le_encode 8 t ++ bytes_of_words words) tail) as R. rewrite <- !app_assoc in R.
      apply R; try assumption.
      + rewrite !zlen_app, zlen_le_encode8. lia.
      + rewrite app_assoc. replace (zlen D + 8) with (zlen (pre' ++ le_encode 8 t)) by (rewrite zlen_app, zlen_le_encode8; lia).
        replace (8 * bw * n) with (zlen (bytes_of_words words)) by lia. apply sub_end. }
  destruct (PointerCount (p_size src) =? 0) eqn:Epc.
  - (* elements without pointers: the bytes are copied *)
    assert (Epn : pn = 0) by (unfold pn; lia).
    unfold copy_bytes in H. cbn [w_segs w_src w_dst w_set_dst dstw] in H.
    change (nth (Z.to_nat (p_seg src)) m []) with (seg_of m src) in H.
    rewrite slice_ok in H by lia. cbn [bind] in H.
    set (bs := sub (seg_of m src) (p_off src) (8 * (n * bw))) in *.
    assert (Lbs : zlen bs = 8 * (n * bw)) by (unfold bs; apply sub_length; lia).
    unfold lift0 in H. cbn [w_dst] in H.
    rewrite seg_write_raw in H by lia. cbn [bind] in H.
    assert (Hbsok : bytes_ok bs) by apply bytes_ok_sub, Hsok.
    destruct (wob_aligned bs Hbsok ltac:(lia)) as [Ebw' Lwb].
    set (words := words_of_bytes bs) in *.
    replace (write_bytes D1 (zlen D + 8) bs) with (set_slots D1 (zlen D + 8) words ++ []) in H.
    2:{ rewrite app_nil_r. unfold set_slots, write_bytes. rewrite Ebw', <- Ebw', bytes_of_words_length, Ebw'. reflexivity. }
    cbn [bind] in H.
    refine (Finish cap1 rl words [] ltac:(lia) _ (Forall_nil _) _ H).
    + rewrite app_nil_r. split; lia.
    + intros pre' tail Lp' Hs i Hi0 Hbound mid caps. cbn [app] in *.
      destruct (block_in bw i n ltac:(lia) Hi0) as [Hib0 Hib].
      destruct (Shape i Hi0) as (ws & ps & Ev & Lws & Lps). pose proof (DE i Hi0) as Dei. rewrite Ev in Dei.
      assert (Eps : ps = []) by (apply length_zero_iff_nil; unfold zlen in Lps; lia). subst ps.
      (* the source element's words are the words of its bytes *)
      destruct (den_struct_data _ _ _ _ _ _ _ Hm Dei) as (_ & _ & _ & _ & _ & _ & Ews & _ & Hdiok & Ldi & _).
      change (seg_of m (elem_ptr src i)) with (seg_of m src) in Ews, Hdiok, Ldi.
      cbn [elem_ptr p_size p_off] in Ews, Hdiok, Ldi. rewrite Ets, Eds in Ews, Hdiok, Ldi.
      set (di := sub (seg_of m src) (p_off src + i * (8 * bw)) (8 * dn)) in *. subst ws. rewrite Ev.
      pose proof (zlen_nonneg tail) as Lt0. rewrite zlen_app in Hbound.
      apply (struct_den (pre' ++ tail) (elemq i) (zlen D + 8 + i * (8 * bw)) dn 0 (words_of_bytes di) []);
        try reflexivity; try lia; try (rewrite zlen_app; lia).
      * unfold elemq. cbn [p_size]. rewrite Epn. reflexivity.
      * apply wob_w64, Hdiok.
      * rewrite sub_app_l by lia.
        replace (sub pre' (zlen D + 8 + i * (8 * bw)) (8 * dn))
          with (sub (sub pre' (zlen D + 8) (8 * bw * n)) (i * (8 * bw)) (8 * dn)) by (apply sub_sub; lia).
        rewrite Hs, Ebw'. unfold bs. rewrite sub_sub by lia. fold di.
        symmetry. apply wob_aligned; [exact Hdiok|lia].
  - (* elements with pointers: copyStruct per element *)
    unfold list_len in H. rewrite Hv in H. fold n in H.
    change (w_set_dst (w_set_dst (dstw D cap m rl) (seg0 (D ++ repeat 0 (Z.to_nat (8 * (n * bw) + 8))) cap1)) (seg0 D1 cap1)) with (dstw D1 cap1 m rl) in H.
    match type of H with context [fold_res (iota (Z.to_nat n)) ?w0 ?st] => destruct (fold_res (iota (Z.to_nat n)) w0 st) as [w3| |] eqn:E1; try discriminate H end.
    cbn [bind] in H.
    destruct (copy_elems f HC src dstl vs dn pn (zlen D + 8) D1 cap1 rl w3 Hwf Hv Hk Hb Esize ltac:(lia) Hws2 Lvs Hsd DE Shape
                eq_refl eq_refl eq_refl eq_refl eq_refl eq_refl ltac:(split; lia) ltac:(lia) ltac:(lia)
                ltac:(fold n; rewrite <- Ebw; lia) E1)
      as (words & kids & cap2 & rl2 & Lw & -> & Hinvk & Bk & PostL).
    fold n in Lw, PostL. rewrite <- Ebw in Lw, PostL.
    exact (Finish cap2 rl2 words kids Lw Hinvk Bk PostL H).
Qed.

End Copy.
