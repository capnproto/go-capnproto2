(* C17 totality: every pointer that has a denotation is traversable ([den_trav]: the depth
   needed is at most the nesting depth of the value, the cost is some finite number), hence:
   pointers that denote values are answered by Equal with exactly [value_eq] of the values as
   soon as the depth limits and traversal budgets cover the measures ([equal_m_answers]). *)
From CV Require Import Value.ValueEq Value.ValueEqProofs Value.EqualM Value.Den Value.DenFacts Value.DenLists
                       Value.CanonSpec Value.EqualCorrect Value.EqualSafe Value.EqualTotal.
From CV Require Import Core.ReaderFacts Core.SafetyProofs Core.LimitProofs.
From Coq Require Import ZifyBool ZifyNat.
Ltac Zify.zify_post_hook ::= Z.div_mod_to_equations.
Open Scope Z_scope.

(* finite choice of a list of non-negative costs *)
Lemma fin_choice : forall (N : nat) (P : Z -> Z -> Prop),
  (forall i, 0 <= i < Z.of_nat N -> exists c, 0 <= c /\ P i c) ->
  exists cs, zlen cs = Z.of_nat N /\ nonnegs cs /\ forall i, 0 <= i < Z.of_nat N -> P i (nthz cs i).
Proof.
  induction N as [|N IH]; intros P H.
  - exists []. split; [reflexivity|]. split; [constructor|]. intros i Hi. lia.
  - destruct (H 0 ltac:(lia)) as (c0 & C0 & P0).
    destruct (IH (fun i c => P (i + 1) c)) as (cs & L & Nn & Hc).
    { intros i Hi. apply H. lia. }
    exists (c0 :: cs). split; [unfold zlen in *; cbn [length]; lia|]. split; [constructor; assumption|].
    intros i Hi. destruct (Z.eq_dec i 0) as [->|Ne]; [exact P0|].
    unfold nthz. replace (Z.to_nat i) with (S (Z.to_nat (i - 1))) by lia. cbn [nth].
    replace i with ((i - 1) + 1) at 1 by lia. apply Hc. lia.
Qed.

Lemma vdepth_pos v : (1 <= vdepth v)%nat.
Proof. destruct v; cbn [vdepth]; lia. Qed.

Lemma den_trav strict m mid caps : msg_ok m -> forall n v, (vdepth v <= n)%nat -> forall p,
  den strict m mid caps p v -> exists c, trav strict m p (Z.of_nat n) c.
Proof.
  intros Hm. induction n as [|n IH]; intros v Hd p D.
  { pose proof (vdepth_pos v). lia. }
  destruct (p_valid p) eqn:Vp; [|exists 0; apply tr_null; [assumption|lia]].
  destruct v as [|cv|ws vs|k vs|bs].
  - inversion D; subst; congruence.
  - inversion D; subst; try congruence. exists 0. apply tr_iface; try assumption. lia.
  - (* struct *)
    inversion D as [| |p' d' vs' V K Wz Sl Lv Kids| | | |]; subst.
    destruct (fin_choice (Z.to_nat (PointerCount (p_size p)))
                (fun i c => exists dep rl q rl',
                   readPtr strict m rl (p_seg p) (seg_of m p) (pointerAddress p i) dep = (Ok q, rl')
                   /\ (p_valid q = true -> 1 <= Z.of_nat (S n)) /\ readSize q <= c
                   /\ trav strict m q (Z.of_nat (S n) - 1) (c - readSize q))) as (cs & L & Nn & Hc).
    { intros i Hi. destruct (Kids i ltac:(lia)) as (dep & rl & q & rl' & E & Dq).
      destruct (IH (nthv vs i) ltac:(cbn [vdepth] in Hd; pose proof (nthv_depth vs i ltac:(lia)); lia) q Dq) as (c' & Tq).
      pose proof (trav_cost_nonneg _ _ _ _ _ Tq). pose proof (readSize_nonneg q).
      exists (c' + readSize q). split; [lia|]. exists dep, rl, q, rl'. split; [exact E|]. split; [lia|]. split; [lia|].
      replace (Z.of_nat (S n) - 1) with (Z.of_nat n) by lia. replace (c' + readSize q - readSize q) with c' by lia. exact Tq. }
    exists (sumZ cs). unfold wf_size in Wz. eapply tr_struct with (cs := cs); try assumption; try lia.
    intros i Hi. apply Hc. lia.
  - (* lists *)
    destruct (den_elem strict m mid caps p k vs Hm D Vp) as (Lv & Bp & Kp & El).
    assert (0 <= p_len p) as Lp by (unfold zlen in Lv; lia).
    destruct (fin_choice (Z.to_nat (p_len p))
                (fun i c => trav strict m (elem_ptr p i) (Z.of_nat (S n) - 1) c)) as (cs & L & Nn & Hc).
    { intros i Hi.
      destruct (IH (nthv vs i) ltac:(cbn [vdepth] in Hd; pose proof (nthv_depth vs i ltac:(lia)); lia)
                  (elem_ptr p i) (El i ltac:(lia))) as (c' & Te).
      exists c'. split; [eapply trav_cost_nonneg; exact Te|].
      replace (Z.of_nat (S n) - 1) with (Z.of_nat n) by lia. exact Te. }
    exists (sumZ cs). pose proof (sumZ_nonneg _ Nn). eapply tr_list with (cs := cs); try assumption.
    intros _. split; [lia|]. split; [assumption|]. split; [lia|]. intros i Hi. apply Hc. lia.
  - (* bits *)
    inversion D; subst. exists 0. eapply tr_list with (cs := []); try assumption; try lia. intros Hb. congruence.
Qed.

(* Equal ANSWERS, and answers the documented equality: for pointers that denote values there
   are measures (depth, cost per side) such that under every depth limit / fuel / pair of
   traversal budgets covering them, Equal returns (value_eq va vb, nil). *)
Theorem equal_m_answers : forall c fx x p q va vb,
  cfg_strict c = true -> all_fixed fx -> msg_ok (segs_of x SA) -> msg_ok (segs_of x SB) ->
  wf_ptr (segs_of x SA) p -> wf_ptr (segs_of x SB) q ->
  den true (segs_of x SA) 0 (caps_of x SA) p va ->
  den true (segs_of x SB) (if ec_same x then 0 else 1) (caps_of x SB) q vb ->
  exists ca cb,
    trav true (segs_of x SA) p (Z.of_nat (vdepth va)) ca /\ trav true (segs_of x SB) q (Z.of_nat (vdepth vb)) cb /\
    forall fuel w D ra rb,
      lims_nonneg w -> Z.of_nat (vdepth va) <= p_depth p <= D - 1 -> Z.of_nat (vdepth vb) <= p_depth q <= D - 1 ->
      D + 2 <= Z.of_nat fuel -> D <= two64 -> 0 <= ra -> 0 <= rb -> budgets_cover x w (ca + ra) (cb + rb) ->
      exists w', equal_m fuel c fx x w p q = (EOk (value_eq va vb), w') /\ lims_le w' w /\ budgets_cover x w' ra rb.
Proof.
  intros c fx x p q va vb Hs Hfx Ha Hb Wp Wq Da Db.
  destruct (den_trav true _ _ _ Ha (vdepth va) va (le_n _) p Da) as (ca & Ta).
  destruct (den_trav true _ _ _ Hb (vdepth vb) vb (le_n _) q Db) as (cb & Tb).
  exists ca, cb. split; [exact Ta|]. split; [exact Tb|].
  intros fuel w D ra rb Hw Dp Dq Hf HD Ra Rb Hbud. destruct Hfx as (F1 & F2 & F3).
  destruct (equal_m_total c fx x fuel w p q _ ca _ cb D Hs F1 F3 Ha Hb Wp Wq Hw Ta Tb
              ltac:(lia) ltac:(lia) ltac:(lia) ltac:(lia) Hf HD ra rb Ra Rb Hbud) as (b & w' & E & Le & Bc).
  exists w'. split; [|split; assumption].
  rewrite E. f_equal. f_equal.
  apply (equal_m_correct c fx x fuel w p q b w' va vb Hs (conj F1 (conj F2 F3)) Ha Hb E Da Db).
Qed.

(* non-vacuity: the root of [eq_deep_msg] (struct -> composite list -> element with a null
   pointer) denotes a value, is well formed, hence traversable; compared with itself under
   depth limit 4 and a budget of 1000, Equal answers true and charges 16 bytes (the list
   pointer is dereferenced once per side). *)
From CV Require Import Value.VDec Value.VDecProofs.
Example equal_total_example :
  let c := mkCfg 1000 4 true true in
  let fx := mkEFix true true (mkFix true true true) in
  let x := mkEC eq_deep_msg [] eq_deep_msg [] true in
  exists p rl0 v ca,
    root c eq_deep_msg 1000 = (Ok p, rl0) /\ wf_ptr eq_deep_msg p /\
    den true eq_deep_msg 0 [] p v /\ trav true eq_deep_msg p (Z.of_nat (vdepth v)) ca /\
    equal_m 6 c fx x (rl0, 0) p p = (EOk true, (rl0 - 16, 0)).
Proof.
  intros c fx x.
  pose proof equal_fuel_tight as [Hm _].
  destruct (root c eq_deep_msg 1000) as [r rl0] eqn:E. vm_compute in E. inversion E; subst r rl0. clear E.
  match goal with |- exists p, _ => eexists; eexists end.
  destruct (vdec 10 1000 eq_deep_msg 0 []
              (mkPtr true 0 8 0 (mkOS 0 1) 3 KStruct false false false)) as [v|] eqn:Ev; [|vm_compute in Ev; discriminate].
  pose proof (vdec_den _ _ _ _ _ _ _ Ev) as D.
  destruct (den_trav true _ 0 [] Hm (vdepth v) v (le_n _) _ D) as (ca & T).
  exists v, ca. split; [reflexivity|]. split.
  { intros _. split; [vm_compute; split; congruence|]. vm_compute. repeat split; congruence. }
  split; [exact D|]. split; [exact T|]. vm_compute. reflexivity.
Qed.

(* den_defined_of_valid, PARTIAL.  Wanted: for a message satisfying the Spec validity predicate
   (Spec/SpecValid.strict_valid_message = VOk) every pointer reachable from the root has a
   denotation.  Proved here: the same conclusion (a denotation, and its traversability measures)
   from the success of the EXECUTABLE decoder [vdec] on the pointer -- a decidable sufficient
   condition evaluated by the harness on every case.  Missing: the lemma
   strict_valid_message f m = VOk -> vdec .. m .. (root) <> None (Spec/StrictWalk.strict_valid_walk
   gives walk = spec_decode on such messages, but no lemma links a complete walked tree to vdec/den). *)
Theorem den_defined_of_valid_partial : forall fuel lcap m mid caps p v,
  msg_ok m -> vdec fuel lcap m mid caps p = Some v ->
  den true m mid caps p v /\ exists c, trav true m p (Z.of_nat (vdepth v)) c.
Proof.
  intros fuel lcap m mid caps p v Hm E. pose proof (vdec_den _ _ _ _ _ _ _ E) as D.
  split; [exact D|]. exact (den_trav true m mid caps Hm (vdepth v) v (le_n _) p D).
Qed.
