(* C16 [T2] copy_value: the induction, for a single-segment destination.
   P_wp f : writePtr (fuel f) of a pointer of the read-only source message into slot a of the
            destination stores one word there and appends the copy at the end of the segment;
            in EVERY memory that keeps that word and the appended bytes (whatever precedes them
            or is appended later), the reader reads the slot as a pointer denoting the source's value.
   P_cs f : copyStruct (fuel f) into a destination struct of any section sizes writes the data
            words resized (truncated / zero-extended), the pointer words of the first
            min(ns, nd) children, null for the missing ones, and appends the children.
   Domain ([cvdom]): values built from structs (any sizes), nulls and lists of every kind
   (void, 1/2/4/8-byte, bit, pointer and struct lists), any depth; not capabilities. *)
From CV Require Import Value.ValueEq Value.ValueEqProofs Value.EqualM Value.Den Value.DenFacts Value.DenLists
                       Value.CanonSpec Value.CanonProofs Value.CanonProofs3 Value.CanonM Value.CanonMStruct Value.CanonMData Value.CanonMHeap
                       Value.CanonMLoop Value.CanonMInd Value.CanonMBytes Value.CanonMBlocks Value.CopyValue Value.CopyValueHeap.
From CV Require Import Core.ReaderFacts Core.SafetyProofs Core.BuilderFacts Core.ArithFacts Core.CopyProofs Core.CopySafe
                       Core.WritePtrProofs.
From Coq Require Import ZifyBool ZifyNat.
Ltac Zify.zify_post_hook ::= Z.div_mod_to_equations.
Open Scope Z_scope.

Fixpoint cvdom (v : value) : bool :=
  match v with
  | VNull => true
  | VStruct _ ps => forallb cvdom ps
  | VBits _ => true
  | VList LPtr es | VList LComp es => forallb cvdom es
  | VList _ _ => true
  | VCap _ => false
  end.

Lemma wob_w64 d : bytes_ok d -> Forall w64 (words_of_bytes d).
Proof.
  enough (G : forall fuel d, (length d <= fuel)%nat -> bytes_ok d -> Forall w64 (words_of_bytes d)) by (apply (G (length d)), le_n).
  clear d. induction fuel as [|fuel IH]; intros d Hl Hb.
  - destruct d; [constructor|cbn [length] in Hl; lia].
  - assert (W : forall l, bytes_ok l -> (length l <= 8)%nat -> w64 (le_decode l)).
    { intros l Hbl Hll. pose proof (le_decode_range l Hbl) as R. unfold w64, two64.
      assert (Hp : 256 ^ zlen l <= 256 ^ 8) by (apply Z.pow_le_mono_r; [lia|unfold zlen; clear - Hll; lia]).
      change (256 ^ 8) with 18446744073709551616 in *. set (X := 256 ^ zlen l) in *. clearbody X. split; [apply R|]. destruct R as [_ R2]. eapply Z.lt_le_trans; [exact R2|exact Hp]. }
    destruct (Nat.le_gt_cases 8 (length d)) as [Hge|Hlt].
    + rewrite <- (firstn_skipn 8 d). rewrite wob_8 by (rewrite firstn_length; lia). constructor.
      * apply W; [apply Forall_firstn'; exact Hb| rewrite firstn_length; lia].
      * apply IH; [rewrite skipn_length; lia| apply Forall_skipn'; exact Hb].
    + destruct d as [|b0 r] eqn:Ed; [constructor|]. rewrite <- Ed in *.
      assert (0 < length d)%nat by (rewrite Ed; cbn [length]; lia).
      rewrite wob_small by lia. constructor; [|constructor]. apply W; [exact Hb|lia].
Qed.

Lemma bow_bytes_ok ws : bytes_ok (bytes_of_words ws).
Proof. induction ws as [|w r IH]; [constructor|]. change (bytes_of_words (w :: r)) with (le_encode 8 w ++ bytes_of_words r). apply Forall_app. split; [apply le_encode_bytes|exact IH]. Qed.

Lemma set_slots_bytes_ok D A ws : bytes_ok D -> bytes_ok (set_slots D A ws).
Proof.
  intros H. unfold set_slots. apply Forall_app. split; [apply Forall_firstn'; exact H|].
  apply Forall_app. split; [apply bow_bytes_ok|apply Forall_skipn'; exact H].
Qed.

Lemma zeros_bytes_ok n : bytes_ok (repeat 0 n).
Proof. apply Forall_forall. intros x Hx. apply repeat_spec in Hx. subst x. lia. Qed.

Lemma bow_zeros n : bytes_of_words (repeat 0 n) = repeat 0 (8 * n).
Proof.
  induction n as [|n IH]; [reflexivity|]. cbn [repeat]. unfold bytes_of_words in *. cbn [flat_map]. rewrite IH.
  replace (8 * S n)%nat with (8 + 8 * n)%nat by lia. reflexivity.
Qed.

(* the bytes copyStruct writes into the data section are the resized words *)
Lemma copy_data_words d dn : bytes_ok d -> zlen d mod 8 = 0 ->
  let n := Nat.min (length d) (8 * dn) in
  firstn n d ++ repeat 0 (8 * dn - n) = bytes_of_words (resize_words (words_of_bytes d) dn).
Proof.
  intros Hb Hz. assert (Hm : (length d mod 8 = 0)%nat) by (apply Nat2Z.inj; rewrite Nat2Z.inj_mod; exact Hz).
  cbv zeta. unfold resize_words. rewrite bow_app, bow_zeros.
  rewrite <- (firstn_bytes_words d dn Hb Hm).
  pose proof (bow_wob d Hb Hm) as E. apply (f_equal (@length Z)) in E. rewrite bytes_of_words_length in E.
  f_equal.
  - destruct (Nat.le_gt_cases (length d) (8 * dn)) as [H|H].
    + rewrite Nat.min_l by lia. rewrite !firstn_all2 by lia. reflexivity.
    + rewrite Nat.min_r by lia. reflexivity.
  - f_equal. lia.
Qed.

Lemma bow_sub_word : forall blk k, (k < length blk)%nat ->
  sub (bytes_of_words blk) (8 * Z.of_nat k) 8 = le_encode 8 (nth k blk 0).
Proof.
  induction blk as [|x r IH]; intros k Hk; [cbn [length] in Hk; lia|].
  change (bytes_of_words (x :: r)) with (le_encode 8 x ++ bytes_of_words r).
  destruct k as [|k].
  - cbn [nth]. rewrite sub_app_l by (unfold zlen; rewrite ?le_encode_length; lia).
    unfold sub. cbn [Z.to_nat skipn]. apply firstn_all2. rewrite le_encode_length. lia.
  - cbn [nth]. rewrite sub_app_r by (unfold zlen; rewrite ?le_encode_length; lia).
    unfold zlen. rewrite le_encode_length. replace (8 * Z.of_nat (S k) - Z.of_nat 8) with (8 * Z.of_nat k) by lia.
    apply IH. cbn [length] in Hk. lia.
Qed.

Lemma block_word M A blk k : 0 <= A -> sub M A (8 * zlen blk) = bytes_of_words blk -> (k < length blk)%nat ->
  word_is M (A + 8 * Z.of_nat k) (nth k blk 0).
Proof.
  intros HA Hs Hk. unfold word_is.
  replace (sub M (A + 8 * Z.of_nat k) 8) with (sub (sub M A (8 * zlen blk)) (8 * Z.of_nat k) 8)
    by (apply sub_sub; unfold zlen; lia).
  rewrite Hs. apply bow_sub_word. exact Hk.
Qed.

Lemma bow_sub_mid a b c : sub (bytes_of_words (a ++ b ++ c)) (8 * zlen a) (8 * zlen b) = bytes_of_words b.
Proof.
  rewrite !bow_app. rewrite sub_app_r by (unfold zlen; rewrite ?bytes_of_words_length; lia).
  replace (8 * zlen a - zlen (bytes_of_words a)) with 0 by (unfold zlen; rewrite bytes_of_words_length; lia).
  rewrite sub_app_l by (unfold zlen; rewrite ?bytes_of_words_length; lia).
  unfold sub. cbn [Z.to_nat skipn]. apply firstn_all2. rewrite bytes_of_words_length. unfold zlen. lia.
Qed.

Lemma nthv_resize_ptrs ps n i : 0 <= i < Z.of_nat n ->
  nthv (resize_ptrs ps n) i = if i <? zlen ps then nthv ps i else VNull.
Proof.
  intros Hi. unfold nthv, resize_ptrs, zlen. destruct (i <? Z.of_nat (length ps)) eqn:E.
  - rewrite app_nth1 by (rewrite firstn_length; lia). apply nth_firstn_lt. lia.
  - rewrite app_nth2 by (rewrite firstn_length; lia).
    destruct (Nat.lt_ge_cases (Z.to_nat i - length (firstn n ps)) (n - length ps)) as [H|H].
    + apply nth_repeat.
    + apply nth_overflow. rewrite repeat_length. exact H.
Qed.

Definition BOUND := 4294967288.

(* the slot at byte address a of the single segment M reads as a pointer denoting v *)
Definition reads_as (M : list Z) (a : Z) (v : value) : Prop :=
  exists dep rl q rl', readPtr true [M] rl 0 M a dep = (Ok q, rl') /\ forall mid caps, den true [M] mid caps q v.

Lemma reads_null M a : 0 <= a -> a + 8 <= zlen M -> zlen M <= BOUND -> word_is M a 0 -> reads_as M a VNull.
Proof.
  intros Ha Hb Hl Hw. exists 1, 0, nullPtr, 0. split; [apply read_zero_word; assumption|]. intros mid caps. apply den_null. reflexivity.
Qed.

Section Copy.
Context (m : segs) (Hm : msg_ok m).

(* [pre'] with zlen pre' = zlen D: later siblings overwrite other slots of D; [tail]: they append
   after [body].  The read-back is stated for every such memory so that it survives both. *)
Definition P_wp (f : nat) : Prop := forall D cap rl a src v fc w',
  hinv D -> 0 <= a -> a mod 8 = 0 -> a + 8 <= zlen D ->
  wf_ptr m src -> aligned src -> caligned src -> ctag_ok m src -> den true m 0 [] src v -> cvdom v = true ->
  write_ptr f true (dstw D cap m rl) 0 a InSrc src fc = Ok w' ->
  exists word body cap' rl',
    w' = dstw (put_word D a word ++ body) cap' m rl' /\ hinv (D ++ body) /\ bytes_ok body /\
    forall pre' tail, zlen pre' = zlen D -> word_is pre' a word -> zlen (pre' ++ body ++ tail) <= BOUND ->
      reads_as (pre' ++ body ++ tail) a v.

Definition P_cs (f : nat) : Prop := forall D cap rl dst s ws vs A dn pn w',
  hinv D -> dst_at dst A dn pn -> 0 <= A -> A mod 8 = 0 -> 0 <= dn <= 65535 -> 0 <= pn < 65536 ->
  A + 8 * dn + 8 * pn <= zlen D ->
  p_valid s = true -> p_kind s = KStruct -> wf_ptr m s -> aligned s ->
  den true m 0 [] s (VStruct ws vs) -> forallb cvdom vs = true ->
  copy_struct f true (dstw D cap m rl) dst InSrc s = Ok w' ->
  exists pwords kids cap' rl',
    zlen pwords = pn /\
    w' = dstw (set_slots D A (resize_words ws (Z.to_nat dn) ++ pwords) ++ kids) cap' m rl' /\
    hinv (D ++ kids) /\ bytes_ok kids /\
    forall pre' tail, zlen pre' = zlen D ->
      sub pre' A (8 * (dn + pn)) = bytes_of_words (resize_words ws (Z.to_nat dn) ++ pwords) ->
      zlen (pre' ++ kids ++ tail) <= BOUND ->
      forall i, 0 <= i < pn -> reads_as (pre' ++ kids ++ tail) (A + 8 * dn + 8 * i) (nthv (resize_ptrs vs (Z.to_nat pn)) i).

(* the last step of writePtr for an object copied to the end of the segment: its pointer word goes
   into slot a; what remains to show is that the slot reads back as v in every extension *)
Lemma wp_finish D body cap rl a raw v w' :
  hinv (D ++ body) -> bytes_ok body -> 0 <= a -> a + 8 <= zlen D ->
  place (dstw (D ++ body) cap m rl) 0 a 0 (zlen D) raw = Ok w' ->
  (forall pre' tail, zlen pre' = zlen D -> zlen (pre' ++ body ++ tail) <= BOUND ->
     word_is (pre' ++ body ++ tail) a (withOffset raw (nearPointerOffset a (zlen D))) ->
     reads_as (pre' ++ body ++ tail) a v) ->
  exists word body cap' rl',
    w' = dstw (put_word D a word ++ body) cap' m rl' /\ hinv (D ++ body) /\ bytes_ok body /\
    forall pre' tail, zlen pre' = zlen D -> word_is pre' a word -> zlen (pre' ++ body ++ tail) <= BOUND ->
      reads_as (pre' ++ body ++ tail) a v.
Proof.
  intros Hi Bb Ha Hab H R. exists (withOffset raw (nearPointerOffset a (zlen D))), body, cap, rl.
  split; [apply place_at_end; assumption|]. split; [exact Hi|]. split; [exact Bb|].
  intros pre' tail Lp Hw Hbound. apply R; [exact Lp|exact Hbound|]. apply word_is_app; [exact Ha|lia|exact Hw].
Qed.

(* the second loop of copyStruct: destination slots beyond the source's count are set to null *)
Lemma zero_loop dst B D cap rl ns : forall k ws kids, 0 <= B -> zlen ws = ns ->
  B + 8 * (ns + Z.of_nat k) <= zlen D -> zlen D + zlen kids <= BOUND ->
  (forall j, 0 <= j < ns + Z.of_nat k -> pointerAddress dst j = B + 8 * j) ->
  fold_res (map (fun i => ns + i) (iota k)) (dstw (set_slots D B ws ++ kids) cap m rl)
           (fun wa j => do m1 <- writeRawPointer (w_dst wa) 0 (pointerAddress dst j) 0; Ok (w_set_dst wa m1))
  = Ok (dstw (set_slots D B (ws ++ repeat 0 k) ++ kids) cap m rl).
Proof.
  induction k as [|k IH]; intros ws kids HB Lw Hb Hbd PA.
  - cbn. rewrite app_nil_r. reflexivity.
  - rewrite iota_S, map_app, fold_res_app, IH by (try assumption; try lia; intros j Hj; apply PA; lia).
    cbn [bind map fold_res]. rewrite PA by (unfold zlen in *; lia). cbn [w_dst dstw].
    assert (Lsl : zlen (set_slots D B (ws ++ repeat 0 k)) = zlen D).
    { apply set_slots_length; [assumption|]. rewrite app_length, repeat_length. unfold zlen in *. lia. }
    rewrite writeRaw_seg0 by (rewrite ?zlen_app, ?Lsl; unfold zlen, BOUND in *; lia). cbn [bind].
    unfold dstw, w_set_dst. cbn [w_src w_src_rl]. f_equal. f_equal.
    replace (B + 8 * (ns + Z.of_nat k)) with (B + 8 * Z.of_nat (length (ws ++ repeat 0 k)))
      by (rewrite app_length, repeat_length; unfold zlen in *; lia).
    rewrite put_word_slot by (rewrite ?app_length, ?repeat_length; unfold zlen in *; lia).
    rewrite <- app_assoc. replace (repeat 0 k ++ [0]) with (repeat 0 (S k)); [reflexivity|].
    clear. induction k; [reflexivity|]. cbn [repeat app]. f_equal. exact IHk.
Qed.

Lemma struct_den M q A dn pn dws vs' :
  p_valid q = true -> p_kind q = KStruct -> p_seg q = 0 -> p_off q = A -> p_size q = mkOS (8 * dn) pn ->
  0 <= A -> 0 <= dn <= 65535 -> 0 <= pn < 65536 -> A + 8 * dn + 8 * pn <= zlen M -> zlen M <= BOUND ->
  zlen dws = dn -> Forall w64 dws -> sub M A (8 * dn) = bytes_of_words dws ->
  zlen vs' = pn ->
  (forall i, 0 <= i < pn -> reads_as M (A + 8 * dn + 8 * i) (nthv vs' i)) ->
  forall mid caps, den true [M] mid caps q (VStruct dws vs').
Proof.
  intros Hv Hk Hs Ho Hsz HA Hdn Hpn Hb Hl Ldw Hw Hsub Lvs Hp mid caps.
  rewrite <- (words_of_bytes_of_words dws Hw).
  apply den_struct; try assumption.
  - rewrite Hsz. unfold wf_size. cbn [DataSize PointerCount]. lia.
  - unfold seg_of. rewrite Hs, Ho, Hsz. cbn [Z.to_nat nth DataSize]. rewrite slice_ok by (unfold BOUND in *; lia).
    rewrite Hsub. reflexivity.
  - rewrite Hsz. exact Lvs.
  - intros i Hi. rewrite Hsz in Hi. cbn [PointerCount] in Hi.
    destruct (Hp i Hi) as (dep & rl & q0 & rl' & R & Dq). exists dep, rl, q0, rl'.
    unfold seg_of. rewrite Hs. cbn [Z.to_nat nth].
    rewrite pointerAddress_eq by (rewrite ?Ho, ?Hsz; cbn [DataSize]; unfold BOUND, maxSegmentSize in *; lia).
    rewrite Ho, Hsz. cbn [DataSize]. split; [exact R|exact (Dq mid caps)].
Qed.

End Copy.
