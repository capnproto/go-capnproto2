(* C18 [T2]: canonicalList, the bit-list case.  The raw copy with the padding bits of the last byte
   cleared (mask_last, repair O2), followed by the allocation's zero padding and read as words, is
   the specification's pack 2 64 of the bits. *)
From CV Require Import Value.ValueEq Value.ValueEqProofs Value.EqualM Value.Den Value.DenFacts Value.DenLists
                       Value.CanonSpec Value.CanonProofs Value.CanonProofs3 Value.CanonM Value.CanonMStruct
                       Value.CanonMWords Value.CanonMData Value.CanonMHeap Value.CanonMLoop Value.CanonSafe
                       Value.CanonMInd Value.CanonMBytes Value.CanonMListR.
From CV Require Import Core.ReaderFacts Core.SafetyProofs Core.BuilderFacts Core.ArithFacts Core.CopySafe.
From Coq Require Import ZifyBool ZifyNat.
Ltac Zify.zify_post_hook ::= Z.div_mod_to_equations.
Open Scope Z_scope.

Definition byte_bits (r : nat) (b : Z) : list Z := map (fun k => b2z (Z.testbit b k)) (iota r).

Lemma byte_bits_length r b : length (byte_bits r b) = r.
Proof. unfold byte_bits. rewrite map_length. apply iota_length. Qed.

Lemma byte_bits_value : forall r b, 0 <= b -> pack_word 2 (byte_bits r b) = b mod 2 ^ Z.of_nat r.
Proof.
  induction r as [|r IH]; intros b Hb.
  - cbn. rewrite Z.mod_1_r. reflexivity.
  - unfold byte_bits in *. rewrite iota_S, map_app, pack_word_app, IH by exact Hb. cbn [map pack_word].
    unfold zlen. rewrite map_length, iota_length.
    change (b2z (Z.testbit b (Z.of_nat r))) with (Z.b2z (Z.testbit b (Z.of_nat r))).
    rewrite Z.testbit_spec' by lia.
    rewrite Nat2Z.inj_succ, Z.pow_succ_r by lia. replace (2 * 2 ^ Z.of_nat r) with (2 ^ Z.of_nat r * 2) by ring.
    rewrite Z.rem_mul_r by (try apply Z.pow_nonzero; lia). ring.
Qed.

Definition bitsZ (n : nat) (d : list Z) : list Z := map b2z (bits_of n d).

Lemma bitsZ_length n d : length (bitsZ n d) = n.
Proof. unfold bitsZ, bits_of. rewrite !map_length. apply iota_length. Qed.

Lemma seq_off : forall b a, map Z.of_nat (seq a b) = map (fun x => Z.of_nat a + Z.of_nat x) (seq 0 b).
Proof.
  induction b as [|b IH]; intros a; [reflexivity|]. cbn [seq map]. f_equal; [lia|].
  rewrite (IH (S a)), <- seq_shift, map_map. apply map_ext. intros x. lia.
Qed.

Lemma iota_add a b : iota (a + b) = iota a ++ map (fun i => Z.of_nat a + i) (iota b).
Proof. unfold iota. rewrite seq_app, map_app. f_equal. cbn [Nat.add]. rewrite map_map. apply seq_off. Qed.

(* splitting after k bytes *)
Lemma bitsZ_split k n d :
  bitsZ (8 * k + n) d = bitsZ (8 * k) (firstn k d) ++ bitsZ n (skipn k d).
Proof.
  unfold bitsZ, bits_of. rewrite iota_add, !map_app. f_equal.
  - rewrite !map_map. apply map_ext_in. intros i Hi. apply in_map_iff in Hi. destruct Hi as (j & <- & Hj). apply in_seq in Hj.
    unfold bit_at. f_equal. f_equal. symmetry. apply nth_firstn_lt. lia.
  - rewrite !map_map. apply map_ext_in. intros i Hi. apply in_map_iff in Hi. destruct Hi as (j & <- & Hj). apply in_seq in Hj.
    unfold bit_at. f_equal. f_equal.
    + rewrite nth_skipn_add. f_equal. lia.
    + lia.
Qed.

Lemma bitsZ_byte r b t : (r <= 8)%nat -> bitsZ r (b :: t) = byte_bits r b.
Proof.
  intros Hr. unfold bitsZ, bits_of, byte_bits. rewrite map_map. apply map_ext_in.
  intros i Hi. apply in_map_iff in Hi. destruct Hi as (j & <- & Hj). apply in_seq in Hj.
  unfold bit_at. replace (Z.to_nat (Z.of_nat j / 8)) with 0%nat by lia. cbn [nth].
  replace (Z.of_nat j mod 8) with (Z.of_nat j) by lia. reflexivity.
Qed.

Lemma mask_last_cons n b r : 8 <= n -> zlen r = (n - 8 + 7) / 8 ->
  mask_last n (b :: r) = b :: mask_last (n - 8) r.
Proof.
  intros Hn Hl. unfold mask_last. cbv zeta. replace ((n - 8) mod 8) with (n mod 8) by lia.
  destruct (n mod 8 =? 0) eqn:E; [reflexivity|].
  cbn [rev]. destruct (rev r) as [|l pre] eqn:Er.
  - exfalso. apply (f_equal (@length Z)) in Er. rewrite rev_length in Er. cbn [length] in Er. unfold zlen in Hl. lia.
  - cbn [app]. rewrite rev_app_distr. reflexivity.
Qed.

(* all the bits, as one number = all the masked bytes, as one number *)
Lemma pack_bits_le_decode : forall d n, bytes_ok d -> zlen d = (Z.of_nat n + 7) / 8 ->
  pack_word 2 (bitsZ n d) = le_decode (mask_last (Z.of_nat n) d).
Proof.
  induction d as [|b r IH]; intros n Hb Hl.
  - assert (n = 0%nat) by (unfold zlen in Hl; cbn [length] in Hl; lia). subst n. reflexivity.
  - inversion Hb as [|? ? Hb0 Hbr]; subst.
    destruct (Nat.le_gt_cases 8 n) as [Hge|Hlt].
    + replace n with (8 * 1 + (n - 8))%nat at 1 by lia. rewrite bitsZ_split. cbn [firstn skipn]. change (8 * 1)%nat with 8%nat.
      rewrite (bitsZ_byte 8 b []) by lia. rewrite pack_word_app.
      unfold zlen at 1. rewrite byte_bits_length. rewrite byte_bits_value by lia.
      assert (Lr : zlen r = (Z.of_nat (n - 8) + 7) / 8) by (unfold zlen in *; cbn [length] in Hl; lia).
      rewrite (IH (n - 8)%nat Hbr Lr).
      rewrite mask_last_cons by (unfold zlen in *; lia).
      replace (Z.of_nat n - 8) with (Z.of_nat (n - 8)) by lia. cbn [le_decode].
      change (2 ^ Z.of_nat 8) with 256. lia.
    + assert (r = []) by (destruct r; [reflexivity|unfold zlen in Hl; cbn [length] in Hl; lia]). subst r.
      assert (0 < n)%nat by (unfold zlen in Hl; cbn [length] in Hl; lia).
      rewrite bitsZ_byte by lia. rewrite byte_bits_value by lia.
      unfold mask_last. cbv zeta. replace (Z.of_nat n mod 8) with (Z.of_nat n) by lia.
      destruct (Z.of_nat n =? 0) eqn:E; [lia|]. cbn [rev app le_decode]. lia.
Qed.

Lemma mask_last_split n d : 64 <= n -> zlen d = (n + 7) / 8 ->
  mask_last n d = firstn 8 d ++ mask_last (n - 64) (skipn 8 d).
Proof.
  intros Hn Hl.
  do 8 (destruct d as [|? d]; [unfold zlen in Hl; cbn [length] in Hl; lia|]).
  cbn [firstn skipn app].
  do 8 (rewrite mask_last_cons by (unfold zlen in *; cbn [length] in *; lia)).
  replace (n - 8 - 8 - 8 - 8 - 8 - 8 - 8 - 8) with (n - 64) by lia. reflexivity.
Qed.

Lemma mask_last_bytes_ok n d : bytes_ok d -> bytes_ok (mask_last n d).
Proof.
  intros H. unfold mask_last. cbv zeta. destruct (n mod 8 =? 0) eqn:E; [exact H|].
  destruct (rev d) as [|l pre] eqn:Er; [constructor|].
  assert (Hr : bytes_ok (rev d)) by (apply Forall_rev; exact H). rewrite Er in Hr. inversion Hr as [|? ? Hl Hp]; subst.
  apply Forall_app. split; [apply Forall_rev; exact Hp|]. constructor; [|constructor].
  assert (0 < 2 ^ (n mod 8) <= 256).
  { split; [apply Z.pow_pos_nonneg; lia|]. change 256 with (2 ^ 8). apply Z.pow_le_mono_r; lia. }
  pose proof (Z.mod_pos_bound l (2 ^ (n mod 8)) ltac:(lia)). lia.
Qed.

(* the words *)
Lemma pack_bits_words : forall fuel n d, (n <= fuel)%nat -> bytes_ok d -> zlen d = (Z.of_nat n + 7) / 8 ->
  pack_all fuel 2 64 (bitsZ n d) = words_of_bytes (mask_last (Z.of_nat n) d).
Proof.
  induction fuel as [|fuel IH]; intros n d Hf Hb Hl.
  - assert (n = 0%nat) by lia. subst n. assert (d = []) by (destruct d; [reflexivity|unfold zlen in Hl; cbn [length] in Hl; lia]).
    subst d. reflexivity.
  - destruct n as [|n'].
    { assert (d = []) by (destruct d; [reflexivity|unfold zlen in Hl; cbn [length] in Hl; lia]). subst d. reflexivity. }
    set (n := S n') in *.
    assert (Hne : bitsZ n d <> []).
    { intros E. apply (f_equal (@length Z)) in E. rewrite bitsZ_length in E. cbn [length] in E. unfold n in E. lia. }
    cbn [pack_all]. destruct (bitsZ n d) as [|x0 xs] eqn:Eb; [congruence|]. rewrite <- Eb. clear Hne.
    destruct (Nat.le_gt_cases 64 n) as [Hge|Hlt].
    + assert (Es : bitsZ n d = bitsZ 64 (firstn 8 d) ++ bitsZ (n - 64) (skipn 8 d)).
      { replace n with (8 * 8 + (n - 64))%nat at 1 by lia. apply bitsZ_split. }
      rewrite Es.
      rewrite firstn_app, bitsZ_length, Nat.sub_diag, firstn_O, app_nil_r, firstn_all2 by (rewrite bitsZ_length; lia).
      rewrite skipn_app, bitsZ_length, Nat.sub_diag, skipn_O, skipn_all2 by (rewrite bitsZ_length; lia). rewrite app_nil_l.
      assert (L8 : length (firstn 8 d) = 8%nat) by (rewrite firstn_length; unfold zlen in Hl; lia).
      rewrite (pack_bits_le_decode (firstn 8 d) 64) by (try (apply Forall_firstn'; exact Hb); unfold zlen; rewrite L8; reflexivity).
      change (Z.of_nat 64) with 64. assert (E64 : mask_last 64 (firstn 8 d) = firstn 8 d) by reflexivity. rewrite E64.
      rewrite IH; [| lia | apply Forall_skipn'; exact Hb | unfold zlen in *; rewrite skipn_length; lia].
      rewrite (mask_last_split (Z.of_nat n) d) by lia. rewrite wob_8 by exact L8.
      replace (Z.of_nat n - 64) with (Z.of_nat (n - 64)) by lia. reflexivity.
    + rewrite firstn_all2 by (rewrite bitsZ_length; lia). rewrite skipn_all2 by (rewrite bitsZ_length; lia).
      rewrite pack_bits_le_decode by assumption.
      assert (Ep : pack_all fuel 2 64 [] = []) by (destruct fuel; reflexivity). rewrite Ep.
      set (md := mask_last (Z.of_nat n) d).
      assert (Lmd : length md = length d) by apply mask_last_length.
      assert (0 < length d <= 8)%nat by (unfold zlen, n in *; lia).
      destruct (Nat.eq_dec (length d) 8) as [E8|E8].
      * rewrite <- (app_nil_r md) at 2. rewrite wob_8 by lia. reflexivity.
      * rewrite wob_small by lia. reflexivity.
Qed.

Section ListB.
Context (c : config) (fx : cfix) (m : segs).
Context (Hstrict : cfg_strict c = true) (Hfx : all_cfixed fx) (Hm : msg_ok m).

Lemma list_bits_case f data cap rl p bits w' cp :
  hinv data -> wf_ptr m p -> caligned p -> den true m 0 [] p (VBits bits) ->
  canonical_list c fx (S f) (dstw data cap m rl) 0 p = KOk (w', cp) -> Qconcl m data (VBits bits) w' cp.
Proof.
  intros Hi Hwf Hcal D H.
  inversion D as [| | |p0 d Hv Hk Hb Hn Sl| | |]; subst p0 bits.
  assert (Hc : p_comp p = false).
  { destruct (p_comp p) eqn:E; [|reflexivity]. destruct (Hcal E) as [_ X]. congruence. }
  destruct (Hwf Hv) as (Hseg & Hobj). unfold wf_obj in Hobj. rewrite Hk, Hb in Hobj.
  destruct Hobj as (Ho & Hlen & Hsz & Hbd).
  assert (Hsok : seg_ok (seg_of m p)) by (apply seg_of_ok; assumption).
  assert (Hsl : zlen (seg_of m p) <= 4294967288) by (apply Hsok).
  set (n := p_len p) in *.
  assert (Ebl : bitListSize n = (n + 7) / 8) by (unfold bitListSize, u32; lia).
  assert (Esz : list_allocSize p = (n + 7) / 8).
  { unfold list_allocSize. rewrite Hv, Hb. cbn [negb]. exact Ebl. }
  pose proof (raw_copy c fx m Hfx f data cap rl p w' cp Hi Hv Hc ltac:(rewrite Hsz; reflexivity) Ho ltac:(rewrite Esz; lia)
                       ltac:(rewrite Esz; lia) Hsl H) as R.
  cbv zeta in R. rewrite Esz, Hb, Hsz in R. fold n in R. destruct R as (Hbound & -> & cap1 & ->).
  rewrite Ebl, slice_ok in Sl by lia. inversion Sl; subst d; clear Sl.
  destruct Hi as [Hi1 Hi2].
  set (d := sub (seg_of m p) (p_off p) ((n + 7) / 8)) in *.
  assert (Ld : zlen d = (n + 7) / 8) by (unfold d; apply sub_length; lia).
  assert (Hd : bytes_ok d) by (unfold d, sub; apply Forall_firstn', Forall_skipn'; apply Hsok).
  set (bs := mask_last n d) in *.
  assert (Lbs : length bs = length d) by apply mask_last_length.
  assert (Hbs : bytes_ok bs) by (apply mask_last_bytes_ok; exact Hd).
  destruct (bow_wob_pad (length bs) bs (le_n _) Hbs) as (kp & Ebow & Hkm & Hk8).
  assert (Ekp : (Z.to_nat (padToWord ((n + 7) / 8)) - length bs)%nat = kp).
  { unfold padToWord, u32 in *. unfold zlen in Ld. lia. }
  rewrite Ekp, <- Ebow. exists (words_of_bytes bs), cap1, rl. split; [reflexivity|].
  assert (Lbow : zlen (bytes_of_words (words_of_bytes bs)) = padToWord ((n + 7) / 8)).
  { rewrite Ebow, zlen_app. unfold zlen in *. rewrite repeat_length. unfold padToWord, u32 in *. lia. }
  assert (Pm : padToWord ((n + 7) / 8) mod 8 = 0) by (unfold padToWord; lia).
  assert (P0 : 0 <= padToWord ((n + 7) / 8)) by (unfold padToWord, u32; lia).
  split; [split; rewrite zlen_app, Lbow; lia|].
  split.
  { right. cbn [p_valid p_seg p_member p_off p_kind p_size p_len p_comp p_bit].
    split; [reflexivity|]. split; [reflexivity|]. split; [reflexivity|]. split; [exact Hi1|].
    split; [rewrite zlen_app, Lbow; unfold zlen; lia|]. split; [lia|exact I]. }
  intros a F Ha Ham Hab HFd.
  cbn [norm] in *. destruct F as [|F']; [cbn [vdepth] in HFd; lia|].
  assert (Lb : zlen (bits_of (Z.to_nat n) d) = n) by (unfold zlen, bits_of; rewrite map_length, iota_length; lia).
  cbn [enc]. rewrite Lb. unfold two29.
  destruct ((n >=? 536870912) || (zlen data / 8 - a / 8 - 1 >=? 536870912)) eqn:E1; [lia|].
  unfold pack. rewrite map_length. fold (bitsZ (Z.to_nat n) d).
  replace (length (bits_of (Z.to_nat n) d)) with (Z.to_nat n) by (unfold zlen in Lb; lia).
  rewrite (pack_bits_words (Z.to_nat n) (Z.to_nat n) d (le_n _) Hd) by lia.
  replace (Z.of_nat (Z.to_nat n)) with n by lia. fold bs.
  unfold ptr_word. cbn [p_valid negb p_kind p_comp p_bit p_size PointerCount DataSize p_off p_len]. reflexivity.
Qed.

End ListB.
