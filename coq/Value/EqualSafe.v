(* C01 / C02 for the recursive consumer capnp.Equal (model Value/EqualM.v): on ARBITRARY bytes
   (one or two hostile messages) [equal_m] never panics, never increases a traversal budget
   and never drives it negative, and with enough fuel never reports fuel exhaustion.
   Standing assumptions: [msg_ok] for both messages, the repaired reader (cfg_strict for
   well-formedness of what Struct.Ptr hands out, fx_depth for the fuel theorem). *)
From CV Require Import Value.EqualM Core.LimitProofs.
From Coq Require Import ZifyBool.
Open Scope Z_scope.
Ltac Zify.zify_post_hook ::= Z.div_mod_to_equations.

Lemma on_a_SA x : on_a x SA = true.
Proof. unfold on_a. apply Bool.orb_true_r. Qed.
Lemma segs_of_SA x : segs_of x SA = ec_segs_a x.
Proof. unfold segs_of. rewrite on_a_SA. reflexivity. Qed.

Definition ectx_ok (x : ectx) : Prop := msg_ok (segs_of x SA) /\ msg_ok (segs_of x SB).

Definition lims_nonneg (w : lims) : Prop := 0 <= fst w /\ 0 <= snd w.
Definition lims_le (w' w : lims) : Prop := 0 <= fst w' <= fst w /\ 0 <= snd w' <= snd w.

Lemma lims_le_refl w : lims_nonneg w -> lims_le w w.
Proof. unfold lims_nonneg, lims_le. lia. Qed.
Lemma lims_le_trans a b c : lims_le a b -> lims_le b c -> lims_le a c.
Proof. unfold lims_le. lia. Qed.
Lemma lims_le_nonneg a b : lims_le a b -> lims_nonneg a.
Proof. unfold lims_le, lims_nonneg. lia. Qed.

Lemma rl_of_nonneg x w s : lims_nonneg w -> 0 <= rl_of x w s.
Proof. unfold lims_nonneg, rl_of. destruct (on_a x s); lia. Qed.
Lemma put_rl_le x w s rl : lims_nonneg w -> 0 <= rl <= rl_of x w s -> lims_le (put_rl x w s rl) w.
Proof. unfold lims_nonneg, lims_le, rl_of, put_rl. destruct (on_a x s); cbn [fst snd]; lia. Qed.

(* an outcome that is not a panic, with budgets that only went down *)
Definition egood (w : lims) (r : eout * lims) : Prop := fst r <> EPanic /\ lims_le (snd r) w.

Lemma egood_trans w w1 r : lims_le w1 w -> egood w1 r -> egood w r.
Proof. intros H [G1 G2]. split; [assumption|]. eapply lims_le_trans; eassumption. Qed.
Lemma egood_leaf w b : lims_nonneg w -> egood w (EOk b, w).
Proof. intros H. split; [discriminate|apply lims_le_refl; assumption]. Qed.
Lemma egood_err w : lims_nonneg w -> egood w (EErr, w).
Proof. intros H. split; [discriminate|apply lims_le_refl; assumption]. Qed.

Definition rec_ok (x : ectx) (rec : erec) : Prop :=
  forall w p q, lims_nonneg w -> wf_ptr (segs_of x SA) p -> wf_ptr (segs_of x SB) q -> egood w (rec w p q).

Lemma ptr_loop_S c x rec p q k i w :
  ptr_loop c x rec p q (S k) i w =
  (let '(r1, rl1) := struct_ptr c (segs_of x SA) (rl_of x w SA) p i in
   let w1 := put_rl x w SA rl1 in
   match r1 with
   | Panic => (EPanic, w1) | Err => (EErr, w1)
   | Ok sp1 =>
     let '(r2, rl2) := struct_ptr c (segs_of x SB) (rl_of x w1 SB) q i in
     let w2 := put_rl x w1 SB rl2 in
     match r2 with
     | Panic => (EPanic, w2) | Err => (EErr, w2)
     | Ok sp2 =>
       match rec w2 sp1 sp2 with
       | (EOk true, w3) => ptr_loop c x rec p q k (i + 1) w3
       | other => other
       end
     end
   end).
Proof. reflexivity. Qed.

Lemma elem_loop_S fxd rec p q k i w :
  elem_loop fxd rec p q (S k) i w =
  match list_struct fxd p i with
  | Panic => (EPanic, w) | Err => (EErr, w)
  | Ok e1 =>
    match list_struct fxd q i with
    | Panic => (EPanic, w) | Err => (EErr, w)
    | Ok e2 =>
      match rec w e1 e2 with
      | (EOk true, w') => elem_loop fxd rec p q k (i + 1) w'
      | other => other
      end
    end
  end.
Proof. reflexivity. Qed.

Lemma ptr_loop_good c x rec p q : ectx_ok x -> cfg_strict c = true -> rec_ok x rec ->
  wf_struct (segs_of x SA) p -> wf_struct (segs_of x SB) q ->
  forall k i w, 0 <= i -> lims_nonneg w -> egood w (ptr_loop c x rec p q k i w).
Proof.
  intros [Ha Hb] Hc Hrec Hp Hq. induction k as [|k IH]; intros i w Hi Hw.
  - apply egood_leaf. assumption.
  - rewrite ptr_loop_S.
    pose proof (struct_ptr_safe c (segs_of x SA) (rl_of x w SA) p i Ha Hp Hi) as S1.
    pose proof (struct_ptr_charge c (segs_of x SA) (rl_of x w SA) p i (rl_of_nonneg x w SA Hw)) as [C1 _].
    destruct (struct_ptr c (segs_of x SA) (rl_of x w SA) p i) as [r1 rl1]. cbn [fst snd] in *. cbv zeta.
    pose proof (put_rl_le x w SA rl1 Hw C1) as L1. pose proof (lims_le_nonneg _ _ L1) as N1.
    destruct r1 as [sp1| |]; cbn [res_sat] in S1; [|split; [discriminate|exact L1]|destruct S1].
    pose proof (struct_ptr_safe c (segs_of x SB) (rl_of x (put_rl x w SA rl1) SB) q i Hb Hq Hi) as S2.
    pose proof (struct_ptr_charge c (segs_of x SB) (rl_of x (put_rl x w SA rl1) SB) q i (rl_of_nonneg x _ SB N1)) as [C2 _].
    destruct (struct_ptr c (segs_of x SB) _ q i) as [r2 rl2]. cbn [fst snd] in *.
    pose proof (put_rl_le x _ SB rl2 N1 C2) as L2. pose proof (lims_le_nonneg _ _ L2) as N2.
    pose proof (lims_le_trans _ _ _ L2 L1) as L12.
    destruct r2 as [sp2| |]; cbn [res_sat] in S2; [|split; [discriminate|exact L12]|destruct S2].
    pose proof (Hrec _ sp1 sp2 N2 (S1 Hc) (S2 Hc)) as G.
    destruct (rec _ sp1 sp2) as [o w3]. apply (egood_trans _ _ _ L12).
    destruct o as [[|]| | |]; try exact G.
    destruct G as [_ G]. cbn [snd] in G. eapply egood_trans; [exact G|].
    apply IH; [lia|]. eapply lims_le_nonneg; exact G.
Qed.

Lemma elem_loop_good fxd x rec p q : ectx_ok x -> rec_ok x rec ->
  wf_list (segs_of x SA) p -> wf_list (segs_of x SB) q -> list_len p = list_len q ->
  forall k i w, 0 <= i -> i + Z.of_nat k <= list_len p -> lims_nonneg w ->
  egood w (elem_loop fxd rec p q k i w).
Proof.
  intros [Ha Hb] Hrec Hp Hq Hlen. induction k as [|k IH]; intros i w Hi Hk Hw.
  - apply egood_leaf. assumption.
  - rewrite elem_loop_S.
    pose proof (list_struct_safe fxd _ p i Ha Hp ltac:(lia)) as S1.
    destruct (list_struct fxd p i) as [e1| |]; cbn [res_sat] in S1; [|apply egood_err; assumption|destruct S1].
    pose proof (list_struct_safe fxd _ q i Hb Hq ltac:(lia)) as S2.
    destruct (list_struct fxd q i) as [e2| |]; cbn [res_sat] in S2; [|apply egood_err; assumption|destruct S2].
    pose proof (Hrec w e1 e2 Hw (proj1 S1) (proj1 S2)) as G.
    destruct (rec w e1 e2) as [o w']. destruct o as [[|]| | |]; try exact G.
    destruct G as [_ G]. cbn [snd] in G. eapply egood_trans; [exact G|].
    apply IH; try lia. eapply lims_le_nonneg; exact G.
Qed.

(* the extra pointers of the longer struct *)
Lemma has_nonnull_ptr_safe strict m p i : msg_ok m -> wf_struct m p -> p_valid p = true ->
  0 <= i < PointerCount (p_size p) -> has_nonnull_ptr strict m p i <> Panic.
Proof.
  intros Hm Hw V Hi. unfold has_nonnull_ptr.
  destruct (wf_struct_inv m p Hw V) as (Hs & Hz & Ho & He). unfold wf_size in Hz.
  rewrite (pointerAddress_spec m p i Hm Hw V Hi).
  destruct (readRawPointer_ok (seg_of m p) (p_off p + DataSize (p_size p) + 8 * i) (seg_of_ok m p Hm)
              ltac:(lia) ltac:(lia)) as [v [E _]].
  rewrite E. cbn [bind]. destruct (v =? 0); [discriminate|].
  pose proof (resolveFarPointer_safe strict m (p_seg p) (seg_of m p) (p_off p + DataSize (p_size p) + 8 * i)
                Hm (seg_of_is_seg m p Hs) ltac:(lia) ltac:(lia)) as H.
  destruct (resolveFarPointer _ _ _ _ _) as [[[[a b] c0] d]| |]; cbn [res_sat] in H; [discriminate|discriminate|destruct H].
Qed.

Lemma no_ptrs_safe fixed strict m p : msg_ok m -> wf_struct m p -> p_valid p = true ->
  forall k i, 0 <= i -> i + Z.of_nat k <= PointerCount (p_size p) -> no_ptrs fixed strict m p k i <> Panic.
Proof.
  intros Hm Hw V. induction k as [|k IH]; intros i Hi Hk; cbn [no_ptrs]; [discriminate|].
  assert ((if fixed then has_nonnull_ptr strict m p i else struct_hasptr m p i) <> Panic) as H.
  { destruct fixed; [apply has_nonnull_ptr_safe; auto; lia|apply struct_hasptr_safe; auto]. }
  destruct (if fixed then has_nonnull_ptr strict m p i else struct_hasptr m p i) as [h| |]; cbn [bind];
    [|discriminate|congruence].
  destruct h; [discriminate|]. apply IH; lia.
Qed.

Lemma struct_data_slice m p : msg_ok m -> wf_struct m p -> p_valid p = true ->
  exists d, slice (seg_of m p) (p_off p) (DataSize (p_size p)) = Ok d.
Proof.
  intros Hm Hw V. destruct (wf_struct_inv m p Hw V) as (Hs & Hz & Ho & He). unfold wf_size in Hz.
  destruct (seg_of_ok m p Hm) as [Hl _]. unfold maxSegmentSize in Hl.
  eexists. apply slice_ok; lia.
Qed.

Lemma equal_struct_good c fx x rec w p q : ectx_ok x -> cfg_strict c = true -> rec_ok x rec ->
  wf_struct (segs_of x SA) p -> wf_struct (segs_of x SB) q -> p_valid p = true -> p_valid q = true ->
  lims_nonneg w -> egood w (equal_struct c fx x rec w p q).
Proof.
  intros Hx Hc Hrec Hp Hq Vp Vq Hw. pose proof Hx as [Ha Hb]. unfold equal_struct. cbv zeta.
  destruct (struct_data_slice _ p Ha Hp Vp) as [d1 ->]. destruct (struct_data_slice _ q Hb Hq Vq) as [d2 ->].
  destruct (negb (struct_data_equal d1 d2)); [apply egood_leaf; assumption|].
  destruct (wf_struct_inv _ p Hp Vp) as (_ & [_ Hz1] & _). destruct (wf_struct_inv _ q Hq Vq) as (_ & [_ Hz2] & _).
  pose proof (ptr_loop_good c x rec p q Hx Hc Hrec Hp Hq
                (Z.to_nat (Z.min (PointerCount (p_size p)) (PointerCount (p_size q)))) 0 w ltac:(lia) Hw) as G.
  destruct (ptr_loop _ _ _ _ _ _ _ _) as [o w']. destruct o as [[|]| | |]; try exact G.
  destruct G as [_ G]. cbn [snd] in G. pose proof (lims_le_nonneg _ _ G) as N.
  pose proof (no_ptrs_safe (fx_farnull fx) (cfg_strict c) _ p Ha Hp Vp
                (Z.to_nat (PointerCount (p_size p) - Z.min (PointerCount (p_size p)) (PointerCount (p_size q))))
                (Z.min (PointerCount (p_size p)) (PointerCount (p_size q))) ltac:(lia) ltac:(lia)) as N1.
  destruct (no_ptrs _ _ _ p _ _) as [[|]| |]; try (split; [discriminate|exact G]); [|congruence].
  pose proof (no_ptrs_safe (fx_farnull fx) (cfg_strict c) _ q Hb Hq Vq
                (Z.to_nat (PointerCount (p_size q) - Z.min (PointerCount (p_size p)) (PointerCount (p_size q))))
                (Z.min (PointerCount (p_size p)) (PointerCount (p_size q))) ltac:(lia) ltac:(lia)) as N2.
  destruct (no_ptrs _ _ _ q _ _) as [b| |]; try (split; [discriminate|exact G]). congruence.
Qed.

(* the bytes of a list: [n] bytes at its offset, for any n up to its content size *)
Lemma list_bytes_slice m p n : msg_ok m -> wf_list m p -> p_valid p = true -> 0 <= n ->
  n <= (if p_bit p then (p_len p + 7) / 8 else p_len p * totalSize (p_size p)) ->
  exists d, slice (seg_of m p) (p_off p) n = Ok d.
Proof.
  intros Hm Hw V Hn Hle. destruct (wf_list_inv m p Hw V) as (Hs & Ho & Hl & Hr).
  destruct (seg_of_ok m p Hm) as [Hsl _]. unfold maxSegmentSize in Hsl.
  eexists. apply slice_ok; try lia. destruct (p_bit p); lia.
Qed.

Lemma list_content_size m p : msg_ok m -> wf_list m p -> p_valid p = true ->
  times (totalSize (p_size p)) (p_len p) = Some (p_len p * totalSize (p_size p)) /\
  0 <= p_len p * totalSize (p_size p) /\
  (p_bit p = true -> totalSize (p_size p) = 0).
Proof.
  intros Hm Hw V. destruct (wf_list_inv m p Hw V) as (Hs & Ho & Hl & Hr).
  destruct (seg_of_ok m p Hm) as [Hsl _].
  pose proof (totalSize_nonneg (p_size p)) as Ht.
  assert (0 <= p_len p * totalSize (p_size p)) as Hnn by nia.
  destruct (p_bit p) eqn:B.
  - destruct Hr as [Hz _]. rewrite Hz. change (totalSize (mkOS 0 0)) with 0.
    split; [|split; [lia|reflexivity]]. destruct (times 0 (p_len p)) eqn:E.
    + apply times_spec in E. f_equal. lia.
    + unfold times in E. cbv zeta in E. rewrite Z.mul_0_l in E. discriminate.
  - destruct Hr as [Hz Hr]. split; [|split; [assumption|discriminate]].
    destruct (times _ _) eqn:E.
    + apply times_spec in E. f_equal. lia.
    + unfold times in E. cbv zeta in E.
      destruct ((totalSize (p_size p) * p_len p >? maxSegmentSize) || (totalSize (p_size p) * p_len p <? 0)) eqn:E2;
        [|discriminate]. lia.
Qed.

Lemma equal_list_good fx x rec w p q : ectx_ok x -> rec_ok x rec ->
  wf_list (segs_of x SA) p -> wf_list (segs_of x SB) q -> p_valid p = true -> p_valid q = true ->
  lims_nonneg w -> egood w (equal_list fx x rec w p q).
Proof.
  intros Hx Hrec Hp Hq Vp Vq Hw. pose proof Hx as [Ha Hb]. unfold equal_list. cbv zeta.
  destruct (list_len p =? list_len q) eqn:El; cbn [negb]; [|apply egood_leaf; assumption].
  assert (list_len p = list_len q) as Hlen by lia.
  assert (p_len p = p_len q) as Hpl by (unfold list_len in Hlen; rewrite Vp, Vq in Hlen; exact Hlen).
  destruct (wf_list_inv _ p Hp Vp) as (_ & _ & Hl1 & Hr1). destruct (wf_list_inv _ q Hq Vq) as (_ & _ & Hl2 & Hr2).
  destruct (list_content_size _ p Ha Hp Vp) as (T1 & T1' & T1'').
  destruct (list_content_size _ q Hb Hq Vq) as (T2 & T2' & T2'').
  (* the bit-list case of the repaired code *)
  match goal with |- egood w (match ?bc with Some r => r | None => _ end) =>
    assert (match bc with Some r' => egood w r' | None => True end) as Hbit; [|destruct bc as [r'|]; [exact Hbit|clear Hbit]] end.
  { destruct (fx_bitlist fx); [|exact I].
    destruct (Bool.eqb (p_bit p) (p_bit q)) eqn:Eb; cbn [negb]; [|apply egood_leaf; assumption].
    apply Bool.eqb_prop in Eb. destruct (p_bit p) eqn:B1; [|exact I].
    rewrite bitListSize_spec by lia.
    destruct (list_bytes_slice _ p ((p_len p + 7) / 8) Ha Hp Vp ltac:(lia) ltac:(rewrite B1; lia)) as [d1 ->].
    destruct (list_bytes_slice _ q ((p_len p + 7) / 8) Hb Hq Vq ltac:(lia) ltac:(rewrite <- Eb, Hpl; lia)) as [d2 ->].
    apply egood_leaf. assumption. }
  destruct (negb (p_comp p) && negb (p_comp q) && negb (os_eqb (p_size p) (p_size q))); [apply egood_leaf; assumption|].
  destruct ((PointerCount (p_size p) =? 0) && (PointerCount (p_size q) =? 0)
            && (DataSize (p_size p) =? DataSize (p_size q))) eqn:Epd.
  - (* bytewise *)
    rewrite T1.
    assert (p_len q * totalSize (p_size q) = p_len p * totalSize (p_size p) \/
            (p_len p * totalSize (p_size p) = 0) \/
            (p_bit q = true /\ p_len p * totalSize (p_size p) = 0)) as Hsame.
    { destruct (p_bit p) eqn:B1; [right; left; rewrite (T1'' eq_refl); lia|].
      destruct (p_bit q) eqn:B2.
      - destruct Hr2 as [Hz2 _]. destruct Hr1 as [Hz1 _]. rewrite Hz2 in Epd. cbn [DataSize PointerCount] in Epd.
        right. left. rewrite (totalSize_wf _ Hz1). lia.
      - destruct Hr1 as [Hz1 _]. destruct Hr2 as [Hz2 _]. left.
        rewrite (totalSize_wf _ Hz1), (totalSize_wf _ Hz2). rewrite Hpl. lia. }
    destruct (list_bytes_slice _ p (p_len p * totalSize (p_size p)) Ha Hp Vp T1'
                ltac:(destruct (p_bit p) eqn:B; [rewrite (T1'' eq_refl); lia|lia])) as [d1 ->].
    destruct (list_bytes_slice _ q (p_len p * totalSize (p_size p)) Hb Hq Vq T1'
                ltac:(destruct (p_bit q) eqn:B; [destruct Hsame as [H|[H|[_ H]]]; try lia;
                                                rewrite <- H, (T2'' eq_refl); lia|
                                                destruct Hsame as [H|[H|[H _]]]; try lia; discriminate])) as [d2 ->].
    apply egood_leaf. assumption.
  - apply (elem_loop_good (fx_depth (fx_rd fx)) x); try assumption; try lia.
    unfold list_len in *. rewrite Vp in *. lia.
Qed.

Lemma equal_step_good c fx x rec w p q : ectx_ok x -> cfg_strict c = true -> rec_ok x rec ->
  wf_ptr (segs_of x SA) p -> wf_ptr (segs_of x SB) q -> lims_nonneg w ->
  egood w (equal_step c fx x rec w p q).
Proof.
  intros Hx Hc Hrec Hp Hq Hw. unfold equal_step.
  destruct (p_valid p) eqn:Vp; destruct (p_valid q) eqn:Vq; cbn [negb andb orb]; try (apply egood_leaf; assumption).
  destruct (p_kind p) eqn:Kp; destruct (p_kind q) eqn:Kq; try (apply egood_leaf; assumption).
  - apply equal_struct_good; auto; split; auto.
  - apply equal_list_good; auto; split; auto.
Qed.

(* no panic, budgets only go down and stay >= 0; any fuel, any limits,
   any two well-formed pointers into (one or two) arbitrary messages *)
Theorem equal_m_good c fx x : ectx_ok x -> cfg_strict c = true ->
  forall fuel w p q, wf_ptr (segs_of x SA) p -> wf_ptr (segs_of x SB) q -> lims_nonneg w ->
  egood w (equal_m fuel c fx x w p q).
Proof.
  intros Hx Hc. induction fuel as [|f IH]; intros w p q Hp Hq Hw; cbn [equal_m].
  - split; [discriminate|apply lims_le_refl; assumption].
  - apply equal_step_good; auto. intros w0 p0 q0 H0 Hp0 Hq0. apply IH; assumption.
Qed.

(* Equal burns one unit of fuel per level, also on a pair of null pointers, so a pair whose
   smaller depth budget is d needs d + 3 (list -> element -> null pair at d = 0); a pair of
   structs that cannot be descended through (d = 0) needs 2; any pair needs 1. *)
Definition efuel_ok (p q : Ptr) (fuel : nat) : Prop :=
  (1 <= fuel)%nat /\
  (p_valid p = true -> p_valid q = true ->
   0 <= p_depth p /\ 0 <= p_depth q /\
   (Z.min (p_depth p) (p_depth q) + 3 <= Z.of_nat fuel \/
    (p_kind p = KStruct /\ p_kind q = KStruct /\ Z.min (p_depth p) (p_depth q) = 0 /\ (2 <= fuel)%nat))).

Definition rec_nf (f : nat) (rec : erec) : Prop :=
  forall w p q, efuel_ok p q f -> fst (rec w p q) <> EFuel.

Lemma ptr_loop_nofuel c x rec p q f : rec_nf f rec ->
  p_valid p = true -> p_valid q = true -> 0 <= p_depth p -> 0 <= p_depth q ->
  (Z.min (p_depth p) (p_depth q) + 2 <= Z.of_nat f \/ (Z.min (p_depth p) (p_depth q) = 0 /\ (1 <= f)%nat)) ->
  forall k i w, fst (ptr_loop c x rec p q k i w) <> EFuel.
Proof.
  intros Hrec Vp Vq Dp Dq Hf. induction k as [|k IH]; intros i w; [discriminate|].
  rewrite ptr_loop_S.
  destruct (struct_ptr c (segs_of x SA) (rl_of x w SA) p i) as [r1 rl1] eqn:E1. cbv zeta.
  destruct r1 as [sp1| |]; try discriminate.
  destruct (struct_ptr c (segs_of x SB) _ q i) as [r2 rl2] eqn:E2.
  destruct r2 as [sp2| |]; try discriminate.
  assert (efuel_ok sp1 sp2 f) as Hc.
  { split; [lia|]. intros V1 V2.
    pose proof (struct_ptr_depth c (segs_of x SA) (rl_of x w SA) p i sp1 Dp) as H1. rewrite E1 in H1. specialize (H1 eq_refl V1).
    pose proof (struct_ptr_depth c (segs_of x SB) (rl_of x (put_rl x w SA rl1) SB) q i sp2 Dq) as H2. rewrite E2 in H2. specialize (H2 eq_refl V2).
    split; [lia|]. split; [lia|]. left. lia. }
  specialize (Hrec (put_rl x (put_rl x w SA rl1) SB rl2) sp1 sp2 Hc).
  destruct (rec _ sp1 sp2) as [o w3]. cbn [fst] in Hrec.
  destruct o as [[|]| | |]; try discriminate; [apply IH|congruence].
Qed.

Lemma elem_loop_nofuel rec p q f : rec_nf f rec ->
  p_valid p = true -> p_valid q = true -> 0 <= p_depth p -> 0 <= p_depth q ->
  Z.min (p_depth p) (p_depth q) + 2 <= Z.of_nat f ->
  forall k i w, fst (elem_loop true rec p q k i w) <> EFuel.
Proof.
  intros Hrec Vp Vq Dp Dq Hf. induction k as [|k IH]; intros i w; [discriminate|].
  rewrite elem_loop_S.
  destruct (list_struct true p i) as [e1| |] eqn:E1; try discriminate.
  destruct (list_struct true q i) as [e2| |] eqn:E2; try discriminate.
  assert (efuel_ok e1 e2 f) as Hc.
  { split; [lia|]. intros V1 V2.
    destruct (list_struct_depth' p i e1 Dp E1 V1) as (K1 & N1 & H1).
    destruct (list_struct_depth' q i e2 Dq E2 V2) as (K2 & N2 & H2).
    split; [lia|]. split; [lia|].
    destruct (Z.eq_dec (Z.min (p_depth p) (p_depth q)) 0) as [Z0|NZ].
    - right. repeat split; auto; lia.
    - left. lia. }
  specialize (Hrec w e1 e2 Hc). destruct (rec w e1 e2) as [o w']. cbn [fst] in Hrec.
  destruct o as [[|]| | |]; try discriminate; [apply IH|congruence].
Qed.

Lemma equal_step_nofuel c fx x rec w p q f : fx_depth (fx_rd fx) = true -> rec_nf f rec ->
  efuel_ok p q (S f) -> fst (equal_step c fx x rec w p q) <> EFuel.
Proof.
  intros Hfd Hrec [_ Hf]. unfold equal_step.
  destruct (p_valid p) eqn:Vp; destruct (p_valid q) eqn:Vq; cbn [negb andb orb]; try discriminate.
  destruct (Hf eq_refl eq_refl) as (Dp & Dq & Hd). clear Hf.
  destruct (p_kind p) eqn:Kp; destruct (p_kind q) eqn:Kq; try discriminate.
  - (* struct *)
    unfold equal_struct. cbv zeta.
    destruct (slice _ _ _); try discriminate. destruct (slice _ _ _); try discriminate.
    destruct (negb _); [discriminate|].
    pose proof (ptr_loop_nofuel c x rec p q f Hrec Vp Vq Dp Dq
                  ltac:(destruct Hd as [H|(_ & _ & H0 & H2)]; [left; lia|right; split; [assumption|lia]])
                  (Z.to_nat (Z.min (PointerCount (p_size p)) (PointerCount (p_size q)))) 0 w) as G.
    destruct (ptr_loop _ _ _ _ _ _ _ _) as [o w']. cbn [fst] in G.
    destruct o as [[|]| | |]; try discriminate; [|congruence].
    destruct (no_ptrs _ _ _ p _ _) as [[|]| |]; try discriminate.
    destruct (no_ptrs _ _ _ q _ _); discriminate.
  - (* list *)
    destruct Hd as [Hd|(K & _)]; [|discriminate K].
    unfold equal_list. cbv zeta. destruct (negb (list_len p =? list_len q)); [discriminate|].
    match goal with |- fst (match ?bc with Some r => r | None => ?rest end) <> EFuel =>
      assert (match bc with Some r => fst r <> EFuel | None => True end) as Hb;
      [|destruct bc as [r'|]; [exact Hb|]] end.
    { destruct (fx_bitlist fx); [|exact I]. destruct (negb _); [discriminate|].
      destruct (p_bit p); [|exact I]. destruct (slice _ _ _); try discriminate.
      destruct (slice _ _ _); discriminate. }
    destruct (_ && _ && _); [discriminate|].
    destruct (_ && _ && _).
    + destruct (slice _ _ _); try discriminate. destruct (slice _ _ _); discriminate.
    + rewrite Hfd. apply (elem_loop_nofuel rec p q f); auto. lia.
Qed.

(* fuel exhaustion is excluded by the depth budgets *)
Theorem equal_m_nofuel c fx x : fx_depth (fx_rd fx) = true ->
  forall fuel w p q, efuel_ok p q fuel -> fst (equal_m fuel c fx x w p q) <> EFuel.
Proof.
  intros Hfd. induction fuel as [|f IH]; intros w p q Hf; cbn [equal_m].
  - destruct Hf as [Hf _]. lia.
  - apply (equal_step_nofuel c fx x _ w p q f); auto.
Qed.

(* For two pointers obtained by any read path under depth limit D (their depth budgets are
   at most D - 1, see C02_depth_bound): fuel D + 2 is never exhausted.  The traversal budgets of both messages only go down and stay
   non-negative, so what Equal consumes from each message is at most what was left of T. *)
Theorem equal_m_safe c fx x fuel w p q D :
  ectx_ok x -> cfg_strict c = true -> fx_depth (fx_rd fx) = true ->
  wf_ptr (segs_of x SA) p -> wf_ptr (segs_of x SB) q -> lims_nonneg w ->
  0 <= p_depth p <= D - 1 -> 0 <= p_depth q <= D - 1 -> D + 2 <= Z.of_nat fuel ->
  let r := equal_m fuel c fx x w p q in
  fst r <> EPanic /\ fst r <> EFuel /\ lims_le (snd r) w.
Proof.
  intros Hx Hc Hfd Hp Hq Hw Dp Dq Hf r.
  destruct (equal_m_good c fx x Hx Hc fuel w p q Hp Hq Hw) as [G1 G2].
  split; [exact G1|]. split; [|exact G2].
  apply equal_m_nofuel; auto. split; [lia|]. intros _ _. split; [lia|]. split; [lia|]. left. lia.
Qed.

(* the bound D + 2 is tight for this model: D = 2, a struct whose field is a composite list
   of one element with a null pointer; fuel D + 1 = 3 reports exhaustion, D + 2 = 4 does not *)
Definition eq_deep_msg : segs :=
  [[0;0;0;0;0;0;1;0;  1;0;0;0;15;0;0;0;  4;0;0;0;0;0;1;0;  0;0;0;0;0;0;0;0]].
Example equal_fuel_tight :
  let c := mkCfg 0 2 true true in
  let fx := mkEFix true true (mkFix true true true) in
  msg_ok eq_deep_msg /\
  fst (fst (run_equal 3 c c fx eq_deep_msg [] eq_deep_msg [] true SelRoot SelRoot)) = EFuel /\
  fst (fst (run_equal 4 c c fx eq_deep_msg [] eq_deep_msg [] true SelRoot SelRoot)) = EOk true.
Proof.
  split; [repeat constructor; cbn; try lia; unfold maxSegmentSize; lia|].
  vm_compute. split; reflexivity.
Qed.
