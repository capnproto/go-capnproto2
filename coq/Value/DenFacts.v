(* Facts about [den] and about the byte-level comparisons of Equal. *)
From CV Require Import Value.ValueEq Value.ValueEqProofs Value.EqualM Value.Den.
From CV Require Import Core.ReaderFacts Core.SafetyProofs.
From Coq Require Import ZifyBool ZifyNat.
Ltac Zify.zify_post_hook ::= Z.div_mod_to_equations.
Open Scope Z_scope.

Lemma same_core_refl p : same_core p p.
Proof. repeat split. Qed.

Lemma same_core_sym p q : same_core p q -> same_core q p.
Proof. intros (A & B & C & D & E & F & G & H). repeat split; congruence. Qed.

Lemma same_core_addr m p q : same_core p q ->
  seg_of m q = seg_of m p /\ (forall i, pointerAddress q i = pointerAddress p i) /\
  (forall i, elem_ptr q i = elem_ptr p i).
Proof.
  intros (_ & Hs & Ho & _ & Hz & _). unfold seg_of, pointerAddress, elem_ptr. rewrite Hs, Ho, Hz. repeat split.
Qed.

Lemma den_core strict m mid caps p q v :
  same_core p q -> den strict m mid caps p v -> den strict m mid caps q v.
Proof.
  intros Hpq H. destruct (same_core_addr m p q Hpq) as (Eseg & Epa & Eel).
  destruct Hpq as (Hv & Hs & Ho & Hl & Hz & Hk & Hc & Hb).
  destruct H.
  - apply den_null. congruence.
  - rewrite Hl. apply den_cap; congruence.
  - eapply den_struct; try congruence.
    intros i Hi. rewrite <- Hz in Hi. destruct (H4 i Hi) as (dep & rl & q0 & rl' & E & D).
    exists dep, rl, q0, rl'. rewrite <- Hs, Eseg, Epa. split; assumption.
  - rewrite Hl. apply den_bits; try congruence.
  - apply den_comp; try congruence. intros i Hi. rewrite Eel. apply H5. lia.
  - apply den_ptrs; try congruence. intros i Hi. rewrite <- Hl in Hi.
    destruct (H5 i Hi) as (dep & rl & q0 & rl' & v & E & D & N).
    exists dep, rl, q0, rl', v. rewrite <- Hs, Eseg, <- Ho. repeat split; assumption.
  - eapply den_prim; try congruence; try eassumption. intros i Hi. rewrite <- Hl in Hi.
    destruct (H6 i Hi) as (d & E & N). exists d. rewrite Eseg, <- Ho. split; assumption.
Qed.

Lemma den_is_null strict m mid caps p v : den strict m mid caps p v -> is_null v = negb (p_valid p).
Proof. intros H. destruct H; cbn; try rewrite H; try reflexivity. Qed.

Lemma readPtr_core strict m rl1 rl2 sid s a d1 d2 p1 p2 r1 r2 :
  readPtr strict m rl1 sid s a d1 = (Ok p1, r1) -> readPtr strict m rl2 sid s a d2 = (Ok p2, r2) ->
  same_core p1 p2.
Proof.
  unfold readPtr. destruct (resolveFarPointer strict m sid s a) as [[[[dsid dst] base] val]| |]; try discriminate.
  destruct (val =? 0).
  { intros H1 H2. inversion H1; inversion H2; subst. apply same_core_refl. }
  destruct (d1 =? 0); [discriminate|]. destruct (d2 =? 0); [intros _; discriminate|]. cbv zeta.
  destruct (pointerType val =? structPointer).
  { destruct (readStructPtr dsid dst base val) as [sp| |]; try discriminate.
    unfold canRead. destruct (rl1 >=? struct_readSize sp); [|discriminate].
    destruct (rl2 >=? struct_readSize sp); [|intros _; discriminate].
    intros H1 H2. inversion H1; inversion H2; subst. repeat split. }
  destruct (pointerType val =? listPointer).
  { destruct (readListPtr strict dsid dst base val) as [lp| |]; try discriminate.
    unfold canRead. destruct (rl1 >=? list_readSize lp); [|discriminate].
    destruct (rl2 >=? list_readSize lp); [|intros _; discriminate].
    intros H1 H2. inversion H1; inversion H2; subst. repeat split. }
  destruct (pointerType val =? otherPointer); [|discriminate].
  destruct (negb (otherPointerType val =? 0)); [discriminate|].
  intros H1 H2. inversion H1; inversion H2; subst. repeat split.
Qed.

(* the repaired test of the extra pointers agrees with what readPtr returns *)
Lemma readPtr_nonnull strict m rl p i dep q rl' :
  readPtr strict m rl (p_seg p) (seg_of m p) (pointerAddress p i) dep = (Ok q, rl') ->
  has_nonnull_ptr strict m p i = Ok (p_valid q).
Proof.
  unfold readPtr, has_nonnull_ptr.
  destruct (resolveFarPointer strict m (p_seg p) (seg_of m p) (pointerAddress p i))
    as [[[[dsid dst] base] val]| |] eqn:E; try discriminate.
  assert (Hraw : exists raw, readRawPointer (seg_of m p) (pointerAddress p i) = Ok raw
                             /\ (raw = 0 -> val = 0)).
  { unfold resolveFarPointer in E.
    destruct (readRawPointer (seg_of m p) (pointerAddress p i)) as [raw| |]; try discriminate.
    exists raw. split; [reflexivity|]. intros ->. cbn [bind] in E.
    change (pointerType 0) with 0 in E. cbn in E.
    destruct (addSize (pointerAddress p i) 8); inversion E. reflexivity. }
  destruct Hraw as (raw & Hr & Hz). rewrite Hr. cbn [bind].
  destruct (raw =? 0) eqn:Er.
  - apply Z.eqb_eq in Er. rewrite (Hz Er). cbn. intros H. inversion H. reflexivity.
  - destruct (val =? 0) eqn:Ev.
    + intros H. inversion H. reflexivity.
    + destruct (dep =? 0); [discriminate|]. cbv zeta.
      destruct (pointerType val =? structPointer).
      { destruct (readStructPtr dsid dst base val) as [sp| |]; try discriminate.
        unfold canRead. destruct (rl >=? struct_readSize sp); [|discriminate].
        intros H. inversion H. reflexivity. }
      destruct (pointerType val =? listPointer).
      { destruct (readListPtr strict dsid dst base val) as [lp| |]; try discriminate.
        unfold canRead. destruct (rl >=? list_readSize lp); [|discriminate].
        intros H. inversion H. reflexivity. }
      destruct (pointerType val =? otherPointer); [|discriminate].
      destruct (negb (otherPointerType val =? 0)); [discriminate|].
      intros H. inversion H. reflexivity.
Qed.

Lemma struct_ptr_unfold c m rl p i :
  p_valid p = true -> i < PointerCount (p_size p) ->
  struct_ptr c m rl p i = readPtr (cfg_strict c) m rl (p_seg p) (seg_of m p) (pointerAddress p i) (p_depth p).
Proof.
  intros Hv Hi. unfold struct_ptr. rewrite Hv. cbn [negb orb].
  destruct (i >=? PointerCount (p_size p)) eqn:E; [lia|reflexivity].
Qed.

Lemma bytes_eqb_eq a b : bytes_eqb a b = true <-> a = b.
Proof.
  revert b. induction a as [|x r IH]; intros [|y s]; cbn; split; intros H; try reflexivity; try discriminate.
  - apply andb_prop in H. destruct H as [H1 H2]. apply Z.eqb_eq in H1. apply IH in H2. congruence.
  - inversion H; subst. rewrite Z.eqb_refl. cbn. apply IH. reflexivity.
Qed.

Lemma bytes_eqb_refl a : bytes_eqb a a = true.
Proof. apply bytes_eqb_eq. reflexivity. Qed.

(* the three-way comparison of the struct case is zero-extended equality of the bytes *)
Lemma struct_data_equal_cons x r y s :
  struct_data_equal (x :: r) (y :: s) = (x =? y) && struct_data_equal r s.
Proof.
  unfold struct_data_equal. cbn [length].
  change (S (length r) <? S (length s))%nat with (length r <? length s)%nat.
  change (S (length s) <? S (length r))%nat with (length s <? length r)%nat.
  destruct (length r <? length s)%nat.
  - cbn [firstn skipn bytes_eqb]. rewrite andb_assoc. reflexivity.
  - destruct (length s <? length r)%nat.
    + cbn [firstn skipn bytes_eqb]. rewrite andb_assoc. reflexivity.
    + reflexivity.
Qed.

Lemma struct_data_equal_spec d1 d2 : struct_data_equal d1 d2 = data_eq d1 d2.
Proof.
  revert d2. induction d1 as [|x r IH]; intros d2.
  - unfold struct_data_equal. cbn [length]. destruct d2 as [|y s]; [reflexivity|].
    cbn. reflexivity.
  - destruct d2 as [|y s].
    + unfold struct_data_equal. cbn. reflexivity.
    + rewrite struct_data_equal_cons, IH. reflexivity.
Qed.

(* zero-extended equality is pointwise equality with default 0 *)
Lemma all_zero_nth l : all_zero l = true <-> forall i, nth i l 0 = 0.
Proof.
  induction l as [|x r IH].
  - split; [intros _ [|i]; reflexivity| reflexivity].
  - change (all_zero (x :: r)) with ((0 =? x) && all_zero r). rewrite andb_true_iff, Z.eqb_eq, IH. split.
    + intros [H1 H2] [|i]; cbn [nth]; [congruence| apply H2].
    + intros H. split; [symmetry; apply (H O)| intros i; apply (H (S i))].
Qed.

Lemma data_eq_nth a b : data_eq a b = true <-> forall i, nth i a 0 = nth i b 0.
Proof.
  revert b. induction a as [|x r IH]; intros b.
  - change (data_eq [] b) with (all_zero b). rewrite all_zero_nth.
    split; intros H i; specialize (H i); destruct i; cbn in *; congruence.
  - destruct b as [|y s].
    + change (data_eq (x :: r) []) with (all_zero (x :: r)). rewrite all_zero_nth.
      split; intros H i; specialize (H i); destruct i; cbn in *; congruence.
    + cbn [data_eq]. rewrite andb_true_iff, Z.eqb_eq, IH. split.
      * intros [H1 H2] [|i]; cbn; [assumption| apply H2].
      * intros H. split; [apply (H O)| intros i; apply (H (S i))].
Qed.

Definition byte_at (d : list Z) (i : nat) : Z := nth i d 0.
Definition word_at (d : list Z) (k : nat) : Z :=
  byte_at d (8 * k) + 256 * byte_at d (8 * k + 1) + 65536 * byte_at d (8 * k + 2)
  + 16777216 * byte_at d (8 * k + 3) + 4294967296 * byte_at d (8 * k + 4)
  + 1099511627776 * byte_at d (8 * k + 5) + 281474976710656 * byte_at d (8 * k + 6)
  + 72057594037927936 * byte_at d (8 * k + 7).

Lemma nth_words_of_bytes : forall k d, nth k (words_of_bytes d) 0 = word_at d k.
Proof.
  induction k as [|k IH]; intros d.
  - destruct d as [|b0 [|b1 [|b2 [|b3 [|b4 [|b5 [|b6 [|b7 r]]]]]]]];
      unfold word_at, byte_at; cbn [words_of_bytes nth le_decode Nat.mul Nat.add]; lia.
  - destruct d as [|b0 [|b1 [|b2 [|b3 [|b4 [|b5 [|b6 [|b7 r]]]]]]]];
      try (unfold word_at, byte_at; cbn [words_of_bytes nth];
           replace (8 * S k)%nat with (S (S (S (S (S (S (S (S (8 * k))))))))) by lia;
           cbn [nth Nat.add]; destruct k; cbn [nth]; lia).
    cbn [words_of_bytes nth]. rewrite IH. unfold word_at, byte_at.
    replace (8 * S k)%nat with (S (S (S (S (S (S (S (S (8 * k))))))))) by lia.
    cbn [nth Nat.add]. reflexivity.
Qed.

Lemma byte_at_range d i : bytes_ok d -> 0 <= byte_at d i < 256.
Proof.
  intros H. unfold byte_at. destruct (Nat.lt_ge_cases i (length d)) as [L|L].
  - unfold bytes_ok in H. rewrite Forall_forall in H. apply H. apply nth_In. assumption.
  - rewrite nth_overflow by assumption. lia.
Qed.

Lemma horner_inj a b x y : 0 <= a < 256 -> 0 <= b < 256 -> a + 256 * x = b + 256 * y -> a = b /\ x = y.
Proof. lia. Qed.

Lemma digits8_inj a0 a1 a2 a3 a4 a5 a6 a7 b0 b1 b2 b3 b4 b5 b6 b7 :
  0 <= a0 < 256 -> 0 <= a1 < 256 -> 0 <= a2 < 256 -> 0 <= a3 < 256 ->
  0 <= a4 < 256 -> 0 <= a5 < 256 -> 0 <= a6 < 256 -> 0 <= a7 < 256 ->
  0 <= b0 < 256 -> 0 <= b1 < 256 -> 0 <= b2 < 256 -> 0 <= b3 < 256 ->
  0 <= b4 < 256 -> 0 <= b5 < 256 -> 0 <= b6 < 256 -> 0 <= b7 < 256 ->
  a0 + 256 * a1 + 65536 * a2 + 16777216 * a3 + 4294967296 * a4 + 1099511627776 * a5
  + 281474976710656 * a6 + 72057594037927936 * a7 =
  b0 + 256 * b1 + 65536 * b2 + 16777216 * b3 + 4294967296 * b4 + 1099511627776 * b5
  + 281474976710656 * b6 + 72057594037927936 * b7 ->
  a0 = b0 /\ a1 = b1 /\ a2 = b2 /\ a3 = b3 /\ a4 = b4 /\ a5 = b5 /\ a6 = b6 /\ a7 = b7.
Proof.
  intros A0 A1 A2 A3 A4 A5 A6 A7 B0 B1 B2 B3 B4 B5 B6 B7 H.
  assert (H' : a0 + 256 * (a1 + 256 * (a2 + 256 * (a3 + 256 * (a4 + 256 * (a5 + 256 * (a6 + 256 * a7)))))) =
               b0 + 256 * (b1 + 256 * (b2 + 256 * (b3 + 256 * (b4 + 256 * (b5 + 256 * (b6 + 256 * b7))))))).
  { ring_simplify. ring_simplify in H. exact H. }
  apply horner_inj in H'; try assumption. destruct H' as [E0 H'].
  apply horner_inj in H'; try assumption. destruct H' as [E1 H'].
  apply horner_inj in H'; try assumption. destruct H' as [E2 H'].
  apply horner_inj in H'; try assumption. destruct H' as [E3 H'].
  apply horner_inj in H'; try assumption. destruct H' as [E4 H'].
  apply horner_inj in H'; try assumption. destruct H' as [E5 H'].
  apply horner_inj in H'; try assumption. destruct H' as [E6 E7].
  repeat split; assumption.
Qed.

Lemma data_eq_words d1 d2 : bytes_ok d1 -> bytes_ok d2 ->
  data_eq (words_of_bytes d1) (words_of_bytes d2) = data_eq d1 d2.
Proof.
  intros H1 H2. apply eq_true_iff_eq. rewrite !data_eq_nth. split.
  - intros H i. specialize (H (i / 8)%nat). rewrite !nth_words_of_bytes in H. unfold word_at in H.
    pose proof (byte_at_range d1 (8 * (i / 8)) H1). pose proof (byte_at_range d1 (8 * (i / 8) + 1) H1).
    pose proof (byte_at_range d1 (8 * (i / 8) + 2) H1). pose proof (byte_at_range d1 (8 * (i / 8) + 3) H1).
    pose proof (byte_at_range d1 (8 * (i / 8) + 4) H1). pose proof (byte_at_range d1 (8 * (i / 8) + 5) H1).
    pose proof (byte_at_range d1 (8 * (i / 8) + 6) H1). pose proof (byte_at_range d1 (8 * (i / 8) + 7) H1).
    pose proof (byte_at_range d2 (8 * (i / 8)) H2). pose proof (byte_at_range d2 (8 * (i / 8) + 1) H2).
    pose proof (byte_at_range d2 (8 * (i / 8) + 2) H2). pose proof (byte_at_range d2 (8 * (i / 8) + 3) H2).
    pose proof (byte_at_range d2 (8 * (i / 8) + 4) H2). pose proof (byte_at_range d2 (8 * (i / 8) + 5) H2).
    pose proof (byte_at_range d2 (8 * (i / 8) + 6) H2). pose proof (byte_at_range d2 (8 * (i / 8) + 7) H2).
    change (nth i d1 0) with (byte_at d1 i). change (nth i d2 0) with (byte_at d2 i).
    assert (Hi : (i = 8 * (i / 8) \/ i = 8 * (i / 8) + 1 \/ i = 8 * (i / 8) + 2 \/ i = 8 * (i / 8) + 3 \/
                  i = 8 * (i / 8) + 4 \/ i = 8 * (i / 8) + 5 \/ i = 8 * (i / 8) + 6 \/ i = 8 * (i / 8) + 7)%nat).
    { pose proof (Nat.div_mod i 8 ltac:(discriminate)). pose proof (Nat.mod_upper_bound i 8 ltac:(discriminate)). lia. }
    set (k := (i / 8)%nat) in *. clearbody k.
    match type of H with ?a0 + 256 * ?a1 + 65536 * ?a2 + 16777216 * ?a3 + 4294967296 * ?a4 + 1099511627776 * ?a5
                         + 281474976710656 * ?a6 + 72057594037927936 * ?a7 =
                         ?b0 + 256 * ?b1 + 65536 * ?b2 + 16777216 * ?b3 + 4294967296 * ?b4 + 1099511627776 * ?b5
                         + 281474976710656 * ?b6 + 72057594037927936 * ?b7 =>
      destruct (digits8_inj a0 a1 a2 a3 a4 a5 a6 a7 b0 b1 b2 b3 b4 b5 b6 b7) as (E0 & E1 & E2 & E3 & E4 & E5 & E6 & E7);
        try assumption
    end.
    destruct Hi as [-> | [-> | [-> | [-> | [-> | [-> | [-> | ->]]]]]]]; assumption.
  - intros H k. rewrite !nth_words_of_bytes. unfold word_at, byte_at. rewrite !H. reflexivity.
Qed.

Lemma struct_data_equal_words d1 d2 : bytes_ok d1 -> bytes_ok d2 ->
  struct_data_equal d1 d2 = data_eq (words_of_bytes d1) (words_of_bytes d2).
Proof. intros. rewrite data_eq_words by assumption. apply struct_data_equal_spec. Qed.

Lemma slice_bytes_ok m p base n d : msg_ok m -> slice (seg_of m p) base n = Ok d -> bytes_ok d.
Proof.
  intros Hm H. apply slice_sub in H. destruct H as (k & H & _). subst d.
  apply bytes_ok_sub. apply seg_of_ok. assumption.
Qed.

Lemma words_of_bytes_length : forall d, (8 * length (words_of_bytes d) <= length d + 7)%nat.
Proof.
  fix IH 1. intros d.
  destruct d as [|b0 [|b1 [|b2 [|b3 [|b4 [|b5 [|b6 [|b7 r]]]]]]]]; cbn [words_of_bytes length]; try lia.
  specialize (IH r). lia.
Qed.
