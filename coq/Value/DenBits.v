(* Bit lists: the repaired comparison of Equal is equality of the bits. *)
From CV Require Import Value.ValueEq Value.ValueEqProofs Value.EqualM Value.Den Value.DenFacts.
From CV Require Import Core.ReaderFacts Core.BuilderFacts.
From Coq Require Import ZifyBool ZifyNat.
Ltac Zify.zify_post_hook ::= Z.div_mod_to_equations.
Open Scope Z_scope.

Lemma In_iota k a : In a (iota k) <-> 0 <= a < Z.of_nat k.
Proof.
  unfold iota. rewrite in_map_iff. split.
  - intros (j & <- & Hj). apply in_seq in Hj. lia.
  - intros H. exists (Z.to_nat a). split; [lia|]. apply in_seq. lia.
Qed.

Lemma bits_of_eq k d1 d2 :
  bools_eqb (bits_of k d1) (bits_of k d2) = true <-> forall i, 0 <= i < Z.of_nat k -> bit_at d1 i = bit_at d2 i.
Proof.
  rewrite bools_eqb_eq. unfold bits_of. rewrite map_ext_in_iff. split; intros H i Hi; apply H; apply In_iota; assumption.
Qed.

Lemma byte_high_bits a t : 0 <= a < 256 -> 8 <= t -> Z.testbit a t = false.
Proof.
  intros Ha Ht. rewrite <- (Z.mod_small a (2 ^ 8)) by (change (2 ^ 8) with 256; lia).
  apply Z.mod_pow2_bits_high. lia.
Qed.

Lemma byte_bits_inj a b : 0 <= a < 256 -> 0 <= b < 256 ->
  (forall t, 0 <= t < 8 -> Z.testbit a t = Z.testbit b t) -> a = b.
Proof.
  intros Ha Hb H. apply Z.bits_inj'. intros t Ht. destruct (Z.lt_ge_cases t 8) as [L|L].
  - apply H. lia.
  - rewrite !byte_high_bits by lia. reflexivity.
Qed.

Lemma bit_at_split d j t : 0 <= j -> 0 <= t < 8 -> bit_at d (8 * j + t) = Z.testbit (nth (Z.to_nat j) d 0) t.
Proof.
  intros Hj Ht. unfold bit_at. replace ((8 * j + t) / 8) with j by lia. replace ((8 * j + t) mod 8) with t by lia.
  reflexivity.
Qed.

Lemma bits_equal_iff d1 d2 n : bytes_ok d1 -> bytes_ok d2 -> 0 <= n ->
  zlen d1 = (n + 7) / 8 -> zlen d2 = (n + 7) / 8 ->
  (bits_equal d1 d2 n = true <-> forall i, 0 <= i < n -> bit_at d1 i = bit_at d2 i).
Proof.
  intros B1 B2 Hn L1 L2. unfold bits_equal. cbv zeta. unfold zlen in L1, L2.
  destruct (n mod 8 =? 0) eqn:Er.
  - (* whole bytes *)
    rewrite bytes_eqb_eq. split; [intros ->; reflexivity|].
    intros H. apply (nth_ext _ _ 0 0); [lia|]. intros j Hj.
    apply byte_bits_inj; try (apply byte_at_range; assumption).
    intros t Ht. rewrite <- (Nat2Z.id j), <- !bit_at_split by lia. apply H. lia.
  - (* a partial last byte *)
    set (j0 := (length d1 - 1)%nat).
    assert (Ej0 : Z.of_nat j0 = n / 8) by lia.
    replace (length d1 - 1)%nat with j0 by reflexivity.
    rewrite andb_true_iff, Z.eqb_eq, bytes_eqb_eq. split.
    + intros [Hl Hf] i Hi. unfold bit_at.
      destruct (Z.lt_ge_cases (i / 8) (n / 8)) as [Lt|Ge].
      * assert (E : nth (Z.to_nat (i / 8)) d1 0 = nth (Z.to_nat (i / 8)) d2 0).
        { rewrite <- (nth_firstn_lt _ j0 d1 0), <- (nth_firstn_lt _ j0 d2 0) by lia. rewrite Hf. reflexivity. }
        rewrite E. reflexivity.
      * assert (Ei : Z.to_nat (i / 8) = j0) by lia. rewrite Ei.
        rewrite <- (Z.mod_pow2_bits_low (nth j0 d1 0) (n mod 8)) by lia.
        rewrite <- (Z.mod_pow2_bits_low (nth j0 d2 0) (n mod 8)) by lia.
        rewrite Hl. reflexivity.
    + intros H. split.
      * apply Z.bits_inj'. intros t Ht. destruct (Z.lt_ge_cases t (n mod 8)) as [Lt|Ge].
        -- rewrite !Z.mod_pow2_bits_low by lia. rewrite <- (Nat2Z.id j0), <- !bit_at_split by lia. apply H. lia.
        -- rewrite !Z.mod_pow2_bits_high by lia. reflexivity.
      * apply (nth_ext _ _ 0 0); [rewrite !firstn_length; lia|]. intros j Hj. rewrite firstn_length in Hj.
        rewrite !nth_firstn_lt by lia.
        apply byte_bits_inj; try (apply byte_at_range; assumption).
        intros t Ht. rewrite <- (Nat2Z.id j), <- !bit_at_split by lia. apply H. lia.
Qed.

Lemma bits_equal_spec d1 d2 n : bytes_ok d1 -> bytes_ok d2 -> 0 <= n ->
  zlen d1 = (n + 7) / 8 -> zlen d2 = (n + 7) / 8 ->
  bits_equal d1 d2 n = bools_eqb (bits_of (Z.to_nat n) d1) (bits_of (Z.to_nat n) d2).
Proof.
  intros. apply eq_true_iff_eq. rewrite bits_equal_iff by assumption. rewrite bits_of_eq.
  rewrite Z2Nat.id by assumption. reflexivity.
Qed.
