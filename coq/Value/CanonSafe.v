(* C01 / C02 for the recursive consumer capnp.Canonicalize (model Value/CanonM.v): canonicalising
   an ARBITRARY (hostile) source struct into a fresh message never panics in the repaired
   configuration (cx_complist: as found, F04, the raw copy of a data-only composite list reads
   8 bytes past the list and panics, see canon_complist_refuted), keeps the destination
   well-formed, never touches the source, never increases the source's traversal budget, and
   appends to the destination no more than a fixed multiple of the budget it consumes.
   One induction on the fuel gives all of it.  Its outcomes [kpostwk] / [kpostpk] carry the
   ghost counter and potential of Core/CopyAlloc.v, Phi w = tot (destination) + 5 * (remaining
   source budget):
     fill_canonical into dst:  Phi w' <= Phi w + 32 * PointerCount (p_size dst)
     canonical_ptr / canonical_list of p: Phi w' <= Phi w + readSize p + 15 + 32 * slots p
   The canonical size of a struct never exceeds its size in the source, so a canonical copy
   costs at most the object's read size + 15 (padding, composite tag) and one landing pad (16)
   per pointer written.  [P_fill] / [P_ptr] / [P_list] are these outcomes with the potential
   forgotten.
   Standing assumptions: [msg_ok] source, [dok] destination, strict reader, pointers handed
   out by the reader ([wf_ptr], [shape_ok]). *)
From CV Require Import Value.CanonM Value.EqualSafe Core.CopySafe Core.LimitProofs
                       Core.BuilderFacts Core.AllocProofs Core.WritePtrProofs Core.HeapProofs Core.CopyAlloc.
From Coq Require Import ZifyBool ZifyNat.
Open Scope Z_scope.
Ltac Zify.zify_post_hook ::= Z.div_mod_to_equations.

(* a pointer created in the destination by canonical_ptr / canonical_list *)
Definition cp_ok (m : bmsg) (cp : Ptr) : Prop :=
  p_valid cp = true -> 0 <= p_seg cp < nsegs m /\ p_member cp = false /\ shape_ok cp /\
                       (p_kind cp = KStruct -> DataSize (p_size cp) mod 8 = 0).

Definition kpostw (w : world) (r : cout world) : Prop :=
  match r with KPanic => False | KOk w' => wgood w w' | _ => True end.
Definition kpostp (w : world) (r : cout (world * Ptr)) : Prop :=
  match r with KPanic => False | KOk (w', cp) => wgood w w' /\ cp_ok (w_dst w') cp | _ => True end.

Lemma cp_ok_grows m m' cp : grows m m' -> cp_ok m cp -> cp_ok m' cp.
Proof. intros [G _] H V. destruct (H V) as (A & B & C & D). split; [lia|]. split; [assumption|]. split; assumption. Qed.
Lemma cp_ok_null m : cp_ok m nullPtr.
Proof. intros X. discriminate X. Qed.

Lemma kpostp_trans a b r : wgood a b -> kpostp b r -> kpostp a r.
Proof. intros H. destruct r as [[w' cp]| | |]; cbn; auto. intros [G C]. split; [eapply wgood_trans; eauto|exact C]. Qed.


(* the same outcomes with the potential: at most [k] more than before *)
Definition kpostwk (w : world) (k : Z) (r : cout world) : Prop :=
  match r with KPanic => False | KOk w' => wgood w w' /\ Phi w' <= Phi w + k | _ => True end.
Definition kpostpk (w : world) (k : Z) (r : cout (world * Ptr)) : Prop :=
  match r with
  | KPanic => False
  | KOk (w', cp) => wgood w w' /\ cp_ok (w_dst w') cp /\ Phi w' <= Phi w + k
  | _ => True
  end.

Lemma kpostwk_kpostw w k r : kpostwk w k r -> kpostw w r.
Proof. destruct r; cbn; tauto. Qed.
Lemma kpostpk_kpostp w k r : kpostpk w k r -> kpostp w r.
Proof. destruct r as [[w' cp]| | |]; cbn; tauto. Qed.
Lemma kpostwk_weaken w k k' r : k <= k' -> kpostwk w k r -> kpostwk w k' r.
Proof. intros H. destruct r; cbn; auto. intros [G P]. split; [exact G|lia]. Qed.
Lemma kpostpk_weaken w k k' r : k <= k' -> kpostpk w k r -> kpostpk w k' r.
Proof. intros H. destruct r as [[w' cp]| | |]; cbn; auto. intros (G & C & P). split; [exact G|]. split; [exact C|lia]. Qed.

(* a loop whose every step costs at most [c], started in a state [a] already [k] above [w] *)
Lemma kfold_kpostwk c (st : world -> Z -> cout world) w : forall l a k,
  wgood w a -> Phi a <= Phi w + k ->
  (forall i b, In i l -> wgood w b -> kpostwk b c (st b i)) ->
  kpostwk w (k + c * zlen l) (kfold l a st).
Proof.
  induction l as [|x l IH]; intros a k Ga Pa Hst; cbn [kfold].
  - split; [exact Ga|]. unfold zlen. cbn [length]. lia.
  - pose proof (Hst x a (or_introl eq_refl) Ga) as S. destruct (st a x) as [b| | |]; cbn [kbind kpostwk] in *; auto.
    destruct S as [Gb Pb].
    replace (k + c * zlen (x :: l)) with ((k + c) + c * zlen l) by (unfold zlen; cbn [length]; lia).
    apply IH; [eapply wgood_trans; eassumption|lia|]. intros i b' Hi. apply Hst. right. exact Hi.
Qed.

(* an object made in [w1], filled by [r], returned *)
Lemma kpostpk_ret w w1 k1 k2 r cp : wgood w w1 -> Phi w1 <= Phi w + k1 -> cp_ok (w_dst w1) cp ->
  kpostwk w1 k2 r -> kpostpk w (k1 + k2) (kbind r (fun w' => KOk (w', cp))).
Proof.
  intros G P C. destruct r as [w'| | |]; cbn [kbind kpostwk kpostpk]; auto. intros [G' P'].
  split; [eapply wgood_trans; eassumption|]. split; [|lia].
  destruct G' as (_ & Gr & _). eapply cp_ok_grows; eassumption.
Qed.

(* Struct.SetPtr / PointerList.Set with an object that already lives in the destination *)
Lemma write_ptr_nocopy_k f w dsid off cp : dok (w_dst w) -> 0 <= w_src_rl w ->
  region_ok (w_dst w) dsid off 8 -> cp_ok (w_dst w) cp ->
  rpostk w 16 (write_ptr (S f) true w dsid off InDst cp false).
Proof.
  intros Hd Hr Hreg Hcp. rewrite write_ptr_S.
  destruct (p_valid cp) eqn:V; cbn [negb]; [|eapply rpostk_weaken; [|apply lift0_write_k; assumption]; lia].
  destruct (Hcp V) as (Hs & Hm & Hsh & Hal). specialize (Hsh V).
  destruct (p_kind cp) eqn:K.
  - destruct (os_isZero (p_size cp)).
    { destruct (rawStructPointer (-1) (mkOS 0 0)) eqn:E; [|vm_compute in E; discriminate].
      cbn [of_opt_panic bind]. eapply rpostk_weaken; [|apply lift0_write_k; assumption]. lia. }
    cbn [is_src orb]. rewrite Hm. cbn [bind].
    destruct (rawStructPointer_some 0 (p_size cp) (Hal eq_refl)) as [raw ->]. cbn [of_opt_panic bind].
    apply place_k; assumption.
  - cbn [is_src orb bind].
    pose proof (list_raw_shape cp V K ltac:(intros _; rewrite K; exact Hsh)) as NR.
    destruct (list_raw cp) as [raw| |]; cbn [bind]; [|exact I|congruence].
    apply place_k; assumption.
  - cbn [is_src]. eapply rpostk_weaken; [|apply lift0_write_k; assumption]. lia.
Qed.

Lemma css_data_le m s : msg_ok m -> wf_struct m s -> p_valid s = true ->
  forall k, Z.of_nat k <= 65535 -> res_sat (css_data m s k) (fun d => 0 <= d <= DataSize (p_size s) /\ d mod 8 = 0).
Proof.
  intros Hm Hw V. destruct (wf_struct_inv m s Hw V) as (_ & Hz & _). unfold wf_size in Hz.
  assert (forall k, Z.of_nat k <= 65535 ->
            match struct_uint m s (8 * Z.of_nat k) 8 with
            | Ok v => v <> 0 -> 8 * Z.of_nat k + 8 <= DataSize (p_size s) | _ => False end) as Hrd.
  { intros k Hk. rewrite (struct_uint_spec m s (8 * Z.of_nat k) 8 Hm Hw V) by lia.
    destruct (8 * Z.of_nat k + 8 <=? DataSize (p_size s)) eqn:E; intros; lia. }
  induction k as [|k IH]; intros Hk; cbn [css_data].
  - specialize (Hrd 0%nat Hk). destruct (struct_uint m s (8 * Z.of_nat 0) 8) as [v| |]; cbn [bind]; [|destruct Hrd|destruct Hrd].
    destruct (v =? 0) eqn:E; cbn [negb res_sat]; cbv beta; [lia|]. specialize (Hrd ltac:(lia)). lia.
  - specialize (Hrd (S k) Hk). destruct (struct_uint m s (8 * Z.of_nat (S k)) 8) as [v| |]; cbn [bind]; [|destruct Hrd|destruct Hrd].
    destruct (v =? 0) eqn:E; cbn [negb]; [apply IH; lia|]. cbn [res_sat]. cbv beta. specialize (Hrd ltac:(lia)). lia.
Qed.

Lemma css_ptrs_safe fixed strict m s : msg_ok m -> wf_struct m s -> p_valid s = true ->
  forall k, Z.of_nat k <= PointerCount (p_size s) ->
  res_sat (css_ptrs fixed strict m s k) (fun p => 0 <= p <= Z.of_nat k).
Proof.
  intros Hm Hw V. induction k as [|k IH]; intros Hk; cbn [css_ptrs]; [cbn; lia|].
  assert ((if fixed then has_nonnull_ptr strict m s (Z.of_nat k)
           else do v <- readRawPointer (seg_of m s) (pointerAddress s (Z.of_nat k)); Ok (negb (v =? 0))) <> Panic) as H.
  { destruct fixed; [apply has_nonnull_ptr_safe; auto; lia|].
    destruct (wf_struct_inv m s Hw V) as (Hs & Hz & Ho & He). unfold wf_size in Hz.
    rewrite (pointerAddress_spec m s (Z.of_nat k) Hm Hw V ltac:(lia)).
    destruct (readRawPointer_ok (seg_of m s) (p_off s + DataSize (p_size s) + 8 * Z.of_nat k) (seg_of_ok m s Hm)
                ltac:(lia) ltac:(lia)) as [v [-> _]]. discriminate. }
  destruct (if fixed then _ else _) as [h| |]; cbn [bind]; [|exact I|congruence].
  destruct h; [cbn [res_sat]; lia|].
  eapply res_sat_weaken; [apply IH; lia|]. cbv beta. intros a Ha. lia.
Qed.

Definition csz_ok (sz : ObjectSize) : Prop := 0 <= DataSize sz /\ 0 <= PointerCount sz < 65536.


(* canonicalStructSize s: a size the constructors accept, whole words of data, within s *)
Definition csz_le (s : Ptr) (sz : ObjectSize) : Prop :=
  csz_ok sz /\ DataSize sz mod 8 = 0 /\
  (p_valid s = true -> DataSize sz <= DataSize (p_size s) /\ PointerCount sz <= PointerCount (p_size s)) /\
  (p_valid s = false -> DataSize sz = 0 /\ PointerCount sz = 0).

Lemma canonicalStructSize_le fixed strict m s : msg_ok m -> wf_struct m s ->
  res_sat (canonicalStructSize fixed strict m s) (csz_le s).
Proof.
  intros Hm Hw. unfold canonicalStructSize, csz_le, csz_ok. destruct (p_valid s) eqn:V; cbn [negb].
  2:{ cbn [res_sat DataSize PointerCount]. split; [lia|]. split; [reflexivity|].
      split; [intros X; congruence|intros _; split; reflexivity]. }
  destruct (wf_struct_inv m s Hw V) as (_ & Hz & _). unfold wf_size in Hz.
  eapply res_sat_bind; [apply (css_data_le m s Hm Hw V); lia|]. intros d Hd.
  eapply res_sat_bind; [apply (css_ptrs_safe fixed strict m s Hm Hw V); lia|]. intros p Hp.
  cbv beta in Hd, Hp. cbn [res_sat DataSize PointerCount].
  split; [lia|]. split; [lia|]. split; [intros _; lia|intros X; congruence].
Qed.

(* element sizes of a composite list: bounded by the list's element size *)
Definition esz_le (l : Ptr) (sz : ObjectSize) : Prop :=
  0 <= DataSize sz <= DataSize (p_size l) /\ DataSize sz mod 8 = 0 /\
  0 <= PointerCount sz <= PointerCount (p_size l).

Lemma elem_size_le fixed strict fxd m l : msg_ok m -> wf_list m l -> p_valid l = true -> p_bit l = false ->
  forall n i acc, 0 <= i -> i + Z.of_nat n <= list_len l -> esz_le l acc ->
  res_sat (elem_size fixed strict fxd m l n i acc) (esz_le l).
Proof.
  intros Hm Hw V B. induction n as [|n IH]; intros i acc Hi Hn Ha; cbn [elem_size]; [exact Ha|].
  pose proof (list_struct_safe fxd m l i Hm Hw ltac:(lia)) as LS.
  assert (forall e, list_struct fxd l i = Ok e -> p_valid e = true -> p_size e = p_size l) as Hsz.
  { intros e. unfold list_struct. destruct (_ || _ || _); [discriminate|]. rewrite B.
    destruct (element _ _ _); intros X; inversion X; [reflexivity|discriminate]. }
  destruct (list_struct fxd l i) as [e| |]; cbn [bind res_sat] in *; [|exact I|exact LS].
  pose proof (canonicalStructSize_le fixed strict m e Hm LS) as CS.
  destruct (canonicalStructSize fixed strict m e) as [sz| |]; cbn [bind res_sat] in *; [|exact I|exact CS].
  apply IH; try lia. destruct CS as ((C1 & C3) & C2 & C4 & C5). destruct Ha as (A1 & A2 & A3).
  unfold esz_le. cbn [DataSize PointerCount].
  destruct (p_valid e) eqn:Ve.
  - rewrite (Hsz e eq_refl Ve) in C4. specialize (C4 eq_refl).
    repeat split; lia.
  - specialize (C5 eq_refl). destruct C5 as [-> ->]. rewrite !Z.max_l by lia. repeat split; lia.
Qed.

Lemma padded_size sz : csz_ok sz -> os_isValid sz = true ->
  let sz' := mkOS (padToWord (DataSize sz)) (PointerCount sz) in
  wf_size sz' /\ DataSize sz' mod 8 = 0 /\ totalSize sz' = DataSize sz' + 8 * PointerCount sz'.
Proof.
  intros [H1 H2] Hv. unfold os_isValid in Hv. cbv zeta.
  assert (wf_size (mkOS (padToWord (DataSize sz)) (PointerCount sz))) as Hw.
  { unfold wf_size, padToWord, u32. cbn [DataSize PointerCount]. lia. }
  split; [exact Hw|]. split; [|apply totalSize_wf; exact Hw].
  cbn [DataSize]. unfold padToWord, u32. lia.
Qed.

Lemma padToWord_id x : 0 <= x <= 4294967288 -> x mod 8 = 0 -> padToWord x = x.
Proof. unfold padToWord, u32. lia. Qed.

Lemma newStruct_safe m sid sz : dok m -> 0 <= sid < nsegs m -> csz_ok sz ->
  match newStruct m sid sz with
  | Panic => False | Err => True
  | Ok (m', p) => dok m' /\ grows m m' /\ dst_ok m' p /\ cp_ok m' p /\
                  p_size p = mkOS (padToWord (DataSize sz)) (PointerCount sz) /\
                  tot m' = tot m + padToWord (DataSize sz) + 8 * PointerCount sz
  end.
Proof.
  intros Hd Hs Hc. unfold newStruct. destruct (os_isValid sz) eqn:Hv; cbn [negb]; [|exact I].
  destruct (padded_size sz Hc Hv) as (Hw & H8 & Hts). cbv zeta in Hw, H8, Hts.
  set (sz' := mkOS (padToWord (DataSize sz)) (PointerCount sz)) in *.
  pose proof (alloc_nopanic m sid (totalSize sz')) as NP.
  destruct (alloc m sid (totalSize sz')) as [[[m1 s1] addr]| |] eqn:EA; cbn [bind]; [|exact I|congruence].
  pose proof (totalSize_bound _ Hw) as Hb.
  pose proof (alloc_tot m sid (totalSize sz') m1 s1 addr Hd Hs ltac:(lia) EA) as T1.
  destruct (alloc_safe m sid (totalSize sz') m1 s1 addr Hd Hs ltac:(lia) EA) as (D1 & G1 & S1 & A0 & A1 & A2 & A3 & _).
  split; [exact D1|]. split; [exact G1|]. split.
  { split; [reflexivity|]. split; [exact Hw|]. unfold region_ok. cbn [p_seg p_off p_size]. lia. }
  split.
  { intros _. cbn [p_seg p_member]. split; [exact S1|]. split; [reflexivity|]. split; [intros _; exact I|]. intros _. cbn [p_size]. exact H8. }
  split; [reflexivity|].
  rewrite T1, Hts. subst sz'. unfold wf_size in Hw. cbn [DataSize PointerCount] in *.
  rewrite padToWord_id; lia.
Qed.

Lemma mask_last_length n bs : length (mask_last n bs) = length bs.
Proof.
  unfold mask_last. cbv zeta. destruct (_ =? 0); [reflexivity|].
  destruct (rev bs) as [|l pre] eqn:E.
  - apply (f_equal (@length Z)) in E. rewrite rev_length in E. cbn in *. lia.
  - rewrite app_length, rev_length. apply (f_equal (@length Z)) in E. rewrite rev_length in E. cbn in *. lia.
Qed.

Lemma newPointerList_safe m sid n : dok m -> 0 <= sid < nsegs m ->
  match newPointerList m sid n with
  | Panic => False | Err => True
  | Ok (m', p) => dok m' /\ grows m m' /\ 0 <= n /\ region_ok m' (p_seg p) (p_off p) (8 * n) /\ cp_ok m' p /\
                  p = mkPtr true (p_seg p) (p_off p) n (mkOS 0 1) maxDepth KList false false false /\
                  tot m' = tot m + 8 * n
  end.
Proof.
  intros Hd Hs. unfold newPointerList. destruct (times 8 n) as [total|] eqn:Et; [|exact I].
  apply times_spec in Et. destruct Et as [-> Et].
  pose proof (alloc_nopanic m sid (8 * n)) as NP.
  destruct (alloc m sid (8 * n)) as [[[m1 s1] addr]| |] eqn:EA; cbn [bind]; [|exact I|congruence].
  pose proof (alloc_tot m sid (8 * n) m1 s1 addr Hd Hs ltac:(lia) EA) as T1.
  destruct (alloc_safe m sid (8 * n) m1 s1 addr Hd Hs ltac:(lia) EA) as (D1 & G1 & S1 & A0 & A1 & A2 & A3 & _).
  cbn [p_seg p_off]. split; [exact D1|]. split; [exact G1|]. split; [lia|]. split; [unfold region_ok; lia|].
  split; [|split; [reflexivity|rewrite T1, padToWord_id; unfold maxSegmentSize in Et; lia]].
  intros _. cbn [p_seg p_member]. split; [exact S1|]. split; [reflexivity|].
  split; [|cbn [p_kind]; discriminate]. intros _. cbn [p_kind p_comp p_bit p_size]. unfold prim_size. tauto.
Qed.

Lemma newCompositeList_safe m sid sz n : dok m -> 0 <= sid < nsegs m -> csz_ok sz ->
  match newCompositeList m sid sz n with
  | Panic => False | Err => True
  | Ok (m', p) => dok m' /\ grows m m' /\ 0 <= n /\ wf_size (p_size p) /\
                  region_ok m' (p_seg p) (p_off p) (n * totalSize (p_size p)) /\ cp_ok m' p /\
                  p = mkPtr true (p_seg p) (p_off p) n (mkOS (padToWord (DataSize sz)) (PointerCount sz))
                            maxDepth KList true false false /\
                  tot m' = tot m + 8 + n * (padToWord (DataSize sz) + 8 * PointerCount sz)
  end.
Proof.
  intros Hd Hs Hc. unfold newCompositeList. destruct (os_isValid sz) eqn:Hv; cbn [negb]; [|exact I].
  destruct ((n <? 0) || (n >=? 536870912)) eqn:En; [exact I|].
  destruct (padded_size sz Hc Hv) as (Hw & H8 & Hts). cbv zeta in Hw, H8, Hts.
  set (sz' := mkOS (padToWord (DataSize sz)) (PointerCount sz)) in *.
  destruct (times (totalSize sz') n) as [total|] eqn:Et; [|exact I].
  apply times_spec in Et. destruct Et as [-> Et].
  destruct (totalSize sz' * n >? maxSegmentSize - 8) eqn:Eb; [exact I|]. unfold maxSegmentSize in *.
  rewrite (u32_id (8 + totalSize sz' * n)) by lia.
  pose proof (alloc_nopanic m sid (8 + totalSize sz' * n)) as NP.
  destruct (alloc m sid (8 + totalSize sz' * n)) as [[[m1 s1] addr]| |] eqn:EA; cbn [bind]; [|exact I|congruence].
  pose proof (alloc_tot m sid (8 + totalSize sz' * n) m1 s1 addr Hd Hs ltac:(lia) EA) as T1.
  destruct (alloc_safe m sid (8 + totalSize sz' * n) m1 s1 addr Hd Hs ltac:(lia) EA)
    as (D1 & G1 & S1 & A0 & A1 & A2 & A3 & _).
  destruct (rawStructPointer_some n sz' H8) as [tag ->]. cbn [of_opt_panic bind].
  destruct (writeRaw_safe m1 s1 addr tag D1 ltac:(unfold region_ok; lia)) as (m2 & -> & D2 & N2 & L2 & _).
  cbn [bind]. destruct D1 as [I1 Sm1]. pose proof (Sm1 s1) as Sm. unfold maxSegmentSize in Sm.
  unfold addSizeUnchecked. rewrite (u32_id (addr + 8)) by lia. cbn [p_seg p_off p_size].
  split; [exact D2|]. split; [eapply grows_trans; [exact G1|apply same_len_grows; auto]|].
  split; [lia|]. split; [exact Hw|]. split; [unfold region_ok; rewrite N2, (L2 s1) by lia; lia|].
  split; [|split; [reflexivity|]].
  - intros _. cbn [p_seg p_member]. split; [rewrite N2; exact S1|]. split; [reflexivity|].
    split; [|cbn [p_kind]; discriminate]. intros _. cbn [p_kind p_comp p_bit p_size p_off]. split; [lia|]. split; [exact H8|reflexivity].
  - rewrite (tot_same _ _ N2 L2), T1, Hts. subst sz'. cbn [DataSize PointerCount] in *.
    rewrite padToWord_id; lia.
Qed.

Lemma elem_span off n ts i lim : 0 <= off -> 0 <= ts -> 0 <= i < n -> off + n * ts <= lim ->
  0 <= off + i * ts /\ off + i * ts + ts <= lim.
Proof. intros. nia. Qed.

Lemma primitiveElem_ptrs fu p i : p_valid p = true -> p_bit p = false -> p_comp p = false -> p_size p = mkOS 0 1 ->
  0 <= i < p_len p -> 0 <= p_off p + i * 8 <= maxSegmentSize ->
  primitiveElem fu p i (mkOS 0 1) = Ok (p_off p + i * 8).
Proof.
  intros V B C Z Hi Hb. unfold primitiveElem. rewrite V, B, C, Z. cbn [negb orb andb].
  destruct (i <? 0) eqn:E1; [lia|]. destruct (i >=? p_len p) eqn:E2; [lia|]. cbn [orb].
  change (os_eqb (mkOS 0 1) (mkOS 0 1)) with true. change (totalSize (mkOS 0 1)) with 8. cbn [negb orb andb].
  destruct (element _ _ _) eqn:E; [apply element_spec in E; destruct E as [-> _]|apply element_none in E; lia].
  rewrite Bool.andb_false_r. reflexivity.
Qed.

Lemma fill_canonical_S c fx f w dst s :
  fill_canonical c fx (S f) w dst s =
    kbind (of_res (slice (dst_seg w dst) (p_off dst) (DataSize (p_size dst)))) (fun dd =>
    kbind (of_res (slice (src_seg w s) (p_off s) (DataSize (p_size s)))) (fun sd =>
    let n := Nat.min (length dd) (length sd) in
    kbind (of_res (lift0 w (seg_write (w_dst w) (p_seg dst) (p_off dst) (firstn n sd)))) (fun w1 =>
    kfold (iota (Z.to_nat (PointerCount (p_size dst)))) w1
      (fun wa i =>
         let '(r, rl') := struct_ptr c (w_src wa) (w_src_rl wa) s i in
         let wb := w_set_rl wa InSrc rl' in
         kbind (of_res r) (fun p =>
         kbind (canonical_ptr c fx f wb (p_seg dst) p) (fun wc =>
         let '(w2, cp) := wc in
         of_res (struct_set_ptr 4 w2 dst i InDst cp))))))).
Proof. reflexivity. Qed.

Lemma canonical_ptr_S c fx f w sid p :
  canonical_ptr c fx (S f) w sid p =
    if negb (p_valid p) then KOk (w, nullPtr) else
    match p_kind p with
    | KStruct =>
      kbind (of_res (canonicalStructSize (cx_farnull fx) (cfg_strict c) (w_src w) p)) (fun sz =>
      kbind (of_res (lift w (newStruct (w_dst w) sid sz))) (fun ws =>
      let '(w1, ss) := ws in
      kbind (fill_canonical c fx f w1 ss p) (fun w2 => KOk (w2, ss))))
    | KList => canonical_list c fx f w sid p
    | KIface => KErr
    end.
Proof. reflexivity. Qed.

Lemma canonical_list_S c fx f w sid l :
  canonical_list c fx (S f) w sid l =
    if negb (p_valid l) then KOk (w, nullPtr)
    else if (PointerCount (p_size l) =? 0) && negb (cx_complist fx && p_comp l) then
      let sz := list_allocSize l in
      kbind (of_res (alloc (w_dst w) sid sz)) (fun a =>
      let '(m1, nsid, naddr) := a in
      let cl := mkPtr true nsid naddr (p_len l) (p_size l) maxDepth KList (p_comp l) (p_bit l) false in
      kbind (of_res (slice (src_seg w l) (p_off l) sz)) (fun bs =>
      let bs := if cx_bitpad fx && p_bit l then mask_last (p_len l) bs else bs in
      kbind (of_res (lift0 (w_set_dst w m1) (seg_write m1 nsid naddr bs))) (fun w2 =>
      KOk (w2, cl))))
    else if negb (p_comp l) then
      kbind (of_res (lift w (newPointerList (w_dst w) sid (p_len l)))) (fun wc =>
      let '(w1, cl) := wc in
      kbind (kfold (iota (Z.to_nat (list_len l))) w1
               (fun wa i =>
                  let '(r, rl') := ptrlist_at c (fx_upgrade (cx_rd fx)) (w_src wa) (w_src_rl wa) l i in
                  let wb := w_set_rl wa InSrc rl' in
                  kbind (of_res r) (fun p =>
                  kbind (canonical_ptr c fx f wb sid p) (fun wd =>
                  let '(w2, cp) := wd in
                  of_res (ptrlist_set 4 w2 cl i InDst cp)))))
            (fun w3 => KOk (w3, cl)))
    else
      kbind (of_res (elem_size (cx_farnull fx) (cfg_strict c) (fx_depth (cx_rd fx)) (w_src w) l (Z.to_nat (list_len l)) 0 (mkOS 0 0))) (fun esz =>
      kbind (of_res (lift w (newCompositeList (w_dst w) sid esz (p_len l)))) (fun wc =>
      let '(w1, cl) := wc in
      kbind (kfold (iota (Z.to_nat (list_len cl))) w1
               (fun wa i =>
                  kbind (of_res (list_struct (fx_depth (cx_rd fx)) cl i)) (fun de =>
                  kbind (of_res (list_struct (fx_depth (cx_rd fx)) l i)) (fun se =>
                  fill_canonical c fx f wa de se))))
            (fun w3 => KOk (w3, cl)))).
Proof. reflexivity. Qed.

Definition P_fill (c : config) (fx : cfix) (f : nat) : Prop := forall w dst s,
  dok (w_dst w) -> msg_ok (w_src w) -> 0 <= w_src_rl w -> dst_ok (w_dst w) dst ->
  wf_struct (w_src w) s -> p_valid s = true ->
  kpostw w (fill_canonical c fx f w dst s).
Definition P_ptr (c : config) (fx : cfix) (f : nat) : Prop := forall w sid p,
  dok (w_dst w) -> msg_ok (w_src w) -> 0 <= w_src_rl w -> 0 <= sid < nsegs (w_dst w) ->
  wf_ptr (w_src w) p -> shape_ok p ->
  kpostp w (canonical_ptr c fx f w sid p).
Definition P_list (c : config) (fx : cfix) (f : nat) : Prop := forall w sid l,
  dok (w_dst w) -> msg_ok (w_src w) -> 0 <= w_src_rl w -> 0 <= sid < nsegs (w_dst w) ->
  wf_list (w_src w) l -> shape_ok l ->
  kpostp w (canonical_list c fx f w sid l).

Lemma wgood_rl w wa rl' : wgood w wa -> 0 <= rl' <= w_src_rl wa -> wgood w (w_set_rl wa InSrc rl').
Proof. intros (D & G & S & R) H. split; [exact D|]. split; [exact G|]. split; [exact S|]. cbn. lia. Qed.


Definition pcost (p : Ptr) : Z := if p_valid p then readSize p + 15 + 32 * slots p else 0.

Definition A_fill (c : config) (fx : cfix) (f : nat) : Prop := forall w dst s,
  dok (w_dst w) -> msg_ok (w_src w) -> 0 <= w_src_rl w -> dst_ok (w_dst w) dst ->
  wf_struct (w_src w) s -> p_valid s = true ->
  kpostwk w (32 * PointerCount (p_size dst)) (fill_canonical c fx f w dst s).
Definition A_ptr (c : config) (fx : cfix) (f : nat) : Prop := forall w sid p,
  dok (w_dst w) -> msg_ok (w_src w) -> 0 <= w_src_rl w -> 0 <= sid < nsegs (w_dst w) ->
  wf_ptr (w_src w) p -> shape_ok p ->
  kpostpk w (pcost p) (canonical_ptr c fx f w sid p).
Definition A_list (c : config) (fx : cfix) (f : nat) : Prop := forall w sid l,
  dok (w_dst w) -> msg_ok (w_src w) -> 0 <= w_src_rl w -> 0 <= sid < nsegs (w_dst w) ->
  wf_list (w_src w) l -> shape_ok l ->
  kpostpk w (pcost l) (canonical_list c fx f w sid l).

(* a child that was charged its read size: 5 budget bytes per byte read pay for its canonical
   copy and its own slots, the parent's 32 for the rest and the landing pad *)
Lemma slot_cost m p : msg_ok m -> wf_ptr m p -> pcost p + 16 <= 5 * readSize p + 32.
Proof.
  intros Hm Hw. unfold pcost. pose proof (readSize_nonneg p). pose proof (slots_le_readSize m p Hm Hw).
  destruct (p_valid p); lia.
Qed.

(* one pointer slot of the destination, at (dsid, off): [x] is the source pointer read (charged),
   then its canonical copy, then the pointer written by [set] with at most one landing pad *)
Lemma aslot_step c fx f wa x sid dsid off (set : world -> Ptr -> res world) :
  cfg_strict c = true -> A_ptr c fx f -> dok (w_dst wa) -> msg_ok (w_src wa) ->
  res_sat (fst x) (fun q => cfg_strict c = true -> wf_ptr (w_src wa) q) ->
  charged (w_src_rl wa) x -> (forall q, fst x = Ok q -> shape_ok q) ->
  0 <= sid < nsegs (w_dst wa) -> region_ok (w_dst wa) dsid off 8 ->
  (forall w2 cp, set w2 cp = write_ptr 4 true w2 dsid off InDst cp false) ->
  kpostwk wa 32
    (let '(r, rl') := x in
     kbind (of_res r) (fun p => kbind (canonical_ptr c fx f (w_set_rl wa InSrc rl') sid p) (fun wc =>
     let '(w2, cp) := wc in of_res (set w2 cp)))).
Proof.
  intros Hc IH Da Hm SS [SC SX] SH Hsid Hreg Hset. destruct x as [r rl']. cbn [fst snd] in *.
  destruct r as [p| |]; cbn [of_res kbind res_sat kpostwk] in *; [|exact I|exact SS].
  assert (wgood wa (w_set_rl wa InSrc rl')) as Gb by (apply wgood_rl; [apply wgood_refl; [exact Da|lia]|exact SC]).
  pose proof (IH (w_set_rl wa InSrc rl') sid p Da Hm ltac:(cbn; lia) Hsid (SS Hc) (SH p eq_refl)) as CP.
  destruct (canonical_ptr c fx f _ sid p) as [[w2 cp]| | |]; cbn [kbind kpostpk kpostwk] in *; [|exact I|exact CP|exact I].
  destruct CP as (G2 & Cp & P2). pose proof (wgood_trans _ _ _ Gb G2) as Gw2. pose proof Gw2 as (D2 & Gr2 & _ & R2).
  rewrite Hset.
  pose proof (write_ptr_nocopy_k 3 w2 dsid off cp D2 ltac:(lia) (region_grows _ _ _ _ _ Gr2 Hreg) Cp) as WP.
  destruct (write_ptr 4 true w2 dsid off InDst cp false) as [w3| |]; cbn [of_res rpostk kpostwk] in *; [|exact I|exact WP].
  destruct WP as [G3 P3]. split; [eapply wgood_trans; eassumption|].
  pose proof (slot_cost _ p Hm (SS Hc)). unfold Phi in *. cbn [w_dst w_src_rl w_set_rl] in P2. lia.
Qed.

Lemma afill_step c fx f : cfg_strict c = true -> A_ptr c fx f -> A_fill c fx (S f).
Proof.
  intros Hc IH w dst s Hd Hm Hr Hdst Hs V. pose proof Hdst as (Vd & Zd & Rd). rewrite fill_canonical_S.
  unfold dst_seg, src_seg. rewrite nth_bm_data. unfold wf_size in Zd.
  assert (region_ok (w_dst w) (p_seg dst) (p_off dst) (DataSize (p_size dst))) as Rdd
    by (destruct Rd as (R1 & R2 & R3); unfold region_ok; lia).
  destruct (dst_slice (w_dst w) (p_seg dst) (p_off dst) (DataSize (p_size dst)) Hd Rdd ltac:(lia)) as [-> Ld].
  cbn [of_res kbind].
  destruct (src_data_slice _ s Hm Hs V) as [-> Ls]. cbn [of_res kbind].
  set (sd := sub (seg_of (w_src w) s) (p_off s) (DataSize (p_size s))) in *.
  set (dd := sub (mem (w_dst w) (p_seg dst)) (p_off dst) (DataSize (p_size dst))) in *.
  assert (zlen (firstn (Nat.min (length dd) (length sd)) sd) <= DataSize (p_size dst)) as Lb.
  { unfold zlen in *. rewrite firstn_length. lia. }
  assert (region_ok (w_dst w) (p_seg dst) (p_off dst) (zlen (firstn (Nat.min (length dd) (length sd)) sd))) as Rbs
    by (destruct Rdd as (R1 & R2 & R3); unfold region_ok; lia).
  destruct (seg_write_safe (w_dst w) (p_seg dst) (p_off dst) _ Hd Rbs) as (m1 & E1 & D1 & N1 & L1 & _).
  pose proof (seg_write_tot _ _ _ _ _ Hd Rbs E1) as T1. rewrite E1.
  cbn [lift0 bind of_res kbind].
  apply (kpostwk_weaken w (0 + 32 * zlen (iota (Z.to_nat (PointerCount (p_size dst)))))); [rewrite zlen_iota; lia|].
  apply kfold_kpostwk.
  - apply wgood_set_dst; auto. apply same_len_grows; auto.
  - unfold Phi. cbn [w_dst w_set_dst w_src_rl]. lia.
  - intros i wa Hi (Da & Gra & Sa & Ra). apply in_iota in Hi. rewrite <- Sa in Hm, Hs.
    apply (aslot_step c fx f wa (struct_ptr c (w_src wa) (w_src_rl wa) s i) (p_seg dst) (p_seg dst) (pointerAddress dst i)
             (fun w2 cp => struct_set_ptr 4 w2 dst i InDst cp)); auto.
    + apply struct_ptr_safe; auto; lia.
    + apply struct_ptr_charge; lia.
    + intros q. unfold struct_ptr. destruct (_ || _); [cbn [fst]; intros E; inversion E; apply shape_null|apply readPtr_shape].
    + destruct Rd as (R1 & _). destruct Gra as [Gn _]. lia.
    + eapply region_grows; [exact Gra|]. apply dst_ptr_slot; auto; lia.
    + intros w2 cp. unfold struct_set_ptr. rewrite Vd. cbn [negb orb].
      destruct (i >=? PointerCount (p_size dst)) eqn:Ei; [lia|reflexivity].
Qed.

Lemma aptr_step c fx f : A_fill c fx f -> A_list c fx f -> A_ptr c fx (S f).
Proof.
  intros IHf IHl w sid p Hd Hm Hr Hsid Hp Hsh. rewrite canonical_ptr_S.
  destruct (p_valid p) eqn:V; cbn [negb].
  2:{ cbn [kpostpk]. split; [apply wgood_refl; assumption|]. split; [apply cp_ok_null|]. unfold pcost. rewrite V. lia. }
  destruct (p_kind p) eqn:K; [| |exact I].
  - assert (wf_struct (w_src w) p) as Hs by (split; [assumption|intros _; assumption]).
    pose proof (canonicalStructSize_le (cx_farnull fx) (cfg_strict c) (w_src w) p Hm Hs) as CL.
    destruct (canonicalStructSize _ _ _ p) as [sz| |]; cbn [of_res kbind res_sat] in *; [|exact I|exact CL].
    destruct CL as (CS & C2 & C4 & _). specialize (C4 V).
    pose proof (newStruct_safe (w_dst w) sid sz Hd Hsid CS) as NS.
    destruct (newStruct (w_dst w) sid sz) as [[m1 ss]| |]; cbn [lift bind of_res kbind]; [|exact I|exact NS].
    destruct NS as (D1 & G1 & Do1 & Cp1 & Ess & T1).
    destruct (wf_struct_inv _ p Hs V) as (_ & Hz & _).
    apply (kpostpk_weaken w ((padToWord (DataSize sz) + 8 * PointerCount sz) + 32 * PointerCount (p_size ss))).
    { unfold pcost, readSize, slots, struct_readSize. rewrite V, K, Ess, (totalSize_wf _ Hz). cbn [PointerCount].
      unfold wf_size, csz_ok in *. rewrite padToWord_id by lia. lia. }
    apply (kpostpk_ret w (w_set_dst w m1)); [apply wgood_set_dst; auto| |exact Cp1|apply IHf; auto].
    unfold Phi. cbn [w_dst w_set_dst w_src_rl]. lia.
  - exact (IHl w sid p Hd Hm Hr Hsid (conj Hp (fun _ => K)) Hsh).
Qed.

(* what a list costs to read covers its content *)
Lemma list_content_le m l : msg_ok m -> wf_list m l -> p_valid l = true -> shape_ok l ->
  (if p_bit l then (p_len l + 7) / 8 else p_len l * totalSize (p_size l)) + (if p_comp l then 8 else 0)
  <= readSize l + 8.
Proof.
  intros Hm Hw V Hsh. destruct (list_alloc_facts m l Hm Hw V Hsh) as [_ H].
  unfold readSize. rewrite (proj2 Hw V).
  destruct (wf_list_inv m l Hw V) as (Hs & Ho & Hl & Hr). destruct (seg_of_ok m l Hm) as [Hsl _].
  unfold list_allocSize in H. rewrite V in H. cbn [negb] in H. cbv zeta in H.
  pose proof (Hsh V) as Hs'. rewrite (proj2 Hw V) in Hs'.
  destruct (p_bit l) eqn:B.
  - rewrite bitListSize_spec in H by lia. destruct (p_comp l); [destruct Hs' as (_ & _ & X); discriminate X|lia].
  - destruct Hr as [Hz Hr]. pose proof (totalSize_bound _ Hz).
    rewrite times_some in H by (unfold maxSegmentSize in *; nia).
    destruct (p_comp l); cbn [negb] in H; [|lia]. destruct Hs' as (H8 & _). unfold maxSegmentSize in *.
    rewrite u32_id in H by nia. lia.
Qed.

(* a struct list of n elements, canonical element size (d, p) within the source's (D, P), whose
   content the read size R covers: tag word, blocks, 32 per destination slot *)
Lemma comp_list_cost n d p D P R : 0 <= n -> 0 <= d <= D -> 0 <= p <= P -> n * (D + 8 * P) <= R ->
  (8 + n * (d + 8 * p)) + (0 + 32 * p * n) <= R + 15 + 32 * (n * P).
Proof. intros. assert (n * d <= n * D) by nia. assert (n * p <= n * P) by nia. lia. Qed.

Lemma alist_step c fx f : cfg_strict c = true -> cx_complist fx = true ->
  A_ptr c fx f -> A_fill c fx f -> A_list c fx (S f).
Proof.
  intros Hc Hcl IHp IHf w sid l Hd Hm Hr Hsid Hl Hsh. rewrite canonical_list_S.
  destruct (p_valid l) eqn:V; cbn [negb].
  2:{ cbn [kpostpk]. split; [apply wgood_refl; assumption|]. split; [apply cp_ok_null|]. unfold pcost. rewrite V. lia. }
  destruct (wf_list_inv _ l Hl V) as (Hsg & Ho & Hln & Hr'). pose proof (proj2 Hl V) as K.
  pose proof (Hsh V) as Hsh'. rewrite K in Hsh'.
  pose proof (list_content_le _ l Hm Hl V Hsh) as Hcont.
  assert (pcost l = readSize l + 15 + 32 * (if p_bit l then 0 else p_len l * PointerCount (p_size l))) as Epc
    by (unfold pcost, slots; rewrite V, K; reflexivity).
  destruct (seg_of_ok (w_src w) l Hm) as [Hsl _]. unfold maxSegmentSize in Hsl.
  rewrite Hcl. cbn [andb].
  destruct ((PointerCount (p_size l) =? 0) && negb (p_comp l)) eqn:Edata.
  - (* data only *)
    assert (p_comp l = false) as C by (destruct (p_comp l); [rewrite Bool.andb_false_r in Edata; discriminate|reflexivity]).
    cbv zeta. unfold src_seg.
    set (content := if p_bit l then (p_len l + 7) / 8 else p_len l * totalSize (p_size l)) in *.
    assert (0 <= content /\ p_off l + content <= zlen (seg_of (w_src w) l)) as [Hc0 Hc1].
    { unfold content. destruct (p_bit l); [lia|]. destruct Hr' as [Hz Hr']. pose proof (totalSize_bound _ Hz). split; [nia|lia]. }
    assert (list_allocSize l = content) as Hsz.
    { unfold list_allocSize, content. rewrite V, C. cbn [negb]. destruct (p_bit l) eqn:B; [apply bitListSize_spec; lia|].
      destruct Hr' as [Hz Hr']. pose proof (totalSize_bound _ Hz).
      rewrite times_some by (unfold maxSegmentSize; nia). lia. }
    rewrite Hsz.
    pose proof (alloc_nopanic (w_dst w) sid content) as NP.
    destruct (alloc (w_dst w) sid content) as [[[m1 nsid] naddr]| |] eqn:EA; cbn [of_res kbind]; [|exact I|congruence].
    pose proof (alloc_tot (w_dst w) sid content m1 nsid naddr Hd Hsid Hc0 EA) as T1.
    destruct (alloc_safe (w_dst w) sid content m1 nsid naddr Hd Hsid Hc0 EA) as (D1 & G1 & S1 & A0 & A1 & A2 & A3 & _).
    rewrite slice_ok by lia. cbn [of_res kbind].
    set (bs := if cx_bitpad fx && p_bit l then mask_last (p_len l) (sub (seg_of (w_src w) l) (p_off l) content)
               else sub (seg_of (w_src w) l) (p_off l) content).
    assert (zlen bs = content) as Lb.
    { unfold bs. destruct (cx_bitpad fx && p_bit l); [unfold zlen; rewrite mask_last_length|];
        apply sub_length; lia. }
    assert (region_ok m1 nsid naddr (zlen bs)) as Rb by (unfold region_ok; lia).
    destruct (seg_write_safe m1 nsid naddr bs D1 Rb) as (m2 & E2 & D2 & N2 & L2 & _).
    pose proof (seg_write_tot _ _ _ _ _ D1 Rb E2) as T2. rewrite E2.
    cbn [lift0 bind of_res kbind kpostpk w_set_dst w_dst].
    split; [change (wgood w (w_set_dst w m2)); apply wgood_set_dst; auto;
            eapply grows_trans; [exact G1|apply same_len_grows; auto]|].
    split.
    + intros _. cbn [p_seg p_member]. split; [rewrite N2; exact S1|]. split; [reflexivity|].
      split; [|cbn [p_kind]; discriminate]. intros _. cbn [p_kind p_comp p_bit p_size]. rewrite C in *. exact Hsh'.
    + unfold Phi. cbn [w_dst w_set_dst w_src_rl]. rewrite T2, T1. rewrite C in Hcont.
      assert (0 <= content <= maxSegmentSize) as Hcm by (unfold maxSegmentSize; lia).
      pose proof (padToWord_facts content Hcm).
      assert (0 <= (if p_bit l then 0 else p_len l * PointerCount (p_size l))) as Hsl0.
      { destruct (p_bit l); [lia|]. destruct Hr' as [[_ Hz] _]. nia. }
      lia.
  - destruct (p_comp l) eqn:C; cbn [negb].
    + (* struct list *)
      assert (p_bit l = false) as B by (destruct Hsh' as (_ & _ & X); exact X).
      rewrite B in *. destruct Hr' as [Hz Hr']. pose proof (totalSize_bound _ Hz) as Hts. pose proof (totalSize_wf _ Hz) as Etl.
      pose proof (elem_size_le (cx_farnull fx) (cfg_strict c) (fx_depth (cx_rd fx)) (w_src w) l Hm Hl V B
                    (Z.to_nat (list_len l)) 0 (mkOS 0 0) ltac:(lia)
                    ltac:(unfold list_len; rewrite V; lia)
                    ltac:(unfold esz_le, wf_size in *; cbn [DataSize PointerCount]; lia)) as EL.
      destruct (elem_size _ _ _ _ l _ 0 _) as [esz| |]; cbn [of_res kbind res_sat] in *; [|exact I|exact EL].
      destruct EL as (E1 & E2 & E3).
      pose proof (newCompositeList_safe (w_dst w) sid esz (p_len l) Hd Hsid ltac:(unfold csz_ok, wf_size in *; lia)) as NC.
      destruct (newCompositeList (w_dst w) sid esz (p_len l)) as [[m1 cl]| |]; cbn [lift bind of_res kbind];
        [|exact I|exact NC].
      destruct NC as (D1 & G1 & Hn0 & Hwc & Rc & Cp1 & Ecl & T1).
      assert (p_valid cl = true /\ p_bit cl = false /\ p_len cl = p_len l /\ list_len cl = p_len l /\
              PointerCount (p_size cl) = PointerCount esz) as (Vc & Bc & Lc & Lcl & Pc) by (rewrite Ecl; cbn; auto).
      rewrite Lcl.
      apply (kpostpk_weaken w ((8 + p_len l * (padToWord (DataSize esz) + 8 * PointerCount esz))
                               + (0 + 32 * PointerCount (p_size cl) * zlen (iota (Z.to_nat (p_len l)))))).
      { rewrite zlen_iota, Epc, Pc, padToWord_id, Z2Nat.id by (unfold wf_size in Hz; lia). rewrite Etl in Hcont.
        apply (comp_list_cost _ _ _ (DataSize (p_size l))); lia. }
      apply (kpostpk_ret w (w_set_dst w m1)); [apply wgood_set_dst; auto| |exact Cp1|].
      { unfold Phi. cbn [w_dst w_set_dst w_src_rl]. lia. }
      apply kfold_kpostwk; [apply wgood_refl; assumption|lia|].
      intros i wa Hi (Da & Gra & Sa & Ra). apply in_iota in Hi. cbn [w_dst w_set_dst w_src w_src_rl] in Gra, Sa, Ra.
      pose proof (totalSize_bound _ Hwc) as Htc. destruct Rc as (Rc1 & Rc2 & Rc3). pose proof (proj2 D1 (p_seg cl)) as Smn.
      destruct (elem_span (p_off cl) (p_len l) (totalSize (p_size cl)) i _ Rc2 (proj1 Htc) ltac:(lia) Rc3) as [Hc0 Hc1].
      destruct (elem_span (p_off l) (p_len l) (totalSize (p_size l)) i _ Ho (proj1 Hts) ltac:(lia) Hr') as [Hl0 Hl1].
      rewrite (list_struct_ok _ cl i Vc Bc) by (unfold maxSegmentSize in Smn; lia). cbn [of_res kbind].
      pose proof (list_struct_safe (fx_depth (cx_rd fx)) (w_src w) l i Hm Hl ltac:(unfold list_len; rewrite V; lia)) as Hse.
      rewrite (list_struct_ok _ l i V B) in * by lia. cbn [of_res kbind res_sat] in *.
      rewrite <- Sa in Hm, Hse. refine (IHf wa _ _ Da Hm ltac:(lia) _ Hse eq_refl).
      split; [reflexivity|]. split; [exact Hwc|]. cbn [p_seg p_off p_size].
      eapply region_grows; [exact Gra|]. unfold region_ok. rewrite <- (totalSize_wf _ Hwc). lia.
    + (* pointer list *)
      assert (p_bit l = false /\ p_size l = mkOS 0 1) as [B Esl].
      { destruct (p_bit l) eqn:B.
        - exfalso. destruct Hr' as [Hz _]. rewrite Hz in Edata. cbn in Edata. discriminate.
        - split; [reflexivity|].
          destruct Hsh' as [E|[E|[E|[E|[E|E]]]]]; rewrite E in Edata; cbn in Edata; try discriminate. exact E. }
      rewrite B, Esl in *. change (totalSize (mkOS 0 1)) with 8 in *. cbn [PointerCount] in *.
      pose proof (newPointerList_safe (w_dst w) sid (p_len l) Hd Hsid) as NP.
      destruct (newPointerList (w_dst w) sid (p_len l)) as [[m1 cl]| |]; cbn [lift bind of_res kbind];
        [|exact I|exact NP].
      destruct NP as (D1 & G1 & Hn0 & Rc & Cp1 & Ecl & T1).
      apply (kpostpk_weaken w (8 * p_len l + (0 + 32 * zlen (iota (Z.to_nat (list_len l)))))).
      { rewrite zlen_iota, Epc. unfold list_len. rewrite V. lia. }
      apply (kpostpk_ret w (w_set_dst w m1)); [apply wgood_set_dst; auto| |exact Cp1|].
      { unfold Phi. cbn [w_dst w_set_dst w_src_rl]. lia. }
      apply kfold_kpostwk; [apply wgood_refl; assumption|lia|].
      intros i wa Hi (Da & Gra & Sa & Ra). apply in_iota in Hi. cbn [w_dst w_set_dst w_src w_src_rl] in Gra, Sa, Ra.
      assert (0 <= i < p_len l) as Hi' by (unfold list_len in Hi; rewrite V in Hi; lia).
      destruct Rc as (Rc1 & Rc2 & Rc3). pose proof (proj2 D1 (p_seg cl)) as Smn. rewrite <- Sa in Hm, Hl.
      apply (aslot_step c fx f wa (ptrlist_at c (fx_upgrade (cx_rd fx)) (w_src wa) (w_src_rl wa) l i) sid
               (p_seg cl) (p_off cl + i * 8) (fun w2 cp => ptrlist_set 4 w2 cl i InDst cp)); auto.
      * apply ptrlist_at_safe; auto. unfold list_len. rewrite V. lia.
      * apply ptrlist_at_charge; lia.
      * intros q. unfold ptrlist_at. destruct (primitiveElem _ _ _ _); try discriminate. apply readPtr_shape.
      * destruct Gra as [Gn _]. destruct G1 as [Gn1 _]. lia.
      * eapply region_grows; [exact Gra|]. unfold region_ok. lia.
      * intros w2 cp. unfold ptrlist_set.
        rewrite primitiveElem_ptrs; [reflexivity|rewrite Ecl; reflexivity..|rewrite Ecl; cbn [p_len]; lia|lia].
Qed.

Theorem canon_alloc_all c fx : cfg_strict c = true -> cx_complist fx = true ->
  forall f, A_fill c fx f /\ A_ptr c fx f /\ A_list c fx f.
Proof.
  intros Hc Hcl. induction f as [|f (IHf & IHp & IHl)].
  - split; [|split]; intros ?; intros; exact I.
  - split; [apply afill_step; assumption|]. split; [apply aptr_step; assumption|apply alist_step; assumption].
Qed.

Theorem canon_all c fx : cfg_strict c = true -> cx_complist fx = true ->
  forall f, P_fill c fx f /\ P_ptr c fx f /\ P_list c fx f.
Proof.
  intros Hc Hcl f. destruct (canon_alloc_all c fx Hc Hcl f) as (AF & AP & AL).
  split; [|split]; intros w; intros; [eapply kpostwk_kpostw; apply AF|eapply kpostpk_kpostp; apply AP|eapply kpostpk_kpostp; apply AL];
    assumption.
Qed.

Lemma set_root_k w root : dok (w_dst w) -> 0 <= w_src_rl w -> cp_ok (w_dst w) root ->
  rpostk w 16 (set_root 4 w InDst root).
Proof.
  intros Hd Hr Hcp. unfold set_root, set_root_gen. cbv zeta.
  destruct (bm_segs (w_dst w)) as [|s0 rest] eqn:Es; [exact I|].
  destruct (regionInBounds (bs_data s0) 0 8) eqn:Er; cbn [negb]; [|exact I].
  apply regionInBounds_spec in Er.
  apply write_ptr_nocopy_k; auto. unfold region_ok, nsegs, mem, get_seg. rewrite Es.
  cbn [nth Z.to_nat]. unfold zlen at 1. cbn [length]. split; [lia|]. split; [lia|]. change (Z.to_nat 0) with 0%nat. cbn [nth]. lia.
Qed.

Lemma new_single_tot : exists m0, new_message ASingle [] 0 = Ok m0 /\ dok m0 /\ nsegs m0 = 1 /\ tot m0 = 8.
Proof.
  eexists. split; [vm_compute; reflexivity|]. split; [|split; reflexivity].
  split; [split|].
  - repeat constructor; cbn; lia.
  - intros _. reflexivity.
  - intros i. unfold mem, get_seg. cbn. destruct (Z.to_nat i) as [|[|n]]; cbn; unfold maxSegmentSize; lia.
Qed.

Lemma seg0_le_tot m : 1 <= nsegs m -> zlen (mem m 0) <= tot m.
Proof.
  intros H. unfold tot, nsegs, zlen in *. destruct (length (bm_segs m)) as [|n] eqn:E; [lia|].
  assert (forall k, lenf m 0 <= sumN (lenf m) (S k)) as G.
  { induction k as [|k IH]; cbn [sumN]; [lia|]. cbn [sumN] in IH.
    assert (0 <= lenf m (S k)) by (unfold lenf; apply zlen_nonneg). lia. }
  apply G.
Qed.

(* Canonicalize on an arbitrary source struct never panics
   (repaired configuration), the source's traversal budget only goes down and stays >= 0, and the
   canonical form is at most 5 x (the struct's size + budget consumed) + 47 bytes long.  Any fuel.
   47 = 8 (root word) + 2 * 16 (the two SetRoot calls, set_root_k) + 7 (padding of the data section);
   5 is the weight of the budget in Phi, and a root pointer slot with its allowance is 8 + 32 = 5 * 8. *)
Theorem canonicalize_post c fx fuel src rl s :
  cfg_strict c = true -> cx_complist fx = true -> msg_ok src -> wf_struct src s -> 0 <= rl ->
  let r := canonicalize c fx fuel src rl s in
  0 <= snd r <= rl /\
  match fst r with
  | KPanic => False
  | KOk bs => p_valid s = true -> zlen bs <= 5 * (totalSize (p_size s) + (rl - snd r)) + 47
  | _ => True
  end.
Proof.
  intros Hc Hcl Hm Hs Hr. cbv zeta. unfold canonicalize.
  destruct new_single_tot as (m0 & -> & D0 & N0 & T0).
  destruct (p_valid s) eqn:V; cbn [negb fst snd]; [|split; [lia|discriminate]].
  set (w0 := mkW m0 src rl).
  pose proof (canonicalStructSize_le (cx_farnull fx) (cfg_strict c) src s Hm Hs) as CL.
  destruct (canonicalStructSize _ _ src s) as [sz| |]; cbn [of_res kbind res_sat fst snd] in *;
    [|split; [lia|exact I]|destruct CL].
  destruct CL as (CS & C2 & C4 & _). specialize (C4 V).
  pose proof (newStruct_safe m0 0 sz D0 ltac:(lia) CS) as NS.
  destruct (newStruct m0 0 sz) as [[m1 root]| |]; cbn [lift bind of_res kbind fst snd];
    [|split; [lia|exact I]|destruct NS].
  destruct NS as (D1 & G1 & Do1 & Cp1 & Ert & T1).
  pose proof (set_root_k (w_set_dst w0 m1) root D1 Hr Cp1) as R1.
  destruct (set_root 4 (w_set_dst w0 m1) InDst root) as [w2| |]; cbn [of_res kbind rpostk fst snd] in *;
    [|split; [lia|exact I]|destruct R1].
  destruct R1 as [(D2 & G2 & S2 & Rl2) P2]. cbn [w_dst w_set_dst w_src w_src_rl w0] in *.
  pose proof (set_root_k w2 root D2 ltac:(lia) (cp_ok_grows _ _ _ G2 Cp1)) as R2.
  destruct (set_root 4 w2 InDst root) as [w3| |]; cbn [of_res kbind rpostk fst snd] in *;
    [|split; [lia|exact I]|destruct R2].
  destruct R2 as [(D3 & G3 & S3 & Rl3) P3].
  destruct (canon_alloc_all c fx Hc Hcl fuel) as (PF & _ & _).
  pose proof (PF w3 root s D3 ltac:(rewrite S3, S2; exact Hm) ltac:(lia)
                ltac:(destruct Do1 as (A & B & C0); split; [exact A|split; [exact B|]];
                      eapply region_grows; [exact G3|]; eapply region_grows; [exact G2|exact C0])
                ltac:(rewrite S3, S2; exact Hs) V) as FC.
  destruct (fill_canonical c fx fuel w3 root s) as [w4| | |]; cbn [kpostwk fst snd] in *;
    [|split; [lia|exact I]|destruct FC|split; [lia|exact I]].
  destruct FC as [(D4 & G4 & S4 & Rl4) P4]. split; [lia|]. intros _.
  assert (1 <= nsegs (w_dst w4)) as N4.
  { destruct G4 as [Gn4 _]. destruct G3 as [Gn3 _]. destruct G2 as [Gn2 _]. destruct G1 as [Gn1 _].
    cbn [w_dst w_set_dst] in *. lia. }
  pose proof (seg0_le_tot _ N4) as S0. change (bs_data (get_seg (w_dst w4) 0)) with (mem (w_dst w4) 0).
  destruct (wf_struct_inv _ s Hs V) as (_ & Hz & _). rewrite (totalSize_wf _ Hz). unfold wf_size in Hz. unfold csz_ok in CS.
  rewrite Ert in P4. cbn [PointerCount] in P4. rewrite padToWord_id in T1 by lia.
  unfold Phi in *. subst w0. cbn [w_dst w_set_dst w_src_rl] in *. lia.
Qed.

Theorem canonicalize_safe c fx fuel src rl s :
  cfg_strict c = true -> cx_complist fx = true -> msg_ok src -> wf_struct src s -> 0 <= rl ->
  fst (canonicalize c fx fuel src rl s) <> KPanic /\ 0 <= snd (canonicalize c fx fuel src rl s) <= rl.
Proof.
  intros Hc Hcl Hm Hs Hr. destruct (canonicalize_post c fx fuel src rl s Hc Hcl Hm Hs Hr) as [R P].
  split; [|exact R]. intros E. rewrite E in P. exact P.
Qed.

(* F04 as found (cx_complist = false): a data-only composite list at the end of its segment;
   the raw copy reads allocSize = content + 8 bytes from AFTER the tag word and panics *)
Definition complist_msg : segs :=
  [[0;0;0;0;0;0;1;0;  1;0;0;0;15;0;0;0;  4;0;0;0;1;0;0;0;  7;0;0;0;0;0;0;0]].
Example canon_complist_refuted :
  let c := mkCfg 0 0 true true in
  msg_ok complist_msg /\
  run_canon 10 c (mkCFix false true true (mkFix true true true)) complist_msg SelRoot = KPanic /\
  exists bs, run_canon 10 c (mkCFix true true true (mkFix true true true)) complist_msg SelRoot = KOk bs.
Proof.
  split; [repeat constructor; cbn; try lia; unfold maxSegmentSize; lia|].
  split; [vm_compute; reflexivity|]. eexists. vm_compute. reflexivity.
Qed.

(* fill -> ptr -> fill/list costs two units per pointer level: fill_canonical from a struct
   with depth budget d needs 2d + 3 (2 when d = 0), canonical_ptr 2d + 4 (1 for a null
   pointer), canonical_list 2d + 3. *)
Definition ffuel (s : Ptr) (f : nat) : Prop :=
  0 <= p_depth s /\ (2 * p_depth s + 3 <= Z.of_nat f \/ (p_depth s = 0 /\ (2 <= f)%nat)).
Definition pfuel (p : Ptr) (f : nat) : Prop :=
  (1 <= f)%nat /\ (p_valid p = true -> 0 <= p_depth p /\ 2 * p_depth p + 4 <= Z.of_nat f).
Definition lfuel (l : Ptr) (f : nat) : Prop :=
  (1 <= f)%nat /\ (p_valid l = true -> 0 <= p_depth l /\ 2 * p_depth l + 3 <= Z.of_nat f).

Lemma kbind_nofuel {A B} (r : cout A) (k : A -> cout B) :
  r <> KFuel -> (forall a, r = KOk a -> k a <> KFuel) -> kbind r k <> KFuel.
Proof. destruct r; cbn; intros H1 H2; try discriminate; [apply H2; reflexivity|congruence]. Qed.
Lemma of_res_nofuel {A} (r : res A) : of_res r <> KFuel.
Proof. destruct r; discriminate. Qed.
Lemma kfold_nofuel {A} (f : A -> Z -> cout A) : forall l a,
  (forall x b, In x l -> f b x <> KFuel) -> kfold l a f <> KFuel.
Proof.
  induction l as [|x l IH]; intros a H; cbn [kfold]; [discriminate|].
  apply kbind_nofuel; [apply H; left; reflexivity|]. intros b _. apply IH. intros y c Hy. apply H. right. assumption.
Qed.

Definition NF_fill c fx f := forall w dst s, ffuel s f -> fill_canonical c fx f w dst s <> KFuel.
Definition NF_ptr c fx f := forall w sid p, pfuel p f -> canonical_ptr c fx f w sid p <> KFuel.
Definition NF_list c fx f := forall w sid l, lfuel l f -> canonical_list c fx f w sid l <> KFuel.

Lemma nf_fill_step c fx f : NF_ptr c fx f -> NF_fill c fx (S f).
Proof.
  intros IH w dst s [Hd Hf]. rewrite fill_canonical_S.
  apply kbind_nofuel; [apply of_res_nofuel|]. intros dd _.
  apply kbind_nofuel; [apply of_res_nofuel|]. intros sd _. cbv zeta.
  apply kbind_nofuel; [apply of_res_nofuel|]. intros w1 _.
  apply kfold_nofuel. intros i wa _.
  destruct (struct_ptr c (w_src wa) (w_src_rl wa) s i) as [r rl'] eqn:E. cbv zeta.
  apply kbind_nofuel; [apply of_res_nofuel|]. intros p Ep. destruct r as [p'| |]; try discriminate.
  inversion Ep; subst p'.
  apply kbind_nofuel.
  - apply IH. split; [lia|]. intros Vp.
    pose proof (struct_ptr_depth c (w_src wa) (w_src_rl wa) s i p Hd) as H. rewrite E in H.
    specialize (H eq_refl Vp). lia.
  - intros [w2 cp] _. apply of_res_nofuel.
Qed.

Lemma nf_ptr_step c fx f : NF_fill c fx f -> NF_list c fx f -> NF_ptr c fx (S f).
Proof.
  intros IHf IHl w sid p [H1 Hp]. rewrite canonical_ptr_S.
  destruct (p_valid p) eqn:V; cbn [negb]; [|discriminate]. destruct (Hp eq_refl) as [Hd Hf].
  destruct (p_kind p); [| |discriminate].
  - apply kbind_nofuel; [apply of_res_nofuel|]. intros sz _.
    apply kbind_nofuel; [apply of_res_nofuel|]. intros [w1 ss] _.
    apply kbind_nofuel; [|intros; discriminate]. apply IHf. split; [lia|]. left. lia.
  - apply IHl. split; [lia|]. intros _. split; [lia|]. lia.
Qed.

Lemma nf_list_step c fx f : fx_depth (cx_rd fx) = true ->
  NF_ptr c fx f -> NF_fill c fx f -> NF_list c fx (S f).
Proof.
  intros Hfd IHp IHf w sid l [H1 Hl]. rewrite canonical_list_S.
  destruct (p_valid l) eqn:V; cbn [negb]; [|discriminate]. destruct (Hl eq_refl) as [Hd Hf].
  destruct (_ && _).
  { cbv zeta. apply kbind_nofuel; [apply of_res_nofuel|]. intros [[m1 nsid] naddr] _.
    apply kbind_nofuel; [apply of_res_nofuel|]. intros bs _.
    apply kbind_nofuel; [apply of_res_nofuel|]. intros; discriminate. }
  destruct (negb (p_comp l)).
  - apply kbind_nofuel; [apply of_res_nofuel|]. intros [w1 cl] _.
    apply kbind_nofuel; [|intros; discriminate].
    apply kfold_nofuel. intros i wa _.
    destruct (ptrlist_at c (fx_upgrade (cx_rd fx)) (w_src wa) (w_src_rl wa) l i) as [r rl'] eqn:E. cbv zeta.
    apply kbind_nofuel; [apply of_res_nofuel|]. intros q Eq. destruct r as [q'| |]; try discriminate.
    inversion Eq; subst q'.
    apply kbind_nofuel.
    + apply IHp. split; [lia|]. intros Vq.
      pose proof (ptrlist_at_depth c (fx_upgrade (cx_rd fx)) (w_src wa) (w_src_rl wa) l i q Hd) as H. rewrite E in H.
      specialize (H eq_refl Vq). lia.
    + intros [w2 cp] _. apply of_res_nofuel.
  - apply kbind_nofuel; [apply of_res_nofuel|]. intros esz _.
    apply kbind_nofuel; [apply of_res_nofuel|]. intros [w1 cl] _.
    apply kbind_nofuel; [|intros; discriminate].
    apply kfold_nofuel. intros i wa _.
    apply kbind_nofuel; [apply of_res_nofuel|]. intros de _.
    apply kbind_nofuel; [apply of_res_nofuel|]. intros se Ese. rewrite Hfd in Ese.
    destruct (list_struct true l i) as [se'| |] eqn:E; try discriminate. inversion Ese; subst se'.
    apply IHf. destruct (p_valid se) eqn:Vse.
    + destruct (list_struct_depth' l i se Hd E Vse) as (_ & N & Hq). split; [exact N|].
      destruct Hq as [Hq|[Hq1 Hq2]]; [left; lia|right; split; [exact Hq2|lia]].
    + assert (p_depth se = 0) as D0.
      { unfold list_struct in E. destruct (_ || _ || _); [discriminate|].
        destruct (p_bit l); [inversion E; reflexivity|].
        destruct (element _ _ _); inversion E; subst se; [discriminate Vse|reflexivity]. }
      split; [lia|]. right. split; [exact D0|lia].
Qed.

Theorem canon_nofuel_all c fx : fx_depth (cx_rd fx) = true ->
  forall f, NF_fill c fx f /\ NF_ptr c fx f /\ NF_list c fx f.
Proof.
  intros Hfd. induction f as [|f (IHf & IHp & IHl)].
  - split; [|split].
    + intros w dst s [Hd [H|[_ H]]]; lia.
    + intros w sid p [H _]. lia.
    + intros w sid l [H _]. lia.
  - split; [apply nf_fill_step; assumption|]. split; [apply nf_ptr_step; assumption|apply nf_list_step; assumption].
Qed.

(* for a source struct read under depth limit D (depth budget <= D - 1)
   fuel 2D + 1 excludes the out-of-fuel outcome *)
Theorem canonicalize_nofuel c fx fuel src rl s D :
  fx_depth (cx_rd fx) = true -> 0 <= p_depth s <= D - 1 -> 2 * D + 1 <= Z.of_nat fuel ->
  fst (canonicalize c fx fuel src rl s) <> KFuel.
Proof.
  intros Hfd Hd Hf. unfold canonicalize.
  destruct (new_message ASingle [] 0) as [m0| |]; try discriminate.
  destruct (negb (p_valid s)); [discriminate|].
  match goal with |- fst (match ?r with _ => _ end) <> _ => assert (r <> KFuel) as H; [|destruct r; cbn; congruence] end.
  apply kbind_nofuel; [apply of_res_nofuel|]. intros sz _.
  apply kbind_nofuel; [apply of_res_nofuel|]. intros [w1 root] _.
  apply kbind_nofuel; [apply of_res_nofuel|]. intros w2 _.
  apply kbind_nofuel; [apply of_res_nofuel|]. intros w3 _.
  destruct (canon_nofuel_all c fx Hfd fuel) as (NF & _ & _). apply NF. split; [lia|]. left. lia.
Qed.
