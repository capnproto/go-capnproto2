(* C18 [T1], part 3: the normal form of a well-formed, capability-free value has the shape the
   round-trip lemma needs (norm_skel); bytes <-> words; the full statement
   cdecode (canon v) = Some (norm v). *)
From CV Require Import Value.ValueEq Value.ValueEqProofs Value.CanonSpec Value.CanonProofs Value.PackProofs
                       Value.CanonProofs2 Core.BuilderFacts.
From Coq Require Import ZifyBool ZifyNat.
Open Scope Z_scope.

Definition two64 := 18446744073709551616.

(* field values fit their fields: struct data are 64-bit words, primitive elements fit their width *)
Fixpoint ranged (v : value) : bool :=
  match v with
  | VStruct d ps => forallb (fun x => (0 <=? x) && (x <? two64)) d && forallb ranged ps
  | VList k es =>
    forallb (fun e => match e with
                      | VStruct d ps =>
                        forallb (fun x => (0 <=? x) && (x <? (match k with LComp => two64 | _ => kind_base k end))) d
                        && forallb ranged ps
                      | _ => true
                      end) es
  | _ => true
  end.

Lemma length_le_max_len {A} (f : value -> list A) e es : In e es -> (length (f e) <= max_len f es)%nat.
Proof.
  induction es as [|y r IH]; [intros []|]. intros [->|H]; cbn [max_len fold_right]; [lia|].
  specialize (IH H). unfold max_len in IH. lia.
Qed.

Lemma max_len_const {A} (f : value -> list A) n es : es <> [] -> (forall e, In e es -> length (f e) = n) -> max_len f es = n.
Proof.
  induction es as [|y r IH]; [contradiction|]. intros _ H. cbn [max_len fold_right].
  destruct r as [|z r'].
  - cbn. rewrite (H y (or_introl eq_refl)). lia.
  - fold (max_len f (z :: r')). rewrite IH; [|discriminate| intros e He; apply H; right; assumption].
    rewrite (H y (or_introl eq_refl)). lia.
Qed.

Lemma max_len_pad_elems_d ns : max_len sdata (pad_elems ns) = max_len sdata ns.
Proof.
  destruct ns as [|n0 r]; [reflexivity|]. unfold pad_elems.
  apply max_len_const; [discriminate|]. intros e He. apply in_map_iff in He. destruct He as (n & <- & Hn).
  cbn [sdata]. apply pad0_length. apply length_le_max_len. assumption.
Qed.
Lemma max_len_pad_elems_p ns : max_len sptrs (pad_elems ns) = max_len sptrs ns.
Proof.
  destruct ns as [|n0 r]; [reflexivity|]. unfold pad_elems.
  apply max_len_const; [discriminate|]. intros e He. apply in_map_iff in He. destruct He as (n & <- & Hn).
  cbn [sptrs]. apply padN_length. apply length_le_max_len. assumption.
Qed.

Definition good (v : value) : Prop := wfv v = true /\ ranged v = true /\ nocap v = true.

Lemma forallb_In {A} (f : A -> bool) l x : forallb f l = true -> In x l -> f x = true.
Proof. intros H. rewrite forallb_forall in H. apply H. Qed.

(* the bound [ranged] puts on the data words of the elements of a list of kind k *)
Definition fits (k : lkind) (x : Z) : bool :=
  (0 <=? x) && (x <? (match k with LComp => two64 | _ => kind_base k end)).

Lemma fits_0 k : fits k 0 = true.
Proof. destruct k; reflexivity. Qed.

Lemma fits_w64 k x : fits k x = true -> (0 <=? x) && (x <? two64) = true.
Proof. unfold fits, two64. destruct k; cbn; lia. Qed.

(* the struct view of an element of a ranged list is in range *)
Lemma ranged_elem k es e : ranged (VList k es) = true -> In e es ->
  forallb (fits k) (sdata e) = true /\ forallb ranged (sptrs e) = true.
Proof.
  intros H He. cbn [ranged] in H. pose proof (forallb_In _ _ _ H He) as R.
  destruct e; try (split; reflexivity). apply andb_prop, R.
Qed.

Lemma ranged_elem_struct k es d ps : ranged (VList k es) = true -> In (VStruct d ps) es -> ranged (VStruct d ps) = true.
Proof.
  intros H He. destruct (ranged_elem k es _ H He) as [R1 R2]. cbn [ranged sdata sptrs] in *.
  rewrite R2, andb_true_r. apply forallb_forall. intros x Hx. exact (fits_w64 k x (forallb_In _ _ _ R1 Hx)).
Qed.

(* [wfv] gives an element its struct view and well-formed children *)
Lemma elem_good k es e : good (VList k es) -> In e es -> exists d ps, e = VStruct d ps /\ good e.
Proof.
  intros (W & R & C) He. cbn [wfv nocap] in W, C. pose proof (forallb_In _ _ _ W He) as We. cbn beta in We.
  destruct e as [| |d ps| |]; try discriminate. exists d, ps. split; [reflexivity|]. split; [|split].
  - cbn [wfv]. destruct k; try exact We;
      destruct d as [|? [|? ?]]; destruct ps as [|? [|? ?]]; try discriminate; try reflexivity.
    cbn. rewrite andb_true_r. exact We.
  - exact (ranged_elem_struct k es d ps R He).
  - exact (forallb_In _ _ _ C He).
Qed.

(* ------------------------------------------------------------------ norm keeps fields in range *)
Lemma forallb_strip0 (f : Z -> bool) d : forallb f d = true -> forallb f (strip0 d) = true.
Proof. intros H. apply forallb_forall. intros z Hz. apply (In_strip (fun x => x =? 0)) in Hz. eapply forallb_In; eassumption. Qed.

Theorem norm_ranged : forall v, ranged v = true -> ranged (norm v) = true.
Proof.
  induction v using value_ind2; intros Hr; try reflexivity.
  - (* struct *)
    cbn [ranged] in Hr. apply andb_prop in Hr. destruct Hr as [Rd Rp]. cbn [norm ranged].
    rewrite (forallb_strip0 _ d Rd). cbn [andb]. apply forallb_forall. intros y Hy. apply (In_strip is_null) in Hy.
    apply in_map_iff in Hy. destruct Hy as (p & <- & Hp). rewrite Forall_forall in H.
    exact (H p Hp (forallb_In _ _ _ Rp Hp)).
  - (* lists: the struct view of a normalised element stays in range *)
    rewrite Forall_forall in H.
    assert (G : forall e, In e es ->
              forallb (fits k) (sdata (norm e)) = true /\ forallb ranged (sptrs (norm e)) = true).
    { intros e He. destruct (ranged_elem k es e Hr He) as [R1 R2].
      destruct e as [| |d ps|k0 es0|]; try (split; reflexivity).
      - cbn [norm sdata sptrs] in *. split; [apply forallb_strip0; exact R1|].
        pose proof (H _ He (ranged_elem_struct k es d ps Hr He)) as Hn. cbn [norm ranged] in Hn.
        apply andb_prop in Hn. apply Hn.
      - destruct k0; split; reflexivity. }
    destruct k; cbn [norm ranged]; unfold pad_elems; rewrite !map_map; apply forallb_forall; intros y Hy;
      apply in_map_iff in Hy; destruct Hy as (e & <- & He); destruct (G e He) as [G1 G2].
    2-5: cbn [forallb]; rewrite !andb_true_r; exact (forallb_hd_word (fits _) _ (fits_0 _) G1).
    + reflexivity.
    + cbn [forallb andb]. rewrite andb_true_r. exact (forallb_hd_ptr ranged _ eq_refl G2).
    + rewrite (forallb_pad0 _ _ _ eq_refl G1), (forallb_padN _ _ _ eq_refl G2). reflexivity.
Qed.

(* ------------------------------------------------------------------ the normal form is skeletal *)
Theorem norm_skel : forall v, good v -> skel (norm v) = true.
Proof.
  induction v using value_ind2; intros (Hw & Hr & Hc); try reflexivity.
  - discriminate Hc.
  - (* struct *)
    cbn [norm skel]. apply forallb_forall. intros y Hy. apply (In_strip is_null) in Hy. apply in_map_iff in Hy.
    destruct Hy as (p & <- & Hp). rewrite Forall_forall in H. apply (H p Hp).
    cbn [wfv ranged nocap] in *. apply andb_prop in Hr. destruct Hr as [_ Hr].
    repeat split; eapply forallb_In; eassumption.
  - (* lists *)
    rewrite Forall_forall in H.
    assert (G : forall e, In e es -> forallb skel (sptrs (norm e)) = true).
    { intros e He. destruct (elem_good k es e (conj Hw (conj Hr Hc)) He) as (d & ps & -> & Ge). exact (H _ He Ge). }
    pose proof (norm_ranged _ Hr) as R.
    destruct k; cbn [norm skel]; cbn [norm ranged] in R.
    2-5: (* a primitive element: [skel] asks what [ranged] says of the normal form *)
      apply forallb_forall; intros y Hy; pose proof (forallb_In _ _ _ R Hy) as Ry;
      rewrite map_map in Hy; apply in_map_iff in Hy; destruct Hy as (e & <- & _);
      cbn [forallb] in Ry; rewrite !andb_true_r in Ry; exact Ry.
    + rewrite map_map. apply forallb_forall. intros y Hy. apply in_map_iff in Hy. destruct Hy as (e & <- & _). reflexivity.
    + (* pointer list *)
      apply forallb_forall. intros y Hy. rewrite map_map in Hy. apply in_map_iff in Hy. destruct Hy as (e & <- & He).
      exact (forallb_hd_ptr skel _ eq_refl (G e He)).
    + (* struct list *)
      rewrite max_len_pad_elems_d, max_len_pad_elems_p.
      apply forallb_forall. intros y Hy. unfold pad_elems in Hy. rewrite map_map in Hy. apply in_map_iff in Hy.
      destruct Hy as (e & <- & He).
      rewrite pad0_length, padN_length, !Nat.eqb_refl by (apply length_le_max_len, in_map, He).
      apply forallb_padN; [reflexivity| exact (G e He)].
Qed.

(* ------------------------------------------------------------------ all output words are 64-bit *)
Definition w64 (x : Z) : Prop := 0 <= x < two64.

Lemma struct_word_w64 o dn pn : 0 <= dn < two16 -> 0 <= pn < two16 -> w64 (struct_word o dn pn).
Proof.
  intros Hd Hp. unfold w64, struct_word, two64, two16, two30, two32, two48 in *.
  assert (0 <= o mod 1073741824 < 1073741824) by (apply Z.mod_pos_bound; lia). lia.
Qed.

Lemma list_word_w64 o k n : 0 <= k < 8 -> 0 <= n < two29 -> w64 (list_word o k n).
Proof.
  intros Hk Hn. unfold w64, list_word, two64, two29, two30, two32, two35 in *.
  assert (0 <= o mod 1073741824 < 1073741824) by (apply Z.mod_pos_bound; lia). lia.
Qed.

Lemma pack_word_bound B c : 1 < B -> digits_ok B c -> 0 <= pack_word B c < B ^ Z.of_nat (length c).
Proof.
  intros HB. induction c as [|d r IH]; intros H; [cbn; lia|].
  inversion H as [|? ? Hd Hr]; subst. specialize (IH Hr). cbn [pack_word length].
  rewrite Nat2Z.inj_succ, Z.pow_succ_r by lia. nia.
Qed.

Lemma pack_word_w64 B per c : 1 < B -> B ^ Z.of_nat per = two64 -> (length c <= per)%nat -> digits_ok B c ->
  w64 (pack_word B c).
Proof.
  intros HB HP L H. pose proof (pack_word_bound B c HB H) as Hb. unfold w64.
  assert (B ^ Z.of_nat (length c) <= B ^ Z.of_nat per) by (apply Z.pow_le_mono_r; lia). lia.
Qed.

Lemma pack_all_w64 B per : 1 < B -> B ^ Z.of_nat per = two64 -> forall fuel ds, digits_ok B ds ->
  Forall w64 (pack_all fuel B per ds).
Proof.
  intros HB HP. induction fuel as [|f IH]; intros ds H; [constructor|].
  destruct ds as [|d r]; [constructor|]. cbn [pack_all]. constructor.
  - apply (pack_word_w64 B per); try assumption; [rewrite firstn_length; lia| apply digits_ok_firstn; assumption].
  - apply IH, digits_ok_skipn, H.
Qed.

(* the first data words of the elements of a ranged primitive list are digits of its base *)
Lemma ranged_digits k es : ranged (VList k es) = true -> k <> LComp ->
  digits_ok (kind_base k) (map (fun e => hd_word (sdata e)) es).
Proof.
  intros H Hk. apply Forall_forall. intros z Hz. apply in_map_iff in Hz. destruct Hz as (e & <- & He).
  destruct (ranged_elem k es e H He) as [R _]. pose proof (forallb_hd_word (fits k) _ (fits_0 k) R) as Rz.
  unfold fits in Rz. destruct k; try contradiction; lia.
Qed.

Definition cell_ok (c : cell) : Prop := match c with CW w => w64 w | CP v => ranged v = true end.

Lemma enc_cells_w64 ev cs :
  (forall v pos cur w body, ranged v = true -> ev v pos cur = COk (w, body) -> w64 w /\ Forall w64 body) ->
  Forall cell_ok cs -> forall pos cur b k, enc_cells ev cs pos cur = COk (b, k) -> Forall w64 b /\ Forall w64 k.
Proof.
  intros Hev. induction 1 as [|c cs Hc Hcs IH]; intros pos cur b k H.
  - cbn in H. inversion H. split; constructor.
  - destruct c as [w|v]; cbn [enc_cells] in H.
    + destruct (enc_cells ev cs (pos + 1) cur) as [[b' k']| | |] eqn:E; try discriminate.
      cbn in H. inversion H; subst. destruct (IH _ _ _ _ E) as [I1 I2].
      split; [constructor; assumption| assumption].
    + destruct (ev v pos cur) as [[w0 body]| | |] eqn:E0; try discriminate. cbn [cbind fst snd] in H.
      destruct (enc_cells ev cs (pos + 1) (cur + zlen body)) as [[b' k']| | |] eqn:E; try discriminate.
      cbn in H. inversion H; subst.
      destruct (Hev v pos cur w0 body Hc E0) as [W0 WB]. destruct (IH _ _ _ _ E) as [I1 I2].
      split; [constructor; assumption| apply Forall_app; split; assumption].
Qed.

Lemma struct_cells_ok d ps : ranged (VStruct d ps) = true -> Forall cell_ok (struct_cells d ps).
Proof.
  intros H. cbn [ranged] in H. apply andb_prop in H. destruct H as [Hd Hp].
  unfold struct_cells. apply Forall_app. split; apply Forall_forall; intros c Hc; apply in_map_iff in Hc;
    destruct Hc as (x & <- & Hx); cbn [cell_ok].
  - pose proof (forallb_In _ _ _ Hd Hx). unfold w64. lia.
  - exact (forallb_In _ _ _ Hp Hx).
Qed.

Theorem enc_w64 : forall f v pos cur w body, ranged v = true -> enc f v pos cur = COk (w, body) ->
  w64 w /\ Forall w64 body.
Proof.
  induction f as [|f IH]; intros v pos cur w body Hr H; [discriminate|].
  destruct v as [|c|d ps|k es|bs]; cbn [enc] in H; try discriminate.
  - inversion H; subst. split; [unfold w64, two64; lia| constructor].
  - (* struct *)
    assert (Hzd : 0 <= zlen d) by (unfold zlen; lia). assert (Hzp : 0 <= zlen ps) by (unfold zlen; lia).
    destruct ((zlen d =? 0) && (zlen ps =? 0)).
    + inversion H; subst. split; [apply struct_word_w64; unfold two16; lia| constructor].
    + destruct ((zlen d >=? two16) || (zlen ps >=? two16) || (cur - pos - 1 >=? two29)) eqn:E1; [discriminate|].
      destruct (enc_cells (enc f) (struct_cells d ps) cur (cur + zlen d + zlen ps)) as [[b k]| | |] eqn:E; try discriminate.
      cbn in H. inversion H; subst. split; [apply struct_word_w64; lia|].
      apply Forall_app. exact (enc_cells_w64 _ _ IH (struct_cells_ok d ps Hr) _ _ _ _ E).
  - (* lists *)
    assert (Hz : 0 <= zlen es) by (unfold zlen; lia).
    destruct ((zlen es >=? two29) || (cur - pos - 1 >=? two29)) eqn:E1; [discriminate|].
    assert (Hn : 0 <= zlen es < two29) by lia.
    destruct k.
    2-5: (* primitive widths *)
      injection H as <- <-; split; [apply list_word_w64; [cbn; lia| assumption]|];
      unfold pack; apply pack_all_w64; [lia| reflexivity| exact (ranged_digits _ es Hr ltac:(discriminate))].
    + inversion H; subst. split; [apply list_word_w64; [lia|assumption]| constructor].
    + (* pointer list *)
      destruct (enc_cells (enc f) (map (fun e => CP (hd_ptr (sptrs e))) es) cur (cur + zlen es)) as [[b k]| | |] eqn:E;
        try discriminate.
      cbn in H. inversion H; subst. split; [apply list_word_w64; [lia|assumption]|].
      apply Forall_app. refine (enc_cells_w64 _ _ IH _ _ _ _ _ E).
      apply Forall_forall. intros c Hc. apply in_map_iff in Hc. destruct Hc as (e & <- & He).
      destruct (ranged_elem _ _ _ Hr He) as [_ R]. exact (forallb_hd_ptr ranged _ eq_refl R).
    + (* struct list *)
      set (dn := Z.of_nat (max_len sdata es)) in *. set (pn := Z.of_nat (max_len sptrs es)) in *.
      destruct ((dn >=? two16) || (pn >=? two16) || (zlen es * (dn + pn) >=? two29)) eqn:E2; [discriminate|].
      assert (HW : 0 <= zlen es * (dn + pn) < two29) by nia.
      destruct (enc_cells _ _ _ _) as [[b k]| | |] eqn:E in H; try discriminate.
      cbn in H. inversion H; subst. split; [apply list_word_w64; [lia|assumption]|].
      apply Forall_app. refine (enc_cells_w64 _ _ IH _ _ _ _ _ E).
      constructor; [cbn; apply struct_word_w64; lia|].
      apply Forall_forall. intros c Hc. apply in_flat_map in Hc. destruct Hc as (e & He & Hc).
      revert c Hc. apply Forall_forall, struct_cells_ok. destruct (ranged_elem _ _ _ Hr He) as [R1 R2].
      cbn [ranged]. rewrite (forallb_pad0 _ _ _ eq_refl R1), (forallb_padN _ _ _ eq_refl R2). reflexivity.
  - (* bits *)
    destruct ((zlen bs >=? two29) || (cur - pos - 1 >=? two29)) eqn:E1; [discriminate|].
    assert (Hz : 0 <= zlen bs) by (unfold zlen; lia).
    inversion H; subst. split; [apply list_word_w64; lia|].
    unfold pack. apply (pack_all_w64 2 64); [lia| reflexivity| apply bits_digits].
Qed.

(* ------------------------------------------------------------------ bytes <-> words *)
Lemma words_of_bytes_of_words ws : Forall w64 ws -> words_of_bytes (bytes_of_words ws) = ws.
Proof.
  induction 1 as [|w r Hw Hr IH]; [reflexivity|].
  unfold bytes_of_words in *. cbn [flat_map].
  pose proof (le_decode_encode 8 w Hw) as E. cbn [le_encode] in *. cbn [app words_of_bytes]. rewrite E, IH. reflexivity.
Qed.

(* ------------------------------------------------------------------ [T1] the canonical form decodes *)
(* for every well-formed, capability-free value with in-range fields: the strict pre-order
   decoder accepts the canonical BYTES and returns exactly the canonical representative
   norm v, which is equal (value_eqs, hence value_eq) to v *)
Theorem cdecode_canon : forall v bs, good v -> canon v = Some bs ->
  cdecode (S (vdepth (norm v))) bs = Some (norm v).
Proof.
  intros v bs G H. unfold canon, canon_words in H.
  destruct (enc (S (vdepth (norm v))) (norm v) 0 1) as [[w body]| | |] eqn:E; try discriminate.
  cbn [cbind fst snd] in H. assert (Hbs : bs = bytes_of_words (w :: body)) by congruence. subst bs. clear H.
  destruct G as (Gw & Gr & Gc).
  destruct (enc_w64 _ _ _ _ _ _ (norm_ranged v Gr) E) as [W0 WB].
  unfold cdecode. rewrite bytes_of_words_length.
  replace ((8 * length (w :: body)) mod 8 =? 0)%nat with true
    by (symmetry; apply Nat.eqb_eq; rewrite Nat.mul_comm; apply Nat.mod_mul; discriminate).
  rewrite words_of_bytes_of_words by (constructor; assumption).
  unfold cdecode_words.
  pose proof (cparse_enc_partial _ _ _ _ _ _ [] (norm_skel v (conj Gw (conj Gr Gc))) E) as P.
  rewrite app_nil_r in P. rewrite P. reflexivity.
Qed.

Corollary canon_decodes_equal : forall v bs, good v -> canon v = Some bs ->
  exists v', cdecode (S (vdepth (norm v))) bs = Some v' /\ value_eqs v' v = true /\ value_eq v' v = true.
Proof.
  intros v bs G H. exists (norm v). split; [apply cdecode_canon; assumption|].
  destruct G as (Gw & _). pose proof (norm_veq v Gw) as E. split; [exact E| apply value_eqs_value_eq; exact E].
Qed.

(* Canonicalising what the decoder read back from a canonical message returns the same bytes *)
Theorem canon_idempotent : forall v bs v', good v -> canon v = Some bs ->
  cdecode (S (vdepth (norm v))) bs = Some v' -> canon v' = Some bs.
Proof.
  intros v bs v' G H D. rewrite (cdecode_canon v bs G H) in D. inversion D; subst v'.
  rewrite canon_of_norm. exact H.
Qed.
