(* C16 [T2] copy_value: writePtr (P_cs f -> P_wp (S f)), all fuels, closed statements *)
From CV Require Import Value.ValueEq Value.ValueEqProofs Value.EqualM Value.Den Value.DenFacts Value.DenLists
                       Value.CanonSpec Value.CanonProofs3 Value.CanonM Value.CanonMStruct Value.CanonMData Value.CanonMHeap
                       Value.CanonMLoop Value.CanonMInd Value.CanonMBytes Value.CanonMBlocks Value.CopyValue Value.CopyValueHeap Value.CopyValueDefs Value.CopyValueCs Value.CopyValueLists Value.CopyValueComp.
From CV Require Import Core.ReaderFacts Core.SafetyProofs Core.BuilderFacts Core.ArithFacts Core.CopySafe Core.WritePtrProofs.
From Coq Require Import ZifyBool ZifyNat.
Ltac Zify.zify_post_hook ::= Z.div_mod_to_equations.
Open Scope Z_scope.

Section Copy.
Context (m : segs) (Hm : msg_ok m).

Lemma wp_struct f : CopyValueDefs.P_cs m f -> forall D cap rl a src ws vs fc w',
  hinv D -> 0 <= a -> a mod 8 = 0 -> a + 8 <= zlen D ->
  wf_ptr m src -> aligned src -> den true m 0 [] src (VStruct ws vs) -> forallb cvdom vs = true ->
  write_ptr (S f) true (dstw D cap m rl) 0 a InSrc src fc = Ok w' ->
  exists word body cap' rl',
    w' = dstw (put_word D a word ++ body) cap' m rl' /\ hinv (D ++ body) /\ bytes_ok body /\
    forall pre' tail, zlen pre' = zlen D -> word_is pre' a word -> zlen (pre' ++ body ++ tail) <= BOUND ->
      reads_as (pre' ++ body ++ tail) a (VStruct ws vs).
Proof.
  intros HC D cap rl a src ws vs fc w' Hi Ha Ham Hab Hwf Hal D0 Hsd H.
  pose proof Hi as [Hi1 Hi2]. pose proof (zlen_nonneg D) as Z0.
  destruct (den_struct_data _ _ _ _ _ _ _ Hm D0) as (Hv & Hk & [Wd Wp] & Lvs & B1 & B2 & E & Sl & Hbd & Ld & _).
  rewrite write_ptr_S, Hv, Hk in H. cbn [negb] in H.
  set (d := sub (seg_of m src) (p_off src) (DataSize (p_size src))) in *. subst ws.
  destruct (wob_aligned d Hbd ltac:(rewrite Ld; exact (Hal Hk))) as [_ Lws].
  set (ws := words_of_bytes d) in *.
  destruct (os_isZero (p_size src)) eqn:Ez.
  - (* the zero-sized struct: one inline word *)
    destruct (rawStructPointer (-1) (mkOS 0 0)) as [w0|] eqn:Ew0; [|vm_compute in Ew0; discriminate Ew0].
    cbn [of_opt_panic bind] in H. unfold lift0 in H. cbn [w_dst dstw] in H. rewrite writeRaw_seg0 in H by lia. cbn [bind] in H.
    apply Ok_inj in H. subst w'.
    unfold os_isZero in Ez.
    assert (Ews : ws = []) by (apply length_zero_iff_nil; unfold zlen in *; lia).
    assert (Evs : vs = []) by (apply length_zero_iff_nil; unfold zlen in *; lia).
    rewrite Ews, Evs.
    exists w0, [], cap, rl. rewrite !app_nil_r. split; [reflexivity|]. split; [exact Hi|]. split; [constructor|].
    intros pre' tail Lp Hw Hbound. cbn [app] in *. pose proof (zlen_nonneg tail) as Lt0. rewrite zlen_app in Hbound.
    exists 1, 0, (mkPtr true 0 a 0 (mkOS 0 0) (uint_dec 1) KStruct false false false), 0.
    split; [apply (read_empty_struct true (pre' ++ tail) a 1 0 w0 Ew0); try lia; try (rewrite zlen_app; unfold BOUND in *; lia);
            apply word_is_app; [lia|lia|exact Hw]|].
    apply (struct_den (pre' ++ tail) _ a 0 0 [] []); try reflexivity; try lia; try (rewrite zlen_app; lia);
      try constructor; intros i Hi0; lia.
  - (* a struct: allocate the source's sizes, copyStruct, place near *)
    replace (fc || is_src InSrc || p_member src) with true in H by (cbn [is_src]; rewrite Bool.orb_true_r; reflexivity).
    cbv zeta in H.
    set (dn := zlen ws) in *. set (pn := PointerCount (p_size src)) in *.
    assert (Bdn : 0 <= dn <= 65535) by lia.
    assert (Esz : p_size src = mkOS (8 * dn) pn) by (unfold pn; rewrite Lws, Ld; destruct (p_size src); reflexivity).
    rewrite (padToWord_mult (DataSize (p_size src))) in H by (pose proof (Hal Hk); lia).
    rewrite <- Ld, <- Lws in H. fold pn in H.
    assert (Ets : totalSize (mkOS (8 * dn) pn) = 8 * (dn + pn)) by (rewrite totalSize_wf by (split; cbn [DataSize PointerCount]; lia); cbn [DataSize PointerCount]; lia).
    rewrite Ets in H. cbn [w_dst dstw] in H.
    destruct (alloc (seg0 D cap) 0 (8 * (dn + pn))) as [[[m1 sid1] addr]| |] eqn:Ea; try discriminate H.
    destruct (alloc_seg0_end D cap (8 * (dn + pn)) m1 sid1 addr Ea) as (Hbound0 & cap1 & -> & -> & ->).
    rewrite (padToWord_mult (8 * (dn + pn))) in * by lia.
    cbn [bind] in H.
    set (dstp := mkPtr true 0 (zlen D) 0 (mkOS (8 * dn) pn) maxDepth KStruct false false false) in *.
    set (D1 := D ++ repeat 0 (Z.to_nat (8 * (dn + pn)))) in *.
    change (w_set_dst (dstw D cap m rl) (seg0 D1 cap1)) with (dstw D1 cap1 m rl) in H.
    destruct (copy_struct f true (dstw D1 cap1 m rl) dstp InSrc src) as [w2| |] eqn:Ec; try discriminate H.
    cbn [bind p_size p_seg p_off dstp] in H.
    assert (L1 : zlen D1 = zlen D + 8 * (dn + pn)) by (unfold D1; rewrite zlen_app, zlen_repeat; lia).
    destruct (HC D1 cap1 rl dstp src ws vs (zlen D) dn pn w2 ltac:(split; lia) ltac:(repeat split) Z0 Hi1 Bdn Wp ltac:(lia)
                 Hv Hk Hwf Hal D0 Hsd Ec) as (pwords & kids & cap2 & rl2 & Lp & -> & Hinv2 & Bk & PostC).
    replace (Z.to_nat dn) with (length ws) in * by (unfold dn, zlen; lia). rewrite resize_words_id in *.
    set (blk := ws ++ pwords) in *.
    assert (Lblk : zlen blk = dn + pn) by (unfold blk; rewrite zlen_app; lia).
    replace (set_slots D1 (zlen D) blk) with (D ++ bytes_of_words blk) in H.
    2:{ unfold D1. replace (Z.to_nat (8 * (dn + pn))) with (8 * length blk)%nat by (unfold zlen in Lblk; lia).
        symmetry. apply set_slots_end. }
    assert (Owf : os_wf (mkOS (8 * dn) pn)) by (unfold os_wf; cbn [DataSize PointerCount]; lia).
    destruct (struct_pointer_roundtrip 0 (mkOS (8 * dn) pn) ltac:(unfold off_ok; lia) Owf) as (raw & Eraw & _).
    rewrite Eraw, <- app_assoc in H. cbn [of_opt_panic bind] in H.
    pose proof (zlen_bow blk) as Lbb. pose proof (zlen_nonneg kids) as Lk0.
    refine (wp_finish m D _ cap2 rl2 a raw _ w' _ _ Ha Hab H _).
    { unfold hinv in *. rewrite !zlen_app in *. lia. }
    { apply Forall_app; split; [apply bow_bytes_ok|exact Bk]. }
    intros pre' tail Lp' Hbound HwM. rewrite <- app_assoc, app_assoc in *.
    set (M := (pre' ++ bytes_of_words blk) ++ kids ++ tail) in *.
    pose proof (zlen_nonneg tail) as Lt0.
    assert (LM : zlen M = zlen D + 8 * (dn + pn) + zlen kids + zlen tail) by (unfold M; rewrite !zlen_app; lia).
    assert (Hblock : sub (pre' ++ bytes_of_words blk) (zlen D) (8 * (dn + pn)) = bytes_of_words blk)
      by (rewrite <- Lp', <- Lblk, <- Lbb; apply sub_end).
    set (q := mkPtr true 0 (zlen D) 0 (mkOS (8 * dn) pn) (uint_dec 1) KStruct false false false).
    exists 1, (8 * (dn + pn)), q, (8 * (dn + pn) - totalSize (mkOS (8 * dn) pn)). split.
    { apply (read_near_struct true M a (zlen D) (mkOS (8 * dn) pn) raw 1 (8 * (dn + pn)) Owf); try lia; try assumption;
        unfold BOUND in *; try lia. unfold os_isZero in *. rewrite Esz in Ez. exact Ez. }
    apply (struct_den M q (zlen D) dn pn ws vs); try reflexivity; try lia; try exact Hbound.
    + apply wob_w64, Hbd.
    + unfold M. rewrite sub_app_l by (rewrite ?zlen_app; lia).
      apply (sub_bow_prefix _ _ ws pwords); [lia|]. fold dn. rewrite Lp. exact Hblock.
    + intros i Hi0.
      pose proof (PostC (pre' ++ bytes_of_words blk) tail ltac:(rewrite zlen_app; lia) Hblock Hbound i Hi0) as R.
      replace (Z.to_nat pn) with (length vs) in R by (unfold zlen in Lvs; lia).
      rewrite resize_ptrs_id in R. exact R.
Qed.

Lemma wp_step f : CopyValueDefs.P_cs m f -> CopyValueDefs.P_wp m (S f).
Proof.
  intros HC D cap rl a src v fc w' Hi Ha Ham Hab Hwf Hal Hcal Hctg D0 Hsd H.
  pose proof Hi as [Hi1 Hi2]. pose proof (zlen_nonneg D) as Z0.
  destruct v as [| |ws vs|k vs|bits]; try discriminate Hsd.
  - pose proof (den_is_null _ _ _ _ _ _ D0) as Hv. symmetry in Hv. apply Bool.negb_true_iff in Hv.
    rewrite write_ptr_S, Hv in H. cbn [negb] in H.
    unfold lift0 in H. cbn [w_dst dstw] in H. rewrite writeRaw_seg0 in H by lia. cbn [bind] in H.
    apply Ok_inj in H. subst w'.
    exists 0, [], cap, rl. rewrite !app_nil_r. split; [reflexivity|]. split; [exact Hi|]. split; [constructor|].
    intros pre' tail Lp Hw Hbound. cbn [app] in *. pose proof (zlen_nonneg tail). rewrite zlen_app in Hbound.
    apply reads_null; [exact Ha|rewrite zlen_app; lia|rewrite zlen_app; lia|apply word_is_app; [lia|lia|exact Hw]].
  - apply (wp_struct f HC D cap rl a src ws vs fc w'); assumption.
  - destruct k; try discriminate Hsd;
      try (apply (wp_raw_list m Hm f D cap rl a src (VList _ vs) fc w'); try assumption; split; discriminate).
    + apply (wp_ptr_list m Hm f HC D cap rl a src vs fc w'); assumption.
    + apply (wp_comp_list m Hm f HC D cap rl a src vs fc w'); assumption.
  - apply (wp_raw_list m Hm f D cap rl a src (VBits bits) fc w'); try assumption. exact I.
Qed.

Theorem P_all : forall f, CopyValueDefs.P_wp m f /\ CopyValueDefs.P_cs m f.
Proof.
  induction f as [|f [IHw IHc]].
  - split.
    + intros D cap rl a src v fc w' _ _ _ _ _ _ _ _ _ _ H. discriminate H.
    + intros D cap rl dst s ws vs A dn pn w' _ _ _ _ _ _ _ _ _ _ _ _ _ H. discriminate H.
  - split; [apply wp_step; exact IHc| apply (CopyValueCs.cs_step m Hm); exact IHw].
Qed.


End Copy.

(* SetPtr / SetRoot / PointerList.Set of a pointer of another message (deep copy): afterwards the
   slot reads as a pointer denoting the source's value *)
Theorem copy_value_ptr : forall m f D cap rl a src v fc w',
  msg_ok m -> hinv D -> 0 <= a -> a mod 8 = 0 -> a + 8 <= zlen D ->
  wf_ptr m src -> aligned src -> caligned src -> ctag_ok m src -> den true m 0 [] src v -> cvdom v = true ->
  write_ptr f true (dstw D cap m rl) 0 a InSrc src fc = Ok w' ->
  exists D' cap' rl', w' = dstw D' cap' m rl' /\ hinv D' /\ (bytes_ok D -> bytes_ok D') /\ reads_as D' a v.
Proof.
  intros m f D cap rl a src v fc w' Hm Hi Ha Ham Hab Hwf Hal Hcal Hctg D0 Hsd H.
  destruct (P_all m Hm f) as [HW _].
  destruct (HW D cap rl a src v fc w' Hi Ha Ham Hab Hwf Hal Hcal Hctg D0 Hsd H) as (word & body & cap' & rl' & -> & Hinv & Bb & Post).
  assert (Lp : zlen (put_word D a word) = zlen D) by (apply put_word_length; lia).
  exists (put_word D a word ++ body), cap', rl'. split; [reflexivity|].
  assert (Hinv' : hinv (put_word D a word ++ body)) by (unfold hinv in *; rewrite zlen_app in *; rewrite Lp; exact Hinv).
  split; [exact Hinv'|].
  split.
  { intros HbD. apply Forall_app. split; [rewrite <- set_slots_one; apply set_slots_bytes_ok; exact HbD|exact Bb]. }
  specialize (Post (put_word D a word) [] Lp). rewrite app_nil_r in Post. apply Post.
  - unfold word_is, put_word, sub. rewrite skipn_app, skipn_all2 by (rewrite firstn_length; unfold zlen in *; lia).
    rewrite firstn_length. replace (Z.to_nat a - Nat.min (Z.to_nat a) (length D))%nat with 0%nat by (unfold zlen in *; lia).
    cbn [skipn app]. rewrite firstn_app, firstn_all2 by (rewrite le_encode_length; lia).
    rewrite le_encode_length. cbn [Z.to_nat Pos.to_nat Pos.iter_op Nat.add Nat.sub firstn]. apply app_nil_r.
  - destruct Hinv' as [_ X]. exact X.
Qed.

(* copyStruct into an existing struct (List.SetStruct, Struct.CopyFrom; version skew in either
   direction): the destination struct afterwards denotes the source's value resized to the
   destination's section sizes *)
Theorem copy_value_struct : forall m f D cap rl dst s ws vs A dn pn w',
  msg_ok m -> hinv D -> dst_at dst A dn pn -> p_kind dst = KStruct -> 0 <= A -> A mod 8 = 0 -> 0 <= dn <= 65535 -> 0 <= pn < 65536 ->
  A + 8 * dn + 8 * pn <= zlen D ->
  p_valid s = true -> p_kind s = KStruct -> wf_ptr m s -> aligned s ->
  den true m 0 [] s (VStruct ws vs) -> forallb cvdom vs = true ->
  copy_struct f true (dstw D cap m rl) dst InSrc s = Ok w' ->
  exists D' cap' rl', w' = dstw D' cap' m rl' /\ hinv D' /\ (bytes_ok D -> bytes_ok D') /\
    forall mid caps, den true [D'] mid caps dst (resize (VStruct ws vs) (Z.to_nat dn) (Z.to_nat pn)).
Proof.
  intros m f D cap rl dst s ws vs A dn pn w' Hm Hi Hdst Hkd HA HAm Hdn Hpn Hb Hv Hk Hwf Hal D0 Hsd H.
  destruct (P_all m Hm f) as [_ HC].
  destruct (HC D cap rl dst s ws vs A dn pn w' Hi Hdst HA HAm Hdn Hpn Hb Hv Hk Hwf Hal D0 Hsd H)
    as (pwords & kids & cap' & rl' & Lp & -> & Hinv & Bk & Post).
  set (blk := resize_words ws (Z.to_nat dn) ++ pwords) in *.
  assert (Lblk : zlen blk = dn + pn) by (unfold blk; rewrite zlen_app; unfold zlen; rewrite resize_words_length; unfold zlen in Lp; lia).
  assert (Ls : zlen (set_slots D A blk) = zlen D) by (apply set_slots_length; [lia|unfold zlen in *; lia]).
  exists (set_slots D A blk ++ kids), cap', rl'. split; [reflexivity|].
  assert (Hinv' : hinv (set_slots D A blk ++ kids)) by (unfold hinv in *; rewrite zlen_app in *; rewrite Ls; exact Hinv).
  split; [exact Hinv'|].
  split.
  { intros HbD. apply Forall_app. split; [apply set_slots_bytes_ok; exact HbD|exact Bk]. }
  assert (Hsub : sub (set_slots D A blk) A (8 * (dn + pn)) = bytes_of_words blk).
  { rewrite <- Lblk. apply sub_set_slots; [lia|unfold zlen in *; lia]. }
  specialize (Post (set_slots D A blk) [] Ls Hsub). rewrite app_nil_r in Post.
  destruct Hdst as (Dv & Dseg & Doff & Dsz). destruct Hinv' as [_ Hbnd].
  cbn [resize]. destruct Hi as [_ Hi2].
  destruct (den_struct_data _ _ _ _ _ _ _ Hm D0) as (_ & _ & _ & Lvs & _ & _ & -> & _ & Hbd & _).
  apply (struct_den _ dst A dn pn); try assumption; try lia.
  - rewrite zlen_app, Ls. assert (0 <= zlen kids) by (unfold zlen; lia). lia.
  - unfold zlen. rewrite resize_words_length. lia.
  - unfold resize_words. apply Forall_app. split.
    + apply Forall_firstn'. apply wob_w64, Hbd.
    + apply Forall_forall. intros x Hx. apply repeat_spec in Hx. subst x. split; [lia|reflexivity].
  - rewrite sub_app_l by (rewrite ?Ls; lia).
    unfold blk in Hsub. set (dws := resize_words _ _) in *.
    assert (Ldw : zlen dws = dn) by (unfold dws, zlen; rewrite resize_words_length; lia).
    rewrite <- Ldw. apply (sub_bow_prefix _ _ dws pwords); [lia|]. rewrite Ldw, Lp. exact Hsub.
  - unfold zlen. rewrite resize_ptrs_length. lia.
  - intros i Hi0. apply Post; [exact Hbnd|exact Hi0].
Qed.

