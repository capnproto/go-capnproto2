(* C18 [T2]: pointer-free structs with arbitrary data.  Canonicalize of a struct all
   of whose pointers read null returns the root pointer followed by the data section truncated
   of trailing zero words -- the specification's canonical form of the denoted value. *)
From CV Require Import Value.ValueEq Value.ValueEqProofs Value.EqualM Value.Den Value.DenFacts Value.DenLists
                       Value.CanonSpec Value.CanonProofs Value.CanonProofs3 Value.CanonM Value.CanonMStruct Value.CanonMWords.
From CV Require Import Core.ReaderFacts Core.SafetyProofs Core.BuilderFacts Core.ArithFacts Core.CopySafe.
From Coq Require Import ZifyBool ZifyNat.
Ltac Zify.zify_post_hook ::= Z.div_mod_to_equations.
Open Scope Z_scope.

Definition m0 : bmsg := mkBM ASingle [mkBS (repeat 0 8%nat) 1024] [] 0.
Definition seg0 (data : list Z) (cap : Z) : bmsg := mkBM ASingle [mkBS data cap] [] 0.

Lemma padToWord_mult x : 0 <= x <= 4294967288 -> x mod 8 = 0 -> padToWord x = x.
Proof. intros. unfold padToWord, u32. lia. Qed.

(* the first allocation after NewMessage(SingleSegment(nil)): zeros appended at address 8 *)
Lemma alloc_m0 sz : 0 < sz <= 524280 -> sz mod 8 = 0 ->
  exists cap', alloc m0 0 sz = Ok (seg0 (repeat 0 8%nat ++ repeat 0 (Z.to_nat sz)) cap', 0, 8).
Proof.
  intros Hs Hm. unfold alloc. unfold maxAllocSize, maxSegmentSize.
  destruct (sz >? 4294967288) eqn:E0; [lia|]. rewrite (padToWord_mult sz) by lia.
  change (get_seg m0 0) with (mkBS (repeat 0 8%nat) 1024).
  unfold hasCapacity. change (blen (mkBS (repeat 0 8%nat) 1024)) with 8. cbn [bs_cap].
  change (u32 (1024 - 8)) with 1016.
  destruct (sz <=? 1016) eqn:E1.
  - cbn [bind]. change (get_seg m0 0) with (mkBS (repeat 0 8%nat) 1024). change (blen (mkBS (repeat 0 8%nat) 1024)) with 8.
    unfold addSize, maxSegmentSize. destruct (8 + sz >? 4294967288) eqn:E2; [lia|].
    exists 1024. reflexivity.
  - unfold allocSegment, maxAllocSize, maxSegmentSize. rewrite E0. cbn [bm_arena m0].
    change (get_seg m0 0) with (mkBS (repeat 0 8%nat) 1024). change (blen (mkBS (repeat 0 8%nat) 1024)) with 8.
    change (negb (8 mod 8 =? 0)) with false. cbv iota.
    unfold hasCapacity. change (blen (mkBS (repeat 0 8%nat) 1024)) with 8. cbn [bs_cap].
    change (u32 (1024 - 8)) with 1016. rewrite E1.
    unfold nextAlloc, maxAllocSize, maxSegmentSize. destruct (sz =? 0) eqn:E3; [lia|]. rewrite E0.
    rewrite (padToWord_mult sz) by lia. cbv zeta.
    assert (S1 : s64 (8 + sz) = 8 + sz) by (unfold s64; cbv zeta; destruct (_ <? _) eqn:E; lia).
    rewrite S1. change (s64 (8 + 8)) with 16.
    destruct ((8 + sz <=? 8) || (8 + sz >? 4294967288)) eqn:E4; [lia|].
    destruct (8 + sz <? 1024) eqn:E5; [lia|]. destruct (8 + sz >? 16) eqn:E6; [|lia].
    cbn [bind]. cbn [bs_data bs_cap].
    change (get_seg (put_seg m0 0 (mkBS (repeat 0 8%nat) (1024 + sz))) 0) with (mkBS (repeat 0 8%nat) (1024 + sz)).
    change (blen (mkBS (repeat 0 8%nat) (1024 + sz))) with 8.
    unfold addSize, maxSegmentSize. destruct (8 + sz >? 4294967288) eqn:E2; [lia|].
    exists (1024 + sz). reflexivity.
Qed.

Lemma zlen_le_encode8 v : zlen (le_encode 8 v) = 8.
Proof. unfold zlen. rewrite le_encode_length. reflexivity. Qed.

Definition rootp (k : Z) : Ptr := mkPtr true 0 8 0 (mkOS (8 * k) 0) maxDepth KStruct false false false.

Lemma newStruct_m0 k : 0 < k <= 65535 ->
  exists cap', newStruct m0 0 (mkOS (8 * k) 0)
               = Ok (seg0 (repeat 0 8%nat ++ repeat 0 (Z.to_nat (8 * k))) cap', rootp k).
Proof.
  intros Hk. unfold newStruct, os_isValid. cbn [DataSize PointerCount].
  destruct (8 * k <=? 65535 * 8) eqn:E; [|lia]. cbn [negb].
  rewrite (padToWord_mult (8 * k)) by lia.
  replace (totalSize (mkOS (8 * k) 0)) with (8 * k) by (unfold totalSize, pointerSize, u32; cbn [DataSize PointerCount]; lia).
  destruct (alloc_m0 (8 * k) ltac:(lia) ltac:(lia)) as (cap' & ->). cbn [bind]. exists cap'. reflexivity.
Qed.

Lemma os_wf_data k : 0 < k <= 65535 -> os_wf (mkOS (8 * k) 0).
Proof. intros. unfold os_wf. cbn [DataSize PointerCount]. lia. Qed.

(* Message.SetRoot(root) where root is the struct at address 8 of the single segment *)
Lemma set_root_seg0 k hdr rest cap src rl : 0 < k <= 65535 -> length hdr = 8%nat ->
  zlen (hdr ++ rest) < 4294967296 ->
  set_root 4 (mkW (seg0 (hdr ++ rest) cap) src rl) InDst (rootp k)
  = Ok (mkW (seg0 (le_encode 8 (struct_word 0 k 0) ++ rest) cap) src rl).
Proof.
  intros Hk Hh Hl. unfold set_root, set_root_gen. cbn [w_dst seg0 bm_segs bs_data].
  assert (Z8 : 8 <= zlen (hdr ++ rest)) by (unfold zlen; rewrite app_length; lia).
  unfold regionInBounds, addSize, maxSegmentSize. cbn [Z.add]. change (8 >? 4294967288) with false. cbv iota.
  destruct (8 <=? zlen (hdr ++ rest)) eqn:E; [|lia]. cbn [negb].
  rewrite (write_ptr_S 3). cbn [rootp p_valid p_kind p_size p_member p_seg p_off negb is_src orb].
  unfold os_isZero. cbn [DataSize PointerCount]. destruct (8 * k =? 0) eqn:E0; [lia|]. cbn [andb].
  cbn [bind]. cbv beta iota. cbn [rootp p_size p_seg p_off]. rewrite (raw_struct_is_struct_word 0 _ (os_wf_data k Hk)). cbn [of_opt_panic bind DataSize PointerCount].
  unfold place. cbn [w_dst Z.eqb]. 
  change (nearPointerOffset 0 8) with 0.
  pose proof (placed_struct_word 0 _ _ (os_wf_data k Hk) (raw_struct_is_struct_word 0 _ (os_wf_data k Hk))) as PW.
  cbn [DataSize PointerCount] in PW. rewrite PW.
  replace (8 * k / 8) with k by lia.
  unfold writeRawPointer, seg_write. change (get_seg (seg0 (hdr ++ rest) cap) 0) with (mkBS (hdr ++ rest) cap).
  unfold addSizeUnchecked, u32. rewrite (zlen_le_encode8 (struct_word 0 k 0)).
  change ((0 + 8) mod 4294967296) with 8. unfold blen. cbn [bs_data bs_cap].
  destruct ((0 <=? 0) && (0 <=? 8) && (8 <=? zlen (hdr ++ rest))) eqn:E1; [|lia].
  unfold lift0. cbn [bind w_set_dst w_src w_src_rl]. f_equal. f_equal. unfold put_seg, seg0. cbn [bm_arena bm_segs bm_caps bm_rl set_nth Z.to_nat].
  f_equal. f_equal. f_equal.
  unfold write_bytes. cbn [Z.to_nat firstn app]. rewrite le_encode_length. cbn [Nat.add].
  rewrite <- Hh, skipn_app, Nat.sub_diag, skipn_all. reflexivity.
Qed.

(* fillCanonicalStruct(root, s) for a pointer-free root: the first 8k data bytes are copied *)
Lemma fill_data c fx f k hdr d cap src rl s : 0 < k <= 65535 -> length hdr = 8%nat ->
  slice (seg_of src s) (p_off s) (DataSize (p_size s)) = Ok d -> (Z.to_nat (8 * k) <= length d)%nat ->
  fill_canonical c fx (S f) (mkW (seg0 (hdr ++ repeat 0 (Z.to_nat (8 * k))) cap) src rl) (rootp k) s
  = KOk (mkW (seg0 (hdr ++ firstn (Z.to_nat (8 * k)) d) cap) src rl).
Proof.
  intros Hk Hh Sl Hd. cbn [fill_canonical].
  change (dst_seg _ (rootp k)) with (hdr ++ repeat 0 (Z.to_nat (8 * k))).
  change (src_seg _ s) with (seg_of src s). cbn [rootp p_off p_size DataSize PointerCount p_seg].
  set (z := repeat 0 (Z.to_nat (8 * k))).
  assert (Lz : length z = Z.to_nat (8 * k)) by (unfold z; apply repeat_length).
  rewrite slice_ok; try lia; try (unfold zlen; rewrite app_length; lia).
  replace (sub (hdr ++ z) 8 (8 * k)) with z.
  2:{ unfold sub. change (Z.to_nat 8) with 8%nat. rewrite <- Hh, skipn_app, Nat.sub_diag, skipn_all. cbn [app skipn].
      rewrite <- Lz. symmetry. apply firstn_all. }
  rewrite Sl. cbn [of_res kbind]. rewrite Lz, Nat.min_l by lia.
  set (bs := firstn (Z.to_nat (8 * k)) d).
  assert (Lb : length bs = Z.to_nat (8 * k)) by (unfold bs; rewrite firstn_length; lia).
  unfold seg_write. cbn [w_dst]. change (get_seg (seg0 (hdr ++ z) cap) 0) with (mkBS (hdr ++ z) cap).
  unfold addSizeUnchecked, u32, blen, zlen. cbn [bs_data bs_cap]. rewrite Lb, app_length, Lz, Hh.
  replace ((8 + Z.of_nat (Z.to_nat (8 * k))) mod 4294967296) with (8 + 8 * k) by lia.
  destruct ((0 <=? 8) && (8 <=? 8 + 8 * k) && (8 + 8 * k <=? Z.of_nat (8 + Z.to_nat (8 * k)))) eqn:E; [|lia].
  unfold lift0. cbn [bind of_res kbind w_set_dst w_src w_src_rl Z.to_nat iota seq map kfold].
  f_equal. f_equal. unfold put_seg, seg0. cbn [bm_arena bm_segs bm_caps bm_rl set_nth Z.to_nat]. f_equal. f_equal. f_equal.
  unfold write_bytes. change (Z.to_nat 8) with 8%nat. rewrite <- Hh, firstn_app, Nat.sub_diag, firstn_all. cbn [firstn]. rewrite app_nil_r.
  rewrite skipn_all2 by (rewrite app_length; lia). rewrite app_nil_r. reflexivity.
Qed.

Lemma strip0_firstn l : strip0 l = firstn (length (strip0 l)) l.
Proof.
  induction l as [|y r IH]; [reflexivity|]. cbn [strip0]. destruct (strip0 r) eqn:E.
  - destruct (y =? 0); reflexivity.
  - cbn [length] in *. change (firstn (S (S (length l))) (y :: r)) with (y :: firstn (S (length l)) r).
    f_equal. exact IH.
Qed.

Lemma strip0_length_le l : (length (strip0 l) <= length l)%nat.
Proof. rewrite (strip0_firstn l) at 1. rewrite firstn_length. lia. Qed.

Lemma bow_firstn : forall k ws, bytes_of_words (firstn k ws) = firstn (8 * k) (bytes_of_words ws).
Proof.
  induction k as [|k IH]; intros ws; [reflexivity|]. destruct ws as [|w r]; [reflexivity|].
  unfold bytes_of_words in *. cbn [firstn flat_map]. rewrite IH.
  replace (8 * S k)%nat with (length (le_encode 8 w) + 8 * k)%nat by (rewrite le_encode_length; lia).
  rewrite firstn_app_2. reflexivity.
Qed.

Lemma le_encode_decode : forall l, bytes_ok l -> le_encode (length l) (le_decode l) = l.
Proof.
  induction l as [|b r IH]; intros H; [reflexivity|]. inversion H as [|? ? Hb Hr]; subst.
  cbn [length le_encode le_decode]. f_equal.
  - set (x := le_decode r). clearbody x. lia.
  - replace ((b + 256 * le_decode r) / 256) with (le_decode r) by (set (x := le_decode r); clearbody x; lia).
    apply IH. assumption.
Qed.

Lemma bow_wob : forall d, bytes_ok d -> (length d mod 8 = 0)%nat -> bytes_of_words (words_of_bytes d) = d.
Proof.
  fix IH 1. intros d Hb Hl.
  destruct d as [|b0 [|b1 [|b2 [|b3 [|b4 [|b5 [|b6 [|b7 r]]]]]]]]; try reflexivity;
    try (exfalso; cbn [length] in Hl; cbv in Hl; discriminate).
  cbn [words_of_bytes]. unfold bytes_of_words. cbn [flat_map]. fold (bytes_of_words (words_of_bytes r)).
  assert (H8 : bytes_ok [b0; b1; b2; b3; b4; b5; b6; b7]).
  { unfold bytes_ok in *. repeat (inversion Hb as [|? ? ?h Hb']; subst; clear Hb; rename Hb' into Hb; constructor; [assumption|]).
    constructor. }
  pose proof (le_encode_decode _ H8) as E. cbn [length] in E. rewrite E.
  rewrite IH.
  - reflexivity.
  - unfold bytes_ok in *. repeat (inversion Hb as [|? ? ?h Hb']; subst; clear Hb; rename Hb' into Hb). assumption.
  - cbn [length] in Hl. replace (S (S (S (S (S (S (S (S (length r))))))))) with (length r + 1 * 8)%nat in Hl by lia.
    rewrite Nat.mod_add in Hl by discriminate. exact Hl.
Qed.

(* a struct pointer with whole-word data and the value it denotes: the data words are the bytes
   of the data section, the pointer values those of the pointer section *)
Lemma den_struct_aligned m mid caps s ws vs : msg_ok m -> den true m mid caps s (VStruct ws vs) ->
  p_valid s = true -> p_kind s = KStruct -> DataSize (p_size s) mod 8 = 0 ->
  exists d, ws = words_of_bytes d /\ slice (seg_of m s) (p_off s) (DataSize (p_size s)) = Ok d /\
    bytes_of_words ws = d /\ 8 * zlen ws = DataSize (p_size s) /\
    wf_size (p_size s) /\ zlen vs = PointerCount (p_size s) /\ kids_of m mid caps s vs.
Proof.
  intros Hm D Hv Hk Hal. destruct (den_struct_inv _ _ _ _ _ _ D Hv Hk) as (d & vs0 & Ev & Wz & Sl & Lvs & K).
  inversion Ev; subst ws vs0. exists d. split; [reflexivity|]. split; [exact Sl|]. pose proof Wz as [Wd _].
  destruct (slice_eq_sub _ _ (DataSize (p_size s)) _ (seg_of_ok m s Hm) ltac:(lia) Sl) as (Ed & B1 & B2).
  assert (Ld : zlen d = DataSize (p_size s)) by (rewrite Ed; apply sub_length; lia).
  assert (Eb : bytes_of_words (words_of_bytes d) = d).
  { apply bow_wob; [eapply slice_bytes_ok; eassumption|].
    apply Nat2Z.inj. rewrite Nat2Z.inj_mod. unfold zlen in Ld. rewrite Ld. exact Hal. }
  split; [exact Eb|]. split; [|split; [exact Wz|split; [exact Lvs|exact K]]].
  apply (f_equal (@length Z)) in Eb. rewrite bytes_of_words_length in Eb. unfold zlen in *. lia.
Qed.

Lemma enc_cells_words ev d pos cur : enc_cells ev (map CW d) pos cur = COk (d, []).
Proof.
  revert pos. induction d as [|w r IH]; intros pos; [reflexivity|].
  cbn [map enc_cells]. rewrite IH. reflexivity.
Qed.

Theorem canon_m_data_struct : forall c fx fuel m rl s v,
  cfg_strict c = true -> all_cfixed fx -> msg_ok m -> wf_ptr m s ->
  p_valid s = true -> p_kind s = KStruct -> DataSize (p_size s) mod 8 = 0 ->
  den true m 0 [] s v ->
  (exists ws vs, v = VStruct ws vs /\ forallb is_null vs = true) ->
  exists bs, canonicalize c fx (S fuel) m rl s = (KOk bs, rl) /\ canon v = Some bs.
Proof.
  intros c fx fuel m rl s v Hs Hfx Hm Hwf Hv Hk Hal D (ws & vs & -> & Hn).
  destruct (canonicalStructSize_spec m 0 [] s _ Hm Hwf Hv Hk Hal D) as (ws' & vs' & E & Hcss).
  inversion E; subst ws' vs'; clear E.
  destruct (den_struct_aligned m _ _ s ws vs Hm D Hv Hk Hal) as (d & _ & Sl & Ebw & Lws & [Wd _] & _ & _).
  set (tw := strip0 ws) in *.
  destruct tw as [|w0 tr] eqn:Etw.
  { (* all data zero: the all-default case *)
    destruct (canon_m_default_struct_partial c fx fuel m rl s _ Hs Hfx Hm Hwf Hv Hk Hal D) as [C1 C2].
    - exists ws, vs. split; [reflexivity|]. split; [|exact Hn].
      apply all_zero_nth. intros i. pose proof (data_eq_strip0_self ws) as Hd. fold tw in Hd. rewrite Etw in Hd.
      change (data_eq [] ws) with (all_zero ws) in Hd. apply all_zero_nth. exact Hd.
    - exists empty_struct_msg. split; assumption. }
  assert (Hne : (0 < length tw)%nat) by (rewrite Etw; cbn; lia).
  rewrite <- Etw in *. clear Etw w0 tr.
  rewrite (stripN_all_null_nil vs Hn) in Hcss. change (zlen (@nil value)) with 0 in Hcss.
  pose proof (strip0_length_le ws) as Lk. fold tw in Lk.
  set (k := zlen tw) in *.
  assert (Hk0 : 0 < k <= 65535) by (unfold k, zlen in *; lia).
  assert (Hkd : (Z.to_nat (8 * k) <= length d)%nat) by (rewrite <- Ebw, bytes_of_words_length; unfold k, zlen in *; lia).
  exists (bytes_of_words (struct_word 0 k 0 :: tw)). split.
  - (* the model *)
    destruct Hfx as (_ & _ & Hfn & _).
    unfold canonicalize.
    replace (new_message ASingle [] 0) with (Ok m0) by (vm_compute; reflexivity).
    rewrite Hv. cbn [negb]. cbv zeta. rewrite Hfn, Hs, Hcss. cbn [of_res kbind].
    destruct (newStruct_m0 k Hk0) as (cap' & ->). unfold lift. cbn [bind of_res kbind].
    change (w_set_dst (mkW m0 m rl) (seg0 (repeat 0 8%nat ++ repeat 0 (Z.to_nat (8 * k))) cap'))
      with (mkW (seg0 (repeat 0 8%nat ++ repeat 0 (Z.to_nat (8 * k))) cap') m rl).
    rewrite (set_root_seg0 k (repeat 0 8%nat) _ cap' m rl Hk0 eq_refl)
      by (unfold zlen; rewrite app_length, !repeat_length; lia).
    cbn [of_res kbind].
    rewrite (set_root_seg0 k (le_encode 8 (struct_word 0 k 0)) _ cap' m rl Hk0 (le_encode_length 8 _))
      by (unfold zlen; rewrite app_length, le_encode_length, repeat_length; lia).
    cbn [of_res kbind].
    rewrite (fill_data c fx fuel k (le_encode 8 (struct_word 0 k 0)) d cap' m rl s Hk0 (le_encode_length 8 _) Sl Hkd).
    cbn [w_dst w_src_rl]. f_equal. f_equal.
    change (get_seg (seg0 _ cap') 0) with (mkBS (le_encode 8 (struct_word 0 k 0) ++ firstn (Z.to_nat (8 * k)) d) cap').
    cbn [bs_data]. unfold bytes_of_words at 1. cbn [flat_map]. fold (bytes_of_words tw). f_equal.
    unfold tw at 1. rewrite (strip0_firstn ws). fold tw. rewrite bow_firstn, Ebw.
    f_equal. unfold k, zlen. lia.
  - (* the specification *)
    unfold canon, canon_words. cbn [norm]. fold tw. rewrite (stripN_all_null vs Hn).
    cbn [vdepth fold_right]. cbn [enc]. fold k. change (zlen (@nil value)) with 0.
    destruct ((k =? 0) && (0 =? 0)) eqn:E0; [lia|].
    unfold two16, two29. destruct ((k >=? 65536) || (0 >=? 65536) || (1 - 0 - 1 >=? 536870912)) eqn:E1; [lia|].
    unfold struct_cells. cbn [map]. rewrite app_nil_r, enc_cells_words. cbn [cbind fst snd]. rewrite app_nil_r.
    reflexivity.
Qed.

