(* C17 totality: capnp.Equal (model Value/EqualM.v) ANSWERS -- returns (b, nil), never an error --
   whenever both pointers can be traversed within the depth limit and the traversal budgets.

   [trav strict m p d c]: every Struct.Ptr reachable from pointer p of message m succeeds, the
   nesting needs depth budget d and the read sizes of all pointers that can be dereferenced
   below p sum to at most c.  It is [den] (Value/Den.v) without the value and with the two
   measures: children of a struct are obtained by Segment.readPtr (some budget, some depth),
   elements of a non-bit list through their struct view [elem_ptr].
   Charge function: Equal charges, per message, exactly [readSize q] (Core/LimitProofs.v: struct =
   its total size, list = element size x length with a zero-sized element charged one word,
   capability / null = 0) for every pointer q handed out by Struct.Ptr on the common pointer
   slots it visits (EqualAcct.equal_mA is the instrumented model); [trav]'s cost c is the sum
   over ALL slots, an upper bound that is attained when the two values are equal with equal
   pointer counts.
   Main theorem [equal_m_total]. No axioms. *)
From CV Require Import Value.ValueEq Value.EqualM Value.Den Value.DenFacts Value.DenLists Value.EqualSafe.
From CV Require Import Core.ReaderFacts Core.SafetyProofs Core.LimitProofs.
From Coq Require Import ZifyBool ZifyNat.
Ltac Zify.zify_post_hook ::= Z.div_mod_to_equations.
Open Scope Z_scope.

Fixpoint sumZ (l : list Z) : Z := match l with [] => 0 | x :: r => x + sumZ r end.
Definition nthz (cs : list Z) (i : Z) : Z := nth (Z.to_nat i) cs 0.
Definition nonnegs (cs : list Z) : Prop := Forall (fun z => 0 <= z) cs.

Inductive trav (strict : bool) (m : segs) : Ptr -> Z -> Z -> Prop :=
| tr_null p d c : p_valid p = false -> 0 <= c -> trav strict m p d c
| tr_iface p d c : p_valid p = true -> p_kind p = KIface -> 0 <= c -> trav strict m p d c
| tr_struct p d c cs :
    p_valid p = true -> p_kind p = KStruct ->
    zlen cs = PointerCount (p_size p) -> nonnegs cs -> sumZ cs <= c ->
    (forall i, 0 <= i < PointerCount (p_size p) ->
       exists dep rl q rl',
         readPtr strict m rl (p_seg p) (seg_of m p) (pointerAddress p i) dep = (Ok q, rl')
         /\ (p_valid q = true -> 1 <= d) /\ readSize q <= nthz cs i
         /\ trav strict m q (d - 1) (nthz cs i - readSize q)) ->
    trav strict m p d c
| tr_list p d c cs :
    p_valid p = true -> p_kind p = KList -> 0 <= c ->
    (p_bit p = false ->
       zlen cs = p_len p /\ nonnegs cs /\ sumZ cs <= c /\
       forall i, 0 <= i < p_len p -> trav strict m (elem_ptr p i) (d - 1) (nthz cs i)) ->
    trav strict m p d c.

Lemma sumZ_nonneg cs : nonnegs cs -> 0 <= sumZ cs.
Proof. induction 1; cbn [sumZ]; lia. Qed.

Lemma nonnegs_skipn k : forall cs, nonnegs cs -> nonnegs (skipn k cs).
Proof. induction k as [|k IH]; intros cs H; [exact H|]. destruct H; [constructor|]. cbn [skipn]. apply IH. assumption. Qed.

Lemma sumZ_skipn_step : forall k cs, (k < length cs)%nat ->
  sumZ (skipn k cs) = nth k cs 0 + sumZ (skipn (S k) cs).
Proof.
  induction k as [|k IH]; intros cs Hk; destruct cs as [|a r]; cbn [length] in Hk; try lia.
  - reflexivity.
  - cbn [skipn nth]. apply IH. lia.
Qed.

Lemma sumZ_skipn_z cs i : 0 <= i < zlen cs ->
  sumZ (skipn (Z.to_nat i) cs) = nthz cs i + sumZ (skipn (Z.to_nat (i + 1)) cs).
Proof.
  intros Hi. unfold zlen in Hi. replace (Z.to_nat (i + 1)) with (S (Z.to_nat i)) by lia.
  apply sumZ_skipn_step. lia.
Qed.

Lemma nthz_nonneg cs i : nonnegs cs -> 0 <= nthz cs i.
Proof.
  intros H. unfold nthz. destruct (Nat.lt_ge_cases (Z.to_nat i) (length cs)) as [L|G].
  - unfold nonnegs in H. rewrite Forall_forall in H. apply H. apply nth_In. assumption.
  - rewrite nth_overflow by assumption. lia.
Qed.

Lemma trav_cost_nonneg strict m p d c : trav strict m p d c -> 0 <= c.
Proof.
  intros H. destruct H; try assumption.
  match goal with Hn : nonnegs _ |- _ => pose proof (sumZ_nonneg _ Hn) end. lia.
Qed.

Lemma trav_mono_cost strict m p d c c' : trav strict m p d c -> c <= c' -> trav strict m p d c'.
Proof.
  intros H Hc. pose proof (trav_cost_nonneg _ _ _ _ _ H) as N. destruct H.
  - apply tr_null; [assumption|lia].
  - apply tr_iface; [assumption|assumption|lia].
  - eapply tr_struct; try eassumption. lia.
  - eapply tr_list with (cs := cs); try assumption; try lia.
    intros Hb. match goal with Hl : p_bit _ = false -> _ |- _ => destruct (Hl Hb) as (A & B & C & D) end.
    repeat split; try assumption. lia.
Qed.

(* trav only looks at the core of the pointer (not at its depth limit or list-member flag) *)
Lemma trav_core strict m p q d c : same_core p q -> trav strict m p d c -> trav strict m q d c.
Proof.
  intros Hpq H. destruct (same_core_addr m p q Hpq) as (Eseg & Epa & Eel).
  destruct Hpq as (Hv & Hs & Ho & Hl & Hz & Hk & Hc & Hb).
  destruct H.
  - apply tr_null; congruence.
  - apply tr_iface; congruence.
  - eapply tr_struct with (cs := cs); try congruence.
    intros i Hi. rewrite <- Hz in Hi.
    match goal with Hall : forall i, _ -> exists _ _ _ _, _ |- _ =>
      destruct (Hall i Hi) as (dep & rl & q0 & rl' & E & D1 & D2 & D3) end.
    exists dep, rl, q0, rl'. rewrite <- Hs, Eseg, Epa. repeat split; assumption.
  - eapply tr_list with (cs := cs); try congruence.
    intros Hb'. rewrite <- Hb in Hb'.
    match goal with Hall : p_bit _ = false -> _ |- _ => destruct (Hall Hb') as (A & B & C & D) end.
    repeat split; try congruence. intros i Hi. rewrite Eel. apply D. lia.
Qed.

(* a readPtr that succeeds with some budget and depth succeeds with every budget that covers
   the read size and every non-zero depth (depth 0 suffices for a null pointer); the pointer
   handed out is the same up to its depth limit, and the budget goes down by the read size *)
Lemma readPtr_transfer strict m rl0 rl sid s a dep0 dep q rl0' :
  readPtr strict m rl0 sid s a dep0 = (Ok q, rl0') ->
  (p_valid q = true -> dep <> 0) -> readSize q <= rl ->
  exists q', readPtr strict m rl sid s a dep = (Ok q', rl - readSize q) /\ same_core q' q /\
             (p_valid q' = true -> p_kind q' <> KIface -> p_depth q' = uint_dec dep).
Proof.
  unfold readPtr. destruct (resolveFarPointer strict m sid s a) as [[[[dsid dst] base] val]| |]; try discriminate.
  destruct (val =? 0).
  { intros H _ _. inversion H; subst. exists nullPtr. rewrite readSize_null.
    split; [f_equal; lia|]. split; [apply same_core_refl|]. cbn. discriminate. }
  destruct (dep0 =? 0); [discriminate|]. cbv zeta.
  destruct (pointerType val =? structPointer).
  { destruct (readStructPtr dsid dst base val) as [sp| |] eqn:E; try discriminate.
    apply readStructPtr_valid in E. destruct E as [V K].
    unfold canRead. destruct (rl0 >=? struct_readSize sp); [|discriminate].
    intros H Hd Hr. inversion H; subst q. clear H. specialize (Hd eq_refl).
    destruct (dep =? 0) eqn:Ed; [lia|].
    unfold readSize, struct_readSize in Hr |- *. cbn [p_valid p_size p_kind] in Hr. pcbn.
    unfold struct_readSize. rewrite V.
    destruct (rl >=? totalSize (p_size sp)) eqn:Eg; [|lia].
    eexists. split; [reflexivity|]. split; [repeat split|]. pcbn. reflexivity. }
  destruct (pointerType val =? listPointer).
  { destruct (readListPtr strict dsid dst base val) as [lp| |] eqn:E; try discriminate.
    apply readListPtr_valid in E. destruct E as [V K].
    unfold canRead. destruct (rl0 >=? list_readSize lp); [|discriminate].
    intros H Hd Hr. inversion H; subst q. clear H. specialize (Hd eq_refl).
    destruct (dep =? 0) eqn:Ed; [lia|].
    assert (Es : readSize (mkPtr true (p_seg lp) (p_off lp) (p_len lp) (p_size lp) (uint_dec dep0) KList (p_comp lp) (p_bit lp) false)
                 = list_readSize lp).
    { unfold readSize, list_readSize. pcbn. rewrite V. reflexivity. }
    rewrite Es in Hr |- *.
    destruct (rl >=? list_readSize lp) eqn:Eg; [|lia].
    eexists. split; [reflexivity|]. split; [repeat split|]. pcbn. reflexivity. }
  destruct (pointerType val =? otherPointer); [|discriminate].
  destruct (negb (otherPointerType val =? 0)); [discriminate|].
  intros H Hd Hr. inversion H; subst q. clear H. specialize (Hd eq_refl).
  destruct (dep =? 0) eqn:Ed; [lia|].
  eexists. split; [f_equal; unfold readSize; pcbn; lia|]. split; [repeat split|].
  pcbn. intros _ K. congruence.
Qed.

(* depth condition: the pointer's remaining depth budget covers the nesting below it *)
Definition dok (p : Ptr) (d : Z) : Prop :=
  p_valid p = true -> p_kind p <> KIface -> 0 <= p_depth p < two64 /\ d <= p_depth p.

Lemma dok_core p q d : p_valid p = p_valid q -> p_kind p = p_kind q -> p_depth p = p_depth q -> dok p d -> dok q d.
Proof. unfold dok. intros A B C H. rewrite <- A, <- B, <- C. exact H. Qed.

Section Total.
Context (c : config) (fx : efix) (x : ectx).
Context (Hstrict : cfg_strict c = true).
Context (Hbit : fx_bitlist fx = true) (Hdepth : fx_depth (fx_rd fx) = true).
Context (Hma : msg_ok (segs_of x SA)) (Hmb : msg_ok (segs_of x SB)).

Let mA := segs_of x SA.
Let mB := segs_of x SB.

(* the budgets cover a (message A) and b (message B); one shared budget when both pointers are
   in the same message *)
Definition bge (w : lims) (a b : Z) : Prop :=
  if ec_same x then a + b <= fst w else a <= fst w /\ b <= snd w.

Lemma bge_mono w a b a' b' : bge w a b -> a' <= a -> b' <= b -> bge w a' b'.
Proof. unfold bge. destruct (ec_same x); lia. Qed.

(* the slack [ra], [rb] is universally quantified so that a loop can thread the cost of the
   remaining children (sumZ (skipn i cs)) through the recursive call on child i *)
Definition rec_tot (rec : erec) : Prop :=
  forall w p q da ca db cb ra rb,
    wf_ptr mA p -> wf_ptr mB q -> trav true mA p da ca -> trav true mB q db cb ->
    dok p da -> dok q db -> 0 <= ra -> 0 <= rb -> bge w (ca + ra) (cb + rb) ->
    fst (rec w p q) <> EErr /\ bge (snd (rec w p q)) ra rb.

Definition tkids (m : segs) (p : Ptr) (d : Z) (cs : list Z) : Prop :=
  forall i, 0 <= i < PointerCount (p_size p) ->
    exists dep rl q rl',
      readPtr true m rl (p_seg p) (seg_of m p) (pointerAddress p i) dep = (Ok q, rl')
      /\ (p_valid q = true -> 1 <= d) /\ readSize q <= nthz cs i
      /\ trav true m q (d - 1) (nthz cs i - readSize q).

(* Struct.Ptr(i) on a traversable struct with enough budget and depth *)
Lemma struct_ptr_tot m rl p i d cs : tkids m p d cs -> p_valid p = true -> p_kind p = KStruct -> dok p d ->
  0 <= i < PointerCount (p_size p) -> nthz cs i <= rl ->
  exists q', struct_ptr c m rl p i = (Ok q', rl - readSize q') /\ readSize q' <= nthz cs i /\
             trav true m q' (d - 1) (nthz cs i - readSize q') /\ dok q' (d - 1).
Proof.
  intros Hk V K Hd Hi Hr. rewrite struct_ptr_unfold by (try assumption; lia). rewrite Hstrict.
  destruct (Hk i Hi) as (dep & rl0 & q & rl0' & E & D1 & D2 & D3).
  destruct (Hd V ltac:(congruence)) as [Dr Dd].
  destruct (readPtr_transfer true m rl0 rl (p_seg p) (seg_of m p) (pointerAddress p i) dep (p_depth p) q rl0' E
              ltac:(intros Vq; specialize (D1 Vq); lia) ltac:(lia)) as (q' & E' & C' & Dq).
  assert (Rs : readSize q' = readSize q).
  { destruct C' as (A1 & A2 & A3 & A4 & A5 & A6 & A7 & A8).
    unfold readSize, struct_readSize, list_readSize. rewrite A1, A4, A5, A6. reflexivity. }
  exists q'. rewrite Rs. split; [exact E'|]. split; [exact D2|].
  split; [apply (trav_core true m q q'); [apply same_core_sym; exact C'|exact D3]|].
  intros Vq Kq. rewrite (Dq Vq Kq).
  assert (p_valid q = true) as Vq' by (destruct C' as (A1 & _); congruence).
  specialize (D1 Vq'). pose proof (uint_dec_spec (p_depth p) ltac:(lia)) as U.
  unfold uint_dec, u64 in *. unfold two64 in *. split; [lia|].
  replace ((p_depth p - 1) mod 18446744073709551616) with (p_depth p - 1) by lia. lia.
Qed.

Lemma rl_put_same w s rl : rl_of x (put_rl x w s rl) s = rl.
Proof. unfold rl_of, put_rl. destruct (on_a x s); reflexivity. Qed.

Lemma ptr_loop_tot rec p q d1 cs1 d2 cs2 ra rb : rec_tot rec ->
  wf_struct mA p -> wf_struct mB q ->
  p_valid p = true -> p_kind p = KStruct -> p_valid q = true -> p_kind q = KStruct ->
  tkids mA p d1 cs1 -> tkids mB q d2 cs2 -> dok p d1 -> dok q d2 ->
  zlen cs1 = PointerCount (p_size p) -> zlen cs2 = PointerCount (p_size q) ->
  nonnegs cs1 -> nonnegs cs2 -> 0 <= ra -> 0 <= rb ->
  forall k i w, 0 <= i -> i + Z.of_nat k <= PointerCount (p_size p) -> i + Z.of_nat k <= PointerCount (p_size q) ->
    bge w (sumZ (skipn (Z.to_nat i) cs1) + ra) (sumZ (skipn (Z.to_nat i) cs2) + rb) ->
    fst (ptr_loop c x rec p q k i w) <> EErr /\ bge (snd (ptr_loop c x rec p q k i w)) ra rb.
Proof.
  intros Hrec Wp Wq Vp Kp Vq Kq T1 T2 D1 D2 L1 L2 N1 N2 Ra Rb.
  induction k as [|k IH]; intros i w Hi Hk1 Hk2 Hb.
  - cbn [ptr_loop fst snd]. split; [discriminate|].
    pose proof (sumZ_nonneg _ (nonnegs_skipn (Z.to_nat i) _ N1)).
    pose proof (sumZ_nonneg _ (nonnegs_skipn (Z.to_nat i) _ N2)).
    eapply bge_mono; [exact Hb|lia|lia].
  - rewrite ptr_loop_S.
    rewrite (sumZ_skipn_z cs1 i) in Hb by lia. rewrite (sumZ_skipn_z cs2 i) in Hb by lia.
    pose proof (sumZ_nonneg _ (nonnegs_skipn (Z.to_nat (i + 1)) _ N1)) as S1.
    pose proof (sumZ_nonneg _ (nonnegs_skipn (Z.to_nat (i + 1)) _ N2)) as S2.
    pose proof (nthz_nonneg cs1 i N1) as Z1. pose proof (nthz_nonneg cs2 i N2) as Z2.
    assert (nthz cs1 i <= rl_of x w SA) as B1.
    { unfold bge in Hb. unfold rl_of, on_a. destruct (ec_same x); cbn [orb]; lia. }
    destruct (struct_ptr_tot mA (rl_of x w SA) p i d1 cs1 T1 Vp Kp D1 ltac:(lia) B1) as (sp1 & E1 & R1 & Tr1 & Dk1).
    pose proof (struct_ptr_safe c mA (rl_of x w SA) p i Hma Wp Hi) as Sf1.
    fold mA. rewrite E1 in Sf1 |- *. cbn [fst res_sat] in Sf1. cbv zeta.
    set (w1 := put_rl x w SA (rl_of x w SA - readSize sp1)).
    assert (nthz cs2 i <= rl_of x w1 SB) as B2.
    { unfold bge in Hb. unfold w1, rl_of, put_rl, on_a. pose proof (readSize_nonneg sp1).
      destruct (ec_same x); cbn [orb fst snd]; lia. }
    destruct (struct_ptr_tot mB (rl_of x w1 SB) q i d2 cs2 T2 Vq Kq D2 ltac:(lia) B2) as (sp2 & E2 & R2 & Tr2 & Dk2).
    pose proof (struct_ptr_safe c mB (rl_of x w1 SB) q i Hmb Wq Hi) as Sf2.
    fold mB. rewrite E2 in Sf2 |- *. cbn [fst res_sat] in Sf2.
    set (w2 := put_rl x w1 SB (rl_of x w1 SB - readSize sp2)).
    assert (bge w2 ((nthz cs1 i - readSize sp1) + (sumZ (skipn (Z.to_nat (i + 1)) cs1) + ra))
                   ((nthz cs2 i - readSize sp2) + (sumZ (skipn (Z.to_nat (i + 1)) cs2) + rb))) as Hb2.
    { unfold bge in Hb |- *. unfold w2, w1, rl_of, put_rl, on_a.
      destruct (ec_same x); cbn [orb fst snd]; lia. }
    destruct (Hrec w2 sp1 sp2 (d1 - 1) _ (d2 - 1) _ (sumZ (skipn (Z.to_nat (i + 1)) cs1) + ra)
                (sumZ (skipn (Z.to_nat (i + 1)) cs2) + rb) (Sf1 Hstrict) (Sf2 Hstrict) Tr1 Tr2 Dk1 Dk2
                ltac:(lia) ltac:(lia) Hb2) as [G1 G2].
    destruct (rec w2 sp1 sp2) as [o w3]. cbn [fst snd] in G1, G2.
    destruct o as [[|]| | |]; try (split; [try discriminate; try exact G1|eapply bge_mono; [exact G2|lia|lia]]).
    apply IH; try lia. exact G2.
Qed.

Lemma has_nonnull_ptr_noerr strict m p i : has_nonnull_ptr strict m p i <> Err.
Proof.
  unfold has_nonnull_ptr, readRawPointer, readUintN.
  destruct (slice (seg_of m p) (pointerAddress p i) 8) as [b| |] eqn:E; cbn [bind]; try discriminate.
  - destruct (le_decode b =? 0); [discriminate|].
    destruct (resolveFarPointer strict m (p_seg p) (seg_of m p) (pointerAddress p i)) as [[[[? ?] ?] ?]| |]; discriminate.
  - exfalso. eapply slice_not_err. exact E.
Qed.

Lemma struct_hasptr_noerr m p i : struct_hasptr m p i <> Err.
Proof.
  unfold struct_hasptr, readRawPointer, readUintN. destruct (_ || _); [discriminate|].
  destruct (slice (seg_of m p) (pointerAddress p i) 8) as [b| |] eqn:E; cbn [bind]; try discriminate.
  exfalso. eapply slice_not_err. exact E.
Qed.

Lemma no_ptrs_noerr fixed strict m p : forall n i, no_ptrs fixed strict m p n i <> Err.
Proof.
  induction n as [|n IH]; intros i; cbn [no_ptrs]; [discriminate|].
  destruct fixed.
  - pose proof (has_nonnull_ptr_noerr strict m p i) as H.
    destruct (has_nonnull_ptr strict m p i) as [[|]| |]; cbn [bind]; try discriminate; try congruence; try apply IH.
  - pose proof (struct_hasptr_noerr m p i) as H.
    destruct (struct_hasptr m p i) as [[|]| |]; cbn [bind]; try discriminate; try congruence; try apply IH.
Qed.

Lemma equal_struct_tot rec w p q d1 c1 d2 c2 ra rb : rec_tot rec ->
  wf_ptr mA p -> wf_ptr mB q -> p_valid p = true -> p_valid q = true -> p_kind p = KStruct -> p_kind q = KStruct ->
  trav true mA p d1 c1 -> trav true mB q d2 c2 -> dok p d1 -> dok q d2 -> 0 <= ra -> 0 <= rb ->
  bge w (c1 + ra) (c2 + rb) ->
  fst (equal_struct c fx x rec w p q) <> EErr /\ bge (snd (equal_struct c fx x rec w p q)) ra rb.
Proof.
  intros Hrec Wp Wq Vp Vq Kp Kq T1 T2 D1 D2 Ra Rb Hb.
  pose proof (trav_cost_nonneg _ _ _ _ _ T1) as C1. pose proof (trav_cost_nonneg _ _ _ _ _ T2) as C2.
  assert (bge w ra rb) as Hb0 by (eapply bge_mono; [exact Hb|lia|lia]).
  unfold equal_struct. cbv zeta. fold mA mB.
  destruct (slice (seg_of mA p) _ _) as [d1'| |] eqn:S1;
    [|exfalso; eapply slice_not_err; exact S1|split; [discriminate|exact Hb0]].
  destruct (slice (seg_of mB q) _ _) as [d2'| |] eqn:S2;
    [|exfalso; eapply slice_not_err; exact S2|split; [discriminate|exact Hb0]].
  destruct (negb _); [split; [discriminate|exact Hb0]|].
  inversion T1 as [| |p1 dd1 cc1 cs1 _ _ L1 N1 Su1 K1|]; subst; try congruence.
  inversion T2 as [| |p2 dd2 cc2 cs2 _ _ L2 N2 Su2 K2|]; subst; try congruence.
  assert (wf_struct mA p) as WSp by (split; [assumption|intros _; assumption]).
  assert (wf_struct mB q) as WSq by (split; [assumption|intros _; assumption]).
  destruct (wf_struct_inv _ _ WSp Vp) as (_ & Zp & _). destruct (wf_struct_inv _ _ WSq Vq) as (_ & Zq & _).
  unfold wf_size in Zp, Zq.
  set (n := Z.min (PointerCount (p_size p)) (PointerCount (p_size q))).
  pose proof (ptr_loop_tot rec p q d1 cs1 d2 cs2 ra rb Hrec WSp WSq Vp Kp Vq Kq K1 K2 D1 D2 L1 L2 N1 N2 Ra Rb
                (Z.to_nat n) 0 w ltac:(lia) ltac:(lia) ltac:(lia)) as G.
  cbn [Z.to_nat skipn] in G. specialize (G ltac:(eapply bge_mono; [exact Hb|lia|lia])).
  destruct (ptr_loop c x rec p q (Z.to_nat n) 0 w) as [o w']. cbn [fst snd] in G. destruct G as [G1 G2].
  destruct o as [[|]| | |]; try (split; [try discriminate; try exact G1|exact G2]).
  pose proof (no_ptrs_noerr (fx_farnull fx) (cfg_strict c) mA p (Z.to_nat (PointerCount (p_size p) - n)) n) as NE1.
  destruct (no_ptrs _ _ mA p _ _) as [[|]| |]; try (split; [try discriminate; try congruence|exact G2]).
  pose proof (no_ptrs_noerr (fx_farnull fx) (cfg_strict c) mB q (Z.to_nat (PointerCount (p_size q) - n)) n) as NE2.
  destruct (no_ptrs _ _ mB q _ _) as [b| |]; (split; [try discriminate; try congruence|exact G2]).
Qed.

Definition telems (m : segs) (p : Ptr) (d : Z) (cs : list Z) : Prop :=
  forall i, 0 <= i < p_len p -> trav true m (elem_ptr p i) (d - 1) (nthz cs i).

Lemma list_struct_tot m p i d cs : msg_ok m -> wf_list m p -> p_valid p = true -> p_bit p = false ->
  telems m p d cs -> dok p d -> p_kind p = KList -> 0 <= i < p_len p ->
  exists e, list_struct true p i = Ok e /\ wf_ptr m e /\ trav true m e (d - 1) (nthz cs i) /\ dok e (d - 1).
Proof.
  intros Hm Wl V Hb Te Hd K Hi.
  pose proof (list_struct_safe true m p i Hm Wl ltac:(unfold list_len; rewrite V; lia)) as Sf.
  destruct (list_element_spec m p i Hm Wl V Hb Hi) as (_ & Ha & Hend).
  pose proof (totalSize_nonneg (p_size p)) as Tn. pose proof (proj1 (seg_of_ok m p Hm)) as Sl. unfold maxSegmentSize in Sl.
  rewrite (list_struct_ok true p i V Hb Hi ltac:(lia)) in Sf |- *. cbn [res_sat] in Sf.
  eexists. split; [reflexivity|]. split; [apply Sf|].
  split; [eapply (trav_core true m (elem_ptr p i)); [repeat split|apply Te; exact Hi]|].
  destruct (Hd V ltac:(congruence)) as [Dr Dd].
  intros _ _. pcbn. cbn [andb].
  destruct (p_depth p =? 0) eqn:E0.
  - unfold two64. lia.
  - pose proof (uint_dec_spec (p_depth p) ltac:(lia)) as U. unfold two64 in *.
    unfold uint_dec, u64 in *. replace ((p_depth p - 1) mod 18446744073709551616) with (p_depth p - 1) by lia. lia.
Qed.

Lemma elem_loop_tot rec p q d1 cs1 d2 cs2 ra rb : rec_tot rec ->
  wf_list mA p -> wf_list mB q ->
  p_valid p = true -> p_kind p = KList -> p_valid q = true -> p_kind q = KList ->
  p_bit p = false -> p_bit q = false ->
  telems mA p d1 cs1 -> telems mB q d2 cs2 -> dok p d1 -> dok q d2 ->
  zlen cs1 = p_len p -> zlen cs2 = p_len q -> p_len p = p_len q ->
  nonnegs cs1 -> nonnegs cs2 -> 0 <= ra -> 0 <= rb ->
  forall k i w, 0 <= i -> i + Z.of_nat k <= p_len p ->
    bge w (sumZ (skipn (Z.to_nat i) cs1) + ra) (sumZ (skipn (Z.to_nat i) cs2) + rb) ->
    fst (elem_loop true rec p q k i w) <> EErr /\ bge (snd (elem_loop true rec p q k i w)) ra rb.
Proof.
  intros Hrec Wp Wq Vp Kp Vq Kq Bp Bq T1 T2 D1 D2 L1 L2 Le N1 N2 Ra Rb.
  induction k as [|k IH]; intros i w Hi Hk Hb.
  - cbn [elem_loop fst snd]. split; [discriminate|].
    pose proof (sumZ_nonneg _ (nonnegs_skipn (Z.to_nat i) _ N1)).
    pose proof (sumZ_nonneg _ (nonnegs_skipn (Z.to_nat i) _ N2)).
    eapply bge_mono; [exact Hb|lia|lia].
  - rewrite elem_loop_S.
    rewrite (sumZ_skipn_z cs1 i) in Hb by lia. rewrite (sumZ_skipn_z cs2 i) in Hb by lia.
    pose proof (sumZ_nonneg _ (nonnegs_skipn (Z.to_nat (i + 1)) _ N1)) as S1.
    pose proof (sumZ_nonneg _ (nonnegs_skipn (Z.to_nat (i + 1)) _ N2)) as S2.
    pose proof (nthz_nonneg cs1 i N1) as Z1. pose proof (nthz_nonneg cs2 i N2) as Z2.
    destruct (list_struct_tot mA p i d1 cs1 Hma Wp Vp Bp T1 D1 Kp ltac:(lia)) as (e1 & E1 & We1 & Tr1 & Dk1).
    destruct (list_struct_tot mB q i d2 cs2 Hmb Wq Vq Bq T2 D2 Kq ltac:(lia)) as (e2 & E2 & We2 & Tr2 & Dk2).
    rewrite E1, E2.
    destruct (Hrec w e1 e2 (d1 - 1) _ (d2 - 1) _ (sumZ (skipn (Z.to_nat (i + 1)) cs1) + ra)
                (sumZ (skipn (Z.to_nat (i + 1)) cs2) + rb) We1 We2 Tr1 Tr2 Dk1 Dk2 ltac:(lia) ltac:(lia)
                ltac:(eapply bge_mono; [exact Hb|lia|lia])) as [G1 G2].
    destruct (rec w e1 e2) as [o w']. cbn [fst snd] in G1, G2.
    destruct o as [[|]| | |]; try (split; [try discriminate; try exact G1|eapply bge_mono; [exact G2|lia|lia]]).
    apply IH; try lia. exact G2.
Qed.

Lemma equal_list_tot rec w p q d1 c1 d2 c2 ra rb : rec_tot rec ->
  wf_ptr mA p -> wf_ptr mB q -> p_valid p = true -> p_valid q = true -> p_kind p = KList -> p_kind q = KList ->
  trav true mA p d1 c1 -> trav true mB q d2 c2 -> dok p d1 -> dok q d2 -> 0 <= ra -> 0 <= rb ->
  bge w (c1 + ra) (c2 + rb) ->
  fst (equal_list fx x rec w p q) <> EErr /\ bge (snd (equal_list fx x rec w p q)) ra rb.
Proof.
  intros Hrec Wp Wq Vp Vq Kp Kq T1 T2 D1 D2 Ra Rb Hb.
  pose proof (trav_cost_nonneg _ _ _ _ _ T1) as C1. pose proof (trav_cost_nonneg _ _ _ _ _ T2) as C2.
  assert (bge w ra rb) as Hb0 by (eapply bge_mono; [exact Hb|lia|lia]).
  unfold equal_list. cbv zeta. fold mA mB. rewrite Hbit.
  destruct (negb (list_len p =? list_len q)) eqn:El; [split; [discriminate|exact Hb0]|].
  destruct (negb (Bool.eqb (p_bit p) (p_bit q))) eqn:Eb; [split; [discriminate|exact Hb0]|].
  destruct (p_bit p) eqn:Bp.
  { destruct (slice (seg_of mA p) _ _) as [x1| |] eqn:S1;
      [|exfalso; eapply slice_not_err; exact S1|split; [discriminate|exact Hb0]].
    destruct (slice (seg_of mB q) _ _) as [x2| |] eqn:S2;
      [|exfalso; eapply slice_not_err; exact S2|split; [discriminate|exact Hb0]].
    split; [discriminate|exact Hb0]. }
  assert (p_bit q = false) as Bq by (destruct (p_bit q); [discriminate Eb|reflexivity]).
  destruct (_ && _ && _); [split; [discriminate|exact Hb0]|].
  destruct (_ && _ && _).
  { destruct (slice (seg_of mA p) _ _) as [x1| |] eqn:S1;
      [|exfalso; eapply slice_not_err; exact S1|split; [discriminate|exact Hb0]].
    destruct (slice (seg_of mB q) _ _) as [x2| |] eqn:S2;
      [|exfalso; eapply slice_not_err; exact S2|split; [discriminate|exact Hb0]].
    split; [discriminate|exact Hb0]. }
  rewrite Hdepth.
  inversion T1 as [| | |p1 dd1 cc1 cs1 _ _ _ K1]; subst; try congruence.
  inversion T2 as [| | |p2 dd2 cc2 cs2 _ _ _ K2]; subst; try congruence.
  destruct (K1 Bp) as (L1 & N1 & Su1 & Te1). destruct (K2 Bq) as (L2 & N2 & Su2 & Te2).
  assert (wf_list mA p) as WLp by (split; [assumption|intros _; assumption]).
  assert (wf_list mB q) as WLq by (split; [assumption|intros _; assumption]).
  destruct (wf_list_inv _ _ WLp Vp) as (_ & _ & Lp & _).
  unfold list_len in El |- *. rewrite Vp, Vq in El. rewrite Vp.
  assert (p_len p = p_len q) as Le by lia.
  pose proof (elem_loop_tot rec p q d1 cs1 d2 cs2 ra rb Hrec WLp WLq Vp Kp Vq Kq Bp Bq Te1 Te2 D1 D2 L1 L2 Le
                N1 N2 Ra Rb (Z.to_nat (p_len p)) 0 w ltac:(lia) ltac:(lia)) as G.
  cbn [Z.to_nat skipn] in G. apply G. eapply bge_mono; [exact Hb|lia|lia].
Qed.

Lemma equal_step_tot rec : rec_tot rec -> rec_tot (equal_step c fx x rec).
Proof.
  intros Hrec w p q da ca db cb ra rb Wp Wq T1 T2 D1 D2 Ra Rb Hb.
  pose proof (trav_cost_nonneg _ _ _ _ _ T1) as C1. pose proof (trav_cost_nonneg _ _ _ _ _ T2) as C2.
  assert (bge w ra rb) as Hb0 by (eapply bge_mono; [exact Hb|lia|lia]).
  unfold equal_step.
  destruct (p_valid p) eqn:Vp; destruct (p_valid q) eqn:Vq; cbn [negb andb orb];
    try (split; [discriminate|exact Hb0]).
  destruct (p_kind p) eqn:Kp; destruct (p_kind q) eqn:Kq; try (split; [discriminate|exact Hb0]).
  - eapply equal_struct_tot; eassumption.
  - eapply equal_list_tot; eassumption.
Qed.

Theorem equal_m_tot : forall fuel, rec_tot (equal_m fuel c fx x).
Proof.
  induction fuel as [|f IH].
  - intros w p q da ca db cb ra rb Wp Wq T1 T2 D1 D2 Ra Rb Hb. cbn [equal_m fst snd].
    pose proof (trav_cost_nonneg _ _ _ _ _ T1). pose proof (trav_cost_nonneg _ _ _ _ _ T2).
    split; [discriminate|]. eapply bge_mono; [exact Hb|lia|lia].
  - cbn [equal_m]. apply equal_step_tot. exact IH.
Qed.

End Total.

(* TOTALITY of Equal.  For every configuration with the repaired reader, all messages (msg_ok),
   one message or two, all well-formed pointers p (message A) and q (message B): if
   - both pointers are traversable, p with depth da and cost ca, q with db and cb ([trav]),
   - their remaining depth budgets cover da / db and are at most D - 1,
   - the remaining traversal budgets cover the costs (ca + cb <= the shared budget when both
     pointers are in one message, else ca <= budget A and cb <= budget B),
   - fuel >= D + 2,
   then Equal returns (b, nil) for some b: not an error, not a panic, not fuel exhaustion; it
   consumes at most ca / cb (resp. ca + cb) of the budgets, which stay non-negative. *)
Definition budgets_cover (x : ectx) (w : lims) (a b : Z) : Prop :=
  if ec_same x then a + b <= fst w else a <= fst w /\ b <= snd w.

Theorem equal_m_total : forall c fx x fuel w p q da ca db cb D,
  cfg_strict c = true -> fx_bitlist fx = true -> fx_depth (fx_rd fx) = true ->
  msg_ok (segs_of x SA) -> msg_ok (segs_of x SB) ->
  wf_ptr (segs_of x SA) p -> wf_ptr (segs_of x SB) q -> lims_nonneg w ->
  trav true (segs_of x SA) p da ca -> trav true (segs_of x SB) q db cb ->
  da <= p_depth p -> db <= p_depth q -> 0 <= p_depth p <= D - 1 -> 0 <= p_depth q <= D - 1 ->
  D + 2 <= Z.of_nat fuel -> D <= two64 ->
  forall ra rb, 0 <= ra -> 0 <= rb -> budgets_cover x w (ca + ra) (cb + rb) ->
  exists b w', equal_m fuel c fx x w p q = (EOk b, w') /\ lims_le w' w /\ budgets_cover x w' ra rb.
Proof.
  intros c fx x fuel w p q da ca db cb D Hs Hb Hd Ha Hbm Wp Wq Hw T1 T2 Da Db Dp Dq Hf HD ra rb Ra Rb Hbud.
  destruct (equal_m_safe c fx x fuel w p q D (conj Ha Hbm) Hs Hd Wp Wq Hw Dp Dq Hf) as (S1 & S2 & S3).
  destruct (equal_m_tot c fx x Hs Hb Hd Ha Hbm fuel w p q da ca db cb ra rb Wp Wq T1 T2
              ltac:(intros _ _; unfold two64 in *; lia) ltac:(intros _ _; unfold two64 in *; lia) Ra Rb Hbud) as [G1 G2].
  destruct (equal_m fuel c fx x w p q) as [o w']. cbn [fst snd] in *.
  destruct o as [b| | |]; try congruence. exists b, w'. split; [reflexivity|]. split; assumption.
Qed.
