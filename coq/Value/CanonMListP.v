(* C18 [T2]: canonicalList, the pointer-list case: newPointerList appends n zero words; the loop
   (PointerList.At, canonicalPtr, PointerList.Set) is slots_loop with the block being the list body. *)
From CV Require Import Value.ValueEq Value.ValueEqProofs Value.EqualM Value.Den Value.DenFacts Value.DenLists
                       Value.CanonSpec Value.CanonProofs Value.CanonProofs3 Value.CanonM Value.CanonMStruct
                       Value.CanonMWords Value.CanonMData Value.CanonMHeap Value.CanonMLoop Value.CanonSafe
                       Value.CanonMInd.
From CV Require Import Core.ReaderFacts Core.SafetyProofs Core.BuilderFacts Core.ArithFacts Core.CopySafe.
From Coq Require Import ZifyBool ZifyNat.
Ltac Zify.zify_post_hook ::= Z.div_mod_to_equations.
Open Scope Z_scope.
From CV Require Import Value.CanonMBytes.

Section ListP.
Context (c : config) (fx : cfix) (m : segs).
Context (Hstrict : cfg_strict c = true) (Hfx : all_cfixed fx) (Hm : msg_ok m).


Lemma list_ptr_case f : Q_ptr c fx m f -> forall data cap rl p vs w' cp,
  hinv data -> wf_ptr m p -> den true m 0 [] p (VList LPtr vs) ->
  canonical_list c fx (S f) (dstw data cap m rl) 0 p = KOk (w', cp) -> Qconcl m data (VList LPtr vs) w' cp.
Proof.
  intros HQ data cap rl p vs w' cp Hi Hwf D H.
  destruct (den_ptrs_inv m _ _ D) as (Hv & Hk & Hb & Hc & Hsz & Lvs & K).
  destruct (Hwf Hv) as (Hseg & Hobj). unfold wf_obj in Hobj. rewrite Hk, Hb, Hsz in Hobj.
  destruct Hobj as (Ho & Hlen & _ & Hbd). change (totalSize (mkOS 0 1)) with 8 in Hbd.
  assert (Hsok : zlen (seg_of m p) <= 4294967288) by (apply seg_of_ok; assumption).
  rewrite canonical_list_S in H. rewrite Hv, Hsz, Hc in H. cbn [negb PointerCount] in H.
  change (1 =? 0) with false in H. cbn [andb] in H.
  set (n := p_len p) in *.
  unfold newPointerList in H. cbn [w_dst dstw] in H.
  rewrite (times_some 8 n) in H by (unfold maxSegmentSize; lia).
  unfold lift in H.
  destruct Hi as [Hi1 Hi2]. assert (Z0 : 0 <= zlen data) by (unfold zlen; lia).
  destruct (alloc (seg0 data cap) 0 (8 * n)) as [[[m1 sid1] addr]| |] eqn:Ea; try discriminate H.
  destruct (alloc_seg0_end data cap (8 * n) m1 sid1 addr Ea) as (Hbound & cap1 & -> & -> & ->).
  rewrite (padToWord_mult (8 * n)) in * by lia.
  cbn [bind of_res kbind w_set_dst w_src w_src_rl] in H.
  set (cl := mkPtr true 0 (zlen data) n (mkOS 0 1) maxDepth KList false false false) in *.
  set (data1 := data ++ repeat 0 (Z.to_nat (8 * n))) in *.
  change (w_set_dst (dstw data cap m rl) (seg0 data1 cap1)) with (dstw data1 cap1 m rl) in H.
  unfold list_len in H. rewrite Hv in H. fold n in H.
  assert (L1 : zlen data1 = zlen data + 8 * n) by (unfold data1; rewrite zlen_app; unfold zlen; rewrite repeat_length; lia).
  set (vals := map (fun v => hd_ptr (sptrs (norm v))) vs).
  assert (Lvals : zlen vals = n) by (unfold vals, zlen in *; rewrite map_length; lia).
  set (step := fun (wa : world) (i : Z) =>
                 let '(r, rl') := ptrlist_at c (fx_upgrade (cx_rd fx)) (w_src wa) (w_src_rl wa) p i in
                 let wb := w_set_rl wa InSrc rl' in
                 kbind (of_res r) (fun p0 : Ptr =>
                 kbind (canonical_ptr c fx f wb 0 p0) (fun wd : world * Ptr =>
                 let '(w2, cp) := wd in of_res (ptrlist_set 4 w2 cl i InDst cp)))) in *.
  set (okF := fun F : nat => forall i, 0 <= i < n -> (vdepth (nth (Z.to_nat i) vals VNull) <= F)%nat).
  assert (Hstep : forall i data0 cap0 rl0 w0, 0 <= i < zlen vals -> hinv data0 -> zlen data + 8 * zlen vals <= zlen data0 ->
            step (dstw data0 cap0 m rl0) i = KOk w0 ->
            exists word body cap' rl',
              w0 = dstw (put_word data0 (zlen data + 8 * i) word ++ bytes_of_words body) cap' m rl' /\
              hinv (data0 ++ bytes_of_words body) /\
              forall F, okF F -> enc F (nth (Z.to_nat i) vals VNull) (zlen data / 8 + i) (zlen data0 / 8) = COk (word, body)).
  { intros i data0 cap0 rl0 w0 Hi0 Hinv0 Hb0 Hs0. unfold step in Hs0. cbn [w_src w_src_rl dstw] in Hs0.
    assert (Hin : 0 <= i < n) by lia.
    pose proof (ptrlist_at_safe c true m rl0 p i Hm (conj Hwf (fun _ => Hk)) ltac:(unfold list_len; rewrite Hv; lia)) as SS.
    unfold ptrlist_at in Hs0, SS.
    rewrite !(fun fu => primitiveElem_ptrs fu p i Hv Hb Hc Hsz Hin), Hstrict in Hs0, SS by (unfold maxSegmentSize; lia).
    destruct (readPtr true m rl0 (p_seg p) (seg_of m p) (p_off p + i * 8) (p_depth p)) as [r rl1] eqn:ER.
    destruct r as [p0| |]; try discriminate. cbn [of_res kbind fst res_sat] in Hs0, SS.
    destruct (K i Hin) as (dep & rlk & q & rlk' & vi & RK & DK & Evi).
    replace (p_off p + 8 * i) with (p_off p + i * 8) in RK by lia.
    assert (Eval : nth (Z.to_nat i) vals VNull = norm vi).
    { unfold vals. change VNull with ((fun v => hd_ptr (sptrs (norm v))) VNull) at 1. rewrite map_nth.
      change (nth (Z.to_nat i) vs VNull) with (nthv vs i). rewrite Evi. cbn [norm map sptrs]. apply hd_ptr_strip1. }
    change (w_set_rl (dstw data0 cap0 m rl0) InSrc rl1) with (dstw data0 cap0 m rl1) in Hs0.
    destruct (canon_child_slot c fx m f (fun w2 cp => ptrlist_set 4 w2 cl i InDst cp) HQ data0 cap0 rl1 rl0 _ _ _ _ dep rlk q rlk'
                p0 vi (zlen data + 8 * i) w0 Hinv0 ltac:(lia) ltac:(lia) ltac:(lia) ER (SS eq_refl) RK DK)
      as (word & body & cap2 & rl2 & E & Hinv2 & Henc); [|exact Hs0|].
    { intros w2 cp0. unfold ptrlist_set.
      rewrite (primitiveElem_ptrs true cl i eq_refl eq_refl eq_refl eq_refl Hin) by (cbn [cl p_off]; unfold maxSegmentSize; lia).
      cbn [bind cl p_seg p_off]. f_equal. lia. }
    exists word, body, cap2, rl2. split; [exact E|]. split; [exact Hinv2|]. intros F HF. rewrite Eval.
    replace (zlen data / 8 + i) with ((zlen data + 8 * i) / 8) by lia.
    apply Henc. rewrite <- Eval. apply HF, Hin. }
  destruct (kfold (iota (Z.to_nat n)) (dstw data1 cap1 m rl) _) as [w3| | |] eqn:Ek; try discriminate H.
  cbn [kbind] in H. inversion H; subst w' cp; clear H.
  replace (Z.to_nat n) with (length vals) in Ek by (unfold zlen in Lvals; lia).
  destruct (slots_loop step m (zlen data) vals okF enc ltac:(lia) Hi1 Hstep (length vals) (le_n _)
                       data1 cap1 rl w3 ltac:(split; lia) ltac:(lia) Ek)
    as (pwords & kids & cap' & rl' & Lp & -> & Hinvk & Ec0).
  assert (Edata : set_slots data1 (zlen data) pwords = data ++ bytes_of_words pwords).
  { unfold data1. replace (Z.to_nat (8 * n)) with (8 * length pwords)%nat by (unfold zlen in *; lia). apply set_slots_end. }
  rewrite Edata. exists (pwords ++ kids), cap', rl'. rewrite (bow_app pwords kids), <- app_assoc.
  split; [reflexivity|].
  assert (Lbw : zlen (bytes_of_words pwords) = 8 * n) by (unfold zlen in *; rewrite bytes_of_words_length; lia).
  split.
  { unfold hinv in *. rewrite !zlen_app in *. rewrite Lbw. rewrite L1 in Hinvk. lia. }
  split.
  { right. unfold cl. cbn [p_valid p_seg p_member p_off p_kind p_size p_len p_comp p_bit].
    split; [reflexivity|]. split; [reflexivity|]. split; [reflexivity|]. split; [exact Hi1|].
    split; [rewrite !zlen_app, Lbw; assert (0 <= zlen (bytes_of_words kids)) by (unfold zlen; lia); lia|].
    split; [lia|]. left. reflexivity. }
  intros a F Ha Ham Hab HFd.
  assert (En : norm (VList LPtr vs) = VList LPtr (map (fun n0 => VStruct [] [n0]) vals)).
  { cbn [norm]. f_equal. unfold vals. rewrite !map_map. reflexivity. }
  rewrite En in *. destruct F as [|F']; [cbn [vdepth] in HFd; lia|].
  assert (HFk : okF F').
  { intros i Hi0. cbn [vdepth] in HFd.
    assert (Hin : In (VStruct [] [nth (Z.to_nat i) vals VNull]) (map (fun n0 => VStruct [] [n0]) vals)).
    { apply (in_map (fun n0 => VStruct [] [n0])). apply nth_In. unfold zlen in *. lia. }
    pose proof (vdepth_in_fold _ _ Hin) as Hd. cbn [vdepth fold_right] in Hd. lia. }
  specialize (Ec0 F' HFk). rewrite firstn_all in Ec0.
  assert (Lm : zlen (map (fun n0 : value => VStruct [] [n0]) vals) = n) by (unfold zlen in *; rewrite map_length; exact Lvals).
  cbn [enc]. rewrite !Lm.
  unfold two29. destruct ((n >=? 536870912) || (zlen data / 8 - a / 8 - 1 >=? 536870912)) eqn:E1; [lia|].
  rewrite map_map. cbn [sptrs hd_ptr].
  replace (zlen data / 8 + n) with (zlen data1 / 8) by lia. change (fun x : value => CP x) with CP. rewrite Ec0. cbn [cbind fst snd].
  unfold ptr_word, cl. cbn [p_valid negb p_kind p_comp p_bit p_size PointerCount p_off p_len]. reflexivity.
Qed.

End ListP.
