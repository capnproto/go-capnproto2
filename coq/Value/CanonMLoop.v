(* C18 [T2]: the loop invariant of Canonicalize's loops (struct pointers, pointer-list elements,
   struct-list elements): step i fills block i of an area (for the pointer loops a block is one
   slot, set to the pointer word of child i) and appends the canonical bytes of its children at the
   end of the segment -- exactly enc_cells. *)
From CV Require Import Value.ValueEq Value.EqualM Value.CanonSpec Value.CanonProofs Value.CanonProofs3 Value.CanonM Value.CanonMStruct Value.CanonMData Value.CanonMHeap Value.DenLists.
From CV Require Import Core.ReaderFacts Core.SafetyProofs Core.BuilderFacts.
From Coq Require Import ZifyBool ZifyNat.
Ltac Zify.zify_post_hook ::= Z.div_mod_to_equations.
Open Scope Z_scope.

Lemma enc_cells_app_words ev d cs pos cur :
  enc_cells ev (map CW d ++ cs) pos cur =
  match enc_cells ev cs (pos + zlen d) cur with
  | COk bk => COk (d ++ fst bk, snd bk) | CCap => CCap | CSize => CSize | CFuel => CFuel
  end.
Proof.
  revert pos. induction d as [|w r IH]; intros pos.
  - cbn [map app]. replace (pos + zlen (@nil Z)) with pos by (unfold zlen; cbn; lia).
    destruct (enc_cells ev cs pos cur) as [[b k]| | |]; reflexivity.
  - cbn [map app enc_cells]. rewrite IH. replace (pos + 1 + zlen r) with (pos + zlen (w :: r)) by (unfold zlen; cbn [length]; lia).
    destruct (enc_cells ev cs (pos + zlen (w :: r)) cur) as [[b k]| | |]; reflexivity.
Qed.

Lemma enc_cells_app ev : forall c1 c2 pos cur b1 k1 b2 k2,
  enc_cells ev c1 pos cur = COk (b1, k1) ->
  enc_cells ev c2 (pos + zlen c1) (cur + zlen k1) = COk (b2, k2) ->
  enc_cells ev (c1 ++ c2) pos cur = COk (b1 ++ b2, k1 ++ k2).
Proof.
  induction c1 as [|c c1 IH]; intros c2 pos cur b1 k1 b2 k2 H1 H2.
  - cbn in H1. inversion H1; subst. cbn [app].
    replace (pos + zlen (@nil cell)) with pos in H2 by (unfold zlen; cbn; lia).
    replace (cur + zlen (@nil Z)) with cur in H2 by (unfold zlen; cbn; lia). exact H2.
  - destruct c as [w0|v0]; cbn [app enc_cells] in *.
    + destruct (enc_cells ev c1 (pos + 1) cur) as [[b' k']| | |] eqn:E; try discriminate.
      cbn in H1. inversion H1; subst.
      rewrite (IH c2 (pos + 1) cur b' k1 b2 k2 E)
        by (replace (pos + 1 + zlen c1) with (pos + zlen (CW w0 :: c1)) by (unfold zlen; cbn [length]; lia); exact H2).
      reflexivity.
    + destruct (ev v0 pos cur) as [[w1 body1]| | |] eqn:E0; try discriminate. cbn [cbind fst snd] in *.
      destruct (enc_cells ev c1 (pos + 1) (cur + zlen body1)) as [[b' k']| | |] eqn:E; try discriminate.
      cbn in H1. inversion H1; subst.
      rewrite (IH c2 (pos + 1) (cur + zlen body1) b' k' b2 k2 E).
      * cbn [cbind fst snd]. rewrite app_assoc. reflexivity.
      * replace (pos + 1 + zlen c1) with (pos + zlen (CP v0 :: c1)) by (unfold zlen; cbn [length]; lia).
        replace (cur + zlen body1 + zlen k') with (cur + zlen (body1 ++ k')) by (unfold zlen; rewrite app_length; lia). exact H2.
Qed.

Lemma kfold_app {A} (f : A -> Z -> cout A) : forall l1 l2 a,
  kfold (l1 ++ l2) a f = kbind (kfold l1 a f) (fun a' => kfold l2 a' f).
Proof.
  induction l1 as [|y r IH]; intros l2 a; [reflexivity|]. cbn [app kfold].
  destruct (f a y); cbn [kbind]; auto.
Qed.

Lemma iota_S n : iota (S n) = iota n ++ [Z.of_nat n].
Proof. unfold iota. rewrite seq_S, map_app. reflexivity. Qed.

Definition set_slots (data : list Z) (B : Z) (ws : list Z) : list Z :=
  firstn (Z.to_nat B) data ++ bytes_of_words ws ++ skipn (Z.to_nat B + 8 * length ws) data.

Lemma bow_app a b : bytes_of_words (a ++ b) = bytes_of_words a ++ bytes_of_words b.
Proof. unfold bytes_of_words. apply flat_map_app. Qed.

Lemma set_slots_one data a w : set_slots data a [w] = put_word data a w.
Proof. unfold set_slots, put_word. cbn [bytes_of_words flat_map length]. rewrite app_nil_r. reflexivity. Qed.

Lemma set_slots_nil data B : 0 <= B <= zlen data -> set_slots data B [] = data.
Proof. intros H. unfold set_slots. cbn [bytes_of_words flat_map length app]. rewrite Nat.mul_0_r, Nat.add_0_r. apply firstn_skipn. Qed.

Lemma put_word_mid l1 r kids w : (8 <= length r)%nat ->
  put_word ((l1 ++ r) ++ kids) (Z.of_nat (length l1)) w = (l1 ++ le_encode 8 w ++ skipn 8 r) ++ kids.
Proof.
  intros Hr. unfold put_word. rewrite Nat2Z.id, <- !app_assoc, firstn_app_exact. f_equal. f_equal.
  rewrite skipn_app, (skipn_all2 l1) by lia. cbn [app].
  replace (length l1 + 8 - length l1)%nat with 8%nat by lia.
  rewrite skipn_app. replace (8 - length r)%nat with 0%nat by lia. reflexivity.
Qed.

Lemma set_slots_length data B ws : 0 <= B -> B + 8 * Z.of_nat (length ws) <= zlen data ->
  zlen (set_slots data B ws) = zlen data.
Proof.
  intros HB Hb. unfold set_slots, zlen in *. rewrite !app_length, firstn_length, skipn_length, bytes_of_words_length. lia.
Qed.

Lemma set_slots_app_left d t A ws : 0 <= A -> A + 8 * zlen ws <= zlen d ->
  set_slots (d ++ t) A ws = set_slots d A ws ++ t.
Proof.
  intros Ha Hb. unfold set_slots, zlen in *. rewrite firstn_app, skipn_app.
  replace (Z.to_nat A - length d)%nat with 0%nat by lia.
  replace (Z.to_nat A + 8 * length ws - length d)%nat with 0%nat by lia.
  change (firstn 0 t) with (@nil Z). change (skipn 0 t) with t. rewrite app_nil_r, <- !app_assoc. reflexivity.
Qed.

Lemma set_slots_app data A w1 w2 : 0 <= A -> A + 8 * zlen (w1 ++ w2) <= zlen data ->
  set_slots (set_slots data A w1) (A + 8 * zlen w1) w2 = set_slots data A (w1 ++ w2).
Proof.
  intros HA Hb. unfold zlen in Hb. rewrite app_length in Hb.
  set (P := firstn (Z.to_nat A) data). set (M := bytes_of_words w1).
  set (R := skipn (Z.to_nat A + 8 * length w1) data).
  assert (LP : length P = Z.to_nat A) by (unfold P; rewrite firstn_length; lia).
  assert (LM : length M = (8 * length w1)%nat) by (unfold M; apply bytes_of_words_length).
  assert (EX : set_slots data A w1 = (P ++ M) ++ R) by (unfold set_slots; fold P M R; apply app_assoc).
  assert (EB : Z.to_nat (A + 8 * zlen w1) = length (P ++ M)) by (rewrite app_length, LP, LM; unfold zlen; lia).
  unfold set_slots at 1. rewrite EX, EB, firstn_app_exact.
  assert (ES : skipn (length (P ++ M) + 8 * length w2) ((P ++ M) ++ R) = skipn (8 * length w2) R).
  { rewrite skipn_app. rewrite (skipn_all2 (P ++ M)) by lia. cbn [app]. f_equal. lia. }
  rewrite ES. unfold R. rewrite <- skipn_add.
  unfold set_slots. fold P. rewrite bow_app. fold M. rewrite <- !app_assoc. f_equal. f_equal. f_equal. f_equal.
  rewrite app_length. lia.
Qed.

(* setting slot k after slots 0..k-1, with children already appended behind the old data *)
Lemma put_word_slot data B ws kids w : 0 <= B -> B + 8 * Z.of_nat (length ws) + 8 <= zlen data ->
  put_word (set_slots data B ws ++ kids) (B + 8 * Z.of_nat (length ws)) w = set_slots data B (ws ++ [w]) ++ kids.
Proof.
  intros HB Hb. rewrite <- set_slots_one, set_slots_app_left.
  - fold (zlen ws). rewrite set_slots_app; [reflexivity|assumption|]. rewrite zlen_app. unfold zlen in *. cbn [length]. lia.
  - lia.
  - rewrite set_slots_length by lia. unfold zlen in *. cbn [length]. lia.
Qed.

Definition hinv (data : list Z) : Prop := zlen data mod 8 = 0 /\ zlen data <= 4294967288.

(* [step] handles element i: it writes the block of bw words at B + 8*bw*i and appends bytes.
   [F] is the fuel of the specification's encoder: the callers take evs := enc and
   okF F := the depth of every child is at most F. *)
Lemma blocks_loop (step : world -> Z -> cout world) (m : segs) (B bw : Z) (n0 : nat) (cellsOf : Z -> list cell)
      (okF : nat -> Prop) (evs : nat -> value -> Z -> Z -> cres (Z * list Z)) :
  0 <= B -> B mod 8 = 0 -> 0 <= bw -> (forall i, zlen (cellsOf i) = bw) ->
  (forall i data cap rl w', 0 <= i < Z.of_nat n0 -> hinv data -> B + 8 * bw * Z.of_nat n0 <= zlen data ->
     step (dstw data cap m rl) i = KOk w' ->
     exists block body cap' rl',
       zlen block = bw /\
       w' = dstw (set_slots data (B + 8 * bw * i) block ++ bytes_of_words body) cap' m rl' /\
       hinv (data ++ bytes_of_words body) /\
       forall F, okF F -> enc_cells (evs F) (cellsOf i) (B / 8 + bw * i) (zlen data / 8) = COk (block, body)) ->
  forall n, (n <= n0)%nat -> forall data cap rl w',
    hinv data -> B + 8 * bw * Z.of_nat n0 <= zlen data ->
    kfold (iota n) (dstw data cap m rl) step = KOk w' ->
    exists words kids cap' rl',
      zlen words = bw * Z.of_nat n /\ w' = dstw (set_slots data B words ++ bytes_of_words kids) cap' m rl' /\
      hinv (data ++ bytes_of_words kids) /\
      forall F, okF F -> enc_cells (evs F) (flat_map cellsOf (iota n)) (B / 8) (zlen data / 8) = COk (words, kids).
Proof.
  intros HB HBm Hbw Hcl Hstep. induction n as [|n IH]; intros Hn data cap rl w' Hi Hb H.
  - cbn in H. inversion H; subst. exists [], [], cap, rl. split; [unfold zlen; cbn; lia|].
    rewrite set_slots_nil by (unfold zlen in *; nia). cbn [bytes_of_words flat_map]. rewrite !app_nil_r.
    split; [reflexivity|]. split; [exact Hi| intros F _; reflexivity].
  - rewrite iota_S, kfold_app in H.
    destruct (kfold (iota n) (dstw data cap m rl) step) as [wk| | |] eqn:Ek; try discriminate. cbn [kbind] in H.
    destruct (IH ltac:(lia) data cap rl wk Hi Hb Ek) as (words & kids & cap1 & rl1 & Lw & -> & Hi1 & Ec).
    cbn [kfold] in H. destruct (step _ (Z.of_nat n)) as [w2| | |] eqn:Es; try discriminate. cbn [kbind] in H.
    inversion H; subst w'; clear H.
    assert (Hnn : bw * Z.of_nat n + bw <= bw * Z.of_nat n0) by nia.
    assert (Lsl : zlen (set_slots data B words) = zlen data).
    { apply set_slots_length; [assumption|]. unfold zlen in *. lia. }
    assert (Hi1' : hinv (set_slots data B words ++ bytes_of_words kids)).
    { unfold hinv in *. rewrite zlen_app, Lsl. rewrite zlen_app in Hi1. exact Hi1. }
    destruct (Hstep (Z.of_nat n) _ cap1 rl1 w2 ltac:(lia) Hi1'
                    ltac:(rewrite zlen_app, Lsl; unfold zlen in *; lia) Es)
      as (block & body & cap2 & rl2 & Lbk & -> & Hi2 & Ev).
    exists (words ++ block), (kids ++ body), cap2, rl2.
    split; [rewrite zlen_app; lia|]. split.
    + f_equal. rewrite set_slots_app_left by (try rewrite Lsl; lia).
      replace (B + 8 * bw * Z.of_nat n) with (B + 8 * zlen words) by lia.
      rewrite set_slots_app by (try rewrite zlen_app; lia).
      rewrite bow_app, <- !app_assoc. reflexivity.
    + split.
      * unfold hinv in *. rewrite bow_app. rewrite !zlen_app in *. rewrite Lsl in Hi2. lia.
      * intros F HF. specialize (Ec F HF). specialize (Ev F HF).
        rewrite iota_S, flat_map_app. cbn [flat_map]. rewrite app_nil_r.
        apply (enc_cells_app (evs F) _ _ _ _ words kids block body Ec).
        assert (Lfm : zlen (flat_map cellsOf (iota n)) = bw * Z.of_nat n).
        { clear - Hcl. induction n as [|n IHn]; [unfold zlen; cbn; lia|].
          rewrite iota_S, flat_map_app, zlen_app, IHn. cbn [flat_map]. rewrite app_nil_r, Hcl. lia. }
        rewrite Lfm.
        replace (zlen data / 8 + zlen kids) with (zlen (set_slots data B words ++ bytes_of_words kids) / 8).
        -- exact Ev.
        -- rewrite zlen_app, Lsl. unfold zlen at 2. rewrite bytes_of_words_length. destruct Hi as [Hmm _]. unfold zlen in *. lia.
Qed.

(* [step] handles slot i: reads the i-th source pointer, canonicalises it (appending its bytes)
   and stores the resulting pointer in slot i of the block at byte address B *)
Lemma slots_loop (step : world -> Z -> cout world) (m : segs) (B : Z) (vals : list value)
      (okF : nat -> Prop) (evs : nat -> value -> Z -> Z -> cres (Z * list Z)) :
  0 <= B -> B mod 8 = 0 ->
  (forall i data cap rl w', 0 <= i < zlen vals -> hinv data -> B + 8 * zlen vals <= zlen data ->
     step (dstw data cap m rl) i = KOk w' ->
     exists word body cap' rl',
       w' = dstw (put_word data (B + 8 * i) word ++ bytes_of_words body) cap' m rl' /\
       hinv (data ++ bytes_of_words body) /\
       forall F, okF F -> evs F (nth (Z.to_nat i) vals VNull) (B / 8 + i) (zlen data / 8) = COk (word, body)) ->
  forall n, (n <= length vals)%nat -> forall data cap rl w',
    hinv data -> B + 8 * zlen vals <= zlen data ->
    kfold (iota n) (dstw data cap m rl) step = KOk w' ->
    exists words kids cap' rl',
      length words = n /\ w' = dstw (set_slots data B words ++ bytes_of_words kids) cap' m rl' /\
      hinv (data ++ bytes_of_words kids) /\
      forall F, okF F -> enc_cells (evs F) (map CP (firstn n vals)) (B / 8) (zlen data / 8) = COk (words, kids).
Proof.
  intros HB HBm Hstep n Hn data cap rl w' Hi Hb H.
  destruct (blocks_loop step m B 1 (length vals) (fun i => [CP (nth (Z.to_nat i) vals VNull)]) okF evs HB HBm
              ltac:(lia) (fun _ => eq_refl)) with (n := n) (data := data) (cap := cap) (rl := rl) (w' := w')
    as (words & kids & cap' & rl' & Lw & E & Hk & Ec); try assumption.
  - intros i data0 cap0 rl0 w0 Hi0 Hinv0 Hb0 Hs0.
    destruct (Hstep i data0 cap0 rl0 w0 Hi0 Hinv0 ltac:(unfold zlen in *; lia) Hs0) as (word & body & cap1 & rl1 & E & Hk & Ev).
    exists [word], body, cap1, rl1. split; [reflexivity|].
    replace (B + 8 * 1 * i) with (B + 8 * i) by lia. rewrite set_slots_one. split; [exact E|]. split; [exact Hk|].
    intros F HF. cbn [enc_cells]. replace (B / 8 + 1 * i) with (B / 8 + i) by lia. rewrite (Ev F HF). cbn [cbind fst snd].
    rewrite app_nil_r. reflexivity.
  - exists words, kids, cap', rl'. split; [unfold zlen in Lw; lia|]. split; [exact E|]. split; [exact Hk|].
    intros F HF. rewrite <- (Ec F HF). f_equal. clear - Hn.
    induction n as [|n IH]; [reflexivity|].
    rewrite iota_S, flat_map_app, <- IH, (firstn_snoc VNull n vals), map_app by lia. cbn [flat_map map]. rewrite Nat2Z.id. reflexivity.
Qed.
