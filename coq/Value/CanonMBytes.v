(* C18 [T2] / C16 [T2]: byte-level helper lemmas shared by the list cases (words <-> bytes <-> pack,
   raw writes into the single destination segment) and the inversion lemmas of den for lists. *)
From CV Require Import Value.ValueEq Value.ValueEqProofs Value.EqualM Value.Den Value.DenFacts Value.DenLists
                       Value.CanonSpec Value.CanonProofs Value.CanonProofs3 Value.CanonM Value.CanonMStruct
                       Value.CanonMWords Value.CanonMData Value.CanonMHeap Value.CanonMLoop Value.CanonSafe
                       Value.CanonMInd Value.VDecProofs.
From CV Require Import Core.ReaderFacts Core.SafetyProofs Core.BuilderFacts Core.ArithFacts Core.CopySafe.
From Coq Require Import ZifyBool ZifyNat.
Ltac Zify.zify_post_hook ::= Z.div_mod_to_equations.
Open Scope Z_scope.

Lemma pack_word_app B a c : pack_word B (a ++ c) = pack_word B a + B ^ zlen a * pack_word B c.
Proof.
  induction a as [|x a IH]; cbn [app pack_word].
  - unfold zlen. cbn [length]. change (B ^ Z.of_nat 0) with 1. lia.
  - rewrite IH. unfold zlen. cbn [length]. rewrite Nat2Z.inj_succ, Z.pow_succ_r by lia. ring.
Qed.

Lemma le_decode_app a b : le_decode (a ++ b) = le_decode a + 256 ^ zlen a * le_decode b.
Proof.
  assert (E : forall l, le_decode l = pack_word 256 l) by (induction l as [|x l IH]; cbn [le_decode pack_word]; [|rewrite IH]; reflexivity).
  rewrite !E. apply pack_word_app.
Qed.

Lemma pack_word_chunks w g : Forall (fun c : list Z => length c = w) g ->
  pack_word (256 ^ Z.of_nat w) (map le_decode g) = le_decode (concat g).
Proof.
  induction 1 as [|c g Hc Hg IH]; cbn [map pack_word concat le_decode]; [reflexivity|].
  rewrite le_decode_app, IH. unfold zlen. rewrite Hc. reflexivity.
Qed.

Lemma concat_length_const w (g : list (list Z)) : Forall (fun c => length c = w) g -> length (concat g) = (w * length g)%nat.
Proof. induction 1 as [|c g Hc Hg IH]; cbn [concat length]; [lia|]. rewrite app_length, IH, Hc. lia. Qed.

Lemma Forall_firstn' {A} (P : A -> Prop) k l : Forall P l -> Forall P (firstn k l).
Proof. intros H. revert k. induction H; intros [|k]; cbn [firstn]; constructor; auto. Qed.
Lemma Forall_skipn' {A} (P : A -> Prop) k l : Forall P l -> Forall P (skipn k l).
Proof. intros H. revert k. induction H; intros [|k]; cbn [skipn]; try constructor; auto. Qed.

Lemma wob_8 a r : length a = 8%nat -> words_of_bytes (a ++ r) = le_decode a :: words_of_bytes r.
Proof.
  intros H. do 8 (destruct a as [|? a]; [discriminate H|]). destruct a; [|discriminate H]. reflexivity.
Qed.

Lemma wob_small l : (0 < length l < 8)%nat -> words_of_bytes l = [le_decode l].
Proof.
  intros H. destruct l as [|b0 l]; [cbn in H; lia|].
  do 7 (destruct l as [|? l]; [reflexivity|]). cbn [length] in H. lia.
Qed.

Lemma pack_chunks w per : (w * per = 8)%nat -> forall fuel cs, (length cs <= fuel)%nat ->
  Forall (fun c : list Z => length c = w) cs ->
  pack_all fuel (256 ^ Z.of_nat w) per (map le_decode cs) = words_of_bytes (concat cs).
Proof.
  intros Hwp. assert (Hw : (1 <= w)%nat) by (destruct w; lia). assert (Hp : (1 <= per)%nat) by (destruct per; lia).
  induction fuel as [|fuel IH]; intros cs Hl Hf.
  - destruct cs; [reflexivity| cbn [length] in Hl; lia].
  - destruct cs as [|c0 r] eqn:Ecs; [reflexivity|].
    assert (Hne : (1 <= length cs)%nat) by (rewrite Ecs; cbn [length]; lia).
    cbn [map pack_all]. change (le_decode c0 :: map le_decode r) with (map le_decode (c0 :: r)). rewrite <- Ecs in *.
    rewrite firstn_map, skipn_map.
    rewrite (pack_word_chunks w) by (apply Forall_firstn'; exact Hf).
    rewrite IH; [| rewrite skipn_length; lia | apply Forall_skipn'; exact Hf].
    rewrite <- (firstn_skipn per cs) at 3. rewrite concat_app.
    pose proof (concat_length_const w _ (Forall_firstn' _ per cs Hf)) as Lg. rewrite firstn_length in Lg.
    destruct (Nat.le_gt_cases per (length cs)) as [Hge|Hlt].
    + rewrite Nat.min_l in Lg by lia. rewrite wob_8 by lia. reflexivity.
    + rewrite Nat.min_r in Lg by lia.
      rewrite (skipn_all2 cs) by lia. cbn [concat]. rewrite app_nil_r.
      assert (w * length cs < w * per)%nat by (apply Nat.mul_lt_mono_pos_l; lia).
      assert (1 * 1 <= w * length cs)%nat by (apply Nat.mul_le_mono; lia).
      change (words_of_bytes []) with (@nil Z). rewrite wob_small by lia. reflexivity.
Qed.

Lemma le_encode_zero n : le_encode n 0 = repeat 0 n.
Proof. induction n; cbn [le_encode repeat]; [reflexivity|]. change (0 mod 256) with 0. change (0 / 256) with 0. rewrite IHn. reflexivity. Qed.

Lemma le_encode_decode_pad : forall l n, bytes_ok l -> (length l <= n)%nat ->
  le_encode n (le_decode l) = l ++ repeat 0 (n - length l).
Proof.
  induction l as [|b l IH]; intros n Hb Hl.
  - cbn [le_decode length app]. rewrite Nat.sub_0_r. apply le_encode_zero.
  - destruct n as [|n]; [cbn [length] in Hl; lia|]. inversion Hb as [|? ? Hb0 Hbl]; subst.
    cbn [le_decode le_encode length app Nat.sub].
    replace ((b + 256 * le_decode l) mod 256) with b by lia.
    replace ((b + 256 * le_decode l) / 256) with (le_decode l) by lia.
    rewrite IH; [reflexivity|exact Hbl|cbn [length] in Hl; lia].
Qed.

(* read as words and written back, bytes come back zero-padded to a word boundary *)
Lemma bow_wob_pad : forall fuel d, (length d <= fuel)%nat -> bytes_ok d ->
  exists k, bytes_of_words (words_of_bytes d) = d ++ repeat 0 k /\ ((length d + k) mod 8 = 0)%nat /\ (k < 8)%nat.
Proof.
  induction fuel as [|fuel IH]; intros d Hl Hb.
  - destruct d; [|cbn [length] in Hl; lia]. exists 0%nat. split; [reflexivity|]. split; [reflexivity|lia].
  - destruct (Nat.le_gt_cases 8 (length d)) as [Hge|Hlt].
    + assert (Ew : words_of_bytes d = le_decode (firstn 8 d) :: words_of_bytes (skipn 8 d)).
      { rewrite <- (firstn_skipn 8 d) at 1. apply wob_8. rewrite firstn_length; lia. }
      destruct (IH (skipn 8 d)) as (k & E & Hm & Hk); [rewrite skipn_length; lia| apply Forall_skipn'; exact Hb|].
      exists k. rewrite Ew. unfold bytes_of_words. cbn [flat_map]. fold (bytes_of_words (words_of_bytes (skipn 8 d))). rewrite E.
      assert (L8 : length (firstn 8 d) = 8%nat) by (rewrite firstn_length; lia).
      pose proof (le_encode_decode (firstn 8 d) (Forall_firstn' _ 8 d Hb)) as E8. rewrite L8 in E8. rewrite E8.
      rewrite app_assoc, firstn_skipn. split; [reflexivity|]. split; [|exact Hk].
      rewrite skipn_length in Hm. replace (length d + k)%nat with ((length d - 8 + k) + 1 * 8)%nat by lia.
      rewrite Nat.mod_add by discriminate. exact Hm.
    + destruct d as [|b0 r] eqn:Ed.
      * exists 0%nat. split; [reflexivity|]. split; [reflexivity|lia].
      * rewrite <- Ed in *. assert (0 < length d)%nat by (rewrite Ed; cbn [length]; lia).
        rewrite wob_small by lia. exists (8 - length d)%nat. unfold bytes_of_words. cbn [flat_map]. rewrite app_nil_r.
        rewrite le_encode_decode_pad by (assumption || lia). split; [reflexivity|].
        split; [|lia]. replace (length d + (8 - length d))%nat with 8%nat by lia. reflexivity.
Qed.

Lemma skipn_repeat {A} (x : A) : forall k n, skipn k (repeat x n) = repeat x (n - k).
Proof. induction k; intros [|n]; cbn [skipn repeat Nat.sub]; auto. Qed.

Lemma write_bytes_end data P bs : (length bs <= P)%nat ->
  write_bytes (data ++ repeat 0 P) (zlen data) bs = data ++ bs ++ repeat 0 (P - length bs).
Proof.
  intros H. unfold write_bytes, zlen. rewrite Nat2Z.id, firstn_app, Nat.sub_diag, firstn_all. cbn [firstn]. rewrite app_nil_r.
  f_equal. f_equal. rewrite skipn_app, skipn_all2 by lia. cbn [app].
  replace (length data + length bs - length data)%nat with (length bs) by lia. apply skipn_repeat.
Qed.

Lemma concat_chunks s o w : 0 <= o -> 0 <= w -> forall n : nat,
  concat (map (fun i => sub s (o + i * w) w) (iota n)) = sub s o (Z.of_nat n * w).
Proof.
  intros Ho Hw. induction n as [|n IH].
  - cbn. unfold sub. cbn. reflexivity.
  - rewrite iota_S, map_app, concat_app, IH. cbn [map concat]. rewrite app_nil_r.
    replace (Z.of_nat (S n) * w) with (Z.of_nat n * w + w) by lia. rewrite sub_split by lia. reflexivity.
Qed.

Lemma iota_length n : length (iota n) = n.
Proof. unfold iota; rewrite map_length, seq_length; reflexivity. Qed.

Lemma nth_map_iota {A} (h : Z -> A) n i d : (i < n)%nat -> nth i (map h (iota n)) d = h (Z.of_nat i).
Proof.
  intros H. rewrite (nth_indep _ d (h 0)) by (rewrite map_length, iota_length; exact H).
  rewrite (map_nth h (iota n) 0 i), nth_iota by exact H. reflexivity.
Qed.

Lemma hd_ptr_strip1 x : hd_ptr (stripN [x]) = x.
Proof. cbn [stripN]. destruct (is_null x) eqn:E; [|reflexivity]. destruct x; try discriminate. reflexivity. Qed.


Section Inv.
Context (m : segs).

Lemma den_ptrs_inv p vs : den true m 0 [] p (VList LPtr vs) ->
  p_valid p = true /\ p_kind p = KList /\ p_bit p = false /\ p_comp p = false /\ p_size p = mkOS 0 1 /\
  zlen vs = p_len p /\
  (forall i, 0 <= i < p_len p ->
     exists dep rl q rl' v, readPtr true m rl (p_seg p) (seg_of m p) (p_off p + 8 * i) dep = (Ok q, rl')
       /\ den true m 0 [] q v /\ nthv vs i = VStruct [] [v]).
Proof.
  intros D. inversion D; subst.
  - split; [assumption|]. split; [assumption|]. split; [assumption|]. split; [assumption|]. split; [assumption|].
    split; assumption.
  - match goal with H : prim_width ?w |- _ => destruct H as [->|[->|[->|[->| ->]]]]; discriminate end.
Qed.

Lemma den_prim_inv p k vs : den true m 0 [] p (VList k vs) -> k <> LPtr -> k <> LComp ->
  exists w, prim_width w /\ k = kind_of_width w /\
  p_valid p = true /\ p_kind p = KList /\ p_bit p = false /\ p_comp p = false /\ p_size p = mkOS w 0 /\
  zlen vs = p_len p /\
  (forall i, 0 <= i < p_len p -> exists d, slice (seg_of m p) (p_off p + i * w) w = Ok d
                 /\ nthv vs i = VStruct (words_of_bytes d) []).
Proof.
  intros D K1 K2. inversion D; subst; try congruence.
  exists w. split; [assumption|]. split; [reflexivity|]. split; [assumption|]. split; [assumption|].
  split; [assumption|]. split; [assumption|]. split; [assumption|]. split; assumption.
Qed.

End Inv.
