(* C18 [T2]: the pointer words written by the builder
   model (rawStructPointer / rawListPointer, placed with withOffset by the near branch of
   [place], and the tag word of NewCompositeList) ARE the arithmetic pointer words of the
   canonical-form specification (struct_word / list_word). *)
From CV Require Import Core.Arith Core.ArithFacts Value.ValueEq Value.CanonSpec.
From Coq Require Import ZifyBool.
Ltac Zify.zify_post_hook ::= Z.div_mod_to_equations.
Open Scope Z_scope.

(* also the tag word of NewCompositeList: the element count stands in the offset field *)
Lemma raw_struct_is_struct_word off sz : os_wf sz ->
  rawStructPointer off sz = Some (struct_word off (DataSize sz / 8) (PointerCount sz)).
Proof.
  intros H. rewrite (rawStructPointer_sum off sz H). f_equal.
  unfold struct_word, two30, two32, two48. lia.
Qed.

(* Segment.writePtr, near case: raw struct pointer with zero offset, then withOffset *)
Theorem placed_struct_word off sz raw : os_wf sz ->
  rawStructPointer 0 sz = Some raw ->
  withOffset raw off = struct_word off (DataSize sz / 8) (PointerCount sz).
Proof.
  intros H E. rewrite (rawStructPointer_sum 0 sz H) in E. inversion E; subst raw; clear E.
  rewrite withOffset_sum. destruct H as (Hd & Hm & Hp).
  unfold struct_word, two30, two32, two48.
  assert (0 <= off mod 1073741824 < 1073741824) by (apply Z.mod_pos_bound; lia).
  set (o := off mod 1073741824) in *. clearbody o.
  set (dn := DataSize sz / 8) in *. assert (0 <= dn <= 65535) by (unfold dn; lia). clearbody dn.
  set (pn := PointerCount sz) in *. clearbody pn.
  replace (0 mod 1073741824) with 0 by reflexivity. lia.
Qed.

Theorem placed_list_word off lt n : 0 <= lt < 8 -> 0 <= n < 536870912 ->
  withOffset (rawListPointer 0 lt n) off = list_word off lt n.
Proof.
  intros Hl Hn. rewrite (rawListPointer_sum 0 lt n Hl Hn), withOffset_sum.
  unfold list_word, two30, two32, two35.
  assert (0 <= off mod 1073741824 < 1073741824) by (apply Z.mod_pos_bound; lia).
  set (o := off mod 1073741824) in *. clearbody o. replace (0 mod 1073741824) with 0 by reflexivity. lia.
Qed.

(* the zero-sized struct pointer (offset -1) *)
Lemma empty_struct_word : rawStructPointer (-1) (mkOS 0 0) = Some (struct_word (-1) 0 0).
Proof. vm_compute. reflexivity. Qed.
