(* C16 [T2] copy_value: writePtr of data-only lists (void, 1/2/4/8-byte, bit lists): the bytes are copied *)
From CV Require Import Value.ValueEq Value.ValueEqProofs Value.EqualM Value.Den Value.DenFacts Value.DenLists
                       Value.CanonSpec Value.CanonProofs3 Value.CanonM Value.CanonMStruct Value.CanonMData Value.CanonMHeap
                       Value.CanonMLoop Value.CanonMInd Value.CanonMBytes Value.CanonMBlocks Value.CopyValue Value.CopyValueHeap Value.CopyValueDefs.
From CV Require Import Core.ReaderFacts Core.SafetyProofs Core.BuilderFacts Core.ArithFacts Core.CopySafe Core.WritePtrProofs.
From Coq Require Import ZifyBool ZifyNat.
Ltac Zify.zify_post_hook ::= Z.div_mod_to_equations.
Open Scope Z_scope.

Section Copy.
Context (m : segs) (Hm : msg_ok m).

(* the copying branch of writePtr for a non-composite list without pointers: the list's bytes bs
   land at the end of the segment (padded to a word); v is any value that a list pointer with the
   source's shape denotes wherever those bytes stand *)
Lemma raw_list_copy f D cap rl a src fc w' lt v :
  hinv D -> 0 <= a -> a mod 8 = 0 -> a + 8 <= zlen D ->
  p_valid src = true -> p_kind src = KList -> p_comp src = false ->
  (p_bit src || (PointerCount (p_size src) =? 0)) = true ->
  0 <= p_len src < 536870912 -> 0 <= lt < 7 ->
  list_raw (mkPtr true 0 (zlen D) (p_len src) (p_size src) maxDepth KList false (p_bit src) false)
    = Ok (rawListPointer 0 lt (p_len src)) ->
  (if lt =? 1 then mkOS 0 0 else es_of lt) = p_size src -> (lt =? 1) = p_bit src ->
  (if lt =? 1 then bitListSize (p_len src) else totalSize (es_of lt) * p_len src) = list_allocSize src ->
  0 <= p_off src -> p_off src + list_allocSize src <= zlen (seg_of m src) -> zlen (seg_of m src) <= 4294967288 ->
  (forall M, zlen D + list_allocSize src <= zlen M -> zlen M <= BOUND ->
     sub M (zlen D) (list_allocSize src) = sub (seg_of m src) (p_off src) (list_allocSize src) ->
     forall mid caps, den true [M] mid caps
       (mkPtr true 0 (zlen D) (p_len src) (p_size src) (uint_dec 1) KList false (p_bit src) false) v) ->
  write_ptr (S f) true (dstw D cap m rl) 0 a InSrc src fc = Ok w' ->
  exists word body cap' rl',
    w' = dstw (put_word D a word ++ body) cap' m rl' /\ hinv (D ++ body) /\ bytes_ok body /\
    forall pre' tail, zlen pre' = zlen D -> word_is pre' a word -> zlen (pre' ++ body ++ tail) <= BOUND ->
      reads_as (pre' ++ body ++ tail) a v.
Proof.
  intros Hi Ha Ham Hab Hv Hk Hc Hraw Hn Hlt Hlr Hes Hbit Hls Ho Hbd Hsl Hden H.
  pose proof Hi as [Hi1 Hi2]. pose proof (zlen_nonneg D) as Z0.
  set (sz := list_allocSize src) in *.
  assert (Hsz : 0 <= sz).
  { rewrite <- Hls. destruct (lt =? 1); [unfold bitListSize, u32; lia|]. pose proof (totalSize_nonneg (es_of lt)). nia. }
  rewrite write_ptr_S in H. rewrite Hv, Hk in H. cbn [negb] in H.
  replace (fc || is_src InSrc) with true in H by (cbn [is_src]; rewrite Bool.orb_true_r; reflexivity).
  cbv zeta in H. fold sz in H. cbn [w_dst dstw] in H.
  destruct (alloc (seg0 D cap) 0 sz) as [[[m1 sid1] addr]| |] eqn:Ea; try discriminate H.
  destruct (alloc_seg0_end D cap sz m1 sid1 addr Ea) as (Hbound0 & cap1 & -> & -> & ->).
  cbn [bind] in H. rewrite Hc, Hraw in H. cbn [bind] in H.
  unfold copy_bytes in H. cbn [w_segs w_set_dst w_src w_dst dstw] in H.
  change (nth (Z.to_nat (p_seg src)) m []) with (seg_of m src) in H.
  rewrite slice_ok in H by lia. cbn [bind] in H.
  set (bs := sub (seg_of m src) (p_off src) sz) in *.
  assert (Lbs : zlen bs = sz) by (unfold bs; apply sub_length; lia).
  assert (P0 : sz <= padToWord sz /\ padToWord sz mod 8 = 0) by (unfold padToWord, u32; lia).
  unfold lift0 in H. cbn [w_dst] in H.
  rewrite seg_write_raw in H by (rewrite ?zlen_app, ?zlen_repeat; lia).
  cbn [bind] in H. rewrite write_bytes_end in H by (unfold zlen in *; lia).
  set (pad := (Z.to_nat (padToWord sz) - length bs)%nat) in *.
  assert (Lpad : Z.of_nat pad = padToWord sz - sz) by (unfold pad, zlen in *; lia).
  cbn [bind p_comp p_seg p_off] in H. rewrite Hlr in H. cbn [bind] in H. cbn [w_dst w_set_dst] in H.
  refine (wp_finish m D (bs ++ repeat 0 pad) cap1 rl a _ v w' _ _ Ha Hab H _).
  { split; rewrite !zlen_app, zlen_repeat; lia. }
  { apply Forall_app; split; [apply bytes_ok_sub, (seg_of_ok m src Hm)|apply zeros_bytes_ok]. }
  intros pre' tail Lp Hbound HwM. pose proof (zlen_nonneg tail) as Lt0.
  set (M := pre' ++ (bs ++ repeat 0 pad) ++ tail) in *.
  assert (LM : zlen M = zlen D + padToWord sz + zlen tail) by (unfold M; rewrite !zlen_app, zlen_repeat; lia).
  pose proof (elementSize_raw lt (p_len src) Hlt Hn) as Ees.
  destruct (read_near_list true M a (zlen D) lt (p_len src) 1 Hlt Hn Ha Ham ltac:(lia) ltac:(unfold BOUND in *; lia) Z0 Hi1) as (rl' & RR).
  - cbv zeta. rewrite Ees, Hls. lia.
  - exact HwM.
  - lia.
  - cbv zeta in RR. rewrite Ees, Hes, Hbit in RR. eexists 1, 4294967288, _, rl'. split; [exact RR|].
    apply Hden; [lia|exact Hbound|]. unfold M. rewrite <- Lp, <- Lbs, <- app_assoc, app_assoc, sub_app_l by (rewrite ?zlen_app; lia). apply sub_end.
Qed.

Lemma wp_raw_list f D cap rl a src v fc w' :
  hinv D -> 0 <= a -> a mod 8 = 0 -> a + 8 <= zlen D ->
  wf_ptr m src -> caligned src -> den true m 0 [] src v ->
  match v with VBits _ => True | VList k _ => k <> LPtr /\ k <> LComp | _ => False end ->
  write_ptr (S f) true (dstw D cap m rl) 0 a InSrc src fc = Ok w' ->
  exists word body cap' rl',
    w' = dstw (put_word D a word ++ body) cap' m rl' /\ hinv (D ++ body) /\ bytes_ok body /\
    forall pre' tail, zlen pre' = zlen D -> word_is pre' a word -> zlen (pre' ++ body ++ tail) <= BOUND ->
      reads_as (pre' ++ body ++ tail) a v.
Proof.
  intros Hi Ha Ham Hab Hwf Hcal D0 Hdom H.
  pose proof (zlen_nonneg D) as Z0. pose proof (proj1 (seg_of_ok m src Hm)) as Hsl. unfold maxSegmentSize in Hsl.
  destruct v as [| | |k vs|bits]; try contradiction.
  - (* void / primitive list *)
    destruct Hdom as [K1 K2].
    destruct (den_prim_inv m _ _ _ D0 K1 K2) as (w & Hw & -> & Hv & Hk & Hb & Hc & Hsz & Lvs & K).
    destruct (Hwf Hv) as (Hseg & Hobj). unfold wf_obj in Hobj. rewrite Hk, Hb, Hsz in Hobj.
    destruct Hobj as (Ho & Hlen & _ & Hbd). rewrite (totalSize_prim w Hw) in Hbd.
    assert (Hw8 : 0 <= w <= 8) by (destruct Hw as [->|[->|[->|[->| ->]]]]; lia).
    set (n := p_len src) in *.
    assert (Esz : list_allocSize src = n * w).
    { unfold list_allocSize. rewrite Hv, Hb, Hc, Hsz, (totalSize_prim w Hw). cbn [negb]. fold n.
      rewrite times_some by (unfold maxSegmentSize; nia). lia. }
    set (lt := if w =? 0 then 0 else if w =? 1 then 2 else if w =? 2 then 3 else if w =? 4 then 4 else 5).
    assert (Hlt : 0 <= lt < 7 /\ (lt =? 1) = false /\ es_of lt = mkOS w 0)
      by (unfold lt; destruct Hw as [->|[->|[->|[->| ->]]]]; cbn; repeat split; try reflexivity; lia).
    destruct Hlt as (Hlt & Hl1 & Hes).
    apply (raw_list_copy f D cap rl a src fc w' lt (VList (kind_of_width w) vs) Hi Ha Ham Hab Hv Hk Hc
             ltac:(rewrite Hb, Hsz; reflexivity) Hlen Hlt); try assumption.
    + rewrite Hb, Hsz. unfold list_raw, lt. cbn [p_valid p_comp p_bit p_size PointerCount DataSize negb p_len].
      destruct Hw as [->|[->|[->|[->| ->]]]]; reflexivity.
    + rewrite Hl1, Hes, Hsz. reflexivity.
    + rewrite Hl1, Hb. reflexivity.
    + rewrite Hl1, Hes, (totalSize_prim w Hw), Esz. lia.
    + rewrite Esz. lia.
    + rewrite Esz. intros M HM Hbound HsM mid caps.
      apply (den_prim true [M] mid caps _ w vs); try reflexivity; try assumption.
      intros i Hi0. cbn [p_len] in Hi0. destruct (block_in w i n ltac:(lia) Hi0) as [X1 X2].
      destruct (K i Hi0) as (d & Sd & Ev).
      rewrite slice_ok in Sd by lia. apply Ok_inj in Sd. subst d.
      exists (sub (seg_of m src) (p_off src + i * w) w). split; [|exact Ev].
      unfold seg_of. cbn [p_seg p_off Z.to_nat nth].
      rewrite slice_ok by (unfold BOUND in *; lia). f_equal.
      rewrite <- (sub_sub M (zlen D) (n * w)), HsM, sub_sub by lia. reflexivity.
  - (* bit list *)
    inversion D0 as [| | |p0 d Hv Hk Hb Hn Sl| | |]; subst p0 bits.
    assert (Hc : p_comp src = false).
    { destruct (p_comp src) eqn:E; [|reflexivity]. destruct (Hcal E) as [_ X]. congruence. }
    destruct (Hwf Hv) as (Hseg & Hobj). unfold wf_obj in Hobj. rewrite Hk, Hb in Hobj.
    destruct Hobj as (Ho & Hlen & Hsz & Hbd).
    set (n := p_len src) in *.
    assert (Ebl : bitListSize n = (n + 7) / 8) by (unfold bitListSize, u32; lia).
    assert (Esz : list_allocSize src = bitListSize n).
    { unfold list_allocSize. rewrite Hv, Hb. reflexivity. }
    rewrite slice_ok in Sl by lia. apply Ok_inj in Sl. subst d.
    apply (raw_list_copy f D cap rl a src fc w' 1 _ Hi Ha Ham Hab Hv Hk Hc
             ltac:(rewrite Hb; reflexivity) Hlen ltac:(lia)); try assumption.
    + rewrite Hb. reflexivity.
    + symmetry. exact Hsz.
    + symmetry. exact Hb.
    + symmetry. exact Esz.
    + rewrite Esz. lia.
    + rewrite Esz, Hb. intros M HM Hbound HsM mid caps. rewrite <- HsM.
      apply (den_bits true [M] mid caps (mkPtr true 0 (zlen D) n (p_size src) (uint_dec 1) KList false true false));
        try reflexivity; try assumption.
      unfold seg_of. cbn [p_seg p_off p_len Z.to_nat nth]. apply slice_ok; unfold BOUND in *; lia.
Qed.

End Copy.
