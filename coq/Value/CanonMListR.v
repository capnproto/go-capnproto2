(* C18 [T2]: canonicalList, the data-only case (void lists and lists of 1/2/4/8-byte values):
   the source bytes are copied to freshly allocated zero bytes at the end of the segment; read as
   words (last word zero-padded) they are the specification's [pack] of the element values. *)
From CV Require Import Value.ValueEq Value.ValueEqProofs Value.EqualM Value.Den Value.DenFacts Value.DenLists
                       Value.CanonSpec Value.CanonProofs Value.CanonProofs3 Value.CanonM Value.CanonMStruct
                       Value.CanonMWords Value.CanonMData Value.CanonMHeap Value.CanonMLoop Value.CanonSafe
                       Value.CanonMInd.
From CV Require Import Core.ReaderFacts Core.SafetyProofs Core.BuilderFacts Core.ArithFacts Core.CopySafe.
From Coq Require Import ZifyBool ZifyNat.
Ltac Zify.zify_post_hook ::= Z.div_mod_to_equations.
Open Scope Z_scope.
From CV Require Import Value.CanonMBytes.

Section ListR.
Context (c : config) (fx : cfix) (m : segs).
Context (Hstrict : cfg_strict c = true) (Hfx : all_cfixed fx) (Hm : msg_ok m).

(* the data-only branch of canonicalList *)
Lemma raw_copy f data cap rl p w' cp :
  hinv data -> p_valid p = true -> p_comp p = false -> PointerCount (p_size p) = 0 ->
  0 <= p_off p -> 0 <= list_allocSize p -> p_off p + list_allocSize p <= zlen (seg_of m p) ->
  zlen (seg_of m p) <= 4294967288 ->
  canonical_list c fx (S f) (dstw data cap m rl) 0 p = KOk (w', cp) ->
  let sz := list_allocSize p in
  let bs := sub (seg_of m p) (p_off p) sz in
  let bs' := if p_bit p then mask_last (p_len p) bs else bs in
  zlen data + padToWord sz <= 4294967288 /\
  cp = mkPtr true 0 (zlen data) (p_len p) (p_size p) maxDepth KList false (p_bit p) false /\
  exists cap', w' = dstw (data ++ bs' ++ repeat 0 (Z.to_nat (padToWord sz) - length bs')) cap' m rl.
Proof.
  intros [Hi1 Hi2] Hv Hc Hpc Ho Hsz Hbd Hsl H. cbv zeta.
  rewrite canonical_list_S in H. rewrite Hv, Hpc, Hc, Bool.andb_false_r in H. cbn [negb andb] in H.
  change (0 =? 0) with true in H. cbn [andb] in H. cbv zeta in H. cbn [w_dst dstw] in H.
  set (sz := list_allocSize p) in *.
  destruct (alloc (seg0 data cap) 0 sz) as [[[m1 sid1] addr]| |] eqn:Ea; try discriminate H.
  destruct (alloc_seg0_end data cap sz m1 sid1 addr Ea) as (Hbound & cap1 & -> & -> & ->).
  cbn [of_res kbind] in H. change (src_seg (dstw data cap m rl) p) with (seg_of m p) in H.
  rewrite slice_ok in H by lia. cbn [of_res kbind] in H.
  destruct Hfx as (_ & Hbp & _). rewrite Hbp in H. cbn [andb] in H.
  set (bs := sub (seg_of m p) (p_off p) sz) in *.
  set (bs' := if p_bit p then mask_last (p_len p) bs else bs) in *.
  assert (Lbs : zlen bs = sz) by (unfold bs; apply sub_length; lia).
  assert (Lbs' : length bs' = length bs) by (unfold bs'; destruct (p_bit p); [apply mask_last_length|reflexivity]).
  assert (P0 : sz <= padToWord sz) by (unfold padToWord, u32; lia).
  unfold lift0 in H. cbn [w_dst w_set_dst] in H.
  rewrite seg_write_raw in H.
  2:{ unfold zlen; lia. }
  2:{ rewrite zlen_app. unfold zlen in *. rewrite repeat_length, Lbs'. lia. }
  2:{ rewrite zlen_app. unfold zlen in *. rewrite repeat_length. lia. }
  cbn [bind of_res kbind] in H. inversion H; subst w' cp; clear H.
  split; [exact Hbound|]. split; [reflexivity|]. exists cap1.
  rewrite write_bytes_end by (unfold zlen in *; lia). reflexivity.
Qed.


Lemma list_prim_case f data cap rl p k vs w' cp :
  hinv data -> wf_ptr m p -> den true m 0 [] p (VList k vs) -> k <> LPtr -> k <> LComp ->
  canonical_list c fx (S f) (dstw data cap m rl) 0 p = KOk (w', cp) -> Qconcl m data (VList k vs) w' cp.
Proof.
  intros Hi Hwf D K1 K2 H.
  destruct (den_prim_inv m _ _ _ D K1 K2) as (w & Hw & -> & Hv & Hk & Hb & Hc & Hsz & Lvs & K).
  destruct (Hwf Hv) as (Hseg & Hobj). unfold wf_obj in Hobj. rewrite Hk, Hb, Hsz in Hobj.
  destruct Hobj as (Ho & Hlen & _ & Hbd).
  assert (Hts : totalSize (mkOS w 0) = w) by (destruct Hw as [->|[->|[->|[->| ->]]]]; reflexivity).
  assert (Hw8 : 0 <= w <= 8) by (destruct Hw as [->|[->|[->|[->| ->]]]]; lia).
  rewrite Hts in Hbd.
  assert (Hsok : seg_ok (seg_of m p)) by (apply seg_of_ok; assumption).
  assert (Hsl : zlen (seg_of m p) <= 4294967288) by (apply Hsok).
  set (n := p_len p) in *.
  assert (Hnw : 0 <= n * w) by nia.
  assert (Hel : forall i, 0 <= i < n -> 0 <= p_off p + i * w /\ p_off p + i * w + w <= zlen (seg_of m p))
    by (intros i Hi0; apply (elem_span _ n); lia).
  assert (Esz : list_allocSize p = n * w).
  { unfold list_allocSize. rewrite Hv, Hb, Hc, Hsz, Hts. cbn [negb]. fold n.
    rewrite times_some by (unfold maxSegmentSize; lia). lia. }
  pose proof (raw_copy f data cap rl p w' cp Hi Hv Hc ltac:(rewrite Hsz; reflexivity) Ho ltac:(rewrite Esz; lia)
                       ltac:(rewrite Esz; lia) Hsl H) as R.
  cbv zeta in R. rewrite Esz, Hb, Hsz in R. fold n in R. destruct R as (Hbound & -> & cap1 & ->).
  destruct Hi as [Hi1 Hi2].
  set (bs := sub (seg_of m p) (p_off p) (n * w)) in *.
  assert (Lbs : zlen bs = n * w) by (unfold bs; apply sub_length; lia).
  assert (Hbs : bytes_ok bs) by (unfold bs, sub; apply Forall_firstn', Forall_skipn'; apply Hsok).
  destruct (bow_wob_pad (length bs) bs (le_n _) Hbs) as (kp & Ebow & Hkm & Hk8).
  assert (Ekp : (Z.to_nat (padToWord (n * w)) - length bs)%nat = kp).
  { unfold padToWord, u32 in *. unfold zlen in Lbs. lia. }
  rewrite Ekp, <- Ebow. exists (words_of_bytes bs), cap1, rl. split; [reflexivity|].
  assert (Lbow : zlen (bytes_of_words (words_of_bytes bs)) = padToWord (n * w)).
  { rewrite Ebow, zlen_app. unfold zlen in *. rewrite repeat_length. unfold padToWord, u32 in *. lia. }
  assert (Pm : padToWord (n * w) mod 8 = 0) by (unfold padToWord; lia).
  assert (P0 : 0 <= padToWord (n * w)) by (unfold padToWord, u32; lia).
  split; [split; rewrite zlen_app, Lbow; lia|].
  split.
  { right. cbn [p_valid p_seg p_member p_off p_kind p_size p_len p_comp p_bit].
    split; [reflexivity|]. split; [reflexivity|]. split; [reflexivity|]. split; [exact Hi1|].
    split; [rewrite zlen_app, Lbow; unfold zlen; lia|]. split; [lia|]. right. exists w. split; [exact Hw|reflexivity]. }
  intros a F Ha Ham Hab HFd.
  set (digs := map (fun v => hd_word (sdata (norm v))) vs).
  assert (Ldigs : zlen digs = n) by (unfold digs, zlen in *; rewrite map_length; lia).
  assert (Edigs : digs = map le_decode (map (fun i => sub (seg_of m p) (p_off p + i * w) w) (iota (Z.to_nat n)))).
  { apply (nth_ext _ _ 0 0).
    - unfold digs. rewrite !map_length, iota_length. unfold zlen in *. lia.
    - intros i Hi0. unfold digs in Hi0. rewrite map_length in Hi0.
      rewrite map_map. unfold digs.
      change 0 with ((fun v => hd_word (sdata (norm v))) VNull) at 1. rewrite map_nth.
      assert (Hin : 0 <= Z.of_nat i < n) by (unfold zlen in *; lia). destruct (Hel _ Hin) as [He0 He1].
      destruct (K _ Hin) as (d & Sd & Ev).
      rewrite slice_ok in Sd by lia. inversion Sd; subst d; clear Sd.
      unfold nthv in Ev. rewrite Nat2Z.id in Ev. rewrite Ev.
      rewrite nth_map_iota by (unfold zlen in *; lia).
      set (di := sub (seg_of m p) (p_off p + Z.of_nat i * w) w).
      assert (Ldi : zlen di = w) by (unfold di; apply sub_length; lia).
      cbn [norm sdata map stripN].
      destruct (Z.eq_dec w 0) as [W0|W0].
      + assert (Edi : di = []) by (destruct di; [reflexivity|unfold zlen in Ldi; cbn [length] in Ldi; lia]).
        rewrite Edi. reflexivity.
      + destruct (Z.eq_dec w 8) as [W8|W8].
        * rewrite <- (app_nil_r di) at 1. rewrite wob_8 by (unfold zlen in Ldi; lia).
          change (words_of_bytes []) with (@nil Z). apply hd_word_strip1.
        * rewrite wob_small by (unfold zlen in Ldi; lia). apply hd_word_strip1. }
  assert (En : norm (VList (kind_of_width w) vs)
               = VList (kind_of_width w) (match kind_of_width w with
                                          | LVoid => map (fun _ => VStruct [] []) (map norm vs)
                                          | _ => map (fun n0 => VStruct [hd_word (sdata n0)] []) (map norm vs) end)).
  { destruct Hw as [->|[->|[->|[->| ->]]]]; reflexivity. }
  rewrite En in *. clear En.
  destruct F as [|F']; [cbn [vdepth] in HFd; destruct (kind_of_width w); lia|].
  assert (Lcs : Forall (fun c0 : list Z => length c0 = Z.to_nat w)
                       (map (fun i => sub (seg_of m p) (p_off p + i * w) w) (iota (Z.to_nat n)))).
  { apply Forall_forall. intros x Hx. apply in_map_iff in Hx. destruct Hx as (i & <- & Hin).
    apply in_map_iff in Hin. destruct Hin as (j & <- & Hj). apply in_seq in Hj.
    destruct (Hel (Z.of_nat j) ltac:(lia)) as [He0 He1].
    pose proof (sub_length (seg_of m p) (p_off p + Z.of_nat j * w) w He0 ltac:(lia) He1) as L. unfold zlen in L. lia. }
  assert (Hoff : zlen data / 8 - a / 8 - 1 < 536870912) by lia.
  assert (Epack : forall per, (Z.to_nat w * per = 8)%nat ->
             pack (256 ^ w) per digs = words_of_bytes bs).
  { intros per Hper. unfold pack. rewrite Edigs. rewrite map_length.
    replace w with (Z.of_nat (Z.to_nat w)) at 1 by lia.
    rewrite (pack_chunks (Z.to_nat w) per Hper) by (exact Lcs || lia).
    rewrite concat_chunks by lia. unfold bs. f_equal. f_equal. lia. }
  unfold ptr_word. cbn [p_valid negb p_kind p_comp p_bit p_size PointerCount DataSize p_off p_len].
  change (0 =? 1) with false. cbv iota.
  destruct Hw as [->|[->|[->|[->| ->]]]]; cbn [kind_of_width Z.eqb Pos.eqb enc] in *;
    rewrite !zlen_map, Lvs; unfold two29;
    (destruct ((n >=? 536870912) || (zlen data / 8 - a / 8 - 1 >=? 536870912)) eqn:E1; [lia|]).
  2-5: (rewrite map_map; cbn [sdata hd_word kind_code kind_base kind_per]; rewrite map_map; fold digs;
        erewrite <- Epack; reflexivity).
  replace bs with (@nil Z) by (destruct bs; [reflexivity|unfold zlen in Lbs; cbn [length] in Lbs; lia]). reflexivity.
Qed.

End ListR.
