(* C16 [T2] copy_value: copyStruct, P_wp f -> P_cs (S f) *)
From CV Require Import Value.ValueEq Value.ValueEqProofs Value.EqualM Value.Den Value.DenFacts Value.DenLists
                       Value.CanonSpec Value.CanonProofs3 Value.CanonM Value.CanonMStruct Value.CanonMData Value.CanonMHeap
                       Value.CanonMLoop Value.CanonMInd Value.CanonMBytes Value.CanonMBlocks Value.CopyValue Value.CopyValueHeap Value.CopyValueDefs.
From CV Require Import Core.ReaderFacts Core.SafetyProofs Core.BuilderFacts Core.ArithFacts Core.CopyProofs Core.CopySafe
                       Core.WritePtrProofs.
From Coq Require Import ZifyBool ZifyNat.
Ltac Zify.zify_post_hook ::= Z.div_mod_to_equations.
Open Scope Z_scope.

Section Copy.
Context (m : segs) (Hm : msg_ok m).

(* what Struct.Ptr(i) of a source struct returns meets the preconditions of writePtr *)
Lemma struct_child s vs i rl0 p0 rl1 :
  wf_ptr m s -> p_valid s = true -> p_kind s = KStruct -> 0 <= i < PointerCount (p_size s) ->
  (forall j, 0 <= j < PointerCount (p_size s) -> exists dep rl q rl',
     readPtr true m rl (p_seg s) (seg_of m s) (pointerAddress s j) dep = (Ok q, rl') /\ den true m 0 [] q (nthv vs j)) ->
  readPtr true m rl0 (p_seg s) (seg_of m s) (pointerAddress s i) (p_depth s) = (Ok p0, rl1) ->
  den true m 0 [] p0 (nthv vs i) /\ wf_ptr m p0 /\ aligned p0 /\ caligned p0 /\ ctag_ok m p0.
Proof.
  intros Hwf Hv Hk Hi K ER.
  destruct (K i Hi) as (dep & rlk & q & rlk' & RK & DK).
  split; [eapply den_core; [eapply readPtr_core; [exact RK|exact ER]|exact DK]|].
  split.
  { pose proof (struct_ptr_safe (mkCfg 0 0 true true) m rl0 s i Hm (conj Hwf (fun _ => Hk)) ltac:(lia)) as SS.
    rewrite struct_ptr_unfold in SS by (try assumption; lia). cbn [cfg_strict] in SS. rewrite ER in SS. apply SS. reflexivity. }
  split; [eapply readPtr_aligned; exact ER|]. split; [eapply readPtr_caligned; exact ER|].
  destruct (Hwf Hv) as (Hsg & Hob). unfold wf_obj in Hob. rewrite Hk in Hob. destruct Hob as ([Wd Wp] & Ho1 & Ho2).
  pose proof (proj1 (seg_of_ok m s Hm)) as Sl1. unfold maxSegmentSize in Sl1.
  eapply (readPtr_ctag true m rl0 (p_seg s) (seg_of m s)); [exact Hm|split; [exact Hsg|reflexivity]| | |exact ER];
    rewrite pointerAddress_eq by (unfold maxSegmentSize; lia); lia.
Qed.

Lemma cs_step f : CopyValueDefs.P_wp m f -> CopyValueDefs.P_cs m (S f).
Proof.
  intros HW D cap rl dst s ws vs A dn pn w' Hi (Dv & Dseg & Doff & Dsz) HA HAm Hdn Hpn Hb Hv Hk Hwf Hal D0 Hsd H.
  pose proof Hi as [Hi1 Hi2]. pose proof (zlen_nonneg D) as Z0.
  destruct (den_struct_data _ _ _ _ _ _ _ Hm D0) as (_ & _ & [Wd Wp] & Lvs & B1 & B2 & -> & Sl & Hbd & Ld & K).
  set (d := sub (seg_of m s) (p_off s) (DataSize (p_size s))) in *.
  set (ns := PointerCount (p_size s)) in *.
  rewrite copy_struct_S in H. rewrite Dv, Hv in H. cbn [negb] in H.
  change (nth (Z.to_nat (p_seg s)) (w_segs (dstw D cap m rl) InSrc) []) with (seg_of m s) in H.
  rewrite Sl in H. cbn [bind] in H.
  rewrite Dseg, Doff, Dsz in H. cbn [DataSize PointerCount] in H.
  change (nth (Z.to_nat 0) (bm_data (w_dst (dstw D cap m rl))) []) with D in H.
  rewrite slice_ok in H by lia. cbn [bind] in H.
  replace (length (sub D A (8 * dn))) with (8 * Z.to_nat dn)%nat in H
    by (apply Nat2Z.inj; change (Z.of_nat (length (sub D A (8 * dn)))) with (zlen (sub D A (8 * dn))); rewrite sub_length by lia; lia).
  rewrite (copy_data_words d (Z.to_nat dn) Hbd ltac:(rewrite Ld; exact (Hal Hk))) in H.
  set (dws := resize_words (words_of_bytes d) (Z.to_nat dn)) in *.
  assert (Ldw : zlen dws = dn) by (unfold dws, zlen; rewrite resize_words_length; lia).
  unfold lift0 in H. cbn [w_dst dstw] in H.
  rewrite seg_write_slots in H by lia. cbn [bind w_set_dst w_src w_src_rl] in H.
  change (w_set_dst (dstw D cap m rl) (seg0 (set_slots D A dws) cap)) with (dstw (set_slots D A dws) cap m rl) in H.
  fold ns in H.
  assert (Ls1 : zlen (set_slots D A dws) = zlen D) by (apply set_slots_length; unfold zlen in *; lia).
  set (D1 := set_slots D A dws) in *.
  remember (Z.min ns pn) as nmin eqn:Enmin.
  (* the first loop *)
  set (P := fun (i : Z) (M : list Z) => zlen M <= BOUND -> reads_as M ((A + 8 * dn) + 8 * i) (nthv vs i)).
  match type of H with context [fold_res (iota (Z.to_nat nmin)) ?w0 ?st] =>
    destruct (fold_res (iota (Z.to_nat nmin)) w0 st) as [w2| |] eqn:E1; try discriminate H;
    destruct (sem_loop st m (A + 8 * dn) (Z.to_nat nmin) P ltac:(lia) ltac:(lia)) with (k := Z.to_nat nmin) (D := D1) (cap := cap) (rl := rl) (w' := w2)
      as (words & kids & cap1 & rl1 & Lw & -> & Hinvk & Bk & PostL) end;
    [ | apply le_n | split; lia | lia | exact E1 | ].
  { intros i D0' cap0 rl0 w0 Hi0 Hinv0 Hb0 Hs0. cbn [w_segs w_rl dstw w_src w_src_rl] in Hs0.
    change (nth (Z.to_nat (p_seg s)) m []) with (seg_of m s) in Hs0.
    destruct (readPtr true m rl0 (p_seg s) (seg_of m s) (pointerAddress s i) (p_depth s)) as [[p0| |] rl1] eqn:ER; try discriminate.
    cbn [bind] in Hs0.
    destruct (struct_child s vs i rl0 p0 rl1 Hwf Hv Hk ltac:(fold ns; lia) K ER) as (DP & WP & AP & CAP & CTG).
    assert (SD : cvdom (nthv vs i) = true) by (eapply forallb_In; [exact Hsd|]; apply nth_In; unfold zlen in Lvs; lia).
    change (w_set_rl (dstw D0' cap0 m rl0) InSrc rl1) with (dstw D0' cap0 m rl1) in Hs0.
    rewrite pointerAddress_eq, Doff, Dsz in Hs0 by (rewrite ?Doff, ?Dsz; cbn [DataSize]; destruct Hinv0; unfold maxSegmentSize; lia).
    cbn [DataSize] in Hs0.
    destruct (HW D0' cap0 rl1 ((A + 8 * dn) + 8 * i) p0 (nthv vs i) true w0 Hinv0 ltac:(lia) ltac:(lia) ltac:(lia)
                 WP AP CAP CTG DP SD Hs0) as (word & body & cap2 & rl2 & -> & Hinv2 & Bb & Post).
    exists word, body, cap2, rl2. split; [reflexivity|]. split; [exact Hinv2|]. split; [exact Bb|].
    intros pre' tail Lp Hwd Hbound. apply Post; assumption. }
  cbn [bind] in H. rewrite Z2Nat.id in PostL by lia.
  assert (Lw' : zlen words = nmin) by (unfold zlen; lia).
  (* the second loop *)
  set (k2 := Z.to_nat (pn - ns)) in *.
  pose proof (zlen_nonneg kids) as Lk0.
  assert (Hbk : zlen D + zlen kids <= BOUND) by (destruct Hinvk as [_ Hk2]; rewrite zlen_app in Hk2; unfold BOUND; lia).
  replace (map (fun k => ns + k) (iota k2)) with (map (fun k => nmin + k) (iota k2)) in H
    by (destruct (Z_lt_le_dec ns pn); [replace nmin with ns by lia; reflexivity|replace k2 with 0%nat by lia; reflexivity]).
  rewrite (zero_loop m dst (A + 8 * dn) D1 cap1 rl1 nmin k2 words kids) in H; try lia; try assumption.
  2:{ intros j Hj. rewrite pointerAddress_eq; rewrite ?Doff, ?Dsz; cbn [DataSize]; unfold maxSegmentSize; lia. }
  apply Ok_inj in H. subst w'.
  exists (words ++ repeat 0 k2), kids, cap1, rl1.
  split; [rewrite zlen_app, zlen_repeat; lia|].
  split.
  { unfold D1. rewrite <- Ldw, set_slots_app by (rewrite ?zlen_app, ?zlen_repeat; lia). reflexivity. }
  split; [unfold hinv in *; rewrite zlen_app in *; lia|]. split; [exact Bk|].
  intros pre' tail Lp Hs Hbound i Hi0. pose proof (zlen_nonneg tail) as Lt0.
  rewrite nthv_resize_ptrs by lia.
  destruct (i <? zlen vs) eqn:Ei.
  - apply (PostL pre' tail ltac:(lia)); [|lia|exact Hbound].
    replace (sub pre' (A + 8 * dn) (8 * nmin))
      with (sub (sub pre' A (8 * (dn + pn))) (8 * zlen dws) (8 * zlen words)) by (rewrite sub_sub by lia; f_equal; lia).
    rewrite Hs. apply bow_sub_mid.
  - apply reads_null; try (rewrite !zlen_app in *; lia).
    assert (Lblk : zlen (dws ++ words ++ repeat 0 k2) = dn + pn) by (rewrite !zlen_app, zlen_repeat; lia).
    pose proof (block_word pre' A (dws ++ words ++ repeat 0 k2) (Z.to_nat (dn + i)) ltac:(lia) ltac:(rewrite Lblk; exact Hs)
                           ltac:(unfold zlen in Lblk; lia)) as Hwd.
    replace (nth (Z.to_nat (dn + i)) (dws ++ words ++ repeat 0 k2) 0) with 0 in Hwd.
    2:{ rewrite !app_nth2 by (unfold zlen in *; lia).
        destruct (Nat.lt_ge_cases (Z.to_nat (dn + i) - length dws - length words) k2) as [Hx|Hx];
          [rewrite nth_repeat; reflexivity| rewrite nth_overflow by (rewrite repeat_length; exact Hx); reflexivity]. }
    replace (A + 8 * Z.of_nat (Z.to_nat (dn + i))) with (A + 8 * dn + 8 * i) in Hwd by lia.
    apply word_is_app; [lia|lia|exact Hwd].
Qed.

End Copy.
