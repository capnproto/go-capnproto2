(* C17 at the model level: witnesses.  The correctness theorem of equal_m is in
   EqualCorrect.v (equal_m_correct and its corollaries).  Here: non-vacuity of [den], and the
   defects F01 / O3 on the as-found variants of the model. *)
From CV Require Import Value.ValueEq Value.ValueEqProofs Value.EqualM Value.CanonSpec Value.Den.
Open Scope Z_scope.

Definition wbytes (ws : list Z) : list Z := flat_map (le_encode 8) ws.
(* root struct with one pointer: a 3-element bit list / void list *)
Definition msg_bits (b : Z) : segs := [wbytes [struct_word 0 0 1; list_word 0 1 3; b]].
Definition msg_void : segs := [wbytes [struct_word 0 0 1; list_word 0 0 3]].
Definition cfg0 := mkCfg 0 0 true true.
Definition rdfix := mkFix true true true.
Definition eq_res (r : eout * Z * Z) : eout := fst (fst r).
Definition asfound_e := mkEFix false false rdfix.
Definition repaired_e := mkEFix true true rdfix.

Example den_example :
  exists p, fst (root cfg0 (msg_bits 5) 1000) = Ok p
            /\ den true (msg_bits 5) 0 [] p (VStruct [] [VBits [true; false; true]]).
Proof.
  eexists. split; [vm_compute; reflexivity|].
  change (@nil Z) with (words_of_bytes []).
  eapply den_struct; try reflexivity.
  - unfold wf_size. cbn. lia.
  - intros i Hi. cbn in Hi. assert (i = 0) by lia. subst i.
    exists 1, 1000. eexists. eexists. split; [vm_compute; reflexivity|].
    change [true; false; true] with (bits_of (Z.to_nat 3) [5]).
    apply den_bits; try reflexivity. cbn. lia.
Qed.

(* F01, as found: bit lists that differ are Equal, and a bit list is Equal to a void list of the
   same length, against the documented equality of the walked trees *)
Example equal_prefix_refuted :
  eq_res (run_equal 20 cfg0 cfg0 asfound_e (msg_bits 5) [] (msg_bits 2) [] false SelRoot SelRoot) = EOk true
  /\ fst (fst (spec_equal 20 cfg0 cfg0 rdfix (msg_bits 5) [] (msg_bits 2) [] false SelRoot SelRoot 1024 64)) = Some false
  /\ eq_res (run_equal 20 cfg0 cfg0 asfound_e (msg_bits 5) [] msg_void [] false SelRoot SelRoot) = EOk true
  /\ fst (fst (spec_equal 20 cfg0 cfg0 rdfix (msg_bits 5) [] msg_void [] false SelRoot SelRoot 1024 64)) = Some false.
Proof. vm_compute. repeat split. Qed.

(* repaired: the same inputs are unequal; equal bits with different padding are Equal *)
Example equal_fixed_witness :
  eq_res (run_equal 20 cfg0 cfg0 repaired_e (msg_bits 5) [] (msg_bits 2) [] false SelRoot SelRoot) = EOk false
  /\ eq_res (run_equal 20 cfg0 cfg0 repaired_e (msg_bits 5) [] msg_void [] false SelRoot SelRoot) = EOk false
  /\ eq_res (run_equal 20 cfg0 cfg0 repaired_e (msg_bits 5) [] (msg_bits (5 + 128)) [] false SelRoot SelRoot) = EOk true.
Proof. vm_compute. repeat split. Qed.

(* O3, as found.  Struct with pointers [null; far pointer to a null landing pad]  vs  struct with [null]:
   the values are equal (both pointers read as null); as found Equal says false *)
Definition msg_farnull : segs := [wbytes [struct_word 0 0 2; 0; 2 + 3 * 8; 0]].
Definition msg_onenull : segs := [wbytes [struct_word 0 0 1; 0]].

Example equal_farnull_prefix_refuted :
  eq_res (run_equal 20 cfg0 cfg0 (mkEFix true false rdfix) msg_farnull [] msg_onenull [] false SelRoot SelRoot) = EOk false
  /\ fst (fst (spec_equal 20 cfg0 cfg0 rdfix msg_farnull [] msg_onenull [] false SelRoot SelRoot 1024 64)) = Some true
  /\ eq_res (run_equal 20 cfg0 cfg0 repaired_e msg_farnull [] msg_onenull [] false SelRoot SelRoot) = EOk true.
Proof. vm_compute. repeat split. Qed.
