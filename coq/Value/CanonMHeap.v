(* C18 [T2]: the heap-level facts of Canonicalize's destination: ONE growing segment.
     alloc_seg0_end    every allocation appends zero bytes at the end (only the capacity may change)
     write_ptr_seg0    SetPtr / PointerList.Set of a pointer to an object of the same segment
                       writes exactly one word, the specification's pointer word [ptr_word]
   These are the two ingredients of the invariant "the canonical bytes of a subtree are
   appended at the end of the segment; earlier bytes change only in the pointer slot being set". *)
From CV Require Import Value.ValueEq Value.EqualM Value.CanonSpec Value.CanonM Value.CanonMWords Value.CanonMData.
From CV Require Import Core.ReaderFacts Core.BuilderFacts Core.ArithFacts Core.CopySafe.
From Coq Require Import ZifyBool ZifyNat.
Ltac Zify.zify_post_hook ::= Z.div_mod_to_equations.
Open Scope Z_scope.

Definition dstw (data : list Z) (cap : Z) (src : segs) (rl : Z) : world := mkW (seg0 data cap) src rl.

Lemma alloc_seg0_end data cap sz m' sid' addr : alloc (seg0 data cap) 0 sz = Ok (m', sid', addr) ->
  zlen data + padToWord sz <= 4294967288 /\
  exists cap', m' = seg0 (data ++ repeat 0 (Z.to_nat (padToWord sz))) cap' /\ sid' = 0 /\ addr = zlen data.
Proof.
  intros H. unfold alloc in H. destruct (sz >? maxAllocSize) eqn:E0; [discriminate|].
  change (get_seg (seg0 data cap) 0) with (mkBS data cap) in H.
  destruct (hasCapacity (mkBS data cap) (padToWord sz)) eqn:Hc.
  - cbn [bind] in H. change (get_seg (seg0 data cap) 0) with (mkBS data cap) in H. unfold blen in H. cbn [bs_data bs_cap] in H.
    destruct (addSize (zlen data) (padToWord sz)) eqn:Eas; [|discriminate H]. inversion H; subst.
    apply addSize_spec in Eas. unfold maxSegmentSize in Eas. split; [lia|]. exists cap. repeat split; reflexivity.
  - unfold allocSegment in H. destruct (padToWord sz >? maxAllocSize); [cbn [bind] in H; discriminate H|]. cbn [seg0 bm_arena] in H.
    change (get_seg (seg0 data cap) 0) with (mkBS data cap) in H.
    destruct (negb (blen (mkBS data cap) mod 8 =? 0)); [cbn [bind] in H; discriminate H|]. rewrite Hc in H.
    destruct (nextAlloc (blen (mkBS data cap)) maxAllocSize (padToWord sz)) as [inc| |]; try (cbn [bind] in H; discriminate H).
    cbn [bind bs_data bs_cap] in H.
    change (get_seg (put_seg (seg0 data cap) 0 (mkBS data (cap + inc))) 0) with (mkBS data (cap + inc)) in H.
    unfold blen in H. cbn [bs_data bs_cap] in H.
    destruct (addSize (zlen data) (padToWord sz)) eqn:Eas; [|discriminate H]. inversion H; subst.
    apply addSize_spec in Eas. unfold maxSegmentSize in Eas. split; [lia|]. exists (cap + inc). repeat split; reflexivity.
Qed.

Lemma alloc_seg0 data cap sz m' sid' addr : zlen data mod 8 = 0 -> 0 <= sz ->
  alloc (seg0 data cap) 0 sz = Ok (m', sid', addr) ->
  exists cap', m' = seg0 (data ++ repeat 0 (Z.to_nat (padToWord sz))) cap' /\ sid' = 0 /\ addr = zlen data.
Proof. intros _ _ H. exact (proj2 (alloc_seg0_end _ _ _ _ _ _ H)). Qed.

Definition put_word (data : list Z) (a : Z) (w : Z) : list Z :=
  firstn (Z.to_nat a) data ++ le_encode 8 w ++ skipn (Z.to_nat a + 8) data.

Lemma seg_write_raw data cap A bs : 0 <= A -> A + zlen bs <= zlen data -> zlen data < 4294967296 ->
  seg_write (seg0 data cap) 0 A bs = Ok (seg0 (write_bytes data A bs) cap).
Proof.
  intros HA Hb Hl. unfold seg_write. change (get_seg (seg0 data cap) 0) with (mkBS data cap).
  unfold addSizeUnchecked, u32, blen. cbn [bs_data bs_cap].
  assert (Z0 : 0 <= zlen bs) by (unfold zlen; lia). assert (Z1 : 0 <= zlen data) by (unfold zlen; lia).
  replace ((A + zlen bs) mod 4294967296) with (A + zlen bs) by lia.
  destruct ((0 <=? A) && (A <=? A + zlen bs) && (A + zlen bs <=? zlen data)) eqn:E; [|lia].
  reflexivity.
Qed.

Lemma writeRaw_seg0 data cap a v : 0 <= a -> a + 8 <= zlen data -> zlen data < 4294967296 ->
  writeRawPointer (seg0 data cap) 0 a v = Ok (seg0 (put_word data a v) cap).
Proof.
  intros Ha Hb Hl. unfold writeRawPointer. rewrite seg_write_raw by (rewrite ?zlen_le_encode8; lia).
  unfold put_word, write_bytes. rewrite le_encode_length. reflexivity.
Qed.

Lemma put_word_length data a w : 0 <= a -> a + 8 <= zlen data -> zlen (put_word data a w) = zlen data.
Proof.
  intros Ha Hb. unfold put_word, zlen in *. rewrite !app_length, firstn_length, skipn_length, le_encode_length. lia.
Qed.

(* the word Segment.writePtr stores at byte address a for a pointer cp of the SAME segment *)
Definition ptr_word (cp : Ptr) (a : Z) : Z :=
  if negb (p_valid cp) then 0 else
  match p_kind cp with
  | KStruct =>
    if os_isZero (p_size cp) then struct_word (-1) 0 0
    else struct_word (p_off cp / 8 - a / 8 - 1) (DataSize (p_size cp) / 8) (PointerCount (p_size cp))
  | KList =>
    if p_comp cp then
      list_word ((p_off cp - 8) / 8 - a / 8 - 1) 7
                (p_len cp * (DataSize (p_size cp) / 8 + PointerCount (p_size cp)))
    else if p_bit cp then list_word (p_off cp / 8 - a / 8 - 1) 1 (p_len cp)
    else if (PointerCount (p_size cp) =? 1) then list_word (p_off cp / 8 - a / 8 - 1) 6 (p_len cp)
    else list_word (p_off cp / 8 - a / 8 - 1)
                   (let d := DataSize (p_size cp) in
                    if d =? 0 then 0 else if d =? 1 then 2 else if d =? 2 then 3 else if d =? 4 then 4 else 5)
                   (p_len cp)
  | KIface => 0
  end.

(* the pointers Canonicalize hands to SetPtr: null, or an object of segment 0 *)
Definition cp_shape (cp : Ptr) (len : Z) : Prop :=
  p_valid cp = false \/
  (p_valid cp = true /\ p_seg cp = 0 /\ p_member cp = false /\ p_off cp mod 8 = 0 /\ 0 <= p_off cp <= len /\
   match p_kind cp with
   | KStruct => os_wf (p_size cp)
   | KList =>
     0 <= p_len cp < 536870912 /\
     if p_comp cp then os_wf (p_size cp) /\ 8 <= p_off cp /\
                       0 <= p_len cp * (DataSize (p_size cp) / 8 + PointerCount (p_size cp)) < 536870912
     else if p_bit cp then True
     else p_size cp = mkOS 0 1 \/ exists w, (w = 0 \/ w = 1 \/ w = 2 \/ w = 4 \/ w = 8) /\ p_size cp = mkOS w 0
   | KIface => False
   end).

Lemma nearOff a t : 0 <= a <= 4294967288 -> 0 <= t <= 4294967288 -> a mod 8 = 0 -> t mod 8 = 0 ->
  nearPointerOffset a t = t / 8 - a / 8 - 1.
Proof. intros. unfold nearPointerOffset, s32. cbv zeta. destruct (_ <? _) eqn:E; lia. Qed.

Theorem write_ptr_seg0 f data cap src rl a cp :
  zlen data <= 4294967288 -> 0 <= a -> a mod 8 = 0 -> a + 8 <= zlen data -> cp_shape cp (zlen data) ->
  write_ptr (S f) true (dstw data cap src rl) 0 a InDst cp false
  = Ok (dstw (put_word data a (ptr_word cp a)) cap src rl).
Proof.
  intros Hl Ha Ham Hb Hs. rewrite write_ptr_S. unfold ptr_word.
  destruct Hs as [Hv|(Hv & Hseg & Hmem & Hom & Hor & Hk)]; rewrite Hv; cbn [negb].
  - unfold lift0, dstw. cbn [w_dst]. rewrite writeRaw_seg0 by lia. reflexivity.
  - destruct (p_kind cp) eqn:K.
    + (* struct *)
      destruct (os_isZero (p_size cp)) eqn:Z0.
      * rewrite empty_struct_word. cbn [of_opt_panic bind]. unfold lift0, dstw. cbn [w_dst]. rewrite writeRaw_seg0 by lia. reflexivity.
      * cbn [is_src orb]. rewrite Hmem. cbn [bind].
        rewrite (raw_struct_is_struct_word 0 _ Hk). cbn [of_opt_panic bind].
        unfold place. rewrite Hseg. cbn [Z.eqb]. unfold lift0, dstw. cbn [w_dst].
        rewrite (placed_struct_word _ _ _ Hk (raw_struct_is_struct_word 0 _ Hk)).
        rewrite nearOff by lia. rewrite writeRaw_seg0 by lia. reflexivity.
    + (* list *)
      cbn [is_src orb bind]. destruct Hk as (Hn & Hk).
      unfold list_raw. rewrite Hv. cbn [negb].
      destruct (p_comp cp) eqn:C.
      * destruct Hk as (Hw & H8 & Hc). destruct Hw as (Wd & Wm & Wp).
        unfold totalWordCount, dataWordCount. rewrite Wm. cbn [Z.eqb].
        replace (s32 (DataSize (p_size cp) / 8 + PointerCount (p_size cp))) with (DataSize (p_size cp) / 8 + PointerCount (p_size cp))
          by (unfold s32; cbv zeta; destruct (_ <? _) eqn:E; lia).
        replace (s32 (p_len cp * (DataSize (p_size cp) / 8 + PointerCount (p_size cp))))
          with (p_len cp * (DataSize (p_size cp) / 8 + PointerCount (p_size cp)))
          by (unfold s32; cbv zeta; destruct (_ <? _) eqn:E; lia).
        set (N := p_len cp * (DataSize (p_size cp) / 8 + PointerCount (p_size cp))) in *. clearbody N.
        cbn [bind]. unfold place. rewrite Hseg. cbn [Z.eqb]. unfold lift0, dstw. cbn [w_dst].
        rewrite (placed_list_word (nearPointerOffset a (u32 (p_off cp - 8))) 7 N) by lia.
        replace (u32 (p_off cp - 8)) with (p_off cp - 8) by (unfold u32; lia).
        rewrite nearOff by lia. rewrite writeRaw_seg0 by lia. reflexivity.
      * destruct (p_bit cp) eqn:B.
        -- cbn [bind]. unfold place. rewrite Hseg. cbn [Z.eqb]. unfold lift0, dstw. cbn [w_dst].
           rewrite (placed_list_word (nearPointerOffset a (p_off cp)) _ (p_len cp)) by lia. rewrite nearOff by lia. rewrite writeRaw_seg0 by lia. reflexivity.
        -- destruct Hk as [Hz|(w & Hw & Hz)]; rewrite Hz; cbn [DataSize PointerCount].
           ++ cbn [Z.eqb Pos.eqb andb bind]. unfold place. rewrite Hseg. cbn [Z.eqb]. unfold lift0, dstw. cbn [w_dst].
              rewrite (placed_list_word (nearPointerOffset a (p_off cp)) _ (p_len cp)) by lia. rewrite nearOff by lia. rewrite writeRaw_seg0 by lia. reflexivity.
           ++ destruct Hw as [->|[->|[->|[->| ->]]]]; cbn [Z.eqb andb negb bind Pos.eqb];
                unfold place; rewrite Hseg; cbn [Z.eqb]; unfold lift0, dstw; cbn [w_dst];
                rewrite (placed_list_word (nearPointerOffset a (p_off cp)) _ (p_len cp)) by lia; rewrite nearOff by lia; rewrite writeRaw_seg0 by lia; reflexivity.
    + destruct Hk.
Qed.
