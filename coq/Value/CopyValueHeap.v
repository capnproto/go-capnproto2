(* C16 [T2] copy_value, heap-level facts for a single-segment destination:
     rd_word / near_resolves   the reader resolves a near pointer word to its target
     read_near_struct, read_zero_word, read_empty_struct, read_near_list, read_near_comp
                   Segment.readPtr on the words writePtr places
     place_at_end  the pointer word of an object allocated at the end of the segment, placed in
                   a slot before it
     sem_blocks_loop   a loop whose step i fills block i of a run of equal-sized blocks and appends
                   bytes: step i's postcondition holds in every memory that keeps the blocks and
                   the appended bytes (whatever else changes before them or is appended later);
                   sem_loop is the case of one-word blocks (the pointer loop of copyStruct) *)
From CV Require Import Value.ValueEq Value.EqualM Value.Den Value.DenFacts Value.DenLists Value.CanonSpec Value.CanonProofs Value.CanonM
                       Value.CanonMData Value.CanonMHeap Value.CanonMLoop Value.CanonMInd Value.CanonMBytes Value.CanonMBlocks.
From CV Require Import Core.ReaderFacts Core.SafetyProofs Core.BuilderFacts Core.ArithFacts Core.CopySafe Core.WritePtrProofs.
From CV Require Core.HeapInv.
From Coq Require Import ZifyBool ZifyNat.
Ltac Zify.zify_post_hook ::= Z.div_mod_to_equations.
Open Scope Z_scope.

(* the word stored at byte address a *)
Definition word_is (M : list Z) (a w : Z) : Prop := sub M a 8 = le_encode 8 w.

Lemma rd_word M a w : word_is M a w -> word64 w -> 0 <= a -> a + 8 <= zlen M -> zlen M < 4294967296 ->
  readRawPointer M a = Ok w.
Proof.
  intros Hw H64 Ha Hb Hl. unfold readRawPointer, readUintN. rewrite slice_ok by lia. cbn [bind].
  rewrite Hw. rewrite le_decode_encode; [reflexivity|]. unfold word64 in H64. change (256 ^ Z.of_nat 8) with 18446744073709551616. lia.
Qed.

Lemma near_resolves M a taddr raw :
  raw_ok raw -> 0 <= a -> a mod 8 = 0 -> a + 8 <= zlen M -> zlen M <= 4294967288 ->
  0 <= taddr <= zlen M -> taddr mod 8 = 0 ->
  word_is M a (withOffset raw (nearPointerOffset a taddr)) ->
  resolves_to [M] 0 a 0 taddr raw.
Proof.
  intros (Rw & Rt & Ro & Rnz) Ha Ham Hab Hl Ht Htm Hw.
  destruct (nearPointerOffset_ok a taddr) as [N1 N2]; try lia.
  destruct (withOffset_roundtrip raw (nearPointerOffset a taddr) Rw N1 Rt) as (Q1 & Q2 & Q3 & Q4 & Q5 & Q6).
  cbv zeta in *. set (v := withOffset raw (nearPointerOffset a taddr)) in *.
  assert (Rd : readRawPointer M a = Ok v) by (apply rd_word; auto; lia).
  unfold word64 in Rw. destruct (raw_type raw Rt ltac:(lia)) as (_ & T1 & T2).
  exists (a + 8), v. cbn [Z.to_nat nth]. split.
  - intros strict. unfold resolveFarPointer. rewrite Rd. cbn [bind]. cbv zeta. rewrite Q2, T1, T2.
    unfold addSize. cbv zeta. destruct (a + 8 >? maxSegmentSize) eqn:E; [unfold maxSegmentSize in E; lia|]. reflexivity.
  - split; [exact Q1|]. split; [exact Q2|]. split; [exact Q4|]. split; [exact Q5|]. split; [exact Q6|].
    rewrite Q3. apply element_words; [unfold maxSegmentSize; lia|lia].
Qed.

(* the pointer word of a non-empty struct placed near *)
Lemma read_near_struct strict M a taddr sz raw dep rl :
  os_wf sz -> os_isZero sz = false -> rawStructPointer 0 sz = Some raw ->
  0 <= a -> a mod 8 = 0 -> a + 8 <= zlen M -> zlen M <= 4294967288 ->
  0 <= taddr -> taddr mod 8 = 0 -> taddr + totalSize sz <= zlen M ->
  word_is M a (withOffset raw (nearPointerOffset a taddr)) ->
  dep <> 0 -> totalSize sz <= rl ->
  readPtr strict [M] rl 0 M a dep =
  (Ok (mkPtr true 0 taddr 0 sz (uint_dec dep) KStruct false false false), rl - totalSize sz).
Proof.
  intros Hwf Hnz Hraw Ha Ham Hab Hl Ht Htm Htb Hw Hd Hrl.
  destruct (struct_pointer_roundtrip 0 sz ltac:(unfold off_ok; lia) Hwf) as (p & Ep & P64 & Pt & Po & Ps).
  rewrite Hraw in Ep. inversion Ep; subst p.
  assert (Tn : 0 <= totalSize sz) by (unfold totalSize, u32; lia).
  assert (Rok : raw_ok raw).
  { split; [exact P64|]. split.
    - destruct (HeapInv.fields_struct sz Hwf) as (raw' & E' & _ & R2 & _). rewrite Hraw in E'. inversion E'; subst raw'. lia.
    - split; [exact Po|]. intros ->. rewrite <- Ps in Hnz. cbv in Hnz. discriminate Hnz. }
  pose proof (near_resolves M a taddr raw Rok Ha Ham Hab Hl ltac:(lia) Htm Hw) as R.
  pose proof (resolved_read_struct strict [M] rl 0 a 0 taddr raw dep R Pt) as RR. rewrite Ps in RR.
  cbn [Z.to_nat nth] in RR. apply RR; try assumption.
  apply regionInBounds_true; unfold maxSegmentSize; lia.
Qed.

Lemma read_zero_word strict M a dep rl :
  0 <= a -> a + 8 <= zlen M -> zlen M <= 4294967288 -> word_is M a 0 ->
  readPtr strict [M] rl 0 M a dep = (Ok nullPtr, rl).
Proof.
  intros Ha Hab Hl Hw. unfold readPtr, resolveFarPointer.
  rewrite (rd_word M a 0 Hw) by (unfold word64; lia). cbn [bind]. cbv zeta.
  change (pointerType 0 =? doubleFarPointer) with false. change (pointerType 0 =? farPointer) with false. cbv iota.
  unfold addSize. cbv zeta. destruct (a + 8 >? maxSegmentSize) eqn:E; [unfold maxSegmentSize in E; lia|].
  change (0 =? 0) with true. reflexivity.
Qed.

(* the inline word of a zero-sized struct (offset -1): a struct of size 0 at the word itself *)
Lemma read_empty_struct strict M a dep rl w0 :
  rawStructPointer (-1) (mkOS 0 0) = Some w0 ->
  0 <= a -> a mod 8 = 0 -> a + 8 <= zlen M -> zlen M <= 4294967288 -> word_is M a w0 -> dep <> 0 -> 0 <= rl ->
  readPtr strict [M] rl 0 M a dep =
  (Ok (mkPtr true 0 a 0 (mkOS 0 0) (uint_dec dep) KStruct false false false), rl).
Proof.
  intros Hw0 Ha Ham Hab Hl Hw Hd Hrl.
  assert (E0 : w0 = 4294967292) by (vm_compute in Hw0; inversion Hw0; reflexivity). subst w0.
  unfold readPtr, resolveFarPointer.
  rewrite (rd_word M a _ Hw) by (unfold word64; lia). cbn [bind]. cbv zeta.
  change (pointerType 4294967292 =? doubleFarPointer) with false. change (pointerType 4294967292 =? farPointer) with false. cbv iota.
  unfold addSize. cbv zeta. destruct (a + 8 >? maxSegmentSize) eqn:E; [unfold maxSegmentSize in E; lia|].
  change (4294967292 =? 0) with false. cbv iota. destruct (dep =? 0) eqn:Ed; [lia|].
  change (pointerType 4294967292 =? structPointer) with true. cbv iota.
  unfold readStructPtr. change (ptr_offset 4294967292) with (-1). change (structSize 4294967292) with (mkOS 0 0).
  rewrite (element_words (a + 8) (-1) a) by (unfold maxSegmentSize; lia).
  change (totalSize (mkOS 0 0)) with 0.
  assert (RB : regionInBounds M a 0 = true).
  { apply regionInBounds_true; unfold maxSegmentSize; lia. }
  rewrite RB. cbn [negb]. unfold canRead, struct_readSize. cbn [p_valid p_size]. change (totalSize (mkOS 0 0)) with 0.
  destruct (rl >=? 0) eqn:E3; [|lia]. f_equal. lia.
Qed.

Lemma list_readSize_le lp : list_readSize lp <= 4294967288.
Proof.
  unfold list_readSize. destruct (p_valid lp); [|lia]. cbv zeta.
  destruct (times _ (p_len lp)) as [x|] eqn:E; [|unfold maxSegmentSize; lia].
  apply times_spec in E. unfold maxSegmentSize in E. lia.
Qed.

Lemma raw_list_ok lt n : 0 <= lt <= 7 -> 0 <= n < 536870912 -> raw_ok (rawListPointer 0 lt n).
Proof.
  intros Hlt Hn. destruct (list_pointer_roundtrip 0 lt n ltac:(unfold off_ok; lia) ltac:(lia) Hn) as (P64 & _ & Po & _).
  destruct (HeapInv.fields_list lt n ltac:(lia) Hn) as (_ & Rm4 & _).
  split; [exact P64|]. split; [lia|]. split; [exact Po|]. intros E0. rewrite E0 in Rm4. cbv in Rm4. discriminate Rm4.
Qed.

(* the pointer word of a non-composite list placed near *)
Lemma read_near_list strict M a taddr lt n dep :
  0 <= lt < 7 -> 0 <= n < 536870912 ->
  0 <= a -> a mod 8 = 0 -> a + 8 <= zlen M -> zlen M <= 4294967288 ->
  0 <= taddr -> taddr mod 8 = 0 ->
  let es := match elementSize (rawListPointer 0 lt n) with Some e => e | None => mkOS 0 0 end in
  let lsize := if lt =? 1 then bitListSize n else totalSize es * n in
  taddr + lsize <= zlen M ->
  word_is M a (withOffset (rawListPointer 0 lt n) (nearPointerOffset a taddr)) -> dep <> 0 ->
  exists rl',
  readPtr strict [M] 4294967288 0 M a dep =
  (Ok (mkPtr true 0 taddr n (if lt =? 1 then mkOS 0 0 else es) (uint_dec dep) KList false (lt =? 1) false), rl').
Proof.
  intros Hlt Hn Ha Ham Hab Hl Ht Htm es lsize Htb Hw Hd.
  set (raw := rawListPointer 0 lt n) in *.
  destruct (list_pointer_roundtrip 0 lt n ltac:(unfold off_ok; lia) ltac:(lia) Hn) as (P64 & Pt & Po & Plt & Pn).
  fold raw in P64, Pt, Po, Plt, Pn.
  pose proof (raw_list_ok lt n ltac:(lia) Hn) as Rok. fold raw in Rok.
  assert (Hes : elementSize raw = Some es).
  { unfold es, elementSize. rewrite Plt. cbv zeta.
    assert (lt = 0 \/ lt = 1 \/ lt = 2 \/ lt = 3 \/ lt = 4 \/ lt = 5 \/ lt = 6) as [->|[->|[->|[->|[->|[->| ->]]]]]] by lia; reflexivity. }
  assert (Hts : totalListSize raw = Some (Some lsize)).
  { unfold totalListSize. rewrite Plt, Pn, Hes. cbv zeta. unfold lsize.
    destruct (lt =? 1) eqn:E1; [reflexivity|]. destruct (lt =? 7) eqn:E7; [lia|]. unfold timesUnchecked.
    assert (Hts : 0 <= totalSize es <= 8).
    { unfold es, elementSize. rewrite Plt. cbv zeta.
      assert (lt = 0 \/ lt = 2 \/ lt = 3 \/ lt = 4 \/ lt = 5 \/ lt = 6) as [->|[->|[->|[->|[->| ->]]]]] by lia; cbv; split; discriminate. }
    f_equal. f_equal. rewrite (u32_id n) by lia. apply u32_id. clear - Hts Hn. nia. }
  assert (L0 : 0 <= lsize).
  { unfold lsize. destruct (lt =? 1); [unfold bitListSize, u32; lia|]. unfold totalSize, u32. nia. }
  pose proof (near_resolves M a taddr raw Rok Ha Ham Hab Hl ltac:(lia) Htm Hw) as R.
  pose proof (resolved_read_list strict [M] 4294967288 0 a 0 taddr raw dep lsize es R Pt ltac:(rewrite Plt; lia) Hts Hes) as RR.
  cbn [Z.to_nat nth] in RR. rewrite Plt, Pn in RR. cbv zeta in RR.
  assert (RB : regionInBounds M taddr lsize = true).
  { apply regionInBounds_true; unfold maxSegmentSize; lia. }
  specialize (RR RB Hd (list_readSize_le _)).
  destruct (lt =? 1) eqn:E1; cbn [p_size p_bit] in RR; eexists; exact RR.
Qed.

(* element size of a list pointer word by its type code *)
Definition es_of (lt : Z) : ObjectSize :=
  if lt =? 2 then mkOS 1 0 else if lt =? 3 then mkOS 2 0 else if lt =? 4 then mkOS 4 0
  else if lt =? 5 then mkOS 8 0 else if lt =? 6 then mkOS 0 1 else mkOS 0 0.

Lemma elementSize_raw lt n : 0 <= lt < 7 -> 0 <= n < 536870912 -> elementSize (rawListPointer 0 lt n) = Some (es_of lt).
Proof.
  intros Hlt Hn. destruct (list_pointer_roundtrip 0 lt n ltac:(unfold off_ok; lia) ltac:(lia) Hn) as (_ & _ & _ & Plt & _).
  unfold elementSize. rewrite Plt. cbv zeta. unfold es_of.
  assert (lt = 0 \/ lt = 1 \/ lt = 2 \/ lt = 3 \/ lt = 4 \/ lt = 5 \/ lt = 6) as [->|[->|[->|[->|[->|[->| ->]]]]]] by lia; reflexivity.
Qed.

Lemma fold_res_app {A} (f : A -> Z -> res A) : forall l1 l2 a,
  fold_res (l1 ++ l2) a f = bind (fold_res l1 a f) (fun a' => fold_res l2 a' f).
Proof.
  induction l1 as [|y r IH]; intros l2 a; [reflexivity|]. cbn [app fold_res].
  destruct (f a y); cbn [bind]; auto.
Qed.

Lemma sub_app_l d t o n : 0 <= o -> 0 <= n -> o + n <= zlen d -> sub (d ++ t) o n = sub d o n.
Proof.
  intros Ho Hn Hb. unfold sub, zlen in *. rewrite skipn_app, firstn_app.
  replace (Z.to_nat o - length d)%nat with 0%nat by lia. cbn [skipn].
  rewrite skipn_length. replace (Z.to_nat n - (length d - Z.to_nat o))%nat with 0%nat by lia.
  cbn [firstn]. apply app_nil_r.
Qed.

Lemma sub_app_r d t o n : zlen d <= o -> 0 <= n -> sub (d ++ t) o n = sub t (o - zlen d) n.
Proof.
  intros Ho Hn. unfold sub, zlen in *. rewrite skipn_app, skipn_all2 by lia. cbn [app].
  f_equal. f_equal. lia.
Qed.

Lemma sub_set_slots D B ws : 0 <= B -> B + 8 * zlen ws <= zlen D -> sub (set_slots D B ws) B (8 * zlen ws) = bytes_of_words ws.
Proof.
  intros HB Hb. unfold sub, set_slots, zlen in *.
  assert (Lp : length (firstn (Z.to_nat B) D) = Z.to_nat B) by (rewrite firstn_length; lia).
  rewrite skipn_app, skipn_all2, Lp, Nat.sub_diag by lia. cbn [skipn app].
  rewrite firstn_app, firstn_all2 by (rewrite bytes_of_words_length; lia).
  rewrite bytes_of_words_length. replace (Z.to_nat (8 * Z.of_nat (length ws)) - 8 * length ws)%nat with 0%nat by lia.
  cbn [firstn]. apply app_nil_r.
Qed.

Lemma sub_prefix M o a b : 0 <= o -> 0 <= a -> 0 <= b -> sub M o a = firstn (Z.to_nat a) (sub M o (a + b)).
Proof.
  intros. unfold sub. rewrite firstn_firstn. f_equal. lia.
Qed.

Lemma sub_sub M o n o2 n2 : 0 <= o -> 0 <= o2 -> 0 <= n2 -> o2 + n2 <= n ->
  sub (sub M o n) o2 n2 = sub M (o + o2) n2.
Proof.
  intros Ho Ho2 Hn2 Hb. unfold sub. rewrite skipn_firstn_comm, firstn_firstn, <- skipn_add.
  f_equal; [lia|]. f_equal. lia.
Qed.

Lemma sub_bow_prefix M A a b : 0 <= A ->
  sub M A (8 * (zlen a + zlen b)) = bytes_of_words (a ++ b) -> sub M A (8 * zlen a) = bytes_of_words a.
Proof.
  intros HA H. pose proof (zlen_nonneg a). pose proof (zlen_nonneg b).
  rewrite (sub_prefix M A (8 * zlen a) (8 * zlen b)), <- Z.mul_add_distr_l, H, bow_app by lia.
  replace (Z.to_nat (8 * zlen a)) with (length (bytes_of_words a)) by (rewrite bytes_of_words_length; unfold zlen; lia).
  apply firstn_app_exact.
Qed.

Lemma word_is_app pre t a w : 0 <= a -> a + 8 <= zlen pre -> word_is pre a w -> word_is (pre ++ t) a w.
Proof. intros Ha Hb Hw. unfold word_is. rewrite sub_app_l by lia. exact Hw. Qed.

Lemma sub_end pre b : sub (pre ++ b) (zlen pre) (zlen b) = b.
Proof.
  rewrite sub_app_r, Z.sub_diag by (pose proof (zlen_nonneg b); lia).
  unfold sub, zlen. rewrite Nat2Z.id. apply firstn_all.
Qed.

Lemma sub_head b t : sub (b ++ t) 0 (zlen b) = b.
Proof. rewrite sub_app_l by (pose proof (zlen_nonneg b); lia). exact (sub_end [] b). Qed.

Lemma word_is_mid pre w t : word_is (pre ++ le_encode 8 w ++ t) (zlen pre) w.
Proof. unfold word_is. rewrite sub_app_r, Z.sub_diag by lia. exact (sub_head (le_encode 8 w) t). Qed.

Lemma zlen_bow ws : zlen (bytes_of_words ws) = 8 * zlen ws.
Proof. unfold zlen. rewrite bytes_of_words_length. lia. Qed.

Lemma wob_aligned d : bytes_ok d -> zlen d mod 8 = 0 ->
  bytes_of_words (words_of_bytes d) = d /\ 8 * zlen (words_of_bytes d) = zlen d.
Proof.
  intros Hb Hal.
  assert (E : bytes_of_words (words_of_bytes d) = d).
  { apply bow_wob; [exact Hb|]. apply Nat2Z.inj. rewrite Nat2Z.inj_mod. exact Hal. }
  split; [exact E|]. rewrite <- zlen_bow, E. reflexivity.
Qed.

(* the pointer word of an object that starts where the old segment ended *)
Lemma place_at_end m D body cap rl a raw w' : hinv (D ++ body) -> 0 <= a -> a + 8 <= zlen D ->
  place (dstw (D ++ body) cap m rl) 0 a 0 (zlen D) raw = Ok w' ->
  w' = dstw (put_word D a (withOffset raw (nearPointerOffset a (zlen D))) ++ body) cap m rl.
Proof.
  intros [_ Hi] Ha Hb H. unfold place in H. cbn [w_dst dstw] in H. change (0 =? 0) with true in H. cbv iota in H.
  unfold lift0 in H. pose proof (zlen_nonneg body).
  rewrite writeRaw_seg0, put_word_app_left in H by (rewrite ?zlen_app in *; lia).
  apply Ok_inj in H. subst w'. reflexivity.
Qed.

(* [step] handles element i: it writes the block of bw words at B + 8*bw*i and appends bytes *)
Lemma sem_blocks_loop (step : world -> Z -> res world) (m : segs) (B bw : Z) (n : nat) (P : Z -> list Z -> Prop) :
  0 <= B -> B mod 8 = 0 -> 0 <= bw ->
  (forall i D cap rl w', 0 <= i < Z.of_nat n -> hinv D -> B + 8 * bw * Z.of_nat n <= zlen D ->
     step (dstw D cap m rl) i = Ok w' ->
     exists block body cap' rl',
       zlen block = bw /\
       w' = dstw (set_slots D (B + 8 * bw * i) block ++ body) cap' m rl' /\ hinv (D ++ body) /\ bytes_ok body /\
       forall pre' tail, zlen pre' = zlen D -> sub pre' (B + 8 * bw * i) (8 * bw) = bytes_of_words block ->
         P i (pre' ++ body ++ tail)) ->
  forall k, (k <= n)%nat -> forall D cap rl w',
    hinv D -> B + 8 * bw * Z.of_nat n <= zlen D ->
    fold_res (iota k) (dstw D cap m rl) step = Ok w' ->
    exists words kids cap' rl',
      zlen words = bw * Z.of_nat k /\ w' = dstw (set_slots D B words ++ kids) cap' m rl' /\ hinv (D ++ kids) /\ bytes_ok kids /\
      forall pre' tail, zlen pre' = zlen D -> sub pre' B (8 * bw * Z.of_nat k) = bytes_of_words words ->
        forall i, 0 <= i < Z.of_nat k -> P i (pre' ++ kids ++ tail).
Proof.
  intros HB HBm Hbw Hstep. induction k as [|k IH]; intros Hk D cap rl w' Hi Hb H.
  - cbn in H. inversion H; subst. exists [], [], cap, rl. split; [unfold zlen; cbn; lia|].
    rewrite set_slots_nil by (unfold zlen in *; nia). rewrite !app_nil_r.
    split; [reflexivity|]. split; [exact Hi|]. split; [constructor|]. intros pre' tail _ _ i Hi0. lia.
  - rewrite iota_S, fold_res_app in H.
    destruct (fold_res (iota k) (dstw D cap m rl) step) as [wk| |] eqn:Ek; try discriminate. cbn [bind] in H.
    destruct (IH ltac:(lia) D cap rl wk Hi Hb Ek) as (words & kids & cap1 & rl1 & Lw & -> & Hi1 & Bk & Post).
    cbn [fold_res] in H. destruct (step _ (Z.of_nat k)) as [w2| |] eqn:Es; try discriminate. cbn [bind] in H.
    inversion H; subst w'; clear H.
    assert (Hnn : bw * Z.of_nat k + bw <= bw * Z.of_nat n) by nia.
    assert (Lsl : zlen (set_slots D B words) = zlen D).
    { apply set_slots_length; [assumption|]. unfold zlen in *. lia. }
    assert (Hi1' : hinv (set_slots D B words ++ kids)).
    { unfold hinv in *. rewrite zlen_app, Lsl. rewrite zlen_app in Hi1. exact Hi1. }
    destruct (Hstep (Z.of_nat k) _ cap1 rl1 w2 ltac:(lia) Hi1'
                    ltac:(rewrite zlen_app, Lsl; unfold zlen in *; lia) Es)
      as (block & body & cap2 & rl2 & Lbk & -> & Hi2 & Bb & PostK).
    exists (words ++ block), (kids ++ body), cap2, rl2.
    split; [rewrite zlen_app; lia|]. split.
    + f_equal. rewrite set_slots_app_left by (try rewrite Lsl; lia).
      replace (B + 8 * bw * Z.of_nat k) with (B + 8 * zlen words) by lia.
      rewrite set_slots_app by (try rewrite zlen_app; lia).
      rewrite <- !app_assoc. reflexivity.
    + split.
      * unfold hinv in *. rewrite !zlen_app in *. rewrite Lsl in Hi2. lia.
      * split; [apply Forall_app; split; assumption|]. intros pre' tail Lp Hs i Hi0.
        assert (Lbw : zlen (bytes_of_words words) = 8 * bw * Z.of_nat k) by (unfold zlen in *; rewrite bytes_of_words_length; lia).
        assert (Lbb : zlen (bytes_of_words block) = 8 * bw) by (unfold zlen in *; rewrite bytes_of_words_length; lia).
        replace (8 * bw * Z.of_nat (S k)) with (8 * bw * Z.of_nat k + 8 * bw) in Hs by lia.
        assert (Hs1 : sub pre' B (8 * bw * Z.of_nat k) = bytes_of_words words).
        { rewrite (sub_prefix pre' B (8 * bw * Z.of_nat k) (8 * bw)) by lia. rewrite Hs, bow_app.
          rewrite firstn_app, firstn_all2 by (unfold zlen in Lbw; lia).
          replace (Z.to_nat (8 * bw * Z.of_nat k) - length (bytes_of_words words))%nat with 0%nat by (unfold zlen in Lbw; lia).
          cbn [firstn]. apply app_nil_r. }
        destruct (Z.eq_dec i (Z.of_nat k)) as [->|Hne].
        -- rewrite <- app_assoc. rewrite (app_assoc pre' kids). apply PostK.
           ++ rewrite !zlen_app, Lsl. lia.
           ++ rewrite sub_app_l by (unfold zlen in *; lia).
              replace (sub pre' (B + 8 * bw * Z.of_nat k) (8 * bw))
                with (sub (sub pre' B (8 * bw * Z.of_nat k + 8 * bw)) (8 * bw * Z.of_nat k) (8 * bw))
                by (apply sub_sub; lia).
              rewrite Hs, bow_app. rewrite sub_app_r by lia. rewrite Lbw, Z.sub_diag.
              unfold sub. cbn [Z.to_nat skipn]. apply firstn_all2. unfold zlen in Lbb. lia.
        -- rewrite <- app_assoc. apply (Post pre' (body ++ tail) Lp Hs1 i). lia.
Qed.

Lemma sem_loop (step : world -> Z -> res world) (m : segs) (B : Z) (n : nat) (P : Z -> list Z -> Prop) :
  0 <= B -> B mod 8 = 0 ->
  (forall i D cap rl w', 0 <= i < Z.of_nat n -> hinv D -> B + 8 * Z.of_nat n <= zlen D ->
     step (dstw D cap m rl) i = Ok w' ->
     exists word body cap' rl',
       w' = dstw (put_word D (B + 8 * i) word ++ body) cap' m rl' /\ hinv (D ++ body) /\ bytes_ok body /\
       forall pre' tail, zlen pre' = zlen D -> word_is pre' (B + 8 * i) word -> P i (pre' ++ body ++ tail)) ->
  forall k, (k <= n)%nat -> forall D cap rl w',
    hinv D -> B + 8 * Z.of_nat n <= zlen D ->
    fold_res (iota k) (dstw D cap m rl) step = Ok w' ->
    exists words kids cap' rl',
      length words = k /\ w' = dstw (set_slots D B words ++ kids) cap' m rl' /\ hinv (D ++ kids) /\ bytes_ok kids /\
      forall pre' tail, zlen pre' = zlen D -> sub pre' B (8 * Z.of_nat k) = bytes_of_words words ->
        forall i, 0 <= i < Z.of_nat k -> P i (pre' ++ kids ++ tail).
Proof.
  intros HB HBm Hstep k Hk D cap rl w' Hi Hb H.
  destruct (sem_blocks_loop step m B 1 n P HB HBm ltac:(lia)) with (k := k) (D := D) (cap := cap) (rl := rl) (w' := w')
    as (words & kids & cap' & rl' & Lw & E & Hi' & Bk & Post); try assumption; try lia.
  - intros i D0 cap0 rl0 w0 Hi0 Hinv0 Hb0 Hs0.
    destruct (Hstep i D0 cap0 rl0 w0 Hi0 Hinv0 ltac:(lia) Hs0) as (word & body & cap1 & rl1 & -> & Hi1 & Bb & PostK).
    exists [word], body, cap1, rl1. replace (B + 8 * 1 * i) with (B + 8 * i) by lia. rewrite set_slots_one.
    split; [reflexivity|]. split; [reflexivity|]. split; [exact Hi1|]. split; [exact Bb|].
    intros pre' tail Lp Hs. apply PostK; [exact Lp|]. unfold word_is. rewrite <- (app_nil_r (le_encode 8 word)). exact Hs.
  - exists words, kids, cap', rl'. split; [unfold zlen in Lw; lia|]. split; [exact E|]. split; [exact Hi'|]. split; [exact Bk|].
    intros pre' tail Lp Hs. apply Post; [exact Lp|]. replace (8 * 1 * Z.of_nat k) with (8 * Z.of_nat k) by lia. exact Hs.
Qed.

(* a composite list pointer handed out by the reader sits behind a tag word that agrees with it *)
Definition ctag_ok (m : segs) (p : Ptr) : Prop :=
  p_valid p = true -> p_kind p = KList -> p_comp p = true ->
  8 <= p_off p /\ exists t, readRawPointer (seg_of m p) (p_off p - 8) = Ok t /\ word64 t /\
    pointerType t = structPointer /\ structSize t = p_size p /\ s32 (ptr_offset t) = p_len p.

Lemma readListPtr_ctag strict m sid s base val lp : seg_ok s -> is_seg m sid s ->
  readListPtr strict sid s base val = Ok lp -> p_comp lp = true ->
  8 <= p_off lp /\ exists t, readRawPointer (seg_of m lp) (p_off lp - 8) = Ok t /\ word64 t /\
    pointerType t = structPointer /\ structSize t = p_size lp /\ s32 (ptr_offset t) = p_len lp.
Proof.
  intros Hok Hs. unfold readListPtr. destruct (element base (ptr_offset val) 8) as [addr|] eqn:Ee; [|discriminate].
  destruct (totalListSize val) as [[lsize|]|]; try discriminate.
  destruct (regionInBounds s addr lsize) eqn:RB; cbn [negb]; [|discriminate]. cbv zeta.
  destruct (listType val =? 7).
  - destruct (readRawPointer s addr) as [hdr| |] eqn:Eh; try discriminate. cbn [bind].
    destruct (addSize addr 8) as [addr'|] eqn:Ea; [|discriminate].
    destruct (pointerType hdr =? structPointer) eqn:Ept; cbn [negb]; [|discriminate].
    destruct (strict && (s32 (ptr_offset hdr) <? 0)); [discriminate|].
    destruct (times (totalSize (structSize hdr)) (s32 (ptr_offset hdr))); [|discriminate].
    destruct (negb (regionInBounds s addr' z)); [discriminate|].
    intros H. inversion H; subst. intros _. cbn [p_off p_size p_len p_seg].
    apply addSize_spec in Ea. destruct Ea as [-> _]. apply element_spec in Ee.
    unfold seg_of. cbn [p_seg]. destruct Hs as [_ <-].
    split; [lia|]. exists hdr. replace (addr + 8 - 8) with addr by lia.
    split; [exact Eh|]. split.
    + unfold readRawPointer, readUintN in Eh. destruct (slice s addr 8) as [b| |] eqn:Es; try discriminate. cbn [bind] in Eh.
      inversion Eh; subst hdr. apply slice_eq_sub in Es; [|exact Hok|lia]. destruct Es as (Eb & B1 & B2).
      assert (Hb : bytes_ok b) by (rewrite Eb; apply bytes_ok_sub, Hok).
      pose proof (le_decode_range b Hb) as R.
      assert (Lb : zlen b = 8) by (rewrite Eb; apply sub_length; lia). rewrite Lb in R. unfold word64. change (256 ^ 8) with 18446744073709551616 in R. exact R.
    + split; [lia|]. split; reflexivity.
  - destruct (listType val =? 1).
    + intros H. inversion H; subst. intros K. discriminate K.
    + destruct (elementSize val); [|discriminate]. intros H. inversion H; subst. intros K. discriminate K.
Qed.

Lemma readPtr_ctag strict m rl sid s a dep q rl' : msg_ok m -> is_seg m sid s -> 0 <= a -> a + 8 <= zlen s ->
  readPtr strict m rl sid s a dep = (Ok q, rl') -> ctag_ok m q.
Proof.
  intros Hm Hs Ha Hb. unfold readPtr.
  pose proof (resolveFarPointer_safe strict m sid s a Hm Hs Ha Hb) as RS.
  destruct (resolveFarPointer strict m sid s a) as [[[[dsid dst] base] val]| |]; try discriminate.
  cbn [res_sat far_post] in RS. destruct RS as (Hds & _ & _).
  destruct (val =? 0); [intros H; inversion H; subst; intros K; discriminate K|].
  destruct (dep =? 0); [discriminate|]. cbv zeta.
  destruct (pointerType val =? structPointer).
  { unfold readStructPtr. destruct (element base (ptr_offset val) 8); [|discriminate].
    destruct (negb (regionInBounds dst z (totalSize (structSize val)))); [discriminate|].
    unfold canRead, struct_readSize. cbn [p_valid p_size]. destruct (rl >=? totalSize (structSize val)); [|discriminate].
    intros H. inversion H; subst. intros _ K. discriminate K. }
  destruct (pointerType val =? listPointer).
  { destruct (readListPtr strict dsid dst base val) as [lp| |] eqn:EL; try discriminate.
    unfold canRead. destruct (rl >=? list_readSize lp); [|discriminate].
    intros H. inversion H; subst.
    pose proof (readListPtr_ctag strict m dsid dst base val lp (is_seg_ok m dsid dst Hm Hds) Hds EL) as C.
    intros _ _ Cc. unfold seg_of in *. cbn [p_comp p_off p_size p_len p_seg] in *. exact (C Cc). }
  destruct (pointerType val =? otherPointer); [|discriminate].
  destruct (negb (otherPointerType val =? 0)); [discriminate|].
  intros H. inversion H; subst. intros _ K. discriminate K.
Qed.

(* the pointer word of a composite list placed near: the tag word at taddr, the elements behind it *)
Lemma read_near_comp strict M a taddr n sz wc t dep :
  0 <= wc < 536870912 -> 0 <= n -> os_wf sz -> totalSize sz * n = 8 * wc ->
  0 <= a -> a mod 8 = 0 -> a + 8 <= zlen M -> zlen M <= 4294967288 ->
  0 <= taddr -> taddr mod 8 = 0 -> taddr + 8 + 8 * wc <= zlen M ->
  word_is M a (withOffset (rawListPointer 0 7 wc) (nearPointerOffset a taddr)) ->
  readRawPointer M taddr = Ok t -> pointerType t = structPointer -> structSize t = sz -> s32 (ptr_offset t) = n ->
  dep <> 0 ->
  exists rl',
  readPtr strict [M] 4294967288 0 M a dep =
  (Ok (mkPtr true 0 (taddr + 8) n sz (uint_dec dep) KList true false false), rl').
Proof.
  intros Hwc Hn Hwf Hts Ha Ham Hab Hl Ht Htm Htb Hw Htag Tpt Tsz Tn Hd.
  set (raw := rawListPointer 0 7 wc) in *.
  destruct (list_pointer_roundtrip 0 7 wc ltac:(unfold off_ok; lia) ltac:(lia) Hwc) as (P64 & Pt & Po & Plt & Pn).
  fold raw in P64, Pt, Po, Plt, Pn.
  pose proof (raw_list_ok 7 wc ltac:(lia) Hwc) as Rok. fold raw in Rok.
  destruct (near_resolves M a taddr raw Rok Ha Ham Hab Hl ltac:(lia) Htm Hw) as (base & val & R & Vw & Vt & Vs & Vl & Vn & Ve).
  pose proof (R strict) as Rs. cbn [Z.to_nat nth] in Rs. unfold readPtr. rewrite Rs.
  assert (Hv0 : (val =? 0) = false).
  { destruct (val =? 0) eqn:E; auto. assert (val = 0) by lia. subst val. rewrite Pt in Vt. cbv in Vt. discriminate. }
  rewrite Hv0. destruct (dep =? 0) eqn:ED; [lia|]. cbv zeta. rewrite Vt, Pt.
  change (listPointer =? structPointer) with false. change (listPointer =? listPointer) with true. cbv iota.
  unfold readListPtr. rewrite Ve.
  assert (HT : totalListSize val = Some (Some (8 * (wc + 1)))).
  { unfold totalListSize. rewrite Vl, Vn, Plt, Pn. cbv zeta. change (7 =? 1) with false. change (7 =? 7) with true. cbv iota.
    f_equal. replace (s32 (wc + 1)) with (wc + 1) by (unfold s32; cbv zeta; destruct (_ <? _) eqn:E; lia).
    apply times_some. unfold maxSegmentSize. lia. }
  rewrite HT.
  assert (RB1 : regionInBounds M taddr (8 * (wc + 1)) = true).
  { apply regionInBounds_true; unfold maxSegmentSize; lia. }
  rewrite RB1. cbn [negb]. cbv zeta. rewrite Vl, Plt. change (7 =? 7) with true. cbv iota.
  rewrite Htag. cbn [bind].
  assert (EA : addSize taddr 8 = Some (taddr + 8)).
  { apply addSize_spec; unfold maxSegmentSize; lia. }
  rewrite EA, Tpt. change (structPointer =? structPointer) with true. cbn [negb]. rewrite Tsz, Tn.
  destruct (strict && (n <? 0)) eqn:En; [lia|].
  rewrite (times_some (totalSize sz) n) by (rewrite Hts; unfold maxSegmentSize; lia). rewrite Hts.
  assert (RB2 : regionInBounds M (taddr + 8) (8 * wc) = true).
  { apply regionInBounds_true; unfold maxSegmentSize; lia. }
  rewrite RB2. cbn [negb]. unfold canRead.
  match goal with |- context [if ?c then _ else _] => destruct c eqn:EC end.
  - eexists. reflexivity.
  - pose proof (list_readSize_le (mkPtr true 0 (taddr + 8) n sz 0 KList true false false)). lia.
Qed.
