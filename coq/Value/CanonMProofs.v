(* C18 at the model level: the correctness statement of the Go-faithful model of Canonicalize
   ([T2]; proved for every value in CanonMTop.canon_m_correct_full), its consequences stated
   relative to it, the null struct, and the F04 / O2 witnesses on the as-found variants. *)
From CV Require Import Value.ValueEq Value.EqualM Value.CanonSpec Value.CanonM Value.EqualProofs Value.Den
                       Value.CanonProofs Value.CanonProofs3 Value.CanonMStruct.
From CV Require Import Core.ReaderFacts Core.SafetyProofs.
Open Scope Z_scope.

(* [T2] whenever Canonicalize returns bytes, they are the specification's canonical form of
   the value the struct denotes, and it never panics (the as-found code did: F04). *)
Definition canon_m_correct_statement : Prop :=
  forall fuel c fx m rl s v,
    all_cfixed fx -> cfg_strict c = true -> msg_ok m -> wf_ptr m s ->
    (p_valid s = true -> p_kind s = KStruct /\ DataSize (p_size s) mod 8 = 0) ->
    den true m 0 [] s v ->
    forall r rl', canonicalize c fx fuel m rl s = (r, rl') ->
    match r with
    | KOk bs => canon v = Some bs
    | KErr => True          (* limits, or canon v = None (capability) *)
    | KPanic => False
    | KFuel => True
    end.

(* what follows from it with the specification-level theorems; CanonMTop has the same three
   consequences without the hypothesis (canon_m_layout_independent, _value_preserved, _idempotent_given_readback) *)
(* layout / version independence of Canonicalize *)
Theorem canon_m_layout_independent_if : canon_m_correct_statement ->
  forall fuel c fx m1 rl1 s1 v1 m2 rl2 s2 v2 bs1 bs2 r1 r2,
    all_cfixed fx -> cfg_strict c = true -> msg_ok m1 -> msg_ok m2 -> wf_ptr m1 s1 -> wf_ptr m2 s2 ->
    (p_valid s1 = true -> p_kind s1 = KStruct /\ DataSize (p_size s1) mod 8 = 0) ->
    (p_valid s2 = true -> p_kind s2 = KStruct /\ DataSize (p_size s2) mod 8 = 0) ->
    den true m1 0 [] s1 v1 -> den true m2 0 [] s2 v2 ->
    nocap v1 = true -> value_eqs v1 v2 = true ->
    canonicalize c fx fuel m1 rl1 s1 = (KOk bs1, r1) -> canonicalize c fx fuel m2 rl2 s2 = (KOk bs2, r2) ->
    bs1 = bs2.
Proof.
  intros T fuel c fx m1 rl1 s1 v1 m2 rl2 s2 v2 bs1 bs2 r1 r2 Hf Hs M1 M2 W1 W2 K1 K2 D1 D2 Hc He C1 C2.
  pose proof (T fuel c fx m1 rl1 s1 v1 Hf Hs M1 W1 K1 D1 _ _ C1) as E1. cbn in E1.
  pose proof (T fuel c fx m2 rl2 s2 v2 Hf Hs M2 W2 K2 D2 _ _ C2) as E2. cbn in E2.
  rewrite (canon_unique v1 v2 Hc He) in E1. congruence.
Qed.

(* value preservation: the output decodes (strict pre-order decoder) to an equal value *)
Theorem canon_m_value_preserved_if : canon_m_correct_statement ->
  forall fuel c fx m rl s v bs r,
    all_cfixed fx -> cfg_strict c = true -> msg_ok m -> wf_ptr m s ->
    (p_valid s = true -> p_kind s = KStruct /\ DataSize (p_size s) mod 8 = 0) ->
    den true m 0 [] s v -> good v ->
    canonicalize c fx fuel m rl s = (KOk bs, r) ->
    exists v', cdecode (S (vdepth (norm v))) bs = Some v' /\ value_eqs v' v = true /\ value_eq v' v = true.
Proof.
  intros T fuel c fx m rl s v bs r Hf Hs M W K D G C.
  pose proof (T fuel c fx m rl s v Hf Hs M W K D _ _ C) as E. cbn in E.
  apply canon_decodes_equal; assumption.
Qed.

(* idempotence: canonicalising a message that reads back as an equal value returns the same bytes *)
Theorem canon_m_idempotent_if : canon_m_correct_statement ->
  forall fuel c fx m rl s v bs r m' rl' s' v' bs' r',
    all_cfixed fx -> cfg_strict c = true -> msg_ok m -> msg_ok m' -> wf_ptr m s -> wf_ptr m' s' ->
    (p_valid s = true -> p_kind s = KStruct /\ DataSize (p_size s) mod 8 = 0) ->
    (p_valid s' = true -> p_kind s' = KStruct /\ DataSize (p_size s') mod 8 = 0) ->
    den true m 0 [] s v -> nocap v = true ->
    canonicalize c fx fuel m rl s = (KOk bs, r) ->
    den true m' 0 [] s' v' -> value_eqs v v' = true ->      (* m' = the output, read back *)
    canonicalize c fx fuel m' rl' s' = (KOk bs', r') ->
    bs' = bs.
Proof.
  intros T fuel c fx m rl s v bs r m' rl' s' v' bs' r' Hf Hs M M' W W' K K' D Hc C D' He C'.
  symmetry. eapply (canon_m_layout_independent_if T fuel c fx m rl s v m' rl' s' v'); eassumption.
Qed.

(* proved: the invalid struct (Canonicalize of a null pointer's Struct()) *)
Theorem canon_m_null_partial : forall fuel c fx m rl s,
  p_valid s = false ->
  canonicalize c fx fuel m rl s = (KOk (repeat 0 8%nat), rl) /\ canon VNull = Some (repeat 0 8%nat).
Proof.
  intros fuel c fx m rl s Hs. split.
  - unfold canonicalize. replace (new_message ASingle [] 0) with (Ok (mkBM ASingle [mkBS (repeat 0 8%nat) 1024] [] 0))
      by (vm_compute; reflexivity).
    rewrite Hs. reflexivity.
  - vm_compute. reflexivity.
Qed.

(* F04, as found.  Root struct with one pointer to a struct list of 2 elements with one data word (7, 0) and
   no pointers, at the end of the segment *)
Definition msg_complist (tail : list Z) : segs :=
  [wbytes ([struct_word 0 0 1; list_word 0 7 2; struct_word 2 1 0; 7; 0] ++ tail)].
Definition asfound := mkCFix false false false rdfix.
Definition repaired := mkCFix true true true rdfix.

Definition spec_bytes (m : segs) : option (option (list Z)) := fst (spec_canon 20 cfg0 rdfix m SelRoot 1024 64).

(* as found, cap == len: the raw copy reads 8 bytes past the list and panics; with more data
   behind the list it returns bytes that are not the canonical form (tag lost, nothing
   truncated); repaired: the specification's bytes in both cases *)
Example canon_prefix_refuted :
  run_canon 30 cfg0 asfound (msg_complist []) SelRoot = KPanic
  /\ (exists bs, run_canon 30 cfg0 asfound (msg_complist [99]) SelRoot = KOk bs
                 /\ spec_bytes (msg_complist [99]) <> Some (Some bs))
  /\ (exists bs, run_canon 30 cfg0 repaired (msg_complist []) SelRoot = KOk bs
                 /\ spec_bytes (msg_complist []) = Some (Some bs)
                 /\ run_canon 30 cfg0 repaired (msg_complist [99]) SelRoot = KOk bs).
Proof.
  split; [vm_compute; reflexivity|]. split.
  - eexists. split; [vm_compute; reflexivity|]. vm_compute. intros H. discriminate H.
  - eexists. split; [vm_compute; reflexivity|]. split; vm_compute; reflexivity.
Qed.

(* O2: dirty padding bits of a bit list (3 bits, byte 0xfd) *)
Example canon_bitpad_prefix_refuted :
  (exists bs, run_canon 30 cfg0 (mkCFix true false true rdfix) (msg_bits 253) SelRoot = KOk bs
              /\ spec_bytes (msg_bits 253) <> Some (Some bs))
  /\ (exists bs, run_canon 30 cfg0 repaired (msg_bits 253) SelRoot = KOk bs
                 /\ spec_bytes (msg_bits 253) = Some (Some bs)
                 /\ run_canon 30 cfg0 repaired (msg_bits 5) SelRoot = KOk bs).
Proof.
  split.
  - eexists. split; [vm_compute; reflexivity|]. vm_compute. intros H. discriminate H.
  - eexists. split; [vm_compute; reflexivity|]. split; vm_compute; reflexivity.
Qed.
