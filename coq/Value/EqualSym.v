(* C17: symmetry of Equal across two messages.  Exchanging the two messages exchanges the
   message ids carried by capability values; the specification holds for any two distinct ids. *)
From CV Require Import Value.ValueEq Value.ValueEqProofs Value.EqualM Value.Den Value.EqualCorrect.
From CV Require Import Core.ReaderFacts.
From Coq Require Import ZifyBool.
Open Scope Z_scope.

Definition swap_x (x : ectx) : ectx := mkEC (ec_segs_b x) (ec_caps_b x) (ec_segs_a x) (ec_caps_a x) (ec_same x).

(* Equal(p, q) across messages A, B and Equal(q, p) across B, A give the same answer *)
Theorem equal_sym_two_messages : forall c fx x fuel st1 st2 p q b1 b2 st1' st2' va vb,
  cfg_strict c = true -> all_fixed fx -> msg_ok (ec_segs_a x) -> msg_ok (ec_segs_b x) -> ec_same x = false ->
  equal_m fuel c fx x st1 p q = (EOk b1, st1') ->
  equal_m fuel c fx (swap_x x) st2 q p = (EOk b2, st2') ->
  den true (ec_segs_a x) 0 (ec_caps_a x) p va ->
  den true (ec_segs_b x) 1 (ec_caps_b x) q vb -> b1 = b2.
Proof.
  intros c fx x fuel st1 st2 p q b1 b2 st1' st2' va vb Hs Hf Ma Mb Hx H1 H2 Dp Dq.
  assert (Hx' : ec_same (swap_x x) = false) by exact Hx.
  assert (E1 : b1 = value_eq va vb).
  { apply (equal_m_correct_ids c fx x 0 1 fuel st1 p q b1 st1'); try assumption; unfold segs_of, caps_of, on_a; rewrite Hx; try assumption.
    reflexivity. }
  assert (E2 : b2 = value_eq vb va).
  { apply (equal_m_correct_ids c fx (swap_x x) 1 0 fuel st2 q p b2 st2'); try assumption; unfold segs_of, caps_of, on_a; rewrite Hx';
      try assumption. reflexivity. }
  rewrite E1, E2. apply value_eq_sym.
Qed.
