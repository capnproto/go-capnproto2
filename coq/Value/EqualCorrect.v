(* C17 [T1]: whenever the (repaired) model of Equal answers (b, nil), b is the documented
   equality of the values the two pointers denote -- for all messages, pointers, limits. *)
From CV Require Import Value.ValueEq Value.ValueEqProofs Value.EqualM Value.Den Value.DenFacts
                       Value.DenLists Value.DenBits.
From CV Require Import Core.ReaderFacts Core.SafetyProofs.
From Coq Require Import ZifyBool ZifyNat.
Ltac Zify.zify_post_hook ::= Z.div_mod_to_equations.
Open Scope Z_scope.

Definition all_fixed (fx : efix) : Prop :=
  fx_bitlist fx = true /\ fx_farnull fx = true /\ fx_depth (fx_rd fx) = true.

Lemma nthv_over vs i : zlen vs <= i -> nthv vs i = VNull.
Proof. intros H. unfold nthv. apply nth_overflow. unfold zlen in H. lia. Qed.

Lemma no_ptrs_spec m mid caps p vs : kids_of m mid caps p vs ->
  forall k i0 b, 0 <= i0 -> i0 + Z.of_nat k <= PointerCount (p_size p) ->
    no_ptrs true true m p k i0 = Ok b ->
    if b then forall j, i0 <= j < i0 + Z.of_nat k -> is_null (nthv vs j) = true
    else exists j, i0 <= j < i0 + Z.of_nat k /\ is_null (nthv vs j) = false.
Proof.
  intros K. induction k as [|k IH]; intros i0 b Hi B H.
  - cbn in H. inversion H; subst. intros j Hj. lia.
  - cbn [no_ptrs] in H. destruct (K i0 ltac:(lia)) as (d1 & l1 & q1 & l1' & R1 & D1).
    rewrite (readPtr_nonnull _ _ _ _ _ _ _ _ R1) in H. cbn [bind] in H.
    pose proof (den_is_null _ _ _ _ _ _ D1) as Hn.
    destruct (p_valid q1).
    + inversion H; subst. exists i0. split; [lia| exact Hn].
    + specialize (IH (i0 + 1) b ltac:(lia) ltac:(lia) H). destruct b.
      * intros j Hj. destruct (Z.eq_dec j i0) as [->|Ne]; [exact Hn| apply IH; lia].
      * destruct IH as (j & Hj & Hf). exists j. split; [lia| assumption].
Qed.

Lemma ptrs_eq_nthv u a b :
  ptrs_eq u a b = true <-> forall i, 0 <= i -> veq u (nthv a i) (nthv b i) = true.
Proof.
  rewrite ptrs_eq_nth. unfold nthv. split.
  - intros H i _. apply H.
  - intros H i. specialize (H (Z.of_nat i) ltac:(lia)). rewrite Nat2Z.id in H. exact H.
Qed.

(* the kind of a non-bit list is determined by its flags and element size *)
Definition kind_ok (p : Ptr) (k : lkind) : Prop :=
  (p_comp p = true /\ k = LComp /\ wf_size (p_size p)) \/
  (p_comp p = false /\
   ((p_size p = mkOS 0 1 /\ k = LPtr) \/ (exists w, prim_width w /\ p_size p = mkOS w 0 /\ k = kind_of_width w))).

Lemma den_list_inv strict m mid caps p v : den strict m mid caps p v ->
  p_valid p = true -> p_kind p = KList ->
  (p_bit p = true /\ 0 <= p_len p < 536870912 /\
   exists d, slice (seg_of m p) (p_off p) (bitListSize (p_len p)) = Ok d /\ v = VBits (bits_of (Z.to_nat (p_len p)) d))
  \/ (p_bit p = false /\ exists k vs, v = VList k vs /\ kind_ok p k).
Proof.
  intros H Hv Hk. inversion H; subst; try congruence.
  - left. split; [assumption|]. split; [assumption|]. eexists. split; [eassumption|reflexivity].
  - right. split; [assumption|]. exists LComp, vs. split; [reflexivity|]. left. split; [assumption|]. split; [reflexivity|assumption].
  - right. split; [assumption|]. exists LPtr, vs. split; [reflexivity|]. right. split; [assumption|]. left. split; [assumption|reflexivity].
  - right. split; [assumption|]. exists (kind_of_width w), vs. split; [reflexivity|]. right. split; [assumption|].
    right. exists w. repeat split; assumption.
Qed.

Lemma kind_ok_wf p k : kind_ok p k -> wf_size (p_size p).
Proof.
  intros [(_ & _ & W)|(_ & [(E & _)|(w & Hw & E & _)])]; [assumption| |]; rewrite E; unfold wf_size; cbn;
    [lia| destruct Hw as [->|[->|[->|[->| ->]]]]; lia].
Qed.

Lemma kinds_differ p q k1 k2 : kind_ok p k1 -> kind_ok q k2 ->
  negb (p_comp p) && negb (p_comp q) && negb (os_eqb (p_size p) (p_size q)) = true ->
  kinds_compat true k1 k2 = false.
Proof.
  intros [(C1 & _)|(C1 & K1)] [(C2 & _)|(C2 & K2)] H; rewrite ?C1, ?C2 in H; try discriminate.
  cbn [negb andb] in H.
  destruct K1 as [(E1 & ->)|(w1 & W1 & E1 & ->)]; destruct K2 as [(E2 & ->)|(w2 & W2 & E2 & ->)];
    rewrite E1, E2 in H.
  - discriminate.
  - destruct W2 as [->|[->|[->|[->| ->]]]]; reflexivity.
  - destruct W1 as [->|[->|[->|[->| ->]]]]; reflexivity.
  - destruct W1 as [->|[->|[->|[->| ->]]]]; destruct W2 as [->|[->|[->|[->| ->]]]]; try discriminate; reflexivity.
Qed.

Lemma kinds_same p q k1 k2 : kind_ok p k1 -> kind_ok q k2 ->
  negb (p_comp p) && negb (p_comp q) && negb (os_eqb (p_size p) (p_size q)) = false ->
  kinds_compat true k1 k2 = true.
Proof.
  intros [(C1 & -> & _)|(C1 & K1)] [(C2 & -> & _)|(C2 & K2)] H; try reflexivity.
  - destruct k2; reflexivity.
  - destruct k1; reflexivity.
  - rewrite C1, C2 in H. cbn [negb andb] in H.
    destruct K1 as [(E1 & ->)|(w1 & W1 & E1 & ->)]; destruct K2 as [(E2 & ->)|(w2 & W2 & E2 & ->)];
      rewrite E1, E2 in H.
    + reflexivity.
    + destruct W2 as [->|[->|[->|[->| ->]]]]; discriminate.
    + destruct W1 as [->|[->|[->|[->| ->]]]]; discriminate.
    + destruct W1 as [->|[->|[->|[->| ->]]]]; destruct W2 as [->|[->|[->|[->| ->]]]]; try discriminate; reflexivity.
Qed.

(* where the struct view of element i lies *)
Lemma elem_bounds strict m mid caps p i v : msg_ok m -> wf_size (p_size p) ->
  den strict m mid caps (elem_ptr p i) v ->
  exists d vs, v = VStruct (words_of_bytes d) vs /\ zlen vs = PointerCount (p_size p) /\
    d = sub (seg_of m p) (p_off p + i * totalSize (p_size p)) (DataSize (p_size p)) /\
    0 <= p_off p + i * totalSize (p_size p) /\
    p_off p + i * totalSize (p_size p) + DataSize (p_size p) <= zlen (seg_of m p).
Proof.
  intros Hm W D.
  destruct (den_struct_inv _ _ _ _ _ _ D eq_refl eq_refl) as (d & vs & -> & _ & S & L & _).
  cbn [elem_ptr p_size p_off] in S, L. change (seg_of m (elem_ptr p i)) with (seg_of m p) in S.
  apply slice_eq_sub in S; [| apply seg_of_ok; assumption| destruct W; lia].
  destruct S as (-> & B1 & B2). eexists; exists vs. repeat split; try assumption; reflexivity.
Qed.

Definition elems (m : segs) (mid : Z) (caps : list Z) (p : Ptr) (vs : list value) : Prop :=
  forall i, 0 <= i < p_len p -> den true m mid caps (elem_ptr p i) (nthv vs i).

Lemma elems_eq_nthv u a b n : zlen a = n -> zlen b = n ->
  (elems_eq u a b = true <-> forall i, 0 <= i < n -> veq u (nthv a i) (nthv b i) = true).
Proof.
  intros La Lb. unfold zlen in *. rewrite elems_eq_nth by lia. unfold nthv. split.
  - intros H i Hi. apply H. lia.
  - intros H i Hi. specialize (H (Z.of_nat i) ltac:(lia)). rewrite Nat2Z.id in H. exact H.
Qed.

Lemma data_eq_same_len : forall a b, length a = length b -> (data_eq a b = true <-> a = b).
Proof.
  induction a as [|x0 r IH]; intros [|y s] L; try discriminate.
  - split; reflexivity.
  - cbn in L. inversion L as [L']. rewrite data_eq_cons', andb_true_iff, Z.eqb_eq, (IH s L'). split.
    + intros [-> ->]. reflexivity.
    + intros H. inversion H. split; reflexivity.
Qed.

Lemma bools_eqb_len : forall a b, bools_eqb a b = true -> length a = length b.
Proof.
  induction a as [|y r IH]; intros [|z s] H; try discriminate; [reflexivity|].
  cbn in H. apply andb_prop in H. destruct H as [_ H]. cbn. f_equal. apply IH. assumption.
Qed.

Lemma bits_of_length k d : length (bits_of k d) = k.
Proof. unfold bits_of, iota. rewrite !map_length, seq_length. reflexivity. Qed.

Lemma is_null_VNull v : is_null v = true -> v = VNull.
Proof. destruct v; cbn; intros H; try discriminate; reflexivity. Qed.

Section Correct.
Context (c : config) (fx : efix) (x : ectx).
Context (Hstrict : cfg_strict c = true) (Hfx : all_fixed fx).
Context (Hma : msg_ok (segs_of x SA)) (Hmb : msg_ok (segs_of x SB)).
(* the ids under which capability values record their message: all that matters is whether
   they coincide exactly when the two pointers lie in one message *)
Context (mida midb : Z) (Hmid : (mida =? midb) = ec_same x).

Definition denA := den true (segs_of x SA) mida (caps_of x SA).
Definition denB := den true (segs_of x SB) midb (caps_of x SB).

Definition rec_ok (rec : erec) : Prop :=
  forall st p q b st' va vb, rec st p q = (EOk b, st') -> denA p va -> denB q vb -> b = value_eq va vb.

Lemma ptr_loop_spec rec p q vs1 vs2 : rec_ok rec ->
  p_valid p = true -> p_valid q = true ->
  kids_of (segs_of x SA) mida (caps_of x SA) p vs1 ->
  kids_of (segs_of x SB) midb (caps_of x SB) q vs2 ->
  forall k i0 st b st', 0 <= i0 ->
    i0 + Z.of_nat k <= PointerCount (p_size p) -> i0 + Z.of_nat k <= PointerCount (p_size q) ->
    ptr_loop c x rec p q k i0 st = (EOk b, st') ->
    if b then forall j, i0 <= j < i0 + Z.of_nat k -> value_eq (nthv vs1 j) (nthv vs2 j) = true
    else exists j, i0 <= j < i0 + Z.of_nat k /\ value_eq (nthv vs1 j) (nthv vs2 j) = false.
Proof.
  intros Hrec Hvp Hvq K1 K2. induction k as [|k IH]; intros i0 st b st' Hi B1 B2 H.
  - cbn in H. inversion H; subst. intros j Hj. lia.
  - cbn [ptr_loop] in H.
    rewrite (struct_ptr_unfold c _ _ p i0 Hvp) in H by lia. rewrite Hstrict in H.
    destruct (readPtr true (segs_of x SA) (rl_of x st SA) (p_seg p) (seg_of (segs_of x SA) p)
                      (pointerAddress p i0) (p_depth p)) as [r1 rl1] eqn:E1.
    destruct r1 as [sp1| |]; try discriminate.
    rewrite (struct_ptr_unfold c _ _ q i0 Hvq) in H by lia. rewrite Hstrict in H.
    destruct (readPtr true (segs_of x SB) (rl_of x (put_rl x st SA rl1) SB) (p_seg q) (seg_of (segs_of x SB) q)
                      (pointerAddress q i0) (p_depth q)) as [r2 rl2] eqn:E2.
    destruct r2 as [sp2| |]; try discriminate.
    destruct (K1 i0 ltac:(lia)) as (d1 & l1 & q1 & l1' & R1 & D1).
    destruct (K2 i0 ltac:(lia)) as (d2 & l2 & q2 & l2' & R2 & D2).
    assert (DA : denA sp1 (nthv vs1 i0)) by (eapply den_core; [eapply readPtr_core; [exact R1| exact E1]| exact D1]).
    assert (DB : denB sp2 (nthv vs2 i0)) by (eapply den_core; [eapply readPtr_core; [exact R2| exact E2]| exact D2]).
    destruct (rec (put_rl x (put_rl x st SA rl1) SB rl2) sp1 sp2) as [r w3] eqn:Er.
    destruct r as [[|]| | |]; try discriminate.
    + pose proof (Hrec _ _ _ _ _ _ _ Er DA DB) as Hv.
      specialize (IH (i0 + 1) w3 b st' ltac:(lia) ltac:(lia) ltac:(lia) H).
      destruct b.
      * intros j Hj. destruct (Z.eq_dec j i0) as [->|Ne]; [symmetry; assumption| apply IH; lia].
      * destruct IH as (j & Hj & Hf). exists j. split; [lia| assumption].
    + inversion H; subst. pose proof (Hrec _ _ _ _ _ _ _ Er DA DB) as Hv.
      exists i0. split; [lia| symmetry; assumption].
Qed.

Lemma equal_struct_spec rec p q st b st' va vb : rec_ok rec ->
  p_valid p = true -> p_valid q = true -> p_kind p = KStruct -> p_kind q = KStruct ->
  equal_struct c fx x rec st p q = (EOk b, st') -> denA p va -> denB q vb -> b = value_eq va vb.
Proof.
  intros Hrec Hvp Hvq Kp Kq H DA DB.
  destruct (den_struct_inv _ _ _ _ _ _ DA Hvp Kp) as (d1 & vs1 & -> & W1 & S1 & L1 & K1).
  destruct (den_struct_inv _ _ _ _ _ _ DB Hvq Kq) as (d2 & vs2 & -> & W2 & S2 & L2 & K2).
  unfold equal_struct in H. cbv zeta in H. rewrite S1, S2 in H.
  unfold value_eq. rewrite veq_struct.
  rewrite <- (struct_data_equal_words d1 d2)
    by (eapply slice_bytes_ok; [| eassumption]; assumption).
  destruct (struct_data_equal d1 d2); cbn [negb] in H; [|inversion H; reflexivity].
  cbn [andb]. destruct Hfx as (_ & Hfn & _). rewrite Hfn, Hstrict in H.
  destruct W1 as [_ W1]. destruct W2 as [_ W2].
  set (pc1 := PointerCount (p_size p)) in *. set (pc2 := PointerCount (p_size q)) in *.
  destruct (ptr_loop c x rec p q (Z.to_nat (Z.min pc1 pc2)) 0 st) as [r w'] eqn:El.
  destruct r as [[|]| | |]; try discriminate.
  - pose proof (ptr_loop_spec rec p q vs1 vs2 Hrec Hvp Hvq K1 K2 (Z.to_nat (Z.min pc1 pc2)) 0 st true w' ltac:(lia)
                              ltac:(fold pc1; lia) ltac:(fold pc2; lia) El) as Hc.
    cbn beta iota in Hc.
    destruct (no_ptrs true true (segs_of x SA) p (Z.to_nat (pc1 - Z.min pc1 pc2)) (Z.min pc1 pc2)) as [b1| |] eqn:N1;
      try discriminate.
    pose proof (no_ptrs_spec _ _ _ p vs1 K1 (Z.to_nat (pc1 - Z.min pc1 pc2)) (Z.min pc1 pc2) b1 ltac:(lia) ltac:(fold pc1; lia) N1) as Hn1.
    destruct b1.
    + destruct (no_ptrs true true (segs_of x SB) q (Z.to_nat (pc2 - Z.min pc1 pc2)) (Z.min pc1 pc2)) as [b2| |] eqn:N2;
        try discriminate.
      pose proof (no_ptrs_spec _ _ _ q vs2 K2 (Z.to_nat (pc2 - Z.min pc1 pc2)) (Z.min pc1 pc2) b2 ltac:(lia) ltac:(fold pc2; lia) N2) as Hn2.
      inversion H; subst b st'. destruct b2.
      * symmetry. apply ptrs_eq_nthv. intros i Hi.
        destruct (Z.lt_ge_cases i (Z.min pc1 pc2)) as [Lt|Ge]; [apply Hc; lia|].
        destruct (Z.lt_ge_cases i pc1) as [Lt1|Ge1].
        -- rewrite (nthv_over vs2 i) by lia. rewrite veq_null_r. apply Hn1. lia.
        -- rewrite (nthv_over vs1 i) by lia. rewrite veq_null_l.
           destruct (Z.lt_ge_cases i pc2) as [Lt2|Ge2]; [apply Hn2; lia| rewrite nthv_over by lia; reflexivity].
      * destruct Hn2 as (j & Hj & Hf). symmetry. apply not_true_is_false. intros Hp.
        rewrite ptrs_eq_nthv in Hp. specialize (Hp j ltac:(lia)).
        rewrite (nthv_over vs1 j) in Hp by lia. rewrite veq_null_l in Hp. congruence.
    + inversion H; subst b st'. destruct Hn1 as (j & Hj & Hf). symmetry. apply not_true_is_false. intros Hp.
      rewrite ptrs_eq_nthv in Hp. specialize (Hp j ltac:(lia)).
      rewrite (nthv_over vs2 j) in Hp by lia. rewrite veq_null_r in Hp. congruence.
  - inversion H; subst b st'.
    pose proof (ptr_loop_spec rec p q vs1 vs2 Hrec Hvp Hvq K1 K2 (Z.to_nat (Z.min pc1 pc2)) 0 st false w' ltac:(lia)
                              ltac:(fold pc1; lia) ltac:(fold pc2; lia) El) as (j & Hj & Hf).
    symmetry. apply not_true_is_false. intros Hp. rewrite ptrs_eq_nthv in Hp.
    specialize (Hp j ltac:(lia)). unfold value_eq in Hf. congruence.
Qed.

Lemma elem_loop_spec rec p q vs1 vs2 : rec_ok rec ->
  p_valid p = true -> p_valid q = true -> p_bit p = false -> p_bit q = false ->
  wf_size (p_size p) -> wf_size (p_size q) ->
  elems (segs_of x SA) mida (caps_of x SA) p vs1 ->
  elems (segs_of x SB) midb (caps_of x SB) q vs2 ->
  forall k i0 st b st', 0 <= i0 -> i0 + Z.of_nat k <= p_len p -> i0 + Z.of_nat k <= p_len q ->
    elem_loop true rec p q k i0 st = (EOk b, st') ->
    if b then forall j, i0 <= j < i0 + Z.of_nat k -> value_eq (nthv vs1 j) (nthv vs2 j) = true
    else exists j, i0 <= j < i0 + Z.of_nat k /\ value_eq (nthv vs1 j) (nthv vs2 j) = false.
Proof.
  intros Hrec Hvp Hvq Bp Bq Wp Wq E1 E2. induction k as [|k IH]; intros i0 st b st' Hi B1 B2 H.
  - cbn in H. inversion H; subst. intros j Hj. lia.
  - cbn [elem_loop] in H.
    destruct (list_struct true p i0) as [e1| |] eqn:L1; try discriminate.
    destruct (list_struct true q i0) as [e2| |] eqn:L2; try discriminate.
    pose proof (E1 i0 ltac:(lia)) as D1. pose proof (E2 i0 ltac:(lia)) as D2.
    destruct (elem_bounds _ _ _ _ _ _ _ Hma Wp D1) as (? & ? & _ & _ & _ & Ba & Bb).
    destruct (elem_bounds _ _ _ _ _ _ _ Hmb Wq D2) as (? & ? & _ & _ & _ & Bc & Bd).
    destruct Wp as [Wp1 _]. destruct Wq as [Wq1 _].
    assert (DA : denA e1 (nthv vs1 i0)).
    { eapply den_core; [apply same_core_sym; eapply (list_struct_elem _ p i0 e1 Hma Hvp Bp); [lia|lia|exact L1]| exact D1]. }
    assert (DB : denB e2 (nthv vs2 i0)).
    { eapply den_core; [apply same_core_sym; eapply (list_struct_elem _ q i0 e2 Hmb Hvq Bq); [lia|lia|exact L2]| exact D2]. }
    destruct (rec st e1 e2) as [r w3] eqn:Er.
    destruct r as [[|]| | |]; try discriminate.
    + pose proof (Hrec _ _ _ _ _ _ _ Er DA DB) as Hv.
      specialize (IH (i0 + 1) w3 b st' ltac:(lia) ltac:(lia) ltac:(lia) H).
      destruct b.
      * intros j Hj. destruct (Z.eq_dec j i0) as [->|Ne]; [symmetry; assumption| apply IH; lia].
      * destruct IH as (j & Hj & Hf). exists j. split; [lia| assumption].
    + inversion H; subst. pose proof (Hrec _ _ _ _ _ _ _ Er DA DB) as Hv.
      exists i0. split; [lia| symmetry; assumption].
Qed.

Lemma fast_path_spec p q vs1 vs2 d1 d2 :
  p_valid p = true -> p_valid q = true -> wf_size (p_size p) -> wf_size (p_size q) ->
  PointerCount (p_size p) = 0 -> PointerCount (p_size q) = 0 -> DataSize (p_size p) = DataSize (p_size q) ->
  0 <= p_len p -> p_len q = p_len p -> zlen vs1 = p_len p -> zlen vs2 = p_len p ->
  elems (segs_of x SA) mida (caps_of x SA) p vs1 ->
  elems (segs_of x SB) midb (caps_of x SB) q vs2 ->
  slice (seg_of (segs_of x SA) p) (p_off p)
        (match times (totalSize (p_size p)) (p_len p) with Some y => y | None => 4294967295 end) = Ok d1 ->
  slice (seg_of (segs_of x SB) q) (p_off q)
        (match times (totalSize (p_size p)) (p_len p) with Some y => y | None => 4294967295 end) = Ok d2 ->
  bytes_eqb d1 d2 = elems_eq true vs1 vs2.
Proof.
  intros Hvp Hvq Wp Wq P1 P2 DS Hn Lq L1 L2 E1 E2 S1 S2.
  assert (T1 : totalSize (p_size p) = DataSize (p_size p)) by (rewrite totalSize_wf by assumption; lia).
  assert (T2 : totalSize (p_size q) = DataSize (p_size p)) by (rewrite totalSize_wf by assumption; lia).
  set (sz := DataSize (p_size p)) in *. set (n := p_len p) in *.
  pose proof (seg_of_ok _ p Hma) as SA1. pose proof (seg_of_ok _ q Hmb) as SB1.
  assert (Hsz : 0 <= sz <= 524280) by (destruct Wp; assumption).
  apply eq_true_iff_eq. rewrite bytes_eqb_eq, (elems_eq_nthv true vs1 vs2 n L1 L2).
  (* per element: the values are the chunks *)
  assert (EL : forall i, 0 <= i < n ->
             exists c1 c2, nthv vs1 i = VStruct (words_of_bytes c1) [] /\ nthv vs2 i = VStruct (words_of_bytes c2) [] /\
                           c1 = sub (seg_of (segs_of x SA) p) (p_off p + i * sz) sz /\
                           c2 = sub (seg_of (segs_of x SB) q) (p_off q + i * sz) sz /\
                           0 <= p_off p + i * sz /\ p_off p + i * sz + sz <= zlen (seg_of (segs_of x SA) p) /\
                           0 <= p_off q + i * sz /\ p_off q + i * sz + sz <= zlen (seg_of (segs_of x SB) q)).
  { intros i Hi.
    destruct (elem_bounds _ _ _ _ _ _ _ Hma Wp (E1 i Hi)) as (c1 & v1 & N1 & Z1 & C1 & A1 & A2).
    destruct (elem_bounds _ _ _ _ _ _ _ Hmb Wq (E2 i ltac:(lia))) as (c2 & v2 & N2 & Z2 & C2 & A3 & A4).
    rewrite P1 in Z1. rewrite P2 in Z2. destruct v1; [|unfold zlen in Z1; cbn in Z1; lia].
    destruct v2; [|unfold zlen in Z2; cbn in Z2; lia].
    rewrite T1 in *. rewrite T2 in *. rewrite <- DS in *. fold sz in C2, A4.
    exists c1, c2. repeat split; assumption. }
  assert (EV : forall i, 0 <= i < n ->
             (veq true (nthv vs1 i) (nthv vs2 i) = true <->
              sub (seg_of (segs_of x SA) p) (p_off p + i * sz) sz = sub (seg_of (segs_of x SB) q) (p_off q + i * sz) sz)).
  { intros i Hi. destruct (EL i Hi) as (c1 & c2 & -> & -> & C1 & C2 & A1 & A2 & A3 & A4).
    rewrite veq_struct. cbn [ptrs_eq forallb]. rewrite andb_true_r.
    destruct SA1 as [_ BA]. destruct SB1 as [_ BB].
    rewrite data_eq_words by (subst; apply bytes_ok_sub; assumption).
    rewrite data_eq_same_len; [subst; reflexivity|].
    apply Nat2Z.inj. change (zlen c1 = zlen c2). subst. rewrite !sub_length by lia. reflexivity. }
  destruct (Z.eq_dec n 0) as [N0|N0].
  - (* empty lists *)
    rewrite N0 in S1, S2. replace (times (totalSize (p_size p)) 0) with (Some 0) in S1, S2
      by (unfold times; rewrite Z.mul_0_r; reflexivity).
    apply slice_eq_sub in S1; [|assumption|lia]. apply slice_eq_sub in S2; [|assumption|lia].
    destruct S1 as (-> & _). destruct S2 as (-> & _). unfold sub. cbn [Z.to_nat firstn].
    split; [intros _ i Hi; lia| reflexivity].
  - (* n > 0: the last element gives the bounds *)
    destruct (EL (n - 1) ltac:(lia)) as (_ & _ & _ & _ & _ & _ & A1 & A2 & A3 & A4).
    destruct (EL 0 ltac:(lia)) as (_ & _ & _ & _ & _ & _ & A5 & _ & A6 & _).
    destruct SA1 as [ZA BA]. destruct SB1 as [ZB BB]. unfold maxSegmentSize in *.
    assert (Esn : sz * n = (n - 1) * sz + sz) by ring.
    assert (ET : times (totalSize (p_size p)) n = Some (sz * n)).
    { apply times_spec. unfold maxSegmentSize. rewrite T1. split; [reflexivity|]. lia. }
    rewrite ET in S1, S2.
    apply slice_eq_sub in S1; [|split; assumption|lia]. apply slice_eq_sub in S2; [|split; assumption|lia].
    destruct S1 as (-> & O1 & _). destruct S2 as (-> & O2 & _).
    replace (sz * n) with (Z.of_nat (Z.to_nat n) * sz) by lia.
    rewrite (chunks_eq _ _ _ _ sz ltac:(lia) O1 O2 (Z.to_nat n)) by (rewrite Z2Nat.id by lia; lia).
    rewrite Z2Nat.id by lia. split; intros H i Hi; [apply EV; [lia| apply H; lia]| apply EV; [lia| apply H; lia]].
Qed.

Lemma equal_list_spec rec p q st b st' va vb : rec_ok rec ->
  p_valid p = true -> p_valid q = true -> p_kind p = KList -> p_kind q = KList ->
  equal_list fx x rec st p q = (EOk b, st') -> denA p va -> denB q vb -> b = value_eq va vb.
Proof.
  intros Hrec Hvp Hvq Kp Kq H DA DB. destruct Hfx as (Hfb & _ & Hfd).
  unfold equal_list in H. cbv zeta in H. unfold list_len in H. rewrite Hvp, Hvq, Hfb in H.
  destruct (den_list_inv _ _ _ _ _ _ DA Hvp Kp) as [(Bp & Np & d1 & S1 & ->)|(Bp & k1 & vs1 & -> & KO1)];
  destruct (den_list_inv _ _ _ _ _ _ DB Hvq Kq) as [(Bq & Nq & d2 & S2 & ->)|(Bq & k2 & vs2 & -> & KO2)];
    rewrite Bp, Bq in H; cbn [Bool.eqb negb] in H.
  - (* two bit lists *)
    destruct (p_len p =? p_len q) eqn:El; cbn [negb] in H.
    + apply Z.eqb_eq in El. rewrite <- El in S2. rewrite S1, S2 in H. inversion H; subst b st'.
      unfold value_eq. cbn [veq]. rewrite <- El.
      pose proof (seg_of_ok _ p Hma) as SA1. pose proof (seg_of_ok _ q Hmb) as SB1.
      rewrite bitListSize_spec in S1, S2 by assumption.
      apply slice_eq_sub in S1; [|assumption|lia]. apply slice_eq_sub in S2; [|assumption|lia].
      destruct S1 as (-> & O1 & O1'). destruct S2 as (-> & O2 & O2').
      destruct SA1 as [_ BA]. destruct SB1 as [_ BB].
      apply bits_equal_spec; try (apply bytes_ok_sub; assumption); try lia; apply sub_length; lia.
    + inversion H; subst b st'. unfold value_eq. cbn [veq]. symmetry. apply not_true_is_false. intros Hb.
      apply bools_eqb_len in Hb. rewrite !bits_of_length in Hb. lia.
  - destruct (p_len p =? p_len q); cbn [negb] in H; inversion H; reflexivity.
  - destruct (p_len p =? p_len q); cbn [negb] in H; inversion H; reflexivity.
  - (* two lists of elements *)
    destruct (den_elem _ _ _ _ _ _ _ Hma DA Hvp) as (L1 & _ & _ & E1).
    destruct (den_elem _ _ _ _ _ _ _ Hmb DB Hvq) as (L2 & _ & _ & E2).
    unfold value_eq. rewrite veq_list.
    destruct (p_len p =? p_len q) eqn:El; cbn [negb] in H.
    2:{ inversion H; subst b st'. symmetry. apply andb_false_intro2. apply not_true_is_false. intros He.
        apply elems_eq_len in He. unfold zlen in L1, L2. lia. }
    apply Z.eqb_eq in El. rewrite <- El in L2.
    pose proof (kind_ok_wf _ _ KO1) as Wp. pose proof (kind_ok_wf _ _ KO2) as Wq.
    assert (Hn : 0 <= p_len p) by (unfold zlen in L1; lia).
    destruct (negb (p_comp p) && negb (p_comp q) && negb (os_eqb (p_size p) (p_size q))) eqn:Ek.
    { inversion H; subst b st'. rewrite (kinds_differ p q k1 k2 KO1 KO2 Ek). reflexivity. }
    rewrite (kinds_same p q k1 k2 KO1 KO2 Ek). cbn [andb].
    destruct ((PointerCount (p_size p) =? 0) && (PointerCount (p_size q) =? 0)
              && (DataSize (p_size p) =? DataSize (p_size q))) eqn:Ef.
    + (* fast path *)
      apply andb_prop in Ef. destruct Ef as [Ef E3]. apply andb_prop in Ef. destruct Ef as [E1' E2'].
      apply Z.eqb_eq in E1', E2', E3.
      destruct (slice (seg_of (segs_of x SA) p) (p_off p) _) as [d1| |] eqn:S1; try discriminate.
      destruct (slice (seg_of (segs_of x SB) q) (p_off q) _) as [d2| |] eqn:S2; try discriminate.
      inversion H; subst b st'.
      eapply (fast_path_spec p q vs1 vs2 d1 d2); try eassumption; lia.
    + (* element by element *)
      rewrite Hfd in H.
      pose proof (elem_loop_spec rec p q vs1 vs2 Hrec Hvp Hvq Bp Bq Wp Wq E1 E2 (Z.to_nat (p_len p)) 0 st b st'
                                 ltac:(lia) ltac:(lia) ltac:(lia) H) as Hl.
      destruct b.
      * symmetry. apply (elems_eq_nthv true vs1 vs2 (p_len p) L1 L2). intros i Hi. apply Hl. lia.
      * destruct Hl as (j & Hj & Hf). symmetry. apply not_true_is_false. intros He.
        rewrite (elems_eq_nthv true vs1 vs2 (p_len p) L1 L2) in He. specialize (He j ltac:(lia)).
        unfold value_eq in Hf. congruence.
Qed.

Lemma iface_equal_spec p q : 0 <= p_len p -> 0 <= p_len q ->
  iface_equal x p q = cap_eq (mk_capv mida (caps_of x SA) (p_len p)) (mk_capv midb (caps_of x SB) (p_len q)).
Proof.
  intros H0p H0q. unfold iface_equal, cap_eq, mk_capv. cbn [cv_msg cv_idx cv_intab cv_client]. rewrite Hmid.
  unfold caps_of, on_a. destruct (ec_same x) eqn:Es; cbn [orb andb].
  - unfold client_of.
    destruct (p_len p =? p_len q) eqn:E1; [reflexivity|]. cbn [orb].
    assert (Hza : 0 <= zlen (ec_caps_a x)) by (unfold zlen; lia).
    destruct (p_len p >=? zlen (ec_caps_a x)) eqn:E2; destruct (p_len q >=? zlen (ec_caps_a x)) eqn:E3; cbn [orb].
    + replace (p_len p <? zlen (ec_caps_a x)) with false by lia. rewrite andb_false_r. reflexivity.
    + replace (p_len p <? zlen (ec_caps_a x)) with false by lia. rewrite andb_false_r. reflexivity.
    + replace (p_len q <? zlen (ec_caps_a x)) with false by lia. rewrite !andb_false_r. reflexivity.
    + replace (0 <=? p_len p) with true by lia. replace (0 <=? p_len q) with true by lia.
      replace (p_len p <? zlen (ec_caps_a x)) with true by lia. replace (p_len q <? zlen (ec_caps_a x)) with true by lia.
      reflexivity.
  - unfold client_of. reflexivity.
Qed.

Lemma equal_step_spec rec st p q b st' va vb : rec_ok rec ->
  equal_step c fx x rec st p q = (EOk b, st') -> denA p va -> denB q vb -> b = value_eq va vb.
Proof.
  intros Hrec H DA DB. unfold equal_step in H.
  pose proof (den_is_null _ _ _ _ _ _ DA) as NA. pose proof (den_is_null _ _ _ _ _ _ DB) as NB.
  destruct (p_valid p) eqn:Hvp; destruct (p_valid q) eqn:Hvq; cbn [negb andb orb] in *.
  - destruct (p_kind p) eqn:Kp; destruct (p_kind q) eqn:Kq;
      try (inversion H; subst b st'; inversion DA; subst; try congruence; inversion DB; subst; try congruence; reflexivity).
    + apply (equal_struct_spec rec p q st b st' va vb); assumption.
    + apply (equal_list_spec rec p q st b st' va vb); assumption.
    + inversion H; subst b st'. inversion DA; subst; try congruence. inversion DB; subst; try congruence.
      unfold value_eq. cbn [veq]. apply iface_equal_spec; assumption.
  - inversion H; subst b st'. apply is_null_VNull in NB. subst vb. unfold value_eq. rewrite veq_null_r. symmetry. exact NA.
  - inversion H; subst b st'. apply is_null_VNull in NA. subst va. unfold value_eq. rewrite veq_null_l. symmetry. exact NB.
  - inversion H; subst b st'. apply is_null_VNull in NA. apply is_null_VNull in NB. subst. reflexivity.
Qed.

Theorem equal_m_den : forall fuel, rec_ok (equal_m fuel c fx x).
Proof.
  induction fuel as [|f IH]; intros st p q b st' va vb H DA DB.
  - discriminate.
  - cbn [equal_m] in H. apply (equal_step_spec (equal_m f c fx x) st p q b st' va vb); assumption.
Qed.

End Correct.

Theorem equal_m_correct_ids : forall c fx x mida midb fuel st p q b st' va vb,
  cfg_strict c = true -> all_fixed fx -> msg_ok (segs_of x SA) -> msg_ok (segs_of x SB) ->
  (mida =? midb) = ec_same x ->
  equal_m fuel c fx x st p q = (EOk b, st') ->
  den true (segs_of x SA) mida (caps_of x SA) p va ->
  den true (segs_of x SB) midb (caps_of x SB) q vb ->
  b = value_eq va vb.
Proof. intros c fx x mida midb fuel st p q b st' va vb Hs Hf Ha Hb Hm. apply (equal_m_den c fx x Hs Hf Ha Hb mida midb Hm fuel). Qed.

(* [T1] for every configuration with the repaired code, all messages (bytes 0..255, segments
   < 2^32), both pointers in one message or in two, every fuel, every pair of remaining
   traversal budgets: if Equal answers (b, nil) and the pointers denote va and vb, then b is the
   documented equality of va and vb. *)
Theorem equal_m_correct : forall c fx x fuel st p q b st' va vb,
  cfg_strict c = true -> all_fixed fx -> msg_ok (segs_of x SA) -> msg_ok (segs_of x SB) ->
  equal_m fuel c fx x st p q = (EOk b, st') ->
  den true (segs_of x SA) 0 (caps_of x SA) p va ->
  den true (segs_of x SB) (if ec_same x then 0 else 1) (caps_of x SB) q vb ->
  b = value_eq va vb.
Proof.
  intros c fx x fuel st p q b st' va vb Hs Hf Ha Hb. apply equal_m_correct_ids; try assumption.
  destruct (ec_same x); reflexivity.
Qed.

(* layout independence: pointers that denote equal values -- whatever the segments, offsets,
   far pointers, section sizes of the two encodings -- are Equal whenever Equal answers *)
Theorem equal_layout_independent : forall c fx x fuel st p q b st' va vb,
  cfg_strict c = true -> all_fixed fx -> msg_ok (segs_of x SA) -> msg_ok (segs_of x SB) ->
  equal_m fuel c fx x st p q = (EOk b, st') ->
  den true (segs_of x SA) 0 (caps_of x SA) p va ->
  den true (segs_of x SB) (if ec_same x then 0 else 1) (caps_of x SB) q vb ->
  value_eq va vb = true -> b = true.
Proof.
  intros c fx x fuel st p q b st' va vb Hs Hf Ha Hb E Da Db Hv. rewrite <- Hv. eapply equal_m_correct; eassumption.
Qed.

Lemma same_ctx x : ec_same x = true ->
  segs_of x SB = segs_of x SA /\ caps_of x SB = caps_of x SA.
Proof. intros H. unfold segs_of, caps_of, on_a. rewrite H. split; reflexivity. Qed.

(* reflexive: a pointer is Equal to itself *)
Theorem equal_refl : forall c fx x fuel st p b st' v,
  cfg_strict c = true -> all_fixed fx -> msg_ok (segs_of x SA) -> ec_same x = true ->
  equal_m fuel c fx x st p p = (EOk b, st') ->
  den true (segs_of x SA) 0 (caps_of x SA) p v -> b = true.
Proof.
  intros c fx x fuel st p b st' v Hs Hf Ha Hsame H D. destruct (same_ctx x Hsame) as [E1 E2].
  rewrite <- (value_eq_refl v). eapply equal_m_correct; try eassumption.
  - rewrite E1. assumption.
  - rewrite E1, E2, Hsame. assumption.
Qed.

(* symmetric: swapping the arguments gives the same answer (both pointers in one message) *)
Theorem equal_sym : forall c fx x fuel st1 st2 p q b1 b2 st1' st2' va vb,
  cfg_strict c = true -> all_fixed fx -> msg_ok (segs_of x SA) -> ec_same x = true ->
  equal_m fuel c fx x st1 p q = (EOk b1, st1') ->
  equal_m fuel c fx x st2 q p = (EOk b2, st2') ->
  den true (segs_of x SA) 0 (caps_of x SA) p va ->
  den true (segs_of x SA) 0 (caps_of x SA) q vb -> b1 = b2.
Proof.
  intros c fx x fuel st1 st2 p q b1 b2 st1' st2' va vb Hs Hf Ha Hsame H1 H2 Dp Dq.
  destruct (same_ctx x Hsame) as [E1 E2].
  assert (Hb : msg_ok (segs_of x SB)) by (rewrite E1; assumption).
  rewrite (equal_m_correct c fx x fuel st1 p q b1 st1' va vb Hs Hf Ha Hb H1 Dp) by (rewrite E1, E2, Hsame; assumption).
  rewrite (equal_m_correct c fx x fuel st2 q p b2 st2' vb va Hs Hf Ha Hb H2 Dq) by (rewrite E1, E2, Hsame; assumption).
  apply value_eq_sym.
Qed.

(* the two messages exchanged; symmetry across two messages is EqualSym.equal_sym_two_messages *)
Definition swap_ctx (x : ectx) : ectx := mkEC (ec_segs_b x) (ec_caps_b x) (ec_segs_a x) (ec_caps_a x) (ec_same x).
