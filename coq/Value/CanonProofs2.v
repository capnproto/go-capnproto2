(* Spec-level theorems about the canonical form (C18 [T1]), part 2: the layout stage.
     enc_ok_nocap     a value with a capability has no canonical form
     cparse_enc_*     the strict sequential decoder inverts the layout *)
From CV Require Import Value.ValueEq Value.ValueEqProofs Value.CanonSpec Value.CanonProofs Value.PackProofs
                       Core.BuilderFacts.
From Coq Require Import ZifyBool ZifyNat.
Ltac Zify.zify_post_hook ::= Z.div_mod_to_equations.
Open Scope Z_scope.

(* ------------------------------------------------------------------ capabilities *)
(* what every successfully encoded value satisfies holds of the pointer cells of an encoded block *)
Lemma enc_cells_ok : forall ev (P : value -> Prop), (forall v p c r, ev v p c = COk r -> P v) ->
  forall cs pos cur r, enc_cells ev cs pos cur = COk r -> forall v, In (CP v) cs -> P v.
Proof.
  intros ev P HP. induction cs as [|c cs IH]; intros pos cur r H v Hin; [destruct Hin|].
  destruct c as [w|v0]; cbn [enc_cells] in H.
  - destruct (enc_cells ev cs (pos + 1) cur) as [bk| | |] eqn:E; try discriminate.
    destruct Hin as [Hin|Hin]; [discriminate|]. exact (IH _ _ _ E v Hin).
  - destruct (ev v0 pos cur) as [wb| | |] eqn:E0; try discriminate. cbn [cbind] in H.
    destruct (enc_cells ev cs (pos + 1) (cur + zlen (snd wb))) as [bk| | |] eqn:E; try discriminate.
    destruct Hin as [Hin|Hin]; [inversion Hin; subst; exact (HP _ _ _ _ E0)| exact (IH _ _ _ E v Hin)].
Qed.

Lemma in_struct_cells : forall v d ps, In (CP v) (struct_cells d ps) -> In v ps.
Proof.
  intros v d ps H. unfold struct_cells in H. apply in_app_or in H. destruct H as [H|H].
  - apply in_map_iff in H. destruct H as [x [Hx _]]. discriminate.
  - apply in_map_iff in H. destruct H as [x [Hx Hin]]. inversion Hx; subst. exact Hin.
Qed.

Lemma existsb_false : forall {A} (f : A -> bool) l, (forall x, In x l -> f x = false) -> existsb f l = false.
Proof.
  induction l as [|x r IH]; intros H; [reflexivity|]. cbn.
  rewrite (H x (or_introl eq_refl)). cbn. apply IH. intros y Hy. apply H. right. exact Hy.
Qed.

Theorem enc_ok_nocap : forall f v pos cur r, enc f v pos cur = COk r -> has_cap v = false.
Proof.
  induction f as [|f IH]; intros v pos cur r H; [discriminate|].
  pose proof (enc_cells_ok (enc f) (fun v => has_cap v = false) IH) as HC.
  destruct v as [|c|d ps|k es|bs]; cbn [enc] in H; try reflexivity; try discriminate.
  - (* struct *)
    cbn [has_cap]. apply existsb_false. intros p Hp.
    destruct ((zlen d =? 0) && (zlen ps =? 0)) eqn:E0.
    + apply andb_prop in E0. destruct E0 as [_ E0]. destruct ps; [destruct Hp|].
      unfold zlen in E0. cbn [length] in E0. lia.
    + destruct ((zlen d >=? two16) || (zlen ps >=? two16) || (cur - pos - 1 >=? two29)); [discriminate|].
      destruct (enc_cells (enc f) (struct_cells d ps) cur (cur + zlen d + zlen ps)) as [bk| | |] eqn:E; try discriminate.
      apply (HC _ _ _ _ E). unfold struct_cells. apply in_or_app. right. apply in_map. exact Hp.
  - (* lists *)
    destruct ((zlen es >=? two29) || (cur - pos - 1 >=? two29)); [discriminate|].
    destruct k; try reflexivity.
    + (* pointer list *)
      cbn [has_cap]. apply existsb_false. intros e He.
      destruct (enc_cells (enc f) (map (fun e => CP (hd_ptr (sptrs e))) es) cur (cur + zlen es)) as [bk| | |] eqn:E;
        try discriminate.
      destruct e as [| |d0 [|p ps0]| |]; try reflexivity.
      apply (HC _ _ _ _ E). apply in_map_iff. exists (VStruct d0 (p :: ps0)). split; [reflexivity| exact He].
    + (* struct list *)
      cbn [has_cap]. apply existsb_false. intros e He.
      destruct ((_ >=? two16) || _ || _); [discriminate|].
      destruct (enc_cells _ _ _ _) as [bk| | |] eqn:E in H; try discriminate.
      destruct e as [| |d0 ps0| |]; try reflexivity.
      apply existsb_false. intros p Hp. apply (HC _ _ _ _ E).
      right. apply in_flat_map. exists (VStruct d0 ps0). split; [exact He|].
      unfold struct_cells. apply in_or_app. right. apply in_map. cbn [sptrs]. unfold padN.
      apply in_or_app. left. exact Hp.
Qed.

(* a struct that (after truncation) still contains a capability is rejected *)
Theorem canon_cap_none : forall v, has_cap (norm v) = true -> canon v = None.
Proof.
  intros v Hc. unfold canon, canon_words.
  destruct (enc (S (vdepth (norm v))) (norm v) 0 1) as [wb| | |] eqn:E; try reflexivity.
  apply enc_ok_nocap in E. rewrite E in Hc. discriminate.
Qed.

Example canon_cap_witness :
  canon (VStruct [7] [VNull; VList LPtr [VStruct [] [VCap (mkCap 0 0 true 1)]]]) = None.
Proof. vm_compute. reflexivity. Qed.

(* ------------------------------------------------------------------ decoder inverts layout *)
Definition shape_of (cs : list cell) : list shape :=
  map (fun c => match c with CW _ => SW | CP _ => SP end) cs.

(* the generic step: a block of cells followed by the children, in pointer order *)
Lemma parse_enc_cells : forall ev pv cs pos cur b k rest,
  enc_cells ev cs pos cur = COk (b, k) ->
  (forall v p c w body rest', In (CP v) cs -> ev v p c = COk (w, body) ->
                              pv w p c (body ++ rest') = Some (v, rest')) ->
  parse_cells pv (shape_of cs) b pos cur (k ++ rest) = Some (cs, rest).
Proof.
  induction cs as [|c cs IH]; intros pos cur b k rest H Hpv.
  - cbn in H. inversion H; subst. reflexivity.
  - destruct c as [w|v]; cbn [enc_cells] in H.
    + destruct (enc_cells ev cs (pos + 1) cur) as [[b' k']| | |] eqn:E; try discriminate.
      cbn in H. inversion H; subst. cbn [shape_of map parse_cells].
      fold (shape_of cs). rewrite (IH _ _ _ _ rest E); [reflexivity|].
      intros. eapply Hpv; eauto. right. assumption.
    + destruct (ev v pos cur) as [[w0 body]| | |] eqn:E0; try discriminate. cbn [cbind fst snd] in H.
      destruct (enc_cells ev cs (pos + 1) (cur + zlen body)) as [[b' k']| | |] eqn:E; try discriminate.
      cbn in H. inversion H; subst. cbn [shape_of map parse_cells]. fold (shape_of cs).
      rewrite <- app_assoc. rewrite (Hpv v pos cur w0 body (k' ++ rest) (or_introl eq_refl) E0).
      replace (cur + (zlen (body ++ k' ++ rest) - zlen (k' ++ rest))) with (cur + zlen body)
        by (rewrite (zlen_app body); lia).
      rewrite (IH _ _ _ _ rest E); [reflexivity|].
      intros. eapply Hpv; eauto. right. assumption.
Qed.

Lemma enc_cells_length : forall ev cs pos cur b k, enc_cells ev cs pos cur = COk (b, k) -> length b = length cs.
Proof.
  induction cs as [|c cs IH]; intros pos cur b k H.
  - cbn in H. inversion H. reflexivity.
  - destruct c as [w|v]; cbn [enc_cells] in H.
    + destruct (enc_cells ev cs (pos + 1) cur) as [[b' k']| | |] eqn:E; try discriminate.
      cbn in H. inversion H; subst. cbn. f_equal. eapply IH; eauto.
    + destruct (ev v pos cur) as [[w0 body]| | |] eqn:E0; try discriminate. cbn [cbind fst snd] in H.
      destruct (enc_cells ev cs (pos + 1) (cur + zlen body)) as [[b' k']| | |] eqn:E; try discriminate.
      cbn in H. inversion H; subst. cbn. f_equal. eapply IH; eauto.
Qed.

Lemma take_app : forall n (b r : list Z), zlen b = n -> take n (b ++ r) = Some (b, r).
Proof.
  intros n b r H. unfold take. rewrite zlen_app.
  assert (0 <= zlen r) by (unfold zlen; lia). assert (0 <= zlen b) by (unfold zlen; lia).
  destruct ((0 <=? n) && (n <=? zlen b + zlen r)) eqn:E; [|lia].
  assert (Hn : Z.to_nat n = length b) by (unfold zlen in H; lia).
  rewrite Hn, firstn_app, Nat.sub_diag, firstn_all, skipn_app, Nat.sub_diag, skipn_all. cbn.
  rewrite app_nil_r. reflexivity.
Qed.

Lemma shape_struct_cells : forall d ps,
  shape_of (struct_cells d ps) = repeat SW (length d) ++ repeat SP (length ps).
Proof.
  intros. unfold shape_of, struct_cells. rewrite map_app, !map_map. f_equal.
  - induction d; cbn; [reflexivity| rewrite IHd; reflexivity].
  - induction ps; cbn; [reflexivity| rewrite IHps; reflexivity].
Qed.

Lemma cell_words_struct : forall d ps, cell_words (struct_cells d ps) = d.
Proof.
  intros. unfold cell_words, struct_cells. rewrite flat_map_app.
  replace (flat_map _ (map CP ps)) with (@nil Z) by (induction ps; cbn; auto).
  rewrite app_nil_r. induction d; cbn; [reflexivity| rewrite IHd; reflexivity].
Qed.

Lemma cell_vals_struct : forall d ps, cell_vals (struct_cells d ps) = ps.
Proof.
  intros. unfold cell_vals, struct_cells. rewrite flat_map_app.
  replace (flat_map _ (map CW d)) with (@nil value) by (induction d; cbn; auto).
  cbn. induction ps; cbn; [reflexivity| rewrite IHps; reflexivity].
Qed.

(* pointer word fields *)
Lemma struct_word_fields : forall o dn pn, 0 <= dn < two16 -> 0 <= pn < two16 ->
  let w := struct_word o dn pn in
  w mod 4 = 0 /\ (w / 4) mod two30 = o mod two30 /\ (w / two32) mod two16 = dn /\ (w / two48) mod two16 = pn
  /\ (w = 0 -> dn = 0 /\ pn = 0 /\ o mod two30 = 0).
Proof.
  intros o dn pn Hd Hp. unfold struct_word, two16, two30, two32, two48 in *. cbn zeta.
  assert (0 <= o mod 1073741824 < 1073741824) by (apply Z.mod_pos_bound; lia).
  set (m := o mod 1073741824) in *. clearbody m. repeat split; lia.
Qed.

Lemma list_word_fields : forall o k n, 0 <= k < 8 -> 0 <= n < two29 ->
  let w := list_word o k n in
  (w =? 0) = false /\ w mod 4 = 1 /\ (w / 4) mod two30 = o mod two30 /\ (w / two32) mod 8 = k /\ (w / two35) mod two29 = n.
Proof.
  intros o k n Hk Hn. unfold list_word, two29, two30, two32, two35 in *. cbn zeta.
  assert (0 <= o mod 1073741824 < 1073741824) by (apply Z.mod_pos_bound; lia).
  set (m := o mod 1073741824) in *. clearbody m. repeat split; lia.
Qed.

(* the pointer skeleton: nulls, structs, void lists and pointer lists in normal-form shape *)
Fixpoint skel (v : value) : bool :=
  match v with
  | VNull => true
  | VStruct _ ps => forallb skel ps
  | VList LVoid es => forallb (fun e => match e with VStruct [] [] => true | _ => false end) es
  | VList LPtr es => forallb (fun e => match e with VStruct [] [p] => skel p | _ => false end) es
  | VList LComp es =>
    forallb (fun e => match e with
                      | VStruct d ps => (length d =? max_len sdata es)%nat && (length ps =? max_len sptrs es)%nat
                                        && forallb skel ps
                      | _ => false
                      end) es
  | VList k es => forallb (fun e => match e with
                                    | VStruct [v] [] => (0 <=? v) && (v <? kind_base k)
                                    | _ => false
                                    end) es
  | VBits _ => true
  | VCap _ => false
  end.

Lemma prim_elems B es :
  forallb (fun e => match e with VStruct [v] [] => (0 <=? v) && (v <? B) | _ => false end) es = true ->
  digits_ok B (map (fun e => hd_word (sdata e)) es)
  /\ map (fun d => VStruct [d] []) (map (fun e => hd_word (sdata e)) es) = es.
Proof.
  induction es as [|e r IH]; intros H; [split; [constructor|reflexivity]|].
  cbn [forallb] in H. apply andb_prop in H. destruct H as [He Hr]. destruct (IH Hr) as [I1 I2].
  destruct e as [| |[|v [|]] [|]| |]; try discriminate.
  split.
  - constructor; [cbn; lia| exact I1].
  - cbn [map sdata hd_word]. rewrite I2. reflexivity.
Qed.

Lemma bits_back bs : map (fun d => d =? 1) (map b2z bs) = bs.
Proof. induction bs as [|b r IH]; [reflexivity|]. cbn [map]. rewrite IH. destruct b; reflexivity. Qed.

Lemma bits_digits bs : digits_ok 2 (map b2z bs).
Proof. induction bs as [|b r IH]; [constructor|]. constructor; [destruct b; cbn; lia| exact IH]. Qed.

(* the words of a packed digit list are read back, and nothing else is accepted in their place *)
Lemma parse_packed B per ds rest (mk : list Z -> value) v :
  1 < B -> (1 <= per)%nat -> digits_ok B ds -> mk ds = v ->
  match take (words_for per (zlen ds)) (pack B per ds ++ rest) with
  | None => None
  | Some (block, rest1) =>
    let ds' := unpack B per (Z.to_nat (zlen ds)) block in
    if zs_eqb (pack B per ds') block then Some (mk ds', rest1) else None
  end = Some (v, rest).
Proof.
  intros HB Hp Hd <-. rewrite (take_app _ _ _ (pack_length B per ds Hp)). unfold zlen.
  rewrite Nat2Z.id, unpack_pack, zs_eqb_refl by assumption. reflexivity.
Qed.

Lemma void_elems : forall es,
  forallb (fun e => match e with VStruct [] [] => true | _ => false end) es = true ->
  repeat (VStruct [] []) (length es) = es.
Proof.
  induction es as [|e r IH]; intros H; [reflexivity|].
  cbn [forallb] in H. apply andb_prop in H. destruct H as [He Hr].
  destruct e as [| |[|] [|]| |]; try discriminate. cbn [length repeat]. rewrite (IH Hr). reflexivity.
Qed.

Lemma ptr_elems : forall es,
  forallb (fun e => match e with VStruct [] [p] => skel p | _ => false end) es = true ->
  map (fun p => VStruct [] [p]) (cell_vals (map (fun e => CP (hd_ptr (sptrs e))) es)) = es.
Proof.
  induction es as [|e r IH]; intros H; [reflexivity|].
  cbn [forallb] in H. apply andb_prop in H. destruct H as [He Hr].
  destruct e as [| |[|] [|p [|]]| |]; try discriminate.
  unfold cell_vals in *. cbn [map flat_map sptrs hd_ptr app]. rewrite (IH Hr). reflexivity.
Qed.


(* ---- struct lists: uniform elements *)
Definition uniform (dn pn : nat) (es : list value) : Prop :=
  Forall (fun e => exists d ps, e = VStruct d ps /\ length d = dn /\ length ps = pn) es.

Lemma uniform_cells dn pn es : uniform dn pn es ->
  flat_map (fun e => struct_cells (pad0 dn (sdata e)) (padN pn (sptrs e))) es
  = flat_map (fun e => struct_cells (sdata e) (sptrs e)) es.
Proof.
  induction 1 as [|e r (d & ps & -> & Ld & Lp) Hr IH]; [reflexivity|].
  cbn [flat_map sdata sptrs]. rewrite pad0_id, padN_id, IH by assumption. reflexivity.
Qed.

Lemma uniform_shape dn pn es : uniform dn pn es ->
  shape_of (flat_map (fun e => struct_cells (sdata e) (sptrs e)) es)
  = concat (repeat (repeat SW dn ++ repeat SP pn) (length es)).
Proof.
  induction 1 as [|e r (d & ps & -> & Ld & Lp) Hr IH]; [reflexivity|].
  cbn [flat_map sdata sptrs length repeat concat]. unfold shape_of in *. rewrite map_app.
  fold (shape_of (struct_cells d ps)). rewrite shape_struct_cells, Ld, Lp, IH. reflexivity.
Qed.

Lemma struct_cells_length d ps : length (struct_cells d ps) = (length d + length ps)%nat.
Proof. unfold struct_cells. rewrite app_length, !map_length. reflexivity. Qed.

Lemma uniform_length dn pn es : uniform dn pn es ->
  length (flat_map (fun e => struct_cells (sdata e) (sptrs e)) es) = (length es * (dn + pn))%nat.
Proof.
  induction 1 as [|e r (d & ps & -> & Ld & Lp) Hr IH]; [reflexivity|].
  cbn [flat_map sdata sptrs length]. rewrite app_length, struct_cells_length, IH, Ld, Lp. lia.
Qed.

Lemma uniform_cut dn pn es : uniform dn pn es ->
  cut_elems (length es) dn pn (flat_map (fun e => struct_cells (sdata e) (sptrs e)) es) = es.
Proof.
  induction 1 as [|e r (d & ps & -> & Ld & Lp) Hr IH]; [reflexivity|].
  cbn [flat_map sdata sptrs length cut_elems].
  assert (L : length (struct_cells d ps) = (dn + pn)%nat) by (rewrite struct_cells_length; lia).
  rewrite <- L, firstn_app, Nat.sub_diag, firstn_all, skipn_app, Nat.sub_diag, skipn_all. cbn [firstn skipn app].
  rewrite app_nil_r, cell_words_struct, cell_vals_struct, IH. reflexivity.
Qed.

Lemma skel_uniform es :
  forallb (fun e => match e with
                    | VStruct d ps => (length d =? max_len sdata es)%nat && (length ps =? max_len sptrs es)%nat
                                      && forallb skel ps
                    | _ => false
                    end) es = true ->
  uniform (max_len sdata es) (max_len sptrs es) es
  /\ forall e p, In e es -> In p (sptrs e) -> skel p = true.
Proof.
  generalize (max_len sdata es) (max_len sptrs es). intros dn pn H. rewrite forallb_forall in H. split.
  - apply Forall_forall. intros e He. specialize (H e He). destruct e as [| |d ps| |]; try discriminate.
    apply andb_prop in H. destruct H as [H _]. apply andb_prop in H. destruct H as [H1 H2].
    exists d, ps. split; [reflexivity|]. split; [apply Nat.eqb_eq; assumption| apply Nat.eqb_eq; assumption].
  - intros e p He Hp. specialize (H e He). destruct e as [| |d ps| |]; try (destruct Hp).
    apply andb_prop in H. destruct H as [_ H]. rewrite forallb_forall in H. apply H. exact Hp.
Qed.

Lemma in_flat_cells v es : In (CP v) (flat_map (fun e => struct_cells (sdata e) (sptrs e)) es) ->
  exists e, In e es /\ In v (sptrs e).
Proof.
  intros H. apply in_flat_map in H. destruct H as (e & He & Hc). exists e. split; [assumption|].
  eapply in_struct_cells. eassumption.
Qed.

(* [T1] the full statement (proved with the hypotheses made explicit as CanonProofs3.cdecode_canon) *)
Definition cparse_enc_statement : Prop :=
  forall v, wfv v = true -> forall bs, canon v = Some bs ->
  cdecode (S (vdepth (norm v))) bs = Some (norm v).

Theorem cparse_enc_partial : forall f v pos cur w body rest,
  skel v = true -> enc f v pos cur = COk (w, body) ->
  cparse f w pos cur (body ++ rest) = Some (v, rest).
Proof.
  induction f as [|f IH]; intros v pos cur w body rest Hs H; [discriminate|].
  destruct v as [|c|d ps|k es|bs]; cbn [enc] in H; try discriminate.
  - inversion H; subst. reflexivity.
  - (* struct *)
    assert (Hzd : 0 <= zlen d) by (unfold zlen; lia). assert (Hzp : 0 <= zlen ps) by (unfold zlen; lia).
    destruct ((zlen d =? 0) && (zlen ps =? 0)) eqn:E0.
    + inversion H; subst. destruct d; [|unfold zlen in E0; cbn [length] in E0; lia].
      destruct ps; [|unfold zlen in E0; cbn [length] in E0; lia].
      vm_compute. reflexivity.
    + destruct ((zlen d >=? two16) || (zlen ps >=? two16) || (cur - pos - 1 >=? two29)) eqn:E1; [discriminate|].
      destruct (enc_cells (enc f) (struct_cells d ps) cur (cur + zlen d + zlen ps)) as [[b k]| | |] eqn:E; try discriminate.
      cbn in H. inversion H; subst. clear H.
      assert (Hd : 0 <= zlen d < two16) by lia. assert (Hp : 0 <= zlen ps < two16) by lia.
      destruct (struct_word_fields (cur - pos - 1) (zlen d) (zlen ps) Hd Hp) as [F0 [F1 [F2 [F3 F4]]]].
      cbn [cparse]. unfold cparse_body. set (w := struct_word (cur - pos - 1) (zlen d) (zlen ps)) in *.
      destruct (w =? 0) eqn:Ew; [apply Z.eqb_eq in Ew; specialize (F4 Ew); lia|].
      rewrite F0, F1, F2, F3. cbn [Z.eqb]. rewrite E0, Z.eqb_refl. cbn [negb].
      rewrite <- app_assoc.
      rewrite (take_app (zlen d + zlen ps) b (k ++ rest)).
      2:{ unfold zlen. rewrite (enc_cells_length _ _ _ _ _ _ E), struct_cells_length. lia. }
      unfold zlen at 1 2. rewrite !Nat2Z.id, <- shape_struct_cells.
      rewrite (parse_enc_cells (enc f) (cparse f) _ _ _ _ _ rest E).
      * rewrite cell_words_struct, cell_vals_struct. reflexivity.
      * intros v p c w0 body0 rest' Hin He. apply IH; [|exact He].
        apply in_struct_cells in Hin. cbn [skel] in Hs. rewrite forallb_forall in Hs. apply Hs. exact Hin.
  - (* lists *)
    assert (Hz : 0 <= zlen es) by (unfold zlen; lia).
    destruct ((zlen es >=? two29) || (cur - pos - 1 >=? two29)) eqn:E1; [discriminate|].
    assert (Hn : 0 <= zlen es < two29) by lia.
    assert (Hc : 0 <= kind_code k < 8) by (destruct k; cbn; lia).
    destruct k; cbn [kind_code] in Hc.
    2-5: (* primitive widths; the field equations go before [lia] runs, which would split on each division *)
      inversion H; subst; clear H; destruct (list_word_fields (cur - pos - 1) _ _ Hc Hn) as (F0 & F1 & F2 & F3 & F4);
      cbn [cparse kind_code]; unfold cparse_body; rewrite F0, F1, F2, F3, F4, Z.eqb_refl; clear F0 F1 F2 F3 F4;
      cbn [Z.eqb Pos.eqb negb code_kind]; cbn [skel] in Hs; destruct (prim_elems _ es Hs) as [Dg Bk];
      rewrite <- (zlen_map (fun e => hd_word (sdata e)) es);
      apply parse_packed with (mk := fun ds => VList _ (map (fun d => VStruct [d] []) ds));
      [cbn; lia | cbn; lia | exact Dg | exact (f_equal _ Bk)].
    + (* void *)
      inversion H; subst. clear H. destruct (list_word_fields (cur - pos - 1) _ _ Hc Hn) as (F0 & F1 & F2 & F3 & F4).
      cbn [cparse]. unfold cparse_body. rewrite F0, F1, F2, F3, F4, Z.eqb_refl. cbn [Z.eqb negb app code_kind].
      unfold zlen. rewrite Nat2Z.id. cbn [skel] in Hs. rewrite (void_elems es Hs). reflexivity.
    + (* pointer list *)
      destruct (enc_cells (enc f) (map (fun e => CP (hd_ptr (sptrs e))) es) cur (cur + zlen es)) as [[b k]| | |] eqn:E;
        try discriminate.
      cbn in H. inversion H; subst. clear H. destruct (list_word_fields (cur - pos - 1) _ _ Hc Hn) as (F0 & F1 & F2 & F3 & F4).
      cbn [cparse]. unfold cparse_body. rewrite F0, F1, F2, F3, F4, Z.eqb_refl. cbn [Z.eqb Pos.eqb negb].
      rewrite <- app_assoc. rewrite (take_app (zlen es) b (k ++ rest)).
      2:{ unfold zlen. rewrite (enc_cells_length _ _ _ _ _ _ E), map_length. reflexivity. }
      replace (repeat SP (Z.to_nat (zlen es))) with (shape_of (map (fun e => CP (hd_ptr (sptrs e))) es)).
      2:{ unfold zlen. rewrite Nat2Z.id. unfold shape_of. rewrite map_map. clear. induction es; cbn; [reflexivity| rewrite IHes; reflexivity]. }
      rewrite (parse_enc_cells (enc f) (cparse f) _ _ _ _ _ rest E).
      * cbn [skel] in Hs. rewrite (ptr_elems es Hs). reflexivity.
      * intros v p c w0 body0 rest' Hin He. apply IH; [|exact He].
        apply in_map_iff in Hin. destruct Hin as [e [He1 He2]]. inversion He1; subst.
        cbn [skel] in Hs. rewrite forallb_forall in Hs. specialize (Hs e He2).
        destruct e as [| |[|] [|p0 [|]]| |]; try discriminate. exact Hs.
    + (* struct list *)
      cbn [skel] in Hs. destruct (skel_uniform es Hs) as [Hu Hch].
      set (dnn := max_len sdata es) in *. set (pnn := max_len sptrs es) in *.
      set (dn := Z.of_nat dnn) in *. set (pn := Z.of_nat pnn) in *.
      destruct ((dn >=? two16) || (pn >=? two16) || (zlen es * (dn + pn) >=? two29)) eqn:E2; [discriminate|].
      assert (Hd : 0 <= dn < two16) by lia. assert (Hp : 0 <= pn < two16) by lia.
      assert (HW : 0 <= zlen es * (dn + pn) < two29) by nia.
      replace (Z.to_nat dn) with dnn in H by lia. replace (Z.to_nat pn) with pnn in H by lia.
      rewrite (uniform_cells dnn pnn es Hu) in H.
      set (cs := flat_map (fun e => struct_cells (sdata e) (sptrs e)) es) in *.
      cbn [enc_cells] in H.
      destruct (enc_cells (enc f) cs (cur + 1) (cur + 1 + zlen es * (dn + pn))) as [[b k]| | |] eqn:E; try discriminate.
      cbn in H. inversion H; subst w body. clear H.
      destruct (list_word_fields (cur - pos - 1) _ _ Hc HW) as (F0 & F1 & F2 & F3 & F4).
      destruct (struct_word_fields (zlen es) dn pn Hd Hp) as [T0 [T1 [T2 [T3 _]]]].
      cbn [cparse]. unfold cparse_body. rewrite F0, F1, F2, F3, F4, Z.eqb_refl. cbn [Z.eqb Pos.eqb negb app].
      rewrite T0, T1, T2, T3. clear F0 F1 F2 F3 F4 T0 T1 T2 T3.
      rewrite (Z.mod_small (zlen es)) by (unfold two30, two29 in *; lia).
      cbn [Z.eqb negb orb]. rewrite Z.eqb_refl. cbn [negb orb].
      destruct (zlen es >=? two29) eqn:E3; [lia|].
      rewrite <- app_assoc. rewrite (take_app (zlen es * (dn + pn)) b (k ++ rest)).
      2:{ unfold zlen. rewrite (enc_cells_length _ _ _ _ _ _ E). unfold cs. rewrite (uniform_length dnn pnn es Hu).
          unfold dn, pn. lia. }
      replace (Z.to_nat dn) with dnn by lia. replace (Z.to_nat pn) with pnn by lia.
      replace (Z.to_nat (zlen es)) with (length es) by (unfold zlen; lia).
      rewrite <- (uniform_shape dnn pnn es Hu). fold cs.
      rewrite (parse_enc_cells (enc f) (cparse f) cs _ _ _ _ rest E).
      * unfold cs. rewrite (uniform_cut dnn pnn es Hu). reflexivity.
      * intros v p c w0 body0 rest' Hin He. apply IH; [|exact He].
        apply in_flat_cells in Hin. destruct Hin as (e & He1 & He2). eapply Hch; eassumption.
  - (* bit list *)
    assert (Hz : 0 <= zlen bs) by (unfold zlen; lia).
    destruct ((zlen bs >=? two29) || (cur - pos - 1 >=? two29)) eqn:E1; [discriminate|].
    assert (Hn : 0 <= zlen bs < two29) by lia.
    inversion H; subst. clear H.
    destruct (list_word_fields (cur - pos - 1) 1 (zlen bs) ltac:(lia) Hn) as (F0 & F1 & F2 & F3 & F4).
    cbn [cparse]. unfold cparse_body. rewrite F0, F1, F2, F3, F4, Z.eqb_refl. cbn [Z.eqb Pos.eqb negb].
    rewrite <- (zlen_map b2z bs).
    clear F0 F1 F2 F3 F4. apply parse_packed with (mk := fun ds => VBits (map (fun d => d =? 1) ds));
      [lia | lia | apply bits_digits | exact (f_equal _ (bits_back bs))].
Qed.

(* non-vacuity / sanity of the full statement on samples of every list kind *)
Example cparse_enc_sample :
  let v := VStruct [0; 5; 0] [VNull; VBits [true; false; true]; VList LB2 [VStruct [513] []; VStruct [7] []];
                              VList LComp [VStruct [1; 0] [VNull]; VStruct [0] [VList LVoid [VStruct [] []]; VNull]];
                              VList LPtr [VStruct [] [VStruct [] []]]; VNull] in
  match canon v with
  | Some bs => cdecode 10 bs = Some (norm v) /\ truncated (norm v) = true
  | None => False
  end.
Proof. vm_compute. split; reflexivity. Qed.
