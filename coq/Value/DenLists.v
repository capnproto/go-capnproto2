(* Lists: element views of [den], chunked byte comparison (the fast path of Equal), the depth of
   a member of a list of values. *)
From CV Require Import Value.CanonSpec Value.ValueEq Value.ValueEqProofs Value.EqualM Value.Den Value.DenFacts.
From CV Require Import Core.ReaderFacts Core.SafetyProofs.
From Coq Require Import ZifyBool ZifyNat.
Ltac Zify.zify_post_hook ::= Z.div_mod_to_equations.
Open Scope Z_scope.

Lemma slice_eq_sub s base n d : seg_ok s -> 0 <= n < 4294967296 -> slice s base n = Ok d ->
  d = sub s base n /\ 0 <= base /\ base + n <= zlen s.
Proof.
  intros [Hl _] Hn. unfold slice, sub, addSizeUnchecked, u32. cbv zeta.
  destruct ((0 <=? base) && (base <=? (base + n) mod 4294967296) && ((base + n) mod 4294967296 <=? zlen s)) eqn:E;
    [|discriminate].
  intros H. inversion H; subst d; clear H. unfold maxSegmentSize in Hl.
  assert ((base + n) mod 4294967296 = base + n) by lia.
  rewrite H. replace (base + n - base) with n by lia. split; [reflexivity|lia].
Qed.

Lemma firstn_add {A} : forall a b (l : list A), firstn (a + b) l = firstn a l ++ firstn b (skipn a l).
Proof.
  induction a as [|a IH]; intros b l; [reflexivity|].
  destruct l as [|x r]; cbn.
  - destruct b; reflexivity.
  - rewrite IH. reflexivity.
Qed.

Lemma skipn_add {A} : forall a b (l : list A), skipn (a + b) l = skipn b (skipn a l).
Proof.
  induction a as [|a IH]; intros b l; [reflexivity|].
  destruct l as [|x r]; cbn; [destruct b; reflexivity| apply IH].
Qed.

Lemma sub_split s o a b : 0 <= o -> 0 <= a -> 0 <= b -> sub s o (a + b) = sub s o a ++ sub s (o + a) b.
Proof.
  intros Ho Ha Hb. unfold sub. rewrite !Z2Nat.inj_add by lia. rewrite firstn_add, skipn_add. reflexivity.
Qed.

Lemma app_eq_len {A} : forall (a c b d : list A), length a = length c -> (a ++ b = c ++ d <-> a = c /\ b = d).
Proof.
  induction a as [|x a IH]; intros [|y c] b d L; try discriminate; cbn.
  - split; [intros H; split; [reflexivity|assumption]| intros [_ H]; assumption].
  - cbn in L. inversion L as [L']. split.
    + intros H. inversion H; subst. apply (IH c b d L') in H2. destruct H2; subst. split; reflexivity.
    + intros [H1 H2]. inversion H1; subst. reflexivity.
Qed.

(* comparing n chunks of sz bytes at once or chunk by chunk *)
Lemma chunks_eq s1 o1 s2 o2 sz : 0 <= sz -> 0 <= o1 -> 0 <= o2 -> forall n : nat,
  o1 + Z.of_nat n * sz <= zlen s1 -> o2 + Z.of_nat n * sz <= zlen s2 ->
  (sub s1 o1 (Z.of_nat n * sz) = sub s2 o2 (Z.of_nat n * sz) <->
   forall i, 0 <= i < Z.of_nat n -> sub s1 (o1 + i * sz) sz = sub s2 (o2 + i * sz) sz).
Proof.
  intros Hsz Ho1 Ho2. induction n as [|n IH]; intros B1 B2.
  - cbn. split; [intros _ i Hi; lia| reflexivity].
  - replace (Z.of_nat (S n) * sz) with (Z.of_nat n * sz + sz) by lia.
    rewrite !sub_split by lia. rewrite app_eq_len.
    2:{ apply Nat2Z.inj. change (zlen (sub s1 o1 (Z.of_nat n * sz)) = zlen (sub s2 o2 (Z.of_nat n * sz))).
        rewrite !sub_length by lia. reflexivity. }
    rewrite IH by lia. split.
    + intros [H1 H2] i Hi. destruct (Z.eq_dec i (Z.of_nat n)) as [->|Ne]; [assumption| apply H1; lia].
    + intros H. split; [intros i Hi; apply H; lia| apply H; lia].
Qed.

Lemma elems_eq_len u : forall a b, elems_eq u a b = true -> length a = length b.
Proof.
  induction a as [|x r IH]; intros [|y s] H; try discriminate; [reflexivity|].
  cbn in H. apply andb_prop in H. destruct H as [_ H]. cbn. f_equal. apply IH. assumption.
Qed.

Lemma elems_eq_nth u : forall a b, length a = length b ->
  (elems_eq u a b = true <-> forall i, (i < length a)%nat -> veq u (nth i a VNull) (nth i b VNull) = true).
Proof.
  induction a as [|x r IH]; intros [|y s] L; try discriminate.
  - split; [intros _ i Hi; cbn in Hi; lia| reflexivity].
  - cbn in L. inversion L as [L']. cbn [elems_eq]. rewrite andb_true_iff, (IH s L'). split.
    + intros [H1 H2] [|i] Hi; cbn [nth]; [assumption| apply H2; cbn in Hi; lia].
    + intros H. split; [apply (H O); cbn; lia| intros i Hi; apply (H (S i)); cbn; lia].
Qed.

Lemma veq_null_l u y : veq u VNull y = is_null y.
Proof. destruct y; reflexivity. Qed.

Lemma veq_null_r u x : veq u x VNull = is_null x.
Proof. rewrite veq_sym. destruct x; reflexivity. Qed.

Lemma ptrs_eq_nth u : forall a b,
  ptrs_eq u a b = true <-> forall i, veq u (nth i a VNull) (nth i b VNull) = true.
Proof.
  induction a as [|x r IH]; intros b.
  - cbn [ptrs_eq]. rewrite forallb_forall. split.
    + intros H i. replace (nth i [] VNull) with VNull by (destruct i; reflexivity).
      destruct (Nat.lt_ge_cases i (length b)) as [L|L].
      * destruct (nth i b VNull) eqn:E; try reflexivity; exfalso;
          specialize (H (nth i b VNull) (nth_In _ _ L)); rewrite E in H; discriminate.
      * rewrite nth_overflow by assumption. reflexivity.
    + intros H y Hy. apply (In_nth _ _ VNull) in Hy. destruct Hy as (i & _ & <-).
      specialize (H i). replace (nth i [] VNull) with VNull in H by (destruct i; reflexivity).
      destruct (nth i b VNull); try discriminate; reflexivity.
  - destruct b as [|y s]; cbn [ptrs_eq]; rewrite andb_true_iff, IH.
    + split.
      * intros [H1 H2] [|i]; cbn [nth]; [rewrite veq_null_r; assumption|].
        specialize (H2 i). replace (nth i [] VNull) with VNull in H2 by (destruct i; reflexivity). assumption.
      * intros H. split; [specialize (H O); cbn [nth] in H; rewrite veq_null_r in H; assumption|].
        intros i. specialize (H (S i)). cbn [nth] in H. replace (nth i [] VNull) with VNull by (destruct i; reflexivity).
        assumption.
    + split.
      * intros [H1 H2] [|i]; cbn [nth]; [assumption| apply H2].
      * intros H. split; [apply (H O)| intros i; apply (H (S i))].
Qed.

Lemma data_eq_cons' x r y s : data_eq (x :: r) (y :: s) = (x =? y) && data_eq r s.
Proof. reflexivity. Qed.

Lemma vdepth_in_fold p ps : In p ps -> (vdepth p <= fold_right (fun p m => Nat.max (vdepth p) m) O ps)%nat.
Proof.
  induction ps as [|y r IH]; [intros []|]. intros [->|H]; cbn [fold_right]; [lia|]. specialize (IH H). lia.
Qed.

Lemma nthv_depth vs i : 0 <= i < zlen vs ->
  (vdepth (nthv vs i) <= fold_right (fun p m => Nat.max (vdepth p) m) O vs)%nat.
Proof.
  intros Hi. unfold nthv. apply vdepth_in_fold. apply nth_In. unfold zlen in Hi. lia.
Qed.

Lemma totalSize_prim w : prim_width w -> totalSize (mkOS w 0) = w.
Proof. intros [->|[->|[->|[->| ->]]]]; reflexivity. Qed.

Lemma readPtr_bounds strict m rl sid s a dep q rl' :
  readPtr strict m rl sid s a dep = (Ok q, rl') -> 0 <= a /\ a <= (a + 8) mod 4294967296 <= zlen s.
Proof.
  unfold readPtr, resolveFarPointer, readRawPointer, readUintN, slice, addSizeUnchecked, u32. cbv zeta.
  destruct ((0 <=? a) && (a <=? (a + 8) mod 4294967296) && ((a + 8) mod 4294967296 <=? zlen s)) eqn:E.
  - intros _. lia.
  - cbn. discriminate.
Qed.

Lemma slice_empty s a : 0 <= a <= zlen s -> zlen s <= maxSegmentSize -> slice s a 0 = Ok [].
Proof.
  intros Ha Hl. unfold slice, addSizeUnchecked, u32, maxSegmentSize in *. cbv zeta.
  replace ((a + 0) mod 4294967296) with a by lia.
  destruct ((0 <=? a) && (a <=? a) && (a <=? zlen s)) eqn:E; [|lia].
  rewrite Z.sub_diag. reflexivity.
Qed.

(* every element of a non-bit list denotes, through its struct view, the list's element value *)
Lemma den_elem strict m mid caps p k vs : msg_ok m ->
  den strict m mid caps p (VList k vs) -> p_valid p = true ->
  zlen vs = p_len p /\ p_bit p = false /\ p_kind p = KList /\
  forall i, 0 <= i < p_len p -> den strict m mid caps (elem_ptr p i) (nthv vs i).
Proof.
  intros Hm H Hv. inversion H; subst; try congruence.
  - (* struct list *) repeat split; assumption.
  - (* pointer list *)
    repeat split; try assumption. intros i Hi.
    match goal with Hall : forall i, _ -> exists _ _ _ _ _, _ |- _ =>
      destruct (Hall i Hi) as (dep & rl & q & rl' & v & E & D & N) end.
    match goal with Hsz : p_size p = _ |- _ => rename Hsz into H6 end. rewrite N.
    pose proof (readPtr_bounds _ _ _ _ _ _ _ _ _ E) as B.
    pose proof (seg_of_ok m p Hm) as [Sl _]. unfold maxSegmentSize in Sl.
    assert (T : totalSize (p_size p) = 8) by (rewrite H6; reflexivity).
    change (@nil Z) with (words_of_bytes []).
    eapply den_struct; cbn [p_valid p_kind p_size p_off p_seg elem_ptr]; try reflexivity.
    + rewrite H6. unfold wf_size; cbn; lia.
    + rewrite T, H6. cbn [DataSize]. change (seg_of m (elem_ptr p i)) with (seg_of m p).
      apply slice_empty; unfold maxSegmentSize; lia.
    + rewrite H6. reflexivity.
    + rewrite H6. cbn [PointerCount]. intros j Hj. assert (j = 0) by lia. subst j.
      exists dep, rl, q, rl'. split; [|exact D].
      change (seg_of m (elem_ptr p i)) with (seg_of m p).
      replace (pointerAddress (elem_ptr p i) 0) with (p_off p + 8 * i); [exact E|].
      unfold pointerAddress, elem_ptr. cbn [p_off p_size]. rewrite T, H6. cbn [DataSize].
      destruct (addSize (p_off p + i * 8) 0) as [ps|] eqn:Ea.
      * apply addSize_spec in Ea. destruct (element ps 0 8) as [x|] eqn:Ee.
        -- apply element_spec in Ee. lia.
        -- apply element_none in Ee. unfold maxSegmentSize in *. lia.
      * apply addSize_none in Ea. unfold maxSegmentSize in *. lia.
  - (* primitive / void list *)
    repeat split; try assumption. intros i Hi.
    match goal with Hall : forall i, _ -> exists _, _ |- _ => destruct (Hall i Hi) as (d & E & N) end.
    match goal with Hsz : p_size p = _ |- _ => rename Hsz into H6 end.
    match goal with Hpw : prim_width _ |- _ => rename Hpw into H7 end. rewrite N.
    assert (T : totalSize (p_size p) = w) by (rewrite H6; apply totalSize_prim; assumption).
    eapply den_struct with (vs := []); cbn [p_valid p_kind p_size p_off p_seg elem_ptr]; try reflexivity.
    + rewrite H6. destruct H7 as [->|[->|[->|[->| ->]]]]; unfold wf_size; cbn; lia.
    + rewrite T, H6. cbn [DataSize]. change (seg_of m (elem_ptr p i)) with (seg_of m p). exact E.
    + rewrite H6. reflexivity.
    + rewrite H6. cbn [PointerCount]. intros j Hj. lia.
Qed.

(* the struct view of an element: data bytes and pointers *)
Lemma den_struct_inv strict m mid caps p v : den strict m mid caps p v ->
  p_valid p = true -> p_kind p = KStruct ->
  exists d vs, v = VStruct (words_of_bytes d) vs /\ wf_size (p_size p) /\
               slice (seg_of m p) (p_off p) (DataSize (p_size p)) = Ok d /\
               zlen vs = PointerCount (p_size p) /\
               (forall i, 0 <= i < PointerCount (p_size p) ->
                  exists dep rl q rl',
                    readPtr strict m rl (p_seg p) (seg_of m p) (pointerAddress p i) dep = (Ok q, rl')
                    /\ den strict m mid caps q (nthv vs i)).
Proof.
  intros H Hv Hk. inversion H; subst; try congruence. exists d, vs.
  split; [reflexivity|]. split; [assumption|]. split; [assumption|]. split; assumption.
Qed.

(* List.Struct(i) is the struct view, up to the depth limit *)
Lemma list_struct_elem m p i e : msg_ok m -> p_valid p = true -> p_bit p = false -> 0 <= i < p_len p ->
  0 <= p_off p + i * totalSize (p_size p) <= zlen (seg_of m p) ->
  list_struct true p i = Ok e -> same_core e (elem_ptr p i).
Proof.
  intros Hm Hv Hb Hi Hbd. unfold list_struct. rewrite Hv, Hb. cbn [negb orb].
  destruct (i <? 0) eqn:E1; [lia|]. destruct (i >=? p_len p) eqn:E2; [lia|]. cbn [orb].
  pose proof (seg_of_ok m p Hm) as [Sl _].
  destruct (element (p_off p) i (totalSize (p_size p))) as [a|] eqn:Ee.
  - apply element_spec in Ee. destruct Ee as [-> _]. intros H. inversion H; subst. repeat split.
  - apply element_none in Ee. lia.
Qed.

Lemma block_in bw i n : 0 <= bw -> 0 <= i < n -> 0 <= bw * i /\ bw * i + bw <= bw * n.
Proof. intros. nia. Qed.

(* element i of a source list, as List.Struct(i) hands it to copyStruct *)
Lemma list_struct_den strict m mid caps p vs i : msg_ok m -> wf_ptr m p -> p_valid p = true -> p_kind p = KList ->
  p_bit p = false -> 0 <= i < p_len p -> den strict m mid caps (elem_ptr p i) (nthv vs i) ->
  exists se, list_struct true p i = Ok se /\ wf_ptr m se /\ p_valid se = true /\ p_kind se = KStruct /\
             p_size se = p_size p /\ den strict m mid caps se (nthv vs i).
Proof.
  intros Hm Hwf Hv Hk Hb Hi De.
  destruct (Hwf Hv) as (_ & Hobj). unfold wf_obj in Hobj. rewrite Hk, Hb in Hobj. destruct Hobj as (Ho & _ & _ & Hbd).
  pose proof (seg_of_ok m p Hm) as [Hsl _]. unfold maxSegmentSize in Hsl.
  pose proof (totalSize_nonneg (p_size p)) as [T0 _].
  pose proof (block_in (totalSize (p_size p)) i (p_len p) T0 Hi) as [X1 X2].
  pose proof (list_struct_safe true m p i Hm (conj Hwf (fun _ => Hk)) ltac:(unfold list_len; rewrite Hv; exact Hi)) as SS.
  rewrite list_struct_ok in SS by (try assumption; lia). destruct SS as [We _].
  eexists. split; [apply list_struct_ok; try assumption; lia|]. split; [exact We|]. repeat (split; [reflexivity|]).
  eapply den_core; [|exact De]. repeat split.
Qed.

Lemma den_struct_data strict m mid caps s ws vs : msg_ok m -> den strict m mid caps s (VStruct ws vs) ->
  let d := sub (seg_of m s) (p_off s) (DataSize (p_size s)) in
  p_valid s = true /\ p_kind s = KStruct /\ wf_size (p_size s) /\ zlen vs = PointerCount (p_size s) /\
  0 <= p_off s /\ p_off s + DataSize (p_size s) <= zlen (seg_of m s) /\
  ws = words_of_bytes d /\ slice (seg_of m s) (p_off s) (DataSize (p_size s)) = Ok d /\ bytes_ok d /\
  zlen d = DataSize (p_size s) /\
  forall i, 0 <= i < PointerCount (p_size s) ->
    exists dep rl q rl', readPtr strict m rl (p_seg s) (seg_of m s) (pointerAddress s i) dep = (Ok q, rl') /\
                         den strict m mid caps q (nthv vs i).
Proof.
  intros Hm D d. inversion D as [| |p d0 vs0 Hv Hk Wz Sl Lvs K| | | |]; subst.
  pose proof (seg_of_ok m s Hm) as Hsok. destruct Wz as [Wd Wp].
  destruct (slice_eq_sub _ _ (DataSize (p_size s)) _ Hsok ltac:(lia) Sl) as (Ed & B1 & B2). fold d in Ed. subst d0.
  repeat (split; [assumption|]). split; [split; assumption|]. repeat (split; [assumption|]).
  split; [reflexivity|]. split; [exact Sl|]. split; [apply bytes_ok_sub, Hsok|].
  split; [apply sub_length; lia|exact K].
Qed.

(* the children of a struct pointer: what Struct.Ptr(i) returns denotes the i-th pointer value *)
Definition kids_of (m : segs) (mid : Z) (caps : list Z) (p : Ptr) (vs : list value) : Prop :=
  forall i, 0 <= i < PointerCount (p_size p) ->
    exists dep rl q rl',
      readPtr true m rl (p_seg p) (seg_of m p) (pointerAddress p i) dep = (Ok q, rl')
      /\ den true m mid caps q (nthv vs i).
