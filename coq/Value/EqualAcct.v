(* C02 for capnp.Equal: the read sizes of all pointers Equal hands out (by Struct.Ptr, in either
   message) sum to at most the traversal budget it consumes, per message.
   [equal_mA] is [equal_m] (Value/EqualM.v) with a ghost pair of counters - the sum of the read
   sizes handed out on side A and side B (one counter when both pointers are in the same
   message, exactly like the budgets) - and [equal_mA_erase] shows that dropping the ghost
   gives [equal_m].  No well-formedness is needed: any messages, any pointers, any fuel. *)
From CV Require Import Value.EqualM Value.EqualSafe Core.LimitProofs.
From Coq Require Import ZifyBool.
Open Scope Z_scope.
Ltac Zify.zify_post_hook ::= Z.div_mod_to_equations.

Definition erecA := lims -> lims -> Ptr -> Ptr -> eout * lims * lims.
Definition hsz (r : res Ptr) : Z := match r with Ok p => readSize p | _ => 0 end.
Definition add_h (x : ectx) (g : lims) (s : side) (v : Z) : lims := put_rl x g s (rl_of x g s + v).

Definition ptr_loopA (c : config) (x : ectx) (rec : erecA) (p q : Ptr) : nat -> Z -> lims -> lims -> eout * lims * lims :=
  fix loop (k : nat) (i : Z) (w g : lims) {struct k} : eout * lims * lims :=
    match k with
    | O => (EOk true, w, g)
    | S k' =>
      let '(r1, rl1) := struct_ptr c (segs_of x SA) (rl_of x w SA) p i in
      let w1 := put_rl x w SA rl1 in
      let g1 := add_h x g SA (hsz r1) in
      match r1 with
      | Panic => (EPanic, w1, g1) | Err => (EErr, w1, g1)
      | Ok sp1 =>
        let '(r2, rl2) := struct_ptr c (segs_of x SB) (rl_of x w1 SB) q i in
        let w2 := put_rl x w1 SB rl2 in
        let g2 := add_h x g1 SB (hsz r2) in
        match r2 with
        | Panic => (EPanic, w2, g2) | Err => (EErr, w2, g2)
        | Ok sp2 =>
          match rec w2 g2 sp1 sp2 with
          | (EOk true, w3, g3) => loop k' (i + 1) w3 g3
          | other => other
          end
        end
      end
    end.

Definition elem_loopA (fxd : bool) (rec : erecA) (p q : Ptr) : nat -> Z -> lims -> lims -> eout * lims * lims :=
  fix loop (k : nat) (i : Z) (w g : lims) {struct k} : eout * lims * lims :=
    match k with
    | O => (EOk true, w, g)
    | S k' =>
      match list_struct fxd p i with
      | Panic => (EPanic, w, g) | Err => (EErr, w, g)
      | Ok e1 =>
        match list_struct fxd q i with
        | Panic => (EPanic, w, g) | Err => (EErr, w, g)
        | Ok e2 =>
          match rec w g e1 e2 with
          | (EOk true, w', g') => loop k' (i + 1) w' g'
          | other => other
          end
        end
      end
    end.

Definition equal_structA (c : config) (fx : efix) (x : ectx) (rec : erecA) (w g : lims) (p q : Ptr) : eout * lims * lims :=
  let m1 := segs_of x SA in
  let m2 := segs_of x SB in
  match slice (seg_of m1 p) (p_off p) (DataSize (p_size p)) with
  | Panic => (EPanic, w, g) | Err => (EErr, w, g)
  | Ok d1 =>
    match slice (seg_of m2 q) (p_off q) (DataSize (p_size q)) with
    | Panic => (EPanic, w, g) | Err => (EErr, w, g)
    | Ok d2 =>
      if negb (struct_data_equal d1 d2) then (EOk false, w, g) else
      let pc1 := PointerCount (p_size p) in
      let pc2 := PointerCount (p_size q) in
      let n := Z.min pc1 pc2 in
      match ptr_loopA c x rec p q (Z.to_nat n) 0 w g with
      | (EOk true, w', g') =>
        match no_ptrs (fx_farnull fx) (cfg_strict c) m1 p (Z.to_nat (pc1 - n)) n with
        | Panic => (EPanic, w', g') | Err => (EErr, w', g')
        | Ok false => (EOk false, w', g')
        | Ok true =>
          match no_ptrs (fx_farnull fx) (cfg_strict c) m2 q (Z.to_nat (pc2 - n)) n with
          | Panic => (EPanic, w', g') | Err => (EErr, w', g')
          | Ok b => (EOk b, w', g')
          end
        end
      | other => other
      end
    end
  end.

(* the list case only moves the budgets inside the element loop: every other branch of
   equal_list returns its input state, so the ghost is returned unchanged there *)
Definition equal_listA (fx : efix) (x : ectx) (rec : erecA) (w g : lims) (p q : Ptr) : eout * lims * lims :=
  let m1 := segs_of x SA in
  let m2 := segs_of x SB in
  if negb (list_len p =? list_len q) then (EOk false, w, g)
  else
    let bit_case : option (eout * lims) :=
      if fx_bitlist fx then
        if negb (Bool.eqb (p_bit p) (p_bit q)) then Some (EOk false, w)
        else if p_bit p then
          let sz := bitListSize (p_len p) in
          match slice (seg_of m1 p) (p_off p) sz with
          | Panic => Some (EPanic, w) | Err => Some (EErr, w)
          | Ok d1 =>
            match slice (seg_of m2 q) (p_off q) sz with
            | Panic => Some (EPanic, w) | Err => Some (EErr, w)
            | Ok d2 => Some (EOk (bits_equal d1 d2 (p_len p)), w)
            end
          end
        else None
      else None in
    match bit_case with
    | Some r => (r, g)
    | None =>
      if negb (p_comp p) && negb (p_comp q) && negb (os_eqb (p_size p) (p_size q)) then (EOk false, w, g)
      else if (PointerCount (p_size p) =? 0) && (PointerCount (p_size q) =? 0)
              && (DataSize (p_size p) =? DataSize (p_size q)) then
        let sz := match times (totalSize (p_size p)) (p_len p) with Some x => x | None => 4294967295 end in
        match slice (seg_of m1 p) (p_off p) sz with
        | Panic => (EPanic, w, g) | Err => (EErr, w, g)
        | Ok d1 =>
          match slice (seg_of m2 q) (p_off q) sz with
          | Panic => (EPanic, w, g) | Err => (EErr, w, g)
          | Ok d2 => (EOk (bytes_eqb d1 d2), w, g)
          end
        end
      else elem_loopA (fx_depth (fx_rd fx)) rec p q (Z.to_nat (list_len p)) 0 w g
    end.

Definition equal_stepA (c : config) (fx : efix) (x : ectx) (rec : erecA) (w g : lims) (p q : Ptr) : eout * lims * lims :=
  if negb (p_valid p) && negb (p_valid q) then (EOk true, w, g)
  else if negb (p_valid p) || negb (p_valid q) then (EOk false, w, g)
  else
    match p_kind p, p_kind q with
    | KStruct, KStruct => equal_structA c fx x rec w g p q
    | KList, KList => equal_listA fx x rec w g p q
    | KIface, KIface => (EOk (iface_equal x p q), w, g)
    | _, _ => (EOk false, w, g)
    end.

Fixpoint equal_mA (fuel : nat) (c : config) (fx : efix) (x : ectx) (w g : lims) (p q : Ptr) {struct fuel}
  : eout * lims * lims :=
  match fuel with
  | O => (EFuel, w, g)
  | S f => equal_stepA c fx x (equal_mA f c fx x) w g p q
  end.

Lemma ptr_loopA_S c x rec p q k i w g : ptr_loopA c x rec p q (S k) i w g =
    (let '(r1, rl1) := struct_ptr c (segs_of x SA) (rl_of x w SA) p i in
     let w1 := put_rl x w SA rl1 in
     let g1 := add_h x g SA (hsz r1) in
     match r1 with
     | Panic => (EPanic, w1, g1) | Err => (EErr, w1, g1)
     | Ok sp1 =>
       let '(r2, rl2) := struct_ptr c (segs_of x SB) (rl_of x w1 SB) q i in
       let w2 := put_rl x w1 SB rl2 in
       let g2 := add_h x g1 SB (hsz r2) in
       match r2 with
       | Panic => (EPanic, w2, g2) | Err => (EErr, w2, g2)
       | Ok sp2 =>
         match rec w2 g2 sp1 sp2 with
         | (EOk true, w3, g3) => ptr_loopA c x rec p q k (i + 1) w3 g3
         | other => other
         end
       end
     end).
Proof. reflexivity. Qed.

Lemma elem_loopA_S fxd rec p q k i w g : elem_loopA fxd rec p q (S k) i w g =
    (match list_struct fxd p i with
     | Panic => (EPanic, w, g) | Err => (EErr, w, g)
     | Ok e1 =>
       match list_struct fxd q i with
       | Panic => (EPanic, w, g) | Err => (EErr, w, g)
       | Ok e2 =>
         match rec w g e1 e2 with
         | (EOk true, w', g') => elem_loopA fxd rec p q k (i + 1) w' g'
         | other => other
         end
       end
     end).
Proof. reflexivity. Qed.

Definition erases (recA : erecA) (rec : erec) : Prop := forall w g p q, fst (recA w g p q) = rec w p q.

Lemma ptr_loopA_erase c x recA rec p q : erases recA rec ->
  forall k i w g, fst (ptr_loopA c x recA p q k i w g) = ptr_loop c x rec p q k i w.
Proof.
  intros He. induction k as [|k IH]; intros i w g; [reflexivity|].
  rewrite ptr_loop_S, ptr_loopA_S.
  destruct (struct_ptr c (segs_of x SA) (rl_of x w SA) p i) as [r1 rl1]. cbv zeta.
  destruct r1 as [sp1| |]; try reflexivity.
  destruct (struct_ptr c (segs_of x SB) _ q i) as [r2 rl2].
  destruct r2 as [sp2| |]; try reflexivity.
  rewrite <- (He _ (add_h x (add_h x g SA (hsz (Ok sp1))) SB (hsz (Ok sp2))) sp1 sp2).
  destruct (recA _ _ sp1 sp2) as [[o w3] g3]. cbn [fst].
  destruct o as [[|]| | |]; try reflexivity. apply IH.
Qed.

Lemma elem_loopA_erase fxd recA rec p q : erases recA rec ->
  forall k i w g, fst (elem_loopA fxd recA p q k i w g) = elem_loop fxd rec p q k i w.
Proof.
  intros He. induction k as [|k IH]; intros i w g; [reflexivity|].
  rewrite elem_loop_S, elem_loopA_S.
  destruct (list_struct fxd p i) as [e1| |]; try reflexivity.
  destruct (list_struct fxd q i) as [e2| |]; try reflexivity.
  rewrite <- (He w g e1 e2). destruct (recA w g e1 e2) as [[o w'] g']. cbn [fst].
  destruct o as [[|]| | |]; try reflexivity. apply IH.
Qed.

Lemma equal_stepA_erase c fx x recA rec : erases recA rec -> erases (equal_stepA c fx x recA) (equal_step c fx x rec).
Proof.
  intros He w g p q. unfold equal_stepA, equal_step.
  destruct (negb (p_valid p) && negb (p_valid q)); [reflexivity|].
  destruct (negb (p_valid p) || negb (p_valid q)); [reflexivity|].
  destruct (p_kind p), (p_kind q); try reflexivity.
  - unfold equal_structA, equal_struct. cbv zeta.
    destruct (slice _ _ _); try reflexivity. destruct (slice _ _ _); try reflexivity.
    destruct (negb _); [reflexivity|].
    rewrite <- (ptr_loopA_erase c x recA rec p q He _ 0 w g).
    destruct (ptr_loopA c x recA p q _ 0 w g) as [[o w'] g']. cbn [fst].
    destruct o as [[|]| | |]; try reflexivity.
    destruct (no_ptrs _ _ _ p _ _) as [[|]| |]; try reflexivity.
    destruct (no_ptrs _ _ _ q _ _); reflexivity.
  - unfold equal_listA, equal_list. cbv zeta.
    destruct (negb (list_len p =? list_len q)); [reflexivity|].
    match goal with |- fst (match ?bc with Some r => (r, g) | None => _ end) = _ => destruct bc as [r|] end;
      [reflexivity|].
    destruct (_ && _ && _); [reflexivity|].
    destruct (_ && _ && _).
    + destruct (slice _ _ _); try reflexivity. destruct (slice _ _ _); reflexivity.
    + apply elem_loopA_erase. exact He.
Qed.

Theorem equal_mA_erase c fx x : forall fuel w g p q,
  fst (equal_mA fuel c fx x w g p q) = equal_m fuel c fx x w p q.
Proof.
  induction fuel as [|f IH]; intros w g p q; [reflexivity|].
  cbn [equal_mA equal_m]. apply equal_stepA_erase. exact IH.
Qed.

(* per side: the budget stays >= 0, the handed-out sum only grows, and budget + handed-out sum
   never increases *)
Definition acct (x : ectx) (w g w' g' : lims) : Prop :=
  forall s, 0 <= rl_of x w' s /\ rl_of x g s <= rl_of x g' s /\
            rl_of x w' s + rl_of x g' s <= rl_of x w s + rl_of x g s.

Definition nonneg2 (x : ectx) (w : lims) : Prop := forall s, 0 <= rl_of x w s.

Lemma acct_refl x w g : nonneg2 x w -> acct x w g w g.
Proof. intros H s. specialize (H s). lia. Qed.
Lemma acct_trans x a ga b gb c gc : acct x a ga b gb -> acct x b gb c gc -> acct x a ga c gc.
Proof. intros H1 H2 s. specialize (H1 s). specialize (H2 s). lia. Qed.
Lemma acct_nonneg x w g w' g' : acct x w g w' g' -> nonneg2 x w'.
Proof. intros H s. apply H. Qed.

Lemma acct_put x w g s0 rl1 h : nonneg2 x w -> 0 <= rl1 -> 0 <= h -> rl1 + h <= rl_of x w s0 ->
  acct x w g (put_rl x w s0 rl1) (add_h x g s0 h).
Proof.
  intros Hn H1 H2 H3 s. pose proof (Hn s) as Hs. pose proof (Hn s0) as Hs0.
  unfold add_h, rl_of, put_rl in *. destruct (on_a x s0), (on_a x s); cbn [fst snd]; lia.
Qed.

Definition recA_ok (x : ectx) (rec : erecA) : Prop :=
  forall w g p q, nonneg2 x w -> acct x w g (snd (fst (rec w g p q))) (snd (rec w g p q)).

Lemma struct_ptr_acct c x w g s p i : nonneg2 x w ->
  let r := struct_ptr c (segs_of x s) (rl_of x w s) p i in
  acct x w g (put_rl x w s (snd r)) (add_h x g s (hsz (fst r))).
Proof.
  intros Hn r. pose proof (struct_ptr_charge c (segs_of x s) (rl_of x w s) p i (Hn s)) as [[C1 C2] C3].
  fold r in C1, C2, C3. apply acct_put; auto; try lia.
  - unfold hsz. destruct (fst r); [apply readSize_nonneg|lia|lia].
  - unfold hsz. destruct (fst r); lia.
Qed.

Lemma ptr_loopA_acct c x rec p q : recA_ok x rec ->
  forall k i w g, nonneg2 x w ->
  acct x w g (snd (fst (ptr_loopA c x rec p q k i w g))) (snd (ptr_loopA c x rec p q k i w g)).
Proof.
  intros Hrec. induction k as [|k IH]; intros i w g Hn; [apply acct_refl; assumption|].
  rewrite ptr_loopA_S.
  pose proof (struct_ptr_acct c x w g SA p i Hn) as A1. cbv zeta in A1.
  destruct (struct_ptr c (segs_of x SA) (rl_of x w SA) p i) as [r1 rl1]. cbn [fst snd] in A1. cbv zeta.
  pose proof (acct_nonneg _ _ _ _ _ A1) as N1.
  destruct r1 as [sp1| |]; try exact A1.
  pose proof (struct_ptr_acct c x (put_rl x w SA rl1) (add_h x g SA (hsz (Ok sp1))) SB q i N1) as A2. cbv zeta in A2.
  destruct (struct_ptr c (segs_of x SB) _ q i) as [r2 rl2]. cbn [fst snd] in A2.
  pose proof (acct_trans _ _ _ _ _ _ _ A1 A2) as A12. pose proof (acct_nonneg _ _ _ _ _ A2) as N2.
  destruct r2 as [sp2| |]; try exact A12.
  pose proof (Hrec _ (add_h x (add_h x g SA (hsz (Ok sp1))) SB (hsz (Ok sp2))) sp1 sp2 N2) as A3.
  destruct (rec _ _ sp1 sp2) as [[o w3] g3]. cbn [fst snd] in A3.
  pose proof (acct_trans _ _ _ _ _ _ _ A12 A3) as A123.
  destruct o as [[|]| | |]; try exact A123.
  eapply acct_trans; [exact A123|]. apply IH. eapply acct_nonneg; exact A3.
Qed.

Lemma elem_loopA_acct fxd x rec p q : recA_ok x rec ->
  forall k i w g, nonneg2 x w ->
  acct x w g (snd (fst (elem_loopA fxd rec p q k i w g))) (snd (elem_loopA fxd rec p q k i w g)).
Proof.
  intros Hrec. induction k as [|k IH]; intros i w g Hn; [apply acct_refl; assumption|].
  rewrite elem_loopA_S.
  destruct (list_struct fxd p i) as [e1| |]; try (apply acct_refl; assumption).
  destruct (list_struct fxd q i) as [e2| |]; try (apply acct_refl; assumption).
  pose proof (Hrec w g e1 e2 Hn) as A. destruct (rec w g e1 e2) as [[o w'] g']. cbn [fst snd] in A.
  destruct o as [[|]| | |]; try exact A.
  eapply acct_trans; [exact A|]. apply IH. eapply acct_nonneg; exact A.
Qed.

Lemma equal_stepA_acct c fx x rec : recA_ok x rec -> recA_ok x (equal_stepA c fx x rec).
Proof.
  intros Hrec w g p q Hn. pose proof (acct_refl x w g Hn) as R. unfold equal_stepA.
  destruct (negb (p_valid p) && negb (p_valid q)); [exact R|].
  destruct (negb (p_valid p) || negb (p_valid q)); [exact R|].
  destruct (p_kind p), (p_kind q); try exact R.
  - unfold equal_structA. cbv zeta.
    destruct (slice _ _ _); try exact R. destruct (slice _ _ _); try exact R.
    destruct (negb _); [exact R|].
    pose proof (ptr_loopA_acct c x rec p q Hrec
                  (Z.to_nat (Z.min (PointerCount (p_size p)) (PointerCount (p_size q)))) 0 w g Hn) as A.
    destruct (ptr_loopA c x rec p q _ 0 w g) as [[o w'] g']. cbn [fst snd] in A.
    destruct o as [[|]| | |]; try exact A.
    destruct (no_ptrs _ _ _ p _ _) as [[|]| |]; try exact A.
    destruct (no_ptrs _ _ _ q _ _); exact A.
  - unfold equal_listA. cbv zeta.
    destruct (negb (list_len p =? list_len q)); [exact R|].
    match goal with |- acct x w g (snd (fst (match ?bc with Some r => (r, g) | None => _ end))) _ =>
      assert (match bc with Some r => snd r = w | None => True end) as Hb; [|destruct bc as [r|]] end.
    { destruct (fx_bitlist fx); [|exact I]. destruct (negb _); [reflexivity|].
      destruct (p_bit p); [|exact I]. destruct (slice _ _ _); try reflexivity.
      destruct (slice _ _ _); reflexivity. }
    { cbn [fst snd]. rewrite Hb. exact R. }
    destruct (_ && _ && _); [exact R|].
    destruct (_ && _ && _).
    + destruct (slice _ _ _); try exact R. destruct (slice _ _ _); exact R.
    + apply elem_loopA_acct; assumption.
Qed.

Theorem equal_mA_acct c fx x : forall fuel, recA_ok x (equal_mA fuel c fx x).
Proof.
  induction fuel as [|f IH].
  - intros w g p q Hn. apply acct_refl. assumption.
  - cbn [equal_mA]. apply equal_stepA_acct. exact IH.
Qed.

(* equal_m_traversal: started with the ghost at 0, on each side the read sizes handed out sum
   to at most the budget consumed on that side, hence to at most the budget (T) it started
   with; the budgets never go negative.  [equal_mA_erase]: same outcome and budgets as equal_m. *)
Theorem equal_m_traversal c fx x fuel w p q :
  nonneg2 x w ->
  let r := equal_mA fuel c fx x w (0, 0) p q in
  fst r = equal_m fuel c fx x w p q /\
  forall s, 0 <= rl_of x (snd (fst r)) s /\ 0 <= rl_of x (snd r) s /\
            rl_of x (snd r) s <= rl_of x w s - rl_of x (snd (fst r)) s /\
            rl_of x (snd r) s <= rl_of x w s.
Proof.
  intros Hn r. split; [apply equal_mA_erase|]. intros s.
  pose proof (equal_mA_acct c fx x fuel w (0, 0) p q Hn s) as (A1 & A2 & A3). fold r in A1, A2, A3.
  assert (rl_of x (0, 0) s = 0) as E0 by (unfold rl_of; destruct (on_a x s); reflexivity).
  rewrite E0 in *. lia.
Qed.

(* non-vacuity: a struct -> composite list -> element compared with itself (same message):
   Equal dereferences the list pointer twice (8 bytes each); handed out = consumed = 16 *)
Example equal_traversal_example :
  let c := mkCfg 1000 4 true true in
  let fx := mkEFix true true (mkFix true true true) in
  let x := mkEC eq_deep_msg [] eq_deep_msg [] true in
  exists p rl0, root c eq_deep_msg 1000 = (Ok p, rl0) /\
  equal_mA 6 c fx x (rl0, 0) (0, 0) p p = (EOk true, (rl0 - 16, 0), (16, 0)).
Proof. do 2 eexists. split; [vm_compute; reflexivity|]. vm_compute. reflexivity. Qed.
