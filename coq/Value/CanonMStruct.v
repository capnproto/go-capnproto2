(* C18 [T2]: canonicalStructSize computes the size of the canonical
   representative -- the data section truncated of trailing zero WORDS and the pointer section
   truncated of trailing NULL pointers of the value the struct denotes (for every struct of
   every message).  Then: every struct whose fields are all default canonicalises to the
   empty-struct message, which is the specification's canonical form. *)
From CV Require Import Value.ValueEq Value.ValueEqProofs Value.EqualM Value.Den Value.DenFacts Value.DenLists
                       Value.CanonSpec Value.CanonProofs Value.CanonM.
From CV Require Import Core.ReaderFacts Core.SafetyProofs Core.BuilderFacts.
From Coq Require Import ZifyBool ZifyNat.
Ltac Zify.zify_post_hook ::= Z.div_mod_to_equations.
Open Scope Z_scope.

Lemma strip0_snoc l x : strip0 (l ++ [x]) = if x =? 0 then strip0 l else l ++ [x].
Proof.
  induction l as [|y r IH]; cbn [app strip0].
  - destruct (x =? 0); reflexivity.
  - rewrite IH. destruct (x =? 0) eqn:E; [reflexivity|]. destruct (r ++ [x]) eqn:E2; [destruct r; discriminate| reflexivity].
Qed.

Lemma stripN_snoc l x : stripN (l ++ [x]) = if is_null x then stripN l else l ++ [x].
Proof.
  induction l as [|y r IH]; cbn [app stripN].
  - destruct (is_null x); reflexivity.
  - rewrite IH. destruct (is_null x) eqn:E; [reflexivity|]. destruct (r ++ [x]) eqn:E2; [destruct r; discriminate| reflexivity].
Qed.

Lemma stripN_all_null_nil vs : forallb is_null vs = true -> stripN vs = [].
Proof.
  induction vs as [|y r IH]; [reflexivity|]. cbn [forallb]. intros Hn. apply andb_prop in Hn. destruct Hn as [H1 H2].
  cbn [stripN]. rewrite (IH H2), H1. reflexivity.
Qed.

Lemma firstn_snoc {A} (d : A) k l : (k < length l)%nat -> firstn (S k) l = firstn k l ++ [nth k l d].
Proof.
  revert l. induction k as [|k IH]; intros [|y r] H; cbn in H; try lia; [reflexivity|].
  change (firstn (S (S k)) (y :: r)) with (y :: firstn (S k) r). rewrite (IH r) by lia. reflexivity.
Qed.

Lemma css_ptrs_spec m mid caps s vs : kids_of m mid caps s vs -> zlen vs = PointerCount (p_size s) ->
  forall k, Z.of_nat k <= PointerCount (p_size s) ->
  css_ptrs true true m s k = Ok (zlen (stripN (firstn k vs))).
Proof.
  intros K L. induction k as [|k IH]; intros Hk; [reflexivity|].
  cbn [css_ptrs]. destruct (K (Z.of_nat k) ltac:(lia)) as (dep & rl & q & rl' & R & D).
  rewrite (readPtr_nonnull _ _ _ _ _ _ _ _ R). cbn [bind].
  pose proof (den_is_null _ _ _ _ _ _ D) as Hn. unfold nthv in Hn. rewrite Nat2Z.id in Hn.
  unfold zlen in L. rewrite (firstn_snoc VNull k vs) by lia. rewrite stripN_snoc, Hn.
  destruct (p_valid q); cbn [negb].
  - f_equal. unfold zlen. rewrite app_length, firstn_length. cbn [length]. lia.
  - apply IH. lia.
Qed.

Lemma nth_sub s base n i : 0 <= base -> (i < Z.to_nat n)%nat -> nth i (sub s base n) 0 = nth (Z.to_nat base + i) s 0.
Proof. intros Hb Hi. unfold sub. rewrite nth_firstn_lt by assumption. apply nth_skipn_add. Qed.

Lemma le_decode_8 l : length l = 8%nat ->
  le_decode l = nth 0 l 0 + 256 * nth 1 l 0 + 65536 * nth 2 l 0 + 16777216 * nth 3 l 0 + 4294967296 * nth 4 l 0
                + 1099511627776 * nth 5 l 0 + 281474976710656 * nth 6 l 0 + 72057594037927936 * nth 7 l 0.
Proof.
  intros H. destruct l as [|b0 [|b1 [|b2 [|b3 [|b4 [|b5 [|b6 [|b7 [|]]]]]]]]]; try discriminate.
  cbn [le_decode nth]. lia.
Qed.

(* Struct.Uint64(8k) is word k of the data section (0 beyond it) *)
Lemma struct_uint64_word m s d k : msg_ok m -> wf_struct m s -> p_valid s = true ->
  DataSize (p_size s) mod 8 = 0 ->
  slice (seg_of m s) (p_off s) (DataSize (p_size s)) = Ok d -> 0 <= 8 * Z.of_nat k < 524288 ->
  struct_uint m s (8 * Z.of_nat k) 8 = Ok (nth k (words_of_bytes d) 0).
Proof.
  intros Hm Hw Hv Hal Sl Hk. destruct (wf_struct_inv _ _ Hw Hv) as (Hseg & Wz & Ho & Hb). destruct Wz as [Wd Wp].
  rewrite struct_uint_spec by (try assumption; lia). f_equal.
  apply slice_eq_sub in Sl; [|apply seg_of_ok; assumption| lia]. destruct Sl as (-> & _ & _).
  rewrite nth_words_of_bytes. unfold word_at, byte_at.
  destruct (8 * Z.of_nat k + 8 <=? DataSize (p_size s)) eqn:E.
  - rewrite le_decode_8.
    2:{ apply Nat2Z.inj. change (zlen (sub (seg_of m s) (p_off s + 8 * Z.of_nat k) 8) = 8). apply sub_length; lia. }
    rewrite !nth_sub by lia.
    replace (Z.to_nat (p_off s + 8 * Z.of_nat k)) with (Z.to_nat (p_off s) + 8 * k)%nat by lia.
    repeat match goal with |- context [nth (?a + 8 * k + ?j)%nat _ _] => replace (a + 8 * k + j)%nat with (a + (8 * k + j))%nat by lia end.
    replace (Z.to_nat (p_off s) + 8 * k + 0)%nat with (Z.to_nat (p_off s) + 8 * k)%nat by lia.
    rewrite (Nat.add_0_r (8 * k)). reflexivity.
  - (* beyond the section: every byte index is outside d *)
    assert (L : zlen (sub (seg_of m s) (p_off s) (DataSize (p_size s))) = DataSize (p_size s)) by (apply sub_length; lia).
    unfold zlen in L. rewrite !nth_overflow by lia. reflexivity.
Qed.

Lemma css_data_spec m s d : msg_ok m -> wf_struct m s -> p_valid s = true ->
  DataSize (p_size s) mod 8 = 0 ->
  slice (seg_of m s) (p_off s) (DataSize (p_size s)) = Ok d ->
  forall k, Z.of_nat k <= DataSize (p_size s) / 8 ->
  css_data m s k = Ok (8 * zlen (strip0 (firstn (S k) (words_of_bytes d)))).
Proof.
  intros Hm Hw Hv Hal Sl. destruct (wf_struct_inv _ _ Hw Hv) as (_ & Wz & _ & _). destruct Wz as [Wz _].
  set (ws := words_of_bytes d).
  induction k as [|k IH]; intros Hk; cbn [css_data].
  - rewrite (struct_uint64_word m s d 0 Hm Hw Hv Hal Sl) by lia. cbn [bind]. fold ws.
    destruct ws as [|w0 r]; cbn [nth firstn strip0].
    + reflexivity.
    + destruct (w0 =? 0); reflexivity.
  - rewrite (struct_uint64_word m s d (S k) Hm Hw Hv Hal Sl) by lia. cbn [bind]. fold ws.
    destruct (Nat.lt_ge_cases (S k) (length ws)) as [Lt|Ge].
    + rewrite (firstn_snoc 0 (S k) ws Lt), strip0_snoc.
      destruct (nth (S k) ws 0 =? 0) eqn:E; cbn [negb].
      * apply IH. lia.
      * f_equal. unfold zlen. rewrite app_length, firstn_length. cbn [length]. lia.
    + rewrite nth_overflow by lia. cbn [Z.eqb negb]. rewrite IH by lia.
      rewrite !firstn_all2 by lia. reflexivity.
Qed.

Theorem canonicalStructSize_spec : forall m mid caps s v,
  msg_ok m -> wf_ptr m s -> p_valid s = true -> p_kind s = KStruct -> DataSize (p_size s) mod 8 = 0 ->
  den true m mid caps s v ->
  exists ws vs, v = VStruct ws vs /\
    canonicalStructSize true true m s = Ok (mkOS (8 * zlen (strip0 ws)) (zlen (stripN vs))).
Proof.
  intros m mid caps s v Hm Hwf Hv Hk Hal D.
  destruct (den_struct_inv _ _ _ _ _ _ D Hv Hk) as (d & vs & -> & Wz & Sl & L & K).
  exists (words_of_bytes d), vs. split; [reflexivity|].
  assert (Hw : wf_struct m s) by (split; [assumption| intros _; assumption]).
  unfold canonicalStructSize. rewrite Hv. cbn [negb].
  destruct Wz as [Wd Wp].
  rewrite (css_data_spec m s d Hm Hw Hv Hal Sl) by lia. cbn [bind].
  rewrite (css_ptrs_spec m mid caps s vs K L) by lia. cbn [bind].
  f_equal. f_equal.
  - (* all words *)
    assert (Ll : (length (words_of_bytes d) <= S (Z.to_nat (DataSize (p_size s) / 8)))%nat).
    { apply slice_eq_sub in Sl; [|apply seg_of_ok; assumption| lia]. destruct Sl as (-> & B1 & B2).
      pose proof (sub_length (seg_of m s) (p_off s) (DataSize (p_size s)) B1 ltac:(lia) B2) as Ls.
      pose proof (words_of_bytes_length (sub (seg_of m s) (p_off s) (DataSize (p_size s)))) as Lw.
      unfold zlen in Ls. lia. }
    rewrite firstn_all2 by assumption. reflexivity.
  - unfold zlen in L. rewrite firstn_all2 by lia. reflexivity.
Qed.

Definition all_cfixed (fx : cfix) : Prop :=
  cx_complist fx = true /\ cx_bitpad fx = true /\ cx_farnull fx = true /\
  fx_depth (cx_rd fx) = true /\ fx_upgrade (cx_rd fx) = true /\ fx_bit (cx_rd fx) = true.

(* fillCanonicalStruct into a zero-sized destination copies nothing and visits no pointer *)
Lemma fill_zero c fx f w dst s d m' :
  p_size dst = mkOS 0 0 ->
  slice (dst_seg w dst) (p_off dst) 0 = Ok [] ->
  slice (src_seg w s) (p_off s) (DataSize (p_size s)) = Ok d ->
  seg_write (w_dst w) (p_seg dst) (p_off dst) [] = Ok m' ->
  fill_canonical c fx (S f) w dst s = KOk (w_set_dst w m').
Proof.
  intros Hz S1 S2 Wr. cbn [fill_canonical]. rewrite Hz. cbn [DataSize PointerCount]. rewrite S1, S2.
  cbn [of_res kbind length Nat.min firstn]. rewrite Wr. cbn [lift0 bind of_res kbind Z.to_nat iota seq map kfold].
  reflexivity.
Qed.

Definition empty_struct_msg : list Z := le_encode 8 (struct_word (-1) 0 0).

Theorem canon_m_default_struct_partial : forall c fx fuel m rl s v,
  cfg_strict c = true -> all_cfixed fx -> msg_ok m -> wf_ptr m s ->
  p_valid s = true -> p_kind s = KStruct -> DataSize (p_size s) mod 8 = 0 ->
  den true m 0 [] s v ->
  (exists ws vs, v = VStruct ws vs /\ all_zero ws = true /\ forallb is_null vs = true) ->
  canonicalize c fx (S fuel) m rl s = (KOk empty_struct_msg, rl) /\ canon v = Some empty_struct_msg.
Proof.
  intros c fx fuel m rl s v Hs (_ & _ & Hfn & _) Hm Hwf Hv Hk Hal D (ws & vs & -> & Hz & Hn).
  destruct (canonicalStructSize_spec m 0 [] s _ Hm Hwf Hv Hk Hal D) as (ws' & vs' & E & Hcss).
  inversion E; subst ws' vs'; clear E.
  rewrite (strip0_all_zero ws Hz) in Hcss.
  rewrite (stripN_all_null_nil vs Hn) in Hcss. change (8 * zlen (@nil Z)) with 0 in Hcss. change (zlen (@nil value)) with 0 in Hcss.
  destruct (den_struct_inv _ _ _ _ _ _ D Hv Hk) as (d & vs2 & _ & _ & Sl & _ & _).
  split.
  - unfold canonicalize.
    replace (new_message ASingle [] 0) with (Ok (mkBM ASingle [mkBS (repeat 0 8%nat) 1024] [] 0)) by (vm_compute; reflexivity).
    rewrite Hv. cbn [negb]. cbv zeta. rewrite Hfn, Hs, Hcss. cbn [of_res kbind].
    set (m0 := mkBM ASingle [mkBS (repeat 0 8%nat) 1024] [] 0).
    set (root := mkPtr true 0 8 0 (mkOS 0 0) maxDepth KStruct false false false).
    replace (lift (mkW m0 m rl) (newStruct m0 0 (mkOS 0 0))) with (Ok (mkW m0 m rl, root)) by (vm_compute; reflexivity).
    cbn [of_res kbind].
    set (m1 := mkBM ASingle [mkBS (le_encode 8 (struct_word (-1) 0 0)) 1024] [] 0).
    replace (set_root 4 (mkW m0 m rl) InDst root) with (Ok (mkW m1 m rl)) by (vm_compute; reflexivity).
    cbn [of_res kbind].
    replace (set_root 4 (mkW m1 m rl) InDst root) with (Ok (mkW m1 m rl)) by (vm_compute; reflexivity).
    cbn [of_res kbind].
    rewrite (fill_zero c fx fuel (mkW m1 m rl) root s d m1) by (first [exact Sl | reflexivity]).
    reflexivity.
  - unfold canon, canon_words. cbn [norm]. rewrite (strip0_all_zero ws Hz), (stripN_all_null vs Hn). vm_compute. reflexivity.
Qed.
