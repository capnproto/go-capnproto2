(* C18 [T2]: all fuels, and Canonicalize itself.  Q_ptr / Q_fill / Q_list hold for every fuel;
   canon_m_all: whenever Canonicalize returns bytes they are exactly the specification's canonical
   form of the value the struct denotes -- for every value (a value containing a capability never
   makes Canonicalize return bytes: canon_m_cap_error). *)
From CV Require Import Value.ValueEq Value.ValueEqProofs Value.EqualM Value.Den Value.DenFacts Value.DenLists
                       Value.CanonSpec Value.CanonProofs Value.CanonProofs3 Value.CanonM Value.CanonMStruct
                       Value.CanonMWords Value.CanonMData Value.CanonMHeap Value.CanonMLoop Value.CanonSafe Value.EqualProofs
                       Value.CanonMProofs Value.CanonMInd Value.CanonMListP Value.CanonMListR Value.CanonMListC Value.CanonMListB Value.CanonProofs2 Value.VDec Value.VDecProofs.
From CV Require Import Core.ReaderFacts Core.SafetyProofs Core.BuilderFacts Core.ArithFacts Core.CopySafe.
From Coq Require Import ZifyBool ZifyNat.
Ltac Zify.zify_post_hook ::= Z.div_mod_to_equations.
Open Scope Z_scope.

Section Top.
Context (c : config) (fx : cfix) (m : segs).
Context (Hstrict : cfg_strict c = true) (Hfx : all_cfixed fx) (Hm : msg_ok m).

Lemma list_step f : Q_ptr c fx m f -> Q_fill c fx m f -> Q_list c fx m (S f).
Proof.
  intros HP HF data cap rl p v w' cp Hi Hwf Hv Hk Hcal D H.
  destruct v as [| | |k es|]; try (exfalso; inversion D; subst; congruence).
  - destruct k.
    1-5: (eapply list_prim_case; try eassumption; discriminate).
    + eapply list_ptr_case; eassumption.
    + eapply list_comp_case; eassumption.
  - eapply list_bits_case; eassumption.
Qed.

Theorem Q_all : forall f, Q_ptr c fx m f /\ Q_fill c fx m f /\ Q_list c fx m f.
Proof.
  induction f as [|f (IHp & IHf & IHl)].
  - split; [|split].
    + intros data cap rl p v w' cp _ _ _ _ _ H. discriminate H.
    + intros data cap rl dst s ws vs A dn pn w' _ _ _ _ _ _ _ _ _ _ _ _ _ _ H. discriminate H.
    + intros data cap rl p v w' cp _ _ _ _ _ _ H. discriminate H.
  - split; [apply ptr_step; assumption|]. split; [apply fill_step; assumption| apply list_step; assumption].
Qed.

Lemma put_word_head hdr rest w : length hdr = 8%nat -> put_word (hdr ++ rest) 0 w = le_encode 8 w ++ rest.
Proof.
  intros Hh. unfold put_word. cbn [Z.to_nat firstn app Nat.add]. rewrite <- Hh, skipn_app, Nat.sub_diag, skipn_all. reflexivity.
Qed.

Theorem canon_m_all : forall fuel rl s v bs rl',
  wf_ptr m s -> (p_valid s = true -> p_kind s = KStruct /\ DataSize (p_size s) mod 8 = 0) ->
  den true m 0 [] s v ->
  canonicalize c fx fuel m rl s = (KOk bs, rl') -> canon v = Some bs.
Proof.
  intros fuel rl s v bs rl' Hwf Hks D H.
  destruct (p_valid s) eqn:Hv.
  2:{ destruct (canon_m_null_partial fuel c fx m rl s Hv) as [C1 C2]. rewrite C1 in H. inversion H; subst.
      pose proof (den_is_null _ _ _ _ _ _ D) as Hn. rewrite Hv in Hn. destruct v; try discriminate. exact C2. }
  destruct (Hks eq_refl) as [Hk Hal0]. assert (Hal : aligned s) by (intros _; exact Hal0).
  destruct v as [| |ws vs| |]; try (exfalso; inversion D; subst; congruence).
  destruct (canonicalStructSize_spec m 0 [] s _ Hm Hwf Hv Hk Hal0 D) as (ws' & vs' & E & Hcss).
  inversion E; subst ws' vs'; clear E.
  destruct (den_struct_aligned m _ _ s ws vs Hm D Hv Hk Hal0) as (d & _ & _ & _ & Lws & [Wd Wp] & Lvs & _).
  set (k := zlen (strip0 ws)) in *. set (j := zlen (stripN vs)) in *.
  pose proof (strip0_length_le ws) as Lk. pose proof (stripN_length_le vs) as Lj.
  assert (Hk0 : 0 <= k <= 65535) by (unfold k, zlen in *; lia).
  assert (Hj0 : 0 <= j < 65536) by (unfold j, zlen in *; lia).
  destruct Hfx as (_ & _ & Hfn & _).
  unfold canonicalize in H.
  replace (new_message ASingle [] 0) with (Ok m0) in H by (vm_compute; reflexivity).
  rewrite Hv in H. cbn [negb] in H. cbv zeta in H. rewrite Hfn, Hstrict, Hcss in H. cbn [of_res kbind] in H.
  change m0 with (seg0 (repeat 0 8%nat) 1024) in H.
  destruct (newStruct (seg0 (repeat 0 8%nat) 1024) 0 (mkOS (8 * k) j)) as [[m1 ss0]| |] eqn:EN;
    try (cbn [lift bind of_res kbind] in H; discriminate H).
  destruct (newStruct_seg0 (repeat 0 8%nat) 1024 k j m1 ss0 ltac:(split; [reflexivity|cbn; lia]) Hk0 Hj0 EN) as (_ & -> & cap1 & ->).
  cbn [lift bind of_res kbind w_set_dst w_src w_src_rl] in H.
  change (zlen (repeat 0 8%nat)) with 8 in *.
  set (ss := mkPtr true 0 8 0 (mkOS (8 * k) j) maxDepth KStruct false false false) in *.
  set (z := repeat 0 (Z.to_nat (8 * k + 8 * j))) in *.
  assert (Lz : length z = Z.to_nat (8 * k + 8 * j)) by (unfold z; apply repeat_length).
  change (w_set_dst (mkW (seg0 (repeat 0 8%nat) 1024) m rl) (seg0 (repeat 0 8%nat ++ z) cap1))
    with (dstw (repeat 0 8%nat ++ z) cap1 m rl) in H.
  assert (L1 : zlen (repeat 0 8%nat ++ z) = 8 + 8 * k + 8 * j) by (rewrite zlen_app; unfold zlen; rewrite Lz; cbn [repeat length]; lia).
  assert (Hshape : forall hdr, length hdr = 8%nat -> cp_shape ss (zlen (hdr ++ z))).
  { intros hdr Hh. right. unfold ss. cbn [p_valid p_seg p_member p_off p_kind p_size].
    split; [reflexivity|]. split; [reflexivity|]. split; [reflexivity|]. split; [reflexivity|].
    split; [rewrite zlen_app; unfold zlen; lia| unfold os_wf; cbn [DataSize PointerCount]; lia]. }
  (* SetRoot, twice *)
  set (w := ptr_word ss 0) in *.
  unfold set_root, set_root_gen in H. cbn [w_dst dstw seg0 bm_segs bs_data] in H.
  assert (RB : forall hdr, length hdr = 8%nat -> regionInBounds (hdr ++ z) 0 8 = true).
  { intros hdr Hh. unfold regionInBounds, addSize, maxSegmentSize. cbn [Z.add]. change (8 >? 4294967288) with false. cbv iota.
    rewrite zlen_app. unfold zlen. lia. }
  rewrite (RB (repeat 0 8%nat) eq_refl) in H. cbn [negb] in H.
  change (mkW (mkBM ASingle [mkBS (repeat 0 8%nat ++ z) cap1] [] 0) m rl) with (dstw (repeat 0 8%nat ++ z) cap1 m rl) in H.
  rewrite (write_ptr_seg0 3) in H; try lia; try (apply Hshape; reflexivity).
  fold w in H. rewrite (put_word_head (repeat 0 8%nat) z w eq_refl) in H. cbn [of_res kbind] in H.
  cbn [w_dst dstw seg0 bm_segs bs_data] in H.
  rewrite (RB (le_encode 8 w) (le_encode_length 8 w)) in H. cbn [negb] in H.
  change (mkW (mkBM ASingle [mkBS (le_encode 8 w ++ z) cap1] [] 0) m rl) with (dstw (le_encode 8 w ++ z) cap1 m rl) in H.
  assert (L2 : zlen (le_encode 8 w ++ z) = 8 + 8 * k + 8 * j) by (rewrite zlen_app; unfold zlen; rewrite Lz, le_encode_length; lia).
  rewrite (write_ptr_seg0 3) in H; try lia; try (apply Hshape; apply le_encode_length).
  fold w in H. rewrite (put_word_head (le_encode 8 w) z w (le_encode_length 8 w)) in H. cbn [of_res kbind] in H.
  (* fill *)
  destruct (fill_canonical c fx fuel (dstw (le_encode 8 w ++ z) cap1 m rl) ss s) as [w2| | |] eqn:Ef; try discriminate H.
  inversion H; subst bs rl'; clear H.
  destruct (Q_all fuel) as (_ & HF & _).
  assert (Hinv1 : hinv (le_encode 8 w ++ z)) by (split; lia).
  assert (Hdst : dst_at ss 8 k j) by (unfold dst_at, ss; cbn; repeat split; reflexivity).
  destruct (HF _ cap1 rl ss s ws vs 8 k j w2 Hinv1 Hdst ltac:(lia) eq_refl ltac:(lia) Hj0 ltac:(lia)
               Hv Hk Hwf Hal D ltac:(unfold k, zlen in *; lia) ltac:(unfold j, zlen in *; lia) Ef)
    as (pwords & kids & cap2 & rl2 & Lp & -> & Hinv2 & Hcells).
  cbn [w_dst dstw]. change (get_seg (seg0 ?x cap2) 0) with (mkBS x cap2).
  set (dws := firstn (Z.to_nat k) ws) in *.
  assert (Edws : dws = strip0 ws) by (unfold dws, k, zlen; rewrite Nat2Z.id; symmetry; apply strip0_firstn).
  assert (Lblock : length (dws ++ pwords) = Z.to_nat (k + j)) by (rewrite app_length, Edws; unfold k, zlen in *; lia).
  assert (Edata : set_slots (le_encode 8 w ++ z) 8 (dws ++ pwords) = le_encode 8 w ++ bytes_of_words (dws ++ pwords)).
  { unfold z. replace (Z.to_nat (8 * k + 8 * j)) with (8 * length (dws ++ pwords))%nat by lia.
    exact (set_slots_end (le_encode 8 w) (dws ++ pwords)). }
  (* the specification *)
  unfold canon, canon_words.
  pose proof (enc_struct_assemble ws vs pwords kids 0 1 (S (vdepth (norm (VStruct ws vs)))) ltac:(fold k; lia) ltac:(fold j; lia)
                Lp ltac:(lia) ltac:(lia)) as Henc.
  fold k j in Henc. rewrite Henc.
  2:{ intros F' HF'. specialize (Hcells F' HF'). replace (8 / 8 + k) with (1 + k) in Hcells by lia.
      rewrite L2 in Hcells. replace ((8 + 8 * k + 8 * j) / 8) with (1 + k + j) in Hcells by lia. exact Hcells. }
  cbn [cbind fst snd]. f_equal.
  change (bs_data (get_seg (seg0 (set_slots (le_encode 8 w ++ z) 8 (dws ++ pwords) ++ bytes_of_words kids) cap2) 0))
    with (set_slots (le_encode 8 w ++ z) 8 (dws ++ pwords) ++ bytes_of_words kids).
  rewrite Edata, Edws. cbn [bs_data].
  change (bytes_of_words (?x :: ?r)) with (le_encode 8 x ++ bytes_of_words r).
  rewrite (bow_app (strip0 ws ++ pwords) kids), <- app_assoc. f_equal. f_equal.
  unfold w, ss. rewrite ptr_word_new_struct. reflexivity.
Qed.

End Top.

(* [T2]: whenever Canonicalize (all repairs applied, strict reader, well-formed source struct)
   returns bytes, they are the specification's canonical form of the value the struct denotes.
   Every value: structs, void / bit / primitive / pointer / struct lists, any depth and layout. *)
Theorem canon_m_correct : forall fuel c fx m rl s v bs rl',
  all_cfixed fx -> cfg_strict c = true -> msg_ok m -> wf_ptr m s ->
  (p_valid s = true -> p_kind s = KStruct /\ DataSize (p_size s) mod 8 = 0) ->
  den true m 0 [] s v ->
  canonicalize c fx fuel m rl s = (KOk bs, rl') -> canon v = Some bs.
Proof. intros fuel c fx m rl s v bs rl' Hf Hs M W K D C. exact (canon_m_all c fx m Hs Hf M fuel rl s v bs rl' W K D C). Qed.

(* all outcomes = CanonMProofs.canon_m_correct_statement (with a non-negative traversal budget):
   bytes are the canonical form; no panic (CanonSafe.canonicalize_safe); errors unconstrained *)
Theorem canon_m_correct_full : forall fuel c fx m rl s v,
  all_cfixed fx -> cfg_strict c = true -> msg_ok m -> wf_ptr m s ->
  (p_valid s = true -> p_kind s = KStruct /\ DataSize (p_size s) mod 8 = 0) ->
  den true m 0 [] s v -> 0 <= rl ->
  forall r rl', canonicalize c fx fuel m rl s = (r, rl') ->
  match r with
  | KOk bs => canon v = Some bs
  | KErr => True
  | KPanic => False
  | KFuel => True
  end.
Proof.
  intros fuel c fx m rl s v Hf Hs M W K D Hrl r rl' C. destruct r as [bs| | |]; try exact I.
  - eapply canon_m_correct; eassumption.
  - destruct (canonicalize_safe c fx fuel m rl s Hs (proj1 Hf) M (conj W (fun Hv => proj1 (K Hv))) Hrl) as [NP _].
    rewrite C in NP. apply NP. reflexivity.
Qed.

(* capabilities: a value containing a capability has no canonical form (canon_cap_none) and
   Canonicalize never returns bytes for it -- the outcome is the error (or fuel exhaustion, the
   excluded outcome), never bytes and never a panic.  Conversely bytes are returned only for
   capability-free values. *)
Theorem canon_m_cap_error : forall fuel c fx m rl s v,
  all_cfixed fx -> cfg_strict c = true -> msg_ok m -> wf_ptr m s ->
  (p_valid s = true -> p_kind s = KStruct /\ DataSize (p_size s) mod 8 = 0) ->
  den true m 0 [] s v -> 0 <= rl -> has_cap (norm v) = true ->
  forall r rl', canonicalize c fx fuel m rl s = (r, rl') -> r = KErr \/ r = KFuel.
Proof.
  intros fuel c fx m rl s v Hf Hs M W K D Hrl Hc r rl' C.
  pose proof (canon_m_correct_full fuel c fx m rl s v Hf Hs M W K D Hrl r rl' C) as T.
  destruct r as [bs| | |]; [|left; reflexivity|destruct T|right; reflexivity].
  rewrite (canon_cap_none v Hc) in T. discriminate T.
Qed.

Theorem canon_m_bytes_nocap : forall fuel c fx m rl s v bs rl',
  all_cfixed fx -> cfg_strict c = true -> msg_ok m -> wf_ptr m s ->
  (p_valid s = true -> p_kind s = KStruct /\ DataSize (p_size s) mod 8 = 0) ->
  den true m 0 [] s v ->
  canonicalize c fx fuel m rl s = (KOk bs, rl') -> has_cap (norm v) = false.
Proof.
  intros fuel c fx m rl s v bs rl' Hf Hs M W K D C.
  pose proof (canon_m_correct fuel c fx m rl s v bs rl' Hf Hs M W K D C) as E.
  destruct (has_cap (norm v)) eqn:Hc; [|reflexivity]. rewrite (canon_cap_none v Hc) in E. discriminate E.
Qed.

(* consequences for Canonicalize itself.  Premises as stated: nocap / good v are hypotheses about the
   denoted value (not derived from den), value preservation is w.r.t. the specification's strict
   decoder cdecode (not the library reader), the third needs the read-back value as a hypothesis *)
Theorem canon_m_layout_independent : forall fuel c fx m1 rl1 s1 v1 m2 rl2 s2 v2 bs1 bs2 r1 r2,
  all_cfixed fx -> cfg_strict c = true -> msg_ok m1 -> msg_ok m2 -> wf_ptr m1 s1 -> wf_ptr m2 s2 ->
  (p_valid s1 = true -> p_kind s1 = KStruct /\ DataSize (p_size s1) mod 8 = 0) ->
  (p_valid s2 = true -> p_kind s2 = KStruct /\ DataSize (p_size s2) mod 8 = 0) ->
  den true m1 0 [] s1 v1 -> den true m2 0 [] s2 v2 ->
  nocap v1 = true -> value_eqs v1 v2 = true ->
  canonicalize c fx fuel m1 rl1 s1 = (KOk bs1, r1) -> canonicalize c fx fuel m2 rl2 s2 = (KOk bs2, r2) ->
  bs1 = bs2.
Proof.
  intros fuel c fx m1 rl1 s1 v1 m2 rl2 s2 v2 bs1 bs2 r1 r2 Hf Hs M1 M2 W1 W2 K1 K2 D1 D2 Hc He C1 C2.
  pose proof (canon_m_correct fuel c fx m1 rl1 s1 v1 bs1 r1 Hf Hs M1 W1 K1 D1 C1) as E1.
  pose proof (canon_m_correct fuel c fx m2 rl2 s2 v2 bs2 r2 Hf Hs M2 W2 K2 D2 C2) as E2.
  rewrite (canon_unique v1 v2 Hc He) in E1. congruence.
Qed.

Theorem canon_m_value_preserved : forall fuel c fx m rl s v bs r,
  all_cfixed fx -> cfg_strict c = true -> msg_ok m -> wf_ptr m s ->
  (p_valid s = true -> p_kind s = KStruct /\ DataSize (p_size s) mod 8 = 0) ->
  den true m 0 [] s v -> good v ->
  canonicalize c fx fuel m rl s = (KOk bs, r) ->
  exists v', cdecode (S (vdepth (norm v))) bs = Some v' /\ value_eqs v' v = true /\ value_eq v' v = true.
Proof.
  intros fuel c fx m rl s v bs r Hf Hs M W K D G C.
  pose proof (canon_m_correct fuel c fx m rl s v bs r Hf Hs M W K D C) as E.
  apply canon_decodes_equal; assumption.
Qed.

(* NOT idempotence of Canonicalize by itself: [m'], [s'], [v'] are hypotheses -- a second message whose
   struct denotes a value value_eqs to v (what reading the output back would give IF the reader model
   denotes the canonical bytes as a value value_eqs to v: that link, cdecode/cparse vs den on the output
   bytes, is not proved; the run checks it on every case, flags R and I) *)
Theorem canon_m_idempotent_given_readback : forall fuel c fx m rl s v bs r m' rl' s' v' bs' r',
  all_cfixed fx -> cfg_strict c = true -> msg_ok m -> msg_ok m' -> wf_ptr m s -> wf_ptr m' s' ->
  (p_valid s = true -> p_kind s = KStruct /\ DataSize (p_size s) mod 8 = 0) ->
  (p_valid s' = true -> p_kind s' = KStruct /\ DataSize (p_size s') mod 8 = 0) ->
  den true m 0 [] s v -> nocap v = true ->
  canonicalize c fx fuel m rl s = (KOk bs, r) ->
  den true m' 0 [] s' v' -> value_eqs v v' = true ->      (* m' = the output, read back *)
  canonicalize c fx fuel m' rl' s' = (KOk bs', r') ->
  bs' = bs.
Proof.
  intros fuel c fx m rl s v bs r m' rl' s' v' bs' r' Hf Hs M M' W W' K K' D Hc C D' He C'.
  symmetry. eapply (canon_m_layout_independent fuel c fx m rl s v m' rl' s' v'); eassumption.
Qed.

(* a root struct (data word 7) with a byte list "abc", a pointer list holding one struct, a bit
   list (3 bits, dirty padding 0xfd) and a struct list of two elements (7, 0) with one data word:
   every hypothesis of canon_m_correct holds, Canonicalize returns bytes, and they are canon of
   the denoted value (computed independently) *)
Definition msg_ex : segs :=
  [wbytes [struct_word 0 1 4; 7; list_word 3 2 3; list_word 3 6 1; list_word 4 1 3; list_word 4 7 2;
           6513249; struct_word 0 1 0; 5; 253; struct_word 2 1 0; 7; 0]].
Definition root_ex : Ptr :=
  match fst (readPtr true msg_ex 1000000 0 (nth 0 msg_ex []) 0 64) with Ok q => q | _ => nullPtr end.

Example canon_m_nonvacuous :
  all_cfixed repaired /\ cfg_strict cfg0 = true /\ p_valid root_ex = true /\ p_kind root_ex = KStruct /\
  DataSize (p_size root_ex) mod 8 = 0 /\
  exists v bs rl', den true msg_ex 0 [] root_ex v /\ v <> VNull /\
                   canonicalize cfg0 repaired 20 msg_ex 1000000 root_ex = (KOk bs, rl') /\ canon v = Some bs.
Proof.
  split; [repeat split; reflexivity|]. split; [reflexivity|]. split; [reflexivity|]. split; [reflexivity|]. split; [reflexivity|].
  eexists. eexists. eexists.
  split; [apply (vdec_den 10 1000000); vm_compute; reflexivity|].
  split; [discriminate|]. split; vm_compute; reflexivity.
Qed.

(* a capability in the value: the error outcome *)
Definition msg_cap : segs := [wbytes [struct_word 0 0 1; 3]].
Definition root_cap : Ptr :=
  match fst (readPtr true msg_cap 1000000 0 (nth 0 msg_cap []) 0 64) with Ok q => q | _ => nullPtr end.
Example canon_m_cap_nonvacuous :
  exists v, den true msg_cap 0 [] root_cap v /\ has_cap (norm v) = true /\
            fst (canonicalize cfg0 repaired 20 msg_cap 1000000 root_cap) = KErr.
Proof.
  eexists. split; [apply (vdec_den 10 1000000); vm_compute; reflexivity|]. split; vm_compute; reflexivity.
Qed.

(* PREMISE of every theorem above: the struct handed to Canonicalize has a data section of whole
   words ([DataSize (p_size s) mod 8 = 0]).  That holds for every struct the reader hands out
   (readPtr_aligned) and for struct-list elements, but NOT for [List.Struct(i)] of a 1-, 2- or
   4-byte list.  For those the code as found was WRONG (the empty struct came out); the repair
   (repo commit 77e7d43) is modelled by [canonicalize2 true].  On the premise the two agree: *)
Lemma css_sub_aligned b m s sz : DataSize (p_size s) mod 8 = 0 -> css_sub b m s sz = Ok sz.
Proof.
  intros H. unfold css_sub. cbv zeta. rewrite H. change (0 =? 0) with true. cbn [negb]. rewrite !Bool.andb_false_r. reflexivity.
Qed.

Theorem canonicalize2_aligned : forall c fx b fuel m rl s,
  (p_valid s = true -> DataSize (p_size s) mod 8 = 0) ->
  canonicalize2 c fx b fuel m rl s = canonicalize c fx fuel m rl s.
Proof.
  intros c fx b fuel m rl s H. unfold canonicalize2, canonicalize.
  destruct (new_message ASingle [] 0) as [m0| |]; try reflexivity.
  destruct (p_valid s) eqn:Hv; cbn [negb]; [|reflexivity]. specialize (H eq_refl).
  destruct (canonicalStructSize (cx_farnull fx) (cfg_strict c) m s) as [sz0| |]; cbn [bind]; try reflexivity.
  rewrite (css_sub_aligned b m s sz0 H). reflexivity.
Qed.

(* hence [T2] for the repaired Canonicalize, same premise *)
Theorem canon_m_correct2 : forall fuel c fx m rl s v bs rl',
  all_cfixed fx -> cfg_strict c = true -> msg_ok m -> wf_ptr m s ->
  (p_valid s = true -> p_kind s = KStruct /\ DataSize (p_size s) mod 8 = 0) ->
  den true m 0 [] s v ->
  canonicalize2 c fx true fuel m rl s = (KOk bs, rl') -> canon v = Some bs.
Proof.
  intros fuel c fx m rl s v bs rl' Hf Hs M W K D C.
  rewrite canonicalize2_aligned in C by (intros Hv; exact (proj2 (K Hv))).
  eapply canon_m_correct; eassumption.
Qed.

(* outside the premise: element 1 (value 6) of the byte list [5;6;7], and element 0 of the
   2-byte list [0x0807] and of the 4-byte list [0xdeadbeef], as the struct to canonicalise.
   As found the empty struct comes out (not the canonical form of the denoted value: REFUTED);
   repaired, the bytes are canon of the denoted value. *)
Definition msg_sub : segs :=
  [wbytes [struct_word 0 0 3; list_word 2 2 3; list_word 2 3 1; list_word 2 4 1; 460037; 2055; 3735928559]].
Definition member_sub (i j : Z) : Ptr :=
  match fst (select_member cfg0 msg_sub 1000000 i j) with Ok q => q | _ => nullPtr end.

Example canon_subword_refuted :
  forall i j, (i, j) = (0, 1) \/ (i, j) = (1, 0) \/ (i, j) = (2, 0) ->
  let e := member_sub i j in
  wf_ptr msg_sub e /\ p_valid e = true /\ p_kind e = KStruct /\ DataSize (p_size e) mod 8 <> 0 /\
  exists v bs, den true msg_sub 0 [] e v /\ canon v = Some bs /\
    fst (canonicalize2 cfg0 repaired false 20 msg_sub 1000000 e) = KOk [252; 255; 255; 255; 0; 0; 0; 0] /\
    bs <> [252; 255; 255; 255; 0; 0; 0; 0] /\
    fst (canonicalize2 cfg0 repaired true 20 msg_sub 1000000 e) = KOk bs.
Proof.
  intros i j [E|[E|E]]; inversion E; subst; cbv zeta.
  all: split; [intros _; vm_compute; repeat split; discriminate|].
  all: split; [reflexivity|]. all: split; [reflexivity|]. all: split; [vm_compute; discriminate|].
  all: eexists; eexists.
  all: split; [apply (vdec_den 10 1000000); vm_compute; reflexivity|].
  all: split; [vm_compute; reflexivity|]. all: split; [vm_compute; reflexivity|].
  all: split; [vm_compute; discriminate|]. all: vm_compute; reflexivity.
Qed.
