(* Spec-level theorems about the canonical form (C18 [T1]), part 1: the truncation stage.
     norm_unique   equal values (schema-level equality) have ONE normal form
     norm_veq      the normal form is equal to the value
     norm_idem     normalising twice changes nothing
   and their consequences for [canon]. *)
From CV Require Import Value.ValueEq Value.ValueEqProofs Value.CanonSpec Core.BuilderFacts.
Open Scope Z_scope.

Lemma is_null_norm : forall v, is_null (norm v) = is_null v.
Proof. destruct v; try reflexivity. destruct k; reflexivity. Qed.

Lemma is_null_eq : forall v, is_null v = true -> v = VNull.
Proof. destruct v; cbn; intros H; try discriminate; reflexivity. Qed.

Lemma veq_null_l : forall u y, veq u VNull y = is_null y.
Proof. destruct y; reflexivity. Qed.

Lemma forallb_repeat {A} (f : A -> bool) x k : f x = true -> forallb f (repeat x k) = true.
Proof. intros H. induction k; cbn; [reflexivity|]. rewrite H. exact IHk. Qed.

Lemma forallb_hd {A} (f : A -> bool) z l : f z = true -> forallb f l = true -> f (hd z l) = true.
Proof. intros Hz H. destruct l; [exact Hz|]. cbn in H. apply andb_prop in H. apply H. Qed.

Lemma map_fix {A} (f : A -> A) l : (forall x, In x l -> f x = x) -> map f l = l.
Proof. intros H. rewrite <- (map_id l) at 2. apply map_ext_in. exact H. Qed.

(* ------------------------------------------------------------------ strip0 / stripN, pad0 / padN *)
(* Truncation and padding are one function each, at (fun x => x =? 0, 0) and at (is_null, VNull):
   [strip0] and [strip (fun x => x =? 0)], [stripN] and [strip is_null], [pad0] and [pad 0],
   [padN] and [pad VNull] are convertible, so a fact of this section applies to them as it stands. *)
Section Strip.
  Context {A : Type} (isz : A -> bool) (z : A).

  Fixpoint strip (l : list A) : list A :=
    match l with
    | [] => []
    | x :: r => match strip r with
                | [] => if isz x then [] else [x]
                | r' => x :: r'
                end
    end.

  Lemma strip_all l : forallb isz l = true -> strip l = [].
  Proof.
    induction l as [|x r IH]; cbn; intros H; [reflexivity|].
    apply andb_prop in H. destruct H as [H1 H2]. rewrite (IH H2), H1. reflexivity.
  Qed.

  Lemma In_strip x l : In x (strip l) -> In x l.
  Proof.
    induction l as [|y r IH]; [intros []|]. cbn [strip]. destruct (strip r).
    - destruct (isz y); [intros []|]. intros [<-|[]]. left. reflexivity.
    - intros [<-|H]; [left; reflexivity| right; apply IH; assumption].
  Qed.

  Lemma strip_idem l : strip (strip l) = strip l.
  Proof.
    induction l as [|x r IH]; [reflexivity|]. cbn [strip]. destruct (strip r) as [|y s].
    - destruct (isz x) eqn:E; cbn; [|rewrite E]; reflexivity.
    - change (strip (x :: y :: s)) with (match strip (y :: s) with [] => if isz x then [] else [x] | r' => x :: r' end).
      rewrite IH. reflexivity.
  Qed.

  Lemma strip_app_z l k : isz z = true -> strip (l ++ repeat z k) = strip l.
  Proof.
    intros Hz. induction l as [|x r IH]; cbn [app strip].
    - apply strip_all, forallb_repeat, Hz.
    - rewrite IH. reflexivity.
  Qed.

  (* the first field survives truncation, as a value *)
  Lemma hd_strip l : (forall x, isz x = true -> x = z) -> hd z (strip l) = hd z l.
  Proof.
    intros Hz. destruct l as [|x r]; [reflexivity|]. cbn [strip]. destruct (strip r); [|reflexivity].
    destruct (isz x) eqn:E; [|reflexivity]. symmetry. exact (Hz x E).
  Qed.

End Strip.

Section Pad.
  Context {A : Type} (z : A).

  Definition pad (n : nat) (l : list A) : list A := l ++ repeat z (n - length l).

  Lemma pad_id n l : length l = n -> pad n l = l.
  Proof. intros <-. unfold pad. rewrite Nat.sub_diag. apply app_nil_r. Qed.

  Lemma pad_length n l : (length l <= n)%nat -> length (pad n l) = n.
  Proof. intros H. unfold pad. rewrite app_length, repeat_length. lia. Qed.

  Lemma forallb_pad (f : A -> bool) n l : f z = true -> forallb f l = true -> forallb f (pad n l) = true.
  Proof. intros Hz H. unfold pad. rewrite forallb_app, H. apply forallb_repeat, Hz. Qed.
End Pad.

Lemma pad0_id n l : length l = n -> pad0 n l = l.
Proof. exact (pad_id 0 n l). Qed.
Lemma padN_id n l : length l = n -> padN n l = l.
Proof. exact (pad_id VNull n l). Qed.
Lemma pad0_length n l : (length l <= n)%nat -> length (pad0 n l) = n.
Proof. exact (pad_length 0 n l). Qed.
Lemma padN_length n l : (length l <= n)%nat -> length (padN n l) = n.
Proof. exact (pad_length VNull n l). Qed.
Lemma forallb_pad0 (f : Z -> bool) n l : f 0 = true -> forallb f l = true -> forallb f (pad0 n l) = true.
Proof. exact (forallb_pad 0 f n l). Qed.
Lemma forallb_padN (f : value -> bool) n l : f VNull = true -> forallb f l = true -> forallb f (padN n l) = true.
Proof. exact (forallb_pad VNull f n l). Qed.

Lemma hd_word_strip0 d : hd_word (strip0 d) = hd_word d.
Proof. exact (hd_strip (fun x => x =? 0) 0 d (fun x => proj1 (Z.eqb_eq x 0))). Qed.

Lemma hd_ptr_stripN ps : hd_ptr (stripN ps) = hd_ptr ps.
Proof. exact (hd_strip is_null VNull ps is_null_eq). Qed.

Lemma strip0_app_zeros l k : strip0 (l ++ repeat 0 k) = strip0 l.
Proof. exact (strip_app_z (fun x => x =? 0) 0 l k eq_refl). Qed.

Lemma stripN_app_nulls l k : stripN (l ++ repeat VNull k) = stripN l.
Proof. exact (strip_app_z is_null VNull l k eq_refl). Qed.

Lemma forallb_hd_word (f : Z -> bool) d : f 0 = true -> forallb f d = true -> f (hd_word d) = true.
Proof. exact (forallb_hd f 0 d). Qed.

Lemma forallb_hd_ptr (f : value -> bool) ps : f VNull = true -> forallb f ps = true -> f (hd_ptr ps) = true.
Proof. exact (forallb_hd f VNull ps). Qed.

Lemma hd_word_strip1 : forall v, hd_word (strip0 [v]) = v.
Proof. intros v. apply (hd_word_strip0 [v]). Qed.

Lemma all_zero_cons : forall x r, all_zero (x :: r) = (0 =? x) && all_zero r.
Proof. reflexivity. Qed.

Lemma strip0_all_zero : forall l, all_zero l = true -> strip0 l = [].
Proof.
  intros l H. apply (strip_all (fun x => x =? 0)). unfold all_zero in H. rewrite forallb_forall in *.
  intros x Hx. rewrite Z.eqb_sym. exact (H x Hx).
Qed.

Lemma data_eq_strip0 : forall a b, data_eq a b = true -> strip0 a = strip0 b.
Proof.
  induction a as [|x r IH]; intros b H.
  - cbn [data_eq] in H. rewrite (strip0_all_zero _ H). reflexivity.
  - destruct b as [|y s].
    + cbn [data_eq] in H. rewrite (strip0_all_zero (x :: r) H). reflexivity.
    + cbn [data_eq] in H. apply andb_prop in H. destruct H as [H1 H2].
      apply Z.eqb_eq in H1. subst y. cbn [strip0]. rewrite (IH s H2). reflexivity.
Qed.

Lemma stripN_all_null : forall l, forallb is_null l = true -> stripN (map norm l) = [].
Proof.
  intros l H. apply (strip_all is_null). rewrite forallb_forall in *.
  intros y Hy. apply in_map_iff in Hy. destruct Hy as (x & <- & Hx). rewrite is_null_norm. exact (H x Hx).
Qed.

Definition uniq_at (x : value) : Prop :=
  forall b, nocap x = true -> veq false x b = true -> norm x = norm b.

Lemma ptrs_eq_stripN : forall p1, Forall uniq_at p1 -> forallb nocap p1 = true ->
  forall p2, ptrs_eq false p1 p2 = true -> stripN (map norm p1) = stripN (map norm p2).
Proof.
  induction 1 as [|x r Hx Hr IH]; intros Hc p2 Hp.
  - cbn in Hp. rewrite (stripN_all_null _ Hp). reflexivity.
  - cbn in Hc. apply andb_prop in Hc. destruct Hc as [Hcx Hcr].
    destruct p2 as [|y s]; cbn in Hp; apply andb_prop in Hp; destruct Hp as [H1 H2].
    + rewrite ptrs_eq_nil_r in H2. cbn [map stripN].
      rewrite (stripN_all_null r H2), is_null_norm, H1. reflexivity.
    + cbn [map stripN]. rewrite (Hx _ Hcx H1), (IH Hcr _ H2). reflexivity.
Qed.

Lemma elems_eq_map_norm : forall e1, Forall uniq_at e1 -> forallb nocap e1 = true ->
  forall e2, elems_eq false e1 e2 = true -> map norm e1 = map norm e2.
Proof.
  induction 1 as [|x r Hx Hr IH]; intros Hc e2 He.
  - destruct e2; [reflexivity|discriminate].
  - cbn in Hc. apply andb_prop in Hc. destruct Hc as [Hcx Hcr].
    destruct e2 as [|y s]; cbn in He; [discriminate|].
    apply andb_prop in He. destruct He as [H1 H2].
    cbn. rewrite (Hx _ Hcx H1), (IH Hcr _ H2). reflexivity.
Qed.

(* ------------------------------------------------------------------ one normal form *)
Theorem norm_unique : forall a b, nocap a = true -> veq false a b = true -> norm a = norm b.
Proof.
  induction a using value_ind2; intros b Hc Hab; destruct b; try discriminate.
  - reflexivity.
  - rewrite veq_struct in Hab. apply andb_prop in Hab. destruct Hab as [Hd Hp].
    cbn [norm]. f_equal.
    + apply data_eq_strip0. exact Hd.
    + apply ptrs_eq_stripN; [exact H| exact Hc | exact Hp].
  - rewrite veq_list in Hab. apply andb_prop in Hab. destruct Hab as [Hk He].
    unfold kinds_compat in Hk. cbn in Hk. rewrite orb_false_r in Hk.
    apply lkind_eqb_eq in Hk. subst k0.
    cbn [norm]. rewrite (elems_eq_map_norm es H Hc _ He). reflexivity.
  - cbn in Hab. apply bools_eqb_eq in Hab. subst. reflexivity.
Qed.

(* ------------------------------------------------------------------ the normal form is equal *)
Lemma data_eq_cons : forall x r y s, data_eq (x :: r) (y :: s) = (x =? y) && data_eq r s.
Proof. reflexivity. Qed.

(* truncating one side does not change the comparison *)
Lemma data_eq_strip0_l : forall a b, data_eq (strip0 a) b = data_eq a b.
Proof.
  induction a as [|x r IH]; intros b; [reflexivity|]. cbn [strip0].
  destruct b as [|y s]; [specialize (IH []) | specialize (IH s)]; destruct (strip0 r) as [|z l].
  - rewrite !all_zero_data_eq_nil in *. rewrite all_zero_cons, <- IH, (Z.eqb_sym x 0).
    destruct (0 =? x) eqn:E; cbn [all_zero forallb]; rewrite ?E; reflexivity.
  - rewrite !all_zero_data_eq_nil in *. exact (f_equal (andb (0 =? x)) IH).
  - rewrite data_eq_cons, <- IH. destruct (x =? 0) eqn:E; [|reflexivity].
    apply Z.eqb_eq in E. subst x. reflexivity.
  - rewrite !data_eq_cons, IH. reflexivity.
Qed.

Lemma data_eq_strip0_self : forall d, data_eq (strip0 d) d = true.
Proof. intros d. rewrite data_eq_strip0_l. apply data_eq_refl. Qed.

Lemma data_eq_app_zeros : forall l k d, data_eq (l ++ repeat 0 k) d = data_eq l d.
Proof. intros l k d. rewrite <- data_eq_strip0_l, strip0_app_zeros. apply data_eq_strip0_l. Qed.

Lemma ptrs_eq_stripN_l : forall u a b, ptrs_eq u (stripN a) b = ptrs_eq u a b.
Proof.
  induction a as [|x r IH]; intros b; [reflexivity|]. cbn [stripN].
  destruct b as [|y s]; [specialize (IH []) | specialize (IH s)]; destruct (stripN r) as [|z l].
  - cbn [ptrs_eq]. rewrite <- IH. destruct (is_null x) eqn:E; cbn [ptrs_eq]; rewrite ?E; reflexivity.
  - exact (f_equal (andb (is_null x)) IH).
  - cbn [ptrs_eq]. rewrite <- IH. destruct (is_null x) eqn:E; [|reflexivity].
    apply is_null_eq in E. subst x. rewrite veq_null_l. reflexivity.
  - exact (f_equal (andb (veq u x y)) IH).
Qed.

Lemma ptrs_eq_app_nulls : forall u l k d, ptrs_eq u (l ++ repeat VNull k) d = ptrs_eq u l d.
Proof. intros u l k d. rewrite <- ptrs_eq_stripN_l, stripN_app_nulls. apply ptrs_eq_stripN_l. Qed.

Definition same_at (p : value) : Prop := wfv p = true -> veq false (norm p) p = true.

Lemma ptrs_eq_stripN_self : forall ps, Forall same_at ps -> forallb wfv ps = true ->
  ptrs_eq false (stripN (map norm ps)) ps = true.
Proof.
  intros ps H Hw. rewrite ptrs_eq_stripN_l. induction H as [|x r Hx Hr IH]; [reflexivity|].
  cbn in Hw. apply andb_prop in Hw. destruct Hw as [Hwx Hwr]. cbn. rewrite (Hx Hwx). exact (IH Hwr).
Qed.

Lemma elems_eq_map : forall (f : value -> value) es,
  (forall e, In e es -> veq false (f (norm e)) e = true) ->
  elems_eq false (map f (map norm es)) es = true.
Proof.
  induction es as [|x r IH]; intros H; [reflexivity|].
  cbn. rewrite (H x (or_introl eq_refl)). cbn. apply IH. intros e He. apply H. right. exact He.
Qed.

Theorem norm_veq : forall v, wfv v = true -> veq false (norm v) v = true.
Proof.
  induction v using value_ind2; intros Hw; try reflexivity.
  - apply cap_eq_refl.
  - cbn [norm]. rewrite veq_struct, data_eq_strip0_self. cbn.
    apply ptrs_eq_stripN_self; [exact H | exact Hw].
  - cbn [wfv] in Hw. rewrite forallb_forall in Hw. rewrite Forall_forall in H.
    (* element by element; [wfv] says which struct view the element has *)
    destruct k; cbn [norm]; unfold pad_elems; rewrite veq_list; unfold kinds_compat; cbn [lkind_eqb orb andb];
      apply elems_eq_map; intros e He; specialize (Hw e He); specialize (H e He);
      destruct e as [| |d ps| |]; try discriminate.
    2-5: (* the primitive widths *)
      destruct d as [|v [|]]; try discriminate; destruct ps; [|discriminate];
      cbn [norm sdata map stripN]; rewrite hd_word_strip1; apply veq_refl.
    + destruct d; [|discriminate]. destruct ps; [|discriminate]. reflexivity.
    + (* pointer list *)
      destruct d; [|discriminate]. destruct ps as [|p [|]]; try discriminate.
      assert (Hwe : wfv (VStruct [] [p]) = true) by (cbn; rewrite Hw; reflexivity).
      specialize (H Hwe). cbn [norm map strip0 stripN sptrs] in *.
      destruct (is_null (norm p)) eqn:En; cbn [hd_ptr].
      * rewrite veq_struct in *. cbn in H. apply andb_prop in H. destruct H as [H _].
        apply is_null_eq in H. subst p. reflexivity.
      * exact H.
    + (* struct list *)
      specialize (H Hw). cbn [norm sdata sptrs] in *. unfold pad0, padN.
      rewrite veq_struct in *. rewrite data_eq_app_zeros, ptrs_eq_app_nulls. exact H.
  - cbn. apply bools_eqb_refl.
Qed.

(* ------------------------------------------------------------------ idempotent *)
Lemma norm_fix_sdata n : norm n = n -> strip0 (sdata n) = sdata n.
Proof. destruct n; intros E; try reflexivity. injection E. auto. Qed.

Lemma norm_fix_sptrs n : norm n = n -> stripN (map norm (sptrs n)) = sptrs n.
Proof. destruct n; intros E; try reflexivity. injection E. auto. Qed.

Lemma hd_ptr_norm ps : hd_ptr (map norm ps) = norm (hd_ptr ps).
Proof. destruct ps; reflexivity. Qed.

(* padding a normal form and normalising again gives back its struct view *)
Lemma norm_padded n dn pn : norm n = n ->
  norm (VStruct (pad0 dn (sdata n)) (padN pn (sptrs n))) = VStruct (sdata n) (sptrs n).
Proof.
  intros E. cbn [norm]. unfold pad0, padN. rewrite map_app, (map_fix norm (repeat VNull _)).
  - rewrite strip0_app_zeros, stripN_app_nulls, (norm_fix_sdata n E), (norm_fix_sptrs n E). reflexivity.
  - intros x Hx. apply repeat_spec in Hx. subst x. reflexivity.
Qed.

Lemma max_len_map {A} (f : value -> list A) (g : value -> value) es :
  (forall e, f (g e) = f e) -> max_len f (map g es) = max_len f es.
Proof. intros H. induction es as [|e r IH]; [reflexivity|]. cbn. rewrite H. f_equal. exact IH. Qed.

Theorem norm_idem : forall v, norm (norm v) = norm v.
Proof.
  induction v using value_ind2; try reflexivity.
  - cbn [norm]. f_equal; [apply (strip_idem (fun x => x =? 0))|].
    rewrite map_fix; [apply (strip_idem is_null)|]. intros y Hy. apply (In_strip is_null) in Hy.
    apply in_map_iff in Hy. destruct Hy as (p & <- & Hp). rewrite Forall_forall in H. exact (H p Hp).
  - rewrite Forall_forall in H.
    destruct k; cbn [norm]; f_equal.
    1-6: rewrite !map_map; apply map_ext_in; intros e He; specialize (H e He); cbn [norm sdata sptrs map].
    2-5: rewrite hd_word_strip1; reflexivity.
    + reflexivity.
    + rewrite hd_ptr_stripN. cbn [hd_ptr]. f_equal. f_equal.
      rewrite <- (norm_fix_sptrs _ H) at 2. rewrite hd_ptr_stripN. symmetry. apply hd_ptr_norm.
    + (* the elements are padded normal forms: normalising gives their struct views, of the same sizes *)
      set (ns := map norm es).
      assert (E : map norm (pad_elems ns) = map (fun n => VStruct (sdata n) (sptrs n)) ns).
      { unfold pad_elems, ns. rewrite !map_map. apply map_ext_in. intros e He. apply norm_padded, H, He. }
      rewrite E. unfold pad_elems. rewrite !max_len_map, map_map by reflexivity. reflexivity.
Qed.

(* ------------------------------------------------------------------ consequences for canon *)
(* layout / version independence: equal values have the same canonical bytes *)
Theorem canon_unique : forall a b, nocap a = true -> value_eqs a b = true -> canon a = canon b.
Proof.
  intros a b Hc Hab. unfold canon, canon_words. rewrite (norm_unique a b Hc Hab). reflexivity.
Qed.

Theorem canon_of_norm : forall v, canon (norm v) = canon v.
Proof. intros v. unfold canon, canon_words. rewrite norm_idem. reflexivity. Qed.

Theorem canon_norm : forall v, wfv v = true -> nocap (norm v) = true -> canon (norm v) = canon v.
Proof. intros v _ _. apply canon_of_norm. Qed.

(* the output is one word-aligned segment *)
Lemma bytes_of_words_length : forall ws, length (bytes_of_words ws) = (8 * length ws)%nat.
Proof.
  induction ws as [|w r IH]; [reflexivity|].
  unfold bytes_of_words in *. cbn [flat_map]. rewrite app_length, IH, le_encode_length. cbn [length]. lia.
Qed.

Theorem canon_aligned : forall v bs, canon v = Some bs ->
  (length bs mod 8 = 0)%nat /\ (8 <= length bs)%nat.
Proof.
  intros v bs. unfold canon. destruct (canon_words v) as [ws| | |] eqn:E; try discriminate.
  intros H. inversion H; subst. rewrite bytes_of_words_length. split.
  - rewrite Nat.mul_comm. apply Nat.mod_mul. discriminate.
  - unfold canon_words in E. destruct (enc _ _ _ _) as [[w body]| | |]; try discriminate.
    cbn in E. inversion E; subst. cbn [length]. lia.
Qed.
