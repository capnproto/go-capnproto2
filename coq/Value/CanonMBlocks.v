(* C18 [T2] / C16 [T2]: helper lemmas for struct lists (padding = keeping more of the original,
   the element size of a struct list) and the inversion of den for struct lists. *)
From CV Require Import Value.ValueEq Value.ValueEqProofs Value.EqualM Value.Den Value.DenFacts Value.DenLists
                       Value.CanonSpec Value.CanonProofs Value.CanonProofs2 Value.CanonProofs3 Value.CanonM Value.CanonMStruct
                       Value.CanonMWords Value.CanonMData Value.CanonMHeap Value.CanonMLoop Value.CanonSafe
                       Value.CanonMInd Value.CanonMBytes.
From CV Require Import Core.ReaderFacts Core.SafetyProofs Core.BuilderFacts Core.ArithFacts Core.CopySafe.
From Coq Require Import ZifyBool ZifyNat.
Ltac Zify.zify_post_hook ::= Z.div_mod_to_equations.
Open Scope Z_scope.

Lemma skipn_nth_cons {A} (l : list A) i d : (i < length l)%nat -> skipn i l = nth i l d :: skipn (S i) l.
Proof.
  revert i. induction l as [|x r IH]; intros i H; [cbn [length] in H; lia|].
  destruct i as [|i]; [reflexivity|]. cbn [skipn nth]. apply IH. cbn [length] in H. lia.
Qed.

Lemma firstn_repeat {A} (x : A) : forall k n, firstn k (repeat x n) = repeat x (Nat.min k n).
Proof. induction k; intros [|n]; cbn [firstn repeat Nat.min]; try reflexivity. rewrite IHk. reflexivity. Qed.

Lemma strip0_zeros : forall l, l = strip0 l ++ repeat 0 (length l - length (strip0 l)).
Proof.
  induction l as [|x r IH]; [reflexivity|]. cbn [strip0]. destruct (strip0 r) as [|y r'] eqn:E.
  - cbn [length app] in IH. replace (length r - 0)%nat with (length r) in IH by lia. destruct (x =? 0) eqn:Ex.
    + cbn [length app]. replace (S (length r) - 0)%nat with (S (length r)) by lia. cbn [repeat]. rewrite <- IH. f_equal. lia.
    + cbn [length app]. replace (S (length r) - 1)%nat with (length r) by lia. rewrite <- IH. reflexivity.
  - cbn [length app] in *. replace (S (length r) - S (S (length r')))%nat with (length r - S (length r'))%nat by lia.
    rewrite <- IH. reflexivity.
Qed.

Lemma stripN_nulls : forall l, l = stripN l ++ repeat VNull (length l - length (stripN l)).
Proof.
  induction l as [|x r IH]; [reflexivity|]. cbn [stripN]. destruct (stripN r) as [|y r'] eqn:E.
  - cbn [length app] in IH. replace (length r - 0)%nat with (length r) in IH by lia. destruct (is_null x) eqn:Ex.
    + cbn [length app]. replace (S (length r) - 0)%nat with (S (length r)) by lia. cbn [repeat]. rewrite <- IH. f_equal.
      apply is_null_eq. exact Ex.
    + cbn [length app]. replace (S (length r) - 1)%nat with (length r) by lia. rewrite <- IH. reflexivity.
  - cbn [length app] in *. replace (S (length r) - S (S (length r')))%nat with (length r - S (length r'))%nat by lia.
    rewrite <- IH. reflexivity.
Qed.

Lemma pad0_strip0 dn ws : (length (strip0 ws) <= dn <= length ws)%nat -> pad0 dn (strip0 ws) = firstn dn ws.
Proof.
  intros H. rewrite (strip0_zeros ws) at 2. rewrite firstn_app, firstn_all2 by lia. unfold pad0. f_equal.
  rewrite firstn_repeat. f_equal. lia.
Qed.

Lemma padN_stripN pn l : (length (stripN l) <= pn <= length l)%nat -> padN pn (stripN l) = firstn pn l.
Proof.
  intros H. rewrite (stripN_nulls l) at 2. rewrite firstn_app, firstn_all2 by lia. unfold padN. f_equal.
  rewrite firstn_repeat. f_equal. lia.
Qed.

Section ListC.
Context (m : segs) (Hm : msg_ok m).

Theorem elem_size_spec p vs :
  wf_ptr m p -> p_valid p = true -> p_kind p = KList -> p_bit p = false ->
  DataSize (p_size p) mod 8 = 0 -> zlen vs = p_len p ->
  (forall i, 0 <= i < p_len p -> den true m 0 [] (elem_ptr p i) (nthv vs i)) ->
  forall cnt i acc, 0 <= i -> i + Z.of_nat cnt = p_len p -> 0 <= DataSize acc -> 0 <= PointerCount acc ->
  elem_size true true true m p cnt i acc
  = Ok (mkOS (Z.max (DataSize acc) (8 * Z.of_nat (max_len sdata (skipn (Z.to_nat i) (map norm vs)))))
             (Z.max (PointerCount acc) (Z.of_nat (max_len sptrs (skipn (Z.to_nat i) (map norm vs)))))).
Proof.
  intros Hwf Hv Hk Hb Hal Lvs K.
  destruct (Hwf Hv) as (Hseg & Hobj). unfold wf_obj in Hobj. rewrite Hk, Hb in Hobj.
  destruct Hobj as (Ho & Hlen & Hws & Hbd).
  induction cnt as [|cnt IH]; intros i acc Hi Hn Ha1 Ha2.
  - cbn [elem_size]. rewrite skipn_all2 by (rewrite map_length; unfold zlen in *; lia).
    cbn [max_len fold_right]. destruct acc as [ad ap]. cbn [DataSize PointerCount] in *.
    f_equal. f_equal; lia.
  - cbn [elem_size].
    destruct (list_struct_den true m 0 [] p vs i Hm Hwf Hv Hk Hb ltac:(lia) (K i ltac:(lia))) as (e & El & We & Ve & Kde & Cz & De).
    rewrite El. assert (Ale : DataSize (p_size e) mod 8 = 0) by (rewrite Cz; exact Hal).
    cbn [bind].
    destruct (canonicalStructSize_spec m 0 [] e _ Hm We Ve Kde Ale De) as (ws' & vs' & Ev & Hcss).
    rewrite Hcss. cbn [bind].
    rewrite IH by (cbn [DataSize PointerCount]; unfold zlen; lia).
    cbn [DataSize PointerCount].
    rewrite (skipn_nth_cons (map norm vs) (Z.to_nat i) VNull) by (rewrite map_length; unfold zlen in *; lia).
    replace (Z.to_nat (i + 1)) with (S (Z.to_nat i)) by lia.
    change VNull with (norm VNull) at 1 2. rewrite map_nth. change (nth (Z.to_nat i) vs VNull) with (nthv vs i).
    rewrite Ev. cbn [norm max_len fold_right sdata sptrs].
    fold (max_len sdata (skipn (S (Z.to_nat i)) (map norm vs))). fold (max_len sptrs (skipn (S (Z.to_nat i)) (map norm vs))).
    rewrite stripN_map_norm_length. unfold zlen. f_equal. f_equal; lia.
Qed.

Corollary elem_size_list p vs :
  wf_ptr m p -> p_valid p = true -> p_kind p = KList -> p_bit p = false ->
  DataSize (p_size p) mod 8 = 0 -> zlen vs = p_len p ->
  (forall i, 0 <= i < p_len p -> den true m 0 [] (elem_ptr p i) (nthv vs i)) ->
  elem_size true true true m p (Z.to_nat (p_len p)) 0 (mkOS 0 0)
  = Ok (mkOS (8 * Z.of_nat (max_len sdata (map norm vs))) (Z.of_nat (max_len sptrs (map norm vs)))).
Proof.
  intros Hwf Hv Hk Hb Hal Lvs K.
  assert (Hlen : 0 <= p_len p) by (unfold zlen in Lvs; lia).
  rewrite (elem_size_spec p vs Hwf Hv Hk Hb Hal Lvs K (Z.to_nat (p_len p)) 0 (mkOS 0 0)) by (cbn [DataSize PointerCount]; lia).
  cbn [DataSize PointerCount Z.to_nat skipn]. f_equal. f_equal; lia.
Qed.

End ListC.

Lemma flat_map_map {A B C} (h : A -> B) (g : B -> list C) l : flat_map g (map h l) = flat_map (fun a => g (h a)) l.
Proof. induction l as [|x r IH]; cbn [map flat_map]; [reflexivity|]. rewrite IH. reflexivity. Qed.

Lemma flat_map_ext_in {A B} (g1 g2 : A -> list B) l : (forall a, In a l -> g1 a = g2 a) -> flat_map g1 l = flat_map g2 l.
Proof.
  induction l as [|x r IH]; intros H; cbn [flat_map]; [reflexivity|].
  rewrite (H x (or_introl eq_refl)), IH; [reflexivity|]. intros a Ha. apply H. right. exact Ha.
Qed.

Lemma map_nthv_iota vs : map (nthv vs) (iota (length vs)) = vs.
Proof.
  apply (nth_ext _ _ VNull VNull).
  - rewrite map_length, iota_length. reflexivity.
  - intros i Hi. rewrite map_length, iota_length in Hi. rewrite nth_map_iota by exact Hi.
    unfold nthv. rewrite Nat2Z.id. reflexivity.
Qed.

Lemma max_len_le {A} (f : value -> list A) es k : (forall e, In e es -> (length (f e) <= k)%nat) -> (max_len f es <= k)%nat.
Proof.
  induction es as [|e r IH]; intros H; cbn [max_len fold_right]; [lia|].
  pose proof (H e (or_introl eq_refl)). assert (max_len f r <= k)%nat by (apply IH; intros x Hx; apply H; right; exact Hx).
  unfold max_len in *. lia.
Qed.

Lemma norm_nthv_max_len {A} (f : value -> list A) vs i : f VNull = [] ->
  (length (f (norm (nthv vs i))) <= max_len f (map norm vs))%nat.
Proof.
  intros Hf. unfold nthv. destruct (Nat.lt_ge_cases (Z.to_nat i) (length vs)) as [Hlt|Hge].
  - apply length_le_max_len. apply in_map. apply nth_In. exact Hlt.
  - rewrite nth_overflow by exact Hge. cbn [norm]. rewrite Hf. cbn [length]. lia.
Qed.

Section InvC.
Context (m : segs) (Hm : msg_ok m).

Lemma den_comp_inv p vs : den true m 0 [] p (VList LComp vs) ->
  p_valid p = true /\ p_kind p = KList /\ p_bit p = false /\ p_comp p = true /\ wf_size (p_size p) /\
  zlen vs = p_len p /\ (forall i, 0 <= i < p_len p -> den true m 0 [] (elem_ptr p i) (nthv vs i)).
Proof.
  intros D. inversion D; subst.
  - split; [assumption|]. split; [assumption|]. split; [assumption|]. split; [assumption|]. split; [assumption|].
    split; assumption.
  - match goal with H : prim_width ?w |- _ => destruct H as [->|[->|[->|[->| ->]]]]; discriminate end.
Qed.

(* every element of a struct list denotes a struct with the allocated section sizes *)
Lemma comp_elem_shape p vs i :
  wf_ptr m p -> p_valid p = true -> p_kind p = KList -> p_bit p = false -> DataSize (p_size p) mod 8 = 0 ->
  0 <= i < p_len p -> den true m 0 [] (elem_ptr p i) (nthv vs i) ->
  exists ws ps, nthv vs i = VStruct ws ps /\ 8 * zlen ws = DataSize (p_size p) /\ zlen ps = PointerCount (p_size p).
Proof.
  intros Hwf Hv Hk Hb Hal Hi D.
  destruct (nthv vs i) as [| |ws ps| |] eqn:Ev; try (exfalso; inversion D; subst; cbn in *; congruence).
  destruct (den_struct_aligned m _ _ _ ws ps Hm D eq_refl eq_refl Hal) as (d & _ & _ & _ & Lws & _ & Lps & _).
  exists ws, ps. split; [reflexivity|]. split; [exact Lws|exact Lps].
Qed.

(* the truncated sizes of the elements stay within the allocated element size *)
Lemma comp_elems_max_len p vs :
  wf_ptr m p -> p_valid p = true -> p_kind p = KList -> p_bit p = false -> DataSize (p_size p) mod 8 = 0 ->
  zlen vs = p_len p -> (forall i, 0 <= i < p_len p -> den true m 0 [] (elem_ptr p i) (nthv vs i)) ->
  8 * Z.of_nat (max_len sdata (map norm vs)) <= DataSize (p_size p) /\
  Z.of_nat (max_len sptrs (map norm vs)) <= PointerCount (p_size p).
Proof.
  intros Hwf Hv Hk Hb Hal Lvs K.
  assert (forall e, In e (map norm vs) -> (length (sdata e) <= Z.to_nat (DataSize (p_size p) / 8))%nat /\
                                          (length (sptrs e) <= Z.to_nat (PointerCount (p_size p)))%nat) as H.
  { intros e He. apply in_map_iff in He. destruct He as (v & <- & Hin). destruct (In_nth _ _ VNull Hin) as (i & Hil & <-).
    assert (0 <= Z.of_nat i < p_len p) as Hi by (unfold zlen in Lvs; lia).
    destruct (comp_elem_shape p vs _ Hwf Hv Hk Hb Hal Hi (K _ Hi)) as (ws & ps & E & L1 & L2).
    unfold nthv in E. rewrite Nat2Z.id in E. rewrite E. cbn [norm sdata sptrs].
    pose proof (strip0_length_le ws). rewrite stripN_map_norm_length. pose proof (stripN_length_le ps).
    unfold zlen in *. lia. }
  pose proof (max_len_le sdata _ _ (fun e He => proj1 (H e He))). pose proof (max_len_le sptrs _ _ (fun e He => proj2 (H e He))).
  destruct (Hwf Hv) as (_ & Hobj). unfold wf_obj in Hobj. rewrite Hk, Hb in Hobj. destruct Hobj as (_ & _ & [Hd Hp] & _).
  lia.
Qed.

End InvC.
