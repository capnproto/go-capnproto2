(* C16 [T2] copy_value, consequences:
   resize_value_eq   a struct resized to section sizes not smaller than its truncated sizes is Equal
                     (value_eq) to the original -- version skew loses nothing that is not default;
   copy_then_equal   capnp.Equal(source, copy) is true for a deep copy (model equal_m, C17). *)
From CV Require Import Value.ValueEq Value.ValueEqProofs Value.EqualM Value.Den Value.DenFacts Value.DenLists
                       Value.CanonSpec Value.CanonProofs Value.CanonProofs2 Value.CanonMBlocks Value.EqualCorrect
                       Value.CanonMLoop Value.CanonMHeap Value.CanonMInd Value.CopyValue Value.CopyValueHeap Value.CopyValueDefs Value.CopyValueInd Value.VDec Value.VDecProofs Value.EqualProofs.
From CV Require Import Core.ReaderFacts Core.SafetyProofs Core.BuilderFacts Core.CopySafe.
From Coq Require Import ZifyBool ZifyNat.
Open Scope Z_scope.

Lemma data_eq_resize ws dn : (length (strip0 ws) <= dn)%nat -> data_eq (resize_words ws dn) ws = true.
Proof.
  intros H. unfold resize_words. rewrite data_eq_app_zeros.
  destruct (Nat.le_gt_cases (length ws) dn) as [Hge|Hlt].
  - rewrite firstn_all2 by lia. apply data_eq_refl.
  - rewrite <- (pad0_strip0 dn ws) by lia. unfold pad0. rewrite data_eq_app_zeros. apply data_eq_strip0_self.
Qed.

Lemma nthv_stripped ps i : Z.of_nat (length (stripN ps)) <= i -> nthv ps i = VNull.
Proof.
  intros H. unfold nthv. rewrite (stripN_nulls ps). rewrite app_nth2 by lia.
  destruct (Nat.lt_ge_cases (Z.to_nat i - length (stripN ps)) (length ps - length (stripN ps))) as [Hx|Hx];
    [apply nth_repeat| apply nth_overflow; rewrite repeat_length; exact Hx].
Qed.

Lemma ptrs_eq_resize ps pn : (length (stripN ps) <= pn)%nat -> ptrs_eq true (resize_ptrs ps pn) ps = true.
Proof.
  intros H. apply (proj2 (ptrs_eq_nth true _ _)). intros k.
  assert (E1 : nth k (resize_ptrs ps pn) VNull = nthv (resize_ptrs ps pn) (Z.of_nat k)) by (unfold nthv; rewrite Nat2Z.id; reflexivity).
  assert (E2 : nth k ps VNull = nthv ps (Z.of_nat k)) by (unfold nthv; rewrite Nat2Z.id; reflexivity).
  rewrite E1, E2. set (i := Z.of_nat k). assert (Hi : 0 <= i) by (unfold i; lia).
  destruct (Z_lt_le_dec i (Z.of_nat pn)) as [Hlt|Hge].
  - rewrite nthv_resize_ptrs by lia. destruct (i <? zlen ps) eqn:E.
    + apply (veq_refl true).
    + rewrite (nthv_over ps i) by lia. reflexivity.
  - rewrite (nthv_over (resize_ptrs ps pn) i) by (unfold zlen; rewrite resize_ptrs_length; lia).
    rewrite (nthv_stripped ps i) by lia. reflexivity.
Qed.

Theorem resize_value_eq : forall ws ps dn pn,
  (length (strip0 ws) <= dn)%nat -> (length (stripN ps) <= pn)%nat ->
  value_eq (resize (VStruct ws ps) dn pn) (VStruct ws ps) = true.
Proof.
  intros ws ps dn pn Hd Hp. cbn [resize]. unfold value_eq. rewrite veq_struct.
  rewrite data_eq_resize by exact Hd. rewrite ptrs_eq_resize by exact Hp. reflexivity.
Qed.

(* Equal(source, copy): after the deep copy of src into slot a, comparing src (in its message) with
   the pointer read back from the slot (in the destination) gives true whenever Equal returns a
   result. *)
Theorem copy_then_equal : forall m f D cap rl a src v fc w' c fx,
  msg_ok m -> hinv D -> bytes_ok D -> 0 <= a -> a mod 8 = 0 -> a + 8 <= zlen D ->
  wf_ptr m src -> aligned src -> caligned src -> ctag_ok m src -> den true m 0 [] src v -> cvdom v = true ->
  write_ptr f true (dstw D cap m rl) 0 a InSrc src fc = Ok w' ->
  cfg_strict c = true -> all_fixed fx ->
  exists D' cap' rl' q, w' = dstw D' cap' m rl' /\
    (exists dep rlx rlx', readPtr true [D'] rlx 0 D' a dep = (Ok q, rlx')) /\
    (forall fuel st b st',
       equal_m fuel c fx (mkEC m [] [D'] [] false) st src q = (EOk b, st') -> b = true).
Proof.
  intros m f D cap rl a src v fc w' c fx Hm Hi HbD Ha Ham Hab Hwf Hal Hcal Hctg D0 Hsd H Hs Hfx.
  destruct (copy_value_ptr m f D cap rl a src v fc w' Hm Hi Ha Ham Hab Hwf Hal Hcal Hctg D0 Hsd H)
    as (D' & cap' & rl' & -> & Hinv & Hbd' & (dep & rlx & q & rlx' & R & Dq)).
  exists D', cap', rl', q. split; [reflexivity|]. split; [exists dep, rlx, rlx'; exact R|].
  intros fuel st b st' E.
  assert (Hmd : msg_ok [D']).
  { constructor; [|constructor]. split; [destruct Hinv as [_ X]; unfold maxSegmentSize; exact X|apply Hbd'; exact HbD]. }
  eapply (equal_layout_independent c fx (mkEC m [] [D'] [] false) fuel st src q b st' v v Hs Hfx); try eassumption.
  - exact (Dq 1 []).
  - apply value_eq_refl.
Qed.

(* source: a struct (data word 7) with a byte list "abc", a pointer list holding one struct, a bit
   list (3 bits, byte 0xfd) and a struct list of two elements; destination: a fresh single-segment message (root word allocated).  Every
   hypothesis of copy_value_ptr holds and the copy succeeds. *)
Definition msg_cv : segs :=
  [wbytes [struct_word 0 1 4; 7; list_word 3 2 3; list_word 3 6 1; list_word 4 1 3; list_word 4 7 2;
           6513249; struct_word 0 1 0; 5; 253; struct_word 2 1 0; 7; 0]].
Definition root_cv : Ptr :=
  match fst (readPtr true msg_cv 1000000 0 (nth 0 msg_cv []) 0 64) with Ok q => q | _ => nullPtr end.

Example copy_value_nonvacuous :
  hinv (repeat 0 8%nat) /\ wf_ptr msg_cv root_cv /\ aligned root_cv /\ caligned root_cv /\ ctag_ok msg_cv root_cv /\ p_valid root_cv = true /\
  exists v w', den true msg_cv 0 [] root_cv v /\ cvdom v = true /\
               write_ptr 20 true (dstw (repeat 0 8%nat) 1024 msg_cv 1000000) 0 0 InSrc root_cv false = Ok w'.
Proof.
  split; [split; vm_compute; [reflexivity|discriminate]|].
  split.
  { intros _. vm_compute. repeat split; discriminate. }
  split; [intros _; reflexivity|]. split; [intros K; vm_compute in K; discriminate K|]. split; [intros _ K; vm_compute in K; discriminate K|]. split; [reflexivity|].
  eexists. eexists. split; [apply (vdec_den 10 1000000); vm_compute; reflexivity|].
  split; vm_compute; reflexivity.
Qed.
