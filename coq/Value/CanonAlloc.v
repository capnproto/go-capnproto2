(* C02 for capnp.Canonicalize (Value/CanonM.v): the bytes appended to the destination are bounded
   by the traversal budget consumed from the (hostile) source.  The induction that carries the
   potential is in Value/CanonSafe.v (canon_alloc_all, canonicalize_post). *)
From CV Require Import Value.CanonM Value.EqualSafe Value.CanonSafe Core.CopySafe Core.CopyAlloc Core.LimitProofs
                       Core.BuilderFacts Core.AllocProofs Core.WritePtrProofs Core.HeapProofs.
From Coq Require Import ZifyBool ZifyNat.
Open Scope Z_scope.

Lemma sumN_nonneg f n : (forall i, 0 <= f i) -> 0 <= sumN f n.
Proof. intros H. induction n; cbn [sumN]; [lia|]. specialize (H n). lia. Qed.

(* the canonical form of a hostile struct is at most
   5 x (its own size + traversal budget consumed) + 47 bytes long, and the budget only goes down.
   With C02_traversal the budget consumed is at most what is left of T: no amplification. *)
Theorem canonicalize_alloc c fx fuel src rl s bs :
  cfg_strict c = true -> cx_complist fx = true -> msg_ok src -> wf_struct src s -> p_valid s = true -> 0 <= rl ->
  fst (canonicalize c fx fuel src rl s) = KOk bs ->
  let rl' := snd (canonicalize c fx fuel src rl s) in
  0 <= rl' <= rl /\ zlen bs <= 5 * (totalSize (p_size s) + (rl - rl')) + 47.
Proof.
  intros Hc Hcl Hm Hs V Hr E. destruct (canonicalize_post c fx fuel src rl s Hc Hcl Hm Hs Hr) as [R P].
  rewrite E in P. split; [exact R|exact (P V)].
Qed.
