(* Non-vacuity examples for C19, and the variant [extract_struct false] refuted (vm_compute on
   concrete data). *)
From CV Require Import Pogs.PogsM Pogs.PogsSpec.
Open Scope Z_scope.

Definition b16 (z : Z) := bits_of_z 16 z.
Definition txt (l : list Z) := PBytes (l ++ [0]).

(* struct Ex { a @0 :UInt16 = 5; union { t @1 :Text = "foo"; n @2 :UInt32; g :group { x @3 :UInt16; l @4 :List(Ex) } } }
   mapped to a Go struct with a Which field and all fields. *)
Definition ex_schema : schema :=
  [ (1, MkNode 2 2 (Some 1) WField
        [ FSlot true None 0 (TInt 16) (DBits (b16 5));
          FSlot true (Some (b16 0)) 0 (TText false) (DPtr (txt [102; 111; 111]));
          FSlot true (Some (b16 1)) 1 (TInt 32) DAbsent;
          FGroup true (Some (b16 2)) 2 ]);
    (2, MkNode 2 2 None WNone
        [ FSlot true None 2 (TInt 16) DAbsent;
          FSlot true None 1 (TList (TStruct true 1)) (DPtr PNull) ]) ].

Example ex_schema_ok : schema_ok 4 ex_schema = true.
Proof. vm_compute. reflexivity. Qed.

Definition ex_inner : gval :=
  GStruct (Some (b16 0, [GBits (b16 7); GBytes (Some []); GBits (bits_of_z 32 99); GNone])).
Definition ex_value : gval :=
  GStruct (Some (b16 2, [GBits (b16 513); GBytes (Some [104; 105]); GBits (bits_of_z 32 1);
                         GStruct (Some ([], [GBits (b16 65535); GList (Some [ex_inner; ex_inner])]))])).

(* hypotheses of the round-trip theorem are satisfiable: insert succeeds on a conforming schema,
   and extract returns the value with the inactive members left untouched *)
Example ex_roundtrip :
  match insert_struct 8 ex_schema 1 (zero_struct 16 2) ex_value with
  | Ok s1 =>
    extract_struct true 8 ex_schema 1 s1 =
    Ok (GStruct (Some (b16 2, [GBits (b16 513); GNone; GNone;
          GStruct (Some ([], [GBits (b16 65535);
             GList (Some [GStruct (Some (b16 0, [GBits (b16 7); GBytes (Some []); GNone; GNone]));
                          GStruct (Some (b16 0, [GBits (b16 7); GBytes (Some []); GNone; GNone]))])]))])))
  | _ => False
  end.
Proof. vm_compute. reflexivity. Qed.

(* fields outside the allocated struct: Insert reports an error (isFieldInBounds), it does not panic *)
Example ex_short_struct : insert_struct 8 ex_schema 1 (zero_struct 8 1) ex_value = Err.
Proof. vm_compute. reflexivity. Qed.
Example ex_short_ok :
  (* ... and a short struct is fine as long as every live field fits *)
  match insert_struct 8 ex_schema 1 (zero_struct 8 1)
          (GStruct (Some (b16 0, [GBits (b16 1); GBytes (Some [120]); GNone; GNone]))) with
  | Ok _ => True | _ => False end.
Proof. vm_compute. exact I. Qed.

(* a layout with overlapping live fields is rejected by the check *)
Example ex_bad_schema : schema_ok 4
  [ (1, MkNode 1 0 None WNone [ FSlot true None 0 (TInt 16) DAbsent; FSlot true None 0 (TInt 8) DAbsent ]) ] = false.
Proof. vm_compute. reflexivity. Qed.

(* the code before the fix (extract_struct false): a Text field with default "foo" whose pointer slot
   holds a bit list reads "" through pogs but "foo" through the generated accessor *)
Definition ex_wrong_kind : strct :=
  Strct 16 (fun _ => false) 2 (fun j => if j =? 0 then PBits [true] else PNull).

Example extract_agrees_prefix_refuted :
  extract_struct false 8 ex_schema 1 ex_wrong_kind <> gen_struct 8 ex_schema 1 ex_wrong_kind.
Proof. vm_compute. discriminate. Qed.

Example extract_agrees_fixed_example :
  extract_struct true 8 ex_schema 1 ex_wrong_kind = gen_struct 8 ex_schema 1 ex_wrong_kind /\
  gen_struct 8 ex_schema 1 ex_wrong_kind =
    Ok (GStruct (Some (b16 0, [GBits (b16 5); GBytes (Some [102; 111; 111]); GNone; GNone]))).
Proof. vm_compute. split; reflexivity. Qed.

(* a nil *T in a field with a struct default does not round-trip (why schema_ok excludes such defaults) *)
Definition ex_sd_schema : schema :=
  [ (1, MkNode 0 1 None WNone [ FSlot true None 0 (TStruct true 2) (DPtr (PStruct (mk_struct [42;0;0;0;0;0;0;0] []))) ]);
    (2, MkNode 1 0 None WNone [ FSlot true None 0 (TInt 32) DAbsent ]) ].
Example struct_default_roundtrip_refuted :
  schema_ok 4 ex_sd_schema = false /\
  match insert_struct 8 ex_sd_schema 1 (zero_struct 0 1) (GStruct (Some ([], [GStruct None]))) with
  | Ok s1 => extract_struct true 8 ex_sd_schema 1 s1 =
             Ok (GStruct (Some ([], [GStruct (Some ([], [GBits (bits_of_z 32 42)]))])))
  | _ => False
  end.
Proof. vm_compute. split; reflexivity. Qed.
