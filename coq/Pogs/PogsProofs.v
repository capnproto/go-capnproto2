(* Proofs about the model coq/Pogs/PogsM.v *)
From CV Require Import Pogs.PogsM.
From Coq Require Import ZifyBool ZifyNat.
Open Scope Z_scope.

Lemma ptrlist_elems_cases l : (exists ps, ptrlist_elems l = Ok ps) \/ ptrlist_elems l = Err.
Proof.
  destruct l as [| | | | |[|s ss]| |]; cbn; eauto.
  1-3: match goal with |- context [match ?x with _ => _ end] => destruct x end; eauto.
  destruct (1 <=? s_pcount s); eauto.
Qed.

(* Two runs of the walk that differ only in the function called for nested structs.  A relation
   between results that holds of the two nested calls, of equal leaves, and is kept by bind, holds
   of the two runs.  With [eq] this is congruence, with [fle] (PogsTotal) fuel monotonicity; a
   relation that ignores its second argument gives a property of every outcome of one run. *)
Section Walk.
  Variable R : forall A, res A -> res A -> Prop.
  Hypothesis R_ok : forall A (a : A), R A (Ok a) (Ok a).
  Hypothesis R_err : forall A, R A Err Err.
  Hypothesis R_bind : forall A B r1 r2 (k1 k2 : A -> res B),
    R A r1 r2 -> (forall a, R B (k1 a) (k2 a)) -> R B (bind r1 k1) (bind r2 k2).
  Variable fixed : bool.
  Variable sch : schema.
  Variables rec1 rec2 : Z -> strct -> res gval.
  Hypothesis rec_R : forall id s, R _ (rec1 id s) (rec2 id s).

  Lemma mapM_R {A B} (f g : A -> res B) : (forall a, R _ (f a) (g a)) -> forall l, R _ (mapM f l) (mapM g l).
  Proof.
    intros H. induction l as [|a l IH]; cbn [mapM]; [apply R_ok|].
    apply R_bind; [apply H|]. intros b. apply R_bind; [exact IH|]. intros; apply R_ok.
  Qed.

  Lemma ptrlist_R l : R _ (ptrlist_elems l) (ptrlist_elems l).
  Proof. destruct (ptrlist_elems_cases l) as [[ps ->]| ->]; [apply R_ok|apply R_err]. Qed.

  Lemma into_R isptr id os : R _ (extract_struct_into rec1 isptr id os) (extract_struct_into rec2 isptr id os).
  Proof. destruct os; cbn; [apply rec_R|]. destruct isptr; [apply R_ok|apply rec_R]. Qed.

  Lemma list_R e : forall l, R _ (extract_list rec1 e l) (extract_list rec2 e l).
  Proof.
    induction e; intros l; cbn [extract_list]; try apply R_ok; try apply R_err;
      try (apply R_bind; [apply ptrlist_R|intros; apply R_ok]).
    - apply R_bind; [apply ptrlist_R|]. intros ps. apply R_bind; [|intros; apply R_ok].
      apply mapM_R. intros p. destruct (ptr_list p); [apply IHe|apply R_ok].
    - apply R_bind; [|intros; apply R_ok]. apply mapM_R. intros os. apply into_R.
  Qed.

  Lemma field_R s off t d : R _ (extract_field fixed rec1 s off t d) (extract_field fixed rec2 s off t d).
  Proof.
    unfold extract_field.
    assert (H : R _ (extract_field_body fixed rec1 s off t d) (extract_field_body fixed rec2 s off t d)).
    { unfold extract_field_body. destruct t; try apply R_ok; try apply R_err.
      - match goal with |- R _ (match ?x with _ => _ end) _ => destruct x end; [apply list_R|apply R_ok].
      - apply into_R. }
    destruct d; auto.
  Qed.

  Lemma fields_R hw disc s : forall fs,
    R _ (extract_fields fixed rec1 hw disc s fs) (extract_fields fixed rec2 hw disc s fs).
  Proof.
    induction fs as [|f fs IH]; cbn [extract_fields]; [apply R_ok|].
    destruct (field_action hw disc f); try apply R_err.
    - apply R_bind; [exact IH|intros; apply R_ok].
    - apply R_bind.
      + destruct f; [apply field_R|apply rec_R].
      + intros v. apply R_bind; [exact IH|intros; apply R_ok].
  Qed.

  Lemma body_R id s : R _ (extract_struct_body fixed sch rec1 id s) (extract_struct_body fixed sch rec2 id s).
  Proof.
    unfold extract_struct_body. destruct (find_node sch id) as [n|]; [|apply R_err].
    destruct (n_disc n); [destruct (n_which n); [| |destruct (eqb_bits _ _); [|apply R_err]]|];
      (apply R_bind; [apply fields_R|intros; apply R_ok]).
  Qed.
End Walk.

Lemma bind_eq {A B} (r1 r2 : res A) (k1 k2 : A -> res B) :
  r1 = r2 -> (forall a, k1 a = k2 a) -> bind r1 k1 = bind r2 k2.
Proof. intros <- H. destruct r1; cbn; auto. Qed.

(* extractField and the generated getter treat a default of the wrong type alike *)
Lemma dflt_case {A} (x y : dflt -> res A) : (forall d, x d = y d) ->
  forall d, match d with DBad => Err | _ => x d end = match d with DBad => Err | _ => y d end.
Proof. intros H d. destruct d; try reflexivity; apply H. Qed.

Section Agree.
  Variable sch : schema.
  Variables (rec_ext rec_gen : Z -> strct -> res gval).
  Hypothesis rec_eq : forall id s, rec_ext id s = rec_gen id s.

  (* gen_struct_into and gen_list are convertible with extract_struct_into and extract_list
     ([reflexivity] proves [extract_list = gen_list]), so the walk lemmas apply to them as they
     stand; what they prove here is that rec_ext may be replaced by rec_gen, equal only pointwise *)
  Lemma into_eq isptr id os :
    extract_struct_into rec_ext isptr id os = gen_struct_into rec_gen isptr id os.
  Proof. apply (into_R (fun A => @eq (res A))); [reflexivity|exact rec_eq]. Qed.

  Lemma list_eq e : forall l, extract_list rec_ext e l = gen_list rec_gen e l.
  Proof. apply (list_R (fun A => @eq (res A))); try reflexivity; [apply @bind_eq|exact rec_eq]. Qed.

  Lemma field_eq n s dv off t d :
    gen_check_which n s dv = true ->
    extract_field true rec_ext s off t d = gen_field rec_gen n s dv off t d.
  Proof.
    intros Hw. unfold extract_field, gen_field.
    revert d. apply dflt_case. intros d.
    unfold extract_field_body, gen_getter. rewrite Hw. cbn [negb]. destruct t; cbn [bind]; try reflexivity.
    - unfold text_of, go_text. destruct bytes; destruct (ptr_text (read_ptr s off)); reflexivity.
    - match goal with |- match ?x with Some _ => _ | None => _ end = _ => destruct x end;
        [apply list_eq|reflexivity].
    - apply into_eq.
    - destruct (read_ptr s off); reflexivity.
  Qed.

  Lemma fields_eq n hasWhich disc s :
    (hasWhich = true -> exists doff, n_disc n = Some doff /\ disc = read_int s doff 16) ->
    forall fs, extract_fields true rec_ext hasWhich disc s fs = gen_fields rec_gen n hasWhich disc s fs.
  Proof.
    intros HW. induction fs as [|f fs IH]; [reflexivity|].
    cbn [extract_fields gen_fields]. rewrite IH.
    destruct (field_action hasWhich disc f) eqn:Ha; try reflexivity.
    destruct f as [p dv off t d|p dv gid]; [|rewrite rec_eq; reflexivity].
    rewrite (field_eq n s dv); [reflexivity|].
    unfold field_action in Ha. cbn [f_present f_dv] in Ha.
    destruct (negb p); [discriminate|]. unfold gen_check_which.
    destruct dv as [v|]; [|reflexivity].
    destruct hasWhich; [|discriminate].
    destruct (HW eq_refl) as (doff & Hd & He). rewrite Hd. subst disc.
    destruct (eqb_bits v (read_int s doff 16)); [reflexivity|discriminate].
  Qed.

  Lemma body_eq id s : extract_struct_body true sch rec_ext id s = gen_struct_body sch rec_gen id s.
  Proof.
    unfold extract_struct_body, gen_struct_body.
    destruct (find_node sch id) as [n|]; [|reflexivity].
    destruct (n_disc n) as [doff|] eqn:Hd.
    - destruct (n_which n).
      + rewrite (fields_eq n); [reflexivity|discriminate].
      + rewrite (fields_eq n); [reflexivity|]. intros _. exists doff; auto.
      + destruct (eqb_bits (read_int s doff 16) v); [|reflexivity].
        rewrite (fields_eq n); [reflexivity|]. intros _. exists doff; auto.
    - rewrite (fields_eq n); [reflexivity|discriminate].
  Qed.
End Agree.

Theorem extract_agrees_with_generated : forall fuel sch id s,
  extract_struct true fuel sch id s = gen_struct fuel sch id s.
Proof.
  induction fuel as [|f IH]; intros; [reflexivity|].
  cbn [extract_struct gen_struct]. apply body_eq. intros; apply IH.
Qed.

(* a generated getter of a union member other than Which() panics; pogs never calls it *)
Lemma gen_getter_inactive_panics n s dv off t d :
  gen_check_which n s dv = false -> gen_getter n s dv off t d = Panic.
Proof. intros H. unfold gen_getter. rewrite H. reflexivity. Qed.
