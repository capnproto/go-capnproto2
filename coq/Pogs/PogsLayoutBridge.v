(* Bridge between the accessor model of this group ([gen_getter], PogsM.v) and C15's model of the
   accessors capnpc-go EMITS (coq/Layout: [spec_get] = the schema's bit-range semantics, proved
   equal to [run_getter (gen_accessor f)] in LayoutMain.gen_getter_value; [gen_accessor f] is what
   genir regenerates from the emitted code on every run, Gen/GenAccessors.v + GenCheck).
   The two struct models are related by [to_strukt]: data section = [struct_bytes], pointer
   slots = tokens [tok p] (0 for null). *)
From CV Require Import Pogs.PogsM Pogs.PogsFrame.
From CV Require Layout.Layout Layout.LayoutMain.
From Coq Require Import ZifyBool ZifyNat.
Open Scope Z_scope.

Lemma zob_cons b l : z_of_bits (b :: l) = 2 * z_of_bits l + Z.b2z b.
Proof. cbn [z_of_bits]. destruct b; cbn [Z.b2z]; lia. Qed.

Lemma z_of_bits_range l : 0 <= z_of_bits l < 2 ^ Z.of_nat (length l).
Proof.
  induction l as [|b l IH]; [cbn; lia|]. rewrite zob_cons. cbn [length]. rewrite Nat2Z.inj_succ, Z.pow_succ_r by lia.
  destruct b; cbn [Z.b2z]; lia.
Qed.

Lemma testbit_z_of_bits l : forall j, Z.testbit (z_of_bits l) (Z.of_nat j) = nth j l false.
Proof.
  induction l as [|b l IH]; intros j.
  - cbn [z_of_bits]. rewrite Z.testbit_0_l. destruct j; reflexivity.
  - rewrite zob_cons. destruct j.
    + cbn [Z.of_nat nth]. apply Z.testbit_0_r.
    + rewrite Nat2Z.inj_succ, Z.testbit_succ_r by lia. cbn [nth]. apply IH.
Qed.

Lemma z_of_bits_inj a : forall b, length a = length b -> z_of_bits a = z_of_bits b -> a = b.
Proof.
  induction a as [|x a IH]; destruct b as [|y b]; cbn [length]; intros Hl H; try discriminate; [reflexivity|].
  rewrite !zob_cons in H. assert (x = y /\ z_of_bits a = z_of_bits b) as [-> Hz] by (destruct x, y; cbn [Z.b2z] in H; (split; [reflexivity|lia]) || lia).
  f_equal. apply IH; [lia|exact Hz].
Qed.

Lemma lxor_z_of_bits a : forall b, length a = length b ->
  Z.lxor (z_of_bits a) (z_of_bits b) = z_of_bits (xor_bits a b).
Proof.
  induction a as [|x a IH]; destruct b as [|y b]; cbn [length]; intros Hl; try discriminate; [reflexivity|].
  cbn [xor_bits]. rewrite !zob_cons, <- IH by lia.
  apply Z.bits_inj'. intros n Hn. rewrite Z.lxor_spec.
  destruct (Z.eq_dec n 0) as [->|Hn0].
  - rewrite !Z.testbit_0_r. reflexivity.
  - replace n with (Z.succ (n - 1)) by lia. rewrite !Z.testbit_succ_r by lia. rewrite Z.lxor_spec. reflexivity.
Qed.

Lemma z_of_bits_zeros w : z_of_bits (zeros w) = 0.
Proof. unfold zeros. induction w; [reflexivity|]. cbn [repeat]. rewrite zob_cons, IHw. reflexivity. Qed.

Lemma get_range_length d st w : length (get_range d st w) = w.
Proof. unfold get_range. rewrite map_length, seq_length. reflexivity. Qed.

Lemma get_range_S d st w : get_range d st (S w) = d st :: get_range d (st + 1) w.
Proof.
  unfold get_range. cbn [seq map]. f_equal; [f_equal; lia|].
  rewrite <- seq_shift, map_map. apply map_ext. intros k. f_equal. lia.
Qed.

Definition to_strukt (tok : ptrval -> Z) (s : strct) : Layout.strukt :=
  Layout.mkS (struct_bytes s) (map tok (struct_ptrs s)).

Lemma struct_bytes_length s : length (struct_bytes s) = Z.to_nat (s_dbytes s).
Proof. unfold struct_bytes. rewrite map_length, seq_length. reflexivity. Qed.

Lemma struct_bytes_bit s i : 0 <= i < 8 * s_dbytes s -> Layout.data_bit (struct_bytes s) i = s_data s i.
Proof.
  intros Hi. unfold Layout.data_bit, struct_bytes.
  set (f := fun k : nat => z_of_bits (get_range (s_data s) (8 * Z.of_nat k) 8)).
  assert (Hq : (Z.to_nat (i / 8) < Z.to_nat (s_dbytes s))%nat).
  { assert (0 <= i / 8 < s_dbytes s) by (split; [apply Z.div_pos; lia|apply Z.div_lt_upper_bound; lia]). lia. }
  rewrite (nth_indep _ 0 (f 0%nat)) by (rewrite map_length, seq_length; exact Hq).
  rewrite map_nth, seq_nth by exact Hq. cbn [plus]. unfold f.
  assert (Hm : 0 <= i mod 8 < 8) by (apply Z.mod_pos_bound; lia).
  replace (i mod 8) with (Z.of_nat (Z.to_nat (i mod 8))) by lia.
  rewrite testbit_z_of_bits. unfold get_range. rewrite nth_map_seq by lia.
  f_equal. rewrite Z2Nat.id by (apply Z.div_pos; lia). pose proof (Z.div_mod i 8). lia.
Qed.

Lemma bits_val_eq s : forall n lo, 0 <= lo -> lo + Z.of_nat n <= 8 * s_dbytes s ->
  Layout.bits_val (struct_bytes s) lo n = z_of_bits (get_range (s_data s) lo n).
Proof.
  induction n as [|n IH]; intros lo H0 H1; [reflexivity|].
  cbn [Layout.bits_val]. rewrite struct_bytes_bit by lia. rewrite IH by lia.
  rewrite get_range_S, zob_cons. lia.
Qed.

Lemma bits_in_eq s lo len : 0 <= s_dbytes s ->
  Layout.bits_in (struct_bytes s) lo len = (0 <=? lo) && (lo + len <=? 8 * s_dbytes s).
Proof. intros H. unfold Layout.bits_in. rewrite struct_bytes_length. rewrite Z2Nat.id by lia. reflexivity. Qed.

Lemma s_ptr_eq tok s i : 0 <= i -> 0 <= s_pcount s -> tok PNull = 0 ->
  Layout.s_ptr (to_strukt tok s) i = tok (read_ptr s i).
Proof.
  intros Hi Hp Ht. unfold Layout.s_ptr, Layout.pcount, to_strukt, read_ptr, struct_ptrs. cbn [Layout.sptrs].
  rewrite !map_length, seq_length, Z2Nat.id by lia.
  destruct (i <? s_pcount s) eqn:E.
  - replace ((0 <=? i) && true) with true by lia.
    rewrite (nth_indep _ 0 (tok PNull)) by (rewrite !map_length, seq_length; lia).
    rewrite map_nth. f_equal.
    rewrite nth_map_seq by lia. f_equal. lia.
  - replace ((0 <=? i) && false) with false by lia. symmetry. exact Ht.
Qed.

Definition disc_of (dv : option (list bool)) : Z :=
  match dv with None => 65535 | Some v => z_of_bits v end.
Definition dv_ok (dv : option (list bool)) : Prop :=
  match dv with None => True | Some v => length v = 16%nat /\ z_of_bits v <> 65535 end.

(* the node's discriminant offset and the field's discriminant value, as C15's field_desc has them *)
Definition desc_matches (n : snode) (dv : option (list bool)) (f : Layout.field_desc) : Prop :=
  Layout.fd_disc f = disc_of dv /\ dv_ok dv /\
  (dv <> None -> n_disc n = Some (Layout.fd_discoff f) /\ 0 <= Layout.fd_discoff f).

(* Struct.UintN(off) against C15's bit range, for the widths whose byte size is exact *)
Lemma read_int_layout s off w : 0 <= off -> 0 <= s_dbytes s -> wbytes w * 8 = Z.of_nat w ->
  z_of_bits (read_int s off w) =
  (if Layout.bits_in (struct_bytes s) (off * Z.of_nat w) (Z.of_nat w)
   then Layout.bits_val (struct_bytes s) (off * Z.of_nat w) w else 0)
  /\ length (read_int s off w) = w.
Proof.
  intros Hd Hb Hw. unfold read_int. rewrite bits_in_eq by lia.
  destruct (off * wbytes w + wbytes w <=? s_dbytes s) eqn:E.
  - replace ((0 <=? off * Z.of_nat w) && (off * Z.of_nat w + Z.of_nat w <=? 8 * s_dbytes s)) with true by nia.
    rewrite bits_val_eq by nia. split; [reflexivity|apply get_range_length].
  - replace ((0 <=? off * Z.of_nat w) && (off * Z.of_nat w + Z.of_nat w <=? 8 * s_dbytes s)) with false by nia.
    split; [apply z_of_bits_zeros|apply repeat_length].
Qed.

Lemma active_eq tok n s dv f : desc_matches n dv f -> 0 <= s_dbytes s ->
  Layout.spec_active f (to_strukt tok s) = gen_check_which n s dv.
Proof.
  intros (Hd & Hok & Hn) Hb. unfold Layout.spec_active, Layout.has_disc, gen_check_which. rewrite Hd.
  destruct dv as [v|]; cbn [disc_of]; [|reflexivity].
  destruct Hok as [Hl Hne]. destruct (Hn ltac:(discriminate)) as [Hnd Hdo]. rewrite Hnd.
  replace (z_of_bits v =? 65535) with false by lia. cbn [negb orb].
  unfold Layout.spec_which, Layout.disc_lo, to_strukt. cbn [Layout.sdata].
  destruct (read_int_layout s (Layout.fd_discoff f) 16 Hdo Hb eq_refl) as [Hr Hlen].
  change (Z.of_nat 16) with 16 in Hr. rewrite <- Hr.
  destruct (eqb_bits v (read_int s (Layout.fd_discoff f) 16)) eqn:E.
  - apply eqb_bits_eq in E. rewrite <- E. lia.
  - destruct (z_of_bits (read_int s (Layout.fd_discoff f) 16) =? z_of_bits v) eqn:E2; [|reflexivity].
    exfalso. assert (v = read_int s (Layout.fd_discoff f) 16) by (apply z_of_bits_inj; lia).
    subst v. rewrite eqb_bits_refl in E. discriminate.
Qed.

Definition scalar_kind (k : Layout.kind) (w : nat) : Prop :=
  match k with
  | Layout.KInt x | Layout.KUint x => Layout.wbits x = Z.of_nat w
  | Layout.KFloat32 => w = 32%nat | Layout.KFloat64 => w = 64%nat | Layout.KEnum => w = 16%nat
  | _ => False
  end.

Lemma scalar_kind_w k w : scalar_kind k w -> (w = 8 \/ w = 16 \/ w = 32 \/ w = 64)%nat /\ Layout.kind_bits k = Z.of_nat w.
Proof. destruct k; cbn; try tauto; try (intros ->; cbn; lia); destruct w0; cbn; lia. Qed.

(* every integer / enum / float field: the bit range the schema assigns (C15's spec_get), XOR the
   default, with the discriminant test, is what gen_getter computes *)
Theorem gen_getter_scalar_is_layout_spec : forall tok n s dv off w d f,
  desc_matches n dv f -> 0 <= s_dbytes s -> 0 <= off ->
  scalar_kind (Layout.fd_kind f) w -> Layout.fd_off f = off ->
  length (dflt_bits d w) = w -> Layout.default_raw f = z_of_bits (dflt_bits d w) ->
  Layout.spec_get f (to_strukt tok s) =
  match gen_getter n s dv off (TInt w) d with
  | Ok (VBits bs) => Layout.Ok (Layout.decode (Layout.fd_kind f) (z_of_bits bs))
  | _ => Layout.Panic
  end.
Proof.
  intros tok n s dv off w d f Hm Hb Hoff Hk Hfo Hdl Hdr.
  destruct (scalar_kind_w _ _ Hk) as [Hw Hkb].
  unfold Layout.spec_get, gen_getter. rewrite (active_eq tok n s dv f Hm Hb).
  assert (Hg : Layout.kind_eqb_group (Layout.fd_kind f) = false) by (destruct (Layout.fd_kind f); cbn in Hk; try tauto; reflexivity).
  rewrite Hg. destruct (gen_check_which n s dv); cbn [negb]; [|reflexivity].
  assert (Hr : Layout.field_range f = Layout.RBits (off * Z.of_nat w) (Z.of_nat w)).
  { unfold Layout.field_range. rewrite Hfo. destruct (Layout.fd_kind f); cbn in Hk; try tauto; rewrite <- Hkb; reflexivity. }
  rewrite Hr. f_equal. f_equal. rewrite Hdr.
  assert (Hwb : wbytes w * 8 = Z.of_nat w).
  { unfold wbytes. destruct Hw as [Hw|[Hw|[Hw|Hw]]]; subst w; reflexivity. }
  destruct (read_int_layout s off w Hoff Hb Hwb) as [Hv Hl].
  rewrite <- lxor_z_of_bits by (rewrite Hdl; exact Hl).
  f_equal. unfold to_strukt. cbn [Layout.sdata]. rewrite Nat2Z.id. symmetry. exact Hv.
Qed.

Theorem gen_getter_bool_is_layout_spec : forall tok n s dv off d f,
  desc_matches n dv f -> 0 <= s_dbytes s -> 0 <= off ->
  Layout.fd_kind f = Layout.KBool -> Layout.fd_off f = off ->
  Layout.default_raw f = Z.b2z (match dflt_bits d 1 with x :: _ => x | [] => false end) ->
  Layout.spec_get f (to_strukt tok s) =
  match gen_getter n s dv off TBool d with
  | Ok (VBool b) => Layout.Ok (Z.b2z b)
  | _ => Layout.Panic
  end.
Proof.
  intros tok n s dv off d f Hm Hb Hoff Hk Hfo Hdr.
  unfold Layout.spec_get, gen_getter. rewrite (active_eq tok n s dv f Hm Hb). rewrite Hk. cbn [Layout.kind_eqb_group].
  destruct (gen_check_which n s dv); cbn [negb]; [|reflexivity].
  unfold Layout.field_range. rewrite Hk, Hfo. cbn [Layout.kind_bits Layout.decode]. rewrite Hdr. f_equal.
  unfold to_strukt. cbn [Layout.sdata]. rewrite bits_in_eq by lia. unfold read_bit.
  change (Z.to_nat 1) with 1%nat. cbn [Layout.bits_val].
  destruct (off <? s_dbytes s * 8) eqn:E.
  - replace ((0 <=? off * 1) && (off * 1 + 1 <=? 8 * s_dbytes s)) with true by lia.
    rewrite struct_bytes_bit by lia. replace (off * 1) with off by lia.
    destruct (s_data s off), (match dflt_bits d 1 with x :: _ => x | [] => false end); reflexivity.
  - replace ((0 <=? off * 1) && (off * 1 + 1 <=? 8 * s_dbytes s)) with false by lia.
    destruct (match dflt_bits d 1 with x :: _ => x | [] => false end); reflexivity.
Qed.

(* pointer fields: C15's struct model holds opaque tokens in the pointer slots (0 = null), so its
   getter says: test the discriminant, read slot [off], substitute the default iff the slot is null.
   gen_getter tests the same discriminant and inspects the same slot; what it adds, and what the
   token model CANNOT express, is the kind test of pointer.go (TextDefault / DataDefault /
   StructDefault / ListDefault fall back to the default also for a non-null pointer of another kind). *)
Definition ptr_kind_of (t : ftype) : option Layout.kind :=
  match t with
  | TText _ => Some Layout.KText | TData => Some Layout.KData | TList _ => Some Layout.KList
  | TStruct _ _ => Some Layout.KStruct | TIface => Some Layout.KInterface | TAnyPtr => Some Layout.KAnyPtr
  | _ => None
  end.

Theorem gen_getter_ptr_slot_is_layout_spec : forall tok n s dv off t d f k,
  desc_matches n dv f -> 0 <= s_dbytes s -> 0 <= s_pcount s -> 0 <= off -> tok PNull = 0 ->
  ptr_kind_of t = Some k -> Layout.fd_kind f = k -> Layout.fd_off f = off ->
  (* same discriminant outcome *)
  (Layout.spec_get f (to_strukt tok s) = Layout.Panic <-> gen_getter n s dv off t d = Panic) /\
  (* when the member is live: the slot C15 reads is the pointer gen_getter inspects *)
  (gen_check_which n s dv = true ->
   Layout.spec_get f (to_strukt tok s) =
   Layout.Ok (Layout.ptr_value k (Layout.fd_default f) (tok (read_ptr s off)))).
Proof.
  intros tok n s dv off t d f k Hm Hb Hp Hoff Ht Hk Hfk Hfo.
  unfold Layout.spec_get, gen_getter. rewrite (active_eq tok n s dv f Hm Hb).
  assert (Hg : Layout.kind_eqb_group (Layout.fd_kind f) = false) by (rewrite Hfk; destruct t; inversion Hk; reflexivity).
  assert (Hr : Layout.field_range f = Layout.RPtr off).
  { unfold Layout.field_range. rewrite Hfk, Hfo. destruct t; inversion Hk; reflexivity. }
  rewrite Hg, Hr, Hfk. rewrite s_ptr_eq by assumption.
  destruct (gen_check_which n s dv); cbn [negb]; split; try (intros; reflexivity); try discriminate.
  - split; [discriminate|]. destruct t; inversion Hk; discriminate.
  - split; reflexivity.
Qed.

(* gen_getter on a null slot returns the view of the schema default (the case C15 has), and on a
   pointer of the field's kind the pointer itself *)
Lemma gen_getter_null_slot : forall n s dv off d, gen_check_which n s dv = true -> read_ptr s off = PNull ->
  (forall b, gen_getter n s dv off (TText b) d =
             Ok (VText (match ptr_text (dflt_ptr d) with Some x => x | None => [] end))) /\
  gen_getter n s dv off TData d = Ok (VData (ptr_data (dflt_ptr d))) /\
  (forall b id, gen_getter n s dv off (TStruct b id) d = Ok (VStruct (ptr_struct (dflt_ptr d)))) /\
  (forall e, gen_getter n s dv off (TList e) d = Ok (VList (ptr_list (dflt_ptr d)))).
Proof. intros n s dv off d Hc Hp. unfold gen_getter. rewrite Hc, Hp. cbn. repeat split. Qed.

Lemma gen_getter_kinded_slot : forall n s dv off d, gen_check_which n s dv = true ->
  (forall b x, ptr_text (read_ptr s off) = Some x -> gen_getter n s dv off (TText b) d = Ok (VText x)) /\
  (forall x, ptr_data (read_ptr s off) = Some x -> gen_getter n s dv off TData d = Ok (VData (Some x))) /\
  (forall b id x, ptr_struct (read_ptr s off) = Some x -> gen_getter n s dv off (TStruct b id) d = Ok (VStruct (Some x))) /\
  (forall e x, ptr_list (read_ptr s off) = Some x -> gen_getter n s dv off (TList e) d = Ok (VList (Some x))).
Proof.
  intros n s dv off d Hc. unfold gen_getter. rewrite Hc. cbn [negb].
  repeat split; intros; match goal with H : _ = Some _ |- _ => rewrite H end; reflexivity.
Qed.

Lemma to_strukt_ok tok s : 0 <= s_dbytes s -> s_dbytes s * 8 < 2 ^ 32 -> Layout.strukt_ok (to_strukt tok s).
Proof.
  intros H0 H1. split.
  - unfold Layout.bytes_ok, to_strukt, struct_bytes. cbn [Layout.sdata]. apply Forall_forall.
    intros b Hb. apply in_map_iff in Hb as (k & <- & _). unfold Layout.byte_ok.
    pose proof (z_of_bits_range (get_range (s_data s) (8 * Z.of_nat k) 8)) as R.
    rewrite get_range_length in R. exact R.
  - unfold Layout.dsz, to_strukt. cbn [Layout.sdata]. rewrite struct_bytes_length. lia.
Qed.

(* the getter capnpc-go emits for a well-formed field descriptor (gen_accessor = the IR that genir
   regenerates from the emitted code, C15_emitted_is_model) computes C15's spec_get on to_strukt *)
Lemma emitted_is_spec tok s f g : Layout.field_wf f -> Layout.a_get (Layout.gen_accessor f) = Some g ->
  0 <= s_dbytes s -> s_dbytes s * 8 < 2 ^ 32 ->
  Layout.run_getter g (Layout.fd_default f) (to_strukt tok s) = Layout.spec_get f (to_strukt tok s).
Proof. intros. apply LayoutMain.gen_getter_value; [assumption|apply to_strukt_ok; assumption|assumption]. Qed.

Theorem gen_getter_scalar_is_emitted_getter : forall tok n s dv off w d f g,
  Layout.field_wf f -> Layout.a_get (Layout.gen_accessor f) = Some g ->
  desc_matches n dv f -> 0 <= s_dbytes s -> s_dbytes s * 8 < 2 ^ 32 -> 0 <= off ->
  scalar_kind (Layout.fd_kind f) w -> Layout.fd_off f = off ->
  length (dflt_bits d w) = w -> Layout.default_raw f = z_of_bits (dflt_bits d w) ->
  Layout.run_getter g (Layout.fd_default f) (to_strukt tok s) =
  match gen_getter n s dv off (TInt w) d with
  | Ok (VBits bs) => Layout.Ok (Layout.decode (Layout.fd_kind f) (z_of_bits bs))
  | _ => Layout.Panic
  end.
Proof.
  intros. rewrite emitted_is_spec by assumption. apply gen_getter_scalar_is_layout_spec; assumption.
Qed.

Theorem gen_getter_bool_is_emitted_getter : forall tok n s dv off d f g,
  Layout.field_wf f -> Layout.a_get (Layout.gen_accessor f) = Some g ->
  desc_matches n dv f -> 0 <= s_dbytes s -> s_dbytes s * 8 < 2 ^ 32 -> 0 <= off ->
  Layout.fd_kind f = Layout.KBool -> Layout.fd_off f = off ->
  Layout.default_raw f = Z.b2z (match dflt_bits d 1 with x :: _ => x | [] => false end) ->
  Layout.run_getter g (Layout.fd_default f) (to_strukt tok s) =
  match gen_getter n s dv off TBool d with
  | Ok (VBool b) => Layout.Ok (Z.b2z b)
  | _ => Layout.Panic
  end.
Proof.
  intros. rewrite emitted_is_spec by assumption. apply gen_getter_bool_is_layout_spec; assumption.
Qed.

Theorem gen_getter_ptr_is_emitted_getter : forall tok n s dv off t d f k g,
  Layout.field_wf f -> Layout.a_get (Layout.gen_accessor f) = Some g ->
  desc_matches n dv f -> 0 <= s_dbytes s -> s_dbytes s * 8 < 2 ^ 32 -> 0 <= s_pcount s -> 0 <= off ->
  tok PNull = 0 -> ptr_kind_of t = Some k -> Layout.fd_kind f = k -> Layout.fd_off f = off ->
  (Layout.run_getter g (Layout.fd_default f) (to_strukt tok s) = Layout.Panic <-> gen_getter n s dv off t d = Panic) /\
  (gen_check_which n s dv = true ->
   Layout.run_getter g (Layout.fd_default f) (to_strukt tok s) =
   Layout.Ok (Layout.ptr_value k (Layout.fd_default f) (tok (read_ptr s off)))).
Proof.
  intros. rewrite emitted_is_spec by assumption. eapply gen_getter_ptr_slot_is_layout_spec; eassumption.
Qed.

(* Defaults.int @3 :Int32 = -123 (offset 1 in 32-bit units), and a union member UInt16 with
   discriminant value 2 at discriminant offset 0 *)
Definition ex_fd_int : Layout.field_desc := Layout.mkF (Layout.KInt Layout.W32) 1 (-123) 65535 0.
Definition ex_fd_u16 : Layout.field_desc := Layout.mkF (Layout.KUint Layout.W16) 1 7 2 0.
Definition ex_tok (p : ptrval) : Z := match p with PNull => 0 | _ => 1 end.
Definition ex_struct : strct := mk_struct [2; 0; 5; 1; 255; 255; 255; 255] [].
Definition ex_node : snode := MkNode 1 0 (Some 0) WField [].

Example bridge_premises_int :
  Layout.field_wf ex_fd_int /\ desc_matches ex_node None ex_fd_int /\
  scalar_kind (Layout.fd_kind ex_fd_int) 32 /\
  Layout.default_raw ex_fd_int = z_of_bits (dflt_bits (DBits (bits_of_z 32 (2 ^ 32 - 123))) 32).
Proof.
  split; [apply LayoutMain.field_wfb_ok; vm_compute; reflexivity|].
  split; [repeat split; intros X; congruence|]. split; vm_compute; reflexivity.
Qed.

Example bridge_premises_u16 :
  Layout.field_wf ex_fd_u16 /\ desc_matches ex_node (Some (bits_of_z 16 2)) ex_fd_u16 /\
  scalar_kind (Layout.fd_kind ex_fd_u16) 16.
Proof.
  split; [apply LayoutMain.field_wfb_ok; vm_compute; reflexivity|].
  split; [|vm_compute; reflexivity].
  split; [vm_compute; reflexivity|]. split; [split; [reflexivity|vm_compute; discriminate]|].
  intros _. split; [reflexivity|vm_compute; discriminate].
Qed.

(* both sides computed on a concrete struct: int32 at bytes 4..7 = 0xffffffff, xor default -123 = 122;
   the union member u16 at bytes 2..3 = 0x0105, xor 7 = 0x0102, live because Which() = 2 *)
Example bridge_values :
  Layout.get_of ex_fd_int (to_strukt ex_tok ex_struct) = Layout.Ok 122 /\
  gen_getter ex_node ex_struct None 1 (TInt 32) (DBits (bits_of_z 32 (2 ^ 32 - 123))) = Ok (VBits (bits_of_z 32 122)) /\
  Layout.get_of ex_fd_u16 (to_strukt ex_tok ex_struct) = Layout.Ok 258 /\
  gen_getter ex_node ex_struct (Some (bits_of_z 16 2)) 1 (TInt 16) (DBits (bits_of_z 16 7)) = Ok (VBits (bits_of_z 16 258)) /\
  gen_getter ex_node ex_struct (Some (bits_of_z 16 3)) 1 (TInt 16) (DBits (bits_of_z 16 7)) = Panic.
Proof. vm_compute. repeat split. Qed.
