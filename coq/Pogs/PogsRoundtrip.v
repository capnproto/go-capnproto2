(* extract (insert v) = v modulo [veq], for every mapped schema with a conflict-free layout. *)
From CV Require Import Pogs.PogsM Pogs.PogsSpec Pogs.PogsFrame.
From Coq Require Import ZifyBool ZifyNat.
Open Scope Z_scope.

Lemma mapM_inv {A B} (f : A -> res B) : forall l r,
  mapM f l = Ok r -> Forall2 (fun a b => f a = Ok b) l r.
Proof.
  induction l as [|a l IH]; intros r H; cbn [mapM] in H.
  - inversion H. constructor.
  - apply bind_Ok_inv in H as (b & Ea & H). apply bind_Ok_inv in H as (bs & El & H).
    inversion H; subst. constructor; auto.
Qed.

Lemma mapM_intro {A B} (g : A -> res B) : forall l r,
  Forall2 (fun a b => g a = Ok b) l r -> mapM g l = Ok r.
Proof.
  induction 1; cbn [mapM]; [reflexivity|]. rewrite H, IHForall2. reflexivity.
Qed.

Lemma last_is_zero_snoc bs : last_is_zero (bs ++ [0]) = true.
Proof. induction bs as [|b bs IH]; [reflexivity|]. cbn [app last_is_zero]. destruct (bs ++ [0]) eqn:E; [destruct bs; discriminate|exact IH]. Qed.

Lemma ptr_text_snoc bs : ptr_text (PBytes (bs ++ [0])) = Some bs.
Proof. cbn. rewrite last_is_zero_snoc, removelast_last. reflexivity. Qed.

Lemma bits_of_z_of_bits e : bits_of_z (length e) (z_of_bits e) = e.
Proof.
  induction e as [|b e IH]; [reflexivity|]. cbn [length bits_of_z z_of_bits]. f_equal.
  - rewrite Z.odd_add_mul_2. destruct b; reflexivity.
  - replace (((if b then 1 else 0) + 2 * z_of_bits e) / 2) with (z_of_bits e); [exact IH|].
    destruct b; lia.
Qed.

Lemma mapM_map_intro {A B C} (f : B -> res C) (g : A -> B) l r :
  Forall2 (fun a c => f (g a) = Ok c) l r -> mapM f (map g l) = Ok r.
Proof. induction 1 as [|a c l r H _ IH]; cbn [map mapM]; [|rewrite H, IH]; reflexivity. Qed.

(* l1 is mapped to l2 by P; what Q makes of an element of l2 is V-related to its source *)
Lemma F2_chain {A B C} (P : A -> B -> Prop) (Q : B -> C -> Prop) (V : A -> C -> Prop) l1 l2 :
  Forall2 P l1 l2 -> (forall a b, In a l1 -> P a b -> exists c, Q b c /\ V a c) ->
  exists l3, Forall2 Q l2 l3 /\ Forall2 V l1 l3.
Proof.
  induction 1 as [|a b l1 l2 Hab _ IH]; intros HQ; [exists []; split; constructor|].
  destruct (HQ a b (or_introl eq_refl) Hab) as (c & Hq & Hv).
  destruct IH as (l3 & A1 & A2); [intros; eapply HQ; [right|]; eassumption|].
  exists (c :: l3). split; constructor; assumption.
Qed.

Lemma insert_field_nb sch rec s off t d v :
  d <> DBad -> insert_field sch rec s off t d v = insert_field_body sch rec s off t d v.
Proof. destruct d; try reflexivity. contradiction. Qed.
Lemma extract_field_nb fixed rec s off t d :
  d <> DBad -> extract_field fixed rec s off t d = extract_field_body fixed rec s off t d.
Proof. destruct d; try reflexivity. contradiction. Qed.

(* a text / data default that isEmptyValue accepts reads back as nil or empty *)
Lemma empty_value_text k d : is_empty_value (TText k) d = true -> norm_bytes (ptr_text (dflt_ptr d)) = None.
Proof. destruct d; try discriminate. cbn. destruct (ptr_text p) as [[|]|]; try discriminate; reflexivity. Qed.
Lemma empty_value_data d : is_empty_value TData d = true -> norm_bytes (ptr_data (dflt_ptr d)) = None.
Proof. destruct d; try discriminate. cbn. destruct (ptr_data p) as [[|]|]; try discriminate; reflexivity. Qed.

Section RT.
  Variable sch : schema.
  Variable tbl : fptable.
  Variable rec_ins : Z -> strct -> gval -> res strct.
  Variable rec_ext : Z -> strct -> res gval.
  Hypothesis IH : forall id s v s1, rec_ins id s v = Ok s1 ->
    same_outside (fp_of tbl id) s s1 /\
    forall s2, agree_on (fp_of tbl id) s1 s2 ->
      exists v', rec_ext id s2 = Ok v' /\ veq sch (TStruct false id) v v'.

  Lemma IH_self id s v s1 : rec_ins id s v = Ok s1 ->
    exists v', rec_ext id s1 = Ok v' /\ veq sch (TStruct false id) v v'.
  Proof. intros H. apply (proj2 (IH _ _ _ _ H)). apply agree_on_refl. Qed.

  (* a list written element by element by [enc] and read back element by element by [dec] *)
  Lemma elems_rt {A} (enc : gval -> res A) (dec : A -> gval) e vs ps :
    (forall a b, enc a = Ok b -> veq sch e a (dec b)) ->
    mapM enc vs = Ok ps -> Forall2 (veq sch e) vs (map dec ps).
  Proof. intros H E. apply mapM_inv in E. induction E; cbn; constructor; auto. Qed.

  Lemma list_rt e : forall vs p,
    mappable e = true -> forallb (vmatch e) vs = true ->
    insert_list sch rec_ins e vs = Ok p ->
    ptr_list p = Some p /\
    exists vs', extract_list rec_ext e p = Ok (GList (Some vs')) /\ Forall2 (veq sch e) vs vs'.
  Proof.
    induction e; intros vs p Hm Hv H; cbn [insert_list] in H; try discriminate.
    - (* bool *)
      apply bind_Ok_inv in H as (bs & E & H). inversion H; subst p.
      split; [reflexivity|]. eexists; split; [reflexivity|]. cbn [bitlist_elems].
      eapply elems_rt; [|exact E]. intros a b Hab. destruct a; try discriminate. inversion Hab; subst. constructor.
    - (* int: what is read back is the list of bit strings written *)
      apply bind_Ok_inv in H as (es & E & H).
      assert (Hp : ptr_list p = Some p /\ primlist_elems w p = es).
      { destruct (w =? 8)%nat eqn:Ew; inversion H; subst p; cbn [primlist_elems]; (split; [reflexivity|]).
        - rewrite Ew, map_map. apply mapM_inv in E. rewrite forallb_forall in Hv. clear H.
          induction E as [|a b vs es Hab _ IHE]; cbn [map]; [reflexivity|]. f_equal.
          + specialize (Hv a (or_introl eq_refl)). destruct a; try discriminate. inversion Hab; subst.
            cbn in Hv. replace 8%nat with (length b) by lia. apply bits_of_z_of_bits.
          + apply IHE. intros; apply Hv; right; assumption.
        - rewrite Nat.eqb_refl. reflexivity. }
      destruct Hp as [Hp1 Hp2]. split; [exact Hp1|]. cbn [extract_list]. rewrite Hp2.
      eexists; split; [reflexivity|]. eapply elems_rt; [|exact E].
      intros a b Hab. destruct a; try discriminate. inversion Hab; subst. constructor.
    - (* text *)
      destruct bytes; cbv iota in H; apply bind_Ok_inv in H as (ps & E & H); inversion H; subst p;
        (split; [reflexivity|]); (eexists; split; [reflexivity|]); (eapply elems_rt; [|exact E]); intros a b Hab.
      + destruct a as [| | |[bs|]| | |]; try discriminate; inversion Hab; subst.
        * rewrite ptr_text_snoc. constructor. reflexivity.
        * cbn. constructor. reflexivity.
      + destruct a as [| | |[[|x bs]|]| | |]; try discriminate; inversion Hab; subst.
        * cbn. constructor. reflexivity.
        * change (x :: bs ++ [0]) with ((x :: bs) ++ [0]). rewrite ptr_text_snoc. constructor. reflexivity.
    - (* data *)
      apply bind_Ok_inv in H as (ps & E & H). inversion H; subst p.
      split; [reflexivity|]. eexists; split; [reflexivity|]. eapply elems_rt; [|exact E]. intros a b Hab.
      destruct a as [| | |[[|x bs]|]| | |]; try discriminate; inversion Hab; subst; cbn; constructor; reflexivity.
    - (* list of lists *)
      apply bind_Ok_inv in H as (ps & E & H). inversion H; subst p.
      split; [reflexivity|]. cbn [extract_list ptrlist_elems bind]. cbn [mappable] in Hm.
      rewrite forallb_forall in Hv. apply mapM_inv in E.
      destruct (F2_chain _ (fun q v' => match ptr_list q with
                                        | None => Ok (GList None)
                                        | Some l' => extract_list rec_ext e l' end = Ok v')
                           (veq sch (TList e)) _ _ E) as (vs' & A & B).
      { intros a q Ha Hq. specialize (Hv a Ha). destruct a as [| | | |[lx|]| |]; try discriminate.
        - cbn [vmatch] in Hv. apply andb_true_iff in Hv as [_ Hv].
          destruct (IHe lx q Hm Hv Hq) as (Hp & lx' & He & Hl).
          exists (GList (Some lx')). split; [rewrite Hp; exact He|apply VE_list; exact Hl].
        - inversion Hq; subst q. exists (GList None). split; [reflexivity|constructor; reflexivity]. }
      apply mapM_intro in A. rewrite A. cbn [bind]. eexists; split; [reflexivity|exact B].
    - (* list of structs *)
      apply bind_Ok_inv in H as (sz & _ & H). apply bind_Ok_inv in H as (ss & E & H). inversion H; subst p.
      split; [reflexivity|]. cbn [extract_list structlist_elems]. apply mapM_inv in E.
      destruct (F2_chain _ (fun s v' => rec_ext id s = Ok v') (veq sch (TStruct isptr id)) _ _ E)
        as (vs' & A & B).
      { intros a s _ Hs. destruct (IH_self _ _ _ _ Hs) as (v' & Hx & Hq). exists v'. split; [exact Hx|].
        inversion Hq; subst. econstructor; eassumption. }
      rewrite (mapM_map_intro (fun os => extract_struct_into rec_ext false id os) Some _ _ A). cbn [bind].
      eexists; split; [reflexivity|exact B].
    - (* interfaces *)
      apply bind_Ok_inv in H as (ps & E & H). inversion H; subst p.
      split; [reflexivity|]. eexists; split; [reflexivity|]. eapply elems_rt; [|exact E]. intros a b Hab.
      destruct a as [| | | | | |[]]; try discriminate; inversion Hab; subst; constructor.
  Qed.

  Lemma veq_struct_flag b b' id v v' :
    veq sch (TStruct b id) v v' -> (exists x, v = GStruct (Some x)) -> veq sch (TStruct b' id) v v'.
  Proof. intros H (x & ->). inversion H; subst. econstructor; eassumption. Qed.

  Lemma dflt_len p dv off w d : slot_ok (FSlot p dv off (TInt w) d) = true -> length (dflt_bits d w) = w.
  Proof.
    cbn. intros H. destruct d; cbn; try (unfold zeros; apply repeat_length); try lia.
    all: exfalso; lia.
  Qed.

  Lemma text_veq k o x : norm_bytes o = norm_bytes x -> veq sch (TText k) (GBytes o) (go_text k x).
  Proof. intros H. destruct k; constructor; [exact H|]. rewrite H. destruct x as [[|]|]; reflexivity. Qed.

  (* a pointer field: what is read back depends only on the pointer that was written *)
  Lemma ptr_slot_rt s off t d p v s1 :
    slot_loc off t = [LPtr off] -> d <> DBad -> write_ptr s off p = Ok s1 ->
    (forall s2, read_ptr s2 off = p ->
       exists v', extract_field_body true rec_ext s2 off t d = Ok v' /\ veq sch t v v') ->
    same_outside (slot_loc off t) s s1 /\
    forall s2, agree_on (slot_loc off t) s1 s2 ->
      exists v', extract_field true rec_ext s2 off t d = Ok v' /\ veq sch t v v'.
  Proof.
    intros -> Hd Hw Hx. destruct (write_ptr_spec _ _ _ _ Hw) as [A B]. split; [exact A|].
    intros s2 Hag. rewrite extract_field_nb by exact Hd. apply Hx, B, Hag.
  Qed.

  (* reduces the round trip of a pointer field to the value read from a slot holding the pointer
     written by Hw *)
  Ltac ptr_case Hw :=
    eapply ptr_slot_rt; [reflexivity|eassumption|exact Hw|]; unfold extract_field_body; intros ? ->.

  Lemma slot_rt p dv s off t d v s1 :
    slot_ok (FSlot p dv off t d) = true ->
    insert_field sch rec_ins s off t d v = Ok s1 ->
    same_outside (slot_loc off t) s s1 /\
    forall s2, agree_on (slot_loc off t) s1 s2 ->
      exists v', extract_field true rec_ext s2 off t d = Ok v' /\ veq sch t v v'.
  Proof.
    intros Hok Hb. assert (Hd : d <> DBad) by (intros ->; discriminate).
    rewrite insert_field_nb in Hb by exact Hd. unfold insert_field_body in Hb.
    destruct (vmatch t v) eqn:Hvm; cbn [negb] in Hb; [|discriminate].
    destruct (is_field_in_bounds s off t) eqn:Hib; cbn [negb] in Hb; [|discriminate].
    destruct t; destruct v; try discriminate.
    - (* bool *)
      assert (0 <= off) as Hoff by (cbn in Hok; lia).
      destruct (write_bit_spec _ _ _ _ Hb Hoff) as [A B]. split; [exact A|].
      intros s2 Hag. rewrite extract_field_nb by exact Hd. unfold extract_field_body. rewrite (B s2 Hag).
      eexists; split; [reflexivity|].
      match goal with |- veq _ _ _ (GBool (xorb (xorb _ ?x) _)) => destruct b, x; constructor end.
    - (* int *)
      cbn [vmatch] in Hvm. assert (Hl : length bs = w) by lia.
      pose proof (dflt_len _ _ _ _ _ Hok) as Hdl.
      assert (Hx : length (xor_bits bs (dflt_bits d w)) = w) by (rewrite xor_bits_length; lia).
      destruct (write_int_spec _ _ _ _ Hb) as [A B]. cbn zeta in A, B. rewrite Hx in A, B.
      split; [exact A|]. intros s2 Hag. rewrite extract_field_nb by exact Hd.
      unfold extract_field_body. rewrite (B s2 Hag).
      rewrite xor_bits_inv by lia. eexists; split; [reflexivity|constructor].
    - (* text: nil and "" are written as the null pointer or, against a non-empty default, as "" *)
      destruct o as [[|x bs]|].
      2: { ptr_case Hb. eexists; split; [reflexivity|apply text_veq]. unfold text_of.
           change (x :: bs ++ [0]) with ((x :: bs) ++ [0]). rewrite ptr_text_snoc. reflexivity. }
      all: destruct (is_empty_value (TText bytes) d) eqn:Hev; cbn [negb] in Hb; ptr_case Hb;
        (eexists; split; [reflexivity|apply text_veq]);
        [symmetry; apply (empty_value_text _ _ Hev)|reflexivity].
    - (* data *)
      destruct o as [bs|]; [ptr_case Hb; eexists; split; [reflexivity|constructor; reflexivity]|].
      destruct (is_empty_value TData d) eqn:Hev; cbn [negb] in Hb; ptr_case Hb;
        (eexists; split; [reflexivity|constructor]);
        [symmetry; apply (empty_value_data _ Hev)|reflexivity].
    - (* list *)
      cbn [vmatch] in Hvm.
      destruct o as [vs|].
      + apply andb_true_iff in Hvm as [Hm Hv].
        apply bind_Ok_inv in Hb as (l & El & Hb).
        destruct (list_rt t vs l Hm Hv El) as (Hpl & vs' & Hx & Hq).
        ptr_case Hb. rewrite Hpl, Hx.
        eexists; split; [reflexivity|]. apply VE_list. exact Hq.
      + destruct (is_empty_value (TList t) d) eqn:Hev.
        * ptr_case Hb.
          cbn [ptr_list]. unfold is_empty_value in Hev. destruct d; try discriminate. cbn [dflt_ptr] in *.
          cbn in Hok. destruct (ptr_list p0) as [l|].
          { (* slot_ok admits no list default of length 0, which is what isEmptyValue found *)
            rewrite Hev in Hok. cbn [negb] in Hok. rewrite andb_false_r in Hok. discriminate. }
          eexists; split; [reflexivity|]. apply VE_list_empty; reflexivity.
        * apply bind_Ok_inv in Hb as (l & El & Hb).
          destruct (list_rt t [] l Hvm eq_refl El) as (Hpl & vs' & Hx & Hq).
          ptr_case Hb. rewrite Hpl, Hx.
          inversion Hq; subst. eexists; split; [reflexivity|]. apply VE_list_empty; reflexivity.
    - (* struct *)
      destruct o as [x|].
      + apply bind_Ok_inv in Hb as (sz & _ & Hb). apply bind_Ok_inv in Hb as (ss & Er & Hb).
        destruct (IH_self _ _ _ _ Er) as (v' & Hx & Hq).
        ptr_case Hb. cbn [ptr_struct extract_struct_into].
        rewrite Hx. eexists; split; [reflexivity|]. eapply veq_struct_flag; [exact Hq|eauto].
      + ptr_case Hb. cbn [ptr_struct].
        cbn in Hok. destruct (ptr_struct (dflt_ptr d)); [lia|].
        destruct isptr; [|discriminate]. cbn. eexists; split; [reflexivity|constructor].
    - (* interface *)
      ptr_case Hb.
      destruct p0; try discriminate; (eexists; split; [reflexivity|constructor]).
    - (* any pointer *)
      ptr_case Hb. cbn zeta.
      destruct p0; cbn [ptr_valid]; try (eexists; split; [reflexivity|constructor]).
      (* a null pointer reads as the default, which slot_ok requires to be null *)
      assert (Hnd : ptr_valid (dflt_ptr d) = false) by (cbn in Hok; lia).
      destruct (dflt_ptr d); try discriminate. eexists; split; [reflexivity|constructor].
  Qed.

  Lemma active_coexist hw disc f g :
    field_action hw disc f = Do -> field_action hw disc g = Do -> may_coexist f g = true.
  Proof.
    unfold field_action, may_coexist.
    destruct (negb (f_present f)); [discriminate|]. destruct (negb (f_present g)); [discriminate|].
    destruct (f_dv f) as [a|], (f_dv g) as [b|]; auto.
    destruct hw; [|discriminate].
    destruct (eqb_bits a disc) eqn:Ea; [|discriminate]. destruct (eqb_bits b disc) eqn:Eb; [|discriminate].
    intros _ _. apply eqb_bits_eq in Ea, Eb. subst. apply eqb_bits_eq. reflexivity.
  Qed.

  Lemma action_false_irrel d1 d2 f : field_action false d1 f = field_action false d2 f.
  Proof. unfold field_action. destruct (negb (f_present f)); [reflexivity|]. destruct (f_dv f); reflexivity. Qed.

  Lemma ext_false_irrel d1 d2 s : forall fs,
    extract_fields true rec_ext false d1 s fs = extract_fields true rec_ext false d2 s fs.
  Proof.
    induction fs as [|f fs IHf]; [reflexivity|]. cbn [extract_fields].
    rewrite (action_false_irrel d1 d2 f), IHf. reflexivity.
  Qed.

  Lemma veq_false_irrel d1 d2 fs vs vs' :
    veq_fields sch false d1 fs vs vs' -> veq_fields sch false d2 fs vs vs'.
  Proof.
    revert vs vs'. induction fs as [|f fs IHf]; intros vs vs' H; inversion H; subst; constructor; auto;
      try (rewrite (action_false_irrel d2 d1 f); assumption).
  Qed.

  Lemma touched_disjoint hw disc f : forall fs,
    field_action hw disc f = Do ->
    forallb (fun g => if f_present g && may_coexist f g
                      then locs_disjoint (field_fp tbl f) (field_fp tbl g) else true) fs = true ->
    fp_disj (field_fp tbl f) (touched tbl hw disc fs).
  Proof.
    induction fs as [|g fs IHf]; intros Ha H; cbn [touched forallb] in *; [intros x _; reflexivity|].
    apply andb_true_iff in H as [H1 H2]. specialize (IHf Ha H2).
    destruct (field_action hw disc g) eqn:Eg; auto.
    rewrite (action_present _ _ _ Eg), (active_coexist _ _ _ _ Ha Eg) in H1.
    apply fp_disj_app_r; [apply locs_disjoint_disj; exact H1|exact IHf].
  Qed.

  Lemma touched_incl hw disc N D : forall fs,
    fields_ok tbl N D fs = true ->
    fp_sub (touched tbl hw disc fs) N /\ fp_disj (touched tbl hw disc fs) D.
  Proof.
    induction fs as [|f fs IHf]; intros H; cbn [touched fields_ok] in *; [split; intros x Hx; discriminate|].
    apply andb_true_iff in H as [H1 H2]. destruct (IHf H2) as [I1 I2].
    destruct (field_action hw disc f) eqn:Ef; auto.
    rewrite (action_present _ _ _ Ef) in H1.
    apply andb_true_iff in H1 as [H1 _]. apply andb_true_iff in H1 as [H1 Hd].
    apply andb_true_iff in H1 as [_ Hi].
    split; [apply fp_sub_app; [apply locs_incl_sub; exact Hi|exact I1]
           |apply fp_disj_app_l; [apply locs_disjoint_disj; exact Hd|exact I2]].
  Qed.

  Definition one_ins (f : field) (s : strct) (v : gval) : res strct :=
    match f with
    | FSlot _ _ off t d => insert_field sch rec_ins s off t d v
    | FGroup _ _ gid => rec_ins gid s v
    end.
  Definition one_ext (f : field) (s : strct) : res gval :=
    match f with
    | FSlot _ _ off t d => extract_field true rec_ext s off t d
    | FGroup _ _ gid => rec_ext gid s
    end.

  Lemma one_rt f s v s1 :
    slot_ok f = true -> one_ins f s v = Ok s1 ->
    same_outside (field_fp tbl f) s s1 /\
    forall s2, agree_on (field_fp tbl f) s1 s2 ->
      exists v', one_ext f s2 = Ok v' /\ veq sch (field_type f) v v'.
  Proof.
    destruct f as [p dv off t d|p dv gid]; cbn [one_ins one_ext field_fp field_type]; intros Hok H.
    - eapply slot_rt; eauto.
    - apply IH; assumption.
  Qed.

  Lemma fields_rt hw disc N D : forall fs vs s s1,
    fields_ok tbl N D fs = true ->
    insert_fields sch rec_ins hw disc s fs vs = Ok s1 ->
    same_outside (touched tbl hw disc fs) s s1 /\
    forall s2, agree_on (touched tbl hw disc fs) s1 s2 ->
      exists vs', extract_fields true rec_ext hw disc s2 fs = Ok vs' /\ veq_fields sch hw disc fs vs vs'.
  Proof.
    induction fs as [|f fs IHf]; intros vs s s1 Hok H; destruct vs as [|v vs]; cbn [insert_fields] in H;
      try discriminate.
    - inversion H; subst. split; [apply same_outside_refl|]. intros s2 _. exists []. split; [reflexivity|constructor].
    - cbn [fields_ok] in Hok. apply andb_true_iff in Hok as [Hf Hok].
      cbn [touched extract_fields]. destruct (field_action hw disc f) eqn:Ha; try discriminate.
      + destruct (IHf _ _ _ Hok H) as [A B]. split; [exact A|]. intros s2 Hag.
        destruct (B s2 Hag) as (vs' & E & Q). rewrite E. cbn [bind]. eexists; split; [reflexivity|].
        constructor; [intros X; rewrite Ha in X; discriminate|exact Q].
      + rewrite (action_present _ _ _ Ha) in Hf.
        apply andb_true_iff in Hf as [Hf Hdis]. apply andb_true_iff in Hf as [Hf _].
        apply andb_true_iff in Hf as [Hs _].
        apply bind_Ok_inv in H as (sa & Ho & Hr). change (one_ins f s v = Ok sa) in Ho.
        destruct (one_rt f s v sa Hs Ho) as [A1 B1].
        destruct (IHf _ _ _ Hok Hr) as [A2 B2].
        split; [eapply same_outside_trans; eassumption|].
        (* s2 agrees with s1 on f's footprint and the later fields wrote outside it: so does sa *)
        intros s2 Hag.
        pose proof (agree_on_mono _ _ _ _ (fp_sub_app_l _ _) Hag) as Hf2.
        pose proof (agree_on_mono _ _ _ _ (fp_sub_app_r _ _) Hag) as Hr2.
        pose proof (agree_on_before _ _ _ _ _ (touched_disjoint hw disc f fs Ha Hdis) A2 Hf2) as Hfa.
        destruct (B1 s2 Hfa) as (v' & E1 & Q1). destruct (B2 s2 Hr2) as (vs' & E2 & Q2).
        exists (v' :: vs'). split.
        * change (one_ext f s2 = Ok v') in E1. destruct f; cbn [one_ext] in E1; rewrite E1; cbn [bind]; rewrite E2; reflexivity.
        * constructor; [intros _; exact Q1|exact Q2].
  Qed.

  (* the field loop of a node whose layout passed the check, seen from the node's footprint N;
     D is the discriminant's location, which the loop leaves alone *)
  Lemma node_fields_rt hw disc N D fs vs s s1 :
    fields_ok tbl N D fs = true ->
    insert_fields sch rec_ins hw disc s fs vs = Ok s1 ->
    same_outside N s s1 /\
    forall s2, agree_on N s1 s2 ->
      (fp_sub D N -> agree_on D s s2) /\
      exists vs', extract_fields true rec_ext hw disc s2 fs = Ok vs' /\ veq_fields sch hw disc fs vs vs'.
  Proof.
    intros Hfs H. destruct (fields_rt hw disc N D _ _ _ _ Hfs H) as [A B].
    destruct (touched_incl hw disc N D _ Hfs) as [T1 T2].
    split; [exact (same_outside_mono _ _ _ _ T1 A)|]. intros s2 Hag. split.
    - intros HD. exact (agree_on_before _ _ _ _ _ (fp_disj_sym _ _ T2) A (agree_on_mono _ _ _ _ HD Hag)).
    - apply B. exact (agree_on_mono _ _ _ _ T1 Hag).
  Qed.

  (* a node with a Which field or a fixed discriminant: the discriminant w is written first, then the
     fields; it is read back as written *)
  Lemma written_disc N doff w fs vals s s1 :
    fp_sub [LData (doff * 16) 16] N -> fields_ok tbl N [LData (doff * 16) 16] fs = true ->
    (do s0 <- (if negb (length w =? 16)%nat then Err
               else if s_dbytes s <? doff * 2 + 2 then Err else write_int s doff w);
     insert_fields sch rec_ins true w s0 fs vals) = Ok s1 ->
    same_outside N s s1 /\
    forall s2, agree_on N s1 s2 ->
      read_int s2 doff 16 = w /\
      exists vs', extract_fields true rec_ext true w s2 fs = Ok vs' /\ veq_fields sch true w fs vals vs'.
  Proof.
    intros Hdi Hfs H. apply bind_Ok_inv in H as (s0 & Hwr & H).
    destruct (negb (length w =? 16)%nat) eqn:Hl; [discriminate|].
    destruct (s_dbytes s <? doff * 2 + 2); [discriminate|].
    assert (Hlen : length w = 16%nat) by lia.
    destruct (write_int_spec _ _ _ _ Hwr) as [A0 B0]. cbn zeta in A0, B0. rewrite Hlen in A0, B0.
    change (Z.of_nat 16) with 16 in A0, B0.
    destruct (node_fields_rt _ _ _ _ _ _ _ _ Hfs H) as [A B]. split.
    - eapply same_outside_mono; [|eapply same_outside_trans; [exact A0|exact A]].
      apply fp_sub_app; [exact Hdi|intros x Hx; exact Hx].
    - intros s2 Hag. destruct (B s2 Hag) as [HD X]. split; [apply B0, HD, Hdi|exact X].
  Qed.

  Hypothesis nodes_ok : forall id n, find_node sch id = Some n -> node_ok tbl id n = true.

  Lemma body_rt id s v s1 :
    insert_struct_body sch rec_ins id s v = Ok s1 ->
    same_outside (fp_of tbl id) s s1 /\
    forall s2, agree_on (fp_of tbl id) s1 s2 ->
      exists v', extract_struct_body true sch rec_ext id s2 = Ok v' /\ veq sch (TStruct false id) v v'.
  Proof.
    unfold insert_struct_body, extract_struct_body. intros H.
    destruct v as [| | | | |[[which vals]|]|]; try discriminate.
    destruct (find_node sch id) as [n|] eqn:Hn; [|discriminate].
    pose proof (nodes_ok _ _ Hn) as Hok. unfold node_ok in Hok.
    apply andb_true_iff in Hok as [Hok Hfs]. apply andb_true_iff in Hok as [Hdoff Hdi].
    apply locs_incl_sub in Hdi. set (N := fp_of tbl id) in *.
    assert (Hveq : forall w2 vs', (n_which n = WField -> which = w2) ->
              veq_fields sch (has_which n) (eff_disc n which) (n_fields n) vals vs' ->
              veq sch (TStruct false id) (GStruct (Some (which, vals))) (GStruct (Some (w2, vs'))))
      by (intros; eapply VE_struct; eassumption).
    unfold has_which, eff_disc, disc_loc in *.
    destruct (n_disc n) as [doff|], (n_which n) as [| |z]; try discriminate; cbn [bind] in H.
    - (* a union, but no Which and no member mapped: the discriminant is neither written nor used *)
      destruct (node_fields_rt _ _ _ _ _ _ _ _ Hfs H) as [A B]. split; [exact A|]. intros s2 Hag.
      destruct (B s2 Hag) as (_ & vs' & E & Q).
      rewrite (ext_false_irrel _ []), E. cbn [bind]. eexists; split; [reflexivity|].
      apply Hveq; [discriminate|exact Q].
    - (* Which field *)
      destruct (written_disc _ _ _ _ _ _ _ Hdi Hfs H) as (A & B). split; [exact A|]. intros s2 Hag.
      destruct (B s2 Hag) as (-> & vs' & E & Q). rewrite E. cbn [bind]. eexists; split; [reflexivity|].
      apply Hveq; [reflexivity|exact Q].
    - (* fixed discriminant *)
      destruct (written_disc _ _ _ _ _ _ _ Hdi Hfs H) as (A & B). split; [exact A|]. intros s2 Hag.
      destruct (B s2 Hag) as (-> & vs' & E & Q). rewrite eqb_bits_refl, E. cbn [bind].
      eexists; split; [reflexivity|]. apply Hveq; [discriminate|exact Q].
    - (* no union *)
      destruct (node_fields_rt _ _ _ _ _ _ _ _ Hfs H) as [A B]. split; [exact A|]. intros s2 Hag.
      destruct (B s2 Hag) as (_ & vs' & E & Q). rewrite E. cbn [bind]. eexists; split; [reflexivity|].
      apply Hveq; [discriminate|exact Q].
  Qed.
End RT.

Lemma find_node_ok tbl sch : table_ok tbl sch = true ->
  forall id n, find_node sch id = Some n -> node_ok tbl id n = true.
Proof.
  unfold table_ok. intros H id n Hf. rewrite forallb_forall in H. exact (H _ (find_node_in _ _ _ Hf)).
Qed.

(* the general form: insert changes nothing outside the node's footprint, and extract reads
   nothing outside it *)
Theorem roundtrip_frame : forall sch tbl, table_ok tbl sch = true ->
  forall fuel id s v s1,
  insert_struct fuel sch id s v = Ok s1 ->
  same_outside (fp_of tbl id) s s1 /\
  forall s2, agree_on (fp_of tbl id) s1 s2 ->
    exists v', extract_struct true fuel sch id s2 = Ok v' /\ veq sch (TStruct false id) v v'.
Proof.
  intros sch tbl Hok. induction fuel as [|f IHf]; intros id s v s1 H; [discriminate|].
  cbn [insert_struct extract_struct] in *.
  eapply body_rt; [exact IHf|apply find_node_ok; exact Hok|exact H].
Qed.

Theorem extract_insert : forall D sch, schema_ok D sch = true ->
  forall fuel id s v s1,
  insert_struct fuel sch id s v = Ok s1 ->
  exists v', extract_struct true fuel sch id s1 = Ok v' /\ veq sch (TStruct false id) v v'.
Proof.
  intros D sch Hok fuel id s v s1 H.
  destruct (roundtrip_frame sch _ Hok fuel id s v s1 H) as [_ B]. apply B. apply agree_on_refl.
Qed.
