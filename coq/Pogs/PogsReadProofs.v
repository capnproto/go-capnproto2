(* C01 for pogs.Extract over the reader model: [extract_r] never panics, on any segment bytes,
   for every mapped schema accepted by [rschema_ok], any limits, any fuel.  The invariant of the
   induction is that every struct / list the extraction touches is a well-formed pointer of the
   message (wf_struct / wf_list of Core/SafetyProofs.v): every read is a Core accessor on a
   well-formed receiver, so by C01_accessor_safe what it returns comes from inside the segments. *)
From CV Require Import Core.SafetyProofs Pogs.PogsRead.
From CV Require Pogs.PogsM Pogs.PogsFrame.
From Coq Require Import ZifyBool.
Open Scope Z_scope.

(* x does not panic, and a value it produces satisfies P *)
Definition safeM {A} (x : M A) (P : A -> Prop) : Prop :=
  forall s, match fst (x s) with XOk a => P a | XPanic => False | _ => True end.

Definition top_ {A} : A -> Prop := fun _ => True.

Lemma safe_ret {A} (a : A) (P : A -> Prop) : P a -> safeM (ret a) P.
Proof. intros H s. exact H. Qed.

Lemma safe_fail {A} (r : xres A) (P : A -> Prop) :
  match r with XOk a => P a | XPanic => False | _ => True end -> safeM (fail r) P.
Proof. intros H s. exact H. Qed.

Lemma safe_bind {A B} (x : M A) (f : A -> M B) (Q : A -> Prop) (P : B -> Prop) :
  safeM x Q -> (forall a, Q a -> safeM (f a) P) -> safeM (bindM x f) P.
Proof.
  intros Hx Hf s. unfold bindM. specialize (Hx s).
  destruct (x s) as [r s']. cbn [fst] in Hx. destruct r; cbn [fst]; try exact I; try exact Hx.
  apply Hf. exact Hx.
Qed.

Lemma safe_weaken {A} (x : M A) (P Q : A -> Prop) : safeM x P -> (forall a, P a -> Q a) -> safeM x Q.
Proof. intros H HPQ s. specialize (H s). destruct (fst (x s)); auto. Qed.

Lemma safe_lift {A} (r : res A) (P : A -> Prop) : res_sat r P -> safeM (lift r) P.
Proof. intros H s. unfold lift. destruct r; cbn in *; auto. Qed.

Lemma safe_lift_np {A} (r : res A) : r <> Panic -> safeM (lift r) top_.
Proof. intros H s. unfold lift. destruct r; cbn; auto. exact I. Qed.

Lemma safe_lift_ptr (f : Z -> res Ptr * Z) (P : Ptr -> Prop) :
  (forall rl, res_sat (fst (f rl)) P) -> safeM (lift_ptr f) P.
Proof. intros H s. unfold lift_ptr. specialize (H (x_rl s)). destruct (fst (f (x_rl s))); cbn in *; auto. Qed.

Lemma safe_make_slice n : 0 <= n -> safeM (make_slice n) top_.
Proof. intros H s. unfold make_slice. destruct (n <? 0) eqn:E; [lia|]. exact I. Qed.

Lemma safe_iterM {A} (f : Z -> M A) : forall n lo,
  (forall i, lo <= i < lo + Z.of_nat n -> safeM (f i) top_) -> safeM (iterM n lo f) top_.
Proof.
  induction n as [|n IH]; intros lo H.
  - apply safe_ret. exact I.
  - cbn [iterM]. eapply safe_bind; [apply H; lia|]. intros a _.
    eapply safe_bind; [apply IH; intros i Hi; apply H; lia|]. intros r _. apply safe_ret. exact I.
Qed.

Lemma safe_map {A B} (x : M A) (g : A -> B) (Q : A -> Prop) :
  safeM x Q -> safeM (bd a <~ x ;; ret (g a)) top_.
Proof. intros H. eapply safe_bind; [exact H|]. intros; apply safe_ret; exact I. Qed.

(* what extractList runs after MakeSlice(n) *)
Lemma safe_loop {A B} n (f : Z -> M A) (g : list A -> B) : 0 <= n ->
  (forall i, 0 <= i < n -> safeM (f i) top_) -> safeM (bd vs <~ iterM (Z.to_nat n) 0 f ;; ret (g vs)) top_.
Proof. intros Hn Hf. eapply safe_map, safe_iterM. intros i Hi. apply Hf. lia. Qed.

Section Safe.
  Variable c : config.
  Variable fx : fixes.
  Variable m : segs.
  Variable sch : PogsM.schema.
  Variable rec_ext : Z -> Ptr -> M rval.
  Hypothesis Hm : msg_ok m.
  Hypothesis Hstrict : cfg_strict c = true.
  Hypothesis Hbit : fx_bit fx = true.
  Hypothesis Hrec : forall id sp, wf_struct m sp -> safeM (rec_ext id sp) top_.

  Lemma sptr_safe sp off : wf_struct m sp -> safeM (sptr c m sp off) (wf_ptr m).
  Proof.
    intros Hw. apply safe_lift_ptr. intros rl.
    eapply res_sat_weaken; [apply struct_ptr_safe; try assumption|].
    - pose proof (Z.mod_pos_bound off 65536 ltac:(lia)). lia.
    - intros a H. apply H. assumption.
  Qed.

  Lemma plat_safe l i : wf_list m l -> 0 <= i < list_len l -> safeM (plat c fx m l i) (wf_ptr m).
  Proof.
    intros Hw Hi. apply safe_lift_ptr. intros rl.
    eapply res_sat_weaken; [apply ptrlist_at_safe; assumption|].
    intros a H. apply H. assumption.
  Qed.

  Lemma wf_struct_null : wf_struct m nullPtr.
  Proof. split; [apply wf_null|]. cbn. discriminate. Qed.

  Lemma extract_struct_into_safe isptr id sp : wf_struct m sp ->
    safeM (extract_struct_into rec_ext isptr id sp) top_.
  Proof.
    intros Hw. unfold extract_struct_into. destruct (isptr && negb (p_valid sp)).
    - apply safe_ret. exact I.
    - apply Hrec. assumption.
  Qed.

  Lemma list_len_nonneg l : wf_list m l -> p_valid l = true -> 0 <= list_len l.
  Proof.
    intros Hw V. destruct (wf_list_inv m l Hw V) as (_ & _ & Hl & _). unfold list_len. rewrite V. lia.
  Qed.

  Lemma extract_list_safe : forall e l, wf_list m l -> p_valid l = true ->
    safeM (extract_list c fx m rec_ext e l) top_.
  Proof.
    induction e as [| |w|bytes| |e IH|isptr id| |]; intros l Hw V;
      pose proof (list_len_nonneg l Hw V) as Hn; cbn [extract_list]; [apply safe_fail; exact I|..];
      (eapply safe_bind; [apply safe_make_slice; assumption|intros _ _]); [..|apply safe_fail; exact I];
      (apply safe_loop; [assumption|intros i Hi]).
    - eapply safe_map, safe_lift_np. rewrite Hbit. apply bitlist_at_safe; assumption.
    - eapply safe_map, safe_lift, list_uint_at_safe; try assumption.
      unfold PogsM.wbytes. apply Z.div_pos; lia.
    - eapply safe_bind; [apply plat_safe; assumption|]. intros p Hp.
      eapply safe_map, safe_lift, ptr_text_safe; assumption.
    - eapply safe_bind; [apply plat_safe; assumption|]. intros p Hp.
      eapply safe_map, safe_lift, ptr_data_safe; assumption.
    - eapply safe_bind; [apply plat_safe; assumption|]. intros p Hp. cbv zeta.
      destruct (p_valid (as_list p)) eqn:Vl; cbn [negb]; [|apply safe_ret; exact I].
      apply IH; [apply wf_list_as_list; assumption|assumption].
    - eapply safe_bind; [apply safe_lift, list_struct_safe with (m := m); assumption|].
      intros q Hq. apply Hrec. assumption.
    - eapply safe_map, plat_safe; assumption.
  Qed.

  Lemma extract_field_safe sp pr dv off t d : wf_struct m sp ->
    rslot_ok (PogsM.FSlot pr dv off t d) = true ->
    safeM (extract_field c fx m rec_ext sp off t d) top_.
  Proof.
    intros Hw Hok. unfold extract_field.
    assert (safeM (extract_field_body c fx m rec_ext sp off t d) top_) as Hb.
    { cbn [rslot_ok] in Hok. apply andb_prop in Hok. destruct Hok as [Ho Hok].
      pose proof (sptr_safe sp off Hw) as Hp.
      unfold extract_field_body. destruct t as [| |w|bytes| |e|isptr id| |].
      - apply safe_fail. exact I.
      - eapply safe_map, safe_lift_np.
        apply struct_bit_safe; try assumption. unfold u32. pose proof (Z.mod_pos_bound off 4294967296). lia.
      - apply andb_prop in Hok. destruct Hok as [Hwd Hlt]. eapply safe_map, safe_lift_np.
        assert (0 <= PogsM.wbytes w <= 8) as Hwb.
        { unfold PogsM.wbytes.
          assert (w = 8 \/ w = 16 \/ w = 32 \/ w = 64)%nat as Hc by lia.
          destruct Hc as [ -> | [ -> | [ -> | -> ] ] ]; cbn; lia. }
        assert (0 <= off * PogsM.wbytes w < 524288) as Hr by nia.
        unfold u32. rewrite Z.mod_small by lia.
        apply struct_uint_safe; assumption.
      - eapply safe_bind; [exact Hp|]. intros p Hwp.
        eapply safe_map, safe_lift, ptr_text_safe; assumption.
      - eapply safe_bind; [exact Hp|]. intros p Hwp.
        eapply safe_map, safe_lift, ptr_data_safe; assumption.
      - destruct (negb (PogsM.mappable e)); [apply safe_fail; exact I|].
        eapply safe_bind; [exact Hp|]. intros p Hwp. cbv zeta.
        destruct (p_valid (as_list p)) eqn:Vl.
        + apply extract_list_safe; [apply wf_list_as_list; assumption|assumption].
        + destruct (PogsM.ptr_list _); [apply safe_fail; exact I|apply safe_ret; exact I].
      - eapply safe_bind; [exact Hp|]. intros p Hwp. cbv zeta.
        destruct (p_valid (as_struct p)) eqn:Vs.
        + apply extract_struct_into_safe. apply wf_struct_as_struct. assumption.
        + destruct (PogsM.ptr_struct _); [apply safe_fail; exact I|].
          apply extract_struct_into_safe. apply wf_struct_null.
      - eapply safe_map. exact Hp.
      - eapply safe_bind; [exact Hp|]. intros p Hwp.
        destruct (p_valid p); [apply safe_ret; exact I|].
        destruct (PogsM.ptr_valid _); [apply safe_fail; exact I|apply safe_ret; exact I]. }
    destruct d; try exact Hb. apply safe_fail. exact I.
  Qed.

  Lemma extract_fields_safe hw disc sp : wf_struct m sp -> forall fs,
    forallb (fun f => if PogsM.f_present f then rslot_ok f else true) fs = true ->
    safeM (extract_fields c fx m rec_ext hw disc sp fs) top_.
  Proof.
    intros Hw. induction fs as [|f fs IH]; intros Hok; cbn [extract_fields].
    - apply safe_ret. exact I.
    - cbn [forallb] in Hok. apply andb_prop in Hok. destruct Hok as [Hf Hfs]. specialize (IH Hfs).
      destruct (PogsM.field_action hw disc f) eqn:Ha.
      + eapply safe_map. exact IH.
      + rewrite (PogsFrame.action_present _ _ _ Ha) in Hf.
        eapply safe_bind; [|intros v _; eapply safe_map; exact IH].
        destruct f as [pr dv off t d|pr dv gid]; [eapply extract_field_safe; eassumption|apply Hrec; assumption].
      + apply safe_fail. exact I.
  Qed.

  Hypothesis Hsch : forall id n, PogsM.find_node sch id = Some n -> rnode_ok n = true.

  Lemma extract_struct_body_safe id sp : wf_struct m sp ->
    safeM (extract_struct_body c fx m sch rec_ext id sp) top_.
  Proof.
    intros Hw. unfold extract_struct_body.
    destruct (PogsM.find_node sch id) as [n|] eqn:En; [|apply safe_fail; exact I].
    pose proof (Hsch id n En) as Hn. unfold rnode_ok in Hn. apply andb_prop in Hn. destruct Hn as [Hd Hfs].
    pose proof (fun hw disc => extract_fields_safe hw disc sp Hw (PogsM.n_fields n) Hfs) as HF.
    destruct (PogsM.n_disc n) as [doff|].
    - eapply safe_bind.
      { apply safe_lift_np. unfold u32. rewrite Z.mod_small by lia.
        apply struct_uint_safe; try assumption; lia. }
      intros dz _. cbv zeta. destruct (PogsM.n_which n); try (eapply safe_map; apply HF).
      destruct (PogsM.eqb_bits _ _); [eapply safe_map; apply HF|apply safe_fail; exact I].
    - eapply safe_map. apply HF.
  Qed.
End Safe.

Lemma rschema_node_ok g sch id n : rschema_ok g sch = true -> PogsM.find_node sch id = Some n ->
  rnode_ok n = true /\ nest_ok g sch id = true.
Proof.
  intros Hs Hf. apply PogsFrame.find_node_in in Hf. unfold rschema_ok in Hs. rewrite forallb_forall in Hs.
  specialize (Hs _ Hf). cbn [fst snd] in Hs. apply andb_prop in Hs. exact Hs.
Qed.

(* pogs.Extract on any struct of any message never panics *)
Theorem extract_r_safe c fx m sch g : msg_ok m -> cfg_strict c = true -> fx_bit fx = true ->
  rschema_ok g sch = true ->
  forall fuel id sp, wf_struct m sp -> safeM (extract_r fuel c fx m sch id sp) top_.
Proof.
  intros Hm Hs Hb Hok. induction fuel as [|f IH]; intros id sp Hw; cbn [extract_r].
  - apply safe_fail. exact I.
  - apply extract_struct_body_safe; try assumption.
    intros id' n Hf. eapply rschema_node_ok; eassumption.
Qed.

Theorem extract_r_never_panics c fx m sch g fuel id sp s : msg_ok m -> cfg_strict c = true -> fx_bit fx = true ->
  rschema_ok g sch = true -> wf_struct m sp ->
  fst (extract_r fuel c fx m sch id sp s) <> XPanic.
Proof.
  intros Hm Hs Hb Hok Hw E. pose proof (extract_r_safe c fx m sch g Hm Hs Hb Hok fuel id sp Hw s) as H.
  rewrite E in H. exact H.
Qed.

(* from the raw bytes: msg.Root() then pogs.Extract(&v, id, root.Struct()) *)
Theorem extract_msg_never_panics c fx m sch g fuel id : msg_ok m -> cfg_strict c = true -> cfg_root c = true ->
  fx_bit fx = true -> rschema_ok g sch = true ->
  fst (extract_msg fuel c fx m sch id) <> TRootPanic /\ fst (extract_msg fuel c fx m sch id) <> TRes XPanic.
Proof.
  intros Hm Hs Hr Hb Hok. unfold extract_msg.
  pose proof (root_safe c m (init_rlimit c) Hm Hr) as Hroot.
  destruct (fst (root c m (init_rlimit c))) as [p| |]; cbn [res_sat] in Hroot; cbn [fst].
  - split; [discriminate|]. intros E. inversion E as [E'].
    eapply extract_r_never_panics; try eassumption.
    apply wf_struct_as_struct. apply Hroot. assumption.
  - split; discriminate.
  - contradiction.
Qed.
