(* Totality of the extract model on ALL struct contents: it never panics (every fuel, every
   schema, every struct, either value of [fixed]), and a result other than
   OutOfFuel is final: more fuel returns the same result. *)
From CV Require Import Pogs.PogsM Pogs.PogsProofs.
Open Scope Z_scope.

(* neither of the two outcomes that no leaf of the walk produces *)
Definition plain {A} (r : res A) : Prop := r <> Panic /\ r <> Unmodelled.

Lemma bind_plain {A B} (r : res A) (k : A -> res B) :
  plain r -> (forall a, plain (k a)) -> plain (bind r k).
Proof. intros [H1 H2] K. destruct r; cbn; auto; split; congruence. Qed.

Theorem extract_plain : forall fixed fuel sch id s, plain (extract_struct fixed fuel sch id s).
Proof.
  induction fuel as [|f IH]; intros; cbn [extract_struct]; [split; discriminate|].
  apply (body_R (fun A r _ => plain r)).
  - split; discriminate.
  - split; discriminate.
  - intros A B r _ k _. apply bind_plain.
  - exact (extract_struct fixed f sch).
  - intros; apply IH.
Qed.

Theorem extract_never_panics : forall fixed fuel sch id s,
  extract_struct fixed fuel sch id s <> Panic.
Proof. intros. apply extract_plain. Qed.

(* the whole-struct read through the generated accessors does not panic either: it calls the
   getter of a union member only when Which() selects it *)
Corollary gen_struct_never_panics : forall fuel sch id s, gen_struct fuel sch id s <> Panic.
Proof. intros. rewrite <- extract_agrees_with_generated. apply extract_never_panics. Qed.

Definition fle {A} (r1 r2 : res A) : Prop := r1 <> OutOfFuel -> r2 = r1.

Lemma fle_refl {A} (r : res A) : fle r r.
Proof. intros _. reflexivity. Qed.

Lemma bind_fle {A B} (r1 r2 : res A) (k1 k2 : A -> res B) :
  fle r1 r2 -> (forall a, fle (k1 a) (k2 a)) -> fle (bind r1 k1) (bind r2 k2).
Proof.
  unfold fle. intros H K N. destruct r1; cbn in *; try (rewrite H by discriminate; reflexivity).
  - rewrite H by discriminate. cbn. apply K. exact N.
  - contradiction.
Qed.

Lemma extract_fuel_mono fixed sch : forall fuel fuel', (fuel <= fuel')%nat ->
  forall id s, fle (extract_struct fixed fuel sch id s) (extract_struct fixed fuel' sch id s).
Proof.
  induction fuel as [|f IH]; intros fuel' Hle id s; [intros N; contradiction N; reflexivity|].
  destruct fuel' as [|f']; [lia|]. cbn [extract_struct].
  apply (body_R (@fle)); [intros; apply fle_refl|intros; apply fle_refl|apply @bind_fle|].
  apply IH. lia.
Qed.

(* a result other than OutOfFuel is the result for every larger fuel *)
Theorem extract_fuel_stable : forall fixed fuel k sch id s,
  extract_struct fixed fuel sch id s <> OutOfFuel ->
  extract_struct fixed (k + fuel) sch id s = extract_struct fixed fuel sch id s.
Proof. intros fixed fuel k sch id s. apply extract_fuel_mono. lia. Qed.

(* the outcome of Extract on arbitrary contents is one of: a value, an error, Unmodelled, OutOfFuel
   (by extract_plain the third never occurs) *)
Theorem extract_total : forall fixed fuel sch id s,
  (exists v, extract_struct fixed fuel sch id s = Ok v) \/
  extract_struct fixed fuel sch id s = Err \/
  extract_struct fixed fuel sch id s = Unmodelled \/
  extract_struct fixed fuel sch id s = OutOfFuel.
Proof.
  intros. destruct (extract_plain fixed fuel sch id s) as [H _].
  destruct (extract_struct fixed fuel sch id s); eauto. contradiction.
Qed.
