(* The stated fuel: extract_struct does not run out of fuel when fuel >= need, where
     need id s = sdepth s * (R + 1) + rank id + 1
   (sdepth = pointer nesting depth of the struct tree; rank = nesting rank of groups and of
   struct-valued (non-pointer) Go fields, which is finite for every Go type; R bounds rank). *)
From CV Require Import Pogs.PogsM Pogs.PogsProofs Pogs.PogsTotal.
From Coq Require Import ZifyBool ZifyNat.
Open Scope Z_scope.

Fixpoint pdepth (p : ptrval) : nat :=
  match p with
  | PNull => 0
  | PStruct s => S (sdepth s)
  | PStructs ss => S (list_max (map sdepth ss))
  | PPtrs ps => S (list_max (map pdepth ps))
  | _ => 1
  end
with sdepth (s : strct) : nat :=
  match s with
  | Strct _ _ pc ptrs => list_max (map (fun k => pdepth (ptrs (Z.of_nat k))) (seq 0 (Z.to_nat pc)))
  end.

Lemma list_max_in' {A} (f : A -> nat) l a : In a l -> (f a <= list_max (map f l))%nat.
Proof.
  intros H. pose proof (proj1 (list_max_le (map f l) _) (le_n _)) as Hmax.
  rewrite Forall_forall in Hmax. apply Hmax, in_map, H.
Qed.

Lemma read_ptr_depth s off : 0 <= off -> (pdepth (read_ptr s off) <= sdepth s)%nat.
Proof.
  intros H. unfold read_ptr. destruct s as [db d pc ptrs]. cbn [s_pcount s_ptrs].
  destruct (off <? pc) eqn:E; [|cbn; lia].
  cbn [sdepth]. replace off with (Z.of_nat (Z.to_nat off)) at 1 by lia.
  apply (list_max_in' (fun k => pdepth (ptrs (Z.of_nat k)))). apply in_seq. lia.
Qed.

Lemma ptr_struct_depth p ss : ptr_struct p = Some ss -> pdepth p = S (sdepth ss).
Proof. destruct p; cbn; intros H; inversion H; reflexivity. Qed.
Lemma ptr_list_eq p l : ptr_list p = Some l -> l = p.
Proof. destruct p; cbn; intros H; inversion H; reflexivity. Qed.

Lemma ptrlist_depth l ps p : ptrlist_elems l = Ok ps -> In p ps -> (pdepth p < pdepth l)%nat.
Proof.
  destruct l; cbn; intros H Hin; try (inversion H; subst; contradiction).
  - destruct (length bs); inversion H; subst; contradiction.
  - destruct (length bs); inversion H; subst; contradiction.
  - destruct (length es); inversion H; subst; contradiction.
  - inversion H; subst. change (pdepth p < S (list_max (map pdepth ps)))%nat.
    pose proof (list_max_in' pdepth ps p Hin). lia.
  - destruct ss as [|s0 ss']; [inversion H; subst; contradiction|].
    destruct (1 <=? s_pcount s0); [|discriminate]. inversion H; subst.
    change (In p (map (fun e : strct => read_ptr e 0) (s0 :: ss'))) in Hin.
    apply in_map_iff in Hin as (e & <- & He).
    change (pdepth (read_ptr e 0) < S (list_max (map sdepth (s0 :: ss'))))%nat.
    pose proof (read_ptr_depth e 0 ltac:(lia)). pose proof (list_max_in' sdepth (s0 :: ss') e He). lia.
Qed.

Lemma sdepth_nop db d pf : sdepth (Strct db d 0 pf) = 0%nat.
Proof. reflexivity. Qed.
Lemma sdepth_one db d p : sdepth (Strct db d 1 (fun _ => p)) = Nat.max (pdepth p) 0.
Proof. reflexivity. Qed.
Lemma pdepth_ptrs ps : pdepth (PPtrs ps) = S (list_max (map pdepth ps)).
Proof. reflexivity. Qed.
Lemma pdepth_structs ss : pdepth (PStructs ss) = S (list_max (map sdepth ss)).
Proof. reflexivity. Qed.

Lemma structlist_depth l ss : In (Some ss) (structlist_elems l) -> (sdepth ss < pdepth l)%nat.
Proof.
  destruct l; cbn [structlist_elems]; intros H; try contradiction.
  - apply in_map_iff in H as (b & Hb & _). inversion Hb; subst. rewrite sdepth_nop. cbn; lia.
  - apply in_map_iff in H as (b & Hb & _). discriminate.
  - apply in_map_iff in H as (b & Hb & _). inversion Hb; subst. rewrite sdepth_nop. cbn; lia.
  - apply in_map_iff in H as (p & Hb & Hin). inversion Hb; subst. rewrite sdepth_one, pdepth_ptrs.
    pose proof (list_max_in' pdepth ps p Hin). lia.
  - apply in_map_iff in H as (b & Hb & Hin). inversion Hb; subst. rewrite pdepth_structs.
    pose proof (list_max_in' sdepth ss0 ss Hin). lia.
Qed.

Lemma bind_nf {A B} (r : res A) (k : A -> res B) :
  r <> OutOfFuel -> (forall a, r = Ok a -> k a <> OutOfFuel) -> bind r k <> OutOfFuel.
Proof. destruct r; cbn; intros H K; auto; try discriminate. Qed.

Lemma mapM_nf {A B} (f : A -> res B) l : (forall a, In a l -> f a <> OutOfFuel) -> mapM f l <> OutOfFuel.
Proof.
  induction l as [|a l IH]; cbn [mapM]; intros H; [discriminate|].
  apply bind_nf; [apply H; left; reflexivity|]. intros b _. apply bind_nf; [|discriminate].
  apply IH. intros; apply H; right; assumption.
Qed.

(* schema conditions: ranks decrease along groups and struct-valued Go fields; struct- and
   list-typed slots have no default (a default would be walked in place of a null pointer, and
   its depth is no part of [sdepth s], which is all [need] counts; [slot_ok] of the round trip is
   a different condition and admits non-empty list defaults); offsets are non-negative *)
Definition field_rank_ok (rank : Z -> nat) (id : Z) (f : field) : Prop :=
  match f with
  | FGroup _ _ gid => (rank gid < rank id)%nat
  | FSlot _ _ off t d =>
    0 <= off /\
    match t with
    | TStruct false id' => (rank id' < rank id)%nat /\ ptr_struct (dflt_ptr d) = None
    | TStruct true _ => ptr_struct (dflt_ptr d) = None
    | TList _ => ptr_list (dflt_ptr d) = None
    | _ => True
    end
  end.
Definition ranked (sch : schema) (rank : Z -> nat) (R : nat) : Prop :=
  (forall id, (rank id <= R)%nat) /\
  forall id n, find_node sch id = Some n -> Forall (field_rank_ok rank id) (n_fields n).

Definition need (rank : Z -> nat) (R : nat) (id : Z) (s : strct) : nat :=
  (sdepth s * S R + rank id + 1)%nat.

Section Fuel.
  Variable fixed : bool.
  Variable sch : schema.
  Variable rank : Z -> nat.
  Variable R : nat.
  Hypothesis HR : forall id, (rank id <= R)%nat.
  Variable rec_ext : Z -> strct -> res gval.

  Lemma need_deeper id id' s s' : (sdepth s' < sdepth s)%nat -> (need rank R id' s' < need rank R id s)%nat.
  Proof. intros H. unfold need. pose proof (HR id'). nia. Qed.

  Lemma ptrlist_nf l : ptrlist_elems l <> OutOfFuel.
  Proof. destruct (ptrlist_elems_cases l) as [[ps ->]| ->]; discriminate. Qed.

  (* list elements are structs strictly below the list *)
  Lemma list_nf e : forall l,
    (forall id' s', (sdepth s' < pdepth l)%nat -> rec_ext id' s' <> OutOfFuel) ->
    ptr_list l = Some l ->
    extract_list rec_ext e l <> OutOfFuel.
  Proof.
    induction e; intros l Hrec Hl; cbn [extract_list]; try discriminate;
      try (apply bind_nf; [apply ptrlist_nf|discriminate]).
    - apply bind_nf; [apply ptrlist_nf|].
      intros ps Hps. apply bind_nf; [|discriminate].
      apply mapM_nf. intros p Hin. destruct (ptr_list p) as [l'|] eqn:El; [|discriminate].
      pose proof (ptr_list_eq _ _ El). subst l'. apply (IHe p); [|exact El].
      intros id' s' Hd. apply Hrec. pose proof (ptrlist_depth l ps p Hps Hin). lia.
    - apply bind_nf; [|discriminate]. apply mapM_nf. intros os Hin.
      destruct os as [ss|]; cbn [extract_struct_into].
      + apply Hrec. apply structlist_depth. exact Hin.
      + apply Hrec. destruct l; cbn in Hl; try discriminate; cbn; lia.
  Qed.

  Lemma field_nf id s off t d :
    field_rank_ok rank id (FSlot true None off t d) ->
    (forall id' s', (need rank R id' s' < need rank R id s)%nat -> rec_ext id' s' <> OutOfFuel) ->
    extract_field fixed rec_ext s off t d <> OutOfFuel.
  Proof.
    intros [Hoff Ht] Hrec. unfold extract_field.
    assert (H : extract_field_body fixed rec_ext s off t d <> OutOfFuel).
    { unfold extract_field_body. pose proof (read_ptr_depth s off Hoff) as Hd.
      destruct t; try discriminate.
      - (* list *)
        destruct (ptr_list (read_ptr s off)) as [l|] eqn:El.
        + pose proof (ptr_list_eq _ _ El). subst l. apply list_nf; [|exact El].
          intros id' s' Hs. apply Hrec. apply need_deeper. lia.
        + rewrite Ht. discriminate.
      - (* struct *)
        destruct (ptr_struct (read_ptr s off)) as [ss|] eqn:Es.
        + cbn [extract_struct_into]. apply Hrec. apply ptr_struct_depth in Es. apply need_deeper. lia.
        + destruct isptr.
          * rewrite Ht. cbn. discriminate.
          * destruct Ht as [Hr Hn]. rewrite Hn. cbn [extract_struct_into]. apply Hrec.
            unfold need. cbn. lia. }
    destruct d; auto; discriminate.
  Qed.

  Lemma fields_nf id hw disc s : forall fs,
    Forall (field_rank_ok rank id) fs ->
    (forall id' s', (need rank R id' s' < need rank R id s)%nat -> rec_ext id' s' <> OutOfFuel) ->
    extract_fields fixed rec_ext hw disc s fs <> OutOfFuel.
  Proof.
    induction fs as [|f fs IH]; intros Hf Hrec; cbn [extract_fields]; [discriminate|].
    inversion Hf; subst.
    destruct (field_action hw disc f); try discriminate.
    - apply bind_nf; [apply IH; assumption|discriminate].
    - apply bind_nf.
      + destruct f as [p dv off t d|p dv gid].
        * apply (field_nf id); assumption.
        * apply Hrec. cbn in H1. unfold need. lia.
      + intros v _. apply bind_nf; [apply IH; assumption|discriminate].
  Qed.

  Hypothesis Hfields : forall id n, find_node sch id = Some n -> Forall (field_rank_ok rank id) (n_fields n).

  Lemma body_nf id s :
    (forall id' s', (need rank R id' s' < need rank R id s)%nat -> rec_ext id' s' <> OutOfFuel) ->
    extract_struct_body fixed sch rec_ext id s <> OutOfFuel.
  Proof.
    intros Hrec. unfold extract_struct_body. destruct (find_node sch id) as [n|] eqn:Hn; [|discriminate].
    pose proof (Hfields _ _ Hn) as Hf.
    destruct (n_disc n); [destruct (n_which n); [| |destruct (eqb_bits _ _); [|discriminate]]|];
      (apply bind_nf; [apply (fields_nf id); assumption|discriminate]).
  Qed.
End Fuel.

(* the stated fuel suffices: for every struct contents *)
Theorem extract_fuel_sufficient : forall fixed sch rank R, ranked sch rank R ->
  forall fuel id s, (need rank R id s <= fuel)%nat ->
  extract_struct fixed fuel sch id s <> OutOfFuel.
Proof.
  intros fixed sch rank R [HR Hf]. induction fuel as [|f IH]; intros id s Hn.
  - unfold need in Hn. lia.
  - cbn [extract_struct]. apply (body_nf fixed sch rank R HR); [exact Hf|].
    intros id' s' Hlt. apply IH. lia.
Qed.

(* hence: with that fuel Extract returns a value or an error on arbitrary contents *)
Theorem extract_value_or_error : forall fixed sch rank R, ranked sch rank R ->
  forall fuel id s, (need rank R id s <= fuel)%nat ->
  (exists v, extract_struct fixed fuel sch id s = Ok v) \/ extract_struct fixed fuel sch id s = Err.
Proof.
  intros fixed sch rank R Hr fuel id s Hn.
  pose proof (extract_fuel_sufficient fixed sch rank R Hr fuel id s Hn) as H1.
  destruct (extract_plain fixed fuel sch id s) as [H2 H3].
  destruct (extract_struct fixed fuel sch id s); eauto; contradiction.
Qed.

(* [extract_value_or_error] with [Unmodelled], which never occurs, as a third disjunct *)
Corollary extract_terminates : forall fixed sch rank R, ranked sch rank R ->
  forall fuel id s, (need rank R id s <= fuel)%nat ->
  (exists v, extract_struct fixed fuel sch id s = Ok v) \/
  extract_struct fixed fuel sch id s = Err \/
  extract_struct fixed fuel sch id s = Unmodelled.
Proof.
  intros fixed sch rank R Hr fuel id s Hn.
  destruct (extract_value_or_error fixed sch rank R Hr fuel id s Hn); auto.
Qed.

(* the example schema (a group, a recursive List(Ex)) is ranked *)
From CV Require Import Pogs.PogsExamples.
Definition ex_rank (id : Z) : nat := if id =? 1 then 1%nat else 0%nat.
Example ex_ranked : ranked ex_schema ex_rank 1.
Proof.
  split.
  - intros id. unfold ex_rank. destruct (id =? 1); lia.
  - intros id n H. unfold ex_schema in H. cbn [find_node] in H. destruct (1 =? id) eqn:E1.
    + injection H as <-. assert (id = 1) by lia. subst id.
      repeat constructor; cbn; try lia; try reflexivity.
    + destruct (2 =? id) eqn:E2; [|discriminate]. injection H as <-. assert (id = 2) by lia. subst id.
      repeat constructor; cbn; try lia; try reflexivity.
Qed.
Example ex_fuel : forall s, extract_struct true (sdepth s * 2 + 2) ex_schema 1 s <> OutOfFuel.
Proof.
  intros s. apply (extract_fuel_sufficient true ex_schema ex_rank 1 ex_ranked).
  unfold need, ex_rank. cbn. lia.
Qed.
