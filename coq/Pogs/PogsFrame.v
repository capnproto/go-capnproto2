(* Frame lemmas for the struct model: what a write changes, what a read depends on;
   and: the field loops ignore fields that are not live. *)
From CV Require Import Pogs.PogsM Pogs.PogsSpec.
From Coq Require Import ZifyBool ZifyNat.
Open Scope Z_scope.

Lemma bind_Ok_inv {A B} (r : res A) (k : A -> res B) b :
  bind r k = Ok b -> exists a, r = Ok a /\ k a = Ok b.
Proof. destruct r; cbn; intros H; try discriminate. eauto. Qed.

Lemma eqb_bits_eq a : forall b, eqb_bits a b = true <-> a = b.
Proof.
  induction a as [|x a IH]; destruct b as [|y b]; cbn; split; intros H; try discriminate; try reflexivity.
  - apply andb_true_iff in H as [H1 H2]. apply eqb_prop in H1. apply IH in H2. congruence.
  - inversion H; subst. rewrite eqb_reflx. apply IH. reflexivity.
Qed.

Lemma eqb_bits_refl a : eqb_bits a a = true.
Proof. apply eqb_bits_eq. reflexivity. Qed.

Lemma xor_bits_inv a : forall d, length d = length a -> xor_bits (xor_bits a d) d = a.
Proof.
  induction a as [|x a IH]; destruct d as [|y d]; cbn; intros H; try discriminate; try reflexivity.
  rewrite IH by lia. destruct x, y; reflexivity.
Qed.
Lemma xor_bits_length a : forall d, length d = length a -> length (xor_bits a d) = length a.
Proof.
  induction a as [|x a IH]; destruct d as [|y d]; cbn; intros H; try discriminate; try reflexivity.
  rewrite IH by lia. reflexivity.
Qed.

Lemma find_node_in sch : forall id n, find_node sch id = Some n -> In (id, n) sch.
Proof.
  induction sch as [|[i n0] r IH]; intros id n H; cbn in H; [discriminate|].
  destruct (i =? id) eqn:E.
  - inversion H. subst. left. f_equal. lia.
  - right. apply IH. assumption.
Qed.

(* Footprints as sets of cells.
   A cell is a data bit (inl i) or a pointer slot (inr j); [in_data F i] and [in_ptr F j] are
   [mem F (inl i)] and [mem F (inr j)] by computation. *)
Definition hit (x : Z + Z) (l : loc) : bool :=
  match x with
  | inl i => match l with LData st n => (st <=? i) && (i <? st + n) | LPtr _ => false end
  | inr j => match l with LPtr k => k =? j | LData _ _ => false end
  end.
Definition mem (F : list loc) (x : Z + Z) : bool := existsb (hit x) F.

Definition fp_sub (F N : list loc) : Prop := forall x, mem F x = true -> mem N x = true.
Definition fp_disj (F G : list loc) : Prop := forall x, mem F x = true -> mem G x = false.

Lemma mem_app F G x : mem (F ++ G) x = mem F x || mem G x.
Proof. apply existsb_app. Qed.

Lemma fp_sub_app_l F G : fp_sub F (F ++ G).
Proof. intros x H. rewrite mem_app, H. reflexivity. Qed.
Lemma fp_sub_app_r F G : fp_sub G (F ++ G).
Proof. intros x H. rewrite mem_app, H. apply orb_true_r. Qed.
Lemma fp_sub_app F G N : fp_sub F N -> fp_sub G N -> fp_sub (F ++ G) N.
Proof. intros HF HG x H. rewrite mem_app in H. apply orb_true_iff in H as [H|H]; auto. Qed.
Lemma fp_sub_out F N x : fp_sub F N -> mem N x = false -> mem F x = false.
Proof. intros H Hx. destruct (mem F x) eqn:E; [|reflexivity]. rewrite (H x E) in Hx. discriminate. Qed.

Lemma fp_disj_app_l F G D : fp_disj F D -> fp_disj G D -> fp_disj (F ++ G) D.
Proof. intros HF HG x H. rewrite mem_app in H. apply orb_true_iff in H as [H|H]; auto. Qed.
Lemma fp_disj_app_r F G H : fp_disj F G -> fp_disj F H -> fp_disj F (G ++ H).
Proof. intros HG HH x Hx. rewrite mem_app, (HG x Hx), (HH x Hx). reflexivity. Qed.
Lemma fp_disj_sym F G : fp_disj F G -> fp_disj G F.
Proof. intros H x Hx. destruct (mem F x) eqn:E; [|reflexivity]. rewrite (H x E) in Hx. discriminate. Qed.

Lemma loc_eqb_eq a b : loc_eqb a b = true -> a = b.
Proof. destruct a, b; cbn; intros H; try discriminate; f_equal; lia. Qed.

Lemma locs_incl_sub A B : locs_incl A B = true -> fp_sub A B.
Proof.
  unfold locs_incl. intros H x Hx. apply existsb_exists in Hx as (a & Ha & Hax).
  rewrite forallb_forall in H. specialize (H a Ha). apply existsb_exists in H as (b & Hb & Hab).
  apply loc_eqb_eq in Hab. subst b. apply existsb_exists. exists a; auto.
Qed.

Lemma loc_disjoint_hit a b x : loc_disjoint a b = true -> hit x a = true -> hit x b = false.
Proof. destruct x, a, b; cbn; intros; try reflexivity; try discriminate; lia. Qed.

Lemma locs_disjoint_disj F G : locs_disjoint F G = true -> fp_disj F G.
Proof.
  unfold locs_disjoint. intros H x Hx. apply existsb_exists in Hx as (a & Ha & Hax).
  rewrite forallb_forall in H. specialize (H a Ha). rewrite forallb_forall in H.
  destruct (mem G x) eqn:E; [|reflexivity]. apply existsb_exists in E as (b & Hb & Hbx).
  rewrite (loc_disjoint_hit a b x (H b Hb) Hax) in Hbx. discriminate.
Qed.

Lemma agree_on_refl F s : agree_on F s s.
Proof. repeat split. Qed.
Lemma same_outside_refl F s : same_outside F s s.
Proof. repeat split. Qed.

Lemma same_outside_mono F N s1 s2 : fp_sub F N -> same_outside F s1 s2 -> same_outside N s1 s2.
Proof.
  intros H (a1 & a2 & a3 & a4). repeat split; auto.
  - intros i Hi. apply a3, (fp_sub_out F N (inl i)); assumption.
  - intros j Hj. apply a4, (fp_sub_out F N (inr j)); assumption.
Qed.

Lemma same_outside_trans F G s1 s2 s3 :
  same_outside F s1 s2 -> same_outside G s2 s3 -> same_outside (F ++ G) s1 s3.
Proof.
  intros A B. apply (same_outside_mono F _ _ _ (fp_sub_app_l F G)) in A.
  apply (same_outside_mono G _ _ _ (fp_sub_app_r F G)) in B.
  destruct A as (a1 & a2 & a3 & a4), B as (b1 & b2 & b3 & b4). repeat split; try congruence.
  - intros i H. rewrite a3, b3; auto.
  - intros j H. rewrite a4, b4; auto.
Qed.

Lemma agree_on_mono F N s1 s2 : fp_sub F N -> agree_on N s1 s2 -> agree_on F s1 s2.
Proof.
  intros H (a1 & a2 & a3 & a4). repeat split; auto.
  - intros i Hi. apply a3, (H (inl i) Hi).
  - intros j Hj. apply a4, (H (inr j) Hj).
Qed.

(* s1 -> s2 changed only inside G, F and G disjoint, s2 agrees with s3 on F: so does s1 *)
Lemma agree_on_before F G s1 s2 s3 :
  fp_disj F G -> same_outside G s1 s2 -> agree_on F s2 s3 -> agree_on F s1 s3.
Proof.
  intros H (a1 & a2 & a3 & a4) (b1 & b2 & b3 & b4). repeat split; try congruence.
  - intros i Hi. rewrite a3, b3; auto. apply (H (inl i) Hi).
  - intros j Hj. rewrite a4, b4; auto. apply (H (inr j) Hj).
Qed.

Lemma get_range_eq d d' st w :
  (forall i, st <= i < st + Z.of_nat w -> d i = d' i) -> get_range d st w = get_range d' st w.
Proof.
  intros H. unfold get_range. apply map_ext_in. intros k Hk. apply in_seq in Hk. apply H. lia.
Qed.

Lemma nth_map_seq {A} (f : nat -> A) n k d : (k < n)%nat -> nth k (map f (seq 0 n)) d = f k.
Proof.
  intros. rewrite (nth_indep _ d (f 0%nat)) by (rewrite map_length, seq_length; lia).
  rewrite map_nth, seq_nth by lia. reflexivity.
Qed.

Lemma get_set_same d st bs : get_range (set_range d st bs) st (length bs) = bs.
Proof.
  unfold get_range.
  apply nth_ext with (d := false) (d' := false).
  { rewrite map_length, seq_length. reflexivity. }
  intros k Hk. rewrite map_length, seq_length in Hk.
  rewrite nth_map_seq by lia. unfold set_range.
  destruct ((st <=? st + Z.of_nat k) && (st + Z.of_nat k <? st + Z.of_nat (length bs))) eqn:E; [|lia].
  replace (Z.to_nat (st + Z.of_nat k - st)) with k by lia. reflexivity.
Qed.

Lemma write_int_spec s off bs s1 :
  write_int s off bs = Ok s1 ->
  let L := [LData (off * Z.of_nat (length bs)) (Z.of_nat (length bs))] in
  same_outside L s s1 /\
  forall s2, agree_on L s1 s2 -> read_int s2 off (length bs) = bs.
Proof.
  unfold write_int. destruct (off * wbytes (length bs) + wbytes (length bs) <=? s_dbytes s) eqn:Eb; [|discriminate].
  intros H; inversion H; subst s1; clear H. cbn zeta. split.
  - repeat split; cbn.
    intros i Hi. unfold in_data in Hi; cbn in Hi. unfold set_range.
    destruct ((off * Z.of_nat (length bs) <=? i) && (i <? off * Z.of_nat (length bs) + Z.of_nat (length bs))) eqn:E; [lia|reflexivity].
  - intros s2 (a1 & a2 & a3 & a4). cbn in a1. unfold read_int. rewrite <- a1, Eb.
    transitivity (get_range (set_range (s_data s) (off * Z.of_nat (length bs)) bs)
                            (off * Z.of_nat (length bs)) (length bs)); [|apply get_set_same].
    apply get_range_eq. intros i Hi. symmetry. apply a3. unfold in_data; cbn. lia.
Qed.

Lemma write_bit_spec s n b s1 :
  write_bit s n b = Ok s1 -> 0 <= n ->
  same_outside [LData n 1] s s1 /\
  forall s2, agree_on [LData n 1] s1 s2 -> read_bit s2 n = b.
Proof.
  unfold write_bit. destruct (n <? s_dbytes s * 8) eqn:Eb; [|discriminate].
  intros H Hn; inversion H; subst s1; clear H. split.
  - repeat split; cbn.
    intros i Hi. unfold in_data in Hi; cbn in Hi. unfold set_range. cbn [length].
    destruct ((n <=? i) && (i <? n + Z.of_nat 1)) eqn:E; [lia|reflexivity].
  - intros s2 (a1 & a2 & a3 & a4). cbn in a1. unfold read_bit. rewrite <- a1, Eb.
    rewrite <- a3 by (unfold in_data; cbn; lia). cbn. unfold set_range. cbn [length].
    destruct ((n <=? n) && (n <? n + Z.of_nat 1)) eqn:E; [|lia].
    replace (Z.to_nat (n - n)) with 0%nat by lia. reflexivity.
Qed.

Lemma write_ptr_spec s i p s1 :
  write_ptr s i p = Ok s1 ->
  same_outside [LPtr i] s s1 /\
  forall s2, agree_on [LPtr i] s1 s2 -> read_ptr s2 i = p.
Proof.
  unfold write_ptr. destruct (i <? s_pcount s) eqn:Eb; [|discriminate].
  intros H; inversion H; subst s1; clear H. split.
  - repeat split; cbn. intros j Hj. unfold in_ptr in Hj; cbn in Hj.
    destruct (j =? i) eqn:E; [lia|reflexivity].
  - intros s2 (a1 & a2 & a3 & a4). cbn in a2. unfold read_ptr. rewrite <- a2, Eb.
    rewrite <- a4 by (unfold in_ptr; cbn; lia). cbn. rewrite Z.eqb_refl. reflexivity.
Qed.

Lemma action_present hw disc f : field_action hw disc f = Do -> f_present f = true.
Proof. unfold field_action. destruct (f_present f); [reflexivity|discriminate]. Qed.

(* insert: the values of fields the loop skips (no Go field, or a union member other than the
   one selected by Which) are irrelevant: nothing is written for them *)
Lemma insert_fields_ignores_inactive sch rec hw disc : forall fs vs vs' s,
  same_active hw disc fs vs vs' ->
  insert_fields sch rec hw disc s fs vs = insert_fields sch rec hw disc s fs vs'.
Proof.
  intros fs vs vs' s H. revert s. induction H; intros s; [reflexivity|].
  cbn [insert_fields]. destruct (field_action hw disc f) eqn:Ha.
  - apply IHsame_active.
  - rewrite (H eq_refl). destruct f; (match goal with |- bind ?x _ = _ => destruct x end); cbn [bind]; auto.
  - reflexivity.
Qed.

(* extract: skipped fields are left untouched (GNone) *)
Lemma extract_fields_skips_inactive fixed rec hw disc s : forall fs vs,
  extract_fields fixed rec hw disc s fs = Ok vs ->
  Forall2 (fun f v => field_action hw disc f <> Do -> v = GNone) fs vs.
Proof.
  induction fs as [|f fs IH]; intros vs H; cbn [extract_fields] in H.
  - inversion H. constructor.
  - destruct (field_action hw disc f) eqn:Ha.
    + apply bind_Ok_inv in H as (r & E & H). inversion H; subst. constructor; auto.
    + apply bind_Ok_inv in H as (v & _ & H). apply bind_Ok_inv in H as (r & E & H).
      inversion H; subst. constructor; auto. intros X; contradiction.
    + discriminate.
Qed.
