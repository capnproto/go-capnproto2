(* C02 for pogs.Extract over the reader model: with fuel >= (D + 1) * G, where D is the depth
   limit and G bounds the by-value nesting of the mapped schema (rschema_ok G), [extract_r]
   never runs out of fuel: on ANY segment bytes, cyclic messages included.  Every pointer
   dereference lowers the depth limit carried by the pointer (C02_depth_bound's lemmas
   struct_ptr_depth / ptrlist_at_depth / list_struct_depth); between two dereferences
   extractStruct can only enter groups and by-value struct fields, at most G levels. *)
From CV Require Import Core.SafetyProofs Core.LimitProofs Pogs.PogsRead Pogs.PogsReadProofs.
From CV Require Pogs.PogsM Pogs.PogsFrame.
From Coq Require Import ZifyBool.
Open Scope Z_scope.

Definition nfM {A} (x : M A) (P : A -> Prop) : Prop :=
  forall s, match fst (x s) with XOk a => P a | XFuel => False | _ => True end.

Lemma nf_ret {A} (a : A) (P : A -> Prop) : P a -> nfM (ret a) P.
Proof. intros H s. exact H. Qed.
Lemma nf_fail {A} (r : xres A) (P : A -> Prop) :
  match r with XOk a => P a | XFuel => False | _ => True end -> nfM (fail r) P.
Proof. intros H s. exact H. Qed.
Lemma nf_bind {A B} (x : M A) (f : A -> M B) (Q : A -> Prop) (P : B -> Prop) :
  nfM x Q -> (forall a, Q a -> nfM (f a) P) -> nfM (bindM x f) P.
Proof.
  intros Hx Hf s. unfold bindM. specialize (Hx s).
  destruct (x s) as [r s']. cbn [fst] in Hx. destruct r; cbn [fst]; try exact I; try exact Hx.
  apply Hf. exact Hx.
Qed.
Lemma nf_lift {A} (r : res A) : nfM (lift r) top_.
Proof. intros s. unfold lift. destruct r; exact I. Qed.
Lemma nf_lift_eq {A} (r : res A) : nfM (lift r) (fun a => r = Ok a).
Proof. intros s. unfold lift. destruct r; cbn; auto. Qed.
Lemma nf_lift_ptr (f : Z -> res Ptr * Z) (P : Ptr -> Prop) :
  (forall rl q, fst (f rl) = Ok q -> P q) -> nfM (lift_ptr f) P.
Proof.
  intros H s. unfold lift_ptr. specialize (H (x_rl s)).
  destruct (fst (f (x_rl s))); cbn; auto.
Qed.
Lemma nf_make_slice n : nfM (make_slice n) top_.
Proof. intros s. unfold make_slice. destruct (n <? 0); exact I. Qed.
Lemma nf_iterM {A} (f : Z -> M A) : (forall i, nfM (f i) top_) -> forall n lo, nfM (iterM n lo f) top_.
Proof.
  intros H. induction n as [|n IH]; intros lo.
  - apply nf_ret. exact I.
  - cbn [iterM]. eapply nf_bind; [apply H|]. intros a _.
    eapply nf_bind; [apply IH|]. intros r _. apply nf_ret. exact I.
Qed.
Lemma nf_map {A B} (x : M A) (g : A -> B) (Q : A -> Prop) : nfM x Q -> nfM (bd a <~ x ;; ret (g a)) top_.
Proof. intros H. eapply nf_bind; [exact H|]. intros; apply nf_ret; exact I. Qed.

(* levels of dereference still available below sp *)
Definition dep (sp : Ptr) : Z := if p_valid sp then p_depth sp + 1 else 0.

Lemma dep_nonneg sp : (p_valid sp = true -> 0 <= p_depth sp) -> 0 <= dep sp.
Proof. intros H. unfold dep. destruct (p_valid sp); [specialize (H eq_refl)|]; lia. Qed.

Section Fuel.
  Variable c : config.
  Variable fx : fixes.
  Variable m : segs.
  Variable sch : PogsM.schema.
  Variable rec_ext : Z -> Ptr -> M rval.
  Variable Gn : nat.
  Variable F : Z.
  Let G := Z.of_nat Gn.
  Hypothesis Hfd : fx_depth fx = true.
  Hypothesis Hall : forall id, nest_ok Gn sch id = true.
  Hypothesis Hrec : forall id sp g, nest_ok g sch id = true -> (p_valid sp = true -> 0 <= p_depth sp) ->
    dep sp * G + Z.of_nat g <= F -> nfM (rec_ext id sp) top_.

  Definition below (sp q : Ptr) : Prop :=
    p_valid q = true -> 0 <= p_depth q /\ p_valid sp = true /\ p_depth q <= p_depth sp - 1.

  Lemma sptr_nf sp off : (p_valid sp = true -> 0 <= p_depth sp) -> nfM (sptr c m sp off) (below sp).
  Proof.
    intros Hd. apply nf_lift_ptr. intros rl q E V.
    destruct (p_valid sp) eqn:Vs.
    - destruct (struct_ptr_depth c m rl sp (off mod 65536) q (Hd eq_refl) E V) as (_ & H1 & H2).
      split; [lia|split; [reflexivity|lia]].
    - unfold struct_ptr in E. rewrite Vs in E. cbn in E. inversion E. subst q. cbn in V. discriminate.
  Qed.

  Lemma plat_nf l i : (p_valid l = true -> 0 <= p_depth l) -> nfM (plat c fx m l i) (below l).
  Proof.
    intros Hd. apply nf_lift_ptr. intros rl q E V.
    destruct (p_valid l) eqn:Vs.
    - destruct (ptrlist_at_depth c (fx_upgrade fx) m rl l i q (Hd eq_refl) E V) as (_ & H1 & H2).
      split; [lia|split; [reflexivity|lia]].
    - unfold ptrlist_at, primitiveElem in E. rewrite Vs in E. cbn in E. discriminate.
  Qed.

  Lemma G_nonneg : 0 <= G.
  Proof. unfold G. lia. Qed.

  (* one dereference deeper costs G; X is what was left for by-value nesting at the level above *)
  Lemma deeper_fuel d d' X : 0 <= X -> d' <= d - 1 -> (d + 1) * G + X <= F -> (d' + 1) * G + G <= F.
  Proof. pose proof G_nonneg. nia. Qed.

  (* extractList below a valid list l *)
  Lemma extract_list_nf : forall e l, p_valid l = true -> 0 <= p_depth l ->
    (p_depth l + 1) * G + G <= F -> nfM (extract_list c fx m rec_ext e l) top_.
  Proof.
    pose proof G_nonneg as HG.
    induction e as [| |w|bytes| |e IH|isptr id| |]; intros l V Hd HF; cbn [extract_list];
      [apply nf_fail; exact I|..];
      (eapply nf_bind; [apply nf_make_slice|intros _ _]); [..|apply nf_fail; exact I];
      pose proof (plat_nf l) as Hp;
      (eapply nf_map, nf_iterM; intros i).
    - eapply nf_map, nf_lift.
    - eapply nf_map, nf_lift.
    - eapply nf_bind; [apply Hp; intros; assumption|]. intros p _. eapply nf_map, nf_lift.
    - eapply nf_bind; [apply Hp; intros; assumption|]. intros p _. eapply nf_map, nf_lift.
    - eapply nf_bind; [apply Hp; intros; assumption|]. intros p Hb. cbv zeta.
      destruct (p_valid (as_list p)) eqn:Vl; cbn [negb]; [|apply nf_ret; exact I].
      destruct (as_list_valid p Vl) as [El Vp]. rewrite El. destruct (Hb Vp) as (H0 & _ & H1).
      apply IH; try assumption. exact (deeper_fuel _ _ G HG H1 HF).
    - eapply nf_bind; [apply nf_lift_eq|]. intros q Eq. rewrite Hfd in Eq.
      apply Hrec with (g := Gn); [apply Hall| |].
      + intros Vq. destruct (list_struct_depth l i q Hd Eq Vq) as (_ & H0 & _). assumption.
      + unfold dep. destruct (p_valid q) eqn:Vq.
        * destruct (list_struct_depth l i q Hd Eq Vq) as (_ & H0 & H1). fold G. nia.
        * fold G. nia.
    - eapply nf_map. apply Hp; intros; assumption.
  Qed.

  Definition nestcond (g' : nat) (f : PogsM.field) : bool :=
    match f with
    | PogsM.FGroup true _ gid => nest_ok g' sch gid
    | PogsM.FSlot true _ _ (PogsM.TStruct false id') _ => nest_ok g' sch id'
    | _ => true
    end.

  Lemma extract_field_nf sp dv off t d g' : (p_valid sp = true -> 0 <= p_depth sp) ->
    nestcond g' (PogsM.FSlot true dv off t d) = true ->
    dep sp * G + Z.of_nat g' <= F ->
    nfM (extract_field c fx m rec_ext sp off t d) top_.
  Proof.
    intros Hd Hn HF. pose proof G_nonneg as HG. pose proof (dep_nonneg sp Hd) as Hdp.
    unfold extract_field.
    assert (nfM (extract_field_body c fx m rec_ext sp off t d) top_) as Hb.
    { pose proof (sptr_nf sp off Hd) as Hp.
      unfold extract_field_body. destruct t as [| |w|bytes| |e|isptr id| |].
      - apply nf_fail. exact I.
      - eapply nf_map, nf_lift.
      - eapply nf_map, nf_lift.
      - eapply nf_bind; [exact Hp|]. intros p _. eapply nf_map, nf_lift.
      - eapply nf_bind; [exact Hp|]. intros p _. eapply nf_map, nf_lift.
      - destruct (negb (PogsM.mappable e)); [apply nf_fail; exact I|].
        eapply nf_bind; [exact Hp|]. intros p Hb. cbv zeta.
        destruct (p_valid (as_list p)) eqn:Vl.
        + destruct (as_list_valid p Vl) as [El Vp]. rewrite El. destruct (Hb Vp) as (H0 & Vs & H1).
          apply extract_list_nf; try assumption. unfold dep in HF. rewrite Vs in HF.
          apply (deeper_fuel _ _ _ (Nat2Z.is_nonneg g') H1 HF).
        + destruct (PogsM.ptr_list _); [apply nf_fail; exact I|apply nf_ret; exact I].
      - eapply nf_bind; [exact Hp|]. intros p Hb. cbv zeta.
        destruct (p_valid (as_struct p)) eqn:Vs.
        + destruct (as_struct_valid p Vs) as [Es Vp]. rewrite Es. destruct (Hb Vp) as (H0 & Vsp & H1).
          unfold extract_struct_into. rewrite Vp. rewrite andb_false_r.
          apply Hrec with (g := Gn); [apply Hall|intros; assumption|].
          unfold dep in *. rewrite Vp. rewrite Vsp in HF. apply (deeper_fuel _ _ _ (Nat2Z.is_nonneg g') H1 HF).
        + destruct (PogsM.ptr_struct _); [apply nf_fail; exact I|].
          unfold extract_struct_into. destruct isptr; cbn [andb negb p_valid nullPtr]; [apply nf_ret; exact I|].
          apply Hrec with (g := g'); [exact Hn|cbn; discriminate|]. unfold dep at 1. cbn [p_valid nullPtr]. lia.
      - eapply nf_map. exact Hp.
      - eapply nf_bind; [exact Hp|]. intros p _.
        destruct (p_valid p); [apply nf_ret; exact I|].
        destruct (PogsM.ptr_valid _); [apply nf_fail; exact I|apply nf_ret; exact I]. }
    destruct d; try exact Hb. apply nf_fail. exact I.
  Qed.

  Lemma extract_fields_nf hw disc sp g' : (p_valid sp = true -> 0 <= p_depth sp) ->
    dep sp * G + Z.of_nat g' <= F -> forall fs,
    forallb (nestcond g') fs = true ->
    nfM (extract_fields c fx m rec_ext hw disc sp fs) top_.
  Proof.
    intros Hd HF. induction fs as [|f fs IH]; intros Hok; cbn [extract_fields].
    - apply nf_ret. exact I.
    - cbn [forallb] in Hok. apply andb_prop in Hok. destruct Hok as [Hf Hfs]. specialize (IH Hfs).
      destruct (PogsM.field_action hw disc f) eqn:Ha.
      + eapply nf_map. exact IH.
      + eapply nf_bind; [|intros v _; eapply nf_map; exact IH].
        pose proof (PogsFrame.action_present _ _ _ Ha) as Pf.
        destruct f as [pr dv off t d|pr dv gid]; cbn [PogsM.f_present] in Pf; subst pr.
        * eapply extract_field_nf; eassumption.
        * apply Hrec with (g := g'); assumption.
      + apply nf_fail. exact I.
  Qed.

  Lemma extract_struct_body_nf id sp g' : (p_valid sp = true -> 0 <= p_depth sp) ->
    nest_ok (S g') sch id = true -> dep sp * G + Z.of_nat g' <= F ->
    nfM (extract_struct_body c fx m sch rec_ext id sp) top_.
  Proof.
    intros Hd Hn HF. unfold extract_struct_body. cbn [nest_ok] in Hn.
    destruct (PogsM.find_node sch id) as [n|] eqn:En; [|apply nf_fail; exact I].
    pose proof (fun hw disc => extract_fields_nf hw disc sp g' Hd HF (PogsM.n_fields n) Hn) as HFs.
    destruct (PogsM.n_disc n) as [doff|].
    - eapply nf_bind; [apply nf_lift|]. intros dz _. cbv zeta.
      destruct (PogsM.n_which n); try (eapply nf_map; apply HFs).
      destruct (PogsM.eqb_bits _ _); [eapply nf_map; apply HFs|apply nf_fail; exact I].
    - eapply nf_map. apply HFs.
  Qed.
End Fuel.

Lemma nest_ok_all g sch : (1 <= g)%nat -> rschema_ok g sch = true -> forall id, nest_ok g sch id = true.
Proof.
  intros Hg Hs id. destruct (PogsM.find_node sch id) as [n|] eqn:En.
  - eapply rschema_node_ok; eassumption.
  - destruct g as [|g']; [lia|]. cbn [nest_ok]. rewrite En. reflexivity.
Qed.

(* fuel >= dep sp * G + g suffices, whatever the bytes *)
Theorem extract_r_nf c fx m sch Gn : fx_depth fx = true -> (1 <= Gn)%nat -> rschema_ok Gn sch = true ->
  forall fuel id sp g, nest_ok g sch id = true -> (p_valid sp = true -> 0 <= p_depth sp) ->
  dep sp * Z.of_nat Gn + Z.of_nat g <= Z.of_nat fuel ->
  nfM (extract_r fuel c fx m sch id sp) top_.
Proof.
  intros Hfd HG Hok. pose proof (nest_ok_all Gn sch HG Hok) as Hall.
  induction fuel as [|f IH]; intros id sp g Hn Hd HF.
  - destruct g as [|g']; [cbn in Hn; discriminate|].
    pose proof (dep_nonneg sp Hd). nia.
  - destruct g as [|g']; [cbn in Hn; discriminate|]. cbn [extract_r].
    eapply extract_struct_body_nf with (Gn := Gn) (F := Z.of_nat f) (g' := g'); try eassumption. lia.
Qed.

Theorem extract_msg_fuel_sufficient c fx m sch Gn fuel id : fx_depth fx = true -> (1 <= Gn)%nat ->
  rschema_ok Gn sch = true -> 1 <= depth_limit c ->
  (depth_limit c + 1) * Z.of_nat Gn <= Z.of_nat fuel ->
  fst (extract_msg fuel c fx m sch id) <> TRes XFuel.
Proof.
  intros Hfd HG Hok HD HF. unfold extract_msg.
  destruct (fst (root c m (init_rlimit c))) as [p| |] eqn:Er; cbn [fst]; try discriminate.
  intros E. inversion E as [E']. clear E.
  assert (p_valid (as_struct p) = true -> 0 <= p_depth (as_struct p) <= depth_limit c - 1) as Hdp.
  { intros V. destruct (as_struct_valid p V) as [Es Vp]. rewrite Es.
    destruct (root_depth c m (init_rlimit c) p HD Er Vp) as [H1 H2]. lia. }
  pose proof (extract_r_nf c fx m sch Gn Hfd HG Hok fuel id (as_struct p) Gn
                (nest_ok_all Gn sch HG Hok id) (fun V => proj1 (Hdp V))) as H.
  assert (dep (as_struct p) * Z.of_nat Gn + Z.of_nat Gn <= Z.of_nat fuel) as Hle.
  { unfold dep. destruct (p_valid (as_struct p)) eqn:V; [specialize (Hdp eq_refl)|]; nia. }
  specialize (H Hle). unfold nfM in H.
  match type of E' with fst (_ ?s) = _ => specialize (H s) end. rewrite E' in H. exact H.
Qed.
