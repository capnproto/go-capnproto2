(* C15, per-run obligations: every accessor / constructor that genir extracted from the Go code
   emitted by the CURRENT capnpc-go equals what the generator model computes from the schema's
   field / node descriptor, and every corpus descriptor is well formed.  Closed by vm_compute
   (kernel-checked); with the soundness lemmas of LayoutMain this transports the universally
   quantified theorems about gen_accessor to the emitted code. *)
From CV Require Import Layout.Layout.
From CV Require Import Layout.BytesProofs.
From CV Require Import Layout.LayoutProofs.
From CV Require Import Layout.LayoutMain.
From CV Require Import Gen.GenAccessors.
Open Scope Z_scope.

Lemma generated_fields_match : fields_match fields = true.
Proof. vm_compute. reflexivity. Qed.

Lemma generated_fields_wf : fields_wf fields = true.
Proof. vm_compute. reflexivity. Qed.

Lemma generated_nodes_match : nodes_match nodes = true.
Proof. vm_compute. reflexivity. Qed.

Lemma generated_typerefs_match : typerefs_match typerefs = true.
Proof. vm_compute. reflexivity. Qed.

Theorem emitted_typerefs : forall t ids x, In (t, ids) typerefs -> In x ids -> x = t.
Proof. intros t ids x. exact (typerefs_match_sound typerefs t ids x generated_typerefs_match). Qed.

Lemma generated_defrefs_match : defrefs_match defrefs = true.
Proof. vm_compute. reflexivity. Qed.

Theorem emitted_defrefs : forall k want got, In (k, (want, got)) defrefs -> got = want.
Proof. intros k want got. exact (defrefs_match_sound defrefs k want got generated_defrefs_match). Qed.

(* what genir read for a corpus field is the model's accessor, of a well-formed descriptor *)
Lemma emitted_is_model : forall f ir, In (f, ir) fields -> ir = gen_accessor f /\ field_wf f.
Proof.
  intros f ir H. split.
  - exact (fields_match_sound _ _ _ generated_fields_match H).
  - exact (fields_wf_sound _ _ _ generated_fields_wf H).
Qed.

(* the emitted accessors of every corpus field: round trip, frame, default, union *)
Theorem emitted_roundtrip : forall f ir g st v s s', In (f, ir) fields ->
  strukt_ok s -> value_ok (fd_kind f) v -> a_get ir = Some g -> a_set ir = Some st ->
  run_setter st v s = Ok s' -> run_getter g (fd_default f) s' = Ok (readback f v).
Proof.
  intros f ir g st v s s' Hin. destruct (emitted_is_model f ir Hin) as [-> Hwf].
  exact (gen_roundtrip f g st v s s' Hwf).
Qed.

Theorem emitted_setter_frame : forall f ir st v s s', In (f, ir) fields ->
  strukt_ok s -> value_ok (fd_kind f) v -> a_set ir = Some st -> run_setter st v s = Ok s' ->
  strukt_ok s' /\ length (sdata s') = length (sdata s) /\ length (sptrs s') = length (sptrs s) /\
  (forall i, 0 <= i -> ~ in_range (field_range f) i -> ~ in_disc f i ->
     data_bit (sdata s') i = data_bit (sdata s) i) /\
  (forall j, field_range f <> RPtr (Z.of_nat j) -> nth j (sptrs s') 0 = nth j (sptrs s) 0).
Proof.
  intros f ir st v s s' Hin. destruct (emitted_is_model f ir Hin) as [-> Hwf].
  exact (gen_setter_frame f st v s s' Hwf).
Qed.

Theorem emitted_getter_spec : forall f ir g s, In (f, ir) fields -> strukt_ok s ->
  a_get ir = Some g -> run_getter g (fd_default f) s = spec_get f s.
Proof.
  intros f ir g s Hin. destruct (emitted_is_model f ir Hin) as [-> Hwf].
  exact (gen_getter_spec f g s Hwf).
Qed.

(* boolean range check of the corpus nodes (uint16 counts) *)
Definition node_okb (n : node_desc) : bool :=
  (0 <=? nd_dwc n) && (nd_dwc n <? 65536) && (0 <=? nd_pc n) && (nd_pc n <? 65536).

Lemma generated_nodes_ok : forallb (fun p => node_okb (fst p)) nodes = true.
Proof. vm_compute. reflexivity. Qed.

Theorem emitted_sizes : forall n ir, In (n, ir) nodes -> nd_isgroup n = false ->
  ni_new ir = Some (8 * nd_dwc n, nd_pc n) /\ ni_newroot ir = Some (8 * nd_dwc n, nd_pc n) /\
  ni_list ir = Some (8 * nd_dwc n, nd_pc n) /\ ni_typeid ir = Some (nd_id n).
Proof.
  intros n ir Hin Hg. pose proof (nodes_match_sound _ _ _ generated_nodes_match Hin) as E. subst ir.
  pose proof generated_nodes_ok as K. rewrite forallb_forall in K. specialize (K _ Hin). cbn [fst] in K.
  unfold node_okb in K. rewrite !andb_true_iff, !Z.leb_le, !Z.ltb_lt in K.
  destruct (gen_node_size n Hg) as (A & B & C & D & _); [lia|lia|]. auto.
Qed.

(* the corpus contains structs beyond the uint16 byte range (>= 8192 words) *)
Example corpus_has_wide_structs :
  existsb (fun p => (8192 <=? nd_dwc (fst p)) && negb (nd_isgroup (fst p))) nodes = true.
Proof. vm_compute. reflexivity. Qed.

Example corpus_nonempty : (100 <=? length fields)%nat = true /\ (20 <=? length nodes)%nat = true.
Proof. vm_compute. auto. Qed.
