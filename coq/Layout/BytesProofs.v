(* byte / bit level lemmas for the struct model of Layout.v *)
From CV Require Import Layout.Layout.
Open Scope Z_scope.

Ltac zcase := repeat match goal with
  | |- context [?a <? ?b] => destruct (Z.ltb_spec a b)
  | |- context [?a <=? ?b] => destruct (Z.leb_spec a b)
  | |- context [?a =? ?b] => destruct (Z.eqb_spec a b)
  end.

Lemma testbit_byte_split : forall b r j, 0 <= b < 256 -> 0 <= j ->
  Z.testbit (b + 256 * r) j = if j <? 8 then Z.testbit b j else Z.testbit r (j - 8).
Proof.
  intros b r j Hb Hj. destruct (j <? 8) eqn:E.
  - apply Z.ltb_lt in E. rewrite <- (Z.mod_pow2_bits_low (b + 256 * r) 8 j) by lia.
    change (2 ^ 8) with 256. replace (b + 256 * r) with (b + r * 256) by lia.
    rewrite Z.mod_add by lia. rewrite Z.mod_small by lia. reflexivity.
  - apply Z.ltb_ge in E. replace j with ((j - 8) + 8) at 1 by lia.
    rewrite <- Z.div_pow2_bits by lia. change (2 ^ 8) with 256.
    replace (b + 256 * r) with (b + r * 256) by lia.
    rewrite Z.div_add by lia. rewrite Z.div_small by lia. reflexivity.
Qed.

Lemma byte_high_bits : forall b j, 0 <= b < 256 -> 8 <= j -> Z.testbit b j = false.
Proof.
  intros b j Hb Hj. rewrite <- (Z.mod_small b (2 ^ 8)) by assumption.
  apply Z.mod_pow2_bits_high. lia.
Qed.

Lemma data_bit_nil : forall i, data_bit [] i = false.
Proof. intros. unfold data_bit. destruct (Z.to_nat (i / 8)); apply Z.bits_0. Qed.

Lemma data_bit_app : forall a r i, 0 <= i ->
  data_bit (a ++ r) i =
  if i <? 8 * Z.of_nat (length a) then data_bit a i else data_bit r (i - 8 * Z.of_nat (length a)).
Proof.
  intros a r i Hi. unfold data_bit. destruct (Z.ltb_spec i (8 * Z.of_nat (length a))).
  - rewrite app_nth1 by (Z.div_mod_to_equations; lia). reflexivity.
  - rewrite app_nth2 by (Z.div_mod_to_equations; lia).
    f_equal; [f_equal|]; Z.div_mod_to_equations; lia.
Qed.

Lemma data_bit_cons : forall b r i, 0 <= i ->
  data_bit (b :: r) i = if i <? 8 then Z.testbit b i else data_bit r (i - 8).
Proof.
  intros b r i Hi. change (b :: r) with ([b] ++ r). rewrite data_bit_app by assumption.
  change (8 * Z.of_nat (length [b])) with 8. destruct (Z.ltb_spec i 8); [|reflexivity].
  unfold data_bit. rewrite Z.div_small, Z.mod_small by lia. reflexivity.
Qed.

Lemma data_bit_beyond : forall d i, 8 * Z.of_nat (length d) <= i -> data_bit d i = false.
Proof.
  intros d i H. unfold data_bit. rewrite nth_overflow; [apply Z.bits_0|].
  assert (Z.of_nat (length d) <= i / 8) by (Z.div_mod_to_equations; lia). lia.
Qed.

Lemma data_bit_nth : forall d n j, 0 <= j < 8 ->
  data_bit d (8 * Z.of_nat n + j) = Z.testbit (nth n d 0) j.
Proof.
  intros d n j Hj. unfold data_bit.
  assert (H1 : (8 * Z.of_nat n + j) / 8 = Z.of_nat n) by (Z.div_mod_to_equations; lia).
  assert (H2 : (8 * Z.of_nat n + j) mod 8 = j) by (Z.div_mod_to_equations; lia).
  rewrite H1, H2, Nat2Z.id. reflexivity.
Qed.

Lemma le_dec_bit : forall l j, bytes_ok l -> 0 <= j -> Z.testbit (le_dec l) j = data_bit l j.
Proof.
  induction l as [|b l IH]; intros j Hl Hj.
  - cbn [le_dec]. rewrite data_bit_nil. apply Z.bits_0.
  - inversion Hl; subst. cbn [le_dec]. rewrite testbit_byte_split, data_bit_cons by (auto; lia).
    destruct (j <? 8) eqn:E; [reflexivity|]. apply Z.ltb_ge in E. apply IH; [assumption|lia].
Qed.

(* the number whose bit i is [f (lo + i)] for i < n; [bits_val] and [byte_from] are instances *)
Fixpoint zbits (f : Z -> bool) (lo : Z) (n : nat) : Z :=
  match n with O => 0 | S k => Z.b2z (f lo) + 2 * zbits f (lo + 1) k end.

Lemma zbits_bit : forall n f lo j, 0 <= j ->
  Z.testbit (zbits f lo n) j = if j <? Z.of_nat n then f (lo + j) else false.
Proof.
  induction n as [|n IH]; intros f lo j Hj.
  - cbn [zbits]. rewrite Z.bits_0. zcase; [lia|reflexivity].
  - cbn [zbits]. rewrite Z.add_comm. rewrite Nat2Z.inj_succ.
    destruct (Z.eq_dec j 0) as [->|Hn].
    + rewrite Z.testbit_0_r. rewrite Z.add_0_r. zcase; [reflexivity|lia].
    + replace j with (Z.succ (j - 1)) at 1 by lia. rewrite Z.testbit_succ_r by lia.
      rewrite IH by lia.
      destruct (Z.ltb_spec (j - 1) (Z.of_nat n)); destruct (Z.ltb_spec j (Z.succ (Z.of_nat n)));
        try lia; try reflexivity. f_equal. lia.
Qed.

Lemma zbits_range : forall n f lo, 0 <= zbits f lo n < 2 ^ Z.of_nat n.
Proof.
  induction n as [|n IH]; intros f lo.
  - cbn. lia.
  - cbn [zbits]. rewrite Nat2Z.inj_succ, Z.pow_succ_r by lia.
    specialize (IH f (lo + 1)). destruct (f lo); cbn [Z.b2z]; lia.
Qed.

Lemma bits_val_zbits : forall n d lo, bits_val d lo n = zbits (data_bit d) lo n.
Proof. induction n; intros; cbn [bits_val zbits]; [|rewrite IHn]; reflexivity. Qed.

Lemma bits_val_bit : forall n d lo j, 0 <= j ->
  Z.testbit (bits_val d lo n) j = if j <? Z.of_nat n then data_bit d (lo + j) else false.
Proof. intros. rewrite bits_val_zbits. apply zbits_bit. assumption. Qed.

Lemma bits_val_range : forall n d lo, 0 <= bits_val d lo n < 2 ^ Z.of_nat n.
Proof. intros. rewrite bits_val_zbits. apply zbits_range. Qed.

Lemma le_enc_length : forall n v, length (le_enc n v) = n.
Proof. induction n; intros; cbn [le_enc length]; [reflexivity|f_equal; apply IHn]. Qed.

Lemma le_enc_ok : forall n v, bytes_ok (le_enc n v).
Proof.
  induction n; intros; cbn [le_enc]; constructor; [|apply IHn].
  unfold byte_ok. apply Z.mod_pos_bound. lia.
Qed.

Lemma le_enc_bit : forall n v j, 0 <= j ->
  data_bit (le_enc n v) j = if j <? 8 * Z.of_nat n then Z.testbit v j else false.
Proof.
  induction n as [|n IH]; intros v j Hj.
  - cbn [le_enc]. rewrite data_bit_nil. change (8 * Z.of_nat 0) with 0. zcase; [lia|reflexivity].
  - cbn [le_enc]. rewrite data_bit_cons by lia. rewrite Nat2Z.inj_succ.
    destruct (Z.ltb_spec j 8).
    + destruct (Z.ltb_spec j (8 * Z.succ (Z.of_nat n))); [|lia].
      change 256 with (2 ^ 8). apply Z.mod_pow2_bits_low. lia.
    + rewrite IH by lia.
      destruct (Z.ltb_spec (j - 8) (8 * Z.of_nat n)); destruct (Z.ltb_spec j (8 * Z.succ (Z.of_nat n)));
        try lia; try reflexivity.
      change 256 with (2 ^ 8). rewrite Z.div_pow2_bits by lia. f_equal. lia.
Qed.

(* decomposition of a byte list around [o, o+n) *)
Lemma decompose : forall (d : list Z) o n, 0 <= o -> o + Z.of_nat n <= Z.of_nat (length d) ->
  exists a m c, d = a ++ m ++ c /\ Z.of_nat (length a) = o /\ length m = n.
Proof.
  intros d o n Ho H.
  exists (firstn (Z.to_nat o) d), (firstn n (skipn (Z.to_nat o) d)), (skipn n (skipn (Z.to_nat o) d)).
  rewrite !firstn_skipn. split; [reflexivity|]. split.
  - rewrite firstn_length. lia.
  - rewrite firstn_length, skipn_length. lia.
Qed.

Lemma slice_app : forall a m c, slice (a ++ m ++ c) (Z.of_nat (length a)) (length m) = m.
Proof.
  intros. unfold slice. rewrite Nat2Z.id.
  rewrite skipn_app, skipn_all, Nat.sub_diag. cbn [app skipn].
  rewrite firstn_app, firstn_all, Nat.sub_diag. cbn [firstn]. apply app_nil_r.
Qed.

Lemma splice_app : forall a m c bs, length bs = length m ->
  splice (a ++ m ++ c) (Z.of_nat (length a)) bs = a ++ bs ++ c.
Proof.
  intros a m c bs H. unfold splice. rewrite Nat2Z.id.
  rewrite firstn_app, firstn_all, Nat.sub_diag. cbn [firstn]. rewrite app_nil_r.
  f_equal. f_equal. rewrite H.
  rewrite skipn_app. rewrite skipn_all2 by lia. cbn [app].
  replace (length a + length m - length a)%nat with (length m) by lia.
  rewrite skipn_app, skipn_all, Nat.sub_diag. reflexivity.
Qed.

Lemma bytes_ok_app : forall a b, bytes_ok (a ++ b) <-> bytes_ok a /\ bytes_ok b.
Proof. intros. unfold bytes_ok. apply Forall_app. Qed.

(* Struct.UintN reads the bit range [8o, 8o+8n) *)
Lemma rd_bits : forall d o n, bytes_ok d -> 0 <= o -> o + Z.of_nat n <= Z.of_nat (length d) ->
  le_dec (slice d o n) = bits_val d (8 * o) (8 * n).
Proof.
  intros d o n Hd Ho H. destruct (decompose d o n Ho H) as (a & m & c & -> & Ha & Hm).
  subst o n. rewrite slice_app. apply bytes_ok_app in Hd. destruct Hd as [_ Hd].
  apply bytes_ok_app in Hd. destruct Hd as [Hm _].
  apply Z.bits_inj'. intros j Hj. rewrite le_dec_bit, bits_val_bit by assumption.
  rewrite Nat2Z.inj_mul. change (Z.of_nat 8) with 8.
  destruct (Z.ltb_spec j (8 * Z.of_nat (length m))).
  - rewrite data_bit_app by lia.
    destruct (Z.ltb_spec (8 * Z.of_nat (length a) + j) (8 * Z.of_nat (length a))); [lia|].
    rewrite data_bit_app by lia.
    replace (8 * Z.of_nat (length a) + j - 8 * Z.of_nat (length a)) with j by lia.
    destruct (Z.ltb_spec j (8 * Z.of_nat (length m))); [reflexivity|lia].
  - apply data_bit_beyond. assumption.
Qed.

Lemma byte_from_zbits : forall f, byte_from f = zbits f 0 8.
Proof. intros. unfold byte_from. cbn [zbits Z.add Pos.add Pos.succ]. ring. Qed.

Lemma byte_from_range : forall f, 0 <= byte_from f < 256.
Proof. intros. rewrite byte_from_zbits. apply (zbits_range 8). Qed.

Lemma byte_from_bit : forall f j, 0 <= j < 8 -> Z.testbit (byte_from f) j = f j.
Proof.
  intros f j Hj. rewrite byte_from_zbits, zbits_bit by lia.
  destruct (Z.ltb_spec j (Z.of_nat 8)); [reflexivity|lia].
Qed.

Lemma set_bits_go_length : forall d k lo len raw, length (set_bits_go k d lo len raw) = length d.
Proof. induction d; intros; cbn [set_bits_go length]; [reflexivity|f_equal; apply IHd]. Qed.

Lemma set_bits_length : forall d lo len raw, length (set_bits d lo len raw) = length d.
Proof. intros. apply set_bits_go_length. Qed.

Lemma set_bits_go_ok : forall d k lo len raw, bytes_ok d -> bytes_ok (set_bits_go k d lo len raw).
Proof.
  induction d as [|b d IH]; intros k lo len raw H; cbn [set_bits_go]; [constructor|].
  inversion H; subst. constructor; [|apply IH; assumption].
  destruct ((8 * k + 8 <=? lo) || (lo + len <=? 8 * k)); [assumption|apply byte_from_range].
Qed.

Lemma set_bits_ok : forall d lo len raw, bytes_ok d -> bytes_ok (set_bits d lo len raw).
Proof. intros. apply set_bits_go_ok. assumption. Qed.

Lemma set_bits_go_bit : forall d k lo len raw i, 0 <= k -> 0 <= i < 8 * Z.of_nat (length d) ->
  data_bit (set_bits_go k d lo len raw) i =
  if (lo <=? 8 * k + i) && (8 * k + i <? lo + len) then Z.testbit raw (8 * k + i - lo) else data_bit d i.
Proof.
  induction d as [|b d IH]; intros k lo len raw i Hk Hi.
  - cbn [length] in Hi. lia.
  - cbn [set_bits_go]. rewrite !data_bit_cons by lia. cbn [length] in Hi. rewrite Nat2Z.inj_succ in Hi.
    destruct (Z.ltb_spec i 8).
    + destruct ((8 * k + 8 <=? lo) || (lo + len <=? 8 * k)) eqn:F.
      * apply orb_true_iff in F. rewrite !Z.leb_le in F.
        destruct ((lo <=? 8 * k + i) && (8 * k + i <? lo + len)) eqn:E; [|reflexivity].
        apply andb_prop in E. destruct E as [P Q]. apply Z.leb_le in P. apply Z.ltb_lt in Q. lia.
      * rewrite byte_from_bit by lia. cbv zeta. reflexivity.
    + rewrite IH by lia. replace (8 * (k + 1) + (i - 8)) with (8 * k + i) by lia. reflexivity.
Qed.

Lemma set_bits_bit : forall d lo len raw i, 0 <= i < 8 * Z.of_nat (length d) ->
  data_bit (set_bits d lo len raw) i =
  if (lo <=? i) && (i <? lo + len) then Z.testbit raw (i - lo) else data_bit d i.
Proof.
  intros d lo len raw i Hi. unfold set_bits. rewrite set_bits_go_bit by lia.
  replace (8 * 0 + i) with i by lia. reflexivity.
Qed.

Lemma set_bits_bit_out : forall d lo len raw i, 0 <= i -> ~ lo <= i < lo + len ->
  data_bit (set_bits d lo len raw) i = data_bit d i.
Proof.
  intros d lo len raw i Hi Hout. destruct (Z_lt_ge_dec i (8 * Z.of_nat (length d))) as [L|G].
  - rewrite set_bits_bit by lia. zcase; try reflexivity. lia.
  - rewrite !data_bit_beyond by (rewrite ?set_bits_length; lia). reflexivity.
Qed.

(* two data sections with the same bits are the same bytes *)
Lemma bytes_ext : forall a b, bytes_ok a -> bytes_ok b -> length a = length b ->
  (forall i, 0 <= i < 8 * Z.of_nat (length a) -> data_bit a i = data_bit b i) -> a = b.
Proof.
  intros a b Ha Hb Hl H. apply (nth_ext a b 0 0 Hl). intros n Hn.
  assert (Oa : byte_ok (nth n a 0)) by (apply Forall_nth; assumption).
  assert (Ob : byte_ok (nth n b 0)) by (apply Forall_nth; [assumption|lia]).
  apply Z.bits_inj'. intros j Hj. destruct (Z_lt_ge_dec j 8) as [L|G].
  - rewrite <- !data_bit_nth by lia. apply H. lia.
  - rewrite !byte_high_bits by (assumption || lia). reflexivity.
Qed.

(* [splice d o bs] carries [bs] at byte offset [o] and [d] everywhere else *)
Lemma splice_decompose : forall d o bs, 0 <= o -> o + Z.of_nat (length bs) <= Z.of_nat (length d) ->
  exists a m c, d = a ++ m ++ c /\ splice d o bs = a ++ bs ++ c /\
                Z.of_nat (length a) = o /\ length m = length bs.
Proof.
  intros d o bs Ho H. destruct (decompose d o (length bs) Ho H) as (a & m & c & -> & <- & Hm).
  exists a, m, c. rewrite splice_app by auto. auto.
Qed.

Lemma splice_length : forall d o bs, 0 <= o -> o + Z.of_nat (length bs) <= Z.of_nat (length d) ->
  length (splice d o bs) = length d.
Proof.
  intros d o bs Ho H. destruct (splice_decompose d o bs Ho H) as (a & m & c & -> & -> & _ & Hm).
  rewrite !app_length, Hm. reflexivity.
Qed.

Lemma splice_ok : forall d o bs, 0 <= o -> o + Z.of_nat (length bs) <= Z.of_nat (length d) ->
  bytes_ok d -> bytes_ok bs -> bytes_ok (splice d o bs).
Proof.
  intros d o bs Ho H. destruct (splice_decompose d o bs Ho H) as (a & m & c & -> & -> & _).
  rewrite !bytes_ok_app. tauto.
Qed.

Lemma splice_bit : forall d o bs i, 0 <= o -> o + Z.of_nat (length bs) <= Z.of_nat (length d) -> 0 <= i ->
  data_bit (splice d o bs) i =
  if (8 * o <=? i) && (i <? 8 * o + 8 * Z.of_nat (length bs)) then data_bit bs (i - 8 * o) else data_bit d i.
Proof.
  intros d o bs i Ho H Hi. destruct (splice_decompose d o bs Ho H) as (a & m & c & -> & -> & <- & Hm).
  rewrite !(data_bit_app a) by lia. destruct (Z.ltb_spec i (8 * Z.of_nat (length a))).
  - destruct (Z.leb_spec (8 * Z.of_nat (length a)) i); [lia|reflexivity].
  - destruct (Z.leb_spec (8 * Z.of_nat (length a)) i); [|lia]. cbn [andb].
    rewrite !data_bit_app, Hm by lia.
    destruct (Z.ltb_spec (i - 8 * Z.of_nat (length a)) (8 * Z.of_nat (length bs)));
      destruct (Z.ltb_spec i (8 * Z.of_nat (length a) + 8 * Z.of_nat (length bs))); try lia; reflexivity.
Qed.

(* Struct.SetUintN writes exactly the bit range [8o, 8o+8n) *)
Lemma splice_set_bits : forall d o n raw, bytes_ok d -> 0 <= o -> o + Z.of_nat n <= Z.of_nat (length d) ->
  splice d o (le_enc n raw) = set_bits d (8 * o) (8 * Z.of_nat n) raw.
Proof.
  intros d o n raw Hd Ho H. rewrite <- (le_enc_length n raw) in H.
  apply bytes_ext.
  - apply splice_ok; auto using le_enc_ok.
  - apply set_bits_ok. assumption.
  - rewrite set_bits_length. apply splice_length; assumption.
  - intros i Hi. rewrite splice_length in Hi by assumption.
    rewrite splice_bit, set_bits_bit, le_enc_length by lia.
    destruct ((8 * o <=? i) && (i <? 8 * o + 8 * Z.of_nat n)) eqn:E; [|reflexivity].
    apply andb_prop in E. destruct E as [E1 E2]. apply Z.leb_le in E1. apply Z.ltb_lt in E2.
    rewrite le_enc_bit by lia. destruct (Z.ltb_spec (i - 8 * o) (8 * Z.of_nat n)); [reflexivity|lia].
Qed.

(* a non-negative number without bits from 8 up is a byte *)
Lemma byte_ok_bits : forall b, 0 <= b -> (forall j, 8 <= j -> Z.testbit b j = false) -> byte_ok b.
Proof.
  intros b Hb H. split; [assumption|]. destruct (Z.eq_dec b 0) as [->|Hnz]; [lia|].
  change 256 with (2 ^ 8). apply Z.log2_lt_pow2; [lia|].
  destruct (Z_lt_ge_dec (Z.log2 b) 8) as [L|G]; [assumption|exfalso].
  assert (T : Z.testbit b (Z.log2 b) = true) by (apply Z.bit_log2; lia).
  rewrite H in T by lia. discriminate.
Qed.

(* Struct.SetBit changes exactly bit n *)
Lemma setbit_set_bits : forall d n (v : bool), bytes_ok d -> 0 <= n < 8 * Z.of_nat (length d) ->
  splice d (n / 8)
    [if v then Z.lor (nth (Z.to_nat (n / 8)) d 0) (2 ^ (n mod 8))
     else Z.ldiff (nth (Z.to_nat (n / 8)) d 0) (2 ^ (n mod 8))]
  = set_bits d n 1 (Z.b2z v).
Proof.
  intros d n v Hd Hn. set (b := nth (Z.to_nat (n / 8)) d 0). set (b' := if v then _ else _).
  assert (Hk : 0 <= n / 8 < Z.of_nat (length d)) by (Z.div_mod_to_equations; lia).
  assert (Hj : 0 <= n mod 8 < 8) by (Z.div_mod_to_equations; lia).
  assert (Hb : byte_ok b) by (apply Forall_nth; [assumption|lia]).
  assert (Hbit : forall j, 0 <= j -> Z.testbit b' j = if j =? n mod 8 then v else Z.testbit b j).
  { intros j Hj0. unfold b'. destruct v.
    - rewrite Z.lor_spec, Z.pow2_bits_eqb by lia. rewrite (Z.eqb_sym (n mod 8) j).
      destruct (j =? n mod 8); [apply orb_true_r|apply orb_false_r].
    - rewrite Z.ldiff_spec, Z.pow2_bits_eqb by lia. rewrite (Z.eqb_sym (n mod 8) j).
      destruct (j =? n mod 8); cbn [negb]; [apply andb_false_r|apply andb_true_r]. }
  assert (Hb' : byte_ok b').
  { apply byte_ok_bits.
    - unfold b', byte_ok in *. destruct v; [apply Z.lor_nonneg|apply Z.ldiff_nonneg]; lia.
    - intros j Hj8. rewrite Hbit by lia. destruct (Z.eqb_spec j (n mod 8)); [lia|].
      apply byte_high_bits; assumption. }
  assert (Hl : n / 8 + Z.of_nat (length [b']) <= Z.of_nat (length d)) by (cbn [length]; lia).
  apply bytes_ext.
  - apply splice_ok; try assumption; try lia. constructor; [assumption|constructor].
  - apply set_bits_ok. assumption.
  - rewrite set_bits_length. apply splice_length; lia.
  - intros i Hi. rewrite splice_length in Hi by lia.
    rewrite splice_bit, set_bits_bit by lia. cbn [length].
    assert (He : 8 * (n / 8) + n mod 8 = n) by (Z.div_mod_to_equations; lia).
    replace ((n <=? i) && (i <? n + 1)) with (i =? n) by (zcase; cbn [andb]; try reflexivity; lia).
    destruct (Z.eqb_spec i n) as [->|Hne].
    + rewrite (proj2 (Z.leb_le _ _)), (proj2 (Z.ltb_lt _ _)) by lia. cbn [andb].
      rewrite data_bit_cons, (proj2 (Z.ltb_lt _ 8)), Hbit by lia.
      replace (n - 8 * (n / 8)) with (n mod 8) by lia.
      rewrite Z.eqb_refl, Z.sub_diag. destruct v; reflexivity.
    + (* another bit of the same byte, or another byte *)
      destruct ((8 * (n / 8) <=? i) && (i <? 8 * (n / 8) + 8 * Z.of_nat 1)) eqn:E; [|reflexivity].
      apply andb_prop in E. destruct E as [E1 E2]. apply Z.leb_le in E1. apply Z.ltb_lt in E2.
      rewrite data_bit_cons, (proj2 (Z.ltb_lt _ 8)), Hbit by lia.
      destruct (Z.eqb_spec (i - 8 * (n / 8)) (n mod 8)); [lia|].
      unfold data_bit, b. f_equal; [do 2 f_equal|]; Z.div_mod_to_equations; lia.
Qed.

(* reading a bit range after writing bit ranges *)
Lemma bits_val_set_same : forall d lo n raw, 0 <= lo -> lo + Z.of_nat n <= 8 * Z.of_nat (length d) ->
  bits_val (set_bits d lo (Z.of_nat n) raw) lo n = raw mod 2 ^ Z.of_nat n.
Proof.
  intros d lo n raw Hlo H. apply Z.bits_inj'. intros j Hj. rewrite bits_val_bit by assumption.
  destruct (j <? Z.of_nat n) eqn:E.
  - apply Z.ltb_lt in E. rewrite set_bits_bit by lia.
    destruct (lo <=? lo + j) eqn:E1; [|apply Z.leb_gt in E1; lia].
    destruct (lo + j <? lo + Z.of_nat n) eqn:E2; [|apply Z.ltb_ge in E2; lia]. cbn [andb].
    rewrite Z.mod_pow2_bits_low by lia. f_equal. lia.
  - apply Z.ltb_ge in E. rewrite Z.mod_pow2_bits_high by lia. reflexivity.
Qed.

Lemma bits_val_set_other : forall d lo len raw lo' n,
  0 <= lo' -> lo' + Z.of_nat n <= lo \/ lo + len <= lo' ->
  bits_val (set_bits d lo len raw) lo' n = bits_val d lo' n.
Proof.
  intros d lo len raw lo' n Hlo Hdis. apply Z.bits_inj'. intros j Hj. rewrite !bits_val_bit by assumption.
  destruct (j <? Z.of_nat n) eqn:E; [|reflexivity].
  apply Z.ltb_lt in E. apply set_bits_bit_out; lia.
Qed.
