(* C15: non-vacuity examples, and the generator variant whose XBytes() does not test the
   discriminant *)
From CV Require Import Layout.Layout.
From CV Require Import Layout.BytesProofs.
From CV Require Import Layout.LayoutProofs.
From CV Require Import Layout.LayoutMain.
Open Scope Z_scope.

(* an Int16 union member (discriminant value 3 at 16-bit offset 1) at offset 2 (= bytes 4..5),
   default -2 *)
Definition ex_f : field_desc := mkF (KInt W16) 2 (-2) 3 1.
Definition ex_s : strukt := mkS [1; 2; 3; 4; 5; 6; 7; 8] [0].

Example ex_wf : field_wf ex_f.
Proof. apply field_wfb_ok. vm_compute. reflexivity. Qed.

Example ex_strukt_ok : strukt_ok ex_s.
Proof. split; [repeat constructor; unfold byte_ok; lia|vm_compute; reflexivity]. Qed.

Example ex_gen : gen_accessor ex_f =
  mkIR (Some (Some (2, 3), GUint W16 4 65534 CInt)) None (Some (Some (2, 3), SUint W16 4 65534 CInt)) None None.
Proof. vm_compute. reflexivity. Qed.

(* setter: discriminant bytes 2..3 := 3, field bytes 4..5 := (-7 mod 2^16) xor 0xfffe = 0x0007 *)
Example ex_set : set_of ex_f (-7) ex_s = Ok (mkS [1; 2; 3; 0; 7; 0; 7; 8] [0]).
Proof. vm_compute. reflexivity. Qed.

Example ex_get_after_set : get_of ex_f (mkS [1; 2; 3; 0; 7; 0; 7; 8] [0]) = Ok (-7).
Proof. vm_compute. reflexivity. Qed.

(* inactive member: the getter panics *)
Example ex_get_inactive : get_of ex_f ex_s = Panic.
Proof. vm_compute. reflexivity. Qed.

(* zero bytes, discriminant 3: the default *)
Example ex_get_default : get_of ex_f (mkS [0; 0; 3; 0; 0; 0; 0; 0] []) = Ok (-2).
Proof. vm_compute. reflexivity. Qed.

(* a struct written by an older schema (4 data bytes): the setter panics, a non-union getter
   returns the default *)
Example ex_set_short : set_of ex_f 1 (mkS [0; 0; 3; 0] []) = Panic.
Proof. vm_compute. reflexivity. Qed.
Example ex_get_short : get_of (mkF (KUint W32) 1 77 65535 0) (mkS [9; 9; 9; 9] []) = Ok 77.
Proof. vm_compute. reflexivity. Qed.

(* bool with default true at bit 10 *)
Example ex_bool : set_of (mkF KBool 10 1 65535 0) 0 (mkS [0; 0] []) = Ok (mkS [0; 4] [])
  /\ get_of (mkF KBool 10 1 65535 0) (mkS [0; 4] []) = Ok 0
  /\ get_of (mkF KBool 10 1 65535 0) (mkS [0; 0] []) = Ok 1.
Proof. vm_compute. auto. Qed.

(* text union member in slot 0: Has tests the discriminant *)
Definition ex_t : field_desc := mkF KText 0 0 1 0.
Example ex_has : has_of ex_t (mkS [1; 0] [5]) = Ok true /\ has_of ex_t (mkS [2; 0] [5]) = Ok false.
Proof. vm_compute. auto. Qed.

(* the hypotheses of the round-trip theorem are satisfiable and its conclusion is the computed one *)
Example ex_roundtrip_instance :
  exists g st s', a_get (gen_accessor ex_f) = Some g /\ a_set (gen_accessor ex_f) = Some st /\
    run_setter st (-7) ex_s = Ok s' /\ run_getter g (fd_default ex_f) s' = Ok (-7).
Proof. do 3 eexists. repeat split; vm_compute; reflexivity. Qed.

(* well-formedness matters: a member overlapping its discriminant does not round-trip *)
Example overlap_refuted :
  let f := mkF (KUint W16) 0 0 1 0 in
  set_of f 7 (mkS [0; 0] []) = Ok (mkS [7; 0] []) /\ get_of f (mkS [7; 0] []) = Panic.
Proof. vm_compute. auto. Qed.

(* the uint32 product of Offset(): offset 2^29 of a 64-bit field wraps to byte offset 0 *)
Example offset_wrap_refuted : gen_offset (mkF (KUint W64) (2 ^ 29) 0 65535 0) W64 = 0.
Proof. vm_compute. reflexivity. Qed.

(* [getbytes_of false]: XBytes() of a text union member does not test the discriminant; on a struct
   whose active member is another one sharing the slot it returns that member's content (99)
   where the generator as it is (and X()) panics *)
Example getbytes_prefix_refuted :
  getbytes_of false ex_t (mkS [2; 0] [100]) = Ok 99 /\
  getbytes_of true ex_t (mkS [2; 0] [100]) = Panic /\
  get_of ex_t (mkS [2; 0] [100]) = Panic.
Proof. vm_compute. auto. Qed.

(* dataAddress' uint32 sum: an offset near 2^32 passes the bounds check of struct.go (Escape);
   no well-formed field reaches it (C15_setter_total) *)
Example data_address_wrap : s_uint W64 (mkS [1; 2; 3; 4; 5; 6; 7; 8] []) (2 ^ 32 - 4) = Escape.
Proof. vm_compute. reflexivity. Qed.

(* ObjectSize with the product taken in uint16: a struct of 8192 data words would be allocated
   with DataSize 0, one of 8200 words with 64 bytes *)
Example objsize_u16_refuted :
  gen_objsize_u16 (mkN 1 8192 1 false 0 0 []) = (0, 1) /\
  gen_objsize (mkN 1 8192 1 false 0 0 []) = (65536, 1) /\
  gen_objsize_u16 (mkN 1 8200 1 false 0 0 []) = (64, 1) /\
  gen_objsize_u16 (mkN 1 8191 1 false 0 0 []) = gen_objsize (mkN 1 8191 1 false 0 0 []).
Proof. vm_compute. auto. Qed.
