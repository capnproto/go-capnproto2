(* C15: the generator's accessors ([gen_accessor]) refine the bit-range specification
   ([spec_get]/[spec_set]/[spec_has]) for every well-formed field descriptor and every struct,
   and the specification has the round-trip / frame / default / union properties. *)
From CV Require Import Layout.Layout.
From CV Require Import Layout.BytesProofs.
Open Scope Z_scope.

Lemma wrap32_small : forall z, 0 <= z < 2 ^ 32 -> wrap32 z = z.
Proof. intros. unfold wrap32. apply Z.mod_small. assumption. Qed.

Lemma bits_in_true : forall d lo len,
  bits_in d lo len = true <-> 0 <= lo /\ lo + len <= 8 * Z.of_nat (length d).
Proof. intros. unfold bits_in. rewrite andb_true_iff, Z.leb_le, Z.leb_le. tauto. Qed.

Lemma bits_in_false : forall d lo len,
  bits_in d lo len = false <-> ~ (0 <= lo /\ lo + len <= 8 * Z.of_nat (length d)).
Proof. intros. rewrite <- bits_in_true. destruct (bits_in d lo len); split; congruence. Qed.

Lemma bits_in_set_bits : forall d lo len raw lo' len',
  bits_in (set_bits d lo len raw) lo' len' = bits_in d lo' len'.
Proof. intros. unfold bits_in. rewrite set_bits_length. reflexivity. Qed.

Lemma wbytes_bits : forall w, Z.of_nat (wbytes w) = wbytesZ w /\ wbits w = 8 * wbytesZ w
  /\ (8 * wbytes w)%nat = Z.to_nat (wbits w) /\ 1 <= wbytesZ w <= 8.
Proof. destruct w; cbn; repeat split; lia. Qed.

(* both bounds tests of Struct.dataAddress say that the bits lie inside the data section *)
Lemma data_ok_bits : forall w s o, strukt_ok s -> 0 <= o -> o + wbytesZ w < 2 ^ 32 ->
  data_ok s o (wbytesZ w) = bits_in (sdata s) (8 * o) (wbits w) /\
  (o + wbytesZ w <=? dsz s) = bits_in (sdata s) (8 * o) (wbits w).
Proof.
  intros w s o [_ Hsz] Ho Hw. destruct (wbytes_bits w) as (_ & E2 & _ & E4).
  unfold data_ok, bits_in, dsz in *. rewrite wrap32_small, E2 by lia. split; zcase; cbn [negb andb]; try reflexivity; lia.
Qed.

Lemma s_uint_bits : forall w s o lo, strukt_ok s -> 0 <= o -> o + wbytesZ w < 2 ^ 32 -> lo = 8 * o ->
  s_uint w s o =
  Ok (if bits_in (sdata s) lo (wbits w) then bits_val (sdata s) lo (Z.to_nat (wbits w)) else 0).
Proof.
  intros w s o lo Hs Ho Hw ->. destruct (data_ok_bits w s o Hs Ho Hw) as [E1 E2].
  unfold s_uint. rewrite E1, E2. destruct (bits_in (sdata s) (8 * o) (wbits w)) eqn:B; [|reflexivity].
  apply bits_in_true in B. destruct (wbytes_bits w) as (E3 & E4 & E5 & _).
  rewrite <- E5. f_equal. apply rd_bits; [apply Hs|lia|lia].
Qed.

Lemma s_set_uint_bits : forall w s o lo v, strukt_ok s -> 0 <= o -> o + wbytesZ w < 2 ^ 32 -> lo = 8 * o ->
  s_set_uint w s o v =
  if bits_in (sdata s) lo (wbits w) then Ok (mkS (set_bits (sdata s) lo (wbits w) v) (sptrs s)) else Panic.
Proof.
  intros w s o lo v Hs Ho Hw ->. destruct (data_ok_bits w s o Hs Ho Hw) as [E1 E2].
  unfold s_set_uint. rewrite E1, E2. destruct (bits_in (sdata s) (8 * o) (wbits w)) eqn:B; [|reflexivity].
  apply bits_in_true in B. destruct (wbytes_bits w) as (E3 & E4 & _).
  rewrite splice_set_bits by (apply Hs || lia). do 3 f_equal. lia.
Qed.

Lemma bits_val_1 : forall d n, bits_val d n 1 = Z.b2z (data_bit d n).
Proof. intros. cbn [bits_val]. lia. Qed.

Lemma bit_ok_bits : forall s n, strukt_ok s -> 0 <= n -> bit_ok s n = bits_in (sdata s) n 1.
Proof.
  intros s n [_ Hsz] Hn. unfold bit_ok, bits_in, dsz in *. rewrite wrap32_small by lia. zcase; cbn [andb]; try reflexivity; lia.
Qed.

Lemma s_bit_bits : forall s n, strukt_ok s -> 0 <= n ->
  s_bit s n = if bits_in (sdata s) n 1 then data_bit (sdata s) n else false.
Proof. intros s n Hs Hn. unfold s_bit. rewrite bit_ok_bits by assumption. reflexivity. Qed.

Lemma s_set_bit_bits : forall s n v, strukt_ok s -> 0 <= n ->
  s_set_bit s n v =
  if bits_in (sdata s) n 1 then Ok (mkS (set_bits (sdata s) n 1 (Z.b2z v)) (sptrs s)) else Panic.
Proof.
  intros s n v Hs Hn. unfold s_set_bit. rewrite bit_ok_bits by assumption.
  destruct (bits_in (sdata s) n 1) eqn:B; [|reflexivity]. apply bits_in_true in B.
  do 2 f_equal. apply setbit_set_bits; [apply Hs|lia].
Qed.

Lemma set_bits_strukt_ok : forall s lo len raw, strukt_ok s ->
  strukt_ok (mkS (set_bits (sdata s) lo len raw) (sptrs s)).
Proof.
  intros s lo len raw [Hb Hsz]. split; cbn [sdata].
  - apply set_bits_ok. assumption.
  - unfold dsz in *. cbn [sdata]. rewrite set_bits_length. assumption.
Qed.

Lemma gen_int_mask_mod : forall w d, gen_int_mask w d = d mod 2 ^ wbits w.
Proof.
  intros. unfold gen_int_mask.
  assert (E : wrap64 (wrap64 (Z.shiftl 1 (wbits w)) - 1) = Z.ones (wbits w)) by (destruct w; reflexivity).
  rewrite E, Z.land_ones by (destruct w; cbn; lia). unfold wrap64.
  (* reducing modulo 2^64 first changes nothing: 2^bits divides 2^64 *)
  symmetry. apply Znumtheory.Zmod_div_mod; [destruct w; reflexivity|reflexivity|].
  exists (2 ^ (64 - wbits w)). destruct w; reflexivity.
Qed.

Lemma signed_mod : forall w v, - 2 ^ (wbits w - 1) <= v < 2 ^ (wbits w - 1) ->
  signed (wbits w) (v mod 2 ^ wbits w) = v.
Proof.
  intros w v H. unfold signed.
  destruct w; cbn [wbits] in *;
  [change (2 ^ (8 - 1)) with 128 in *; change (2 ^ 8) with 256 in *
  |change (2 ^ (16 - 1)) with 32768 in *; change (2 ^ 16) with 65536 in *
  |change (2 ^ (32 - 1)) with 2147483648 in *; change (2 ^ 32) with 4294967296 in *
  |change (2 ^ (64 - 1)) with 9223372036854775808 in *; change (2 ^ 64) with 18446744073709551616 in *];
  (match goal with |- context [?a <? ?b] => destruct (Z.ltb_spec a b) end; Z.div_mod_to_equations; lia).
Qed.

Lemma lxor_mod_pow2 : forall a b n, 0 <= n ->
  (Z.lxor (a mod 2 ^ n) (b mod 2 ^ n)) mod 2 ^ n = Z.lxor (a mod 2 ^ n) (b mod 2 ^ n).
Proof.
  intros a b n Hn. apply Z.bits_inj'. intros j Hj.
  rewrite Z.testbit_mod_pow2, !Z.lxor_spec, !Z.testbit_mod_pow2 by assumption.
  destruct (j <? n); reflexivity.
Qed.

Lemma lxor_cancel : forall a x, Z.lxor (Z.lxor a x) x = a.
Proof. intros. rewrite Z.lxor_assoc, Z.lxor_nilpotent, Z.lxor_0_r. reflexivity. Qed.

Lemma kind_bits_nonneg : forall k, 0 <= kind_bits k.
Proof. destruct k; cbn; try lia; destruct w; cbn; lia. Qed.

Lemma has_disc_false : forall f, has_disc f = false -> gen_tag f = None.
Proof. intros f H. unfold gen_tag. rewrite H. reflexivity. Qed.

Lemma check_tag_spec : forall f s, field_wf f -> strukt_ok s ->
  check_tag (gen_tag f) s = Ok (spec_active f s).
Proof.
  intros f s Hwf Hs. destruct Hwf as (_ & _ & _ & _ & Hd & Ho & Ho2 & _).
  unfold gen_tag, spec_active. destruct (has_disc f); cbn [negb orb check_tag]; [|reflexivity].
  unfold gen_discoff. rewrite wrap32_small by lia.
  rewrite (s_uint_bits W16 s (fd_discoff f * 2) (disc_lo f)) by (try assumption; unfold disc_lo; cbn [wbytesZ]; lia).
  cbn [bind wbits]. unfold spec_which. reflexivity.
Qed.

Lemma set_tag_spec : forall f s, field_wf f -> strukt_ok s ->
  set_tag (gen_tag f) s = spec_set_tag f s.
Proof.
  intros f s Hwf Hs. destruct Hwf as (_ & _ & _ & _ & Hd & Ho & Ho2 & _).
  unfold gen_tag, spec_set_tag. destruct (has_disc f); cbn [set_tag]; [|reflexivity].
  unfold gen_discoff. rewrite wrap32_small by lia.
  rewrite (s_set_uint_bits W16 s (fd_discoff f * 2) (disc_lo f)) by (try assumption; unfold disc_lo; cbn [wbytesZ]; lia).
  reflexivity.
Qed.

Lemma spec_set_tag_ok : forall f s s1, strukt_ok s -> spec_set_tag f s = Ok s1 ->
  strukt_ok s1 /\ length (sdata s1) = length (sdata s) /\ sptrs s1 = sptrs s.
Proof.
  intros f s s1 Hs H. unfold spec_set_tag in H. destruct (has_disc f).
  - destruct (bits_in (sdata s) (disc_lo f) 16); [|discriminate]. inversion H; subst.
    split; [apply set_bits_strukt_ok; assumption|]. cbn. rewrite set_bits_length. auto.
  - inversion H; subst. auto.
Qed.

Lemma gen_offset_bits : forall f w, 0 <= fd_off f -> (fd_off f + 1) * wbits w <= 2 ^ 32 - 1 ->
  gen_offset f w = fd_off f * wbytesZ w /\ 0 <= gen_offset f w /\ gen_offset f w + wbytesZ w < 2 ^ 32
  /\ fd_off f * wbits w = 8 * gen_offset f w.
Proof.
  intros f w H0 H. unfold gen_offset.
  assert (E : wrap32 (wbits w / 8) = wbytesZ w) by (destruct w; reflexivity). rewrite E.
  destruct (wbytes_bits w) as (_ & E2 & _ & E4). rewrite E2 in *.
  rewrite wrap32_small by nia. nia.
Qed.

(* the raw bits, default mask and conversion of each data kind *)
Definition data_shape (k : kind) : option (width * conv) :=
  match k with
  | KUint w => Some (w, CUint) | KInt w => Some (w, CInt) | KEnum => Some (W16, CEnum)
  | KFloat32 => Some (W32, CFloat) | KFloat64 => Some (W64, CFloat) | _ => None
  end.

Lemma gen_data_shape : forall f w c, data_shape (fd_kind f) = Some (w, c) -> field_wf f ->
  gen_accessor f = gen_uint f w (default_raw f) c /\ kind_bits (fd_kind f) = wbits w
  /\ field_range f = RBits (fd_off f * wbits w) (wbits w)
  /\ (forall raw, conv_dec c w raw = decode (fd_kind f) raw).
Proof.
  intros f w c H Hwf. destruct Hwf as (_ & _ & _ & Hdef & _).
  unfold gen_accessor, gen_accessor_v, default_raw, field_range.
  destruct (fd_kind f); cbn in H; inversion H; subst; cbn [default_ok kind_bits wbits] in *;
    rewrite ?gen_int_mask_mod, ?Z.mod_small by assumption; repeat split.
Qed.

(* the accessors of the pointer kinds, and the default / token conventions of their bodies *)
Lemma gen_ptr_shape : forall f, is_ptr_kind (fd_kind f) = true ->
  exists hg hs gb nw,
    gen_accessor f = mkIR (Some (gen_tag f, GPtr (fd_off f) (fd_kind f) hg)) gb
                          (Some (gen_tag f, SPtr (fd_off f) (fd_kind f) hs)) (Some (gen_tag f, fd_off f)) nw
    /\ field_range f = RPtr (fd_off f)
    /\ (forall t, ptr_value (fd_kind f) (if hg then fd_default f else 0) t
                  = ptr_value (fd_kind f) (fd_default f) t)
    /\ (forall s v, run_sbody (SPtr (fd_off f) (fd_kind f) hs) v s
                    = s_set_ptr s (fd_off f) (ptr_token (fd_kind f) (fd_default f) v)).
Proof.
  intros f Hp. unfold gen_accessor, gen_accessor_v, field_range, nonzero.
  destruct (fd_kind f); try discriminate; do 4 eexists;
    (split; [reflexivity|]); (split; [reflexivity|]); split; intros; cbn [run_sbody ptr_token];
    destruct (Z.eqb_spec (fd_default f) 0) as [E|E]; rewrite ?E; try destruct (v =? 0); reflexivity.
Qed.

Theorem gen_getter_spec : forall f g s, field_wf f -> strukt_ok s ->
  a_get (gen_accessor f) = Some g -> run_getter g (fd_default f) s = spec_get f s.
Proof.
  intros f g s Hwf Hs Hg.
  pose proof (check_tag_spec f s Hwf Hs) as Hc. unfold run_getter, spec_get.
  destruct (kind_eqb_group (fd_kind f)) eqn:G.
  { unfold gen_accessor, gen_accessor_v in Hg. destruct (fd_kind f); try discriminate.
    inversion Hg. reflexivity. }
  destruct (data_shape (fd_kind f)) as [[w c]|] eqn:Sh; [|destruct (is_ptr_kind (fd_kind f)) eqn:Hp].
  - (* integer / enum / float fields *)
    destruct (gen_data_shape f w c Sh Hwf) as (Eg & Ekb & Er & Edec).
    rewrite Eg in Hg. inversion Hg; subst g; clear Hg. cbn [fst snd]. rewrite Hc, Er. cbn [bind].
    destruct (spec_active f s); [|reflexivity]. cbn [run_gbody].
    destruct Hwf as (H0 & H1 & _). rewrite Ekb in H1.
    destruct (gen_offset_bits f w H0 H1) as (_ & G1 & G2 & G3).
    rewrite (s_uint_bits w s (gen_offset f w) (fd_off f * wbits w)) by (assumption || lia).
    cbn [bind]. rewrite Edec. reflexivity.
  - (* pointer fields *)
    destruct (gen_ptr_shape f Hp) as (hg & hs & gb & nw & Eg & Er & Edef & _).
    rewrite Eg in Hg. inversion Hg; subst g; clear Hg. cbn [fst snd]. rewrite Hc, Er. cbn [bind].
    destruct (spec_active f s); [|reflexivity]. cbn [run_gbody]. rewrite Edef. reflexivity.
  - unfold gen_accessor, gen_accessor_v in Hg. unfold field_range.
    destruct Hwf as (H0 & H1 & H2 & Hdef & _).
    destruct (fd_kind f) eqn:K; try discriminate.
    + (* void *) destruct (has_disc f); discriminate.
    + (* bool *)
      inversion Hg; subst g; clear Hg. cbn [fst snd]. rewrite Hc. cbn [bind].
      destruct (spec_active f s); [|reflexivity]. cbn [run_gbody kind_bits].
      rewrite s_bit_bits by assumption. rewrite Z.mul_1_r. change (Z.to_nat 1) with 1%nat.
      unfold default_raw, decode. rewrite K. cbn [kind_bits default_ok] in *. unfold nonzero.
      rewrite bits_val_1.
      destruct (bits_in (sdata s) (fd_off f) 1); f_equal;
      destruct Hdef as [-> | ->]; try destruct (data_bit (sdata s) (fd_off f)); reflexivity.
Qed.

Lemma bind_tag_eq : forall f s (k : strukt -> res strukt) (k' : strukt -> res strukt),
  field_wf f -> strukt_ok s ->
  (forall s1, strukt_ok s1 -> k s1 = k' s1) ->
  bind (set_tag (gen_tag f) s) k = bind (spec_set_tag f s) k'.
Proof.
  intros f s k k' Hwf Hs Hk. rewrite set_tag_spec by assumption.
  destruct (spec_set_tag f s) as [s1| |] eqn:E; cbn [bind]; try reflexivity.
  apply Hk. apply (spec_set_tag_ok f s s1 Hs E).
Qed.

Lemma bool_enc : forall d v, (d = 0 \/ d = 1) -> (v = 0 \/ v = 1) ->
  Z.b2z (xorb (nonzero d) (negb (v =? 0))) = Z.lxor (v mod 2 ^ 1) (d mod 2 ^ 1).
Proof. intros d v [-> | ->] [-> | ->]; reflexivity. Qed.

Theorem gen_setter_spec : forall f st v s, field_wf f -> strukt_ok s -> value_ok (fd_kind f) v ->
  a_set (gen_accessor f) = Some st -> run_setter st v s = spec_set f v s.
Proof.
  intros f st v s Hwf Hs Hv Hst. unfold run_setter, spec_set.
  destruct (data_shape (fd_kind f)) as [[w c]|] eqn:Sh; [|destruct (is_ptr_kind (fd_kind f)) eqn:Hp].
  - destruct (gen_data_shape f w c Sh Hwf) as (Eg & Ekb & Er & _).
    rewrite Eg in Hst. inversion Hst; subst st; clear Hst. cbn [fst snd]. apply bind_tag_eq; try assumption.
    intros s1 Hs1. rewrite Er. cbn [run_sbody].
    destruct Hwf as (H0 & H1 & _). rewrite Ekb in H1.
    destruct (gen_offset_bits f w H0 H1) as (_ & G1 & G2 & G3).
    rewrite (s_set_uint_bits w s1 (gen_offset f w) (fd_off f * wbits w)) by (assumption || lia).
    unfold conv_enc, encode. rewrite Ekb. reflexivity.
  - destruct (gen_ptr_shape f Hp) as (hg & hs & gb & nw & Eg & Er & _ & Etok).
    rewrite Eg in Hst. inversion Hst; subst st; clear Hst. cbn [fst snd]. apply bind_tag_eq; try assumption.
    intros s1 _. rewrite Er. apply Etok.
  - unfold gen_accessor, gen_accessor_v in Hst. unfold field_range.
    pose proof Hwf as (H0 & H1 & H2 & Hdef & _).
    destruct (fd_kind f) eqn:K; try discriminate.
    + (* void *) destruct (has_disc f) eqn:D; [|discriminate].
      inversion Hst; subst st. cbn [fst snd]. apply bind_tag_eq; auto.
    + (* bool *) inversion Hst; subst st; clear Hst. cbn [fst snd]. apply bind_tag_eq; try assumption.
      intros s1 Hs1. cbn [run_sbody kind_bits]. rewrite s_set_bit_bits by assumption.
      rewrite Z.mul_1_r. unfold default_raw, encode. rewrite K. cbn [kind_bits default_ok value_ok] in *.
      rewrite bool_enc by assumption. reflexivity.
    + (* group *) destruct (has_disc f) eqn:D; [|discriminate].
      inversion Hst; subst st. cbn [fst snd]. apply bind_tag_eq; auto.
Qed.

Theorem gen_has_spec : forall f h s, field_wf f -> strukt_ok s ->
  a_has (gen_accessor f) = Some h -> run_has h s = Ok (spec_has f s).
Proof.
  intros f h s Hwf Hs Hh. pose proof (check_tag_spec f s Hwf Hs) as Hc.
  unfold gen_accessor, gen_accessor_v, gen_uint in Hh. unfold run_has, spec_has, field_range.
  destruct (fd_kind f) eqn:K; cbn in Hh; try discriminate;
  try (destruct (has_disc f); discriminate);
  inversion Hh; subst h; cbn [fst snd]; rewrite Hc; cbn [bind];
  destruct (spec_active f s); reflexivity.
Qed.

(* NewX() = setter with a freshly allocated object; any token will do *)
Lemma gen_new_refines : forall f n t s, field_wf f -> strukt_ok s ->
  a_new (gen_accessor f) = Some n -> run_new n t s = spec_set f t s.
Proof.
  intros f n t s Hwf Hs Hn.
  unfold gen_accessor, gen_accessor_v, gen_uint in Hn. unfold run_new, spec_set, field_range.
  destruct (fd_kind f) eqn:K; cbn in Hn; try discriminate;
  try (destruct (has_disc f); discriminate);
  inversion Hn; subst n; cbn [fst snd]; apply bind_tag_eq; auto.
Qed.

Theorem gen_new_spec : forall f n t s, field_wf f -> strukt_ok s -> t <> 0 ->
  a_new (gen_accessor f) = Some n -> run_new n t s = spec_set f t s.
Proof. intros f n t s Hwf Hs _. apply gen_new_refines; assumption. Qed.

(* XBytes() of a text field = the getter *)
Theorem gen_getbytes_spec : forall f g s, field_wf f -> strukt_ok s ->
  a_getbytes (gen_accessor f) = Some g -> run_getbytes g (fd_default f) s = spec_get f s.
Proof.
  intros f g s Hwf Hs Hg. pose proof (check_tag_spec f s Hwf Hs) as Hc.
  unfold gen_accessor, gen_accessor_v, gen_uint in Hg. unfold run_getbytes, spec_get, field_range.
  destruct (fd_kind f) eqn:K; cbn in Hg; try discriminate;
  try (destruct (has_disc f); discriminate).
  inversion Hg; subst g; cbn [fst snd kind_eqb_group]. rewrite Hc. cbn [bind].
  destruct (spec_active f s); reflexivity.
Qed.

(* which accessors exist per kind *)
Theorem gen_accessor_shape : forall f,
  (a_get (gen_accessor f) = None <-> fd_kind f = KVoid) /\
  (a_set (gen_accessor f) = None <-> (fd_kind f = KVoid \/ fd_kind f = KGroup) /\ has_disc f = false) /\
  (a_has (gen_accessor f) <> None <-> is_ptr_kind (fd_kind f) = true).
Proof.
  intros f. unfold gen_accessor, gen_accessor_v, gen_uint.
  destruct (fd_kind f) eqn:K; destruct (has_disc f); cbn; repeat split; intros;
  try discriminate; try congruence; try tauto;
  try (match goal with H : _ /\ _ |- _ => destruct H as [[?|?] ?]; discriminate end);
  try (match goal with H : _ \/ _ |- _ => destruct H; discriminate end); auto.
Qed.

Definition in_range (r : range) (i : Z) : Prop :=
  match r with RBits lo len => lo <= i < lo + len | _ => False end.
Definition in_disc (f : field_desc) (i : Z) : Prop :=
  has_disc f = true /\ disc_lo f <= i < disc_lo f + 16.

(* what a getter returns after the setter was given v: pointers with a default read back the
   default when set to null (encoding spec: a null pointer denotes the default) *)
Definition readback (f : field_desc) (v : Z) : Z :=
  match fd_kind f with
  | KStruct | KList | KAnyPtr => if v =? 0 then fd_default f else v
  | _ => v
  end.

Lemma nth_skipn_z : forall (l : list Z) k m, nth m (skipn k l) 0 = nth (k + m) l 0.
Proof.
  induction l as [|a l IH]; intros k m.
  - rewrite skipn_nil. destruct (k + m)%nat; destruct m; reflexivity.
  - destruct k; cbn [skipn plus nth]; [reflexivity|apply IH].
Qed.

Lemma s_set_ptr_inv : forall s i t s', s_set_ptr s i t = Ok s' ->
  0 <= i < pcount s /\ sdata s' = sdata s /\ length (sptrs s') = length (sptrs s)
  /\ s_ptr s' i = t
  /\ (forall j, Z.of_nat j <> i -> nth j (sptrs s') 0 = nth j (sptrs s) 0).
Proof.
  intros s i t s' H. unfold s_set_ptr in H.
  destruct (Z.leb_spec 0 i); [|discriminate]. destruct (Z.ltb_spec i (pcount s)); [|discriminate].
  cbn [andb] in H. inversion H; subst s'; clear H. unfold pcount in *.
  assert (L : length (firstn (Z.to_nat i) (sptrs s)) = Z.to_nat i) by (rewrite firstn_length; lia).
  split; [lia|]. split; [reflexivity|]. cbn [sptrs app].
  assert (L2 : length (firstn (Z.to_nat i) (sptrs s) ++ t :: skipn (Z.to_nat i + 1) (sptrs s)) = length (sptrs s)).
  { rewrite app_length, L. cbn [length]. rewrite skipn_length. lia. }
  split; [assumption|]. split.
  - unfold s_ptr, pcount. cbn [sptrs]. rewrite L2.
    destruct (Z.leb_spec 0 i); [|lia]. destruct (Z.ltb_spec i (Z.of_nat (length (sptrs s)))); [|lia].
    cbn [andb]. rewrite app_nth2 by lia. rewrite L, Nat.sub_diag. reflexivity.
  - intros j Hj. destruct (Nat.lt_ge_cases j (Z.to_nat i)) as [Lt|Ge].
    + rewrite app_nth1 by lia. rewrite <- (firstn_skipn (Z.to_nat i) (sptrs s)) at 2.
      rewrite app_nth1 by lia. reflexivity.
    + assert (j > Z.to_nat i)%nat by lia.
      rewrite app_nth2 by lia. rewrite L.
      destruct (j - Z.to_nat i)%nat as [|m] eqn:Em; [lia|]. cbn [nth].
      rewrite nth_skipn_z. f_equal. lia.
Qed.

Lemma spec_set_inv : forall f v s s', spec_set f v s = Ok s' ->
  exists s1, spec_set_tag f s = Ok s1 /\
    match field_range f with
    | RBits lo len => bits_in (sdata s1) lo len = true /\
        s' = mkS (set_bits (sdata s1) lo len (Z.lxor (encode (fd_kind f) v) (default_raw f))) (sptrs s1)
    | RPtr slot => s_set_ptr s1 slot (ptr_token (fd_kind f) (fd_default f) v) = Ok s'
    | RNone => s' = s1
    end.
Proof.
  intros f v s s' H. unfold spec_set in H. destruct (spec_set_tag f s) as [s1| |]; cbn [bind] in H; try discriminate.
  exists s1. split; [reflexivity|]. destruct (field_range f).
  - destruct (bits_in (sdata s1) lo len); [|discriminate]. inversion H. auto.
  - assumption.
  - inversion H. reflexivity.
Qed.

Lemma spec_set_tag_inv : forall f s s1, spec_set_tag f s = Ok s1 ->
  (has_disc f = false /\ s1 = s) \/
  (has_disc f = true /\ bits_in (sdata s) (disc_lo f) 16 = true /\
   s1 = mkS (set_bits (sdata s) (disc_lo f) 16 (fd_disc f)) (sptrs s)).
Proof.
  intros f s s1 H. unfold spec_set_tag in H. destruct (has_disc f).
  - right. destruct (bits_in (sdata s) (disc_lo f) 16); [|discriminate]. inversion H. auto.
  - left. inversion H. auto.
Qed.

(* the setter changes exactly field_range and the discriminant; needs no well-formedness *)
Theorem spec_set_frame : forall f v s s', strukt_ok s -> spec_set f v s = Ok s' ->
  strukt_ok s' /\ length (sdata s') = length (sdata s) /\ length (sptrs s') = length (sptrs s) /\
  (forall i, 0 <= i -> ~ in_range (field_range f) i -> ~ in_disc f i ->
     data_bit (sdata s') i = data_bit (sdata s) i) /\
  (forall j, field_range f <> RPtr (Z.of_nat j) -> nth j (sptrs s') 0 = nth j (sptrs s) 0).
Proof.
  intros f v s s' Hs H. destruct (spec_set_inv f v s s' H) as (s1 & Ht & Hf).
  destruct (spec_set_tag_ok f s s1 Hs Ht) as (Hs1 & Hl1 & Hp1).
  assert (Hd1 : forall i, 0 <= i -> ~ in_disc f i -> data_bit (sdata s1) i = data_bit (sdata s) i).
  { intros i Hi Hnd. destruct (spec_set_tag_inv f s s1 Ht) as [[_ ->]|(Hd & Hin & ->)]; [reflexivity|].
    apply set_bits_bit_out; [assumption|]. intros Hin'. apply Hnd. split; assumption. }
  destruct (field_range f) as [lo len|slot|] eqn:R.
  - destruct Hf as (Hin & ->). split; [apply set_bits_strukt_ok; assumption|]. cbn [sdata sptrs].
    rewrite set_bits_length. split; [assumption|]. split; [congruence|]. split; [|intros; congruence].
    intros i Hi Hnr Hnd. rewrite <- Hd1 by assumption. apply set_bits_bit_out; assumption.
  - destruct (s_set_ptr_inv _ _ _ _ Hf) as (Hr & Hd & Hl & _ & Hn).
    split. { destruct Hs1 as [A B]. split; unfold dsz in *; rewrite Hd; assumption. }
    rewrite Hd. split; [assumption|]. split; [congruence|]. split.
    + intros. apply Hd1; assumption.
    + intros j Hj. rewrite Hn by congruence. rewrite Hp1. reflexivity.
  - subst s'. split; [assumption|]. split; [assumption|]. split; [congruence|]. split.
    + intros. apply Hd1; assumption.
    + intros. rewrite Hp1. reflexivity.
Qed.

(* what the three forms of [field_range] say about the kind *)
Lemma field_range_shape : forall f,
  match field_range f with
  | RBits lo len => lo = fd_off f * len /\ len = kind_bits (fd_kind f) /\ len <> 0 /\
                    kind_eqb_group (fd_kind f) = false /\ is_ptr_kind (fd_kind f) = false
  | RPtr slot => kind_eqb_group (fd_kind f) = false /\ is_ptr_kind (fd_kind f) = true
  | RNone => fd_kind f = KVoid \/ fd_kind f = KGroup
  end.
Proof.
  intros f. unfold field_range. destruct (fd_kind f) as [| |w|w| | | | | | | | | |]; cbn; auto;
    repeat split; try discriminate; destruct w; discriminate.
Qed.

Lemma bits_val_set_same_z : forall d lo len raw, 0 <= len -> 0 <= lo ->
  lo + len <= 8 * Z.of_nat (length d) ->
  bits_val (set_bits d lo len raw) lo (Z.to_nat len) = raw mod 2 ^ len.
Proof.
  intros d lo len raw Hl Hlo H. pose proof (bits_val_set_same d lo (Z.to_nat len) raw) as P.
  rewrite Z2Nat.id in P by assumption. apply P; assumption.
Qed.

(* after the setter: the field's bit range holds encode v xor default, the discriminant holds the
   member's value *)
Theorem spec_set_exact : forall f v s s', field_wf f -> strukt_ok s -> spec_set f v s = Ok s' ->
  match field_range f with
  | RBits lo len => bits_in (sdata s') lo len = true /\
      bits_val (sdata s') lo (Z.to_nat len) = Z.lxor (encode (fd_kind f) v) (default_raw f)
  | RPtr slot => s_ptr s' slot = ptr_token (fd_kind f) (fd_default f) v
  | RNone => True
  end /\ spec_active f s' = true.
Proof.
  intros f v s s' Hwf Hs H. destruct (spec_set_inv f v s s' H) as (s1 & Ht & Hf).
  destruct Hwf as (H0 & H1 & H2 & Hdef & Hdr & Ho & Ho2 & Hdis).
  (* after the tag step the discriminant holds the member's value; the field step keeps it *)
  assert (Hw : has_disc f = true ->
    bits_in (sdata s1) (disc_lo f) 16 = true /\ bits_val (sdata s1) (disc_lo f) 16 = fd_disc f).
  { intros D. destruct (spec_set_tag_inv f s s1 Ht) as [[D' _]|(_ & Hin & ->)]; [congruence|]. cbn [sdata].
    rewrite bits_in_set_bits. split; [assumption|]. apply bits_in_true in Hin.
    rewrite (bits_val_set_same _ _ 16) by (change (Z.of_nat 16) with 16; lia).
    apply Z.mod_small. change (2 ^ Z.of_nat 16) with 65536. lia. }
  assert (Ha : forall d, (has_disc f = true -> bits_in d (disc_lo f) 16 = bits_in (sdata s1) (disc_lo f) 16 /\
                            bits_val d (disc_lo f) 16 = bits_val (sdata s1) (disc_lo f) 16) ->
               spec_active f (mkS d (sptrs s')) = true).
  { intros d E. unfold spec_active, spec_which. destruct (has_disc f); [|reflexivity].
    destruct (E eq_refl) as [E1 E2], (Hw eq_refl) as [B V]. cbn [sdata]. rewrite E1, E2, B, V. apply Z.eqb_refl. }
  pose proof (field_range_shape f) as C. destruct (field_range f) as [lo len|slot|] eqn:R.
  - destruct Hf as (Hin & ->), C as (-> & -> & _). cbn [sdata]. rewrite bits_in_set_bits.
    pose proof (kind_bits_nonneg (fd_kind f)) as Hkb. pose proof Hin as Hin'. apply bits_in_true in Hin'.
    split; [split; [assumption|]|].
    + rewrite bits_val_set_same_z by lia.
      unfold encode, default_raw. apply lxor_mod_pow2. assumption.
    + apply Ha. intros D. rewrite bits_in_set_bits. split; [reflexivity|].
      destruct (Hw D) as [B _]. apply bits_in_true in B. specialize (Hdis D).
      unfold ranges_disjoint in Hdis. rewrite R in Hdis.
      apply bits_val_set_other; change (Z.of_nat 16) with 16; lia.
  - destruct (s_set_ptr_inv _ _ _ _ Hf) as (_ & Hd & _ & Hp & _). split; [assumption|].
    destruct s' as [d' p']. cbn [sdata] in Hd. subst d'. apply Ha. auto.
  - subst s'. split; [trivial|]. destruct s1 as [d1 p1]. apply Ha. auto.
Qed.

Lemma decode_encode_id : forall k v, kind_bits k <> 0 -> value_ok k v -> decode k (encode k v) = v.
Proof.
  intros k v Hk Hv. unfold decode, encode.
  destruct k; cbn [kind_bits value_ok] in *; try lia; try (apply Z.mod_small; assumption).
  - destruct Hv as [-> | ->]; reflexivity.
  - apply signed_mod; assumption.
Qed.

Lemma ptr_readback : forall f v, is_ptr_kind (fd_kind f) = true -> default_ok (fd_kind f) (fd_default f) ->
  0 <= v ->
  ptr_value (fd_kind f) (fd_default f) (ptr_token (fd_kind f) (fd_default f) v) = readback f v.
Proof.
  intros f v Hp Hd Hv. unfold ptr_value, ptr_token, readback, obj.
  destruct (fd_kind f); try discriminate; cbn [default_ok] in *; try reflexivity.
  (* text, data: token v+1, except the null token for an empty value without default *)
  all: destruct (Z.eqb_spec v 0) as [->|]; destruct (Z.eqb_spec (fd_default f) 0) as [E|]; cbn [andb];
    zcase; lia.
Qed.

(* getter (setter v s) = readback f v: v, or the default when v is the null pointer *)
Theorem spec_roundtrip : forall f v s s', field_wf f -> strukt_ok s -> value_ok (fd_kind f) v ->
  spec_set f v s = Ok s' -> spec_get f s' = Ok (readback f v).
Proof.
  intros f v s s' Hwf Hs Hv H. destruct (spec_set_exact f v s s' Hwf Hs H) as (Hx & Ha).
  unfold spec_get. rewrite Ha. destruct Hwf as (_ & _ & _ & Hdef & _).
  pose proof (field_range_shape f) as C. destruct (field_range f) as [lo len|slot|].
  - destruct C as (_ & -> & Hlen & G & P), Hx as (Hin & Hb).
    rewrite G, Hin, Hb, lxor_cancel, decode_encode_id by assumption.
    unfold readback. destruct (fd_kind f); try discriminate; reflexivity.
  - destruct C as (G & P). rewrite G, Hx, ptr_readback; try assumption; [reflexivity|].
    destruct (fd_kind f); try discriminate; exact Hv.
  - unfold readback. destruct C as [K|K]; rewrite K in *; cbn [value_ok] in Hv; subst v; reflexivity.
Qed.

(* the field reads as its default when its bits are zero / outside the struct *)
Definition field_zero (f : field_desc) (s : strukt) : Prop :=
  match field_range f with
  | RBits lo len => bits_in (sdata s) lo len = false \/ bits_val (sdata s) lo (Z.to_nat len) = 0
  | RPtr slot => s_ptr s slot = 0
  | RNone => True
  end.

Theorem spec_get_default : forall f s, field_wf f -> field_zero f s -> spec_active f s = true ->
  spec_get f s = Ok (fd_default f).
Proof.
  intros f s Hwf Hz Ha. unfold spec_get. rewrite Ha.
  destruct Hwf as (_ & _ & _ & Hdef & _). unfold field_zero in Hz.
  pose proof (field_range_shape f) as C. destruct (field_range f) as [lo len|slot|].
  - destruct C as (_ & -> & Hlen & G & P). rewrite G.
    assert (Z0 : (if bits_in (sdata s) lo (kind_bits (fd_kind f))
                  then bits_val (sdata s) lo (Z.to_nat (kind_bits (fd_kind f))) else 0) = 0).
    { destruct (bits_in (sdata s) lo _); [destruct Hz; [discriminate|assumption]|reflexivity]. }
    (* the default's raw bits are [encode] of the default, which for a data kind is a value *)
    rewrite Z0, Z.lxor_0_l. f_equal. apply (decode_encode_id (fd_kind f) (fd_default f) Hlen).
    destruct (fd_kind f); try discriminate; exact Hdef.
  - destruct C as (G & P). rewrite G, Hz.
    destruct (fd_kind f); try discriminate; cbn [ptr_value default_ok] in *;
    rewrite ?Z.eqb_refl; try reflexivity. rewrite Hdef. reflexivity.
  - destruct C as [K|K]; rewrite K in *; cbn [kind_eqb_group default_ok] in *; rewrite Hdef; reflexivity.
Qed.

Lemma bits_val_zeros : forall n m lo, bits_val (repeat 0 m) lo n = 0.
Proof.
  induction n as [|n IH]; intros m lo; cbn [bits_val]; [reflexivity|]. rewrite IH.
  assert (E : data_bit (repeat 0 m) lo = false).
  { unfold data_bit. rewrite nth_repeat. apply Z.bits_0. }
  rewrite E. reflexivity.
Qed.

Lemma zero_struct_ok : forall n m, Z.of_nat n * 8 < 2 ^ 32 -> strukt_ok (mkS (repeat 0 n) (repeat 0 m)).
Proof.
  intros n m H. split; cbn [sdata].
  - apply Forall_forall. intros x Hx. apply repeat_spec in Hx. subst. unfold byte_ok. lia.
  - unfold dsz. cbn [sdata]. rewrite repeat_length. assumption.
Qed.

Lemma zero_struct_field_zero : forall f n m, field_zero f (mkS (repeat 0 n) (repeat 0 m)).
Proof.
  intros. unfold field_zero. destruct (field_range f).
  - right. apply bits_val_zeros.
  - unfold s_ptr. cbn [sptrs]. destruct ((0 <=? slot) && (slot <? pcount _)); [|reflexivity].
    apply nth_repeat.
  - trivial.
Qed.

Theorem spec_get_inactive : forall f s, fd_kind f <> KGroup -> spec_active f s = false -> spec_get f s = Panic.
Proof.
  intros f s Hg Ha. unfold spec_get. rewrite Ha. destruct (fd_kind f); try reflexivity. congruence.
Qed.

Theorem spec_has_inactive : forall f s, spec_active f s = false -> spec_has f s = false.
Proof. intros f s Ha. unfold spec_has. rewrite Ha. destruct (field_range f); reflexivity. Qed.

Theorem spec_active_which : forall f s,
  spec_active f s = true <-> (has_disc f = false \/ spec_which f s = fd_disc f).
Proof.
  intros. unfold spec_active. destruct (has_disc f); cbn [negb orb].
  - rewrite Z.eqb_eq. split; [auto|intros [?|?]; [discriminate|assumption]].
  - split; auto.
Qed.

(* when the setter succeeds: exactly when the discriminant and the field lie inside the runtime
   struct (otherwise Go panics "set field outside struct boundaries") *)
Theorem spec_set_ok_iff : forall f v s, strukt_ok s ->
  (exists s', spec_set f v s = Ok s') <->
  ((has_disc f = true -> bits_in (sdata s) (disc_lo f) 16 = true) /\
   match field_range f with
   | RBits lo len => bits_in (sdata s) lo len = true
   | RPtr slot => 0 <= slot < pcount s
   | RNone => True
   end).
Proof.
  (* the tag step keeps both section sizes, so the field's test on its result is the test on s *)
  intros f v s Hs. unfold spec_set. split.
  - intros [s' H]. destruct (spec_set_tag f s) as [s1| |] eqn:Ht; try discriminate. cbn [bind] in H.
    destruct (spec_set_tag_ok f s s1 Hs Ht) as (_ & Hl & Hp). split.
    + intros D. destruct (spec_set_tag_inv f s s1 Ht) as [[D' _]|(_ & B & _)]; [congruence|exact B].
    + destruct (field_range f) as [lo len|slot|]; [| |trivial].
      * destruct (bits_in (sdata s1) lo len) eqn:B; [|discriminate]. unfold bits_in in *. rewrite <- Hl. exact B.
      * apply s_set_ptr_inv in H. unfold pcount in *. rewrite <- Hp. apply H.
  - intros [Hd Hr]. assert (exists s1, spec_set_tag f s = Ok s1) as [s1 Ht].
    { unfold spec_set_tag. destruct (has_disc f); [rewrite Hd by reflexivity|]; eauto. }
    rewrite Ht. cbn [bind]. destruct (spec_set_tag_ok f s s1 Hs Ht) as (_ & Hl & Hp).
    destruct (field_range f) as [lo len|slot|]; [| |eauto].
    + unfold bits_in in *. rewrite Hl, Hr. eauto.
    + unfold s_set_ptr, pcount in *. rewrite Hp. destruct Hr as [A B].
      apply Z.leb_le in A. apply Z.ltb_lt in B. rewrite A, B. cbn [andb]. eauto.
Qed.

Lemma spec_set_no_escape : forall f v s, spec_set f v s <> Escape.
Proof.
  intros f v s. unfold spec_set, spec_set_tag, s_set_ptr.
  destruct (has_disc f); [destruct (bits_in (sdata s) (disc_lo f) 16)|]; cbn [bind]; try discriminate;
    (destruct (field_range f) as [lo len|slot|]; [destruct (bits_in _ lo len)|destruct (_ && _)|]; discriminate).
Qed.

Theorem gen_node_size : forall n, nd_isgroup n = false ->
  0 <= nd_dwc n < 65536 -> 0 <= nd_pc n < 65536 ->
  ni_new (gen_node n) = Some (8 * nd_dwc n, nd_pc n) /\
  ni_newroot (gen_node n) = Some (8 * nd_dwc n, nd_pc n) /\
  ni_list (gen_node n) = Some (8 * nd_dwc n, nd_pc n) /\
  ni_typeid (gen_node n) = Some (nd_id n) /\
  (* the whole legal range, without reduction modulo 2^16: 8192 words and more give >= 65536 bytes *)
  0 <= 8 * nd_dwc n <= 524280 /\ (8192 <= nd_dwc n -> 65536 <= fst (gen_objsize n)).
Proof.
  intros n H Hd Hp. unfold gen_node, gen_objsize. rewrite H. cbn [ni_new ni_newroot ni_list ni_typeid fst].
  rewrite Z.mul_comm. repeat split; try reflexivity; lia.
Qed.

(* a field the schema places inside the node's sections can be set on a struct allocated with the
   generated size *)
Definition fits (f : field_desc) (n : node_desc) : Prop :=
  (has_disc f = true -> 0 <= disc_lo f /\ disc_lo f + 16 <= 64 * nd_dwc n) /\
  match field_range f with
  | RBits lo len => 0 <= lo /\ lo + len <= 64 * nd_dwc n
  | RPtr slot => 0 <= slot < nd_pc n
  | RNone => True
  end.

Theorem new_struct_fits : forall f n v, 0 <= nd_dwc n < 65536 -> 0 <= nd_pc n -> fits f n ->
  strukt_ok (new_struct n) /\ exists s', spec_set f v (new_struct n) = Ok s'.
Proof.
  intros f n v Hd Hp [F1 F2].
  assert (Hs : strukt_ok (new_struct n)).
  { unfold new_struct. apply zero_struct_ok. unfold gen_objsize. cbn [fst]. rewrite Z2Nat.id by lia.
    change (2 ^ 32) with 4294967296. lia. }
  split; [assumption|]. apply spec_set_ok_iff; [assumption|].
  unfold new_struct, gen_objsize, pcount. cbn [fst snd sdata sptrs]. split.
  - intros D. apply bits_in_true. rewrite repeat_length, Z2Nat.id by lia. specialize (F1 D). lia.
  - destruct (field_range f).
    + apply bits_in_true. rewrite repeat_length, Z2Nat.id by lia. lia.
    + rewrite repeat_length, Z2Nat.id by lia. assumption.
    + trivial.
Qed.
