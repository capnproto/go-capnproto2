(* C15 -- generated accessors implement the layout the schema declares.

   (a) struct model: data section = byte list, pointer section = list of slot tokens, with the
       semantics of struct.go's Uint8..64 / SetUint8..64 / Bit / SetBit / Ptr / HasPtr / SetPtr;
   (b) [field_desc]: what a schema Field (slot or group) says;
   (c) [field_range]: the bit range / pointer slot the schema assigns (encoding spec), and a
       specification-level getter/setter [spec_get]/[spec_set] defined on BIT RANGES only;
   (d) accessor IR (what an emitted accessor body does) and its semantics over the struct model;
   (e) [gen_accessor]: what capnpc-go computes (templateparams.go Offset(), defineField default
       masks, templates _settag/_checktag/_hasfield and struct*Field).
   No proofs in this file (it must extract when a proof breaks). *)
From Coq Require Export List ZArith Bool Lia.
Export ListNotations.
Open Scope Z_scope.

(* ------------------------------------------------------------------ results *)
(* [Panic]: Go panics ("capnp: set field outside struct boundaries", "Which() != x").
   [Escape]: the uint32 sum in Struct.dataAddress wrapped, the bounds check passed and the access
   lands outside the struct (struct.go, Struct.dataAddress: Size(off)+sz).  Excluded for well-formed fields. *)
Inductive res (A : Type) : Type :=
| Ok (a : A)
| Panic
| Escape.
Arguments Ok {A} a.
Arguments Panic {A}.
Arguments Escape {A}.

Definition bind {A B} (r : res A) (f : A -> res B) : res B :=
  match r with Ok a => f a | Panic => Panic | Escape => Escape end.

(* ------------------------------------------------------------------ (a) struct model *)
(* pointer slots hold tokens: 0 = null pointer, t > 0 = some object *)
Record strukt := mkS { sdata : list Z; sptrs : list Z }.

Definition byte_ok (b : Z) : Prop := 0 <= b < 256.
Definition bytes_ok (l : list Z) : Prop := Forall byte_ok l.
Definition dsz (s : strukt) : Z := Z.of_nat (length (sdata s)).
Definition pcount (s : strukt) : Z := Z.of_nat (length (sptrs s)).
(* DataSize is a uint32 byte count; real structs have at most 65535 words *)
Definition strukt_ok (s : strukt) : Prop := bytes_ok (sdata s) /\ dsz s * 8 < 2 ^ 32.

Definition wrap32 (z : Z) : Z := z mod 2 ^ 32.
Definition wrap64 (z : Z) : Z := z mod 2 ^ 64.

Inductive width := W8 | W16 | W32 | W64.
Definition wbytes (w : width) : nat := match w with W8 => 1 | W16 => 2 | W32 => 4 | W64 => 8 end%nat.
Definition wbytesZ (w : width) : Z := match w with W8 => 1 | W16 => 2 | W32 => 4 | W64 => 8 end.
Definition wbits (w : width) : Z := match w with W8 => 8 | W16 => 16 | W32 => 32 | W64 => 64 end.

(* little endian *)
Fixpoint le_dec (l : list Z) : Z :=
  match l with [] => 0 | b :: r => b + 256 * le_dec r end.
Fixpoint le_enc (n : nat) (v : Z) : list Z :=
  match n with O => [] | S k => v mod 256 :: le_enc k (v / 256) end.
Definition slice (d : list Z) (off : Z) (n : nat) : list Z := firstn n (skipn (Z.to_nat off) d).
Definition splice (d : list Z) (off : Z) (bs : list Z) : list Z :=
  firstn (Z.to_nat off) d ++ bs ++ skipn (Z.to_nat off + length bs) d.

(* Struct.dataAddress: p.seg == nil || Size(off)+sz > p.size.DataSize -> not ok   (uint32 sum) *)
Definition data_ok (s : strukt) (off sz : Z) : bool := negb (dsz s <? wrap32 (off + sz)).

(* Struct.UintN(off) *)
Definition s_uint (w : width) (s : strukt) (off : Z) : res Z :=
  if data_ok s off (wbytesZ w) then
    if off + wbytesZ w <=? dsz s then Ok (le_dec (slice (sdata s) off (wbytes w))) else Escape
  else Ok 0.

(* Struct.SetUintN(off, v) ; v already reduced to the width *)
Definition s_set_uint (w : width) (s : strukt) (off v : Z) : res strukt :=
  if data_ok s off (wbytesZ w) then
    if off + wbytesZ w <=? dsz s
    then Ok (mkS (splice (sdata s) off (le_enc (wbytes w) v)) (sptrs s)) else Escape
  else Panic.

(* Struct.bitInData: bit < BitOffset(DataSize*8) *)
Definition bit_ok (s : strukt) (n : Z) : bool := n <? wrap32 (dsz s * 8).

(* Struct.Bit(n): readUint8(off + n/8) & (1 << (n%8)) != 0 *)
Definition s_bit (s : strukt) (n : Z) : bool :=
  if bit_ok s n then Z.testbit (nth (Z.to_nat (n / 8)) (sdata s) 0) (n mod 8) else false.

(* Struct.SetBit(n, v): b |= mask / b &^= mask *)
Definition s_set_bit (s : strukt) (n : Z) (v : bool) : res strukt :=
  if bit_ok s n then
    let b := nth (Z.to_nat (n / 8)) (sdata s) 0 in
    let m := 2 ^ (n mod 8) in
    let b' := if v then Z.lor b m else Z.ldiff b m in
    Ok (mkS (splice (sdata s) (n / 8) [b']) (sptrs s))
  else Panic.

(* Struct.Ptr(i) / HasPtr(i): null beyond the pointer section *)
Definition s_ptr (s : strukt) (i : Z) : Z :=
  if (0 <=? i) && (i <? pcount s) then nth (Z.to_nat i) (sptrs s) 0 else 0.
Definition s_has_ptr (s : strukt) (i : Z) : bool := negb (s_ptr s i =? 0).
(* Struct.SetPtr(i, p): panics outside the pointer section *)
Definition s_set_ptr (s : strukt) (i : Z) (t : Z) : res strukt :=
  if (0 <=? i) && (i <? pcount s)
  then Ok (mkS (sdata s) (firstn (Z.to_nat i) (sptrs s) ++ [t] ++ skipn (Z.to_nat i + 1) (sptrs s)))
  else Panic.

(* ------------------------------------------------------------------ (b) field descriptors *)
Inductive kind :=
| KVoid | KBool
| KInt (w : width) | KUint (w : width)
| KFloat32 | KFloat64            (* values are the raw IEEE bits *)
| KEnum
| KText | KData | KList | KStruct | KInterface | KAnyPtr
| KGroup.

(* what schema.capnp's Field says (slot: offset in units of the field's size, type, default
   value; group: nothing but the discriminant), plus the containing node's discriminantOffset.
   fd_default: bool 0/1; intN: the signed value; uintN/enum: the value; floats: raw bits;
   text/data: content id of the default (0 = empty default); struct/list/anyPointer: token of the
   default object (0 = null default). fd_disc = 65535 (Field.noDiscriminant): not in a union. *)
Record field_desc := mkF {
  fd_kind : kind;
  fd_off : Z;
  fd_default : Z;
  fd_disc : Z;
  fd_discoff : Z;   (* in 16-bit units *)
}.

Definition has_disc (f : field_desc) : bool := negb (fd_disc f =? 65535).

Definition is_ptr_kind (k : kind) : bool :=
  match k with KText | KData | KList | KStruct | KInterface | KAnyPtr => true | _ => false end.

(* size in bits of a data-section field *)
Definition kind_bits (k : kind) : Z :=
  match k with
  | KBool => 1
  | KInt w | KUint w => wbits w
  | KFloat32 => 32 | KFloat64 => 64
  | KEnum => 16
  | _ => 0
  end.

(* ------------------------------------------------------------------ (c) the schema's layout *)
(* encoding spec: "offset, in units of the field's size, from the beginning of the section in
   which the field resides"; the data section is a little-endian bit string: bit i is bit i mod 8
   of byte i / 8. *)
Inductive range := RBits (lo len : Z) | RPtr (slot : Z) | RNone.

Definition field_range (f : field_desc) : range :=
  match fd_kind f with
  | KVoid | KGroup => RNone
  | KText | KData | KList | KStruct | KInterface | KAnyPtr => RPtr (fd_off f)
  | k => RBits (fd_off f * kind_bits k) (kind_bits k)
  end.

(* the union discriminant: 16 bits at discriminantOffset * 16 *)
Definition disc_lo (f : field_desc) : Z := fd_discoff f * 16.

Definition data_bit (d : list Z) (i : Z) : bool :=
  Z.testbit (nth (Z.to_nat (i / 8)) d 0) (i mod 8).


(* value of the bit range [lo, lo+n) *)
Fixpoint bits_val (d : list Z) (lo : Z) (n : nat) : Z :=
  match n with O => 0 | S k => Z.b2z (data_bit d lo) + 2 * bits_val d (lo + 1) k end.

Definition byte_from (f : Z -> bool) : Z :=
  Z.b2z (f 0) + 2 * Z.b2z (f 1) + 4 * Z.b2z (f 2) + 8 * Z.b2z (f 3) + 16 * Z.b2z (f 4) + 32 * Z.b2z (f 5)
  + 64 * Z.b2z (f 6) + 128 * Z.b2z (f 7).

(* the data section with the bit range [lo, lo+len) replaced by the low bits of raw and every
   other bit kept (k: index of the current byte; bytes wholly outside the range are kept as they
   are, which also keeps the extracted model linear on 512 KiB structs) *)
Fixpoint set_bits_go (k : Z) (d : list Z) (lo len raw : Z) : list Z :=
  match d with
  | [] => []
  | b :: r =>
    (if (8 * k + 8 <=? lo) || (lo + len <=? 8 * k) then b
     else byte_from (fun j =>
            let i := 8 * k + j in
            if (lo <=? i) && (i <? lo + len) then Z.testbit raw (i - lo) else Z.testbit b j))
    :: set_bits_go (k + 1) r lo len raw
  end.

Definition set_bits (d : list Z) (lo len raw : Z) : list Z := set_bits_go 0 d lo len raw.

Definition bits_in (d : list Z) (lo len : Z) : bool :=
  (0 <=? lo) && (lo + len <=? 8 * Z.of_nat (length d)).

(* two's complement *)
Definition signed (bits v : Z) : Z := if v <? 2 ^ (bits - 1) then v else v - 2 ^ bits.

(* the field's default as raw bits, its value decoding/encoding *)
Definition default_raw (f : field_desc) : Z := fd_default f mod 2 ^ kind_bits (fd_kind f).
Definition decode (k : kind) (raw : Z) : Z :=
  match k with KInt w => signed (wbits w) raw | _ => raw end.
Definition encode (k : kind) (v : Z) : Z := v mod 2 ^ kind_bits k.

(* tokens in pointer slots for text/data: object with content c is token c+1 *)
Definition obj (c : Z) : Z := c + 1.

(* the active-member test (Which() == discriminantValue); a struct too short to contain the
   discriminant reads 0 *)
Definition spec_which (f : field_desc) (s : strukt) : Z :=
  if bits_in (sdata s) (disc_lo f) 16 then bits_val (sdata s) (disc_lo f) 16 else 0.

Definition spec_active (f : field_desc) (s : strukt) : bool :=
  negb (has_disc f) || (spec_which f s =? fd_disc f).

(* value of a pointer field given the slot token *)
Definition ptr_value (k : kind) (dflt : Z) (t : Z) : Z :=
  match k with
  | KText | KData => if t =? 0 then dflt else t - 1
  | KInterface => t
  | _ => if t =? 0 then dflt else t
  end.

(* slot token written for value v *)
Definition ptr_token (k : kind) (dflt : Z) (v : Z) : Z :=
  match k with
  | KText | KData => if (v =? 0) && (dflt =? 0) then 0 else obj v   (* "" / nil without default -> null *)
  | _ => v
  end.

Definition kind_eqb_group (k : kind) : bool := match k with KGroup => true | _ => false end.

(* SPECIFICATION getter: inactive union member -> Panic (as the emitted code does);
   bits outside the runtime struct read as zero, i.e. the default *)
Definition spec_get (f : field_desc) (s : strukt) : res Z :=
  if kind_eqb_group (fd_kind f) then Ok 0   (* a group "getter" is a cast of the same struct *)
  else if spec_active f s then
    match field_range f with
    | RBits lo len =>
      let raw := if bits_in (sdata s) lo len then bits_val (sdata s) lo (Z.to_nat len) else 0 in
      Ok (decode (fd_kind f) (Z.lxor raw (default_raw f)))
    | RPtr slot => Ok (ptr_value (fd_kind f) (fd_default f) (s_ptr s slot))
    | RNone => Ok 0
    end
  else Panic.

(* SPECIFICATION setter: discriminant := value, field bits := encode v xor default, nothing else;
   a field or discriminant outside the runtime struct -> Panic *)
Definition spec_set_tag (f : field_desc) (s : strukt) : res strukt :=
  if has_disc f then
    if bits_in (sdata s) (disc_lo f) 16
    then Ok (mkS (set_bits (sdata s) (disc_lo f) 16 (fd_disc f)) (sptrs s))
    else Panic
  else Ok s.

Definition spec_set (f : field_desc) (v : Z) (s : strukt) : res strukt :=
  bind (spec_set_tag f s) (fun s1 =>
    match field_range f with
    | RBits lo len =>
      if bits_in (sdata s1) lo len
      then Ok (mkS (set_bits (sdata s1) lo len (Z.lxor (encode (fd_kind f) v) (default_raw f))) (sptrs s1))
      else Panic
    | RPtr slot => s_set_ptr s1 slot (ptr_token (fd_kind f) (fd_default f) v)
    | RNone => Ok s1
    end).

(* SPECIFICATION of the pipelined accessor X_Future.F() on a resolved answer: the object in the field's
   pointer slot, the field's default when the slot is null; no discriminant test (capnp.Future.Field) *)
Definition spec_future (f : field_desc) (s : strukt) : Z :=
  match fd_kind f with
  | KAnyPtr => s_ptr s (fd_off f)   (* promiseFieldAnyPointer passes no default (AnyPointer fields
                                        cannot declare one in the schema language) *)
  | k => ptr_value k (fd_default f) (s_ptr s (fd_off f))
  end.

Definition spec_has (f : field_desc) (s : strukt) : bool :=
  match field_range f with
  | RPtr slot => spec_active f s && negb (s_ptr s slot =? 0)
  | _ => false
  end.

(* ------------------------------------------------------------------ (d) accessor IR *)
(* tag = (byte offset, value) of a _checktag / _settag snippet, None when the snippet is absent *)
Definition tag := option (Z * Z).

(* conversion wrapped around the raw integer: none (uintN), intN(..), EnumType(..),
   math.FloatNfrombits(..) *)
Inductive conv := CUint | CInt | CEnum | CFloat.

Inductive gbody :=
| GBit (bitoff : Z) (neg : bool)                       (* [!]s.Struct.Bit(off) *)
| GUint (w : width) (off xor : Z) (c : conv)           (* conv(s.Struct.UintN(off) ^ xor) *)
| GPtr (slot : Z) (k : kind) (hasdef : bool)           (* s.Struct.Ptr(slot) then Text/TextDefault/.. *)
| GGroup.                                              (* return Group(s) *)

Inductive sbody :=
| SBit (bitoff : Z) (neg : bool)                       (* s.Struct.SetBit(off, [!]v) *)
| SUint (w : width) (off xor : Z) (c : conv)           (* s.Struct.SetUintN(off, conv'(v) ^ xor) *)
| SPtr (slot : Z) (k : kind) (hasdef : bool)           (* SetText/SetNewText/SetData/SetPtr *)
| SNone.                                               (* only the _settag snippet *)

Record accessor_ir := mkIR {
  a_get : option (tag * gbody);     (* X() *)
  a_getbytes : option (tag * Z);    (* XBytes() of text fields: Ptr(slot) *)
  a_set : option (tag * sbody);     (* SetX(v) *)
  a_has : option (tag * Z);         (* HasX(): tag test then HasPtr(slot) *)
  a_new : option (tag * Z);         (* NewX(): _settag, allocate, SetPtr(slot) *)
}.

Definition check_tag (t : tag) (s : strukt) : res bool :=
  match t with
  | None => Ok true
  | Some (o, v) => bind (s_uint W16 s o) (fun x => Ok (x =? v))
  end.

Definition set_tag (t : tag) (s : strukt) : res strukt :=
  match t with
  | None => Ok s
  | Some (o, v) => s_set_uint W16 s o v
  end.

Definition conv_dec (c : conv) (w : width) (raw : Z) : Z :=
  match c with CInt => signed (wbits w) raw | _ => raw end.
(* uintN(v) for a signed / enum / float-bits argument *)
Definition conv_enc (c : conv) (w : width) (v : Z) : Z := v mod 2 ^ wbits w.

Definition run_gbody (b : gbody) (dflt : Z) (s : strukt) : res Z :=
  match b with
  | GBit o neg => Ok (Z.b2z (xorb neg (s_bit s o)))
  | GUint w o x c => bind (s_uint w s o) (fun raw => Ok (conv_dec c w (Z.lxor raw x)))
  | GPtr slot k hasdef => Ok (ptr_value k (if hasdef then dflt else 0) (s_ptr s slot))
  | GGroup => Ok 0
  end.

(* dflt: the default content/token the emitted literal denotes (checked dynamically) *)
Definition run_getter (g : tag * gbody) (dflt : Z) (s : strukt) : res Z :=
  bind (check_tag (fst g) s) (fun ok => if ok then run_gbody (snd g) dflt s else Panic).

Definition run_sbody (b : sbody) (v : Z) (s : strukt) : res strukt :=
  match b with
  | SBit o neg => s_set_bit s o (xorb neg (negb (v =? 0)))
  | SUint w o x c => s_set_uint w s o (Z.lxor (conv_enc c w v) x)
  | SPtr slot k hasdef =>
    s_set_ptr s slot
      (match k with
       (* SetNewText / SetText ; SetData with / without the nil -> []byte{} guard *)
       | KText | KData => if hasdef then obj v else if v =? 0 then 0 else obj v
       | _ => v
       end)
  | SNone => Ok s
  end.

Definition run_setter (st : tag * sbody) (v : Z) (s : strukt) : res strukt :=
  bind (set_tag (fst st) s) (fun s1 => run_sbody (snd st) v s1).

Definition run_has (h : tag * Z) (s : strukt) : res bool :=
  bind (check_tag (fst h) s) (fun ok => if ok then Ok (s_has_ptr s (snd h)) else Ok false).

(* XBytes(): s.Struct.Ptr(slot) then TextBytes/TextBytesDefault *)
Definition run_getbytes (g : tag * Z) (dflt : Z) (s : strukt) : res Z :=
  bind (check_tag (fst g) s) (fun ok =>
    if ok then Ok (ptr_value KText dflt (s_ptr s (snd g))) else Panic).

(* NewX(): _settag then SetPtr(slot, fresh object t) *)
Definition run_new (n : tag * Z) (t : Z) (s : strukt) : res strukt :=
  bind (set_tag (fst n) s) (fun s1 => s_set_ptr s1 (snd n) t).

(* ------------------------------------------------------------------ (e) the generator *)
(* node.DiscriminantOffset(): n.StructNode().DiscriminantOffset() * 2   (uint32) *)
Definition gen_discoff (f : field_desc) : Z := wrap32 (fd_discoff f * 2).
(* _settag / _checktag / _hasfield: {{if .Field.HasDiscriminant}} *)
Definition gen_tag (f : field_desc) : tag :=
  if has_disc f then Some (gen_discoff f, fd_disc f) else None.
(* structUintFieldParams.Offset(): p.Field.Slot().Offset() * uint32(p.Bits/8) *)
Definition gen_offset (f : field_desc) (w : width) : Z := wrap32 (fd_off f * wrap32 (wbits w / 8)).
(* intFieldDefaultMask: mask := uint64(1)<<bits - 1; uint64(intValue(v)) & mask *)
Definition gen_int_mask (w : width) (d : Z) : Z :=
  Z.land (wrap64 d) (wrap64 (wrap64 (Z.shiftl 1 (wbits w)) - 1)).
(* {{with .Default}} / {{if .Default}} / .Default.IsValid *)
Definition nonzero (z : Z) : bool := negb (z =? 0).

Definition ir_none : accessor_ir := mkIR None None None None None.

Definition gen_uint (f : field_desc) (w : width) (x : Z) (c : conv) : accessor_ir :=
  let t := gen_tag f in
  mkIR (Some (t, GUint w (gen_offset f w) x c)) None (Some (t, SUint w (gen_offset f w) x c)) None None.

(* bytes_checks_tag: whether XBytes() carries the _checktag snippet (true = current generator) *)
Definition gen_accessor_v (bytes_checks_tag : bool) (f : field_desc) : accessor_ir :=
  let t := gen_tag f in
  let hd := nonzero (fd_default f) in
  match fd_kind f with
  | KVoid => if has_disc f then mkIR None None (Some (t, SNone)) None None else ir_none
  | KBool =>
    mkIR (Some (t, GBit (fd_off f) hd)) None (Some (t, SBit (fd_off f) hd)) None None
  | KUint w => gen_uint f w (fd_default f) CUint
  | KInt w => gen_uint f w (gen_int_mask w (fd_default f)) CInt
  | KEnum => gen_uint f W16 (fd_default f) CEnum
  | KFloat32 => gen_uint f W32 (fd_default f) CFloat
  | KFloat64 => gen_uint f W64 (fd_default f) CFloat
  | KText =>
    mkIR (Some (t, GPtr (fd_off f) KText hd))
         (Some (if bytes_checks_tag then t else None, fd_off f))
         (Some (t, SPtr (fd_off f) KText hd)) (Some (t, fd_off f)) None
  | KData =>
    mkIR (Some (t, GPtr (fd_off f) KData hd)) None
         (Some (t, SPtr (fd_off f) KData hd)) (Some (t, fd_off f)) None
  | KStruct =>
    mkIR (Some (t, GPtr (fd_off f) KStruct hd)) None
         (Some (t, SPtr (fd_off f) KStruct false)) (Some (t, fd_off f)) (Some (t, fd_off f))
  | KList =>
    mkIR (Some (t, GPtr (fd_off f) KList hd)) None
         (Some (t, SPtr (fd_off f) KList false)) (Some (t, fd_off f)) (Some (t, fd_off f))
  | KAnyPtr =>
    mkIR (Some (t, GPtr (fd_off f) KAnyPtr hd)) None
         (Some (t, SPtr (fd_off f) KAnyPtr false)) (Some (t, fd_off f)) None
  | KInterface =>
    mkIR (Some (t, GPtr (fd_off f) KInterface false)) None
         (Some (t, SPtr (fd_off f) KInterface false)) (Some (t, fd_off f)) None
  | KGroup =>
    mkIR (Some (None, GGroup)) None (if has_disc f then Some (t, SNone) else None) None None
  end.

Definition gen_accessor : field_desc -> accessor_ir := gen_accessor_v true.
(* the generator before the fix: XBytes() of a union member does not test the discriminant *)
Definition gen_accessor_prefix : field_desc -> accessor_ir := gen_accessor_v false.

(* ------------------------------------------------------------------ nodes (struct / group) *)
Record node_desc := mkN {
  nd_id : Z;
  nd_dwc : Z;          (* dataWordCount *)
  nd_pc : Z;           (* pointerCount *)
  nd_isgroup : bool;
  nd_disccount : Z;
  nd_discoff : Z;
  nd_members : list Z; (* discriminant values of the union members, in code order *)
}.

Record node_ir := mkNI {
  ni_typeid : option Z;          (* const X_TypeID *)
  ni_new : option (Z * Z);       (* NewX: ObjectSize{DataSize, PointerCount} *)
  ni_newroot : option (Z * Z);
  ni_list : option (Z * Z);      (* NewX_List: NewCompositeList size *)
  ni_which : option Z;           (* Which(): Uint16(off) *)
  ni_consts : list Z;            (* X_Which_* constants *)
}.

(* generator.ObjectSize: int(DataWordCount())*8, PointerCount() *)
Definition gen_objsize (n : node_desc) : Z * Z := (nd_dwc n * 8, nd_pc n).
(* variant: the product computed in uint16 (DataWordCount()*8 without the int() widening);
   it wraps from 8192 words on -- Examples.objsize_u16_refuted *)
Definition gen_objsize_u16 (n : node_desc) : Z * Z := ((nd_dwc n * 8) mod 2 ^ 16, nd_pc n).

Definition gen_node (n : node_desc) : node_ir :=
  let sz := if nd_isgroup n then None else Some (gen_objsize n) in
  mkNI (if nd_isgroup n then None else Some (nd_id n)) sz sz sz
       (if 0 <? nd_disccount n then Some (wrap32 (nd_discoff n * 2)) else None)
       (if 0 <? nd_disccount n then nd_members n else []).

(* a freshly allocated struct of the generated size *)
Definition new_struct (n : node_desc) : strukt :=
  mkS (repeat 0 (Z.to_nat (fst (gen_objsize n)))) (repeat 0 (Z.to_nat (snd (gen_objsize n)))).

(* ------------------------------------------------------------------ decidable equality of IR *)
Definition width_eqb (a b : width) : bool :=
  match a, b with W8, W8 | W16, W16 | W32, W32 | W64, W64 => true | _, _ => false end.
Definition conv_eqb (a b : conv) : bool :=
  match a, b with CUint, CUint | CInt, CInt | CEnum, CEnum | CFloat, CFloat => true | _, _ => false end.
Definition kind_eqb (a b : kind) : bool :=
  match a, b with
  | KVoid, KVoid | KBool, KBool | KFloat32, KFloat32 | KFloat64, KFloat64 | KEnum, KEnum
  | KText, KText | KData, KData | KList, KList | KStruct, KStruct | KInterface, KInterface
  | KAnyPtr, KAnyPtr | KGroup, KGroup => true
  | KInt x, KInt y | KUint x, KUint y => width_eqb x y
  | _, _ => false
  end.
Definition opt_eqb {A} (e : A -> A -> bool) (a b : option A) : bool :=
  match a, b with Some x, Some y => e x y | None, None => true | _, _ => false end.
Definition zz_eqb (a b : Z * Z) : bool := (fst a =? fst b) && (snd a =? snd b).
Definition tag_eqb : tag -> tag -> bool := opt_eqb zz_eqb.
Definition gbody_eqb (a b : gbody) : bool :=
  match a, b with
  | GBit o n, GBit o' n' => (o =? o') && eqb n n'
  | GUint w o x c, GUint w' o' x' c' => width_eqb w w' && (o =? o') && (x =? x') && conv_eqb c c'
  | GPtr s k h, GPtr s' k' h' => (s =? s') && kind_eqb k k' && eqb h h'
  | GGroup, GGroup => true
  | _, _ => false
  end.
Definition sbody_eqb (a b : sbody) : bool :=
  match a, b with
  | SBit o n, SBit o' n' => (o =? o') && eqb n n'
  | SUint w o x c, SUint w' o' x' c' => width_eqb w w' && (o =? o') && (x =? x') && conv_eqb c c'
  | SPtr s k h, SPtr s' k' h' => (s =? s') && kind_eqb k k' && eqb h h'
  | SNone, SNone => true
  | _, _ => false
  end.
Definition tg_eqb (a b : tag * gbody) := tag_eqb (fst a) (fst b) && gbody_eqb (snd a) (snd b).
Definition ts_eqb (a b : tag * sbody) := tag_eqb (fst a) (fst b) && sbody_eqb (snd a) (snd b).
Definition tz_eqb (a b : tag * Z) := tag_eqb (fst a) (fst b) && (snd a =? snd b).

Definition ir_eqb (a b : accessor_ir) : bool :=
  opt_eqb tg_eqb (a_get a) (a_get b) && opt_eqb tz_eqb (a_getbytes a) (a_getbytes b)
  && opt_eqb ts_eqb (a_set a) (a_set b) && opt_eqb tz_eqb (a_has a) (a_has b)
  && opt_eqb tz_eqb (a_new a) (a_new b).

Fixpoint zlist_eqb (a b : list Z) : bool :=
  match a, b with
  | [], [] => true
  | x :: r, y :: r' => (x =? y) && zlist_eqb r r'
  | _, _ => false
  end.

Definition nir_eqb (a b : node_ir) : bool :=
  opt_eqb Z.eqb (ni_typeid a) (ni_typeid b) && opt_eqb zz_eqb (ni_new a) (ni_new b)
  && opt_eqb zz_eqb (ni_newroot a) (ni_newroot b) && opt_eqb zz_eqb (ni_list a) (ni_list b)
  && opt_eqb Z.eqb (ni_which a) (ni_which b) && zlist_eqb (ni_consts a) (ni_consts b).

(* the per-run obligations over what genir extracted from the emitted Go *)
Definition fields_match (l : list (field_desc * accessor_ir)) : bool :=
  forallb (fun p => ir_eqb (snd p) (gen_accessor (fst p))) l.
Definition nodes_match (l : list (node_desc * node_ir)) : bool :=
  forallb (fun p => nir_eqb (snd p) (gen_node (fst p))) l.

(* type references: (type id the schema gives, node ids the emitted qualified Go names resolve to) *)
Definition typerefs_match (l : list (Z * list Z)) : bool :=
  forallb (fun p => match snd p with [] => false | _ => forallb (Z.eqb (fst p)) (snd p) end) l.

(* pointer defaults: (kind, ((slot, default bytes) of the schema, (slot, default bytes) emitted)) *)
Definition defrefs_match (l : list (Z * ((Z * list Z) * (Z * list Z)))) : bool :=
  forallb (fun p => (fst (fst (snd p)) =? fst (snd (snd p))) && zlist_eqb (snd (fst (snd p))) (snd (snd (snd p)))) l.

(* ------------------------------------------------------------------ well-formed descriptors *)
(* what every CodeGeneratorRequest produced by the schema compiler satisfies: uint32 offsets whose
   byte/bit position does not overflow 32 bits, typed defaults, a uint16 discriminant, and a
   discriminant that does not overlap the member *)
Definition default_ok (k : kind) (d : Z) : Prop :=
  match k with
  | KVoid | KGroup | KInterface => d = 0
  | KBool => d = 0 \/ d = 1
  | KInt w => - 2 ^ (wbits w - 1) <= d < 2 ^ (wbits w - 1)
  | KUint w => 0 <= d < 2 ^ wbits w
  | KFloat32 => 0 <= d < 2 ^ 32
  | KFloat64 => 0 <= d < 2 ^ 64
  | KEnum => 0 <= d < 2 ^ 16
  | _ => 0 <= d
  end.

Definition ranges_disjoint (f : field_desc) : Prop :=
  match field_range f with
  | RBits lo len => lo + len <= disc_lo f \/ disc_lo f + 16 <= lo
  | _ => True
  end.

Definition field_wf (f : field_desc) : Prop :=
  0 <= fd_off f /\ (fd_off f + 1) * kind_bits (fd_kind f) <= 2 ^ 32 - 1 /\ fd_off f < 2 ^ 32
  /\ default_ok (fd_kind f) (fd_default f)
  /\ 0 <= fd_disc f <= 65535
  /\ 0 <= fd_discoff f /\ (fd_discoff f + 1) * 16 <= 2 ^ 32 - 1
  /\ (has_disc f = true -> ranges_disjoint f).

(* values a Go caller can pass: the kind's range *)
Definition value_ok (k : kind) (v : Z) : Prop :=
  match k with
  | KVoid | KGroup => v = 0
  | KBool => v = 0 \/ v = 1
  | KInt w => - 2 ^ (wbits w - 1) <= v < 2 ^ (wbits w - 1)
  | KUint w => 0 <= v < 2 ^ wbits w
  | KFloat32 => 0 <= v < 2 ^ 32
  | KFloat64 => 0 <= v < 2 ^ 64
  | KEnum => 0 <= v < 2 ^ 16
  | _ => 0 <= v
  end.

(* executable forms for the driver *)
Definition get_of (f : field_desc) (s : strukt) : res Z :=
  match a_get (gen_accessor f) with Some g => run_getter g (fd_default f) s | None => Ok 0 end.
Definition set_of (f : field_desc) (v : Z) (s : strukt) : res strukt :=
  match a_set (gen_accessor f) with Some st => run_setter st v s | None => Ok s end.
Definition has_of (f : field_desc) (s : strukt) : res bool :=
  match a_has (gen_accessor f) with Some h => run_has h s | None => Ok false end.
Definition getbytes_of (bct : bool) (f : field_desc) (s : strukt) : res Z :=
  match a_getbytes (gen_accessor_v bct f) with Some g => run_getbytes g (fd_default f) s | None => Ok 0 end.
Definition new_of (f : field_desc) (t : Z) (s : strukt) : res strukt :=
  match a_new (gen_accessor f) with Some n => run_new n t s | None => Ok s end.
