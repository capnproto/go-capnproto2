(* C15: the statements about the generator's accessors, obtained by composing
   "generated accessor = specification" with the properties of the specification, and the
   soundness of the boolean checks used for the per-run obligation over Gen/GenAccessors.v *)
From CV Require Import Layout.Layout.
From CV Require Import Layout.BytesProofs.
From CV Require Import Layout.LayoutProofs.
Open Scope Z_scope.

(* getter (setter v s) = readback f v: v, or the default when v is the null pointer *)
Theorem gen_roundtrip : forall f g st v s s', field_wf f -> strukt_ok s -> value_ok (fd_kind f) v ->
  a_get (gen_accessor f) = Some g -> a_set (gen_accessor f) = Some st ->
  run_setter st v s = Ok s' -> run_getter g (fd_default f) s' = Ok (readback f v).
Proof.
  intros f g st v s s' Hwf Hs Hv Hg Hst H.
  rewrite (gen_setter_spec f st v s Hwf Hs Hv Hst) in H.
  rewrite (gen_getter_spec f g s' Hwf (proj1 (spec_set_frame f v s s' Hs H)) Hg).
  apply (spec_roundtrip f v s s' Hwf Hs Hv H).
Qed.

(* the setter changes exactly field_range and the discriminant's 16 bits; sizes and all other
   pointer slots are unchanged; the bits it writes are encode v xor default *)
Theorem gen_setter_frame : forall f st v s s', field_wf f -> strukt_ok s -> value_ok (fd_kind f) v ->
  a_set (gen_accessor f) = Some st -> run_setter st v s = Ok s' ->
  strukt_ok s' /\ length (sdata s') = length (sdata s) /\ length (sptrs s') = length (sptrs s) /\
  (forall i, 0 <= i -> ~ in_range (field_range f) i -> ~ in_disc f i ->
     data_bit (sdata s') i = data_bit (sdata s) i) /\
  (forall j, field_range f <> RPtr (Z.of_nat j) -> nth j (sptrs s') 0 = nth j (sptrs s) 0).
Proof.
  intros f st v s s' Hwf Hs Hv Hst H. rewrite (gen_setter_spec f st v s Hwf Hs Hv Hst) in H.
  apply (spec_set_frame f v s s' Hs H).
Qed.

Theorem gen_setter_exact : forall f st v s s', field_wf f -> strukt_ok s -> value_ok (fd_kind f) v ->
  a_set (gen_accessor f) = Some st -> run_setter st v s = Ok s' ->
  match field_range f with
  | RBits lo len => bits_in (sdata s') lo len = true /\
      bits_val (sdata s') lo (Z.to_nat len) = Z.lxor (encode (fd_kind f) v) (default_raw f)
  | RPtr slot => s_ptr s' slot = ptr_token (fd_kind f) (fd_default f) v
  | RNone => True
  end /\ spec_active f s' = true.
Proof.
  intros f st v s s' Hwf Hs Hv Hst H. rewrite (gen_setter_spec f st v s Hwf Hs Hv Hst) in H.
  apply (spec_set_exact f v s s' Hwf Hs H).
Qed.

(* the setter succeeds exactly when field and discriminant lie inside the runtime struct;
   otherwise it panics; it never escapes the struct *)
Theorem gen_setter_total : forall f st v s, field_wf f -> strukt_ok s -> value_ok (fd_kind f) v ->
  a_set (gen_accessor f) = Some st ->
  run_setter st v s <> Escape /\
  ((exists s', run_setter st v s = Ok s') <->
   ((has_disc f = true -> bits_in (sdata s) (disc_lo f) 16 = true) /\
    match field_range f with
    | RBits lo len => bits_in (sdata s) lo len = true
    | RPtr slot => 0 <= slot < pcount s
    | RNone => True
    end)).
Proof.
  intros f st v s Hwf Hs Hv Hst. rewrite (gen_setter_spec f st v s Hwf Hs Hv Hst). split.
  - apply spec_set_no_escape.
  - apply spec_set_ok_iff. assumption.
Qed.

(* the getter on zero bits returns the default (XOR mask); also when the field lies outside a
   shorter runtime struct *)
Theorem gen_getter_default : forall f g s, field_wf f -> strukt_ok s ->
  a_get (gen_accessor f) = Some g -> field_zero f s -> spec_active f s = true ->
  run_getter g (fd_default f) s = Ok (fd_default f).
Proof.
  intros f g s Hwf Hs Hg Hz Ha. rewrite (gen_getter_spec f g s Hwf Hs Hg).
  apply spec_get_default; assumption.
Qed.

Theorem gen_getter_zero_struct : forall f g n m, field_wf f -> Z.of_nat n * 8 < 2 ^ 32 ->
  a_get (gen_accessor f) = Some g -> (has_disc f = false \/ fd_disc f = 0) ->
  run_getter g (fd_default f) (mkS (repeat 0 n) (repeat 0 m)) = Ok (fd_default f).
Proof.
  intros f g n m Hwf Hn Hg Hd. apply gen_getter_default; try assumption.
  - apply zero_struct_ok. assumption.
  - apply zero_struct_field_zero.
  - apply spec_active_which. destruct Hd as [Hd|Hd]; [left; assumption|right].
    unfold spec_which. cbn [sdata]. rewrite bits_val_zeros, Hd. destruct (bits_in _ _ _); reflexivity.
Qed.

Theorem gen_getter_value : forall f g s, field_wf f -> strukt_ok s ->
  a_get (gen_accessor f) = Some g -> run_getter g (fd_default f) s = spec_get f s.
Proof. exact gen_getter_spec. Qed.

(* union members: getter (and XBytes) panic unless the member is active, Has answers false,
   the setter makes the member active *)
Theorem gen_union : forall f s, field_wf f -> strukt_ok s -> spec_active f s = false ->
  (forall g, a_get (gen_accessor f) = Some g -> fd_kind f <> KGroup -> run_getter g (fd_default f) s = Panic) /\
  (forall g, a_getbytes (gen_accessor f) = Some g -> run_getbytes g (fd_default f) s = Panic) /\
  (forall h, a_has (gen_accessor f) = Some h -> run_has h s = Ok false).
Proof.
  intros f s Hwf Hs Ha. repeat split.
  - intros g Hg Hk. rewrite (gen_getter_spec f g s Hwf Hs Hg). apply spec_get_inactive; assumption.
  - intros g Hg. rewrite (gen_getbytes_spec f g s Hwf Hs Hg). apply spec_get_inactive; [|assumption].
    intro K. unfold gen_accessor, gen_accessor_v in Hg. rewrite K in Hg. discriminate.
  - intros h Hh. rewrite (gen_has_spec f h s Hwf Hs Hh). rewrite spec_has_inactive; auto.
Qed.

Theorem gen_setter_activates : forall f st v s s', field_wf f -> strukt_ok s -> value_ok (fd_kind f) v ->
  a_set (gen_accessor f) = Some st -> run_setter st v s = Ok s' -> has_disc f = true ->
  spec_which f s' = fd_disc f.
Proof.
  intros f st v s s' Hwf Hs Hv Hst H Hd.
  destruct (gen_setter_exact f st v s s' Hwf Hs Hv Hst H) as [_ Ha].
  apply spec_active_which in Ha. destruct Ha as [Ha|Ha]; [congruence|assumption].
Qed.

Theorem gen_new_struct_fits : forall f st n v, field_wf f -> value_ok (fd_kind f) v ->
  0 <= nd_dwc n < 65536 -> 0 <= nd_pc n -> fits f n -> a_set (gen_accessor f) = Some st ->
  exists s', run_setter st v (new_struct n) = Ok s'.
Proof.
  intros f st n v Hwf Hv Hd Hp Hf Hst. destruct (new_struct_fits f n v Hd Hp Hf) as (Hs & s' & H).
  exists s'. rewrite (gen_setter_spec f st v _ Hwf Hs Hv Hst). assumption.
Qed.

Lemma width_eqb_eq : forall a b, width_eqb a b = true -> a = b.
Proof. destruct a, b; cbn; congruence. Qed.
Lemma conv_eqb_eq : forall a b, conv_eqb a b = true -> a = b.
Proof. destruct a, b; cbn; congruence. Qed.
Lemma kind_eqb_eq : forall a b, kind_eqb a b = true -> a = b.
Proof.
  destruct a, b; cbn; try congruence; intros H; apply width_eqb_eq in H; congruence.
Qed.
Lemma opt_eqb_eq : forall A (e : A -> A -> bool), (forall x y, e x y = true -> x = y) ->
  forall a b, opt_eqb e a b = true -> a = b.
Proof. intros A e He [x|] [y|]; cbn; try congruence. intros H. f_equal. auto. Qed.
Lemma zz_eqb_eq : forall a b, zz_eqb a b = true -> a = b.
Proof.
  intros [a1 a2] [b1 b2]. unfold zz_eqb. cbn [fst snd]. rewrite andb_true_iff, !Z.eqb_eq.
  intros [-> ->]. reflexivity.
Qed.
Lemma tag_eqb_eq : forall a b, tag_eqb a b = true -> a = b.
Proof. apply opt_eqb_eq. apply zz_eqb_eq. Qed.
Lemma gbody_eqb_eq : forall a b, gbody_eqb a b = true -> a = b.
Proof.
  destruct a, b; cbn; try discriminate; rewrite ?andb_true_iff, ?Z.eqb_eq;
    intuition (subst; f_equal; auto using width_eqb_eq, conv_eqb_eq, kind_eqb_eq, eqb_prop).
Qed.
Lemma sbody_eqb_eq : forall a b, sbody_eqb a b = true -> a = b.
Proof.
  destruct a, b; cbn; try discriminate; rewrite ?andb_true_iff, ?Z.eqb_eq;
    intuition (subst; f_equal; auto using width_eqb_eq, conv_eqb_eq, kind_eqb_eq, eqb_prop).
Qed.
Lemma pair_eqb_eq : forall A B (ea : A -> A -> bool) (eb : B -> B -> bool),
  (forall x y, ea x y = true -> x = y) -> (forall x y, eb x y = true -> x = y) ->
  forall a b : A * B, ea (fst a) (fst b) && eb (snd a) (snd b) = true -> a = b.
Proof.
  intros A B ea eb Ha Hb [a1 a2] [b1 b2]. cbn [fst snd]. rewrite andb_true_iff. intros [H1 H2].
  f_equal; auto.
Qed.

Theorem ir_eqb_eq : forall a b, ir_eqb a b = true -> a = b.
Proof.
  intros [g1 gb1 s1 h1 n1] [g2 gb2 s2 h2 n2]. unfold ir_eqb. cbn [a_get a_getbytes a_set a_has a_new].
  rewrite !andb_true_iff. intros [[[[H1 H2] H3] H4] H5].
  assert (Z : forall x y : Z, (x =? y) = true -> x = y) by (intros; apply Z.eqb_eq; assumption).
  apply (opt_eqb_eq _ tg_eqb (pair_eqb_eq _ _ _ _ tag_eqb_eq gbody_eqb_eq)) in H1.
  apply (opt_eqb_eq _ tz_eqb (pair_eqb_eq _ _ _ _ tag_eqb_eq Z)) in H2.
  apply (opt_eqb_eq _ ts_eqb (pair_eqb_eq _ _ _ _ tag_eqb_eq sbody_eqb_eq)) in H3.
  apply (opt_eqb_eq _ tz_eqb (pair_eqb_eq _ _ _ _ tag_eqb_eq Z)) in H4.
  apply (opt_eqb_eq _ tz_eqb (pair_eqb_eq _ _ _ _ tag_eqb_eq Z)) in H5.
  congruence.
Qed.

Lemma zlist_eqb_eq : forall a b, zlist_eqb a b = true -> a = b.
Proof.
  induction a as [|x a IH]; destruct b as [|y b]; cbn; try congruence.
  rewrite andb_true_iff, Z.eqb_eq. intros [-> H]. f_equal. auto.
Qed.

Theorem nir_eqb_eq : forall a b, nir_eqb a b = true -> a = b.
Proof.
  intros [a1 a2 a3 a4 a5 a6] [b1 b2 b3 b4 b5 b6]. unfold nir_eqb.
  cbn [ni_typeid ni_new ni_newroot ni_list ni_which ni_consts]. rewrite !andb_true_iff.
  intros [[[[[H1 H2] H3] H4] H5] H6].
  assert (Z : forall x y : Z, (x =? y) = true -> x = y) by (intros; apply Z.eqb_eq; assumption).
  apply (opt_eqb_eq _ _ Z) in H1. apply (opt_eqb_eq _ _ zz_eqb_eq) in H2, H3, H4.
  apply (opt_eqb_eq _ _ Z) in H5. apply zlist_eqb_eq in H6. congruence.
Qed.

Definition default_okb (k : kind) (d : Z) : bool :=
  match k with
  | KVoid | KGroup | KInterface => d =? 0
  | KBool => (d =? 0) || (d =? 1)
  | KInt w => (- 2 ^ (wbits w - 1) <=? d) && (d <? 2 ^ (wbits w - 1))
  | KUint w => (0 <=? d) && (d <? 2 ^ wbits w)
  | KFloat32 => (0 <=? d) && (d <? 2 ^ 32)
  | KFloat64 => (0 <=? d) && (d <? 2 ^ 64)
  | KEnum => (0 <=? d) && (d <? 2 ^ 16)
  | _ => 0 <=? d
  end.

Definition ranges_disjointb (f : field_desc) : bool :=
  match field_range f with
  | RBits lo len => (lo + len <=? disc_lo f) || (disc_lo f + 16 <=? lo)
  | _ => true
  end.

Definition field_wfb (f : field_desc) : bool :=
  (0 <=? fd_off f) && ((fd_off f + 1) * kind_bits (fd_kind f) <=? 2 ^ 32 - 1) && (fd_off f <? 2 ^ 32)
  && default_okb (fd_kind f) (fd_default f)
  && (0 <=? fd_disc f) && (fd_disc f <=? 65535)
  && (0 <=? fd_discoff f) && ((fd_discoff f + 1) * 16 <=? 2 ^ 32 - 1)
  && (negb (has_disc f) || ranges_disjointb f).

Lemma default_okb_ok : forall k d, default_okb k d = true -> default_ok k d.
Proof.
  intros k d H. destruct k; cbn [default_okb default_ok] in *;
  rewrite ?andb_true_iff, ?orb_true_iff, ?Z.eqb_eq, ?Z.leb_le, ?Z.ltb_lt in H; try assumption; try tauto.
Qed.

Theorem field_wfb_ok : forall f, field_wfb f = true -> field_wf f.
Proof.
  intros f H. unfold field_wfb in H. rewrite !andb_true_iff in H.
  destruct H as [[[[[[[[H1 H2] H3] H4] H5] H6] H7] H8] H9].
  apply Z.leb_le in H1, H2, H5, H6, H7, H8. apply Z.ltb_lt in H3. apply default_okb_ok in H4.
  unfold field_wf. repeat split; try assumption.
  intros D. rewrite D in H9. cbn [negb orb] in H9. unfold ranges_disjointb, ranges_disjoint in *.
  destruct (field_range f); try trivial.
  apply orb_true_iff in H9. rewrite !Z.leb_le in H9. assumption.
Qed.

(* what the per-run obligation gives: every emitted accessor IS the generator model's *)
Theorem fields_match_sound : forall l f ir, fields_match l = true -> In (f, ir) l -> ir = gen_accessor f.
Proof.
  intros l f ir H Hin. unfold fields_match in H. rewrite forallb_forall in H.
  specialize (H (f, ir) Hin). cbn [fst snd] in H. apply ir_eqb_eq. assumption.
Qed.

Theorem nodes_match_sound : forall l n ir, nodes_match l = true -> In (n, ir) l -> ir = gen_node n.
Proof.
  intros l n ir H Hin. unfold nodes_match in H. rewrite forallb_forall in H.
  specialize (H (n, ir) Hin). cbn [fst snd] in H. apply nir_eqb_eq. assumption.
Qed.

Definition fields_wf (l : list (field_desc * accessor_ir)) : bool := forallb (fun p => field_wfb (fst p)) l.

Theorem fields_wf_sound : forall l f ir, fields_wf l = true -> In (f, ir) l -> field_wf f.
Proof.
  intros l f ir H Hin. unfold fields_wf in H. rewrite forallb_forall in H.
  apply field_wfb_ok. apply (H (f, ir) Hin).
Qed.

(* every generated type name used by an accessor / method signature denotes the schema's type *)
Theorem typerefs_match_sound : forall l t ids x, typerefs_match l = true -> In (t, ids) l -> In x ids -> x = t.
Proof.
  intros l t ids x H Hin Hx. unfold typerefs_match in H. rewrite forallb_forall in H.
  specialize (H (t, ids) Hin). cbn [fst snd] in H. destruct ids as [|a r]; [contradiction|].
  rewrite forallb_forall in H. specialize (H x Hx). apply Z.eqb_eq in H. congruence.
Qed.

(* every emitted pointer default (getter argument, pipelined accessor) is the field's slot and bytes *)
Theorem defrefs_match_sound : forall l k want got, defrefs_match l = true -> In (k, (want, got)) l -> got = want.
Proof.
  intros l k [s1 d1] [s2 d2] H Hin. unfold defrefs_match in H. rewrite forallb_forall in H.
  specialize (H _ Hin). cbn [fst snd] in H. apply andb_prop in H. destruct H as [A B].
  apply Z.eqb_eq in A. apply zlist_eqb_eq in B. congruence.
Qed.
