(* History-level C06: every local call resolves exactly once.  A call number n handed out by [next_call] is, at every
   point of every history, EITHER resolved exactly once in the outbox (one [LAppRes n _]) and held
   nowhere, OR not resolved and held at exactly one place: an unfinished question, a running direct
   delivery to a local server, or a call blocked behind an embargo.  Numbers not handed out yet
   have no resolution.  The invariant goes through every handler and through shutdown. *)
From CV Require Import Rpc.Rpc Rpc.RpcSpec Rpc.RpcProofs Rpc.RpcInv Rpc.RpcResp Rpc.RpcLocal Rpc.RpcHist Rpc.RpcQids.
From Coq Require Import ZifyBool.
Open Scope Z_scope.

(* [is_res n]: the resolution of call number n.  The places that hold call n: unfinished questions ([HQ]),
   running direct deliveries ([HL]), calls blocked behind an embargo ([HE]); [hold] adds them up *)
Definition is_res (n : Z) (o : output) : bool := match o with LAppRes m _ => m =? n | _ => false end.
Definition hq (n : Z) (oq : option question) : nat :=
  match oq with Some q => if negb (q_fin q) && (q_call q =? n) then 1%nat else 0%nat | None => 0%nat end.
Definition HQ (n : Z) (t : tbl question) : nat := list_sum (map (hq n) t).
Definition HL (n : Z) (l : list (Z * Z)) : nat := length (filter (fun p => snd p =? n) l).
Definition HE (n : Z) (l : list (Z * Z * Z)) : nat := length (filter (fun p => snd (fst p) =? n) l).
Definition hold (n : Z) (x : aux) : nat := (HQ n (x_qs x) + HL n (x_lcalls x) + HE n (x_ecalls x))%nat.

(* the invariant.  K1: for a number handed out, its resolutions in the outbox and its holders add up to
   one, for a number not handed out to none; K2: the running deliveries have distinct keys below the
   delivery counter; K4: a bootstrap question carries no call number *)
Definition K1 (x : aux) (out : list output) : Prop :=
  forall n, 0 <= n -> (cnt (is_res n) out + hold n x)%nat = if n <? x_ncall x then 1%nat else 0%nat.
Definition K2 (x : aux) : Prop :=
  NoDup (map fst (x_lcalls x)) /\ (forall k, In k (map fst (x_lcalls x)) -> k < x_ndeliv x).
Definition K3 (x : aux) : Prop := 0 <= x_ncall x.
Definition K4 (x : aux) : Prop := forall id q, tget id (x_qs x) = Some q -> q_boot q <> None -> q_call q < 0.
Definition KI (x : aux) (out : list output) : Prop := K1 x out /\ K2 x /\ K3 x /\ K4 x.

(* outputs without resolutions *)
Definition rq (o : list output) : Prop := forall n, cnt (is_res n) o = 0%nat.
Lemma res_qkind : forall n x, is_res n x = true -> qkind x = true.
Proof. intros n x. destruct x; simpl; auto; discriminate. Qed.
Lemma rq_qquiet : forall o, qquiet o -> rq o.
Proof. intros o Q n. apply (cnt_qquiet _ _ (res_qkind n) Q). Qed.
Lemma rq_app : forall a b, rq a -> rq b -> rq (a ++ b).
Proof. intros a b Ha Hb n. rewrite cnt_app, Ha, Hb. reflexivity. Qed.
Lemma rq_cons : forall x o, (forall n, is_res n x = false) -> rq o -> rq (x :: o).
Proof. intros x o Hx Ho n. rewrite cnt_cons, Hx, Ho. reflexivity. Qed.
Lemma rq_nil : rq []. Proof. intros n. reflexivity. Qed.
(* [rq] of an explicit list of outputs (and appends of such): element by element, none is a resolution *)
Ltac rqt := repeat (first [apply rq_nil | apply rq_cons; [intros ?; reflexivity|] | apply rq_app]).

Lemma list_sum_cons : forall a l, list_sum (a :: l) = (a + list_sum l)%nat. Proof. reflexivity. Qed.
Lemma HQ_app : forall n t v, HQ n (t ++ [v]) = (HQ n t + hq n v)%nat.
Proof. intros. unfold HQ. rewrite map_app, list_sum_app. cbn [map]. rewrite list_sum_cons. cbn [list_sum fold_right]. lia. Qed.

Lemma HQ_replace : forall n t k v old, nth_error t k = Some old ->
  (HQ n (replace_nth k v t) + hq n old = HQ n t + hq n v)%nat.
Proof.
  intros n t. unfold HQ. induction t as [|a t IH]; intros k v old H; destruct k; simpl in H; try discriminate;
    cbn [replace_nth map]; rewrite !list_sum_cons.
  - inversion H; subst. lia.
  - specialize (IH _ v _ H). lia.
Qed.

Lemma HQ_tclear_some : forall n t id q, tget id t = Some q -> (HQ n (tclear id t) + hq n (Some q) = HQ n t)%nat.
Proof.
  intros n t id q H. apply tget_some in H. destruct H as [Hr Hn]. unfold tclear.
  replace ((0 <=? id) && (id <? Z.of_nat (length t))) with true by lia.
  pose proof (HQ_replace n t _ None _ Hn) as R. change (hq n None) with 0%nat in R. lia.
Qed.

Lemma HQ_replace_some : forall n t id q q', tget id t = Some q ->
  (HQ n (replace_nth (Z.to_nat id) (Some q') t) + hq n (Some q) = HQ n t + hq n (Some q'))%nat.
Proof. intros n t id q q' H. apply tget_some in H. destruct H as [_ Hn]. apply (HQ_replace n t _ (Some q') _ Hn). Qed.

Lemma HQ_nil : forall n, HQ n [] = 0%nat. Proof. reflexivity. Qed.

(* a question allocated on a free slot *)
Lemma new_question_hq : forall q s s1 id n, new_question q s = Ok (s1, id) -> live s ->
  HQ n (s_qs s1) = (HQ n (s_qs s) + hq n (Some q))%nat.
Proof.
  intros q s s1 id n H L. pose proof L as [Hs ([Gq Sq] & _)]. simpl in Gq, Sq. unfold new_question in H.
  unbind H as [i g] eqn:E1. unbind H as t eqn:E2. injection H as <- <-. cbn [s_qs set_allocs set_qgen set_qs].
  destruct (alloc_inv _ _ _ _ _ _ _ Gq Sq E1 E2) as (_ & _ & _ & _ & _ & [->|(k & NE & ->)]); [apply HQ_app|].
  pose proof (HQ_replace n _ _ (Some q) _ NE) as R. change (hq n None) with 0%nat in R. lia.
Qed.

(* association lists of running direct deliveries *)
Lemma HL_adel : forall n k l v, NoDup (map fst l) -> aget k l = Some v ->
  (HL n (adel k l) + (if (v =? n)%Z then 1 else 0) = HL n l)%nat.
Proof.
  intros n k l v. unfold HL. induction l as [|[k' v'] l IH]; simpl; intros ND H; [discriminate|].
  inversion ND as [|? ? Hnin ND']; subst. destruct (k' =? k) eqn:E.
  - inversion H; subst v'. assert (k' = k) by lia. subst k'.
    assert (A : adel k l = l).
    { clear - Hnin. induction l as [|[a b] l IH]; simpl in *; [reflexivity|].
      destruct (a =? k) eqn:E; [exfalso; apply Hnin; left; lia|]. f_equal. apply IH. tauto. }
    rewrite A. destruct (v =? n); simpl; lia.
  - simpl. specialize (IH ND' H). destruct (v' =? n); simpl; lia.
Qed.

Lemma adel_K2 : forall k (l : list (Z * Z)) b, NoDup (map fst l) /\ (forall x, In x (map fst l) -> x < b) ->
  NoDup (map fst (adel k l)) /\ (forall x, In x (map fst (adel k l)) -> x < b).
Proof.
  intros k l b [ND Hb]. split; [apply adel_nodup; exact ND|]. intros x Hx. apply adel_keys in Hx. apply Hb. tauto.
Qed.

Lemma KI_same : forall x x1 out o, KI x out -> x_qs x1 = x_qs x -> x_lcalls x1 = x_lcalls x -> x_ecalls x1 = x_ecalls x ->
  x_ncall x1 = x_ncall x -> x_ndeliv x <= x_ndeliv x1 -> rq o -> KI x1 (out ++ o).
Proof.
  intros x x1 out o (A & (B1 & B2) & C & D) Eq El Ee En Ed R. split; [|split; [|split]].
  - intros n Hn. rewrite cnt_app, R. unfold hold. rewrite Eq, El, Ee, En. specialize (A n Hn). unfold hold in A. lia.
  - unfold K2. rewrite El. split; [exact B1|]. intros k Hk. specialize (B2 k Hk). lia.
  - unfold K3. rewrite En. exact C.
  - unfold K4. rewrite Eq. exact D.
Qed.

Lemma KI_qinert : forall s o s1 out, KI (aux_of s) out -> qinert s o s1 -> KI (aux_of s1) (out ++ o).
Proof.
  intros s o s1 out H [(F1 & F2 & F3 & F4 & F5 & F6 & F7) Q].
  eapply KI_same; [exact H|exact F1|exact F3|exact F4|exact F5|exact F7|apply rq_qquiet; exact Q].
Qed.

Lemma KI_aux : forall s s1 out o, KI (aux_of s) out -> aux_of s1 = aux_of s -> rq o -> KI (aux_of s1) (out ++ o).
Proof. intros s s1 out o H E R. rewrite E. eapply KI_same; [exact H|reflexivity..|lia|exact R]. Qed.

Lemma K1_step : forall x x1 out o, K1 x out ->
  (forall n, 0 <= n -> (cnt (is_res n) o + hold n x1 + (if (n <? x_ncall x)%Z then 1 else 0) =
                        hold n x + (if (n <? x_ncall x1)%Z then 1 else 0))%nat) -> K1 x1 (out ++ o).
Proof.
  intros x x1 out o K D n Hn. rewrite cnt_app. specialize (K n Hn). specialize (D n Hn).
  destruct (n <? x_ncall x), (n <? x_ncall x1); lia.
Qed.

Lemma K4_replace : forall t qid q q', (forall id q, tget id t = Some q -> q_boot q <> None -> q_call q < 0) ->
  tget qid t = Some q -> (q_boot q' <> None -> q_call q' < 0) ->
  forall id q0, tget id (replace_nth (Z.to_nat qid) (Some q') t) = Some q0 -> q_boot q0 <> None -> q_call q0 < 0.
Proof.
  intros t qid q q' K Eq Hq' id q0 H Hb. pose proof (tget_some _ _ _ _ Eq) as [Hr Hn].
  rewrite tget_replace in H by lia. replace (Z.of_nat (Z.to_nat qid)) with qid in H by lia.
  destruct (id =? qid); [inversion H; subst; auto|eapply K; eauto].
Qed.

Lemma is_res_cons : forall n m c o, cnt (is_res n) (LAppRes m c :: o) = ((if (m =? n)%Z then 1 else 0) + cnt (is_res n) o)%nat.
Proof. intros. rewrite cnt_cons. reflexivity. Qed.

Lemma app_return_local_KI : forall k n c s out, KI (aux_of s) out -> aget k (s_lcalls s) = Some n ->
  KI (aux_of (set_lcalls (adel k (s_lcalls s)) s)) (out ++ [LAppRes n c]).
Proof.
  intros k n c s out (A & B & C & D) E. split; [|split; [|split]].
  - apply (K1_step (aux_of s)); [exact A|]. intros m Hm. unfold hold. cbn [aux_of x_qs x_lcalls x_ecalls x_ncall].
    change (s_qs (set_lcalls _ s)) with (s_qs s). change (s_ecalls (set_lcalls _ s)) with (s_ecalls s).
    change (s_ncall (set_lcalls _ s)) with (s_ncall s). change (s_lcalls (set_lcalls ?v s)) with v.
    pose proof (HL_adel m k _ _ (proj1 B) E) as R. rewrite is_res_cons. change (cnt (is_res m) []) with 0%nat.
    cbn [aux_of x_lcalls] in R. destruct (n =? m), (m <? s_ncall s); lia.
  - apply (adel_K2 k (s_lcalls s) (s_ndeliv s) B).
  - exact C.
  - exact D.
Qed.

Lemma cancel_KI : forall x x1 out qid q o3, KI x out -> tget qid (x_qs x) = Some q -> q_fin q = false ->
  x_qs x1 = replace_nth (Z.to_nat qid) (Some (mkQ (q_boot q) (q_call q) true (q_called q) (q_prefs q) (q_held q))) (x_qs x) ->
  x_lcalls x1 = x_lcalls x -> x_ecalls x1 = x_ecalls x -> x_ncall x1 = x_ncall x -> x_ndeliv x1 = x_ndeliv x ->
  (forall n, 0 <= n -> cnt (is_res n) o3 = if q_call q =? n then 1%nat else 0%nat) -> KI x1 (out ++ OFinish qid true :: o3).
Proof.
  intros x x1 out qid q o3 (A & B & C & D) Eq Hf Eqs El Ee En Ed R. split; [|split; [|split]].
  - apply (K1_step x); [exact A|]. intros n Hn. rewrite cnt_cons. change (is_res n (OFinish qid true)) with false. cbv iota.
    rewrite (R n Hn). unfold hold. rewrite Eqs, El, Ee, En.
    pose proof (HQ_replace_some n _ _ _ (mkQ (q_boot q) (q_call q) true (q_called q) (q_prefs q) (q_held q)) Eq) as H.
    unfold hq in H. cbn [q_fin q_call negb andb] in H. rewrite Hf in H. cbn [negb andb] in H.
    destruct (q_call q =? n); lia.
  - unfold K2. rewrite El, Ed. exact B.
  - unfold K3. rewrite En. exact C.
  - unfold K4. rewrite Eqs. eapply K4_replace; [exact D|exact Eq|]. cbn [q_boot q_call]. intros Hb. eapply D; eauto.
Qed.

Lemma app_cancel_KI : forall qid s s0 o0 ab out, app_cancel cfg_fixed qid s = Ok (s0, o0, ab) -> KI (aux_of s) out -> KI (aux_of s0) (out ++ o0).
Proof.
  intros qid s s0 o0 ab out H HK. unfold app_cancel in H.
  assert (SIMPLE : Ok (s, @nil output, false) = Ok (s0, o0, ab) -> KI (aux_of s0) (out ++ o0)).
  { intros E. inversion E; subst. rewrite app_nil_r. exact HK. }
  destruct (s_shut s); [apply (SIMPLE H)|].
  destruct (tget qid (s_qs s)) as [q|] eqn:Eq; [|apply (SIMPLE H)].
  destruct (q_fin q) eqn:Ef; [apply (SIMPLE H)|]. destruct (q_call q <? 0) eqn:Ec; [apply (SIMPLE H)|].
  destruct (q_held q) eqn:Eh; [apply (SIMPLE H)|]. simpl in H. unfold cancel_question in H. simpl in H. inversion H; subst.
  eapply (cancel_KI (aux_of s) _ out qid q [LAppRes (q_call q) 2] HK Eq Ef); try reflexivity.
  intros n Hn. rewrite is_res_cons. change (cnt (is_res n) []) with 0%nat. destruct (q_call q =? n); lia.
Qed.

Lemma app_release_KI : forall h s s0 o0 ab out, app_release cfg_fixed h s = Ok (s0, o0, ab) ->
  (s_shut s = false -> QI (aux_of s) out) -> KI (aux_of s) out -> KI (aux_of s0) (out ++ o0).
Proof.
  intros h s s0 o0 ab out H HQ HK. unfold app_release in H.
  destruct (hget h s) as [qid|x|] eqn:Eh; [| |inversion H; subst; rewrite app_nil_r; exact HK].
  - pose proof (hget_znth _ _ _ Eh ltac:(discriminate)) as Hz.
    set (sa := set_handle h HGone s) in *.
    assert (SIMPLE : Ok (sa, @nil output, false) = Ok (s0, o0, ab) -> KI (aux_of s0) (out ++ o0)).
    { intros E. inversion E; subst. eapply KI_same; [exact HK|reflexivity..|simpl; lia|rqt]. }
    destruct (s_shut sa) eqn:Es; [apply (SIMPLE H)|].
    destruct (tget qid (s_qs sa)) as [q|] eqn:Eq; [|apply (SIMPLE H)].
    destruct (q_fin q) eqn:Ef; [apply (SIMPLE H)|].
    unfold cancel_question in H. simpl in H. inversion H; subst.
    destruct (HQ Es) as (_ & _ & B). destruct (B h qid Hz) as (q0 & E0 & _ & _ & Rc & _). simpl in E0.
    change (s_qs sa) with (s_qs s) in Eq. rewrite Eq in E0. inversion E0; subst q0.
    replace [OFinish qid true] with (OFinish qid true :: []) by reflexivity.
    eapply (cancel_KI (aux_of s) _ out qid q [] HK Eq Ef); try reflexivity.
    intros n Hn. replace (q_call q =? n) with false by lia. reflexivity.
  - unbind H as [s1 o] eqn:E. inversion H; subst.
    pose proof (aux_release_cap _ _ _ _ _ E) as A.
    eapply KI_same; [exact HK|rewrite A; reflexivity..|rewrite A; simpl; lia|apply rq_qquiet; eapply qq_release_cap; eauto].
Qed.

Lemma KI_next_res : forall s out c, KI (aux_of s) out ->
  KI (aux_of (set_ncall (s_ncall s + 1) s)) (out ++ [LAppRes (s_ncall s) c]).
Proof.
  intros s out c (A & B & C & D). split; [|split; [|split]]; [|exact B|unfold K3 in *; simpl in *; lia|exact D].
  apply (K1_step (aux_of s)); [exact A|]. intros m Hm. rewrite is_res_cons. change (cnt (is_res m) []) with 0%nat.
  change (hold m (aux_of (set_ncall (s_ncall s + 1) s))) with (hold m (aux_of s)).
  cbn [aux_of x_ncall]. change (s_ncall (set_ncall (s_ncall s + 1) s)) with (s_ncall s + 1).
  unfold K3 in C. simpl in C.
  destruct (s_ncall s =? m) eqn:E1, (m <? s_ncall s) eqn:E2, (m <? s_ncall s + 1) eqn:E3; lia.
Qed.

(* the new call number gets exactly one holder *)
Lemma KI_next_hold : forall s sx out o, KI (aux_of s) out -> s_ncall sx = s_ncall s + 1 -> rq o ->
  K2 (aux_of sx) -> K4 (aux_of sx) ->
  (forall m, hold m (aux_of sx) = (hold m (aux_of s) + if (s_ncall s =? m)%Z then 1 else 0)%nat) -> KI (aux_of sx) (out ++ o).
Proof.
  intros s sx out o (A & B & C & D) En R B' D' Hh. split; [|split; [|split]]; [|exact B'|unfold K3 in *; simpl in *; lia|exact D'].
  apply (K1_step (aux_of s)); [exact A|]. intros m Hm. rewrite (R m), (Hh m). cbn [aux_of x_ncall]. rewrite En.
  unfold K3 in C. simpl in C.
  destruct (s_ncall s =? m) eqn:E1, (m <? s_ncall s) eqn:E2, (m <? s_ncall s + 1) eqn:E3; lia.
Qed.

Lemma HQ_replace_same : forall n t id q q', tget id t = Some q -> hq n (Some q') = hq n (Some q) ->
  HQ n (replace_nth (Z.to_nat id) (Some q') t) = HQ n t.
Proof. intros n t id q q' H E. pose proof (HQ_replace_some n t id q q' H). lia. Qed.

Lemma send_call_K : forall s1 n caps (mk : Z -> list desc -> output) s0 o0 ab, live s1 ->
  (do '(s2, id) <- new_question (mkQ None n false [] [] None) s1;
   do '(s3, ds, refs) <- fill_caps cfg_fixed (map (acap_cap s2) caps) s2;
   let s4 := if fx19 cfg_fixed then set_qs (replace_nth (Z.to_nat id) (Some (mkQ None n false [] refs None)) (s_qs s3)) s3 else s3 in
   Ok (s4, [mk id ds], false)) = Ok (s0, o0, ab) ->
  (forall m, HQ m (s_qs s0) = (HQ m (s_qs s1) + if (n =? m)%Z then 1 else 0)%nat) /\
  s_lcalls s0 = s_lcalls s1 /\ s_ecalls s0 = s_ecalls s1 /\ s_ncall s0 = s_ncall s1 /\ s_ndeliv s0 = s_ndeliv s1 /\
  (K4 (aux_of s1) -> K4 (aux_of s0)) /\ exists id ds, o0 = [mk id ds].
Proof.
  intros s1 n caps mk s0 o0 ab L1 H.
  unbind H as [s2 id] eqn:E.
  destruct (new_question_q _ _ _ _ E L1) as (Hn & TG & Hh1 & Hl & He & Hc & Hd & _).
  unbind H as [[s3 ds] refs] eqn:E3.
  apply aux_fill_caps in E3. cbn [fx19 cfg_fixed] in H. inversion H; subst.
  assert (Q3 : s_qs s3 = s_qs s2) by (change (x_qs (aux_of s3) = x_qs (aux_of s2)); rewrite E3; reflexivity).
  assert (T2 : tget id (s_qs s2) = Some (mkQ None n false [] [] None)) by (rewrite TG, Z.eqb_refl; reflexivity).
  split; [|split; [|split; [|split; [|split; [|split]]]]].
  - intros m. cbn [s_qs set_qs]. rewrite Q3.
    rewrite (HQ_replace_same m _ id _ (mkQ None n false [] refs None) T2) by reflexivity.
    rewrite (new_question_hq _ _ _ _ m E L1). reflexivity.
  - change (x_lcalls (aux_of s3) = s_lcalls s1). rewrite E3. exact Hl.
  - change (x_ecalls (aux_of s3) = s_ecalls s1). rewrite E3. exact He.
  - change (x_ncall (aux_of s3) = s_ncall s1). rewrite E3. exact Hc.
  - change (x_ndeliv (aux_of s3) = s_ndeliv s1). rewrite E3. exact Hd.
  - intros D. unfold K4. cbn [aux_of x_qs s_qs set_qs]. rewrite Q3.
    eapply K4_replace; [|exact T2|cbn [q_boot]; congruence].
    intros j q Hq Hb. rewrite TG in Hq. destruct (j =? id); [inversion Hq; subst; cbn [q_boot] in Hb; congruence|eapply D; eauto].
  - eauto.
Qed.

Lemma K2_same : forall x x1, K2 x -> x_lcalls x1 = x_lcalls x -> x_ndeliv x <= x_ndeliv x1 -> K2 x1.
Proof. intros x x1 [A B] E L. unfold K2. rewrite E. split; [exact A|]. intros k Hk. specialize (B k Hk). lia. Qed.

Lemma app_pipe_KI : forall q0 x caps s s0 o0 ab out, app_pipe cfg_fixed q0 x caps s = Ok (s0, o0, ab) ->
  (s_shut s = false -> live s) -> KI (aux_of s) out -> KI (aux_of s0) (out ++ o0).
Proof.
  intros q0 x caps s s0 o0 ab out H Lv HK. unfold app_pipe, next_call in H.
  set (sa := set_ncall (s_ncall s + 1) s) in *.
  assert (SIMPLE : forall c, Ok (sa, [LAppRes (s_ncall s) c], false) = Ok (s0, o0, ab) -> KI (aux_of s0) (out ++ o0)).
  { intros c E. inversion E; subst. apply KI_next_res. exact HK. }
  destruct (s_shut sa) eqn:Es; [apply (SIMPLE _ H)|]. pose proof (Lv Es) as L.
  destruct (tget q0 (s_qs sa)) as [q|] eqn:Eq; [|apply (SIMPLE _ H)].
  destruct (q_fin q); [apply (SIMPLE _ H)|].
  pose proof (tget_some _ _ _ _ Eq) as [Hr Hn].
  set (s1 := set_qs (replace_nth (Z.to_nat q0) (Some (mark_called x q)) (s_qs sa)) sa) in *.
  assert (La : live sa) by (eapply live_core; [exact L|reflexivity]).
  assert (L1 : live s1) by (apply live_set_qs; [exact La|apply replace_nth_length|eapply slots_free_replace; [apply qs_slots; exact La|exact Hn]]).
  destruct (mark_called_same x q) as (S1 & S2 & S3 & S4).
  destruct HK as (A & B & C & D).
  destruct (send_call_K s1 (s_ncall s) caps (fun id ds => OCall id (OTAns q0 x) ds) _ _ _ L1 H) as (HQs & El & Ee & En & Ed & K4s & (id & ds & Eo)).
  subst o0. eapply (KI_next_hold s); [exact (conj A (conj B (conj C D)))|rewrite En; reflexivity|rqt| | |].
  - eapply K2_same; [exact B|exact El|cbn [aux_of x_ndeliv]; rewrite Ed; simpl; lia].
  - apply K4s. unfold K4. cbn [aux_of x_qs]. change (s_qs s1) with (replace_nth (Z.to_nat q0) (Some (mark_called x q)) (s_qs s)).
    change (s_qs sa) with (s_qs s) in Eq. eapply K4_replace; [exact D|exact Eq|]. rewrite S1, S3. intros Hb. eapply D; eauto.
  - intros m. unfold hold. cbn [aux_of x_qs x_lcalls x_ecalls]. rewrite HQs, El, Ee.
    change (s_qs s1) with (replace_nth (Z.to_nat q0) (Some (mark_called x q)) (s_qs s)). change (s_qs sa) with (s_qs s) in Eq.
    rewrite (HQ_replace_same m _ q0 q (mark_called x q) Eq) by (unfold hq; rewrite S2, S3; reflexivity).
    change (s_lcalls s1) with (s_lcalls s). change (s_ecalls s1) with (s_ecalls s). lia.
Qed.

Lemma HL_cons : forall m k n l, HL m ((k, n) :: l) = ((if (n =? m)%Z then 1 else 0) + HL m l)%nat.
Proof. intros. unfold HL. cbn [filter snd]. destruct (n =? m); reflexivity. Qed.
Lemma HE_snoc : forall m e n tag l, HE m (l ++ [(e, n, tag)]) = (HE m l + if (n =? m)%Z then 1 else 0)%nat.
Proof. intros. unfold HE. rewrite filter_app, app_length. cbn [filter fst snd]. destruct (n =? m); reflexivity. Qed.

Lemma app_call_KI : forall h caps tag s s0 o0 ab out, app_call cfg_fixed h caps tag s = Ok (s0, o0, ab) ->
  (s_shut s = false -> live s) -> KI (aux_of s) out -> KI (aux_of s0) (out ++ o0).
Proof.
  intros h caps tag s s0 o0 ab out H Lv HK. unfold app_call in H.
  destruct (hget h s) as [q0|x|]; [eapply app_pipe_KI; eauto| |unfold next_call in H; inversion H; subst; apply KI_next_res; exact HK].
  unfold next_call in H. set (sa := set_ncall (s_ncall s + 1) s) in *.
  assert (SIMPLE : forall c, Ok (sa, [LAppRes (s_ncall s) c], false) = Ok (s0, o0, ab) -> KI (aux_of s0) (out ++ o0)).
  { intros c E. inversion E; subst. apply KI_next_res. exact HK. }
  destruct x; try (apply (SIMPLE _ H)).
  - (* a local capability: delivered directly *)
    inversion H; subst. pose proof HK as (A & (B1 & B2) & C & D).
    eapply (KI_next_hold s); [exact HK|reflexivity|rqt| |exact D|].
    + split; cbn [aux_of x_lcalls x_ndeliv]; simpl.
      * constructor; [|exact B1]. intros Hin. specialize (B2 _ Hin). simpl in B2. lia.
      * intros k [Hk|Hk]; [lia|]. specialize (B2 _ Hk). simpl in B2. lia.
    + intros m. unfold hold. cbn [aux_of x_qs x_lcalls x_ecalls]. simpl s_lcalls. rewrite HL_cons. simpl. lia.
  - (* an import *)
    destruct (s_shut sa) eqn:Es; [apply (SIMPLE _ H)|]. pose proof (Lv Es) as L.
    destruct (negb (imp_current i g sa)); [apply (SIMPLE _ H)|].
    assert (La : live sa) by (eapply live_core; [exact L|reflexivity]).
    pose proof HK as (A & B & C & D).
    destruct (send_call_K sa (s_ncall s) caps (fun id ds => OCall id (OTImp i) ds) _ _ _ La H) as (HQs & El & Ee & En & Ed & K4s & (id & ds & Eo)).
    subst o0. eapply (KI_next_hold s); [exact HK|rewrite En; reflexivity|rqt| | |].
    + eapply K2_same; [exact B|exact El|cbn [aux_of x_ndeliv]; rewrite Ed; simpl; lia].
    + apply K4s. exact D.
    + intros m. unfold hold. cbn [aux_of x_qs x_lcalls x_ecalls]. rewrite HQs, El, Ee. simpl. lia.
  - (* an embargoed capability: the call waits *)
    inversion H; subst. pose proof HK as (A & B & C & D).
    eapply (KI_next_hold s); [exact HK|reflexivity|rqt|exact B|exact D|].
    intros m. unfold hold. cbn [aux_of x_qs x_lcalls x_ecalls]. simpl s_ecalls. rewrite HE_snoc. simpl. lia.
Qed.

Lemma app_hold_KI : forall h s s0 o0 ab out, app_hold cfg_fixed h s = Ok (s0, o0, ab) ->
  (s_shut s = false -> live s) -> KI (aux_of s) out -> KI (aux_of s0) (out ++ o0).
Proof.
  intros h s s0 o0 ab out H Lv HK. unfold app_hold, next_call in H.
  set (sa := set_ncall (s_ncall s + 1) s) in *.
  assert (SIMPLE : forall c, Ok (sa, [LAppRes (s_ncall s) c], false) = Ok (s0, o0, ab) -> KI (aux_of s0) (out ++ o0)).
  { intros c E. inversion E; subst. apply KI_next_res. exact HK. }
  destruct (hget h sa) as [q0|x|]; try (apply (SIMPLE _ H)).
  destruct x; try (apply (SIMPLE _ H)).
  destruct (s_shut sa) eqn:Es; [apply (SIMPLE _ H)|]. cbn [orb] in H. pose proof (Lv Es) as L.
  destruct (negb (imp_current i g sa)); [apply (SIMPLE _ H)|].
  assert (La : live sa) by (eapply live_core; [exact L|reflexivity]).
  unbind H as [s2 id] eqn:E. inversion H; subst.
  destruct (new_question_q _ _ _ _ E La) as (Hn & TG & Hh1 & Hl & He & Hc & Hd & _).
  pose proof HK as (A & B & C & D).
  eapply (KI_next_hold s); [exact HK|exact Hc|rqt| | |].
  - eapply K2_same; [exact B|exact Hl|cbn [aux_of x_ndeliv]; simpl; rewrite Hd; simpl; lia].
  - intros j q Hq Hb. cbn [aux_of x_qs] in Hq. change (s_qs (set_busy _ s2)) with (s_qs s2) in Hq. rewrite TG in Hq.
    destruct (j =? id); [inversion Hq; subst; cbn [q_boot] in Hb; congruence|eapply D; eauto].
  - intros m. unfold hold. cbn [aux_of x_qs x_lcalls x_ecalls].
    change (s_qs (set_busy _ s2)) with (s_qs s2). change (s_lcalls (set_busy _ s2)) with (s_lcalls s2). change (s_ecalls (set_busy _ s2)) with (s_ecalls s2).
    rewrite (new_question_hq _ _ _ _ m E La), Hl, He. unfold hq. cbn [q_fin q_call negb andb]. simpl. lia.
Qed.

Lemma app_unhold_KI : forall n s s0 o0 ab out, app_unhold cfg_fixed n s = Ok (s0, o0, ab) ->
  KI (aux_of s) out -> KI (aux_of s0) (out ++ o0).
Proof.
  intros n s s0 o0 ab out H HK. unfold app_unhold in H.
  assert (SIMPLE : Ok (s, @nil output, false) = Ok (s0, o0, ab) -> KI (aux_of s0) (out ++ o0)).
  { intros E. inversion E; subst. rewrite app_nil_r. exact HK. }
  destruct (find_held n (s_qs s) 0) as [[qid q]|] eqn:Ef; [|apply (SIMPLE H)].
  destruct (find_held_tget _ _ _ _ Ef) as [Eq Hheld].
  destruct (q_held q) as [[[i g] cs]|] eqn:Eh; [|apply (SIMPLE H)].
  destruct (s_shut s); [apply (SIMPLE H)|].
  set (q' := mkQ None (q_call q) (q_fin q) [] [] None) in *.
  assert (RES : forall sx o3, s_qs sx = replace_nth (Z.to_nat qid) (Some q') (s_qs s) -> s_lcalls sx = s_lcalls s ->
            s_ecalls sx = s_ecalls s -> s_ncall sx = s_ncall s -> s_ndeliv sx = s_ndeliv s -> rq o3 ->
            KI (aux_of sx) (out ++ OCall qid (OTImp i) [] :: o3)).
  { intros sx o3 Eqs El Ee En Ed R3. destruct HK as (A & B & C & D). split; [|split; [|split]].
    - apply (K1_step (aux_of s)); [exact A|]. intros m Hm. rewrite cnt_cons. change (is_res m (OCall qid (OTImp i) [])) with false. cbv iota.
      rewrite (R3 m). unfold hold. cbn [aux_of x_qs x_lcalls x_ecalls x_ncall]. rewrite Eqs, El, Ee, En.
      rewrite (HQ_replace_same m _ qid q q' Eq) by reflexivity. lia.
    - eapply K2_same; [exact B|exact El|cbn [aux_of x_ndeliv]; lia].
    - unfold K3. cbn [aux_of x_ncall]. rewrite En. exact C.
    - unfold K4. cbn [aux_of x_qs]. rewrite Eqs. eapply K4_replace; [exact D|exact Eq|]. cbn [q' q_boot]. congruence. }
  match type of H with context [if ?c then _ else _] => destruct c end.
  - unbind H as [s3 o3] eqn:E3.
    inversion H; subst. pose proof (aux_imp_shutdown _ _ _ _ _ _ E3) as A3.
    apply RES; [change (x_qs (aux_of s0) = replace_nth (Z.to_nat qid) (Some q') (s_qs s)); rewrite A3; reflexivity
               |change (x_lcalls (aux_of s0) = s_lcalls s); rewrite A3; reflexivity
               |change (x_ecalls (aux_of s0) = s_ecalls s); rewrite A3; reflexivity
               |change (x_ncall (aux_of s0) = s_ncall s); rewrite A3; reflexivity
               |change (x_ndeliv (aux_of s0) = s_ndeliv s); rewrite A3; reflexivity
               |exact (rq_qquiet _ (qq_rel _ (proj2 (imp_shutdown_refs _ _ _ _ _ _ E3))))].
  - inversion H; subst. apply RES; try reflexivity. rqt.
Qed.

Lemma app_bootstrap_KI : forall s s0 o0 ab out, app_bootstrap cfg_fixed s = Ok (s0, o0, ab) ->
  (s_shut s = false -> live s) -> KI (aux_of s) out -> KI (aux_of s0) (out ++ o0).
Proof.
  intros s s0 o0 ab out H Lv HK. unfold app_bootstrap in H.
  destruct (s_shut s) eqn:Es.
  - inversion H; subst. eapply KI_same; [exact HK|reflexivity..|simpl; lia|rqt].
  - pose proof (Lv eq_refl) as L.
    unbind H as [s1 id] eqn:E. inversion H; subst.
    destruct (new_question_q _ _ _ _ E L) as (Hn & TG & Hh1 & Hl & He & Hc & Hd & _).
    destruct HK as (A & B & C & D). split; [|split; [|split]].
    + apply (K1_step (aux_of s)); [exact A|]. intros m Hm. rewrite cnt_cons. change (is_res m (OBootstrap id)) with false. cbv iota.
      change (cnt (is_res m) []) with 0%nat. unfold hold. cbn [aux_of x_qs x_lcalls x_ecalls x_ncall].
      change (s_qs (set_handles _ s1)) with (s_qs s1). change (s_lcalls (set_handles _ s1)) with (s_lcalls s1).
      change (s_ecalls (set_handles _ s1)) with (s_ecalls s1). change (s_ncall (set_handles _ s1)) with (s_ncall s1).
      rewrite (new_question_hq _ _ _ _ m E L), Hl, He, Hc. unfold hq. cbn [q_fin q_call negb andb].
      replace (-1 =? m) with false by lia. lia.
    + eapply K2_same; [exact B|exact Hl|cbn [aux_of x_ndeliv]; simpl; rewrite Hd; lia].
    + unfold K3. cbn [aux_of x_ncall]. simpl. rewrite Hc. exact C.
    + intros j q Hq Hb. cbn [aux_of x_qs] in Hq. change (s_qs (set_handles _ s1)) with (s_qs s1) in Hq. rewrite TG in Hq.
      destruct (j =? id); [inversion Hq; subst; cbn [q_call]; lia|eapply D; eauto].
Qed.

(* a Disembargo comes back: blocked calls go on.  [HW e m l]: the entries of [l] for call m behind embargo e *)
Definition HW (e m : Z) (l : list (Z * Z * Z)) : nat :=
  length (filter (fun p => (fst (fst p) =? e) && (snd (fst p) =? m)) l).

Lemma HE_split : forall e m (l : list (Z * Z * Z)),
  (HE m (filter (fun p => negb (fst (fst p) =? e)%Z) l) + HW e m l = HE m l)%nat.
Proof.
  intros e m l. unfold HE, HW. induction l as [|[[e' n] tag] l IH]; [reflexivity|]. cbn [filter fst snd].
  destruct (e' =? e); cbn [negb andb filter fst snd]; destruct (n =? m); cbn [length]; lia.
Qed.

Lemma wake_calls_K : forall e x l s s2 o2, wake_calls e x l s = (s2, o2) ->
  s_qs s2 = s_qs s /\ s_ecalls s2 = s_ecalls s /\ s_ncall s2 = s_ncall s /\ s_ndeliv s <= s_ndeliv s2 /\
  (K2 (aux_of s) -> K2 (aux_of s2)) /\
  (forall m, (cnt (is_res m) o2 + HL m (s_lcalls s2) = HL m (s_lcalls s) + HW e m l)%nat).
Proof.
  induction l as [|[[e' n] tag] l IH]; intros s s2 o2 H; simpl in H.
  - inversion H; subst. split; [reflexivity|split; [reflexivity|split; [reflexivity|split; [lia|split; [auto|]]]]].
    intros m. unfold HW. cbn [filter length]. change (cnt (is_res m) []) with 0%nat. lia.
  - destruct (e' =? e) eqn:Ee.
    + destruct x;
        try (destruct (wake_calls e _ l s) as [s2' o2'] eqn:EW; inversion H; subst;
             destruct (IH _ _ _ EW) as (W1 & W2 & W3 & W4 & W5 & W6);
             split; [exact W1|split; [exact W2|split; [exact W3|split; [exact W4|split; [exact W5|]]]]];
             intros m; rewrite is_res_cons; specialize (W6 m); unfold HW in *; cbn [filter fst snd]; rewrite Ee; cbn [andb];
             destruct (n =? m); cbn [length]; lia).
      match type of H with context [wake_calls e ?x l ?s1] => destruct (wake_calls e x l s1) as [s2' o2'] eqn:EW end.
      inversion H; subst. destruct (IH _ _ _ EW) as (W1 & W2 & W3 & W4 & W5 & W6).
      split; [exact W1|split; [exact W2|split; [exact W3|split; [simpl in W4; lia|split]]]].
      * intros [B1 B2]. apply W5. split; cbn [aux_of x_lcalls x_ndeliv]; simpl.
        -- constructor; [|exact B1]. intros Hin. specialize (B2 _ Hin). simpl in B2. lia.
        -- intros k [Hk|Hk]; [lia|]. specialize (B2 _ Hk). simpl in B2. lia.
      * intros m. rewrite cnt_cons. change (is_res m (LDeliver j tag (s_ndeliv s))) with false. cbv iota.
        specialize (W6 m). simpl s_lcalls in W6. rewrite HL_cons in W6. unfold HW in *. cbn [filter fst snd]. rewrite Ee. cbn [andb].
        destruct (n =? m); cbn [length]; lia.
    + destruct (IH _ _ _ H) as (W1 & W2 & W3 & W4 & W5 & W6).
      split; [exact W1|split; [exact W2|split; [exact W3|split; [exact W4|split; [exact W5|]]]]].
      intros m. specialize (W6 m). unfold HW in *. cbn [filter fst snd]. rewrite Ee. cbn [andb]. exact W6.
Qed.

Lemma lift_KI : forall e em s s' o out, lift cfg_fixed e em s = Ok (s', o) -> KI (aux_of s) out -> KI (aux_of s') (out ++ o).
Proof.
  intros e em s s' o out H (A & B & C & D). unfold lift in H. cbn [fx22 cfg_fixed negb] in H. rewrite andb_false_r in H. cbv iota in H.
  match type of H with context [wake_calls e ?x ?l ?s1] => set (sb := s1) in * end.
  destruct (wake_calls e (e_cap em) (s_ecalls sb) sb) as [s2 o2] eqn:EW.
  inversion H; subst. clear H.
  assert (Ab : aux_of sb = aux_of (set_handles (map (rewrite_handle e (e_cap em)) (s_handles s)) s)) by exact (aux_kept _ _ (lref_cap_kept _ _ _)).
  assert (Qb : s_qs sb = s_qs s) by (change (x_qs (aux_of sb) = s_qs s); rewrite Ab; reflexivity).
  assert (Lb : s_lcalls sb = s_lcalls s) by (change (x_lcalls (aux_of sb) = s_lcalls s); rewrite Ab; reflexivity).
  assert (Eb : s_ecalls sb = s_ecalls s) by (change (x_ecalls (aux_of sb) = s_ecalls s); rewrite Ab; reflexivity).
  assert (Nb : s_ncall sb = s_ncall s) by (change (x_ncall (aux_of sb) = s_ncall s); rewrite Ab; reflexivity).
  assert (Db : s_ndeliv sb = s_ndeliv s) by (change (x_ndeliv (aux_of sb) = s_ndeliv s); rewrite Ab; reflexivity).
  apply wake_calls_K in EW. destruct EW as (W1 & W2 & W3 & W4 & W5 & W6).
  split; [|split; [|split]].
  - apply (K1_step (aux_of s)); [exact A|]. intros m Hm. unfold hold. cbn [aux_of x_qs x_lcalls x_ecalls x_ncall].
    change (s_qs (set_ecalls _ s2)) with (s_qs s2). change (s_lcalls (set_ecalls _ s2)) with (s_lcalls s2).
    change (s_ncall (set_ecalls _ s2)) with (s_ncall s2). change (s_ecalls (set_ecalls ?v s2)) with v.
    rewrite W1, W2, W3, Qb, Eb, Nb. specialize (W6 m). rewrite Lb, Eb in W6. pose proof (HE_split e m (s_ecalls s)). lia.
  - assert (K2b : K2 (aux_of sb)) by (unfold K2; cbn [aux_of x_lcalls x_ndeliv]; rewrite Lb, Db; exact B).
    exact (W5 K2b).
  - unfold K3. cbn [aux_of x_ncall]. change (s_ncall (set_ecalls _ s2)) with (s_ncall s2). rewrite W3, Nb. exact C.
  - unfold K4. cbn [aux_of x_qs]. change (s_qs (set_ecalls _ s2)) with (s_qs s2). rewrite W1, Qb. exact D.
Qed.

Lemma handle_disembargo_KI : forall tg cx s s0 o0 ab out, handle_disembargo cfg_fixed tg cx s = Ok (s0, o0, ab) ->
  KI (aux_of s) out -> KI (aux_of s0) (out ++ o0).
Proof.
  intros tg cx s s0 o0 ab out H HK. unfold handle_disembargo in H.
  assert (SIMPLE : forall o, rq o -> Ok (s, o, true) = Ok (s0, o0, ab) \/ Ok (s, o, false) = Ok (s0, o0, ab) -> KI (aux_of s0) (out ++ o0)).
  { intros o I [E|E]; inversion E; subst; (eapply KI_aux; [exact HK|reflexivity|exact I]). }
  destruct (parse_target tg); [|eapply SIMPLE; [|left; exact H]; rqt].
  destruct cx as [i|e|]; [eapply SIMPLE; [|left; exact H]; rqt| |eapply SIMPLE; [|right; exact H]; rqt].
  destruct (tget e (s_emb s)) as [em|]; [|eapply SIMPLE; [|left; exact H]; rqt].
  unbind H as [s1 o1] eqn:EL.
  inversion H; subst. eapply lift_KI; [exact EL|]. exact HK.
Qed.

Definition cframe (x x1 : aux) : Prop :=
  x_qs x1 = x_qs x /\ x_lcalls x1 = x_lcalls x /\ x_ecalls x1 = x_ecalls x /\ x_ncall x1 = x_ncall x /\ x_ndeliv x1 = x_ndeliv x.
Definition cf (r : kept) := (kp_qs r, kp_lcalls r, kp_ecalls r, kp_ncall r, kp_ndeliv r).
Lemma cframe_cf : forall s s1, cf (kept_of s1) = cf (kept_of s) -> cframe (aux_of s) (aux_of s1).
Proof. intros s s1 H. injection H as A B C D E. repeat split; assumption. Qed.

Lemma rq_none : forall (P : output -> Prop) o, (forall x, P x -> forall n, is_res n x = false) -> Forall P o -> rq o.
Proof. intros P o HP H n. unfold cnt. rewrite (filter_none P _ o); [reflexivity| |exact H]. intros x Hx. exact (HP x Hx n). Qed.
Lemma rq_rel : forall o, Forall is_rel o -> rq o.
Proof. intros o. apply rq_none. intros x H m. destruct x; try contradiction H; reflexivity. Qed.
Lemma rq_disemb : forall o, Forall is_disemb o -> rq o.
Proof. intros o. apply rq_none. intros x H m. destruct x; try contradiction H; reflexivity. Qed.

Lemma handle_return_KI : forall qid rpc k s s0 o0 ab out, handle_return cfg_fixed qid rpc k s = Ok (s0, o0, ab) ->
  KI (aux_of s) out -> KI (aux_of s0) (out ++ o0).
Proof.
  intros qid rpc k s s0 o0 ab out H HK.
  set (sa := set_qs (tclear qid (s_qs s)) s).
  assert (FINAL : forall q, tget qid (s_qs s) = Some q -> forall sx fin, cf (kept_of sx) = cf (kept_of sa) ->
            (forall m, 0 <= m -> cnt (is_res m) fin = hq m (Some q)) -> KI (aux_of sx) (out ++ fin)).
  { intros q Eq sx fin F R. destruct (cframe_cf _ _ F) as (F1 & F2 & F3 & F4 & F5). destruct HK as (A & B & C & D). split; [|split; [|split]].
    - apply (K1_step (aux_of s)); [exact A|]. intros m Hm. rewrite (R m Hm). unfold hold. rewrite F1, F2, F3, F4.
      cbn [aux_of x_qs x_lcalls x_ecalls x_ncall sa s_qs s_lcalls s_ecalls s_ncall set_qs].
      pose proof (HQ_tclear_some m _ _ _ Eq). lia.
    - unfold K2. rewrite F2, F5. exact B.
    - unfold K3. rewrite F4. exact C.
    - unfold K4. rewrite F1. cbn [aux_of x_qs sa s_qs set_qs].
      intros j q0 Hq Hb. rewrite tget_tclear in Hq. destruct (j =? qid); [discriminate|eapply D; eauto]. }
  destruct (handle_return_cases _ _ _ _ _ _ _ H)
    as [_ -> -> _|q s1 pc Eq Eo Ef E _|q s1 pc s2 parsed tor disemb sr rel pre s3 o3 s5 o5 Eq Eo Ef P R E3 E5 -> -> _].
  - rewrite app_nil_r. exact HK.
  - destruct (release_caps_refs _ _ _ _ _ E) as [K Rl]. pose proof (return_open_xkept _ _ _ _ _ _ Eo) as X.
    apply (FINAL q Eq); [exact (eq_trans (f_equal cf K) (f_equal cf X))|].
    intros m Hm. rewrite (rq_rel _ Rl m). unfold hq. rewrite Ef. reflexivity.
  - pose proof (return_open_xkept _ _ _ _ _ _ Eo) as X.
    destruct (return_parsed_kept _ _ _ _ _ _ _ _ P) as (sb & Kb & (em & g & al & ->) & D).
    destruct (return_resolved_kept _ _ _ _ _ _ _ R) as (hs & Kr).
    destruct (release_caps_refs _ _ _ _ _ E3) as [K3 R3]. destruct (release_caps_refs _ _ _ _ _ E5) as [K5 R5].
    apply (FINAL q Eq).
    { exact (eq_trans (f_equal cf K5) (eq_trans (f_equal cf K3) (eq_trans (f_equal cf Kr) (eq_trans (f_equal cf Kb) (f_equal cf X))))). }
    intros m Hm. repeat (rewrite cnt_app || rewrite cnt_cons).
    rewrite (rq_rel _ R3 m), (rq_rel _ R5 m), (rq_disemb _ D m).
    change (is_res m (OFinish qid false)) with false. cbv iota. change (cnt (is_res m) []) with 0%nat.
    assert (PRE : cnt (is_res m) pre = hq m (Some q)).
    { unfold hq. rewrite Ef. cbn [negb andb].
      destruct R as [h kc tab Eb _ _ _ ->|h Eb _ _ _ ->|kc tab Eb _ _ _ ->|Eb _ _ _ ->];
        try (rewrite is_res_cons; destruct (q_call q =? m); reflexivity);
        (destruct HK as (_ & _ & _ & K4'); pose proof (K4' _ _ Eq ltac:(rewrite Eb; discriminate)); replace (q_call q =? m) with false by lia; reflexivity). }
    lia.
Qed.

Lemma handler_KI : forall e s s0 o0 ab out, handler cfg_fixed e s = Ok (s0, o0, ab) ->
  (s_shut s = false -> live s /\ QI (aux_of s) out) -> KI (aux_of s) out -> KI (aux_of s0) (out ++ o0).
Proof.
  intros e s s0 o0 ab out H LQ HK.
  assert (Lv : s_shut s = false -> live s) by (intros Hs; apply (LQ Hs)).
  assert (TRIV : forall o, rq o -> Ok (s, o, false) = Ok (s0, o0, ab) -> KI (aux_of s0) (out ++ o0)).
  { intros o I E. inversion E; subst. eapply KI_aux; [exact HK|reflexivity|exact I]. }
  destruct e; simpl in H; try (eapply TRIV; [|exact H]; rqt; fail).
  - eapply KI_qinert; [exact HK|eapply handle_bootstrap_qinert; eauto].
  - eapply KI_qinert; [exact HK|eapply handle_call_qinert; eauto].
  - eapply handle_return_KI; eauto.
  - eapply KI_qinert; [exact HK|eapply handle_finish_qinert; eauto].
  - eapply KI_qinert; [exact HK|eapply handle_release_qinert; eauto].
  - eapply handle_disembargo_KI; eauto.
  - eapply app_bootstrap_KI; eauto.
  - eapply app_call_KI; eauto.
  - eapply app_pipe_KI; eauto.
  - (* AReturn: a direct local call resolves, or a call of the connection returns *)
    destruct (find_running k (s_ans s)) as [[id a]|] eqn:Ef; [eapply KI_qinert; [exact HK|eapply app_return_qinert; eauto]|].
    unfold app_return in H. rewrite Ef in H.
    destruct (aget k (s_lcalls s)) as [n|] eqn:Ea; inversion H; subst; [|rewrite app_nil_r; exact HK].
    apply app_return_local_KI; assumption.
  - eapply app_release_KI; eauto. intros Hs. apply (LQ Hs).
  - eapply app_cancel_KI; eauto.
  - eapply app_hold_KI; eauto.
  - eapply app_unhold_KI; eauto.
Qed.

Lemma KI_cframe : forall x x1 out o, KI x out -> cframe x x1 -> rq o -> KI x1 (out ++ o).
Proof. intros x x1 out o H (F1 & F2 & F3 & F4 & F5) R. eapply KI_same; eauto. lia. Qed.

Lemma fail_questions_res : forall m t i, 0 <= m -> cnt (is_res m) (fail_questions t i) = HQ m t.
Proof.
  intros m t. induction t as [|[q|] t IH]; intros i Hm; [reflexivity| |].
  - cbn [fail_questions]. rewrite !cnt_app, (IH (i + 1) Hm). unfold HQ. cbn [map]. rewrite list_sum_cons.
    assert (E1 : cnt (is_res m) (match q_held q with Some (imp, _, _) => [OCall i (OTImp imp) []] | None => [] end) = 0%nat)
      by (destruct (q_held q) as [[[a b] c]|]; reflexivity).
    rewrite E1. unfold hq. destruct (q_fin q); cbn [negb andb orb]; [reflexivity|].
    destruct (q_call q <? 0) eqn:Ec.
    + replace (q_call q =? m) with false by lia. reflexivity.
    + rewrite is_res_cons. change (cnt (is_res m) []) with 0%nat. destruct (q_call q =? m); lia.
  - cbn [fail_questions]. rewrite (IH (i + 1) Hm). unfold HQ. cbn [map]. rewrite list_sum_cons. reflexivity.
Qed.

Lemma release_all_args_aux : forall l s s1 o, release_all_args cfg_fixed l s = Ok (s1, o) -> aux_of s1 = aux_of s /\ qquiet o.
Proof.
  induction l as [|[id a] l IH]; intros s s1 o H; simpl in H.
  - inversion H; subst. split; reflexivity.
  - unbind H as [sa oa] eqn:E1.
    unbind H as [sb ob] eqn:E2. inversion H; subst.
    destruct (IH _ _ _ E2) as [A Q]. split; [rewrite A; eapply aux_release_caps; eauto|apply qq_app; [eapply qq_release_caps; eauto|exact Q]].
Qed.

Lemma release_answers_aux : forall l s s1 o, release_answers cfg_fixed l s = Ok (s1, o) -> aux_of s1 = aux_of s /\ qquiet o.
Proof.
  induction l as [|[id a] l IH]; intros s s1 o H; simpl in H.
  - inversion H; subst. split; reflexivity.
  - unbind H as [sa oa] eqn:E1.
    rewrite andb_false_r in H.
    unbind H as [sb ob] eqn:E2. inversion H; subst.
    destruct (IH _ _ _ E2) as [A Q]. split; [rewrite A; eapply aux_release_caps; eauto|apply qq_app; [eapply qq_release_caps; eauto|exact Q]].
Qed.

Lemma lift_all_KI : forall t i s s1 o out, lift_all cfg_fixed t i s = Ok (s1, o) -> KI (aux_of s) out -> KI (aux_of s1) (out ++ o).
Proof.
  induction t as [|[em|] t IH]; intros i s s1 o out H HK; simpl in H.
  - inversion H; subst. rewrite app_nil_r. exact HK.
  - unbind H as [sa oa] eqn:E1.
    unbind H as [sb ob] eqn:E2. inversion H; subst.
    rewrite app_assoc. eapply IH; [exact E2|]. eapply lift_KI; eauto.
  - eapply IH; eauto.
Qed.

Lemma do_shutdown_KI : forall abort s s1 o out, do_shutdown cfg_fixed abort s = Ok (s1, o) -> KI (aux_of s) out -> KI (aux_of s1) (out ++ o).
Proof.
  intros abort s s1 o out H HK. unfold do_shutdown in H.
  unbind H as [sa o1] eqn:E1.
  match type of H with context [release_caps cfg_fixed ?l ?sx] => set (s3 := sx) in *; unbind H as [s4 o4] eqn:E4 end.
  unbind H as [s5 o5] eqn:E5.
  unbind H as [s6 o6] eqn:E6.
  inversion H; subst. clear H.
  destruct (release_all_args_aux _ _ _ _ E1) as [A1 Q1].
  assert (Ka : KI (aux_of sa) (out ++ o1)).
  { eapply KI_cframe; [exact HK| |apply rq_qquiet; exact Q1]. rewrite A1. repeat split. }
  (* the questions are failed and the tables emptied *)
  assert (Kb : KI (aux_of s3) ((out ++ o1) ++ fail_questions (s_qs sa) 0)).
  { assert (F3 : x_qs (aux_of s3) = [] /\ x_lcalls (aux_of s3) = s_lcalls sa /\ x_ecalls (aux_of s3) = s_ecalls sa /\
                 x_ncall (aux_of s3) = s_ncall sa /\ x_ndeliv (aux_of s3) = s_ndeliv sa).
    { unfold s3. destruct (s_boot _); repeat split. }
    destruct F3 as (F1 & F2 & F3 & F4 & F5). destruct Ka as (A & B & C & D). split; [|split; [|split]].
    - apply (K1_step (aux_of sa)); [exact A|]. intros m Hm. rewrite (fail_questions_res m _ 0 Hm). unfold hold. rewrite F1, F2, F3, F4.
      cbn [aux_of x_qs x_lcalls x_ecalls x_ncall]. rewrite HQ_nil. lia.
    - unfold K2. rewrite F2, F5. exact B.
    - unfold K3. rewrite F4. exact C.
    - unfold K4. rewrite F1. intros j q Hq. exfalso. unfold tget, znth in Hq. simpl in Hq.
      destruct ((j <? 0) || (0 <=? j)); [discriminate|destruct (Z.to_nat j); discriminate]. }
  pose proof (aux_release_caps _ _ _ _ _ E4) as A4.
  assert (Kc : KI (aux_of s4) (((out ++ o1) ++ fail_questions (s_qs sa) 0) ++ o4)).
  { eapply KI_aux; [exact Kb|exact A4|apply rq_qquiet; eapply qq_release_caps; eauto]. }
  assert (Kd : KI (aux_of (set_emb [] s4)) (((out ++ o1) ++ fail_questions (s_qs sa) 0) ++ o4)) by exact Kc.
  pose proof (lift_all_KI _ _ _ _ _ _ E5 Kd) as Ke.
  destruct (release_answers_aux _ _ _ _ E6) as [A6 Q6].
  assert (Kf : KI (aux_of s1) (((((out ++ o1) ++ fail_questions (s_qs sa) 0) ++ o4) ++ o5) ++ o6)).
  { eapply KI_aux; [exact Ke|exact A6|apply rq_qquiet; exact Q6]. }
  assert (Kg : KI (aux_of s1) ((((((out ++ o1) ++ fail_questions (s_qs sa) 0) ++ o4) ++ o5) ++ o6) ++ (if abort then [OAbort] else []))).
  { eapply KI_aux; [exact Kf|reflexivity|destruct abort; rqt]. }
  repeat rewrite <- app_assoc in Kg. exact Kg.
Qed.

Lemma step_KI : forall s e s1 o out, step_case s e s1 o -> qhinv s out -> KI (aux_of s) out -> KI (aux_of s1) (out ++ o).
Proof.
  intros s e s1 o out C HQ HK.
  assert (UP : live s -> s_shut s = false -> live s /\ QI (aux_of s) out) by (intros L Hs; split; [exact L|exact (HQ Hs)]).
  destruct C as [_ _ -> ->|s0 ab [Hs _] _ H _ ->|abort s2 _ _ H _ _ ->|s0 L H _ _ ->|s0 o0 s2 o2 L H _ H2 _ _ -> ->].
  - rewrite app_nil_r. exact HK.
  - apply (handler_KI _ _ _ _ _ _ H); [congruence|exact HK].
  - exact (do_shutdown_KI _ _ _ _ _ H HK).
  - exact (handler_KI _ _ _ _ _ _ H (UP L) HK).
  - rewrite app_assoc. exact (do_shutdown_KI _ _ _ _ _ H2 (handler_KI _ _ _ _ _ _ H (UP L) HK)).
Qed.

Lemma KI_init : forall boot, KI (aux_of (init boot)) [].
Proof.
  intros boot. split; [|split; [|split]].
  - intros n Hn. simpl. replace (n <? 0) with false by lia. reflexivity.
  - split; [constructor|intros k []].
  - unfold K3. simpl. lia.
  - intros j q Hq. simpl in Hq. rewrite tget_nil in Hq. discriminate.
Qed.

(* C06 question_ids, second half -- every local call resolves exactly once.  For EVERY history
   (up or shut down at the end) and every call number n:
   - a number that has been handed out (n < s_ncall) has, together, exactly ONE of: a resolution
     [LAppRes n _] in the outbox, an unfinished question carrying it, a running direct delivery,
     a place in the queue behind an embargo -- so it is never resolved twice, a resolved call is
     held nowhere (nothing can resolve it again), and an unresolved call is held at exactly one
     place (it is not lost);
   - a number not handed out yet has no resolution;
   - once the connection is shut down no question holds a call any more: every call made through
     the connection has been resolved (what remains are direct calls on local servers, which
     return when the server does). *)
Theorem call_resolves_once : forall boot evs s out, work evs < LIM -> run_o (init boot) evs [] = Ok (s, out) ->
  forall n, 0 <= n ->
    (n < s_ncall s -> (cnt (is_res n) out + hold n (aux_of s) = 1)%nat) /\
    (s_ncall s <= n -> cnt (is_res n) out = 0%nat /\ hold n (aux_of s) = 0%nat) /\
    (cnt (is_res n) out <= 1)%nat.
Proof.
  intros boot evs s out Hb H n Hn.
  destruct (run_o_ind (fun s out => qhinv s out /\ KI (aux_of s) out)) with (evs := evs) (s := init boot) (W := 0) (out := @nil output) (s' := s) (out' := out)
    as [[_ (K & _)] _]; [|apply sinv_init|split; [apply qhinv_init|apply KI_init]|lia|exact H|].
  { intros s0 W0 e s1 o out0 _ _ _ C [Q K]. split; [eapply step_qhinv|eapply step_KI]; eauto. }
  specialize (K n Hn). cbn [aux_of x_ncall] in K. split; [|split].
  - intros Hlt. replace (n <? s_ncall s) with true in K by lia. exact K.
  - intros Hge. replace (n <? s_ncall s) with false in K by lia. lia.
  - destruct (n <? s_ncall s); lia.
Qed.

(* after shutdown no question is left, and none is created *)
Definition sqinv (s : state) : Prop := s_shut s = true -> s_qs s = [].

Lemma step_sqinv : forall s e s1 o, step_case s e s1 o -> sqinv s -> sqinv s1.
Proof.
  intros s e s1 o C SQ Hs1.
  destruct C as [Hs _ _ ->|s0 ab S Hp H _ ->|abort s2 _ _ _ T2 _ ->|s0 _ _ [S0 _] _ ->|s0 o0 s2 o2 _ _ _ _ T2 _ _ ->];
    cbn [s_qs s_shut set_out] in *.
  - exact (SQ Hs).
  - exact (eq_trans (f_equal kp_qs (proj1 (handler_shut_inv _ _ _ H S Hp))) (SQ (proj1 S))).
  - apply T2.
  - congruence.
  - apply T2.
Qed.

Theorem shut_calls_resolved : forall boot evs s out, work evs < LIM -> run_o (init boot) evs [] = Ok (s, out) -> s_shut s = true ->
  forall n, HQ n (s_qs s) = 0%nat.
Proof.
  intros boot evs s out Hb H Hs n.
  destruct (run_o_ind (fun s _ => sqinv s) (fun s W e s1 o out _ _ _ C => step_sqinv s e s1 o C) evs (init boot) 0 [] s out
              (sinv_init boot) (fun _ => eq_refl) ltac:(lia) H) as [SQ _].
  rewrite (SQ Hs). reflexivity.
Qed.

(* a Return for a question that is neither canceled nor a bootstrap resolves its local call in the
   same step, with class 0 (results) or 1 (an error for the caller); class 0 only for a results
   Return (an exception Return, any other kind of Return and unreadable results give class 1).
   With [call_resolves_once] this is THE resolution of that call. *)
Theorem return_resolves_kind : forall qid rpc k s s0 o0 ab q, handle_return cfg_fixed qid rpc k s = Ok (s0, o0, ab) ->
  tget qid (s_qs s) = Some q -> q_fin q = false -> q_boot q = None ->
  exists c, In (LAppRes (q_call q) c) o0 /\ (c = 0 \/ c = 1) /\ (c = 0 -> exists p, k = RkResults (Some p)).
Proof.
  intros qid rpc k s s0 o0 ab q H Eq Ef Eb.
  destruct (handle_return_cases _ _ _ _ _ _ _ H) as [E|q' sa pc E _ Ef'|q' sa pc s2 parsed tor disemb sr rel pre s3 o3 s5 o5 E _ _ P R _ _ _ -> _]; try congruence.
  assert (q' = q) by congruence. subst q'.
  destruct R as [h kc tab Eb'|h Eb'|kc tab _ -> _ _ ->|_ -> _ _ ->]; try congruence.
  - exists 0. split; [apply in_or_app; right; right; left; reflexivity|]. split; [left; reflexivity|].
    intros _. destruct P as [_ _ Ep|p _ _ Ep|p sb kc' tab0 loc tab3 -> _ _ _ _]; try discriminate Ep. eauto.
  - exists 1. split; [apply in_or_app; right; right; left; reflexivity|split; [right; reflexivity|discriminate]].
Qed.

(* Where the machine leaves rpc.Conn: a peer that answers an unsent question.
   [AHold] is a local call whose PlaceArgs callback blocks: its question is allocated, nothing is
   sent.  A peer that keeps to the protocol cannot name that question (it has not seen its Call).
   If a Return names it nevertheless, the machine resolves the call at once and [AUnhold] sends
   nothing, whereas importClient.Send still writes the Call with the (already freed) id once
   PlaceArgs is through -- the id can then be on the wire twice without a Finish in between.
   [late_free] says that no event of a history is such a Return; the history-level statements about
   question ids are statements about rpc.Conn for late_free histories only. *)
Definition ret_held (s : state) (e : event) : bool :=
  match e with
  | MReturn qid _ _ => match tget qid (s_qs s) with Some q => held q | None => false end
  | _ => false
  end.
Fixpoint late_free (s : state) (evs : list event) : bool :=
  match evs with
  | [] => true
  | e :: r => if ret_held s e then false
              else match step cfg_fixed s e with Ok (s1, _) => late_free s1 r | _ => true end
  end.
Definition imp5 : payload := mkPayload true false (KCap 0) (Some [DSH 5]).
Definition h_late : list event :=
  [ABootstrap; MReturn 0 false (RkResults (Some imp5)); AHold 0; MReturn 0 false (RkExc true); ACall 0 [] 7; AUnhold 0].
Definition calls0 (o : list output) : nat := cnt (is_issue 0) o.
(* the reviewer's history: not late_free (its 4th event answers the held question 0); the machine
   issues id 0 twice (the Bootstrap and the call c0) with a Finish between -- the Call of the held
   call is never sent by the machine, rpc.Conn sends it after c0's *)
Example late_return_history : late_free (init true) h_late = false /\
  late_free (init true) (firstn 3 h_late) = true /\
  match run_o (init true) h_late [] with Ok (_, o) => calls0 o = 2%nat /\ cnt (is_finish 0) o = 2%nat | _ => False end.
Proof. vm_compute. repeat split; reflexivity. Qed.

(* [app_return_result] is not vacuous: after Bootstrap and a Call on the bootstrap export the answer
   1 runs on a server; when the server returns, the step sends the results Return for 1.  The
   descriptor list is all the machine keeps of a Return's content ([OReturnRes id ds]): two
   different results without capabilities give the same output. *)
Definition h_ret (fs : list rfield) : list event :=
  [MBootstrap 0; MCall 1 (TgImp 0) (Some (mkPayload true false (KStruct []) (Some []))) true true 1; AReturn 0 (ARResults fs)].
Example return_reached :
  match run_o (init true) (firstn 2 (h_ret [FOther])) [] with
  | Ok (s, _) => exists a, find_running 0 (s_ans s) = Some (1, a) /\ live s
  | _ => False
  end /\
  match run_o (init true) (h_ret [FOther]) [], run_o (init true) (h_ret [FNull; FNull; FOther]) [] with
  | Ok (_, o1), Ok (_, o2) => In (OReturnRes 1 []) o1 /\ o1 = o2
  | _, _ => False
  end.
Proof.
  split.
  - destruct (run_o (init true) (firstn 2 (h_ret [FOther])) []) as [[s o]| |] eqn:E; vm_compute in E; try discriminate.
    inversion E; subst. eexists. split; [vm_compute; reflexivity|].
    destruct (run_o_inv (firstn 2 (h_ret [FOther])) (init true) 0 [] _ _ (sinv_init true) (qhinv_init true) ltac:(vm_compute; reflexivity) ltac:(vm_compute; reflexivity)) as [_ [W I]].
    unfold sinv in I. simpl in I. split; [reflexivity|apply I].
  - vm_compute. split; [repeat (try (left; reflexivity); right)|reflexivity].
Qed.
