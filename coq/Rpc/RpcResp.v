(* C08 response_class. *)
From CV Require Import Rpc.Rpc Rpc.RpcSpec Rpc.RpcProofs Rpc.RpcInv.
From Coq Require Import ZifyBool.
Open Scope Z_scope.

(* the protocol-level answers among the outputs of a step *)
Definition resp_msgs (o : list output) : list output :=
  filter (fun x => match x with OReturnRes _ _ | OReturnExc _ | OUnimpl | OAbort => true | _ => false end) o.
Definition quiet (o : list output) : Prop := resp_msgs o = [].

Lemma resp_app : forall a b, resp_msgs (a ++ b) = resp_msgs a ++ resp_msgs b.
Proof. intros. apply filter_app. Qed.

Lemma quiet_rel : forall o, Forall is_rel o -> quiet o.
Proof. intros o. apply filter_none. intros [] H; try contradiction H; reflexivity. Qed.
Lemma quiet_local : forall o, Forall is_local o -> quiet o.
Proof. intros o. apply filter_none. intros [] H; try contradiction H; reflexivity. Qed.

Lemma quiet_release_caps : forall c l s s' o, release_caps c l s = Ok (s', o) -> quiet o.
Proof. intros c l s s' o H. apply quiet_rel, (release_caps_refs _ _ _ _ _ H). Qed.

(* what shutdown sends: Releases, the failures of the local calls, the Calls of held questions,
   and an Abort at the end if it is the one who closes *)
Definition is_down (x : output) : Prop :=
  match x with ORelease _ _ | OCall _ _ _ | LDeliver _ _ _ | LAppRes _ _ => True | _ => False end.

Lemma fail_questions_down : forall t i, Forall is_down (fail_questions t i).
Proof.
  induction t as [|[q|] t IH]; intros i; cbn [fail_questions]; [constructor| |apply IH].
  repeat apply Forall_cat; [destruct (q_held q) as [[[a b] c]|]|destruct (_ || _)|apply IH]; repeat constructor.
Qed.

Lemma do_shutdown_out : forall abort s s' o, do_shutdown cfg_fixed abort s = Ok (s', o) ->
  exists o', o = o' ++ (if abort then [OAbort] else []) /\ Forall is_down o'.
Proof.
  intros abort s s' o H. unfold do_shutdown in H.
  unbind H as [s1 o1] eqn:E1. unbind H as [s4 o4] eqn:E4. unbind H as [s5 o5] eqn:E5. unbind H as [s6 o6] eqn:E6.
  injection H as <- <-. exists (o1 ++ fail_questions (s_qs s1) 0 ++ o4 ++ o5 ++ o6). split; [repeat rewrite <- app_assoc; reflexivity|].
  assert (REL : forall o, Forall is_rel o -> Forall is_down o) by (intros o; apply Forall_impl; intros [] Hx; try contradiction Hx; exact I).
  repeat apply Forall_cat.
  - apply REL, (release_all_args_refs _ _ _ _ _ E1).
  - apply fail_questions_down.
  - apply REL, (release_caps_refs _ _ _ _ _ E4).
  - eapply Forall_impl; [|apply (lift_all_lifted _ _ _ _ _ _ E5)]. intros [] Hx; try contradiction Hx; exact I.
  - apply REL, (release_answers_refs _ _ _ _ _ E6).
Qed.

Lemma quiet_lappres : forall l, quiet (map (fun p : Z * Z => LAppRes (snd p) 1) l).
Proof. induction l as [|a l IH]; [reflexivity|]. unfold quiet in *. simpl. exact IH. Qed.

Lemma do_shutdown_resp : forall s s' o, do_shutdown cfg_fixed true s = Ok (s', o) -> resp_msgs o = [OAbort].
Proof.
  intros s s' o H. destruct (do_shutdown_out _ _ _ _ H) as (o' & -> & D). rewrite resp_app.
  replace (resp_msgs o') with (@nil output); [reflexivity|]. symmetry. revert D. apply filter_none.
  intros [] Hx; try contradiction Hx; reflexivity.
Qed.

Lemma do_shutdown_abort_out : forall s s' o, do_shutdown cfg_fixed true s = Ok (s', o) -> In OAbort o.
Proof. intros s s' o H. destruct (do_shutdown_out _ _ _ _ H) as (o' & -> & _). apply in_or_app. right. left. reflexivity. Qed.

(* recvCap fails on a receiverHosted descriptor that names no export, and on nothing else *)
Lemma recv_caps_err_iff : forall ds s s' tab loc, s_exp s' = s_exp s ->
  (exists s1 part, recv_caps cfg_fixed ds s' tab loc = RPErr s1 part) <->
  existsb (fun d => match d with DRH e => match tget e (s_exp s) with None => true | Some _ => false end | _ => false end) ds = true.
Proof.
  induction ds as [|d ds IH]; intros s s' tab loc Hx; cbn [recv_caps existsb].
  - split; [intros (s1 & part & H); discriminate|discriminate].
  - assert (IMP : forall i, (exists s1 part, (let '(s2, x) := add_import cfg_fixed i s' in recv_caps cfg_fixed ds s2 (x :: tab) (false :: loc)) = RPErr s1 part) <->
              existsb (fun d => match d with DRH e => match tget e (s_exp s) with None => true | Some _ => false end | _ => false end) ds = true).
    { intros i. pose proof (f_equal kp_exp (add_import_kept cfg_fixed i s')) as E. destruct (add_import cfg_fixed i s') as [s2 x].
      apply IH. exact (eq_trans E Hx). }
    destruct d; cbn [orb]; try (apply IH; exact Hx); try apply IMP.
    rewrite Hx. destruct (tget i (s_exp s)) as [[x w]|]; cbn [orb].
    + apply IH. exact (eq_trans (f_equal kp_exp (addref_kept x s')) Hx).
    + split; [reflexivity|eauto].
Qed.

Lemma payload_bad_iff : forall s p, payload_bad s (Some p) = true <-> exists s1 part, recv_payload cfg_fixed p s = PLErr s1 part.
Proof.
  intros s p. unfold payload_bad, recv_payload.
  destruct (p_valid p); cbn [negb andb]; [|split; [discriminate|intros (s1 & part & H); discriminate]].
  destruct (p_cerr p); cbn [orb]; [split; eauto|].
  destruct (p_caps p) as [ds|]; [|split; [discriminate|intros (s1 & part & H); discriminate]].
  rewrite <- (recv_caps_err_iff ds s s [] [] eq_refl).
  destruct (recv_caps cfg_fixed ds s [] []); split; intros (s1' & part' & H); try discriminate H; eauto.
Qed.

(* what the handler of a peer message does, by the class of the message *)
Lemma handler_class : forall s e s0 o0 ab, live s -> is_peer e = true -> handler cfg_fixed e s = Ok (s0, o0, ab) ->
  match classify s e with
  | RespAbort => ab = true /\ quiet o0
  | RespUnimpl => ab = false /\ o0 = [OUnimpl]
  | RespException a => ab = false /\ resp_msgs o0 = [OReturnExc a]
  | RespNone => True
  end.
Proof.
  intros s e s0 o0 ab L Hp H. assert (Hs : s_shut s = false) by apply L.
  assert (ABORT : Ok (s, @nil output, true) = Ok (s0, o0, ab) -> ab = true /\ quiet o0) by (intros E; injection E as _ <- <-; split; reflexivity).
  assert (UNIMPL : Ok (s, [OUnimpl], false) = Ok (s0, o0, ab) -> ab = false /\ o0 = [OUnimpl]) by (intros E; injection E as _ <- <-; split; reflexivity).
  destruct e; try discriminate Hp; cbn [classify handler] in *; auto.
  - destruct (aget q (s_ans s)) eqn:E; [|exact I]. unfold handle_bootstrap in H. rewrite E in H. exact (ABORT H).
  - destruct toCaller; cbn [negb]; [|exact (UNIMPL H)].
    assert (PARSED : forall s1 tab pt, call_parsed q tg params s s1 tab pt ->
              aget q (s_ans s) = None /\ payload_bad s params = false /\ parse_target tg = Some pt /\ s_exp s1 = s_exp s /\ s_ans s1 = s_ans s).
    { intros s1 tab pt (Eid & K & Et & p & k & loc & -> & Er). split; [exact Eid|]. split; [|split; [exact Et|exact (conj (f_equal kp_exp K) (f_equal kp_ans K))]].
      destruct (payload_bad s (Some p)) eqn:Eb; [|reflexivity]. apply payload_bad_iff in Eb. destruct Eb as (s1' & part & Eb). congruence. }
    destruct (handle_call_cases _ _ _ _ _ _ _ H)
      as [a Eid E|s1 tor Eid K D E|s1 tab pt P U E|s1 tab e x w P Ee E|s1 tab t x ta P Hne Eta Ef _ _ E
         |s1 tab t x ta P Hne Eta Ef _ _ E|s1 tab t x ta P Hne Eta Ef _ _ E|s1 tab t x ta _ _ _ _ E]; try discriminate E;
      try (destruct (PARSED _ _ _ P) as (Eid & Eb & Et & Xe & Xa); rewrite Eid, Eb, Et).
    + rewrite Eid. exact (ABORT E).
    + rewrite Eid.
      assert (C : (if payload_bad s params then RespException q else match parse_target tg with None => RespException q
                     | Some (PImp e) => match tget e (s_exp s) with None => RespAbort | Some _ => RespNone end
                     | Some (PAns t _) => if t =? q then RespAbort else match aget t (s_ans s) with None => RespAbort | Some ta => if a_fin ta then RespAbort else RespNone end
                     end) = RespException q).
      { destruct D as [(-> & _)|(p & -> & [Er|(k & loc & _ & Et)])]; [reflexivity| |destruct (payload_bad s (Some p)); [reflexivity|rewrite Et; reflexivity]].
        rewrite (proj2 (payload_bad_iff s p)) by eauto. reflexivity. }
      rewrite C. clear C. unfold send_exception in E. cbn [new_answer a_fin] in E.
      rewrite (f_equal kp_shut K : s_shut s1 = s_shut s), Hs in E. cbn [bind] in E.
      unbind E as [s3 o3] eqn:E3. injection E as _ <- <-. split; [reflexivity|].
      exact (f_equal (cons (OReturnExc q)) (quiet_release_caps _ _ _ _ _ E3)).
    + unbind E as [s2 o2] eqn:E2. injection E as _ <- <-.
      assert (C : match pt with
                  | PImp e => match tget e (s_exp s) with None => RespAbort | Some _ => RespNone end
                  | PAns t _ => if t =? q then RespAbort else match aget t (s_ans s) with None => RespAbort | Some ta => if a_fin ta then RespAbort else RespNone end
                  end = RespAbort).
      { destruct pt as [e|t x]; rewrite <- ?Xe, <- ?Xa; [rewrite U; reflexivity|].
        destruct (t =? q) eqn:Etq; [reflexivity|]. destruct U as [U|U]; [lia|].
        destruct (aget t (s_ans s1)) as [ta|]; [rewrite U|]; reflexivity. }
      rewrite C. split; [reflexivity|eapply quiet_release_caps; eauto].
    + rewrite <- Xe, Ee. exact I.
    + rewrite <- Xa, Eta, Ef. replace (t =? q) with false by lia. exact I.
    + rewrite <- Xa, Eta, Ef. replace (t =? q) with false by lia. exact I.
    + rewrite <- Xa, Eta, Ef. replace (t =? q) with false by lia. exact I.
  - destruct (tget a (s_qs s)) eqn:E; [exact I|]. unfold handle_return in H. rewrite E in H. exact (ABORT H).
  - unfold handle_finish in H. destruct (aget q (s_ans s)) as [a|] eqn:E; [|exact (ABORT H)].
    destruct (a_fin a); [exact (ABORT H)|exact I].
  - unfold handle_release, release_export in H. destruct (tget i (s_exp s)) as [[x w]|] eqn:E; [|exact (ABORT H)].
    destruct (w <? n) eqn:Ew; [|exact I]. replace (n =? w) with false in H by lia. exact (ABORT H).
  - unfold handle_disembargo in H. destruct (parse_target tg); [|exact (ABORT H)].
    destruct cx as [i|e|]; [exact (ABORT H)| |exact (UNIMPL H)]. destruct (tget e (s_emb s)); [exact I|exact (ABORT H)].
Qed.

(* C08 response_class: the Return / Unimplemented / Abort messages a step sends ([resp_msgs]) are
   exactly what the protocol prescribes.  For every message the peer can send to a live connection in a state satisfying the invariant:
   - protocol violations (reused answer id, unknown question / answer / export / embargo, finish
     twice, release of more references than held, unknown or unreadable target of a Disembargo,
     sender-loopback on a capability that is not an import, a call naming itself / an unknown or
     finished promised answer / an unknown export) are answered by Abort and a complete shutdown;
   - unsupported features (sendResultsTo /= caller, Disembargo accept/provide, unknown message
     kinds) by exactly one Unimplemented;
   - calls with unreadable or invalid parameters or target by an exception Return carrying the
     call's question id, and the connection stays up. *)
Theorem response_class : forall s W e s1 o,
  sinv s W -> s_shut s = false -> W + ev_work e < LIM -> is_peer e = true ->
  step cfg_fixed s e = Ok (s1, o) ->
  match classify s e with
  | RespAbort => resp_msgs o = [OAbort] /\ s_shut s1 = true /\ tables_empty s1
  | RespUnimpl => o = [OUnimpl] /\ s_shut s1 = false
  | RespException a => resp_msgs o = [OReturnExc a] /\ s_shut s1 = false
  | RespNone => True
  end.
Proof.
  intros s W e s1 o Iv Hs Hb Hp Hstep.
  assert (Henv : env_ok s e = true) by (destruct e; try discriminate Hp; reflexivity).
  destruct (step_inv _ _ _ _ _ Iv Hb Henv Hstep)
    as [Hs' _ _ _|s0 ab [Hs' _] _ _ _ _|abort s2 _ He _ _ _ _|s0 L H L0 _ ->|s0 o0 s2 o2 L H _ H2 T2 S2 -> ->]; try congruence.
  - destruct He as [[-> _]|[-> _]]; exact I.
  - pose proof (handler_class _ _ _ _ _ L Hp H) as C. destruct (classify s e); [destruct C; discriminate| | |exact I].
    + destruct C as [_ ->]. split; [reflexivity|apply L0].
    + split; [apply C|apply L0].
  - pose proof (handler_class _ _ _ _ _ L Hp H) as C. destruct (classify s e); try exact I; try (destruct C; discriminate).
    destruct C as [_ Q]. rewrite resp_app, Q, (do_shutdown_resp _ _ _ H2). exact (conj eq_refl (conj S2 T2)).
Qed.
