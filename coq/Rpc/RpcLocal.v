(* Handler-level facts behind C06 (one_return, question_ids) and C07 (export_count, import_release,
   close_releases_all).  The history-level theorems are in RpcHist, RpcQids, RpcCalls, RpcImports, RpcRefs. *)
From CV Require Import Rpc.Rpc Rpc.RpcSpec Rpc.RpcProofs Rpc.RpcInv Rpc.RpcResp.
From Coq Require Import ZifyBool.
Open Scope Z_scope.

Definition is_return (a : Z) (o : output) : bool :=
  match o with OReturnRes b _ | OReturnExc b => b =? a | _ => false end.
Definition returns (a : Z) (o : list output) : nat := length (filter (is_return a) o).

Lemma returns_app : forall a x y, returns a (x ++ y) = (returns a x + returns a y)%nat.
Proof. intros. unfold returns. rewrite filter_app, app_length. reflexivity. Qed.

Lemma quiet_returns : forall a o, quiet o -> returns a o = 0%nat.
Proof.
  intros a o. unfold quiet, resp_msgs, returns. induction o as [|x o IH]; simpl; intros H; [reflexivity|].
  destruct x; simpl in *; try discriminate; auto.
Qed.

(* C06 one_return, the sending side:
   answer.sendException / sendReturn put exactly one Return with the answer's own id on the wire
   (none once the connection is shut down) and leave the answer returnSent, or destroyed when its
   Finish had already been received; nothing else they do sends a Return *)
Definition returned_or_gone (id : Z) (s : state) : Prop :=
  match aget id (s_ans s) with Some a => a_ret a = true /\ a_ready a = true /\ a_st a = AIdle | None => True end.

Lemma destroy_out : forall c id a s s1 o err, destroy c id a s = Ok (s1, o, err) ->
  quiet o /\ aget id (s_ans s1) = None.
Proof.
  intros c id a s s1 o err H. destruct (destroy_inv _ _ _ _ _ _ _ H) as (s2 & X & [K R]). split; [apply quiet_rel, R|].
  rewrite (eq_trans (f_equal kp_ans K) (f_equal kp_ans X) : s_ans s1 = adel id (s_ans s)), aget_adel, Z.eqb_refl. reflexivity.
Qed.

Theorem send_exception_one_return : forall c id a s s1 o ab, send_exception c id a s = Ok (s1, o, ab) ->
  returns id o = (if s_shut s then 0 else 1)%nat /\ (forall b, b <> id -> returns b o = 0%nat) /\ returned_or_gone id s1.
Proof.
  intros c id a s s1 o ab H. unfold send_exception in H.
  destruct (a_fin a).
  - destruct (destroy c id (mark_done true a) (zremove_q id s)) as [[[s2 o2] e2]| |] eqn:E; simpl in H; try discriminate.
    inversion H; subst. apply destroy_out in E. destruct E as [Q G].
    repeat split.
    + rewrite returns_app, (quiet_returns _ _ Q). destruct (s_shut s); simpl; [reflexivity|]. unfold returns; simpl. rewrite Z.eqb_refl. reflexivity.
    + intros b Hb. rewrite returns_app, (quiet_returns _ _ Q). destruct (s_shut s); simpl; [reflexivity|].
      unfold returns; simpl. replace (id =? b) with false by lia. reflexivity.
    + unfold returned_or_gone. rewrite G. exact I.
  - inversion H; subst. repeat split.
    + destruct (s_shut s); simpl; [reflexivity|]. unfold returns; simpl. rewrite Z.eqb_refl. reflexivity.
    + intros b Hb. destruct (s_shut s); simpl; [reflexivity|]. unfold returns; simpl. replace (id =? b) with false by lia. reflexivity.
    + unfold returned_or_gone, set_ans. cbn [s_ans]. rewrite aget_aput, Z.eqb_refl. simpl. auto.
Qed.

(* C06 question_ids, the freeing side: when handleReturn frees the id of a question that was not
   canceled, the Finish for that id is among the messages of the same step; for a canceled one
   handleCancel sent the Finish when it set the flag ([cancel_sends_finish]) *)
Theorem return_sends_finish : forall qid rpc k s q s1 o ab,
  handle_return cfg_fixed qid rpc k s = Ok (s1, o, ab) -> tget qid (s_qs s) = Some q -> q_fin q = false ->
  In (OFinish qid false) o /\ ab = false.
Proof.
  intros qid rpc k s q s1 o ab H Hq Hf.
  destruct (handle_return_cases _ _ _ _ _ _ _ H) as [E|q' sa pc E _ Ef|q' sa pc s2 parsed tor disemb sr rel pre s3 o3 s5 o5 _ _ _ _ _ _ _ _ -> ->]; try congruence.
  split; [|reflexivity]. apply in_or_app. right. left. reflexivity.
Qed.

Theorem cancel_sends_finish : forall qid q s s1 o, cancel_question qid q s = Ok (s1, o) ->
  o = [OFinish qid true] /\
  s_qs s1 = replace_nth (Z.to_nat qid) (Some (mkQ (q_boot q) (q_call q) true (q_called q) (q_prefs q) (q_held q))) (s_qs s).
Proof. intros qid q s s1 o H. unfold cancel_question in H. inversion H; subst. split; reflexivity. Qed.

(* C07 export_count, the two primitives:
   sendCap and releaseExport keep  wireRefs e = sent e - released e  (cumulative ghost counters
   [s_sent], [s_rel]) for every export id, entries exist exactly while that count is positive.
   [exp_count_ok s] is [exp_count (s_exp s) (s_sent s) (s_rel s)] of RpcInv, asked of any state *)
Definition exp_count_ok (s : state) : Prop :=
  forall id, match tget id (s_exp s) with
             | Some (_, w) => w = cget id (s_sent s) - cget id (s_rel s) /\ 0 < w
             | None => cget id (s_sent s) = cget id (s_rel s)
             end.

Theorem release_export_count : forall id n s, exp_count_ok s -> 0 <= n ->
  let '(s1, oc, err) := release_export id n s in
  exp_count_ok s1 /\ (err = true -> s1 = s) /\
  (err = false -> cget id (s_rel s1) = cget id (s_rel s) + n).
Proof.
  intros id n s H Hn. unfold release_export. pose proof (H id) as Hid.
  destruct (tget id (s_exp s)) as [[x w]|] eqn:E.
  - destruct Hid as [Hw Hpos]. pose proof (tget_some _ _ _ _ E) as [Hr Hnth].
    destruct (n =? w) eqn:Enw.
    + repeat split; try discriminate; [|intros _; simpl; rewrite cget_cadd, Z.eqb_refl; reflexivity].
      intros i. simpl. specialize (H i). rewrite cget_cadd, tget_tclear. destruct (i =? id) eqn:Ei.
      * assert (i = id) by lia. subst i. lia.
      * exact H.
    + destruct (w <? n) eqn:Ewn.
      * repeat split; auto; discriminate.
      * repeat split; try discriminate; [|intros _; simpl; rewrite cget_cadd, Z.eqb_refl; reflexivity].
        assert (Hl : (Z.to_nat id < length (s_exp s))%nat) by (apply nth_error_Some; rewrite Hnth; discriminate).
        intros i. simpl. rewrite tget_replace by exact Hl. rewrite cget_cadd. specialize (H i).
        replace (Z.of_nat (Z.to_nat id)) with id by lia.
        destruct (i =? id) eqn:Ei.
        -- assert (i = id) by lia. subst i. lia.
        -- exact H.
  - repeat split; auto; discriminate.
Qed.

(* C07 import_release, the sending side:
   importClient.Shutdown sends one Release whose count is the number of references received for
   the entry (i_wire, incremented once per descriptor by addImport) and removes the entry; a
   client of another generation sends nothing *)
Theorem import_release_exact : forall i g s s1 o, imp_shutdown cfg_fixed i g s = Ok (s1, o) ->
  match aget i (s_imp s) with
  | Some e => if negb (s_shut s) && (i_gen e =? g) then o = [ORelease i (i_wire e)] /\ aget i (s_imp s1) = None
              else o = [] /\ s1 = s
  | None => o = [] /\ s1 = s
  end.
Proof.
  intros i g s s1 o H. unfold imp_shutdown in H. destruct (s_shut s).
  - inversion H; subst. destruct (aget i (s_imp s1)); simpl; auto.
  - destruct (aget i (s_imp s)) as [e|]; simpl in *.
    + destruct (i_gen e =? g); inversion H; subst; simpl; auto. split; [reflexivity|]. rewrite aget_adel, Z.eqb_refl. reflexivity.
    + inversion H; auto.
Qed.

Theorem add_import_counts : forall i s, 
  let '(s1, x) := add_import cfg_fixed i s in
  match aget i (s_imp s1) with
  | Some e1 => i_wire e1 = (match aget i (s_imp s) with Some e => i_wire e | None => 0 end) + 1 /\ x = CImp i (i_gen e1) /\ 0 < i_refs e1
  | None => False
  end.
Proof.
  intros i s. unfold add_import. destruct (aget i (s_imp s)) as [e|] eqn:E.
  - destruct (0 <? i_refs e) eqn:Er; unfold bump_recv, set_recv, set_imp, set_impgen; cbn [s_imp fst snd fx20 cfg_fixed];
      rewrite aget_aput, Z.eqb_refl; cbn [i_wire i_gen i_refs]; repeat split; lia.
  - unfold bump_recv, set_recv, set_imp, set_impgen; cbn [s_imp fst snd fx20 cfg_fixed]. rewrite aget_aput, Z.eqb_refl. cbn [i_wire i_gen i_refs]. repeat split; lia.
Qed.

(* a re-created client never shares its generation with an older client of the same import id
   (the repair of F20): generations come from one counter of the connection *)
Theorem add_import_fresh_generation : forall i s, 
  (forall j e, aget j (s_imp s) = Some e -> i_gen e <= s_impgen s) ->
  let '(s1, x) := add_import cfg_fixed i s in
  (forall j e, aget j (s_imp s1) = Some e -> i_gen e <= s_impgen s1) /\ s_impgen s <= s_impgen s1 /\
  (match aget i (s_imp s) with
   | Some e => if 0 <? i_refs e then True else x = CImp i (s_impgen s + 1)
   | None => x = CImp i (s_impgen s + 1)
   end).
Proof.
  intros i s H. unfold add_import. destruct (aget i (s_imp s)) as [e|] eqn:E.
  - destruct (0 <? i_refs e) eqn:Er; unfold bump_recv, set_recv, set_imp, set_impgen; cbn [s_imp s_impgen fst snd fx20 cfg_fixed].
    + repeat split; try lia. intros j e' Hj. rewrite aget_aput in Hj. destruct (j =? i) eqn:Ej.
      * inversion Hj; subst; cbn [i_gen]. apply (H i e E).
      * apply (H j e' Hj).
    + repeat split; try lia. intros j e' Hj. rewrite aget_aput in Hj. destruct (j =? i) eqn:Ej.
      * inversion Hj; subst; cbn [i_gen]. lia.
      * pose proof (H j e' Hj). lia.
  - unfold bump_recv, set_recv, set_imp, set_impgen; cbn [s_imp s_impgen fst snd fx20 cfg_fixed]. repeat split; try lia.
    intros j e' Hj. rewrite aget_aput in Hj. destruct (j =? i) eqn:Ej.
    + inversion Hj; subst; cbn [i_gen]. lia.
    + pose proof (H j e' Hj). lia.
Qed.

(* C07 close_releases_all, the table side *)
Theorem close_empties : forall s, exists s' o,
  step cfg_fixed s AClose = Ok (s', o) /\ s_shut s' = true /\ (s_shut s = false -> tables_empty s').
Proof.
  intros s. unfold step. destruct (s_shut s) eqn:Hs; simpl.
  - eexists _, _. split; [reflexivity|]. split; [exact Hs|discriminate].
  - destruct (shutdown_total true s) as (s' & o & H & T & S). rewrite H. simpl.
    eexists _, _. split; [reflexivity|]. split; [exact S|]. intros _. exact T.
Qed.
