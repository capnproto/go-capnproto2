(* Proofs about the RPC machine: the predicate [okp] on outcomes, what each helper leaves alone and
   what it sends (footprints), shutdown_total, the handlers by cases (app_return, handleCall, handleReturn). *)
From CV Require Import Rpc.Rpc Rpc.RpcSpec.
From Coq Require Import ZifyBool.
Open Scope Z_scope.

Definition okp {A} (r : res A) (Q : A -> Prop) : Prop := match r with Ok a => Q a | _ => False end.

Lemma okp_bind : forall A B (r : res A) (f : A -> res B) (Q1 : A -> Prop) (Q2 : B -> Prop),
  okp r Q1 -> (forall a, Q1 a -> okp (f a) Q2) -> okp (bind r f) Q2.
Proof. intros A B r f Q1 Q2 H1 H2. destruct r; simpl in *; try contradiction. apply H2, H1. Qed.

Lemma okp_weaken : forall A (r : res A) (Q1 Q2 : A -> Prop), okp r Q1 -> (forall a, Q1 a -> Q2 a) -> okp r Q2.
Proof. intros A r Q1 Q2 H1 H2. destruct r; simpl in *; auto. Qed.

Lemma okp_inv : forall A (r : res A) Q, okp r Q -> exists a, r = Ok a /\ Q a.
Proof. intros A r Q H. destruct r; simpl in *; try contradiction. eauto. Qed.

Lemma okp_intro : forall A (r : res A) (Q : A -> Prop) a, r = Ok a -> Q a -> okp r Q.
Proof. intros; subst; simpl; auto. Qed.

(* the core of a state: what the invariants talk about; most helpers leave it alone *)
Definition emb_shape (t : tbl embent) : list bool := map (fun o => match o with Some _ => true | None => false end) t.
Record core := mkCore { k_shut : bool; k_qs : tbl question; k_qgen : idgen; k_ans : list (Z * answer);
                        k_exp : tbl expent; k_egen : idgen; k_emb : list bool; k_mgen : idgen;
                        k_allocs : Z; k_queue : list Z; k_sent : list (Z * Z); k_rel : list (Z * Z) }.
Definition core_of (s : state) : core :=
  mkCore (s_shut s) (s_qs s) (s_qgen s) (s_ans s) (s_exp s) (s_egen s) (emb_shape (s_emb s)) (s_mgen s)
         (s_allocs s) (s_queue s) (s_sent s) (s_rel s).

Lemma emb_shape_replace : forall t n v,
  (exists w, nth_error t n = Some (Some w)) -> emb_shape (replace_nth n (Some v) t) = emb_shape t.
Proof.
  induction t as [|a t IH]; intros n v [w Hw].
  - destruct n; simpl in Hw; discriminate.
  - destruct n; simpl in *.
    + inversion Hw; subst. reflexivity.
    + f_equal. apply IH; eauto.
Qed.

Lemma znth_some : forall A i (l : list A) a, znth i l = Some a -> 0 <= i < Z.of_nat (length l) /\ nth_error l (Z.to_nat i) = Some a.
Proof.
  unfold znth. intros A i l a H.
  destruct (i <? 0) eqn:E1; simpl in H; try discriminate.
  destruct (Z.of_nat (length l) <=? i) eqn:E2; simpl in H; try discriminate.
  split; [lia|assumption].
Qed.

Lemma tget_some : forall A i (t : tbl A) a, tget i t = Some a ->
  0 <= i < Z.of_nat (length t) /\ nth_error t (Z.to_nat i) = Some (Some a).
Proof.
  unfold tget. intros A i t a H. destruct (znth i t) as [[x|]|] eqn:E; try discriminate.
  inversion H; subst. apply znth_some in E. exact E.
Qed.

Lemma core_lref : forall d j s, core_of (lref d j s) = core_of s.
Proof. reflexivity. Qed.

(* Releasing or adding a reference and receiving a descriptor move reference counts only
   ([s_imp], [s_impgen], [s_recv], [s_dead], [s_lrefs], the counts inside [s_emb]).  [kept_of] is
   the rest of the state: those helpers leave it alone, and all they send is Release. *)
Record kept := mkKept {
  kp_shut : bool; kp_boot : bool; kp_qs : tbl question; kp_qgen : idgen; kp_ans : list (Z * answer);
  kp_exp : tbl expent; kp_egen : idgen; kp_emb : list bool; kp_mgen : idgen; kp_queue : list Z;
  kp_handles : list hstate; kp_ndeliv : Z; kp_ncall : Z; kp_allocs : Z; kp_busy : list (Z * Z * Z);
  kp_lcalls : list (Z * Z); kp_ecalls : list (Z * Z * Z); kp_sent : list (Z * Z); kp_rel : list (Z * Z);
  kp_out : list output }.
Definition kept_of (s : state) : kept :=
  mkKept (s_shut s) (s_boot s) (s_qs s) (s_qgen s) (s_ans s) (s_exp s) (s_egen s) (emb_shape (s_emb s)) (s_mgen s)
         (s_queue s) (s_handles s) (s_ndeliv s) (s_ncall s) (s_allocs s) (s_busy s) (s_lcalls s) (s_ecalls s)
         (s_sent s) (s_rel s) (s_out s).

Definition core_k (r : kept) : core :=
  mkCore (kp_shut r) (kp_qs r) (kp_qgen r) (kp_ans r) (kp_exp r) (kp_egen r) (kp_emb r) (kp_mgen r) (kp_allocs r)
         (kp_queue r) (kp_sent r) (kp_rel r).
Lemma core_kept : forall s s1, kept_of s1 = kept_of s -> core_of s1 = core_of s.
Proof. intros s s1 H. exact (f_equal core_k H). Qed.

Lemma kept_set_emb : forall t s, emb_shape t = emb_shape (s_emb s) -> kept_of (set_emb t s) = kept_of s.
Proof. intros t s H. unfold kept_of. simpl. rewrite H. reflexivity. Qed.

Definition is_rel (x : output) : Prop := match x with ORelease _ _ => True | _ => False end.
Definition refs_only (s : state) (o : list output) (s1 : state) : Prop := kept_of s1 = kept_of s /\ Forall is_rel o.

Lemma Forall_cat : forall A (P : A -> Prop) a b, Forall P a -> Forall P b -> Forall P (a ++ b).
Proof. intros A P a b Ha Hb. apply Forall_app. split; assumption. Qed.

Lemma refs_only_same : forall s s1, kept_of s1 = kept_of s -> refs_only s [] s1.
Proof. intros s s1 H. split; [exact H|constructor]. Qed.
Lemma refs_only_trans : forall s o1 s1 o2 s2, refs_only s o1 s1 -> refs_only s1 o2 s2 -> refs_only s (o1 ++ o2) s2.
Proof. intros s o1 s1 o2 s2 [K1 R1] [K2 R2]. split; [congruence|apply Forall_cat; auto]. Qed.

(* messages all of a kind that [f] does not recognise *)
Lemma filter_none : forall (P : output -> Prop) (f : output -> bool) o, (forall x, P x -> f x = false) -> Forall P o -> filter f o = [].
Proof. intros P f o Hf H. induction H as [|x o Hx _ IH]; [reflexivity|]. simpl. rewrite (Hf x Hx). exact IH. Qed.

(* [H : bind r f = Ok b]: r is [Ok] of something of the shape p, say so in E and go on with f *)
Tactic Notation "unbind" hyp(H) "as" simple_intropattern(p) "eqn" ":" ident(E) :=
  match type of H with bind ?r _ = Ok _ => destruct r as [p| |] eqn:E; cbn [bind] in H; [|discriminate H..] end.

Lemma lref_cap_kept : forall d x s, kept_of (lref_cap d x s) = kept_of s.
Proof. intros d x s. destruct x; reflexivity. Qed.

Lemma emb_release_kept : forall c e s, kept_of (emb_release c e s) = kept_of s.
Proof.
  intros c e s. unfold emb_release. destruct (tget e (s_emb s)) as [em|] eqn:E; auto.
  destruct (0 <? e_refs em); auto.
  assert (K : kept_of (set_emb (replace_nth (Z.to_nat e) (Some (mkEmb (e_cap em) (e_refs em - 1))) (s_emb s)) s) = kept_of s).
  { apply kept_set_emb. apply tget_some in E. apply emb_shape_replace. destruct E; eauto. }
  destruct (_ && _ && _); [rewrite lref_cap_kept|]; exact K.
Qed.

Lemma imp_shutdown_refs : forall c i g s s1 o, imp_shutdown c i g s = Ok (s1, o) -> refs_only s o s1.
Proof.
  intros c i g s s1 o H. unfold imp_shutdown in H.
  destruct (s_shut s); [injection H as <- <-; apply refs_only_same; reflexivity|].
  destruct (aget i (s_imp s)) as [e|].
  - destruct (i_gen e =? g); injection H as <- <-; [split; [reflexivity|repeat constructor]|apply refs_only_same; reflexivity].
  - destruct (fx20 c); [injection H as <- <-; apply refs_only_same; reflexivity|discriminate].
Qed.

Lemma imp_release_refs : forall c i g s s1 o, imp_release c i g s = Ok (s1, o) -> refs_only s o s1.
Proof.
  intros c i g s s1 o H. unfold imp_release in H.
  destruct (aget i (s_imp s)) as [e|]; [|eapply imp_shutdown_refs; eauto].
  destruct ((i_gen e =? g) && (0 <? i_refs e)); [|eapply imp_shutdown_refs; eauto].
  cbn [i_refs] in H. destruct (i_refs e - 1 =? 0); [|injection H as <- <-; apply refs_only_same; reflexivity].
  destruct (busy_get i g (s_busy s) =? 0); [|injection H as <- <-; apply refs_only_same; reflexivity].
  exact (imp_shutdown_refs _ _ _ _ _ _ H).
Qed.

Lemma release_cap_refs : forall c x s s1 o, release_cap c x s = Ok (s1, o) -> refs_only s o s1.
Proof.
  intros c x s s1 o H. destruct x; cbn [release_cap] in H; try (injection H as <- <-; apply refs_only_same; reflexivity).
  - eapply imp_release_refs; eauto.
  - injection H as <- <-. apply refs_only_same. apply emb_release_kept.
Qed.

Lemma release_caps_refs : forall c l s s1 o, release_caps c l s = Ok (s1, o) -> refs_only s o s1.
Proof.
  induction l as [|x l IH]; intros s s1 o H; cbn [release_caps] in H.
  - injection H as <- <-. apply refs_only_same. reflexivity.
  - unbind H as [sa oa] eqn:Ea. unbind H as [sb ob] eqn:Eb. injection H as <- <-.
    eapply refs_only_trans; [eapply release_cap_refs|eapply IH]; eauto.
Qed.

Lemma release_all_args_refs : forall c l s s1 o, release_all_args c l s = Ok (s1, o) -> refs_only s o s1.
Proof.
  induction l as [|[id a] l IH]; intros s s1 o H; cbn [release_all_args] in H.
  - injection H as <- <-. apply refs_only_same. reflexivity.
  - unbind H as [sa oa] eqn:Ea. unbind H as [sb ob] eqn:Eb. injection H as <- <-.
    eapply refs_only_trans; [eapply release_caps_refs|eapply IH]; eauto.
Qed.

Lemma release_answers_refs : forall c l s s1 o, release_answers c l s = Ok (s1, o) -> refs_only s o s1.
Proof.
  induction l as [|[id a] l IH]; intros s s1 o H; cbn [release_answers] in H.
  - injection H as <- <-. apply refs_only_same. reflexivity.
  - unbind H as [sa oa] eqn:Ea. destruct (a_ph a && negb (fx16 c)); [discriminate|].
    unbind H as [sb ob] eqn:Eb. injection H as <- <-.
    eapply refs_only_trans; [eapply release_caps_refs|eapply IH]; eauto.
Qed.

Lemma addref_kept : forall x s, kept_of (addref_cap x s) = kept_of s.
Proof.
  intros x s. destruct x; cbn [addref_cap]; auto.
  - destruct (aget i (s_imp s)); auto. destruct (_ && _); auto.
  - destruct (tget e (s_emb s)) as [em|] eqn:E; auto. destruct (0 <? e_refs em); auto.
    apply kept_set_emb. apply tget_some in E. apply emb_shape_replace. destruct E; eauto.
Qed.

Lemma addrefs_local_kept : forall l s, kept_of (addrefs_local l s) = kept_of s.
Proof. induction l as [|[j|] l IH]; intros s; cbn [addrefs_local]; auto. rewrite IH. reflexivity. Qed.

Lemma add_import_kept : forall c i s, kept_of (fst (add_import c i s)) = kept_of s.
Proof. intros c i s. unfold add_import. destruct (aget i (s_imp s)) as [e|]; [destruct (0 <? i_refs e)|]; reflexivity. Qed.

Lemma recv_caps_kept : forall c ds s tab loc,
  match recv_caps c ds s tab loc with RPOk s1 _ _ | RPErr s1 _ => kept_of s1 = kept_of s end.
Proof.
  induction ds as [|d ds IH]; intros s tab loc; cbn [recv_caps]; auto.
  assert (IMP : forall i, match (let '(s1, x) := add_import c i s in recv_caps c ds s1 (x :: tab) (false :: loc)) with
                          | RPOk s1 _ _ | RPErr s1 _ => kept_of s1 = kept_of s end).
  { intros i. pose proof (add_import_kept c i s) as K. destruct (add_import c i s) as [s1 x]. cbn [fst] in K.
    specialize (IH s1 (x :: tab) (false :: loc)). destruct (recv_caps c ds s1 _ _); congruence. }
  destruct d; try apply IH; try apply IMP.
  destruct (tget i (s_exp s)) as [[x w]|]; auto.
  specialize (IH (addref_cap x s) (x :: tab) (true :: loc)). rewrite addref_kept in IH. exact IH.
Qed.

Lemma recv_payload_kept : forall c p s,
  match recv_payload c p s with PLOk s1 _ _ _ | PLErr s1 _ => kept_of s1 = kept_of s end.
Proof.
  intros c p s. unfold recv_payload. destruct (negb (p_valid p)); auto. destruct (p_cerr p); auto.
  destruct (p_caps p) as [ds|]; auto. pose proof (recv_caps_kept c ds s [] []) as H.
  destruct (recv_caps c ds s [] []); exact H.
Qed.

(* the export side: [send_cap], [fill_caps], [release_export(s)] change, besides reference
   counts, the export table, its id generator, the sent / released counters, the allocation counter *)
Definition xkept (r : kept) : kept :=
  mkKept (kp_shut r) (kp_boot r) (kp_qs r) (kp_qgen r) (kp_ans r) [] gen0 (kp_emb r) (kp_mgen r) (kp_queue r) (kp_handles r)
         (kp_ndeliv r) (kp_ncall r) 0 (kp_busy r) (kp_lcalls r) (kp_ecalls r) [] [] (kp_out r).
Definition xkept_of (s : state) : kept := xkept (kept_of s).
Lemma xkept_kept : forall s s1, kept_of s1 = kept_of s -> xkept_of s1 = xkept_of s.
Proof. intros s s1 H. exact (f_equal xkept H). Qed.

(* the three outcomes of sendCap: nothing to export; an entry for the capability exists; a new one is made *)
Lemma send_cap_cases : forall c x s,
  (exists d, match d with DSH _ => False | _ => True end /\ send_cap c x s = Ok (s, d, None)) \/
  (exists id w, find_export x (s_exp s) 0 = Some (id, w) /\
     send_cap c x s = Ok (set_sent (cadd id 1 (s_sent s)) (set_exp (replace_nth (Z.to_nat id) (Some (x, w + 1)) (s_exp s)) s), DSH id, Some id)) \/
  (find_export x (s_exp s) 0 = None /\
     send_cap c x s = (do '(id, g) <- gen_next (s_egen s); do t <- tput id (x, 1) (s_exp s);
                       Ok (set_sent (cadd id 1 (s_sent s)) (set_allocs (s_allocs s + 1) (set_egen g (set_exp t (addref_cap x s)))), DSH id, Some id))).
Proof.
  intros c x s. unfold send_cap.
  destruct x; [left; exists DNone; auto| | |destruct (imp_current i g s); [left; exists (DRH i); auto|] |];
    (destruct (find_export _ (s_exp s) 0) as [[id w]|]; [right; left; eauto|right; right; eauto]).
Qed.

Lemma send_cap_xkept : forall c x s s1 d oe, send_cap c x s = Ok (s1, d, oe) -> xkept_of s1 = xkept_of s.
Proof.
  intros c x s s1 d oe H.
  destruct (send_cap_cases c x s) as [(d0 & _ & E)|[(id & w & _ & E)|[_ E]]]; rewrite E in H; clear E.
  - injection H as <- _ _. reflexivity.
  - injection H as <- _ _. reflexivity.
  - unbind H as [id g] eqn:E1. unbind H as t eqn:E2. injection H as <- _ _. exact (xkept_kept _ _ (addref_kept x s)).
Qed.

Lemma fill_caps_xkept : forall c l s s1 ds refs, fill_caps c l s = Ok (s1, ds, refs) -> xkept_of s1 = xkept_of s.
Proof.
  induction l as [|x l IH]; intros s s1 ds refs H; cbn [fill_caps] in H; [injection H as <- _ _; reflexivity|].
  unbind H as [[sa d] oe] eqn:Ea. unbind H as [[sb ds'] refs'] eqn:Eb. injection H as <- _ _.
  rewrite (IH _ _ _ _ Eb). eapply send_cap_xkept; eauto.
Qed.

Lemma release_export_xkept : forall id n s, xkept_of (fst (fst (release_export id n s))) = xkept_of s.
Proof.
  intros id n s. unfold release_export. destruct (tget id (s_exp s)) as [[x w]|]; [|reflexivity].
  destruct (n =? w); [reflexivity|]. destruct (w <? n); reflexivity.
Qed.

Lemma release_exports_xkept : forall refs s, xkept_of (fst (fst (release_exports refs s))) = xkept_of s.
Proof.
  induction refs as [|[i n] refs IH]; intros s; cbn [release_exports]; [reflexivity|].
  pose proof (release_export_xkept i n s) as F1. destruct (release_export i n s) as [[sa oc] ea].
  specialize (IH sa). destruct (release_exports refs sa) as [[sb clb] eb]. cbn [fst] in *. congruence.
Qed.

(* the answer side.  answer.destroy: the entry goes, its export references and result
   capabilities are released *)
Lemma destroy_inv : forall c id a s s1 o err, destroy c id a s = Ok (s1, o, err) ->
  exists s2, xkept_of s2 = xkept_of (set_ans (adel id (s_ans s)) s) /\ refs_only s2 o s1.
Proof.
  intros c id a s s1 o err H. unfold destroy in H.
  destruct (_ && _).
  - pose proof (release_exports_xkept (a_xrefs a) (set_ans (adel id (s_ans s)) s)) as X.
    destruct (release_exports _ _) as [[s2 cl] e2]. unbind H as [s3 o3] eqn:E3. injection H as <- <- _.
    exists s2. split; [exact X|eapply release_caps_refs; eauto].
  - unbind H as [s3 o3] eqn:E3. injection H as <- <- _. eexists. split; [reflexivity|eapply release_caps_refs; eauto].
Qed.

(* [akept_of]: what the senders of a Return leave alone (they change, besides what the export
   side changes, the answer table and the queue) *)
Definition akept (r : kept) : kept :=
  mkKept (kp_shut r) (kp_boot r) (kp_qs r) (kp_qgen r) [] [] gen0 (kp_emb r) (kp_mgen r) [] (kp_handles r)
         (kp_ndeliv r) (kp_ncall r) 0 (kp_busy r) (kp_lcalls r) (kp_ecalls r) [] [] (kp_out r).
Definition akept_of (s : state) : kept := akept (kept_of s).
Lemma akept_xkept : forall s s1, xkept_of s1 = xkept_of s -> akept_of s1 = akept_of s.
Proof. intros s s1 H. exact (f_equal akept H). Qed.
Lemma akept_kept : forall s s1, kept_of s1 = kept_of s -> akept_of s1 = akept_of s.
Proof. intros s s1 H. exact (f_equal akept H). Qed.

Definition is_reply (x : output) : Prop :=
  match x with ORelease _ _ | OReturnExc _ | OReturnRes _ _ => True | _ => False end.
Lemma reply_rel : forall o, Forall is_rel o -> Forall is_reply o.
Proof. intros o. apply Forall_impl. intros [] H; try contradiction H; exact I. Qed.
Definition sends (s : state) (o : list output) (s1 : state) : Prop := akept_of s1 = akept_of s /\ Forall is_reply o.

Lemma sends_trans : forall s o1 s1 o2 s2, sends s o1 s1 -> sends s1 o2 s2 -> sends s (o1 ++ o2) s2.
Proof. intros s o1 s1 o2 s2 [K1 R1] [K2 R2]. split; [congruence|apply Forall_cat; auto]. Qed.
Lemma sends_refs : forall s o s1, refs_only s o s1 -> sends s o s1.
Proof. intros s o s1 [K R]. split; [apply akept_kept, K|apply reply_rel, R]. Qed.

Lemma destroy_sends : forall c id a s s1 o err, destroy c id a s = Ok (s1, o, err) -> sends s o s1.
Proof.
  intros c id a s s1 o err H. destruct (destroy_inv _ _ _ _ _ _ _ H) as (s2 & X & [K R]).
  split; [|apply reply_rel, R]. rewrite (akept_kept _ _ K). exact (akept_xkept _ _ X).
Qed.

Lemma send_exception_sends : forall c id a s s1 o ab, send_exception c id a s = Ok (s1, o, ab) -> sends s o s1.
Proof.
  intros c id a s s1 o ab H. unfold send_exception in H.
  assert (O : Forall is_reply (if s_shut s then [] else [OReturnExc id])) by (destruct (s_shut s); repeat constructor).
  destruct (a_fin a).
  - unbind H as [[s2 o2] e2] eqn:E. injection H as <- <- _. destruct (destroy_sends _ _ _ _ _ _ _ E) as [K R].
    split; [exact K|apply Forall_cat; auto].
  - injection H as <- <- _. split; [reflexivity|exact O].
Qed.

Lemma send_return_sends : forall c id a k rct s s1 o ab, send_return c id a k rct s = Ok (s1, o, ab) -> sends s o s1.
Proof.
  intros c id a k rct s s1 o ab H. unfold send_return in H. unbind H as [[s0 ds] refs] eqn:E0.
  pose proof (akept_xkept _ _ (fill_caps_xkept _ _ _ _ _ _ E0)) as K0.
  assert (O : Forall is_reply (if s_shut s then [] else [OReturnRes id ds])) by (destruct (s_shut s); repeat constructor).
  destruct (a_fin a).
  - unbind H as [[s2 o2] e2] eqn:E. injection H as <- <- _. destruct (destroy_sends _ _ _ _ _ _ _ E) as [K R].
    split; [rewrite K; exact K0|apply Forall_cat; auto].
  - injection H as <- <- _. split; [exact K0|exact O].
Qed.

Lemma reject_sends : forall c id a s s1 o ab, reject c id a s = Ok (s1, o, ab) -> sends s o s1.
Proof.
  intros c id a s s1 o ab H. unfold reject in H. unbind H as [s0 o0] eqn:E0. unbind H as [[s2 o2] b2] eqn:E2. injection H as <- <- _.
  eapply sends_trans; [apply sends_refs; eapply release_caps_refs; eauto|eapply send_exception_sends; eauto].
Qed.

(* with every repair in place the release helpers cannot fail *)
Lemma imp_shutdown_fixed : forall i g s, exists s' o, imp_shutdown cfg_fixed i g s = Ok (s', o).
Proof.
  intros i g s. unfold imp_shutdown. destruct (s_shut s); [eauto|].
  destruct (aget i (s_imp s)) as [e|]; simpl; [|eauto]. destruct (i_gen e =? g); eauto.
Qed.

Lemma release_cap_fixed : forall x s, exists s' o, release_cap cfg_fixed x s = Ok (s', o).
Proof.
  intros x s. destruct x; simpl; eauto. unfold imp_release.
  destruct (aget i (s_imp s)) as [e|]; [|apply imp_shutdown_fixed].
  destruct ((i_gen e =? g) && (0 <? i_refs e)); [|apply imp_shutdown_fixed].
  simpl. destruct (i_refs e - 1 =? 0); [|eauto]. destruct (busy_get i g (s_busy s) =? 0); [apply imp_shutdown_fixed|eauto].
Qed.

Lemma release_caps_fixed : forall l s, exists s' o, release_caps cfg_fixed l s = Ok (s', o).
Proof.
  induction l as [|x l IH]; intros s; simpl; eauto.
  destruct (release_cap_fixed x s) as (s1 & o1 & H1). rewrite H1. simpl.
  destruct (IH s1) as (s2 & o2 & H2). rewrite H2. simpl. eauto.
Qed.

Lemma release_all_args_fixed : forall l s, exists s' o, release_all_args cfg_fixed l s = Ok (s', o).
Proof.
  induction l as [|[id a] l IH]; intros s; simpl; eauto.
  destruct (release_caps_fixed (a_args a) s) as (s1 & o1 & H1). rewrite H1. simpl.
  destruct (IH s1) as (s2 & o2 & H2). rewrite H2. simpl. eauto.
Qed.

Lemma release_answers_fixed : forall l s, exists s' o, release_answers cfg_fixed l s = Ok (s', o).
Proof.
  induction l as [|[id a] l IH]; intros s; simpl; eauto.
  destruct (release_caps_fixed (rct_caps (a_rct a)) s) as (s1 & o1 & H1). rewrite H1. simpl. rewrite andb_false_r.
  destruct (IH s1) as (s2 & o2 & H2). rewrite H2. simpl. eauto.
Qed.

Definition imp_empty (s : state) : Prop := s_shut s = true /\ s_imp s = [].

Lemma imp_empty_release_cap : forall c x s s' o, imp_empty s -> release_cap c x s = Ok (s', o) -> imp_empty s'.
Proof.
  intros c x s s' o [Hs Hi] H. destruct x; simpl in H; try (inversion H; subst; split; assumption).
  - unfold imp_release in H. rewrite Hi in H. simpl in H. unfold imp_shutdown in H. rewrite Hs in H.
    inversion H; subst. split; assumption.
  - inversion H; subst. unfold emb_release. destruct (tget e (s_emb s)); [|split; assumption].
    destruct (0 <? e_refs e0); [|split; assumption].
    destruct ((e_refs e0 - 1 =? 0) && negb (emb_busy e s) && negb (fx22 c)); [destruct (e_cap e0)|]; split; assumption.
Qed.

Lemma imp_empty_release_caps : forall c l s s' o, imp_empty s -> release_caps c l s = Ok (s', o) -> imp_empty s'.
Proof.
  induction l as [|x l IH]; intros s s' o Hi H; simpl in H.
  - inversion H; subst; assumption.
  - destruct (release_cap c x s) as [[s1 o1]| |] eqn:E1; simpl in H; try discriminate.
    destruct (release_caps c l s1) as [[s2 o2]| |] eqn:E2; simpl in H; try discriminate.
    inversion H; subst. eapply IH; [|exact E2]. eapply imp_empty_release_cap; eauto.
Qed.

(* lifting an embargo: handles resolve, local references move, the calls held back are let
   through; what is sent goes to the local application *)
Definition lifted (s s1 : state) : Prop := exists h lr n lc ec,
  s1 = set_ecalls ec (set_ndeliv n (set_lcalls lc (set_lrefs lr (set_handles h s)))).
Definition is_local (x : output) : Prop := match x with LDeliver _ _ _ | LAppRes _ _ => True | _ => False end.

Lemma lifted_refl : forall s, lifted s s.
Proof. intros s. exists (s_handles s), (s_lrefs s), (s_ndeliv s), (s_lcalls s), (s_ecalls s). destruct s; reflexivity. Qed.
Lemma lifted_trans : forall s s1 s2, lifted s s1 -> lifted s1 s2 -> lifted s s2.
Proof. intros s s1 s2 (h & lr & n & lc & ec & ->) (h' & lr' & n' & lc' & ec' & ->). exists h', lr', n', lc', ec'. reflexivity. Qed.

Lemma wake_calls_lifted : forall e x l s, lifted s (fst (wake_calls e x l s)) /\ Forall is_local (snd (wake_calls e x l s)).
Proof.
  induction l as [|[[e' n] tag] l IH]; intros s; cbn [wake_calls]; [split; [apply lifted_refl|constructor]|].
  destruct (e' =? e); [|apply IH].
  assert (STEP : forall s1 y, lifted s s1 -> is_local y ->
            lifted s (fst (let '(s2, o2) := wake_calls e x l s1 in (s2, y :: o2))) /\
            Forall is_local (snd (let '(s2, o2) := wake_calls e x l s1 in (s2, y :: o2)))).
  { intros s1 y L1 Hy. destruct (IH s1) as [L2 R2]. destruct (wake_calls e x l s1) as [s2 o2].
    split; [eapply lifted_trans; eauto|constructor; assumption]. }
  destruct x; try (apply STEP; [apply lifted_refl|exact I]).
  apply STEP; [|exact I]. exists (s_handles s), (s_lrefs s), (s_ndeliv s + 1), ((s_ndeliv s, n) :: s_lcalls s), (s_ecalls s). destruct s; reflexivity.
Qed.

Lemma lifted_set : forall h lr ec s, lifted s (set_ecalls ec (set_lrefs lr (set_handles h s))).
Proof. intros h lr ec s. exists h, lr, (s_ndeliv s), (s_lcalls s), ec. reflexivity. Qed.

Lemma lift_lifted : forall c e em s s1 o, lift c e em s = Ok (s1, o) -> lifted s s1 /\ Forall is_local o.
Proof.
  intros c e em s s1 o H. unfold lift in H. destruct (_ && _ && _); [discriminate|].
  match type of H with context [wake_calls e ?x ?l ?sa] =>
    destruct (wake_calls_lifted e x l sa) as [L2 R]; destruct (wake_calls e x l sa) as [s2 o2];
    assert (L1 : lifted s sa) by
      (destruct x as [| |j| |]; try exact (lifted_set _ (s_lrefs s) (s_ecalls s) s); exact (lifted_set _ (cadd j _ (s_lrefs s)) (s_ecalls s) s)) end.
  cbn [fst snd] in L2, R. injection H as <- <-. split; [|exact R].
  eapply lifted_trans; [exact L1|]. eapply lifted_trans; [exact L2|].
  exact (lifted_set (s_handles s2) (s_lrefs s2) _ s2).
Qed.

Lemma lift_all_lifted : forall c t i s s1 o, lift_all c t i s = Ok (s1, o) -> lifted s s1 /\ Forall is_local o.
Proof.
  induction t as [|[em|] t IH]; intros i s s1 o H; cbn [lift_all] in H.
  - injection H as <- <-. split; [apply lifted_refl|constructor].
  - unbind H as [sa oa] eqn:Ea. unbind H as [sb ob] eqn:Eb. injection H as <- <-.
    destruct (lift_lifted _ _ _ _ _ _ Ea) as [L1 R1]. destruct (IH _ _ _ _ Eb) as [L2 R2].
    split; [eapply lifted_trans; eauto|apply Forall_cat; auto].
  - eapply IH; eauto.
Qed.

Lemma lift_fixed : forall e em s, exists s' o, lift cfg_fixed e em s = Ok (s', o).
Proof.
  intros e em s. unfold lift. cbn [fx22 cfg_fixed negb]. rewrite andb_false_r. cbv iota.
  destruct (wake_calls _ _ _ _). eauto.
Qed.

Lemma lift_all_fixed : forall t i s, exists s' o, lift_all cfg_fixed t i s = Ok (s', o).
Proof.
  induction t as [|[em|] t IH]; intros i s; cbn [lift_all]; [eauto| |apply IH].
  destruct (lift_fixed i em s) as (s1 & o1 & H1). rewrite H1. cbn [bind].
  destruct (IH (i + 1) s1) as (s2 & o2 & H2). rewrite H2. cbn [bind]. eauto.
Qed.

Lemma release_answers_imp_empty : forall l s s' o, release_answers cfg_fixed l s = Ok (s', o) -> imp_empty s -> imp_empty s'.
Proof.
  induction l as [|[id a] l IH]; intros s s' o H I; simpl in H.
  - inversion H; subst; assumption.
  - destruct (release_caps cfg_fixed (rct_caps (a_rct a)) s) as [[sa oa]| |] eqn:Ea; simpl in H; try discriminate.
    rewrite andb_false_r in H.
    destruct (release_answers cfg_fixed l sa) as [[sb ob]| |] eqn:Eb; simpl in H; try discriminate.
    inversion H; subst. eapply IH; [exact Eb|]. eapply imp_empty_release_caps; eauto.
Qed.

Lemma emb_shape_nil : forall t, emb_shape t = [] -> t = [].
Proof. destruct t; simpl; [auto|discriminate]. Qed.

(* the tables that shutdown empties and nothing fills again *)
Definition cleared (s : state) : Prop := s_qs s = [] /\ s_ans s = [] /\ s_exp s = [] /\ s_queue s = [].
Lemma cleared_kept : forall s s1, kept_of s1 = kept_of s -> cleared s -> cleared s1.
Proof.
  intros s s1 K (Q & A & X & U).
  change (kp_qs (kept_of s1) = [] /\ kp_ans (kept_of s1) = [] /\ kp_exp (kept_of s1) = [] /\ kp_queue (kept_of s1) = []).
  rewrite K. repeat split; assumption.
Qed.

Theorem shutdown_total : forall abort s, exists s' o,
  do_shutdown cfg_fixed abort s = Ok (s', o) /\ tables_empty s' /\ s_shut s' = true.
Proof.
  intros abort s. unfold do_shutdown.
  destruct (release_all_args_fixed (s_ans (set_shut true s)) (set_shut true s)) as (s1 & o1 & H1).
  rewrite H1. cbn [bind]. destruct (release_all_args_refs _ _ _ _ _ H1) as [K1 _].
  set (s2 := set_handles _ _).
  set (s3 := if s_boot s2 then _ else s2).
  assert (E3 : imp_empty s3 /\ cleared s3).
  { pose proof (f_equal kp_shut K1) as Hs. subst s3 s2. destruct (s_boot _); repeat split; exact Hs. }
  destruct E3 as (I3 & C3).
  destruct (release_caps_fixed (exp_clients (s_exp s1)) s3) as (s4 & o4 & H4).
  rewrite H4. cbn [bind]. destruct (release_caps_refs _ _ _ _ _ H4) as [K4 _].
  pose proof (imp_empty_release_caps _ _ _ _ _ I3 H4) as I4. pose proof (cleared_kept _ _ K4 C3) as C4.
  destruct (lift_all_fixed (s_emb s4) 0 (set_emb [] s4)) as (s5 & o5 & H5).
  rewrite H5. cbn [bind]. destruct (lift_all_lifted _ _ _ _ _ _ H5) as [(h & lr & n & lc & ec & ->) _].
  match goal with |- context [release_answers cfg_fixed ?l ?s5] => destruct (release_answers_fixed l s5) as (s6 & o6 & H6) end.
  rewrite H6. cbn [bind]. destruct (release_answers_refs _ _ _ _ _ H6) as [K6 _].
  eexists _, _. split; [reflexivity|].
  destruct (release_answers_imp_empty _ _ _ _ H6 I4) as [S6 I6]. destruct (cleared_kept _ _ K6 C4) as (Q6 & A6 & X6 & U6).
  repeat split; try assumption. apply emb_shape_nil. exact (f_equal kp_emb K6).
Qed.

(* A local server returns.  What it hands back as results content and cap table ([None]: an
   exception; no results are results without content); the state when the queue behind the
   answer is dealt with: the arguments have been released *)
Definition ret_content (r : appret) : option (content * list (option Z)) :=
  match r with ARExc => None | AREmpty => Some (KNull, []) | ARResults fs => Some (results_of fs) end.
Definition ret_start (id : Z) (a : answer) (s1 : state) : state := set_ans (aput id (set_a_args [] a) (s_ans s1)) s1.

Lemma app_return_eq : forall c k r s id a, find_running k (s_ans s) = Some (id, a) -> app_return c k r s =
  (do '(s1, o1) <- release_caps c (a_args a) s;
   match ret_content r with
   | None =>
     do '(s2, o2, b2) <- reject_all c (queued_under (s_ans (ret_start id a s1)) (s_queue (ret_start id a s1)) [id]) (ret_start id a s1);
     do '(s3, o3, b3) <- send_exception c id (set_a_args [] a) s2; Ok (s3, o1 ++ o2 ++ o3, b2 || b3)
   | Some (kc, rct) =>
     let sb := addrefs_local rct (ret_start id a s1) in
     let lst := queued_under (s_ans sb) (s_queue sb) [id] in
     do '(s2, o2, b2) <- drain c id kc rct lst lst sb;
     do '(s3, o3, b3) <- send_return c id (set_a_args [] a) kc rct s2; Ok (s3, o1 ++ o2 ++ o3, b2 || b3)
   end).
Proof.
  intros c k r s id a H. unfold app_return. rewrite H. destruct (release_caps c (a_args a) s) as [[s1 o1]| |]; [|reflexivity..].
  cbn [bind]. destruct r as [fs| |]; cbn [ret_content]; [destruct (results_of fs)|..]; reflexivity.
Qed.

Inductive return_case (c : cfg) (k : Z) (r : appret) (s s0 : state) (o0 : list output) (ab : bool) : Prop :=
| RC_direct : forall n, find_running k (s_ans s) = None -> aget k (s_lcalls s) = Some n ->
    s0 = set_lcalls (adel k (s_lcalls s)) s -> o0 = [LAppRes n (match r with ARExc => 1 | _ => 0 end)] -> ab = false ->
    return_case c k r s s0 o0 ab
| RC_none : find_running k (s_ans s) = None -> aget k (s_lcalls s) = None -> s0 = s -> o0 = [] -> ab = false ->
    return_case c k r s s0 o0 ab
| RC_exc : forall id a s1 o1 s2 o2 b2 o3 b3, find_running k (s_ans s) = Some (id, a) -> r = ARExc ->
    release_caps c (a_args a) s = Ok (s1, o1) ->
    reject_all c (queued_under (s_ans (ret_start id a s1)) (s_queue (ret_start id a s1)) [id]) (ret_start id a s1) = Ok (s2, o2, b2) ->
    send_exception c id (set_a_args [] a) s2 = Ok (s0, o3, b3) -> o0 = o1 ++ o2 ++ o3 -> ab = b2 || b3 ->
    return_case c k r s s0 o0 ab
| RC_res : forall id a kc rct s1 o1 s2 o2 b2 o3 b3, find_running k (s_ans s) = Some (id, a) -> ret_content r = Some (kc, rct) ->
    release_caps c (a_args a) s = Ok (s1, o1) ->
    drain c id kc rct (queued_under (s_ans (addrefs_local rct (ret_start id a s1))) (s_queue (addrefs_local rct (ret_start id a s1))) [id])
          (queued_under (s_ans (addrefs_local rct (ret_start id a s1))) (s_queue (addrefs_local rct (ret_start id a s1))) [id])
          (addrefs_local rct (ret_start id a s1)) = Ok (s2, o2, b2) ->
    send_return c id (set_a_args [] a) kc rct s2 = Ok (s0, o3, b3) -> o0 = o1 ++ o2 ++ o3 -> ab = b2 || b3 ->
    return_case c k r s s0 o0 ab.

Lemma app_return_cases : forall c k r s s0 o0 ab, app_return c k r s = Ok (s0, o0, ab) -> return_case c k r s s0 o0 ab.
Proof.
  intros c k r s s0 o0 ab H. destruct (find_running k (s_ans s)) as [[id a]|] eqn:Ef.
  - rewrite (app_return_eq _ _ _ _ _ _ Ef) in H. unbind H as [s1 o1] eqn:E1.
    destruct (ret_content r) as [[kc rct]|] eqn:Er; cbv zeta in H;
      unbind H as [[s2 o2] b2] eqn:E2; unbind H as [[s3 o3] b3] eqn:E3; injection H as <- <- <-.
    + eapply RC_res; eauto.
    + eapply RC_exc; eauto. destruct r; try discriminate Er; reflexivity.
  - unfold app_return in H. rewrite Ef in H. destruct (aget k (s_lcalls s)) as [n|] eqn:El; injection H as <- <- <-.
    + eapply RC_direct; eauto.
    + apply RC_none; auto.
Qed.

(* handleCall (sendResultsTo = caller, every repair in place): the ways it ends.
   [call_parsed]: the id is free, the parameters were received (state s1, cap table tab) and the
   target is readable *)
Definition call_parsed (id : Z) (tg : target) (params : option payload) (s s1 : state) (tab : list cap) (pt : ptarget) : Prop :=
  aget id (s_ans s) = None /\ kept_of s1 = kept_of s /\ parse_target tg = Some pt /\
  exists p k loc, params = Some p /\ recv_payload cfg_fixed p s = PLOk s1 k tab loc.

Inductive call_case (id : Z) (tg : target) (params : option payload) (mok : bool) (tag : Z) (s : state) (r : hres) : Prop :=
| CC_reused : forall a, aget id (s_ans s) = Some a -> Ok (s, [], true) = r -> call_case id tg params mok tag s r
| CC_exc : forall s1 tor, aget id (s_ans s) = None -> kept_of s1 = kept_of s ->
    (params = None /\ s1 = s /\ tor = []) \/
    (exists p, params = Some p /\ (recv_payload cfg_fixed p s = PLErr s1 tor \/
                                    exists k loc, recv_payload cfg_fixed p s = PLOk s1 k tor loc /\ parse_target tg = None)) ->
    (do '(s2, o2, _) <- send_exception cfg_fixed id (new_answer [] mok tag) s1;
     do '(s3, o3) <- release_caps cfg_fixed tor s2; Ok (s3, o2 ++ o3, false)) = r -> call_case id tg params mok tag s r
| CC_unknown : forall s1 tab pt, call_parsed id tg params s s1 tab pt ->
    match pt with
    | PImp e => tget e (s_exp s1) = None
    | PAns t _ => t = id \/ match aget t (s_ans s1) with None => True | Some ta => a_fin ta = true end
    end ->
    (do '(s2, o2) <- release_caps cfg_fixed tab (set_ans (aput id placeholder (s_ans s1)) s1); Ok (s2, o2, true)) = r ->
    call_case id tg params mok tag s r
| CC_export : forall s1 tab e x w, call_parsed id tg params s s1 tab (PImp e) -> tget e (s_exp s1) = Some (x, w) ->
    deliver cfg_fixed id (new_answer tab mok tag) (cap_dtgt x) s1 = r -> call_case id tg params mok tag s r
| CC_failed : forall s1 tab t x ta, call_parsed id tg params s s1 tab (PAns t x) -> t <> id -> aget t (s_ans s1) = Some ta ->
    a_fin ta = false -> a_ready ta = true -> a_err ta = true ->
    reject cfg_fixed id (new_answer tab mok tag) s1 = r -> call_case id tg params mok tag s r
| CC_returned : forall s1 tab t x ta, call_parsed id tg params s s1 tab (PAns t x) -> t <> id -> aget t (s_ans s1) = Some ta ->
    a_fin ta = false -> a_ready ta = true -> a_err ta = false ->
    deliver cfg_fixed id (new_answer tab mok tag) (pipeline_tgt (a_content ta) (a_rct ta) x) s1 = r -> call_case id tg params mok tag s r
| CC_queued : forall s1 tab t x ta, call_parsed id tg params s s1 tab (PAns t x) -> t <> id -> aget t (s_ans s1) = Some ta ->
    a_fin ta = false -> a_ready ta = false -> a_st ta <> AIdle ->
    Ok (set_queue (s_queue s1 ++ [id]) (set_ans (aput id (set_a_st (AQueued t x) (new_answer tab mok tag)) (s_ans s1)) s1), [], false) = r ->
    call_case id tg params mok tag s r
| CC_nopcall : forall s1 tab t x ta, call_parsed id tg params s s1 tab (PAns t x) -> aget t (s_ans s1) = Some ta ->
    a_ready ta = false -> a_st ta = AIdle -> Panic W_PCALL = r -> call_case id tg params mok tag s r.

Lemma handle_call_cases : forall id tg params mok tag s r,
  handle_call cfg_fixed id tg params true mok tag s = r -> call_case id tg params mok tag s r.
Proof.
  intros id tg params mok tag s r H. unfold handle_call in H. cbn [negb] in H.
  destruct (aget id (s_ans s)) as [a0|] eqn:Eid; [eapply CC_reused; eauto|].
  destruct params as [p|]; [|apply (CC_exc _ _ _ _ _ _ _ s []); auto].
  pose proof (recv_payload_kept cfg_fixed p s) as K.
  destruct (recv_payload cfg_fixed p s) as [s1 kc tab loc|s1 part] eqn:Er;
    [|apply (CC_exc _ _ _ _ _ _ _ s1 part); eauto 6].
  destruct (parse_target tg) as [pt|] eqn:Et; cbn [bind] in H; [|apply (CC_exc _ _ _ _ _ _ _ s1 tab); eauto 8].
  assert (P : call_parsed id tg (Some p) s s1 tab pt) by (repeat split; eauto 6).
  destruct pt as [e|t x].
  - destruct (tget e (s_exp s1)) as [[x w]|] eqn:Ee; [eapply CC_export; eauto|eapply CC_unknown; eauto].
  - cbn [fx24 fx14 cfg_fixed negb] in H. rewrite andb_false_r in H.
    destruct (t =? id) eqn:Etid; [eapply CC_unknown; [exact P|left; lia|exact H]|].
    destruct (aget t (s_ans s1)) as [ta|] eqn:Eta; [|eapply CC_unknown; [exact P|right; rewrite Eta; exact I|exact H]].
    destruct (a_fin ta) eqn:Ef; [eapply CC_unknown; [exact P|right; rewrite Eta; exact Ef|exact H]|].
    assert (Hne : t <> id) by lia.
    destruct (a_ready ta) eqn:Erd; [destruct (a_err ta) eqn:Eer; [eapply CC_failed|eapply CC_returned]; eauto|].
    destruct (a_st ta) eqn:Est; [eapply CC_nopcall; eauto|eapply CC_queued; eauto; rewrite Est; discriminate..].
Qed.

(* parseReturn embargoes the capabilities the application has pipelined calls on: the embargo
   table, its id generator and the allocation counter change; Disembargo messages go out *)
Definition embargoed (s s1 : state) : Prop := exists em g al, s1 = set_allocs al (set_mgen g (set_emb em s)).
Definition is_disemb (x : output) : Prop := match x with ODisembargoS _ _ _ => True | _ => False end.

Lemma embargo_caps_embargoed : forall c qid k called loc done tab s s1 tab1 o,
  embargo_caps c qid k called loc done tab s = Ok (s1, tab1, o) -> embargoed s s1 /\ Forall is_disemb o.
Proof.
  induction called as [|x called IH]; intros loc done tab s s1 tab1 o H; cbn [embargo_caps] in H.
  - injection H as <- _ <-. split; [exists (s_emb s), (s_mgen s), (s_allocs s); destruct s; reflexivity|constructor].
  - destruct (transform_eval k x); try (eapply IH; eauto; fail).
    destruct (znth k0 tab) as [lc|]; [|eapply IH; eauto].
    destruct (znth k0 loc) as [[|]|]; try (eapply IH; eauto; fail).
    destruct (zmem k0 done); [eapply IH; eauto|].
    unbind H as [e g] eqn:E1. unbind H as t eqn:E2. unbind H as [[s2 tab2] o2] eqn:E3. injection H as <- _ <-.
    destruct (IH _ _ _ _ _ _ _ E3) as [(em & g' & al & ->) R]. split; [exists em, g', al; reflexivity|constructor; [exact I|exact R]].
Qed.

(* handleReturn with every repair in place, stage by stage; each state comes with the
   equation that produced it.
   [return_open]: the question leaves the table and Return.releaseParamCaps gives back the export
   references of the call's parameters; their clients (pc) are released at the very end *)
Definition return_open (qid : Z) (q : question) (rpc : bool) (s : state) : state * list cap :=
  if rpc then let '(s1, cl, _) := release_exports (q_prefs q) (set_qs (tclear qid (s_qs s)) s) in (s1, cl)
  else (set_qs (tclear qid (s_qs s)) s, []).

(* parseReturn: the results ([parsed]), what is left to release when there are none ([tor]), the
   Disembargo messages for the capabilities the application had pipelined on *)
Inductive return_parsed (qid : Z) (q : question) (k : retk) (s1 s2 : state)
          (parsed : option (content * list cap)) (tor : list cap) (disemb : list output) : Prop :=
| RP_none : (forall p, k <> RkResults (Some p)) -> s2 = s1 -> parsed = None -> tor = [] -> disemb = [] ->
    return_parsed qid q k s1 s2 parsed tor disemb
| RP_err : forall p, k = RkResults (Some p) -> recv_payload cfg_fixed p s1 = PLErr s2 tor -> parsed = None -> disemb = [] ->
    return_parsed qid q k s1 s2 parsed tor disemb
| RP_ok : forall p sb kc tab loc tab3, k = RkResults (Some p) -> recv_payload cfg_fixed p s1 = PLOk sb kc tab loc ->
    embargo_caps cfg_fixed qid kc (q_called q) loc [] tab sb = Ok (s2, tab3, disemb) -> parsed = Some (kc, tab3) -> tor = [] ->
    return_parsed qid q k s1 s2 parsed tor disemb.

(* the capability a bootstrap question resolves to *)
Definition ret_cap (kc : content) (tab : list cap) : cap :=
  match transform_eval kc [] with
  | TIface i => match znth i tab with Some x => x | None => CNull end
  | TValid => CErr
  | _ => CNull
  end.

(* the local promise resolves: from state sr the capabilities rel are released; pre is what the
   local caller is told *)
Inductive return_resolved (q : question) (s2 : state) (parsed : option (content * list cap)) (tor : list cap)
          (sr : state) (rel : list cap) (pre : list output) : Prop :=
| RR_boot : forall h kc tab, q_boot q = Some h -> parsed = Some (kc, tab) ->
    sr = set_handle h (HCap (ret_cap kc tab)) (addref_cap (ret_cap kc tab) s2) -> rel = tab -> pre = [] ->
    return_resolved q s2 parsed tor sr rel pre
| RR_boot_err : forall h, q_boot q = Some h -> parsed = None -> sr = set_handle h (HCap CErr) s2 -> rel = tor -> pre = [] ->
    return_resolved q s2 parsed tor sr rel pre
| RR_call : forall kc tab, q_boot q = None -> parsed = Some (kc, tab) -> sr = s2 -> rel = tab -> pre = [LAppRes (q_call q) 0] ->
    return_resolved q s2 parsed tor sr rel pre
| RR_call_err : q_boot q = None -> parsed = None -> sr = s2 -> rel = tor -> pre = [LAppRes (q_call q) 1] ->
    return_resolved q s2 parsed tor sr rel pre.

Inductive hret_case (qid : Z) (rpc : bool) (k : retk) (s s0 : state) (o0 : list output) (ab : bool) : Prop :=
| HR_unknown : tget qid (s_qs s) = None -> s0 = s -> o0 = [] -> ab = true -> hret_case qid rpc k s s0 o0 ab
| HR_canceled : forall q s1 pc, tget qid (s_qs s) = Some q -> return_open qid q rpc s = (s1, pc) -> q_fin q = true ->
    release_caps cfg_fixed pc (set_qgen (gen_remove qid (s_qgen s1)) s1) = Ok (s0, o0) -> ab = false ->
    hret_case qid rpc k s s0 o0 ab
| HR_resolved : forall q s1 pc s2 parsed tor disemb sr rel pre s3 o3 s5 o5,
    tget qid (s_qs s) = Some q -> return_open qid q rpc s = (s1, pc) -> q_fin q = false ->
    return_parsed qid q k s1 s2 parsed tor disemb -> return_resolved q s2 parsed tor sr rel pre ->
    release_caps cfg_fixed rel sr = Ok (s3, o3) -> release_caps cfg_fixed pc s3 = Ok (s5, o5) ->
    s0 = set_qgen (gen_remove qid (s_qgen s5)) s5 -> o0 = disemb ++ [OFinish qid false] ++ (pre ++ o3) ++ o5 -> ab = false ->
    hret_case qid rpc k s s0 o0 ab.

Lemma handle_return_cases : forall qid rpc k s s0 o0 ab,
  handle_return cfg_fixed qid rpc k s = Ok (s0, o0, ab) -> hret_case qid rpc k s s0 o0 ab.
Proof.
  intros qid rpc k s s0 o0 ab H. unfold handle_return in H.
  destruct (tget qid (s_qs s)) as [q|] eqn:Eq; [|injection H as <- <- <-; apply HR_unknown; auto].
  cbn [fx19 fx17 cfg_fixed andb negb] in H. fold (return_open qid q rpc s) in H.
  destruct (return_open qid q rpc s) as [s1 pc] eqn:Eo.
  destruct (q_fin q) eqn:Ef.
  { unbind H as [s2 o2] eqn:E2. injection H as <- <- <-. eapply HR_canceled; eauto. }
  unbind H as [[[s2 parsed] tor] disemb] eqn:EP. unbind H as [s3 o3] eqn:E3. unbind H as [s5 o5] eqn:E5. injection H as <- <- <-.
  assert (P : return_parsed qid q k s1 s2 parsed tor disemb).
  { destruct k as [[p|]| |]; try (injection EP as <- <- <- <-; apply RP_none; auto; discriminate).
    destruct (recv_payload cfg_fixed p s1) as [sb kc tab loc|sb part] eqn:Er.
    - unbind EP as [[sc tab3] oc] eqn:Ee. injection EP as <- <- <- <-. eapply RP_ok; eauto.
    - cbn [payload_err fx21 cfg_fixed bind] in EP. injection EP as <- <- <- <-. eapply RP_err; eauto. }
  destruct (q_boot q) as [h|] eqn:Eb; destruct parsed as [[kc tab]|]; unbind E3 as [s4 o4] eqn:E4; injection E3 as <- <-.
  - apply (HR_resolved qid rpc k s _ _ _ q s1 pc s2 (Some (kc, tab)) tor disemb _ tab [] s4 o4 s5 o5 Eq Eo Ef P
             (RR_boot _ _ _ _ _ _ _ h kc tab Eb eq_refl eq_refl eq_refl eq_refl) E4 E5); reflexivity.
  - apply (HR_resolved qid rpc k s _ _ _ q s1 pc s2 None tor disemb _ tor [] s4 o4 s5 o5 Eq Eo Ef P
             (RR_boot_err _ _ _ _ _ _ _ h Eb eq_refl eq_refl eq_refl eq_refl) E4 E5); reflexivity.
  - apply (HR_resolved qid rpc k s _ _ _ q s1 pc s2 (Some (kc, tab)) tor disemb s2 tab _ s4 o4 s5 o5 Eq Eo Ef P
             (RR_call _ _ _ _ _ _ _ kc tab Eb eq_refl eq_refl eq_refl eq_refl) E4 E5); reflexivity.
  - apply (HR_resolved qid rpc k s _ _ _ q s1 pc s2 None tor disemb s2 tor _ s4 o4 s5 o5 Eq Eo Ef P
             (RR_call_err _ _ _ _ _ _ _ Eb eq_refl eq_refl eq_refl eq_refl) E4 E5); reflexivity.
Qed.

(* what the stages leave alone *)
Lemma return_open_xkept : forall qid q rpc s s1 pc, return_open qid q rpc s = (s1, pc) ->
  xkept_of s1 = xkept_of (set_qs (tclear qid (s_qs s)) s).
Proof.
  intros qid q rpc s s1 pc H. unfold return_open in H. destruct rpc; [|injection H as <- _; reflexivity].
  pose proof (release_exports_xkept (q_prefs q) (set_qs (tclear qid (s_qs s)) s)) as X.
  destruct (release_exports _ _) as [[sa cl] e]. injection H as <- _. exact X.
Qed.

Lemma return_parsed_kept : forall qid q k s1 s2 parsed tor disemb, return_parsed qid q k s1 s2 parsed tor disemb ->
  exists sb, kept_of sb = kept_of s1 /\ embargoed sb s2 /\ Forall is_disemb disemb.
Proof.
  intros qid q k s1 s2 parsed tor disemb [_ -> _ _ ->|p _ Er _ ->|p sb kc tab loc tab3 _ Er Ee _ _].
  - exists s1. split; [reflexivity|]. split; [exists (s_emb s1), (s_mgen s1), (s_allocs s1); destruct s1; reflexivity|constructor].
  - exists s2. pose proof (recv_payload_kept cfg_fixed p s1) as K. rewrite Er in K.
    split; [exact K|]. split; [exists (s_emb s2), (s_mgen s2), (s_allocs s2); destruct s2; reflexivity|constructor].
  - exists sb. pose proof (recv_payload_kept cfg_fixed p s1) as K. rewrite Er in K.
    split; [exact K|exact (embargo_caps_embargoed _ _ _ _ _ _ _ _ _ _ _ Ee)].
Qed.

Lemma return_resolved_kept : forall q s2 parsed tor sr rel pre, return_resolved q s2 parsed tor sr rel pre ->
  exists hs, kept_of sr = kept_of (set_handles hs s2).
Proof.
  intros q s2 parsed tor sr rel pre [h kc tab _ _ -> _ _|h _ _ -> _ _|kc tab _ _ -> _ _|_ _ -> _ _];
    try (eexists; reflexivity); try (exists (s_handles s2); reflexivity).
  exists (replace_nth (Z.to_nat h) (HCap (ret_cap kc tab)) (s_handles s2)). unfold set_handle.
  exact (f_equal (fun r => mkKept (kp_shut r) (kp_boot r) (kp_qs r) (kp_qgen r) (kp_ans r) (kp_exp r) (kp_egen r) (kp_emb r)
    (kp_mgen r) (kp_queue r) (replace_nth (Z.to_nat h) (HCap (ret_cap kc tab)) (kp_handles r)) (kp_ndeliv r) (kp_ncall r) (kp_allocs r) (kp_busy r)
    (kp_lcalls r) (kp_ecalls r) (kp_sent r) (kp_rel r) (kp_out r)) (addref_kept (ret_cap kc tab) s2)).
Qed.
