(* Proofs for C06 delivery_order (observers of RpcOrderSpec.v over the machine of Rpc.v). *)
From CV Require Import Rpc.Rpc Rpc.RpcSpec Rpc.RpcProofs Rpc.RpcInv Rpc.RpcResp Rpc.RpcLocal Rpc.RpcHist Rpc.RpcQids Rpc.RpcOrderSpec.
From Coq Require Import ZifyBool.
Open Scope Z_scope.

(* outputs without deliveries *)
Definition nod (o : list output) : Prop := delivs o = [].
Lemma delivs_app : forall a b, delivs (a ++ b) = delivs a ++ delivs b.
Proof. intros. apply flat_map_app. Qed.
Lemma nod_app : forall a b, nod a -> nod b -> nod (a ++ b).
Proof. unfold nod. intros a b Ha Hb. rewrite delivs_app, Ha, Hb. reflexivity. Qed.
Lemma nod_nil : nod []. Proof. reflexivity. Qed.
Lemma nod_reply : forall o, Forall is_reply o -> nod o.
Proof. intros o H. induction H as [|x o Hx _ IH]; [reflexivity|]. destruct x; try contradiction Hx; exact IH. Qed.

Lemma send_exception_q : forall id a s s1 o ab, send_exception cfg_fixed id a s = Ok (s1, o, ab) ->
  s_queue s1 = zremove id (s_queue s) /\
  (forall a1, aget id (s_ans s1) = Some a1 -> a_st a1 = AIdle) /\
  (forall b, b <> id -> aget b (s_ans s1) = aget b (s_ans s)).
Proof.
  intros id a s s1 o ab H. unfold send_exception in H. destruct (a_fin a).
  - unbind H as [[sx ox] ex] eqn:E. injection H as <- _ _. destruct (destroy_inv _ _ _ _ _ _ _ E) as (s2 & X & [K _]).
    pose proof (eq_trans (f_equal kp_ans K) (f_equal kp_ans X)) as A. cbn [kp_ans kept_of xkept xkept_of s_ans set_ans zremove_q set_queue] in A.
    split; [exact (eq_trans (f_equal kp_queue K) (f_equal kp_queue X))|]. rewrite A. split.
    + intros a1 Ha. rewrite aget_adel, Z.eqb_refl in Ha. discriminate.
    + intros b Hb. rewrite aget_adel. destruct (b =? id) eqn:Eb; [lia|reflexivity].
  - injection H as <- _ _. unfold zremove_q, set_ans, set_queue. cbn [s_ans s_queue]. split; [reflexivity|]. split.
    + intros a1 Ha. rewrite aget_aput, Z.eqb_refl in Ha. inversion Ha; subst. reflexivity.
    + intros b Hb. rewrite aget_aput. destruct (b =? id) eqn:Eb; [lia|reflexivity].
Qed.

Lemma reject_settled : forall id a s s1 o ab, reject cfg_fixed id a s = Ok (s1, o, ab) -> settled id s s1 o.
Proof.
  intros id a s s1 o ab H. destruct (reject_sends _ _ _ _ _ _ _ H) as [K N]. unfold reject in H.
  unbind H as [sx ox] eqn:E1. unbind H as [[sy oy] ey] eqn:E2. injection H as <- _ _.
  destruct (release_caps_refs _ _ _ _ _ E1) as [K1 _]. destruct (send_exception_q _ _ _ _ _ _ E2) as (Q1 & Q2 & Q3).
  split; [exact (nod_reply _ N)|]. split; [exact (f_equal kp_ndeliv K)|]. split; [rewrite Q1, (f_equal kp_queue K1 : s_queue sx = s_queue s); reflexivity|]. split; [exact Q2|].
  intros b Hb. rewrite (Q3 b Hb), (f_equal kp_ans K1 : s_ans sx = s_ans s). reflexivity.
Qed.

Lemma deliver_tri : forall id a t s s1 o ab, deliver cfg_fixed id a t s = Ok (s1, o, ab) ->
  (exists j, t = DLocal j /\ delivered id j (a_tag a) s s1 o) \/ settled id s s1 o.
Proof.
  intros id a t s s1 o ab H. unfold deliver in H. destruct t as [j| |]; try discriminate; try (right; eapply reject_settled; eauto; fail).
  destruct (a_mok a); [|right; eapply reject_settled; eauto].
  left. exists j. split; [reflexivity|]. injection H as <- <- _. unfold delivered, running_as, others_same, zremove_q, set_ans, set_queue, set_ndeliv.
  cbn [s_ans s_queue s_ndeliv]. split; [reflexivity|]. split; [reflexivity|]. split; [reflexivity|]. split.
  - eexists. rewrite aget_aput, Z.eqb_refl. split; [reflexivity|]. split; reflexivity.
  - intros b Hb. rewrite aget_aput. destruct (b =? id) eqn:Eb; [lia|reflexivity].
Qed.

Lemma settled_dropped : forall id s s1 o, settled id s s1 o -> dropped id s s1 o.
Proof.
  intros id s s1 o (A & B & C & D & E). split; [exact A|]. split; [exact B|]. split; [right; exact C|]. split; [|exact E].
  intros a1 Ha. left. apply D. exact Ha.
Qed.

(* every incoming Call: delivered in its own handler as the next delivery, or appended to the END of
   the answer queue (only when its target is an answer without results), or never delivered *)
Lemma call_sync : forall id tg params tc mok tag s s1 o ab,
  handle_call cfg_fixed id tg params tc mok tag s = Ok (s1, o, ab) ->
  (exists j, delivered id j tag s s1 o /\ tgt_returned tg s) \/
  (exists t x, parse_target tg = Some (PAns t x) /\ enqueued id t x tag s s1 o) \/
  dropped id s s1 o.
Proof.
  intros id tg params tc mok tag s s0 o0 ab H.
  assert (SAME : forall o, delivs o = [] -> dropped id s s o).
  { intros o N. split; [exact N|]. split; [reflexivity|]. split; [left; reflexivity|]. split; [intros a1 Ha; right; exact Ha|intros b _; reflexivity]. }
  destruct tc; [|injection H as <- <- _; right; right; apply SAME; reflexivity].
  destruct (handle_call_cases _ _ _ _ _ _ _ H) as [a _ E|s1 tor Eid K _ E|s1 tab pt (Eid & K & PT & _) _ E
    |s1 tab e x w (Eid & K & PT & _) _ E|s1 tab t x ta (Eid & K & PT & _) _ Eta Ef Er _ E
    |s1 tab t x ta (Eid & K & PT & _) _ Eta Ef Er _ E|s1 tab t x ta (Eid & K & PT & _) _ Eta Ef Er _ E
    |s1 tab t x ta _ _ _ _ E]; try discriminate E.
  1: injection E as <- <- _; right; right; apply SAME; reflexivity.
  (* everything below starts from s1, which has the answers, queue and delivery counter of s *)
  all: pose proof (f_equal kp_ans K) as A1; pose proof (f_equal kp_queue K) as Q1; pose proof (f_equal kp_ndeliv K) as N1;
    cbn [kp_ans kp_queue kp_ndeliv kept_of] in A1, Q1, N1.
  all: assert (LS : forall o, settled id s1 s0 o -> dropped id s s0 o) by
    (intros o (a & b & c & d & f); apply settled_dropped; split; [exact a|]; split; [congruence|]; split; [congruence|]; split; [exact d|];
     intros b' Hb; rewrite (f b' Hb), A1; reflexivity).
  all: assert (LD : forall j o, delivered id j tag s1 s0 o -> delivered id j tag s s0 o) by
    (intros j o (a & b & c & d & f); split; [congruence|]; split; [congruence|]; split; [congruence|]; split; [rewrite <- N1; exact d|];
     intros b' Hb; rewrite (f b' Hb), A1; reflexivity).
  - unbind E as [[s2 o2] b2] eqn:E2. unbind E as [s3 o3] eqn:E3. injection E as <- <- _.
    destruct (release_caps_refs _ _ _ _ _ E3) as [K3 N3]. destruct (send_exception_sends _ _ _ _ _ _ _ E2) as [K2 N2].
    destruct (send_exception_q _ _ _ _ _ _ E2) as (q1 & q2 & q3).
    right; right. apply LS. split; [apply nod_app; apply nod_reply; [exact N2|exact (reply_rel _ N3)]|].
    split; [exact (eq_trans (f_equal kp_ndeliv K3) (f_equal kp_ndeliv K2))|]. split; [rewrite (f_equal kp_queue K3 : s_queue s3 = s_queue s2); exact q1|]. split.
    + intros a1 Ha. rewrite (f_equal kp_ans K3 : s_ans s3 = s_ans s2) in Ha. apply q2. exact Ha.
    + intros b Hb. rewrite (f_equal kp_ans K3 : s_ans s3 = s_ans s2). apply q3. exact Hb.
  - unbind E as [s2 o2] eqn:E2. injection E as <- <- _. destruct (release_caps_refs _ _ _ _ _ E2) as [K2 N2].
    pose proof (f_equal kp_ans K2) as A2. pose proof (f_equal kp_queue K2) as Q2. pose proof (f_equal kp_ndeliv K2) as D2.
    cbn [kp_ans kp_queue kp_ndeliv kept_of s_ans s_queue s_ndeliv set_ans] in A2, Q2, D2.
    right; right. split; [exact (nod_reply _ (reply_rel _ N2))|]. split; [congruence|]. split; [left; congruence|]. split.
    + intros a1 Ha. rewrite A2, aget_aput, Z.eqb_refl in Ha. inversion Ha; subst. left. reflexivity.
    + intros b Hb. rewrite A2, aget_aput, A1. destruct (b =? id) eqn:Eb; [lia|reflexivity].
  - destruct (deliver_tri _ _ _ _ _ _ _ E) as [(j & _ & D)|S]; [|right; right; apply LS; exact S].
    left. exists j. split; [apply LD; exact D|]. unfold tgt_returned. rewrite PT. exact I.
  - right; right. apply LS. eapply reject_settled; eauto.
  - destruct (deliver_tri _ _ _ _ _ _ _ E) as [(j & _ & D)|S]; [|right; right; apply LS; exact S].
    left. exists j. split; [apply LD; exact D|]. unfold tgt_returned. rewrite PT. exists ta. rewrite <- A1. split; assumption.
  - right; left. exists t, x. split; [exact PT|]. injection E as <- <- _.
    unfold enqueued, queued_as, others_same, set_queue, set_ans. cbn [s_ans s_queue s_ndeliv].
    split; [reflexivity|]. split; [exact N1|]. split; [rewrite Q1; reflexivity|]. split.
    + eexists. rewrite aget_aput, Z.eqb_refl. split; [reflexivity|]. split; reflexivity.
    + split; [exists ta; rewrite <- A1; repeat split; assumption|].
      intros b Hb. rewrite aget_aput, A1. destruct (b =? id) eqn:Eb; [lia|reflexivity].
Qed.

(* embargo: held calls are let through in issue order *)
Lemma held_app : forall e a b, held e (a ++ b) = held e a ++ held e b.
Proof. intros. unfold held. rewrite filter_app, map_app. reflexivity. Qed.

Lemma wake_calls_order : forall e j l s,
  delivs (snd (wake_calls e (CLocal j) l s)) = number j (s_ndeliv s) (held e l) /\
  s_ndeliv (fst (wake_calls e (CLocal j) l s)) = s_ndeliv s + Z.of_nat (length (held e l)) /\
  s_ecalls (fst (wake_calls e (CLocal j) l s)) = s_ecalls s /\
  s_queue (fst (wake_calls e (CLocal j) l s)) = s_queue s /\ s_ans (fst (wake_calls e (CLocal j) l s)) = s_ans s.
Proof.
  induction l as [|[[e' n] tag] l IH]; intros s.
  - simpl. repeat split; lia.
  - cbn [wake_calls]. unfold held. cbn [filter fst snd]. destruct (e' =? e) eqn:E.
    + match goal with |- context [wake_calls e (CLocal j) l ?sx] => specialize (IH sx); destruct (wake_calls e (CLocal j) l sx) as [s2 o2] end.
      cbn [fst snd map number length] in *. destruct IH as (I1 & I2 & I3 & I4 & I5).
      unfold set_ndeliv, set_lcalls in *. cbn [s_ndeliv s_ecalls s_queue s_ans] in *.
      split; [unfold delivs in *; cbn [flat_map deliv_of app]; f_equal; exact I1|]. split; [fold (held e l) in *; lia|]. repeat split; assumption.
    + apply IH.
Qed.

Lemma held_filter_out : forall e l, held e (filter (fun p => negb (fst (fst p) =? e)) l) = [].
Proof.
  intros e l. unfold held. induction l as [|p l IH]; simpl; [reflexivity|].
  destruct (fst (fst p) =? e) eqn:E; simpl; [exact IH|]. rewrite E. exact IH.
Qed.
Lemma held_filter_other : forall e e' l, e' <> e -> held e' (filter (fun p => negb (fst (fst p) =? e)) l) = held e' l.
Proof.
  intros e e' l Hne. unfold held. induction l as [|p l IH]; simpl; [reflexivity|].
  destruct (fst (fst p) =? e) eqn:E; simpl.
  - destruct (fst (fst p) =? e') eqn:E'; [lia|exact IH].
  - destruct (fst (fst p) =? e') eqn:E'; simpl; [f_equal|]; exact IH.
Qed.

(* the Disembargo comes back for embargo e on local server j: exactly the calls held behind e are
   delivered, oldest first, as the next deliveries; nothing stays behind e; other embargoes keep theirs *)
Lemma disembargo_order : forall tg e em j s s1 o ab,
  handle_disembargo cfg_fixed tg (DxReceiver e) s = Ok (s1, o, ab) -> parse_target tg <> None ->
  tget e (s_emb s) = Some em -> e_cap em = CLocal j ->
  delivs o = number j (s_ndeliv s) (held e (s_ecalls s)) /\
  s_ndeliv s1 = s_ndeliv s + Z.of_nat (length (held e (s_ecalls s))) /\
  held e (s_ecalls s1) = [] /\ (forall e', e' <> e -> held e' (s_ecalls s1) = held e' (s_ecalls s)) /\
  s_queue s1 = s_queue s /\ s_ans s1 = s_ans s.
Proof.
  intros tg e em j s s1 o ab H Hp He Hc. unfold handle_disembargo in H.
  destruct (parse_target tg); [|contradiction]. rewrite He in H. unfold lift in H.
  cbn [fx22 cfg_fixed negb] in H. rewrite andb_false_r in H. rewrite Hc in H.
  match type of H with context [wake_calls e (CLocal j) ?l ?sx] =>
    pose proof (wake_calls_order e j l sx) as W; destruct (wake_calls e (CLocal j) l sx) as [s2 o2] end.
  cbn [bind fst snd] in H, W. injection H as <- <- _. destruct W as (W1 & W2 & W3 & W4 & W5).
  cbn [lref_cap lref set_lrefs set_handles set_mgen set_emb set_ecalls s_ndeliv s_ecalls s_queue s_ans] in W1, W2, W3, W4, W5 |- *.
  split; [exact W1|]. split; [exact W2|]. split; [apply held_filter_out|]. split; [|split; assumption].
  intros e' Hne. rewrite W3. apply held_filter_other. exact Hne.
Qed.

(* outgoing side: a local call is written / delivered / held in its own handler *)
Lemma app_pipe_out : forall c q0 x caps s s1 o ab, app_pipe c q0 x caps s = Ok (s1, o, ab) ->
  (exists id ds, o = [OCall id (OTAns q0 x) ds]) \/ (exists cls, o = [LAppRes (s_ncall s) cls]).
Proof.
  intros c q0 x caps s s1 o ab H. unfold app_pipe, next_call in H.
  match type of H with context [s_shut ?sx] => destruct (s_shut sx) end; [inversion H; right; eexists; reflexivity|].
  match type of H with context [tget q0 ?t] => destruct (tget q0 t) as [q|] end; [|inversion H; right; eexists; reflexivity].
  destruct (q_fin q); [inversion H; right; eexists; reflexivity|].
  unbind H as [s2 id] eqn:Eq2.
  unbind H as [[s3 ds] refs] eqn:Eq3.
  inversion H; subst. left. eexists _, _. reflexivity.
Qed.

Lemma app_call_out : forall c h caps tag s s1 o ab, app_call c h caps tag s = Ok (s1, o, ab) ->
  match hget h s with
  | HBoot q0 => (exists id ds, o = [OCall id (OTAns q0 []) ds]) \/ (exists cls, o = [LAppRes (s_ncall s) cls])
  | HCap (CImp i g) => (exists id ds, o = [OCall id (OTImp i) ds]) \/ o = [LAppRes (s_ncall s) 3]
  | HCap (CLocal j) => o = [LDeliver j tag (s_ndeliv s)] /\ s_ndeliv s1 = s_ndeliv s + 1 /\ s_ecalls s1 = s_ecalls s
  | HCap (CEmb e) => o = [] /\ s_ecalls s1 = s_ecalls s ++ [(e, s_ncall s, tag)] /\ s_ndeliv s1 = s_ndeliv s
  | _ => o = [LAppRes (s_ncall s) 1]
  end.
Proof.
  intros c h caps tag s s1 o ab H. unfold app_call in H. destruct (hget h s) as [q0|[| |j|i g|e]|].
  - eapply app_pipe_out; eauto.
  - unfold next_call in H. inversion H; reflexivity.
  - unfold next_call in H. inversion H; reflexivity.
  - unfold next_call in H. inversion H; subst. repeat split.
  - unfold next_call in H.
    match type of H with context [s_shut ?sx] => destruct (s_shut sx) end; [inversion H; right; reflexivity|].
    match type of H with context [imp_current i g ?sx] => destruct (imp_current i g sx) end; simpl negb in H; cbv iota in H; [|inversion H; right; reflexivity].
    unbind H as [s2 id] eqn:Eq2.
    unbind H as [[s3 ds] refs] eqn:Eq3.
    inversion H; subst. left. eexists _, _. reflexivity.
  - unfold next_call in H. inversion H; subst. repeat split.
  - unfold next_call in H. inversion H; reflexivity.
Qed.

(* a held call (PlaceArgs window): its Call is written by the step that ends the window, first *)
Lemma app_unhold_out : forall c n s s1 o ab, app_unhold c n s = Ok (s1, o, ab) ->
  o = [] \/ exists qid i rest, o = OCall qid (OTImp i) [] :: rest /\ ocalls rest = [] /\ delivs rest = [].
Proof.
  intros c n s s1 o ab H. unfold app_unhold in H.
  destruct (find_held n (s_qs s) 0) as [[qid q]|]; [|inversion H; left; reflexivity].
  destruct (q_held q) as [[[i g] cs]|]; [|inversion H; left; reflexivity].
  destruct (s_shut s); [inversion H; left; reflexivity|].
  match type of H with context [if ?b then _ else _] => destruct b end.
  - unbind H as [s3 o3] eqn:E3.
    inversion H; subst. right. exists qid, i, o3. split; [reflexivity|].
    unfold imp_shutdown in E3. cbn [s_shut set_dead set_busy set_qs] in E3.
    destruct (s_shut _); [inversion E3; split; reflexivity|]. destruct (aget i _) as [e|].
    + destruct (i_gen e =? g); inversion E3; split; reflexivity.
    + destruct (fx20 c); inversion E3; split; reflexivity.
  - inversion H; subst. right. exists qid, i, []. repeat split.
Qed.

(* the answer queue is drained in queue order *)
Lemma sublist_in : forall A (l1 l : list A) x, sublist l1 l -> In x l1 -> In x l.
Proof. intros A l1 l x H. induction H; intros Hi; simpl in *; [exact Hi|right; auto|destruct Hi; [left; assumption|right; auto]]. Qed.

Lemma drain_order : forall r k rct lst ids s s1 o ab, drain cfg_fixed r k rct lst ids s = Ok (s1, o, ab) -> NoDup ids ->
  exists dl, sublist dl ids /\ map (fun d => snd (fst d)) (delivs o) = map (tagz (s_ans s)) dl /\
             map snd (delivs o) = seqZ (s_ndeliv s) (length dl) /\
             s_ndeliv s1 = s_ndeliv s + Z.of_nat (length dl) /\
             (forall b, ~ In b ids -> aget b (s_ans s1) = aget b (s_ans s)).
Proof.
  induction ids as [|id ids IH]; intros s s1 o ab H N; simpl in H.
  - inversion H; subst. exists []. simpl. split; [constructor|]. repeat split; lia.
  - unbind H as [[s' o'] b'] eqn:E.
    unbind H as [[s2 o2] b2] eqn:E2. inversion H; subst.
    inversion N as [|? ? Hni N']; subst. destruct (IH _ _ _ _ E2 N') as (dl & S & T & K & C & F).
    assert (D : (exists j a, aget id (s_ans s) = Some a /\ delivered id j (a_tag a) s s' o') \/
                (delivs o' = [] /\ s_ndeliv s' = s_ndeliv s /\ others_same id s s')).
    { assert (NOOP : Ok (s, @nil output, false) = Ok (s', o', b') -> delivs o' = [] /\ s_ndeliv s' = s_ndeliv s /\ others_same id s s').
      { intros HH. inversion HH; subst. split; [reflexivity|]. split; [reflexivity|]. intros b _. reflexivity. }
      destruct (aget id (s_ans s)) as [a|] eqn:Ea; [|right; apply NOOP; exact E].
      assert (TRI : forall t, deliver cfg_fixed id a t s = Ok (s', o', b') ->
                (exists j a0, Some a = Some a0 /\ delivered id j (a_tag a0) s s' o') \/ (delivs o' = [] /\ s_ndeliv s' = s_ndeliv s /\ others_same id s s')).
      { intros t Ht. destruct (deliver_tri _ _ _ _ _ _ _ Ht) as [(j & _ & Dd)|(x1 & x2 & _ & _ & x5)];
          [left; exists j, a; split; [reflexivity|exact Dd]|right; repeat split; assumption]. }
      assert (REJ : reject cfg_fixed id a s = Ok (s', o', b') -> delivs o' = [] /\ s_ndeliv s' = s_ndeliv s /\ others_same id s s').
      { intros Hr. apply reject_settled in Hr. destruct Hr as (x1 & x2 & _ & _ & x5). repeat split; assumption. }
      destruct (a_st a) as [|srv|p x] eqn:Est; try (right; apply NOOP; exact E).
      unfold eff_parent in E. cbn [fx23 cfg_fixed orb] in E.
      destruct (p =? r); [apply (TRI _ E)|].
      destruct (aget p (s_ans s)) as [b|]; [|right; apply REJ; exact E].
      destruct (a_ready b); [destruct (a_err b); [right; apply REJ; exact E|apply (TRI _ E)]|].
      inversion E; subst. right. split; [reflexivity|]. split; [reflexivity|].
      intros b0 Hb. unfold set_ans. cbn [s_ans]. rewrite aget_aput. destruct (b0 =? id) eqn:Eb; [lia|reflexivity]. }
    assert (OS : others_same id s s') by (destruct D as [(j & a & _ & (_ & _ & _ & _ & d5))|(_ & _ & d5)]; exact d5).
    assert (TG : map (tagz (s_ans s')) dl = map (tagz (s_ans s)) dl).
    { apply map_ext_in. intros b Hb. unfold tagz. rewrite OS; [reflexivity|]. intros ->. apply Hni. eapply sublist_in; eauto. }
    assert (FF : forall b, ~ In b (id :: ids) -> aget b (s_ans s1) = aget b (s_ans s)).
    { intros b Hb. rewrite F by (intros Hi; apply Hb; right; exact Hi). apply OS. intros ->. apply Hb. left. reflexivity. }
    rewrite delivs_app, !map_app.
    destruct D as [(j & a & Ea & (d1 & d2 & _ & _ & _))|(d1 & d2 & _)].
    + exists (id :: dl). split; [constructor; exact S|]. rewrite d1. cbn [map fst snd app length seqZ]. unfold tagz at 1. rewrite Ea.
      split; [f_equal; rewrite T; exact TG|]. split; [f_equal; rewrite K, d2; reflexivity|]. split; [lia|exact FF].
    + exists dl. split; [apply sub_skip; exact S|]. rewrite d1. cbn [map app].
      split; [rewrite T; exact TG|]. split; [rewrite K, d2; reflexivity|]. split; [lia|exact FF].
Qed.

Lemma queued_under_sublist : forall ans q under, sublist (queued_under ans q under) q.
Proof.
  intros ans q. induction q as [|id q IH]; intros under; simpl; [constructor|].
  destruct (aget id ans) as [a|]; [|apply sub_skip; apply IH].
  destruct (a_st a); try (apply sub_skip; apply IH).
  destruct (zmem on under); [apply sub_keep|apply sub_skip]; apply IH.
Qed.

(* direct: a Call on an importedCap target is never queued *)
Lemma order_direct : forall id e params tc mok tag s s1 o ab,
  handle_call cfg_fixed id (TgImp e) params tc mok tag s = Ok (s1, o, ab) ->
  (exists j, delivered id j tag s s1 o) \/ dropped id s s1 o.
Proof.
  intros id e params tc mok tag s s1 o ab H.
  destruct (call_sync _ _ _ _ _ _ _ _ _ _ H) as [(j & D & _)|[(t & x & P & _)|D]]; [left; eauto|simpl in P; discriminate|right; exact D].
Qed.

(* pipelined on an answer that has returned: never queued *)
Lemma order_pipelined_returned : forall id tg t x ta params tc mok tag s s1 o ab,
  handle_call cfg_fixed id tg params tc mok tag s = Ok (s1, o, ab) ->
  parse_target tg = Some (PAns t x) -> aget t (s_ans s) = Some ta -> a_ready ta = true ->
  (exists j, delivered id j tag s s1 o) \/ dropped id s s1 o.
Proof.
  intros id tg t x ta params tc mok tag s s1 o ab H P Ea Er.
  destruct (call_sync _ _ _ _ _ _ _ _ _ _ H) as [(j & D & _)|[(t' & x' & P' & (_ & _ & _ & _ & (ta' & Ea' & Er' & _) & _))|D]]; [left; eauto| |right; exact D].
  rewrite P in P'. inversion P'; subst. rewrite Ea in Ea'. inversion Ea'; subst. congruence.
Qed.

(* pipelined on an answer that has NOT returned: never delivered by the Call's own handler -- it goes
   to the end of the answer queue (or is dropped); the queue is drained in queue order: [drain_order] *)
Lemma order_pipelined_pending : forall id tg t x ta params tc mok tag s s1 o ab,
  handle_call cfg_fixed id tg params tc mok tag s = Ok (s1, o, ab) ->
  parse_target tg = Some (PAns t x) -> aget t (s_ans s) = Some ta -> a_ready ta = false ->
  enqueued id t x tag s s1 o \/ dropped id s s1 o.
Proof.
  intros id tg t x ta params tc mok tag s s1 o ab H P Ea Er.
  destruct (call_sync _ _ _ _ _ _ _ _ _ _ H) as [(j & _ & R)|[(t' & x' & P' & Q)|D]]; [|left|right; exact D].
  - unfold tgt_returned in R. rewrite P in R. destruct R as (ta' & Ea' & Er'). rewrite Ea in Ea'. inversion Ea'; subst. congruence.
  - rewrite P in P'. inversion P'; subst. exact Q.
Qed.

(* not vacuous: Bootstrap; Call 1 on the bootstrap export (delivered, runs); Call 2 and 3 pipelined on
   answer 1 (queued in this order); the server returns: 2 then 3 are delivered *)
Definition h_order : list event :=
  [MBootstrap 0; MCall 1 (TgImp 0) (Some (mkPayload true false (KStruct []) (Some []))) true true 11;
   MCall 2 (TgAns 1 (Some [XField 0])) (Some (mkPayload true false (KStruct []) (Some []))) true true 22;
   MCall 3 (TgAns 1 (Some [XField 0])) (Some (mkPayload true false (KStruct []) (Some []))) true true 33;
   AReturn 0 (ARResults [FLocal 1])].
Example order_reached :
  match run_o (init true) (firstn 4 h_order) [] with
  | Ok (s, out) => s_queue s = [2; 3] /\ delivs out = [(0, 11, 0)]
  | _ => False
  end /\
  match run_o (init true) h_order [] with
  | Ok (s, out) => s_queue s = [] /\ delivs out = [(0, 11, 0); (1, 22, 1); (1, 33, 2)]
  | _ => False
  end.
Proof. vm_compute. repeat split. Qed.
