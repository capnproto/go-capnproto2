(* History-level C07 import_release.
   [s_recv] is a ghost counter: the descriptors (senderHosted / senderPromise) received per import
   id, bumped by addImport and nowhere else.  For every history, while the connection is up:
     (sum of the referenceCounts of all Release messages sent for id i) + wireRefs of i's entry
       = descriptors received for i,
   entries have wireRefs > 0, a Release is sent exactly when an entry is deleted and carries the
   entry's wireRefs, and an entry whose client has no local reference left is only there because a
   call is still in progress on it (its Shutdown runs when that call is through). *)
From CV Require Import Rpc.Rpc Rpc.RpcSpec Rpc.RpcProofs Rpc.RpcInv Rpc.RpcResp Rpc.RpcLocal Rpc.RpcHist Rpc.RpcQids.
From Coq Require Import ZifyBool.
Open Scope Z_scope.

Definition rl1 (i : Z) (o : output) : Z := match o with ORelease j n => if j =? i then n else 0 | _ => 0 end.
Fixpoint rlsum (i : Z) (o : list output) : Z := match o with [] => 0 | x :: r => rl1 i x + rlsum i r end.
Definition wire (i : Z) (m : list (Z * impent)) : Z := match aget i m with Some e => i_wire e | None => 0 end.
Definition ibal (i : Z) (s : state) : Z := wire i (s_imp s) - cget i (s_recv s).
Definition wpos (s : state) : Prop := forall i e, aget i (s_imp s) = Some e -> 0 < i_wire e.

(* a piece of a handler keeps the balance of every import id *)
Definition ib (s : state) (o : list output) (s1 : state) : Prop :=
  (forall i, rlsum i o + ibal i s1 = ibal i s) /\ (wpos s -> wpos s1).

Lemma rlsum_app : forall i a b, rlsum i (a ++ b) = rlsum i a + rlsum i b.
Proof. intros i a b. induction a as [|x a IH]; simpl; [reflexivity|]. rewrite IH. lia. Qed.

Lemma ib_refl : forall s, ib s [] s.
Proof. intros s. split; [intros i; simpl; lia|auto]. Qed.
Lemma ib_trans : forall s o1 s1 o2 s2, ib s o1 s1 -> ib s1 o2 s2 -> ib s (o1 ++ o2) s2.
Proof. intros s o1 s1 o2 s2 [A1 B1] [A2 B2]. split; [intros i; rewrite rlsum_app; specialize (A1 i); specialize (A2 i); lia|auto]. Qed.

Definition norel (o : list output) : Prop := forall i, rlsum i o = 0.
(* nothing about imports changes *)
Lemma ib_same : forall s o s1, s_imp s1 = s_imp s -> s_recv s1 = s_recv s -> norel o -> ib s o s1.
Proof.
  intros s o s1 E1 E2 N. split.
  - intros i. rewrite (N i). unfold ibal. rewrite E1, E2. lia.
  - unfold wpos. rewrite E1. auto.
Qed.
Lemma ib_state : forall s s1, s_imp s1 = s_imp s -> s_recv s1 = s_recv s -> ib s [] s1.
Proof. intros s s1 E1 E2. apply ib_same; [exact E1|exact E2|intros i; reflexivity]. Qed.
Lemma ib_out : forall s o s1 o', ib s o s1 -> norel o' -> ib s (o ++ o') s1.
Proof. intros s o s1 o' H N. eapply ib_trans; [exact H|]. apply ib_same; auto. Qed.
(* a message that is no Release, in front *)
Lemma ib_cons : forall x s o s1, match x with ORelease _ _ => False | _ => True end -> ib s o s1 -> ib s (x :: o) s1.
Proof.
  intros x s o s1 Hx H. apply (ib_trans s [x] s o s1); [|exact H]. apply ib_same; try reflexivity.
  intros i. destruct x; try reflexivity. destruct Hx.
Qed.
Lemma ib_snoc : forall s o s1 s2, ib s o s1 -> ib s1 [] s2 -> ib s o s2.
Proof. intros s o s1 s2 A B. rewrite <- (app_nil_r o). eapply ib_trans; eauto. Qed.

Lemma wire_aput : forall i j e m, wire i (aput j e m) = if i =? j then i_wire e else wire i m.
Proof. intros. unfold wire. rewrite aget_aput. destruct (i =? j); reflexivity. Qed.
Lemma wire_adel : forall i j m, wire i (adel j m) = if i =? j then 0 else wire i m.
Proof. intros. unfold wire. rewrite aget_adel. destruct (i =? j); reflexivity. Qed.

(* an entry is rewritten with the same wireRefs *)
Lemma ib_refs : forall s i e e', aget i (s_imp s) = Some e -> i_wire e' = i_wire e -> ib s [] (set_imp (aput i e' (s_imp s)) s).
Proof.
  intros s i e e' E W. split.
  - intros j. simpl. unfold ibal. cbn [s_imp s_recv set_imp]. rewrite wire_aput. destruct (j =? i) eqn:Ej; [|lia].
    assert (j = i) by lia. subst j. unfold wire. rewrite E. lia.
  - intros P j e0 H. cbn [s_imp set_imp] in H. rewrite aget_aput in H. destruct (j =? i) eqn:Ej; [|eapply P; eauto].
    inversion H; subst. rewrite W. eapply P; eauto.
Qed.

Lemma ib_imp_shutdown : forall i g s s1 o, imp_shutdown cfg_fixed i g s = Ok (s1, o) -> ib s o s1.
Proof.
  intros i g s s1 o H. unfold imp_shutdown in H. destruct (s_shut s); [injection H as <- <-; apply ib_refl|].
  destruct (aget i (s_imp s)) as [e|] eqn:E; [|injection H as <- <-; apply ib_refl].
  destruct (i_gen e =? g); injection H as <- <-; [|apply ib_refl]. split.
  - intros j. simpl. unfold ibal. cbn [s_imp s_recv set_imp]. rewrite wire_adel. destruct (j =? i) eqn:Ej.
    + assert (j = i) by lia. subst j. rewrite Z.eqb_refl. unfold wire. rewrite E. lia.
    + replace (i =? j) with false by lia. lia.
  - intros P j e0 H0. cbn [s_imp set_imp] in H0. rewrite aget_adel in H0. destruct (j =? i); [discriminate|eapply P; eauto].
Qed.

Lemma ib_imp_release : forall i g s s1 o, imp_release cfg_fixed i g s = Ok (s1, o) -> ib s o s1.
Proof.
  intros i g s s1 o H. unfold imp_release in H. destruct (aget i (s_imp s)) as [e|] eqn:E; [|eapply ib_imp_shutdown; eauto].
  destruct ((i_gen e =? g) && (0 <? i_refs e)); [|eapply ib_imp_shutdown; eauto].
  cbn [i_refs] in H.
  pose proof (ib_refs s i e (mkImp (i_wire e) (i_gen e) (i_refs e - 1)) E eq_refl) as R.
  destruct (i_refs e - 1 =? 0); [|injection H as <- <-; exact R].
  destruct (busy_get i g (s_busy s) =? 0); [exact (ib_trans _ [] _ _ _ R (ib_imp_shutdown _ _ _ _ _ H))|].
  injection H as <- <-. exact R.
Qed.

Lemma ib_add_import : forall i s, ib s [] (fst (add_import cfg_fixed i s)).
Proof.
  intros i s. unfold add_import. cbn [fx20 cfg_fixed].
  assert (G : forall e' sx, s_imp sx = aput i e' (s_imp s) -> s_recv sx = s_recv s -> (wpos s -> 0 < i_wire e') ->
            i_wire e' = wire i (s_imp s) + 1 -> ib s [] (bump_recv i sx)).
  { intros e' sx E1 E2 Hp Hw. split.
    - intros j. simpl. unfold ibal, bump_recv. cbn [s_imp s_recv set_recv]. rewrite E1, E2, wire_aput, cget_cadd.
      destruct (j =? i) eqn:Ej; [|lia]. assert (j = i) by lia. subst j. lia.
    - intros P j e0 H. unfold bump_recv in H. cbn [s_imp set_recv] in H. rewrite E1, aget_aput in H.
      destruct (j =? i); [inversion H; subst; exact (Hp P)|eapply P; eauto]. }
  destruct (aget i (s_imp s)) as [e|] eqn:E.
  - assert (W : wire i (s_imp s) = i_wire e) by (unfold wire; rewrite E; reflexivity).
    destruct (0 <? i_refs e); cbn [fst]; (eapply G; [reflexivity|reflexivity| |cbn [i_wire]; lia]);
      intros P; cbn [i_wire]; pose proof (P _ _ E); lia.
  - assert (W : wire i (s_imp s) = 0) by (unfold wire; rewrite E; reflexivity).
    cbn [fst]. eapply G; [reflexivity|reflexivity|intros _; cbn [i_wire]; lia|cbn [i_wire]; lia].
Qed.

Lemma ib_addref : forall x s, ib s [] (addref_cap x s).
Proof.
  intros x s. destruct x; simpl; try apply ib_refl.
  - apply ib_state; reflexivity.
  - destruct (aget i (s_imp s)) as [e|] eqn:E; [|apply ib_refl]. destruct (_ && _); [|apply ib_refl].
    eapply ib_refs; [exact E|reflexivity].
  - destruct (tget e (s_emb s)) as [em|]; [|apply ib_refl]. destruct (0 <? e_refs em); [apply ib_state; reflexivity|apply ib_refl].
Qed.

(* everything else passes the balance on *)
Lemma ib_release_cap : forall x s s1 o, release_cap cfg_fixed x s = Ok (s1, o) -> ib s o s1.
Proof.
  intros x s s1 o H. destruct x; simpl in H; try (injection H as <- <-; apply ib_state; reflexivity).
  - eapply ib_imp_release; eauto.
  - injection H as <- <-. unfold emb_release. destruct (tget e (s_emb s)) as [em|]; [|apply ib_refl]. destruct (0 <? e_refs em); [|apply ib_refl].
    destruct (_ && _ && _); [destruct (e_cap em)|]; apply ib_state; reflexivity.
Qed.

Lemma ib_release_caps : forall l s s1 o, release_caps cfg_fixed l s = Ok (s1, o) -> ib s o s1.
Proof.
  induction l as [|x l IH]; intros s s1 o H; simpl in H; [injection H as <- <-; apply ib_refl|].
  unbind H as [sa oa] eqn:Ea. unbind H as [sb ob] eqn:Eb. injection H as <- <-.
  eapply ib_trans; [eapply ib_release_cap; eauto|eapply IH; eauto].
Qed.

Lemma ib_wake_calls : forall e x l s, ib s (snd (wake_calls e x l s)) (fst (wake_calls e x l s)).
Proof.
  induction l as [|[[e' n] tag] l IH]; intros s; simpl; [apply ib_refl|].
  destruct (e' =? e); [|apply IH].
  destruct x; try (specialize (IH s); destruct (wake_calls e _ l s) as [s2 o2]; exact (ib_cons (LAppRes n 1) _ _ _ I IH)).
  match goal with |- context [wake_calls e ?x l ?s1] => specialize (IH s1); destruct (wake_calls e x l s1) as [s2 o2] end.
  apply ib_cons; [exact I|]. exact (ib_trans s [] _ _ _ (ib_state _ _ eq_refl eq_refl) IH).
Qed.

Lemma ib_lift : forall e em s s1 o, lift cfg_fixed e em s = Ok (s1, o) -> ib s o s1.
Proof.
  intros e em s s1 o H. unfold lift in H. cbn [fx22 cfg_fixed negb] in H. rewrite andb_false_r in H. cbv iota in H.
  match type of H with context [wake_calls e ?x ?l ?s1] => set (sb := s1) in * end.
  pose proof (ib_wake_calls e (e_cap em) (s_ecalls sb) sb) as W.
  destruct (wake_calls e (e_cap em) (s_ecalls sb) sb) as [s2 o2]. injection H as <- <-.
  apply (ib_snoc _ _ s2); [|apply ib_state; reflexivity]. apply (ib_trans s [] sb); [|exact W].
  unfold sb. destruct (e_cap em); apply ib_state; reflexivity.
Qed.

Lemma ib_recv_caps : forall ds s tab loc, match recv_caps cfg_fixed ds s tab loc with RPOk s1 _ _ | RPErr s1 _ => ib s [] s1 end.
Proof.
  induction ds as [|d ds IH]; intros s tab loc; simpl; [apply ib_refl|].
  assert (T : forall sa, ib s [] sa -> forall tab' loc', match recv_caps cfg_fixed ds sa tab' loc' with RPOk s1 _ _ | RPErr s1 _ => ib s [] s1 end).
  { intros sa A tab' loc'. specialize (IH sa tab' loc'). destruct (recv_caps cfg_fixed ds sa tab' loc'); exact (ib_trans s [] sa [] _ A IH). }
  destruct d; try apply IH.
  - pose proof (ib_add_import i s) as A. destruct (add_import cfg_fixed i s) as [s1 x]. apply T. exact A.
  - pose proof (ib_add_import i s) as A. destruct (add_import cfg_fixed i s) as [s1 x]. apply T. exact A.
  - destruct (tget i (s_exp s)) as [[x w]|]; [|apply ib_refl]. apply T. apply ib_addref.
Qed.

Lemma ib_recv_payload : forall p s, match recv_payload cfg_fixed p s with PLOk s1 _ _ _ | PLErr s1 _ => ib s [] s1 end.
Proof.
  intros p s. unfold recv_payload. destruct (negb (p_valid p)); [apply ib_refl|]. destruct (p_cerr p); [apply ib_refl|].
  destruct (p_caps p) as [ds|]; [|apply ib_refl]. pose proof (ib_recv_caps ds s [] []) as H.
  destruct (recv_caps cfg_fixed ds s [] []); exact H.
Qed.

Lemma ib_send_cap : forall x s s1 d oe, send_cap cfg_fixed x s = Ok (s1, d, oe) -> ib s [] s1.
Proof.
  intros x s s1 d oe H.
  destruct (send_cap_cases cfg_fixed x s) as [(d0 & _ & E)|[(id & w & _ & E)|[_ E]]]; rewrite E in H; clear E.
  - injection H as <- _ _. apply ib_refl.
  - injection H as <- _ _. apply ib_state; reflexivity.
  - unbind H as [id g] eqn:E1. unbind H as t eqn:E2. injection H as <- _ _.
    exact (ib_trans s [] _ [] _ (ib_addref x s) (ib_state _ _ eq_refl eq_refl)).
Qed.

Lemma ib_fill_caps : forall l s s1 ds refs, fill_caps cfg_fixed l s = Ok (s1, ds, refs) -> ib s [] s1.
Proof.
  induction l as [|x l IH]; intros s s1 ds refs H; simpl in H; [injection H as <- _ _; apply ib_refl|].
  unbind H as [[sa d] oe] eqn:Ea. unbind H as [[sb ds'] refs'] eqn:Eb. injection H as <- _ _.
  exact (ib_trans s [] sa [] sb (ib_send_cap _ _ _ _ _ Ea) (IH _ _ _ _ Eb)).
Qed.

Lemma ib_release_export : forall id n s, ib s [] (fst (fst (release_export id n s))).
Proof.
  intros id n s. unfold release_export. destruct (tget id (s_exp s)) as [[x w]|]; [|apply ib_refl].
  destruct (n =? w); [apply ib_state; reflexivity|]. destruct (w <? n); [apply ib_refl|apply ib_state; reflexivity].
Qed.

Lemma ib_release_exports : forall refs s, ib s [] (fst (fst (release_exports refs s))).
Proof.
  induction refs as [|[i n] refs IH]; intros s; simpl; [apply ib_refl|].
  pose proof (ib_release_export i n s) as F1. destruct (release_export i n s) as [[sa oc] ea].
  specialize (IH sa). destruct (release_exports refs sa) as [[sb clb] eb]. exact (ib_trans s [] sa [] sb F1 IH).
Qed.

Lemma ib_destroy : forall id a s s1 o err, destroy cfg_fixed id a s = Ok (s1, o, err) -> ib s o s1.
Proof.
  intros id a s s1 o err H. unfold destroy in H. set (sa := set_ans (adel id (s_ans s)) s) in *.
  assert (A : ib s [] sa) by (apply ib_state; reflexivity).
  destruct (a_rrc a && negb match a_xrefs a with [] => true | _ :: _ => false end).
  - pose proof (ib_release_exports (a_xrefs a) sa) as F. destruct (release_exports (a_xrefs a) sa) as [[sx cl] e2].
    unbind H as [s3 o3] eqn:E3. injection H as <- <- _.
    exact (ib_trans s [] sx _ _ (ib_trans s [] sa [] sx A F) (ib_release_caps _ _ _ _ E3)).
  - unbind H as [s3 o3] eqn:E3. injection H as <- <- _. exact (ib_trans s [] sa _ _ A (ib_release_caps _ _ _ _ E3)).
Qed.

(* the Return itself, sent unless the connection is down *)
Lemma ib_reply : forall (b : bool) x s o s1, match x with ORelease _ _ => False | _ => True end -> ib s o s1 -> ib s ((if b then [] else [x]) ++ o) s1.
Proof. intros b x s o s1 Hx H. destruct b; [exact H|exact (ib_cons _ _ _ _ Hx H)]. Qed.

Lemma ib_send_exception : forall id a s s1 o ab, send_exception cfg_fixed id a s = Ok (s1, o, ab) -> ib s o s1.
Proof.
  intros id a s s1 o ab H. unfold send_exception in H. destruct (a_fin a).
  - unbind H as [[s2 o2] e2] eqn:E. injection H as <- <- _. apply ib_reply; [exact I|]. exact (ib_destroy _ _ _ _ _ _ E).
  - injection H as <- <- _. destruct (s_shut s); [|apply ib_cons; [exact I|]]; apply ib_state; reflexivity.
Qed.

Lemma ib_send_return : forall id a k rct s s1 o ab, send_return cfg_fixed id a k rct s = Ok (s1, o, ab) -> ib s o s1.
Proof.
  intros id a k rct s s1 o ab H. unfold send_return in H. unbind H as [[s0 ds] refs] eqn:E0. apply ib_fill_caps in E0.
  destruct (a_fin a).
  - unbind H as [[s2 o2] e2] eqn:E. injection H as <- <- _. apply ib_reply; [exact I|].
    exact (ib_trans s [] s0 _ _ E0 (ib_destroy _ _ _ _ _ _ E)).
  - injection H as <- <- _. destruct (s_shut s); [|apply ib_cons; [exact I|]]; exact (ib_trans s [] s0 [] _ E0 (ib_state _ _ eq_refl eq_refl)).
Qed.

Lemma ib_reject : forall id a s s1 o ab, reject cfg_fixed id a s = Ok (s1, o, ab) -> ib s o s1.
Proof.
  intros id a s s1 o ab H. unfold reject in H. unbind H as [s0 o0] eqn:E0. unbind H as [[s2 o2] b2] eqn:E2. injection H as <- <- _.
  eapply ib_trans; [eapply ib_release_caps; eauto|eapply ib_send_exception; eauto].
Qed.

Lemma ib_deliver : forall id a t s s1 o ab, deliver cfg_fixed id a t s = Ok (s1, o, ab) -> ib s o s1.
Proof.
  intros id a t s s1 o ab H. unfold deliver in H.
  destruct t; [|eapply ib_reject; eauto|discriminate].
  destruct (a_mok a); [|eapply ib_reject; eauto]. injection H as <- <- _. apply ib_cons; [exact I|]. apply ib_state; reflexivity.
Qed.

Lemma ib_reject_all : forall ids s s1 o ab, reject_all cfg_fixed ids s = Ok (s1, o, ab) -> ib s o s1.
Proof.
  induction ids as [|id ids IH]; intros s s1 o ab H; simpl in H; [injection H as <- <- _; apply ib_refl|].
  destruct (aget id (s_ans s)) as [a|]; [|eapply IH; eauto].
  unbind H as [[s' o'] b'] eqn:E. unbind H as [[s2 o2] b2] eqn:E2. injection H as <- <- _.
  eapply ib_trans; [eapply ib_reject; eauto|eapply IH; eauto].
Qed.

Lemma ib_drain : forall r k rct lst ids s s1 o ab, drain cfg_fixed r k rct lst ids s = Ok (s1, o, ab) -> ib s o s1.
Proof.
  induction ids as [|id ids IH]; intros s s1 o ab H; simpl in H; [injection H as <- <- _; apply ib_refl|].
  unbind H as [[s' o'] b'] eqn:E. unbind H as [[s2 o2] b2] eqn:E2. injection H as <- <- _.
  eapply ib_trans; [|eapply IH; eauto].
  destruct (aget id (s_ans s)) as [a|]; [|injection E as <- <- _; apply ib_refl].
  destruct (a_st a); try (injection E as <- <- _; apply ib_refl).
  destruct (_ =? r); [eapply ib_deliver; eauto|].
  destruct (aget _ (s_ans s)) as [b|]; [|eapply ib_reject; eauto].
  destruct (a_ready b); [destruct (a_err b); [eapply ib_reject; eauto|eapply ib_deliver; eauto]|].
  injection E as <- <- _. apply ib_state; reflexivity.
Qed.

Lemma ib_embargo_caps : forall qid k called loc done tab s s1 tab1 o,
  embargo_caps cfg_fixed qid k called loc done tab s = Ok (s1, tab1, o) -> ib s o s1.
Proof.
  induction called as [|x called IH]; intros loc done tab s s1 tab1 o H; simpl in H.
  - injection H as <- _ <-. apply ib_refl.
  - destruct (transform_eval k x); try (eapply IH; eauto; fail).
    destruct (znth k0 tab) as [lc|]; [|eapply IH; eauto].
    destruct (znth k0 loc) as [[|]|]; try (eapply IH; eauto; fail).
    destruct (zmem k0 done); [eapply IH; eauto|].
    unbind H as [e g] eqn:E0. unbind H as t eqn:E1. unbind H as [[s2 tab2] o2] eqn:E2. injection H as <- _ <-.
    apply ib_cons; [exact I|]. exact (ib_trans s [] _ _ _ (ib_state _ _ eq_refl eq_refl) (IH _ _ _ _ _ _ _ E2)).
Qed.

Lemma ib_handle_bootstrap : forall id s s0 o0 ab, handle_bootstrap cfg_fixed id s = Ok (s0, o0, ab) -> ib s o0 s0.
Proof.
  intros id s s0 o0 ab H. unfold handle_bootstrap in H.
  destruct (aget id (s_ans s)); [injection H as <- <- _; apply ib_refl|].
  destruct (negb (s_boot s)); [eapply ib_send_exception; eauto|].
  unbind H as [[s1 o] err] eqn:E. destruct err; [discriminate|]. injection H as <- <- _.
  exact (ib_trans s [] _ _ _ (ib_state _ _ eq_refl eq_refl) (ib_send_return _ _ _ _ _ _ _ _ E)).
Qed.

Lemma ib_handle_finish : forall id rrc s s0 o0 ab, handle_finish cfg_fixed id rrc s = Ok (s0, o0, ab) -> ib s o0 s0.
Proof.
  intros id rrc s s0 o0 ab H. unfold handle_finish in H.
  destruct (aget id (s_ans s)) as [a|]; [|injection H as <- <- _; apply ib_refl].
  destruct (a_fin a); [injection H as <- <- _; apply ib_refl|].
  destruct (negb (a_ret a)); [injection H as <- <- _; apply ib_state; reflexivity|].
  eapply ib_destroy; eauto.
Qed.

Lemma ib_handle_release : forall id n s s0 o0 ab, handle_release cfg_fixed id n s = Ok (s0, o0, ab) -> ib s o0 s0.
Proof.
  intros id n s s0 o0 ab H. unfold handle_release in H.
  pose proof (ib_release_export id n s) as F. destruct (release_export id n s) as [[s1 oc] err]. cbn [fst] in F.
  destruct err; [injection H as <- <- _; apply ib_refl|].
  destruct oc as [x|]; [|injection H as <- <- _; exact F].
  unbind H as [s2 o] eqn:E. injection H as <- <- _. exact (ib_trans s [] s1 _ _ F (ib_release_cap _ _ _ _ E)).
Qed.

Lemma ib_handle_call : forall id tg params toCaller mok tag s s0 o0 ab,
  handle_call cfg_fixed id tg params toCaller mok tag s = Ok (s0, o0, ab) -> ib s o0 s0.
Proof.
  intros id tg params toCaller mok tag s s0 o0 ab H.
  destruct toCaller; [|injection H as <- <- _; apply ib_cons; [exact I|apply ib_refl]].
  destruct (handle_call_cases _ _ _ _ _ _ _ H) as [a _ E|s1 tab _ _ D E|s1 tab pt (_ & _ & _ & p & k & loc & _ & Er) _ E
    |s1 tab e x w (_ & _ & _ & p & k & loc & _ & Er) _ E|s1 tab t x ta (_ & _ & _ & p & k & loc & _ & Er) _ _ _ _ _ E
    |s1 tab t x ta (_ & _ & _ & p & k & loc & _ & Er) _ _ _ _ _ E|s1 tab t x ta (_ & _ & _ & p & k & loc & _ & Er) _ _ _ _ _ E
    |s1 tab t x ta _ _ _ _ E]; try discriminate E.
  1: injection E as <- <- _; apply ib_refl.
  (* the parameters are received first *)
  1: assert (C : ib s [] s1) by
       (destruct D as [(_ & -> & _)|(p & _ & [Er|(k & loc & Er & _)])]; [apply ib_refl|..]; pose proof (ib_recv_payload p s) as C; rewrite Er in C; exact C).
  2-6: pose proof (ib_recv_payload p s) as C; rewrite Er in C.
  all: apply (ib_trans s [] s1 _ _ C).
  - unbind E as [[s2 o2] b2] eqn:E2. unbind E as [s3 o3] eqn:E3. injection E as <- <- _.
    eapply ib_trans; [eapply ib_send_exception; eauto|eapply ib_release_caps; eauto].
  - unbind E as [s2 o2] eqn:E2. injection E as <- <- _.
    exact (ib_trans s1 [] _ _ _ (ib_state _ _ eq_refl eq_refl) (ib_release_caps _ _ _ _ E2)).
  - eapply ib_deliver; eauto.
  - eapply ib_reject; eauto.
  - eapply ib_deliver; eauto.
  - injection E as <- <- _. apply ib_state; reflexivity.
Qed.

Lemma ib_handle_disembargo : forall tg cx s s0 o0 ab, handle_disembargo cfg_fixed tg cx s = Ok (s0, o0, ab) -> ib s o0 s0.
Proof.
  intros tg cx s s0 o0 ab H. unfold handle_disembargo in H.
  destruct (parse_target tg); [|injection H as <- <- _; apply ib_refl].
  destruct cx as [i|e|]; [injection H as <- <- _; apply ib_refl| |injection H as <- <- _; apply ib_cons; [exact I|apply ib_refl]].
  destruct (tget e (s_emb s)) as [em|]; [|injection H as <- <- _; apply ib_refl].
  unbind H as [s1 o1] eqn:EL. injection H as <- <- _.
  exact (ib_trans s [] _ _ _ (ib_state _ _ eq_refl eq_refl) (ib_lift _ _ _ _ _ EL)).
Qed.

Lemma ib_handle_return : forall qid rpc k s s0 o0 ab, handle_return cfg_fixed qid rpc k s = Ok (s0, o0, ab) -> ib s o0 s0.
Proof.
  intros qid rpc k s s0 o0 ab H.
  assert (OPEN : forall q s1 pc, return_open qid q rpc s = (s1, pc) -> ib s [] s1).
  { intros q s1 pc Eo. unfold return_open in Eo. destruct rpc; [|injection Eo as <- _; apply ib_state; reflexivity].
    pose proof (ib_release_exports (q_prefs q) (set_qs (tclear qid (s_qs s)) s)) as F. destruct (release_exports _ _) as [[sx cl] e].
    injection Eo as <- _. exact (ib_trans s [] _ [] _ (ib_state _ _ eq_refl eq_refl) F). }
  destruct (handle_return_cases _ _ _ _ _ _ _ H) as [_ -> -> _|q s1 pc _ Eo _ E2 _|q s1 pc s2 parsed tor disemb sr rel pre s3 o3 s5 o5 _ Eo _ P RR E3 E5 -> -> _].
  - apply ib_refl.
  - exact (ib_trans s [] s1 _ _ (OPEN _ _ _ Eo) (ib_trans s1 [] _ _ _ (ib_state _ _ eq_refl eq_refl) (ib_release_caps _ _ _ _ E2))).
  - apply (ib_trans s [] s1 _ _ (OPEN _ _ _ Eo)).
    assert (A2 : ib s1 disemb s2).
    { destruct P as [_ -> _ _ ->|p _ Er _ ->|p sb kc tab loc tab3 _ Er Ee _ _]; [apply ib_refl|..];
        pose proof (ib_recv_payload p s1) as Cp; rewrite Er in Cp; [exact Cp|].
      exact (ib_trans s1 [] sb _ _ Cp (ib_embargo_caps _ _ _ _ _ _ _ _ _ _ Ee)). }
    apply (ib_trans s1 disemb s2 _ _ A2). apply ib_cons; [exact I|].
    apply (ib_trans s2 (pre ++ o3) s3); [|exact (ib_snoc _ _ _ _ (ib_release_caps _ _ _ _ E5) (ib_state _ _ eq_refl eq_refl))].
    destruct RR as [h kc tab _ _ -> _ ->|h _ _ -> _ ->|kc tab _ _ -> _ ->|_ _ -> _ ->]; pose proof (ib_release_caps _ _ _ _ E3) as A4.
    + exact (ib_trans s2 [] _ _ _ (ib_trans s2 [] _ [] _ (ib_addref _ _) (ib_state _ _ eq_refl eq_refl)) A4).
    + exact (ib_trans s2 [] _ _ _ (ib_state _ _ eq_refl eq_refl) A4).
    + apply ib_cons; [exact I|exact A4].
    + apply ib_cons; [exact I|exact A4].
Qed.

Lemma new_question_imp : forall q s s1 id, new_question q s = Ok (s1, id) -> ib s [] s1.
Proof.
  intros q s s1 id H. unfold new_question in H. unbind H as [i g] eqn:E1. unbind H as t eqn:E2. injection H as <- _. apply ib_state; reflexivity.
Qed.

Lemma ib_send_call : forall s1 n caps (mk : Z -> list desc -> output) s0 o0 ab, (forall id ds, match mk id ds with ORelease _ _ => False | _ => True end) ->
  (do '(s2, id) <- new_question (mkQ None n false [] [] None) s1;
   do '(s3, ds, refs) <- fill_caps cfg_fixed (map (acap_cap s2) caps) s2;
   let s4 := if fx19 cfg_fixed then set_qs (replace_nth (Z.to_nat id) (Some (mkQ None n false [] refs None)) (s_qs s3)) s3 else s3 in
   Ok (s4, [mk id ds], false)) = Ok (s0, o0, ab) -> ib s1 o0 s0.
Proof.
  intros s1 n caps mk s0 o0 ab Hmk H. unbind H as [s2 id] eqn:E. unbind H as [[s3 ds] refs] eqn:E3.
  cbn [fx19 cfg_fixed] in H. injection H as <- <- _. apply ib_cons; [apply Hmk|].
  exact (ib_trans s1 [] s2 [] _ (new_question_imp _ _ _ _ E) (ib_trans s2 [] s3 [] _ (ib_fill_caps _ _ _ _ _ E3) (ib_state _ _ eq_refl eq_refl))).
Qed.

Lemma ib_app_pipe : forall q0 x caps s s0 o0 ab, app_pipe cfg_fixed q0 x caps s = Ok (s0, o0, ab) -> ib s o0 s0.
Proof.
  intros q0 x caps s s0 o0 ab H. unfold app_pipe, next_call in H.
  set (sa := set_ncall (s_ncall s + 1) s) in *.
  assert (SIMPLE : forall c, Ok (sa, [LAppRes (s_ncall s) c], false) = Ok (s0, o0, ab) -> ib s o0 s0).
  { intros c E. injection E as <- <- _. apply ib_cons; [exact I|apply ib_state; reflexivity]. }
  destruct (s_shut sa); [apply (SIMPLE _ H)|].
  destruct (tget q0 (s_qs sa)) as [q|]; [|apply (SIMPLE _ H)].
  destruct (q_fin q); [apply (SIMPLE _ H)|].
  exact (ib_trans s [] _ _ _ (ib_state _ _ eq_refl eq_refl) (ib_send_call _ _ _ (fun id ds => OCall id (OTAns q0 x) ds) _ _ _ (fun _ _ => I) H)).
Qed.

Lemma ib_app_call : forall h caps tag s s0 o0 ab, app_call cfg_fixed h caps tag s = Ok (s0, o0, ab) -> ib s o0 s0.
Proof.
  intros h caps tag s s0 o0 ab H. unfold app_call in H.
  assert (SIMPLE : forall sx x, Ok (sx, [x], false) = Ok (s0, o0, ab) -> s_imp sx = s_imp s -> s_recv sx = s_recv s ->
            match x with ORelease _ _ => False | _ => True end -> ib s o0 s0).
  { intros sx x E E1 E2 Hx. injection E as <- <- _. apply ib_cons; [exact Hx|apply ib_state; assumption]. }
  destruct (hget h s) as [q0|x|]; [eapply ib_app_pipe; eauto| |exact (SIMPLE _ _ H eq_refl eq_refl I)].
  unfold next_call in H. set (sa := set_ncall (s_ncall s + 1) s) in *.
  destruct x; try exact (SIMPLE _ _ H eq_refl eq_refl I).
  - destruct (s_shut sa); [exact (SIMPLE _ _ H eq_refl eq_refl I)|].
    destruct (negb (imp_current i g sa)); [exact (SIMPLE _ _ H eq_refl eq_refl I)|].
    exact (ib_trans s [] _ _ _ (ib_state _ _ eq_refl eq_refl) (ib_send_call _ _ _ (fun id ds => OCall id (OTImp i) ds) _ _ _ (fun _ _ => I) H)).
  - injection H as <- <- _. apply ib_state; reflexivity.
Qed.

Lemma ib_app_hold : forall h s s0 o0 ab, app_hold cfg_fixed h s = Ok (s0, o0, ab) -> ib s o0 s0.
Proof.
  intros h s s0 o0 ab H. unfold app_hold, next_call in H.
  set (sa := set_ncall (s_ncall s + 1) s) in *.
  assert (SIMPLE : forall c, Ok (sa, [LAppRes (s_ncall s) c], false) = Ok (s0, o0, ab) -> ib s o0 s0).
  { intros c E. injection E as <- <- _. apply ib_cons; [exact I|apply ib_state; reflexivity]. }
  destruct (hget h sa) as [q0|x|]; try apply (SIMPLE _ H).
  destruct x; try apply (SIMPLE _ H).
  destruct (s_shut sa || _); [apply (SIMPLE _ H)|].
  unbind H as [s2 id] eqn:E. injection H as <- <- _.
  exact (ib_trans s [] sa [] _ (ib_state _ _ eq_refl eq_refl) (ib_trans sa [] s2 [] _ (new_question_imp _ _ _ _ E) (ib_state _ _ eq_refl eq_refl))).
Qed.

Lemma ib_app_unhold : forall n s s0 o0 ab, app_unhold cfg_fixed n s = Ok (s0, o0, ab) -> ib s o0 s0.
Proof.
  intros n s s0 o0 ab H. unfold app_unhold in H.
  destruct (find_held n (s_qs s) 0) as [[qid q]|]; [|injection H as <- <- _; apply ib_refl].
  destruct (q_held q) as [[[i g] cs]|]; [|injection H as <- <- _; apply ib_refl].
  destruct (s_shut s); [injection H as <- <- _; apply ib_refl|].
  match type of H with context [if ?c then _ else _] => destruct c end.
  - unbind H as [s3 o3] eqn:E3. injection H as <- <- _. apply ib_cons; [exact I|].
    exact (ib_trans s [] _ _ _ (ib_state _ _ eq_refl eq_refl) (ib_imp_shutdown _ _ _ _ _ E3)).
  - injection H as <- <- _. apply ib_cons; [exact I|apply ib_state; reflexivity].
Qed.

Lemma ib_app_cancel : forall qid s s0 o0 ab, app_cancel cfg_fixed qid s = Ok (s0, o0, ab) -> ib s o0 s0.
Proof.
  intros qid s s0 o0 ab H. unfold app_cancel in H.
  destruct (s_shut s); [injection H as <- <- _; apply ib_refl|].
  destruct (tget qid (s_qs s)) as [q|]; [|injection H as <- <- _; apply ib_refl].
  destruct (q_fin q || (q_call q <? 0) || _); [injection H as <- <- _; apply ib_refl|].
  unfold cancel_question in H. cbn [bind] in H. injection H as <- <- _. do 2 (apply ib_cons; [exact I|]). apply ib_state; reflexivity.
Qed.

Lemma ib_app_release : forall h s s0 o0 ab, app_release cfg_fixed h s = Ok (s0, o0, ab) -> ib s o0 s0.
Proof.
  intros h s s0 o0 ab H. unfold app_release in H.
  destruct (hget h s) as [qid|x|]; [| |injection H as <- <- _; apply ib_refl].
  - set (sa := set_handle h HGone s) in *.
    destruct (s_shut sa); [injection H as <- <- _; apply ib_state; reflexivity|].
    destruct (tget qid (s_qs sa)) as [q|]; [|injection H as <- <- _; apply ib_state; reflexivity].
    destruct (q_fin q); [injection H as <- <- _; apply ib_state; reflexivity|].
    unfold cancel_question in H. cbn [bind] in H. injection H as <- <- _. apply ib_cons; [exact I|apply ib_state; reflexivity].
  - unbind H as [s1 o] eqn:E. injection H as <- <- _.
    exact (ib_trans s [] _ _ _ (ib_state _ _ eq_refl eq_refl) (ib_release_cap _ _ _ _ E)).
Qed.

Lemma addrefs_local_imp : forall l s, ib s [] (addrefs_local l s).
Proof. induction l as [|[j|] l IH]; intros s; simpl; [apply ib_refl| |apply IH]. exact (ib_trans s [] _ [] _ (ib_state _ _ eq_refl eq_refl) (IH (lref 1 j s))). Qed.

Lemma ib_app_return : forall k r s s0 o0 ab, app_return cfg_fixed k r s = Ok (s0, o0, ab) -> ib s o0 s0.
Proof.
  intros k r s s0 o0 ab H.
  destruct (app_return_cases _ _ _ _ _ _ _ H) as [n _ _ -> -> _|_ _ -> -> _|id a s1 o1 s2 o2 b2 o3 b3 _ _ E1 E2 E3 -> _|id a kc rct s1 o1 s2 o2 b2 o3 b3 _ _ E1 E2 E3 -> _].
  - apply ib_cons; [exact I|apply ib_state; reflexivity].
  - apply ib_refl.
  - apply (ib_trans _ _ _ _ _ (ib_release_caps _ _ _ _ E1)). apply (ib_trans s1 [] _ _ _ (ib_state _ _ eq_refl eq_refl)).
    exact (ib_trans _ _ _ _ _ (ib_reject_all _ _ _ _ _ E2) (ib_send_exception _ _ _ _ _ _ E3)).
  - apply (ib_trans _ _ _ _ _ (ib_release_caps _ _ _ _ E1)).
    apply (ib_trans s1 [] _ _ _ (ib_trans s1 [] (ret_start id a s1) [] _ (ib_state _ _ eq_refl eq_refl) (addrefs_local_imp rct _))).
    exact (ib_trans _ _ _ _ _ (ib_drain _ _ _ _ _ _ _ _ _ E2) (ib_send_return _ _ _ _ _ _ _ _ E3)).
Qed.

Lemma ib_app_bootstrap : forall s s0 o0 ab, app_bootstrap cfg_fixed s = Ok (s0, o0, ab) -> ib s o0 s0.
Proof.
  intros s s0 o0 ab H. unfold app_bootstrap in H. destruct (s_shut s); [injection H as <- <- _; apply ib_state; reflexivity|].
  unbind H as [s1 id] eqn:E. injection H as <- <- _. apply ib_cons; [exact I|].
  exact (ib_trans s [] s1 [] _ (new_question_imp _ _ _ _ E) (ib_state _ _ eq_refl eq_refl)).
Qed.

Lemma ib_handler : forall e s s0 o0 ab, handler cfg_fixed e s = Ok (s0, o0, ab) -> ib s o0 s0.
Proof.
  intros e s s0 o0 ab H.
  destruct e; simpl in H; try (injection H as <- <- _; apply ib_refl || (apply ib_cons; [exact I|apply ib_refl])).
  - eapply ib_handle_bootstrap; eauto.
  - eapply ib_handle_call; eauto.
  - eapply ib_handle_return; eauto.
  - eapply ib_handle_finish; eauto.
  - eapply ib_handle_release; eauto.
  - eapply ib_handle_disembargo; eauto.
  - eapply ib_app_bootstrap; eauto.
  - eapply ib_app_call; eauto.
  - eapply ib_app_pipe; eauto.
  - eapply ib_app_return; eauto.
  - eapply ib_app_release; eauto.
  - eapply ib_app_cancel; eauto.
  - eapply ib_app_hold; eauto.
  - eapply ib_app_unhold; eauto.
Qed.

(* the invariant of a history with outbox [out]: Releases sent + wireRefs = descriptors received, per import id *)
Definition IR (s : state) (out : list output) : Prop :=
  (forall i, rlsum i out + wire i (s_imp s) = cget i (s_recv s)) /\ wpos s.
Definition irinv (s : state) (out : list output) : Prop := s_shut s = false -> IR s out.

Lemma IR_ib : forall s out o s1, IR s out -> ib s o s1 -> IR s1 (out ++ o).
Proof.
  intros s out o s1 [A P] [B Q]. split; [|auto]. intros i. rewrite rlsum_app. specialize (A i). specialize (B i). unfold ibal in B. lia.
Qed.

Lemma step_irinv : forall s e s1 o out, step_case s e s1 o -> irinv s out -> irinv s1 (out ++ o).
Proof.
  intros s e s1 o out C HQ Hs1. destruct (step_up _ _ _ _ C Hs1) as (s0 & L & H & _ & ->).
  exact (IR_ib s out o s0 (HQ (live_shut _ L)) (ib_handler _ _ _ _ _ H)).
Qed.

(* C07 import_release over histories: while the connection is up, for every import id i
     (sum of referenceCount over all Release messages sent for i) + wireRefs of i's entry (0 if none)
        = number of descriptors received for i          ([s_recv], bumped by addImport only),
   and every entry has wireRefs > 0.  So the references of an import id are given back exactly:
   never more than received, and all of them as soon as the entry is gone. *)
Theorem import_release : forall boot evs s out, work evs < LIM -> run_o (init boot) evs [] = Ok (s, out) -> s_shut s = false ->
  (forall i, rlsum i out + wire i (s_imp s) = cget i (s_recv s)) /\
  (forall i e, aget i (s_imp s) = Some e -> 0 < i_wire e) /\
  (forall i, aget i (s_imp s) = None -> rlsum i out = cget i (s_recv s)).
Proof.
  intros boot evs s out Hb H Hs.
  assert (I0 : irinv (init boot) []).
  { intros _. split; [intros i; reflexivity|intros i e Hi; discriminate]. }
  destruct (run_o_ind irinv (fun s W e s1 o out _ _ _ => step_irinv s e s1 o out) evs (init boot) 0 [] s out
              (sinv_init boot) I0 ltac:(lia) H) as [IRs _].
  destruct (IRs Hs) as [A P].
  split; [exact A|split; [exact P|]]. intros i Hn. specialize (A i). unfold wire in A. rewrite Hn in A. lia.
Qed.

(* the Release is sent by the step that drops the last local reference (no call in progress on the
   client): the entry goes and the message carries its wireRefs *)
Theorem release_at_last_ref : forall i g s e s1 o, imp_release cfg_fixed i g s = Ok (s1, o) -> s_shut s = false ->
  aget i (s_imp s) = Some e -> i_gen e = g -> i_refs e = 1 -> busy_get i g (s_busy s) = 0 ->
  o = [ORelease i (i_wire e)] /\ aget i (s_imp s1) = None.
Proof.
  intros i g s e s1 o H Hs E Eg Er Eb. unfold imp_release in H. rewrite E in H.
  replace ((i_gen e =? g) && (0 <? i_refs e)) with true in H by lia. cbn [i_refs] in H.
  replace (i_refs e - 1 =? 0) with true in H by lia. rewrite Eb in H. cbn [Z.eqb] in H.
  unfold imp_shutdown in H. cbn [s_shut set_imp s_imp] in H. rewrite Hs, aget_aput, Z.eqb_refl in H. cbn [i_gen i_wire] in H.
  replace (i_gen e =? g) with true in H by lia. inversion H; subst. split; [reflexivity|].
  cbn [s_imp set_imp]. rewrite Z.eqb_refl, aget_adel, Z.eqb_refl. reflexivity.
Qed.
