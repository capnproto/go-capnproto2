(* History-level C07 close_releases_all.
   [s_lrefs] counts, per local server j, the references the connection and the application's
   handles hold on it.  The accounting invariant: at every point of every history
     lrefs j = [bootstrap is j] + exports whose client is j + capabilities j in the arguments and
               result tables of the answers + handles resolved to j + embargoes on j,
   with every embargo's reference count equal to the number of handles that still name it.  It goes
   through every handler, through shutdown and through the handlers of a shut-down connection;
   after Close all tables are empty, so a server whose handles have been released has count 0:
   its Shutdown has run, exactly once (the count never goes below 0 on the way). *)
From CV Require Import Rpc.Rpc Rpc.RpcSpec Rpc.RpcProofs Rpc.RpcInv Rpc.RpcResp Rpc.RpcLocal Rpc.RpcHist Rpc.RpcQids.
From Coq Require Import ZifyBool.
Open Scope Z_scope.

(* [cl j x]: what a capability contributes to the references on local server j.  [EXP], [ANS], [HND],
   [EMB] sum it over the export table, the arguments and result tables of the answers, the handles
   and the embargoes; [RC j s] is what the tables hold on j, [X j s] what [s_lrefs] counts beyond it *)
Definition cl (j : Z) (x : cap) : Z := match x with CLocal k => if k =? j then 1 else 0 | _ => 0 end.
Fixpoint cls (j : Z) (l : list cap) : Z := match l with [] => 0 | x :: r => cl j x + cls j r end.
Definition ew (j : Z) (o : option expent) : Z := match o with Some (x, _) => cl j x | None => 0 end.
Fixpoint EXP (j : Z) (t : tbl expent) : Z := match t with [] => 0 | o :: r => ew j o + EXP j r end.
Definition aw (j : Z) (a : answer) : Z := cls j (a_args a) + cls j (rct_caps (a_rct a)).
Definition awo (j : Z) (o : option answer) : Z := match o with Some a => aw j a | None => 0 end.
Fixpoint ANS (j : Z) (l : list (Z * answer)) : Z := match l with [] => 0 | (_, a) :: r => aw j a + ANS j r end.
Definition hw (j : Z) (h : hstate) : Z := match h with HCap x => cl j x | _ => 0 end.
Fixpoint HND (j : Z) (l : list hstate) : Z := match l with [] => 0 | h :: r => hw j h + HND j r end.
Definition mw (j : Z) (o : option embent) : Z := match o with Some em => cl j (e_cap em) | None => 0 end.
Fixpoint EMB (j : Z) (t : tbl embent) : Z := match t with [] => 0 | o :: r => mw j o + EMB j r end.
Definition RC (j : Z) (s : state) : Z :=
  (if s_boot s && (j =? 0) then 1 else 0) + EXP j (s_exp s) + ANS j (s_ans s) + HND j (s_handles s) + EMB j (s_emb s).
Definition X (j : Z) (s : state) : Z := cget j (s_lrefs s) - RC j s.

(* references on embargo promises *)
Definition ce (e : Z) (x : cap) : Z := match x with CEmb e' => if e' =? e then 1 else 0 | _ => 0 end.
Fixpoint ces (e : Z) (l : list cap) : Z := match l with [] => 0 | x :: r => ce e x + ces e r end.
Definition he (e : Z) (h : hstate) : Z := match h with HCap x => ce e x | _ => 0 end.
Fixpoint HE (e : Z) (l : list hstate) : Z := match l with [] => 0 | h :: r => he e h + HE e r end.
(* every embargo counts its holders: the handles, and the transient table [l] of a handler *)
Definition TI (s : state) (l : list cap) : Prop :=
  forall e, match tget e (s_emb s) with
            | Some em => e_refs em = HE e (s_handles s) + ces e l
            | None => HE e (s_handles s) = 0 /\ ces e l = 0
            end.
Definition noemb (l : list cap) : Prop := Forall not_emb l.

(* sums of a weight over a list *)
Section Sums.
  Variables (A : Type) (f : A -> Z) (S : list A -> Z).
  Hypothesis S_nil : S [] = 0.
  Hypothesis S_cons : forall x r, S (x :: r) = f x + S r.

  Lemma sum_app : forall a b, S (a ++ b) = S a + S b.
  Proof. intros a b. induction a as [|x a IH]; simpl; [rewrite S_nil|rewrite !S_cons, IH]; lia. Qed.
  Lemma sum_replace : forall t n v old, nth_error t n = Some old -> S (replace_nth n v t) = S t - f old + f v.
  Proof.
    induction t as [|a t IH]; intros [|n] v old H; simpl in H; try discriminate; cbn [replace_nth]; rewrite !S_cons.
    - injection H as ->. lia.
    - rewrite (IH _ v _ H). lia.
  Qed.
  Hypothesis f_nonneg : forall x, 0 <= f x.
  Lemma sum_nonneg : forall l, 0 <= S l.
  Proof. induction l as [|x l IH]; [rewrite S_nil|rewrite S_cons; specialize (f_nonneg x)]; lia. Qed.
  Lemma sum_ge : forall l n x, nth_error l n = Some x -> f x <= S l.
  Proof.
    induction l as [|a l IH]; intros [|n] x H; simpl in H; try discriminate; rewrite S_cons.
    - injection H as ->. pose proof (sum_nonneg l). lia.
    - specialize (IH _ _ H). specialize (f_nonneg a). lia.
  Qed.
End Sums.

Lemma sum_placed : forall A (f : A -> Z) S, S [] = 0 -> (forall x r, S (x :: r) = f x + S r) ->
  forall t t' old v, f old = 0 -> placed t t' old v -> S t' = S t + f v.
Proof.
  intros A f S S0 S1 t t' old v Z0 [->|(n & Hn & ->)]; [|rewrite (sum_replace A f S S1 _ _ v _ Hn); lia].
  rewrite (sum_app A f S S0 S1), S1, S0. lia.
Qed.

Definition cls_app j := sum_app _ (cl j) (cls j) eq_refl (fun _ _ => eq_refl).
Definition cls_replace j := sum_replace _ (cl j) (cls j) (fun _ _ => eq_refl).
Definition ces_app e := sum_app _ (ce e) (ces e) eq_refl (fun _ _ => eq_refl).
Definition ces_replace e := sum_replace _ (ce e) (ces e) (fun _ _ => eq_refl).
Definition EXP_replace j := sum_replace _ (ew j) (EXP j) (fun _ _ => eq_refl).
Definition EMB_replace j := sum_replace _ (mw j) (EMB j) (fun _ _ => eq_refl).
Definition HND_app j := sum_app _ (hw j) (HND j) eq_refl (fun _ _ => eq_refl).
Definition HND_replace j := sum_replace _ (hw j) (HND j) (fun _ _ => eq_refl).
Definition HE_app e := sum_app _ (he e) (HE e) eq_refl (fun _ _ => eq_refl).
Definition HE_replace e := sum_replace _ (he e) (HE e) (fun _ _ => eq_refl).

Lemma cl_nonneg : forall j x, 0 <= cl j x. Proof. intros j x. destruct x; simpl; try lia. destruct (_ =? _); lia. Qed.
Lemma ce_nonneg : forall e x, 0 <= ce e x. Proof. intros e x. destruct x; simpl; try lia. destruct (_ =? _); lia. Qed.
Lemma he_nonneg : forall e h, 0 <= he e h. Proof. intros e h. destruct h; simpl; try lia. apply ce_nonneg. Qed.
Definition ces_nonneg e := sum_nonneg _ (ce e) (ces e) eq_refl (fun _ _ => eq_refl) (ce_nonneg e).
Definition HE_nonneg e := sum_nonneg _ (he e) (HE e) eq_refl (fun _ _ => eq_refl) (he_nonneg e).
Definition HE_ge e := sum_ge _ (he e) (HE e) eq_refl (fun _ _ => eq_refl) (he_nonneg e).

Lemma cls_rev : forall j l, cls j (rev l) = cls j l.
Proof. intros j l. induction l as [|x l IH]; simpl; [reflexivity|]. rewrite cls_app, IH. simpl. lia. Qed.
Lemma ce_ne : forall e x, not_emb x -> ce e x = 0.
Proof. intros e x H. destruct x; try reflexivity. destruct H. Qed.
Lemma ces_noemb : forall e l, noemb l -> ces e l = 0.
Proof. intros e l H. induction H as [|x l Hx _ IH]; simpl; [reflexivity|]. rewrite IH, (ce_ne e x Hx). reflexivity. Qed.
Lemma noemb_app : forall a b, noemb a -> noemb b -> noemb (a ++ b).
Proof. intros. apply Forall_app. split; assumption. Qed.
Lemma noemb_nth : forall l n x, noemb l -> nth_error l n = Some x -> not_emb x.
Proof. intros l n x H Hn. unfold noemb in H. rewrite Forall_forall in H. apply H. eapply nth_error_In; eauto. Qed.
Lemma replace_nth_out : forall A (l : list A) n v, (length l <= n)%nat -> replace_nth n v l = l.
Proof. induction l as [|a l IH]; intros n v H; destruct n; simpl in *; try reflexivity; try lia. f_equal. apply IH. lia. Qed.

(* the answer table: unique keys *)
Lemma ANS_adel : forall j id l, keys_ok l -> ANS j (adel id l) = ANS j l - awo j (aget id l).
Proof.
  intros j id l. unfold keys_ok. induction l as [|[k a] l IH]; simpl; intros K; [lia|].
  inversion K as [|? ? Hn K']; subst. destruct (k =? id) eqn:E.
  - assert (k = id) by lia. subst k. rewrite (adel_notin _ _ _ Hn). simpl. lia.
  - simpl. rewrite (IH K'). lia.
Qed.
Lemma ANS_aput : forall j id a l, keys_ok l -> ANS j (aput id a l) = ANS j l - awo j (aget id l) + aw j a.
Proof. intros j id a l K. unfold aput. simpl. rewrite (ANS_adel j id l K). lia. Qed.

(* side conditions.  [pa1]: the arguments of an answer hold no embargo promise, and go when the Return
   is sent, before which there is no result table; [EN], [EC]: no export or embargo is on an embargo
   promise; [XM], [XS]: the id generator of the embargo / export table fits the table, and its free ids
   name empty slots *)
Definition pa1 (a : answer) : Prop := noemb (a_args a) /\ (a_ret a = true -> a_args a = []) /\ (a_ret a = false -> a_rct a = []).
Definition PA (l : list (Z * answer)) : Prop := forall id a, In (id, a) l -> pa1 a.
Definition EN (t : tbl expent) : Prop := forall x w, In (Some (x, w)) t -> not_emb x.
Definition EC (t : tbl embent) : Prop := forall em, In (Some em) t -> not_emb (e_cap em).
Definition XM (s : state) : Prop := gen_ok (s_mgen s) (length (s_emb s)) /\ slots_free (s_mgen s) (s_emb s).
Definition SI (s : state) : Prop := keys_ok (s_ans s) /\ PA (s_ans s) /\ EN (s_exp s) /\ EC (s_emb s).
Definition XS (s : state) : Prop := gen_ok (s_egen s) (length (s_exp s)) /\ slots_free (s_egen s) (s_exp s).
Definition AI (s : state) : Prop := keys_ok (s_ans s) /\ PA (s_ans s) /\ EN (s_exp s) /\ XS s.

(* the count of embargo e; [TI] says it is the number of holders *)
Definition er (e : Z) (t : tbl embent) : Z := match tget e t with Some em => e_refs em | None => 0 end.
Lemma TI_er : forall s l, TI s l <-> forall e, er e (s_emb s) = HE e (s_handles s) + ces e l.
Proof.
  intros s l. unfold TI, er.
  split; intros H e; specialize (H e); pose proof (HE_nonneg e (s_handles s)); pose proof (ces_nonneg e l);
    destruct (tget e (s_emb s)); lia.
Qed.
Lemma er_replace : forall t e em em' i, tget e t = Some em ->
  er i (replace_nth (Z.to_nat e) (Some em') t) = if i =? e then e_refs em' else er i t.
Proof. intros t e em em' i H. unfold er. rewrite (tget_replace_same _ _ _ _ _ _ H). destruct (i =? e); reflexivity. Qed.

(* what a handler has established between two of its steps: [T] is its transient table *)
Definition WF (s : state) (T : list cap) : Prop := TI s T /\ AI s /\ EC (s_emb s) /\ XM s.
(* the tables [RC] and [WF] read are unchanged: all but the answers, all *)
Definition FO (s s1 : state) : Prop :=
  s_boot s1 = s_boot s /\ s_qs s1 = s_qs s /\ s_exp s1 = s_exp s /\ s_egen s1 = s_egen s /\
  s_emb s1 = s_emb s /\ s_mgen s1 = s_mgen s /\ s_handles s1 = s_handles s.
Definition FX (s s1 : state) : Prop := FO s s1 /\ s_ans s1 = s_ans s.
(* questions and handles are unchanged; and the answers *)
Definition KQ (s s1 : state) : Prop := s_qs s1 = s_qs s /\ s_handles s1 = s_handles s.
Definition KA (s s1 : state) : Prop := KQ s s1 /\ s_ans s1 = s_ans s.

Lemma FX_refl : forall s, FX s s. Proof. intros; repeat split. Qed.
Lemma FX_trans : forall s s1 s2, FX s s1 -> FX s1 s2 -> FX s s2.
Proof. intros s s1 s2 ((A1 & A2 & A3 & A4 & A5 & A6 & A7) & A8) ((B1 & B2 & B3 & B4 & B5 & B6 & B7) & B8). repeat split; congruence. Qed.
Lemma KQ_trans : forall s s1 s2, KQ s s1 -> KQ s1 s2 -> KQ s s2.
Proof. intros s s1 s2 (A1 & A2) (B1 & B2). split; congruence. Qed.
Lemma KA_refl : forall s, KA s s. Proof. intros; repeat split. Qed.
Lemma KA_trans : forall s s1 s2, KA s s1 -> KA s1 s2 -> KA s s2.
Proof. intros s s1 s2 (A1 & A2) (B1 & B2). split; [eapply KQ_trans; eauto|congruence]. Qed.
Lemma KA_FX : forall s s1, FX s s1 -> KA s s1.
Proof. intros s s1 ((_ & Q & _ & _ & _ & _ & H) & A). repeat split; assumption. Qed.
Lemma WF_FX : forall s s1 T, FX s s1 -> WF s T -> WF s1 T.
Proof.
  intros s s1 T ((_ & _ & E & G & M & MG & H) & A) W. unfold WF, TI, AI, XS, XM in *. rewrite A, E, G, M, MG, H. exact W.
Qed.
Lemma WF_ces : forall s T T', (forall e, ces e T' = ces e T) -> WF s T -> WF s T'.
Proof. intros s T T' H (Ti & R). split; [|exact R]. intros e. rewrite H. apply Ti. Qed.
Lemma WF_noemb : forall s T l, noemb l -> WF s T <-> WF s (l ++ T).
Proof.
  intros s T l N. assert (C : forall e, ces e (l ++ T) = ces e T).
  { intros e. rewrite ces_app, (ces_noemb e l N). reflexivity. }
  split; apply WF_ces; intros e; rewrite C; reflexivity.
Qed.

Lemma X_FX : forall j s s1, FX s s1 -> X j s1 = X j s + (cget j (s_lrefs s1) - cget j (s_lrefs s)).
Proof. intros j s s1 ((B & _ & E & _ & M & _ & H) & A). unfold X, RC. rewrite B, E, A, H, M. lia. Qed.
Lemma X_eq : forall j s s1, FX s s1 -> s_lrefs s1 = s_lrefs s -> X j s1 = X j s.
Proof. intros j s s1 F L. rewrite (X_FX j s s1 F), L. lia. Qed.
Lemma cget_lref : forall j d k s, cget j (s_lrefs (lref d k s)) = cget j (s_lrefs s) + (if j =? k then d else 0).
Proof. intros. unfold lref. cbn [s_lrefs set_lrefs]. rewrite cget_cadd. destruct (j =? k) eqn:E; [assert (j = k) by lia; subst; lia|lia]. Qed.
Lemma X_lref : forall j d k s, X j (lref d k s) = X j s + (if j =? k then d else 0).
Proof. intros. rewrite (X_FX j s (lref d k s)) by (repeat split). rewrite cget_lref. lia. Qed.
Lemma X_set_ans : forall j s l, X j (set_ans l s) = X j s + ANS j (s_ans s) - ANS j l.
Proof. intros. unfold X, RC. cbn [s_boot s_exp s_ans s_handles s_emb s_lrefs set_ans]. lia. Qed.

Lemma rf_imp_shutdown : forall i g s s1 o, imp_shutdown cfg_fixed i g s = Ok (s1, o) -> FX s s1 /\ s_lrefs s1 = s_lrefs s.
Proof.
  intros i g s s1 o H. unfold imp_shutdown in H. cbn [fx20 cfg_fixed] in H.
  destruct (s_shut s); [|destruct (aget i (s_imp s)) as [e|]; [destruct (i_gen e =? g)|]]; injection H as <- _; repeat split.
Qed.

Lemma rf_imp_release : forall i g s s1 o, imp_release cfg_fixed i g s = Ok (s1, o) -> FX s s1 /\ s_lrefs s1 = s_lrefs s.
Proof.
  intros i g s s1 o H. unfold imp_release in H. destruct (aget i (s_imp s)) as [e|]; [|eapply rf_imp_shutdown; eauto].
  destruct ((i_gen e =? g) && (0 <? i_refs e)); [|eapply rf_imp_shutdown; eauto].
  cbn [i_refs] in H. destruct (i_refs e - 1 =? 0); [|injection H as <- _; repeat split].
  destruct (busy_get i g (s_busy s) =? 0); [|injection H as <- _; repeat split].
  apply rf_imp_shutdown in H. exact H.
Qed.

(* a capability that is not an embargo promise *)
Lemma rf_release_cap_ne : forall x s s1 o, release_cap cfg_fixed x s = Ok (s1, o) -> not_emb x ->
  FX s s1 /\ forall j, X j s1 = X j s - cl j x.
Proof.
  intros x s s1 o H Hx. destruct x; simpl in H, Hx; try contradiction.
  1, 2: injection H as <- _; split; [apply FX_refl|intros j; simpl; lia].
  - injection H as <- _. split; [repeat split|]. intros j0. rewrite X_lref. simpl. rewrite (Z.eqb_sym j j0). destruct (j0 =? j); lia.
  - destruct (rf_imp_release _ _ _ _ _ H) as [F L]. split; [exact F|]. intros j. rewrite (X_eq j _ _ F L). simpl. lia.
Qed.

Lemma rf_release_caps_ne : forall l s s1 o, release_caps cfg_fixed l s = Ok (s1, o) -> noemb l ->
  FX s s1 /\ forall j, X j s1 = X j s - cls j l.
Proof.
  induction l as [|x l IH]; intros s s1 o H N; simpl in H.
  - injection H as <- _. split; [apply FX_refl|intros j; simpl; lia].
  - unbind H as [sa oa] eqn:Ea.
    unbind H as [sb ob] eqn:Eb. injection H as <- _.
    inversion N as [|? ? Nx Nl]; subst.
    destruct (rf_release_cap_ne _ _ _ _ Ea Nx) as [F1 D1]. destruct (IH _ _ _ Eb Nl) as [F2 D2].
    split; [eapply FX_trans; eauto|]. intros j. rewrite D2, D1. simpl. lia.
Qed.

Lemma rf_addref_ne : forall x s, not_emb x -> FX s (addref_cap x s) /\ forall j, X j (addref_cap x s) = X j s + cl j x.
Proof.
  intros x s Hx. destruct x; simpl in Hx; try contradiction; simpl.
  1, 2: split; [apply FX_refl|intros j; lia].
  - split; [repeat split|]. intros j0. rewrite X_lref. rewrite (Z.eqb_sym j j0). destruct (j0 =? j); lia.
  - destruct (aget i (s_imp s)) as [e|]; [destruct (_ && _)|]; (split; [repeat split|]); intros j; rewrite Z.add_0_r; apply X_eq; repeat split.
Qed.

Lemma rf_add_import : forall i s, let s1 := fst (add_import cfg_fixed i s) in
  FX s s1 /\ (forall j, X j s1 = X j s) /\ not_emb (snd (add_import cfg_fixed i s)) /\
  forall j, cl j (snd (add_import cfg_fixed i s)) = 0.
Proof.
  intros i s. unfold add_import. destruct (aget i (s_imp s)) as [e|]; [destruct (0 <? i_refs e)|]; simpl;
    (split; [repeat split|split; [intros j; apply X_eq; repeat split|split; [exact I|reflexivity]]]).
Qed.

Lemma EN_tget : forall t e x w, EN t -> tget e t = Some (x, w) -> not_emb x.
Proof. intros t e x w H Hg. eapply H. eapply tget_in; eauto. Qed.

(* what receiving a capability table does, seen from the state [s] with [tab] already received *)
Definition rp_st (r : rp) : state * list cap := match r with RPOk s t _ => (s, t) | RPErr s t => (s, t) end.
Definition pl_st (r : pl) : state * list cap := match r with PLOk s _ t _ => (s, t) | PLErr s t => (s, t) end.
Definition recvd (s : state) (tab : list cap) (r : state * list cap) : Prop :=
  FX s (fst r) /\ noemb (snd r) /\ forall j, X j (fst r) = X j s + cls j (snd r) - cls j tab.

Lemma recvd_step : forall s tab sa x r, FX s sa -> not_emb x -> (forall j, X j sa = X j s + cl j x) ->
  recvd sa (x :: tab) r -> recvd s tab r.
Proof.
  intros s tab sa x r F Nx Dx (F2 & N2 & D2). split; [eapply FX_trans; eauto|split; [exact N2|]].
  intros j. rewrite D2, Dx. simpl. lia.
Qed.

Lemma rf_recv_caps : forall ds s tab loc, EN (s_exp s) -> noemb tab -> recvd s tab (rp_st (recv_caps cfg_fixed ds s tab loc)).
Proof.
  induction ds as [|d ds IH]; intros s tab loc He Nt; simpl.
  - split; [apply FX_refl|split; [apply Forall_rev; exact Nt|intros j; simpl; rewrite cls_rev; lia]].
  - assert (ST : forall sa x b, FX s sa -> not_emb x -> (forall j, X j sa = X j s + cl j x) ->
              recvd s tab (rp_st (recv_caps cfg_fixed ds sa (x :: tab) (b :: loc)))).
    { intros sa x b F Nx Dx. apply (recvd_step s tab sa x _ F Nx Dx). apply IH; [|constructor; assumption].
      destruct F as ((_ & _ & E & _) & _). rewrite E. exact He. }
    destruct d.
    + apply (ST s CNull); [apply FX_refl|exact I|intros j; simpl; lia].
    + pose proof (rf_add_import i s) as R. destruct (add_import cfg_fixed i s) as [s1 x]. destruct R as (F & D & N & Z0).
      apply ST; auto. intros j. rewrite D, Z0. lia.
    + pose proof (rf_add_import i s) as R. destruct (add_import cfg_fixed i s) as [s1 x]. destruct R as (F & D & N & Z0).
      apply ST; auto. intros j. rewrite D, Z0. lia.
    + destruct (tget i (s_exp s)) as [[x w]|] eqn:Eg.
      * pose proof (EN_tget _ _ _ _ He Eg) as Nx. destruct (rf_addref_ne x s Nx) as [F D]. apply ST; auto.
      * split; [apply FX_refl|split; [apply Forall_rev; exact Nt|intros j; simpl; rewrite cls_rev; lia]].
    + apply (ST s CErr); [apply FX_refl|exact I|intros j; simpl; lia].
Qed.

Lemma rf_recv_payload : forall p s, EN (s_exp s) -> recvd s [] (pl_st (recv_payload cfg_fixed p s)).
Proof.
  intros p s He. unfold recv_payload.
  assert (Z0 : recvd s [] (s, [])) by (split; [apply FX_refl|split; [constructor|intros j; simpl; lia]]).
  destruct (negb (p_valid p)); [exact Z0|]. destruct (p_cerr p); [exact Z0|].
  destruct (p_caps p) as [ds|]; [|exact Z0]. pose proof (rf_recv_caps ds s [] [] He (Forall_nil _)) as H.
  destruct (recv_caps cfg_fixed ds s [] []); exact H.
Qed.

(* an embargo promise: the transient holder x of the handler's table goes *)
Lemma EMB_same_cap : forall j t e em em', tget e t = Some em -> e_cap em' = e_cap em ->
  EMB j (replace_nth (Z.to_nat e) (Some em') t) = EMB j t.
Proof. intros j t e em em' H E. apply tget_some in H. destruct H as [_ Hn]. rewrite (EMB_replace j t _ (Some em') _ Hn). simpl. rewrite E. lia. Qed.

Lemma EN_in : forall t t' v, (forall o, In o t' -> o = v \/ In o t) -> (forall x w, v = Some (x, w) -> not_emb x) -> EN t -> EN t'.
Proof. intros t t' v Hi Hv H x w Hin. destruct (Hi _ Hin) as [E|Ho]; [exact (Hv x w (eq_sym E))|exact (H x w Ho)]. Qed.
Lemma EC_in : forall t t' v, (forall o, In o t' -> o = v \/ In o t) -> (forall em, v = Some em -> not_emb (e_cap em)) -> EC t -> EC t'.
Proof. intros t t' v Hi Hv H em Hin. destruct (Hi _ Hin) as [E|Ho]; [exact (Hv em (eq_sym E))|exact (H em Ho)]. Qed.

(* the count of embargo e is set to r, its holders change accordingly *)
Lemma WF_recount : forall s s1 e em r T T', tget e (s_emb s) = Some em ->
  s_emb s1 = replace_nth (Z.to_nat e) (Some (mkEmb (e_cap em) r)) (s_emb s) -> s_mgen s1 = s_mgen s ->
  s_ans s1 = s_ans s -> s_exp s1 = s_exp s -> s_egen s1 = s_egen s ->
  (forall i, HE i (s_handles s1) + ces i T' = HE i (s_handles s) + ces i T + if i =? e then r - e_refs em else 0) ->
  WF s T -> WF s1 T'.
Proof.
  intros s s1 e em r T T' Eg M MG A E G Hh (Ti & Ai & Ec & (Gm & Sm)). pose proof (tget_some _ _ _ _ Eg) as [_ Hn].
  split; [|split; [|split]].
  - apply TI_er. intros i. rewrite M, (er_replace _ _ _ _ _ Eg). specialize (proj1 (TI_er _ _) Ti i). specialize (Hh i).
    cbn [e_refs]. destruct (i =? e) eqn:Ei; [assert (i = e) by lia; subst i; unfold er; rewrite Eg|]; lia.
  - unfold AI, XS. rewrite A, E, G. exact Ai.
  - rewrite M. eapply EC_in; [intros o; apply replace_nth_in| |exact Ec]. intros em0 Hv. injection Hv as <-. cbn [e_cap]. apply Ec. eapply tget_in; eauto.
  - unfold XM. rewrite M, MG, replace_nth_length. split; [exact Gm|eapply slots_free_replace; eauto].
Qed.

Lemma rf_emb_release : forall e s T, WF s (CEmb e :: T) -> let s1 := emb_release cfg_fixed e s in
  WF s1 T /\ KA s s1 /\ forall j, X j s1 = X j s.
Proof.
  intros e s T W. unfold emb_release. pose proof (proj1 (TI_er _ _) (proj1 W) e) as Te. unfold er in Te.
  simpl in Te. rewrite Z.eqb_refl in Te. pose proof (HE_nonneg e (s_handles s)). pose proof (ces_nonneg e T).
  destruct (tget e (s_emb s)) as [em|] eqn:E; [|lia].
  replace (0 <? e_refs em) with true by lia. cbn [fx22 cfg_fixed negb]. rewrite andb_false_r.
  split; [|split; [repeat split|]].
  - eapply (WF_recount s _ e em (e_refs em - 1)); try reflexivity; [exact E| |exact W].
    intros i. cbn [s_handles set_emb ces ce]. rewrite (Z.eqb_sym e i). destruct (i =? e); lia.
  - intros j. unfold X, RC. cbn [s_boot s_exp s_ans s_handles s_emb s_lrefs set_emb]. rewrite (EMB_same_cap j _ _ _ _ E) by reflexivity. reflexivity.
Qed.

Lemma rf_release_cap : forall x s s1 o T, release_cap cfg_fixed x s = Ok (s1, o) -> WF s (x :: T) ->
  WF s1 T /\ KA s s1 /\ forall j, X j s1 = X j s - cl j x.
Proof.
  intros x s s1 o T H W.
  assert (NE : not_emb x -> WF s1 T /\ KA s s1 /\ forall j, X j s1 = X j s - cl j x).
  { intros Nx. destruct (rf_release_cap_ne _ _ _ _ H Nx) as [F D]. split; [|split; [apply KA_FX; exact F|exact D]].
    apply (WF_FX _ _ _ F). apply (WF_noemb s T [x]); [constructor; [exact Nx|constructor]|exact W]. }
  destruct x; try (apply NE; exact I).
  simpl in H. injection H as <- _. destruct (rf_emb_release e s T W) as (W1 & K & D).
  split; [exact W1|split; [exact K|]]. intros j. rewrite D. simpl. lia.
Qed.

Lemma rf_release_caps : forall l s s1 o T, release_caps cfg_fixed l s = Ok (s1, o) -> WF s (l ++ T) ->
  WF s1 T /\ KA s s1 /\ forall j, X j s1 = X j s - cls j l.
Proof.
  induction l as [|x l IH]; intros s s1 o T H W; simpl in H.
  - injection H as <- _. split; [exact W|split; [apply KA_refl|intros j; simpl; lia]].
  - unbind H as [sa oa] eqn:Ea.
    unbind H as [sb ob] eqn:Eb. injection H as <- _.
    destruct (rf_release_cap _ _ _ _ (l ++ T) Ea W) as (W1 & K1 & D1). destruct (IH _ _ _ _ Eb W1) as (W2 & K2 & D2).
    split; [exact W2|split; [eapply KA_trans; eauto|]]. intros j. rewrite D2, D1. simpl. lia.
Qed.

Lemma cap_eqb_cl : forall j y x, cap_eqb y x = true -> cl j y = cl j x.
Proof. intros j y x H. destruct y, x; simpl in *; try discriminate; try reflexivity. replace j0 with j1 by lia. reflexivity. Qed.

(* only the export table (and what no invariant reads) differs *)
Lemma WF_exp : forall s s1 T, s_ans s1 = s_ans s -> s_emb s1 = s_emb s -> s_mgen s1 = s_mgen s -> s_handles s1 = s_handles s ->
  EN (s_exp s1) -> XS s1 -> WF s T -> WF s1 T.
Proof.
  intros s s1 T A M MG H He Hx (Ti & (K & P & _) & Ec & Xm). split; [|split; [|split]].
  - intros e. rewrite M, H. apply Ti.
  - split; [rewrite A; exact K|split; [rewrite A; exact P|split; assumption]].
  - rewrite M. exact Ec.
  - unfold XM. rewrite M, MG. exact Xm.
Qed.

Lemma rf_send_cap : forall x s s1 d oe T, send_cap cfg_fixed x s = Ok (s1, d, oe) -> not_emb x -> WF s T ->
  WF s1 T /\ KA s s1 /\ forall j, X j s1 = X j s.
Proof.
  intros x s s1 d oe T H Nx W. pose proof W as (_ & (_ & _ & He & G & S) & _).
  destruct (send_cap_cases cfg_fixed x s) as [(d0 & _ & E)|[(id & w & Hf & E)|[_ E]]]; rewrite E in H; clear E.
  - injection H as <- _ _. split; [exact W|split; [apply KA_refl|reflexivity]].
  - injection H as <- _ _. destruct (find_export_some _ _ _ _ _ Hf) as (y & Hn & Hy & Hl). rewrite Z.sub_0_r in Hn.
    split; [|split; [repeat split|]].
    + apply (WF_exp s); try reflexivity; [| |exact W]; cbn [s_exp s_egen set_sent set_exp].
      * eapply EN_in; [intros o; apply replace_nth_in| |exact He]. intros x0 w0 Hv. injection Hv as <- _. exact Nx.
      * unfold XS. cbn [s_exp s_egen set_sent set_exp]. rewrite replace_nth_length. split; [exact G|eapply slots_free_replace; eauto].
    + intros j. unfold X, RC. cbn [s_boot s_exp s_ans s_handles s_emb s_lrefs set_sent set_exp].
      pose proof (EXP_replace j _ _ (Some (x, w + 1)) _ Hn) as R. unfold expent in *. rewrite R. simpl. rewrite (cap_eqb_cl j y x Hy). lia.
  - destruct (rf_addref_ne x s Nx) as [((B0 & Q0 & E0 & G0 & M0 & MG0 & H0) & A0) X0]. set (s0 := addref_cap x s) in *.
    unbind H as [id g'] eqn:EG.
    unbind H as t' eqn:ET. injection H as <- _ _.
    destruct (alloc_inv _ _ _ _ _ _ _ G S EG ET) as (G' & _ & S' & _ & _ & PL).
    split; [|split; [repeat split; assumption|]].
    + apply (WF_exp s); try assumption; cbn [s_exp s_egen set_sent set_allocs set_egen set_exp]; [|split; assumption].
      eapply EN_in; [intros o; apply (placed_in _ _ _ _ _ _ PL)| |exact He]. intros x0 w0 Hv. injection Hv as <- _. exact Nx.
    + intros j. specialize (X0 j). unfold X, RC in *. cbn [s_boot s_exp s_ans s_handles s_emb s_lrefs set_sent set_allocs set_egen set_exp].
      rewrite E0, A0, B0, H0, M0 in X0. rewrite A0, B0, H0, M0.
      rewrite (sum_placed _ (ew j) (EXP j) eq_refl (fun _ _ => eq_refl) _ _ None _ eq_refl PL). simpl ew. lia.
Qed.

Lemma rf_fill_caps : forall l s s1 ds refs T, fill_caps cfg_fixed l s = Ok (s1, ds, refs) -> noemb l -> WF s T ->
  WF s1 T /\ KA s s1 /\ forall j, X j s1 = X j s.
Proof.
  induction l as [|x l IH]; intros s s1 ds refs T H N W; simpl in H.
  - injection H as <- _ _. split; [exact W|split; [apply KA_refl|reflexivity]].
  - unbind H as [[sa d] oe] eqn:Ea.
    unbind H as [[sb ds'] refs'] eqn:Eb. injection H as <- _ _.
    inversion N as [|? ? Nx Nl]; subst.
    destruct (rf_send_cap _ _ _ _ _ T Ea Nx W) as (W1 & K1 & X1). destruct (IH _ _ _ _ T Eb Nl W1) as (W2 & K2 & X2).
    split; [exact W2|split; [eapply KA_trans; eauto|]]. intros j. rewrite X2, X1. reflexivity.
Qed.

Definition ocw (j : Z) (oc : option cap) : Z := match oc with Some x => cl j x | None => 0 end.

Lemma rf_release_export : forall id n s T, WF s T ->
  let '(s1, oc, err) := release_export id n s in
  WF s1 T /\ KA s s1 /\ (forall j, X j s1 = X j s + ocw j oc) /\ (forall x, oc = Some x -> not_emb x).
Proof.
  intros id n s T W. pose proof W as (_ & (_ & _ & He & G & S) & _). unfold release_export.
  assert (SAME : WF s T /\ KA s s /\ (forall j, X j s = X j s + ocw j None) /\ (forall x, @None cap = Some x -> not_emb x)).
  { split; [exact W|split; [apply KA_refl|split; [intros j; simpl; lia|discriminate]]]. }
  destruct (tget id (s_exp s)) as [[x w]|] eqn:E; [|exact SAME].
  pose proof (tget_some _ _ _ _ E) as [Hr Hn]. pose proof (EN_tget _ _ _ _ He E) as Nx.
  destruct (n =? w).
  - split; [|split; [repeat split|split]].
    + apply (WF_exp s); try reflexivity; [| |exact W]; cbn [s_exp s_egen set_rel set_egen set_exp].
      * eapply EN_in; [intros o; apply tclear_in|discriminate|exact He].
      * unfold XS. cbn [s_exp s_egen set_rel set_egen set_exp]. rewrite tclear_length. split; [apply gen_remove_ok; [exact G|lia]|].
        intros y Hy. rewrite tget_tclear. destruct (y =? id) eqn:Ey; [reflexivity|]. apply S. unfold gen_remove in Hy. cbn [g_free] in Hy.
        destruct (zmem id (g_free (s_egen s))); [exact Hy|destruct Hy as [Hy|Hy]; [lia|exact Hy]].
    + intros j. unfold X, RC. cbn [s_boot s_exp s_ans s_handles s_emb s_lrefs set_rel set_egen set_exp]. unfold tclear.
      replace ((0 <=? id) && (id <? Z.of_nat (length (s_exp s)))) with true by lia.
      pose proof (EXP_replace j _ _ None _ Hn) as R. unfold expent in *. rewrite R. simpl. lia.
    + intros x0 Hx0. injection Hx0 as <-. exact Nx.
  - destruct (w <? n); [exact SAME|].
    split; [|split; [repeat split|split]].
    + apply (WF_exp s); try reflexivity; [| |exact W]; cbn [s_exp s_egen set_rel set_exp].
      * eapply EN_in; [intros o; apply replace_nth_in| |exact He]. intros x0 w0 Hv. injection Hv as <- _. exact Nx.
      * unfold XS. cbn [s_exp s_egen set_rel set_exp]. rewrite replace_nth_length. split; [exact G|eapply slots_free_replace; eauto].
    + intros j. unfold X, RC. cbn [s_boot s_exp s_ans s_handles s_emb s_lrefs set_rel set_exp].
      pose proof (EXP_replace j _ _ (Some (x, w - n)) _ Hn) as R. unfold expent in *. rewrite R. simpl. lia.
    + discriminate.
Qed.

Lemma rf_release_exports : forall refs s T, WF s T ->
  let '(s1, cl0, err) := release_exports refs s in
  WF s1 T /\ KA s s1 /\ (forall j, X j s1 = X j s + cls j cl0) /\ noemb cl0.
Proof.
  induction refs as [|[i n] refs IH]; intros s T W; simpl.
  - split; [exact W|split; [apply KA_refl|split; [intros j; simpl; lia|constructor]]].
  - pose proof (rf_release_export i n s T W) as F1. destruct (release_export i n s) as [[sa oc] ea].
    destruct F1 as (W1 & K1 & X1 & N1).
    specialize (IH sa T W1). destruct (release_exports refs sa) as [[sb clb] eb]. destruct IH as (W2 & K2 & X2 & N2).
    split; [exact W2|split; [eapply KA_trans; eauto|split]].
    + intros j. rewrite X2, X1. destruct oc; simpl; lia.
    + destruct oc as [x|]; [constructor; [apply N1; reflexivity|exact N2]|exact N2].
Qed.

(* the answer table is unchanged except at [id] / at the ids of [ids] *)
Definition OT (id : Z) (s s1 : state) : Prop := forall i, i <> id -> aget i (s_ans s1) = aget i (s_ans s).
Definition OTL (ids : list Z) (s s1 : state) : Prop := forall i, ~ In i ids -> aget i (s_ans s1) = aget i (s_ans s).

Lemma PA_adel : forall id l, PA l -> PA (adel id l).
Proof. intros id l H i a Hin. eapply H. eapply adel_in; eauto. Qed.
Lemma PA_aput : forall id a l, PA l -> pa1 a -> PA (aput id a l).
Proof. intros id a l H Ha i b Hin. unfold aput in Hin. destruct Hin as [Hin|Hin]; [inversion Hin; subst; exact Ha|eapply H; eapply adel_in; eauto]. Qed.
Lemma PA_aget : forall l id a, PA l -> aget id l = Some a -> pa1 a.
Proof. intros l id a H Hg. eapply H. eapply aget_in; eauto. Qed.
Lemma WF_EN : forall s T, WF s T -> EN (s_exp s).
Proof. intros s T W. apply W. Qed.
Lemma WF_pa1 : forall s T id a, WF s T -> aget id (s_ans s) = Some a -> pa1 a.
Proof. intros s T id a W Ea. exact (PA_aget _ _ _ (proj1 (proj2 (proj1 (proj2 W)))) Ea). Qed.
Lemma WF_set_ans : forall s T l, keys_ok l -> PA l -> WF s T -> WF (set_ans l s) T.
Proof. intros s T l K P (Ti & (_ & _ & He & Hx) & Ec & Xm). split; [exact Ti|split; [|split; assumption]]. split; [exact K|split; [exact P|split; assumption]]. Qed.

(* a step on answer [id], [T] being the transient table as in [WF]: the entry (if any) goes, an answer
   holding [d j] references on j is stored or destroyed *)
Definition ansd (id : Z) (s : state) (T : list cap) (d : Z -> Z) (s1 : state) : Prop :=
  WF s1 T /\ KQ s s1 /\ OT id s s1 /\ forall j, X j s1 = X j s + awo j (aget id (s_ans s)) - d j.

Lemma ansd_pre : forall id s s0 T d d' s1, KA s s0 -> (forall j, X j s0 - d j = X j s - d' j) -> ansd id s0 T d s1 -> ansd id s T d' s1.
Proof.
  intros id s s0 T d d' s1 [Q A] Hd (W1 & Q1 & O1 & D1). split; [exact W1|split; [eapply KQ_trans; eauto|split]].
  - intros i Hi. rewrite (O1 i Hi), A. reflexivity.
  - intros j. rewrite D1, A. specialize (Hd j). lia.
Qed.
Lemma ansd_same : forall id s T d, WF s T -> (forall j, d j = awo j (aget id (s_ans s))) -> ansd id s T d s.
Proof. intros id s T d W Hd. split; [exact W|split; [split; reflexivity|split; [intros i _; reflexivity|intros j; rewrite Hd; lia]]]. Qed.

Lemma rf_aput : forall id a s s1 T, WF s T -> pa1 a -> FO s s1 -> s_lrefs s1 = s_lrefs s -> s_ans s1 = aput id a (s_ans s) ->
  ansd id s T (fun j => aw j a) s1.
Proof.
  intros id a s s1 T W Pa Fo L A. pose proof W as (_ & (K & P & _) & _).
  assert (F : FX (set_ans (s_ans s1) s) s1) by (split; [exact Fo|reflexivity]).
  split; [|split; [|split]].
  - apply (WF_FX _ _ _ F). rewrite A. apply WF_set_ans; [apply keys_aput; exact K|apply PA_aput; assumption|exact W].
  - destruct Fo as (_ & Q & _ & _ & _ & _ & H). split; assumption.
  - intros i Hi. rewrite A, aget_aput. replace (i =? id) with false by lia. reflexivity.
  - intros j. rewrite (X_eq j _ _ F L), X_set_ans, A, (ANS_aput j id _ _ K). lia.
Qed.

Lemma rf_destroy : forall id a s s1 o err T, destroy cfg_fixed id a s = Ok (s1, o, err) -> WF s T ->
  ansd id s T (fun j => cls j (rct_caps (a_rct a))) s1.
Proof.
  intros id a s s1 o err T H W. pose proof W as (_ & (K & P & _) & _). unfold destroy in H.
  set (sa := set_ans (adel id (s_ans s)) s) in *.
  assert (Wa : WF sa T) by (apply WF_set_ans; [apply keys_adel|apply PA_adel|]; assumption).
  (* the exports of the results are released (or not), then their clients and the result table *)
  assert (FIN : forall sx cl0 s3 o3, WF sx T -> KA sa sx -> (forall j, X j sx = X j sa + cls j cl0) -> noemb cl0 ->
            release_caps cfg_fixed (rct_caps (a_rct a) ++ cl0) sx = Ok (s3, o3) -> ansd id s T (fun j => cls j (rct_caps (a_rct a))) s3).
  { intros sx cl0 s3 o3 Wx [Qx Ax] Xx N E3.
    destruct (rf_release_caps_ne _ _ _ _ E3 (noemb_app _ _ (rct_caps_not_emb _) N)) as [F3 X3]. destruct (KA_FX _ _ F3) as [Q3 A3].
    split; [apply (WF_FX _ _ _ F3 Wx)|split; [exact (KQ_trans s sx s3 Qx Q3)|split]].
    - intros i Hi. rewrite A3, Ax. unfold sa. cbn [s_ans set_ans]. rewrite aget_adel. replace (i =? id) with false by lia. reflexivity.
    - intros j. rewrite X3, Xx. unfold sa. rewrite X_set_ans, (ANS_adel j id _ K), cls_app. lia. }
  destruct (a_rrc a && negb match a_xrefs a with [] => true | _ :: _ => false end).
  - pose proof (rf_release_exports (a_xrefs a) sa T Wa) as F.
    destruct (release_exports (a_xrefs a) sa) as [[sx cl0] e2]. destruct F as (Wx & Kx & Xx & Nx).
    unbind H as [s3 o3] eqn:E3.
    injection H as <- _ _. eapply FIN; eauto.
  - unbind H as [s3 o3] eqn:E3.
    injection H as <- _ _. eapply (FIN sa []); eauto; [apply KA_refl|intros j; simpl; lia|constructor].
Qed.

Lemma pa1_done : forall a, a_args a = [] -> a_ret a = true -> pa1 a.
Proof. intros a Ha Hr. split; [rewrite Ha; constructor|split; [intros _; exact Ha|rewrite Hr; discriminate]]. Qed.

Lemma rf_send_exception : forall id a s s1 o ab T, send_exception cfg_fixed id a s = Ok (s1, o, ab) -> WF s T -> a_args a = [] ->
  ansd id s T (fun j => cls j (rct_caps (a_rct a))) s1.
Proof.
  intros id a s s1 o ab T H W Ha. unfold send_exception in H. destruct (a_fin a).
  - unbind H as [[s2 o2] e2] eqn:E. injection H as <- _ _.
    exact (rf_destroy _ _ _ _ _ _ T E W).
  - injection H as <- _ _. eapply (ansd_pre id s s); [apply KA_refl| |apply (rf_aput id (mark_done true a) s); [exact W|apply pa1_done; [exact Ha|reflexivity]|repeat split..]].
    intros j. unfold aw. cbn [a_args a_rct mark_done]. rewrite Ha. simpl. lia.
Qed.

Lemma rf_send_return : forall id a k rct s s1 o ab T, send_return cfg_fixed id a k rct s = Ok (s1, o, ab) -> WF s T -> a_args a = [] ->
  ansd id s T (fun j => cls j (rct_caps rct)) s1.
Proof.
  intros id a k rct s s1 o ab T H W Ha. unfold send_return in H.
  unbind H as [[sf ds] refs] eqn:E0.
  destruct (rf_fill_caps _ _ _ _ _ T E0 (rct_caps_not_emb _) W) as (Wf & Kf & Xf).
  destruct (a_fin a).
  - unbind H as [[s3 o3] e3] eqn:E. injection H as <- _ _.
    eapply (ansd_pre id s sf); [exact Kf| |exact (rf_destroy _ _ _ _ _ _ T E Wf)]. intros j. rewrite Xf. reflexivity.
  - injection H as <- _ _. eapply (ansd_pre id s sf); [exact Kf| |eapply (rf_aput id _ sf); [exact Wf| |repeat split|reflexivity..]; apply pa1_done; [exact Ha|reflexivity]].
    intros j. rewrite Xf. unfold aw. cbn [a_args a_rct]. rewrite Ha. simpl. lia.
Qed.

Lemma rf_reject : forall id a s s1 o ab T, reject cfg_fixed id a s = Ok (s1, o, ab) -> WF s T -> pa1 a -> ansd id s T (fun j => aw j a) s1.
Proof.
  intros id a s s1 o ab T H W (Na & _). unfold reject in H.
  unbind H as [s0 o0] eqn:E0.
  unbind H as [[s2 o2] b2] eqn:E2.
  injection H as <- _ _. destruct (rf_release_caps_ne _ _ _ _ E0 Na) as [F0 X0].
  eapply (ansd_pre id s s0); [apply KA_FX; exact F0| |exact (rf_send_exception _ _ _ _ _ _ T E2 (WF_FX _ _ _ F0 W) eq_refl)].
  intros j. rewrite X0. unfold aw. cbn [a_rct set_a_args]. lia.
Qed.

Lemma rf_deliver : forall id a t s s1 o ab T, deliver cfg_fixed id a t s = Ok (s1, o, ab) -> WF s T -> pa1 a -> ansd id s T (fun j => aw j a) s1.
Proof.
  intros id a t s s1 o ab T H W Pa. unfold deliver in H.
  destruct t; [|eapply rf_reject; eauto|discriminate].
  destruct (a_mok a); [|eapply rf_reject; eauto]. injection H as <- _ _.
  apply (rf_aput id (set_a_deliv (s_ndeliv s) (set_a_st (ARunning j) a)) s); [exact W|exact Pa|repeat split|reflexivity..].
Qed.

(* the same for a list of answers, each keeping what it holds *)
Definition ansl (ids : list Z) (s : state) (T : list cap) (s1 : state) : Prop :=
  WF s1 T /\ KQ s s1 /\ OTL ids s s1 /\ forall j, X j s1 = X j s.
Lemma ansl_nil : forall s T, WF s T -> ansl [] s T s.
Proof. intros s T W. split; [exact W|split; [split; reflexivity|split; [intros i _; reflexivity|reflexivity]]]. Qed.
Lemma ansl_cons : forall id ids s T d s1 s2, ansd id s T d s1 -> (forall j, d j = awo j (aget id (s_ans s))) -> ansl ids s1 T s2 ->
  ansl (id :: ids) s T s2.
Proof.
  intros id ids s T d s1 s2 (_ & Q1 & O1 & D1) Hd (W2 & Q2 & O2 & D2). split; [exact W2|split; [eapply KQ_trans; eauto|split]].
  - intros i Hi. rewrite (O2 i), (O1 i); [reflexivity| |]; intros Hc; apply Hi; simpl; auto.
  - intros j. rewrite D2, D1, Hd. lia.
Qed.

Lemma rf_reject_all : forall ids s s1 o ab T, reject_all cfg_fixed ids s = Ok (s1, o, ab) -> WF s T -> ansl ids s T s1.
Proof.
  induction ids as [|id ids IH]; intros s s1 o ab T H W; simpl in H.
  - injection H as <- _ _. apply ansl_nil. exact W.
  - destruct (aget id (s_ans s)) as [a|] eqn:Ea.
    + unbind H as [[s' o'] b'] eqn:E.
      unbind H as [[s2 o2] b2] eqn:E2. injection H as <- _ _.
      pose proof (rf_reject _ _ _ _ _ _ T E W (WF_pa1 _ _ _ _ W Ea)) as R.
      eapply ansl_cons; [exact R|intros j; rewrite Ea; reflexivity|exact (IH _ _ _ _ T E2 (proj1 R))].
    + eapply ansl_cons; [apply (ansd_same id s T (fun _ => 0) W); intros j; rewrite Ea; reflexivity|intros j; rewrite Ea; reflexivity|exact (IH _ _ _ _ T H W)].
Qed.

Lemma rf_drain : forall r k rct lst ids s s1 o ab T, drain cfg_fixed r k rct lst ids s = Ok (s1, o, ab) -> WF s T -> ansl ids s T s1.
Proof.
  induction ids as [|id ids IH]; intros s s1 o ab T H W; simpl in H.
  - injection H as <- _ _. apply ansl_nil. exact W.
  - unbind H as [[s' o'] b'] eqn:E.
    unbind H as [[s2 o2] b2] eqn:E2. injection H as <- _ _.
    assert (STEP : ansd id s T (fun j => awo j (aget id (s_ans s))) s').
    { assert (SAME : Ok (s, @nil output, false) = Ok (s', o', b') -> ansd id s T (fun j => awo j (aget id (s_ans s))) s').
      { intros EE. injection EE as <- _ _. apply ansd_same; [exact W|reflexivity]. }
      destruct (aget id (s_ans s)) as [a|] eqn:Ea; [|apply SAME; exact E].
      pose proof (WF_pa1 _ _ _ _ W Ea) as Pa.
      destruct (a_st a) as [|srv|p x] eqn:Est; try (apply SAME; exact E).
      destruct (_ =? r); [eapply rf_deliver; eauto|].
      match type of E with context [aget ?ep (s_ans s)] => destruct (aget ep (s_ans s)) as [b|] end; [|eapply rf_reject; eauto].
      destruct (a_ready b); [destruct (a_err b); [eapply rf_reject; eauto|eapply rf_deliver; eauto]|].
      injection E as <- _ _. apply (rf_aput id (set_a_st (AQueued p x) a) s); [exact W|exact Pa|repeat split|reflexivity..]. }
    exact (ansl_cons _ _ _ _ _ _ _ STEP (fun j => eq_refl) (IH _ _ _ _ T E2 (proj1 STEP))).
Qed.

(* the entries of [tab] not yet embargoed came from the peer (no embargo promises); those embargoed so far
   are promises of this very Return *)
Lemma rf_embargo_caps : forall qid k called loc done tab s s1 tab1 o,
  embargo_caps cfg_fixed qid k called loc done tab s = Ok (s1, tab1, o) -> WF s tab ->
  (forall i lc, znth i tab = Some lc -> zmem i done = false -> not_emb lc) ->
  WF s1 tab1 /\ KA s s1 /\ forall j, X j s1 - cls j tab1 = X j s - cls j tab.
Proof.
  induction called as [|x called IH]; intros loc done tab s s1 tab1 o H W Nd; simpl in H.
  - injection H as <- <- _. split; [exact W|split; [apply KA_refl|reflexivity]].
  - destruct (transform_eval k x) as [|i| |]; try (eapply IH; eauto; fail).
    destruct (znth i tab) as [lc|] eqn:Ez; [|eapply IH; eauto].
    destruct (znth i loc) as [[|]|]; try (eapply IH; eauto; fail).
    destruct (zmem i done) eqn:Ed; [eapply IH; eauto|].
    unbind H as [e g] eqn:EG.
    unbind H as t eqn:ET.
    unbind H as [[s2 tab2] o2] eqn:E2.
    injection H as <- <- _. destruct W as (Ti & Ai & Ec & (G & S)).
    destruct (alloc_inv _ _ _ _ _ _ _ G S EG ET) as (G' & _ & S' & Hn & TG & PL).
    pose proof (Nd _ _ Ez Ed) as Nlc. apply znth_some in Ez. destruct Ez as [Hr Hnth].
    set (sa := set_allocs (s_allocs s + 1) (set_mgen g (set_emb t s))) in *.
    set (tab' := replace_nth (Z.to_nat i) (CEmb e) tab) in *.
    assert (Wa : WF sa tab').
    { split; [|split; [exact Ai|split; [|split; assumption]]].
      - apply TI_er. intros e'. unfold er. cbn [sa s_emb s_handles set_allocs set_mgen set_emb]. rewrite TG.
        specialize (proj1 (TI_er _ _) Ti e'). unfold er, tab'. rewrite (ces_replace e' _ _ (CEmb e) _ Hnth), (ce_ne e' lc Nlc). cbn [ce].
        rewrite (Z.eqb_sym e e'). destruct (e' =? e) eqn:Ee; [assert (e' = e) by lia; subst e'; rewrite Hn|]; cbn [e_refs]; lia.
      - eapply EC_in; [intros o0; apply (placed_in _ _ _ _ _ _ PL)| |exact Ec]. intros em Hv. injection Hv as <-. exact Nlc. }
    assert (Na : forall i0 lc0, znth i0 tab' = Some lc0 -> zmem i0 (i :: done) = false -> not_emb lc0).
    { intros i0 lc0 Hz Hm. simpl in Hm. apply orb_false_iff in Hm. destruct Hm as [Hi Hm]. unfold tab' in Hz.
      rewrite znth_replace in Hz by lia. replace (i0 =? i) with false in Hz by lia. eapply Nd; eauto. }
    destruct (IH _ _ _ _ _ _ _ E2 Wa Na) as (W2 & K2 & D2).
    split; [exact W2|split; [exact (KA_trans s sa s2 ltac:(repeat split) K2)|]].
    intros j. rewrite D2. unfold tab'. rewrite (cls_replace j _ _ (CEmb e) _ Hnth). change (cl j (CEmb e)) with 0.
    unfold X, RC. cbn [sa s_boot s_exp s_ans s_handles s_emb s_lrefs set_allocs set_mgen set_emb].
    rewrite (sum_placed _ (mw j) (EMB j) eq_refl (fun _ _ => eq_refl) _ _ None _ eq_refl PL). simpl mw. ring.
Qed.

Lemma hw_rewrite : forall j e x h, hw j (rewrite_handle e x h) = hw j h + he e h * cl j x.
Proof.
  intros j e x h. unfold rewrite_handle. destruct h as [q|c|]; cbn [hw he]; try ring. destruct c; cbn [hw he ce cl]; try ring.
  destruct (e0 =? e) eqn:E; cbn [hw cl]; ring.
Qed.
Lemma HND_rewrite : forall j e x l, HND j (map (rewrite_handle e x) l) = HND j l + HE e l * cl j x.
Proof. intros j e x l. induction l as [|h l IH]; simpl; [lia|]. rewrite IH, hw_rewrite. lia. Qed.
Lemma HE_rewrite : forall e' e x l, not_emb x -> HE e' (map (rewrite_handle e x) l) = if e' =? e then 0 else HE e' l.
Proof.
  intros e' e x l Nx. induction l as [|h l IH]; simpl; [destruct (e' =? e); reflexivity|]. rewrite IH.
  assert (Hh : he e' (rewrite_handle e x h) = if e' =? e then 0 else he e' h).
  { destruct h as [q|c|]; simpl; try (destruct (e' =? e); reflexivity). destruct c; simpl; try (destruct (e' =? e); reflexivity).
    destruct (e0 =? e) eqn:E0; simpl.
    - rewrite (ce_ne e' x Nx). destruct (e' =? e) eqn:E1; [reflexivity|]. replace (e0 =? e') with false by lia. reflexivity.
    - destruct (e' =? e) eqn:E1; [|reflexivity]. replace (e0 =? e') with false by lia. reflexivity. }
  rewrite Hh. destruct (e' =? e); lia.
Qed.

Lemma rf_wake_calls : forall e x l s, FX s (fst (wake_calls e x l s)) /\ s_lrefs (fst (wake_calls e x l s)) = s_lrefs s.
Proof.
  induction l as [|[[e' n] tag] l IH]; intros s; simpl; [repeat split|].
  destruct (e' =? e); [|apply IH].
  destruct x; try (specialize (IH s); destruct (wake_calls e _ l s); exact IH).
  match goal with |- context [wake_calls e ?x l ?s1] => specialize (IH s1); destruct (wake_calls e x l s1) end. exact IH.
Qed.

(* all handles that named the embargo now name its capability, and hold its references *)
Lemma rf_lift : forall e em s s1 o, lift cfg_fixed e em s = Ok (s1, o) -> not_emb (e_cap em) -> e_refs em = HE e (s_handles s) ->
  FX (set_handles (map (rewrite_handle e (e_cap em)) (s_handles s)) s) s1 /\ forall j, X j s1 = X j s - cl j (e_cap em).
Proof.
  intros e em s s1 o H Nc Hr. unfold lift in H. cbn [fx22 cfg_fixed negb] in H. rewrite andb_false_r in H. cbv iota in H.
  match type of H with context [wake_calls e ?x ?l ?s1] => set (sb := s1) in * end.
  pose proof (rf_wake_calls e (e_cap em) (s_ecalls sb) sb) as [F L].
  destruct (wake_calls e (e_cap em) (s_ecalls sb) sb) as [s2 o2]. cbn [fst] in F, L. injection H as <- _.
  set (d := if e_refs em =? 0 then -1 else e_refs em - 1) in *.
  assert (Fb : FX (set_handles (map (rewrite_handle e (e_cap em)) (s_handles s)) s) sb) by (unfold sb; destruct (e_cap em); repeat split).
  assert (Lb : forall j, cget j (s_lrefs sb) = cget j (s_lrefs s) + d * cl j (e_cap em)).
  { intros j0. unfold sb. destruct (e_cap em); cbn [lref_cap cl s_lrefs set_handles]; try lia.
    rewrite cget_lref. cbn [s_lrefs set_handles]. rewrite (Z.eqb_sym j j0). destruct (j0 =? j); lia. }
  pose proof (FX_trans _ _ _ Fb F) as F2. split; [exact F2|].
  intros j. change (X j (set_ecalls (filter (fun p => negb (fst (fst p) =? e)) (s_ecalls s2)) s2)) with (X j s2).
  rewrite (X_FX j _ _ F2), L, Lb. unfold X, RC. cbn [s_boot s_exp s_ans s_handles s_emb s_lrefs set_handles]. rewrite HND_rewrite.
  pose proof (HE_nonneg e (s_handles s)). unfold d. destruct (e_refs em =? 0) eqn:E0; [replace (HE e (s_handles s)) with 0 by lia; lia|].
  rewrite <- Hr. lia.
Qed.

(* [HB]: an unfinished bootstrap question is named by its handle.  [RI], the invariant between handlers:
   no transient table ([WF s []]), [s_lrefs] is exactly what the tables hold, and [HB] *)
Definition HB (s : state) : Prop := forall qid q h, tget qid (s_qs s) = Some q -> q_fin q = false -> q_boot q = Some h ->
  znth h (s_handles s) = Some (HBoot qid).
Definition RI (s : state) : Prop :=
  (forall j, X j s = 0) /\ TI s [] /\ AI s /\ EC (s_emb s) /\ XM s /\ HB s.

Lemma HB_same : forall s s1, KQ s s1 -> HB s -> HB s1.
Proof. intros s s1 [A B] H. unfold HB. rewrite A, B. exact H. Qed.
Lemma HB_qinert : forall s o s1, qinert s o s1 -> HB s -> HB s1.
Proof. intros s o s1 [(F1 & F2 & _) _] H. apply (HB_same s); [split; assumption|exact H]. Qed.

Lemma RI_WF : forall s, RI s -> WF s [].
Proof. intros s (_ & Ti & Ai & Ec & Xm & _). exact (conj Ti (conj Ai (conj Ec Xm))). Qed.
Lemma RI_HB : forall s, RI s -> HB s.
Proof. intros s R. apply R. Qed.
Lemma RI_of : forall s, WF s [] -> (forall j, X j s = 0) -> HB s -> RI s.
Proof. intros s (Ti & Ai & Ec & Xm) Hx Hb. exact (conj Hx (conj Ti (conj Ai (conj Ec (conj Xm Hb))))). Qed.
(* after a handler that keeps questions and handles *)
Lemma RI_step : forall s s1, RI s -> WF s1 [] -> KQ s s1 -> (forall j, X j s1 = X j s) -> RI s1.
Proof.
  intros s s1 R W1 Q X1. apply RI_of; [exact W1|intros j; rewrite X1; apply R|apply (HB_same s); [exact Q|apply R]].
Qed.
Lemma RI_ansd : forall id s d s1, RI s -> ansd id s [] d s1 -> (forall j, d j = awo j (aget id (s_ans s))) -> RI s1.
Proof. intros id s d s1 R (W1 & Q & _ & D) Hd. apply (RI_step s s1 R W1 Q). intros j. rewrite D, Hd. lia. Qed.
(* states that differ in fields [RI] does not read, and in the questions *)
Lemma RI_frame : forall s s1, RI s -> FX (set_qs (s_qs s1) s) s1 -> s_lrefs s1 = s_lrefs s -> HB s1 -> RI s1.
Proof.
  intros s s1 R F L Hb. apply RI_of; [exact (WF_FX _ _ _ F (RI_WF _ R))| |exact Hb].
  intros j. rewrite (X_eq j _ _ F L). apply R.
Qed.

Lemma pa1_new : forall tab mok tag, noemb tab -> pa1 (new_answer tab mok tag).
Proof. intros tab mok tag N. split; [exact N|split; [simpl; discriminate|reflexivity]]. Qed.
Lemma pa1_placeholder : pa1 placeholder.
Proof. split; [constructor|split; [simpl; discriminate|reflexivity]]. Qed.

Lemma ri_handle_bootstrap : forall id s s0 o0 ab, handle_bootstrap cfg_fixed id s = Ok (s0, o0, ab) -> RI s -> RI s0.
Proof.
  intros id s s0 o0 ab H R. pose proof (RI_WF _ R) as W. unfold handle_bootstrap in H.
  destruct (aget id (s_ans s)) eqn:Ea; [injection H as <- _ _; exact R|].
  destruct (negb (s_boot s)).
  - apply (RI_ansd id s _ _ R (rf_send_exception _ _ _ _ _ _ [] H W eq_refl)). intros j. rewrite Ea. reflexivity.
  - unbind H as [[s1 o] err] eqn:E.
    destruct err; [discriminate|]. injection H as <- _ _.
    destruct (rf_send_return _ _ _ _ _ _ _ _ [] E W eq_refl) as (W1 & Q & _ & D).
    apply (RI_step s); auto. intros j. rewrite D, X_lref. change (s_ans (lref 1 0 s)) with (s_ans s). rewrite Ea.
    cbn [awo rct_caps map cls cl]. rewrite (Z.eqb_sym 0 j). destruct (j =? 0); lia.
Qed.

Lemma ri_handle_finish : forall id rrc s s0 o0 ab, handle_finish cfg_fixed id rrc s = Ok (s0, o0, ab) -> RI s -> RI s0.
Proof.
  intros id rrc s s0 o0 ab H R. pose proof (RI_WF _ R) as W. unfold handle_finish in H.
  destruct (aget id (s_ans s)) as [a|] eqn:Ea; [|injection H as <- _ _; exact R].
  destruct (a_fin a); [injection H as <- _ _; exact R|].
  pose proof (WF_pa1 _ _ _ _ W Ea) as Pa.
  destruct (negb (a_ret a)) eqn:Er.
  - injection H as <- _ _. eapply (RI_ansd id s); [exact R|apply (rf_aput id (set_a_fin rrc a) s); [exact W|exact Pa|repeat split|reflexivity..]|].
    intros j. rewrite Ea. reflexivity.
  - apply (RI_ansd id s _ _ R (rf_destroy _ _ _ _ _ _ [] H W)). intros j. rewrite Ea. cbn [awo]. unfold aw. cbn [a_rct set_a_fin].
    rewrite (proj1 (proj2 Pa) ltac:(destruct (a_ret a); [reflexivity|discriminate])). reflexivity.
Qed.

Lemma ri_handle_release : forall id n s s0 o0 ab, handle_release cfg_fixed id n s = Ok (s0, o0, ab) -> RI s -> RI s0.
Proof.
  intros id n s s0 o0 ab H R. unfold handle_release in H.
  pose proof (rf_release_export id n s [] (RI_WF _ R)) as F. destruct (release_export id n s) as [[s1 oc] err].
  destruct F as (W1 & [Q1 _] & X1 & N1).
  destruct err; [injection H as <- _ _; exact R|].
  destruct oc as [x|].
  - unbind H as [s2 o] eqn:E. injection H as <- _ _.
    destruct (rf_release_cap_ne _ _ _ _ E (N1 x eq_refl)) as [F2 X2].
    apply (RI_step s _ R); [exact (WF_FX _ _ _ F2 W1)|exact (KQ_trans _ _ _ Q1 (proj1 (KA_FX _ _ F2)))|].
    intros j. rewrite X2, X1. simpl. lia.
  - injection H as <- _ _. apply (RI_step s _ R); auto. intros j. rewrite X1. simpl. lia.
Qed.

(* a Call under the free id [id]: the capability table of the message is received as [held] (state s1); every path then
   stores or destroys an answer under [id] and releases a list, which together hold [held] *)
Lemma ri_call_fin : forall id s s1 held s0, RI s -> aget id (s_ans s) = None -> recvd s [] (s1, held) ->
  WF s1 [] /\ noemb held /\
  forall d s2 l o2, ansd id s1 [] d s2 -> release_caps cfg_fixed l s2 = Ok (s0, o2) -> noemb l -> (forall j, d j + cls j l = cls j held) -> RI s0.
Proof.
  intros id s s1 held s0 R Ea (F1 & N1 & X1). cbn [fst snd] in F1, N1, X1. pose proof (WF_FX _ _ _ F1 (RI_WF _ R)) as W1.
  split; [exact W1|split; [exact N1|]]. intros d s2 l o2 (W2 & Q2 & _ & D2) E2 Nl Hd.
  destruct (KA_FX _ _ F1) as [Q1 A1]. destruct (rf_release_caps_ne _ _ _ _ E2 Nl) as [F3 D3].
  apply (RI_step s _ R); [exact (WF_FX _ _ _ F3 W2)|exact (KQ_trans _ _ _ (KQ_trans _ _ _ Q1 Q2) (proj1 (KA_FX _ _ F3)))|].
  intros j. rewrite D3, D2, A1, Ea, X1. specialize (Hd j). simpl. lia.
Qed.

Lemma ri_handle_call : forall id tg params toCaller mok tag s s0 o0 ab,
  handle_call cfg_fixed id tg params toCaller mok tag s = Ok (s0, o0, ab) -> RI s -> RI s0.
Proof.
  intros id tg params toCaller mok tag s s0 o0 ab H R. pose proof (WF_EN _ _ (RI_WF _ R)) as He.
  destruct toCaller; [|injection H as <- _ _; exact R].
  destruct (handle_call_cases _ _ _ _ _ _ _ H) as [a _ E|s1 tab Ea _ D E|s1 tab pt (Ea & _ & _ & p & k & loc & _ & Er) _ E
    |s1 tab e x w (Ea & _ & _ & p & k & loc & _ & Er) _ E|s1 tab t x ta (Ea & _ & _ & p & k & loc & _ & Er) _ _ _ _ _ E
    |s1 tab t x ta (Ea & _ & _ & p & k & loc & _ & Er) _ _ _ _ _ E|s1 tab t x ta (Ea & _ & _ & p & k & loc & _ & Er) _ _ _ _ _ E
    |s1 tab t x ta _ _ _ _ E]; try discriminate E.
  1: injection E as <- _ _; exact R.
  1: assert (RV : recvd s [] (s1, tab)) by
       (destruct D as [(_ & -> & ->)|(p & _ & [Er|(k & loc & Er & _)])]; [split; [apply FX_refl|split; [constructor|intros j; simpl; lia]]|..];
        pose proof (rf_recv_payload p s He) as RV; rewrite Er in RV; exact RV).
  2-6: pose proof (rf_recv_payload p s He) as RV; rewrite Er in RV; cbn [pl_st] in RV.
  all: destruct (ri_call_fin id s s1 tab s0 R Ea RV) as (W1 & N1 & FIN); pose proof (pa1_new tab mok tag N1) as Pa.
  (* an answer that keeps [tab] as its arguments *)
  all: assert (STO : forall a, ansd id s1 [] (fun j => aw j a) s0 -> a_args a = tab -> a_rct a = [] -> RI s0) by
         (intros a Da <- Hr; apply (FIN _ s0 [] [] Da eq_refl (Forall_nil _)); intros j; unfold aw; rewrite Hr; simpl; lia).
  - unbind E as [[s2 o2] b2] eqn:E2. unbind E as [s3 o3] eqn:E3. injection E as <- _ _.
    exact (FIN _ _ _ _ (rf_send_exception _ _ _ _ _ _ [] E2 W1 eq_refl) E3 N1 (fun j => eq_refl)).
  - unbind E as [s2 o2] eqn:E2. injection E as <- _ _. refine (FIN (fun j => aw j placeholder) _ _ _ _ E2 N1 (fun j => eq_refl)).
    apply (rf_aput id placeholder s1); [exact W1|exact pa1_placeholder|repeat split|reflexivity..].
  - exact (STO _ (rf_deliver _ _ _ _ _ _ _ [] E W1 Pa) eq_refl eq_refl).
  - exact (STO _ (rf_reject _ _ _ _ _ _ [] E W1 Pa) eq_refl eq_refl).
  - exact (STO _ (rf_deliver _ _ _ _ _ _ _ [] E W1 Pa) eq_refl eq_refl).
  - injection E as <- _ _. apply (STO (set_a_st (AQueued t x) (new_answer tab mok tag))); [|reflexivity..].
    apply (rf_aput id _ s1); [exact W1|exact Pa|repeat split|reflexivity..].
Qed.

Lemma er_tclear : forall t e i, er i (tclear e t) = if i =? e then 0 else er i t.
Proof. intros t e i. unfold er. rewrite tget_tclear. destruct (i =? e); reflexivity. Qed.
Lemma EMB_tclear : forall j t e em, tget e t = Some em -> EMB j (tclear e t) = EMB j t - cl j (e_cap em).
Proof.
  intros j t e em H. apply tget_some in H. destruct H as [Hr Hn]. unfold tclear.
  replace ((0 <=? e) && (e <? Z.of_nat (length t))) with true by lia. rewrite (EMB_replace j t _ None _ Hn). simpl. lia.
Qed.
Lemma slots_free_remove : forall A (g : idgen) (t : tbl A) id, slots_free g t -> slots_free (gen_remove id g) (tclear id t).
Proof. intros A g t id S. apply gen_remove_slots; [apply slots_free_tclear; exact S|rewrite tget_tclear, Z.eqb_refl; reflexivity]. Qed.

Lemma ri_handle_disembargo : forall tg cx s s0 o0 ab, handle_disembargo cfg_fixed tg cx s = Ok (s0, o0, ab) -> RI s -> RI s0.
Proof.
  intros tg cx s s0 o0 ab H R. pose proof R as (Hx & Ti & Ai & Ec & (G & S) & Hb). unfold handle_disembargo in H.
  destruct (parse_target tg); [|injection H as <- _ _; exact R].
  destruct cx as [i|e|]; [injection H as <- _ _; exact R| |injection H as <- _ _; exact R].
  destruct (tget e (s_emb s)) as [em|] eqn:Eg; [|injection H as <- _ _; exact R].
  match type of H with (bind (lift cfg_fixed e em ?sx) _) = _ => set (sa := sx) in *; unbind H as [s1 o1] eqn:EL end.
  injection H as <- _ _.
  pose proof (tget_some _ _ _ _ Eg) as [Hr Hn]. pose proof (proj1 (TI_er _ _) Ti e) as Te. unfold er in Te. rewrite Eg in Te. simpl in Te.
  assert (Nc : not_emb (e_cap em)) by (apply Ec; eapply tget_in; eauto).
  destruct (rf_lift _ _ _ _ _ EL Nc ltac:(change (s_handles sa) with (s_handles s); lia)) as [F Xl].
  apply RI_of; [apply (WF_FX _ _ _ F); split; [|split; [exact Ai|split]]| |].
  - apply TI_er. intros e'. cbn [sa s_emb s_handles set_handles set_mgen set_emb]. rewrite er_tclear, (HE_rewrite e' e _ _ Nc).
    specialize (proj1 (TI_er _ _) Ti e'). simpl. destruct (e' =? e); lia.
  - cbn [sa s_emb set_handles set_mgen set_emb]. eapply EC_in; [intros o; apply tclear_in|discriminate|exact Ec].
  - unfold XM. cbn [sa s_emb s_mgen set_handles set_mgen set_emb]. rewrite tclear_length.
    split; [apply gen_remove_ok; [exact G|lia]|apply slots_free_remove; exact S].
  - intros j. rewrite Xl. unfold sa, X, RC. cbn [s_boot s_exp s_ans s_handles s_emb s_lrefs set_mgen set_emb].
    rewrite (EMB_tclear j _ _ _ Eg). specialize (Hx j). unfold X, RC in Hx. lia.
  - intros qid q h Hq Hf Hbq. destruct F as ((_ & Q & _ & _ & _ & _ & Hh) & _). rewrite Q in Hq. rewrite Hh.
    apply (znth_map _ _ (rewrite_handle e (e_cap em)) _ _ _ (Hb _ _ _ Hq Hf Hbq)).
Qed.

Lemma WF_handles : forall s hs T T', (forall e, HE e hs + ces e T' = HE e (s_handles s) + ces e T) -> WF s T -> WF (set_handles hs s) T'.
Proof.
  intros s hs T T' Hh (Ti & R). split; [|exact R]. apply TI_er. intros e. cbn [s_emb s_handles set_handles].
  rewrite (proj1 (TI_er _ _) Ti e). specialize (Hh e). lia.
Qed.
Lemma X_set_handles : forall j s hs, X j (set_handles hs s) = X j s + HND j (s_handles s) - HND j hs.
Proof. intros. unfold X, RC. cbn [s_boot s_exp s_ans s_handles s_emb s_lrefs set_handles]. lia. Qed.

(* the bootstrap handle resolves to x: one more reference on x, held by the handle *)
Lemma rf_resolve : forall h x s T qid, WF s T -> (not_emb x \/ In x T) -> znth h (s_handles s) = Some (HBoot qid) ->
  let s1 := set_handle h (HCap x) (addref_cap x s) in
  WF s1 T /\ s_qs s1 = s_qs s /\ s_handles s1 = replace_nth (Z.to_nat h) (HCap x) (s_handles s) /\ forall j, X j s1 = X j s.
Proof.
  intros h x s T qid W Hx Hz. pose proof (znth_some _ _ _ _ Hz) as [Hr Hn]. cbv zeta. unfold set_handle.
  assert (NE : not_emb x -> let sr := addref_cap x s in
            WF (set_handles (replace_nth (Z.to_nat h) (HCap x) (s_handles sr)) sr) T /\ s_qs sr = s_qs s /\
            replace_nth (Z.to_nat h) (HCap x) (s_handles sr) = replace_nth (Z.to_nat h) (HCap x) (s_handles s) /\
            forall j, X j (set_handles (replace_nth (Z.to_nat h) (HCap x) (s_handles sr)) sr) = X j s).
  { intros Nx sr. destruct (rf_addref_ne x s Nx) as [F D]. fold sr in F, D. destruct F as ((B & Q & E & G & M & MG & H) & A).
    rewrite H. split; [|split; [exact Q|split; [reflexivity|]]].
    - apply (WF_handles _ _ T); [|apply (WF_FX s); [repeat split; assumption|exact W]]. intros e. rewrite H, (HE_replace e _ _ (HCap x) _ Hn).
      cbn [he]. rewrite (ce_ne e x Nx). lia.
    - intros j. rewrite X_set_handles, D, H, (HND_replace j _ _ (HCap x) _ Hn). cbn [hw]. lia. }
  destruct x; try (apply NE; exact I).
  destruct Hx as [Hx|Hx]; [contradiction|].
  (* an embargo promise of this very Return: it is in the table, so its entry counts at least one holder *)
  apply In_nth_error in Hx. destruct Hx as [n Hx]. pose proof (sum_ge _ (ce e) (ces e) eq_refl (fun _ _ => eq_refl) (ce_nonneg e) _ _ _ Hx) as Cp.
  cbn [ce] in Cp. rewrite Z.eqb_refl in Cp.
  pose proof (proj1 (TI_er _ _) (proj1 W) e) as Te. unfold er in Te. pose proof (HE_nonneg e (s_handles s)).
  cbn [addref_cap]. destruct (tget e (s_emb s)) as [em|] eqn:Eg; [|lia]. replace (0 <? e_refs em) with true by lia.
  split; [|split; [reflexivity|split; [reflexivity|]]].
  - eapply (WF_recount s _ e em (e_refs em + 1)); try reflexivity; [exact Eg| |exact W].
    intros i. cbn [s_handles set_handles set_emb]. rewrite (HE_replace i _ _ (HCap (CEmb e)) _ Hn). cbn [he ce].
    rewrite (Z.eqb_sym e i). destruct (i =? e); lia.
  - intros j. rewrite X_set_handles. unfold X, RC. cbn [s_boot s_exp s_ans s_handles s_emb s_lrefs set_emb].
    rewrite (HND_replace j _ _ (HCap (CEmb e)) _ Hn), (EMB_same_cap j _ _ _ _ Eg) by reflexivity. cbn [hw cl]. lia.
Qed.

(* the question [qid] has left the table; its bootstrap handle, if it had one, may have been overwritten *)
Lemma HB_return : forall s sx qid q, HB s -> tget qid (s_qs s) = Some q -> s_qs sx = tclear qid (s_qs s) ->
  (s_handles sx = s_handles s \/ exists h v, q_fin q = false /\ q_boot q = Some h /\ s_handles sx = replace_nth (Z.to_nat h) v (s_handles s)) ->
  HB sx.
Proof.
  intros s sx qid q Hb Eq Qx Hh qid' q' h' Hq Hf Hbq. rewrite Qx, tget_tclear in Hq. destruct (qid' =? qid) eqn:E; [discriminate|].
  pose proof (Hb _ _ _ Hq Hf Hbq) as Hz'. destruct Hh as [->|(h & v & Ef & Eb & ->)]; [exact Hz'|].
  pose proof (Hb _ _ _ Eq Ef Eb) as Hz0. assert (h' <> h) by (intros ->; rewrite Hz0 in Hz'; inversion Hz'; lia).
  apply znth_some in Hz0. rewrite znth_replace by lia. replace (h' =? h) with false by lia. exact Hz'.
Qed.

(* the three stages of a Return for question [qid], and the closing releases *)
Lemma rf_return_open : forall qid q rpc s s1 pc, RI s -> return_open qid q rpc s = (s1, pc) ->
  WF s1 [] /\ s_qs s1 = tclear qid (s_qs s) /\ s_handles s1 = s_handles s /\ (forall j, X j s1 = cls j pc) /\ noemb pc.
Proof.
  intros qid q rpc s s1 pc R H. unfold return_open in H. set (sa := set_qs (tclear qid (s_qs s)) s) in *.
  destruct rpc; [|injection H as <- <-; split; [exact (RI_WF _ R)|split; [reflexivity|split; [reflexivity|split; [intros j; apply R|constructor]]]]].
  pose proof (rf_release_exports (q_prefs q) sa [] (RI_WF _ R)) as F. destruct (release_exports (q_prefs q) sa) as [[sx cl0] e].
  injection H as <- <-. destruct F as (W1 & [[Q1 H1] _] & X1 & N1). split; [exact W1|split; [exact Q1|split; [exact H1|split; [|exact N1]]]].
  intros j. rewrite X1. change (X j sa) with (X j s). rewrite (proj1 R j). lia.
Qed.

Lemma rf_return_parsed : forall qid q k s1 s2 parsed tor disemb, return_parsed qid q k s1 s2 parsed tor disemb -> WF s1 [] ->
  let T := match parsed with Some (_, tab) => tab | None => tor end in
  WF s2 T /\ KQ s1 s2 /\ forall j, X j s2 = X j s1 + cls j T.
Proof.
  intros qid q k s1 s2 parsed tor disemb [_ -> -> -> _|p _ Er -> _|p sb kc tab loc tab3 _ Er Ee -> _] W1; cbv zeta.
  1: split; [exact W1|split; [split; reflexivity|intros j; simpl; lia]].
  all: pose proof (rf_recv_payload p s1 (WF_EN _ _ W1)) as Cp; rewrite Er in Cp; destruct Cp as (Fp & Np & Xp).
  all: cbn [pl_st fst snd] in Fp, Np, Xp; pose proof (WF_ces _ [] _ (fun e => ces_noemb e _ Np) (WF_FX _ _ _ Fp W1)) as Wp.
  - split; [exact Wp|split; [exact (proj1 (KA_FX _ _ Fp))|intros j; rewrite Xp; simpl; lia]].
  - destruct (rf_embargo_caps _ _ _ _ _ _ _ _ _ _ Ee Wp
                ltac:(intros i lc Hz _; apply znth_some in Hz; eapply noemb_nth; [exact Np|apply (proj2 Hz)])) as (W3 & [Q3 _] & D3).
    split; [exact W3|split; [exact (KQ_trans _ _ _ (proj1 (KA_FX _ _ Fp)) Q3)|]].
    intros j. specialize (D3 j). rewrite Xp in D3. simpl in D3. lia.
Qed.

Lemma ri_released : forall pc sx T o4 s4 o5 s5, noemb pc -> WF sx T -> (forall j, X j sx = cls j pc + cls j T) -> HB sx ->
  release_caps cfg_fixed T sx = Ok (s4, o4) -> release_caps cfg_fixed pc s4 = Ok (s5, o5) -> RI s5.
Proof.
  intros pc sx T o4 s4 o5 s5 Npc Wx Xx Hbx E4 E5.
  destruct (rf_release_caps _ _ _ _ [] E4 ltac:(rewrite app_nil_r; exact Wx)) as (W4 & [Q4 _] & X4).
  destruct (rf_release_caps_ne _ _ _ _ E5 Npc) as [F5 X5].
  apply RI_of; [exact (WF_FX _ _ _ F5 W4)|intros j; rewrite X5, X4, Xx; lia|].
  apply (HB_same sx); [exact (KQ_trans _ _ _ Q4 (proj1 (KA_FX _ _ F5)))|exact Hbx].
Qed.

Lemma ri_handle_return : forall qid rpc k s s0 o0 ab, handle_return cfg_fixed qid rpc k s = Ok (s0, o0, ab) -> RI s -> RI s0.
Proof.
  intros qid rpc k s s0 o0 ab H R. pose proof (RI_HB _ R) as Hb.
  destruct (handle_return_cases _ _ _ _ _ _ _ H) as [_ -> _ _|q s1 pc Eq Eo Ef E2 _|q s1 pc s2 parsed tor disemb sr rel pre s3 o3 s5 o5 Eq Eo Ef P RR E3 E5 -> _ _];
    [exact R|destruct (rf_return_open _ _ _ _ _ _ R Eo) as (W1 & Q1 & H1 & X1 & Npc)..].
  - refine (ri_released pc (set_qgen (gen_remove qid (s_qgen s1)) s1) [] _ _ _ _ Npc W1 _ _ eq_refl E2);
      [intros j; cbn [cls]; rewrite Z.add_0_r; exact (X1 j)|exact (HB_return s _ qid q Hb Eq Q1 (or_introl H1))].
  - change (RI s5). destruct (rf_return_parsed _ _ _ _ _ _ _ _ P W1) as (W2 & [Q2 H2] & X2). rewrite Q1 in Q2. rewrite H1 in H2.
    (* the promise is resolved with the table still held, then the table is released *)
    destruct RR as [h kc tab Eb -> -> -> _|h Eb -> -> -> _|kc tab Eb -> -> -> _|Eb -> -> -> _].
    + pose proof (Hb _ _ _ Eq Ef Eb) as Hz. rewrite <- H2 in Hz.
      assert (Hxr : not_emb (ret_cap kc tab) \/ In (ret_cap kc tab) tab).
      { unfold ret_cap. destruct (transform_eval kc []) as [|ix| |]; try (left; exact I). destruct (znth ix tab) as [y|] eqn:Ey; [|left; exact I].
        right. apply znth_some in Ey. eapply nth_error_In. apply (proj2 Ey). }
      destruct (rf_resolve h _ s2 tab qid W2 Hxr Hz) as (Wr & Qr & Hr & Xr).
      refine (ri_released pc _ tab _ _ _ _ Npc Wr _ _ E3 E5); [intros j; rewrite Xr, X2, X1; reflexivity|].
      apply (HB_return s _ qid q Hb Eq); [rewrite Qr; exact Q2|right; exists h, (HCap (ret_cap kc tab)); rewrite Hr, H2; auto].
    + pose proof (Hb _ _ _ Eq Ef Eb) as Hz. rewrite <- H2 in Hz.
      destruct (rf_resolve h CErr s2 tor qid W2 (or_introl I) Hz) as (Wr & Qr & Hr & Xr).
      refine (ri_released pc _ tor _ _ _ _ Npc Wr _ _ E3 E5); [intros j; rewrite Xr, X2, X1; reflexivity|].
      apply (HB_return s _ qid q Hb Eq); [rewrite Qr; exact Q2|right; exists h, (HCap CErr); rewrite Hr, H2; auto].
    + refine (ri_released pc s2 tab _ _ _ _ Npc W2 _ (HB_return s s2 qid q Hb Eq Q2 (or_introl H2)) E3 E5). intros j. rewrite X2, X1. reflexivity.
    + refine (ri_released pc s2 tor _ _ _ _ Npc W2 _ (HB_return s s2 qid q Hb Eq Q2 (or_introl H2)) E3 E5). intros j. rewrite X2, X1. reflexivity.
Qed.

Lemma HB_new : forall q s s1 id, new_question q s = Ok (s1, id) -> live s -> q_boot q = None -> HB s -> HB s1.
Proof.
  intros q s s1 id H L Qb Hb. destruct (new_question_q _ _ _ _ H L) as (Hn & TG & Hh & _).
  intros qid q0 h Hq Hf Hbq. rewrite TG in Hq. rewrite Hh. destruct (qid =? id); [inversion Hq; subst; congruence|eapply Hb; eauto].
Qed.

Lemma HB_replace : forall s id q q', tget id (s_qs s) = Some q ->
  (q_fin q' = false -> forall h, q_boot q' = Some h -> q_boot q = Some h /\ q_fin q = false) -> HB s ->
  HB (set_qs (replace_nth (Z.to_nat id) (Some q') (s_qs s)) s).
Proof.
  intros s id q q' Hg Hc Hb qid q0 h Hq Hf Hbq. cbn [s_qs s_handles set_qs] in *.
  rewrite (tget_replace_same _ _ _ _ _ _ Hg) in Hq. destruct (qid =? id) eqn:E; [|eapply Hb; eauto].
  inversion Hq; subst q0. assert (qid = id) by lia. subst qid. destruct (Hc Hf h Hbq) as [C1 C2]. eapply Hb; eauto.
Qed.

Lemma rf_new_question : forall q s s1 id, new_question q s = Ok (s1, id) -> FX (set_qs (s_qs s1) s) s1 /\ s_lrefs s1 = s_lrefs s.
Proof.
  intros q s s1 id H. unfold new_question in H. destruct (gen_next (s_qgen s)) as [[i g]| |]; cbn [bind] in H; try discriminate.
  destruct (tput i q (s_qs s)) as [t| |]; cbn [bind] in H; try discriminate. injection H as <- _. repeat split.
Qed.

Lemma ri_send_call : forall s s1 n caps (mk : Z -> list desc -> output) s0 o0 ab, live s1 -> RI s1 -> s_handles s1 = s_handles s ->
  forallb (acap_ok s) caps = true ->
  (do '(s2, id) <- new_question (mkQ None n false [] [] None) s1;
   do '(s3, ds, refs) <- fill_caps cfg_fixed (map (acap_cap s2) caps) s2;
   let s4 := if fx19 cfg_fixed then set_qs (replace_nth (Z.to_nat id) (Some (mkQ None n false [] refs None)) (s_qs s3)) s3 else s3 in
   Ok (s4, [mk id ds], false)) = Ok (s0, o0, ab) -> RI s0.
Proof.
  intros s s1 n caps mk s0 o0 ab L1 R Hh Hc H.
  unbind H as [s2 id] eqn:E.
  destruct (new_question_q _ _ _ _ E L1) as (Hn & TG & Hh1 & _). destruct (rf_new_question _ _ _ _ E) as [F2 L2].
  pose proof (RI_frame s1 s2 R F2 L2 (HB_new _ _ _ _ E L1 eq_refl (RI_HB _ R))) as R2.
  unbind H as [[s3 ds] refs] eqn:E3.
  cbn [fx19 cfg_fixed] in H. injection H as <- _ _.
  destruct (rf_fill_caps _ _ _ _ _ [] E3 (caps_not_emb s s2 caps ltac:(congruence) Hc) (RI_WF _ R2)) as (W3 & [Q3 _] & X3).
  pose proof (RI_step s2 s3 R2 W3 Q3 X3) as R3.
  assert (T3 : tget id (s_qs s3) = Some (mkQ None n false [] [] None)) by (rewrite (proj1 Q3), TG, Z.eqb_refl; reflexivity).
  apply (RI_frame s3); [exact R3|repeat split|reflexivity|]. eapply HB_replace; [exact T3| |apply R3].
  intros _ h0 Hh0. discriminate.
Qed.

Lemma RI_ncall : forall s v, RI s -> RI (set_ncall v s).
Proof. intros s v R. exact R. Qed.

Lemma ri_app_pipe : forall q0 x caps s s0 o0 ab, app_pipe cfg_fixed q0 x caps s = Ok (s0, o0, ab) ->
  (s_shut s = false -> live s) -> forallb (acap_ok s) caps = true -> RI s -> RI s0.
Proof.
  intros q0 x caps s s0 o0 ab H Lv Hc R. unfold app_pipe, next_call in H.
  set (sa := set_ncall (s_ncall s + 1) s) in *.
  assert (SIMPLE : forall c, Ok (sa, [LAppRes (s_ncall s) c], false) = Ok (s0, o0, ab) -> RI s0).
  { intros c E. injection E as <- _ _. exact R. }
  destruct (s_shut sa) eqn:Es; [apply (SIMPLE _ H)|]. pose proof (Lv Es) as L.
  destruct (tget q0 (s_qs sa)) as [q|] eqn:Eq; [|apply (SIMPLE _ H)].
  destruct (q_fin q) eqn:Ef; [apply (SIMPLE _ H)|].
  pose proof (tget_some _ _ _ _ Eq) as [Hr Hn].
  set (s1 := set_qs (replace_nth (Z.to_nat q0) (Some (mark_called x q)) (s_qs sa)) sa) in *.
  assert (La : live sa) by (eapply live_core; [exact L|reflexivity]).
  assert (L1 : live s1) by (apply live_set_qs; [exact La|apply replace_nth_length|eapply slots_free_replace; [apply qs_slots; exact La|exact Hn]]).
  destruct (mark_called_same x q) as (S1 & S2 & S3 & S4).
  assert (R1 : RI s1).
  { apply (RI_frame s); [exact R|repeat split|reflexivity|]. apply (HB_replace sa q0 q (mark_called x q) Eq); [intros _ h0 Hh0; split; [congruence|exact Ef]|apply R]. }
  eapply (ri_send_call s s1); [exact L1|exact R1|reflexivity|exact Hc|exact H].
Qed.

Lemma ri_app_call : forall h caps tag s s0 o0 ab, app_call cfg_fixed h caps tag s = Ok (s0, o0, ab) ->
  (s_shut s = false -> live s) -> forallb (acap_ok s) caps = true -> RI s -> RI s0.
Proof.
  intros h caps tag s s0 o0 ab H Lv Hc R. unfold app_call in H.
  destruct (hget h s) as [q0|x|]; [eapply ri_app_pipe; eauto| |unfold next_call in H; injection H as <- _ _; exact R].
  unfold next_call in H. set (sa := set_ncall (s_ncall s + 1) s) in *.
  destruct x; try (injection H as <- _ _; exact R).
  destruct (s_shut sa) eqn:Es; [injection H as <- _ _; exact R|]. pose proof (Lv Es) as L.
  destruct (negb (imp_current i g sa)); [injection H as <- _ _; exact R|].
  assert (La : live sa) by (eapply live_core; [exact L|reflexivity]).
  eapply (ri_send_call s sa); [exact La|exact R|reflexivity|exact Hc|exact H].
Qed.

Lemma ri_app_hold : forall h s s0 o0 ab, app_hold cfg_fixed h s = Ok (s0, o0, ab) -> (s_shut s = false -> live s) -> RI s -> RI s0.
Proof.
  intros h s s0 o0 ab H Lv R. unfold app_hold, next_call in H.
  set (sa := set_ncall (s_ncall s + 1) s) in *.
  destruct (hget h sa) as [q0|x|]; try (injection H as <- _ _; exact R).
  destruct x; try (injection H as <- _ _; exact R).
  destruct (s_shut sa) eqn:Es; [injection H as <- _ _; exact R|]. cbn [orb] in H. pose proof (Lv Es) as L.
  destruct (negb (imp_current i g sa)); [injection H as <- _ _; exact R|].
  assert (La : live sa) by (eapply live_core; [exact L|reflexivity]).
  unbind H as [s2 id] eqn:E. injection H as <- _ _.
  destruct (rf_new_question _ _ _ _ E) as [F2 L2].
  apply (RI_frame s); [exact R|exact F2|exact L2|]. exact (HB_new _ _ _ _ E La eq_refl (RI_HB _ R)).
Qed.

Lemma ri_app_unhold : forall n s s0 o0 ab, app_unhold cfg_fixed n s = Ok (s0, o0, ab) -> RI s -> RI s0.
Proof.
  intros n s s0 o0 ab H R. unfold app_unhold in H.
  destruct (find_held n (s_qs s) 0) as [[qid q]|] eqn:Ef; [|injection H as <- _ _; exact R].
  destruct (find_held_tget _ _ _ _ Ef) as [Eq Hheld].
  destruct (q_held q) as [[[i g] cs]|] eqn:Eh; [|injection H as <- _ _; exact R].
  destruct (s_shut s); [injection H as <- _ _; exact R|].
  set (q' := mkQ None (q_call q) (q_fin q) [] [] None) in *.
  set (s1 := set_qs (replace_nth (Z.to_nat qid) (Some q') (s_qs s)) s) in *.
  assert (R1 : RI s1).
  { apply (RI_frame s); [exact R|repeat split|reflexivity|]. apply (HB_replace s qid q q' Eq); [|apply R].
    intros _ h0 Hh0. discriminate. }
  match type of H with context [if ?c then _ else _] => destruct c end.
  - unbind H as [s3 o3] eqn:E3.
    injection H as <- _ _. destruct (rf_imp_shutdown _ _ _ _ _ E3) as [F L].
    apply (RI_step s1 _ R1); [exact (WF_FX _ _ _ F (RI_WF _ R1))|exact (proj1 (KA_FX _ _ F))|intros j; exact (X_eq j _ _ F L)].
  - injection H as <- _ _. exact R1.
Qed.

Lemma ri_app_cancel : forall qid s s0 o0 ab, app_cancel cfg_fixed qid s = Ok (s0, o0, ab) -> RI s -> RI s0.
Proof.
  intros qid s s0 o0 ab H R. unfold app_cancel in H.
  destruct (s_shut s); [injection H as <- _ _; exact R|].
  destruct (tget qid (s_qs s)) as [q|] eqn:Eq; [|injection H as <- _ _; exact R].
  destruct (q_fin q || (q_call q <? 0) || _); [injection H as <- _ _; exact R|].
  unfold cancel_question in H. cbn [bind] in H. injection H as <- _ _.
  apply (RI_frame s); [exact R|repeat split|reflexivity|]. eapply HB_replace; [exact Eq| |apply R]. cbn [q_fin]. discriminate.
Qed.

Lemma ri_app_bootstrap : forall s s0 o0 ab, app_bootstrap cfg_fixed s = Ok (s0, o0, ab) -> (s_shut s = false -> live s) -> RI s -> RI s0.
Proof.
  intros s s0 o0 ab H Lv R. pose proof (RI_HB _ R) as Hb. unfold app_bootstrap in H.
  (* a handle that holds no reference is appended *)
  assert (APP : forall sx v, FX (set_qs (s_qs sx) s) sx -> s_lrefs sx = s_lrefs s -> (forall j, hw j v = 0) -> (forall e, he e v = 0) ->
            HB (set_handles (s_handles sx ++ [v]) sx) -> RI (set_handles (s_handles sx ++ [v]) sx)).
  { intros sx v F L Hw Hv Hb1. pose proof (WF_FX _ _ _ F (RI_WF _ R)) as Wx. apply RI_of; [|intros j|exact Hb1].
    - apply (WF_handles sx _ [] []); [|exact Wx]. intros e. rewrite HE_app. cbn [HE]. rewrite Hv. lia.
    - rewrite X_set_handles, HND_app. cbn [HND]. rewrite Hw, (X_eq j _ _ F L). change (X j (set_qs (s_qs sx) s)) with (X j s). rewrite (proj1 R j). lia. }
  destruct (s_shut s) eqn:Es.
  - injection H as <- _ _. apply (APP s (HCap CErr)); try reflexivity; [repeat split|].
    intros qid q h Hq Hf Hbq. cbn [s_qs s_handles set_handles] in *. apply znth_app_old. eapply Hb; eauto.
  - pose proof (Lv eq_refl) as L.
    unbind H as [s1 id] eqn:E. injection H as <- _ _.
    destruct (new_question_q _ _ _ _ E L) as (Hn & TG & Hh1 & _). destruct (rf_new_question _ _ _ _ E) as [F1 L1].
    apply (APP s1 (HBoot id)); auto.
    intros qid q h Hq Hf Hbq. cbn [s_qs s_handles set_handles] in *. rewrite TG in Hq. rewrite Hh1. destruct (qid =? id) eqn:Ei.
    + inversion Hq; subst q. cbn [q_boot] in Hbq. inversion Hbq; subst h. assert (qid = id) by lia. subst qid.
      unfold znth. rewrite app_length. simpl. replace ((Z.of_nat (length (s_handles s)) <? 0) || (Z.of_nat (length (s_handles s) + 1) <=? Z.of_nat (length (s_handles s)))) with false by lia.
      rewrite Nat2Z.id, nth_error_app2 by lia. rewrite Nat.sub_diag. reflexivity.
    + apply znth_app_old. eapply Hb; eauto.
Qed.

Lemma ri_app_release : forall h s s0 o0 ab, app_release cfg_fixed h s = Ok (s0, o0, ab) ->
  (s_shut s = true -> s_qs s = []) -> RI s -> RI s0.
Proof.
  intros h s s0 o0 ab H Sq R. pose proof (RI_WF _ R) as W. pose proof (RI_HB _ R) as Hb. unfold app_release in H.
  destruct (hget h s) as [qid|x|] eqn:Eh; [| |injection H as <- _ _; exact R];
    pose proof (hget_znth _ _ _ Eh ltac:(discriminate)) as Hz; pose proof (znth_some _ _ _ _ Hz) as [Hr Hn];
    set (sa := set_handle h HGone s) in *.
  - (* the handle of an unresolved bootstrap weighs nothing *)
    assert (Ra : forall t, HB (set_qs t sa) -> RI (set_qs t sa)).
    { intros t Hb1. apply RI_of; [|intros j|exact Hb1].
      - apply (WF_handles s _ [] []); [|exact W]. intros e. rewrite (HE_replace e _ _ HGone _ Hn). cbn [he]. lia.
      - change (X j (set_qs t sa)) with (X j sa). unfold sa, set_handle. rewrite X_set_handles, (HND_replace j _ _ HGone _ Hn), (proj1 R j). cbn [hw]. lia. }
    assert (HBa : forall qid' q' h', qid' <> qid \/ q_fin q' = true -> tget qid' (s_qs s) = Some q' -> q_fin q' = false -> q_boot q' = Some h' ->
              znth h' (s_handles sa) = Some (HBoot qid')).
    { intros qid' q' h' Hne Hq Hf Hbq. pose proof (Hb _ _ _ Hq Hf Hbq) as Hz'.
      assert (h' <> h) by (intros ->; rewrite Hz in Hz'; inversion Hz'; destruct Hne; congruence).
      unfold sa, set_handle. cbn [s_handles set_handles]. rewrite znth_replace by lia. replace (h' =? h) with false by lia. exact Hz'. }
    destruct (s_shut sa) eqn:Es.
    + injection H as <- _ _. apply (Ra (s_qs s)). intros qid' q' h' Hq. cbn [s_qs set_qs] in Hq. rewrite (Sq Es), tget_nil in Hq. discriminate.
    + destruct (tget qid (s_qs sa)) as [q|] eqn:Eq.
      * destruct (q_fin q) eqn:Ef.
        -- injection H as <- _ _. apply (Ra (s_qs s)). intros qid' q' h' Hq Hf Hbq. cbn [s_qs set_qs] in Hq.
           apply (HBa qid' q' h'); auto. destruct (Z.eq_dec qid' qid); [subst; change (s_qs sa) with (s_qs s) in Eq; rewrite Eq in Hq; inversion Hq; subst; right; exact Ef|left; exact n].
        -- unfold cancel_question in H. cbn [bind] in H. injection H as <- _ _.
           match goal with |- RI (set_qs ?t sa) => apply (Ra t) end.
           intros qid' q' h' Hq Hf Hbq. cbn [s_qs s_handles set_qs] in Hq |- *. change (s_qs sa) with (s_qs s) in Hq, Eq.
           rewrite (tget_replace_same _ _ _ _ _ _ Eq) in Hq. destruct (qid' =? qid) eqn:E; [inversion Hq; subst q'; cbn [q_fin] in Hf; discriminate|].
           apply (HBa qid' q' h'); auto. left. lia.
      * injection H as <- _ _. apply (Ra (s_qs s)). intros qid' q' h' Hq Hf Hbq. cbn [s_qs set_qs] in Hq.
        apply (HBa qid' q' h'); auto. left. intros ->. change (s_qs sa) with (s_qs s) in Eq. congruence.
  - unbind H as [s1 o] eqn:E. injection H as <- _ _.
    (* the reference the handle held is the one released *)
    assert (Wa : WF sa [x]).
    { apply (WF_handles s _ [] [x]); [|exact W]. intros e. rewrite (HE_replace e _ _ HGone _ Hn). cbn [he ces]. lia. }
    destruct (rf_release_cap _ _ _ _ [] E Wa) as (W1 & [[Q1 H1] _] & X1).
    apply RI_of; [exact W1|intros j|].
    + rewrite X1. unfold sa, set_handle. rewrite X_set_handles, (HND_replace j _ _ HGone _ Hn), (proj1 R j). cbn [hw]. lia.
    + intros qid' q' h' Hq Hf Hbq. rewrite Q1 in Hq. rewrite H1. pose proof (Hb _ _ _ Hq Hf Hbq) as Hz'.
      assert (h' <> h) by (intros ->; rewrite Hz in Hz'; discriminate).
      unfold sa, set_handle. cbn [s_handles set_handles]. rewrite znth_replace by lia. replace (h' =? h) with false by lia. exact Hz'.
Qed.

Lemma rf_addrefs_local : forall rct s, FX s (addrefs_local rct s) /\ forall j, X j (addrefs_local rct s) = X j s + cls j (rct_caps rct).
Proof.
  induction rct as [|[k|] rct IH]; intros s; simpl.
  - split; [apply FX_refl|intros j; lia].
  - destruct (IH (lref 1 k s)) as [F D]. split; [exact F|]. intros j. rewrite D, X_lref. rewrite (Z.eqb_sym k j). destruct (j =? k); lia.
  - destruct (IH s) as [F D]. split; [exact F|]. intros j. rewrite D. lia.
Qed.

(* a running call returns: its arguments are released, the answer holds nothing until it takes the results [rc];
   the calls queued on it are drained or rejected from [sm] in between *)
Lemma ri_running : forall k id a s s1 o1, RI s -> live s -> find_running k (s_ans s) = Some (id, a) ->
  release_caps cfg_fixed (a_args a) s = Ok (s1, o1) ->
  WF (ret_start id a s1) [] /\ (forall j, X j (ret_start id a s1) = 0) /\ a_rct a = [] /\
  forall sm (rc : list (option Z)) s2 s0, FX (ret_start id a s1) sm -> (forall j, X j sm = cls j (rct_caps rc)) ->
    ansl (queued_under (s_ans sm) (s_queue sm) [id]) sm [] s2 -> ansd id s2 [] (fun j => cls j (rct_caps rc)) s0 -> RI s0.
Proof.
  intros k id a s s1 o1 R L Ef E1. pose proof (RI_WF _ R) as W. pose proof W as (_ & (K & P & _) & _).
  pose proof (find_running_aget _ _ _ _ K Ef) as Ea. destruct (find_running_some _ _ _ _ Ef) as [[jr Hst] Hin].
  pose proof (PA_aget _ _ _ P Ea) as (Na & Ra & Rc).
  assert (Hrc : a_rct a = []).
  { apply Rc. destruct L as [_ (_ & _ & _ & Ao & _)]. simpl in Ao. destruct (Ao _ _ Hin) as [_ A2]. apply A2. rewrite Hst. discriminate. }
  destruct (rf_release_caps_ne _ _ _ _ E1 Na) as [F1 X1]. destruct (KA_FX _ _ F1) as [Q1 A1].
  set (a1 := set_a_args [] a) in *. set (s1' := ret_start id a s1) in *.
  assert (W0 : forall j, aw j a1 = 0) by (intros j; unfold aw; cbn [a1 a_args a_rct set_a_args]; rewrite Hrc; reflexivity).
  assert (D1 : ansd id s1 [] (fun j => aw j a1) s1').
  { apply (rf_aput id a1 s1); [exact (WF_FX _ _ _ F1 W)|split; [constructor|split; [reflexivity|exact Rc]]|repeat split|reflexivity..]. }
  destruct D1 as (W1 & _ & _ & D1).
  assert (X1' : forall j, X j s1' = 0).
  { intros j. rewrite D1, X1, A1, Ea, W0, (proj1 R j). cbn [awo]. unfold aw. rewrite Hrc. simpl. lia. }
  split; [exact W1|split; [exact X1'|split; [exact Hrc|]]].
  intros sm rc s2 s0 Fm Xm (_ & Q3 & O3 & D3) (W4 & Q4 & _ & D4). destruct (KA_FX _ _ Fm) as [Qm Am].
  assert (Ea1 : aget id (s_ans s1') = Some a1) by (cbn [s1' ret_start s_ans set_ans]; rewrite aget_aput, Z.eqb_refl; reflexivity).
  (* the running answer itself is not among the queued ones *)
  assert (NIN : ~ In id (queued_under (s_ans sm) (s_queue sm) [id])).
  { intros Hi. apply queued_under_queued in Hi. destruct Hi as (a' & p & y & Hg & Hq). rewrite Am, Ea1 in Hg. inversion Hg; subst a'.
    cbn [a1 a_st set_a_args] in Hq. rewrite Hst in Hq. discriminate. }
  apply (RI_step s _ R W4); [exact (KQ_trans _ _ _ (KQ_trans s s1' sm Q1 Qm) (KQ_trans _ _ _ Q3 Q4))|].
  intros j. rewrite D4, D3, Xm, (O3 id NIN), Am, Ea1, (proj1 R j). cbn [awo]. rewrite W0. lia.
Qed.

Lemma ri_app_return : forall k r s s0 o0 ab, app_return cfg_fixed k r s = Ok (s0, o0, ab) -> (s_shut s = false -> live s) ->
  (s_shut s = true -> s_ans s = []) -> RI s -> RI s0.
Proof.
  intros k r s s0 o0 ab H Lv Sa R.
  assert (L : forall id a, find_running k (s_ans s) = Some (id, a) -> live s).
  { intros id a Ef. apply Lv. destruct (s_shut s); [rewrite (Sa eq_refl) in Ef; discriminate|reflexivity]. }
  destruct (app_return_cases _ _ _ _ _ _ _ H) as [n _ _ -> _ _|_ _ -> _ _|id a s1 o1 s2 o2 b2 o3 b3 Ef _ E1 E2 E3 _ _|id a kc rct s1 o1 s2 o2 b2 o3 b3 Ef _ E1 E2 E3 _ _].
  - apply (RI_frame s); [exact R|repeat split|reflexivity|apply R].
  - exact R.
  - destruct (ri_running _ _ _ _ _ _ R (L _ _ Ef) Ef E1) as (W1 & X1 & Hrc & FIN).
    pose proof (rf_reject_all _ _ _ _ _ [] E2 W1) as D3. refine (FIN _ [] _ _ (FX_refl _) X1 D3 _).
    eapply ansd_pre; [apply KA_refl| |exact (rf_send_exception _ _ _ _ _ _ [] E3 (proj1 D3) eq_refl)].
    intros j. cbn [a_rct set_a_args]. rewrite Hrc. reflexivity.
  - destruct (ri_running _ _ _ _ _ _ R (L _ _ Ef) Ef E1) as (W1 & X1 & _ & FIN). destruct (rf_addrefs_local rct (ret_start id a s1)) as [Fa Xa].
    pose proof (rf_drain _ _ _ _ _ _ _ _ _ [] E2 (WF_FX _ _ _ Fa W1)) as D3.
    refine (FIN _ rct _ _ Fa _ D3 (rf_send_return _ _ _ _ _ _ _ _ [] E3 (proj1 D3) eq_refl)). intros j. rewrite Xa, X1. lia.
Qed.

Lemma ri_handler : forall e s s0 o0 ab, handler cfg_fixed e s = Ok (s0, o0, ab) -> (s_shut s = false -> live s) ->
  (s_shut s = true -> s_qs s = [] /\ s_ans s = []) -> env_ok s e = true -> RI s -> RI s0.
Proof.
  intros e s s0 o0 ab H Lv Sh Henv R.
  destruct e; simpl in H; try (injection H as <- _ _; exact R).
  - eapply ri_handle_bootstrap; eauto.
  - eapply ri_handle_call; eauto.
  - eapply ri_handle_return; eauto.
  - eapply ri_handle_finish; eauto.
  - eapply ri_handle_release; eauto.
  - eapply ri_handle_disembargo; eauto.
  - eapply ri_app_bootstrap; eauto.
  - eapply ri_app_call; eauto.
  - eapply ri_app_pipe; eauto.
  - eapply ri_app_return; eauto. intros Hs. apply (Sh Hs).
  - eapply ri_app_release; eauto. intros Hs. apply (Sh Hs).
  - eapply ri_app_cancel; eauto.
  - eapply ri_app_hold; eauto.
  - eapply ri_app_unhold; eauto.
Qed.

(* a connection that is shut down: the tables are empty, so [s_lrefs] counts the handles only, and no
   handle names an embargo *)
Definition RS (s : state) : Prop :=
  s_qs s = [] /\ s_ans s = [] /\ s_exp s = [] /\ s_emb s = [] /\ s_boot s = false /\
  (forall j, cget j (s_lrefs s) = HND j (s_handles s)) /\ (forall e, HE e (s_handles s) = 0).

Lemma HND_fail : forall j l, HND j (map fail_handle l) = HND j l.
Proof. intros j l. induction l as [|h l IH]; simpl; [reflexivity|]. rewrite IH. destruct h; reflexivity. Qed.
Lemma HE_fail : forall e l, HE e (map fail_handle l) = HE e l.
Proof. intros e l. induction l as [|h l IH]; simpl; [reflexivity|]. rewrite IH. destruct h; reflexivity. Qed.

Lemma cls_exp_clients : forall j t, cls j (exp_clients t) = EXP j t.
Proof. intros j t. unfold exp_clients. induction t as [|[[x w]|] t IH]; simpl; [reflexivity| |exact IH]. rewrite IH. lia. Qed.
Lemma noemb_exp_clients : forall t, EN t -> noemb (exp_clients t).
Proof.
  intros t H. unfold noemb, exp_clients. apply Forall_forall. intros x Hx. apply in_flat_map in Hx. destruct Hx as ([[y w]|] & Hin & Hy); [|destruct Hy].
  destruct Hy as [<-|[]]. eapply H; eauto.
Qed.

(* the arguments of every answer are released while the table still lists them *)
Lemma rf_release_all_args : forall l s s1 o, release_all_args cfg_fixed l s = Ok (s1, o) -> PA l ->
  FX s s1 /\ forall j, X j s1 = X j s - fold_right (fun p acc => cls j (a_args (snd p)) + acc) 0 l.
Proof.
  induction l as [|[id a] l IH]; intros s s1 o H P; simpl in H.
  - injection H as <- _. split; [apply FX_refl|intros j; simpl; lia].
  - unbind H as [sa oa] eqn:E1.
    unbind H as [sb ob] eqn:E2. injection H as <- _.
    destruct (rf_release_caps_ne _ _ _ _ E1 (proj1 (P id a (or_introl eq_refl)))) as [F1 X1].
    destruct (IH _ _ _ E2 (fun i b Hi => P i b (or_intror Hi))) as [F2 X2].
    split; [eapply FX_trans; eauto|intros j; rewrite X2, X1; simpl; lia].
Qed.

Lemma rf_release_answers : forall l s s1 o, release_answers cfg_fixed l s = Ok (s1, o) ->
  FX s s1 /\ forall j, X j s1 = X j s - fold_right (fun p acc => cls j (rct_caps (a_rct (snd p))) + acc) 0 l.
Proof.
  induction l as [|[id a] l IH]; intros s s1 o H; simpl in H.
  - injection H as <- _. split; [apply FX_refl|intros j; simpl; lia].
  - unbind H as [sa oa] eqn:E1. rewrite andb_false_r in H.
    unbind H as [sb ob] eqn:E2. injection H as <- _.
    destruct (rf_release_caps_ne _ _ _ _ E1 (rct_caps_not_emb _)) as [F1 X1]. destruct (IH _ _ _ E2) as [F2 X2].
    split; [eapply FX_trans; eauto|intros j; rewrite X2, X1; simpl; lia].
Qed.

Lemma ANS_split : forall j l, ANS j l = fold_right (fun p acc => cls j (a_args (snd p)) + acc) 0 l + fold_right (fun p acc => cls j (rct_caps (a_rct (snd p))) + acc) 0 l.
Proof. intros j l. induction l as [|[id a] l IH]; simpl; [reflexivity|]. rewrite IH. unfold aw. lia. Qed.

Lemma er_cons : forall k o t, er k (o :: t) = if k =? 0 then match o with Some em => e_refs em | None => 0 end else er (k - 1) t.
Proof.
  intros k o t. unfold er, tget, znth. cbn [length]. destruct (k =? 0) eqn:E0.
  - assert (k = 0) by lia. subst k. simpl. destruct o; reflexivity.
  - destruct (k <? 0) eqn:E1; cbn [orb].
    + replace (k - 1 <? 0) with true by lia. reflexivity.
    + replace (k - 1 <? 0) with false by lia. cbn [orb]. replace (Z.of_nat (S (length t)) <=? k) with (Z.of_nat (length t) <=? k - 1) by lia.
      destruct (_ <=? _); [reflexivity|]. replace (Z.to_nat k) with (S (Z.to_nat (k - 1))) by lia. reflexivity.
Qed.

(* lifting every embargo of the saved table [t], whose entries have the ids from [i] on *)
Lemma rf_lift_all : forall t i s s1 o, lift_all cfg_fixed t i s = Ok (s1, o) -> EC t ->
  (forall e, HE e (s_handles s) = er (e - i) t) ->
  (forall j, X j s1 = X j s - EMB j t) /\ (forall e, HE e (s_handles s1) = 0).
Proof.
  induction t as [|[em|] t IH]; intros i s s1 o H Ec Hh; simpl in H.
  - injection H as <- _. split; [intros j; simpl; lia|]. intros e. rewrite Hh. unfold er. rewrite tget_nil. reflexivity.
  - unbind H as [sa oa] eqn:E1.
    unbind H as [sb ob] eqn:E2. injection H as <- _.
    assert (Nc : not_emb (e_cap em)) by (apply Ec; left; reflexivity).
    pose proof (Hh i) as Hr. rewrite Z.sub_diag, er_cons in Hr. cbn [Z.eqb] in Hr.
    destruct (rf_lift _ _ _ _ _ E1 Nc (eq_sym Hr)) as [((_ & _ & _ & _ & _ & _ & H1) & _) X1]. cbn [s_handles set_handles] in H1.
    destruct (IH (i + 1) sa sb ob E2 (fun em' Hi => Ec em' (or_intror Hi))) as [X2 Z2].
    + intros e. rewrite H1, (HE_rewrite e i _ _ Nc). destruct (e =? i) eqn:E.
      * unfold er. rewrite (tget_out _ t (e - (i + 1)) ltac:(lia)). reflexivity.
      * rewrite Hh, er_cons. replace (e - i =? 0) with false by lia. f_equal. lia.
    + split; [intros j; rewrite X2, X1; simpl; lia|exact Z2].
  - destruct (IH (i + 1) s s1 o H (fun em' Hi => Ec em' (or_intror Hi))) as [X2 Z2].
    + intros e. rewrite Hh, er_cons. destruct (e - i =? 0) eqn:E; [unfold er; rewrite (tget_out _ t (e - (i + 1)) ltac:(lia)); reflexivity|f_equal; lia].
    + split; [intros j; rewrite X2; simpl; lia|exact Z2].
Qed.

(* shutdown empties the tables: what the answers and exports held is now held by the handler *)
Lemma X_tables_cleared : forall j s, X j (set_handles (map fail_handle (s_handles s))
    (set_queue [] (set_busy [] (set_dead [] (set_imp [] (set_exp [] (set_qs [] (set_ans [] s)))))))) = X j s + EXP j (s_exp s) + ANS j (s_ans s).
Proof.
  intros j s. unfold X, RC. cbn [s_boot s_exp s_ans s_handles s_emb s_lrefs set_handles set_queue set_busy set_dead set_imp set_exp set_qs set_ans].
  rewrite HND_fail. cbn [EXP ANS]. lia.
Qed.
(* ... and gives the bootstrap capability back *)
Lemma rf_unboot : forall s, let s3 := if s_boot s then set_boot false (lref (-1) 0 s) else s in
  s_boot s3 = false /\ s_emb s3 = s_emb s /\ s_handles s3 = s_handles s /\ forall j, X j s3 = X j s.
Proof.
  intros s. cbv zeta. destruct (s_boot s) eqn:Eb; [|repeat split; exact Eb]. repeat split. intros j. unfold X, RC.
  cbn [s_boot s_exp s_ans s_handles s_emb s_lrefs set_boot lref set_lrefs]. rewrite Eb, cget_cadd. cbn [andb].
  destruct (j =? 0) eqn:E0; [assert (j = 0) by lia; subst j|]; cbv iota; lia.
Qed.

Lemma do_shutdown_RS : forall abort s s1 o, do_shutdown cfg_fixed abort s = Ok (s1, o) -> tables_empty s1 -> RI s -> RS s1.
Proof.
  intros abort s s1 o H (Tq & Ta & Te & _ & Tm & _) R. pose proof R as (Hx & Ti & (K & P & He & Hxs) & Ec & Xm & Hb). unfold do_shutdown in H.
  unbind H as [sa o1] eqn:E1. destruct (rf_release_all_args _ _ _ _ E1 P) as [((_ & _ & E1e & _ & M1 & _ & H1) & A1) X1].
  cbn [s_exp s_emb s_handles s_ans set_shut] in E1e, M1, H1, A1, X1.
  match type of H with context [release_caps _ _ ?s3'] => set (s3 := s3') in *; destruct (rf_unboot (set_handles (map fail_handle (s_handles sa))
    (set_queue [] (set_busy [] (set_dead [] (set_imp [] (set_exp [] (set_qs [] (set_ans [] sa))))))))) as (B3 & M3 & H3 & X3); fold s3 in B3, M3, H3, X3 end.
  cbn [s_emb s_handles set_handles set_queue set_busy set_dead set_imp set_exp set_qs set_ans] in M3, H3.
  unbind H as [s4 o4] eqn:E4. unbind H as [s5 o5] eqn:E5. unbind H as [s6 o6] eqn:E6. injection H as <- _.
  destruct (rf_release_caps_ne _ _ _ _ E4 (noemb_exp_clients (s_exp sa) ltac:(rewrite E1e; exact He))) as [((B4 & _ & _ & _ & M4 & _ & H4) & _) X4].
  rewrite M4, M3, M1 in E5.
  destruct (rf_lift_all (s_emb s) 0 (set_emb [] s4) s5 o5 E5 Ec) as [X5 Z5].
  { intros e. cbn [s_handles set_emb]. rewrite H4, H3, H1, HE_fail, Z.sub_0_r, (proj1 (TI_er _ _) Ti e). simpl. lia. }
  destruct (lift_all_lifted _ _ _ _ _ _ E5) as [(h & lr & n & lc & ec & E5') _].
  destruct (rf_release_answers _ _ _ _ E6) as [((B6 & _ & _ & _ & _ & _ & H6) & _) X6].
  assert (Bf : s_boot s6 = false) by (rewrite B6, E5'; cbn [s_boot set_ecalls set_ndeliv set_lcalls set_lrefs set_handles set_emb]; rewrite B4; exact B3).
  split; [exact Tq|split; [exact Ta|split; [exact Te|split; [exact Tm|split; [exact Bf|split]]]]].
  - (* all that was held has been released: X j s6 = 0, and the tables of s6 are empty *)
    intros j. assert (X0 : X j s6 = 0).
    { rewrite X6, X5, A1. unfold X at 1, RC. cbn [s_boot s_exp s_ans s_handles s_emb s_lrefs set_emb]. cbn [EMB].
      specialize (X4 j). rewrite X3, X_tables_cleared, X1, A1, E1e, cls_exp_clients, (ANS_split j (s_ans s)) in X4. change (X j (set_shut true s)) with (X j s) in X4.
      rewrite (Hx j) in X4. unfold X, RC in X4. rewrite M4, M3, M1 in X4. lia. }
    unfold X, RC in X0. rewrite Ta, Te, Tm, Bf in X0. simpl in X0. lia.
  - intros e. rewrite H6. apply Z5.
Qed.

(* a connection that is shut down: only the handles hold references *)
Lemma RS_frame : forall s s1, RS s -> s_qs s1 = s_qs s -> s_ans s1 = s_ans s -> s_exp s1 = s_exp s -> s_emb s1 = s_emb s ->
  s_boot s1 = s_boot s -> s_lrefs s1 = s_lrefs s -> s_handles s1 = s_handles s -> RS s1.
Proof. intros s s1 (A & B & C & D & E & F & G) Q1 Q2 Q3 Q4 Q5 Q6 Q7. unfold RS. rewrite Q1, Q2, Q3, Q4, Q5, Q6, Q7. repeat split; assumption. Qed.

(* the handles change to [hs], which hold the same references as before on every server and embargo *)
Lemma RS_handles : forall s hs, RS s -> (forall j, HND j hs = HND j (s_handles s)) -> (forall e, HE e hs = HE e (s_handles s)) -> RS (set_handles hs s).
Proof.
  intros s hs (Q & A & E & M & B & L & Z) Hn He. unfold RS. cbn [s_qs s_ans s_exp s_emb s_boot s_lrefs s_handles set_handles].
  split; [exact Q|split; [exact A|split; [exact E|split; [exact M|split; [exact B|split]]]]].
  - intros j. rewrite Hn. apply L.
  - intros e. rewrite He. apply Z.
Qed.

Lemma rs_handler : forall e s s0 o0 ab, handler cfg_fixed e s = Ok (s0, o0, ab) -> s_shut s = true -> is_peer e = false -> RS s -> RS s0.
Proof.
  intros e s s0 o0 ab H Hs Hp R. pose proof R as (Q & A & E & M & B & L & Z).
  destruct e; simpl in Hp; try discriminate; simpl in H.
  - unfold app_bootstrap in H. rewrite Hs in H. injection H as <- _ _.
    apply RS_handles; [exact R|intros j; rewrite HND_app; simpl; lia|intros e; rewrite HE_app; simpl; lia].
  - unfold app_call in H. destruct (hget h s) as [q0|x|].
    + unfold app_pipe, next_call in H. cbn [s_shut set_ncall] in H. rewrite Hs in H. injection H as <- _ _. exact R.
    + destruct x; unfold next_call in H; try (injection H as <- _ _; exact R).
      cbn [s_shut set_ncall] in H. rewrite Hs in H. injection H as <- _ _. exact R.
    + unfold next_call in H. injection H as <- _ _. exact R.
  - unfold app_pipe, next_call in H. cbn [s_shut set_ncall] in H. rewrite Hs in H. injection H as <- _ _. exact R.
  - unfold app_return in H. rewrite A in H. cbn [find_running] in H. destruct (aget k (s_lcalls s)); injection H as <- _ _; exact R.
  - unfold app_release in H. destruct (hget h s) as [qid|x|] eqn:Eh; [| |injection H as <- _ _; exact R];
      pose proof (hget_znth _ _ _ Eh ltac:(discriminate)) as Hz; pose proof (znth_some _ _ _ _ Hz) as [Hr Hn].
    + cbn [s_shut set_handle set_handles] in H. rewrite Hs in H. injection H as <- _ _.
      apply RS_handles; [exact R|intros j; rewrite (HND_replace j _ _ HGone _ Hn); simpl; lia|intros e; rewrite (HE_replace e _ _ HGone _ Hn); simpl; lia].
    + unbind H as [s1 o] eqn:E1. injection H as <- _ _.
      (* no handle names an embargo any more *)
      assert (Nx : not_emb x).
      { destruct x; try exact I. pose proof (HE_ge e _ _ _ Hn) as G. simpl in G. rewrite Z.eqb_refl, Z in G. lia. }
      destruct (rf_release_cap_ne _ _ _ _ E1 Nx) as [((B1 & Q1 & E1e & _ & M1 & _ & H1) & A1) X1].
      unfold RS. rewrite Q1, A1, E1e, M1, B1, H1. unfold set_handle. cbn [s_qs s_ans s_exp s_emb s_boot s_handles set_handles].
      split; [exact Q|split; [exact A|split; [exact E|split; [exact M|split; [exact B|split]]]]].
      * intros j. specialize (X1 j). unfold X, RC in X1. rewrite A1, E1e, M1, B1, H1 in X1. unfold set_handle in X1.
        cbn [s_boot s_exp s_ans s_handles s_emb s_lrefs set_handles] in X1. rewrite A, E, M, B in X1. simpl in X1.
        rewrite (HND_replace j _ _ HGone _ Hn) in *. simpl hw in *. specialize (L j). lia.
      * intros e. rewrite (HE_replace e _ _ HGone _ Hn), Z. simpl he. rewrite (ce_ne e x Nx). lia.
  - unfold app_cancel in H. rewrite Hs in H. injection H as <- _ _. exact R.
  - unfold app_hold, next_call in H. destruct (hget h _) as [q0|x|]; try (injection H as <- _ _; exact R).
    destruct x; try (injection H as <- _ _; exact R). cbn [s_shut set_ncall] in H. rewrite Hs in H. cbn [orb] in H.
    injection H as <- _ _. exact R.
  - unfold app_unhold in H. rewrite Q in H. cbn [find_held] in H. injection H as <- _ _. exact R.
  - injection H as <- _ _. exact R.
Qed.

Definition CI (s : state) : Prop := if s_shut s then RS s else RI s.

Lemma CI_init : forall boot, CI (init boot).
Proof.
  intros boot. unfold CI. simpl. split; [|split; [|split; [|split; [|split]]]].
  - intros j. unfold X, RC. cbn [init s_boot s_exp s_ans s_handles s_emb s_lrefs EXP ANS HND EMB]. destruct boot; cbn [andb]; [|reflexivity].
    unfold cget. cbn [aget]. rewrite (Z.eqb_sym 0 j). destruct (j =? 0); reflexivity.
  - intros e. simpl. rewrite tget_nil. split; reflexivity.
  - split; [constructor|split; [intros id a []|split; [intros x w []|]]]. split; [split; [reflexivity|constructor]|intros x []].
  - intros em [].
  - split; [split; [reflexivity|constructor]|intros x []].
  - intros qid q h Hq. simpl in Hq. rewrite tget_nil in Hq. discriminate.
Qed.

Lemma step_CI : forall s e W s1 o, sinv s W -> W + ev_work e < LIM -> env_ok s e = true -> step_case s e s1 o -> CI s -> CI s1.
Proof.
  intros s e W s1 o _ _ Henv SC C. unfold CI in *.
  assert (UP : forall s0 o0 ab, live s -> handler cfg_fixed e s = Ok (s0, o0, ab) -> RI s0).
  { intros s0 o0 ab L H. pose proof (live_shut _ L) as Hs. rewrite Hs in C.
    eapply ri_handler; [exact H|intros _; exact L|congruence|exact Henv|exact C]. }
  destruct SC as [Hs _ _ ->|s0 ab [Hs _] Hp H [S0 _] ->|abort s2 L _ H T2 S2 ->|s0 L H [S0 _] _ ->|s0 o0 s2 o2 L H _ H2 T2 S2 _ ->];
    cbn [s_shut set_out].
  - rewrite Hs in *. exact C.
  - rewrite Hs in C. rewrite S0. exact (rs_handler _ _ _ _ _ H Hs Hp C).
  - rewrite (live_shut _ L) in C. rewrite S2. exact (do_shutdown_RS _ _ _ _ H T2 C).
  - rewrite S0. exact (UP _ _ _ L H).
  - rewrite S2. exact (do_shutdown_RS _ _ _ _ H2 T2 (UP _ _ _ L H)).
Qed.

Lemma HND_zero : forall j l, (forall h, In h l -> h <> HCap (CLocal j)) -> HND j l = 0.
Proof.
  intros j l H. induction l as [|h l IH]; simpl; [reflexivity|]. rewrite IH by (intros h' Hh'; apply H; right; exact Hh').
  destruct h as [q|x|]; simpl; try reflexivity. destruct x; simpl; try reflexivity. destruct (j0 =? j) eqn:E; [|reflexivity].
  exfalso. apply (H (HCap (CLocal j0))); [left; reflexivity|]. f_equal. f_equal. lia.
Qed.

(* C07 close_releases_all over histories.  [s_lrefs] counts the references held on local server j.
   While the connection is up it equals, exactly, what the tables hold: the bootstrap capability,
   the exports whose client is j, the capabilities j in the arguments and result tables of the
   answers, the handles resolved to j and the embargoes on j ([RC]); every embargo's reference
   count is the number of handles that name it.  After Close (or an Abort) every table is empty
   and the count is exactly the number of application handles still resolved to j -- so a server
   none of whose handles is left has count 0: every reference the connection ever took has been
   given back, once (the equation holds at every step, the count never runs ahead of the holders). *)
Theorem close_releases_all : forall boot evs s out, work evs < LIM -> run_o (init boot) evs [] = Ok (s, out) ->
  (s_shut s = false -> forall j, cget j (s_lrefs s) = RC j s) /\
  (s_shut s = true -> s_qs s = [] /\ s_ans s = [] /\ s_exp s = [] /\ s_emb s = [] /\ s_boot s = false /\
                      forall j, cget j (s_lrefs s) = HND j (s_handles s)) /\
  (s_shut s = true -> forall j, (forall h, In h (s_handles s) -> h <> HCap (CLocal j)) -> cget j (s_lrefs s) = 0).
Proof.
  intros boot evs s out Hb H.
  destruct (run_o_ind (fun s _ => CI s) (fun s W e s1 o _ => step_CI s e W s1 o) evs (init boot) 0 [] s out
              (sinv_init boot) (CI_init boot) ltac:(lia) H) as [C _]. unfold CI in C.
  split; [|split].
  - intros Hs j. rewrite Hs in C. destruct C as (Hx & _). specialize (Hx j). unfold X in Hx. lia.
  - intros Hs. rewrite Hs in C. destruct C as (Q & A & E & M & B & L & Z). repeat split; assumption.
  - intros Hs j Hh. rewrite Hs in C. destruct C as (_ & _ & _ & _ & _ & L & _). rewrite L. apply HND_zero. exact Hh.
Qed.
