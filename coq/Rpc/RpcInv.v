(* The invariant behind C08 [handlers_total], the table lemmas it needs, and the cases of a step. *)
From CV Require Import Rpc.Rpc Rpc.RpcSpec Rpc.RpcProofs.
From Coq Require Import ZifyBool.
Open Scope Z_scope.

Definition LIM := 4294967295.

Lemma aget_adel : forall A k k' (m : list (Z * A)), aget k' (adel k m) = if k' =? k then None else aget k' m.
Proof.
  induction m as [|[k0 v] m IH]; simpl.
  - destruct (k' =? k); reflexivity.
  - destruct (k0 =? k) eqn:E0.
    + rewrite IH. destruct (k' =? k) eqn:E1; [reflexivity|].
      destruct (k0 =? k') eqn:E2; [lia|reflexivity].
    + simpl. destruct (k0 =? k') eqn:E2.
      * destruct (k' =? k) eqn:E1; [lia|reflexivity].
      * exact IH.
Qed.

Lemma aget_aput : forall A k k' v (m : list (Z * A)), aget k' (aput k v m) = if k' =? k then Some v else aget k' m.
Proof.
  intros. unfold aput. simpl. rewrite aget_adel. rewrite Z.eqb_sym. destruct (k' =? k); reflexivity.
Qed.

Lemma adel_notin : forall A id (l : list (Z * A)), ~ In id (map fst l) -> adel id l = l.
Proof.
  intros A id l Hn. induction l as [|[a b] l IH]; simpl in *; [reflexivity|].
  destruct (a =? id) eqn:E; [exfalso; apply Hn; left; lia|]. f_equal. apply IH. tauto.
Qed.

Definition gen_ok (g : idgen) (n : nat) : Prop :=
  g_i g = Z.of_nat n /\ Forall (fun x => 0 <= x < g_i g) (g_free g).

Lemma list_min_in : forall l m, list_min l = Some m -> In m l.
Proof.
  induction l as [|a l IH]; simpl; intros m H; [discriminate|].
  destruct (list_min l) as [m'|] eqn:E.
  - inversion H; subst. destruct (Z.min_spec a m') as [[_ ->]|[_ ->]]; auto.
  - inversion H; auto.
Qed.

Lemma list_min_none : forall l, list_min l = None -> l = [].
Proof. destruct l; simpl; auto. destruct (list_min l); discriminate. Qed.

Lemma replace_nth_length : forall A n (v : A) l, length (replace_nth n v l) = length l.
Proof. induction n; destruct l; simpl; auto. Qed.

Lemma replace_nth_in : forall A n (v : A) l x, In x (replace_nth n v l) -> x = v \/ In x l.
Proof.
  induction n; destruct l; simpl; intros x H; auto.
  - destruct H; auto.
  - destruct H; auto. apply IHn in H. tauto.
Qed.

Lemma tclear_length : forall A i (t : tbl A), length (tclear i t) = length t.
Proof. intros. unfold tclear. destruct (_ && _); auto. apply replace_nth_length. Qed.

Lemma tclear_in : forall A i (t : tbl A) x, In x (tclear i t) -> x = None \/ In x t.
Proof. intros A i t x. unfold tclear. destruct (_ && _); auto. apply replace_nth_in. Qed.

Lemma zremove_forall : forall P x l, Forall P l -> Forall P (zremove x l).
Proof. intros. unfold zremove. rewrite Forall_forall in *. intros y Hy. apply filter_In in Hy. apply H, Hy. Qed.

Lemma znth_replace : forall A (l : list A) h v i, 0 <= h < Z.of_nat (length l) ->
  znth i (replace_nth (Z.to_nat h) v l) = if i =? h then Some v else znth i l.
Proof.
  intros A l h v i Hh. unfold znth. rewrite replace_nth_length.
  destruct ((i <? 0) || (Z.of_nat (length l) <=? i)) eqn:E.
  - destruct (i =? h) eqn:E2; [lia|reflexivity].
  - destruct (i =? h) eqn:E2.
    + replace (Z.to_nat i) with (Z.to_nat h) by lia. assert (Hl : (Z.to_nat h < length l)%nat) by lia. clear - Hl.
      revert Hl. generalize (Z.to_nat h) as n. induction l as [|a l IH]; intros n Hl; simpl in *; [lia|]. destruct n; simpl; [reflexivity|apply IH; lia].
    + assert (Hne : Z.to_nat i <> Z.to_nat h) by lia. clear - Hne. revert Hne. generalize (Z.to_nat i) as m. generalize (Z.to_nat h) as n.
      induction l as [|a l IH]; intros n m Hne; simpl; [destruct n; reflexivity|]. destruct n, m; simpl; try reflexivity; try congruence. apply IH. congruence.
Qed.

Lemma znth_app_old : forall A (l : list A) x h v, znth h l = Some v -> znth h (l ++ [x]) = Some v.
Proof.
  intros A l x h v H. apply znth_some in H. destruct H as [Hr Hn]. unfold znth. rewrite app_length. simpl.
  replace ((h <? 0) || (Z.of_nat (length l + 1) <=? h)) with false by lia. rewrite nth_error_app1 by lia. exact Hn.
Qed.

Lemma znth_app_inv : forall A (l : list A) x h v, znth h (l ++ [x]) = Some v -> znth h l = Some v \/ (h = Z.of_nat (length l) /\ v = x).
Proof.
  intros A l x h v H. apply znth_some in H. destruct H as [Hr Hn]. rewrite app_length in Hr. simpl in Hr.
  destruct (h <? Z.of_nat (length l)) eqn:E.
  - left. unfold znth. replace ((h <? 0) || (Z.of_nat (length l) <=? h)) with false by lia. rewrite nth_error_app1 in Hn by lia. exact Hn.
  - right. split; [lia|]. rewrite nth_error_app2 in Hn by lia. replace (Z.to_nat h - length l)%nat with 0%nat in Hn by lia. simpl in Hn. congruence.
Qed.

Lemma tget_replace : forall A (t : tbl A) n v i, (n < length t)%nat ->
  tget i (replace_nth n v t) = if i =? Z.of_nat n then v else tget i t.
Proof.
  intros A t n v i Hn. unfold tget. rewrite <- (Nat2Z.id n) at 1. rewrite znth_replace by lia.
  destruct (i =? Z.of_nat n); [destruct v|]; reflexivity.
Qed.

Lemma tget_nil : forall A i, @tget A i [] = None.
Proof. intros A i. unfold tget, znth. simpl. destruct ((i <? 0) || (0 <=? i)); [reflexivity|destruct (Z.to_nat i); reflexivity]. Qed.

Lemma tget_app : forall A (t : tbl A) v i,
  tget i (t ++ [v]) = if i =? Z.of_nat (length t) then v else tget i t.
Proof.
  intros A t v i. unfold tget, znth. rewrite app_length. simpl.
  destruct (i =? Z.of_nat (length t)) eqn:E.
  - replace ((i <? 0) || (Z.of_nat (length t + 1) <=? i)) with false by lia.
    rewrite nth_error_app2 by lia. replace (Z.to_nat i - length t)%nat with 0%nat by lia. simpl. destruct v; reflexivity.
  - destruct ((i <? 0) || (Z.of_nat (length t) <=? i)) eqn:E2.
    + replace ((i <? 0) || (Z.of_nat (length t + 1) <=? i)) with true by lia. reflexivity.
    + replace ((i <? 0) || (Z.of_nat (length t + 1) <=? i)) with false by lia.
      rewrite nth_error_app1 by lia. reflexivity.
Qed.

Lemma tget_tclear : forall A (t : tbl A) n i, tget i (tclear n t) = if i =? n then None else tget i t.
Proof.
  intros A t n i. unfold tclear. destruct ((0 <=? n) && (n <? Z.of_nat (length t))) eqn:E.
  - rewrite tget_replace by lia. replace (Z.of_nat (Z.to_nat n)) with n by lia. reflexivity.
  - destruct (i =? n) eqn:E2; [|reflexivity]. unfold tget, znth.
    replace ((i <? 0) || (Z.of_nat (length t) <=? i)) with true by lia. reflexivity.
Qed.

Lemma tget_replace_same : forall A (t : tbl A) e v old i, tget e t = Some old ->
  tget i (replace_nth (Z.to_nat e) (Some v) t) = if i =? e then Some v else tget i t.
Proof.
  intros A t e v old i H. apply tget_some in H. destruct H as [Hr Hn].
  rewrite tget_replace by lia. replace (Z.of_nat (Z.to_nat e)) with e by lia. reflexivity.
Qed.
Lemma tget_out : forall A (t : tbl A) e, e < 0 \/ Z.of_nat (length t) <= e -> tget e t = None.
Proof. intros A t e H. unfold tget, znth. replace ((e <? 0) || (Z.of_nat (length t) <=? e)) with true by lia. reflexivity. Qed.
Lemma znth_map : forall A B (f : A -> B) l h v, znth h l = Some v -> znth h (map f l) = Some (f v).
Proof.
  intros A B f l h v H. apply znth_some in H. destruct H as [Hr Hn]. unfold znth. rewrite map_length.
  replace ((h <? 0) || (Z.of_nat (length l) <=? h)) with false by lia. rewrite nth_error_map, Hn. reflexivity.
Qed.

Lemma tget_in : forall A i (t : tbl A) a, tget i t = Some a -> In (Some a) t.
Proof. intros A i t a H. apply tget_some in H. destruct H as [_ H]. eapply nth_error_In; eauto. Qed.

(* the ids of the free list name empty slots *)
Definition slots_free {A} (g : idgen) (t : tbl A) : Prop := forall x, In x (g_free g) -> tget x t = None.

(* a value put into a table by [tput]: appended, or written over [old] *)
Definition placed {A} (t t' : list A) (old v : A) : Prop :=
  t' = t ++ [v] \/ exists n, nth_error t n = Some old /\ t' = replace_nth n v t.
Lemma placed_in : forall A (t t' : list A) old v x, placed t t' old v -> In x t' -> x = v \/ In x t.
Proof.
  intros A t t' old v x [->|(n & _ & ->)] H; [|exact (replace_nth_in _ _ _ _ _ H)].
  apply in_app_or in H. destruct H as [H|[H|[]]]; auto.
Qed.

(* allocation: gen_next followed by tput.  The id names an empty slot, which is filled, or is the
   length of the table, which grows by one *)
Lemma alloc_inv : forall A (g : idgen) (t : tbl A) (v : A) id g' t', gen_ok g (length t) -> slots_free g t ->
  gen_next g = Ok (id, g') -> tput id v t = Ok t' ->
  gen_ok g' (length t') /\ (forall x, In x t' -> x = Some v \/ In x t) /\ slots_free g' t' /\ tget id t = None /\
  (forall i, tget i t' = if i =? id then Some v else tget i t) /\ placed t t' None (Some v).
Proof.
  intros A g t v id g' t' [Hi Hf] Hsl H1 H2. unfold gen_next in H1.
  destruct (list_min (g_free g)) as [m|] eqn:E.
  - injection H1 as <- <-. apply list_min_in in E. rewrite Forall_forall in Hf. pose proof (Hf _ E) as Hm.
    unfold tput in H2. destruct (m =? Z.of_nat (length t)) eqn:E1; [lia|].
    replace ((0 <=? m) && (m <? Z.of_nat (length t))) with true in H2 by lia. injection H2 as <-.
    rewrite replace_nth_length. cbn [g_i g_free].
    assert (TG : forall i, tget i (replace_nth (Z.to_nat m) (Some v) t) = if i =? m then Some v else tget i t).
    { intros i. rewrite tget_replace by lia. replace (Z.of_nat (Z.to_nat m)) with m by lia. reflexivity. }
    split; [split; [assumption|apply zremove_forall; rewrite Forall_forall; exact Hf]|].
    split; [intros x Hx; apply replace_nth_in in Hx; exact Hx|].
    split; [|split; [apply Hsl; exact E|split; [exact TG|right; exists (Z.to_nat m); split; [|reflexivity]]]].
    + intros x Hx. unfold zremove in Hx. apply filter_In in Hx. destruct Hx as [Hx Hne]. rewrite TG.
      destruct (x =? m) eqn:Exm; [discriminate|]. apply Hsl; exact Hx.
    + pose proof (Hsl _ E) as Hn. unfold tget, znth in Hn. replace ((m <? 0) || (Z.of_nat (length t) <=? m)) with false in Hn by lia.
      destruct (nth_error t (Z.to_nat m)) as [[x|]|] eqn:En; try discriminate; [reflexivity|]. apply nth_error_None in En. lia.
  - apply list_min_none in E. destruct (g_i g =? 4294967295); [discriminate|]. injection H1 as <- <-.
    unfold tput in H2. rewrite Hi, Z.eqb_refl in H2. injection H2 as <-. rewrite app_length, Hi. cbn [length].
    split; [split; simpl; [lia|rewrite E; constructor]|].
    split; [intros x Hx; apply in_app_or in Hx; destruct Hx as [Hx|[Hx|[]]]; auto|].
    split; [intros x Hx; simpl in Hx; rewrite E in Hx; destruct Hx|].
    split; [|split; [intros; apply tget_app|left; reflexivity]].
    unfold tget, znth. replace ((Z.of_nat (length t) <? 0) || (Z.of_nat (length t) <=? Z.of_nat (length t))) with true by lia. reflexivity.
Qed.

Lemma alloc_ok0 : forall A (g : idgen) (t : tbl A) (v : A), gen_ok g (length t) -> g_i g < LIM ->
  exists id g' t', gen_next g = Ok (id, g') /\ tput id v t = Ok t' /\ gen_ok g' (length t') /\
    g_i g <= g_i g' <= g_i g + 1.
Proof.
  intros A g t v [Hi Hf] Hl. unfold gen_next.
  destruct (list_min (g_free g)) as [m|] eqn:E.
  - apply list_min_in in E. rewrite Forall_forall in Hf. pose proof (Hf _ E) as Hm.
    eexists _, _, _. split; [reflexivity|]. unfold tput.
    destruct (m =? Z.of_nat (length t)) eqn:E1; [lia|].
    replace ((0 <=? m) && (m <? Z.of_nat (length t))) with true by lia.
    split; [reflexivity|]. rewrite replace_nth_length. simpl.
    split; [split; [assumption|apply zremove_forall; rewrite Forall_forall; exact Hf]|lia].
  - apply list_min_none in E.
    replace (g_i g =? 4294967295) with false by (unfold LIM in Hl; lia).
    eexists _, _, _. split; [reflexivity|]. unfold tput. rewrite Hi. rewrite Z.eqb_refl.
    split; [reflexivity|]. rewrite app_length. simpl.
    split; [split; simpl; [lia|rewrite E; constructor]|lia].
Qed.

Lemma alloc_ok : forall A (g : idgen) (t : tbl A) (v : A), gen_ok g (length t) -> slots_free g t -> g_i g < LIM ->
  exists id g' t', gen_next g = Ok (id, g') /\ tput id v t = Ok t' /\ gen_ok g' (length t') /\
    g_i g <= g_i g' <= g_i g + 1 /\ (forall x, In x t' -> x = Some v \/ In x t) /\
    slots_free g' t' /\ tget id t = None /\ (forall i, tget i t' = if i =? id then Some v else tget i t).
Proof.
  intros A g t v G S Hl. destruct (alloc_ok0 A g t v G Hl) as (id & g' & t' & H1 & H2 & _ & Hg).
  destruct (alloc_inv A g t v id g' t' G S H1 H2) as (G' & Hin & Hsl & Hn & TG & _). exists id, g', t'. auto 10.
Qed.

Lemma gen_remove_ok : forall g n id, gen_ok g n -> 0 <= id < Z.of_nat n -> gen_ok (gen_remove id g) n /\ g_i (gen_remove id g) = g_i g.
Proof.
  intros g n id [Hi Hf] Hid. unfold gen_remove, gen_ok. simpl. repeat split; auto.
  destruct (zmem id (g_free g)); auto. constructor; auto. lia.
Qed.

Lemma gen_remove_slots : forall A (g : idgen) (t : tbl A) id, slots_free g t -> tget id t = None -> slots_free (gen_remove id g) t.
Proof.
  intros A g t id H Hn x Hx. unfold gen_remove in Hx. simpl in Hx.
  destruct (zmem id (g_free g)); [apply H; exact Hx|]. destruct Hx as [<-|Hx]; [exact Hn|apply H; exact Hx].
Qed.

Lemma slots_free_tclear : forall A (g : idgen) (t : tbl A) n, slots_free g t -> slots_free g (tclear n t).
Proof. intros A g t n H x Hx. rewrite tget_tclear. destruct (x =? n); [reflexivity|apply H; exact Hx]. Qed.

Lemma slots_free_replace : forall A (g : idgen) (t : tbl A) n q q', slots_free g t ->
  nth_error t n = Some (Some q) -> slots_free g (replace_nth n (Some q') t).
Proof.
  intros A g t n q q' H Hn x Hx.
  assert (Hl : (n < length t)%nat) by (apply nth_error_Some; rewrite Hn; discriminate).
  rewrite tget_replace by exact Hl. destruct (x =? Z.of_nat n) eqn:E; [|apply H; exact Hx].
  exfalso. specialize (H x Hx). unfold tget, znth in H.
  replace ((x <? 0) || (Z.of_nat (length t) <=? x)) with false in H by lia.
  replace (Z.to_nat x) with n in H by lia. rewrite Hn in H. discriminate.
Qed.

(* an answer that has not returned is running on a server or queued behind another answer;
   an answer that is running or queued has not sent its Return *)
Definition ans1_ok (a : answer) : Prop :=
  (a_ready a = false -> a_st a <> AIdle) /\ (a_st a <> AIdle -> a_ret a = false).
Definition ans_ok (l : list (Z * answer)) : Prop := forall id a, In (id, a) l -> ans1_ok a.
Definition not_emb (x : cap) : Prop := match x with CEmb _ => False | _ => True end.
(* wireRefs e = sent e - released e (cumulative ghost counters), entries exist exactly while the
   count is positive *)
Definition exp_count (t : tbl expent) (sent rel : list (Z * Z)) : Prop :=
  forall id, match tget id t with
             | Some (_, w) => w = cget id sent - cget id rel /\ 0 < w
             | None => cget id sent = cget id rel
             end.
Definition exp_ok (k : core) : Prop :=
  (forall x w, In (Some (x, w)) (k_exp k) -> not_emb x) /\ slots_free (k_egen k) (k_exp k) /\
  exp_count (k_exp k) (k_sent k) (k_rel k).
Definition qgen_ok (k : core) : Prop := gen_ok (k_qgen k) (length (k_qs k)) /\ slots_free (k_qgen k) (k_qs k).

Definition live_inv (k : core) : Prop :=
  qgen_ok k /\ gen_ok (k_egen k) (length (k_exp k)) /\
  gen_ok (k_mgen k) (length (k_emb k)) /\ ans_ok (k_ans k) /\ exp_ok k /\
  g_i (k_qgen k) <= k_allocs k /\ g_i (k_egen k) <= k_allocs k /\ g_i (k_mgen k) <= k_allocs k.

Definition inv (s : state) : Prop := if s_shut s then s_ans s = [] else live_inv (core_of s).

Lemma aget_in : forall A k (m : list (Z * A)) v, aget k m = Some v -> In (k, v) m.
Proof.
  induction m as [|[k0 v0] m IH]; intros v H; simpl in H; [discriminate|].
  destruct (k0 =? k) eqn:E; [inversion H; subst; left; f_equal; lia|right; apply IH; exact H].
Qed.

Lemma adel_in : forall A k (m : list (Z * A)) x, In x (adel k m) -> In x m.
Proof.
  induction m as [|[k0 v0] m IH]; intros x H; simpl in *; [exact H|].
  destruct (k0 =? k); [right; apply IH; exact H|]. destruct H as [H|H]; [left; exact H|right; apply IH; exact H].
Qed.

Lemma ans_ok_aput : forall id a l, ans_ok l -> ans1_ok a -> ans_ok (aput id a l).
Proof.
  intros id a l H Ha id' a' Hin. unfold aput in Hin. destruct Hin as [E|Hin].
  - inversion E; subst. exact Ha.
  - apply adel_in in Hin. apply (H _ _ Hin).
Qed.

Lemma ans_ok_adel : forall id l, ans_ok l -> ans_ok (adel id l).
Proof. intros id l H id' a' Hin. apply adel_in in Hin. apply (H _ _ Hin). Qed.

(* the standard cases of [ans1_ok] *)
Lemma ans1_done : forall a, a_ready a = true -> a_st a = AIdle -> ans1_ok a.
Proof. intros a H1 H2. split; [rewrite H1; discriminate|rewrite H2; intros H; exfalso; apply H; reflexivity]. Qed.
Lemma ans1_busy : forall a, a_st a <> AIdle -> a_ret a = false -> ans1_ok a.
Proof. intros a H1 H2. split; auto. Qed.

(* live state: the good outcome of a helper that may allocate at most w ids *)
Definition live (s : state) : Prop := s_shut s = false /\ live_inv (core_of s).
Definition good (w : Z) (s s1 : state) : Prop := live s1 /\ s_allocs s1 <= s_allocs s + w /\ s_qs s1 = s_qs s.

Lemma live_core : forall s s', live s -> core_of s' = core_of s -> live s'.
Proof.
  intros s s' [H1 H2] C. split.
  - change (s_shut s') with (k_shut (core_of s')). rewrite C. exact H1.
  - rewrite C. exact H2.
Qed.

Lemma allocs_core : forall s s', core_of s' = core_of s -> s_allocs s' = s_allocs s.
Proof. intros s s' C. change (k_allocs (core_of s') = k_allocs (core_of s)). rewrite C. reflexivity. Qed.

Lemma good_core : forall w s s0 s', good w s s0 -> core_of s' = core_of s0 -> good w s s'.
Proof.
  intros w s s0 s' [L [A Q]] C. split; [eapply live_core; eauto|]. rewrite (allocs_core _ _ C). split; [exact A|].
  change (s_qs s') with (k_qs (core_of s')). rewrite C. exact Q.
Qed.

Lemma good_refl : forall s, live s -> good 0 s s.
Proof. intros. split; auto. split; [lia|reflexivity]. Qed.

Lemma good_trans : forall w1 w2 s s1 s2, good w1 s s1 -> good w2 s1 s2 -> good (w1 + w2) s s2.
Proof. intros w1 w2 s s1 s2 [L1 [A1 Q1]] [L2 [A2 Q2]]. split; auto. split; [lia|congruence]. Qed.

Lemma good_trans0 : forall s s1 s2, good 0 s s1 -> good 0 s1 s2 -> good 0 s s2.
Proof. intros s s1 s2 H1 H2. replace 0 with (0 + 0) by lia. eapply good_trans; eassumption. Qed.

Lemma good_mono : forall w1 w2 s s1, good w1 s s1 -> w1 <= w2 -> good w2 s s1.
Proof. intros w1 w2 s s1 [L [A Q]] H. split; auto. split; [lia|exact Q]. Qed.

(* potential: ids allocated so far,
   plus the embargo ids the pending questions may still cost (one per pipelined path) *)
Fixpoint called_total (t : tbl question) : Z :=
  match t with
  | [] => 0
  | Some q :: r => Z.of_nat (length (q_called q)) + called_total r
  | None :: r => called_total r
  end.
Definition pot (s : state) : Z := s_allocs s + called_total (s_qs s).

Lemma called_total_nonneg : forall t, 0 <= called_total t.
Proof. induction t as [|[q|] t IH]; simpl; lia. Qed.

Lemma pot_core : forall s s', core_of s' = core_of s -> pot s' = pot s.
Proof.
  intros s s' C. unfold pot. rewrite (allocs_core _ _ C).
  change (s_qs s') with (k_qs (core_of s')). rewrite C. reflexivity.
Qed.

Definition okc (r : res (state * list output)) (s : state) : Prop := okp r (fun p => core_of (fst p) = core_of s).

Lemma release_caps_okc : forall l s, okc (release_caps cfg_fixed l s) s.
Proof.
  intros l s. destruct (release_caps_fixed l s) as (s' & o & H). unfold okc. rewrite H.
  exact (core_kept _ _ (proj1 (release_caps_refs _ _ _ _ _ H))).
Qed.

Lemma release_cap_okc : forall x s, okc (release_cap cfg_fixed x s) s.
Proof.
  intros x s. destruct (release_cap_fixed x s) as (s' & o & H). unfold okc. rewrite H.
  exact (core_kept _ _ (proj1 (release_cap_refs _ _ _ _ _ H))).
Qed.

Lemma core_addref : forall x s, core_of (addref_cap x s) = core_of s.
Proof. intros x s. apply core_kept, addref_kept. Qed.

Lemma recv_payload_core : forall c p s,
  match recv_payload c p s with PLOk s1 _ _ _ | PLErr s1 _ => core_of s1 = core_of s end.
Proof. intros c p s. pose proof (recv_payload_kept c p s) as K. destruct (recv_payload c p s); apply core_kept, K. Qed.

(* everything of the core but the export table and the allocation counter *)
Definition frame_x (s s1 : state) : Prop :=
  s_qs s1 = s_qs s /\ s_qgen s1 = s_qgen s /\ s_ans s1 = s_ans s /\ s_queue s1 = s_queue s /\
  emb_shape (s_emb s1) = emb_shape (s_emb s) /\ s_mgen s1 = s_mgen s /\ s_shut s1 = s_shut s.

Lemma frame_x_refl : forall s, frame_x s s.
Proof. intros; repeat split. Qed.

Lemma frame_x_trans : forall s s1 s2, frame_x s s1 -> frame_x s1 s2 -> frame_x s s2.
Proof. unfold frame_x. intros s s1 s2 H1 H2. intuition congruence. Qed.

Lemma frame_x_core : forall s s1, core_of s1 = core_of s -> frame_x s s1.
Proof.
  intros s s1 C. unfold frame_x.
  change (k_qs (core_of s1) = k_qs (core_of s) /\ k_qgen (core_of s1) = k_qgen (core_of s) /\
          k_ans (core_of s1) = k_ans (core_of s) /\ k_queue (core_of s1) = k_queue (core_of s) /\
          k_emb (core_of s1) = k_emb (core_of s) /\ k_mgen (core_of s1) = k_mgen (core_of s) /\
          k_shut (core_of s1) = k_shut (core_of s)).
  rewrite C. repeat split.
Qed.

Lemma frame_xkept : forall s s1, xkept_of s1 = xkept_of s -> frame_x s s1.
Proof.
  intros s s1 H.
  exact (conj (f_equal kp_qs H) (conj (f_equal kp_qgen H) (conj (f_equal kp_ans H) (conj (f_equal kp_queue H)
        (conj (f_equal kp_emb H) (conj (f_equal kp_mgen H) (f_equal kp_shut H))))))).
Qed.

(* a live state stays live when only the export side changes consistently *)
Lemma live_exp : forall s s1, live s -> frame_x s s1 ->
  gen_ok (s_egen s1) (length (s_exp s1)) -> exp_ok (core_of s1) -> g_i (s_egen s1) <= s_allocs s1 ->
  s_allocs s <= s_allocs s1 -> live s1.
Proof.
  intros s s1 [Hs (Gq & Ge & Gm & A & X & Bq & Be & Bm)] (F1 & F2 & F3 & F4 & F5 & F6 & F7) Ge1 X1 Be1 Al.
  split; [congruence|]. unfold live_inv, qgen_ok in *. simpl in *.
  rewrite F1, F2, F3, F6, F5.
  split; [exact Gq|]. split; [exact Ge1|]. split; [exact Gm|]. split; [exact A|]. split; [exact X1|].
  split; [lia|]. split; [exact Be1|lia].
Qed.

Lemma find_export_some : forall x t i id w, find_export x t i = Some (id, w) ->
  exists y, nth_error t (Z.to_nat (id - i)) = Some (Some (y, w)) /\ cap_eqb y x = true /\ i <= id.
Proof.
  intros x t. induction t as [|[[y w0]|] t IH]; intros i id w H; simpl in H; try discriminate.
  - destruct (cap_eqb y x) eqn:E.
    + inversion H; subst. exists y. replace (id - id) with 0 by lia. simpl. repeat split; auto. lia.
    + destruct (IH _ _ _ H) as (y' & Hn & He & Hl). exists y'. replace (Z.to_nat (id - i)) with (S (Z.to_nat (id - (i + 1)))) by lia. simpl. repeat split; auto. lia.
  - destruct (IH _ _ _ H) as (y' & Hn & He & Hl). exists y'. replace (Z.to_nat (id - i)) with (S (Z.to_nat (id - (i + 1)))) by lia. simpl. repeat split; auto. lia.
Qed.

Lemma cget_cadd : forall k k' d m, cget k' (cadd k d m) = if k' =? k then cget k m + d else cget k' m.
Proof.
  intros. unfold cadd, cget at 1. rewrite aget_aput. destruct (k' =? k) eqn:E; [|reflexivity].
  assert (k' = k) by lia. subst. reflexivity.
Qed.

Lemma nth_tget : forall A (t : tbl A) n a, nth_error t n = Some (Some a) -> tget (Z.of_nat n) t = Some a.
Proof.
  intros A t n a H. assert (Hl : (n < length t)%nat) by (apply nth_error_Some; rewrite H; discriminate).
  unfold tget, znth. replace ((Z.of_nat n <? 0) || (Z.of_nat (length t) <=? Z.of_nat n)) with false by lia.
  rewrite Nat2Z.id, H. reflexivity.
Qed.

(* the export side after sendCap found / made an entry, after releaseExport *)
Lemma exp_ok_bump : forall k t' id x y w, exp_ok k -> not_emb x -> 0 <= id ->
  nth_error (k_exp k) (Z.to_nat id) = Some (Some (y, w)) ->
  t' = replace_nth (Z.to_nat id) (Some (x, w + 1)) (k_exp k) ->
  exp_ok (mkCore (k_shut k) (k_qs k) (k_qgen k) (k_ans k) t' (k_egen k) (k_emb k) (k_mgen k) (k_allocs k) (k_queue k)
                 (cadd id 1 (k_sent k)) (k_rel k)).
Proof.
  intros k t' id x y w (X1 & X2 & X3) Hx Hid Hn ->. 
  assert (Hl : (Z.to_nat id < length (k_exp k))%nat) by (apply nth_error_Some; rewrite Hn; discriminate).
  split; [|split]; simpl.
  - intros x0 w0 Hin. apply replace_nth_in in Hin. destruct Hin as [E|Hin]; [inversion E; subst; exact Hx|eapply X1; eauto].
  - eapply slots_free_replace; eauto.
  - intros i. rewrite tget_replace by exact Hl. rewrite cget_cadd. replace (Z.of_nat (Z.to_nat id)) with id by lia.
    specialize (X3 i). destruct (i =? id) eqn:E; [|exact X3].
    assert (i = id) by lia. subst i. apply nth_tget in Hn. replace (Z.of_nat (Z.to_nat id)) with id in Hn by lia.
    assert (T : @tget expent id (k_exp k) = Some (y, w)) by exact Hn. rewrite T in X3. lia.
Qed.

Lemma exp_ok_new : forall k t' g' id x, exp_ok k -> not_emb x ->
  (forall o, In o t' -> o = Some (x, 1) \/ In o (k_exp k)) -> slots_free g' t' -> tget id (k_exp k) = None ->
  (forall i, tget i t' = if i =? id then Some (x, 1) else tget i (k_exp k)) -> forall al,
  exp_ok (mkCore (k_shut k) (k_qs k) (k_qgen k) (k_ans k) t' g' (k_emb k) (k_mgen k) al (k_queue k)
                 (cadd id 1 (k_sent k)) (k_rel k)).
Proof.
  intros k t' g' id x (X1 & X2 & X3) Hx Hin Hsl Hnone TG al. split; [|split]; simpl.
  - intros x0 w0 H. apply Hin in H. destruct H as [E|H]; [inversion E; subst; exact Hx|eapply X1; eauto].
  - exact Hsl.
  - intros i. rewrite TG, cget_cadd. specialize (X3 i). destruct (i =? id) eqn:E; [|exact X3].
    assert (i = id) by lia. subst i. rewrite Hnone in X3. lia.
Qed.

Lemma exp_ok_ext : forall k k', k_exp k' = k_exp k -> k_egen k' = k_egen k -> k_sent k' = k_sent k -> k_rel k' = k_rel k ->
  exp_ok k -> exp_ok k'.
Proof. intros k k' H1 H2 H3 H4 H. unfold exp_ok in *. rewrite H1, H2, H3, H4. exact H. Qed.

Lemma send_cap_ok : forall x s, live s -> not_emb x -> s_allocs s < LIM ->
  okp (send_cap cfg_fixed x s) (fun r => let '(s1, d, oe) := r in good 1 s s1 /\ frame_x s s1).
Proof.
  intros x s L Hx Hl. pose proof L as [Hs (Gq & Ge & Gm & A & X & Bq & Be & Bm)].
  unfold qgen_ok in Gq. simpl in Gq, Ge, Gm, A, Bq, Be, Bm.
  destruct (send_cap_cases cfg_fixed x s) as [(d0 & _ & E)|[(id & w & Ef & E)|[_ E]]]; rewrite E; clear E.
  - split; [apply good_mono with 0; [apply good_refl; auto|lia]|apply frame_x_refl].
  - apply find_export_some in Ef. destruct Ef as (y & Ef & _ & Hid). rewrite Z.sub_0_r in Ef.
    split; [|repeat split]. split; [|simpl; split; [lia|reflexivity]].
    eapply live_exp; eauto; try (repeat split; fail); simpl; try lia.
    + rewrite replace_nth_length. exact Ge.
    + apply (exp_ok_bump (core_of s) _ id x y w X Hx Hid Ef eq_refl).
  - destruct X as (X1 & X2 & X3). simpl in X1, X2, X3.
    destruct (alloc_ok (cap * Z)%type (s_egen s) (s_exp s) (x, 1) Ge X2) as (id & g' & t' & H1 & H2 & G' & Hg & Hin & Hsl & Hnone & TG); [simpl in *; lia|].
    rewrite H1; cbn [bind]; cbv beta iota; rewrite H2; cbn [bind]; cbv beta iota. cbn [okp].
    pose proof (core_addref x s) as C0.
    pose proof (frame_x_core _ _ C0) as (F1 & F2 & F3 & F4 & F5 & F6 & F7).
    assert (AL : s_allocs (addref_cap x s) = s_allocs s) by (apply allocs_core; exact C0).
    split; [|unfold frame_x; simpl; repeat split; assumption].
    split; [|simpl; split; [lia|exact F1]].
    eapply live_exp; eauto; simpl; try (unfold frame_x; simpl; repeat split; assumption); try lia.
    pose proof (exp_ok_new (core_of s) t' g' id x (conj X1 (conj X2 X3)) Hx Hin Hsl Hnone TG (s_allocs s + 1)) as E.
    eapply exp_ok_ext; [| | | |exact E]; simpl; try reflexivity. exact (f_equal k_rel C0).
Qed.

Lemma frame_x_live_allocs : forall s s1, frame_x s s1 -> True.
Proof. auto. Qed.

Lemma fill_caps_ok : forall l s, live s -> Forall not_emb l -> s_allocs s + Z.of_nat (length l) < LIM ->
  okp (fill_caps cfg_fixed l s) (fun r => let '(s1, ds, refs) := r in good (Z.of_nat (length l)) s s1 /\ frame_x s s1).
Proof.
  induction l as [|x l IH]; intros s L Hl Hb.
  - simpl. split; [apply good_refl; auto|apply frame_x_refl].
  - simpl fill_caps. inversion Hl; subst.
    eapply okp_bind; [apply send_cap_ok; auto; simpl length in Hb; lia|].
    intros [[s1 d] oe] [G1 F1].
    eapply okp_bind; [apply IH; [apply G1|assumption|destruct G1 as [_ A1]; simpl length in Hb; lia]|].
    intros [[s2 ds] refs] [G2 F2]. cbv beta iota. cbn [okp].
    split; [|eapply frame_x_trans; eauto].
    replace (Z.of_nat (length (x :: l))) with (1 + Z.of_nat (length l)) by (simpl length; lia).
    eapply good_trans; eauto.
Qed.

Lemma rct_caps_not_emb : forall l, Forall not_emb (rct_caps l).
Proof. induction l as [|[j|] l IH]; simpl; constructor; simpl; auto. Qed.

Lemma rct_caps_length : forall l, length (rct_caps l) = length l.
Proof. intros. unfold rct_caps. apply map_length. Qed.

Lemma release_export_ok : forall id n s, live s ->
  let '(s1, oc, err) := release_export id n s in good 0 s s1 /\ frame_x s s1.
Proof.
  intros id n s L. pose proof L as [Hs (Gq & Ge & Gm & A & X & Bq & Be & Bm)].
  simpl in Ge, Gm, A, Bq, Be, Bm. destruct X as (X1 & X2 & X3). simpl in X1, X2, X3.
  unfold release_export. destruct (tget id (s_exp s)) as [[x w]|] eqn:E.
  - pose proof (tget_some _ _ _ _ E) as [Hid En].
    assert (Hx : not_emb x) by (eapply X1; eapply nth_error_In; eauto).
    assert (Hl : (Z.to_nat id < length (s_exp s))%nat) by lia.
    pose proof (X3 id) as X3id. rewrite E in X3id.
    destruct (n =? w) eqn:Enw.
    + split; [|repeat split]. split; [|simpl; split; [lia|reflexivity]].
      destruct (gen_remove_ok _ _ id Ge Hid) as [GR GI].
      eapply live_exp; eauto; try (repeat split; fail); simpl; try lia.
      * rewrite tclear_length. exact GR.
      * split; [|split]; simpl.
        -- intros y w' Hy. apply tclear_in in Hy. destruct Hy as [Hy|Hy]; [discriminate|eapply X1; eauto].
        -- apply gen_remove_slots; [apply slots_free_tclear; exact X2|]. rewrite tget_tclear, Z.eqb_refl. reflexivity.
        -- intros i. rewrite tget_tclear, cget_cadd. specialize (X3 i). destruct (i =? id) eqn:Ei; [|exact X3].
           assert (i = id) by lia. subst i. lia.
    + destruct (w <? n) eqn:Ewn.
      * split; [apply good_refl; auto|apply frame_x_refl].
      * split; [|repeat split]. split; [|simpl; split; [lia|reflexivity]].
        eapply live_exp; eauto; try (repeat split; fail); simpl; try lia.
        -- rewrite replace_nth_length. exact Ge.
        -- split; [|split]; simpl.
           ++ intros y w' Hy. apply replace_nth_in in Hy. destruct Hy as [Hy|Hy]; [inversion Hy; subst; exact Hx|eapply X1; eauto].
           ++ eapply slots_free_replace; eauto.
           ++ intros i. rewrite tget_replace by exact Hl. rewrite cget_cadd. replace (Z.of_nat (Z.to_nat id)) with id by lia.
              specialize (X3 i). destruct (i =? id) eqn:Ei; [|exact X3]. assert (i = id) by lia. subst i. lia.
  - split; [apply good_refl; auto|apply frame_x_refl].
Qed.

Lemma release_exports_ok : forall refs s, live s ->
  let '(s1, cl, err) := release_exports refs s in good 0 s s1 /\ frame_x s s1.
Proof.
  induction refs as [|[id n] refs IH]; intros s L; simpl.
  - split; [apply good_refl; auto|apply frame_x_refl].
  - pose proof (release_export_ok id n s L) as H1. destruct (release_export id n s) as [[s1 oc] e1].
    destruct H1 as [G1 F1]. pose proof (IH s1 (proj1 G1)) as H2.
    destruct (release_exports refs s1) as [[s2 cl] e2]. destruct H2 as [G2 F2].
    split; [exact (good_trans0 _ _ _ G1 G2)|eapply frame_x_trans; eauto].
Qed.

Lemma good_okc : forall w s s0 (r : res (state * list output)), good w s s0 -> okc r s0 -> okp r (fun p => good w s (fst p)).
Proof. intros w s s0 r G H. eapply okp_weaken; [exact H|]. intros [s1 o] C. simpl in *. eapply good_core; eauto. Qed.

Lemma live_set_ans : forall s l, live s -> ans_ok l -> live (set_ans l s).
Proof.
  intros s l [Hs (Gq & Ge & Gm & A & X & B)] Hl. split; [exact Hs|]. unfold live_inv in *; simpl in *. tauto.
Qed.

Lemma destroy_ok : forall id a s, live s ->
  okp (destroy cfg_fixed id a s) (fun r => let '(s1, o, err) := r in good 0 s s1).
Proof.
  intros id a s L. unfold destroy.
  assert (L1 : live (set_ans (adel id (s_ans s)) s)).
  { apply live_set_ans; auto. apply ans_ok_adel. apply L. }
  set (s1 := set_ans (adel id (s_ans s)) s) in *.
  assert (G1 : good 0 s s1) by (split; [exact L1|simpl; split; [lia|reflexivity]]).
  destruct (a_rrc a && negb match a_xrefs a with [] => true | _ :: _ => false end).
  - pose proof (release_exports_ok (a_xrefs a) s1 L1) as H2.
    destruct (release_exports (a_xrefs a) s1) as [[s2 cl] err]. destruct H2 as [G2 F2].
    assert (G12 : good 0 s s2) by (exact (good_trans0 _ _ _ G1 G2)).
    eapply okp_bind; [eapply good_okc; [exact G12|apply release_caps_okc]|].
    intros [s3 o] G3. exact G3.
  - eapply okp_bind; [eapply good_okc; [exact G1|apply release_caps_okc]|].
    intros [s3 o] G3. exact G3.
Qed.

Lemma live_zremove_q : forall id s, live s -> live (zremove_q id s).
Proof. intros id s [Hs H]. split; [exact Hs|]. exact H. Qed.

Lemma ans_of_live : forall s, live s -> ans_ok (s_ans s).
Proof. intros s [_ H]. apply H. Qed.

Lemma send_exception_ok : forall id a s, live s ->
  okp (send_exception cfg_fixed id a s) (fun r => let '(s1, o, ab) := r in good 0 s s1 /\ ab = false).
Proof.
  intros id a s L. unfold send_exception.
  assert (L0 : live (zremove_q id s)) by (apply live_zremove_q; auto).
  destruct (a_fin a).
  - eapply okp_bind; [apply destroy_ok; exact L0|].
    intros [[s1 o] err] G. simpl. split; [exact G|reflexivity].
  - simpl. split; [|reflexivity]. split; [|simpl; split; [lia|reflexivity]].
    apply live_set_ans; auto. apply ans_ok_aput; [apply (ans_of_live _ L0)|]. apply ans1_done; reflexivity.
Qed.

Lemma send_return_ok : forall id a k rct s, live s -> s_allocs s + Z.of_nat (length rct) < LIM ->
  okp (send_return cfg_fixed id a k rct s)
      (fun r => let '(s1, o, ab) := r in good (Z.of_nat (length rct)) s s1 /\ (a_fin a = false -> ab = false)).
Proof.
  intros id a k rct s L Hb. unfold send_return.
  eapply okp_bind; [apply fill_caps_ok; [exact L|apply rct_caps_not_emb|rewrite rct_caps_length; exact Hb]|].
  intros [[s1 ds] refs] [G1 F1]. rewrite rct_caps_length in G1.
  assert (L2 : live (zremove_q id s1)) by (apply live_zremove_q; apply G1).
  destruct (a_fin a).
  - eapply okp_bind; [apply destroy_ok; exact L2|].
    intros [[s3 o] err] G3. simpl. split; [|discriminate].
    destruct G1 as [_ [A1 Q1]]. destruct G3 as [L3 [A3 Q3]]. split; auto. simpl in A3, Q3. split; [lia|congruence].
  - simpl. split; auto. destruct G1 as [L1 [A1 Q1]]. split; [|simpl; split; [lia|exact Q1]].
    apply live_set_ans; auto. apply ans_ok_aput; [apply (ans_of_live _ L2)|]. apply ans1_done; reflexivity.
Qed.

Lemma reject_ok : forall id a s, live s ->
  okp (reject cfg_fixed id a s) (fun r => let '(s1, o, ab) := r in good 0 s s1 /\ ab = false).
Proof.
  intros id a s L. unfold reject.
  eapply okp_bind; [eapply good_okc; [apply good_refl; exact L|apply release_caps_okc]|].
  intros [s1 o1] G1. simpl in G1.
  eapply okp_bind; [apply send_exception_ok; apply G1|].
  intros [[s2 o2] ab] [G2 Hab]. simpl. split; auto.
  exact (good_trans0 _ _ _ G1 G2).
Qed.

Lemma deliver_ok : forall id a t s, live s -> t <> DBlock -> a_ret a = false ->
  okp (deliver cfg_fixed id a t s) (fun r => let '(s1, o, ab) := r in good 0 s s1 /\ ab = false).
Proof.
  intros id a t s L Ht Hret. unfold deliver. destruct t; try contradiction; try (apply reject_ok; auto).
  destruct (a_mok a); [|apply reject_ok; auto].
  simpl. split; [|reflexivity]. split; [|simpl; split; [lia|reflexivity]].
  assert (L0 : live (zremove_q id s)) by (apply live_zremove_q; auto).
  eapply live_core; [|reflexivity].
  apply live_set_ans; [exact L0|].
  apply ans_ok_aput; [apply (ans_of_live _ L0)|]. apply ans1_busy; simpl; [discriminate|exact Hret].
Qed.

Lemma pipeline_tgt_not_block : forall k rct x, pipeline_tgt k rct x <> DBlock.
Proof.
  intros. unfold pipeline_tgt. destruct (transform_eval k x); try discriminate.
  destruct (znth k0 rct) as [[j|]|]; discriminate.
Qed.

Lemma reject_all_ok : forall ids s, live s ->
  okp (reject_all cfg_fixed ids s) (fun r => let '(s1, o, ab) := r in good 0 s s1 /\ ab = false).
Proof.
  induction ids as [|id ids IH]; intros s L; simpl.
  - split; auto. apply good_refl; auto.
  - destruct (aget id (s_ans s)) as [a|]; [|apply IH; auto].
    eapply okp_bind; [apply reject_ok; auto|].
    intros [[s1 o1] b1] [G1 E1].
    eapply okp_bind; [apply IH; apply G1|].
    intros [[s2 o2] b2] [G2 E2]. simpl. subst. split; auto.
    exact (good_trans0 _ _ _ G1 G2).
Qed.

Lemma drain_ok : forall r k rct lst ids s, live s ->
  okp (drain cfg_fixed r k rct lst ids s) (fun x => let '(s1, o, ab) := x in good 0 s s1 /\ ab = false).
Proof.
  induction ids as [|id ids IH]; intros s L; simpl.
  - split; auto. apply good_refl; auto.
  - eapply okp_bind with (Q1 := fun x => let '(s1, o, ab) := x in good 0 s s1 /\ ab = false).
    + destruct (aget id (s_ans s)) as [a|] eqn:Ea; [|simpl; split; auto; apply good_refl; auto].
      destruct (a_st a) as [|j|p x] eqn:Est; try (simpl; split; auto; apply good_refl; auto).
      assert (Hret : a_ret a = false).
      { destruct (ans_of_live _ L _ _ (aget_in _ _ _ _ Ea)) as [_ H2]. apply H2. rewrite Est. discriminate. }
      destruct (eff_parent cfg_fixed r lst p =? r).
      * apply deliver_ok; auto. apply pipeline_tgt_not_block.
      * destruct (aget (eff_parent cfg_fixed r lst p) (s_ans s)) as [b|]; [|apply reject_ok; auto].
        destruct (a_ready b).
        -- destruct (a_err b); [apply reject_ok; auto|apply deliver_ok; auto; apply pipeline_tgt_not_block].
        -- simpl. split; auto. split; [|simpl; split; [lia|reflexivity]].
           apply live_set_ans; auto. apply ans_ok_aput; [apply (ans_of_live _ L)|].
           apply ans1_busy; simpl; [discriminate|exact Hret].
    + intros [[s1 o1] b1] [G1 E1].
      eapply okp_bind; [apply IH; apply G1|].
      intros [[s2 o2] b2] [G2 E2]. simpl. subst. split; auto.
      exact (good_trans0 _ _ _ G1 G2).
Qed.

(* what a handler that may cost w ids leaves.  [s_shut s1 = false] is asked of an aborting handler too:
   [step] tests it to decide whether to run [do_shutdown] *)
Definition hpost (w : Z) (s : state) (r : state * list output * bool) : Prop :=
  let '(s1, o, ab) := r in s_shut s1 = false /\ (ab = false -> live s1 /\ pot s1 <= pot s + w).

Lemma good_pot : forall w s s1, good w s s1 -> live s1 /\ pot s1 <= pot s + w.
Proof. intros w s s1 [L [A Q]]. split; auto. unfold pot. rewrite Q. lia. Qed.

Lemma hpost_good : forall w s s1 o ab, good w s s1 -> hpost w s (s1, o, ab).
Proof. intros w s s1 o ab G. split; [apply G|intros _; apply good_pot; exact G]. Qed.

Lemma hpost_abort : forall w s o, live s -> hpost w s (s, o, true).
Proof. intros w s o L. split; [apply L|discriminate]. Qed.

Lemma hpost_live : forall w s s1 o ab, live s1 -> pot s1 <= pot s + w -> hpost w s (s1, o, ab).
Proof. intros w s s1 o ab L P. split; [apply L|auto]. Qed.

Lemma pot_allocs : forall s, s_allocs s <= pot s.
Proof. intros. unfold pot. pose proof (called_total_nonneg (s_qs s)). lia. Qed.

Lemma okp_hpost_good : forall w s (r : hres),
  okp r (fun x => let '(s1, o, ab) := x in good w s s1 /\ ab = false) -> okp r (hpost w s).
Proof.
  intros w s r H. eapply okp_weaken; [exact H|]. intros [[s1 o] ab] [G E]. apply hpost_good; auto.
Qed.

Lemma handle_bootstrap_ok : forall id s, live s -> pot s + 1 < LIM ->
  okp (handle_bootstrap cfg_fixed id s) (hpost 1 s).
Proof.
  intros id s L Hb. pose proof (pot_allocs s) as Ha. unfold handle_bootstrap.
  destruct (aget id (s_ans s)); [apply hpost_abort; exact L|].
  destruct (negb (s_boot s)).
  - eapply okp_weaken; [apply send_exception_ok; auto|].
    intros [[s1 o] ab] [G E]. apply hpost_good. eapply good_mono; eauto. lia.
  - assert (L1 : live (lref 1 0 s)) by (eapply live_core; eauto).
    eapply okp_bind; [apply (send_return_ok id (new_answer [] true 0) (KCap 0) [Some 0] (lref 1 0 s) L1); simpl; lia|].
    intros [[s1 o] err] [G E]. simpl in E. rewrite (E eq_refl). cbn [okp]. apply hpost_good. exact G.
Qed.

Lemma not_block_of_exp : forall s e x w, live s -> tget e (s_exp s) = Some (x, w) -> cap_dtgt x <> DBlock.
Proof.
  intros s e x w [_ (_ & _ & _ & _ & X & _)] H. simpl in X. apply tget_some in H. destruct H as [_ H].
  apply nth_error_In in H. apply X in H. destruct x; simpl in *; try discriminate. contradiction.
Qed.

Lemma payload_err_fixed : forall s part, payload_err cfg_fixed s part = Ok (s, part).
Proof. reflexivity. Qed.

Lemma handle_call_ok : forall id tg params toCaller mok tag s, live s ->
  okp (handle_call cfg_fixed id tg params toCaller mok tag s) (hpost 0 s).
Proof.
  intros id tg params toCaller mok tag s L.
  destruct toCaller; [|exact (hpost_good _ _ _ _ _ (good_refl _ L))].
  assert (FROM : forall s1, kept_of s1 = kept_of s -> live s1 /\ good 0 s s1).
  { intros s1 K. apply core_kept in K. split; [eapply live_core; eauto|eapply good_core; [apply good_refl; exact L|exact K]]. }
  assert (VIA : forall s1 (r : hres), good 0 s s1 -> okp r (fun x => let '(s2, o2, ab) := x in good 0 s1 s2 /\ ab = false) -> okp r (hpost 0 s)).
  { intros s1 r G1 H. eapply okp_weaken; [exact H|]. intros [[s2 o2] ab] [G2 _]. apply hpost_good. exact (good_trans0 _ _ _ G1 G2). }
  destruct (handle_call_cases id tg params mok tag s _ eq_refl)
    as [a _ E|s1 tor _ K _ E|s1 tab pt (_ & K & _) _ E|s1 tab e x w (_ & K & _) Ee E|s1 tab t x ta (_ & K & _) _ _ _ _ _ E
       |s1 tab t x ta (_ & K & _) _ _ _ _ _ E|s1 tab t x ta (_ & K & _) _ Eta _ Er Hst E|s1 tab t x ta (_ & K & _) Eta Er Hst E];
    rewrite <- E; clear E; try destruct (FROM s1 K) as [L1 G1].
  - apply hpost_abort; exact L.
  - eapply okp_bind; [apply send_exception_ok; exact L1|].
    intros [[s2 o2] ab] [G2 E2].
    eapply okp_bind; [eapply good_okc; [exact (good_trans0 _ _ _ G1 G2)|apply release_caps_okc]|].
    intros [s3 o3] G3. cbn [okp fst] in *. apply hpost_good. exact G3.
  - destruct (release_caps_fixed tab (set_ans (aput id placeholder (s_ans s1)) s1)) as (s2 & o2 & H2). rewrite H2. cbn [bind okp].
    split; [|discriminate]. rewrite (f_equal kp_shut (proj1 (release_caps_refs _ _ _ _ _ H2)) : s_shut s2 = s_shut s1). apply L1.
  - apply (VIA s1 _ G1). apply deliver_ok; [exact L1|eapply not_block_of_exp; eauto|reflexivity].
  - apply (VIA s1 _ G1). apply reject_ok; exact L1.
  - apply (VIA s1 _ G1). apply deliver_ok; [exact L1|apply pipeline_tgt_not_block|reflexivity].
  - cbn [okp]. apply hpost_good. eapply good_trans0; [exact G1|].
    split; [|simpl; split; [lia|reflexivity]].
    eapply live_core; [|reflexivity]. apply live_set_ans; [exact L1|].
    apply ans_ok_aput; [apply (ans_of_live _ L1)|]. apply ans1_busy; simpl; [discriminate|reflexivity].
  - destruct (proj1 (ans_of_live _ L1 _ _ (aget_in _ _ _ _ Eta)) Er Hst).
Qed.

Lemma handle_finish_ok : forall id rrc s, live s -> okp (handle_finish cfg_fixed id rrc s) (hpost 0 s).
Proof.
  intros id rrc s L. unfold handle_finish.
  destruct (aget id (s_ans s)) as [a|] eqn:Ea; [|apply hpost_abort; exact L].
  destruct (a_fin a); [apply hpost_abort; exact L|].
  destruct (negb (a_ret a)).
  - cbn [okp]. apply hpost_good. split; [|simpl; split; [lia|reflexivity]].
    apply live_set_ans; auto. apply ans_ok_aput; [apply (ans_of_live _ L)|].
    exact (ans_of_live _ L _ _ (aget_in _ _ _ _ Ea)).
  - eapply okp_weaken; [apply destroy_ok; exact L|].
    intros [[s1 o] err] G. apply hpost_good. exact G.
Qed.

Lemma handle_release_ok : forall id n s, live s -> okp (handle_release cfg_fixed id n s) (hpost 0 s).
Proof.
  intros id n s L. unfold handle_release.
  pose proof (release_export_ok id n s L) as H. destruct (release_export id n s) as [[s1 oc] err].
  destruct H as [G F]. destruct err; [apply hpost_abort; exact L|].
  destruct oc as [x|].
  - eapply okp_bind; [eapply good_okc; [exact G|apply release_cap_okc]|].
    intros [s2 o] G2. cbn [okp fst] in *. apply hpost_good. exact G2.
  - cbn [okp]. apply hpost_good. exact G.
Qed.

Lemma emb_shape_length : forall t, length (emb_shape t) = length t.
Proof. intros. unfold emb_shape. apply map_length. Qed.

Lemma live_lift_prep : forall e em s, live s -> tget e (s_emb s) = Some em ->
  live (set_mgen (gen_remove e (s_mgen s)) (set_emb (tclear e (s_emb s)) s)).
Proof.
  intros e em s [Hs (Gq & Ge & Gm & A & X & Bq & Be & Bm)] H. split; [exact Hs|].
  apply tget_some in H. destruct H as [Hr _].
  unfold live_inv in *; simpl in *.
  rewrite emb_shape_length in *. rewrite tclear_length.
  destruct (gen_remove_ok _ _ e Gm Hr) as [G1 G2].
  split; [exact Gq|]. split; [exact Ge|]. split; [exact G1|]. split; [exact A|]. split; [exact X|].
  split; [exact Bq|]. split; [exact Be|exact Bm].
Qed.

Lemma handle_disembargo_ok : forall tg cx s, live s -> okp (handle_disembargo cfg_fixed tg cx s) (hpost 0 s).
Proof.
  intros tg cx s L. unfold handle_disembargo.
  destruct (parse_target tg); [|apply hpost_abort; exact L].
  destruct cx as [i|e|]; try (apply hpost_abort; exact L).
  - destruct (tget e (s_emb s)) as [em|] eqn:E; [|apply hpost_abort; exact L].
    pose proof (live_lift_prep e em s L E) as L1.
    destruct (lift_fixed e em (set_mgen (gen_remove e (s_mgen s)) (set_emb (tclear e (s_emb s)) s))) as (s1 & o1 & H1).
    rewrite H1. cbn [bind okp]. destruct (lift_lifted _ _ _ _ _ _ H1) as [(h & lr & n & lc & ec & ->) _]. apply hpost_good. eapply good_core; [|reflexivity].
    split; [exact L1|simpl; split; [lia|reflexivity]].
  - cbn [okp]. apply hpost_good. apply good_refl; auto.
Qed.

Lemma called_total_replace : forall t n q, called_total (replace_nth n (Some q) t) <= called_total t + Z.of_nat (length (q_called q)).
Proof.
  induction t as [|[q0|] t IH]; intros n q.
  - destruct n; simpl; lia.
  - destruct n; simpl; [lia|]. specialize (IH n q). lia.
  - destruct n; simpl; [lia|]. specialize (IH n q). lia.
Qed.

Lemma called_total_app : forall t q, called_total (t ++ [Some q]) = called_total t + Z.of_nat (length (q_called q)).
Proof. induction t as [|[q0|] t IH]; intros q; simpl; try rewrite IH; lia. Qed.

Lemma called_total_clear : forall t n q, nth_error t n = Some (Some q) ->
  called_total (replace_nth n None t) = called_total t - Z.of_nat (length (q_called q)).
Proof.
  induction t as [|[q0|] t IH]; intros n q H; destruct n; simpl in *; try discriminate.
  - inversion H; subst. lia.
  - rewrite (IH _ _ H). lia.
  - rewrite (IH _ _ H). lia.
Qed.

Lemma live_set_qs : forall s t, live s -> length t = length (s_qs s) -> slots_free (s_qgen s) t -> live (set_qs t s).
Proof.
  intros s t [Hs ([Gq Sq] & Ge & Gm & A & X & B)] Hl Hsl. split; [exact Hs|]. unfold live_inv, qgen_ok in *; simpl in *.
  rewrite Hl. tauto.
Qed.

Lemma qs_slots : forall s, live s -> slots_free (s_qgen s) (s_qs s).
Proof. intros s [_ ([_ Sq] & _)]. exact Sq. Qed.

Lemma new_question_ok : forall q s, live s -> s_allocs s < LIM -> q_called q = [] ->
  okp (new_question q s) (fun r => let '(s1, id) := r in live s1 /\ pot s1 <= pot s + 1 /\
     core_of s1 = mkCore (s_shut s) (s_qs s1) (s_qgen s1) (s_ans s) (s_exp s) (s_egen s) (emb_shape (s_emb s)) (s_mgen s) (s_allocs s + 1) (s_queue s) (s_sent s) (s_rel s)
     /\ s_handles s1 = s_handles s /\ s_imp s1 = s_imp s /\ s_busy s1 = s_busy s /\ s_emb s1 = s_emb s
     /\ tget id (s_qs s1) = Some q).
Proof.
  intros q s L Hl Hq. pose proof L as [Hs ([Gq Sq] & Ge & Gm & A & X & Bq & Be & Bm)].
  simpl in Gq, Sq, Ge, Gm, A, Bq, Be, Bm. unfold new_question.
  destruct (alloc_ok question (s_qgen s) (s_qs s) q Gq Sq) as (id & g' & t' & H1 & H2 & G' & Hg & Hin & Hsl & Hnone & TG); [lia|].
  rewrite H1; cbn [bind]; cbv beta iota; rewrite H2; cbn [bind]; cbv beta iota. cbn [okp].
  split; [|split; [|split; [reflexivity|]]].
  - split; [exact Hs|]. unfold live_inv, qgen_ok; simpl.
    split; [split; [exact G'|exact Hsl]|]. split; [exact Ge|]. split; [exact Gm|]. split; [exact A|]. split; [exact X|]. lia.
  - unfold pot; simpl. unfold tput in H2.
    destruct (id =? Z.of_nat (length (s_qs s))).
    + inversion H2; subst. rewrite called_total_app. rewrite Hq. simpl. lia.
    + destruct ((0 <=? id) && (id <? Z.of_nat (length (s_qs s)))); [|discriminate].
      inversion H2; subst. pose proof (called_total_replace (s_qs s) (Z.to_nat id) q). rewrite Hq in H. simpl in H. lia.
  - simpl. repeat split; auto. rewrite TG, Z.eqb_refl. reflexivity.
Qed.

Lemma embargo_caps_ok : forall qid k called loc done tab s, live s -> s_allocs s + Z.of_nat (length called) < LIM ->
  okp (embargo_caps cfg_fixed qid k called loc done tab s)
      (fun r => let '(s1, tab1, o) := r in good (Z.of_nat (length called)) s s1).
Proof.
  induction called as [|x called IH]; intros loc done tab s L Hb.
  - simpl. apply good_refl; auto.
  - assert (SKIP : forall done' tab', okp (embargo_caps cfg_fixed qid k called loc done' tab' s)
                     (fun r => let '(s1, tab1, o) := r in good (Z.of_nat (length (x :: called))) s s1)).
    { intros done' tab'. eapply okp_weaken; [apply IH; [exact L|simpl length in Hb; lia]|].
      intros [[s1 t1] o] G. eapply good_mono; [exact G|simpl length; lia]. }
    simpl embargo_caps. destruct (transform_eval k x); try apply SKIP.
    destruct (znth k0 tab) as [lc|]; [|apply SKIP].
    destruct (znth k0 loc) as [[|]|]; try apply SKIP.
    destruct (zmem k0 done); [apply SKIP|].
    pose proof L as [Hs (Gq & Ge & Gm & A & X & Bq & Be & Bm)].
    simpl in Gq, Ge, Gm, A, X, Bq, Be, Bm. rewrite emb_shape_length in Gm.
    destruct (alloc_ok0 embent (s_mgen s) (s_emb s) (mkEmb lc 1) Gm) as (e & g' & t' & H1 & H2 & G' & Hg); [simpl length in Hb; lia|].
    rewrite H1; cbn [bind]; cbv beta iota; rewrite H2; cbn [bind]; cbv beta iota.
    set (s1 := set_allocs (s_allocs s + 1) (set_mgen g' (set_emb t' s))).
    assert (G1 : good 1 s s1).
    { split; [|simpl; split; [lia|reflexivity]]. split; [exact Hs|]. unfold live_inv; simpl.
      rewrite emb_shape_length.
      split; [exact Gq|]. split; [exact Ge|]. split; [exact G'|]. split; [exact A|]. split; [exact X|]. lia. }
    eapply okp_bind; [apply IH; [apply G1|destruct G1 as [_ [A1 _]]; simpl length in Hb; lia]|].
    intros [[s2 tab2] o2] G2. cbn [okp].
    replace (Z.of_nat (length (x :: called))) with (1 + Z.of_nat (length called)) by (simpl length; lia).
    eapply good_trans; eauto.
Qed.

Lemma core_set_handle : forall h v s, core_of (set_handle h v s) = core_of s.
Proof. reflexivity. Qed.

Lemma live_qgen_remove : forall qid s, live s -> 0 <= qid < Z.of_nat (length (s_qs s)) -> tget qid (s_qs s) = None ->
  live (set_qgen (gen_remove qid (s_qgen s)) s).
Proof.
  intros qid s [Hs ([Gq Sq] & Ge & Gm & A & X & Bq & Be & Bm)] Hr Hnone. split; [exact Hs|].
  unfold live_inv, qgen_ok in *; simpl in *. destruct (gen_remove_ok _ _ qid Gq Hr) as [G1 G2].
  split; [split; [exact G1|apply gen_remove_slots; assumption]|]. tauto.
Qed.

Lemma handle_return_ok : forall qid rpc k s, live s -> pot s < LIM ->
  okp (handle_return cfg_fixed qid rpc k s) (hpost 0 s).
Proof.
  intros qid rpc k s L Hb. unfold handle_return.
  (* clearing the question takes [length (q_called q)] off the potential ([P0]); that pays for the
     embargo ids the Return may allocate, one per pipelined path ([FIN]) *)
  destruct (tget qid (s_qs s)) as [q|] eqn:Eq; [|apply hpost_abort; exact L].
  pose proof (tget_some _ _ _ _ Eq) as [Hr Hn].
  set (s0 := set_qs (tclear qid (s_qs s)) s).
  assert (L0 : live s0) by (apply live_set_qs; [exact L|apply tclear_length|apply slots_free_tclear; apply qs_slots; exact L]).
  assert (P0 : pot s0 = pot s - Z.of_nat (length (q_called q))).
  { unfold pot, s0; simpl. unfold tclear. replace ((0 <=? qid) && (qid <? Z.of_nat (length (s_qs s)))) with true by lia.
    rewrite (called_total_clear _ _ _ Hn). lia. }
  assert (Q0 : length (s_qs s0) = length (s_qs s)) by (unfold s0; simpl; apply tclear_length).
  (* release of the parameter capabilities *)
  assert (E1 : exists s1 pclients, (if fx19 cfg_fixed && rpc then let '(s1, cl, _) := release_exports (q_prefs q) s0 in (s1, cl) else (s0, [])) = (s1, pclients) /\ good 0 s0 s1).
  { destruct (fx19 cfg_fixed && rpc).
    - pose proof (release_exports_ok (q_prefs q) s0 L0) as H. destruct (release_exports (q_prefs q) s0) as [[s1 cl] e].
      exists s1, cl. split; [reflexivity|apply H].
    - exists s0, []. split; [reflexivity|apply good_refl; exact L0]. }
  destruct E1 as (s1 & pclients & E1 & G1). rewrite E1. clear E1.
  assert (Q1 : length (s_qs s1) = length (s_qs s)) by (destruct G1 as [_ [_ Q]]; rewrite Q; exact Q0).
  assert (FIN : forall w s2, good w s0 s2 -> w <= Z.of_nat (length (q_called q)) ->
                live (set_qgen (gen_remove qid (s_qgen s2)) s2) /\ pot (set_qgen (gen_remove qid (s_qgen s2)) s2) <= pot s + 0).
  { intros w s2 [L2 [A2 Q2]] Hw. split.
    - apply live_qgen_remove; [exact L2|rewrite Q2, Q0; exact Hr|].
      rewrite Q2. unfold s0. simpl. rewrite tget_tclear, Z.eqb_refl. reflexivity.
    - unfold pot in *; simpl in *. rewrite Q2. lia. }
  destruct (q_fin q).
  { eapply okp_bind with (Q1 := fun p => core_of (fst p) = core_of (set_qgen (gen_remove qid (s_qgen s1)) s1)); [apply release_caps_okc|].
    intros [s2 o2] C2. simpl in C2. cbn [okp].
    destruct (FIN 0 s1 G1 ltac:(lia)) as [F1 F2].
    apply hpost_live; [eapply live_core; eauto|]. rewrite (pot_core _ _ C2). exact F2. }
  assert (Hb1 : s_allocs s1 + Z.of_nat (length (q_called q)) < LIM).
  { destruct G1 as [_ [A1 _]]. pose proof (pot_allocs s0). pose proof (called_total_nonneg (s_qs s0)).
    unfold pot in *. simpl in *. lia. }
  (* parseReturn *)
  eapply okp_bind with (Q1 := fun x => let '(s2, parsed, torelease, disemb) := x in good (Z.of_nat (length (q_called q))) s1 s2).
  { assert (SAME : good (Z.of_nat (length (q_called q))) s1 s1) by (eapply good_mono; [apply good_refl; apply G1|lia]).
    destruct k as [[p|]| |]; try exact SAME.
    pose proof (recv_payload_core cfg_fixed p s1) as C.
    destruct (recv_payload cfg_fixed p s1) as [s2 kc tab loc|s2 part].
    - assert (L2 : live s2) by (eapply live_core; [apply G1|exact C]).
      eapply okp_bind; [apply embargo_caps_ok; [exact L2|rewrite (allocs_core _ _ C); exact Hb1]|].
      intros [[s3 tab3] o3] G3. cbn [okp]. eapply good_core in SAME; [|exact C].
      destruct SAME as [_ [A _]]. destruct G3 as [L3 [A3 Q3]]. split; [exact L3|].
      rewrite (allocs_core _ _ C) in A3. split; [lia|].
      rewrite Q3. change (s_qs s2) with (k_qs (core_of s2)). rewrite C. reflexivity.
    - rewrite payload_err_fixed. cbn [bind okp]. eapply good_core; [exact SAME|exact C]. }
  intros [[[s2 parsed] torelease] disemb] G2.
  (* the local promise resolves *)
  eapply okp_bind with (Q1 := fun p => core_of (fst p) = core_of s2).
  { destruct (q_boot q) as [h|]; destruct parsed as [[kc tab]|].
    - cbn [fx17 cfg_fixed negb andb].
      eapply okp_bind; [apply release_caps_okc|]. intros [s4 o4] C4. cbn [okp fst] in *.
      rewrite C4. apply core_addref.
    - eapply okp_bind; [apply release_caps_okc|]. intros [s4 o4] C4. cbn [okp fst] in *. rewrite C4. reflexivity.
    - eapply okp_bind; [apply release_caps_okc|]. intros [s4 o4] C4. cbn [okp fst] in *. exact C4.
    - eapply okp_bind; [apply release_caps_okc|]. intros [s4 o4] C4. cbn [okp fst] in *. exact C4. }
  intros [s3 o3] C3. simpl in C3.
  eapply okp_bind with (Q1 := fun p => core_of (fst p) = core_of s3); [apply release_caps_okc|].
  intros [s5 o5] C5. simpl in C5. cbn [okp].
  assert (G5 : good (Z.of_nat (length (q_called q))) s0 s5).
  { eapply good_core; [|exact C5]. eapply good_core; [|exact C3].
    replace (Z.of_nat (length (q_called q))) with (0 + Z.of_nat (length (q_called q))) by lia.
    eapply good_trans; eauto. }
  destruct (FIN _ _ G5 ltac:(lia)) as [F1 F2]. apply hpost_live; assumption.
Qed.

Lemma called_total_replace_some : forall t n q q', nth_error t n = Some (Some q) ->
  called_total (replace_nth n (Some q') t) = called_total t - Z.of_nat (length (q_called q)) + Z.of_nat (length (q_called q')).
Proof.
  induction t as [|[q0|] t IH]; intros n q q' H; destruct n; simpl in *; try discriminate.
  - inversion H; subst. lia.
  - rewrite (IH _ _ q' H). lia.
  - rewrite (IH _ _ q' H). lia.
Qed.

Lemma acap_cap_handles : forall s s' a, s_handles s' = s_handles s -> acap_cap s' a = acap_cap s a.
Proof. intros s s' a H. destruct a; simpl; auto. unfold hget. rewrite H. reflexivity. Qed.

Lemma acap_ok_not_emb : forall s a, acap_ok s a = true -> not_emb (acap_cap s a).
Proof.
  intros s a H. destruct a; simpl in *; auto.
  destruct (hget h s) as [q|x|]; simpl; auto. destruct x; simpl; auto. discriminate.
Qed.

Lemma caps_not_emb : forall s s' caps, s_handles s' = s_handles s -> forallb (acap_ok s) caps = true ->
  Forall not_emb (map (acap_cap s') caps).
Proof.
  intros s s' caps Hh. induction caps as [|a caps IH]; simpl; intros H; constructor.
  - rewrite (acap_cap_handles _ _ _ Hh). apply acap_ok_not_emb. apply andb_true_iff in H. apply H.
  - apply IH. apply andb_true_iff in H. apply H.
Qed.

Lemma app_bootstrap_ok : forall s, live s -> pot s + 1 < LIM -> okp (app_bootstrap cfg_fixed s) (hpost 1 s).
Proof.
  intros s L Hb. unfold app_bootstrap. destruct L as [Hs Li]. rewrite Hs.
  pose proof (pot_allocs s).
  eapply okp_bind; [apply new_question_ok; [split; assumption|lia|reflexivity]|].
  intros [s1 id] (L1 & P1 & C1 & _). cbn [okp]. apply hpost_live.
  - eapply live_core; [exact L1|reflexivity].
  - unfold pot in *; simpl in *. exact P1.
Qed.

Lemma mark_called_length : forall x q, (length (q_called (mark_called x q)) <= length (q_called q) + 1)%nat.
Proof. intros. unfold mark_called. destruct (existsb _ _); simpl; [lia|]. rewrite app_length. simpl. lia. Qed.

(* the tail shared by importClient.Send and question.PipelineSend: a new question, the params *)
Lemma send_call_ok : forall s s1 n caps (mk : Z -> list desc -> output), live s1 -> s_handles s1 = s_handles s ->
  forallb (acap_ok s) caps = true -> s_allocs s1 + 1 + Z.of_nat (length caps) < LIM ->
  okp (do '(s2, id) <- new_question (mkQ None n false [] [] None) s1;
       do '(s3, ds, refs) <- fill_caps cfg_fixed (map (acap_cap s2) caps) s2;
       let s4 := if fx19 cfg_fixed then set_qs (replace_nth (Z.to_nat id) (Some (mkQ None n false [] refs None)) (s_qs s3)) s3 else s3 in
       Ok (s4, [mk id ds], false))
      (fun r => let '(s4, o, ab) := r in live s4 /\ pot s4 <= pot s1 + 1 + Z.of_nat (length caps)).
Proof.
  intros s s1 n caps mk L1 Hh Henv Hb.
  eapply okp_bind; [apply new_question_ok; [exact L1|lia|reflexivity]|].
  intros [s2 id] (L2 & P2 & C2 & H2 & _ & _ & _ & T2).
  assert (A2 : s_allocs s2 = s_allocs s1 + 1).
  { change (s_allocs s2) with (k_allocs (core_of s2)). rewrite C2. reflexivity. }
  eapply okp_bind.
  { apply fill_caps_ok; [exact L2| |rewrite map_length; lia].
    apply caps_not_emb with (s := s); [congruence|exact Henv]. }
  intros [[s3 ds] refs] [G3 F3]. rewrite map_length in G3. cbn [fx19 cfg_fixed okp].
  destruct G3 as [L3 [A3 Q3]].
  apply tget_some in T2. destruct T2 as [_ T2].
  split.
  - apply live_set_qs; [exact L3|apply replace_nth_length|].
    eapply slots_free_replace; [apply qs_slots; exact L3|rewrite Q3; exact T2].
  - unfold pot in *. simpl. rewrite Q3. rewrite (called_total_replace_some _ _ _ _ T2). simpl. lia.
Qed.

Lemma app_pipe_ok : forall q0 x caps s, live s -> pot s + 2 + Z.of_nat (length caps) < LIM ->
  forallb (acap_ok s) caps = true ->
  okp (app_pipe cfg_fixed q0 x caps s) (hpost (2 + Z.of_nat (length caps)) s).
Proof.
  intros q0 x caps s L Hb Henv. unfold app_pipe, next_call.
  set (s0 := set_ncall (s_ncall s + 1) s).
  assert (L0 : live s0) by (eapply live_core; [exact L|reflexivity]).
  assert (P0 : pot s0 = pot s) by reflexivity.
  destruct L0 as [Hs0 Li0]. rewrite Hs0.
  assert (SAME : forall o, okp (Ok (s0, o, false)) (hpost (2 + Z.of_nat (length caps)) s)).
  { intros o. cbn [okp]. apply hpost_live; [split; assumption|]. rewrite P0. lia. }
  destruct (tget q0 (s_qs s0)) as [q|] eqn:Eq; [|apply SAME].
  destruct (q_fin q); [apply SAME|].
  apply tget_some in Eq. destruct Eq as [Hr Hn].
  set (s1 := set_qs (replace_nth (Z.to_nat q0) (Some (mark_called x q)) (s_qs s0)) s0).
  assert (L1 : live s1) by (apply live_set_qs; [split; assumption|apply replace_nth_length|eapply slots_free_replace; [apply qs_slots; split; assumption|exact Hn]]).
  assert (P1 : pot s1 <= pot s + 1).
  { unfold pot, s1; simpl. rewrite (called_total_replace_some _ _ _ _ Hn).
    pose proof (mark_called_length x q). change (s_qs s0) with (s_qs s). lia. }
  pose proof (pot_allocs s1).
  eapply okp_weaken.
  { apply (send_call_ok s s1 (s_ncall s) caps (fun id ds => OCall id (OTAns q0 x) ds)).
    - exact L1.
    - reflexivity.
    - exact Henv.
    - lia. }
  intros [[s4 o] ab] [L4 P4]. apply hpost_live; [exact L4|lia].
Qed.

Lemma app_call_ok : forall h caps tag s, live s -> pot s + 2 + Z.of_nat (length caps) < LIM ->
  forallb (acap_ok s) caps = true ->
  okp (app_call cfg_fixed h caps tag s) (hpost (2 + Z.of_nat (length caps)) s).
Proof.
  intros h caps tag s L Hb Henv. unfold app_call.
  assert (SAME : forall s' o, core_of s' = core_of s -> okp (Ok (s', o, false)) (hpost (2 + Z.of_nat (length caps)) s)).
  { intros s' o C. cbn [okp]. apply hpost_live; [eapply live_core; eauto|]. rewrite (pot_core _ _ C). lia. }
  destruct (hget h s) as [q0|x|] eqn:Eh; [apply app_pipe_ok; auto| |unfold next_call; apply SAME; reflexivity].
  destruct x; try (unfold next_call; apply SAME; reflexivity).
  unfold next_call. set (s0 := set_ncall (s_ncall s + 1) s).
  assert (L0 : live s0) by (eapply live_core; [exact L|reflexivity]).
  destruct L0 as [Hs0 Li0]. rewrite Hs0.
  destruct (negb (imp_current i g s0)); [apply SAME; reflexivity|].
  pose proof (pot_allocs s) as Ha.
  eapply okp_weaken.
  { apply (send_call_ok s s0 (s_ncall s) caps (fun id ds => OCall id (OTImp i) ds)).
    - split; assumption.
    - reflexivity.
    - exact Henv.
    - simpl. lia. }
  intros [[s4 o] ab] [L4 P4]. apply hpost_live; [exact L4|]. change (pot s0) with (pot s) in P4. lia.
Qed.

Lemma app_hold_ok : forall h s, live s -> pot s + 1 < LIM -> okp (app_hold cfg_fixed h s) (hpost 1 s).
Proof.
  intros h s L Hb. unfold app_hold, next_call. set (s0 := set_ncall (s_ncall s + 1) s).
  assert (L0 : live s0) by (eapply live_core; [exact L|reflexivity]).
  assert (SAME : forall o, okp (Ok (s0, o, false)) (hpost 1 s)).
  { intros o. cbn [okp]. apply hpost_live; [exact L0|]. change (pot s0) with (pot s). lia. }
  destruct (hget h s0) as [q0|x|]; try apply SAME. destruct x; try apply SAME.
  destruct (s_shut s0 || negb (imp_current i g s0)); [apply SAME|].
  pose proof (pot_allocs s).
  eapply okp_bind; [apply new_question_ok; [exact L0|simpl; lia|reflexivity]|].
  intros [s2 id] (L2 & P2 & _). cbn [okp]. apply hpost_live.
  - eapply live_core; [exact L2|reflexivity].
  - change (pot s0) with (pot s) in P2. unfold pot in *; simpl in *. exact P2.
Qed.

Lemma find_held_some : forall n t i qid q, find_held n t i = Some (qid, q) ->
  nth_error t (Z.to_nat (qid - i)) = Some (Some q) /\ i <= qid.
Proof.
  induction t as [|[q0|] t IH]; intros i qid q H; simpl in H; try discriminate.
  - destruct ((q_call q0 =? n) && _).
    + inversion H; subst. replace (qid - qid) with 0 by lia. simpl. split; [reflexivity|lia].
    + apply IH in H. destruct H as [H Hi]. split; [|lia].
      replace (Z.to_nat (qid - i)) with (S (Z.to_nat (qid - (i + 1)))) by lia. exact H.
  - apply IH in H. destruct H as [H Hi]. split; [|lia].
    replace (Z.to_nat (qid - i)) with (S (Z.to_nat (qid - (i + 1)))) by lia. exact H.
Qed.

Lemma app_unhold_ok : forall n s, live s -> okp (app_unhold cfg_fixed n s) (hpost 0 s).
Proof.
  intros n s L. unfold app_unhold.
  assert (SAME : okp (Ok (s, [], false)) (hpost 0 s)).
  { cbn [okp]. apply hpost_live; [exact L|lia]. }
  destruct (find_held n (s_qs s) 0) as [[qid q]|] eqn:Ef; [|exact SAME].
  destruct (q_held q) as [[[i g] cs]|]; [|exact SAME].
  destruct (s_shut s); [exact SAME|].
  apply find_held_some in Ef. destruct Ef as [Hn _]. rewrite Z.sub_0_r in Hn.
  set (s1 := set_qs _ s). set (s2 := set_busy _ s1).
  assert (L2 : live s2).
  { eapply live_core with (s := s1); [|reflexivity]. apply live_set_qs; [exact L|apply replace_nth_length|eapply slots_free_replace; [apply qs_slots; exact L|exact Hn]]. }
  assert (P2 : pot s2 <= pot s).
  { unfold pot, s2, s1; simpl. rewrite (called_total_replace_some _ _ _ _ Hn). simpl. lia. }
  destruct ((busy_get i g (s_busy s2) =? 0) && dead_mem i g (s_dead s2)).
  - destruct (imp_shutdown_fixed i g (set_dead (dead_del i g (s_dead s2)) s2)) as (s3 & o3 & H3).
    rewrite H3. cbn [bind okp]. pose proof (core_kept _ _ (proj1 (imp_shutdown_refs _ _ _ _ _ _ H3))) as C3.
    apply hpost_live; [eapply live_core; [exact L2|exact C3]|]. rewrite (pot_core _ _ C3). change (pot (set_dead _ s2)) with (pot s2). lia.
  - cbn [okp]. apply hpost_live; [exact L2|lia].
Qed.

Lemma cancel_question_ok : forall qid q s, live s -> nth_error (s_qs s) (Z.to_nat qid) = Some (Some q) ->
  okp (cancel_question qid q s) (fun r => live (fst r) /\ pot (fst r) = pot s).
Proof.
  intros qid q s L Hn. unfold cancel_question. cbn [okp fst]. split.
  - apply live_set_qs; [exact L|apply replace_nth_length|eapply slots_free_replace; [apply qs_slots; exact L|exact Hn]].
  - unfold pot; simpl. rewrite (called_total_replace_some _ _ _ _ Hn). simpl. lia.
Qed.

Lemma app_cancel_ok : forall qid s, live s -> okp (app_cancel cfg_fixed qid s) (hpost 0 s).
Proof.
  intros qid s L. unfold app_cancel.
  assert (SAME : okp (Ok (s, [], false)) (hpost 0 s)).
  { cbn [okp]. apply hpost_live; [exact L|lia]. }
  destruct (s_shut s); [exact SAME|].
  destruct (tget qid (s_qs s)) as [q|] eqn:Eq; [|exact SAME].
  destruct (q_fin q || (q_call q <? 0) || _); [exact SAME|].
  apply tget_some in Eq. destruct Eq as [_ Hn].
  eapply okp_bind; [apply cancel_question_ok; eauto|].
  intros [s1 o] [L1 P1]. cbn [okp fst] in *. apply hpost_live; [exact L1|lia].
Qed.

Lemma app_release_ok : forall h s, live s -> okp (app_release cfg_fixed h s) (hpost 0 s).
Proof.
  intros h s L. unfold app_release.
  assert (SAME : forall s', core_of s' = core_of s -> okp (Ok (s', [], false)) (hpost 0 s)).
  { intros s' C. cbn [okp]. apply hpost_live; [eapply live_core; eauto|]. rewrite (pot_core _ _ C). lia. }
  destruct (hget h s) as [qid|x|]; [| |apply SAME; reflexivity].
  - set (s0 := set_handle h HGone s).
    assert (L0 : live s0) by (eapply live_core; [exact L|reflexivity]).
    destruct (s_shut s0); [apply SAME; reflexivity|].
    destruct (tget qid (s_qs s0)) as [q|] eqn:Eq; [|apply SAME; reflexivity].
    destruct (q_fin q); [apply SAME; reflexivity|].
    apply tget_some in Eq. destruct Eq as [_ Hn].
    eapply okp_bind; [apply cancel_question_ok; eauto|].
    intros [s1 o] [L1 P1]. cbn [okp fst] in *. apply hpost_live; [exact L1|].
    change (pot s0) with (pot s) in P1. lia.
  - eapply okp_bind with (Q1 := fun p => core_of (fst p) = core_of (set_handle h HGone s)); [apply release_cap_okc|].
    intros [s1 o] C. cbn [okp fst] in *.
    apply hpost_live; [eapply live_core; [exact L|exact C]|]. rewrite (pot_core _ _ C). change (pot (set_handle h HGone s)) with (pot s). lia.
Qed.

Lemma find_running_some : forall k l id a, find_running k l = Some (id, a) -> (exists j, a_st a = ARunning j) /\ In (id, a) l.
Proof.
  induction l as [|[id0 a0] l IH]; intros id a H; simpl in H; [discriminate|].
  destruct (a_st a0) eqn:E; try (destruct (IH _ _ H) as [H1 H2]; split; [exact H1|right; exact H2]).
  destruct (a_deliv a0 =? k); [|destruct (IH _ _ H) as [H1 H2]; split; [exact H1|right; exact H2]].
  inversion H; subst. split; [eauto|left; reflexivity].
Qed.

Fixpoint go_res (fs : list rfield) (n : Z) : list pfield * list (option Z) :=
  match fs with
  | [] => ([], [])
  | FNull :: r => let '(p, t) := go_res r n in (PNull :: p, t)
  | FOther :: r => let '(p, t) := go_res r n in (POther :: p, t)
  | FLocal j :: r => let '(p, t) := go_res r (n + 1) in (PCap n :: p, Some j :: t)
  end.
Lemma results_of_eq : forall fs, results_of fs = let '(p, t) := go_res fs 0 in (KStruct p, t).
Proof. reflexivity. Qed.
Lemma go_res_length : forall fs n, (length (snd (go_res fs n)) <= length fs)%nat.
Proof.
  induction fs as [|f fs IH]; intros n; simpl; [lia|].
  destruct f.
  - specialize (IH n). destruct (go_res fs n). simpl in *. lia.
  - specialize (IH (n + 1)). destruct (go_res fs (n + 1)). simpl in *. lia.
  - specialize (IH n). destruct (go_res fs n). simpl in *. lia.
Qed.
Lemma results_of_length : forall fs, (length (snd (results_of fs)) <= length fs)%nat.
Proof.
  intros fs. rewrite results_of_eq. pose proof (go_res_length fs 0) as H. destruct (go_res fs 0). simpl in *. exact H.
Qed.

Lemma core_addrefs_local : forall l s, core_of (addrefs_local l s) = core_of s.
Proof. intros l s. apply core_kept, addrefs_local_kept. Qed.

Lemma ret_content_work : forall k r kc rct, ret_content r = Some (kc, rct) -> Z.of_nat (length rct) <= ev_work (AReturn k r).
Proof.
  intros k r kc rct H. destruct r as [fs| |]; cbn [ret_content ev_work] in *; [|injection H as _ <-; simpl; lia|discriminate].
  injection H as H. pose proof (results_of_length fs) as P. rewrite H in P. simpl in P. lia.
Qed.

Lemma app_return_ok : forall k r s, live s -> pot s + ev_work (AReturn k r) < LIM ->
  okp (app_return cfg_fixed k r s) (hpost (ev_work (AReturn k r)) s).
Proof.
  intros k r s L Hb. assert (Hw0 : 0 <= ev_work (AReturn k r)) by (destruct r; simpl; lia).
  destruct (find_running k (s_ans s)) as [[id a]|] eqn:Ef.
  2:{ unfold app_return. rewrite Ef. destruct (aget k (s_lcalls s)); cbn [okp]; apply hpost_live;
        [eapply live_core; [exact L|reflexivity]|change (pot (set_lcalls _ s)) with (pot s); lia|exact L|lia]. }
  rewrite (app_return_eq _ _ _ _ _ _ Ef). apply find_running_some in Ef. destruct Ef as [_ Hin].
  eapply okp_bind with (Q1 := fun p => core_of (fst p) = core_of s); [apply release_caps_okc|].
  intros [s1 o1] C1. cbn [fst] in C1.
  assert (L1 : live s1) by (eapply live_core; eauto).
  assert (G1 : good 0 s (ret_start id a s1)).
  { split; [|exact (conj (Z.eq_le_incl _ _ (eq_trans (f_equal k_allocs C1) (eq_sym (Z.add_0_r _)))) (f_equal k_qs C1))].
    apply live_set_ans; [exact L1|]. apply ans_ok_aput; [apply (ans_of_live _ L1)|]. exact (ans_of_live _ L _ _ Hin). }
  pose proof (pot_allocs s) as Hpa.
  destruct (ret_content r) as [[kc rct]|] eqn:Er; cbv zeta.
  - pose proof (ret_content_work k _ _ _ Er) as Hw. assert (G2 : good 0 s (addrefs_local rct (ret_start id a s1))) by (eapply good_core; [exact G1|apply core_addrefs_local]).
    eapply okp_bind; [apply drain_ok; apply G2|].
    intros [[s3 o3] b3] [G3 E3].
    assert (G03 : good 0 s s3) by exact (good_trans0 _ _ _ G2 G3).
    eapply okp_bind; [apply send_return_ok; [apply G03|destruct G03 as [_ [A _]]; lia]|].
    intros [[s4 o4] b4] [G4 E4]. cbn [okp].
    apply hpost_good. eapply good_mono; [eapply good_trans; [exact G03|exact G4]|lia].
  - eapply okp_bind; [apply reject_all_ok; apply G1|].
    intros [[s3 o3] b3] [G3 E3].
    assert (G03 : good 0 s s3) by exact (good_trans0 _ _ _ G1 G3).
    eapply okp_bind; [apply send_exception_ok; apply G03|].
    intros [[s4 o4] b4] [G4 E4]. cbn [okp].
    apply hpost_good. eapply good_mono; [exact (good_trans0 _ _ _ G03 G4)|lia].
Qed.

Lemma hpost_mono : forall w1 w2 s r, hpost w1 s r -> w1 <= w2 -> hpost w2 s r.
Proof. intros w1 w2 s [[s1 o] ab] [H1 H2] Hw. split; auto. intros E. destruct (H2 E). split; auto. lia. Qed.

Lemma ev_work_nonneg : forall e, 0 <= ev_work e.
Proof. intros e. destruct e; unfold ev_work; try lia. destruct r; lia. Qed.

Lemma handler_live : forall e s, live s -> pot s + ev_work e < LIM -> env_ok s e = true ->
  okp (handler cfg_fixed e s) (hpost (ev_work e) s).
Proof.
  intros e s L Hb Henv. pose proof (ev_work_nonneg e) as Hw.
  assert (TRIV : forall o, okp (Ok (s, o, false)) (hpost (ev_work e) s)).
  { intros o. cbn [okp]. apply hpost_live; [exact L|lia]. }
  destruct e; simpl handler; try apply TRIV.
  - apply handle_bootstrap_ok; auto.
  - eapply okp_weaken; [apply handle_call_ok; auto|]. intros r H. eapply hpost_mono; eauto.
  - eapply okp_weaken; [apply handle_return_ok; auto; unfold ev_work in Hb; lia|]. intros r0 H. eapply hpost_mono; eauto.
  - eapply okp_weaken; [apply handle_finish_ok; auto|]. intros r H. eapply hpost_mono; eauto.
  - eapply okp_weaken; [apply handle_release_ok; auto|]. intros r H. eapply hpost_mono; eauto.
  - eapply okp_weaken; [apply handle_disembargo_ok; auto|]. intros r H. eapply hpost_mono; eauto.
  - apply app_bootstrap_ok; auto.
  - unfold ev_work in *. apply app_call_ok; auto; lia.
  - unfold ev_work in *. apply app_pipe_ok; auto; lia.
  - apply app_return_ok; auto.
  - eapply okp_weaken; [apply app_release_ok; auto|]. intros r H. eapply hpost_mono; eauto.
  - eapply okp_weaken; [apply app_cancel_ok; auto|]. intros r H. eapply hpost_mono; eauto.
  - apply app_hold_ok; auto.
  - eapply okp_weaken; [apply app_unhold_ok; auto|]. intros r H. eapply hpost_mono; eauto.
Qed.

Definition shut_ok (s : state) : Prop := s_shut s = true /\ s_ans s = [].

(* [kept] without what an application action may change after shutdown: the handles, the call
   counters and the lists of running and blocked calls *)
Definition hkept (r : kept) : kept :=
  mkKept (kp_shut r) (kp_boot r) (kp_qs r) (kp_qgen r) (kp_ans r) (kp_exp r) (kp_egen r) (kp_emb r) (kp_mgen r) (kp_queue r)
         [] 0 0 (kp_allocs r) (kp_busy r) [] [] (kp_sent r) (kp_rel r) (kp_out r).
Definition is_app (x : output) : Prop := match x with LDeliver _ _ _ | LAppRes _ _ | ORelease _ _ => True | _ => False end.
(* after shutdown an application action changes those and reference counts only; what it sends stays
   with the application, or is a Release *)
Definition shut_post (s : state) (r : state * list output * bool) : Prop :=
  hkept (kept_of (fst (fst r))) = hkept (kept_of s) /\ Forall is_app (snd (fst r)).

Lemma handler_shut : forall e s, shut_ok s -> is_peer e = false -> okp (handler cfg_fixed e s) (shut_post s).
Proof.
  intros e s [Hs Ha] Hp.
  assert (SAME : forall s' o ab, hkept (kept_of s') = hkept (kept_of s) -> Forall is_app o -> okp (Ok (s', o, ab)) (shut_post s))
    by (intros; split; assumption).
  destruct e; try discriminate Hp; cbn [handler].
  - unfold app_bootstrap. rewrite Hs. apply SAME; [reflexivity|constructor].
  - unfold app_call. destruct (hget h s) as [q0|x|]; [unfold app_pipe| |]; unfold next_call; cbn [s_shut set_ncall]; rewrite ?Hs;
      [|destruct x; rewrite ?Hs|]; (apply SAME; [reflexivity|repeat constructor]).
  - unfold app_pipe, next_call. cbn [s_shut set_ncall]. rewrite Hs. apply SAME; [reflexivity|repeat constructor].
  - unfold app_return. rewrite Ha. cbn [find_running]. destruct (aget k (s_lcalls s)); (apply SAME; [reflexivity|repeat constructor]).
  - unfold app_release. destruct (hget h s) as [qid|x|]; [cbn [s_shut set_handle set_handles]; rewrite Hs| |];
      try (apply SAME; [reflexivity|repeat constructor]).
    destruct (release_cap_fixed x (set_handle h HGone s)) as (s1 & o1 & H1). rewrite H1. cbn [bind].
    destruct (release_cap_refs _ _ _ _ _ H1) as [K R]. apply SAME; [exact (f_equal hkept K)|].
    revert R. apply Forall_impl. intros [] Hx; try contradiction Hx; exact I.
  - unfold app_cancel. rewrite Hs. apply SAME; [reflexivity|constructor].
  - unfold app_hold, next_call. destruct (hget h _) as [q0|x|]; [|destruct x; cbn [s_shut set_ncall]; rewrite ?Hs; cbn [orb]|];
      (apply SAME; [reflexivity|repeat constructor]).
  - unfold app_unhold. destruct (find_held n (s_qs s) 0) as [[qid q]|]; [destruct (q_held q) as [[[i g] cs]|]; rewrite ?Hs|];
      (apply SAME; [reflexivity|constructor]).
  - apply SAME; [reflexivity|constructor].
Qed.

Lemma handler_shut_inv : forall e s r, handler cfg_fixed e s = Ok r -> shut_ok s -> is_peer e = false -> shut_post s r.
Proof. intros e s r H S Hp. pose proof (handler_shut e s S Hp) as P. rewrite H in P. exact P. Qed.

Lemma shut_post_ok : forall s r, shut_ok s -> shut_post s r -> shut_ok (fst (fst r)).
Proof. intros s r [Hs Ha] [K _]. exact (conj (eq_trans (f_equal kp_shut K) Hs) (eq_trans (f_equal kp_ans K) Ha)). Qed.

(* the invariant of a run: W bounds the ids allocated so far (plus those promised) *)
Definition sinv (s : state) (W : Z) : Prop :=
  if s_shut s then s_ans s = [] else live_inv (core_of s) /\ pot s <= W.

(* the ways a step ends.  [SC_dropped]: after shutdown the receive loop is gone; [SC_shut]: an
   application action after shutdown; [SC_close]: Abort received / Close called; [SC_plain]: the
   handler ran; [SC_abort]: its error aborted the connection *)
Inductive step_case (s : state) (e : event) (s1 : state) (o : list output) : Prop :=
| SC_dropped : s_shut s = true -> is_peer e = true -> o = [] -> s1 = set_out (s_out s) s -> step_case s e s1 o
| SC_shut : forall s0 ab, shut_ok s -> is_peer e = false -> handler cfg_fixed e s = Ok (s0, o, ab) -> shut_ok s0 ->
    s1 = set_out (rev o ++ s_out s0) s0 -> step_case s e s1 o
| SC_close : forall abort s2, live s -> (e = MAbort /\ abort = false) \/ (e = AClose /\ abort = true) ->
    do_shutdown cfg_fixed abort s = Ok (s2, o) -> tables_empty s2 -> s_shut s2 = true ->
    s1 = set_out (rev o ++ s_out s2) s2 -> step_case s e s1 o
| SC_plain : forall s0, live s -> handler cfg_fixed e s = Ok (s0, o, false) -> live s0 -> pot s0 <= pot s + ev_work e ->
    s1 = set_out (rev o ++ s_out s0) s0 -> step_case s e s1 o
| SC_abort : forall s0 o0 s2 o2, live s -> handler cfg_fixed e s = Ok (s0, o0, true) -> s_shut s0 = false ->
    do_shutdown cfg_fixed true s0 = Ok (s2, o2) -> tables_empty s2 -> s_shut s2 = true -> o = o0 ++ o2 ->
    s1 = set_out (rev o ++ s_out s2) s2 -> step_case s e s1 o.

Lemma step_cases : forall s e W, sinv s W -> W + ev_work e < LIM -> env_ok s e = true ->
  exists s1 o, step cfg_fixed s e = Ok (s1, o) /\ step_case s e s1 o.
Proof.
  intros s e W I Hb Henv. unfold step. unfold sinv in I.
  destruct (s_shut s) eqn:Hs.
  - destruct (is_peer e) eqn:Hp; cbn [andb bind].
    + eexists _, _. split; [reflexivity|]. apply SC_dropped; auto.
    + assert (S : shut_ok s) by (split; assumption).
      destruct (okp_inv _ _ _ (handler_shut e s S Hp)) as ([[s0 o0] ab] & H1 & S0). apply (shut_post_ok _ _ S) in S0. cbn [fst] in S0.
      assert (R : forall r, r = Ok (s0, o0) -> exists s1 o,
                (do '(s1, o) <- r; Ok (set_out (rev o ++ s_out s1) s1, o)) = Ok (s1, o) /\ step_case s e s1 o).
      { intros r ->. eexists _, _. split; [reflexivity|]. eapply SC_shut; eauto. }
      destruct e; try discriminate Hp; apply R; try (rewrite H1; cbn [bind]; rewrite (proj1 S0), andb_false_r; reflexivity).
      injection H1 as <- <- _. reflexivity.
  - destruct I as [Li P]. assert (L : live s) by (split; assumption). cbn [andb].
    assert (SD : forall abort s0, exists s2 o2, do_shutdown cfg_fixed abort s0 = Ok (s2, o2) /\ tables_empty s2 /\ s_shut s2 = true)
      by (intros; apply shutdown_total).
    destruct (okp_inv _ _ _ (handler_live e s L ltac:(lia) Henv)) as ([[s0 o0] ab] & H1 & [S0 H2]).
    assert (GEN : exists s1 o, (do '(s1, o) <- (do '(s1, o1, abort) <- handler cfg_fixed e s;
                   if abort && negb (s_shut s1) then do '(s2, o2) <- do_shutdown cfg_fixed true s1; Ok (s2, o1 ++ o2) else Ok (s1, o1));
                 Ok (set_out (rev o ++ s_out s1) s1, o)) = Ok (s1, o) /\ step_case s e s1 o).
    { rewrite H1. cbn [bind]. rewrite S0. cbn [negb]. rewrite andb_true_r. destruct ab.
      - destruct (SD true s0) as (s2 & o2 & E2 & T2 & S2). rewrite E2. cbn [bind].
        eexists _, _. split; [reflexivity|]. eapply SC_abort; eauto.
      - cbn [bind]. eexists _, _. split; [reflexivity|]. destruct (H2 eq_refl). eapply SC_plain; eauto. }
    destruct e; try exact GEN;
      match goal with |- context [do_shutdown cfg_fixed ?a s] => destruct (SD a s) as (s2 & o2 & E2 & T2 & S2);
        rewrite E2; cbn [bind]; eexists _, _; (split; [reflexivity|]); apply (SC_close _ _ _ _ a s2); auto end.
Qed.

Lemma step_inv : forall s e W s1 o, sinv s W -> W + ev_work e < LIM -> env_ok s e = true ->
  step cfg_fixed s e = Ok (s1, o) -> step_case s e s1 o.
Proof.
  intros s e W s1 o I Hb Henv H. destruct (step_cases s e W I Hb Henv) as (s1' & o' & H' & C).
  rewrite H in H'. injection H' as <- <-. exact C.
Qed.

Lemma sinv_step : forall s e W s1 o, sinv s W -> step_case s e s1 o -> sinv s1 (W + ev_work e).
Proof.
  intros s e W s1 o I C. unfold sinv in *.
  destruct C as [Hs _ _ ->|s0 ab _ _ _ [S0 A0] ->|abort s2 _ _ _ T2 S2 ->|s0 [Hs _] _ [S0 L0] P0 ->|s0 o0 s2 o2 _ _ _ _ T2 S2 _ ->];
    cbn [s_shut s_ans set_out].
  - rewrite Hs in *. exact I.
  - rewrite S0. exact A0.
  - rewrite S2. apply T2.
  - rewrite Hs in I. rewrite S0. split; [exact L0|]. change (pot (set_out _ s0)) with (pot s0). lia.
  - rewrite S2. apply T2.
Qed.

(* a step that leaves the connection up ran a handler, which did not abort *)
Lemma step_up : forall s e s1 o, step_case s e s1 o -> s_shut s1 = false ->
  exists s0, live s /\ handler cfg_fixed e s = Ok (s0, o, false) /\ live s0 /\ s1 = set_out (rev o ++ s_out s0) s0.
Proof.
  intros s e s1 o C Hs1.
  destruct C as [Hs _ _ ->|s0 ab _ _ _ [S0 _] ->|abort s2 _ _ _ _ S2 ->|s0 L H L0 _ ->|s0 o0 s2 o2 _ _ _ _ _ S2 _ ->];
    cbn [s_shut set_out] in Hs1; try congruence.
  exists s0. auto.
Qed.

Lemma step_ok : forall s e W, sinv s W -> W + ev_work e < LIM -> env_ok s e = true ->
  exists s1 o, step cfg_fixed s e = Ok (s1, o) /\ sinv s1 (W + ev_work e).
Proof.
  intros s e W I Hb Henv. destruct (step_cases s e W I Hb Henv) as (s1 & o & H & C).
  exists s1, o. split; [exact H|]. eapply sinv_step; eauto.
Qed.

Lemma work_nonneg : forall evs, 0 <= work evs.
Proof. induction evs as [|e evs IH]; simpl; [lia|]. pose proof (ev_work_nonneg e). lia. Qed.

Theorem handlers_total_env : forall evs s W, sinv s W -> W + work evs < LIM ->
  exists s', run_env cfg_fixed s evs = Ok s'.
Proof.
  induction evs as [|e evs IH]; intros s W I Hb; simpl.
  - eauto.
  - destruct (env_ok s e) eqn:Henv; [|eauto].
    pose proof (ev_work_nonneg e) as He. pose proof (work_nonneg evs) as Hw. simpl in Hb.
    destruct (step_ok s e W I ltac:(lia) Henv) as (s1 & o & H1 & I1).
    rewrite H1. simpl. apply (IH s1 (W + ev_work e)); [exact I1|lia].
Qed.

Lemma sinv_init : forall boot, sinv (init boot) 0.
Proof.
  intros boot. unfold sinv. simpl. split; [|unfold pot; simpl; lia].
  unfold live_inv, qgen_ok, gen_ok, ans_ok, exp_ok, slots_free, exp_count; simpl.
  split; [split; [split; [reflexivity|constructor]|intros x []]|].
  split; [split; [reflexivity|constructor]|].
  split; [split; [reflexivity|constructor]|].
  split; [intros id a []|].
  split; [split; [intros x w []|split; [intros x []|intros id; rewrite tget_nil; reflexivity]]|].
  lia.
Qed.

(* C08 handlers_total: from the initial state, no history of peer messages (any field values) and
   application actions (respecting the environment assumption) makes a handler panic or block *)
Theorem handlers_total : forall boot evs, work evs < LIM ->
  exists s', run_env cfg_fixed (init boot) evs = Ok s'.
Proof. intros boot evs H. apply (handlers_total_env evs (init boot) 0); [apply sinv_init|lia]. Qed.
