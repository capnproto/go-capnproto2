(* Pre-fix variants of the handlers: for every defect found by the machinery a shortest history
   on which the machine WITHOUT the repair panics / wedges, while the repaired machine does not.
   F19 (export references of the params leak) and F23 (a queued call resolved against the wrong
   answer) neither panic nor wedge: they have a configuration here and no history.
   The same histories are scenarios of the harness (harness/cmd/c06/gen.go) and were replayed
   on the implementation before each `fix:` commit (docs/C08.md, docs/C07.md, docs/C06.md). *)
From CV Require Import Rpc.Rpc.
Open Scope Z_scope.

Definition without14 := mkCfg false true true true true true true true true true true.
Definition without15 := mkCfg true false true true true true true true true true true.
Definition without16 := mkCfg true true false true true true true true true true true.
Definition without17 := mkCfg true true true false true true true true true true true.
Definition without19 := mkCfg true true true true false true true true true true true.
Definition without20 := mkCfg true true true true true false true true true true true.
Definition without21 := mkCfg true true true true true true false true true true true.
Definition without22 := mkCfg true true true true true true true false true true true.

Definition without23 := mkCfg true true true true true true true true false true true.
Definition without24 := mkCfg true true true true true true true true true false true.
Definition without25 := mkCfg true true true true true true true true true true false.

Definition outcome (c : cfg) (evs : list event) : Z :=
  match run c (init true) evs with Ok _ => 0 | Panic w => w | Stuck w => - w end.

Definition pl0 : payload := mkPayload true false (KStruct []) (Some []).
Definition plcaps (fs : list pfield) (ds : list desc) : payload := mkPayload true false (KStruct fs) (Some ds).

(* F14: a call pipelined on an answer that has not returned leaves the sender lock taken *)
Definition h14 := [MBootstrap 0; MCall 1 (TgImp 0) (Some pl0) true true 1;
                   MCall 2 (TgAns 1 (Some [XField 0])) (Some pl0) true true 2].
Example F14_refuted : outcome without14 h14 = - W_F14 /\ outcome cfg_fixed h14 = 0.
Proof. vm_compute. split; reflexivity. Qed.

(* F15: parameters naming an export that does not exist: annotate(nil) panics *)
Definition h15 := [MBootstrap 0; MCall 1 (TgImp 0) (Some (plcaps [PCap 0] [DRH 9])) true true 1].
Example F15_refuted : outcome without15 h15 = W_F15 /\ outcome cfg_fixed h15 = 0.
Proof. vm_compute. split; reflexivity. Qed.

(* F16: a call on an export that does not exist leaves a placeholder answer; shutdown calls its
   nil releaseMsg *)
Definition h16 := [MBootstrap 0; MCall 1 (TgImp 9) (Some pl0) true true 1].
Example F16_refuted : outcome without16 h16 = W_F16 /\ outcome cfg_fixed h16 = 0.
Proof. vm_compute. split; reflexivity. Qed.

(* F17: the bootstrap question is answered with a null payload *)
Definition h17 := [ABootstrap; MReturn 0 false (RkResults (Some (mkPayload false false KNull (Some []))))].
Example F17_refuted : outcome without17 h17 = W_F17 /\ outcome cfg_fixed h17 = 0.
Proof. vm_compute. split; reflexivity. Qed.

(* F20: the Shutdown of an old import client runs after the entry was deleted and re-created *)
Definition h20 := [ABootstrap; MReturn 0 false (RkResults (Some (mkPayload true false (KCap 0) (Some [DSH 5]))));
                   AHold 0; ARelease 0; MBootstrap 0;
                   MCall 1 (TgImp 0) (Some (plcaps [PCap 0] [DSH 5])) true true 1; AReturn 0 AREmpty;
                   MCall 2 (TgImp 0) (Some (plcaps [PCap 0] [DSH 5])) true true 2; AUnhold 0; AReturn 1 AREmpty].
Example F20_refuted : outcome without20 h20 = W_F20 /\ outcome cfg_fixed h20 = 0.
Proof. vm_compute. split; reflexivity. Qed.

(* F21: recvPayload releases the clients created so far while c.mu is held *)
Definition h21 := [MBootstrap 0; MCall 1 (TgImp 0) (Some (plcaps [PCap 0; PCap 1] [DSH 5; DRH 9])) true true 1].
Example F21_refuted : outcome without21 h21 = - W_F21 /\ outcome cfg_fixed h21 = 0.
Proof. vm_compute. split; reflexivity. Qed.

(* F22: the application drops an embargoed capability before the Disembargo comes back *)
Definition h22 := [MBootstrap 0; ABootstrap; ACall 0 [] 1;
                   MReturn 0 false (RkResults (Some (mkPayload true false (KCap 0) (Some [DRH 0]))));
                   MReturn 1 false (RkResults (Some pl0)); ARelease 0;
                   MDisembargo (TgImp 0) (DxReceiver 0)].
Example F22_refuted : outcome without22 h22 = W_F22 /\ outcome cfg_fixed h22 = 0.
Proof. vm_compute. split; reflexivity. Qed.

(* F24: a Call whose target is the promised answer of the call itself *)
Definition h24 := [MCall 3 (TgAns 3 (Some [])) (Some pl0) true true 1].
Example F24_refuted : outcome without24 h24 = W_F24 /\ outcome cfg_fixed h24 = 0.
Proof. vm_compute. split; reflexivity. Qed.

(* F25: a Return (Call) message whose union pointer is null *)
Definition h25 := [ABootstrap; MNullReturn].
Example F25_refuted : outcome without25 h25 = W_F25 /\ outcome without25 [MNullCall] = W_F25 /\
                      outcome cfg_fixed h25 = 0 /\ outcome cfg_fixed [MNullCall] = 0.
Proof. vm_compute. repeat split; reflexivity. Qed.

(* F26 (not repaired, known finding): the peer calls an export that is an embargoed capability *)
Definition h26 := [MBootstrap 0; ABootstrap; ABootstrap; ACall 0 [] 1;
                   MReturn 0 false (RkResults (Some (mkPayload true false (KCap 0) (Some [DRH 0]))));
                   ACall 1 [AHandle 0] 2; MCall 1 (TgImp 1) (Some pl0) true true 3].
Example F26_witness : outcome cfg_fixed h26 = - W_F26.
Proof. vm_compute. reflexivity. Qed.
