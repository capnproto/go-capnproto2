(* History-level C06 question_ids: a question id is never handed out while an earlier use of it has
   no Finish in the outbox.  Also here: the runner [run_o] of histories with its induction principle
   [run_o_ind], which the later files use, and C07 export_count. *)
From CV Require Import Rpc.Rpc Rpc.RpcSpec Rpc.RpcProofs Rpc.RpcInv Rpc.RpcResp Rpc.RpcLocal Rpc.RpcHist.
From Coq Require Import ZifyBool.
Open Scope Z_scope.

(* the part of the state these statements read *)
Record aux := mkAux { x_qs : tbl question; x_handles : list hstate; x_lcalls : list (Z * Z);
                      x_ecalls : list (Z * Z * Z); x_ncall : Z; x_ndeliv : Z; x_shut : bool }.
Definition aux_of (s : state) : aux :=
  mkAux (s_qs s) (s_handles s) (s_lcalls s) (s_ecalls s) (s_ncall s) (s_ndeliv s) (s_shut s).

Lemma aux_lref : forall d j s, aux_of (lref d j s) = aux_of s. Proof. reflexivity. Qed.
Definition aux_k (r : kept) : aux :=
  mkAux (kp_qs r) (kp_handles r) (kp_lcalls r) (kp_ecalls r) (kp_ncall r) (kp_ndeliv r) (kp_shut r).
Lemma aux_akept : forall s s1, akept_of s1 = akept_of s -> aux_of s1 = aux_of s.
Proof. intros s s1 H. exact (f_equal aux_k H). Qed.
Lemma aux_kept : forall s s1, kept_of s1 = kept_of s -> aux_of s1 = aux_of s.
Proof. intros s s1 H. exact (f_equal aux_k H). Qed.

Lemma aux_imp_shutdown : forall c i g s s1 o, imp_shutdown c i g s = Ok (s1, o) -> aux_of s1 = aux_of s.
Proof. intros c i g s s1 o H. exact (aux_kept _ _ (proj1 (imp_shutdown_refs _ _ _ _ _ _ H))). Qed.
Lemma aux_release_cap : forall c x s s1 o, release_cap c x s = Ok (s1, o) -> aux_of s1 = aux_of s.
Proof. intros c x s s1 o H. exact (aux_kept _ _ (proj1 (release_cap_refs _ _ _ _ _ H))). Qed.
Lemma aux_release_caps : forall c l s s1 o, release_caps c l s = Ok (s1, o) -> aux_of s1 = aux_of s.
Proof. intros c l s s1 o H. exact (aux_kept _ _ (proj1 (release_caps_refs _ _ _ _ _ H))). Qed.
Lemma aux_fill_caps : forall c l s s1 ds refs, fill_caps c l s = Ok (s1, ds, refs) -> aux_of s1 = aux_of s.
Proof. intros c l s s1 ds refs H. exact (aux_akept _ _ (akept_xkept _ _ (fill_caps_xkept _ _ _ _ _ _ H))). Qed.

(* outputs that concern questions and local calls *)
Definition qkind (o : output) : bool :=
  match o with OBootstrap _ | OCall _ _ _ | OFinish _ _ | LAppRes _ _ => true | _ => false end.
Definition qquiet (o : list output) : Prop := filter qkind o = [].

Lemma qq_app : forall a b, qquiet a -> qquiet b -> qquiet (a ++ b).
Proof. unfold qquiet. intros a b Ha Hb. rewrite filter_app, Ha, Hb. reflexivity. Qed.
Lemma qq_nil : qquiet []. Proof. reflexivity. Qed.
Lemma qq_cons : forall x o, qkind x = false -> qquiet o -> qquiet (x :: o).
Proof. unfold qquiet. intros x o Hx Ho. simpl. rewrite Hx. exact Ho. Qed.
(* [qquiet] of an explicit list of outputs (and appends of such): element by element, none is of [qkind] *)
Ltac qq := repeat (first [apply qq_nil | apply qq_cons; [reflexivity|] | apply qq_app]).

Lemma qq_reply : forall o, Forall is_reply o -> qquiet o.
Proof. intros o. apply filter_none. intros [] H; try contradiction H; reflexivity. Qed.
Lemma qq_rel : forall o, Forall is_rel o -> qquiet o.
Proof. intros o H. apply qq_reply, reply_rel, H. Qed.
Lemma qq_release_cap : forall c x s s' o, release_cap c x s = Ok (s', o) -> qquiet o.
Proof. intros c x s s' o H. exact (qq_rel _ (proj2 (release_cap_refs _ _ _ _ _ H))). Qed.
Lemma qq_release_caps : forall c l s s' o, release_caps c l s = Ok (s', o) -> qquiet o.
Proof. intros c l s s' o H. exact (qq_rel _ (proj2 (release_caps_refs _ _ _ _ _ H))). Qed.

(* unchanged, except that deliveries advance the delivery counter *)
Definition qframe (x x1 : aux) : Prop :=
  x_qs x1 = x_qs x /\ x_handles x1 = x_handles x /\ x_lcalls x1 = x_lcalls x /\ x_ecalls x1 = x_ecalls x /\
  x_ncall x1 = x_ncall x /\ x_shut x1 = x_shut x /\ x_ndeliv x <= x_ndeliv x1.
Definition qinert (s : state) (o : list output) (s1 : state) : Prop := qframe (aux_of s) (aux_of s1) /\ qquiet o.

Lemma qframe_refl : forall x, qframe x x.
Proof. intros. repeat split; lia. Qed.
Lemma qframe_eq : forall x x1, x1 = x -> qframe x x1.
Proof. intros; subst; apply qframe_refl. Qed.
Lemma qframe_trans : forall x x1 x2, qframe x x1 -> qframe x1 x2 -> qframe x x2.
Proof. unfold qframe. intros x x1 x2 H1 H2. intuition (try congruence; try lia). Qed.
Lemma qinert_trans : forall s o1 s1 o2 s2, qinert s o1 s1 -> qinert s1 o2 s2 -> qinert s (o1 ++ o2) s2.
Proof. intros s o1 s1 o2 s2 [F1 Q1] [F2 Q2]. split; [eapply qframe_trans; eauto|apply qq_app; assumption]. Qed.

Lemma qinert_sends : forall s o s1, sends s o s1 -> qinert s o s1.
Proof. intros s o s1 [K R]. split; [apply qframe_eq, aux_akept, K|apply qq_reply, R]. Qed.
Lemma qinert_refs : forall s o s1, refs_only s o s1 -> qinert s o s1.
Proof. intros s o s1 H. apply qinert_sends, sends_refs, H. Qed.

Lemma deliver_qinert : forall c id a t s s1 o ab, deliver c id a t s = Ok (s1, o, ab) -> qinert s o s1.
Proof.
  intros c id a t s s1 o ab H. unfold deliver in H.
  assert (REJ : reject c id a s = Ok (s1, o, ab) -> qinert s o s1).
  { intros HR. eapply qinert_sends, reject_sends; eauto. }
  destruct t; [|apply REJ; exact H|discriminate].
  destruct (a_mok a); [|apply REJ; exact H]. inversion H; subst. split; [|qq].
  unfold qframe, aux_of; simpl. repeat split; try reflexivity. lia.
Qed.

Lemma reject_all_qinert : forall c ids s s1 o ab, reject_all c ids s = Ok (s1, o, ab) -> qinert s o s1.
Proof.
  induction ids as [|id ids IH]; intros s s1 o ab H; simpl in H; [inversion H; subst; split; [apply qframe_refl|qq]|].
  destruct (aget id (s_ans s)) as [a|]; [|eapply IH; eauto].
  unbind H as [[s' o'] b'] eqn:E.
  destruct (reject_all c ids s') as [[[s2 o2] b2]| |] eqn:E2; simpl in H; try discriminate. inversion H; subst.
  eapply qinert_trans; [eapply qinert_sends, reject_sends; eauto|eapply IH; eauto].
Qed.

Lemma drain_qinert : forall c r k rct lst ids s s1 o ab, drain c r k rct lst ids s = Ok (s1, o, ab) -> qinert s o s1.
Proof.
  induction ids as [|id ids IH]; intros s s1 o ab H; simpl in H; [inversion H; subst; split; [apply qframe_refl|qq]|].
  unbind H as [[s' o'] b'] eqn:E.
  destruct (drain c r k rct lst ids s') as [[[s2 o2] b2]| |] eqn:E2; simpl in H; try discriminate. inversion H; subst.
  eapply qinert_trans; [|eapply IH; eauto].
  assert (SAME : qinert s [] s) by (split; [apply qframe_refl|qq]).
  destruct (aget id (s_ans s)) as [a|]; [|inversion E; subst; exact SAME].
  destruct (a_st a); try (inversion E; subst; exact SAME).
  destruct (_ =? r); [eapply deliver_qinert; eauto|].
  destruct (aget _ (s_ans s)) as [b|]; [|eapply qinert_sends, reject_sends; eauto].
  destruct (a_ready b); [destruct (a_err b); [eapply qinert_sends, reject_sends; eauto|eapply deliver_qinert; eauto]|].
  inversion E; subst. split; [apply qframe_eq; reflexivity|qq].
Qed.

(* a call of the connection returns: nothing that concerns questions or local calls happens *)
Lemma app_return_qinert : forall k r s s0 o0 ab id a, app_return cfg_fixed k r s = Ok (s0, o0, ab) ->
  find_running k (s_ans s) = Some (id, a) -> qinert s o0 s0.
Proof.
  intros k r s s0 o0 ab id a H Ef.
  destruct (app_return_cases _ _ _ _ _ _ _ H)
    as [n E|E|id' a' s1 o1 s2 o2 b2 o3 b3 _ _ E1 E2 E3 -> _|id' a' kc rct s1 o1 s2 o2 b2 o3 b3 _ _ E1 E2 E3 -> _]; try congruence;
    (eapply qinert_trans; [eapply qinert_refs, release_caps_refs; eauto|eapply qinert_trans]).
  - exact (reject_all_qinert _ _ _ _ _ _ E2).
  - eapply qinert_sends, send_exception_sends; eauto.
  - destruct (drain_qinert _ _ _ _ _ _ _ _ _ _ E2) as [F Q]. split; [|exact Q].
    rewrite (aux_kept _ _ (addrefs_local_kept rct (ret_start id' a' s1))) in F. exact F.
  - eapply qinert_sends, send_return_sends; eauto.
Qed.

Lemma qinert_refl : forall s, qinert s [] s.
Proof. intros. split; [apply qframe_refl|qq]. Qed.

Lemma handle_bootstrap_qinert : forall id s s0 o0 ab, handle_bootstrap cfg_fixed id s = Ok (s0, o0, ab) -> qinert s o0 s0.
Proof.
  intros id s s0 o0 ab H. unfold handle_bootstrap in H.
  destruct (aget id (s_ans s)); [inversion H; subst; apply qinert_refl|].
  destruct (negb (s_boot s)).
  - eapply qinert_sends, send_exception_sends; eauto.
  - unbind H as [[s1 o] err] eqn:E.
    destruct err; [discriminate|]. inversion H; subst.
    exact (qinert_sends _ _ _ (send_return_sends _ _ _ _ _ _ _ _ _ E)).
Qed.

Lemma handle_finish_qinert : forall id rrc s s0 o0 ab, handle_finish cfg_fixed id rrc s = Ok (s0, o0, ab) -> qinert s o0 s0.
Proof.
  intros id rrc s s0 o0 ab H. unfold handle_finish in H.
  destruct (aget id (s_ans s)) as [a|]; [|inversion H; subst; apply qinert_refl].
  destruct (a_fin a); [inversion H; subst; apply qinert_refl|].
  destruct (negb (a_ret a)); [inversion H; subst; split; [apply qframe_eq; reflexivity|qq]|].
  eapply qinert_sends, destroy_sends; eauto.
Qed.

Lemma handle_release_qinert : forall id n s s0 o0 ab, handle_release cfg_fixed id n s = Ok (s0, o0, ab) -> qinert s o0 s0.
Proof.
  intros id n s s0 o0 ab H. unfold handle_release in H.
  pose proof (aux_akept _ _ (akept_xkept _ _ (release_export_xkept id n s))) as F. destruct (release_export id n s) as [[s1 oc] err]. simpl in F.
  destruct err; [inversion H; subst; apply qinert_refl|].
  destruct oc as [x|]; [|inversion H; subst; split; [apply qframe_eq; exact F|qq]].
  unbind H as [s2 o] eqn:E. inversion H; subst.
  split; [apply qframe_eq; rewrite (aux_release_cap _ _ _ _ _ E); exact F|eapply qq_release_cap; eauto].
Qed.

Lemma handle_call_qinert : forall id tg params toCaller mok tag s s0 o0 ab,
  handle_call cfg_fixed id tg params toCaller mok tag s = Ok (s0, o0, ab) -> qinert s o0 s0.
Proof.
  intros id tg params toCaller mok tag s s0 o0 ab H.
  destruct toCaller; [|injection H as <- <- _; split; [apply qframe_refl|qq]].
  assert (LIFT : forall s1, kept_of s1 = kept_of s -> qinert s1 o0 s0 -> qinert s o0 s0).
  { intros s1 K [F Q]. split; [rewrite <- (aux_kept _ _ K); exact F|exact Q]. }
  destruct (handle_call_cases _ _ _ _ _ _ _ H)
    as [a _ E|s1 tor _ K _ E|s1 tab pt (_ & K & _) _ E|s1 tab e x w (_ & K & _) _ E|s1 tab t x ta (_ & K & _) _ _ _ _ _ E
       |s1 tab t x ta (_ & K & _) _ _ _ _ _ E|s1 tab t x ta (_ & K & _) _ _ _ _ _ E|s1 tab t x ta _ _ _ _ E];
    try discriminate E; try apply (LIFT s1 K).
  - injection E as <- <- _. apply qinert_refl.
  - unbind E as [[s2 o2] b2] eqn:E2. unbind E as [s3 o3] eqn:E3. injection E as <- <- _.
    eapply qinert_trans; [eapply qinert_sends, send_exception_sends; eauto|eapply qinert_refs, release_caps_refs; eauto].
  - unbind E as [s2 o2] eqn:E2. injection E as <- <- _. exact (qinert_refs _ _ _ (release_caps_refs _ _ _ _ _ E2)).
  - eapply deliver_qinert; eauto.
  - eapply qinert_sends, reject_sends; eauto.
  - eapply deliver_qinert; eauto.
  - injection E as <- <- _. split; [apply qframe_eq; reflexivity|qq].
Qed.

Definition is_issue (id : Z) (o : output) : bool := match o with OBootstrap q | OCall q _ _ => q =? id | _ => false end.
Definition is_finish (id : Z) (o : output) : bool := match o with OFinish q _ => q =? id | _ => false end.
Definition cnt (f : output -> bool) (o : list output) : nat := length (filter f o).
Definition held (q : question) : bool := match q_held q with Some _ => true | None => false end.
(* a question in use whose Call / Bootstrap is on the wire and whose Finish is not *)
Definition qb (id : Z) (t : tbl question) : nat :=
  match tget id t with Some q => if held q || q_fin q then 0%nat else 1%nat | None => 0%nat end.

Lemma cnt_app : forall f a b, cnt f (a ++ b) = (cnt f a + cnt f b)%nat.
Proof. intros. unfold cnt. rewrite filter_app, app_length. reflexivity. Qed.

Lemma cnt_cons : forall f x o, cnt f (x :: o) = ((if f x then 1 else 0) + cnt f o)%nat.
Proof. intros. unfold cnt. simpl. destruct (f x); reflexivity. Qed.

Lemma cnt_qquiet : forall f o, (forall x, f x = true -> qkind x = true) -> qquiet o -> cnt f o = 0%nat.
Proof.
  intros f o Hf. unfold qquiet, cnt. induction o as [|x o IH]; simpl; intros H; [reflexivity|].
  destruct (qkind x) eqn:E; [discriminate|]. destruct (f x) eqn:Ef; [rewrite (Hf _ Ef) in E; discriminate|]. apply IH. exact H.
Qed.

Lemma issue_qkind : forall id x, is_issue id x = true -> qkind x = true.
Proof. intros id x. destruct x; simpl; auto; discriminate. Qed.
Lemma finish_qkind : forall id x, is_finish id x = true -> qkind x = true.
Proof. intros id x. destruct x; simpl; auto; discriminate. Qed.

(* the invariant: Q1 every issue of an id is matched by a Finish or is the current use;
   H1 a held call has not been canceled; B1 an unresolved bootstrap handle names its question *)
Definition Q1 (x : aux) (out : list output) : Prop :=
  forall id, (cnt (is_issue id) out <= cnt (is_finish id) out + qb id (x_qs x))%nat.
Definition H1 (x : aux) : Prop := forall id q, tget id (x_qs x) = Some q -> held q = true -> q_fin q = false.
Definition B1 (x : aux) : Prop := forall h qid, znth h (x_handles x) = Some (HBoot qid) ->
  exists q, tget qid (x_qs x) = Some q /\ q_boot q = Some h /\ q_fin q = false /\ q_call q < 0 /\ held q = false.
Definition QI (x : aux) (out : list output) : Prop := Q1 x out /\ H1 x /\ B1 x.

Lemma QI_qinert : forall s o s1 out, QI (aux_of s) out -> qinert s o s1 -> QI (aux_of s1) (out ++ o).
Proof.
  intros s o s1 out (Q & H & B) [(F1 & F2 & _) Qq]. split; [|split].
  - intros id. rewrite !cnt_app, (cnt_qquiet _ _ (issue_qkind id) Qq), (cnt_qquiet _ _ (finish_qkind id) Qq).
    unfold Q1 in Q. rewrite F1. specialize (Q id). lia.
  - unfold H1. rewrite F1. exact H.
  - unfold B1. rewrite F1, F2. exact B.
Qed.

(* effect of one output list on the two counters of an id *)
Definition delta (id : Z) (o : list output) (qb0 qb1 : nat) : Prop :=
  (cnt (is_issue id) o + qb0 <= cnt (is_finish id) o + qb1)%nat.

Lemma Q1_step : forall x x1 out o, Q1 x out -> (forall id, delta id o (qb id (x_qs x)) (qb id (x_qs x1))) -> Q1 x1 (out ++ o).
Proof. intros x x1 out o Q D id. rewrite !cnt_app. specialize (Q id). specialize (D id). unfold delta in D. lia. Qed.

Lemma new_question_q : forall q s s1 id, new_question q s = Ok (s1, id) -> live s ->
  tget id (s_qs s) = None /\ (forall i, tget i (s_qs s1) = if i =? id then Some q else tget i (s_qs s)) /\
  s_handles s1 = s_handles s /\ s_lcalls s1 = s_lcalls s /\ s_ecalls s1 = s_ecalls s /\ s_ncall s1 = s_ncall s /\
  s_ndeliv s1 = s_ndeliv s /\ s_shut s1 = s_shut s.
Proof.
  intros q s s1 id H L. pose proof L as [Hs ([Gq Sq] & _)]. simpl in Gq, Sq. unfold new_question in H.
  unbind H as [i g] eqn:E1. unbind H as t eqn:E2. injection H as <- <-.
  destruct (alloc_inv _ _ _ _ _ _ _ Gq Sq E1 E2) as (_ & _ & _ & Hn & TG & _). repeat split; assumption.
Qed.

Lemma app_bootstrap_QI : forall s s0 o0 ab out, app_bootstrap cfg_fixed s = Ok (s0, o0, ab) -> live s ->
  QI (aux_of s) out -> QI (aux_of s0) (out ++ o0).
Proof.
  intros s s0 o0 ab out H L (Q & Hh & B). unfold app_bootstrap in H. rewrite (live_shut _ L) in H.
  unbind H as [s1 id] eqn:E. inversion H; subst.
  destruct (new_question_q _ _ _ _ E L) as (Hn & TG & Hh1 & _).
  split; [|split].
  - eapply Q1_step; [exact Q|]. intros i. unfold delta, qb. simpl. rewrite TG. unfold cnt. simpl.
    destruct (i =? id) eqn:Ei.
    + assert (i = id) by lia. subst i. rewrite Hn, Z.eqb_refl. simpl. lia.
    + replace (id =? i) with false by lia. simpl. lia.
  - intros i q Hq Hheld. simpl in Hq. rewrite TG in Hq. destruct (i =? id); [inversion Hq; subst; discriminate|eapply Hh; eauto].
  - intros h qid Hz. simpl in Hz. rewrite Hh1 in Hz. simpl. apply znth_app_inv in Hz. destruct Hz as [Hz|[Hz1 Hz2]].
    + destruct (B h qid Hz) as (q & Eq & Rest). exists q. rewrite TG.
      destruct (qid =? id) eqn:Eqi; [assert (qid = id) by lia; subst qid; simpl in Eq; rewrite Hn in Eq; discriminate|]. split; [exact Eq|exact Rest].
    + inversion Hz2; subst qid. eexists. rewrite TG, Z.eqb_refl. split; [reflexivity|]. simpl. subst h. repeat split; try lia.
Qed.

Definition ifq (o : list output) : Prop := forall id, cnt (is_issue id) o = 0%nat /\ cnt (is_finish id) o = 0%nat.
Lemma ifq_qquiet : forall o, qquiet o -> ifq o.
Proof. intros o Q id. split; [apply (cnt_qquiet _ _ (issue_qkind id) Q)|apply (cnt_qquiet _ _ (finish_qkind id) Q)]. Qed.
Lemma ifq_app : forall a b, ifq a -> ifq b -> ifq (a ++ b).
Proof. intros a b Ha Hb id. rewrite !cnt_app. destruct (Ha id), (Hb id). lia. Qed.
Lemma ifq_cons : forall x o, (forall id, is_issue id x = false /\ is_finish id x = false) -> ifq o -> ifq (x :: o).
Proof. intros x o Hx Ho id. unfold cnt in *. simpl. destruct (Hx id) as [-> ->]. apply Ho. Qed.
Lemma ifq_nil : ifq []. Proof. intros id. split; reflexivity. Qed.

(* no question changes, no handle becomes an unresolved bootstrap *)
Lemma QI_same : forall x x1 out o, QI x out -> x_qs x1 = x_qs x ->
  (forall h qid, znth h (x_handles x1) = Some (HBoot qid) -> znth h (x_handles x) = Some (HBoot qid)) -> ifq o -> QI x1 (out ++ o).
Proof.
  intros x x1 out o (Q & H & B) Eq Hh I. split; [|split].
  - intros id. rewrite !cnt_app. destruct (I id) as [-> ->]. rewrite Eq. specialize (Q id). lia.
  - unfold H1. rewrite Eq. exact H.
  - intros h qid Hz. rewrite Eq. apply B. apply Hh. exact Hz.
Qed.

(* a question is replaced by one with the same bootstrap link, cancel flag, call number and hold *)
Definition qsame (q q' : question) : Prop :=
  q_boot q' = q_boot q /\ q_fin q' = q_fin q /\ q_call q' = q_call q /\ held q' = held q.

Lemma QI_replace_same : forall x x1 out qid q q', QI x out -> tget qid (x_qs x) = Some q -> qsame q q' ->
  x_qs x1 = replace_nth (Z.to_nat qid) (Some q') (x_qs x) -> x_handles x1 = x_handles x -> QI x1 out.
Proof.
  intros x x1 out qid q q' (Q & H & B) Eq (S1 & S2 & S3 & S4) Eqs Eh.
  pose proof (tget_some _ _ _ _ Eq) as [Hr Hn].
  assert (TG : forall i, tget i (x_qs x1) = if i =? qid then Some q' else tget i (x_qs x)).
  { intros i. rewrite Eqs, tget_replace by lia. replace (Z.of_nat (Z.to_nat qid)) with qid by lia. reflexivity. }
  split; [|split].
  - intros id. specialize (Q id). unfold qb in *. rewrite TG. destruct (id =? qid) eqn:E; [|exact Q].
    assert (id = qid) by lia. subst id. rewrite Eq in Q. rewrite S4, S2. exact Q.
  - intros i q0 Hq Hheld. rewrite TG in Hq. destruct (i =? qid) eqn:E; [|eapply H; eauto].
    inversion Hq; subst q0. rewrite S2. rewrite S4 in Hheld. eapply H; eauto.
  - intros h i Hz. rewrite Eh in Hz. destruct (B h i Hz) as (q0 & E0 & R). rewrite TG.
    destruct (i =? qid) eqn:E; [|exists q0; split; assumption].
    assert (i = qid) by lia. subst i. rewrite Eq in E0. inversion E0; subst q0. exists q'. split; [reflexivity|].
    rewrite S1, S2, S3, S4. exact R.
Qed.

Lemma fill_caps_ifq_frame : forall l s s1 ds refs, fill_caps cfg_fixed l s = Ok (s1, ds, refs) -> aux_of s1 = aux_of s.
Proof. intros. eapply aux_fill_caps; eauto. Qed.

(* a new call question and its Call message *)
Lemma send_call_QI : forall s1 n caps (mk : Z -> list desc -> output) s0 o0 ab out, live s1 ->
  (forall id ds i, is_issue i (mk id ds) = (id =? i) /\ is_finish i (mk id ds) = false) ->
  (do '(s2, id) <- new_question (mkQ None n false [] [] None) s1;
   do '(s3, ds, refs) <- fill_caps cfg_fixed (map (acap_cap s2) caps) s2;
   let s4 := if fx19 cfg_fixed then set_qs (replace_nth (Z.to_nat id) (Some (mkQ None n false [] refs None)) (s_qs s3)) s3 else s3 in
   Ok (s4, [mk id ds], false)) = Ok (s0, o0, ab) -> QI (aux_of s1) out -> QI (aux_of s0) (out ++ o0).
Proof.
  intros s1 n caps mk s0 o0 ab out L1 Hmk H (Q & Hh & B).
  unbind H as [s2 id] eqn:E.
  destruct (new_question_q _ _ _ _ E L1) as (Hn & TG & Hh1 & _).
  unbind H as [[s3 ds] refs] eqn:E3.
  apply aux_fill_caps in E3. cbn [fx19 cfg_fixed] in H. inversion H; subst.
  assert (Q3 : s_qs s3 = s_qs s2) by (change (x_qs (aux_of s3) = x_qs (aux_of s2)); rewrite E3; reflexivity).
  assert (H3 : s_handles s3 = s_handles s2) by (change (x_handles (aux_of s3) = x_handles (aux_of s2)); rewrite E3; reflexivity).
  (* first the state with the question as allocated, then the replacement by an equivalent one *)
  assert (QI2 : QI (aux_of s2) (out ++ [mk id ds])).
  { split; [|split].
    - eapply Q1_step; [exact Q|]. intros i. unfold delta, qb. simpl. rewrite TG. unfold cnt. simpl.
      destruct (Hmk id ds i) as [-> ->]. destruct (i =? id) eqn:Ei.
      + assert (i = id) by lia. subst i. rewrite Hn, Z.eqb_refl. simpl. lia.
      + replace (id =? i) with false by lia. simpl. lia.
    - intros i q Hq Hheld. simpl in Hq. rewrite TG in Hq. destruct (i =? id); [inversion Hq; subst; discriminate|eapply Hh; eauto].
    - intros h qid Hz. simpl in Hz. rewrite Hh1 in Hz. destruct (B h qid Hz) as (q & Eq & Rest). exists q. simpl. rewrite TG.
      destruct (qid =? id) eqn:Eqi; [assert (qid = id) by lia; subst qid; simpl in Eq; rewrite Hn in Eq; discriminate|]. split; [exact Eq|exact Rest]. }
  eapply (QI_replace_same (aux_of s2) _ _ id (mkQ None n false [] [] None) (mkQ None n false [] refs None) QI2).
  - simpl. rewrite TG, Z.eqb_refl. reflexivity.
  - repeat split.
  - simpl. rewrite Q3. reflexivity.
  - simpl. exact H3.
Qed.

Lemma QI_aux_same : forall s s1 out o, QI (aux_of s) out -> s_qs s1 = s_qs s -> s_handles s1 = s_handles s -> ifq o -> QI (aux_of s1) (out ++ o).
Proof. intros s s1 out o H Eq Eh I. eapply QI_same; [exact H|exact Eq| |exact I]. simpl. rewrite Eh. auto. Qed.

(* [ifq] of an explicit list of outputs: element by element, none issues or finishes a question *)
Ltac iq := repeat (first [apply ifq_nil | apply ifq_cons; [intros ?; split; reflexivity|]]).

Lemma mark_called_same : forall x q, qsame q (mark_called x q).
Proof. intros x q. unfold mark_called. destruct (existsb _ _); repeat split. Qed.

Lemma app_pipe_QI : forall q0 x caps s s0 o0 ab out, app_pipe cfg_fixed q0 x caps s = Ok (s0, o0, ab) -> live s ->
  QI (aux_of s) out -> QI (aux_of s0) (out ++ o0).
Proof.
  intros q0 x caps s s0 o0 ab out H L HQ. unfold app_pipe, next_call in H.
  set (sa := set_ncall (s_ncall s + 1) s) in *.
  assert (SIMPLE : forall c, Ok (sa, [LAppRes (s_ncall s) c], false) = Ok (s0, o0, ab) -> QI (aux_of s0) (out ++ o0)).
  { intros c E. inversion E; subst. eapply QI_aux_same; [exact HQ|reflexivity|reflexivity|iq]. }
  destruct (s_shut sa); [apply (SIMPLE _ H)|].
  destruct (tget q0 (s_qs sa)) as [q|] eqn:Eq; [|apply (SIMPLE _ H)].
  destruct (q_fin q); [apply (SIMPLE _ H)|].
  pose proof (tget_some _ _ _ _ Eq) as [Hr Hn].
  set (s1 := set_qs (replace_nth (Z.to_nat q0) (Some (mark_called x q)) (s_qs sa)) sa) in *.
  assert (La : live sa) by (eapply live_core; [exact L|reflexivity]).
  assert (L1 : live s1) by (apply live_set_qs; [exact La|apply replace_nth_length|eapply slots_free_replace; [apply qs_slots; exact La|exact Hn]]).
  assert (Q1' : QI (aux_of s1) out).
  { eapply (QI_replace_same (aux_of s) _ _ q0 q (mark_called x q) HQ); [exact Eq|apply mark_called_same|reflexivity|reflexivity]. }
  eapply (send_call_QI s1 (s_ncall s) caps (fun id ds => OCall id (OTAns q0 x) ds)); [exact L1| |exact H|exact Q1'].
  intros id ds i. split; reflexivity.
Qed.

Lemma app_call_QI : forall h caps tag s s0 o0 ab out, app_call cfg_fixed h caps tag s = Ok (s0, o0, ab) -> live s ->
  QI (aux_of s) out -> QI (aux_of s0) (out ++ o0).
Proof.
  intros h caps tag s s0 o0 ab out H L HQ. unfold app_call in H.
  assert (SIMPLE : forall sx o, s_qs sx = s_qs s -> s_handles sx = s_handles s -> ifq o -> Ok (sx, o, false) = Ok (s0, o0, ab) -> QI (aux_of s0) (out ++ o0)).
  { intros sx o E1 E2 I E. inversion E; subst. eapply QI_aux_same; eauto. }
  destruct (hget h s) as [q0|x|]; [eapply app_pipe_QI; eauto| |unfold next_call in H; eapply SIMPLE; [| | |exact H]; [reflexivity|reflexivity|iq]].
  destruct x; unfold next_call in H; try (eapply SIMPLE; [| | |exact H]; [reflexivity|reflexivity|iq]).
  set (sa := set_ncall (s_ncall s + 1) s) in *.
  assert (La : live sa) by (eapply live_core; [exact L|reflexivity]).
  destruct (s_shut sa); [eapply SIMPLE; [| | |exact H]; [reflexivity|reflexivity|iq]|].
  destruct (negb (imp_current i g sa)); [eapply SIMPLE; [| | |exact H]; [reflexivity|reflexivity|iq]|].
  eapply (send_call_QI sa (s_ncall s) caps (fun id ds => OCall id (OTImp i) ds)); [exact La| |exact H|exact HQ].
  intros id ds j. split; reflexivity.
Qed.

Lemma app_hold_QI : forall h s s0 o0 ab out, app_hold cfg_fixed h s = Ok (s0, o0, ab) -> live s ->
  QI (aux_of s) out -> QI (aux_of s0) (out ++ o0).
Proof.
  intros h s s0 o0 ab out H L HQ. unfold app_hold, next_call in H.
  set (sa := set_ncall (s_ncall s + 1) s) in *.
  assert (SIMPLE : forall o, ifq o -> Ok (sa, o, false) = Ok (s0, o0, ab) -> QI (aux_of s0) (out ++ o0)).
  { intros o I E. inversion E; subst. eapply QI_aux_same; [exact HQ|reflexivity|reflexivity|exact I]. }
  destruct (hget h sa) as [q0|x|]; [eapply SIMPLE; [|exact H]; iq| |eapply SIMPLE; [|exact H]; iq].
  destruct x; try (eapply SIMPLE; [|exact H]; iq; fail).
  destruct (s_shut sa || _); [eapply SIMPLE; [|exact H]; iq|].
  assert (La : live sa) by (eapply live_core; [exact L|reflexivity]).
  unbind H as [s2 id] eqn:E. inversion H; subst.
  destruct (new_question_q _ _ _ _ E La) as (Hn & TG & Hh1 & _). destruct HQ as (Q & Hh & B).
  change (s_qs sa) with (s_qs s) in Hn, TG. change (s_handles sa) with (s_handles s) in Hh1.
  rewrite app_nil_r. split; [|split].
  - intros j. specialize (Q j). unfold qb in *. simpl. rewrite TG. destruct (j =? id) eqn:Ej; [|exact Q].
    assert (j = id) by lia. subst j. simpl in Q. rewrite Hn in Q. simpl. exact Q.
  - intros j q Hq Hheld. simpl in Hq. rewrite TG in Hq. destruct (j =? id); [inversion Hq; subst; reflexivity|eapply Hh; eauto].
  - intros h' qid Hz. simpl in Hz. rewrite Hh1 in Hz. destruct (B h' qid Hz) as (q & Eq & Rest). exists q. simpl. rewrite TG.
    destruct (qid =? id) eqn:Eqi; [assert (qid = id) by lia; subst qid; simpl in Eq; rewrite Hn in Eq; discriminate|]. split; [exact Eq|exact Rest].
Qed.

Lemma find_held_tget : forall n t qid q, find_held n t 0 = Some (qid, q) -> tget qid t = Some q /\ held q = true.
Proof.
  intros n t qid q H. pose proof (find_held_some _ _ _ _ _ H) as [Hn Hq]. rewrite Z.sub_0_r in Hn. split.
  - replace qid with (Z.of_nat (Z.to_nat qid)) by lia. apply nth_tget. exact Hn.
  - clear Hn Hq. revert H. generalize 0. induction t as [|[q0|] t IH]; intros i H; simpl in H; try discriminate; [|eapply IH; eauto].
    destruct ((q_call q0 =? n) && _) eqn:E; [|eapply IH; eauto]. inversion H; subst. apply andb_true_iff in E. destruct E as [_ E].
    unfold held. destruct (q_held q); [reflexivity|discriminate].
Qed.

Lemma app_unhold_QI : forall n s s0 o0 ab out, app_unhold cfg_fixed n s = Ok (s0, o0, ab) -> live s ->
  QI (aux_of s) out -> QI (aux_of s0) (out ++ o0).
Proof.
  intros n s s0 o0 ab out H L HQ. unfold app_unhold in H.
  assert (SIMPLE : Ok (s, @nil output, false) = Ok (s0, o0, ab) -> QI (aux_of s0) (out ++ o0)).
  { intros E. inversion E; subst. rewrite app_nil_r. exact HQ. }
  destruct (find_held n (s_qs s) 0) as [[qid q]|] eqn:Ef; [|apply (SIMPLE H)].
  destruct (find_held_tget _ _ _ _ Ef) as [Eq Hheld].
  destruct (q_held q) as [[[i g] cs]|] eqn:Eh; [|apply (SIMPLE H)].
  destruct (s_shut s); [apply (SIMPLE H)|].
  destruct HQ as (Q & Hh & B). pose proof (Hh _ _ Eq Hheld) as Hfin.
  pose proof (tget_some _ _ _ _ Eq) as [Hr Hn].
  set (q' := mkQ None (q_call q) (q_fin q) [] [] None) in *.
  assert (RES : forall sx o3, s_qs sx = replace_nth (Z.to_nat qid) (Some q') (s_qs s) -> s_handles sx = s_handles s -> ifq o3 ->
            QI (aux_of sx) (out ++ OCall qid (OTImp i) [] :: o3)).
  { intros sx o3 Eqs Ehs I3.
    assert (TG : forall j, tget j (s_qs sx) = if j =? qid then Some q' else tget j (s_qs s)).
    { intros j. rewrite Eqs, tget_replace by lia. replace (Z.of_nat (Z.to_nat qid)) with qid by lia. reflexivity. }
    split; [|split].
    - intros j. rewrite !cnt_app, !cnt_cons. destruct (I3 j) as [I1 I2]. rewrite I1, I2. simpl is_issue. simpl is_finish.
      specialize (Q j). unfold qb in *. simpl x_qs. rewrite TG. destruct (j =? qid) eqn:Ej.
      + assert (j = qid) by lia. subst j. simpl in Q. rewrite Eq, Hheld in Q. simpl in Q. rewrite Z.eqb_refl. unfold q', held. simpl. rewrite Hfin. simpl. lia.
      + replace (qid =? j) with false by lia. simpl in Q. lia.
    - intros j q0 Hq Hh0. simpl in Hq. rewrite TG in Hq. destruct (j =? qid); [inversion Hq; subst; discriminate|eapply Hh; eauto].
    - intros h' j Hz. simpl in Hz. rewrite Ehs in Hz. destruct (B h' j Hz) as (q0 & E0 & R). simpl. rewrite TG.
      destruct (j =? qid) eqn:Ej; [|exists q0; split; assumption].
      assert (j = qid) by lia. subst j. simpl in E0. rewrite Eq in E0. inversion E0; subst q0.
      destruct R as (_ & _ & _ & R). rewrite R in Hheld. discriminate. }
  match type of H with context [if ?c then _ else _] => destruct c end.
  - unbind H as [s3 o3] eqn:E3.
    inversion H; subst. pose proof (aux_imp_shutdown _ _ _ _ _ _ E3) as A3.
    apply RES; [change (x_qs (aux_of s0) = replace_nth (Z.to_nat qid) (Some q') (s_qs s)); rewrite A3; reflexivity
               |change (x_handles (aux_of s0) = s_handles s); rewrite A3; reflexivity
               |exact (ifq_qquiet _ (qq_rel _ (proj2 (imp_shutdown_refs _ _ _ _ _ _ E3))))].
  - inversion H; subst. apply RES; [reflexivity|reflexivity|iq].
Qed.

(* handleCancel: the question is marked, its Finish(releaseResultCaps) is sent *)
Lemma cancel_QI : forall x x1 out qid q o3, QI x out -> tget qid (x_qs x) = Some q -> q_fin q = false -> held q = false ->
  x_qs x1 = replace_nth (Z.to_nat qid) (Some (mkQ (q_boot q) (q_call q) true (q_called q) (q_prefs q) (q_held q))) (x_qs x) ->
  (forall h i, znth h (x_handles x1) = Some (HBoot i) -> znth h (x_handles x) = Some (HBoot i) /\ i <> qid) ->
  ifq o3 -> QI x1 (out ++ OFinish qid true :: o3).
Proof.
  intros x x1 out qid q o3 (Q & H & B) Eq Hf Hh Eqs Ehs I3.
  pose proof (tget_some _ _ _ _ Eq) as [Hr Hn].
  assert (TG : forall j, tget j (x_qs x1) = if j =? qid then Some (mkQ (q_boot q) (q_call q) true (q_called q) (q_prefs q) (q_held q)) else tget j (x_qs x)).
  { intros j. rewrite Eqs, tget_replace by lia. replace (Z.of_nat (Z.to_nat qid)) with qid by lia. reflexivity. }
  split; [|split].
  - intros j. rewrite !cnt_app, !cnt_cons. destruct (I3 j) as [I1 I2]. rewrite I1, I2. simpl is_issue. simpl is_finish.
    specialize (Q j). unfold qb in *. rewrite TG. destruct (j =? qid) eqn:Ej.
    + assert (j = qid) by lia. subst j. rewrite Eq, Hh, Hf in Q. simpl in Q. rewrite Z.eqb_refl. unfold held in *. simpl. rewrite orb_true_r. lia.
    + replace (qid =? j) with false by lia. lia.
  - intros j q0 Hq Hh0. rewrite TG in Hq. destruct (j =? qid); [inversion Hq; subst; unfold held in *; simpl in Hh0; rewrite Hh0 in Hh; discriminate|eapply H; eauto].
  - intros h' j Hz. destruct (Ehs h' j Hz) as [Hz' Hne]. destruct (B h' j Hz') as (q0 & E0 & R). exists q0. rewrite TG.
    replace (j =? qid) with false by lia. split; assumption.
Qed.

Lemma app_cancel_QI : forall qid s s0 o0 ab out, app_cancel cfg_fixed qid s = Ok (s0, o0, ab) -> QI (aux_of s) out -> QI (aux_of s0) (out ++ o0).
Proof.
  intros qid s s0 o0 ab out H HQ. unfold app_cancel in H.
  assert (SIMPLE : Ok (s, @nil output, false) = Ok (s0, o0, ab) -> QI (aux_of s0) (out ++ o0)).
  { intros E. inversion E; subst. rewrite app_nil_r. exact HQ. }
  destruct (s_shut s); [apply (SIMPLE H)|].
  destruct (tget qid (s_qs s)) as [q|] eqn:Eq; [|apply (SIMPLE H)].
  destruct (q_fin q) eqn:Ef; [apply (SIMPLE H)|]. destruct (q_call q <? 0) eqn:Ec; [apply (SIMPLE H)|].
  destruct (q_held q) eqn:Eh; [apply (SIMPLE H)|]. simpl in H. unfold cancel_question in H. simpl in H. inversion H; subst.
  eapply (cancel_QI (aux_of s) _ out qid q [LAppRes (q_call q) 2] HQ Eq Ef); [unfold held; rewrite Eh; reflexivity|simpl; rewrite Eh; reflexivity| |iq].
  intros h i Hz. simpl in Hz. split; [exact Hz|]. intros ->. destruct HQ as (_ & _ & B). destruct (B h qid Hz) as (q0 & E0 & _ & _ & Hc & _).
  simpl in E0. rewrite Eq in E0. inversion E0; subst. lia.
Qed.

Lemma hget_znth : forall h s v, hget h s = v -> v <> HGone -> znth h (s_handles s) = Some v.
Proof. intros h s v H Hv. unfold hget in H. destruct (znth h (s_handles s)); [congruence|subst; contradiction]. Qed.

(* [set_handle] is unguarded: an index beyond the end changes nothing, a negative one writes position 0
   ([Z.to_nat]).  The machine produces neither (handles come from hget / q_boot); hence the guard on [h' <> h] *)
Lemma set_handle_boot : forall h v s h' i, (forall j, v <> HBoot j) -> znth h' (s_handles (set_handle h v s)) = Some (HBoot i) ->
  znth h' (s_handles s) = Some (HBoot i) /\ (0 <= h < Z.of_nat (length (s_handles s)) -> h' <> h).
Proof.
  intros h v s h' i Hv Hz. unfold set_handle, set_handles in Hz. cbn [s_handles] in Hz.
  destruct ((0 <=? h) && (h <? Z.of_nat (length (s_handles s)))) eqn:Er.
  - rewrite znth_replace in Hz by lia. destruct (h' =? h) eqn:E; [inversion Hz; exfalso; eapply Hv; eauto|]. split; [exact Hz|lia].
  - assert (R : replace_nth (Z.to_nat h) v (s_handles s) = s_handles s \/ h < 0).
    { destruct (h <? 0) eqn:En; [right; lia|left]. assert (Hl : (length (s_handles s) <= Z.to_nat h)%nat) by lia. clear - Hl.
      revert Hl. generalize (Z.to_nat h) as n. induction (s_handles s) as [|a l IH]; intros n Hl; simpl in *; [destruct n; reflexivity|].
      destruct n; [lia|]. simpl. f_equal. apply IH. lia. }
    destruct R as [R|R]; [rewrite R in Hz; split; [exact Hz|lia]|].
    (* a negative index *)
    replace (Z.to_nat h) with 0%nat in Hz by lia. split; [|lia].
    destruct (s_handles s) as [|a l]; [exact Hz|]. simpl in Hz. unfold znth in *. simpl in *.
    destruct ((h' <? 0) || (Z.pos (Pos.of_succ_nat (length l)) <=? h')); [discriminate|].
    destruct (Z.to_nat h'); simpl in *; [inversion Hz; exfalso; eapply Hv; eauto|exact Hz].
Qed.

Lemma app_release_QI : forall h s s0 o0 ab out, app_release cfg_fixed h s = Ok (s0, o0, ab) -> QI (aux_of s) out -> QI (aux_of s0) (out ++ o0).
Proof.
  intros h s s0 o0 ab out H HQ. unfold app_release in H.
  destruct (hget h s) as [qid|x|] eqn:Eh; [| |inversion H; subst; rewrite app_nil_r; exact HQ].
  - pose proof (hget_znth _ _ _ Eh ltac:(discriminate)) as Hz.
    set (sa := set_handle h HGone s) in *.
    assert (HB : forall h' i, znth h' (s_handles sa) = Some (HBoot i) -> znth h' (s_handles s) = Some (HBoot i) /\ h' <> h).
    { intros h' i Hz'. destruct (set_handle_boot h HGone s h' i ltac:(discriminate) Hz') as [A B]. split; [exact A|].
      apply B. apply znth_some in Hz. lia. }
    assert (SIMPLE : Ok (sa, @nil output, false) = Ok (s0, o0, ab) -> QI (aux_of s0) (out ++ o0)).
    { intros E. inversion E; subst. eapply QI_same; [exact HQ|reflexivity| |iq]. intros h' i Hz'. apply (HB h' i Hz'). }
    destruct (s_shut sa); [apply (SIMPLE H)|].
    destruct (tget qid (s_qs sa)) as [q|] eqn:Eq; [|apply (SIMPLE H)].
    destruct (q_fin q) eqn:Ef; [apply (SIMPLE H)|].
    unfold cancel_question in H. simpl in H. inversion H; subst.
    destruct HQ as (Q & Hh & B). destruct (B h qid Hz) as (q0 & E0 & Rb & _ & _ & Rh). simpl in E0. change (s_qs sa) with (s_qs s) in Eq. rewrite Eq in E0. inversion E0; subst q0.
    replace [OFinish qid true] with (OFinish qid true :: []) by reflexivity.
    eapply (cancel_QI (aux_of s) _ out qid q [] (conj Q (conj Hh B)) Eq Ef Rh); [reflexivity| |iq].
    intros h' i Hz'. simpl in Hz'. destruct (HB h' i Hz') as [A Hne]. split; [exact A|].
    intros ->. destruct (B h' qid A) as (q1 & E1 & Rb1 & _). simpl in E1. rewrite Eq in E1. inversion E1; subst q1. congruence.
  - unbind H as [s1 o] eqn:E. inversion H; subst.
    pose proof (aux_release_cap _ _ _ _ _ E) as A.
    eapply QI_same; [exact HQ| | |apply ifq_qquiet; eapply qq_release_cap; eauto].
    + change (x_qs (aux_of s0) = s_qs s). rewrite A. reflexivity.
    + intros h' i Hz'. change (znth h' (x_handles (aux_of s0)) = Some (HBoot i)) in Hz'. rewrite A in Hz'. simpl in Hz'.
      apply (set_handle_boot h HGone s h' i ltac:(discriminate) Hz').
Qed.

Lemma ifq_none : forall (P : output -> Prop) o, (forall x, P x -> forall id, is_issue id x = false /\ is_finish id x = false) -> Forall P o -> ifq o.
Proof.
  intros P o HP H id. unfold cnt. split; (rewrite (filter_none P _ o); [reflexivity| |exact H]); intros x Hx; apply (HP x Hx id).
Qed.
Lemma ifq_rel : forall o, Forall is_rel o -> ifq o.
Proof. intros o. apply ifq_none. intros x H j. destruct x; try contradiction H; split; reflexivity. Qed.
Lemma ifq_disemb : forall o, Forall is_disemb o -> ifq o.
Proof. intros o. apply ifq_none. intros x H j. destruct x; try contradiction H; split; reflexivity. Qed.

Lemma handle_return_QI : forall qid rpc k s s0 o0 ab out, handle_return cfg_fixed qid rpc k s = Ok (s0, o0, ab) ->
  QI (aux_of s) out -> QI (aux_of s0) (out ++ o0).
Proof.
  intros qid rpc k s s0 o0 ab out H HQ. pose proof HQ as (Q & Hh & B).
  (* the state afterwards: the question is gone; the handle of a bootstrap question has resolved *)
  assert (FINAL : forall sx fin, s_qs sx = tclear qid (s_qs s) ->
            (forall h' i, znth h' (s_handles sx) = Some (HBoot i) -> znth h' (s_handles s) = Some (HBoot i) /\ i <> qid) ->
            (forall id, cnt (is_issue id) fin = 0%nat) ->
            (forall id, id <> qid -> cnt (is_finish id) fin = 0%nat) ->
            (qb qid (s_qs s) <= cnt (is_finish qid) fin)%nat -> QI (aux_of sx) (out ++ fin)).
  { intros sx fin Eqs Ehs I1 I2 I3. split; [|split]; cbn [aux_of x_qs x_handles].
    - intros j. rewrite !cnt_app, I1. specialize (Q j). unfold qb in *. cbn [aux_of x_qs]. rewrite Eqs, tget_tclear. destruct (j =? qid) eqn:Ej.
      + assert (j = qid) by lia. subst j. simpl in Q. lia.
      + rewrite I2 by lia. simpl in Q. lia.
    - intros j q0 Hq Hheld. cbn [aux_of x_qs] in Hq. rewrite Eqs, tget_tclear in Hq. destruct (j =? qid); [discriminate|eapply Hh; eauto].
    - intros h' i Hz. destruct (Ehs h' i Hz) as [Hz' Hne]. destruct (B h' i Hz') as (q0 & E0 & R). exists q0. cbn [aux_of x_qs]. rewrite Eqs, tget_tclear.
      replace (i =? qid) with false by lia. split; assumption. }
  set (qh := fun r => (kp_qs r, kp_handles r)).
  destruct (handle_return_cases _ _ _ _ _ _ _ H)
    as [_ -> -> _|q s1 pc Eq Eo Ef E _|q s1 pc s2 parsed tor disemb sr rel pre s3 o3 s5 o5 Eq Eo Ef P R E3 E5 -> -> _].
  - rewrite app_nil_r. exact HQ.
  - destruct (release_caps_refs _ _ _ _ _ E) as [K Rl]. pose proof (return_open_xkept _ _ _ _ _ _ Eo) as X.
    pose proof (eq_trans (f_equal qh K) (f_equal qh X)) as A. injection A as A1 A2. pose proof (ifq_rel _ Rl) as I.
    apply FINAL; [exact A1| |intros id; apply I|intros id _; apply I|unfold qb; rewrite Eq, Ef, orb_true_r; lia].
    intros h' i Hz. rewrite A2 in Hz. split; [exact Hz|]. intros ->. destruct (B h' qid Hz) as (q0 & E0 & _ & Rf & _).
    simpl in E0. rewrite Eq in E0. injection E0 as <-. congruence.
  - pose proof (return_open_xkept _ _ _ _ _ _ Eo) as X.
    destruct (return_parsed_kept _ _ _ _ _ _ _ _ P) as (sb & Kb & (em & g & al & Es2) & D).
    destruct (release_caps_refs _ _ _ _ _ E3) as [K3 R3]. destruct (release_caps_refs _ _ _ _ _ E5) as [K5 R5].
    assert (A2 : (s_qs s2, s_handles s2) = (s_qs (set_qs (tclear qid (s_qs s)) s), s_handles s))
      by (rewrite Es2; exact (eq_trans (f_equal qh Kb) (f_equal qh X))).
    injection A2 as Q2 H2.
    pose proof (eq_trans (f_equal qh K5) (f_equal qh K3)) as A5. injection A5 as Q5 H5.
    (* the resolution step *)
    assert (A3 : s_qs sr = tclear qid (s_qs s) /\ ifq pre /\
              (forall h' i, znth h' (s_handles sr) = Some (HBoot i) -> znth h' (s_handles s) = Some (HBoot i) /\ i <> qid)).
    { assert (BOOTCASE : forall h v sx, q_boot q = Some h -> (forall j, v <> HBoot j) -> s_handles sx = s_handles s ->
                forall h' i, znth h' (s_handles (set_handle h v sx)) = Some (HBoot i) -> znth h' (s_handles s) = Some (HBoot i) /\ i <> qid).
      { intros h v sx Hb Hv Hsx h' i Hz. destruct (set_handle_boot h v sx h' i Hv Hz) as [Z1 Z2]. rewrite Hsx in Z1, Z2. split; [exact Z1|].
        intros ->. destruct (B h' qid Z1) as (q0 & E0 & Rb & _). simpl in E0. rewrite Eq in E0. inversion E0; subst q0.
        assert (h' = h) by congruence. subst h'. apply Z2; [|reflexivity]. apply znth_some in Z1. lia. }
      assert (NOBOOT : q_boot q = None -> forall h' i, znth h' (s_handles s) = Some (HBoot i) -> znth h' (s_handles s) = Some (HBoot i) /\ i <> qid).
      { intros Hc h' i Hz. split; [exact Hz|]. intros ->. destruct (B h' qid Hz) as (q0 & E0 & Rb & _). simpl in E0. rewrite Eq in E0. inversion E0; subst q0. congruence. }
      destruct R as [h kc tab Eb _ -> _ ->|h Eb _ -> _ ->|kc tab Eb _ -> _ ->|Eb _ -> _ ->].
      - split; [exact (eq_trans (f_equal kp_qs (addref_kept _ _)) Q2)|]. split; [iq|].
        apply (BOOTCASE h _ _ Eb); [intros j; discriminate|exact (eq_trans (f_equal kp_handles (addref_kept _ _)) H2)].
      - split; [exact Q2|]. split; [iq|]. apply (BOOTCASE h _ _ Eb); [intros j; discriminate|exact H2].
      - split; [exact Q2|]. split; [iq|]. rewrite H2. exact (NOBOOT Eb).
      - split; [exact Q2|]. split; [iq|]. rewrite H2. exact (NOBOOT Eb). }
    destruct A3 as (Q3 & I3 & HB3). pose proof (ifq_disemb _ D) as I2. pose proof (ifq_rel _ R3) as I4. pose proof (ifq_rel _ R5) as I5.
    apply FINAL.
    + exact (eq_trans Q5 Q3).
    + intros h' i Hz. apply HB3. cbn [s_handles set_qgen] in Hz. rewrite H5 in Hz. exact Hz.
    + intros id. repeat (rewrite cnt_app || rewrite cnt_cons). destruct (I2 id) as [-> _]. destruct (I3 id) as [-> _]. destruct (I4 id) as [-> _]. destruct (I5 id) as [-> _]. reflexivity.
    + intros id Hne. repeat (rewrite cnt_app || rewrite cnt_cons). destruct (I2 id) as [_ ->]. destruct (I3 id) as [_ ->]. destruct (I4 id) as [_ ->]. destruct (I5 id) as [_ ->].
      simpl. replace (qid =? id) with false by lia. reflexivity.
    + repeat (rewrite cnt_app || rewrite cnt_cons). simpl. rewrite Z.eqb_refl. unfold qb. rewrite Eq. destruct (held q || q_fin q); lia.
Qed.

Lemma wake_calls_aux : forall e x l s, s_qs (fst (wake_calls e x l s)) = s_qs s /\ s_handles (fst (wake_calls e x l s)) = s_handles s /\
  ifq (snd (wake_calls e x l s)).
Proof.
  induction l as [|[[e' n] tag] l IH]; intros s; simpl; [split; [reflexivity|split; [reflexivity|iq]]|].
  destruct (e' =? e); [|apply IH].
  destruct x; try (specialize (IH s); destruct (wake_calls e _ l s); simpl in *; destruct IH as (A & B & C);
                   split; [exact A|split; [exact B|apply ifq_cons; [intros ?; split; reflexivity|exact C]]]).
  match goal with |- context [wake_calls e ?x l ?s1] => specialize (IH s1); destruct (wake_calls e x l s1) end.
  simpl in *. destruct IH as (A & B & C). split; [exact A|split; [exact B|apply ifq_cons; [intros ?; split; reflexivity|exact C]]].
Qed.

Lemma map_rewrite_boot : forall e x l h i, znth h (map (rewrite_handle e x) l) = Some (HBoot i) -> znth h l = Some (HBoot i).
Proof.
  intros e x l h i H. apply znth_some in H. destruct H as [Hr Hn]. rewrite map_length in Hr. rewrite nth_error_map in Hn.
  unfold znth. replace ((h <? 0) || (Z.of_nat (length l) <=? h)) with false by lia.
  destruct (nth_error l (Z.to_nat h)) as [v|]; [|discriminate]. simpl in Hn. f_equal.
  destruct v as [q|c|]; simpl in Hn; try (inversion Hn; reflexivity). destruct c; simpl in Hn; try (inversion Hn; reflexivity).
  destruct (e0 =? e); inversion Hn.
Qed.

Lemma handle_disembargo_QI : forall tg cx s s0 o0 ab out, handle_disembargo cfg_fixed tg cx s = Ok (s0, o0, ab) ->
  QI (aux_of s) out -> QI (aux_of s0) (out ++ o0).
Proof.
  intros tg cx s s0 o0 ab out H HQ. unfold handle_disembargo in H.
  assert (SIMPLE : forall o, ifq o -> Ok (s, o, true) = Ok (s0, o0, ab) \/ Ok (s, o, false) = Ok (s0, o0, ab) -> QI (aux_of s0) (out ++ o0)).
  { intros o I [E|E]; inversion E; subst; (eapply QI_aux_same; [exact HQ|reflexivity|reflexivity|exact I]). }
  destruct (parse_target tg); [|eapply SIMPLE; [|left; exact H]; iq].
  destruct cx as [i|e|]; [eapply SIMPLE; [|left; exact H]; iq| |eapply SIMPLE; [|right; exact H]; iq].
  destruct (tget e (s_emb s)) as [em|]; [|eapply SIMPLE; [|left; exact H]; iq].
  unfold lift in H. cbn [fx22 cfg_fixed negb] in H. rewrite andb_false_r in H. cbv iota in H.
  match type of H with context [wake_calls e ?x ?l ?s1] => pose proof (wake_calls_aux e x l s1) as W; destruct (wake_calls e x l s1) as [s2 o2] end.
  simpl in W. destruct W as (W1 & W2 & W3). cbn [bind] in H. inversion H; subst.
  eapply QI_same; [exact HQ| | |exact W3].
  - simpl. rewrite W1. destruct (e_cap em); reflexivity.
  - intros h i Hz. simpl in Hz. rewrite W2 in Hz.
    assert (Hz' : znth h (map (rewrite_handle e (e_cap em)) (s_handles s)) = Some (HBoot i)) by (destruct (e_cap em); exact Hz).
    simpl. eapply map_rewrite_boot; eauto.
Qed.

Lemma handler_QI : forall e s s0 o0 ab out, handler cfg_fixed e s = Ok (s0, o0, ab) -> live s ->
  QI (aux_of s) out -> QI (aux_of s0) (out ++ o0).
Proof.
  intros e s s0 o0 ab out H L HQ.
  assert (TRIV : forall o, ifq o -> Ok (s, o, false) = Ok (s0, o0, ab) -> QI (aux_of s0) (out ++ o0)).
  { intros o I E. inversion E; subst. eapply QI_aux_same; [exact HQ|reflexivity|reflexivity|exact I]. }
  destruct e; simpl in H; try (eapply TRIV; [|exact H]; iq; fail).
  - eapply QI_qinert; [exact HQ|eapply handle_bootstrap_qinert; eauto].
  - eapply QI_qinert; [exact HQ|eapply handle_call_qinert; eauto].
  - eapply handle_return_QI; eauto.
  - eapply QI_qinert; [exact HQ|eapply handle_finish_qinert; eauto].
  - eapply QI_qinert; [exact HQ|eapply handle_release_qinert; eauto].
  - eapply handle_disembargo_QI; eauto.
  - eapply app_bootstrap_QI; eauto.
  - eapply app_call_QI; eauto.
  - eapply app_pipe_QI; eauto.
  - (* AReturn: a direct local call resolves, or a call of the connection returns *)
    destruct (find_running k (s_ans s)) as [[id a]|] eqn:Ef; [eapply QI_qinert; [exact HQ|eapply app_return_qinert; eauto]|].
    unfold app_return in H. rewrite Ef in H.
    destruct (aget k (s_lcalls s)); inversion H; subst; (eapply QI_aux_same; [exact HQ|reflexivity|reflexivity|iq]).
  - eapply app_release_QI; eauto.
  - eapply app_cancel_QI; eauto.
  - eapply app_hold_QI; eauto.
  - eapply app_unhold_QI; eauto.
Qed.

(* histories: the invariant holds while the connection is up *)
Definition qhinv (s : state) (out : list output) : Prop := s_shut s = false -> QI (aux_of s) out.

Lemma step_qhinv : forall s e s1 o out, step_case s e s1 o -> qhinv s out -> qhinv s1 (out ++ o).
Proof.
  intros s e s1 o out C HQ Hs1. destruct (step_up _ _ _ _ C Hs1) as (s0 & L & H & _ & ->).
  exact (handler_QI _ _ _ _ _ _ H L (HQ (live_shut _ L))).
Qed.

Fixpoint run_o (s : state) (evs : list event) (out : list output) : res (state * list output) :=
  match evs with
  | [] => Ok (s, out)
  | e :: r => if env_ok s e then do '(s1, o) <- step cfg_fixed s e; run_o s1 r (out ++ o) else Ok (s, out)
  end.

(* what every step keeps holds at the end of every history *)
Lemma run_o_ind : forall P : state -> list output -> Prop,
  (forall s W e s1 o out, sinv s W -> W + ev_work e < LIM -> env_ok s e = true -> step_case s e s1 o -> P s out -> P s1 (out ++ o)) ->
  forall evs s W out s' out', sinv s W -> P s out -> W + work evs < LIM ->
  run_o s evs out = Ok (s', out') -> P s' out' /\ exists W', sinv s' W'.
Proof.
  intros P STEP. induction evs as [|e evs IH]; intros s W out s' out' I Hp Hb H; simpl in H.
  - injection H as <- <-. eauto.
  - destruct (env_ok s e) eqn:Henv; [|injection H as <- <-; eauto].
    pose proof (ev_work_nonneg e) as He. pose proof (work_nonneg evs) as Hw. simpl in Hb.
    destruct (step_cases s e W I ltac:(lia) Henv) as (s1 & o & H1 & C). rewrite H1 in H. cbn [bind] in H.
    eapply (IH s1 (W + ev_work e)); [eapply sinv_step; eauto| |lia|exact H].
    apply (STEP s W e); auto. lia.
Qed.

Lemma qhinv_init : forall boot, qhinv (init boot) [].
Proof.
  intros boot _. split; [|split].
  - intros j. unfold cnt, qb. simpl. rewrite tget_nil. lia.
  - intros j q Hq. simpl in Hq. rewrite tget_nil in Hq. discriminate.
  - intros h qid Hz. apply znth_some in Hz. simpl in Hz. lia.
Qed.

Lemma run_o_inv : forall evs s W out s' out', sinv s W -> qhinv s out -> W + work evs < LIM ->
  run_o s evs out = Ok (s', out') -> qhinv s' out' /\ exists W', sinv s' W'.
Proof. exact (run_o_ind qhinv (fun s W e s1 o out _ _ _ => step_qhinv s e s1 o out)). Qed.

(* C06 question_ids, first half: while the connection is up, every Bootstrap / Call issued with a
   question id is matched by a Finish for that id in the outbox, except the current use of the id;
   hence an id that is free (no entry in the table) -- the only ids newQuestion hands out, see
   [new_question_q] -- has a Finish in the outbox for each of its earlier uses *)
Theorem question_ids : forall boot evs s out, work evs < LIM -> run_o (init boot) evs [] = Ok (s, out) -> s_shut s = false ->
  forall id, (cnt (is_issue id) out <= cnt (is_finish id) out + qb id (s_qs s))%nat /\
             (tget id (s_qs s) = None -> (cnt (is_issue id) out <= cnt (is_finish id) out)%nat).
Proof.
  intros boot evs s out Hb H Hs id.
  destruct (run_o_inv evs (init boot) 0 [] s out (sinv_init boot) (qhinv_init boot) ltac:(lia) H) as [HQ _].
  destruct (HQ Hs) as (Q & _). specialize (Q id). split; [exact Q|]. intros Hn. unfold qb in Q. simpl in Q. rewrite Hn in Q. lia.
Qed.

(* C07 export_count over histories *)
Theorem export_count : forall boot evs s out, work evs < LIM -> run_o (init boot) evs [] = Ok (s, out) -> s_shut s = false ->
  exp_count (s_exp s) (s_sent s) (s_rel s) /\ slots_free (s_egen s) (s_exp s).
Proof.
  intros boot evs s out Hb H Hs.
  destruct (run_o_ind (fun _ _ => True) (fun _ _ _ _ _ _ _ _ _ _ _ => I) evs (init boot) 0 [] s out (sinv_init boot) I ltac:(lia) H) as [_ [W' Iv]].
  unfold sinv in Iv. rewrite Hs in Iv. destruct Iv as [(_ & _ & _ & _ & (_ & X2 & X3) & _) _]. simpl in X2, X3. split; assumption.
Qed.

(* the ghost counter [s_sent] is bumped exactly where a senderHosted descriptor is written *)
Theorem send_cap_sent : forall x s s1 d oe, send_cap cfg_fixed x s = Ok (s1, d, oe) ->
  forall e, cget e (s_sent s1) = cget e (s_sent s) + (match d with DSH i => if e =? i then 1 else 0 | _ => 0 end) /\ s_rel s1 = s_rel s.
Proof.
  intros x s s1 d oe H e.
  assert (BUMP : forall id, cget e (cadd id 1 (s_sent s)) = cget e (s_sent s) + (if e =? id then 1 else 0)).
  { intros id. rewrite cget_cadd. destruct (e =? id) eqn:Ee; [replace e with id by lia|]; lia. }
  destruct (send_cap_cases cfg_fixed x s) as [(d0 & Hd & E)|[(id & w & _ & E)|[_ E]]]; rewrite E in H; clear E.
  - injection H as <- <- _. destruct d0; try contradiction Hd; split; try reflexivity; lia.
  - injection H as <- <- _. exact (conj (BUMP id) eq_refl).
  - unbind H as [id g] eqn:E1. unbind H as t eqn:E2. injection H as <- <- _.
    exact (conj (BUMP id) (f_equal kp_rel (addref_kept x s))).
Qed.
