(* History-level C06 one_return.
   Balance of every handler: Returns sent + answers still owing a Return = the same before, plus one
   for an accepted Bootstrap / Call. *)
From CV Require Import Rpc.Rpc Rpc.RpcSpec Rpc.RpcProofs Rpc.RpcInv Rpc.RpcResp Rpc.RpcLocal.
From Coq Require Import ZifyBool.
Open Scope Z_scope.

Lemma okp_elim : forall A (r : res A) Q a, okp r Q -> r = Ok a -> Q a.
Proof. intros A r Q a H E. subst. exact H. Qed.

(* an answer owes its Return *)
Definition pending (id : Z) (s : state) : nat :=
  match aget id (s_ans s) with Some a => if a_ret a then 0%nat else 1%nat | None => 0%nat end.

(* keys of the answer table are unique; the queue lists each queued answer once *)
Definition keys_ok (l : list (Z * answer)) : Prop := NoDup (map fst l).
Definition queue_ok (l : list (Z * answer)) (q : list Z) : Prop :=
  NoDup q /\ forall id, In id q -> exists a p x, aget id l = Some a /\ a_st a = AQueued p x.
Definition J (s : state) : Prop := keys_ok (s_ans s) /\ queue_ok (s_ans s) (s_queue s).

Lemma adel_keys : forall A k (m : list (Z * A)) x, In x (map fst (adel k m)) -> In x (map fst m) /\ x <> k.
Proof.
  induction m as [|[k0 v0] m IH]; intros x H; simpl in *; [destruct H|].
  destruct (k0 =? k) eqn:E.
  - destruct (IH _ H). split; auto.
  - simpl in H. destruct H as [H|H]; [subst; split; [left; reflexivity|lia]|]. destruct (IH _ H). split; auto.
Qed.

Lemma adel_nodup : forall A k (m : list (Z * A)), NoDup (map fst m) -> NoDup (map fst (adel k m)).
Proof.
  induction m as [|[k0 v0] m IH]; intros H; simpl in *; [constructor|].
  inversion H; subst. destruct (k0 =? k); [apply IH; assumption|].
  simpl. constructor; [|apply IH; assumption]. intros Hin. apply adel_keys in Hin. tauto.
Qed.

Lemma keys_aput : forall id a l, keys_ok l -> keys_ok (aput id a l).
Proof.
  intros id a l H. unfold keys_ok, aput. simpl. constructor; [|apply adel_nodup; exact H].
  intros Hin. apply adel_keys in Hin. destruct Hin as [_ Hne]. apply Hne. reflexivity.
Qed.

Lemma keys_adel : forall id l, keys_ok l -> keys_ok (adel id l).
Proof. intros. apply adel_nodup. assumption. Qed.

Lemma zremove_in : forall x y l, In y (zremove x l) <-> In y l /\ y <> x.
Proof.
  intros x y l. unfold zremove. rewrite filter_In. split; intros [H1 H2]; split; auto; lia.
Qed.

Lemma zremove_nodup : forall x l, NoDup l -> NoDup (zremove x l).
Proof. intros. unfold zremove. apply NoDup_filter. assumption. Qed.

(* the answer id leaves the queue and is replaced / removed *)
Lemma queue_ok_put : forall id a l q, queue_ok l q -> queue_ok (aput id a l) (zremove id q).
Proof.
  intros id a l q [N H]. split; [apply zremove_nodup; exact N|].
  intros b Hb. apply zremove_in in Hb. destruct Hb as [Hb Hne]. destruct (H b Hb) as (a0 & p & x & E & S).
  exists a0, p, x. rewrite aget_aput. replace (b =? id) with false by lia. split; assumption.
Qed.

Lemma queue_ok_del : forall id l q, queue_ok l q -> queue_ok (adel id l) (zremove id q).
Proof.
  intros id l q [N H]. split; [apply zremove_nodup; exact N|].
  intros b Hb. apply zremove_in in Hb. destruct Hb as [Hb Hne]. destruct (H b Hb) as (a0 & p & x & E & S).
  exists a0, p, x. rewrite aget_adel. replace (b =? id) with false by lia. split; assumption.
Qed.

(* a queued answer stays queued (drain re-parents it) *)
Lemma queue_ok_requeue : forall id a p x l q, queue_ok l q -> a_st a = AQueued p x -> queue_ok (aput id a l) q.
Proof.
  intros id a p x l q [N H] Ha. split; [exact N|].
  intros b Hb. rewrite aget_aput. destruct (b =? id) eqn:E; [eauto 6|apply H; exact Hb].
Qed.

Lemma zremove_notin : forall x l, ~ In x l -> zremove x l = l.
Proof.
  intros x l H. unfold zremove. induction l as [|y l IH]; simpl; [reflexivity|].
  destruct (y =? x) eqn:E; simpl.
  - exfalso. apply H. left. lia.
  - f_equal. apply IH. intros Hin. apply H. right. exact Hin.
Qed.

Lemma pending_put : forall id a s b, pending b (set_ans (aput id a (s_ans s)) s) = if b =? id then (if a_ret a then 0%nat else 1%nat) else pending b s.
Proof. intros. unfold pending, set_ans. cbn [s_ans]. rewrite aget_aput. destruct (b =? id); reflexivity. Qed.

Lemma release_caps_inv : forall l s s1 o, release_caps cfg_fixed l s = Ok (s1, o) -> core_of s1 = core_of s /\ quiet o.
Proof. intros l s s1 o H. destruct (release_caps_refs _ _ _ _ _ H) as [K R]. split; [exact (core_kept _ _ K)|exact (quiet_rel _ R)]. Qed.

Lemma release_cap_inv : forall x s s1 o, release_cap cfg_fixed x s = Ok (s1, o) -> core_of s1 = core_of s /\ quiet o.
Proof. intros x s s1 o H. destruct (release_cap_refs _ _ _ _ _ H) as [K R]. split; [exact (core_kept _ _ K)|exact (quiet_rel _ R)]. Qed.

Lemma core_ans : forall s s1, core_of s1 = core_of s -> s_ans s1 = s_ans s /\ s_queue s1 = s_queue s /\ s_shut s1 = s_shut s.
Proof. intros s s1 C. exact (conj (f_equal k_ans C) (conj (f_equal k_queue C) (f_equal k_shut C))). Qed.

Lemma destroy_shape : forall id a s s1 o err, destroy cfg_fixed id a s = Ok (s1, o, err) ->
  s_ans s1 = adel id (s_ans s) /\ s_queue s1 = s_queue s /\ s_shut s1 = s_shut s /\ quiet o.
Proof.
  intros id a s s1 o err H. destruct (destroy_inv _ _ _ _ _ _ _ H) as (s2 & X & [K R]).
  exact (conj (eq_trans (f_equal kp_ans K) (f_equal kp_ans X)) (conj (eq_trans (f_equal kp_queue K) (f_equal kp_queue X))
        (conj (eq_trans (f_equal kp_shut K) (f_equal kp_shut X)) (quiet_rel _ R)))).
Qed.

(* the balance of a step, per answer id: Returns sent + Returns still owed afterwards = owed before + [d id]
   ([d]: the answers the step accepts) *)
Definition rbal (d : Z -> nat) (s : state) (o : list output) (s1 : state) : Prop :=
  forall id, (returns id o + pending id s1 = pending id s + d id)%nat.
Definition d0 : Z -> nat := fun _ => 0%nat.
Definition d1 (i : Z) : Z -> nat := fun x => if x =? i then 1%nat else 0%nat.

Lemma rbal_trans : forall da db s o1 s1 o2 s2, rbal da s o1 s1 -> rbal db s1 o2 s2 ->
  rbal (fun x => (da x + db x)%nat) s (o1 ++ o2) s2.
Proof. intros da db s o1 s1 o2 s2 H1 H2 id. rewrite returns_app. specialize (H1 id). specialize (H2 id). lia. Qed.

Lemma rbal_ext : forall d d' s o s1, rbal d s o s1 -> (forall x, d x = d' x) -> rbal d' s o s1.
Proof. intros d d' s o s1 H E id. rewrite <- E. apply H. Qed.

Lemma rbal_same : forall s o s1, s_ans s1 = s_ans s -> (forall id, returns id o = 0%nat) -> rbal d0 s o s1.
Proof. intros s o s1 A Q id. rewrite Q. unfold pending, d0. rewrite A. lia. Qed.

Lemma rbal_inert : forall s o s1, s_ans s1 = s_ans s -> quiet o -> rbal d0 s o s1.
Proof. intros s o s1 A Q. apply rbal_same; [exact A|intros id; exact (quiet_returns id o Q)]. Qed.

Lemma rbal_trans0 : forall d s o1 s1 o2 s2, rbal d0 s o1 s1 -> rbal d s1 o2 s2 -> rbal d s (o1 ++ o2) s2.
Proof. intros. eapply rbal_ext; [eapply rbal_trans; eauto|]. intros x. reflexivity. Qed.

Lemma rbal_trans0r : forall d s o1 s1 o2 s2, rbal d s o1 s1 -> rbal d0 s1 o2 s2 -> rbal d s (o1 ++ o2) s2.
Proof. intros. eapply rbal_ext; [eapply rbal_trans; eauto|]. intros x. unfold d0. lia. Qed.

Lemma J_inert : forall s s1, J s -> s_ans s1 = s_ans s -> s_queue s1 = s_queue s -> J s1.
Proof. intros s s1 H A Q. unfold J in *. rewrite A, Q. exact H. Qed.

(* one answer is dealt with: it is sent its Return (marked done / removed) or starts running; it
   leaves the queue; nothing else changes *)
Definition proc (id : Z) (s : state) (o : list output) (s1 : state) : Prop :=
  ((exists a1, s_ans s1 = aput id a1 (s_ans s) /\
      ((a_ret a1 = true /\ returns id o = 1%nat) \/ (a_ret a1 = false /\ returns id o = 0%nat))) \/
   (s_ans s1 = adel id (s_ans s) /\ returns id o = 1%nat)) /\
  s_queue s1 = zremove id (s_queue s) /\ s_shut s1 = false /\ (forall b, b <> id -> returns b o = 0%nat).

Lemma proc_J : forall id s o s1, J s -> proc id s o s1 -> J s1.
Proof.
  intros id s o s1 [K Q] ([(a1 & A & _)|[A _]] & Hq & _); unfold J; rewrite A, Hq.
  - split; [apply keys_aput; exact K|apply queue_ok_put; exact Q].
  - split; [apply keys_adel; exact K|apply queue_ok_del; exact Q].
Qed.

Lemma proc_other : forall id s o s1 b, proc id s o s1 -> b <> id -> aget b (s_ans s1) = aget b (s_ans s).
Proof.
  intros id s o s1 b ([(a1 & A & _)|[A _]] & _) Hb; rewrite A.
  - rewrite aget_aput. replace (b =? id) with false by lia. reflexivity.
  - rewrite aget_adel. replace (b =? id) with false by lia. reflexivity.
Qed.

Lemma proc_rbal : forall id s o s1, proc id s o s1 ->
  rbal (fun x => if x =? id then (1 - pending id s)%nat else 0%nat) s o s1.
Proof.
  intros id s o s1 P b. destruct (b =? id) eqn:E.
  - assert (b = id) by lia. subst b. assert (Hp : (pending id s <= 1)%nat).
    { unfold pending. destruct (aget id (s_ans s)) as [a|]; [destruct (a_ret a)|]; lia. }
    destruct P as ([(a1 & A & [[R1 R2]|[R1 R2]])|[A R]] & _); unfold pending at 1; rewrite A.
    + rewrite aget_aput, Z.eqb_refl, R1. lia.
    + rewrite aget_aput, Z.eqb_refl, R1. lia.
    + rewrite aget_adel, Z.eqb_refl. lia.
  - assert (Hb : b <> id) by lia. unfold pending. rewrite (proc_other _ _ _ _ _ P Hb).
    destruct P as (_ & _ & _ & R). rewrite (R _ Hb). lia.
Qed.

Lemma proc_owing : forall id s o s1, proc id s o s1 -> pending id s = 1%nat -> rbal d0 s o s1.
Proof.
  intros id s o s1 P Hp. eapply rbal_ext; [apply proc_rbal; exact P|].
  intros x. unfold d0. destruct (x =? id); [rewrite Hp|]; reflexivity.
Qed.

Lemma proc_fresh : forall id s o s1, proc id s o s1 -> aget id (s_ans s) = None -> rbal (d1 id) s o s1.
Proof.
  intros id s o s1 P Hn. eapply rbal_ext; [apply proc_rbal; exact P|].
  intros x. unfold d1, pending. rewrite Hn. destruct (x =? id); reflexivity.
Qed.

(* inert work before a [proc] (releases) *)
Lemma proc_pre : forall id s s0 o0 o s1, core_of s0 = core_of s -> quiet o0 -> proc id s0 o s1 -> proc id s (o0 ++ o) s1.
Proof.
  intros id s s0 o0 o s1 C Q P. destruct (core_ans _ _ C) as (A0 & Q0 & S0).
  destruct P as (Sh & Hq & Hs & R). rewrite A0 in Sh. rewrite Q0 in Hq.
  assert (RR : forall b, returns b (o0 ++ o) = returns b o) by (intros b; rewrite returns_app, (quiet_returns _ _ Q); reflexivity).
  split; [|split; [exact Hq|split; [exact Hs|intros b Hb; rewrite RR; apply R; exact Hb]]].
  rewrite RR. exact Sh.
Qed.

Lemma proc_post : forall id s o s1 o1 s2, proc id s o s1 -> core_of s2 = core_of s1 -> quiet o1 -> proc id s (o ++ o1) s2.
Proof.
  intros id s o s1 o1 s2 P C Q. destruct (core_ans _ _ C) as (A0 & Q0 & S0).
  destruct P as (Sh & Hq & Hs & R).
  assert (RR : forall b, returns b (o ++ o1) = returns b o) by (intros b; rewrite returns_app, (quiet_returns _ _ Q); lia).
  split; [|split; [congruence|split; [congruence|intros b Hb; rewrite RR; apply R; exact Hb]]].
  rewrite RR, A0. exact Sh.
Qed.

Lemma send_exception_proc : forall id a s s1 o ab, send_exception cfg_fixed id a s = Ok (s1, o, ab) -> s_shut s = false ->
  proc id s o s1.
Proof.
  intros id a s s1 o ab H Hs. pose proof (send_exception_one_return _ _ _ _ _ _ _ H) as (R1 & R2 & _).
  rewrite Hs in R1. unfold send_exception in H. rewrite Hs in H.
  destruct (a_fin a).
  - destruct (destroy cfg_fixed id (mark_done true a) (zremove_q id s)) as [[[s2 o2] e2]| |] eqn:E; simpl in H; try discriminate.
    inversion H; subst. apply destroy_shape in E. destruct E as (A & Q & S & _).
    split; [right; split; [exact A|exact R1]|split; [exact Q|split; [rewrite S; exact Hs|exact R2]]].
  - inversion H; subst. split; [left; exists (mark_done true a); split; [reflexivity|left; split; [reflexivity|exact R1]]|].
    split; [reflexivity|split; [exact Hs|exact R2]].
Qed.

Lemma send_return_proc : forall id a k rct s s1 o ab, send_return cfg_fixed id a k rct s = Ok (s1, o, ab) ->
  s_shut s = false -> proc id s o s1.
Proof.
  intros id a k rct s s1 o ab H Hs. unfold send_return in H. unbind H as [[s0 ds] refs] eqn:E.
  destruct (frame_xkept _ _ (fill_caps_xkept _ _ _ _ _ _ E)) as (_ & _ & F3 & F4 & _ & _ & F7). rewrite Hs in H.
  assert (R1 : forall o', quiet o' -> returns id ([OReturnRes id ds] ++ o') = 1%nat).
  { intros o' Q. rewrite returns_app, (quiet_returns _ _ Q). unfold returns. simpl. rewrite Z.eqb_refl. reflexivity. }
  assert (R2 : forall o' b, quiet o' -> b <> id -> returns b ([OReturnRes id ds] ++ o') = 0%nat).
  { intros o' b Q Hb'. rewrite returns_app, (quiet_returns _ _ Q). unfold returns. simpl. replace (id =? b) with false by lia. reflexivity. }
  destruct (a_fin a).
  - match type of H with context [destroy cfg_fixed id ?a1 ?sx] => destruct (destroy cfg_fixed id a1 sx) as [[[s2 o2] e2]| |] eqn:E2; simpl in H; try discriminate end.
    inversion H; subst. apply destroy_shape in E2. destruct E2 as (A & Q & S & Qo). simpl in A, Q, S.
    split; [right; split; [congruence|apply R1; exact Qo]|].
    split; [congruence|]. split; [congruence|]. intros b Hb'. apply R2; assumption.
  - inversion H; subst. unfold proc, set_ans, zremove_q, set_queue. cbn [s_ans s_queue s_shut].
    split; [left; eexists; split; [rewrite F3; reflexivity|left; split; [reflexivity|]]|].
    + unfold returns. simpl. rewrite Z.eqb_refl. reflexivity.
    + split; [rewrite F4; reflexivity|]. split; [congruence|].
      intros b Hb'. unfold returns. simpl. replace (id =? b) with false by lia. reflexivity.
Qed.

Lemma reject_proc : forall id a s s1 o ab, reject cfg_fixed id a s = Ok (s1, o, ab) -> s_shut s = false -> proc id s o s1.
Proof.
  intros id a s s1 o ab H Hs. unfold reject in H.
  destruct (release_caps cfg_fixed (a_args a) s) as [[s0 o0]| |] eqn:E0; simpl in H; try discriminate.
  destruct (send_exception cfg_fixed id (set_a_args [] a) s0) as [[[s2 o2] b2]| |] eqn:E2; simpl in H; try discriminate.
  inversion H; subst. apply release_caps_inv in E0. destruct E0 as [C Q].
  eapply proc_pre; [exact C|exact Q|]. apply (send_exception_proc _ _ _ _ _ _ E2).
  destruct (core_ans _ _ C) as (_ & _ & S). congruence.
Qed.

Lemma deliver_proc : forall id a t s s1 o ab, deliver cfg_fixed id a t s = Ok (s1, o, ab) -> s_shut s = false ->
  a_ret a = false -> proc id s o s1.
Proof.
  intros id a t s s1 o ab H Hs Hr. unfold deliver in H.
  destruct t; try discriminate; try (eapply reject_proc; eauto; fail).
  destruct (a_mok a); [|eapply reject_proc; eauto].
  inversion H; subst. unfold proc, set_ans, set_ndeliv, zremove_q, set_queue. cbn [s_ans s_queue s_shut].
  split; [left; eexists; split; [reflexivity|right; split; [exact Hr|reflexivity]]|].
  split; [reflexivity|]. split; [exact Hs|]. intros b Hb. reflexivity.
Qed.

Lemma live_shut : forall s, live s -> s_shut s = false.
Proof. intros s [H _]. exact H. Qed.

Lemma pending_of_busy : forall s id a, live s -> aget id (s_ans s) = Some a -> a_st a <> AIdle -> pending id s = 1%nat.
Proof.
  intros s id a L E H. unfold pending. rewrite E.
  destruct (ans_of_live _ L _ _ (aget_in _ _ _ _ E)) as [_ H2]. rewrite (H2 H). reflexivity.
Qed.

Lemma pending_one_some : forall s id, pending id s = 1%nat -> exists a, aget id (s_ans s) = Some a /\ a_ret a = false.
Proof.
  intros s id H. unfold pending in H. destruct (aget id (s_ans s)) as [a|]; [|discriminate].
  exists a. split; [reflexivity|]. destruct (a_ret a); [discriminate|reflexivity].
Qed.

Lemma reject_all_h : forall ids s s1 o ab, reject_all cfg_fixed ids s = Ok (s1, o, ab) -> live s -> J s -> NoDup ids ->
  (forall id, In id ids -> pending id s = 1%nat) ->
  live s1 /\ J s1 /\ rbal d0 s o s1 /\ (forall b, ~ In b ids -> aget b (s_ans s1) = aget b (s_ans s)).
Proof.
  induction ids as [|id ids IH]; intros s s1 o ab H L Jh N Hp; simpl in H.
  - inversion H; subst. split; [exact L|]. split; [exact Jh|]. split; [apply rbal_inert; reflexivity|auto].
  - destruct (pending_one_some _ _ (Hp id (or_introl eq_refl))) as (a & Ea & _). rewrite Ea in H.
    pose proof (reject_ok id a s L) as P.
    destruct (reject cfg_fixed id a s) as [[[s' o'] b']| |] eqn:E; simpl in P; try contradiction. cbn [bind] in H.
    destruct P as [G _]. assert (L' : live s') by apply G.
    pose proof (reject_proc _ _ _ _ _ _ E (live_shut _ L)) as Pr.
    inversion N; subst.
    destruct (reject_all cfg_fixed ids s') as [[[s2 o2] b2]| |] eqn:E2; simpl in H; try discriminate. inversion H; subst.
    assert (Hp' : forall id', In id' ids -> pending id' s' = 1%nat).
    { intros id' Hin. assert (id' <> id) by (intros ->; contradiction).
      unfold pending. rewrite (proc_other _ _ _ _ _ Pr H0). apply (Hp id' (or_intror Hin)). }
    destruct (IH _ _ _ _ E2 L' (proc_J _ _ _ _ Jh Pr) H3 Hp') as (L2 & J2 & B2 & O2).
    split; [exact L2|]. split; [exact J2|]. split.
    + eapply rbal_trans0; [apply (proc_owing _ _ _ _ Pr); apply Hp; left; reflexivity|exact B2].
    + intros b Hb. rewrite O2 by (intros Hin; apply Hb; right; exact Hin).
      apply (proc_other _ _ _ _ _ Pr). intros ->. apply Hb. left. reflexivity.
Qed.

Lemma drain_h : forall r k rct lst ids s s1 o ab, drain cfg_fixed r k rct lst ids s = Ok (s1, o, ab) -> live s -> J s ->
  live s1 /\ J s1 /\ rbal d0 s o s1 /\
  (forall b a, aget b (s_ans s) = Some a -> (forall p x, a_st a <> AQueued p x) -> aget b (s_ans s1) = Some a).
Proof.
  induction ids as [|id ids IH]; intros s s1 o ab H L Jh; simpl in H.
  - inversion H; subst. split; [exact L|]. split; [exact Jh|]. split; [apply rbal_inert; reflexivity|auto].
  - unbind H as [[s' o'] b'] eqn:E.
    destruct (drain cfg_fixed r k rct lst ids s') as [[[s2 o2] b2]| |] eqn:E2; simpl in H; try discriminate. inversion H; subst.
    assert (STEP : live s' /\ J s' /\ rbal d0 s o' s' /\
              (forall b a, aget b (s_ans s) = Some a -> (forall p x, a_st a <> AQueued p x) -> aget b (s_ans s') = Some a)).
    { destruct (aget id (s_ans s)) as [a|] eqn:Ea; [|inversion E; subst; split; [exact L|]; split; [exact Jh|]; split; [apply rbal_inert; reflexivity|auto]].
      destruct (a_st a) as [|j|p x] eqn:Est; try (inversion E; subst; split; [exact L|]; split; [exact Jh|]; split; [apply rbal_inert; reflexivity|auto]).
      assert (Hpend : pending id s = 1%nat) by (eapply pending_of_busy; eauto; rewrite Est; discriminate).
      destruct (pending_one_some _ _ Hpend) as (a' & Ea' & Hret). rewrite Ea in Ea'. inversion Ea'; subst a'.
      assert (OTHER : forall s'' o'', proc id s o'' s'' ->
                forall b a0, aget b (s_ans s) = Some a0 -> (forall p x, a_st a0 <> AQueued p x) -> aget b (s_ans s'') = Some a0).
      { intros s'' o'' Pr b a0 Eb Hb. assert (b <> id) by (intros ->; rewrite Ea in Eb; inversion Eb; subst; eapply Hb; eauto).
        rewrite (proc_other _ _ _ _ _ Pr H0). exact Eb. }
      assert (VIA : forall s'' o'' (b'' : bool), proc id s o'' s'' -> live s'' ->
                live s'' /\ J s'' /\ rbal d0 s o'' s'' /\
                (forall b a0, aget b (s_ans s) = Some a0 -> (forall p x, a_st a0 <> AQueued p x) -> aget b (s_ans s'') = Some a0)).
      { intros s'' o'' _ Pr L''. split; [exact L''|]. split; [eapply proc_J; eauto|]. split; [eapply proc_owing; eauto|eapply OTHER; eauto]. }
      destruct (eff_parent cfg_fixed r lst p =? r).
      - pose proof (deliver_ok id a (pipeline_tgt k rct x) s L (pipeline_tgt_not_block _ _ _) Hret) as P. rewrite E in P. simpl in P.
        apply (VIA s' o' b'); [eapply deliver_proc; eauto; apply L|apply P].
      - destruct (aget (eff_parent cfg_fixed r lst p) (s_ans s)) as [b|].
        + destruct (a_ready b).
          * destruct (a_err b).
            -- pose proof (reject_ok id a s L) as P. rewrite E in P. simpl in P.
               apply (VIA s' o' b'); [eapply reject_proc; eauto; apply L|apply P].
            -- pose proof (deliver_ok id a (pipeline_tgt (a_content b) (a_rct b) x) s L (pipeline_tgt_not_block _ _ _) Hret) as P. rewrite E in P. simpl in P.
               apply (VIA s' o' b'); [eapply deliver_proc; eauto; apply L|apply P].
          * inversion E; subst. clear E.
            assert (L' : live (set_ans (aput id (set_a_st (AQueued (eff_parent cfg_fixed r lst p) x) a) (s_ans s)) s)).
            { apply live_set_ans; [exact L|]. apply ans_ok_aput; [apply (ans_of_live _ L)|]. apply ans1_busy; simpl; [discriminate|exact Hret]. }
            split; [exact L'|]. destruct Jh as [K Q]. split; [|split].
            -- split; unfold set_ans; cbn [s_ans s_queue]; [apply keys_aput; exact K|eapply queue_ok_requeue; [exact Q|reflexivity]].
            -- intros c. unfold d0. rewrite pending_put. simpl. rewrite Hret.
               destruct (c =? id) eqn:Ec; [assert (c = id) by lia; subst c; rewrite Hpend; reflexivity|]. unfold returns; simpl. lia.
            -- intros c a0 Ec Hc. unfold set_ans. cbn [s_ans]. rewrite aget_aput. destruct (c =? id) eqn:Eci; [|exact Ec].
               assert (c = id) by lia. subst c. rewrite Ea in Ec. inversion Ec; subst. exfalso. eapply Hc; eauto.
        + pose proof (reject_ok id a s L) as P. rewrite E in P. simpl in P.
          apply (VIA s' o' b'); [eapply reject_proc; eauto; apply L|apply P]. }
    destruct STEP as (L' & J' & B' & O').
    destruct (IH _ _ _ _ E2 L' J') as (L2 & J2 & B2 & O2).
    split; [exact L2|]. split; [exact J2|]. split; [eapply rbal_trans0; eauto|].
    intros b a0 Eb Hb. apply O2; [apply O'; assumption|exact Hb].
Qed.

Lemma queue_ok_put_notin : forall id a l q, queue_ok l q -> ~ In id q -> queue_ok (aput id a l) q.
Proof.
  intros id a l q [N H] Hn. split; [exact N|]. intros b Hb. destruct (H b Hb) as (a0 & p & x & E & S).
  exists a0, p, x. rewrite aget_aput. destruct (b =? id) eqn:Eb; [exfalso; apply Hn; replace id with b by lia; exact Hb|]. split; assumption.
Qed.

Lemma not_queued_notin : forall s id, J s -> (forall a p x, aget id (s_ans s) = Some a -> a_st a <> AQueued p x) -> ~ In id (s_queue s).
Proof.
  intros s id [_ [_ H]] Hn Hin. destruct (H id Hin) as (a & p & x & E & S). eapply Hn; eauto.
Qed.

Lemma find_running_aget : forall k l id a, keys_ok l -> find_running k l = Some (id, a) -> aget id l = Some a.
Proof.
  intros k l id a K H. apply find_running_some in H. destruct H as [_ Hin].
  induction l as [|[k0 v0] l IH]; [destruct Hin|]. unfold keys_ok in K. simpl in K. inversion K; subst. simpl.
  destruct Hin as [E|Hin].
  - inversion E; subst. rewrite Z.eqb_refl. reflexivity.
  - destruct (k0 =? id) eqn:E; [|apply IH; assumption].
    exfalso. apply H1. replace k0 with id by lia. apply (in_map fst) in Hin. exact Hin.
Qed.

Lemma queued_under_nodup : forall ans q under, NoDup q -> NoDup (queued_under ans q under).
Proof.
  intros ans q. induction q as [|id q IH]; intros under N; simpl; [constructor|]. inversion N; subst.
  assert (SUB : forall under' x, In x (queued_under ans q under') -> In x q).
  { clear. induction q as [|y q IH]; intros under' x H; simpl in *; [destruct H|].
    destruct (aget y ans) as [a|]; [|right; eapply IH; eauto].
    destruct (a_st a); try (right; eapply IH; eauto; fail).
    destruct (zmem on under'); [destruct H as [H|H]; [left; exact H|right; eapply IH; eauto]|right; eapply IH; eauto]. }
  destruct (aget id ans) as [a|]; [|apply IH; assumption].
  destruct (a_st a); try (apply IH; assumption).
  destruct (zmem on under); [|apply IH; assumption].
  constructor; [intros Hin; apply H1; eapply SUB; eauto|apply IH; assumption].
Qed.

Lemma queued_under_queued : forall ans q under x, In x (queued_under ans q under) ->
  exists a p y, aget x ans = Some a /\ a_st a = AQueued p y.
Proof.
  intros ans q. induction q as [|id q IH]; intros under x H; simpl in H; [destruct H|].
  destruct (aget id ans) as [a|] eqn:E; [|eapply IH; eauto].
  destruct (a_st a) eqn:S; try (eapply IH; eauto; fail).
  destruct (zmem on under); [|eapply IH; eauto].
  destruct H as [<-|H]; [eauto 6|eapply IH; eauto].
Qed.

Lemma app_return_h : forall k r s s0 o0 ab, app_return cfg_fixed k r s = Ok (s0, o0, ab) -> live s -> J s ->
  J s0 /\ rbal d0 s o0 s0.
Proof.
  intros k r s s0 o0 ab H L Jh.
  destruct (find_running k (s_ans s)) as [[id a]|] eqn:Ef.
  2:{ unfold app_return in H. rewrite Ef in H. destruct (aget k (s_lcalls s)); inversion H; subst; (split; [exact Jh|apply rbal_inert; reflexivity]). }
  rewrite (app_return_eq _ _ _ _ _ _ Ef) in H.
  pose proof (find_running_aget _ _ _ _ (proj1 Jh) Ef) as Ea.
  destruct (find_running_some _ _ _ _ Ef) as [[j Hj] _].
  unbind H as [s1 o1] eqn:E1.
  apply release_caps_inv in E1. destruct E1 as [C1 Q1]. destruct (core_ans _ _ C1) as (A1 & Qu1 & S1).
  assert (L1 : live s1) by (eapply live_core; eauto).
  set (a1 := set_a_args [] a) in *.
  set (s1' := ret_start id a s1) in *.
  assert (Hpend : pending id s = 1%nat) by (eapply pending_of_busy; eauto; rewrite Hj; discriminate).
  destruct (pending_one_some _ _ Hpend) as (a' & Ea' & Hret). rewrite Ea in Ea'. inversion Ea'; subst a'.
  assert (Hnq : ~ In id (s_queue s)).
  { apply not_queued_notin; [exact Jh|]. intros a2 p x E2 S2. rewrite Ea in E2. inversion E2; subst. rewrite Hj in S2. discriminate. }
  assert (L1' : live s1').
  { apply live_set_ans; [exact L1|]. apply ans_ok_aput; [apply (ans_of_live _ L1)|].
    exact (ans_of_live _ L _ _ (aget_in _ _ _ _ Ea)). }
  assert (J1' : J s1').
  { destruct Jh as [K Q]. split; unfold s1', ret_start, set_ans; cbn [s_ans s_queue]; rewrite A1, ?Qu1.
    - apply keys_aput; exact K.
    - apply queue_ok_put_notin; assumption. }
  assert (B1 : rbal d0 s o1 s1').
  { intros c. rewrite (quiet_returns _ _ Q1). unfold d0, s1', ret_start. rewrite pending_put. simpl. rewrite Hret.
    destruct (c =? id) eqn:Ec; [assert (c = id) by lia; subst c; rewrite Hpend; reflexivity|].
    unfold pending. rewrite A1. lia. }
  assert (Ea1 : aget id (s_ans s1') = Some a1) by (unfold s1', ret_start, set_ans; cbn [s_ans]; rewrite aget_aput, Z.eqb_refl; reflexivity).
  assert (Hst1 : forall p x, a_st a1 <> AQueued p x) by (intros p x; unfold a1; simpl; rewrite Hj; discriminate).
  (* the queue behind the answer has been dealt with (o2, s2); its own Return goes out (o3, s3) *)
  assert (FINISH : forall s2 o2 s3 o3, J s2 -> rbal d0 s1' o2 s2 -> aget id (s_ans s2) = Some a1 -> proc id s2 o3 s3 ->
            J s3 /\ rbal d0 s (o1 ++ o2 ++ o3) s3).
  { intros s2 o2 s3 o3 J2 B2 E2 PR. split; [eapply proc_J; eauto|].
    eapply rbal_trans0; [exact B1|]. eapply rbal_trans0; [exact B2|].
    apply (proc_owing _ _ _ _ PR). unfold pending. rewrite E2. unfold a1. simpl. rewrite Hret. reflexivity. }
  destruct (ret_content r) as [[kc rct]|] eqn:Er; cbv zeta in H.
  - set (s2 := addrefs_local rct s1') in *.
    pose proof (core_addrefs_local rct s1') as C2. fold s2 in C2. destruct (core_ans _ _ C2) as (A2 & Qu2 & S2).
    assert (L2 : live s2) by (eapply live_core; eauto).
    assert (J2 : J s2) by (eapply J_inert; eauto).
    unbind H as [[s3 o3] b3] eqn:E3. unbind H as [[s4 o4] b4] eqn:E4. injection H as <- <- _.
    destruct (drain_h _ _ _ _ _ _ _ _ _ E3 L2 J2) as (L3 & J3 & B3 & O3).
    apply (FINISH s3 o3); [exact J3| |apply O3; [rewrite A2; exact Ea1|exact Hst1]|].
    + intros c. specialize (B3 c). unfold pending in *. rewrite A2 in B3. exact B3.
    + eapply send_return_proc; eauto. apply L3.
  - unbind H as [[s3 o3] b3] eqn:E3. unbind H as [[s4 o4] b4] eqn:E4. injection H as <- <- _.
    assert (N : NoDup (queued_under (s_ans s1') (s_queue s1') [id])) by (apply queued_under_nodup; apply J1').
    assert (Hq : forall c, In c (queued_under (s_ans s1') (s_queue s1') [id]) -> pending c s1' = 1%nat).
    { intros c Hc. destruct (queued_under_queued _ _ _ _ Hc) as (ac & p & y & Ec & Sc).
      eapply pending_of_busy; eauto. rewrite Sc. discriminate. }
    destruct (reject_all_h _ _ _ _ _ E3 L1' J1' N Hq) as (L3 & J3 & B3 & O3).
    apply (FINISH s3 o3); [exact J3|exact B3| |eapply send_exception_proc; eauto; apply L3].
    rewrite O3; [exact Ea1|]. intros Hin. destruct (queued_under_queued _ _ _ _ Hin) as (ac & p & y & Ec & Sc).
    rewrite Ea1 in Ec. inversion Ec; subst. eapply Hst1; eauto.
Qed.

Definition creates (s : state) (e : event) : option Z :=
  match e with
  | MBootstrap q => match aget q (s_ans s) with None => Some q | Some _ => None end
  | MCall q _ _ true _ _ => match aget q (s_ans s) with None => Some q | Some _ => None end
  | _ => None
  end.
Definition dcr (s : state) (e : event) : Z -> nat := match creates s e with Some q => d1 q | None => d0 end.

Lemma fresh_notin : forall s id, J s -> aget id (s_ans s) = None -> ~ In id (s_queue s).
Proof. intros s id Jh E. apply not_queued_notin; [exact Jh|]. intros a p x E2. rewrite E in E2. discriminate. Qed.

Lemma NoDup_app_intro_single : forall (l : list Z) x, NoDup l -> ~ In x l -> NoDup (l ++ [x]).
Proof.
  induction l as [|y l IH]; intros x N Hn; simpl; [constructor; [intros []|constructor]|].
  inversion N; subst. constructor.
  - intros Hin. apply in_app_or in Hin. destruct Hin as [Hin|[<-|[]]]; [contradiction|apply Hn; left; reflexivity].
  - apply IH; [assumption|intros Hin; apply Hn; right; exact Hin].
Qed.

Lemma handle_bootstrap_h : forall id s s0 o0 ab, handle_bootstrap cfg_fixed id s = Ok (s0, o0, ab) -> live s -> J s ->
  J s0 /\ rbal (dcr s (MBootstrap id)) s o0 s0.
Proof.
  intros id s s0 o0 ab H L Jh. unfold handle_bootstrap in H. unfold dcr, creates.
  destruct (aget id (s_ans s)) eqn:E; [inversion H; subst; split; [exact Jh|apply rbal_inert; reflexivity]|].
  pose proof (pot_allocs s) as Hpa.
  destruct (negb (s_boot s)).
  - pose proof (send_exception_proc _ _ _ _ _ _ H (live_shut _ L)) as P.
    split; [eapply proc_J; eauto|apply proc_fresh; assumption].
  - assert (L1 : live (lref 1 0 s)) by (eapply live_core; eauto).
    unbind H as [[s1 o] err] eqn:E1.
    pose proof (send_return_proc _ _ _ _ _ _ _ _ E1 (live_shut _ L)) as P.
    destruct err; [discriminate|]. inversion H; subst.
    assert (P' : proc id s o0 s0).
    { destruct P as (Sh & Q & S & R). split; [exact Sh|]. split; [exact Q|]. split; assumption. }
    split; [eapply proc_J; eauto|apply proc_fresh; assumption].
Qed.

Lemma handle_finish_h : forall id rrc s s0 o0 ab, handle_finish cfg_fixed id rrc s = Ok (s0, o0, ab) -> live s -> J s ->
  J s0 /\ rbal d0 s o0 s0.
Proof.
  intros id rrc s s0 o0 ab H L Jh. unfold handle_finish in H.
  destruct (aget id (s_ans s)) as [a|] eqn:Ea; [|inversion H; subst; split; [exact Jh|apply rbal_inert; reflexivity]].
  destruct (a_fin a); [inversion H; subst; split; [exact Jh|apply rbal_inert; reflexivity]|].
  destruct (a_ret a) eqn:Er; simpl in H.
  - (* returned: destroyed *)
    apply destroy_shape in H. destruct H as (A & Q & S & Qo).
    assert (Hnq : ~ In id (s_queue s)).
    { apply not_queued_notin; [exact Jh|]. intros a2 p x E2 S2. rewrite Ea in E2. inversion E2; subst.
      destruct (ans_of_live _ L _ _ (aget_in _ _ _ _ Ea)) as [_ H2]. rewrite H2 in Er; [discriminate|rewrite S2; discriminate]. }
    split.
    + destruct Jh as [K Qk]. unfold J. rewrite A, Q. split; [apply keys_adel; exact K|].
      rewrite <- (zremove_notin id (s_queue s) Hnq). apply queue_ok_del. exact Qk.
    + intros c. rewrite (quiet_returns _ _ Qo). unfold pending, d0. rewrite A, aget_adel.
      destruct (c =? id) eqn:Ec; [assert (c = id) by lia; subst c; rewrite Ea, Er; reflexivity|lia].
  - inversion H; subst. split.
    + destruct Jh as [K Qk]. split; unfold set_ans; cbn [s_ans s_queue]; [apply keys_aput; exact K|].
      destruct (in_dec Z.eq_dec id (s_queue s)) as [Hin|Hn]; [|apply queue_ok_put_notin; assumption].
      destruct Qk as [N Hq]. destruct (Hq id Hin) as (a0 & p & x & E0 & S0). rewrite Ea in E0. inversion E0; subst a0.
      eapply queue_ok_requeue; [split; assumption|simpl; exact S0].
    + intros c. unfold d0. rewrite pending_put. simpl. rewrite Er.
      destruct (c =? id) eqn:Ec; [assert (c = id) by lia; subst c; unfold pending; rewrite Ea, Er; reflexivity|unfold returns; simpl; lia].
Qed.

Lemma handle_call_h : forall id tg params toCaller mok tag s s0 o0 ab,
  handle_call cfg_fixed id tg params toCaller mok tag s = Ok (s0, o0, ab) -> live s -> J s ->
  J s0 /\ rbal (dcr s (MCall id tg params toCaller mok tag)) s o0 s0.
Proof.
  intros id tg params toCaller mok tag s s0 o0 ab H L Jh. unfold dcr, creates.
  destruct toCaller; [|injection H as <- <- _; split; [exact Jh|apply rbal_same; [reflexivity|intros c; reflexivity]]].
  (* after the parameters are received (s1) the tables are those of s; the call is new there *)
  assert (FROM : forall s1, kept_of s1 = kept_of s -> aget id (s_ans s) = None ->
            live s1 /\ J s1 /\ aget id (s_ans s1) = None /\ ~ In id (s_queue s1) /\
            (forall o, J s0 /\ rbal (d1 id) s1 o s0 -> J s0 /\ rbal (d1 id) s o s0) /\
            (forall o, proc id s1 o s0 -> J s0 /\ rbal (d1 id) s o s0)).
  { intros s1 K Eid. pose proof (core_kept _ _ K) as C. destruct (core_ans _ _ C) as (A1 & Q1 & S1).
    assert (J1 : J s1) by (eapply J_inert; eauto).
    assert (Eid1 : aget id (s_ans s1) = None) by (rewrite A1; exact Eid).
    assert (LIFT : forall o, J s0 /\ rbal (d1 id) s1 o s0 -> J s0 /\ rbal (d1 id) s o s0).
    { intros o [Ja B]. split; [exact Ja|]. intros c. specialize (B c). unfold pending in *. rewrite A1 in B. exact B. }
    split; [eapply live_core; eauto|]. split; [exact J1|]. split; [exact Eid1|]. split; [apply fresh_notin; assumption|].
    split; [exact LIFT|]. intros o P. apply LIFT. split; [eapply proc_J; eauto|apply proc_fresh; assumption]. }
  destruct (handle_call_cases _ _ _ _ _ _ _ H)
    as [a Eid E|s1 tor Eid K _ E|s1 tab pt (Eid & K & _) _ E|s1 tab e x w (Eid & K & _) _ E|s1 tab t x ta (Eid & K & _) _ _ _ _ _ E
       |s1 tab t x ta (Eid & K & _) _ _ _ _ _ E|s1 tab t x ta (Eid & K & _) _ _ _ _ _ E|s1 tab t x ta _ _ _ _ E];
    try discriminate E; rewrite Eid; try destruct (FROM s1 K Eid) as (L1 & J1 & Eid1 & Hnq & LIFT & FRESH).
  - injection E as <- <- _. split; [exact Jh|apply rbal_inert; reflexivity].
  - unbind E as [[s2 o2] b2] eqn:E2. unbind E as [s3 o3] eqn:E3. injection E as <- <- _.
    apply release_caps_inv in E3. destruct E3 as [C3 Q3].
    apply FRESH. eapply proc_post; [eapply send_exception_proc; eauto; apply L1|exact C3|exact Q3].
  - unbind E as [s2 o2] eqn:E2. injection E as <- <- _.
    apply release_caps_inv in E2. destruct E2 as [C2 Q2]. destruct (core_ans _ _ C2) as (A2 & Qu2 & _).
    apply LIFT. split.
    + eapply J_inert; [|exact A2|exact Qu2]. destruct J1 as [K1 Q1]. split; unfold set_ans; cbn [s_ans s_queue]; [apply keys_aput; exact K1|apply queue_ok_put_notin; assumption].
    + intros c. rewrite (quiet_returns _ _ Q2). unfold pending at 1. rewrite A2. unfold set_ans. cbn [s_ans]. rewrite aget_aput.
      unfold d1, pending. destruct (c =? id) eqn:Ec; [assert (c = id) by lia; subst c; rewrite Eid1; reflexivity|lia].
  - apply FRESH. eapply deliver_proc; eauto. apply L1.
  - apply FRESH. eapply reject_proc; eauto. apply L1.
  - apply FRESH. eapply deliver_proc; eauto. apply L1.
  - injection E as <- <- _. apply LIFT. split.
    + destruct J1 as [K1 [N Hq]]. split; unfold set_queue, set_ans; cbn [s_ans s_queue]; [apply keys_aput; exact K1|]. split.
      * apply NoDup_app_intro_single; assumption.
      * intros b Hb. rewrite aget_aput. apply in_app_or in Hb. destruct Hb as [Hb|[<-|[]]].
        -- destruct (b =? id) eqn:Eb; [exfalso; apply Hnq; replace id with b by lia; exact Hb|apply Hq; exact Hb].
        -- rewrite Z.eqb_refl. eexists _, _, _. split; reflexivity.
    + intros c. unfold set_queue. unfold pending at 1. unfold set_ans. cbn [s_ans]. rewrite aget_aput.
      unfold d1, pending, returns. simpl. destruct (c =? id) eqn:Ec; [assert (c = id) by lia; subst c; rewrite Eid1; reflexivity|lia].
Qed.

(* handlers that neither touch answers nor send Returns *)
Definition noret (o : list output) : Prop := forall id, returns id o = 0%nat.
Definition inert (s : state) (o : list output) (s0 : state) : Prop :=
  s_ans s0 = s_ans s /\ s_queue s0 = s_queue s /\ noret o.

Lemma noret_app : forall a b, noret a -> noret b -> noret (a ++ b).
Proof. intros a b Ha Hb id. rewrite returns_app, Ha, Hb. reflexivity. Qed.
Lemma noret_quiet : forall o, quiet o -> noret o.
Proof. intros o Q id. apply quiet_returns. exact Q. Qed.
Lemma noret_nil : noret [].
Proof. intros id. reflexivity. Qed.
Lemma noret_cons : forall x o, (forall id, is_return id x = false) -> noret o -> noret (x :: o).
Proof. intros x o Hx Ho id. unfold returns in *. simpl. rewrite Hx. apply Ho. Qed.

Lemma inert_core : forall s s0 o, core_of s0 = core_of s -> noret o -> inert s o s0.
Proof. intros s s0 o C N. destruct (core_ans _ _ C) as (A & Q & _). split; [exact A|]. split; [exact Q|exact N]. Qed.

Lemma inert_frame : forall s s0 o, frame_x s s0 -> noret o -> inert s o s0.
Proof. intros s s0 o (_ & _ & A & Q & _) N. split; [exact A|]. split; [exact Q|exact N]. Qed.

Lemma inert_trans : forall s o1 s1 o2 s2, inert s o1 s1 -> inert s1 o2 s2 -> inert s (o1 ++ o2) s2.
Proof. intros s o1 s1 o2 s2 (A1 & Q1 & N1) (A2 & Q2 & N2). split; [congruence|]. split; [congruence|apply noret_app; assumption]. Qed.

Lemma inert_result : forall s o s0, J s -> inert s o s0 -> J s0 /\ rbal d0 s o s0.
Proof. intros s o s0 Jh (A & Q & N). split; [eapply J_inert; eauto|apply rbal_same; assumption]. Qed.

Lemma inert_refl : forall s, inert s [] s.
Proof. intros. split; [reflexivity|]. split; [reflexivity|apply noret_nil]. Qed.

(* [noret] of an explicit list of outputs: element by element, none is a Return *)
Ltac nr := repeat (first [apply noret_nil | apply noret_cons; [reflexivity|]]).

Lemma noret_disemb : forall o, Forall is_disemb o -> noret o.
Proof. intros o H id. unfold returns. rewrite (filter_none is_disemb _ o); [reflexivity| |exact H]. intros [] Hx; try contradiction Hx; reflexivity. Qed.

Lemma handle_return_inert : forall qid rpc k s s0 o0 ab, handle_return cfg_fixed qid rpc k s = Ok (s0, o0, ab) -> inert s o0 s0.
Proof.
  intros qid rpc k s s0 o0 ab H.
  set (aq := fun r => (kp_ans r, kp_queue r)).
  destruct (handle_return_cases _ _ _ _ _ _ _ H)
    as [_ -> -> _|q s1 pc _ Eo _ E _|q s1 pc s2 parsed tor disemb sr rel pre s3 o3 s5 o5 _ Eo _ P R E3 E5 -> -> _].
  - apply inert_refl.
  - destruct (release_caps_refs _ _ _ _ _ E) as [K Rl]. pose proof (return_open_xkept _ _ _ _ _ _ Eo) as X.
    pose proof (eq_trans (f_equal aq K) (f_equal aq X)) as A. injection A as A1 A2.
    exact (conj A1 (conj A2 (noret_quiet _ (quiet_rel _ Rl)))).
  - pose proof (return_open_xkept _ _ _ _ _ _ Eo) as X.
    destruct (return_parsed_kept _ _ _ _ _ _ _ _ P) as (sb & Kb & (em & g & al & ->) & D).
    destruct (return_resolved_kept _ _ _ _ _ _ _ R) as (hs & Kr).
    destruct (release_caps_refs _ _ _ _ _ E3) as [K3 R3]. destruct (release_caps_refs _ _ _ _ _ E5) as [K5 R5].
    pose proof (eq_trans (f_equal aq K5) (eq_trans (f_equal aq K3) (eq_trans (f_equal aq Kr) (eq_trans (f_equal aq Kb) (f_equal aq X))))) as A.
    injection A as A1 A2. split; [exact A1|split; [exact A2|]].
    apply noret_app; [apply noret_disemb, D|]. apply noret_cons; [reflexivity|].
    apply noret_app; [apply noret_app; [destruct R; subst pre; nr|apply noret_quiet, quiet_rel, R3]|apply noret_quiet, quiet_rel, R5].
Qed.

(* [inert] when answers and queue are unchanged by computation and the output is an explicit list *)
Ltac it := first [ apply inert_refl | apply inert_core; [reflexivity|nr] | (split; [reflexivity|split; [reflexivity|nr]]) ].

Lemma handle_release_inert : forall id n s s0 o0 ab, handle_release cfg_fixed id n s = Ok (s0, o0, ab) -> inert s o0 s0.
Proof.
  intros id n s s0 o0 ab H. unfold handle_release in H.
  pose proof (frame_xkept _ _ (release_export_xkept id n s)) as F. destruct (release_export id n s) as [[s1 oc] err]. simpl in F.
  destruct err; [inversion H; subst; it|].
  destruct oc as [x|]; [|inversion H; subst; apply inert_frame; [exact F|apply noret_nil]].
  unbind H as [s2 o] eqn:E. inversion H; subst.
  apply release_cap_inv in E. destruct E as [C Q].
  change o0 with ([] ++ o0). eapply inert_trans; [apply inert_frame; [exact F|apply noret_nil]|apply inert_core; [exact C|apply noret_quiet; exact Q]].
Qed.

Lemma handle_disembargo_inert : forall tg cx s s0 o0 ab, handle_disembargo cfg_fixed tg cx s = Ok (s0, o0, ab) -> inert s o0 s0.
Proof.
  intros tg cx s s0 o0 ab H. unfold handle_disembargo in H.
  destruct (parse_target tg); [|inversion H; subst; it].
  destruct cx as [i|e|]; [inversion H; subst; it| |].
  - destruct (tget e (s_emb s)) as [em|]; [|inversion H; subst; it].
    unbind H as [s1 o1] eqn:H1. injection H as <- <- _. destruct (lift_lifted _ _ _ _ _ _ H1) as [(h & lr & n & lc & ec & ->) Q1].
    split; [reflexivity|split; [reflexivity|apply noret_quiet, quiet_local, Q1]].
  - inversion H; subst. split; [reflexivity|]. split; [reflexivity|]. apply noret_cons; [reflexivity|apply noret_nil].
Qed.

Lemma new_question_inert : forall q s s1 id, new_question q s = Ok (s1, id) -> s_ans s1 = s_ans s /\ s_queue s1 = s_queue s.
Proof.
  intros q s s1 id H. unfold new_question in H.
  destruct (gen_next (s_qgen s)) as [[i g]| |]; cbn [bind] in H; try discriminate.
  destruct (tput i q (s_qs s)) as [t| |]; cbn [bind] in H; try discriminate. inversion H; subst. split; reflexivity.
Qed.

Lemma app_bootstrap_inert : forall s s0 o0 ab, app_bootstrap cfg_fixed s = Ok (s0, o0, ab) -> inert s o0 s0.
Proof.
  intros s s0 o0 ab H. unfold app_bootstrap in H. destruct (s_shut s); [inversion H; subst; it|].
  unbind H as [s1 id] eqn:E. inversion H; subst.
  apply new_question_inert in E. destruct E as [A Q]. split; [exact A|]. split; [exact Q|]. apply noret_cons; [reflexivity|apply noret_nil].
Qed.

(* the tail shared by the two kinds of local calls *)
Lemma send_call_inert : forall s1 n caps (mk : Z -> list desc -> output) s0 o0 ab, (forall id ds c, is_return c (mk id ds) = false) ->
  (do '(s2, id) <- new_question (mkQ None n false [] [] None) s1;
   do '(s3, ds, refs) <- fill_caps cfg_fixed (map (acap_cap s2) caps) s2;
   let s4 := if fx19 cfg_fixed then set_qs (replace_nth (Z.to_nat id) (Some (mkQ None n false [] refs None)) (s_qs s3)) s3 else s3 in
   Ok (s4, [mk id ds], false)) = Ok (s0, o0, ab) -> inert s1 o0 s0.
Proof.
  intros s1 n caps mk s0 o0 ab Hmk H. unbind H as [s2 id] eqn:E. unbind H as [[s3 ds] refs] eqn:E3. injection H as <- <- _.
  apply new_question_inert in E. destruct E as [Aq Qq]. pose proof (fill_caps_xkept _ _ _ _ _ _ E3) as X.
  split; [exact (eq_trans (f_equal kp_ans X) Aq)|]. split; [exact (eq_trans (f_equal kp_queue X) Qq)|].
  apply noret_cons; [intros c; apply Hmk|apply noret_nil].
Qed.

Lemma app_pipe_inert : forall q0 x caps s s0 o0 ab, app_pipe cfg_fixed q0 x caps s = Ok (s0, o0, ab) -> inert s o0 s0.
Proof.
  intros q0 x caps s s0 o0 ab H. unfold app_pipe, next_call in H.
  destruct (s_shut _); [inversion H; subst; it|].
  destruct (tget q0 _) as [q|]; [|inversion H; subst; it].
  destruct (q_fin q); [inversion H; subst; it|].
  exact (send_call_inert _ _ _ (fun id ds => OCall id (OTAns q0 x) ds) _ _ _ (fun _ _ _ => eq_refl) H).
Qed.

Lemma app_call_inert : forall h caps tag s s0 o0 ab, app_call cfg_fixed h caps tag s = Ok (s0, o0, ab) -> inert s o0 s0.
Proof.
  intros h caps tag s s0 o0 ab H. unfold app_call in H.
  destruct (hget h s) as [q0|x|]; [eapply app_pipe_inert; eauto| |unfold next_call in H; inversion H; subst; it].
  destruct x; unfold next_call in H; try (inversion H; subst; it).
  destruct (s_shut _); [inversion H; subst; it|].
  destruct (negb (imp_current i g _)); [inversion H; subst; it|].
  exact (send_call_inert _ _ _ (fun id ds => OCall id (OTImp i) ds) _ _ _ (fun _ _ _ => eq_refl) H).
Qed.

Lemma app_misc_inert : forall e s s0 o0 ab, handler cfg_fixed e s = Ok (s0, o0, ab) ->
  match e with ARelease _ | ACancel _ | AHold _ | AUnhold _ => True | _ => False end -> inert s o0 s0.
Proof.
  intros e s s0 o0 ab H He. destruct e; try contradiction; simpl in H.
  - (* ARelease *) unfold app_release in H. destruct (hget h s) as [qid|x|]; [| |inversion H; subst; it].
    + destruct (s_shut _); [inversion H; subst; it|].
      destruct (tget qid _) as [q|]; [|inversion H; subst; it].
      destruct (q_fin q); [inversion H; subst; it|].
      unfold cancel_question in H. simpl in H. inversion H; subst. split; [reflexivity|]. split; [reflexivity|]. apply noret_cons; [reflexivity|apply noret_nil].
    + unbind H as [s1 o] eqn:E. inversion H; subst.
      apply release_cap_inv in E. destruct E as [C Q]. apply inert_core; [rewrite C; reflexivity|apply noret_quiet; exact Q].
  - (* ACancel *) unfold app_cancel in H. destruct (s_shut s); [inversion H; subst; it|].
    destruct (tget q (s_qs s)) as [qq|]; [|inversion H; subst; it].
    destruct (q_fin qq || (q_call qq <? 0) || _); [inversion H; subst; it|].
    unfold cancel_question in H. simpl in H. inversion H; subst. split; [reflexivity|]. split; [reflexivity|].
    apply noret_cons; [reflexivity|]. apply noret_cons; [reflexivity|apply noret_nil].
  - (* AHold *) unfold app_hold, next_call in H.
    assert (N1 : forall n c, noret [LAppRes n c]) by (intros; apply noret_cons; [reflexivity|apply noret_nil]).
    destruct (hget h _) as [q0|x|]; try (inversion H; subst; split; [reflexivity|split; [reflexivity|apply N1]]).
    destruct x; try (inversion H; subst; split; [reflexivity|split; [reflexivity|apply N1]]).
    destruct (s_shut _ || _); [inversion H; subst; split; [reflexivity|split; [reflexivity|apply N1]]|].
    unbind H as [s2 id] eqn:E. inversion H; subst.
    apply new_question_inert in E. destruct E as [A Q]. split; [exact A|]. split; [exact Q|apply noret_nil].
  - (* AUnhold *) unfold app_unhold in H.
    destruct (find_held n (s_qs s) 0) as [[qid q]|]; [|inversion H; subst; it].
    destruct (q_held q) as [[[i g] cs]|]; [|inversion H; subst; it].
    destruct (s_shut s); [inversion H; subst; it|].
    match type of H with context [if ?c then _ else _] => destruct c end.
    + unbind H as [s3 o3] eqn:H3. injection H as <- <- _. destruct (imp_shutdown_refs _ _ _ _ _ _ H3) as [K Q3].
      split; [exact (f_equal kp_ans K)|split; [exact (f_equal kp_queue K)|apply noret_cons; [reflexivity|apply noret_quiet, quiet_rel, Q3]]].
    + inversion H; subst. split; [reflexivity|]. split; [reflexivity|]. apply noret_cons; [reflexivity|apply noret_nil].
Qed.

Lemma handler_rbal : forall e s s0 o0 ab, handler cfg_fixed e s = Ok (s0, o0, ab) -> live s -> J s ->
  J s0 /\ rbal (dcr s e) s o0 s0.
Proof.
  intros e s s0 o0 ab H L Jh.
  assert (TRIV : forall o, noret o -> Ok (s, o, false) = Ok (s0, o0, ab) -> J s0 /\ rbal d0 s o0 s0).
  { intros o N E. inversion E; subst. split; [exact Jh|apply rbal_same; [reflexivity|exact N]]. }
  assert (IN : inert s o0 s0 -> J s0 /\ rbal d0 s o0 s0) by (apply inert_result; exact Jh).
  destruct e; simpl in H; unfold dcr; simpl creates;
    try (apply (TRIV [] noret_nil H)).
  - eapply handle_bootstrap_h; eauto.
  - apply (handle_call_h _ _ _ _ _ _ _ _ _ _ H L Jh).
  - apply IN. eapply handle_return_inert; eauto.
  - eapply handle_finish_h; eauto.
  - apply IN. eapply handle_release_inert; eauto.
  - apply IN. eapply handle_disembargo_inert; eauto.
  - apply (TRIV [OUnimpl]); [nr|exact H].
  - apply IN. eapply app_bootstrap_inert; eauto.
  - apply IN. eapply app_call_inert; eauto.
  - apply IN. eapply app_pipe_inert; eauto.
  - eapply app_return_h; eauto.
  - apply IN. eapply (app_misc_inert (ARelease h)); eauto.
  - apply IN. eapply (app_misc_inert (ACancel q)); eauto.
  - apply IN. eapply (app_misc_inert (AHold h)); eauto.
  - apply IN. eapply (app_misc_inert (AUnhold n)); eauto.
Qed.

Lemma do_shutdown_noret : forall abort s s1 o, do_shutdown cfg_fixed abort s = Ok (s1, o) -> noret o.
Proof.
  intros abort s s1 o H id. destruct (do_shutdown_out _ _ _ _ H) as (o' & -> & D). rewrite returns_app. unfold returns at 1.
  rewrite (filter_none is_down _ o'); [destruct abort; reflexivity| |exact D]. intros [] Hx; try contradiction Hx; reflexivity.
Qed.

Lemma noret_app_out : forall o, Forall is_app o -> noret o.
Proof. intros o H id. unfold returns. rewrite (filter_none is_app _ o); [reflexivity| |exact H]. intros [] Hx; try contradiction Hx; reflexivity. Qed.

Lemma returns_rev : forall id o, returns id (rev o) = returns id o.
Proof.
  intros id o. induction o as [|x o IH]; [reflexivity|]. simpl. rewrite returns_app, IH. unfold returns. simpl.
  destruct (is_return id x); simpl; lia.
Qed.

(* the invariant of histories: [cr id] counts the Bootstrap / Call messages accepted with id,
   [out] is everything sent so far *)
Definition hinv (s : state) (cr : Z -> nat) (out : list output) : Prop :=
  (s_shut s = false -> J s /\ forall id, (returns id out + pending id s = cr id)%nat) /\
  (forall id, (returns id out <= cr id)%nat).

Definition cr_step (s : state) (e : event) (cr : Z -> nat) : Z -> nat :=
  fun x => (cr x + (if s_shut s then 0 else dcr s e x))%nat.

Lemma pending_shut : forall s id, tables_empty s -> pending id s = 0%nat.
Proof. intros s id (_ & A & _). unfold pending. rewrite A. reflexivity. Qed.

Lemma step_hinv : forall s e W cr out s1 o, sinv s W -> hinv s cr out -> W + ev_work e < LIM -> env_ok s e = true ->
  step cfg_fixed s e = Ok (s1, o) -> hinv s1 (cr_step s e cr) (out ++ o).
Proof.
  intros s e W cr out s1 o I [HL HU] Hb Henv Hstep. unfold cr_step.
  assert (DOWN : s_shut s1 = true -> noret o -> hinv s1 (fun x => (cr x + (if s_shut s then 0 else dcr s e x))%nat) (out ++ o)).
  { intros S1 N. split; [rewrite S1; discriminate|]. intros id. rewrite returns_app, N. specialize (HU id). lia. }
  destruct (step_inv _ _ _ _ _ I Hb Henv Hstep)
    as [Hs _ -> ->|s0 ab S Hp H [S0 _] ->|abort s2 _ _ H _ S2 ->|s0 L H _ _ ->|s0 o0 s2 o2 L H _ H2 _ S2 -> ->].
  - apply DOWN; [exact Hs|nr].
  - apply DOWN; [exact S0|exact (noret_app_out _ (proj2 (handler_shut_inv _ _ _ H S Hp)))].
  - apply DOWN; [exact S2|eapply do_shutdown_noret; eauto].
  - pose proof (live_shut _ L) as Hs. rewrite Hs. destruct (HL Hs) as [Jh EQ].
    destruct (handler_rbal _ _ _ _ _ H L Jh) as [J0 B0].
    split; [intros _; split; [exact J0|]|]; intros id; rewrite returns_app; specialize (B0 id); specialize (EQ id);
      [change (pending id (set_out (rev o ++ s_out s0) s0)) with (pending id s0)|]; lia.
  - pose proof (live_shut _ L) as Hs. rewrite Hs. destruct (HL Hs) as [Jh EQ].
    destruct (handler_rbal _ _ _ _ _ H L Jh) as [_ B0].
    split; [cbn [s_shut set_out]; rewrite S2; discriminate|].
    intros id. rewrite !returns_app, (do_shutdown_noret _ _ _ _ H2). specialize (B0 id). specialize (EQ id). lia.
Qed.

(* the run of a history with its ghosts *)
Fixpoint run_h (s : state) (evs : list event) (cr : Z -> nat) (out : list output) : res (state * (Z -> nat) * list output) :=
  match evs with
  | [] => Ok (s, cr, out)
  | e :: r => if env_ok s e then do '(s1, o) <- step cfg_fixed s e; run_h s1 r (cr_step s e cr) (out ++ o) else Ok (s, cr, out)
  end.

Lemma run_h_inv : forall evs s W cr out s' cr' out', sinv s W -> hinv s cr out -> W + work evs < LIM ->
  run_h s evs cr out = Ok (s', cr', out') -> hinv s' cr' out' /\ exists W', sinv s' W'.
Proof.
  induction evs as [|e evs IH]; intros s W cr out s' cr' out' I Hh Hb H; simpl in H.
  - inversion H; subst. split; [exact Hh|eauto].
  - destruct (env_ok s e) eqn:Henv; [|inversion H; subst; split; [exact Hh|eauto]].
    pose proof (ev_work_nonneg e) as He. pose proof (work_nonneg evs) as Hw. simpl in Hb.
    destruct (step_ok s e W I ltac:(lia) Henv) as (s1 & o & H1 & I1). rewrite H1 in H. cbn [bind] in H.
    eapply (IH s1 (W + ev_work e)); [exact I1| |lia|exact H].
    eapply step_hinv; eauto. lia.
Qed.

Lemma hinv_init : forall boot, hinv (init boot) (fun _ => 0%nat) [].
Proof.
  intros boot. split.
  - intros _. split; [split; [constructor|split; [constructor|intros id []]]|]. intros id. reflexivity.
  - intros id. unfold returns. simpl. lia.
Qed.

(* C06 one_return: in every history, for every answer id: the Returns sent for it never exceed the
   Bootstrap / Call messages accepted with it, and while the connection is up every accepted one
   has got exactly one Return, except the one (at most) that is still owing it -- i.e. whose
   target has not produced its outcome *)
Theorem one_return : forall boot evs s cr out, work evs < LIM ->
  run_h (init boot) evs (fun _ => 0%nat) [] = Ok (s, cr, out) ->
  forall id, (returns id out <= cr id)%nat /\
             (s_shut s = false -> (returns id out + pending id s = cr id)%nat /\ (pending id s <= 1)%nat).
Proof.
  intros boot evs s cr out Hb H id.
  destruct (run_h_inv evs (init boot) 0 _ _ _ _ _ (sinv_init boot) (hinv_init boot) ltac:(lia) H) as [[HL HU] _].
  split; [apply HU|]. intros Hs. destruct (HL Hs) as [_ EQ]. split; [apply EQ|].
  unfold pending. destruct (aget id (s_ans s)) as [a|]; [destruct (a_ret a)|]; lia.
Qed.

(* the Return carries the outcome the target produced: results for a normal return, an exception
   for an exception; afterwards the answer owes nothing *)
Lemma send_exception_in : forall id a s s1 o ab, send_exception cfg_fixed id a s = Ok (s1, o, ab) -> s_shut s = false ->
  In (OReturnExc id) o.
Proof.
  intros id a s s1 o ab H Hs. unfold send_exception in H. rewrite Hs in H. destruct (a_fin a).
  - destruct (destroy cfg_fixed id _ _) as [[[s2 o2] e2]| |]; simpl in H; try discriminate. inversion H; subst. left. reflexivity.
  - inversion H; subst. left. reflexivity.
Qed.

Lemma send_return_in : forall id a k rct s s1 o ab, send_return cfg_fixed id a k rct s = Ok (s1, o, ab) -> s_shut s = false ->
  exists ds, In (OReturnRes id ds) o.
Proof.
  intros id a k rct s s1 o ab H Hs. unfold send_return in H.
  destruct (fill_caps cfg_fixed (rct_caps rct) s) as [[[s0 ds] refs]| |]; cbn [bind] in H; try discriminate.
  rewrite Hs in H. exists ds. destruct (a_fin a).
  - destruct (destroy cfg_fixed id _ _) as [[[s2 o2] e2]| |]; simpl in H; try discriminate. inversion H; subst. left. reflexivity.
  - inversion H; subst. left. reflexivity.
Qed.

Lemma proc_settled : forall id s o s1, proc id s o s1 -> returns id o = 1%nat -> pending id s1 = 0%nat.
Proof.
  intros id s o s1 ([(a1 & A & [[R1 R2]|[R1 R2]])|[A R]] & _) HR; unfold pending; rewrite A.
  - rewrite aget_aput, Z.eqb_refl, R1. reflexivity.
  - rewrite R2 in HR. discriminate.
  - rewrite aget_adel, Z.eqb_refl. reflexivity.
Qed.

Theorem app_return_result : forall k r s s0 o0 ab id a, app_return cfg_fixed k r s = Ok (s0, o0, ab) -> live s ->
  find_running k (s_ans s) = Some (id, a) ->
  match r with ARExc => In (OReturnExc id) o0 | _ => exists ds, In (OReturnRes id ds) o0 end.
Proof.
  intros k r s s0 o0 ab id a H L Ef. rewrite (app_return_eq _ _ _ _ _ _ Ef) in H. unbind H as [s1 o1] eqn:E1.
  apply release_caps_inv in E1. destruct E1 as [C1 _].
  assert (L1 : live s1) by (eapply live_core; eauto).
  apply find_running_some in Ef. destruct Ef as [_ Hin].
  assert (L1' : live (ret_start id a s1)).
  { apply live_set_ans; [exact L1|]. apply ans_ok_aput; [apply (ans_of_live _ L1)|]. exact (ans_of_live _ L _ _ Hin). }
  destruct (ret_content r) as [[kc rct]|] eqn:Er; cbv zeta in H;
    unbind H as [[s3 o3] b3] eqn:E3; unbind H as [[s4 o4] b4] eqn:E4; injection H as <- <- _.
  - assert (L3 : live s3).
    { match type of E3 with drain _ ?r ?k ?rc ?l1 ?l2 ?sx = _ =>
        assert (Lx : live sx) by (eapply live_core; [exact L1'|apply core_addrefs_local]);
        pose proof (drain_ok r k rc l1 l2 sx Lx) as P; rewrite E3 in P; apply P end. }
    destruct (send_return_in _ _ _ _ _ _ _ _ E4 (live_shut _ L3)) as [ds Hds].
    destruct r; try discriminate Er; exists ds; apply in_or_app; right; apply in_or_app; right; exact Hds.
  - assert (L3 : live s3).
    { match type of E3 with reject_all _ ?l ?sx = _ => pose proof (reject_all_ok l sx L1') as P; rewrite E3 in P; apply P end. }
    destruct r; try discriminate Er. apply in_or_app. right. apply in_or_app. right. eapply send_exception_in; eauto. apply L3.
Qed.
